(* Facts about Core/VTime.v.

   The two run loops are instances of one relation, [looped]; a property kept by
   [run_item] and the top-level commands holds after every function of the model
   ([run_walk]).  In particular every function is a composition of a few primitive
   transitions [prim], so an invariant of [prim] holds in every state any history
   can reach, whatever the fuel.
   Then the invariants [Inv1] .. [Inv7] (queue order, run order, clock,
   cancellation, conservation), collected in [Inv]; termination of histories
   without periodic work ([run_terminates]); the vocabulary of calm work
   ([calm_cmd], [calm_q], [new_pops_ok]: its lemmas are in Core/VTAdvance.v); the
   argument check of advance_to, [sleep_spec]; the witness histories of Props/C28.v
   and C29.v.  *)
From RxVerif Require Import Base.Prelude Core.VTime.
From Coq Require Import Sorting.Sorted Sorting.Permutation.

Local Open Scope Z_scope.

Definition quiet (s : st) (e : event) : Prop :=
  match e with
  | EPop _ | ECancel _ => False
  | EClock k => k = clock s
  | ETick pid _ k =>      (* a periodic action is called only while its subscription is not disposed *)
      k = clock s /\ exists pi, nth_error (pers s) pid = Some pi /\ p_disposed pi = false
  | EPDispose pid => exists pi, nth_error (pers s) pid = Some pi /\ p_disposed pi = true
  | _ => True
  end.

Definition pop_clock_ok (s : st) (it : item) (newclk : Z) (bumped : bool) : Prop :=
  if clock s <? i_due it then newclk = i_due it /\ bumped = false
  else (bumped = false /\ newclk = clock s) \/
       (bumped = true /\ exists k, newclk = clock s + bump_of k).

Definition pop_state (s : st) (it : item) (q' : list item) (newclk : Z) (bumped : bool) : st :=
  add_log (set_clock (dequeue s q') newclk)
          (mkpop s it newclk bumped (negb (memb (i_id it) (cancelled s)))).

Inductive prim : st -> st -> Prop :=
  | P_enq s due p : prim s (enqueue s due p)
  | P_cancel s r : prim s (cancel_id s r)
  | P_enabled s b : prim s (set_enabled s b)
  | P_clock s c : clock s <= c -> prim s (set_clock s c)
  | P_per_add s pi : prim s (set_pers s (pers s ++ [pi]))
  | P_per_upd s pid pi pi' :      (* period and action are fixed; a disposed subscription stays disposed *)
      nth_error (pers s) pid = Some pi -> p_period pi' = p_period pi -> p_fn pi' = p_fn pi ->
      (p_disposed pi = true -> p_disposed pi' = true) ->
      prim s (set_pers s (set_nth pid pi' (pers s)))
  | P_log s e : quiet s e -> prim s (add_log s e)
  | P_pop s it q' newclk bumped :
      queue s = it :: q' -> pop_clock_ok s it newclk bumped ->
      prim s (pop_state s it q' newclk bumped).

Inductive steps (s : st) : st -> Prop :=
  | steps_refl : steps s s
  | steps_snoc s' s'' : steps s s' -> prim s' s'' -> steps s s''.

Lemma steps_one s s' : prim s s' -> steps s s'.
Proof. intro H. eapply steps_snoc; [apply steps_refl | exact H]. Qed.

Lemma steps_trans s s' s'' : steps s s' -> steps s' s'' -> steps s s''.
Proof. intros H1 H2. induction H2; [assumption|]. eapply steps_snoc; eauto. Qed.

Lemma steps_inv (I : st -> Prop) :
  (forall s s', I s -> prim s s' -> I s') ->
  forall s s', steps s s' -> I s -> I s'.
Proof. intros HP s s' H. induction H; intros; eauto. Qed.

Lemma prim_log_grows s s' : prim s s' -> exists more, log s' = more ++ log s.
Proof.
  intro P. destruct P; try (exists []; reflexivity).
  - unfold cancel_id. destruct (r <? next_id s)%nat; [exists [ECancel r]|exists []]; reflexivity.
  - exists [e]. reflexivity.
  - eexists [_]. reflexivity.
Qed.

Lemma steps_log_grows s s' : steps s s' -> exists more, log s' = more ++ log s.
Proof.
  intro H. induction H as [|s1 s2 _ [m1 E1] P]; [exists []; reflexivity|].
  destruct (prim_log_grows _ _ P) as [m2 E2]. exists (m2 ++ m1). rewrite E2, E1, app_assoc. reflexivity.
Qed.

Lemma steps_log_in s s' : steps s s' -> forall e, In e (log s) -> In e (log s').
Proof. intros H e Hin. destruct (steps_log_grows _ _ H) as [more ->]. apply in_or_app. right. exact Hin. Qed.

Local Hint Resolve steps_refl steps_one : vt.
Local Hint Constructors prim : vt.

Definition bstate (r : bres) : st := match r with BOk s | BRaise _ s => s end.
Definition ostate (o : outcome) : st :=
  match o with Finished s | Raised _ s | Deadlock s | OutOfFuel s => s end.

Lemma add_log_steps s e : quiet s e -> steps s (add_log s e).
Proof. auto with vt. Qed.

Lemma steps_log s s' e : steps s s' -> quiet s' e -> steps s (add_log s' e).
Proof. intros H Q. eapply steps_snoc; [exact H | apply P_log; exact Q]. Qed.

Lemma steps_clock s s' c : clock s' <= c -> steps s s' -> steps s (set_clock s' c).
Proof. intros Q H. eapply steps_snoc; [exact H | apply P_clock; exact Q]. Qed.

Lemma add_notes_steps ns : forall s, steps s (add_notes s ns).
Proof.
  induction ns as [|n t IH]; intro s; simpl; [apply steps_refl|].
  apply steps_trans with (add_log s (ENote n)); [apply add_log_steps; exact I | apply IH].
Qed.

Lemma nth_error_set_nth {A} (x y : A) : forall l n, nth_error l n = Some y -> nth_error (set_nth n x l) n = Some x.
Proof.
  induction l as [|z t IH]; intros [|n] H; simpl in *; try discriminate; auto.
Qed.

Lemma nth_error_set_nth_other {A} (x : A) : forall l n m, n <> m -> nth_error (set_nth n x l) m = nth_error l m.
Proof.
  induction l as [|y t IH]; intros [|n] [|m] H; simpl; auto; try congruence.
Qed.

Lemma Forall_set_nth {A} (P : A -> Prop) x : forall l n, P x -> Forall P l -> Forall P (set_nth n x l).
Proof.
  induction l as [|y t IH]; intros [|n] Hx Hl; simpl; auto; inversion Hl; subst; constructor; auto.
Qed.

Lemma add_notes_pers ns : forall s, pers (add_notes s ns) = pers s.
Proof. induction ns as [|n t IH]; intro s; simpl; [reflexivity|]. apply (IH (add_log s (ENote n))). Qed.

Lemma dispose_per_steps s pid : steps s (dispose_per s pid).
Proof.
  unfold dispose_per. destruct (nth_error (pers s) pid) as [pi|] eqn:Hn; [|apply steps_refl].
  destruct (p_disposed pi); [apply steps_refl|].
  eapply steps_snoc; [|apply P_cancel].
  apply steps_log.
  - apply steps_one. eapply P_per_upd; eauto.
  - simpl. eexists. split; [eapply nth_error_set_nth; eassumption | reflexivity].
Qed.

Lemma exec_cmd_steps s c : steps s (bstate (exec_cmd s c)).
Proof.
  destruct c; simpl; auto with vt.
  - (* SSleep *) destruct (d <? 0) eqn:E; simpl.
    + apply add_log_steps; exact I.
    + apply steps_one, P_clock. apply Z.ltb_ge in E. lia.
  - (* SRaise *) apply add_log_steps; exact I.
  - (* SHandled *) assert (steps s (add_log (add_log s (ERaise e)) (EHandler e))).
    { apply steps_log; [apply steps_log; [apply steps_refl | exact I] | exact I]. }
    destruct v; assumption.
  - (* SNote *) apply add_log_steps; exact I.
  - (* SPeriodic *) eapply steps_snoc; [apply steps_one, P_per_add | apply P_enq].
  - (* SPCancel *) apply dispose_per_steps.
Qed.

(* a body composes its commands, up to the first that raises *)
Lemma exec_body_compose (P : st -> st -> Prop) :
  (forall s, P s s) -> (forall s s' s'', P s s' -> P s' s'' -> P s s'') ->
  (forall s c, P s (bstate (exec_cmd s c))) -> forall b s, P s (bstate (exec_body s b)).
Proof.
  intros Hr Ht Hc. induction b as [|c t IH]; intro s; simpl; [apply Hr|].
  pose proof (Hc s c) as H. destruct (exec_cmd s c) as [s'|e s']; simpl in *; [|exact H].
  exact (Ht _ _ _ H (IH s')).
Qed.

Lemma exec_body_steps b s : steps s (bstate (exec_body s b)).
Proof. apply (exec_body_compose steps steps_refl steps_trans exec_cmd_steps). Qed.

Lemma resched_disposed_steps s pid p : steps s (bstate (resched_disposed s pid p)).
Proof.
  unfold resched_disposed; simpl.
  eapply steps_snoc; [|apply P_cancel].
  eapply steps_snoc; [apply dispose_per_steps | apply P_enq].
Qed.

(* the [periodic] closure of a live subscription, after it has logged its tick *)
Lemma invoke_live_steps s pid stt pi : nth_error (pers s) pid = Some pi -> p_disposed pi = false ->
  steps (add_log s (ETick pid stt (clock s))) (bstate (invoke s (PPer pid stt))).
Proof.
  intros Hn Hd. simpl. rewrite Hn, Hd. set (s1 := add_log s (ETick pid stt (clock s))).
  destruct (plookup (p_fn pi) stt) as [ns sl st'|ns|ns e|ns e v]; simpl.
  - eapply steps_snoc; [|apply P_enq]. set (s2 := add_notes s1 ns).
    apply steps_snoc with (s' := set_clock s2 (clock s2 + Z.of_N sl)).
    + apply steps_clock; [lia | apply add_notes_steps].
    + eapply (P_per_upd (set_clock s2 (clock s2 + Z.of_N sl)) pid pi); simpl; auto; try (intro; congruence).
      unfold s2. rewrite (add_notes_pers ns s1). exact Hn.
  - eapply steps_trans; [apply add_notes_steps | apply resched_disposed_steps].
  - eapply steps_trans; [|apply dispose_per_steps]. apply steps_log; [apply add_notes_steps | exact I].
  - assert (H2 : steps s1 (add_log (add_log (add_notes s1 ns) (ERaise e)) (EHandler e))).
    { apply steps_log; [apply steps_log|]; try exact I. apply add_notes_steps. }
    destruct v; simpl; (eapply steps_trans; [exact H2|]); [apply resched_disposed_steps | apply dispose_per_steps].
Qed.

Lemma invoke_steps s p : steps s (bstate (invoke s p)).
Proof.
  destruct p as [l b|pid stt]; [apply exec_body_steps|].
  destruct (nth_error (pers s) pid) as [pi|] eqn:Hn; [|simpl; rewrite Hn; apply steps_refl].
  destruct (p_disposed pi) eqn:Hd; [simpl; rewrite Hn, Hd; apply steps_refl|].
  eapply steps_trans; [|exact (invoke_live_steps s pid stt pi Hn Hd)].
  apply add_log_steps. simpl. split; [reflexivity|]. exists pi. split; assumption.
Qed.

Lemma run_item_steps s it q' newclk bumped :
  queue s = it :: q' -> pop_clock_ok s it newclk bumped ->
  steps s (bstate (run_item s it q' newclk bumped)).
Proof.
  intros Hq Hc. unfold run_item.
  assert (H : steps s (pop_state s it q' newclk bumped)) by (apply steps_one, P_pop; assumption).
  unfold pop_state in H.
  destruct (negb (memb (i_id it) (cancelled s))); simpl; [|exact H].
  eapply steps_trans; [exact H | apply invoke_steps].
Qed.

(* Both run loops, as one relation: what a loop run with [fuel] from [s] can return.  [fin]: the
   normal exit; [stop it]: the loop leaves [it], the head of the queue, where it is (never, for
   start(); due after the target, for advance_to); [popok]: which clock and bump flag a dequeue
   may carry; [dead]: the spin bump deadlocks.  (An over-approximation: that a dequeue happens
   only while the flag is set is not recorded.)  What holds of one run of a loop is proved by
   induction on this relation; the case analysis of the loop bodies is in [start_loop_looped] and
   [advance_loop_looped].  (The side-by-side simulation of Core/CatchSchedSim.v and the closed
   form of Core/PeriodicFacts.v unfold the loops themselves.) *)
Section Loop.
Variables (fin : st -> outcome) (stop : item -> bool)
          (popok : st -> item -> Z -> bool -> Prop) (dead : bool).

Inductive looped : nat -> st -> outcome -> Prop :=
  | L_exit fuel s o :
      enabled s = false \/ match queue s with [] => True | it :: _ => stop it = true end ->
      o = fin s -> looped fuel s o
  | L_fuel s it q' : queue s = it :: q' -> looped 0 s (OutOfFuel s)
  | L_dead fuel s : dead = true -> looped (S fuel) s (Deadlock s)
  | L_raise fuel s it q' newclk bumped e s1 :
      queue s = it :: q' -> popok s it newclk bumped ->
      run_item s it q' newclk bumped = BRaise e s1 -> looped (S fuel) s (Raised e s1)
  | L_ok fuel s it q' newclk bumped s1 o :
      queue s = it :: q' -> popok s it newclk bumped ->
      run_item s it q' newclk bumped = BOk s1 -> looped fuel s1 o -> looped (S fuel) s o.

Lemma looped_item fuel s it q' newclk bumped (k : st -> outcome) :
  queue s = it :: q' -> popok s it newclk bumped -> (forall s1, looped fuel s1 (k s1)) ->
  looped (S fuel) s match run_item s it q' newclk bumped with
                    | BOk s1 => k s1 | BRaise e s1 => Raised e s1 end.
Proof.
  intros Hq Hp Hk. destruct (run_item s it q' newclk bumped) as [s1|e s1] eqn:E.
  - eapply L_ok; eauto.
  - eapply L_raise; eauto.
Qed.

End Loop.
Arguments looped_item {fin stop popok dead fuel s it q' newclk bumped} k.

Definition start_looped (c : cfg) : nat -> st -> outcome -> Prop :=
  looped (fun s => Finished (set_enabled s false)) (fun _ => false) pop_clock_ok (c_prop_bump c).

Lemma start_loop_looped c fuel : forall s sp, start_looped c fuel s (start_loop c fuel s sp).
Proof.
  induction fuel as [|fuel IH]; intros s sp; cbn [start_loop];
    (destruct (enabled s) eqn:He; cbn [negb]; [|eapply L_exit; [left; exact He | reflexivity]]);
    (destruct (queue s) as [|it q'] eqn:Hq; [eapply L_exit; [right; rewrite Hq; exact I | reflexivity]|]).
  - eapply L_fuel; exact Hq.
  - assert (Hstep : forall newclk bumped sp', pop_clock_ok s it newclk bumped ->
      start_looped c (S fuel) s match run_item s it q' newclk bumped with
                                | BOk s' => start_loop c fuel s' sp'
                                | BRaise e s' => Raised e s' end).
    { intros newclk bumped sp' Hc. apply (looped_item (fun s1 => start_loop c fuel s1 sp') Hq Hc).
      intro s1. apply IH. }
    destruct (clock s <? i_due it) eqn:E1.
    + apply Hstep. unfold pop_clock_ok. rewrite E1. auto.
    + destruct (MAX_SPINNING <? sp)%nat.
      * destruct (c_kind c).
        -- apply Hstep. unfold pop_clock_ok. rewrite E1. right. split; [reflexivity|]. exists Numeric. reflexivity.
        -- destruct (c_prop_bump c) eqn:Eb; cbn [clock_property]; [apply L_dead; exact Eb|].
           apply Hstep. unfold pop_clock_ok. rewrite E1. right. split; [reflexivity|]. exists Datetime. reflexivity.
      * apply Hstep. unfold pop_clock_ok. rewrite E1. left. auto.
Qed.

(* advance_to(t) dequeues only what is due by [t], never bumps, and runs it at max(clock, due) *)
Definition adv_popok (t : Z) (s : st) (it : item) (newclk : Z) (bumped : bool) : Prop :=
  i_due it <= t /\ bumped = false /\ newclk = Z.max (clock s) (i_due it).

Definition advance_looped (t : Z) : nat -> st -> outcome -> Prop :=
  looped (fun s => finish_adv s t) (fun it => t <? i_due it) (adv_popok t) false.

Lemma advance_loop_looped t fuel : forall s, advance_looped t fuel s (advance_loop fuel s t).
Proof.
  induction fuel as [|fuel IH]; intros s; cbn [advance_loop];
    (destruct (enabled s) eqn:He; cbn [negb]; [|eapply L_exit; [left; exact He | reflexivity]]);
    (destruct (queue s) as [|it q'] eqn:Hq; [eapply L_exit; [right; rewrite Hq; exact I | reflexivity]|]);
    (destruct (t <? i_due it) eqn:Et; [eapply L_exit; [right; rewrite Hq; exact Et | reflexivity]|]).
  - eapply L_fuel; exact Hq.
  - apply (looped_item (fun s1 => advance_loop fuel s1 t) Hq); [|apply IH].
    apply Z.ltb_ge in Et. repeat split; [exact Et|]. destruct (Z.ltb_spec (clock s) (i_due it)); lia.
Qed.

Lemma adv_popok_clock t s it newclk bumped : adv_popok t s it newclk bumped -> pop_clock_ok s it newclk bumped.
Proof.
  intros (_ & -> & ->). unfold pop_clock_ok. destruct (Z.ltb_spec (clock s) (i_due it)); [split|left; split]; lia.
Qed.

(* Properties that hold after every function of the model without being invariants of [prim]
   (the queue holds only such-and-such payloads; something is true between two calls of an action
   but not inside one): it is enough that [run_item], the top-level commands and the bookkeeping
   around them keep [I]; [E e s] is what is known of an exception e leaving in state s.
   [advance_to]'s own argument check raises AOOR, of which nothing is known ([owalk_t]). *)
Section Walk.
Variables (I : st -> Prop) (E : Z -> st -> Prop) (C : tcmd -> Prop).

Definition bwalk (r : bres) : Prop :=
  match r with BOk s => I s | BRaise e s => I s /\ E e s end.
Definition owalk (o : outcome) : Prop :=
  match o with Raised e s => I s /\ E e s | o => I (ostate o) end.
Definition owalk_t (o : outcome) : Prop :=
  match o with Raised e s => I s /\ (E e s \/ e = AOOR) | o => I (ostate o) end.

Lemma owalk_weaken o : owalk o -> owalk_t o.
Proof. destruct o; simpl; tauto. Qed.

Lemma owalk_t_state o : owalk_t o -> I (ostate o).
Proof. destruct o; simpl; tauto. Qed.

Hypothesis I_enabled : forall s b, I s -> I (set_enabled s b).
Hypothesis I_clock : forall s c, clock s <= c -> I s -> I (set_clock s c).
Hypothesis I_run_item : forall s it q' newclk bumped,
  queue s = it :: q' -> pop_clock_ok s it newclk bumped -> I s -> bwalk (run_item s it q' newclk bumped).

Lemma looped_walk fin stop (popok : st -> item -> Z -> bool -> Prop) dead fuel s o :
  (forall s, I s -> owalk (fin s)) ->
  (forall s it newclk bumped, popok s it newclk bumped -> pop_clock_ok s it newclk bumped) ->
  looped fin stop popok dead fuel s o -> I s -> owalk o.
Proof.
  intros Hfin Hpop.
  induction 1 as [fuel s o _ ->|s it q' _|fuel s _|fuel s it q' newclk bumped e s1 Hq Hp Er
                  |fuel s it q' newclk bumped s1 o Hq Hp Er _ IH]; intro H; try exact H.
  - apply Hfin, H.
  - pose proof (I_run_item s it q' newclk bumped Hq (Hpop _ _ _ _ Hp) H) as W. rewrite Er in W. exact W.
  - apply IH. pose proof (I_run_item s it q' newclk bumped Hq (Hpop _ _ _ _ Hp) H) as W. rewrite Er in W. exact W.
Qed.

Lemma start_loop_walk c fuel s sp : I s -> owalk (start_loop c fuel s sp).
Proof.
  apply (looped_walk (fun s0 => Finished (set_enabled s0 false)) _ _ _ _ _ _ (fun s0 => I_enabled s0 false)
                     (fun _ _ _ _ H => H) (start_loop_looped c fuel s sp)).
Qed.

Lemma start_walk c fuel s : I s -> owalk (start c fuel s).
Proof.
  intro H. unfold start. destruct (enabled s); [exact H|]. apply start_loop_walk, I_enabled, H.
Qed.

Lemma finish_adv_walk s t : I s -> owalk (finish_adv s t).
Proof.
  intro H. unfold finish_adv; simpl. apply I_enabled.
  destruct (Z.ltb_spec (clock s) t); [apply I_clock; [lia|]|]; exact H.
Qed.

Lemma advance_loop_walk fuel t s : I s -> owalk (advance_loop fuel s t).
Proof.
  apply (looped_walk (fun s0 => finish_adv s0 t) _ _ _ _ _ _ (fun s0 => finish_adv_walk s0 t)
                     (adv_popok_clock t) (advance_loop_looped t fuel s)).
Qed.

Lemma advance_to_walk fuel s t : I s -> owalk_t (advance_to fuel s t).
Proof.
  intro H. unfold advance_to. destruct (t <? clock s); [split; auto|].
  destruct ((clock s =? t) || enabled s); [exact H|].
  apply owalk_weaken, advance_loop_walk, I_enabled, H.
Qed.

Hypothesis I_exec : forall s k, C (TDo k) -> I s -> bwalk (exec_cmd s k).
Hypothesis I_silent : forall s t, I s -> I (silent s t).
Hypothesis I_clock_log : forall s, I s -> I (add_log s (EClock (clock s))).
Hypothesis I_exc_log : forall s e, I s -> E e s \/ e = AOOR -> I (add_log s (EExc e)).

Lemma step_t_walk c fuel s cmd : C cmd -> I s -> owalk_t (step_t c fuel s cmd).
Proof.
  intros Hc H. destruct cmd as [k| | |t|d]; simpl.
  - pose proof (I_exec s k Hc H) as W. destruct (exec_cmd s k); simpl in *; tauto.
  - apply owalk_weaken, start_walk, H.
  - apply owalk_weaken, start_walk. repeat apply I_silent. exact H.
  - apply advance_to_walk, H.
  - apply advance_to_walk, H.
Qed.

Theorem run_walk c fuel : forall cs s, Forall C cs -> I s -> I (state_of (run c fuel s cs)).
Proof.
  induction cs as [|cmd t IH]; intros s Hcs H; simpl; [exact H|]. inversion Hcs as [|? ? Hc Ht]; subst.
  pose proof (step_t_walk c fuel s cmd Hc H) as W.
  destruct (step_t c fuel s cmd) as [s'|e s'|s'|s']; simpl in *; try exact W; apply IH; auto.
  destruct W as [W1 W2]. apply (I_clock_log (add_log s' (EExc e))), I_exc_log; assumption.
Qed.
End Walk.

(* [steps s0] is such a property: every function of the model composes primitive transitions *)
Section WalkSteps.
Variable s0 : st.

Lemma steps_enabled s b : steps s0 s -> steps s0 (set_enabled s b).
Proof. intro H. exact (steps_snoc _ _ _ H (P_enabled s b)). Qed.

Lemma steps_bwalk s r : steps s0 s -> steps s (bstate r) -> bwalk (steps s0) (fun _ _ => True) r.
Proof. intros H T. pose proof (steps_trans _ _ _ H T). destruct r; simpl; auto. Qed.

Lemma steps_run_item s it q' newclk bumped : queue s = it :: q' -> pop_clock_ok s it newclk bumped ->
  steps s0 s -> bwalk (steps s0) (fun _ _ => True) (run_item s it q' newclk bumped).
Proof. intros Hq Hc H. apply (steps_bwalk s _ H), run_item_steps; assumption. Qed.

Lemma steps_exec s k : steps s0 s -> bwalk (steps s0) (fun _ _ => True) (exec_cmd s k).
Proof. intro H. apply (steps_bwalk s _ H), exec_cmd_steps. Qed.

Lemma steps_silent s t : steps s0 s -> steps s0 (silent s t).
Proof. intro H. exact (steps_snoc _ _ _ H (P_enq s t _)). Qed.
End WalkSteps.

Lemma start_loop_steps c fuel s sp : steps s (ostate (start_loop c fuel s sp)).
Proof.
  apply (owalk_t_state _ (fun _ _ => True)), owalk_weaken,
    (start_loop_walk _ _ (steps_enabled s) (steps_run_item s)), steps_refl.
Qed.

Lemma start_steps c fuel s : steps s (ostate (start c fuel s)).
Proof.
  apply (owalk_t_state _ (fun _ _ => True)), owalk_weaken,
    (start_walk _ _ (steps_enabled s) (steps_run_item s)), steps_refl.
Qed.

Lemma advance_loop_steps fuel t s : steps s (ostate (advance_loop fuel s t)).
Proof.
  apply (owalk_t_state _ (fun _ _ => True)), owalk_weaken,
    (advance_loop_walk _ _ (steps_enabled s) (steps_clock s) (steps_run_item s)), steps_refl.
Qed.

Lemma advance_to_steps fuel s t : steps s (ostate (advance_to fuel s t)).
Proof.
  apply (owalk_t_state _ (fun _ _ => True)),
    (advance_to_walk _ _ (steps_enabled s) (steps_clock s) (steps_run_item s)), steps_refl.
Qed.

Lemma step_t_steps c fuel s cmd : steps s (ostate (step_t c fuel s cmd)).
Proof.
  apply (owalk_t_state _ (fun _ _ => True)),
    (step_t_walk _ _ (fun _ => True) (steps_enabled s) (steps_clock s) (steps_run_item s)
                 (fun x k _ => steps_exec s x k) (steps_silent s)); [exact I | apply steps_refl].
Qed.

Theorem run_steps c fuel cs s : steps s (state_of (run c fuel s cs)).
Proof.
  apply (run_walk _ _ (fun _ => True) (steps_enabled s) (steps_clock s) (steps_run_item s)
                  (fun x k _ => steps_exec s x k) (steps_silent s)).
  - intros x H. apply steps_log; [exact H | reflexivity].
  - intros x e H _. apply steps_log; [exact H | exact I].
  - apply Forall_forall. intros; exact I.
  - apply steps_refl.
Qed.

Theorem run_invariant (I : st -> Prop) :
  (forall s s', I s -> prim s s' -> I s') ->
  forall c fuel s cs, I s -> I (state_of (run c fuel s cs)).
Proof. intros HP c fuel s cs. apply (steps_inv I HP). apply run_steps. Qed.

(* field lemmas for cancel_id (the only primitive defined with an [if]) *)
Lemma cancel_id_fields s r :
  clock (cancel_id s r) = clock s /\ queue (cancel_id s r) = queue s /\ count (cancel_id s r) = count s /\
  enabled (cancel_id s r) = enabled s /\ next_id (cancel_id s r) = next_id s /\
  pers (cancel_id s r) = pers s /\ npops (cancel_id s r) = npops s.
Proof. unfold cancel_id. destruct (r <? next_id s)%nat; simpl; repeat split. Qed.

Fixpoint pops (l : list event) : list poprec :=
  match l with
  | [] => []
  | EPop r :: t => r :: pops t
  | _ :: t => pops t
  end.

Lemma cancel_id_pops s r : pops (log (cancel_id s r)) = pops (log s).
Proof. unfold cancel_id. destruct (r <? next_id s)%nat; reflexivity. Qed.

Lemma add_log_pops s e : quiet s e -> pops (log (add_log s e)) = pops (log s).
Proof. destruct e; simpl; intros; tauto || reflexivity. Qed.

(* What a primitive transition does to the queue and to the dequeue records: nothing (and then
   the counters stay and the clock does not go back), an enqueue, or a dequeue. *)
Lemma prim_view s s' : prim s s' ->
  (queue s' = queue s /\ count s' = count s /\ next_id s' = next_id s /\ npops s' = npops s /\
   pops (log s') = pops (log s) /\ clock s <= clock s') \/
  (exists due p, s' = enqueue s due p) \/
  (exists it q' newclk bumped,
     queue s = it :: q' /\ pop_clock_ok s it newclk bumped /\ s' = pop_state s it q' newclk bumped).
Proof.
  intro P. destruct P as [s due p|s r|s b|s c Hc|s pi|s pid pi pi' _ _ _ _|s e Hq|s it q' newclk bumped Hq Hc].
  - right. left. eauto.
  - left. destruct (cancel_id_fields s r) as (A & B & C & _ & E & _ & G).
    rewrite cancel_id_pops, A, B, C, E, G. repeat split. lia.
  - left. repeat split. simpl. lia.
  - left. repeat split. exact Hc.
  - left. repeat split. simpl. lia.
  - left. repeat split. simpl. lia.
  - left. rewrite (add_log_pops s e Hq). repeat split. simpl. lia.
  - right. right. eauto 8.
Qed.

(* logical order: due time, then the order of the schedule calls *)
Definition klt (x y : item) : Prop :=
  i_due x < i_due y \/ (i_due x = i_due y /\ (i_id x < i_id y)%nat).

Lemma klt_trans x y z : klt x y -> klt y z -> klt x z.
Proof. unfold klt. intros [H|[H H']] [G|[G G']]; lia. Qed.

Lemma In_insert x q : forall z, In z (insert x q) <-> z = x \/ In z q.
Proof.
  induction q as [|y t IH]; intro z; simpl.
  - intuition.
  - destruct (key_lt x y); simpl; [intuition|]. rewrite IH. intuition.
Qed.

Lemma Forall_insert (P : item -> Prop) x q : P x -> Forall P q -> Forall P (insert x q).
Proof.
  intros Hx Hq. apply Forall_forall. intros z Hz. apply In_insert in Hz.
  destruct Hz as [->|Hz]; [assumption|]. rewrite Forall_forall in Hq. auto.
Qed.

(* PriorityQueue.enqueue of an entry whose count and id are larger than all
   those present (count only grows while the queue is non-empty) keeps the
   (due, id) order: the tuple comparison of heapq realises exactly FIFO among
   equal due times. *)
Lemma insert_sorted x : forall q,
  Forall (fun y => i_cnt y < i_cnt x /\ (i_id y < i_id x)%nat) q ->
  StronglySorted klt q -> StronglySorted klt (insert x q).
Proof.
  induction q as [|y t IH]; intros HF HS; simpl.
  - constructor; constructor.
  - inversion HF as [|? ? [Hc Hi] HF']; subst. inversion HS as [|? ? HS' Hy]; subst.
    unfold key_lt. destruct (Z.eqb_spec (i_due x) (i_due y)) as [E1|E1].
    + assert (E2 : i_cnt x <? i_cnt y = false) by (apply Z.ltb_ge; lia).
      rewrite E2. constructor; [apply IH; assumption|].
      apply Forall_insert; [right; split; [lia | assumption] | exact Hy].
    + destruct (Z.ltb_spec (i_due x) (i_due y)) as [E2|E2].
      * constructor; [assumption|]. constructor; [left; assumption|].
        eapply Forall_impl; [|exact Hy]. intros z Hz. apply klt_trans with y; [left; assumption | exact Hz].
      * constructor; [apply IH; assumption|].
        apply Forall_insert; [left; lia | exact Hy].
Qed.

Definition item_ok (s : st) (y : item) : Prop :=
  i_cnt y < count s /\ (i_id y < next_id s)%nat /\ (i_born y <= npops s)%nat /\ i_sclk y <= clock s.

(* the queue is sorted by (due time, scheduling order) *)
Definition Inv1 (s : st) : Prop :=
  StronglySorted klt (queue s) /\ Forall (item_ok s) (queue s).

Lemma pop_clock_ge s it newclk bumped : pop_clock_ok s it newclk bumped -> clock s <= newclk.
Proof.
  unfold pop_clock_ok. destruct (clock s <? i_due it) eqn:E.
  - apply Z.ltb_lt in E. intros [-> _]. lia.
  - intros [[_ ->]|[_ [k ->]]]; [lia|]. destruct k; simpl; lia.
Qed.

Lemma pop_clock_due s it newclk bumped : pop_clock_ok s it newclk bumped -> i_due it <= newclk.
Proof.
  unfold pop_clock_ok. destruct (clock s <? i_due it) eqn:E.
  - intros [-> _]. lia.
  - apply Z.ltb_ge in E. intros [[_ ->]|[_ [k ->]]]; [lia|]. destruct k; simpl; lia.
Qed.

Lemma inv1_init c0 : Inv1 (init c0).
Proof. split; simpl; constructor. Qed.

Lemma inv1_prim s s' : Inv1 s -> prim s s' -> Inv1 s'.
Proof.
  intros [HS HF] HP. unfold Inv1, item_ok.
  destruct (prim_view _ _ HP) as [(Q & C & N & P & _ & K)|[(due & p & ->)|(it & q' & n & b & Hq & Hc & ->)]].
  - rewrite Q, C, N, P. split; [exact HS|].
    eapply Forall_impl; [|exact HF]. intros y (A & B & D & F). repeat split; lia.
  - split; simpl.
    + apply insert_sorted; [|assumption]. simpl.
      eapply Forall_impl; [|exact HF]. intros y (A & B & _). split; assumption.
    + apply Forall_insert; [simpl; repeat split; lia|].
      eapply Forall_impl; [|exact HF]. simpl. intros z (A & B & C & D). repeat split; lia.
  - rewrite Hq in HS, HF. apply StronglySorted_inv in HS. destruct HS as [HS _]. apply Forall_inv_tail in HF.
    pose proof (pop_clock_ge _ _ _ _ Hc) as Hge.
    split; simpl; [assumption|].
    destruct q' as [|y q'']; [constructor|].
    eapply Forall_impl; [|exact HF]. intros z (A & B & C & D). repeat split; lia.
Qed.

Definition rlt (a : poprec) (b : item) : Prop :=
  r_due a < i_due b \/ (r_due a = i_due b /\ (r_id a < i_id b)%nat).
Definition plt (a b : poprec) : Prop :=
  r_due a < r_due b \/ (r_due a = r_due b /\ (r_id a < r_id b)%nat).

(* [b] was already in the queue when [a] was dequeued *)
Definition queued_at_pop_of (b a : poprec) : Prop := (r_born b <= r_idx a)%nat.

(* run order: a dequeued item comes, in (due, id) order, before everything that was in the queue
   with it, whether that is still queued or was dequeued later *)
Definition Inv2 (s : st) : Prop :=
  Forall (fun a => (r_idx a < npops s)%nat) (pops (log s)) /\
  Forall (fun a => Forall (fun b => (i_born b <= r_idx a)%nat -> rlt a b) (queue s)) (pops (log s)) /\
  ForallOrdPairs (fun b a => queued_at_pop_of b a -> plt a b) (pops (log s)).

Lemma inv2_init c0 : Inv2 (init c0).
Proof. repeat split; simpl; constructor. Qed.

(* what was scheduled after a dequeue was scheduled at a clock no earlier than that dequeue's
   and has a larger id; with [Inv2] this gives [sorted_if_no_past] *)
Definition Inv3 (s : st) : Prop :=
  Forall (fun a => r_due a <= r_clk a /\ r_clk a <= clock s /\ (r_id a < next_id s)%nat) (pops (log s)) /\
  Forall (fun a => Forall (fun b => (r_idx a < i_born b)%nat ->
                                    r_clk a <= i_sclk b /\ (r_id a < i_id b)%nat) (queue s)) (pops (log s)) /\
  ForallOrdPairs (fun b a => (r_idx a < r_born b)%nat ->
                             r_clk a <= r_sclk b /\ (r_id a < r_id b)%nat) (pops (log s)).

Lemma inv3_init c0 : Inv3 (init c0).
Proof. repeat split; simpl; constructor. Qed.

(* [Inv2] and [Inv3] have one shape: a fact [A] about every dequeue record, a relation [Q] between
   every record and every queued item, and the relation [R] between records that [Q] turns into
   when the item is dequeued in its turn. *)
Section Records.
Variables (A : st -> poprec -> Prop) (Q : poprec -> item -> Prop) (R : poprec -> poprec -> Prop).

Definition rec_inv (s : st) : Prop :=
  Forall (A s) (pops (log s)) /\ Forall (fun a => Forall (Q a) (queue s)) (pops (log s)) /\
  ForallOrdPairs R (pops (log s)).

Hypothesis A_mono : forall s s' a,
  (npops s <= npops s')%nat -> clock s <= clock s' -> (next_id s <= next_id s')%nat -> A s a -> A s' a.
Hypothesis Q_new : forall s a due p, A s a -> Q a (Item due (count s) (next_id s) (npops s) (clock s) p).
Hypothesis at_pop : forall s it q' newclk bumped,
  StronglySorted klt (it :: q') -> Forall (item_ok s) (it :: q') -> i_due it <= newclk ->
  let r := PopRec (i_id it) (label_of (i_pay it)) (i_due it) (i_sclk it) (clock s) newclk
                  (i_born it) (npops s) bumped (negb (memb (i_id it) (cancelled s))) in
  A (pop_state s it q' newclk bumped) r /\ Forall (Q r) q' /\ forall a, Q a it -> R r a.

Lemma rec_inv_prim s s' : Inv1 s -> rec_inv s -> prim s s' -> rec_inv s'.
Proof.
  intros [HS HF] (H1 & H2 & H3) HP. unfold rec_inv.
  destruct (prim_view _ _ HP) as [(Eq & _ & N & P & L & K)|[(due & p & ->)|(it & q' & n & b & Hq & Hc & ->)]].
  - rewrite L, Eq. split; [|split; assumption].
    eapply Forall_impl; [|exact H1]. intro a. apply A_mono; lia.
  - simpl. split; [|split; [|assumption]].
    + eapply Forall_impl; [|exact H1]. intro a. apply A_mono; simpl; lia.
    + rewrite Forall_forall in *. intros a Ha. apply Forall_insert; [apply Q_new|]; auto.
  - rewrite Hq in *.
    destruct (at_pop s it q' n b HS HF (pop_clock_due _ _ _ _ Hc)) as (Ar & Qr & QR).
    simpl. split; [|split]; constructor; try assumption.
    + eapply Forall_impl; [|exact H1]. intro a. apply A_mono; simpl; try lia. eapply pop_clock_ge, Hc.
    + eapply Forall_impl; [|exact H2]. intros a Ha. exact (Forall_inv_tail Ha).
    + eapply Forall_impl; [|exact H2]. intros a Ha. exact (QR a (Forall_inv Ha)).
Qed.
End Records.

Lemma inv2_prim s s' : Inv1 s -> Inv2 s -> prim s s' -> Inv2 s'.
Proof.
  apply (rec_inv_prim (fun s a => (r_idx a < npops s)%nat) (fun a b => (i_born b <= r_idx a)%nat -> rlt a b)
                      (fun b a => queued_at_pop_of b a -> plt a b)).
  - intros; lia.
  - simpl. intros; lia.
  - intros x it q' newclk bumped HS _ _. simpl. split; [lia|]. split; [|auto].
    eapply Forall_impl; [|exact (proj2 (StronglySorted_inv HS))]. auto.
Qed.

Lemma inv3_prim s s' : Inv1 s -> Inv3 s -> prim s s' -> Inv3 s'.
Proof.
  apply (rec_inv_prim (fun s a => r_due a <= r_clk a /\ r_clk a <= clock s /\ (r_id a < next_id s)%nat)
                      (fun a b => (r_idx a < i_born b)%nat -> r_clk a <= i_sclk b /\ (r_id a < i_id b)%nat)
                      (fun b a => (r_idx a < r_born b)%nat -> r_clk a <= r_sclk b /\ (r_id a < r_id b)%nat)).
  - intros; lia.
  - simpl. intros; lia.
  - intros x it q' newclk bumped _ HF Hdue. simpl.
    destruct (Forall_inv HF) as (_ & I2 & _). split; [lia|]. split; [|auto].
    (* what is still queued was born no later than this dequeue *)
    eapply Forall_impl; [|exact (Forall_inv_tail HF)]. intros y (_ & _ & Hborn & _) Hlt. simpl in Hlt. lia.
Qed.

(* clock at invocation = max(clock before, due), unless the spin bump of
   start() occurred at this dequeue (then due <= clock before and the clock is
   clock before + 1 s / + 1 ms) *)
Definition rec_ok (r : poprec) : Prop :=
  if r_before r <? r_due r then r_clk r = r_due r /\ r_bumped r = false
  else (r_bumped r = false /\ r_clk r = r_before r) \/
       (r_bumped r = true /\ exists k, r_clk r = r_before r + bump_of k).

(* [r_idx] really is the number of items dequeued before *)
Fixpoint desc (n : nat) : list nat := match n with O => [] | S k => k :: desc k end.

Definition Inv4 (s : st) : Prop :=
  Forall rec_ok (pops (log s)) /\ map r_idx (pops (log s)) = desc (npops s).

Lemma inv4_prim s s' : Inv4 s -> prim s s' -> Inv4 s'.
Proof.
  intros [H G] HP. unfold Inv4.
  destruct (prim_view _ _ HP) as [(_ & _ & _ & P & L & _)|[(due & p & ->)|(it & q' & n & b & _ & Hc & ->)]].
  - rewrite L, P. split; assumption.
  - split; assumption.
  - split; simpl; [constructor; [exact Hc | exact H] | rewrite G; reflexivity].
Qed.

(* all clock readings of a log, newest first *)
Fixpoint readings (l : list event) : list Z :=
  match l with
  | [] => []
  | EPop r :: t => r_clk r :: r_before r :: readings t
  | ETick _ _ k :: t => k :: readings t
  | EClock k :: t => k :: readings t
  | _ :: t => readings t
  end.

(* the clock, then every reading of the log from the newest back, never increases *)
Definition Inv5 (s : st) : Prop := StronglySorted Z.ge (clock s :: readings (log s)).

Lemma ge_sorted_push c c' l : c <= c' -> StronglySorted Z.ge (c :: l) -> StronglySorted Z.ge (c' :: c :: l).
Proof.
  intros Hle HS. constructor; [exact HS|]. inversion HS as [|? ? _ HF]; subst.
  constructor; [lia|]. eapply Forall_impl; [|exact HF]. simpl; intros; lia.
Qed.

Lemma ge_sorted_raise c c' l : c <= c' -> StronglySorted Z.ge (c :: l) -> StronglySorted Z.ge (c' :: l).
Proof.
  intros Hle HS. apply (ge_sorted_push _ _ _ Hle) in HS.
  inversion HS as [|? ? H1 F1]; subst. inversion H1; subst. inversion F1; subst. constructor; assumption.
Qed.

Lemma inv5_prim s s' : Inv5 s -> prim s s' -> Inv5 s'.
Proof.
  unfold Inv5. intros H HP. destruct HP as [s due p|s r|s b|s c Hc|s pnew|s pid pi pi' Hn Hper Hfn Hdis|s e Hq|s it q' newclk bumped Hq Hc]; simpl; try assumption.
  - (* P_cancel *) unfold cancel_id. destruct (r <? next_id s)%nat; simpl; assumption.
  - (* P_clock *) apply (ge_sorted_raise (clock s)); assumption.
  - (* P_log: [quiet] makes a logged reading equal to the clock *)
    destruct e; simpl in *; try assumption; try tauto.
    + destruct Hq as [-> _]. apply ge_sorted_push; [lia | assumption].
    + subst. apply ge_sorted_push; [lia | assumption].
  - (* P_pop *) apply ge_sorted_push; [lia|]. apply ge_sorted_push; [|assumption]. eapply pop_clock_ge; eassumption.
Qed.

(* no action is run after its disposable was disposed (log newest first) *)
Fixpoint no_run_after_cancel (l : list event) : Prop :=
  match l with
  | [] => True
  | e :: older =>
      match e with
      | EPop r => r_ran r = true -> ~ In (ECancel (r_id r)) older
      | _ => True
      end /\ no_run_after_cancel older
  end.

Fixpoint skip_only_if_cancelled (l : list event) : Prop :=
  match l with
  | [] => True
  | e :: older =>
      match e with
      | EPop r => r_ran r = false -> In (ECancel (r_id r)) older
      | _ => True
      end /\ skip_only_if_cancelled older
  end.

(* [cancelled s] holds exactly the ids whose cancellation is in the log *)
Definition Inv6 (s : st) : Prop :=
  (forall id, In (ECancel id) (log s) <-> In id (cancelled s)) /\
  no_run_after_cancel (log s) /\ skip_only_if_cancelled (log s).

Lemma memb_In n l : memb n l = true <-> In n l.
Proof.
  unfold memb. rewrite existsb_exists. split.
  - intros (x & Hx & E). apply Nat.eqb_eq in E. subst. exact Hx.
  - intro H. exists n. split; [exact H | apply Nat.eqb_refl].
Qed.

Lemma inv6_prim s s' : Inv6 s -> prim s s' -> Inv6 s'.
Proof.
  intros (H1 & H2 & H3) HP. destruct HP as [s due p|s r|s b|s c Hc|s pnew|s pid pi pi' Hn Hper Hfn Hdis|s e Hq|s it q' newclk bumped Hq Hc]; try exact (conj H1 (conj H2 H3)).
  - (* P_cancel *) unfold cancel_id. destruct (r <? next_id s)%nat; [|exact (conj H1 (conj H2 H3))]. simpl.
    split; [|split; split; [exact I | assumption | exact I | assumption]].
    intro id. specialize (H1 id).
    split; (intros [E|Hin]; [left; congruence | right; apply H1; exact Hin]).
  - (* P_log: [quiet] rules out ECancel and EPop *)
    assert (N : forall id, e <> ECancel id) by (intros id ->; exact Hq).
    split; [|split; split; try assumption; destruct e; try exact I; destruct Hq].
    intro id. specialize (H1 id). split; [intros [E|Hin]; [destruct (N id E) | tauto] | intro; right; tauto].
  - (* P_pop *) split; [|split; split; try assumption]; simpl.
    + intro id. specialize (H1 id). split; [intros [E|Hin]; [discriminate | tauto] | intro; right; tauto].
    + intros Hran Hin. apply H1, memb_In in Hin. rewrite Hin in Hran. discriminate.
    + intro Hran. apply Bool.negb_false_iff, memb_In in Hran. apply H1. exact Hran.
Qed.

Definition ids (s : st) : list nat := map i_id (queue s) ++ map r_id (pops (log s)).

(* [l] lists each of the first [n] ids exactly once *)
Definition ids_upto (l : list nat) (n : nat) : Prop :=
  NoDup l /\ forall id, In id l <-> (id < n)%nat.

(* conservation: every scheduled action is either still queued or has been dequeued, and
   appears once *)
Definition Inv7 (s : st) : Prop := ids_upto (ids s) (next_id s).

Lemma ids_upto_perm l l' n : Permutation l l' -> ids_upto l n -> ids_upto l' n.
Proof.
  intros P [H1 H2]. split; [exact (Permutation_NoDup P H1)|].
  intro id. rewrite <- H2. split; apply Permutation_in; [apply Permutation_sym|]; exact P.
Qed.

Lemma ids_upto_next l n : ids_upto l n -> ids_upto (n :: l) (S n).
Proof.
  intros [H1 H2]. split.
  - constructor; [|exact H1]. intro Hin. apply H2 in Hin. lia.
  - intro id. simpl. rewrite H2. lia.
Qed.

Lemma insert_perm x q : Permutation (insert x q) (x :: q).
Proof.
  induction q as [|y t IH]; simpl; [apply Permutation_refl|].
  destruct (key_lt x y); [apply Permutation_refl|].
  eapply Permutation_trans; [apply perm_skip, IH | apply perm_swap].
Qed.

Lemma inv7_prim s s' : Inv7 s -> prim s s' -> Inv7 s'.
Proof.
  intros H7 HP. unfold Inv7, ids.
  destruct (prim_view _ _ HP) as [(Q & _ & N & _ & L & _)|[(due & p & ->)|(it & q' & n & b & Hq & _ & ->)]].
  - rewrite Q, N, L. exact H7.
  - apply ids_upto_perm with (next_id s :: ids s); [|apply ids_upto_next, H7].
    apply Permutation_sym. unfold ids; simpl.
    change (next_id s :: map i_id (queue s) ++ map r_id (pops (log s)))
      with (map i_id (Item due (count s) (next_id s) (npops s) (clock s) p :: queue s)
            ++ map r_id (pops (log s))).
    apply Permutation_app_tail, Permutation_map, insert_perm.
  - apply ids_upto_perm with (ids s); [|exact H7].
    unfold ids; simpl. rewrite Hq; simpl. apply Permutation_middle.
Qed.

Record Inv (s : st) : Prop := {
  inv_queue : Inv1 s;
  inv_order : Inv2 s;
  inv_past : Inv3 s;
  inv_records : Inv4 s;
  inv_clock : Inv5 s;
  inv_cancel : Inv6 s;
  inv_ids : Inv7 s }.

Lemma inv_init c0 : Inv (init c0).
Proof.
  split; [apply inv1_init | apply inv2_init | apply inv3_init | split; [constructor | reflexivity]
         | repeat constructor | repeat split; simpl; tauto
         | split; [constructor | intro id; simpl; split; [tauto | lia]]].
Qed.

Lemma inv_prim s s' : Inv s -> prim s s' -> Inv s'.
Proof.
  intros [H1 H2 H3 H4 H5 H6 H7] HP.
  exact (Build_Inv _ (inv1_prim _ _ H1 HP) (inv2_prim _ _ H1 H2 HP) (inv3_prim _ _ H1 H3 HP)
                   (inv4_prim _ _ H4 HP) (inv5_prim _ _ H5 HP) (inv6_prim _ _ H6 HP) (inv7_prim _ _ H7 HP)).
Qed.

Theorem inv_run c fuel c0 cs : Inv (state_of (run c fuel (init c0) cs)).
Proof. apply (run_invariant Inv inv_prim). apply inv_init. Qed.

Lemma inv_steps s s' : steps s s' -> Inv s -> Inv s'.
Proof. apply (steps_inv Inv inv_prim). Qed.

(* Props/C28.v and C29.v read what holds of whole histories off [inv_run] *)
Section Histories.
Variables (c : cfg) (fuel : nat) (c0 : Z) (h : list tcmd).
Let s := state_of (run c fuel (init c0) h).

Lemma hist_queue_sorted : StronglySorted klt (queue s).
Proof. exact (proj1 (inv_queue _ (inv_run c fuel c0 h))). Qed.

End Histories.

Lemma inv5_readings s : Inv5 s ->
  StronglySorted Z.ge (readings (log s)) /\ Forall (fun k => k <= clock s) (readings (log s)).
Proof.
  intro H. inversion H as [|? ? HS HF]; subst. split; [exact HS|].
  eapply Forall_impl; [|exact HF]. simpl; intros; lia.
Qed.

Lemma inv7_conservation s : Inv7 s ->
  NoDup (map i_id (queue s) ++ map r_id (pops (log s))) /\
  forall id, (id < next_id s)%nat <-> In id (map i_id (queue s)) \/ In id (map r_id (pops (log s))).
Proof.
  intros [H1 H2]. split; [exact H1|]. intro id. rewrite <- in_app_iff. symmetry. apply H2.
Qed.

Lemma FOP_combine {A} (R1 R2 R : A -> A -> Prop) (Q : A -> Prop) l :
  ForallOrdPairs R1 l -> ForallOrdPairs R2 l -> Forall Q l ->
  (forall b a, R1 b a -> R2 b a -> Q a -> Q b -> R b a) -> ForallOrdPairs R l.
Proof.
  intros H1 H2 HQ HR. induction l as [|x t IH]; [constructor|].
  inversion H1; subst. inversion H2; subst. inversion HQ; subst.
  constructor; [|apply IH; assumption].
  rewrite Forall_forall in *. intros a Ha. apply HR; auto.
Qed.

Lemma FOP_filter {A} (R : A -> A -> Prop) (f : A -> bool) l :
  ForallOrdPairs R l -> ForallOrdPairs R (filter f l).
Proof.
  induction 1 as [|x t Hx Ht IH]; simpl; [constructor|].
  destruct (f x); [|assumption]. constructor; [|assumption].
  rewrite Forall_forall in *. intros a Ha. apply filter_In in Ha. apply Hx. tauto.
Qed.

(* if nothing is ever scheduled in the past, the dequeue order is the
   (due time, scheduling order) order: due times non-decreasing, FIFO among equals *)
Lemma sorted_if_no_past s :
  Inv s -> Forall (fun a => r_sclk a <= r_due a) (pops (log s)) ->
  ForallOrdPairs (fun b a => plt a b) (pops (log s)).
Proof.
  intros [_ (_ & _ & H2) (H31 & _ & H33) _ _ _ _] HF.
  apply (FOP_combine _ _ _ (fun a => r_sclk a <= r_due a /\ r_due a <= r_clk a) _ H2 H33).
  - rewrite Forall_forall in *. intros a Ha. split; [auto | apply H31; assumption].
  - intros b a R1 R2 [Qa1 Qa2] [Qb1 Qb2]. unfold queued_at_pop_of in R1.
    destruct (Nat.le_gt_cases (r_born b) (r_idx a)) as [Hle|Hgt]; [auto|].
    destruct (R2 Hgt) as [Hc Hid]. unfold plt. lia.
Qed.

(* hereditarily: no periodic work *)
Fixpoint noper_cmd (c : scmd) : bool :=
  match c with
  | SSched _ _ b => forallb noper_cmd b
  | SPeriodic _ _ _ => false
  | _ => true
  end.
Definition noper_pay (p : payload) : bool :=
  match p with PAct _ b => forallb noper_cmd b | PPer _ _ => false end.
Definition noper_t (c : tcmd) : bool := match c with TDo k => noper_cmd k | _ => true end.

(* hereditarily: never stops the scheduler, never raises, no periodic work, and
   (sl = false) never sleeps / (sl = true) sleeps only forwards *)
Fixpoint calm_cmd (sl : bool) (c : scmd) : bool :=
  match c with
  | SSched _ _ b => forallb (calm_cmd sl) b
  | SCancel _ | SNote _ | SPCancel _ => true
  | SSleep d => sl && (0 <=? d)
  | SHandled _ v => v
  | SStop | SRaise _ | SPeriodic _ _ _ => false
  end.
Definition calm_pay (sl : bool) (p : payload) : bool :=
  match p with PAct _ b => forallb (calm_cmd sl) b | PPer _ _ => false end.

Lemma calm_noper sl c : calm_cmd sl c = true -> noper_cmd c = true.
Proof.
  revert c. fix IH 1. intros [w l b|r| |d|e|e v|n|p f s0|pid]; simpl; try reflexivity; try discriminate.
  intro H. induction b as [|x t IHb]; simpl in *; [reflexivity|].
  apply andb_true_iff in H. destruct H as [Hx Ht]. rewrite (IH x Hx). simpl. apply IHb. exact Ht.
Qed.

Lemma calm_noper_body sl b : forallb (calm_cmd sl) b = true -> forallb noper_cmd b = true.
Proof.
  induction b as [|x t IH]; simpl; [reflexivity|]. intro H. apply andb_true_iff in H. destruct H as [Hx Ht].
  rewrite (calm_noper sl x Hx), (IH Ht). reflexivity.
Qed.

Lemma calm_noper_pay sl p : calm_pay sl p = true -> noper_pay p = true.
Proof. destruct p; simpl; [apply calm_noper_body | discriminate]. Qed.

Definition psize (p : payload) : nat := match p with PAct _ b => S (bsize b) | PPer _ _ => 1 end.
Definition qsize (q : list item) : nat := list_sum (map (fun it => psize (i_pay it)) q).

Lemma qsize_cons x q : qsize (x :: q) = (psize (i_pay x) + qsize q)%nat.
Proof. reflexivity. Qed.

Lemma qsize_insert x q : qsize (insert x q) = (psize (i_pay x) + qsize q)%nat.
Proof.
  induction q as [|y t IH]; simpl; [reflexivity|].
  destruct (key_lt x y); simpl; [reflexivity|]. unfold qsize in *. simpl. rewrite IH. lia.
Qed.

Lemma dispose_per_fields s pid :
  clock (dispose_per s pid) = clock s /\ queue (dispose_per s pid) = queue s /\
  enabled (dispose_per s pid) = enabled s /\ npops (dispose_per s pid) = npops s /\
  pops (log (dispose_per s pid)) = pops (log s).
Proof.
  unfold dispose_per. destruct (nth_error (pers s) pid) as [pi|]; [|repeat split].
  destruct (p_disposed pi); [repeat split|].
  match goal with |- context [cancel_id ?s0 ?r] =>
    destruct (cancel_id_fields s0 r) as (A & B & C & D & E & F & G);
    rewrite A, B, D, G, cancel_id_pops end.
  repeat split.
Qed.

Lemma add_notes_fields ns : forall s,
  clock (add_notes s ns) = clock s /\ queue (add_notes s ns) = queue s /\
  enabled (add_notes s ns) = enabled s /\ npops (add_notes s ns) = npops s /\
  pops (log (add_notes s ns)) = pops (log s).
Proof.
  induction ns as [|n t IH]; intro s; simpl; [repeat split|].
  destruct (IH (add_log s (ENote n))) as (A & B & C & D & E). rewrite A, B, C, D, E. repeat split.
Qed.

Definition nopop (s s' : st) : Prop := pops (log s') = pops (log s) /\ npops s' = npops s.

Lemma nopop_refl s : nopop s s.
Proof. split; reflexivity. Qed.

Lemma nopop_trans s s' s'' : nopop s s' -> nopop s' s'' -> nopop s s''.
Proof. intros [A B] [C D]. split; congruence. Qed.

Lemma nopop_cancel s r : nopop s (cancel_id s r).
Proof. split; [apply cancel_id_pops | apply cancel_id_fields]. Qed.

Lemma nopop_dispose_per s pid : nopop s (dispose_per s pid).
Proof. destruct (dispose_per_fields s pid) as (_ & _ & _ & D & E). split; assumption. Qed.

Lemma nopop_add_notes ns s : nopop s (add_notes s ns).
Proof. destruct (add_notes_fields ns s) as (_ & _ & _ & D & E). split; assumption. Qed.

Lemma exec_cmd_pops s c : nopop s (bstate (exec_cmd s c)).
Proof.
  destruct c; simpl; try (split; reflexivity).
  - apply nopop_cancel.
  - destruct (d <? 0); split; reflexivity.
  - destruct v; split; reflexivity.
  - apply nopop_dispose_per.
Qed.

Lemma exec_body_pops b s : nopop s (bstate (exec_body s b)).
Proof. apply (exec_body_compose nopop nopop_refl nopop_trans exec_cmd_pops). Qed.

Definition noper_q (q : list item) : Prop := Forall (fun it => noper_pay (i_pay it) = true) q.

Lemma exec_cmd_noper s c :
  noper_cmd c = true -> noper_q (queue s) ->
  noper_q (queue (bstate (exec_cmd s c))) /\
  (qsize (queue (bstate (exec_cmd s c))) <= qsize (queue s) + csize c)%nat.
Proof.
  intros Hc Hq. destruct c; simpl in *; try (split; [assumption | lia]).
  - split; [apply Forall_insert; assumption|]. rewrite qsize_insert. simpl. unfold bsize. lia.
  - destruct (cancel_id_fields s r) as (A & B & _). rewrite B. split; [assumption | lia].
  - destruct (d <? 0); simpl; split; try assumption; lia.
  - destruct v; simpl; split; try assumption; lia.
  - discriminate.
  - destruct (dispose_per_fields s pid) as (A & B & _). rewrite B. split; [assumption | lia].
Qed.

Lemma exec_body_noper b : forall s,
  forallb noper_cmd b = true -> noper_q (queue s) ->
  noper_q (queue (bstate (exec_body s b))) /\
  (qsize (queue (bstate (exec_body s b))) <= qsize (queue s) + bsize b)%nat.
Proof.
  induction b as [|c t IH]; intros s Hb Hq; simpl in *; [split; [assumption | lia]|].
  apply andb_true_iff in Hb. destruct Hb as [Hc Ht].
  destruct (exec_cmd_noper s c Hc Hq) as [H1 H2].
  unfold bsize in *; simpl.
  destruct (exec_cmd s c) as [s'|e s']; simpl in *; [|split; [assumption | lia]].
  destruct (IH s' Ht H1) as [G1 G2]. split; [assumption | lia].
Qed.

Lemma run_item_noper s it q' newclk bumped :
  queue s = it :: q' -> noper_q (queue s) ->
  noper_q (queue (bstate (run_item s it q' newclk bumped))) /\
  (S (qsize (queue (bstate (run_item s it q' newclk bumped)))) <= qsize (queue s))%nat.
Proof.
  intros Hq Hn. rewrite Hq in *. inversion Hn as [|? ? Hit Hn']; subst.
  rewrite qsize_cons.
  unfold run_item. destruct (negb (memb (i_id it) (cancelled s))); simpl.
  - destruct (i_pay it) as [l b|pid stt] eqn:Hp; simpl in Hit; [|discriminate]. simpl.
    match goal with |- context [exec_body ?s0 b] =>
      destruct (exec_body_noper b s0 Hit) as [G1 G2]; [simpl; assumption|] end.
    simpl in G2. split; [assumption|]. lia.
  - split; [assumption|]. destruct (i_pay it); simpl; lia.
Qed.

Definition returned (o : outcome) (s' : st) : Prop :=
  o = Finished s' \/ exists e, o = Raised e s'.

(* a loop that cannot deadlock, on a queue without periodic work and with one unit of fuel per
   action it can still enqueue, returns *)
Lemma looped_returns {fin stop popok fuel} s {o} :
  (forall s0, exists s', fin s0 = Finished s' /\ queue s' = queue s0) ->
  looped fin stop popok false fuel s o ->
  noper_q (queue s) -> (qsize (queue s) <= fuel)%nat ->
  exists s', returned o s' /\ noper_q (queue s') /\ (qsize (queue s') <= qsize (queue s))%nat.
Proof.
  intro Hfin.
  induction 1 as [fuel s o _ ->|s it q' Hq|fuel s Hd|fuel s it q' newclk bumped e s1 Hq _ E
                  |fuel s it q' newclk bumped s1 o Hq _ E _ IH]; intros Hn Hf.
  - destruct (Hfin s) as (s' & -> & Q). exists s'. rewrite Q. repeat split; auto. left; reflexivity.
  - exfalso. rewrite Hq, qsize_cons in Hf. destruct (i_pay it); simpl in Hf; lia.
  - discriminate.
  - destruct (run_item_noper s it q' newclk bumped Hq Hn) as [G1 G2]. rewrite E in G1, G2.
    exists s1. repeat split; auto; [right; exists e; reflexivity | simpl in G2; lia].
  - destruct (run_item_noper s it q' newclk bumped Hq Hn) as [G1 G2]. rewrite E in G1, G2. simpl in G1, G2.
    destruct (IH G1) as (s' & R & N & L); [lia|]. exists s'. repeat split; auto. lia.
Qed.

Lemma start_returns c fuel s : c_prop_bump c = false ->
  noper_q (queue s) -> (qsize (queue s) <= fuel)%nat ->
  exists s', returned (start c fuel s) s' /\ noper_q (queue s') /\ (qsize (queue s') <= qsize (queue s))%nat.
Proof.
  intros Hc Hn Hf. unfold start. destruct (enabled s).
  - exists s. repeat split; auto. left; reflexivity.
  - pose proof (start_loop_looped c fuel (set_enabled s true) 0%nat) as L. unfold start_looped in L. rewrite Hc in L.
    refine (looped_returns (set_enabled s true) _ L Hn Hf). intro s0. eexists. split; reflexivity.
Qed.

Lemma finish_adv_spec s t :
  exists s', finish_adv s t = Finished s' /\ enabled s' = false /\ queue s' = queue s /\
             clock s' = Z.max (clock s) t /\ log s' = log s.
Proof.
  unfold finish_adv. eexists. split; [reflexivity|].
  destruct (Z.ltb_spec (clock s) t); repeat split; simpl; lia.
Qed.

Lemma advance_to_returns fuel s t :
  noper_q (queue s) -> (qsize (queue s) <= fuel)%nat ->
  exists s', returned (advance_to fuel s t) s' /\ noper_q (queue s') /\ (qsize (queue s') <= qsize (queue s))%nat.
Proof.
  intros Hn Hf. unfold advance_to.
  destruct (t <? clock s); [exists s; repeat split; auto; right; exists AOOR; reflexivity|].
  destruct ((clock s =? t) || enabled s); [exists s; repeat split; auto; left; reflexivity|].
  refine (looped_returns (set_enabled s true) _ (advance_loop_looped t fuel (set_enabled s true)) Hn Hf).
  intro s0. destruct (finish_adv_spec s0 t) as (s' & E & _ & Q & _). exists s'. split; assumption.
Qed.

Lemma step_t_returns c fuel s cmd : c_prop_bump c = false ->
  noper_t cmd = true -> noper_q (queue s) -> (qsize (queue s) + tsize cmd <= fuel)%nat ->
  exists s', returned (step_t c fuel s cmd) s' /\ noper_q (queue s') /\
             (qsize (queue s') <= qsize (queue s) + tsize cmd)%nat.
Proof.
  intros Hc Ht Hn Hf. destruct cmd as [k| | |t|d]; simpl in *.
  - destruct (exec_cmd_noper s k Ht Hn) as [G1 G2].
    destruct (exec_cmd s k) as [s'|e s']; simpl in *; exists s'; repeat split; auto;
      [left; reflexivity | right; exists e; reflexivity].
  - destruct (start_returns c fuel s Hc Hn) as (s' & R & N & L); [lia|]. exists s'. repeat split; auto. lia.
  - (* TStartTest: the three silent actions [step_t] enqueues before start() *)
    set (s3 := silent (silent (silent s 100000000) 200000000) 1000000000).
    assert (N3 : noper_q (queue s3)).
    { unfold s3, silent; simpl. repeat apply Forall_insert; auto. }
    assert (Q3 : qsize (queue s3) = (3 + qsize (queue s))%nat).
    { unfold s3, silent; simpl. rewrite !qsize_insert. simpl. lia. }
    destruct (start_returns c fuel s3 Hc N3) as (s' & R & N & L); [lia|]. exists s'. repeat split; auto. lia.
  - destruct (advance_to_returns fuel s t Hn) as (s' & R & N & L); [lia|]. exists s'. repeat split; auto. lia.
  - destruct (advance_to_returns fuel s (clock s + d) Hn) as (s' & R & N & L); [lia|]. exists s'. repeat split; auto. lia.
Qed.

(* Every history without periodic work terminates: neither the fuel (taken as
   the number of actions the history can enqueue) runs out nor a deadlock
   occurs, on numeric and datetime clocks alike. *)
Theorem run_terminates c fuel : c_prop_bump c = false -> forall h s,
  forallb noper_t h = true -> noper_q (queue s) -> (qsize (queue s) + hsize h <= fuel)%nat ->
  exists s', run c fuel s h = RDone s'.
Proof.
  intro Hc. induction h as [|cmd t IH]; intros s Hh Hn Hf; simpl; [eexists; reflexivity|].
  simpl in Hh. apply andb_true_iff in Hh. destruct Hh as [H1 H2].
  unfold hsize in *. simpl in Hf.
  destruct (step_t_returns c fuel s cmd Hc H1 Hn) as (s' & R & N & L); [lia|].
  destruct R as [->|[e ->]]; apply IH; simpl; auto; lia.
Qed.

Definition calm_q (sl : bool) (q : list item) : Prop := Forall (fun it => calm_pay sl (i_pay it) = true) q.

Lemma calm_q_noper sl q : calm_q sl q -> noper_q q.
Proof. apply Forall_impl. intros it. apply calm_noper_pay. Qed.

(* what advance_to adds to the log: only items due at or before the target,
   never with a spin bump *)
Definition new_pops_ok (s s' : st) (t : Z) : Prop :=
  forall r, In r (pops (log s')) ->
    In r (pops (log s)) \/ (r_due r <= t /\ r_bumped r = false /\ (npops s <= r_idx r)%nat).

Lemma advance_to_now_noop fuel s : advance_to fuel s (clock s) = Finished s.
Proof.
  unfold advance_to. rewrite Z.ltb_irrefl, Z.eqb_refl. reflexivity.
Qed.

Lemma advance_to_past_raises fuel s t : t < clock s -> advance_to fuel s t = Raised AOOR s.
Proof. intro H. unfold advance_to. apply Z.ltb_lt in H. rewrite H. reflexivity. Qed.

Lemma sleep_spec s d : 0 <= d ->
  exec_cmd s (SSleep d) = BOk (set_clock s (clock s + d)).
Proof. intro H. simpl. assert (E : d <? 0 = false) by (apply Z.ltb_ge; lia). rewrite E. reflexivity. Qed.

(* histories used as witnesses in Props/C28.v, Props/C29.v *)

(* three actions at one instant + one scheduled from inside + one cancelled *)
Definition ex_h : list tcmd :=
  [ TDo (SSched (Abs 5) 0 [SSched Now 3 []; SCancel 2]);
    TDo (SSched (Abs 5) 1 []);
    TDo (SSched (Rel 5) 2 []);
    TDo (SSched (Abs 2) 4 [SSleep 1]);
    TStart ].

Fixpoint same_instant (n : nat) : list tcmd :=
  match n with O => [] | S k => same_instant k ++ [TDo (SSched Now (Z.of_nat k) [])] end.

(* FIFO at one instant: an entry due no earlier and counted later than all others goes to the tail *)
Lemma insert_last x : forall q,
  Forall (fun y => i_due y <= i_due x /\ i_cnt y < i_cnt x) q -> insert x q = q ++ [x].
Proof.
  induction 1 as [|y q [Hd Hc] _ IH]; cbn [insert app]; [reflexivity|].
  assert (E : key_lt x y = false).
  { unfold key_lt. destruct (Z.eqb_spec (i_due x) (i_due y)); [apply Z.ltb_ge | apply Z.ltb_ge]; lia. }
  rewrite E, IH. reflexivity.
Qed.

(* The state [same_instant n] leaves, written out.  A witness evaluated from here runs in time
   linear in n: evaluating [same_instant n] itself sorts the queue, n^2/2 comparisons of counts
   next to MIN_COUNT. *)
Definition after_same_instant (n : nat) (s : st) : st :=
  St (clock s)
     (map (fun k => Item (clock s) (count s + Z.of_nat k) (next_id s + k) (npops s) (clock s)
                         (PAct (Z.of_nat k) [])) (seq 0 n))
     (count s + Z.of_nat n) (enabled s) (cancelled s) (next_id s + n) (pers s) (npops s)
     (repeat (EClock (clock s)) n ++ log s).

Lemma run_same_instant c fuel s : queue s = [] -> forall n rest,
  run c fuel s (same_instant n ++ rest) = run c fuel (after_same_instant n s) rest.
Proof.
  intro Hq. induction n as [|k IH]; intro rest.
  - f_equal. destruct s. cbn in *. subst. unfold after_same_instant. cbn. f_equal; lia.
  - cbn [same_instant]. rewrite <- app_assoc, IH. cbn [app run step_t exec_cmd of_bres]. f_equal.
    unfold after_same_instant, add_log, enqueue, due_of.
    cbn [clock queue count enabled cancelled next_id pers npops log]. rewrite seq_S, map_app.
    f_equal; try lia.
    apply insert_last. apply Forall_map, Forall_forall.
    intros x Hx. apply in_seq in Hx. cbn. lia.
Qed.

Definition count_runs (l : list oev) : nat :=
  length (filter (fun o => match o with ORun _ _ => true | _ => false end) l).

