(* C31, the dispatch of a batch: in EventLoopScheduler.run (reactivex/scheduler/eventloopscheduler.py)

       while ready:
           item = ready.popleft()
           if not item.is_cancelled():
               item.invoke()

   the is_cancelled() test is made PER ITEM, immediately before that item's invoke(): between the test
   of an item and its start the loop thread does nothing else -- no other action of this scheduler
   is tested, started or ended there (only calls made by scheduling threads can fall into that window).
   Consequently an item whose dispose() returned while an EARLIER action of the same batch was still
   running (cancelled by that action itself, or by another thread meanwhile) is never started.
   Proved over all schedules on Core/EventLoop.v with one more log scanner, [win]. *)
From RxVerif Require Import Base.Prelude Core.EventLoop Core.EventLoopFacts.
Local Open Scope Z_scope.

(* state: the item that passed is_cancelled() and has not started yet (the dispatch window is open);
   while it is open, any event of the loop other than the start of that very item is a failure *)
Fixpoint win (o : option item) (l : list ev) : option (option item) :=
  match l with
  | [] => Some o
  | ECheck i false :: r => match o with None => win (Some i) r | Some _ => None end
  | EStart i :: r => match o with Some j => if item_eqb i j then win None r else None | None => None end
  | e :: r => if callish e then win o r else match o with None => win None r | Some _ => None end
  end.

Lemma win_app : forall a b o, win o (a ++ b) = match win o a with Some o' => win o' b | None => None end.
Proof.
  induction a as [|e a IH]; intros b o; [reflexivity|]. destruct e; cbn; try apply IH.
  - destruct c; (destruct o; [reflexivity|apply IH]).
  - destruct o as [j|]; [|reflexivity]. destruct (item_eqb it j); [apply IH|reflexivity].
  - destruct o; [reflexivity|apply IH].
  - destruct o; [reflexivity|apply IH].
Qed.

Lemma win_callish : forall l o, forallb callish l = true -> win o l = Some o.
Proof.
  induction l as [|e l IH]; intros o H; [reflexivity|]. cbn in H. apply andb_true_iff in H. destruct H as [H1 H2].
  destruct e; try discriminate H1; cbn; apply IH; exact H2.
Qed.

(* in plain terms: everything between the passed test of an item and its start is a call event *)
Lemma win_spec : forall l1 i l2 o r,
  win o (l1 ++ EStart i :: l2) = Some r ->
  (o = Some i /\ forallb callish l1 = true) \/
  exists l0 w, l1 = l0 ++ ECheck i false :: w /\ forallb callish w = true.
Proof.
  induction l1 as [|e l1 IH]; intros i l2 o r H.
  - cbn in H. destruct o as [j|]; [|discriminate H]. destruct (item_eqb i j) eqn:E; [|discriminate H].
    apply item_eqb_eq in E. subst. left. split; reflexivity.
  - cbn [app] in H.
    set (G := (o = Some i /\ forallb callish (e :: l1) = true) \/
              exists l0 w, e :: l1 = l0 ++ ECheck i false :: w /\ forallb callish w = true).
    assert (CALL : callish e = true -> win o (l1 ++ EStart i :: l2) = Some r -> G).
    { intros C H'. subst G. destruct (IH _ _ _ _ H') as [[-> CL]|(l0 & w & -> & CL)].
      - left. split; [reflexivity|]. cbn. rewrite C. exact CL.
      - right. exists (e :: l0), w. split; [reflexivity|exact CL]. }
    assert (SKIP : win None (l1 ++ EStart i :: l2) = Some r -> G).
    { intros H'. subst G. destruct (IH _ _ _ _ H') as [[X _]|(l0 & w & -> & CL)]; [discriminate X|].
      right. exists (e :: l0), w. split; [reflexivity|exact CL]. }
    destruct e; cbn in H; try (apply CALL; [reflexivity|exact H]).
    + (* ECheck *)
      destruct c.
      * destruct o; [discriminate H|]. apply SKIP, H.
      * destruct o; [discriminate H|]. destruct (IH _ _ _ _ H) as [[X CL]|(l0 & w & -> & CL)].
        -- inv X. right. exists [], l1. split; [reflexivity|exact CL].
        -- right. exists (ECheck it false :: l0), w. split; [reflexivity|exact CL].
    + (* EStart *)
      destruct o as [j|]; [|discriminate H]. destruct (item_eqb it j); [|discriminate H]. apply SKIP, H.
    + (* EEnd *) destruct o; [discriminate H|]. apply SKIP, H.
    + (* EExit *) destruct o; [discriminate H|]. apply SKIP, H.
Qed.

Section Facts.
Variable eie : bool.
Variable body : nat -> list op.
Notation cstep := (cstep eie body).
Notation run := (run eie body).

Definition invW (c : config) : Prop := win None (L c) = Some (at_thr tinv None c).

Lemma invW_init : forall t0 progs, invW (init t0 progs).
Proof. intros. unfold invW, L, at_thr, init. cbn. reflexivity. Qed.

Lemma invW_step : forall c tid c', invA c -> invW c -> cstep c tid c' -> invW c'.
Proof.
  intros c tid c' A W S. unfold invW in *.
  destruct S as [cur todo s' cur' todo' out sp N O|ph s' ph' out sp N LS]; rewrite L_step, win_app, W.
  - rewrite (win_callish _ _ (opstep_callish _ _ _ _ _ _ _ _ _ O)).
    rewrite (at_thr_sched _ _ _ c tid cur todo) by (try reflexivity; assumption). reflexivity.
  - destruct (at_thr_loop eie body _ tinv None c tid ph s' ph' out sp eq_refl A N LS) as [_ [I1 I2]].
    rewrite I1, I2.
    destruct LS; rewrite ?tinv_next; cbn [tinv win callish]; rewrite ?item_eqb_refl; auto.
    rewrite (win_callish _ _ (opstep_callish _ _ _ _ _ _ _ _ _ H)). reflexivity.
Qed.

Lemma invW_run : forall sched c, invA c -> invW c -> invW (run c sched).
Proof.
  intros sched c A W. apply (run_invariant2 eie body invW invA); auto.
  - intros. apply invA_run. assumption.
  - intros. eapply invW_step; eassumption.
Qed.

(* the is_cancelled() test is per item, right before its invocation: an action that starts passed its own
   test; no dispose() of its disposable had returned before that test; and between that test and the start
   there are only events of calls (made by scheduling threads) -- no other action of this scheduler is
   tested, started or ended in between *)
Theorem el_test_right_before_invoke : forall t0 progs sched l1 i l2,
  L (run (init t0 progs) sched) = l1 ++ EStart i :: l2 ->
  exists l0 w, l1 = l0 ++ ECheck i false :: w /\ ~ In (ECancelRet (it_lbl i)) l0 /\ forallb callish w = true.
Proof.
  intros t0 progs sched l1 i l2 E.
  pose proof (invW_run sched _ (invA_init t0 progs) (invW_init t0 progs)) as W. unfold invW in W. rewrite E in W.
  destruct (win_spec _ _ _ _ _ W) as [[X _]|(l0 & w & E0 & CL)]; [discriminate X|].
  exists l0, w. split; [exact E0|]. split; [|exact CL].
  destruct (reach eie body t0 progs sched) as (_ & _ & (_ & _ & S3 & _) & _).
  rewrite E, E0, <- app_assoc in S3. cbn [app] in S3. eapply cancel_ok_spec, S3.
Qed.

(* an action cancelled before the previous action of its batch finished never starts: if dispose() of
   item i's disposable returned before some action j ended, and i had not started by then, i never starts
   (the end of j cannot fall between i's test and i's start, so i's test comes after the dispose) *)
Theorem el_cancelled_during_earlier_action_never_starts : forall t0 progs sched a j b i,
  L (run (init t0 progs) sched) = a ++ EEnd j :: b ->
  In (ECancelRet (it_lbl i)) a -> ~ In (EStart i) a -> ~ In (EStart i) b.
Proof.
  intros t0 progs sched a j b i E C NA I.
  destruct (in_split _ _ I) as [b1 [b2 EB]].
  assert (E' : L (run (init t0 progs) sched) = (a ++ EEnd j :: b1) ++ EStart i :: b2).
  { rewrite E, EB, <- app_assoc. reflexivity. }
  destruct (el_test_right_before_invoke _ _ _ _ _ _ E') as (l0 & w & E0 & NC & CL).
  (* EEnd j is not a call event, so it is not in w: it lies in l0, and so does all of a *)
  assert (PRE : exists m, l0 = a ++ EEnd j :: m).
  { clear - E0 CL. revert l0 E0. induction a as [|x a IH]; intros l0 E0.
    - destruct l0 as [|y l0]; cbn in E0.
      + discriminate E0.
      + injection E0 as E1 E2. subst y. exists l0. reflexivity.
    - destruct l0 as [|y l0]; cbn in E0.
      + injection E0 as _ E2. exfalso.
        assert (IW : In (EEnd j) w) by (rewrite <- E2; apply in_or_app; right; left; reflexivity).
        rewrite forallb_forall in CL. specialize (CL _ IW). discriminate CL.
      + injection E0 as E1 E2. subst y. destruct (IH _ E2) as [m ->]. exists m. reflexivity. }
  destruct PRE as [m ->]. apply NC. apply in_or_app. left. exact C.
Qed.
End Facts.

(* witnesses that both cancellations really happen (non-vacuity):
   action 1 (first of a batch of three, all scheduled by action 0 from the loop thread, so they are
   gathered in the same cycle) cancels action 2: 2 is tested after that and skipped, 3 runs *)
Definition same_batch_body : nat -> list op :=
  body_of [(0%nat, [SchedNow 1%nat; SchedNow 2%nat; SchedNow 3%nat]); (1%nat, [Cancel 2%nat])].
Definition same_batch_witness : config :=
  run false same_batch_body (init 0 [[SchedNow 0%nat]]) (steps (repeat 0%nat 3 ++ repeat 1%nat 40)).

(* three timed items of one due time; a scheduling thread disposes item 2 while action 1 (earlier in the
   same batch) is running: 2 is tested afterwards and skipped, 3 runs *)
Definition foreign_batch_witness : config :=
  run false nobody (init 0 [[SchedAbs 1000 1%nat; SchedAbs 1000 2%nat; SchedAbs 1000 3%nat]; [Cancel 2%nat]])
      (steps (repeat 0%nat 6) ++ steps (repeat 2%nat 4) ++ [MTick 1000] ++ steps (repeat 2%nat 4) ++ steps [1%nat] ++
       steps (repeat 2%nat 12)).
