(* C33 on Core/AsyncIO.v beyond the side condition of [aio_cancel_effective]:
   - the PLAIN AsyncIOScheduler (ts = false) with ANY foreign threads: in the model every call of the plain
     class owns one handle, dispose() is always the direct path and is ONE atomic step (handle.cancel()),
     and the loop tests the flag again in the step that runs the handle (LRun) -- so "no start after dispose()
     returned" holds without the side condition of [aio_cancel_effective]; [aio_cancel_effective_all] puts both
     classes under one statement;
   - the witness for the no-op return of a second dispose(). *)
From RxVerif Require Import Base.Prelude Core.AsyncIO Core.AsyncIOFacts.
Local Open Scope Z_scope.

(* handle tables of the plain scheduler: call u <-> handle u, one CbAction each *)
Record PS (hs : list cb) (hl : list (bool * list nat)) (canc : list nat) (log : list aev) : Prop := {
  ps_len : length hs = length hl;
  ps_hs : forall h c, nth_error hs h = Some c -> c = CbAction h;
  ps_hl : forall u e, nth_error hl u = Some e -> e = (false, [u]);
  ps_log : disp_ok [] log = true;
  ps_seen : forall u, In u (dseen [] log) -> amem u canc = true }.

Lemma PS_nil : forall hs hl canc log, PS hs hl canc log -> PS hs hl canc (log ++ []).
Proof. intros. rewrite app_nil_r. assumption. Qed.

Lemma PS_other : forall hs hl canc log e, PS hs hl canc log ->
  (forall u, e <> AStart u) -> (forall u, e <> ADispRet u) -> PS hs hl canc (log ++ [e]).
Proof.
  intros hs hl canc log e P H1 H2. destruct P as [A B C D E]. constructor; try assumption.
  - rewrite disp_ok_app, D. cbn [andb]. apply disp_ok_one_other, H1.
  - intros u I. rewrite dseen_app, (dseen_one_other _ _ H2) in I. apply E, I.
Qed.

Lemma PS_sched : forall hs hl canc log u, PS hs hl canc log ->
  PS (hs ++ [CbAction (length hl)]) (hl ++ [(false, [length hs])]) canc (log ++ [ARet u]).
Proof.
  intros hs hl canc log u P.
  assert (P' : PS hs hl canc (log ++ [ARet u])) by (apply PS_other; [exact P|discriminate|discriminate]).
  destruct P' as [A B C D E]. constructor; try assumption.
  - rewrite !app_length. cbn. lia.
  - intros h c N. apply nth_error_app_inv in N. destruct N as [N|[-> ->]]; [apply B, N|]. rewrite A. reflexivity.
  - intros v e N. apply nth_error_app_inv in N. destruct N as [N|[-> ->]]; [apply C, N|]. rewrite A. reflexivity.
Qed.

Lemma PS_disp : forall hs hl canc log u, PS hs hl canc log -> PS hs hl ([u] ++ canc) (log ++ [ADispRet u]).
Proof.
  intros hs hl canc log u [A B C D E]. constructor; try assumption.
  - rewrite disp_ok_app, D. reflexivity.
  - intros v I. rewrite dseen_app in I. cbn [dseen] in I. cbn [app amem]. destruct I as [<-|I].
    + rewrite Nat.eqb_refl. reflexivity.
    + rewrite (E v I). apply orb_true_r.
Qed.

Lemma PS_start : forall hs hl canc log h, PS hs hl canc log -> amem h canc = false -> PS hs hl canc (log ++ [AStart h]).
Proof.
  intros hs hl canc log h [A B C D E] M. constructor; try assumption.
  - rewrite disp_ok_app, D. cbn [andb disp_ok]. rewrite andb_true_r. apply negb_true_iff.
    destruct (amem h (dseen [] log)) eqn:X; [|reflexivity]. apply amem_in in X. rewrite (E h X) in M. discriminate M.
  - intros u I. rewrite dseen_app in I. cbn [dseen] in I. apply E, I.
Qed.

Definition PSs (s : ash) (log : list aev) : Prop := PS (ahs s) (ahl s) (acanc s) log.
Definition tabs (s s' : ash) : Prop := ahs s' = ahs s /\ ahl s' = ahl s /\ acanc s' = acanc s.
Lemma PSs_tabs : forall s s' log, tabs s s' -> PSs s log -> PSs s' log.
Proof. intros s s' log (A & B & C) P. unfold PSs. rewrite A, B, C. exact P. Qed.
Lemma tabs_refl : forall s, tabs s s.
Proof. intros. repeat split. Qed.
Lemma tabs_trans : forall a b c, tabs a b -> tabs b c -> tabs a c.
Proof. intros a b c (A & B & C) (A' & B' & C'). repeat split; congruence. Qed.

(* no dispose in progress, not inside stage2 *)
Definition okph (ph : aphase) : Prop :=
  match ph with LStage2b _ _ _ => False | LPre c _ | LAct _ c _ _ => c = None | _ => True end.

Lemma plain_do_sched : forall s d,
  ahs (fst (do_sched false s d)) = ahs s ++ [CbAction (length (ahl s))] /\
  ahl (fst (do_sched false s d)) = ahl s ++ [(false, [length (ahs s)])] /\
  acanc (fst (do_sched false s d)) = acanc s.
Proof. intros s d. unfold do_sched. destruct (d <=? 0); cbn; repeat split. Qed.

Section Plain.
Variable fixed : bool.
Variable abody : nat -> list aop.

Lemma PSs_do_sched : forall s d log, PSs s log -> PSs (fst (do_sched false s d)) (log ++ snd (do_sched false s d)).
Proof.
  intros s d log P. unfold PSs. destruct (plain_do_sched s d) as (A & B & C). rewrite A, B, C, do_sched_out.
  apply PS_sched, P.
Qed.

(* a call of the plain scheduler: no dispose is ever left in progress *)
Lemma plain_cstep : forall ol s cur todo s' cur' todo' out log,
  cstep false fixed ol s cur todo s' cur' todo' out -> cur = None -> PSs s log -> PSs s' (log ++ out) /\ cur' = None.
Proof.
  intros ol s cur todo s' cur' todo' out log C.
  destruct C as [r|d r|u r N|u r two l N M|u r l N M D|u r N M D|u r x l N M D|u r two l N M D| | | |r|t r L|t r];
    intros E P; try discriminate E.
  - split; [apply PSs_do_sched, P|reflexivity].
  - split; [apply PSs_do_sched, P|reflexivity].
  - split; [|reflexivity]. apply PS_other; [exact P|discriminate|discriminate].
  - split; [|reflexivity]. apply PS_other; [exact P|discriminate|discriminate].
  - split; [|reflexivity]. unfold PSs. cbn [ahs ahl acanc].
    pose proof (ps_hl _ _ _ _ P u _ N) as E'. injection E' as ->. apply PS_disp, P.
  - (* C_two_empty, C_two_first: the plain tables have no two-stage entry *)
    pose proof (ps_hl _ _ _ _ P u _ N) as E'. discriminate E'.
  - pose proof (ps_hl _ _ _ _ P u _ N) as E'. discriminate E'.
  - (* C_marshal: the direct path is taken whenever ts = false *)
    cbn [andb negb] in D. rewrite orb_true_r in D. discriminate D.
  - split; [|reflexivity]. apply PS_other; [exact P|discriminate|discriminate].
  - split; [|reflexivity]. apply PS_other; [exact P|discriminate|discriminate].
  - split; [apply PSs_do_sched, P|reflexivity].
Qed.

Lemma tabs_begin : forall s, tabs s (fst (begin_iter s)) /\ okph (snd (begin_iter s)).
Proof. intros s. cbn [begin_iter fst snd]. repeat split. Qed.
Lemma tabs_stop : forall s, tabs s (fst (stop_loop s)) /\ okph (snd (stop_loop s)).
Proof. intros s. unfold stop_loop. destruct (asegs s); cbn; repeat split. Qed.
Lemma tabs_end : forall s, tabs s (fst (end_iter s)) /\ okph (snd (end_iter s)).
Proof. intros s. unfold end_iter. destruct (astopping s); [apply tabs_stop|apply tabs_begin]. Qed.
Lemma tabs_next : forall s k, tabs s (fst (next_handle s k)) /\ okph (snd (next_handle s k)).
Proof.
  intros s k. unfold next_handle. destruct k as [|k']; [apply tabs_end|].
  destruct (aready s); [apply tabs_end|]. cbn. repeat split.
Qed.

Lemma plain_loop_step : forall quiet s ph s' ph' out log,
  loop_step false fixed abody quiet s ph = Some (s', ph', out) ->
  okph ph -> PSs s log -> PSs s' (log ++ out) /\ okph ph'.
Proof.
  intros quiet s ph s' ph' out log H OK P. apply loop_step_spec in H.
  destruct H as [cur todo s' cur' todo' out C|u k cur todo s' cur' todo' out C|s1 QU ->|h k M|h k u M N|h k u d M N
                |ph s1 k out F]; cbn [okph] in *.
  - destruct (plain_cstep _ _ _ _ _ _ _ _ log C OK P) as [P' ->]. split; [exact P'|reflexivity].
  - destruct (plain_cstep _ _ _ _ _ _ _ _ log C OK P) as [P' ->]. split; [exact P'|reflexivity].
  - split; [|apply tabs_begin]. apply PS_nil. eapply PSs_tabs; [apply tabs_begin|]. exact P.
  - split; [apply PS_nil, P|exact I].
  - pose proof (ps_hs _ _ _ _ P h _ N) as E. injection E as ->. split; [|reflexivity]. apply PS_start; assumption.
  - pose proof (ps_hs _ _ _ _ P h _ N) as E. discriminate E.
  - split; [|apply tabs_next]. eapply PSs_tabs; [apply tabs_next|].
    destruct F as [dl due rst SD|h k M|h k M|h k u f N|h k N|u k|u h k]; try (apply PS_nil, P);
      try (apply PS_other; [exact P|discriminate|discriminate]).
    + (* F_cancel: the plain tables hold no cancel_handle *)
      pose proof (ps_hs _ _ _ _ P h _ N) as E. discriminate E.
    + (* F_append: [okph] excludes stage2 *)
      destruct OK.
Qed.

Definition okth (t : athread) : Prop := match t with AF c _ => c = None | AL ph => okph ph end.
Definition invPl (c : aconfig) : Prop :=
  PSs (a_sh c) (AL_ c) /\ forall tid t, nth_error (a_ths c) tid = Some t -> okth t.

Lemma okth_upd : forall ths tid t,
  (forall j y, nth_error ths j = Some y -> okth y) -> okth t ->
  forall j y, nth_error (aupd tid t ths) j = Some y -> okth y.
Proof.
  intros ths tid t H Ht j y N. destruct (Nat.eq_dec j tid) as [->|NE].
  - destruct (nth_error ths tid) as [old|] eqn:O.
    + rewrite (anth_upd_same _ _ _ _ _ O) in N. inv N. exact Ht.
    + rewrite aupd_none in N by exact O. eapply H, N.
  - rewrite anth_upd_other in N by exact NE. eapply H, N.
Qed.

Lemma invPl_step : forall c tid, invPl c -> invPl (atstep false fixed abody c tid).
Proof.
  intros c tid [P T]. unfold atstep. destruct (nth_error (a_ths c) tid) as [[cur todo|ph]|] eqn:N; [| |split; assumption].
  - pose proof (T tid _ N) as K. cbn [okth] in K. subst cur.
    destruct (call_step false fixed false (a_sh c) None todo) as [[[[s' cur'] todo'] out]|] eqn:CS; [|split; assumption].
    destruct (plain_cstep _ _ _ _ _ _ _ _ (AL_ c) (call_step_spec _ _ _ _ _ _ _ _ _ _ CS) eq_refl P) as [P' ->].
    split; [rewrite AL_step; exact P'|]. cbn [a_ths]. apply okth_upd; [exact T|reflexivity].
  - destruct (loop_step false fixed abody _ (a_sh c) ph) as [[[s' ph'] out]|] eqn:LS; [|split; assumption].
    destruct (plain_loop_step _ _ _ _ _ _ (AL_ c) LS (T tid _ N) P) as [P' K].
    split; [rewrite AL_step; exact P'|]. cbn [a_ths]. apply okth_upd; [exact T|exact K].
Qed.

Lemma invPl_tick : forall c d, invPl c -> invPl (atick c d).
Proof. intros c d [P T]. split; [exact P|exact T]. Qed.

Lemma invPl_init : forall t0 pre segs progs, invPl (ainit t0 pre segs progs).
Proof.
  intros. split.
  - unfold PSs, ainit, AL_. cbn. constructor; try reflexivity; try (intros; rewrite anth_nil in *; discriminate).
    intros u [].
  - intros tid t N. unfold ainit in N. cbn [a_ths] in N. destruct tid as [|n]; cbn [nth_error] in N.
    + inv N. reflexivity.
    + apply nth_error_In, in_map_iff in N. destruct N as [p [<- _]]. reflexivity.
Qed.

Lemma invPl_reach : forall t0 pre segs progs sched, invPl (arun false fixed abody (ainit t0 pre segs progs) sched).
Proof. intros. apply arun_inv; [exact invPl_step|exact invPl_tick|apply invPl_init]. Qed.

(* the plain AsyncIOScheduler, ANY foreign threads, repaired or not: once dispose() has returned the
   action does not start *)
Theorem aio_cancel_effective_plain : forall t0 pre segs progs sched l1 u l2,
  AL_ (arun false fixed abody (ainit t0 pre segs progs) sched) = l1 ++ ADispRet u :: l2 -> ~ In (AStart u) l2.
Proof.
  intros t0 pre segs progs sched l1 u l2 E.
  destruct (invPl_reach t0 pre segs progs sched) as [P _].
  pose proof (ps_log _ _ _ _ P) as L. rewrite E in L. eapply disp_ok_spec, L.
Qed.

(* when dispose() has returned, the call's handle is cancelled and stays so *)
Theorem aio_dispose_returns_cancelled_plain : forall t0 pre segs progs sched u h,
  let c := arun false fixed abody (ainit t0 pre segs progs) sched in
  In (ADispRet u) (AL_ c) -> owner (a_sh c) h = Some u -> amem h (acanc (a_sh c)) = true.
Proof.
  intros t0 pre segs progs sched u h c I O.
  destruct (invPl_reach t0 pre segs progs sched) as [P _]. fold c in P.
  unfold owner in O. destruct (nth_error (ahs (a_sh c)) h) as [x|] eqn:N; [|discriminate O].
  pose proof (ps_hs _ _ _ _ P h x N) as ->. inv O.
  apply (ps_seen _ _ _ _ P). apply amem_in. apply amem_dseen. right. exact I.
Qed.

End Plain.

(* both classes under one statement *)
Theorem aio_cancel_effective_all : forall ts fixed abody t0 pre segs progs sched l1 u l2,
  (ts = true -> fixed = true \/ progs = []) ->
  AL_ (arun ts fixed abody (ainit t0 pre segs progs) sched) = l1 ++ ADispRet u :: l2 -> ~ In (AStart u) l2.
Proof.
  intros ts fixed abody t0 pre segs progs sched l1 u l2 H. destruct ts.
  - apply aio_cancel_effective. destruct (H eq_refl) as [ -> | -> ]; [left; reflexivity|right; reflexivity].
  - apply aio_cancel_effective_plain.
Qed.

(* while the winning dispose() is still in future.result(), a second dispose() of the same disposable returns at
   once (Disposable.dispose is idempotent), and the action starts after that return.
   T1: schedule(); T1: dispose() -- marshalled, waits; T2: dispose() -- no-op, returns; loop: runs the action *)
Definition noop_witness : aconfig :=
  arun true true noaction (ainit 0 [] [] [[ANow; ADispose 0%nat]; [ADispose 0%nat]])
       [AMStep 0; AMStep 1; AMStep 1; AMStep 2; AMStep 0; AMStep 0; AMStep 0]%nat.
