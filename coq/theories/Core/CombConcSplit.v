(* The subscriber's AutoDetachObserver with its check and its update as TWO steps (C43).

   Core/CombConc.v runs the subscriber's wrapper ([fin]) as ONE atomic test-and-set of is_stopped,
   so "what the subscriber's callbacks see obeys Next* (Err|Done)?" holds there of every operator,
   the refuted ones included (CombConcFacts.grammar_is_wrapper).  The real wrapper
   (reactivex/observer/autodetachobserver.py) is unsynchronised:
       on_next:       if self.is_stopped: return          # read
                      self._on_next(value)                # callback
       on_error / on_completed:
                      if self.is_stopped: return          # read
                      self.is_stopped = True; self._on_xxx(..)   # set + callback
   This file refines the GENERIC part only ([gact] -> [gact2]); the operators' step functions
   ([zip_step], [cl_step], .. of Core/CombConc.v) are used UNCHANGED.  A thread inside a downstream
   call d first reads is_stopped ([Q (PI h d k)]): stopped -> the call returns; not stopped -> it
   parks at the new yield point [QW h d k] ("read False, callback not yet run").  From [QW] it runs
   the callback and (for a terminal d) sets the flag -- whatever the flag has become meanwhile.

   - [cover_run]: every run of the atomic model (the one K3 ties to /repo) is a run of the split
     model with the same log (schedule the two halves back to back).
   - [split_gen]: in the split model the grammar is a CONSEQUENCE of mutual exclusion of the
     downstream calls: any step-invariant that implies "two threads inside are the same thread"
     gives Next* (Err|Done)? for all schedules; instantiated for the lock discipline ([split_lock]; Props/C43.v
     applies it to the seven lock-based operators) and for amb ([split_amb]).
   - with [fx = false] the operators are NOT grammatical in the split model (vm_compute witnesses): here,
     unlike in the atomic model, the grammar tells [fx = false] from [fx = true].
   The split yield point is finer than K3's granularity (K3 does not preempt inside the
   AutoDetachObserver), so these are theorems about a refinement of the tied model, connected to it
   by [cover_run]. *)
From RxVerif Require Import Base.Prelude Core.Lts Core.LtsFacts Core.CombConc Core.CombConcFacts.
Local Open Scope nat_scope.

Inductive pos2 :=
| Q (l : pos)                          (* a yield point of Core/CombConc.v *)
| QW (h : bool) (d : dev) (k : nat).   (* inside the call d: is_stopped was read False, callback not yet run *)

Definition base (q : pos2) : pos := match q with Q l => l | QW h d k => PI h d k end.
Definition start2 (e : sev) : pos2 := Q (start e).
Definition holds2 (q : pos2) : bool := holds (base q).
Definition inside2 (q : pos2) : bool := inside (base q).

Definition liftr {S} (r : option (gsh S * option pos * list cobs)) : option (gsh S * option pos2 * list cobs) :=
  match r with Some (sh, nxt, out) => Some (sh, option_map Q nxt, out) | None => None end.

Section Split.
Context {S : Type}.
Variable ostep : nat -> S -> pos -> option (S * option pos).

Definition gact2 (tid : nat) (sh : gsh S) (q : pos2) : option (gsh S * option pos2 * list cobs) :=
  match q with
  | Q (PI h d k) =>
      if g_dn sh then liftr (gact ostep tid sh (PI h d k))       (* stopped: the call returns *)
      else Some (sh, Some (QW h d k), [])                          (* read False *)
  | Q l => liftr (gact ostep tid sh l)
  | QW h d k =>                                                    (* callback (+ set), on the stale reading *)
      match gact ostep tid (GS (g_lock sh) false (g_st sh)) (PI h d k) with
      | Some (sh', nxt, out) => Some (GS (g_lock sh') (g_dn sh || g_dn sh') (g_st sh'), option_map Q nxt, out)
      | None => None
      end
  end.

Definition grun2 (st0 : S) (progs : list (list sev)) (sched : list nat) : @config (gsh S) pos2 sev cobs :=
  run start2 gact2 (init (GS None false st0) progs) sched.

Notation config2 := (@config (gsh S) pos2 sev cobs).
Notation thread2 := (@Lts.thread pos2 sev).
Notation gstep2 := (tstep start2 gact2).

Definition enter_of (nxt : option pos) : list cobs := match nxt with Some (PI _ d _) => [CEnter d] | _ => [] end.

(* one step of the split wrapper: the read alone, or a step of [gact]; conjuncts 2-4 of the second case are
   [lock_step] spelled out ([gact2_wraps] reassembles them) *)
Lemma gact2_inv : forall tid sh q sh' nxt2 out,
  gact2 tid sh q = Some (sh', nxt2, out) ->
  (exists h d k, q = Q (PI h d k) /\ g_dn sh = false /\ sh' = sh /\ nxt2 = Some (QW h d k) /\ out = []) \/
  (exists nxt,
     nxt2 = option_map Q nxt /\
     ostep tid (g_st sh) (base q) = Some (g_st sh', nxt) /\
     (is_acq (base q) = true -> lock_free tid (g_lock sh) = true) /\
     g_lock sh' = (if match nxt with Some p => holds p | None => false end then Some tid
                   else if holds (base q) || is_acq (base q) then None else g_lock sh) /\
     (forall h d k, q = Q (PI h d k) -> g_dn sh = true) /\
     g_dn sh' = match q with QW _ d _ => g_dn sh || is_term d | _ => g_dn sh end /\
     out = match q with Q (PI _ d _) => [CExit d] | QW _ d _ => [CUser d; CExit d] | _ => [] end ++ enter_of nxt).
Proof.
  intros tid sh q sh' nxt2 out A. destruct q as [l|h d k].
  - assert (C : (exists h d k, l = PI h d k /\ g_dn sh = false) \/ (forall h d k, l = PI h d k -> g_dn sh = true)).
    { destruct l as [| | | | |h d k]; try (right; intros; discriminate).
      destruct (g_dn sh) eqn:Dn; [right; reflexivity|left; eauto]. }
    destruct C as [(h & d & k & -> & Dn)|Hdn].
    + left. cbn [gact2] in A. rewrite Dn in A. injection A as <- <- <-. exists h, d, k. repeat split; assumption.
    + (* a step of [gact], made on a true reading of is_stopped if inside a downstream call *)
      right. assert (B : liftr (gact ostep tid sh l) = Some (sh', nxt2, out)).
      { rewrite <- A. destruct l as [| | | | |h d k]; try reflexivity. cbn [gact2]. rewrite (Hdn h d k eq_refl). reflexivity. }
      clear A. unfold liftr in B. destruct (gact ostep tid sh l) as [[[s1 n1] o1]|] eqn:G; [|discriminate B].
      injection B as <- <- <-. destruct (gact_inv ostep _ _ _ _ _ _ G) as ((Os & Ha & El) & Ed & ->).
      exists n1. repeat split; try assumption.
      * intros h d k [= ->]. exact (Hdn h d k eq_refl).
      * rewrite Ed. clear - Hdn. destruct l as [| | | | |h d k]; try reflexivity. rewrite (Hdn h d k eq_refl). reflexivity.
      * f_equal. clear - Hdn. destruct l as [| | | | |h d k]; try reflexivity. rewrite (Hdn h d k eq_refl). reflexivity.
  - right. cbn [gact2] in A.
    destruct (gact ostep tid (GS (g_lock sh) false (g_st sh)) (PI h d k)) as [[[s1 n1] o1]|] eqn:G; [|discriminate A].
    injection A as <- <- <-. destruct (gact_inv ostep _ _ _ _ _ _ G) as ((Os & Ha & El) & Ed & ->).
    cbn [g_st g_lock g_dn] in *. exists n1. repeat split; try assumption; [intros; discriminate|rewrite Ed; reflexivity].
Qed.

Definition tinside2 (t : thread2) : bool := at_pos inside2 t.
Definition excl2 (c : config2) : Prop :=
  forall i j ti tj, nth_error (c_ths c) i = Some ti -> nth_error (c_ths c) j = Some tj ->
                    tinside2 ti = true -> tinside2 tj = true -> i = j.

(* grammatical so far; all Next while not stopped; whoever has read False and not yet run its
   callback: the flag is still False *)
Definition GInv2 (c : config2) : Prop :=
  gram (users (untag (c_log c))) = true /\
  (g_dn (c_sh c) = false -> all_next (users (untag (c_log c))) = true) /\
  (forall tid t h d k, nth_error (c_ths c) tid = Some t -> t_cur t = Some (QW h d k) -> g_dn (c_sh c) = false).

Lemma users_enter : forall nxt, users (enter_of nxt) = [].
Proof. intros [[]|]; reflexivity. Qed.

Lemma ginv2_step : forall c tid, excl2 c -> GInv2 c -> GInv2 (gstep2 c tid).
Proof.
  intros c tid Ex G. apply (tstep_preserves start2 gact2); [exact G|]. destruct G as (G1 & G2 & G3).
  intros t q todo s' nxt2 out N F A.
  destruct (gact2_inv _ _ _ _ _ _ A) as [(h & d & k & -> & Dn & -> & -> & ->)|(nxt & -> & _ & _ & _ & _ & Edn & Eout)].
  - (* the read *)
    unfold GInv2. cbn [c_log c_sh c_ths map]. rewrite app_nil_r. split; [exact G1|]. split; [exact G2|].
    intros; exact Dn.
  - unfold GInv2. cbn [c_log c_sh c_ths]. rewrite untag_step, users_app, Eout, users_app, users_enter, app_nil_r.
    (* whoever stands between read and callback after the step did so before: the thread that stepped does not *)
    assert (Hold : forall j y h d k,
              nth_error (upd_nth tid (Thread (option_map Q nxt) todo) (c_ths c)) j = Some y ->
              t_cur y = Some (QW h d k) -> j <> tid /\ nth_error (c_ths c) j = Some y).
    { intros j y h d k Ny Cy. destruct (nth_upd_cases _ _ _ _ _ _ _ N Ny) as [[-> ->]|H]; [|exact H].
      cbn [t_cur] in Cy. destruct nxt; discriminate Cy. }
    destruct q as [l|h d k].
    + (* an ordinary step, or a call returning because the flag was set *)
      assert (Eu : users (match l with PI _ d _ => [CExit d] | _ => [] end) = []) by (destruct l; reflexivity).
      rewrite Eu, app_nil_r, Edn. split; [exact G1|]. split; [exact G2|].
      intros j y h d k Ny Cy. exact (G3 j y h d k (proj2 (Hold j y h d k Ny Cy)) Cy).
    + (* the callback: the flag is still False, and nobody else is between read and callback *)
      assert (Ct : t_cur t = Some (QW h d k)) by exact (frame_at start2 inside2 (inside_start base start2 (fun e => eq_refl)) t _ todo F eq_refl).
      pose proof (G3 tid t h d k N Ct) as Dn. specialize (G2 Dn). rewrite Edn, Dn. cbn [orb users flat_map app].
      split; [exact (proj1 (gram_user _ d G2))|]. split; [exact (proj2 (gram_user _ d G2))|].
      intros j y h1 d1 k1 Ny Cy. exfalso. destruct (Hold j y h1 d1 k1 Ny Cy) as [Hj Ny']. apply Hj.
      apply (Ex j tid y t Ny' N); unfold tinside2, at_pos; [rewrite Cy|rewrite Ct]; reflexivity.
Qed.

Lemma ginv2_init : forall st0 progs, GInv2 (init (GS None false st0) progs).
Proof. intros. split; [reflexivity|]. split; [reflexivity|]. intros; reflexivity. Qed.

(* the generic theorem: any step-invariant that implies exclusivity of the downstream call gives
   the grammar of what the subscriber's callbacks see *)
Theorem split_gen : forall (J : config2 -> Prop) st0 progs,
  J (init (GS None false st0) progs) ->
  (forall c tid, J c -> J (gstep2 c tid)) ->
  (forall c, J c -> excl2 c) ->
  forall sched, let c := grun2 st0 progs sched in
  J c /\ gram (users (untag (c_log c))) = true.
Proof.
  intros J st0 progs J0 Js Je sched c.
  assert (H : J c /\ GInv2 c).
  { unfold c, grun2. apply (run_invariant start2 gact2 (fun c => J c /\ GInv2 c)).
    - intros c0 tid (Hj & Hg). split; [apply Js, Hj|]. apply ginv2_step; [apply Je, Hj|exact Hg].
    - split; [exact J0|apply ginv2_init]. }
  destruct H as (Hj & Hg & _). split; [exact Hj|exact Hg].
Qed.

Lemma gact2_wraps : wraps ostep base gact2.
Proof.
  intros tid sh q sh' nxt2 out A.
  destruct (gact2_inv _ _ _ _ _ _ A) as [(h & d & k & -> & _ & -> & -> & _)|(nxt & -> & Os & Ha & El & _)].
  - left. split; [reflexivity|]. exists (QW h d k). split; reflexivity.
  - right. destruct nxt as [p|]; repeat split; assumption.
Qed.

(* operators that make every downstream call while holding their lock *)
Hypothesis wf : lock_wf ostep.

Theorem split_lock : forall st0 progs sched,
  let c := grun2 st0 progs sched in
  gram (users (untag (c_log c))) = true /\ excl2 c /\
  (forall tid t, nth_error (c_ths c) tid = Some t -> at_pos holds2 t = true -> g_lock (c_sh c) = Some tid).
Proof.
  intros st0 progs sched c.
  destruct (split_gen (JLock base) st0 progs) with (sched := sched) as (Hj & Hg).
  - apply jlock_init.
  - exact (jlock_step ostep base start2 gact2 (fun e => eq_refl) gact2_wraps wf).
  - intros c0 J i j ti tj. exact (jlock_excl base c0 i j ti tj J).
  - fold c in Hj, Hg. split; [exact Hg|]. split; [|exact (proj1 Hj)].
    intros i j ti tj. exact (jlock_excl base c i j ti tj Hj).
Qed.
End Split.

(* amb forwards outside the lock; exclusive because only the chosen side forwards *)
Theorem split_amb : forall progs sched,
  let c := grun2 am_step am_init progs sched in
  gram (users (untag (c_log c))) = true /\ excl2 c /\
  (forall tid t, nth_error (c_ths c) tid = Some t -> tinside2 t = true -> am_choice (g_st (c_sh c)) = Some tid).
Proof.
  intros progs sched c.
  destruct (split_gen am_step (OInv am_owner inside2) am_init progs) with (sched := sched) as (Hj & Hg).
  - apply oinv_init.
  - exact (am_oinv_step base start2 (gact2 am_step) (fun e => eq_refl) (gact2_wraps am_step)).
  - intros c0 I i j ti tj Ni Nj Ti Tj. exact (oinv_excl am_owner inside2 c0 i j ti tj I Ni Nj Ti Tj).
  - fold c in Hj, Hg. split; [exact Hg|split].
    + intros i j ti tj Ni Nj Ti Tj. exact (oinv_excl am_owner inside2 c i j ti tj Hj Ni Nj Ti Tj).
    + exact Hj.
Qed.

(* what [split_lock] gives, as a predicate; the split runs of the eight operators of Core/CombConc.v *)
Definition split_statement {S} (c : @config (gsh S) pos2 sev cobs) : Prop :=
  gram (users (untag (c_log c))) = true /\ excl2 c /\
  (forall tid t, nth_error (c_ths c) tid = Some t -> at_pos holds2 t = true -> g_lock (c_sh c) = Some tid).

Definition run2_zip fx progs sched := grun2 (zip_step fx) (zip_init (length progs)) progs sched.
Definition run2_cl fx progs sched := grun2 (cl_step fx) (cl_init (length progs)) progs sched.
Definition run2_wl fx progs sched := grun2 (wl_step fx) (wl_init (length progs)) progs sched.
Definition run2_ma fx progs sched := grun2 (ma_step fx (length progs)) (ma_init (length progs)) progs sched.
Definition run2_mm fx m progs sched := grun2 (mm_step fx (length progs) m) (mm_init (length progs)) progs sched.
Definition run2_am progs sched := grun2 am_step am_init progs sched.
Definition run2_wc count progs sched := grun2 (wc_step count) wc_init progs sched.
Definition run2_wt span shift progs sched := grun2 (wt_step shift) (wt_init span shift) progs sched.

(* the atomic model is covered: run the two halves back to back *)
Section Cover.
Context {S : Type}.
Variable ostep : nat -> S -> pos -> option (S * option pos).
Notation config1 := (@config (gsh S) pos sev cobs).
Notation config2 := (@config (gsh S) pos2 sev cobs).

Definition liftt (t : @Lts.thread pos sev) : @Lts.thread pos2 sev := Thread (option_map Q (t_cur t)) (t_todo t).
Definition liftc (c : config1) : config2 := Config (c_sh c) (map liftt (c_ths c)) (c_log c).

(* the split schedule of one atomic step: nothing for a stutter, twice for a downstream call that
   finds the subscriber not stopped, once otherwise *)
Definition expand1 (c : config1) (tid : nat) : list nat :=
  match nth_error (c_ths c) tid with
  | None => []
  | Some t =>
      match next_frame start t with
      | None => []
      | Some (l, _) =>
          match gact ostep tid (c_sh c) l with
          | None => []
          | Some _ => match l with PI _ _ _ => if g_dn (c_sh c) then [tid] else [tid; tid] | _ => [tid] end
          end
      end
  end.
Fixpoint expand (c : config1) (sched : list nat) : list nat :=
  match sched with
  | [] => []
  | tid :: r => expand1 c tid ++ expand (tstep start (gact ostep) c tid) r
  end.

Lemma next_frame_lift : forall t l todo,
  next_frame start t = Some (l, todo) -> next_frame start2 (liftt t) = Some (Q l, todo).
Proof.
  apply (frame_cases start (fun t l todo => next_frame start2 (liftt t) = Some (Q l, todo))); reflexivity.
Qed.

Lemma tstep2_eq : forall (c2 : config2) tid t2 q todo s' l' out,
  nth_error (c_ths c2) tid = Some t2 -> next_frame start2 t2 = Some (q, todo) ->
  gact2 ostep tid (c_sh c2) q = Some (s', l', out) ->
  tstep start2 (gact2 ostep) c2 tid
  = Config s' (upd_nth tid (Thread l' todo) (c_ths c2)) (c_log c2 ++ map (pair tid) out).
Proof. intros c2 tid t2 q todo s' l' out N F A. unfold tstep. rewrite N, F, A. reflexivity. Qed.

Lemma map_upd_nth : forall A B (f : A -> B) k x l, map f (upd_nth k x l) = upd_nth k (f x) (map f l).
Proof.
  intros A B f k x l. revert k. induction l as [|y t IH]; intros k; [destruct k; reflexivity|].
  destruct k; cbn [upd_nth map]; [reflexivity|]. rewrite IH. reflexivity.
Qed.
Lemma upd_upd_nth : forall A k (x y : A) l, upd_nth k x (upd_nth k y l) = upd_nth k x l.
Proof.
  intros A k x y l. revert k. induction l as [|z t IH]; intros k; [destruct k; reflexivity|].
  destruct k; cbn [upd_nth]; [reflexivity|]. rewrite IH. reflexivity.
Qed.

Lemma gsh_eta : forall sh : gsh S, GS (g_lock sh) (g_dn sh) (g_st sh) = sh.
Proof. intros []. reflexivity. Qed.

Lemma cover_step : forall (c : config1) tid,
  run start2 (gact2 ostep) (liftc c) (expand1 c tid) = liftc (tstep start (gact ostep) c tid).
Proof.
  intros c tid. unfold expand1, tstep at 1.
  destruct (nth_error (c_ths c) tid) as [t|] eqn:N; [|reflexivity].
  destruct (next_frame start t) as [[l todo]|] eqn:F; [|reflexivity].
  destruct (gact ostep tid (c_sh c) l) as [[[s' l'] out]|] eqn:A; [|reflexivity].
  assert (N2 : nth_error (c_ths (liftc c)) tid = Some (liftt t)) by (cbn [liftc c_ths]; apply map_nth_error, N).
  pose proof (next_frame_lift t l todo F) as F2.
  assert (Once : forall (Hl : gact2 ostep tid (c_sh c) (Q l) = liftr (gact ostep tid (c_sh c) l)),
            run start2 (gact2 ostep) (liftc c) [tid]
            = liftc (Config s' (upd_nth tid (Thread l' todo) (c_ths c)) (c_log c ++ map (pair tid) out))).
  { intros Hl. rewrite run_cons, run_nil. rewrite A in Hl. cbn [liftr] in Hl.
    rewrite (tstep2_eq (liftc c) tid (liftt t) (Q l) todo s' (option_map Q l') out N2 F2 Hl).
    unfold liftc. cbn [c_sh c_ths c_log]. rewrite map_upd_nth. reflexivity. }
  destruct l as [e| |k0 a|k0 a|h0 a|h d k]; try (apply Once; reflexivity).
  destruct (g_dn (c_sh c)) eqn:Dn.
  - apply Once. cbn [gact2]. rewrite Dn. reflexivity.
  - (* the read, then the callback *)
    rewrite run_cons, run_cons, run_nil.
    assert (A1 : gact2 ostep tid (c_sh (liftc c)) (Q (PI h d k)) = Some (c_sh c, Some (QW h d k), []))
      by (cbn [gact2 liftc c_sh]; rewrite Dn; reflexivity).
    rewrite (tstep2_eq (liftc c) tid (liftt t) _ todo _ _ _ N2 F2 A1).
    set (c1 := Config (c_sh c) (upd_nth tid (Thread (Some (QW h d k)) todo) (c_ths (liftc c)))
                      (c_log (liftc c) ++ map (pair tid) [])).
    assert (N3 : nth_error (c_ths c1) tid = Some (Thread (Some (QW h d k)) todo))
      by (cbn [c1 c_ths]; exact (nth_upd_same _ _ _ _ _ N2)).
    assert (A2 : gact2 ostep tid (c_sh c1) (QW h d k) = Some (s', option_map Q l', out)).
    { cbn [gact2 c1 c_sh]. rewrite <- Dn, gsh_eta, A, Dn. cbn [orb]. rewrite gsh_eta. reflexivity. }
    rewrite (tstep2_eq c1 tid _ (QW h d k) todo _ _ _ N3 eq_refl A2).
    unfold liftc, c1. cbn [c_sh c_ths c_log map]. rewrite app_nil_r, upd_upd_nth, map_upd_nth. reflexivity.
Qed.

Lemma cover_run : forall sched (c : config1),
  run start2 (gact2 ostep) (liftc c) (expand c sched) = liftc (run start (gact ostep) c sched).
Proof.
  induction sched as [|tid r IH]; intros c; [reflexivity|].
  cbn [expand]. rewrite run_app, cover_step, IH. reflexivity.
Qed.

Lemma liftc_init : forall sh progs, liftc (init sh progs) = init sh progs.
Proof.
  intros sh progs. unfold liftc, init. cbn [c_sh c_ths c_log]. rewrite map_map. reflexivity.
Qed.

End Cover.

(* [fx = false]: what the subscriber sees in the split model is not grammatical *)
Definition users2 {S} (c : @config (gsh S) pos2 sev cobs) : list dev := users (untag (c_log c)).

Lemma old_zip_users : users2 (run2_zip false [[SErr]; [SDone]] [0;0;1;1;1;1;0;1]) = [DErr; DDone].
Proof. vm_compute. reflexivity. Qed.

(* both on_completed calls pass the check before either sets the flag: the subscriber is completed twice *)
Lemma old_zip_users_twice :
  users2 (run2_zip false [[SNext; SDone]; [SNext; SNext]] [0;0;0;0;0;1;1;1;1;1;0;0;1;1;1;1;0;1]) = [DNext; DDone; DDone].
Proof. vm_compute. reflexivity. Qed.
(* an element after the error: the locked on_next has read False, the passed-through on_error overtakes it *)
Lemma old_cl_users : users2 (run2_cl false [[SNext; SErr]; [SNext]] [0;0;1;1;1;0;0;0;1]) = [DErr; DNext].
Proof. vm_compute. reflexivity. Qed.
Lemma old_wl_users : users2 (run2_wl false [[SNext; SDone]; [SNext; SErr]] [1;1;0;0;0;1;1;1;0]) = [DErr; DNext].
Proof. vm_compute. reflexivity. Qed.
Lemma old_ma_users : users2 (run2_ma false [[SNext; SErr]; [SNext]] [0;0;0;1;1;1;0;0;0;1]) = [DErr; DNext].
Proof. vm_compute. reflexivity. Qed.
Lemma old_mm_users : users2 (run2_mm false 1 [[SNext; SErr]; [SNext]] [0;0;0;0;0;1;1;1;0;0;0;1]) = [DErr; DNext].
Proof. vm_compute. reflexivity. Qed.
