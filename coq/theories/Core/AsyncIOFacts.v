(* Facts about Core/AsyncIO.v (C33): theorems over ALL schedules (thread steps and clock advances),
   any calls of the thread that runs the loop before run_forever(), any number of foreign threads
   with any programs, any action bodies.

   The invariant [Q] (a record) is about the shared state, the phase of the loop thread and the
   disposes in progress on the foreign threads:
     - every handle the loop can still reach is in exactly one of: held by the loop / _ready / _scheduled
       (no duplicates), stage handles never come back once consumed, so stage2 of a call runs at most
       once and the closure's handle list has at most two entries;
     - every handle of a call is cancelled, or still in the closure's handle list, or is the timer that
       stage2 has just created and not yet appended;
     - a call whose cancellation is complete has all its handles cancelled;
     - a foreign thread is in the middle of a direct dispose only while the loop has not started;
     - a thread waiting in future.result() is released only after its cancel_handle ran;
     - the log is accepted by the scanner "no AStart u after ADispRet u".

   The step functions of the model are read through relations: [cstep] for the calls a thread makes
   (call_step_spec), [lstep] for the loop thread (loop_step_spec), whose cases "... and the loop goes on with
   the next handle" are one constructor over [lfin].  The invariants of this file, of AsyncIOTime.v and of
   AsyncIOPlain.v are proved by cases on these.

   A step of a thread is taken apart into changes of the shared state that leave threads and log alone
   (a new call, a new handle, a cancellation, a future resolved: Q_new_call, Q_new_handle, Q_cancel_state,
   Q_add_fut), the bookkeeping of the calling thread and its log events (Q_exec), and for the loop thread
   the changes of phase, which [Q] sees through four observations only (Q_frame).

   Before all this: list facts about the model's tables ([aupd], [tinsert], [split_due], [drop_cancelled],
   [removelast]) and the log scanner [disp_ok] / [dseen].  At the end: [invL0] (actions start on thread 0,
   no side condition needed) and the two concrete runs that Props/C33.v evaluates. *)
From RxVerif Require Import Base.Prelude Core.AsyncIO.
Local Open Scope Z_scope.

(* [inversion] that substitutes the equations it produces and drops the hypothesis *)
Ltac inv H := inversion H; subst; clear H.
(* reduce the projections of [ash] applied to a record that is written out *)
Ltac proj := cbn [aclock arunning awoken ahs aready atimers acanc ahl adue adisp afut anfut aran aeff astopping asegs] in *.

Lemma anth_nil : forall A k, nth_error (@nil A) k = None.
Proof. destruct k; reflexivity. Qed.

Lemma anth_upd_same : forall A (l : list A) k x old,
  nth_error l k = Some old -> nth_error (aupd k x l) k = Some x.
Proof.
  induction l as [|y t IH]; intros k x old H; [destruct k; discriminate H|].
  destruct k as [|k']; cbn [aupd nth_error] in *; [reflexivity|]. eapply IH, H.
Qed.
Lemma anth_upd_other : forall A (l : list A) k j x, j <> k -> nth_error (aupd k x l) j = nth_error l j.
Proof.
  induction l as [|y t IH]; intros k j x H; [destruct k; reflexivity|].
  destruct k as [|k'], j as [|j']; cbn [aupd nth_error]; try reflexivity; [congruence|]. apply IH. congruence.
Qed.
Lemma aupd_length : forall A (l : list A) k x, length (aupd k x l) = length l.
Proof.
  induction l as [|y t IH]; intros k x; [destruct k; reflexivity|].
  destruct k; cbn [aupd length]; [reflexivity|]. rewrite IH. reflexivity.
Qed.
Lemma aupd_none : forall A (l : list A) k x, nth_error l k = None -> aupd k x l = l.
Proof.
  induction l as [|y t IH]; intros k x H; [destruct k; reflexivity|].
  destruct k; cbn in *; [discriminate H|]. f_equal. apply IH, H.
Qed.

Lemma amem_in : forall a l, amem a l = true <-> In a l.
Proof.
  induction l as [|b t IH]; cbn; [split; [discriminate|intros []]|].
  rewrite orb_true_iff, IH, Nat.eqb_eq. split; intros [H|H]; auto.
Qed.
Lemma amem_app : forall a l1 l2, amem a (l1 ++ l2) = amem a l1 || amem a l2.
Proof. induction l1; intros; cbn; [reflexivity|]. rewrite IHl1, orb_assoc. reflexivity. Qed.

Lemma nth_error_app_last : forall A (l : list A) x, nth_error (l ++ [x]) (length l) = Some x.
Proof. intros. rewrite nth_error_app2 by lia. rewrite Nat.sub_diag. reflexivity. Qed.

Lemma nth_error_app_old : forall A (l : list A) x h y, nth_error l h = Some y -> nth_error (l ++ [x]) h = Some y.
Proof. intros. rewrite nth_error_app1; [assumption|]. apply nth_error_Some. congruence. Qed.

Lemma nth_error_app_inv : forall A (l : list A) x h y,
  nth_error (l ++ [x]) h = Some y -> nth_error l h = Some y \/ (h = length l /\ y = x).
Proof.
  intros A l x h y H. destruct (Nat.lt_ge_cases h (length l)) as [L|L].
  - rewrite nth_error_app1 in H by exact L. left. exact H.
  - rewrite nth_error_app2 in H by exact L. destruct (h - length l)%nat as [|k] eqn:K; [|destruct k; discriminate H].
    inv H. right. split; [lia|reflexivity].
Qed.

(* heappush puts the new entry somewhere into the list *)
Lemma tinsert_split : forall w h l, exists pre post, l = pre ++ post /\ tinsert w h l = pre ++ (w, h) :: post.
Proof.
  induction l as [|[w' h'] t (pre & post & E1 & E2)]; cbn; [exists [], []; auto|].
  destruct (w <? w'); [exists [], ((w', h') :: t); auto|]. exists ((w', h') :: pre), post. cbn. rewrite <- E1, E2. auto.
Qed.

Lemma tinsert_in : forall w h l x, In x (tinsert w h l) <-> x = (w, h) \/ In x l.
Proof.
  intros w h l x. destruct (tinsert_split w h l) as (pre & post & -> & ->). rewrite !in_app_iff. cbn.
  split; intros [H|[H|H]]; subst; auto.
Qed.

Lemma split_due_due : forall now l due rest, split_due now l = (due, rest) ->
  forall h, In h due -> exists w, In (w, h) l /\ w <= now.
Proof.
  induction l as [|[w h] t IH]; intros due rest H h0 I; cbn in H; [inv H; destruct I|].
  destruct (w <=? now) eqn:E; [|inv H; destruct I].
  destruct (split_due now t) as [d r] eqn:S. inv H. apply Z.leb_le in E. destruct I as [<-|I].
  - exists w. split; [left; reflexivity|exact E].
  - destruct (IH d rest eq_refl h0 I) as [w0 [X Y]]. exists w0. split; [right; exact X|exact Y].
Qed.

Lemma split_due_rest : forall now l due rest, split_due now l = (due, rest) ->
  forall x, In x rest -> In x l.
Proof.
  induction l as [|[w h] t IH]; intros due rest H x I; cbn in H; [inv H; destruct I|].
  destruct (w <=? now) eqn:E; [|inv H; exact I].
  destruct (split_due now t) as [d r] eqn:S. inv H. right. eapply IH; [reflexivity|exact I].
Qed.

Lemma split_due_handles : forall now l due rest, split_due now l = (due, rest) ->
  map snd l = due ++ map snd rest.
Proof.
  induction l as [|[w h] t IH]; intros due rest H; cbn in H; [inv H; reflexivity|].
  destruct (w <=? now) eqn:E; [|inv H; reflexivity].
  destruct (split_due now t) as [d r] eqn:S. inv H. cbn. f_equal. apply IH. reflexivity.
Qed.

Lemma tinsert_handles_in : forall w h l x, In x (map snd (tinsert w h l)) <-> x = h \/ In x (map snd l).
Proof.
  intros w h l x. destruct (tinsert_split w h l) as (pre & post & -> & ->). rewrite !map_app, !in_app_iff. cbn.
  split; intros [H|[H|H]]; subst; auto.
Qed.

Lemma drop_cancelled_suffix : forall canc l, exists pre, l = pre ++ drop_cancelled canc l.
Proof.
  induction l as [|[w h] t IH]; cbn; [exists []; reflexivity|].
  destruct (amem h canc); [|exists []; reflexivity]. destruct IH as [pre E]. exists ((w, h) :: pre). cbn. f_equal. exact E.
Qed.

Lemma NoDup_app_drop : forall (a b c : list nat), NoDup (a ++ b ++ c) -> NoDup (a ++ c).
Proof. intros a b c. induction b as [|x b IH]; intros N; [exact N|]. apply IH. eapply NoDup_remove_1, N. Qed.

Lemma drop_cancelled_in : forall canc l x, In x (drop_cancelled canc l) -> In x l.
Proof.
  induction l as [|[w h] t IH]; intros x H; cbn in H; [exact H|].
  destruct (amem h canc); [right; apply IH, H|exact H].
Qed.

Lemma removelast_in : forall (l : list nat) x, In x (removelast l) -> In x l.
Proof.
  induction l as [|a l IH]; intros x H; [destruct H|]. cbn in H. destruct l; [destruct H|].
  destruct H as [<-|H]; [left; reflexivity|right; apply IH, H].
Qed.

Lemma in_last_or_removelast : forall (l : list nat) x, In x l -> x = last l 0%nat \/ In x (removelast l).
Proof.
  induction l as [|a l IH]; intros x H; [destruct H|]. destruct l as [|b l].
  - destruct H as [<-|[]]. left. reflexivity.
  - destruct H as [<-|H]; [right; left; reflexivity|]. destruct (IH x H) as [E|I]; [left; exact E|right; right; exact I].
Qed.

Lemma removelast_length : forall (l : list nat), length (removelast l) = pred (length l).
Proof. induction l as [|a l IH]; [reflexivity|]. cbn. destruct l; [reflexivity|]. cbn in *. rewrite IH. reflexivity. Qed.

Lemma last2_all : forall (l : list nat), (length l <= 2)%nat -> last2 l = l.
Proof. intros l H. unfold last2. replace (length l - 2)%nat with 0%nat by lia. reflexivity. Qed.

Lemma removelast2_nil : forall (l : list nat), (length l <= 2)%nat -> removelast2 l = [].
Proof.
  intros l H. unfold removelast2. destruct l as [|a [|b [|c l]]]; try reflexivity. cbn in H. lia.
Qed.

(* the log scanner: no start after dispose() returned *)
Fixpoint dseen (seen : list nat) (l : list aev) : list nat :=
  match l with
  | [] => seen
  | ADispRet u :: r => dseen (u :: seen) r
  | _ :: r => dseen seen r
  end.

Fixpoint disp_ok (seen : list nat) (l : list aev) : bool :=
  match l with
  | [] => true
  | ADispRet u :: r => disp_ok (u :: seen) r
  | AStart u :: r => negb (amem u seen) && disp_ok seen r
  | _ :: r => disp_ok seen r
  end.

Lemma dseen_app : forall a b seen, dseen seen (a ++ b) = dseen (dseen seen a) b.
Proof. induction a as [|e a IH]; intros b seen; [reflexivity|]. destruct e; cbn; apply IH. Qed.

Lemma disp_ok_app : forall a b seen, disp_ok seen (a ++ b) = disp_ok seen a && disp_ok (dseen seen a) b.
Proof.
  induction a as [|e a IH]; intros b seen; [reflexivity|]. destruct e; cbn; try apply IH.
  rewrite IH, andb_assoc. reflexivity.
Qed.

Lemma amem_dseen : forall l seen u, amem u seen = true \/ In (ADispRet u) l -> amem u (dseen seen l) = true.
Proof.
  induction l as [|e l IH]; intros seen u H; cbn.
  - destruct H as [H|[]]. exact H.
  - destruct e; try (apply IH; destruct H as [H|[H|H]]; [left; exact H|discriminate H|right; exact H]).
    apply IH. destruct H as [H|[H|H]].
    + left. cbn. rewrite H. apply orb_true_r.
    + inv H. left. cbn. rewrite Nat.eqb_refl. reflexivity.
    + right. exact H.
Qed.

Lemma disp_ok_spec : forall l1 u l2 seen,
  disp_ok seen (l1 ++ ADispRet u :: l2) = true -> ~ In (AStart u) l2.
Proof.
  intros l1 u l2 seen H I. rewrite disp_ok_app in H. apply andb_true_iff in H. destruct H as [_ H]. cbn in H.
  destruct (in_split _ _ I) as [m1 [m2 E]]. rewrite E, disp_ok_app in H. apply andb_true_iff in H. destruct H as [_ H].
  cbn in H. apply andb_true_iff in H. destruct H as [H _].
  rewrite (amem_dseen m1 (u :: dseen seen l1) u) in H; [discriminate H|]. left. cbn. rewrite Nat.eqb_refl. reflexivity.
Qed.

Lemma disp_ok_one_other : forall seen e, (forall u, e <> AStart u) -> disp_ok seen [e] = true.
Proof. intros seen e H. destruct e; try reflexivity. exfalso. eapply H. reflexivity. Qed.
Lemma dseen_one_other : forall seen e, (forall u, e <> ADispRet u) -> dseen seen [e] = seen.
Proof. intros seen e H. destruct e; try reflexivity. exfalso. eapply H. reflexivity. Qed.
Lemma disp_ok_no_start : forall out seen, (forall u, ~ In (AStart u) out) -> disp_ok seen out = true.
Proof.
  induction out as [|e out IH]; intros seen H; [reflexivity|].
  assert (H' : forall u, ~ In (AStart u) out) by (intros u I; apply (H u); right; exact I).
  destruct e; cbn; try apply IH, H'. destruct (H u). left. reflexivity.
Qed.
Lemma dseen_in : forall out seen u, In u (dseen seen out) -> In u seen \/ In (ADispRet u) out.
Proof.
  induction out as [|e out IH]; intros seen u I; [left; exact I|].
  destruct e; cbn in I; apply IH in I; destruct I as [I|I]; auto using in_cons.
  destruct I as [<-|I]; [right; left; reflexivity|left; exact I].
Qed.

Definition aevs (l : list (nat * Z * aev)) : list aev := map snd l.
Definition AL_ (c : aconfig) : list aev := aevs (a_log c).
Lemma aevs_app : forall a b, aevs (a ++ b) = aevs a ++ aevs b.
Proof. intros. unfold aevs. apply map_app. Qed.
Lemma aevs_stamp : forall tid clk out, aevs (astamp tid clk out) = out.
Proof. intros. unfold aevs, astamp. rewrite map_map. cbn. apply map_id. Qed.

(* what [Q] is written in.  [owner s h]: the call whose interval / stage2 callback sits in handle h;
   [stack s u], [twostage s u]: the handle list of the closure that call u returned, and whether u was scheduled
   in two stages.  Of the loop's phase [Q] sees [held] (the handle in hand), [lcur] (its dispose in progress),
   [stage2b_of] (between call_later returning and handle.append) and [is_pre] (before run_forever());
   of a foreign thread [fcur] (its dispose in progress). *)
Definition owner (s : ash) (h : nat) : option nat :=
  match nth_error (ahs s) h with
  | Some (CbAction u) | Some (CbStage2 u _) => Some u
  | _ => None
  end.
Definition held (ph : aphase) : list nat :=
  match ph with LCheck h _ | LRun h _ => [h] | _ => [] end.
Definition lcur (ph : aphase) : option dst :=
  match ph with LPre c _ | LAct _ c _ _ => c | _ => None end.
Definition stack (s : ash) (u : nat) : list nat :=
  match nth_error (ahl s) u with Some (_, l) => l | None => [] end.
Definition twostage (s : ash) (u : nat) : bool :=
  match nth_error (ahl s) u with Some (b, _) => b | None => false end.
Definition is_pre (ph : aphase) : bool := match ph with LPre _ _ | LDone => true | _ => false end.
Definition stage2b_of (ph : aphase) : option (nat * nat) :=
  match ph with LStage2b u h _ => Some (u, h) | _ => None end.
Definition fcur (t : athread) : option dst := match t with AF c _ => c | AL _ => None end.
Definition is_af (t : athread) : bool := match t with AF _ _ => true | AL _ => false end.

(* the invariant: [s] shared state, [ph] phase of the loop thread, [rest] the foreign threads *)
Record Q (safe : bool) (s : ash) (ph : aphase) (rest : list athread) (log : list aev) : Prop := {
  q_af : forall t, In t rest -> is_af t = true;
  q_safe : rest <> [] -> safe = true;
  (* handles *)
  q_bound : forall h, In h (held ph ++ aready s ++ map snd (atimers s)) -> (h < length (ahs s))%nat;
  q_nodup : NoDup (held ph ++ aready s ++ map snd (atimers s));
  q_timers : forall w h, In (w, h) (atimers s) -> exists u, nth_error (ahs s) h = Some (CbAction u);
  q_owner : forall h u, owner s h = Some u -> (u < length (ahl s))%nat;
  q_eff_bound : forall u, In u (aeff s) -> (u < length (ahl s))%nat;
  q_ran_bound : forall u, In u (aran s) -> (u < length (ahl s))%nat;
  q_stage_uniq : forall h h' u d d', nth_error (ahs s) h = Some (CbStage2 u d) ->
                   nth_error (ahs s) h' = Some (CbStage2 u d') -> h = h';
  q_stage_two : forall h u d, nth_error (ahs s) h = Some (CbStage2 u d) -> twostage s u = true;
  q_ran : forall u h d, In u (aran s) -> nth_error (ahs s) h = Some (CbStage2 u d) -> ~ In h (held ph ++ aready s);
  (* cancellation *)
  q_eff : forall u h, In u (aeff s) -> owner s h = Some u -> amem h (acanc s) = true;
  q_where : forall u h, owner s h = Some u ->
              amem h (acanc s) = true \/ In h (stack s u) \/ stage2b_of ph = Some (u, h);
  q_len : forall u, twostage s u = true -> (length (stack s u) <= (if amem u (aran s) then 2 else 1))%nat;
  q_s2b : forall u h, stage2b_of ph = Some (u, h) ->
            twostage s u = true /\ In u (aran s) /\ (length (stack s u) <= 1)%nat;
  (* threads *)
  q_run : arunning s = negb (is_pre ph);
  q_fpop : forall t u, In t rest -> fcur t = Some (FPop2 u) ->
             arunning s = false /\ twostage s u = true /\ (length (stack s u) <= 1)%nat;
  q_lpop : forall u, lcur ph = Some (FPop2 u) -> twostage s u = true /\ (length (stack s u) <= 1)%nat;
  q_lwait : forall u f, lcur ph <> Some (FWait u f);
  q_fwait : forall t u f, In t rest -> fcur t = Some (FWait u f) ->
              (f < anfut s)%nat /\ (amem f (afut s) = true -> In u (aeff s));
  q_cancel_cb : forall h u' f', nth_error (ahs s) h = Some (CbCancel u' f') ->
              (f' < anfut s)%nat /\ forall t u, In t rest -> fcur t = Some (FWait u f') -> u = u';
  q_cancel_u : forall h u' f', nth_error (ahs s) h = Some (CbCancel u' f') -> (u' < length (ahl s))%nat;
  q_fut : forall f, In f (afut s) -> (f < anfut s)%nat;
  (* the log *)
  q_log : disp_ok [] log = true;
  q_seen : forall u, In u (dseen [] log) -> In u (aeff s)
}.
Arguments q_af {safe s ph rest log} _.
Arguments q_safe {safe s ph rest log} _.
Arguments q_bound {safe s ph rest log} _.
Arguments q_nodup {safe s ph rest log} _.
Arguments q_timers {safe s ph rest log} _.
Arguments q_owner {safe s ph rest log} _.
Arguments q_eff_bound {safe s ph rest log} _.
Arguments q_ran_bound {safe s ph rest log} _.
Arguments q_stage_uniq {safe s ph rest log} _.
Arguments q_stage_two {safe s ph rest log} _.
Arguments q_ran {safe s ph rest log} _.
Arguments q_eff {safe s ph rest log} _.
Arguments q_where {safe s ph rest log} _.
Arguments q_len {safe s ph rest log} _.
Arguments q_s2b {safe s ph rest log} _.
Arguments q_run {safe s ph rest log} _.
Arguments q_fpop {safe s ph rest log} _.
Arguments q_lpop {safe s ph rest log} _.
Arguments q_lwait {safe s ph rest log} _.
Arguments q_fwait {safe s ph rest log} _.
Arguments q_cancel_cb {safe s ph rest log} _.
Arguments q_cancel_u {safe s ph rest log} _.
Arguments q_fut {safe s ph rest log} _.
Arguments q_log {safe s ph rest log} _.
Arguments q_seen {safe s ph rest log} _.

(* [Q] reads the state through nine of its tables and [arunning], the phase through four observations.
   The loop may let go of the handle it holds and of its finished dispose; [arunning] may change with the
   phase only while no foreign thread is inside a direct dispose. *)
Lemma Q_frame : forall safe s ph rest log s' ph',
  Q safe s ph rest log ->
  ahs s' = ahs s -> aready s' = aready s -> atimers s' = atimers s -> acanc s' = acanc s -> ahl s' = ahl s ->
  afut s' = afut s -> anfut s' = anfut s -> aran s' = aran s -> aeff s' = aeff s ->
  (held ph' = held ph \/ held ph' = []) -> stage2b_of ph' = stage2b_of ph -> (lcur ph' = lcur ph \/ lcur ph' = None) ->
  (arunning s' = arunning s /\ is_pre ph' = is_pre ph \/
   arunning s' = negb (is_pre ph') /\ forall t u, In t rest -> fcur t <> Some (FPop2 u)) ->
  Q safe s' ph' rest log.
Proof.
  intros safe s ph rest log s' ph' q Ehs Erd Etm Ecn Ehl Efu Enf Era Eef HH HS HL RUN.
  assert (SUB : forall l x, In x (held ph' ++ l) -> In x (held ph ++ l)).
  { intros l x I. destruct HH as [E|E]; rewrite E in I; [exact I|]. apply in_or_app. right. exact I. }
  assert (LC : forall c, lcur ph' = Some c -> lcur ph = Some c).
  { intros c E. destruct HL as [N|N]; rewrite N in E; [exact E|discriminate E]. }
  constructor; unfold owner, stack, twostage; rewrite ?Ehs, ?Erd, ?Etm, ?Ecn, ?Ehl, ?Efu, ?Enf, ?Era, ?Eef, ?HS;
    try (apply q; fail).
  (* left, in the order of the fields: q_bound, q_nodup, q_ran, q_run, q_fpop, q_lpop, q_lwait *)
  - intros h I. apply (q_bound q), SUB, I.
  - pose proof (q_nodup q) as N. destruct HH as [E|E]; rewrite E; [exact N|]. apply (NoDup_app_drop [] _ _ N).
  - intros u h d I N X. eapply (q_ran q); [exact I|exact N|]. apply SUB, X.
  - destruct RUN as [[-> ->]|[-> _]]; [apply q|reflexivity].
  - intros t u I F. destruct RUN as [[-> _]|[_ NP]]; [exact (q_fpop q t u I F)|]. destruct (NP t u I F).
  - intros u E. apply (q_lpop q), LC, E.
  - intros u f E. apply (q_lwait q u f), LC, E.
Qed.

Lemma Q_phase : forall safe s ph ph' rest log,
  held ph' = held ph -> stage2b_of ph' = stage2b_of ph -> is_pre ph' = is_pre ph -> lcur ph' = lcur ph ->
  Q safe s ph rest log -> Q safe s ph' rest log.
Proof. intros safe s ph ph' rest log H1 H2 H3 H4 q. apply (Q_frame _ _ _ _ _ s ph' q); auto. Qed.

Lemma Q_release : forall safe s h k ph rest log dl,
  (ph = LCheck h k \/ ph = LRun h k) -> Q safe s ph rest log -> Q safe s (LIdle dl) rest log.
Proof. intros safe s h k ph rest log dl [-> | ->] q; apply (Q_frame _ _ _ _ _ s (LIdle dl) q); auto. Qed.

Lemma Q_log_other : forall safe s ph rest log e,
  (forall u, e <> AStart u) -> (forall u, e <> ADispRet u) ->
  Q safe s ph rest log -> Q safe s ph rest (log ++ [e]).
Proof.
  intros safe s ph rest log e N1 N2 q. constructor; try apply q.
  - rewrite disp_ok_app, (q_log q). cbn. apply disp_ok_one_other. exact N1.
  - rewrite dseen_app, dseen_one_other by exact N2. apply (q_seen q).
Qed.

Lemma stack_eq : forall s u, stack s u = match nth_error (ahl s) u with Some (_, l) => l | None => [] end.
Proof. reflexivity. Qed.

Lemma owner_app_old : forall s hs' c h u,
  ahs s = hs' -> forall s', ahs s' = hs' ++ [c] -> owner s h = Some u -> owner s' h = Some u.
Proof.
  intros s hs' c h u E s' E' O. unfold owner in *. rewrite E in O. rewrite E'.
  destruct (nth_error hs' h) as [x|] eqn:N; [|discriminate O]. rewrite (nth_error_app_old _ _ _ _ _ N). exact O.
Qed.

Lemma owner_lt : forall s h u, owner s h = Some u -> (h < length (ahs s))%nat.
Proof. intros s h u O. unfold owner in O. apply nth_error_Some. destruct (nth_error (ahs s) h); [discriminate|discriminate O]. Qed.

Lemma NoDup_app_fresh : forall (l : list nat) x, NoDup l -> ~ In x l -> NoDup (l ++ [x]).
Proof.
  induction l as [|a l IH]; intros x N I; cbn; [constructor; [intros []|constructor]|].
  inv N. constructor.
  - intros X. apply in_app_or in X. destruct X as [X|[X|[]]]; [contradiction|subst; apply I; left; reflexivity].
  - apply IH; [assumption|]. intros X. apply I. right. exact X.
Qed.

Lemma NoDup_insert_mid : forall (a b : list nat) x, NoDup (a ++ b) -> ~ In x (a ++ b) -> NoDup (a ++ x :: b).
Proof.
  induction a as [|y a IH]; intros b x N I; cbn in *; [constructor; assumption|].
  inversion N as [|y0 l0 NI ND]; subst. constructor.
  - intros X. apply in_app_or in X. destruct X as [X|[X|X]].
    + apply NI. apply in_or_app. left. exact X.
    + subst. apply I. left. reflexivity.
    + apply NI. apply in_or_app. right. exact X.
  - apply IH; [assumption|]. intros X. apply I. right. exact X.
Qed.

Lemma nodup3_fresh_ready : forall (H R T : list nat) h, NoDup (H ++ R ++ T) -> ~ In h (H ++ R ++ T) ->
  NoDup (H ++ (R ++ [h]) ++ T).
Proof.
  intros H R T h N I. replace (H ++ (R ++ [h]) ++ T) with ((H ++ R) ++ h :: T) by (rewrite <- !app_assoc; reflexivity).
  apply NoDup_insert_mid; rewrite <- app_assoc; assumption.
Qed.

Lemma nodup3_fresh_timer : forall (H R : list nat) tm w h, NoDup (H ++ R ++ map snd tm) -> ~ In h (H ++ R ++ map snd tm) ->
  NoDup (H ++ R ++ map snd (tinsert w h tm)).
Proof.
  intros H R tm w h. destruct (tinsert_split w h tm) as (pre & post & -> & ->).
  rewrite !map_app, !app_assoc. cbn [map snd]. apply NoDup_insert_mid.
Qed.

Lemma in_add_ready : forall (H R T : list nat) h x, In x (H ++ (R ++ [h]) ++ T) <-> x = h \/ In x (H ++ R ++ T).
Proof. intros. rewrite !in_app_iff. cbn. intuition auto. Qed.

Lemma in_add_timer : forall (H R : list nat) tm w h x,
  In x (H ++ R ++ map snd (tinsert w h tm)) <-> x = h \/ In x (H ++ R ++ map snd tm).
Proof. intros. rewrite !in_app_iff, tinsert_handles_in. tauto. Qed.

Definition cbowner (c : cb) : option nat :=
  match c with CbAction u | CbStage2 u _ => Some u | CbCancel _ _ => None end.

Lemma owner_app : forall s s' c h u, ahs s' = ahs s ++ [c] -> owner s' h = Some u ->
  owner s h = Some u \/ (h = length (ahs s) /\ cbowner c = Some u).
Proof.
  intros s s' c h u E O. unfold owner in *. rewrite E in O.
  destruct (nth_error (ahs s ++ [c]) h) as [x|] eqn:N; [|discriminate O].
  apply nth_error_app_inv in N. destruct N as [N|[-> ->]]; [left; rewrite N; exact O|right].
  split; [reflexivity|]. destruct c; exact O.
Qed.

Lemma hl_lookup : forall s u b l, nth_error (ahl s) u = Some (b, l) ->
  (u < length (ahl s))%nat /\ twostage s u = b /\ stack s u = l.
Proof.
  intros s u b l N. unfold twostage, stack. rewrite N. split; [apply nth_error_Some; congruence|auto].
Qed.

Lemma twostage_lt : forall s u, twostage s u = true -> (u < length (ahl s))%nat.
Proof.
  intros s u T. unfold twostage in T. apply nth_error_Some. destruct (nth_error (ahl s) u); [discriminate|discriminate T].
Qed.

Lemma stack_upd_same : forall (hl : list (bool * list nat)) u (b : bool) (l : list nat), (u < length hl)%nat ->
  nth_error (aupd u (b, l) hl) u = Some (b, l).
Proof.
  intros hl u b l L. destruct (nth_error hl u) as [x|] eqn:N; [eapply anth_upd_same, N|].
  apply nth_error_None in N. lia.
Qed.

(* the closure list of call [u] is replaced *)
Lemma stack_upd : forall s s' u b l', (u < length (ahl s))%nat -> twostage s u = b -> ahl s' = aupd u (b, l') (ahl s) ->
  (forall u0, stack s' u0 = if Nat.eqb u0 u then l' else stack s u0) /\
  (forall u0, twostage s' u0 = twostage s u0) /\ length (ahl s') = length (ahl s).
Proof.
  intros s s' u b l' UL TW E. unfold stack, twostage in *. rewrite E. split; [|split; [|apply aupd_length]]; intros u0.
  - destruct (Nat.eqb_spec u0 u) as [->|NE]; [rewrite stack_upd_same by exact UL|rewrite anth_upd_other by exact NE];
      reflexivity.
  - destruct (Nat.eq_dec u0 u) as [->|NE]; [rewrite stack_upd_same by exact UL; symmetry; exact TW|].
    rewrite anth_upd_other by exact NE. reflexivity.
Qed.

Lemma in_astamp : forall tid clk out tid' t e,
  In (tid', t, e) (astamp tid clk out) <-> tid' = tid /\ t = clk /\ In e out.
Proof.
  intros. unfold astamp. rewrite in_map_iff. split.
  - intros [x [E I]]. inv E. auto.
  - intros [-> [-> I]]. exists e. auto.
Qed.

Section Facts.
Variable ts : bool.
Variable fixed : bool.
Variable abody : nat -> list aop.
Notation atstep := (atstep ts fixed abody).
Notation arun := (arun ts fixed abody).

(* a step of the calls a thread makes, as a relation *)
Inductive cstep (on_loop : bool) (s : ash) : option dst -> list aop -> ash -> option dst -> list aop -> list aev -> Prop :=
| C_now : forall r,
    cstep on_loop s None (ANow :: r) (fst (do_sched ts s 0)) None r (snd (do_sched ts s 0))
| C_rel : forall d r,
    cstep on_loop s None (ARel d :: r) (fst (do_sched ts s d)) None r (snd (do_sched ts s d))
| C_noop1 : forall u r, nth_error (ahl s) u = None ->
    cstep on_loop s None (ADispose u :: r) s None r [ADispNoop u]
| C_noop2 : forall u r two l, nth_error (ahl s) u = Some (two, l) -> amem u (adisp s) = true ->
    cstep on_loop s None (ADispose u :: r) s None r [ADispNoop u]
| C_single : forall u r l, nth_error (ahl s) u = Some (false, l) -> amem u (adisp s) = false ->
    (on_loop || negb (arunning s) || negb (ts && fixed)) = true ->
    cstep on_loop s None (ADispose u :: r)
      (ASh (aclock s) (arunning s) (awoken s) (ahs s) (aready s) (atimers s) (l ++ acanc s) (ahl s) (adue s)
           (u :: adisp s) (afut s) (anfut s) (aran s) (u :: aeff s) (astopping s) (asegs s)) None r [ADispRet u]
| C_two_empty : forall u r, nth_error (ahl s) u = Some (true, []) -> amem u (adisp s) = false ->
    (on_loop || negb (arunning s) || negb (ts && fixed)) = true ->
    cstep on_loop s None (ADispose u :: r)
      (ASh (aclock s) (arunning s) (awoken s) (ahs s) (aready s) (atimers s) (acanc s) (ahl s) (adue s)
           (u :: adisp s) (afut s) (anfut s) (aran s) (u :: aeff s) (astopping s) (asegs s)) None r [ADispRet u]
| C_two_first : forall u r x l, nth_error (ahl s) u = Some (true, x :: l) -> amem u (adisp s) = false ->
    (on_loop || negb (arunning s) || negb (ts && fixed)) = true ->
    cstep on_loop s None (ADispose u :: r)
      (ASh (aclock s) (arunning s) (awoken s) (ahs s) (aready s) (atimers s) (last (x :: l) 0%nat :: acanc s)
           (aupd u (true, removelast (x :: l)) (ahl s)) (adue s)
           (u :: adisp s) (afut s) (anfut s) (aran s) (aeff s) (astopping s) (asegs s)) (Some (FPop2 u)) r []
| C_marshal : forall u r two l, nth_error (ahl s) u = Some (two, l) -> amem u (adisp s) = false ->
    (on_loop || negb (arunning s) || negb (ts && fixed)) = false ->
    cstep on_loop s None (ADispose u :: r)
      (ASh (aclock s) (arunning s) true (ahs s ++ [CbCancel u (anfut s)]) (aready s ++ [length (ahs s)]) (atimers s)
           (acanc s) (ahl s) (adue s) (u :: adisp s) (afut s) (S (anfut s)) (aran s) (aeff s) (astopping s) (asegs s))
      (Some (FWait u (anfut s))) r []
| C_pop2 : forall u todo b x l, nth_error (ahl s) u = Some (b, x :: l) ->
    cstep on_loop s (Some (FPop2 u)) todo
      (ASh (aclock s) (arunning s) (awoken s) (ahs s) (aready s) (atimers s) (last (x :: l) 0%nat :: acanc s)
           (aupd u (true, removelast (x :: l)) (ahl s)) (adue s)
           (adisp s) (afut s) (anfut s) (aran s) (u :: aeff s) (astopping s) (asegs s)) None todo [ADispRet u]
| C_pop2_empty : forall u todo, stack s u = [] ->
    cstep on_loop s (Some (FPop2 u)) todo
      (ASh (aclock s) (arunning s) (awoken s) (ahs s) (aready s) (atimers s) (acanc s) (ahl s) (adue s)
           (adisp s) (afut s) (anfut s) (aran s) (u :: aeff s) (astopping s) (asegs s)) None todo [ADispRet u]
| C_wait : forall u f todo, amem f (afut s) = true ->
    cstep on_loop s (Some (FWait u f)) todo s None todo [ADispRet u]
| C_stop : forall r,
    cstep on_loop s None (AStop :: r) (set_stop s true (asegs s)) None r [AStopEv]
| C_sleep : forall t r, t <= aclock s ->
    cstep on_loop s None (ASleep t :: r) s None r [ASlept]
| C_abs : forall t r,
    cstep on_loop s None (AAbs t :: r) (fst (do_sched ts s (t - aclock s))) None r (snd (do_sched ts s (t - aclock s))).

Lemma call_step_spec : forall on_loop s cur todo s' cur' todo' out,
  call_step ts fixed on_loop s cur todo = Some (s', cur', todo', out) ->
  cstep on_loop s cur todo s' cur' todo' out.
Proof.
  intros on_loop s cur todo s' cur' todo' out H. destruct cur as [[u|u f]|]; cbn [call_step] in H.
  - unfold do_cont in H. destruct (nth_error (ahl s) u) as [[b [|x l]]|] eqn:N; injection H as <- <- <- <-; unfold set_canc.
    + apply C_pop2_empty. unfold stack. rewrite N. reflexivity.
    + eapply C_pop2. exact N.
    + apply C_pop2_empty. unfold stack. rewrite N. reflexivity.
  - unfold do_cont in H. destruct (amem f (afut s)) eqn:M; [|discriminate H]. injection H as <- <- <- <-. apply C_wait. exact M.
  - destruct todo as [|[|d|u| |t|t] r]; [discriminate H| | | | | |].
    + pose proof (C_now on_loop s r) as X. destruct (do_sched ts s 0) as [s1 o1] eqn:D. injection H as <- <- <- <-. exact X.
    + pose proof (C_rel on_loop s d r) as X. destruct (do_sched ts s d) as [s1 o1] eqn:D. injection H as <- <- <- <-. exact X.
    + unfold do_dispose in H. destruct (nth_error (ahl s) u) as [[two l]|] eqn:N; [|injection H as <- <- <- <-; apply C_noop1; exact N].
      destruct (amem u (adisp s)) eqn:M; [injection H as <- <- <- <-; eapply C_noop2; eassumption|].
      destruct (on_loop || negb (arunning s) || negb (ts && fixed)) eqn:DIR.
      * destruct two.
        -- destruct l as [|x l]; injection H as <- <- <- <-; [apply (C_two_empty on_loop s u r)|apply (C_two_first on_loop s u r x l)];
             assumption.
        -- injection H as <- <- <- <-. apply (C_single on_loop s u r l); assumption.
      * injection H as <- <- <- <-. eapply C_marshal; eassumption.
    + injection H as <- <- <- <-. apply C_stop.
    + destruct (t <=? aclock s) eqn:E; [|discriminate H]. injection H as <- <- <- <-. apply C_sleep. apply Z.leb_le. exact E.
    + pose proof (C_abs on_loop s t r) as X. destruct (do_sched ts s (t - aclock s)) as [s1 o1] eqn:D. injection H as <- <- <- <-. exact X.
Qed.

(* a step of the loop thread, as a relation.  [lfin]: what the loop does before it goes on with the next
   handle of the iteration ([next_handle s1 k]) -- select returned, the handle it holds is dropped or was
   cancel_handle, an action or stage2 is over: the state [s1] it leaves, [k], the events *)
Inductive lfin (s : ash) : aphase -> ash -> nat -> list aev -> Prop :=
| F_wake : forall dl due rst, split_due (aclock s) (atimers s) = (due, rst) ->
    lfin s (LIdle dl) (set_core s false (ahs s) (aready s ++ due) rst (ahl s) (adue s)) (length (aready s ++ due)) []
| F_skip : forall h k, amem h (acanc s) = true -> lfin s (LCheck h k) s k []
| F_err : forall h k, amem h (acanc s) = true -> lfin s (LRun h k) s k [ACbErr]
| F_cancel : forall h k u f, nth_error (ahs s) h = Some (CbCancel u f) ->
    lfin s (LRun h k) (set_canc s (fst (cancel_all s u)) (snd (cancel_all s u)) (f :: afut s) (u :: aeff s)) k []
| F_none : forall h k, nth_error (ahs s) h = None -> lfin s (LRun h k) s k []
| F_end : forall u k, lfin s (LAct u None [] k) s k [AEnd u]
| F_append : forall u h k,
    lfin s (LStage2b u h k)
      (set_core s (awoken s) (ahs s) (aready s) (atimers s)
         (match nth_error (ahl s) u with Some (two, l) => aupd u (two, l ++ [h]) (ahl s) | None => ahl s end) (adue s)) k [].

Inductive lstep (quiet : bool) (s : ash) : aphase -> ash -> aphase -> list aev -> Prop :=
| L_pre : forall cur todo s' cur' todo' out, cstep true s cur todo s' cur' todo' out ->
    lstep quiet s (LPre cur todo) s' (LPre cur' todo') out
| L_act : forall u k cur todo s' cur' todo' out, cstep true s cur todo s' cur' todo' out ->
    lstep quiet s (LAct u cur todo k) s' (LAct u cur' todo' k) out
| L_start : forall s1, quiet = true ->
    s1 = ASh (aclock s) true (awoken s) (ahs s) (aready s) (atimers s) (acanc s) (ahl s) (adue s) (adisp s) (afut s)
             (anfut s) (aran s) (aeff s) (astopping s) (asegs s) ->
    lstep quiet s (LPre None []) (fst (begin_iter s1)) (snd (begin_iter s1)) []
| L_check : forall h k, amem h (acanc s) = false -> lstep quiet s (LCheck h k) s (LRun h k) []
| L_action : forall h k u, amem h (acanc s) = false -> nth_error (ahs s) h = Some (CbAction u) ->
    lstep quiet s (LRun h k) s (LAct u None (abody u) k) [AStart u]
| L_stage2 : forall h k u d, amem h (acanc s) = false -> nth_error (ahs s) h = Some (CbStage2 u d) ->
    lstep quiet s (LRun h k)
      (ASh (aclock s) (arunning s) (awoken s) (ahs s ++ [CbAction u]) (aready s)
           (tinsert (aclock s + d) (length (ahs s)) (atimers s)) (acanc s) (ahl s) (adue s) (adisp s) (afut s)
           (anfut s) (u :: aran s) (aeff s) (astopping s) (asegs s))
      (LStage2b u (length (ahs s)) k) []
| L_next : forall ph s1 k out, lfin s ph s1 k out ->
    lstep quiet s ph (fst (next_handle s1 k)) (snd (next_handle s1 k)) out.

Lemma loop_step_spec : forall quiet s ph s' ph' out,
  loop_step ts fixed abody quiet s ph = Some (s', ph', out) -> lstep quiet s ph s' ph' out.
Proof.
  intros quiet s ph s' ph' out H.
  (* the two shapes the branches of [loop_step] end in: [next_handle] after an [lfin], a lifted [call_step] *)
  assert (NEXT : forall s1 k o, lfin s ph s1 k o ->
            (let '(s2, p2) := next_handle s1 k in Some (s2, p2, o)) = Some (s', ph', out) -> lstep quiet s ph s' ph' out).
  { intros s1 k o F E. pose proof (L_next quiet s ph s1 k o F) as X. destruct (next_handle s1 k) as [s2 p2].
    injection E as <- <- <-. exact X. }
  assert (CALL : forall cur todo (mk : option dst -> list aop -> aphase),
            (forall s1 c1 t1 o1, cstep true s cur todo s1 c1 t1 o1 -> lstep quiet s ph s1 (mk c1 t1) o1) ->
            match call_step ts fixed true s cur todo with
            | Some (s1, c1, t1, o1) => Some (s1, mk c1 t1, o1) | None => None end = Some (s', ph', out) ->
            lstep quiet s ph s' ph' out).
  { intros cur todo mk K E. destruct (call_step ts fixed true s cur todo) as [[[[s1 c1] t1] o1]|] eqn:CS; [|discriminate E].
    injection E as <- <- <-. apply K, call_step_spec, CS. }
  destruct ph as [cur todo|dl|h k|h k|u cur todo k|u h k|]; cbn [loop_step] in H.
  - destruct cur as [c|]; [exact (CALL _ _ LPre (L_pre quiet s _ _) H)|].
    destruct todo as [|o r]; [|exact (CALL _ _ LPre (L_pre quiet s _ _) H)].
    destruct quiet; [|discriminate H]. pose proof (L_start true s _ eq_refl eq_refl) as X.
    destruct (begin_iter _) as [s2 p2]. injection H as <- <- <-. exact X.
  - destruct (awoken s || _); [|discriminate H]. destruct (split_due (aclock s) (atimers s)) as [due rst] eqn:SD.
    exact (NEXT _ _ _ (F_wake s dl due rst SD) H).
  - destruct (amem h (acanc s)) eqn:M; [exact (NEXT _ _ _ (F_skip s h k M) H)|]. injection H as <- <- <-. apply L_check, M.
  - destruct (amem h (acanc s)) eqn:M; [exact (NEXT _ _ _ (F_err s h k M) H)|].
    destruct (nth_error (ahs s) h) as [[u|u d|u f]|] eqn:N.
    + injection H as <- <- <-. apply L_action; assumption.
    + injection H as <- <- <-. apply L_stage2; assumption.
    + pose proof (F_cancel s h k u f N) as F. destruct (cancel_all s u) as [canc hl]. exact (NEXT _ _ _ F H).
    + exact (NEXT _ _ _ (F_none s h k N) H).
  - destruct cur as [c|]; [exact (CALL _ _ (fun c1 t1 => LAct u c1 t1 k) (L_act quiet s u k _ _) H)|].
    destruct todo as [|o r]; [exact (NEXT _ _ _ (F_end s u k) H)|].
    exact (CALL _ _ (fun c1 t1 => LAct u c1 t1 k) (L_act quiet s u k _ _) H).
  - exact (NEXT _ _ _ (F_append s u h k) H).
  - discriminate H.
Qed.

(* the calling thread: the loop thread (whose phase keeps its shape) or a foreign one *)
Inductive executor (safe : bool) (ph : aphase) (rest : list athread) (cur : option dst) (todo : list aop)
  : bool -> aphase -> list athread -> option dst -> list aop -> Prop :=
| EX_pre : forall cur' todo', ph = LPre cur todo ->
    executor safe ph rest cur todo true (LPre cur' todo') rest cur' todo'
| EX_act : forall u k cur' todo', ph = LAct u cur todo k ->
    executor safe ph rest cur todo true (LAct u cur' todo' k) rest cur' todo'
| EX_foreign : forall n cur' todo', nth_error rest n = Some (AF cur todo) -> safe = ts && fixed ->
    executor safe ph rest cur todo false ph (aupd n (AF cur' todo') rest) cur' todo'.

(* the step leaves the observations of the phase alone; when the loop thread makes the call (ol = true) it holds no
   handle, is not inside stage2, and [lcur] is the call's dispose in progress *)
Lemma executor_shape : forall safe ph rest cur todo ol ph' rest' cur' todo',
  executor safe ph rest cur todo ol ph' rest' cur' todo' ->
  held ph' = held ph /\ stage2b_of ph' = stage2b_of ph /\ is_pre ph' = is_pre ph /\
  (ol = true -> held ph = [] /\ stage2b_of ph = None /\ lcur ph = cur /\ lcur ph' = cur' /\ rest' = rest) /\
  (ol = false -> lcur ph' = lcur ph).
Proof. intros. destruct H; subst; cbn; repeat split; auto; discriminate. Qed.

Lemma executor_rest : forall safe ph rest cur todo ol ph' rest' cur' todo',
  executor safe ph rest cur todo ol ph' rest' cur' todo' ->
  forall t, In t rest' -> In t rest \/ (ol = false /\ t = AF cur' todo').
Proof.
  intros until 1. destruct H as [| |n cur' todo' N S]; auto. intros t I. apply In_nth_error in I. destruct I as [j J].
  destruct (Nat.eq_dec j n) as [->|NE].
  - rewrite (anth_upd_same _ _ _ _ _ N) in J. inv J. right. auto.
  - rewrite anth_upd_other in J by exact NE. left. eapply nth_error_In, J.
Qed.

Lemma executor_af : forall safe ph rest cur todo ol ph' rest' cur' todo',
  executor safe ph rest cur todo ol ph' rest' cur' todo' ->
  (forall t, In t rest -> is_af t = true) -> forall t, In t rest' -> is_af t = true.
Proof.
  intros until 1. intros A t I. destruct (executor_rest _ _ _ _ _ _ _ _ _ _ H t I) as [X|[_ ->]]; [apply A, X|reflexivity].
Qed.

Lemma executor_nonempty : forall safe ph rest cur todo ol ph' rest' cur' todo',
  executor safe ph rest cur todo ol ph' rest' cur' todo' -> rest' <> [] -> rest <> [].
Proof.
  intros until 1. destruct H as [| |n cur' todo' N S]; auto. intros _ ->. destruct n; discriminate N.
Qed.
Arguments executor_shape {safe ph rest cur todo ol ph' rest' cur' todo'} _.
Arguments executor_rest {safe ph rest cur todo ol ph' rest' cur' todo'} _ t _.

Lemma do_sched_out : forall s d, snd (do_sched ts s d) = [ARet (length (ahl s))].
Proof. intros. unfold do_sched. destruct (d <=? 0); [|destruct ts]; reflexivity. Qed.

(* the calling thread moves on, the shared state does not change: its dispose in progress ends, or the direct
   dispose of a two-stage call is under way (FPop2) *)
Lemma Q_exec : forall safe s ph rest log ol ph' rest' cur todo cur' todo' out,
  Q safe s ph rest log ->
  executor safe ph rest cur todo ol ph' rest' cur' todo' ->
  (forall u, ~ In (AStart u) out) ->
  (forall u, In (ADispRet u) out -> In u (aeff s)) ->
  (forall u, cur' = Some (FPop2 u) ->
     twostage s u = true /\ (length (stack s u) <= 1)%nat /\ (ol = false -> arunning s = false)) ->
  (forall u f, cur' <> Some (FWait u f)) ->
  Q safe s ph' rest' (log ++ out).
Proof.
  intros safe s ph rest log ol ph' rest' cur todo cur' todo' out q EX NS DR POP NW.
  destruct (executor_shape EX) as (HH & HS & HP & HL & HF).
  assert (REST : forall t, In t rest' -> In t rest \/ (ol = false /\ fcur t = cur')).
  { intros t I. destruct (executor_rest EX t I) as [X|[O ->]]; auto. }
  assert (LC : lcur ph' = lcur ph \/ lcur ph' = cur').
  { destruct ol; [right; apply (HL eq_refl)|left; apply (HF eq_refl)]. }
  constructor; rewrite ?HH, ?HS, ?HP; try (apply q; fail).
  (* left, in the order of the fields: q_af, q_safe, q_fpop, q_lpop, q_lwait, q_fwait, q_cancel_cb, q_log, q_seen *)
  - eapply executor_af; [exact EX|apply (q_af q)].
  - intros NE. apply (q_safe q). eapply executor_nonempty; eassumption.
  - intros t u I F. destruct (REST t I) as [I'|[OL E]]; [apply (q_fpop q t u I' F)|].
    rewrite E in F. destruct (POP _ F) as (T & LN & RN). auto.
  - intros u E. destruct LC as [X|X]; rewrite X in E; [apply (q_lpop q u E)|]. destruct (POP _ E) as (T & LN & _). auto.
  - intros u f E. destruct LC as [X|X]; rewrite X in E; [exact (q_lwait q u f E)|exact (NW u f E)].
  - intros t u f I F. destruct (REST t I) as [I'|[_ E]]; [apply (q_fwait q t u f I' F)|].
    rewrite E in F. destruct (NW _ _ F).
  - intros h u' f' N. destruct (q_cancel_cb q _ _ _ N) as [B U]. split; [exact B|]. intros t u I F.
    destruct (REST t I) as [I'|[_ E]]; [eapply U; eassumption|]. rewrite E in F. destruct (NW _ _ F).
  - rewrite disp_ok_app, (q_log q). apply disp_ok_no_start, NS.
  - intros u I. rewrite dseen_app in I. apply dseen_in in I. destruct I as [I|I]; [apply (q_seen q), I|apply DR, I].
Qed.

(* Q_exec for a step that leaves no dispose in progress and logs the one event [e] *)
Lemma Q_same : forall safe s ph rest log ol ph' rest' cur todo todo' e,
  Q safe s ph rest log ->
  executor safe ph rest cur todo ol ph' rest' None todo' ->
  (forall u, e <> AStart u) ->
  (forall u, e = ADispRet u -> In u (aeff s)) ->
  Q safe s ph' rest' (log ++ [e]).
Proof.
  intros safe s ph rest log ol ph' rest' cur todo todo' e q EX NS DR.
  eapply Q_exec; [exact q|exact EX| | |discriminate|discriminate]; intros u [E|[]]; [exact (NS u E)|exact (DR u E)].
Qed.

(* a new handle: the callback [c] is appended to the handle table, its index goes to _ready or (an interval)
   into the heap.  A callback that belongs to a call must be where dispose() will find it; stage2 is new for
   its call; a cancel_handle resolves a future that only waiters for that call wait for. *)
Lemma Q_new_handle : forall safe s ph rest log c woken rd tm due,
  Q safe s ph rest log ->
  (rd = aready s ++ [length (ahs s)] /\ tm = atimers s \/
   rd = aready s /\ exists w u, tm = tinsert w (length (ahs s)) (atimers s) /\ c = CbAction u) ->
  (forall u, cbowner c = Some u -> (u < length (ahl s))%nat /\ ~ In u (aeff s) /\
     (In (length (ahs s)) (stack s u) \/ stage2b_of ph = Some (u, length (ahs s)))) ->
  (forall u d, c = CbStage2 u d -> twostage s u = true /\ ~ In u (aran s) /\
     forall h' d', nth_error (ahs s) h' <> Some (CbStage2 u d')) ->
  (forall u f, c = CbCancel u f -> (u < length (ahl s))%nat /\ (f < anfut s)%nat /\
     forall t u0, In t rest -> fcur t = Some (FWait u0 f) -> u0 = u) ->
  Q safe (set_core s woken (ahs s ++ [c]) rd tm (ahl s) due) ph rest log.
Proof.
  intros safe s ph rest log c woken rd tm due q PL OWN STG CAN.
  set (h := length (ahs s)) in *.
  assert (FR : ~ In h (held ph ++ aready s ++ map snd (atimers s))).
  { intros I. apply (q_bound q) in I. unfold h in I. lia. }
  assert (OLD : forall h0 u0, owner (set_core s woken (ahs s ++ [c]) rd tm (ahl s) due) h0 = Some u0 ->
            owner s h0 = Some u0 \/ (h0 = h /\ cbowner c = Some u0)).
  { intros h0 u0. apply owner_app. reflexivity. }
  constructor; unfold set_core; proj; try (apply q; fail).
  (* left, in the order of the fields: q_bound, q_nodup, q_timers, q_owner, q_stage_uniq, q_stage_two,
     q_ran, q_eff, q_where, q_cancel_cb, q_cancel_u *)
  - intros x I. rewrite app_length. cbn [length]. fold h.
    assert (J : x = h \/ In x (held ph ++ aready s ++ map snd (atimers s))).
    { destruct PL as [[-> ->]|[-> (w & u & -> & _)]]; [apply in_add_ready|eapply in_add_timer]; exact I. }
    destruct J as [->|J]; [lia|]. apply (q_bound q) in J. fold h in J. lia.
  - destruct PL as [[-> ->]|[-> (w & u & -> & _)]]; [apply nodup3_fresh_ready|apply nodup3_fresh_timer];
      (apply q || exact FR).
  - intros w0 h0 I.
    assert (J : In (w0, h0) (atimers s) \/ exists u, h0 = h /\ c = CbAction u).
    { destruct PL as [[_ ->]|[_ (w & u & -> & E)]]; [left; exact I|]. apply tinsert_in in I.
      destruct I as [I|I]; [inv I; right; eauto|left; exact I]. }
    destruct J as [J|(u & -> & ->)]; [|exists u; apply nth_error_app_last].
    destruct (q_timers q _ _ J) as [u N]. exists u. apply nth_error_app_old, N.
  - intros h0 u0 O. destruct (OLD _ _ O) as [O'|[_ O']]; [apply (q_owner q _ _ O')|apply OWN, O'].
  - intros h1 h2 u0 d1 d2 N1 N2. apply nth_error_app_inv in N1. apply nth_error_app_inv in N2.
    destruct N1 as [N1|[-> E1]]; destruct N2 as [N2|[-> E2]]; try reflexivity.
    + eapply (q_stage_uniq q); eassumption.
    + destruct (STG _ _ (eq_sym E2)) as (_ & _ & U). destruct (U _ _ N1).
    + destruct (STG _ _ (eq_sym E1)) as (_ & _ & U). destruct (U _ _ N2).
  - intros h0 u0 d0 N. apply nth_error_app_inv in N.
    destruct N as [N|[_ E]]; [apply (q_stage_two q _ _ _ N)|apply (STG _ _ (eq_sym E))].
  - (* q_ran: an old stage handle is not the new index *)
    intros u0 h0 d0 I N. apply nth_error_app_inv in N. destruct N as [N|[_ E]].
    + pose proof (q_ran q _ _ _ I N) as X. destruct PL as [[-> _]|[-> _]]; [|exact X].
      rewrite app_assoc. intros Y. apply in_app_or in Y. destruct Y as [Y|[Y|[]]]; [contradiction|].
      subst h0. assert (h < length (ahs s))%nat by (apply nth_error_Some; congruence). unfold h in H. lia.
    + destruct (STG _ _ (eq_sym E)) as (_ & NR & _). contradiction.
  - intros u0 h0 I O. destruct (OLD _ _ O) as [O'|[_ O']]; [eapply (q_eff q); eassumption|].
    destruct (OWN _ O') as (_ & NE & _). contradiction.
  - intros u0 h0 O. destruct (OLD _ _ O) as [O'|[-> O']]; [apply (q_where q _ _ O')|]. right. apply OWN, O'.
  - intros h0 u' f' N. apply nth_error_app_inv in N. destruct N as [N|[_ E]]; [apply (q_cancel_cb q _ _ _ N)|].
    destruct (CAN _ _ (eq_sym E)) as (_ & B & U). split; [exact B|]. intros t u0 I F. eapply U; eassumption.
  - intros h0 u' f' N. apply nth_error_app_inv in N. destruct N as [N|[_ E]]; [apply (q_cancel_u q _ _ _ N)|].
    apply (CAN _ _ (eq_sym E)).
Qed.

(* a new call; its closure names the handle that is created next *)
Lemma Q_new_call : forall safe s ph rest log two woken due,
  Q safe s ph rest log ->
  Q safe (set_core s woken (ahs s) (aready s) (atimers s) (ahl s ++ [(two, [length (ahs s)])]) due) ph rest log.
Proof.
  intros safe s ph rest log two woken due q.
  set (s' := set_core s woken (ahs s) (aready s) (atimers s) (ahl s ++ [(two, [length (ahs s)])]) due).
  assert (OLD : forall u, (u < length (ahl s))%nat -> stack s' u = stack s u /\ twostage s' u = twostage s u).
  { intros u L. unfold stack, twostage, s', set_core. proj. rewrite nth_error_app1 by exact L. auto. }
  assert (LEN : length (ahl s') = S (length (ahl s))).
  { unfold s', set_core. proj. rewrite app_length. cbn. lia. }
  constructor; try (apply q; fail); rewrite ?LEN.
  (* left, in the order of the fields: q_owner, q_eff_bound, q_ran_bound, q_stage_two, q_where, q_len,
     q_s2b, q_fpop, q_lpop, q_cancel_u *)
  - intros h u O. apply (q_owner q) in O. lia.
  - intros u I. apply (q_eff_bound q) in I. lia.
  - intros u I. apply (q_ran_bound q) in I. lia.
  - intros h u d N. pose proof (q_stage_two q _ _ _ N) as T. destruct (OLD u (twostage_lt _ _ T)) as [_ ->]. exact T.
  - intros u h O. destruct (OLD u (q_owner q _ _ O)) as [-> _]. apply (q_where q), O.
  - intros u T. destruct (Nat.lt_ge_cases u (length (ahl s))) as [L|L].
    + destruct (OLD u L) as [-> E]. rewrite E in T. apply (q_len q), T.
    + unfold stack, twostage, s', set_core in *. proj.
      destruct (nth_error (ahl s ++ [(two, [length (ahs s)])]) u) as [[b l]|] eqn:N; [|discriminate T].
      apply nth_error_app_inv in N. destruct N as [N|[_ N]].
      * assert (u < length (ahl s))%nat by (apply nth_error_Some; congruence). lia.
      * inv N. cbn. destruct (amem u (aran s)); lia.
  - intros u h E. destruct (q_s2b q _ _ E) as (T & R & LN). destruct (OLD u (twostage_lt _ _ T)) as [-> ->]. auto.
  - intros t u I F. destruct (q_fpop q t u I F) as (R & T & LN). destruct (OLD u (twostage_lt _ _ T)) as [-> ->]. auto.
  - intros u E. destruct (q_lpop q u E) as (T & LN). destruct (OLD u (twostage_lt _ _ T)) as [-> ->]. auto.
  - intros h u' f' N. apply (q_cancel_u q) in N. lia.
Qed.

(* scheduling: the call, then its handle -- an interval in _ready or in the heap, or stage2 in _ready *)
Lemma Q_sched : forall safe s ph rest log d ol ph' rest' todo todo',
  Q safe s ph rest log ->
  executor safe ph rest None todo ol ph' rest' None todo' ->
  Q safe (fst (do_sched ts s d)) ph' rest' (log ++ snd (do_sched ts s d)).
Proof.
  intros safe s ph rest log d ol ph' rest' todo todo' q0 EX. rewrite do_sched_out.
  assert (q : Q safe s ph' rest' (log ++ [ARet (length (ahl s))]))
    by (eapply Q_same; [exact q0|exact EX|discriminate|discriminate]).
  set (u := length (ahl s)) in *. set (h := length (ahs s)).
  assert (NEW : forall h0, owner s h0 <> Some u) by (intros h0 O; apply (q_owner q) in O; unfold u in O; lia).
  assert (G : forall c two woken rd tm due,
            cbowner c = Some u -> (forall u0 d0, c = CbStage2 u0 d0 -> two = true) ->
            (rd = aready s ++ [h] /\ tm = atimers s \/
             rd = aready s /\ exists w u0, tm = tinsert w h (atimers s) /\ c = CbAction u0) ->
            Q safe (set_core s woken (ahs s ++ [c]) rd tm (ahl s ++ [(two, [h])]) due) ph' rest' (log ++ [ARet u])).
  { intros c two woken rd tm due CO TWO PL.
    apply (Q_new_handle _ _ _ _ _ c woken rd tm due (Q_new_call _ _ _ _ _ two (awoken s) due q)); [exact PL| | |].
    - intros u0 E. rewrite CO in E. inv E. unfold stack, set_core. proj. fold h. fold u.
      rewrite app_length, nth_error_app_last. cbn. split; [lia|]. split; [|left; left; reflexivity].
      intros I. apply (q_eff_bound q) in I. fold u in I. lia.
    - intros u0 d0 E. rewrite (TWO _ _ E). rewrite E in CO. inv CO. unfold twostage, set_core. proj. fold u.
      rewrite nth_error_app_last. split; [reflexivity|]. split.
      + intros I. apply (q_ran_bound q) in I. fold u in I. lia.
      + intros h' d' N. apply (NEW h'). unfold owner. rewrite N. reflexivity.
    - intros u0 f E. rewrite E in CO. discriminate CO. }
  unfold do_sched. fold u. fold h. destruct (d <=? 0); [|destruct ts]; cbn [fst]; apply G; try reflexivity;
    try discriminate; auto.
  (* left: 0 < d without the two-stage option, the interval goes into the heap *)
  right. split; [reflexivity|]. do 2 eexists. split; reflexivity.
Qed.

(* cancelling, as a change of the shared state: the cancelled set grows by [cn], the closure list of call u may
   shrink to [stk'], the cancellation of u may become complete ([effb]) *)
Lemma Q_cancel_state : forall safe s ph rest log u (cn stk' : list nat) hl' (effb : bool) dsp,
  Q safe s ph rest log ->
  (u < length (ahl s))%nat ->
  (hl' = ahl s /\ stk' = stack s u \/ hl' = aupd u (true, stk') (ahl s) /\ twostage s u = true) ->
  (forall x, In x (stack s u) -> In x stk' \/ In x cn) ->
  (length stk' <= length (stack s u))%nat ->
  (effb = true -> (forall x, In x stk' -> In x cn \/ amem x (acanc s) = true) /\ stage2b_of ph = None) ->
  let s' := ASh (aclock s) (arunning s) (awoken s) (ahs s) (aready s) (atimers s) (cn ++ acanc s) hl' (adue s) dsp
                (afut s) (anfut s) (aran s) (if effb then u :: aeff s else aeff s) (astopping s) (asegs s) in
  Q safe s' ph rest log /\ stack s' u = stk' /\ twostage s' u = twostage s u.
Proof.
  intros safe s ph rest log u cn stk' hl' effb dsp q UL SH SUB LEN EFF s'.
  (* [s'] is read through: only the list of u changes and does not grow (UPD, SHR), the cancelled set grows
     (CANC, CANC2), the complete set grows by u at most (EFFIN, EFFUP) *)
  assert (UPD : (forall u0, stack s' u0 = if Nat.eqb u0 u then stk' else stack s u0) /\
               (forall u0, twostage s' u0 = twostage s u0) /\ length (ahl s') = length (ahl s)).
  { destruct SH as [[E1 E2]|[E T]].
    - unfold s'. rewrite E1, E2. split; [|split; reflexivity]. intros u0. destruct (Nat.eqb_spec u0 u) as [->|_]; reflexivity.
    - apply (stack_upd s _ u true stk' UL T). exact E. }
  destruct UPD as (STK & TWS & HLL).
  split; [|split; [rewrite STK, Nat.eqb_refl; reflexivity|apply TWS]].
  assert (SHR : forall u0 n, (length (stack s u0) <= n)%nat -> (length (stack s' u0) <= n)%nat).
  { intros u0 n L. rewrite STK. destruct (Nat.eqb_spec u0 u) as [->|_]; lia. }
  assert (CANC : forall x, amem x (acanc s) = true -> amem x (acanc s') = true).
  { intros x M. unfold s'. proj. rewrite amem_app, M. apply orb_true_r. }
  assert (CANC2 : forall x, In x cn -> amem x (acanc s') = true).
  { intros x M. unfold s'. proj. rewrite amem_app. apply amem_in in M. rewrite M. reflexivity. }
  assert (EFFIN : forall u0, In u0 (aeff s') -> In u0 (aeff s) \/ (effb = true /\ u0 = u)).
  { intros u0 I. unfold s' in I. proj. destruct effb; [destruct I as [<-|I]; auto|auto]. }
  assert (EFFUP : forall u0, In u0 (aeff s) -> In u0 (aeff s')).
  { intros u0 I. unfold s'. proj. destruct effb; [right|]; exact I. }
  constructor; try rewrite HLL; try (apply q; fail).
  (* left, in the order of the fields: q_eff_bound, q_stage_two, q_eff, q_where, q_len, q_s2b,
     q_fpop, q_lpop, q_fwait, q_seen *)
  - intros u0 I. destruct (EFFIN u0 I) as [I'|[_ ->]]; [apply (q_eff_bound q _ I')|exact UL].
  - intros h0 u0 d0 N. rewrite TWS. eapply (q_stage_two q); exact N.
  - intros u0 h0 I O. change (owner s h0 = Some u0) in O. destruct (EFFIN u0 I) as [I'|[EB ->]].
    + apply CANC. eapply (q_eff q); eassumption.
    + destruct (EFF EB) as [ALL NS2]. destruct (q_where q _ _ O) as [M|[M|M]].
      * apply CANC, M.
      * destruct (SUB _ M) as [X|X]; [|apply CANC2, X]. destruct (ALL _ X) as [Y|Y]; [apply CANC2, Y|apply CANC, Y].
      * rewrite NS2 in M. discriminate M.
  - intros u0 h0 O. change (owner s h0 = Some u0) in O. rewrite STK. destruct (q_where q _ _ O) as [M|[M|M]].
    + left. apply CANC, M.
    + destruct (Nat.eqb u0 u) eqn:E; [|right; left; exact M]. apply Nat.eqb_eq in E. subst u0.
      destruct (SUB _ M) as [X|X]; [right; left; exact X|left; apply CANC2, X].
    + right. right. exact M.
  - intros u0 T. rewrite TWS in T. apply SHR, (q_len q u0 T).
  - intros u0 h0 E. destruct (q_s2b q _ _ E) as (T & R & LN). rewrite TWS. auto.
  - intros t u0 I F. destruct (q_fpop q t u0 I F) as (R & T & LN). rewrite TWS. auto.
  - intros u0 E. destruct (q_lpop q u0 E) as (T & LN). rewrite TWS. auto.
  - intros t u0 f I F. destruct (q_fwait q t u0 f I F) as [B E]. auto.
  - intros u0 I. apply EFFUP, (q_seen q), I.
Qed.

(* Q_cancel_state carried out by a step of a thread, which logs the return of dispose() when the cancellation
   is complete *)
Lemma Q_cancel_gen : forall safe s ph rest log ol ph' rest' cur todo cur' todo' u (cn stk' : list nat) hl' (effb : bool) dsp,
  Q safe s ph rest log ->
  executor safe ph rest cur todo ol ph' rest' cur' todo' ->
  (u < length (ahl s))%nat ->
  (hl' = ahl s /\ stk' = stack s u \/ hl' = aupd u (true, stk') (ahl s) /\ twostage s u = true) ->
  (forall x, In x (stack s u) -> In x stk' \/ In x cn) ->
  (length stk' <= length (stack s u))%nat ->
  (effb = true -> (forall x, In x stk' -> In x cn \/ amem x (acanc s) = true) /\ stage2b_of ph = None) ->
  (cur' = None \/ (cur' = Some (FPop2 u) /\ twostage s u = true /\ (length stk' <= 1)%nat /\ (ol = false -> arunning s = false))) ->
  Q safe (ASh (aclock s) (arunning s) (awoken s) (ahs s) (aready s) (atimers s) (cn ++ acanc s) hl' (adue s) dsp
              (afut s) (anfut s) (aran s) (if effb then u :: aeff s else aeff s) (astopping s) (asegs s))
    ph' rest' (log ++ (if effb then [ADispRet u] else [])).
Proof.
  intros safe s ph rest log ol ph' rest' cur todo cur' todo' u cn stk' hl' effb dsp q EX UL SH SUB LEN EFF CUR.
  destruct (Q_cancel_state _ _ _ _ _ u cn stk' hl' effb dsp q UL SH SUB LEN EFF) as (q1 & ST & TW).
  eapply Q_exec; [exact q1|exact EX| | | |].
  - intros u0 I. destruct effb; [destruct I as [I|I]; [discriminate I|]|]; destruct I.
  - intros u0 I. proj. destruct effb; [|destruct I]. destruct I as [I|[]]. inv I. left. reflexivity.
  - intros u0 E. destruct CUR as [->|(-> & T & LN & RN)]; [discriminate E|]. injection E as <-. rewrite ST, TW. auto.
  - intros u0 f E. destruct CUR as [->|(-> & _)]; discriminate E.
Qed.

(* the marshalled dispose: the caller takes a fresh future to wait on, cancel_handle is posted to the loop *)
Lemma Q_marshal : forall safe s ph rest log ph' rest' todo todo' u dsp,
  Q safe s ph rest log ->
  executor safe ph rest None todo false ph' rest' (Some (FWait u (anfut s))) todo' ->
  (u < length (ahl s))%nat ->
  Q safe (ASh (aclock s) (arunning s) true (ahs s ++ [CbCancel u (anfut s)]) (aready s ++ [length (ahs s)]) (atimers s)
              (acanc s) (ahl s) (adue s) dsp (afut s) (S (anfut s)) (aran s) (aeff s) (astopping s) (asegs s))
    ph' rest' (log ++ []).
Proof.
  intros safe s ph rest log ph' rest' todo todo' u dsp q EX UL.
  destruct (executor_shape EX) as (HH & HS & HP & HL & HF).
  assert (WAIT : forall t u0 f, In t rest' -> fcur t = Some (FWait u0 f) ->
            In t rest /\ (f < anfut s)%nat \/ (u0 = u /\ f = anfut s)).
  { intros t u0 f I F. destruct (executor_rest EX t I) as [I'|[_ ->]].
    - left. split; [exact I'|apply (q_fwait q t u0 f I' F)].
    - inv F. auto. }
  (* first the fresh future and the waiting caller, then cancel_handle as a new handle *)
  assert (q1 : Q safe (ASh (aclock s) (arunning s) (awoken s) (ahs s) (aready s) (atimers s) (acanc s) (ahl s) (adue s) dsp
                           (afut s) (S (anfut s)) (aran s) (aeff s) (astopping s) (asegs s)) ph' rest' log).
  { constructor; proj; rewrite ?HH, ?HS, ?HP; try (apply q; fail).
    (* left, in the order of the fields: q_af, q_safe, q_fpop, q_lpop, q_lwait, q_fwait, q_cancel_cb, q_fut *)
    - eapply executor_af; [exact EX|apply (q_af q)].
    - intros NE. apply (q_safe q). eapply executor_nonempty; eassumption.
    - intros t u0 I F. destruct (executor_rest EX t I) as [I'|[_ ->]]; [|discriminate F].
      apply (q_fpop q t u0 I' F).
    - intros u0 E. rewrite (HF eq_refl) in E. apply (q_lpop q u0 E).
    - intros u0 f E. rewrite (HF eq_refl) in E. eapply (q_lwait q); exact E.
    - intros t u0 f I F. destruct (WAIT t u0 f I F) as [[I' B]|[-> ->]].
      + split; [lia|apply (q_fwait q t u0 f I' F)].
      + split; [lia|]. intros M. apply amem_in, (q_fut q) in M. lia.
    - intros h0 u' f' N. destruct (q_cancel_cb q _ _ _ N) as [B U]. split; [lia|]. intros t u0 I F.
      destruct (WAIT t u0 f' I F) as [[I' _]|[_ ->]]; [eapply U; eassumption|lia].
    - intros f I. apply (q_fut q) in I. lia. }
  rewrite app_nil_r.
  apply (Q_new_handle _ _ _ _ _ (CbCancel u (anfut s)) true _ _ (adue s) q1); proj; [left; auto|discriminate|discriminate|].
  intros u' f E. inv E. split; [exact UL|]. split; [lia|]. intros t u0 I F.
  destruct (WAIT t u0 _ I F) as [[_ B]|[-> _]]; [lia|reflexivity].
Qed.

Lemma executor_foreign : forall safe ph rest cur todo ph' rest' cur' todo',
  executor safe ph rest cur todo false ph' rest' cur' todo' ->
  exists n, nth_error rest n = Some (AF cur todo) /\ safe = ts && fixed /\ ph' = ph.
Proof. intros. inv H. eauto. Qed.
Arguments executor_foreign {safe ph rest cur todo ph' rest' cur' todo'} _.

(* a foreign thread that takes the direct path found the loop not running: the loop thread is
   before run_forever(), in particular not inside stage2 *)
Lemma direct_no_stage2b : forall safe s ph rest log cur todo ol ph' rest' cur' todo',
  Q safe s ph rest log ->
  executor safe ph rest cur todo ol ph' rest' cur' todo' ->
  (ol || negb (arunning s) || negb (ts && fixed)) = true ->
  stage2b_of ph = None /\ (ol = false -> arunning s = false).
Proof.
  intros safe s ph rest log cur todo ol ph' rest' cur' todo' q EX D.
  destruct (executor_shape EX) as (HH & HS & HP & HL & HF).
  destruct ol; [destruct (HL eq_refl) as (_ & X & _); split; [exact X|discriminate]|].
  destruct (executor_foreign EX) as (n & NT & SF & ->).
  assert (NE : rest <> []) by (intros ->; destruct n; discriminate NT).
  pose proof (q_safe q NE) as S. rewrite <- SF, S in D. cbn in D. rewrite orb_false_r in D. apply negb_true_iff in D.
  split; [|intros _; exact D]. pose proof (q_run q) as R. rewrite D in R. destruct ph; try discriminate R; reflexivity.
Qed.
Arguments direct_no_stage2b {safe s ph rest log cur todo ol ph' rest' cur' todo'} _ _ _.

(* a dispose in progress between its two pops: the loop is not inside stage2 *)
Lemma pop2_facts : forall safe s ph rest log u todo ol ph' rest' cur' todo',
  Q safe s ph rest log ->
  executor safe ph rest (Some (FPop2 u)) todo ol ph' rest' cur' todo' ->
  twostage s u = true /\ (length (stack s u) <= 1)%nat /\ stage2b_of ph = None.
Proof.
  intros safe s ph rest log u todo ol ph' rest' cur' todo' q EX.
  destruct (executor_shape EX) as (_ & _ & _ & HL & _). destruct ol.
  - destruct (HL eq_refl) as (_ & NS & LC & _). destruct (q_lpop q u LC) as [T LN]. auto.
  - destruct (executor_foreign EX) as (n & NT & SF & ->).
    destruct (q_fpop q _ u (nth_error_In _ _ NT) eq_refl) as (RN & T & LN). repeat split; auto.
    pose proof (q_run q) as R. rewrite RN in R. destruct ph; try discriminate R; reflexivity.
Qed.
Arguments pop2_facts {safe s ph rest log u todo ol ph' rest' cur' todo'} _ _.

(* every handle the closure of call u still lists is cancelled, which completes the cancellation *)
Lemma Q_cancel_all : forall safe s ph rest log ol ph' rest' cur todo todo' u dsp,
  Q safe s ph rest log ->
  executor safe ph rest cur todo ol ph' rest' None todo' ->
  (u < length (ahl s))%nat -> stage2b_of ph = None ->
  Q safe (ASh (aclock s) (arunning s) (awoken s) (ahs s) (aready s) (atimers s) (stack s u ++ acanc s) (ahl s) (adue s) dsp
              (afut s) (anfut s) (aran s) (u :: aeff s) (astopping s) (asegs s))
    ph' rest' (log ++ [ADispRet u]).
Proof.
  intros safe s ph rest log ol ph' rest' cur todo todo' u dsp q EX UL NS.
  apply (Q_cancel_gen _ _ _ _ _ ol ph' rest' cur todo None todo' u (stack s u) (stack s u) (ahl s) true dsp q EX UL); auto.
Qed.

Lemma Q_cstep : forall safe s ph rest log cur todo ol ph' rest' cur' todo' s' out,
  Q safe s ph rest log ->
  executor safe ph rest cur todo ol ph' rest' cur' todo' ->
  cstep ol s cur todo s' cur' todo' out ->
  Q safe s' ph' rest' (log ++ out).
Proof.
  intros safe s ph rest log cur todo ol ph' rest' cur' todo' s' out q EX C. revert EX.
  destruct C as [todo'|d todo'|u todo' NH|u todo' two l NH ND|u todo' l NH ND DIR|u todo' NH ND DIR|u todo' x l NH ND DIR
                |u todo' two l NH ND DIR|u todo' b x l NH|u todo' NH|u f todo' NH|todo'|t todo' NH|t todo'];
    intros EX; destruct (executor_shape EX) as (HH & HS & HP & HL & HF).
  - eapply Q_sched; eassumption.
  - eapply Q_sched; eassumption.
  - eapply Q_same; try eassumption; [intros u0; discriminate|intros u0 E; discriminate E].
  - eapply Q_same; try eassumption; [intros u0; discriminate|intros u0 E; discriminate E].
  - (* single handle, direct *)
    destruct (direct_no_stage2b q EX DIR) as [NS RN]. destruct (hl_lookup _ _ _ _ NH) as (UL & _ & <-).
    eapply Q_cancel_all; eassumption.
  - (* two-stage, nothing left to pop *)
    destruct (direct_no_stage2b q EX DIR) as [NS RN]. destruct (hl_lookup _ _ _ _ NH) as (UL & _ & ST).
    change (acanc s) with ([] ++ acanc s). rewrite <- ST. eapply Q_cancel_all; eassumption.
  - (* two-stage, first pop: the last handle of the list *)
    destruct (direct_no_stage2b q EX DIR) as [NS RN]. destruct (hl_lookup _ _ _ _ NH) as (UL & TW & ST).
    pose proof (q_len q u TW) as LN. rewrite ST in LN.
    assert (LN2 : (length (removelast (x :: l)) <= 1)%nat).
    { rewrite removelast_length. destruct (amem u (aran s)); cbn in *; lia. }
    apply (Q_cancel_gen _ _ _ _ _ ol ph' rest' None (ADispose u :: todo') (Some (FPop2 u)) todo' u
             [last (x :: l) 0%nat] (removelast (x :: l)) _ false (u :: adisp s) q EX UL); rewrite ?ST; auto.
    + intros y I. destruct (in_last_or_removelast _ _ I) as [->|J]; [right; left; reflexivity|left; exact J].
    + rewrite removelast_length. cbn. lia.
    + discriminate.
  - (* marshalled *)
    destruct ol; [cbn in DIR; discriminate DIR|]. eapply Q_marshal; try eassumption. apply (hl_lookup _ _ _ _ NH).
  - (* second pop: one handle is left *)
    destruct (pop2_facts q EX) as (TW & LN & NS). destruct (hl_lookup _ _ _ _ NH) as (UL & _ & ST).
    rewrite ST in LN. assert (l = []) by (destruct l; [reflexivity|cbn in LN; lia]). subst l.
    apply (Q_cancel_gen _ _ _ _ _ ol ph' rest' (Some (FPop2 u)) todo' None todo' u [x] [] _ true (adisp s) q EX UL);
      rewrite ?ST; auto. cbn. lia.
  - (* second pop: nothing left *)
    destruct (pop2_facts q EX) as (TW & LN & NS).
    change (acanc s) with ([] ++ acanc s). replace (@nil nat) with (stack s u) by exact NH.
    eapply Q_cancel_all; try eassumption. apply twostage_lt, TW.
  - (* future.result() returns *)
    eapply Q_same; try eassumption; [intros u0; discriminate|]. intros u0 E. inv E.
    destruct ol.
    + destruct (HL eq_refl) as (_ & _ & LC & _). exfalso. eapply (q_lwait q); exact LC.
    + destruct (executor_foreign EX) as (n & NT & SF & ->).
      destruct (q_fwait q _ u0 f (nth_error_In _ _ NT) eq_refl) as [_ E]. apply E, NH.
  - (* loop.stop() *)
    apply (Q_frame _ s ph' _ _ _ ph'); auto. eapply Q_same; try eassumption; [intros u0; discriminate|intros u0 E; discriminate E].
  - (* the sleep is over *)
    eapply Q_same; try eassumption; [intros u0; discriminate|intros u0 E; discriminate E].
  - (* schedule_absolute *)
    eapply Q_sched; eassumption.
Qed.

(* a state that differs only in woken / ready / timers, with the same handles overall *)
Lemma Q_requeue : forall safe s ph ph' rest log woken rd tm,
  stage2b_of ph' = stage2b_of ph -> is_pre ph' = is_pre ph -> lcur ph' = lcur ph ->
  Q safe s ph rest log ->
  (forall x, In x (held ph' ++ rd ++ map snd tm) -> In x (held ph ++ aready s ++ map snd (atimers s))) ->
  NoDup (held ph' ++ rd ++ map snd tm) ->
  (forall x, In x (held ph' ++ rd) -> In x (held ph ++ aready s) \/ exists w, In (w, x) (atimers s)) ->
  (forall x, In x tm -> In x (atimers s)) ->
  Q safe (set_core s woken (ahs s) rd tm (ahl s) (adue s)) ph' rest log.
Proof.
  intros safe s ph ph' rest log woken rd tm H2 H3 H4 q SUB ND HR TM.
  constructor; unfold set_core; proj; rewrite ?H2, ?H3, ?H4; try (apply q; fail).
  (* left, in the order of the fields: q_bound, q_nodup, q_timers, q_ran *)
  - intros x I. apply (q_bound q), SUB, I.
  - exact ND.
  - intros w h I. apply (q_timers q w h), TM, I.
  - intros u0 h0 d0 I N X. destruct (HR _ X) as [Y|[w Y]].
    + eapply (q_ran q); eassumption.
    + destruct (q_timers q _ _ Y) as [u1 N1]. congruence.
Qed.

Lemma Q_begin_iter : forall safe s rest log dl0,
  Q safe s (LIdle dl0) rest log -> Q safe (fst (begin_iter s)) (snd (begin_iter s)) rest log.
Proof.
  intros safe s rest log dl0 q. cbn [begin_iter fst snd].
  destruct (drop_cancelled_suffix (acanc s) (atimers s)) as [pre E].
  eapply Q_requeue with (ph := LIdle dl0); try reflexivity; try exact q; cbn [held app].
  - intros x I. apply in_app_or in I. apply in_or_app. destruct I as [I|I]; [left; exact I|right].
    rewrite E, map_app. apply in_or_app. right. exact I.
  - pose proof (q_nodup q) as N. cbn [held app] in N. rewrite E, map_app in N. apply (NoDup_app_drop _ _ _ N).
  - intros x I. left. exact I.
  - intros x I. eapply drop_cancelled_in, I.
Qed.

(* run_forever() returns between two iterations: nothing is held, stage2 is not in progress, no foreign
   thread is inside a direct dispose (it would have found the loop not running) *)
Lemma Q_stop : forall safe s rest log dl0 ph' sg,
  Q safe s (LIdle dl0) rest log -> is_pre ph' = true -> held ph' = [] -> stage2b_of ph' = None -> lcur ph' = None ->
  Q safe (ASh (aclock s) false (awoken s) (ahs s) (aready s) (atimers s) (acanc s) (ahl s) (adue s) (adisp s)
              (afut s) (anfut s) (aran s) (aeff s) false sg) ph' rest log.
Proof.
  intros safe s rest log dl0 ph' sg q P H S L. apply (Q_frame _ _ _ _ _ _ ph' q); auto.
  right. rewrite P. split; [reflexivity|]. intros t u I F.
  destruct (q_fpop q t u I F) as (R & _). rewrite (q_run q) in R. discriminate R.
Qed.

Lemma Q_end_iter : forall safe s rest log dl0,
  Q safe s (LIdle dl0) rest log -> Q safe (fst (end_iter s)) (snd (end_iter s)) rest log.
Proof.
  intros safe s rest log dl0 q. unfold end_iter. destruct (astopping s); [|eapply Q_begin_iter, q].
  unfold stop_loop. destruct (asegs s) as [|seg more]; cbn [fst snd]; eapply Q_stop; try exact q; reflexivity.
Qed.

Lemma Q_next : forall safe s rest log dl0 k,
  Q safe s (LIdle dl0) rest log -> Q safe (fst (next_handle s k)) (snd (next_handle s k)) rest log.
Proof.
  intros safe s rest log dl0 k q. unfold next_handle. destruct k as [|k']; [eapply Q_end_iter, q|].
  destruct (aready s) as [|h r] eqn:R; [eapply Q_end_iter, q|]. cbn [fst snd].
  pose proof (q_nodup q) as N. cbn [held app] in N. rewrite R in N.
  eapply Q_requeue with (ph := LIdle dl0); try reflexivity; try exact q; cbn [held app]; rewrite ?R.
  - intros x I. exact I.
  - exact N.
  - intros x I. left. exact I.
  - intros x I. exact I.
Qed.

(* the action is entered: its call's cancellation is not complete *)
Lemma Q_run_action : forall safe s h k rest log u todo,
  Q safe s (LRun h k) rest log -> amem h (acanc s) = false -> nth_error (ahs s) h = Some (CbAction u) ->
  Q safe s (LAct u None todo k) rest (log ++ [AStart u]).
Proof.
  intros safe s h k rest log u todo q NC N.
  assert (NOTEFF : ~ In u (aeff s)).
  { intros I. assert (owner s h = Some u) by (unfold owner; rewrite N; reflexivity).
    rewrite (q_eff q _ _ I H) in NC. discriminate NC. }
  pose proof (Q_release _ _ _ _ _ _ _ None (or_intror eq_refl) q) as q1.
  pose proof (Q_phase _ _ (LIdle None) (LAct u None todo k) _ _ eq_refl eq_refl eq_refl eq_refl q1) as q2.
  constructor; try apply q2.
  - rewrite disp_ok_app, (q_log q2). cbn. rewrite andb_true_r. apply negb_true_iff.
    destruct (amem u (dseen [] log)) eqn:M; [|reflexivity]. exfalso. apply NOTEFF. apply (q_seen q). apply amem_in. exact M.
  - intros u0 I. rewrite dseen_app in I. cbn in I. apply (q_seen q2), I.
Qed.

(* stage2 up to `return timer` of call_later *)
Lemma Q_stage2a : forall safe s h k rest log u d,
  Q safe s (LRun h k) rest log -> amem h (acanc s) = false -> nth_error (ahs s) h = Some (CbStage2 u d) ->
  Q safe (ASh (aclock s) (arunning s) (awoken s) (ahs s ++ [CbAction u]) (aready s)
              (tinsert (aclock s + d) (length (ahs s)) (atimers s)) (acanc s) (ahl s) (adue s) (adisp s) (afut s)
              (anfut s) (u :: aran s) (aeff s) (astopping s) (asegs s))
    (LStage2b u (length (ahs s)) k) rest log.
Proof.
  intros safe s h k rest log u d q NC N.
  assert (OH : owner s h = Some u) by (unfold owner; rewrite N; reflexivity).
  assert (NR : ~ In u (aran s)).
  { intros I. eapply (q_ran q); [exact I|exact N|]. left. reflexivity. }
  assert (LN : (length (stack s u) <= 1)%nat).
  { pose proof (q_len q u (q_stage_two q _ _ _ N)) as L.
    destruct (amem u (aran s)) eqn:M; [apply amem_in in M; contradiction|exact L]. }
  assert (HNR : ~ In h (aready s)).
  { pose proof (q_nodup q) as ND. cbn [held app] in ND. inversion ND as [|h0 l0 NI ND']; subst. intros X. apply NI.
    apply in_or_app. left. exact X. }
  pose proof (Q_release _ _ _ _ _ _ _ None (or_intror eq_refl) q) as q0.
  (* stage2 is entered (its handle is consumed for good); then call_later creates the timer *)
  assert (q1 : Q safe (ASh (aclock s) (arunning s) (awoken s) (ahs s) (aready s) (atimers s) (acanc s) (ahl s) (adue s)
                           (adisp s) (afut s) (anfut s) (u :: aran s) (aeff s) (astopping s) (asegs s))
                  (LStage2b u (length (ahs s)) k) rest log).
  { constructor; proj; cbn [held stage2b_of is_pre lcur app]; try (apply q0; fail).
    (* left, in the order of the fields: q_ran_bound, q_ran, q_where, q_len, q_s2b *)
    - intros u0 [<-|I]; [apply (q_owner q _ _ OH)|apply (q_ran_bound q _ I)].
    - intros u0 h0 d0 [<-|I] NN; [|apply (q_ran q0 _ _ _ I NN)].
      replace h0 with h by (eapply (q_stage_uniq q); eassumption). exact HNR.
    - intros u0 h0 O. destruct (q_where q0 _ _ O) as [M|[M|M]]; auto. discriminate M.
    - intros u0 T. pose proof (q_len q u0 T) as L. unfold stack in *. proj. cbn [amem].
      destruct (Nat.eqb u0 u) eqn:E; cbn [orb]; [|exact L]. apply Nat.eqb_eq in E. subst u0. lia.
    - intros u0 h0 E. inv E. split; [apply (q_stage_two q _ _ _ N)|]. split; [left; reflexivity|exact LN]. }
  apply (Q_new_handle _ _ _ _ _ (CbAction u) (awoken s) _ _ (adue s) q1); proj; [| |discriminate|discriminate].
  { right. split; [reflexivity|]. do 2 eexists. split; reflexivity. }
  intros u0 E. inv E. split; [apply (q_owner q _ _ OH)|]. split; [|right; reflexivity].
  intros I. rewrite (q_eff q _ _ I OH) in NC. discriminate NC.
Qed.

(* a future gets its result *)
Lemma Q_add_fut : forall safe s ph rest log f,
  Q safe s ph rest log -> (f < anfut s)%nat ->
  (forall t u0, In t rest -> fcur t = Some (FWait u0 f) -> In u0 (aeff s)) ->
  Q safe (ASh (aclock s) (arunning s) (awoken s) (ahs s) (aready s) (atimers s) (acanc s) (ahl s) (adue s) (adisp s)
              (f :: afut s) (anfut s) (aran s) (aeff s) (astopping s) (asegs s)) ph rest log.
Proof.
  intros safe s ph rest log f q B W. constructor; proj; try apply q.
  - intros t u0 f0 I F. destruct (q_fwait q t u0 f0 I F) as [B0 E]. split; [exact B0|].
    cbn [amem]. intros M. apply orb_true_iff in M. destruct M as [M|M]; [|apply E, M].
    apply Nat.eqb_eq in M. subst f0. eapply W; eassumption.
  - intros f0 [<-|I]; [exact B|apply (q_fut q _ I)].
Qed.

(* cancel_handle runs on the loop *)
Lemma Q_cancel_run : forall safe s h k rest log u f,
  Q safe s (LRun h k) rest log -> nth_error (ahs s) h = Some (CbCancel u f) ->
  Q safe (set_canc s (fst (cancel_all s u)) (snd (cancel_all s u)) (f :: afut s) (u :: aeff s)) (LIdle None) rest log.
Proof.
  intros safe s h k rest log u f q N.
  pose proof (q_cancel_u q _ _ _ N) as UL.
  destruct (q_cancel_cb q _ _ _ N) as [FB FU].
  pose proof (Q_release _ _ _ _ _ _ _ None (or_intror eq_refl) q) as q1.
  (* cancel_all cancels the whole closure list, which for a two-stage call has at most two entries *)
  assert (q2 : Q safe (set_canc s (fst (cancel_all s u)) (snd (cancel_all s u)) (afut s) (u :: aeff s)) (LIdle None) rest log).
  { unfold cancel_all, set_canc. destruct (nth_error (ahl s) u) as [[[|] l]|] eqn:NH; cbn [fst snd].
    - destruct (hl_lookup _ _ _ _ NH) as (_ & TW & ST).
      pose proof (q_len q u TW) as LN. rewrite ST in LN.
      assert (L2 : (length l <= 2)%nat) by (destruct (amem u (aran s)); lia).
      rewrite (last2_all _ L2), (removelast2_nil _ L2).
      apply (Q_cancel_state _ _ _ _ _ u l [] _ true (adisp s) q1 UL); rewrite ?ST; auto. cbn. lia.
    - destruct (hl_lookup _ _ _ _ NH) as (_ & _ & ST).
      apply (Q_cancel_state _ _ _ _ _ u l l _ true (adisp s) q1 UL); rewrite ?ST; auto.
    - apply nth_error_None in NH. lia. }
  apply (Q_add_fut _ _ _ _ _ f q2 FB). intros t u0 I F. left. symmetry. eapply FU; eassumption.
Qed.

(* stage2: handle.append(timer) *)
Lemma Q_stage2b : forall safe s u h k rest log,
  Q safe s (LStage2b u h k) rest log ->
  Q safe (set_core s (awoken s) (ahs s) (aready s) (atimers s)
            (match nth_error (ahl s) u with Some (two, l) => aupd u (two, l ++ [h]) (ahl s) | None => ahl s end) (adue s))
    (LIdle None) rest log.
Proof.
  intros safe s u h k rest log q.
  destruct (q_s2b q u h eq_refl) as (TW & RN & LN).
  assert (RUN : arunning s = true) by (rewrite (q_run q); reflexivity).
  destruct (nth_error (ahl s) u) as [[two l]|] eqn:NH; [|unfold twostage in TW; rewrite NH in TW; discriminate TW].
  destruct (hl_lookup _ _ _ _ NH) as (UL & E & ST). rewrite TW in E. subst two. rewrite ST in LN.
  set (s' := set_core s (awoken s) (ahs s) (aready s) (atimers s) (aupd u (true, l ++ [h]) (ahl s)) (adue s)).
  destruct (stack_upd s s' u true (l ++ [h]) UL TW eq_refl) as (STK & TWS & HLL).
  constructor; cbn [held stage2b_of is_pre lcur app]; try rewrite HLL; try (apply q; fail).
  (* left, in the order of the fields: q_stage_two, q_where, q_len, q_s2b, q_fpop, q_lpop *)
  - intros h0 u0 d0 N. rewrite TWS. eapply (q_stage_two q); exact N.
  - (* q_where: the timer is now in the closure list *)
    intros u0 h0 O. rewrite STK. destruct (q_where q u0 h0 O) as [M|[M|M]].
    + left. exact M.
    + right. left. destruct (Nat.eqb u0 u) eqn:E; [|exact M]. apply Nat.eqb_eq in E. subst u0. rewrite ST in M.
      apply in_or_app. left. exact M.
    + cbn in M. inv M. right. left. rewrite Nat.eqb_refl. apply in_or_app. right. left. reflexivity.
  - intros u0 T. rewrite TWS in T. rewrite STK. pose proof (q_len q u0 T) as L0.
    destruct (Nat.eqb u0 u) eqn:E; [|exact L0]. apply Nat.eqb_eq in E. subst u0.
    unfold s', set_core. proj. apply amem_in in RN. rewrite RN. rewrite app_length. cbn. lia.
  - intros u0 h0 E. discriminate E.
  - intros t u0 I F. destruct (q_fpop q t u0 I F) as (R & _). rewrite R in RUN. discriminate RUN.
  - intros u0 E. discriminate E.
Qed.

(* select returns: the due timers become ready *)
Lemma Q_wake : forall safe s rest log dl due rst,
  Q safe s (LIdle dl) rest log -> split_due (aclock s) (atimers s) = (due, rst) ->
  Q safe (set_core s false (ahs s) (aready s ++ due) rst (ahl s) (adue s)) (LIdle None) rest log.
Proof.
  intros safe s rest log dl due rst q SD.
  pose proof (split_due_handles _ _ _ _ SD) as HS.
  eapply Q_requeue with (ph := LIdle dl); try reflexivity; try exact q; cbn [held app].
  - intros x I. rewrite HS. rewrite <- app_assoc in I. exact I.
  - pose proof (q_nodup q) as N. cbn [held app] in N. rewrite HS in N. rewrite <- app_assoc. exact N.
  - intros x I. apply in_app_or in I. destruct I as [I|I]; [left; exact I|right].
    destruct (split_due_due _ _ _ _ SD x I) as [w [X _]]. eauto.
  - intros x I. eapply split_due_rest; eassumption.
Qed.

Lemma Q_fin : forall safe s ph rest log s1 k out,
  lfin s ph s1 k out -> Q safe s ph rest log -> Q safe s1 (LIdle None) rest (log ++ out).
Proof.
  intros safe s ph rest log s1 k out F q. destruct F as [dl due rst SD|h k M|h k M|h k u f N|h k N|u k|u h k];
    try (apply Q_log_other; [discriminate|discriminate|]); rewrite ?app_nil_r.
  - eapply Q_wake; eassumption.
  - eapply Q_release; [left; reflexivity|exact q].
  - eapply Q_release; [right; reflexivity|exact q].
  - eapply Q_cancel_run; eassumption.
  - eapply Q_release; [right; reflexivity|exact q].
  - apply (Q_phase _ _ (LAct u None [] k)); auto.
  - eapply Q_stage2b, q.
Qed.

Lemma Q_lstep : forall safe s ph rest log quiet s' ph' out,
  Q safe s ph rest log ->
  (quiet = true -> forall t u, In t rest -> fcur t <> Some (FPop2 u)) ->
  lstep quiet s ph s' ph' out ->
  Q safe s' ph' rest (log ++ out).
Proof.
  intros safe s ph rest log quiet s' ph' out q QT L.
  destruct L as [cur todo s' cur' todo' out C|u k cur todo s' cur' todo' out C|s1 QU ->|h k M|h k u M N|h k u d M N|ph s1 k out F];
    rewrite ?app_nil_r.
  - eapply Q_cstep; [exact q|apply EX_pre; reflexivity|exact C].
  - eapply Q_cstep; [exact q|apply EX_act; reflexivity|exact C].
  - (* run_forever() *)
    apply (Q_begin_iter _ _ _ _ None), (Q_frame _ _ _ _ _ _ (LIdle None) q); auto.
  - apply (Q_phase _ _ (LCheck h k)); auto.
  - eapply Q_run_action; eassumption.
  - eapply Q_stage2a; eassumption.
  - apply (Q_next _ _ _ _ None), (Q_fin _ _ _ _ _ _ _ _ F q).
Qed.

Lemma arun_inv : forall (P : aconfig -> Prop),
  (forall c tid, P c -> P (atstep c tid)) -> (forall c d, P c -> P (atick c d)) ->
  forall sched c, P c -> P (arun c sched).
Proof.
  intros P HS HT. induction sched as [|m s IH]; intros c H; [exact H|]. cbn. apply IH.
  destruct m; cbn; [apply HS|apply HT]; exact H.
Qed.

Definition invC (c : aconfig) : Prop :=
  exists ph rest, a_ths c = AL ph :: rest /\ Q (ts && fixed) (a_sh c) ph rest (AL_ c).

Lemma AL_step : forall s ths log tid clk out, AL_ (AConfig s ths (log ++ astamp tid clk out)) = aevs log ++ out.
Proof. intros. unfold AL_. cbn [a_log]. rewrite aevs_app, aevs_stamp. reflexivity. Qed.

Lemma invC_step : forall c tid, invC c -> invC (atstep c tid).
Proof.
  intros c tid (ph & rest & TH & q). unfold AsyncIO.atstep. rewrite TH. destruct tid as [|n]; cbn [nth_error].
  - (* the loop thread *)
    destruct (loop_step ts fixed abody (negb (existsb in_pop2 (AL ph :: rest))) (a_sh c) ph) as [[[s' ph'] out]|] eqn:LS;
      [|exists ph, rest; split; [exact TH|exact q]].
    exists ph', rest. split; [reflexivity|]. rewrite AL_step. fold (AL_ c).
    eapply Q_lstep; [exact q| |apply loop_step_spec, LS].
    intros QT t u I F. apply negb_true_iff in QT. cbn [existsb in_pop2 orb] in QT.
    assert (existsb in_pop2 rest = true); [|congruence].
    apply existsb_exists. exists t. split; [exact I|]. destruct t as [cur todo|p]; [|discriminate F]. cbn in F. subst cur. reflexivity.
  - (* a foreign thread *)
    destruct (nth_error rest n) as [t|] eqn:N; [|exists ph, rest; split; [exact TH|exact q]].
    pose proof (q_af q t (nth_error_In _ _ N)) as AFt. destruct t as [cur todo|p]; [|discriminate AFt].
    destruct (call_step ts fixed false (a_sh c) cur todo) as [[[[s' cur'] todo'] out]|] eqn:CS;
      [|exists ph, rest; split; [exact TH|exact q]].
    exists ph, (aupd n (AF cur' todo') rest). split; [reflexivity|]. rewrite AL_step. fold (AL_ c).
    eapply Q_cstep; [exact q| |apply call_step_spec; exact CS]. apply EX_foreign; [exact N|reflexivity].
Qed.

Lemma invC_tick : forall c d, invC c -> invC (atick c d).
Proof.
  intros c d (ph & rest & TH & q). exists ph, rest. split; [exact TH|]. unfold atick, AL_. cbn [a_sh a_log]. apply (Q_frame _ _ _ _ _ _ ph q); auto.
Qed.

Lemma invC_init : forall t0 pre segs progs, (ts && fixed = true \/ progs = []) -> invC (ainit t0 pre segs progs).
Proof.
  intros t0 pre segs progs H. exists (LPre None pre), (map (fun p => AF None p) progs). split; [reflexivity|].
  unfold ainit, AL_. cbn [a_sh a_log aevs map].
  assert (FR : forall t, In t (map (fun p => AF None p) progs) -> is_af t = true /\ fcur t = None).
  { intros t I. apply in_map_iff in I. destruct I as [p [<- _]]. auto. }
  (* nothing exists yet: the fields about an entry of a table hold vacuously; left are those about the threads
     (q_af, q_safe, q_fpop, q_fwait) and q_nodup *)
  constructor; unfold owner, twostage; proj; cbn [held stage2b_of is_pre lcur app length]; try (intros; contradiction);
    try discriminate; try reflexivity; try (intros; rewrite anth_nil in *; discriminate).
  - intros t I. apply FR, I.
  - intros NE. destruct H as [H|H]; [exact H|]. subst progs. exfalso. apply NE. reflexivity.
  - constructor.
  - intros t u I F. apply FR in I. destruct I as [_ E]. rewrite E in F. discriminate F.
  - intros t u f I F. apply FR in I. destruct I as [_ E]. rewrite E in F. discriminate F.
Qed.

Lemma invC_reach : forall t0 pre segs progs sched,
  (ts && fixed = true \/ progs = []) -> invC (arun (ainit t0 pre segs progs) sched).
Proof. intros t0 pre segs progs sched H. apply arun_inv; [exact invC_step|exact invC_tick|apply invC_init, H]. Qed.

(* once dispose() has returned, the action does not start *)
Theorem aio_cancel_effective : forall t0 pre segs progs sched l1 u l2,
  (ts && fixed = true \/ progs = []) ->
  AL_ (arun (ainit t0 pre segs progs) sched) = l1 ++ ADispRet u :: l2 -> ~ In (AStart u) l2.
Proof.
  intros t0 pre segs progs sched l1 u l2 H E.
  destruct (invC_reach t0 pre segs progs sched H) as (ph & rest & _ & q).
  pose proof (q_log q) as L. rewrite E in L. eapply disp_ok_spec, L.
Qed.

(* dispose() returns only when the cancellation has been carried out: every handle created so far for the
   call (interval / stage2 / the timer) is cancelled at that moment and stays so -- whichever thread called
   dispose(), however often the loop was stopped and run again in between.  For the marshalled path this
   says that future.result() is not left before cancel_handle has run ON the loop. *)
Theorem aio_dispose_returns_cancelled : forall t0 pre segs progs sched u h,
  (ts && fixed = true \/ progs = []) ->
  let c := arun (ainit t0 pre segs progs) sched in
  In (ADispRet u) (AL_ c) -> owner (a_sh c) h = Some u -> amem h (acanc (a_sh c)) = true.
Proof.
  intros t0 pre segs progs sched u h H c I O.
  destruct (invC_reach t0 pre segs progs sched H) as (ph & rest & _ & q). fold c in q.
  eapply (q_eff q); [|exact O]. apply (q_seen q). apply amem_in. apply amem_dseen. right. exact I.
Qed.

Lemma cstep_no_start : forall ol s cur todo s' cur' todo' out u,
  cstep ol s cur todo s' cur' todo' out -> ~ In (AStart u) out.
Proof.
  intros ol s cur todo s' cur' todo' out u C. destruct C; rewrite ?do_sched_out;
    (intros [E|[]]; discriminate E) || intros [].
Qed.

(* actions start on thread 0, the only loop thread; no side condition is needed for this *)
Definition invL0 (c : aconfig) : Prop :=
  (forall tid ph, nth_error (a_ths c) tid = Some (AL ph) -> tid = 0%nat) /\
  (forall tid t u, In (tid, t, AStart u) (a_log c) -> tid = 0%nat).

Lemma invL0_step : forall c tid, invL0 c -> invL0 (atstep c tid).
Proof.
  intros c tid [S L]. unfold AsyncIO.atstep. destruct (nth_error (a_ths c) tid) as [[cur todo|ph]|] eqn:N; [| |split; assumption].
  - destruct (call_step ts fixed false (a_sh c) cur todo) as [[[[s' cur'] todo'] out]|] eqn:CS; [|split; assumption].
    split; cbn [a_ths a_log].
    + intros j ph Nj. destruct (Nat.eq_dec j tid) as [->|NE].
      * rewrite (anth_upd_same _ _ _ _ _ N) in Nj. discriminate Nj.
      * rewrite anth_upd_other in Nj by exact NE. eapply S, Nj.
    + intros j t u I. apply in_app_or in I. destruct I as [I|I]; [eapply L, I|].
      apply in_astamp in I. destruct I as [_ [_ I]]. exfalso.
      eapply cstep_no_start; [apply call_step_spec; exact CS|exact I].
  - pose proof (S tid ph N) as ->.
    destruct (loop_step ts fixed abody _ (a_sh c) ph) as [[[s' ph'] out]|]; [|split; assumption].
    split; cbn [a_ths a_log].
    + intros j p Nj. destruct (Nat.eq_dec j 0) as [->|NE]; [reflexivity|].
      rewrite anth_upd_other in Nj by exact NE. eapply S, Nj.
    + intros j t u I. apply in_app_or in I. destruct I as [I|I]; [eapply L, I|]. apply in_astamp in I. apply I.
Qed.

Theorem aio_on_loop_thread_all : forall t0 pre segs progs sched tid t u,
  In (tid, t, AStart u) (a_log (arun (ainit t0 pre segs progs) sched)) -> tid = 0%nat.
Proof.
  intros t0 pre segs progs sched tid t u.
  assert (I0 : invL0 (ainit t0 pre segs progs)).
  { split.
    - intros j ph N. unfold ainit in N. cbn [a_ths] in N. destruct j as [|n]; [reflexivity|]. cbn [nth_error] in N.
      apply nth_error_In, in_map_iff in N. destruct N as [p [E _]]. discriminate E.
    - intros ? ? ? []. }
  apply (arun_inv invL0 invL0_step (fun c d H => H) sched _ I0).
Qed.

Theorem aio_on_loop_thread : forall t0 pre segs progs sched tid t u,
  (ts && fixed = true \/ progs = []) ->
  In (tid, t, AStart u) (a_log (arun (ainit t0 pre segs progs) sched)) -> tid = 0%nat.
Proof. intros t0 pre segs progs sched tid t u _. apply aio_on_loop_thread_all. Qed.
End Facts.

Definition noaction (u : nat) : list aop := [].

(* [fixed = false]: a foreign dispose() takes the direct path although the loop is running.
   T1: schedule_relative(1000) ; loop: starts, wakes up, tests and runs stage2 up to `return timer` ;
   T1: dispose(): pops and cancels stage 1 only, the
   second pop raises IndexError (swallowed), dispose() returns ; loop: appends the timer handle ;
   the clock reaches 1000 ; loop: the timer fires and the action starts -- after dispose() returned *)
Definition old_code_witness : aconfig :=
  arun true false noaction (ainit 0 [] [] [[ARel 1000; ADispose 0%nat]])
       ([AMStep 0; AMStep 1; AMStep 0; AMStep 0; AMStep 0; AMStep 1; AMStep 1; AMStep 0; AMTick 1000;
         AMStep 0; AMStep 0; AMStep 0]%nat).

Lemma aio_foreign_direct_cancel_refuted :
  map snd (a_log old_code_witness) = [ARet 0; ADispRet 0; AStart 0]%nat.
Proof. vm_compute. reflexivity. Qed.

(* the same schedule with [fixed = true], continued until dispose() returns: dispose() waits for the loop to run
   cancel_handle, and the log ends without a start (Props/C33.v, C33_same_schedule_repaired) *)
Definition new_code_same_schedule : aconfig :=
  arun true true noaction (ainit 0 [] [] [[ARel 1000; ADispose 0%nat]])
       ([AMStep 0; AMStep 1; AMStep 0; AMStep 0; AMStep 0; AMStep 1; AMStep 1; AMStep 0; AMTick 1000;
         AMStep 0; AMStep 0; AMStep 0; AMStep 0; AMStep 1; AMStep 0; AMStep 0]%nat).
