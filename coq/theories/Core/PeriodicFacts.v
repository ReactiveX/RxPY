(* Facts about periodic scheduling on the virtual-time model: no call after a dispose; the closed
   form [solo_spec] of the calls of a subscription that is alone, and that the machine makes
   exactly these calls; interval(p). *)
From RxVerif Require Import Base.Prelude Core.VTime Core.VTimeFacts Core.Periodic.

Local Open Scope Z_scope.

(* a logged EPDispose means the subscription is marked disposed, and no tick follows a dispose *)
Definition Inv10 (s : st) : Prop :=
  (forall pid, In (EPDispose pid) (log s) ->
               exists pi, nth_error (pers s) pid = Some pi /\ p_disposed pi = true) /\
  no_tick_after_dispose (log s).

Lemma inv10_prim s s' : Inv10 s -> prim s s' -> Inv10 s'.
Proof.
  intros [H1 H2] HP. destruct HP as [s due p|s r|s b|s c Hc|s pnew|s pid pi pi' Hn Hper Hfn Hdis|s e Hq|s it q' newclk bumped Hq Hc]; try (split; assumption).
  - (* P_cancel *) destruct (cancel_id_fields s r) as (A & B & C & D & E & F & G). unfold Inv10. rewrite F.
    unfold cancel_id. destruct (r <? next_id s)%nat; [|split; assumption]. simpl. split.
    + intros pid [X|Hin]; [discriminate | auto].
    + split; [exact I | assumption].
  - (* P_per_add *) split; [|assumption]. simpl. intros pid Hin. destruct (H1 pid Hin) as (pi0 & N & D).
    exists pi0. split; [|assumption]. rewrite nth_error_app1; [assumption|].
    apply nth_error_Some. congruence.
  - (* P_per_upd: a disposed subscription stays disposed *)
    split; [|assumption]. simpl. intros pid0 Hin. destruct (H1 pid0 Hin) as (pi0 & N & D).
    destruct (Nat.eq_dec pid pid0) as [->|Hne].
    + exists pi'. split; [eapply nth_error_set_nth; eassumption|].
      apply Hdis. congruence.
    + exists pi0. split; [|assumption]. rewrite nth_error_set_nth_other; assumption.
  - (* P_log: [quiet] asks of EPDispose and ETick what the invariant needs *)
    split; simpl.
    + intros pid [X|Hin]; [subst e; simpl in Hq; exact Hq | auto].
    + split; [|assumption]. destruct e; try exact I. simpl in Hq. destruct Hq as (_ & pi & N & D).
      intro Hin. destruct (H1 _ Hin) as (pi0 & N0 & D0). congruence.
  - (* P_pop *) split; simpl.
    + intros pid [X|Hin]; [discriminate | auto].
    + split; [exact I | assumption].
Qed.

(* a periodic action is never called after its subscription was disposed *)
Theorem no_tick_after_dispose_run c fuel c0 cs :
  no_tick_after_dispose (log (state_of (run c fuel (init c0) cs))).
Proof.
  assert (H : Inv10 (state_of (run c fuel (init c0) cs))).
  { apply (run_invariant Inv10 inv10_prim). split; simpl; [tauto | exact I]. }
  apply H.
Qed.

Lemma dispose_per_logs s pid pi :
  nth_error (pers s) pid = Some pi -> p_disposed pi = false -> In (EPDispose pid) (log (dispose_per s pid)).
Proof.
  intros Hn Hd. unfold dispose_per. rewrite Hn, Hd.
  unfold cancel_id. match goal with |- context [if ?b then _ else _] => destruct b end; simpl; auto.
Qed.

(* [simpl] / [cbn] at [S (S k)] would unfold two levels *)
Lemma pstate_S f st k : pstate f st (S k) =
  match pstate f st k with
  | Some x => match plookup f x with PNext _ _ y => Some y | _ => None end
  | None => None
  end.
Proof. reflexivity. Qed.

Lemma pstate_shift f st st' ns sl : plookup f st = PNext ns sl st' ->
  forall k, pstate f st (S k) = pstate f st' k.
Proof.
  intro Ef. induction k as [|k IH]; [simpl; rewrite Ef; reflexivity|].
  rewrite pstate_S, IH. reflexivity.
Qed.

Lemma pstate_stop f st : match plookup f st with PNext _ _ _ => False | _ => True end ->
  forall k, pstate f st (S k) = None.
Proof.
  intro H. induction k as [|k IH].
  - simpl. destruct (plookup f st); try reflexivity. destruct H.
  - rewrite pstate_S, IH. reflexivity.
Qed.

(* the k-th call starts at max(clk, due) + [tsum f p st k] (the gaps left by the k calls
   before it), with the state returned by the previous call *)
Lemma solo_spec_nth f p : forall n clk due st t k stk,
  nth_error (solo_spec f p n clk due st t) k = Some stk ->
  snd stk = Z.max clk due + tsum f p st k /\ pstate f st k = Some (fst stk).
Proof.
  induction n as [|n IH]; intros clk due st t k stk; cbn [solo_spec]; [destruct k; discriminate|].
  destruct (t <? due) eqn:Et; [destruct k; discriminate|].
  destruct k as [|k]; cbn [nth_error].
  - intro E. inversion E; subst. cbn [snd fst tsum pstate]. split; [lia | reflexivity].
  - destruct (plookup f st) as [ns sl st'|ns|ns e|ns e v] eqn:Ef; try (destruct k; discriminate).
    intro E. destruct (IH _ _ _ _ _ _ E) as (A & C). split.
    + rewrite A. cbn [tsum]. unfold pelapsed. rewrite Ef. lia.
    + rewrite (pstate_shift f st st' ns sl Ef). exact C.
Qed.

Lemma ontime_shift f p st st' ns sl k : plookup f st = PNext ns sl st' ->
  ontime f p st (S k) -> ontime f p st' k.
Proof.
  intros Ef H j x Hj Hx. apply (H (S j) x); [lia|]. rewrite (pstate_shift f st st' ns sl Ef). exact Hx.
Qed.

(* each call pushes the next one by max(period, its own duration): never less than a period,
   and (elapsed-time compensation) exactly one as long as no earlier call takes longer than that,
   so that the k-th call, if there is one, starts exactly k periods after the first *)
Lemma tsum_bound f p : forall k st x, pstate f st k = Some x ->
  Z.of_nat k * p <= tsum f p st k /\ (ontime f p st k -> tsum f p st k = Z.of_nat k * p).
Proof.
  induction k as [|k IH]; intros st x Hx; [split; reflexivity|].
  cbn [tsum]. rewrite Nat2Z.inj_succ.
  destruct (plookup f st) as [ns sl st'|ns|ns e|ns e v] eqn:Ef;
    try (rewrite pstate_stop in Hx; [discriminate | rewrite Ef; exact I]).
  rewrite (pstate_shift f st st' ns sl Ef) in Hx. destruct (IH st' x Hx) as [L O]. split; [lia|].
  intro H. rewrite (O (ontime_shift f p st st' ns sl k Ef H)).
  pose proof (H 0%nat st ltac:(lia) eq_refl). lia.
Qed.

(* due time of the call after m calls were made *)
Definition pdue (f : ptable) (p clk due st : Z) (m : nat) : Z :=
  match m with O => due | S j => Z.max clk due + tsum f p st j + p end.

Lemma div_period x p : 0 < p -> x / p = (x - p) / p + 1.
Proof. intro Hp. replace x with ((x - p) + 1 * p) at 1 by lia. apply Z.div_add. lia. Qed.

(* the number of calls that can still be due by t drops with every call: the next one is due at
   T + p, where T >= due is the start of this one *)
Lemma calls_bound_step p t due T : 0 < p -> due <= t -> due <= T ->
  (S (Z.to_nat ((t - (T + p)) / p + 1)) <= Z.to_nat ((t - due) / p + 1))%nat.
Proof.
  intros Hp Ht HT. assert (A : 0 <= (t - due) / p) by (apply Z.div_pos; lia).
  assert (L : (t - (T + p)) / p <= (t - due - p) / p) by (apply Z.div_le_mono; lia).
  rewrite (div_period (t - due) p Hp) in *. lia.
Qed.

(* the list stops only because the pending call is due after t, or the last call did not return a state *)
Lemma solo_spec_complete f p : 0 < p -> forall n clk due st t,
  (Z.to_nat ((t - due) / p + 1) <= n)%nat ->
  let l := solo_spec f p n clk due st t in
  pdue f p clk due st (length l) > t \/
  (exists k x, length l = S k /\ pstate f st k = Some x /\ match plookup f x with PNext _ _ _ => False | _ => True end).
Proof.
  intro Hp. induction n as [|n IH]; intros clk due st t Hn; cbn [solo_spec].
  - left. cbn [length pdue]. destruct (Z.lt_ge_cases t due) as [H|H]; [lia|]. exfalso.
    assert (0 <= (t - due) / p) by (apply Z.div_pos; lia). lia.
  - destruct (t <? due) eqn:Et; [left; cbn [length pdue]; apply Z.ltb_lt in Et; lia|]. apply Z.ltb_ge in Et.
    destruct (plookup f st) as [ns sl st'|ns|ns e|ns e v] eqn:Ef;
      try (right; exists 0%nat, st; cbn [length pstate]; rewrite Ef; repeat split; auto; fail).
    set (T := Z.max clk due).
    pose proof (calls_bound_step p t due T Hp Et (Z.le_max_r clk due)) as Hn'.
    destruct (IH (T + Z.of_N sl) (T + p) st' t ltac:(lia)) as [A|(k & x & A & B & C)].
    + left. cbn [length]. remember (length (solo_spec f p n (T + Z.of_N sl) (T + p) st' t)) as m.
      destruct m as [|j]; cbn [pdue tsum] in *.
      * fold T. lia.
      * fold T. unfold pelapsed. rewrite Ef. lia.
    + right. exists (S k), x. rewrite (pstate_shift f st st' ns sl Ef). cbn [length]. repeat split; auto.
Qed.

Lemma solo_spec_length f p : 0 < p -> forall n clk due st t,
  (length (solo_spec f p n clk due st t) <= Z.to_nat ((t - due) / p + 1))%nat.
Proof.
  intro Hp. induction n as [|n IH]; intros clk due st t; cbn [solo_spec length]; [lia|].
  destruct (t <? due) eqn:Et; cbn [length]; [lia|]. apply Z.ltb_ge in Et.
  pose proof (calls_bound_step p t due (Z.max clk due) Hp Et (Z.le_max_r clk due)) as B.
  destruct (plookup f st) as [ns sl st'|ns|ns e|ns e v]; cbn [length]; try lia.
  specialize (IH (Z.max clk due + Z.of_N sl) (Z.max clk due + p) st' t). lia.
Qed.

(* the subscription pid is alone: its pending call is the only item, and it is live *)
Definition solo (s : st) (pid : nat) (p : Z) (f : ptable) (st due : Z) : Prop :=
  exists it, queue s = [it] /\ i_pay it = PPer pid st /\ i_due it = due /\
    nth_error (pers s) pid = Some (PInfo p f false (i_id it)) /\
    enabled s = true /\
    Forall (fun r => (r < next_id s)%nat) (cancelled s) /\ ~ In (i_id it) (cancelled s).

Lemma memb_notin n l : ~ In n l -> memb n l = false.
Proof. intro H. destruct (memb n l) eqn:E; [apply memb_In in E; contradiction | reflexivity]. Qed.

Lemma ticks_add_notes pid ns : forall s, ticks_of pid (log (add_notes s ns)) = ticks_of pid (log s).
Proof. induction ns as [|n t IH]; intro s; simpl; [reflexivity|]. rewrite IH. reflexivity. Qed.

Lemma add_notes_ids ns : forall s, next_id (add_notes s ns) = next_id s /\ cancelled (add_notes s ns) = cancelled s.
Proof. induction ns as [|n t IH]; intro s; simpl; [split; reflexivity | apply (IH (add_log s (ENote n)))]. Qed.

Lemma ticks_cancel_id pid s r : ticks_of pid (log (cancel_id s r)) = ticks_of pid (log s).
Proof. unfold cancel_id. destruct (r <? next_id s)%nat; reflexivity. Qed.

Lemma ticks_dispose_per pid s q : ticks_of pid (log (dispose_per s q)) = ticks_of pid (log s).
Proof.
  unfold dispose_per. destruct (nth_error (pers s) q) as [pi|]; [|reflexivity].
  destruct (p_disposed pi); [reflexivity|]. rewrite ticks_cancel_id. reflexivity.
Qed.

Lemma ticks_finish_adv pid s t : ticks_of pid (log (ostate (finish_adv s t))) = ticks_of pid (log s).
Proof. unfold finish_adv; simpl. destruct (clock s <? t); reflexivity. Qed.

Lemma resched_disposed_ok s q p : resched_disposed s q p = BOk (bstate (resched_disposed s q p)).
Proof. reflexivity. Qed.

Lemma ticks_resched_disposed pid s q p : ticks_of pid (log (bstate (resched_disposed s q p))) = ticks_of pid (log s).
Proof. unfold resched_disposed; simpl. rewrite ticks_cancel_id. apply ticks_dispose_per. Qed.

(* what is left after the action disposed its own subscription: one cancelled item,
   which [advance_to] skips without a call *)
Lemma resched_advance pid t fuel s q p : queue s = [] -> enabled s = true ->
  let o := advance_loop fuel (bstate (resched_disposed s q p)) t in
  ticks_of pid (log (ostate o)) = ticks_of pid (log s) /\ (forall s', o = OutOfFuel s' -> fuel = 0%nat).
Proof.
  intros Hq He o. rewrite <- (ticks_resched_disposed pid s q p). subst o.
  set (s4 := bstate (resched_disposed s q p)).
  assert (R : exists it, queue s4 = [it] /\ enabled s4 = true /\ memb (i_id it) (cancelled s4) = true).
  { destruct (dispose_per_fields s q) as (_ & D2 & D3 & _).
    eexists. unfold s4, resched_disposed, cancel_id. cbn [bstate next_id enqueue].
    rewrite (proj2 (Nat.ltb_lt _ _) (Nat.lt_succ_diag_r _)). cbn. rewrite D2, D3, Hq, He.
    split; [reflexivity|]. split; [reflexivity|]. cbn. rewrite Nat.eqb_refl. reflexivity. }
  destruct R as (it & Q & En & Hm).
  assert (Hfin : forall x, ticks_of pid (log x) = ticks_of pid (log s4) ->
            ticks_of pid (log (ostate (finish_adv x t))) = ticks_of pid (log s4) /\
            (forall s', finish_adv x t = OutOfFuel s' -> fuel = 0%nat)).
  { intros x Hx. rewrite ticks_finish_adv. split; [exact Hx | discriminate]. }
  (* the loop skips the cancelled item and leaves at its next turn; fuel 0, 1 and 2+ are walked
     apart only because [advance_loop] recurses on the fuel *)
  destruct fuel as [|fuel]; cbn [advance_loop]; rewrite En, Q; cbn [negb];
    (destruct (t <? i_due it); [apply Hfin; reflexivity|]); [split; reflexivity|].
  unfold run_item. rewrite Hm. cbn [negb]. set (s1 := add_log _ _).
  destruct fuel; cbn [advance_loop]; change (enabled s1) with (enabled s4); change (queue s1) with (@nil item);
    rewrite En; cbn [negb]; (split; [apply (Hfin s1); reflexivity | discriminate]).
Qed.

Lemma solo_advance f p pid t : forall fuel s st due,
  solo s pid p f st due ->
  let o := advance_loop fuel s t in
  ticks_of pid (log (ostate o)) = rev (solo_spec f p fuel (clock s) due st t) ++ ticks_of pid (log s) /\
  (forall s', o = OutOfFuel s' -> length (solo_spec f p fuel (clock s) due st t) = fuel).
Proof.
  induction fuel as [|fuel IH]; intros s st due (it & Hq & Hpay & Hdue & Hn & He & Hcan & Hnot).
  - simpl. rewrite He, Hq; simpl. rewrite Hdue. destruct (t <? due).
    + rewrite ticks_finish_adv. split; [reflexivity | intros; discriminate].
    + simpl. split; reflexivity.
  - cbn [advance_loop solo_spec]. rewrite He, Hq. cbn [negb]. rewrite Hdue.
    destruct (t <? due) eqn:Et; [rewrite ticks_finish_adv; split; [reflexivity | intros; discriminate]|].
    set (T := Z.max (clock s) due).
    assert (Enew : (if clock s <? due then due else clock s) = T).
    { unfold T. destruct (Z.ltb_spec (clock s) due); lia. }
    rewrite Enew. unfold run_item. rewrite (memb_notin _ _ Hnot). cbn [negb]. rewrite Hpay.
    set (s1 := add_log (set_clock (dequeue s []) T) (mkpop s it T false true)).
    assert (Hn1 : nth_error (pers s1) pid = Some (PInfo p f false (i_id it))) by exact Hn.
    cbn [invoke]. rewrite Hn1. cbn [p_disposed p_fn p_period].
    (* the state after the call's tick and notes: clock T, nothing queued, one more tick *)
    assert (A : forall ns, let s2 := add_notes (add_log s1 (ETick pid st (clock s1))) ns in
              ticks_of pid (log s2) = (st, T) :: ticks_of pid (log s) /\ queue s2 = [] /\ enabled s2 = true /\
              clock s2 = T /\ pers s2 = pers s /\ next_id s2 = next_id s /\ cancelled s2 = cancelled s).
    { intros ns s2. destruct (add_notes_fields ns (add_log s1 (ETick pid st (clock s1)))) as (F1 & F2 & F3 & _).
      pose proof (add_notes_pers ns (add_log s1 (ETick pid st (clock s1)))) as F6.
      destruct (add_notes_ids ns (add_log s1 (ETick pid st (clock s1)))) as (F7 & F8).
      unfold s2. rewrite ticks_add_notes, F1, F2, F3, F6, F7, F8. cbn. rewrite Nat.eqb_refl. repeat split; auto. }
    destruct (plookup f st) as [ns sl st'|ns|ns e|ns e v] eqn:Ef.
    + (* PNext: the subscription stays alone in the queue *)
      destruct (A ns) as (Htk & Q2 & E2 & C2 & P2 & Hnid & Hcan2).
      set (s2 := add_notes (add_log s1 (ETick pid st (clock s1))) ns) in *.
      set (s2' := set_clock s2 (clock s2 + Z.of_N sl)).
      set (s3 := set_pers s2' (set_nth pid (PInfo p f false (next_id s2')) (pers s2'))).
      set (s4 := enqueue s3 (clock s3 + (p - (clock s2' - clock s1))) (PPer pid st')).
      assert (Hc4 : clock s4 = T + Z.of_N sl) by (unfold s4, s3, s2'; simpl; rewrite C2; reflexivity).
      assert (Hsolo : solo s4 pid p f st' (T + p)).
      { exists (Item (clock s3 + (p - (clock s2' - clock s1))) (count s3) (next_id s3) (npops s3) (clock s3) (PPer pid st')).
        unfold s4, s3, s2'; simpl. rewrite Q2, C2, E2, P2, Hnid, Hcan2. simpl. repeat split; auto; try lia.
        - eapply nth_error_set_nth. exact Hn.
        - eapply Forall_impl; [|exact Hcan]. simpl. intros; lia.
        - intro Hin. rewrite Forall_forall in Hcan. apply Hcan in Hin. lia. }
      destruct (IH s4 st' (T + p) Hsolo) as [T' O]. rewrite Hc4 in T', O. split.
      * rewrite T'. cbn [rev]. rewrite <- app_assoc. f_equal. exact Htk.
      * intros s' E. cbn [length]. f_equal. eapply O. exact E.
    + (* PNextDisposed: a cancelled item remains *)
      destruct (A ns) as (Htk & Q2 & E2 & _). rewrite resched_disposed_ok.
      destruct (resched_advance pid t fuel _ pid p Q2 E2) as (R1 & R2).
      split; [rewrite R1; exact Htk | intros s' E; apply R2 in E; subst fuel; reflexivity].
    + (* PRaise *)
      destruct (A ns) as (Htk & _).
      cbn [ostate]. split; [|intros; discriminate]. rewrite ticks_dispose_per. exact Htk.
    + (* PHandled *)
      destruct (A ns) as (Htk & Q2 & E2 & _). destruct v.
      * set (s2 := add_log (add_log _ (ERaise e)) (EHandler e)). rewrite resched_disposed_ok.
        destruct (resched_advance pid t fuel s2 pid p Q2 E2) as (R1 & R2).
        split; [rewrite R1; exact Htk | intros s' E; apply R2 in E; subst fuel; reflexivity].
      * cbn [ostate]. split; [|intros; discriminate]. rewrite ticks_dispose_per. exact Htk.
Qed.

(* only start() can find the lock taken (the datetime spin bump with [c_prop_bump = true]) *)
Lemma advance_loop_no_deadlock fuel t s s' : advance_loop fuel s t <> Deadlock s'.
Proof.
  induction (advance_loop_looped t fuel s) as [fuel s o _ ->| | | |]; try discriminate; assumption.
Qed.

(* the history: schedule_periodic(p, f, st0) on a fresh scheduler at clock c0, then advance_to(t) *)
Definition solo_history (p : Z) (f : ptable) (st0 t : Z) : list tcmd :=
  [TDo (SPeriodic p f st0); TAdvTo t].

Theorem periodic_solo c fuel c0 p f st0 t : c0 < t ->
  let r := run c fuel (init c0) (solo_history p f st0 t) in
  rev (ticks_of 0 (log (state_of r))) = solo_spec f p fuel c0 (c0 + p) st0 t /\
  (match r with ROutOfFuel _ => length (solo_spec f p fuel c0 (c0 + p) st0 t) = fuel | RDeadlock _ => False | RDone _ => True end).
Proof.
  intro Hlt. unfold solo_history. cbn [run step_t exec_cmd of_bres].
  set (s1 := add_log _ _).
  assert (Hc1 : clock s1 = c0) by reflexivity.
  unfold advance_to. rewrite Hc1.
  assert (E1 : t <? c0 = false) by (apply Z.ltb_ge; lia). assert (E2 : c0 =? t = false) by (apply Z.eqb_neq; lia).
  rewrite E1, E2. change (enabled s1) with false. cbn [orb].
  assert (Hsolo : solo (set_enabled s1 true) 0 p f st0 (c0 + p)).
  { eexists. unfold s1; simpl. repeat split; auto; try lia; try constructor. }
  destruct (solo_advance f p 0 t fuel (set_enabled s1 true) st0 (c0 + p) Hsolo) as [T O].
  assert (T0 : ticks_of 0 (log (set_enabled s1 true)) = []) by reflexivity.
  rewrite T0, app_nil_r in T.
  destruct (advance_loop fuel (set_enabled s1 true) t) as [s'|e s'|s'|s'] eqn:Eo; cbn [run state_of]; simpl in T.
  - split; [|exact I]. simpl. rewrite T, rev_involutive. reflexivity.
  - split; [|exact I]. simpl. rewrite T, rev_involutive. reflexivity.
  - destruct (advance_loop_no_deadlock _ _ _ _ Eo).
  - split; [rewrite T, rev_involutive; reflexivity | eapply O; reflexivity].
Qed.

(* whenever a call does not return a next state (it raised, with or without a
   CatchScheduler handler, or disposed the subscription itself) the subscription
   is disposed during that call; by [no_tick_after_dispose_run] the action is
   never called again *)
Theorem periodic_stop_disposes s pid st pi :
  nth_error (pers s) pid = Some pi -> p_disposed pi = false ->
  match plookup (p_fn pi) st with PNext _ _ _ => False | _ => True end ->
  In (EPDispose pid) (log (bstate (invoke s (PPer pid st)))).
Proof.
  intros Hn Hd Hr. simpl. rewrite Hn, Hd.
  assert (Hn' : forall ns, nth_error (pers (add_notes (add_log s (ETick pid st (clock s))) ns)) pid = Some pi).
  { intro ns. rewrite (add_notes_pers ns (add_log s (ETick pid st (clock s)))). exact Hn. }
  assert (HC : forall x r, In (EPDispose pid) (log x) -> In (EPDispose pid) (log (cancel_id x r))).
  { intros x r. apply steps_log_in, steps_one, P_cancel. }
  destruct (plookup (p_fn pi) st) as [ns sl st'|ns|ns e|ns e v]; simpl; [destruct Hr| | |].
  - apply HC. simpl. eapply dispose_per_logs; [apply Hn' | exact Hd].
  - eapply dispose_per_logs; [|exact Hd]. simpl. apply Hn'.
  - destruct v; simpl.
    + apply HC. simpl. eapply dispose_per_logs; [|exact Hd]. simpl. apply Hn'.
    + eapply dispose_per_logs; [|exact Hd]. simpl. apply Hn'.
Qed.

Local Arguments Z.of_nat : simpl never.

(* interval(p) / timer(p, p) on a virtual-time periodic scheduler emits 0, 1, 2, ... at
   c0 + p, c0 + 2p, ...  [count_table n] (Core/Periodic.v) is good for the states 0 .. n-1:
   state n hits the default entry, which raises. *)

Lemma plookup_l_count_skip d : forall n r z, Z.of_nat n <= z ->
  plookup_l (count_table_l n ++ r) d z = plookup_l r d z.
Proof.
  induction n as [|n IH]; intros r z Hz; [reflexivity|].
  cbn [count_table_l]. rewrite <- app_assoc. rewrite IH by lia.
  cbn [app plookup_l]. destruct (Z.of_nat n =? z) eqn:E; [lia | reflexivity].
Qed.

Lemma plookup_l_count d : forall n r k, (k < n)%nat ->
  plookup_l (count_table_l n ++ r) d (Z.of_nat k) = PNext [] 0%N (Z.of_nat k + 1).
Proof.
  induction n as [|n IH]; intros r k Hk; [lia|].
  cbn [count_table_l]. rewrite <- app_assoc.
  destruct (Nat.eq_dec k n) as [->|Hne].
  - rewrite plookup_l_count_skip by lia. cbn [app plookup_l]. rewrite Z.eqb_refl. reflexivity.
  - apply IH. lia.
Qed.

(* the table is the successor function on 0 .. n-1 and emits nothing else / takes no time *)
Lemma plookup_count n k : (k < n)%nat ->
  plookup (count_table n) (Z.of_nat k) = PNext [] 0%N (Z.of_nat k + 1).
Proof.
  intro Hk. unfold plookup, count_table. cbn [fst snd].
  rewrite <- (app_nil_r (count_table_l n)). apply plookup_l_count. exact Hk.
Qed.

Lemma pstate_count n : forall k j, (j + k <= n)%nat ->
  pstate (count_table n) (Z.of_nat j) k = Some (Z.of_nat (j + k)).
Proof.
  induction k as [|k IH]; intros j H; cbn [pstate]; [f_equal; f_equal; lia|].
  rewrite IH, plookup_count by lia. f_equal. lia.
Qed.

Lemma interval_has_nth n p t : 0 <= p -> forall k m clk due j, clk <= due -> (j + k <= n)%nat ->
  (k < m)%nat -> due + Z.of_nat k * p <= t ->
  nth_error (solo_spec (count_table n) p m clk due (Z.of_nat j) t) k
  = Some (Z.of_nat (j + k), due + Z.of_nat k * p).
Proof.
  intro Hp. induction k as [|k IH]; intros m clk due j Hc Hj Hm Ht; (destruct m as [|m]; [lia|]);
    cbn [solo_spec].
  - destruct (t <? due) eqn:E; [lia|]. cbn [nth_error]. f_equal. f_equal; [f_equal; lia | lia].
  - destruct (t <? due) eqn:E; [nia|]. cbn [nth_error]. rewrite plookup_count by lia.
    replace (Z.of_nat j + 1) with (Z.of_nat (S j)) by lia.
    rewrite IH by nia. f_equal. f_equal; [f_equal; lia | lia].
Qed.

(* interval(p): the k-th call (k = 0, 1, ..), if it is made, is made with state k at
   c0 + (k+1)*p -- for every period p >= 0, every bound m on the number of calls, every
   target t; valid up to the size of the table (k = n is the call that hits the default) *)
Theorem interval_emits n m p c0 t k stk : 0 <= p -> (k <= n)%nat ->
  nth_error (solo_spec (count_table n) p m c0 (c0 + p) 0 t) k = Some stk ->
  stk = (Z.of_nat k, c0 + (Z.of_nat k + 1) * p).
Proof.
  (* the closed form [solo_spec_nth], with the counting table's states and zero durations put in *)
  intros Hp Hk E. change 0 with (Z.of_nat 0) in E. destruct (solo_spec_nth _ _ _ _ _ _ _ _ _ E) as [A B].
  rewrite (proj2 (tsum_bound _ p _ _ _ B)) in A.
  - rewrite (pstate_count n k 0) in B by lia. destruct stk as [x c]. cbn [fst snd] in *.
    injection B as <-. f_equal. lia.
  - intros j x Hj Hx. rewrite (pstate_count n j 0) in Hx by lia. injection Hx as <-.
    unfold pelapsed. rewrite plookup_count by lia. exact Hp.
Qed.

(* the k-th call of interval(p) is made whenever c0 + (k+1)*p <= t (and the bound m allows k+1 calls) *)
Theorem interval_has_kth n m p c0 t k : 0 <= p -> (k <= n)%nat -> (k < m)%nat ->
  c0 + (Z.of_nat k + 1) * p <= t ->
  nth_error (solo_spec (count_table n) p m c0 (c0 + p) 0 t) k = Some (Z.of_nat k, c0 + (Z.of_nat k + 1) * p).
Proof.
  intros Hp Hk Hm Ht. change 0 with (Z.of_nat 0).
  rewrite (interval_has_nth n p t Hp) by lia. f_equal. f_equal. lia.
Qed.
