(* Facts about the RefCountDisposable transition system ([rc_act]) under ALL schedules, ANY number of
   threads and arbitrary programs (in particular any number of threads disposing the SAME dependent
   concurrently), with the ghost counter of Core/RefCountOnce.v:
   - release() is entered at most once per handle -- exactly once iff some dispose() of that handle has
     executed its locked block and the handle is an InnerDisposable;
   - nothing but the underlying item is ever disposed; handles requested after the release are inert
     ([rc_inert_from]: never an InnerDisposable, so release() is never entered for them);
   - "only after", on CALLS: a set primary flag, and a cleared parent link of a handle, are witnessed by a
     dispose() call in some thread's history ([flag_called]), hence in some thread's program. *)
From RxVerif Require Import Base.Prelude Core.Disposables Core.DisposablesFacts Core.DispConc Core.DispConcFacts
  Core.DispConcFacts2 Core.RefCountOnce.
Local Open Scope nat_scope.

Lemma rc_act_deps : forall s l,
  r_deps (fst (fst (rc_act s l))) =
  match l with
  | RL_get => r_deps s ++ [if r_disposed s then DInert false else DInner true]
  | RL_inner k =>
      match nth_error (r_deps s) k with
      | Some (DInner true) => set_nth k (DInner false) (r_deps s)
      | Some (DInert _) => set_nth k (DInert true) (r_deps s)
      | _ => r_deps s
      end
  | _ => r_deps s
  end.
Proof.
  intros s l. destruct l; cbn [rc_act r_step].
  - destruct (r_disposed s); reflexivity.
  - destruct (nth_error (r_deps s) k) as [[[|]|b]|]; reflexivity.
  - destruct (r_disposed s); reflexivity.
  - destruct ((r_count s - 1 =? 0)%Z && r_primary s)%bool; reflexivity.
  - destruct (r_disposed s); reflexivity.
  - destruct (r_primary s); [reflexivity|]. destruct (r_count s =? 0)%Z; reflexivity.
  - reflexivity.
  - reflexivity.
Qed.

Lemma parentless_deps : forall s k, parentless s k = match nth_error (r_deps s) k with Some (DInner false) => true | _ => false end.
Proof. reflexivity. Qed.

(* the step lemma: a handle's parent link is cleared by exactly the actions that enter release() for it,
   and never comes back *)
Lemma parentless_act : forall s l k,
  bnat (parentless (fst (fst (rc_act s l))) k) =
  bnat (parentless s k) + bnat (match l with RL_inner k' => (k' =? k) && has_parent s k | _ => false end).
Proof.
  intros s l k. unfold parentless, has_parent. rewrite rc_act_deps. set (deps := r_deps s).
  destruct l; cbn [bnat]; try lia.
  - (* the property `disposable` (RL_get): a handle is appended, live or inert but never with a cleared link *)
    destruct (Nat.lt_ge_cases k (length deps)) as [LT|GE].
    + rewrite nth_error_app1 by exact LT. lia.
    + rewrite nth_error_app2 by exact GE.
      assert (nth_error deps k = None) as -> by (apply nth_error_None; exact GE).
      destruct (k - length deps) as [|[|j]]; cbn [nth_error]; [destruct (r_disposed s)|..]; cbn [bnat]; lia.
  - (* InnerDisposable.dispose / Disposable().dispose of handle k0 *)
    destruct (Nat.eqb_spec k0 k) as [->|NE]; cbn [andb].
    + destruct (nth_error deps k) as [[[|]|b]|] eqn:NK.
      * rewrite nth_set_nth_eq by (apply nth_error_Some; congruence). cbn [bnat]. lia.
      * rewrite NK. cbn [bnat]. lia.
      * rewrite nth_set_nth_eq by (apply nth_error_Some; congruence). cbn [bnat]. lia.
      * rewrite NK. cbn [bnat]. lia.
    + assert (k <> k0) as NE' by congruence.
      destruct (nth_error deps k0) as [[[|]|b]|]; rewrite ?nth_set_nth_neq by exact NE'; cbn [bnat]; lia.
Qed.

Lemma parentless_step : forall (c : rconfig) tid k,
  bnat (parentless (c_sh (tstep rc_start rc_act c tid)) k) =
  bnat (parentless (c_sh c) k) + bnat (enters_release c tid k).
Proof.
  intros c tid k. unfold enters_release, tstep.
  destruct (nth_error (c_ths c) tid) as [t|]; [|cbn [bnat]; lia].
  destruct (next_frame rc_start t) as [[[l todo] hist]|]; [|cbn [bnat]; lia].
  pose proof (parentless_act (c_sh c) l k) as PA. destruct (rc_act (c_sh c) l) as [[s' l'] out].
  cbn [c_sh fst] in *. rewrite PA. destruct l; reflexivity.
Qed.

(* along any schedule: #release() entered for handle k = did its parent link get cleared *)
Lemma release_calls_parentless : forall sched (c : rconfig) k,
  release_calls c sched k + bnat (parentless (c_sh c) k) =
  bnat (parentless (c_sh (crun rc_start rc_act c sched)) k).
Proof.
  induction sched as [|t s IH]; intros c k; [reflexivity|].
  cbn [release_calls]. rewrite crun_cons. rewrite <- IH, parentless_step. lia.
Qed.

Lemma bnat_le : forall b, bnat b <= 1.
Proof. intros []; cbn; lia. Qed.

(* from ANY configuration (so also for every suffix of a schedule) *)
Theorem release_calls_at_most_once : forall sched (c : rconfig) k, release_calls c sched k <= 1.
Proof.
  intros sched c k. pose proof (release_calls_parentless sched c k) as H.
  pose proof (bnat_le (parentless (c_sh (crun rc_start rc_act c sched)) k)). lia.
Qed.

Theorem rc_release_exactly : forall progs sched k,
  rc_release_calls progs sched k = bnat (parentless (c_sh (rc_run progs sched)) k).
Proof.
  intros progs sched k. unfold rc_release_calls, rc_run.
  rewrite <- release_calls_parentless. unfold parentless, cinit. cbn [c_sh r_init r_deps].
  destruct k; cbn [nth_error bnat]; lia.
Qed.

Lemma release_calls_app : forall s1 s2 (c : rconfig) k,
  release_calls c (s1 ++ s2) k = release_calls c s1 k + release_calls (crun rc_start rc_act c s1) s2 k.
Proof.
  induction s1 as [|t s IH]; intros s2 c k; [reflexivity|].
  cbn [app release_calls]. rewrite IH, crun_cons. lia.
Qed.

Local Close Scope nat_scope.
Local Open Scope Z_scope.

Lemma rc_act_out_only_underlying : forall s l i, i <> underlying -> zdisp i (snd (rc_act s l)) = 0.
Proof.
  intros s l i Hi. destruct l; cbn [rc_act].
  - reflexivity.
  - destruct (nth_error (r_deps s) k) as [[[|]|b]|]; reflexivity.
  - destruct (r_disposed s); reflexivity.
  - destruct ((r_count s - 1 =? 0) && r_primary s)%bool; reflexivity.
  - destruct (r_disposed s); reflexivity.
  - destruct (r_primary s); [reflexivity|]. destruct (r_count s =? 0); reflexivity.
  - cbn [snd]. rewrite zdisp_cons, zdisp_nil. cbn [is_disp].
    rewrite (proj2 (Nat.eqb_neq i underlying) Hi). reflexivity.
  - reflexivity.
Qed.

Theorem refcount_conc_only_underlying : forall progs sched i,
  i <> underlying -> zdisp i (plain (c_log (rc_run progs sched))) = 0.
Proof.
  intros progs sched i Hi. unfold rc_run.
  apply (crun_invariant rc_start rc_act (fun c => zdisp i (plain (c_log c)) = 0)); [|reflexivity].
  intros c tid H. apply (tstep_elim rc_start rc_act (fun c => zdisp i (plain (c_log c)) = 0)); [exact H|].
  intros t l todo hist s' l' out N F A. cbn [c_log]. rewrite plain_app, plain_tag, zdisp_app, H.
  pose proof (rc_act_out_only_underlying (c_sh c) l i Hi) as X. rewrite A in X. cbn [snd] in X. lia.
Qed.

(* released, and every handle from position n on is an inert Disposable() *)
Definition rc_inert_from (n : nat) (s : rstate) : Prop :=
  r_disposed s = true /\
  forall k d, (n <= k)%nat -> nth_error (r_deps s) k = Some d -> exists b, d = DInert b.

Lemma rc_act_disposed_sticky : forall s l, r_disposed s = true -> r_disposed (fst (fst (rc_act s l))) = true.
Proof.
  intros s l D. destruct l; cbn [rc_act r_step].
  - destruct (r_disposed s); cbn [fst r_disposed]; [reflexivity|discriminate D].
  - destruct (nth_error (r_deps s) k) as [[[|]|b]|]; cbn [fst r_disposed]; exact D.
  - destruct (r_disposed s) eqn:D2; cbn [fst]; [exact D2|discriminate D].
  - destruct ((r_count s - 1 =? 0) && r_primary s)%bool; cbn [fst r_disposed]; [reflexivity|exact D].
  - destruct (r_disposed s) eqn:D2; cbn [fst]; [exact D2|discriminate D].
  - destruct (r_primary s); [exact D|]. destruct (r_count s =? 0); cbn [fst r_disposed]; [reflexivity|exact D].
  - exact D.
  - exact D.
Qed.

Lemma rc_inert_from_step : forall n s l, rc_inert_from n s -> rc_inert_from n (fst (fst (rc_act s l))).
Proof.
  intros n s l [D H]. split; [apply rc_act_disposed_sticky, D|].
  intros k d Hk. rewrite rc_act_deps. destruct l; try apply (H k d Hk).
  - (* the property `disposable` (RL_get) after the release: an inert Disposable() is appended *)
    rewrite D. intros X. destruct (Nat.lt_ge_cases k (length (r_deps s))) as [LT|GE].
    + rewrite nth_error_app1 in X by exact LT. apply (H k d Hk X).
    + rewrite nth_error_app2 in X by exact GE. destruct (k - length (r_deps s))%nat as [|[|m]]; cbn [nth_error] in X.
      * injection X as <-. exists false. reflexivity.
      * discriminate X.
      * discriminate X.
  - (* dispose() of handle k0 *)
    destruct (nth_error (r_deps s) k0) as [[[|]|b]|] eqn:NK; try apply (H k d Hk); intros X;
      destruct (nth_error_set_nth_cases X) as [[-> ->]|[_ X2]]; try apply (H k d Hk X2).
    + destruct (H k0 _ Hk NK) as [b X3]. discriminate X3.
    + exists true. reflexivity.
Qed.

Lemma rc_inert_from_run : forall progs s1 s2,
  r_disposed (c_sh (rc_run progs s1)) = true ->
  rc_inert_from (length (r_deps (c_sh (rc_run progs s1)))) (c_sh (rc_run progs (s1 ++ s2))).
Proof.
  intros progs s1 s2 D. unfold rc_run at 2. rewrite crun_app. fold (rc_run progs s1).
  apply (shared_invariant rc_start rc_act (rc_inert_from (length (r_deps (c_sh (rc_run progs s1)))))
           (rc_inert_from_step _)).
  split; [exact D|]. intros k d Hk X. exfalso.
  assert (nth_error (r_deps (c_sh (rc_run progs s1))) k = None) as Y by (apply nth_error_None; exact Hk).
  congruence.
Qed.

(* which call a local state belongs to *)
Lemma rc_in_call : forall o l, in_call rc_start rc_act o l ->
  match l with
  | RL_read | RL_lock => o = RDispose
  | RL_inner k => o = RDispDep k
  | _ => True
  end.
Proof.
  intros o l IC. induction IC as [|s l s' l' out IC IH A].
  - destruct o; cbn [rc_start]; auto.
  - pose proof (rc_act_next _ _ _ _ _ A) as NX. destruct l'; try exact I; try contradiction. subst l. exact IH.
Qed.

(* the primary flag is set inside a dispose() of the primary only, the parent link of handle j is cleared
   inside a dispose() of handle j only: both are witnessed by a call in some thread's history *)
Lemma rc_primary_called : forall progs sched,
  let c := rc_run progs sched in
  r_primary (c_sh c) = true -> exists k t, nth_error (c_ths c) k = Some t /\ In RDispose (t_hist t).
Proof.
  intros progs sched. apply (flag_called rc_start rc_act r_primary RDispose); [|reflexivity].
  intros s l s' l' out o A P0 P' IC. apply rc_in_call in IC.
  pose proof (rc_act_primary s l) as RP. rewrite A in RP. cbn [fst] in RP. rewrite P0, P' in RP.
  destruct l; try discriminate RP. exact IC.
Qed.

Lemma rc_parentless_called : forall progs sched j,
  let c := rc_run progs sched in
  nth_error (r_deps (c_sh c)) j = Some (DInner false) ->
  exists k t, nth_error (c_ths c) k = Some t /\ In (RDispDep j) (t_hist t).
Proof.
  intros progs sched j c X.
  apply (flag_called rc_start rc_act (fun s => parentless s j) (RDispDep j));
    [|destruct j; reflexivity|change (parentless (c_sh c) j = true); unfold parentless; rewrite X; reflexivity].
  intros s l s' l' out o A P0 P' IC. apply rc_in_call in IC.
  pose proof (parentless_act s l j) as PA. rewrite A in PA. cbn [fst] in PA. rewrite P0, P' in PA.
  destruct l; try discriminate PA. destruct (Nat.eqb_spec k j) as [->|NE]; [exact IC|discriminate PA].
Qed.

(* only after, on calls, every interleaving, every moment: if the underlying item has been disposed then
   (1) some thread has started a dispose() call on the primary, (2) for every InnerDisposable handed out
   whose parent link is cleared some thread has started a dispose() call on that very handle, and
   (3) there is no InnerDisposable handed out whose parent link is still set *)
Theorem refcount_conc_only_after_calls : forall progs sched,
  let c := rc_run progs sched in
  1 <= und_acc (plain (c_log c)) ->
  (exists k t, nth_error (c_ths c) k = Some t /\ In RDispose (t_hist t)) /\
  (forall j, nth_error (r_deps (c_sh c)) j = Some (DInner false) ->
     exists k t, nth_error (c_ths c) k = Some t /\ In (RDispDep j) (t_hist t)) /\
  (forall j d, nth_error (r_deps (c_sh c)) j = Some d -> d <> DInner true).
Proof.
  intros progs sched c U. destruct (refcount_conc progs sched) as [_ [R _]]. fold c in R. destruct (R U) as [P [L0 _]].
  split; [apply (rc_primary_called progs sched P)|]. split; [apply rc_parentless_called|].
  intros j d X ->. exact (live_zero_nth _ j L0 X).
Qed.
