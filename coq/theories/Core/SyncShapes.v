(* Per-net facts about Core/SyncSources.v for the pipeline shapes of C14: which nets pass the
   elements of the never-ending source on to the consumer (the hypothesis of the producer loops
   of Core/SyncSourcesFacts.v and Ops/SyncRepFacts.v), which nets keep quiet (the hypothesis of
   [iter_starves]), how flat_map(of) and switch_map(of) react to the source and to their inners
   (the hypothesis of [nested_step_loop]; Ops/SyncRepNested.v), linear pipelines, and the
   schedulers that run the action inside schedule() (section Inline, about [inl] and [run_inline]
   of any net).  The lemmas are named after the hypothesis they discharge: [*_emits] prove
   [passes_on], [*_quiet] prove [keeps_quiet], [*_turn] prove [wraps].
   The shape theorems themselves are in Props/C14.v. *)
From RxVerif Require Import Base.Prelude Core.SyncSources Core.SyncSourcesFacts.

Lemma lin_emits : passes_on n_lin (fun _ => True).
Proof. intros ns _ v. exists ns, []. cbn. auto. Qed.

Lemma merge_emits order : passes_on (n_merge order) (fun _ => True).
Proof. intros ns _ v. exists ns, []. cbn. auto. Qed.

Lemma flat_outer_emits : passes_on n_flat_outer (fun _ => True).
Proof. intros ns _ v. exists ns, []. cbn. auto. Qed.

Lemma switch_outer_emits : passes_on n_switch_outer (fun ns => w_latest ns = 1%nat).
Proof. intros ns H v. exists ns, []. cbn. rewrite H. cbn. auto. Qed.

Lemma concat_emits b : passes_on (n_concat b) (fun _ => True).
Proof. intros ns _ v. exists ns, []. cbn. auto. Qed.

(* the source's first element chooses it: ports 1 and 2 are disposed *)
Lemma amb_emits b : passes_on (n_amb b) (fun _ => True).
Proof.
  intros ns _ v. exists true, (if ns then [] else [1%nat; 2%nat]). cbn. destruct ns; cbn; repeat split; auto.
  intros [H|[H|[]]]; discriminate.
Qed.

Lemma wlf_emits : passes_on (n_wlf true) (fun ns => ns = true).
Proof. intros ns -> v. exists true, []. cbn. auto. Qed.

Lemma combine_emits b : passes_on (n_combine b) (fun ns => k_has1 ns = true).
Proof. intros ns H v. eexists _, []. cbn. rewrite H. cbn. auto. Qed.

Lemma flat_map_of_quiet : keeps_quiet n_flat_map_of false (fun ns => f_next ns <> 0%nat).
Proof. intros ns H v. eexists _, _. split; [reflexivity|]. split; [|cbn; auto]. repeat constructor. cbn. exact H. Qed.

Lemma switch_map_of_quiet : keeps_quiet n_switch_map_of false (fun ns => w_next ns <> 0%nat).
Proof.
  intros ns H v. eexists _, _. split; [reflexivity|]. split; [|cbn; auto]. cbn.
  destruct (Nat.eqb (w_latest ns) 0) eqn:E; cbn.
  - repeat constructor. exact H.
  - apply Nat.eqb_neq in E. repeat constructor; cbn; auto.
Qed.

Lemma wlf_other_quiet : keeps_quiet (n_wlf false) false (fun _ => True).
Proof. intros ns _ v. eexists _, _. split; [reflexivity|]. split; auto. Qed.

Lemma combine_s_of_quiet : keeps_quiet (n_combine true) false (fun ns => k_has1 ns = false /\ k_done1 ns = false).
Proof. intros ns [H1 H2] v. eexists _, _. cbn. rewrite H1, H2. split; [reflexivity|]. split; [constructor|]. cbn. auto. Qed.

Lemma take_until_quiet : keeps_quiet n_take_until true (fun _ => True).
Proof. intros ns _ v. eexists _, _. split; [reflexivity|]. split; auto. repeat constructor. Qed.

(* flat_map(of) and switch_map(of): an element of the source subscribes an inner of(x) on a
   fresh port; the inner's element is passed on (switch_map: the latest inner's), its completion
   absorbed *)
Lemma flat_map_of_src a nx v :
  n_on n_flat_map_of (FSt false a nx) 0 (Next v) = (FSt false (S a) (S nx), [NSub nx (SOf [v])]).
Proof. reflexivity. Qed.

Lemma flat_map_of_inner_next a nx m v : m <> 0%nat ->
  n_on n_flat_map_of (FSt false a nx) m (Next v) = (FSt false a nx, [NEmit v]).
Proof. intros H. destruct m; [contradiction|reflexivity]. Qed.

Lemma flat_map_of_inner_done a nx m : m <> 0%nat ->
  n_on n_flat_map_of (FSt false a nx) m Done = (FSt false (pred a) nx, []).
Proof. intros H. destruct m; [contradiction|reflexivity]. Qed.

(* the same reaction whether or not there is a previous inner to dispose *)
Lemma switch_map_of_src K C h lt nx v live : memn 0 live = true ->
  exists live', memn 0 live' = true /\ memn nx live' = true /\ forall cs q i p o,
    deliver K n_switch_map_of C 0 (Next v) (St n_switch_map_of C (SSt false h lt nx) cs false live q i p o)
    = St n_switch_map_of C (SSt false true nx (S nx)) cs false live' (q ++ first_task K nx (SOf [v])) i p o.
Proof.
  intros H0. destruct lt as [|x].
  - exists (nx :: live). split; [apply memn_later, H0|]. split; [apply memn_here|reflexivity].
  - exists (nx :: removen (S x) live). split; [|split; [apply memn_here|reflexivity]].
    apply memn_later. rewrite memn_removen by lia. exact H0.
Qed.

Lemma switch_map_of_latest_next h lt nx v : lt <> 0%nat ->
  n_on n_switch_map_of (SSt false h lt nx) lt (Next v) = (SSt false h lt nx, [NEmit v]).
Proof.
  intros H. destruct lt as [|x]; [contradiction|].
  cbn [n_on n_switch_map_of Nat.eqb switch_on_inner w_latest]. rewrite Nat.eqb_refl. reflexivity.
Qed.

Lemma switch_map_of_latest_done h lt nx : lt <> 0%nat ->
  n_on n_switch_map_of (SSt false h lt nx) lt Done = (SSt false false lt nx, []).
Proof.
  intros H. destruct lt as [|x]; [contradiction|].
  cbn [n_on n_switch_map_of Nat.eqb switch_on_inner w_latest w_stopped w_next]. rewrite Nat.eqb_refl. reflexivity.
Qed.

(* [wraps], the hypothesis of [nested_step_loop], for the two nets *)
Lemma flat_map_of_turn C : wraps n_flat_map_of C (fun ns => f_stopped ns = false /\ f_next ns <> 0%nat).
Proof.
  intros [st a nx] [Hs Hnx] v cs live q i p o HL. cbn [f_stopped f_next] in Hs, Hnx. subst st.
  exists nx, (FSt false (S a) (S nx)), (FSt false a (S nx)), (nx :: live).
  split; [apply memn_later, HL|]. split; [apply memn_here|].
  split; [rewrite (deliver_eq KStep _ C (flat_map_of_src a nx v)); reflexivity|].
  split; [apply flat_map_of_inner_next, Hnx|]. split; [apply (flat_map_of_inner_done (S a)), Hnx|].
  split; [reflexivity|discriminate].
Qed.

Lemma switch_map_of_turn C : wraps n_switch_map_of C (fun ns => w_stopped ns = false /\ w_next ns <> 0%nat).
Proof.
  intros [st h lt nx] [Hs Hnx] v cs live q i p o HL. cbn [w_stopped w_next] in Hs, Hnx. subst st.
  destruct (switch_map_of_src KStep C h lt nx v live HL) as (live' & HL' & Hm & E).
  exists nx, (SSt false true nx (S nx)), (SSt false false nx (S nx)), live'.
  split; [exact HL'|]. split; [exact Hm|]. split; [apply E|].
  split; [apply switch_map_of_latest_next, Hnx|]. split; [apply switch_map_of_latest_done, Hnx|].
  split; [reflexivity|discriminate].
Qed.

Section Shapes.
Variable gen : nat -> Z.

(* linear pipelines (also share()), any consumer *)
Theorem lin_iter : forall C k fuel, stops_at C gen (c_init C) 0 k -> (k + 1 <= fuel)%nat ->
  exists out, run_default gen KIter n_lin C fuel = Returned k out true.
Proof.
  intros C k fuel H Hf.
  eapply (iter_shape gen lin_emits 0 0); [econstructor; [cbv; reflexivity|auto]|exact H|cbn; lia].
Qed.

Theorem lin_step : forall C k fuel, stops_at C gen (c_init C) 0 k -> (k + 1 <= fuel)%nat ->
  exists out, run_default gen KStep n_lin C fuel = Returned k out true.
Proof.
  intros C k fuel H Hf.
  eapply (step_shape gen lin_emits 0 0); [econstructor; [cbv; reflexivity|auto]|exact H|lia].
Qed.

(* a consumer that does not look at the elements (take, first, element_at) completes at the same
   position of every stream *)
Section Blind.
Variable C : cons.
Hypothesis blind : forall s v w, c_step C s v = c_step C s w.

Lemma stops_at_blind : forall e1 e2 k s i j, stops_at C e1 s i k -> stops_at C e2 s j k.
Proof.
  intros e1 e2. induction k as [|k IH]; intros s i j H; [exact H|]. cbn [stops_at] in *.
  rewrite (blind s (e2 j) (e1 i)). destruct (c_step C s (e1 i)) as [[s' n] stop].
  destruct stop; auto. eapply IH; eauto.
Qed.

Lemma stops_blind : forall k s i j, stops_at C gen s i k -> stops_at C gen s j k.
Proof. intros k s i j. apply stops_at_blind. Qed.
End Blind.
End Shapes.

(* a scheduler that runs the action inside schedule(): the producer never returns, so
   neither does a subscribe() that subscribes it, nor one that subscribes a finite source to one
   of whose elements the net reacts by subscribing it *)
Section Inline.
Variable gen : nat -> Z.
Variable K : kind.
Variable N : net.
Variable C : cons.

Lemma inl_inf_S : forall f p s,
  inl_inf gen K N C (S f) p s =
  let s1 := pulled N C s in
  let '(n', cs) := n_on N (s_net N C s1) p (Next (elem gen K (s_idx N C s))) in
  match inl gen K N C f cs (set_net N C s1 n') with
  | None => None
  | Some s' => inl_inf gen K N C f p s'
  end.
Proof. reflexivity. Qed.

Lemma inl_inf_none : forall fuel p s, inl_inf gen K N C fuel p s = None.
Proof.
  induction fuel as [|f IH]; intros p s; [reflexivity|].
  rewrite inl_inf_S. cbv zeta.
  destruct (n_on N (s_net N C (pulled N C s)) p (Next (elem gen K (s_idx N C s)))) as [n' cs].
  destruct (inl gen K N C f cs (set_net N C (pulled N C s) n')); auto.
Qed.

Lemma inl_cons : forall f c t s,
  inl gen K N C (S f) (c :: t) s =
  match c with
  | NSub p SInf =>
      match inl_inf gen K N C f p (St N C (s_net N C s) (s_cons N C s) (s_done N C s) (p :: s_live N C s)
                                      (s_q N C s) (s_idx N C s) (s_pulls N C s) (s_out N C s)) with
      | None => None
      | Some s' => inl gen K N C f t s'
      end
  | NSub p (SOf l) =>
      match inl_list gen K N C f p l (St N C (s_net N C s) (s_cons N C s) (s_done N C s) (p :: s_live N C s)
                                         (s_q N C s) (s_idx N C s) (s_pulls N C s) (s_out N C s)) with
      | None => None
      | Some s' => inl gen K N C f t s'
      end
  | NSub p SNever => inl gen K N C f t s
  | NSched tag =>
      let '(n', cs') := n_task N (s_net N C s) tag in
      match inl gen K N C f cs' (set_net N C s n') with
      | None => None
      | Some s' => inl gen K N C f t s'
      end
  | NEmit v =>
      if s_done N C s then inl gen K N C f t s
      else let '(c', n, stop) := c_step C (s_cons N C s) v in
           inl gen K N C f t (St N C (s_net N C s) c' stop (s_live N C s) (s_q N C s) (s_idx N C s)
                                 (s_pulls N C s) (s_out N C s + n))
  | NFin => inl gen K N C f t (St N C (s_net N C s) (s_cons N C s) true (s_live N C s) (s_q N C s)
                                  (s_idx N C s) (s_pulls N C s) (s_out N C s))
  | NUnsub p => inl gen K N C f t (St N C (s_net N C s) (s_cons N C s) (s_done N C s)
                                      (removen p (s_live N C s)) (s_q N C s) (s_idx N C s)
                                      (s_pulls N C s) (s_out N C s))
  end.
Proof. reflexivity. Qed.

Lemma inl_list_cons : forall f p v l s,
  inl_list gen K N C (S f) p (v :: l) s =
  let '(n', cs) := n_on N (s_net N C s) p (Next v) in
  match inl gen K N C f cs (set_net N C s n') with
  | None => None
  | Some s' => inl_list gen K N C f p l s'
  end.
Proof. reflexivity. Qed.

(* whatever the commands in front do, the run goes on with the rest or has run out of fuel *)
Lemma inl_app_none : forall t, (forall f s, inl gen K N C f t s = None) ->
  forall cs f s, inl gen K N C f (cs ++ t) s = None.
Proof.
  intros t Ht. induction cs as [|c cs IH]; intros f s; [apply Ht|].
  destruct f as [|f]; [reflexivity|]. cbn [app]. rewrite inl_cons.
  destruct c as [v| |p [|l|]|p|tag]; auto. (* NFin, NSub p SNever, NUnsub p: [IH] *)
  - destruct (s_done N C s); [apply IH|]. destruct (c_step C (s_cons N C s) v) as [[c' n] stop]. apply IH.
  - destruct (inl_inf gen K N C f p _); auto.
  - destruct (inl_list gen K N C f p l _); auto.
  - destruct (n_task N (s_net N C s) tag) as [n' cs']. destruct (inl gen K N C f cs' _); auto.
Qed.

Lemma inl_meets_inf : forall p cs f s, In (NSub p SInf) cs -> inl gen K N C f cs s = None.
Proof.
  intros p cs f s H. destruct (in_split _ _ H) as (a & b & ->). apply inl_app_none.
  intros [|f'] s'; [reflexivity|]. rewrite inl_cons, inl_inf_none. reflexivity.
Qed.

Lemma inl_list_meets_inf : forall p v q,
  (forall ns, In (NSub q SInf) (snd (n_on N ns p (Next v)))) ->
  forall l1 l2 f s, inl_list gen K N C f p (l1 ++ v :: l2) s = None.
Proof.
  intros p v q H. induction l1 as [|x l1 IH]; intros l2 f s;
    (destruct f as [|f]; [reflexivity|]); cbn [app]; rewrite inl_list_cons.
  - specialize (H (s_net N C s)). destruct (n_on N (s_net N C s) p (Next v)) as [n' cs].
    rewrite (inl_meets_inf q cs f _ H). reflexivity.
  - destruct (n_on N (s_net N C s) p (Next x)) as [n' cs]. destruct (inl gen K N C f cs _); auto.
Qed.

Theorem inline_starves : forall p fuel,
  In (NSub p SInf) (snd (n_start N)) -> run_inline gen K N C fuel = OutOfFuel.
Proof.
  intros p fuel H. unfold run_inline. destruct (n_start N) as [n0 cs]. rewrite (inl_meets_inf p cs fuel _ H). reflexivity.
Qed.

Theorem inline_starves_of : forall p q l1 v l2 fuel,
  In (NSub p (SOf (l1 ++ v :: l2))) (snd (n_start N)) ->
  (forall ns, In (NSub q SInf) (snd (n_on N ns p (Next v)))) ->
  run_inline gen K N C fuel = OutOfFuel.
Proof.
  intros p q l1 v l2 fuel H Hv. unfold run_inline. destruct (n_start N) as [n0 cs]. cbn [snd] in H.
  destruct (in_split _ _ H) as (a & b & ->). rewrite inl_app_none; [reflexivity|].
  intros [|f] s; [reflexivity|]. rewrite inl_cons, (inl_list_meets_inf p v q Hv). reflexivity.
Qed.
End Inline.
