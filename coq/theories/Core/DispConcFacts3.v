(* One-thread refinement: the interleaving models of Core/DispConc.v, run with ONE thread, are the
   sequential models of Core/Disposables.v (the abstract container: held items + disposed flag).  For every
   history h there is a schedule length n after which the thread has finished, the log is the sequential
   log and the shared state is the sequential final state; every longer schedule changes nothing.  So every
   sequential theorem (conservation, exactly-once, ...) is a theorem about the one-thread runs of the
   transition systems, and quiescence is reachable for every program. *)
From RxVerif Require Import Base.Prelude Core.Disposables Core.DisposablesFacts Core.DispConc Core.DispConcFacts.
Local Open Scope nat_scope.

Section OneThread.
Context {Sh L O S : Type}.
Variable start : O -> L.
Variable act : Sh -> L -> Sh * option L * list obs.
Notation thread := (@thread L O).
Notation config := (@config Sh L O).
Notation tstep := (@tstep Sh L O start act).
Notation crun := (@crun Sh L O start act).

(* a call positioned at local state l in shared state s runs to completion, alone: final shared state and
   the outputs of all its actions *)
Inductive runs_to : Sh -> L -> Sh -> list obs -> Prop :=
| RT_last : forall s l s' out, act s l = (s', None, out) -> runs_to s l s' out
| RT_more : forall s l s1 l1 out1 s' out2,
    act s l = (s1, Some l1, out1) -> runs_to s1 l1 s' out2 -> runs_to s l s' (out1 ++ out2).

(* an action that emits nothing and goes on *)
Lemma RT_silent : forall s l s1 l1 s' out,
  act s l = (s1, Some l1, []) -> runs_to s1 l1 s' out -> runs_to s l s' out.
Proof. intros s l s1 l1 s' out A R. exact (RT_more s l s1 l1 [] s' out A R). Qed.

Lemma runs_to_crun : forall s l s' out, runs_to s l s' out ->
  forall (t : thread) todo hist log, next_frame start t = Some (l, todo, hist) ->
  exists n, crun (Config s [t] log) (repeat 0 (Datatypes.S n))
            = Config s' [Thread None todo hist] (log ++ map (pair 0) out).
Proof.
  induction 1 as [s l s' out A|s l s1 l1 out1 s' out2 A R IH]; intros t todo hist log F.
  - exists 0. cbn [repeat]. rewrite crun_cons, crun_nil. unfold DispConc.tstep.
    cbn [c_ths nth_error c_sh c_log]. rewrite F, A. reflexivity.
  - destruct (IH (Thread (Some l1) todo hist) todo hist (log ++ map (pair 0) out1) eq_refl) as [n Hn].
    exists (Datatypes.S n). change (repeat 0 (Datatypes.S (Datatypes.S n))) with (0 :: repeat 0 (Datatypes.S n)).
    rewrite crun_cons. unfold DispConc.tstep at 1. cbn [c_ths nth_error c_sh c_log]. rewrite F, A.
    cbn [set_nth]. rewrite Hn, map_app, app_assoc. reflexivity.
Qed.

(* the dispose-the-list loop of a call, alone: [mk l ret] is the local state "about to call dispose() on
   the items of l, then return ret" *)
Section Loop.
Variable mk : list item -> list obs -> L.
Hypothesis act_mk : forall s i r ret,
  act s (mk (i :: r) ret) = (let '(l', out) := calls mk r ret in (s, l', ODisp i :: out)).

Lemma calls_run : forall r s i ret, runs_to s (mk (i :: r) ret) s (map ODisp (i :: r) ++ ret).
Proof.
  induction r as [|j r IH]; intros s i ret.
  - apply RT_last. rewrite act_mk. reflexivity.
  - change (map ODisp (i :: j :: r) ++ ret) with ([ODisp i] ++ (map ODisp (j :: r) ++ ret)).
    eapply RT_more; [rewrite act_mk; reflexivity|apply IH].
Qed.

(* an action that hands a list of items to the loop *)
Lemma lock_calls : forall s s' l0 l,
  act s l0 = (let '(l', out) := calls mk l [] in (s', l', out)) -> runs_to s l0 s' (map ODisp l).
Proof.
  intros s s' l0 [|i r] H; cbn [calls] in H.
  - apply RT_last. exact H.
  - rewrite <- (app_nil_r (map ODisp (i :: r))). eapply RT_silent; [exact H|apply calls_run].
Qed.
End Loop.

(* the sequential model, an abstraction of the shared state, a renaming of observations, an invariant *)
Variable seq : S -> O -> S * list obs.
Variable abs : Sh -> S.
Variable f : obs -> obs.
Variable ok : Sh -> Prop.
Hypothesis call_refines : forall s o, ok s ->
  exists s' out, runs_to s (start o) s' out /\ ok s' /\
                 abs s' = fst (seq (abs s) o) /\ map f out = snd (seq (abs s) o).

Lemma one_thread_gen : forall h s hist lg, ok s ->
  exists n, let c := crun (Config s [Thread None h hist] lg) (repeat 0 n) in
    c_ths c = [Thread None [] (rev h ++ hist)] /\ ok (c_sh c) /\
    abs (c_sh c) = final seq (abs s) h /\
    map f (plain (c_log c)) = map f (plain lg) ++ log seq (abs s) h.
Proof.
  induction h as [|o r IH]; intros s hist lg K.
  - exists 0. cbn [repeat]. rewrite crun_nil. cbn [c_ths c_sh c_log rev app]. rewrite final_nil, log_nil, app_nil_r. auto.
  - destruct (call_refines s o K) as (s' & out & R & K' & HA & HO).
    destruct (runs_to_crun _ _ _ _ R (Thread None (o :: r) hist) r (o :: hist) lg eq_refl) as [n1 H1].
    destruct (IH s' (o :: hist) (lg ++ map (pair 0) out) K') as [n2 H2].
    exists (Datatypes.S n1 + n2). rewrite repeat_app, crun_app, H1.
    destruct H2 as (T & K2 & A2 & L2). cbv zeta. split; [|split; [|split]].
    + rewrite T. cbn [rev]. rewrite <- app_assoc. reflexivity.
    + exact K2.
    + rewrite A2, HA, final_cons. reflexivity.
    + rewrite L2, plain_app, plain_tag, map_app, HO, HA, log_cons, app_assoc. reflexivity.
Qed.

Lemma finished_stutter : forall (c : config) hist m, c_ths c = [Thread None [] hist] -> crun c (repeat 0 m) = c.
Proof.
  intros c hist m T. induction m as [|m IH]; [reflexivity|].
  cbn [repeat]. rewrite crun_cons. unfold DispConc.tstep. rewrite T. cbn [nth_error next_frame t_cur t_todo]. exact IH.
Qed.

Theorem one_thread_refines : forall h s0, ok s0 ->
  exists n, forall m, let c := crun (cinit s0 [h]) (repeat 0 (n + m)) in
    map f (plain (c_log c)) = log seq (abs s0) h /\
    abs (c_sh c) = final seq (abs s0) h /\
    quiescent c = true.
Proof.
  intros h s0 K. destruct (one_thread_gen h s0 [] [] K) as [n (T & _ & A & Lg)]. exists n. intros m.
  cbv zeta. rewrite repeat_app, crun_app.
  change (cinit s0 [h]) with (Config s0 [@Thread L O None h []] []).
  rewrite (finished_stutter _ _ m T). split; [exact Lg|]. split; [exact A|].
  unfold quiescent. rewrite T. reflexivity.
Qed.
End OneThread.

Lemma map_ODisp_opt_list : forall o, map ODisp (opt_list o) = opt_disp o.
Proof. intros [i|]; reflexivity. Qed.

(* [call_refines] with the trivial invariant: name final state and outputs by unification, leaving
   [runs_to], the abstraction of the final state and the renamed outputs *)
Ltac refines := do 2 eexists; split; [|split; [exact I|split]].

Lemma cc_call_refines : forall s o, True ->
  exists s' out, runs_to cc_act s (cc_start o) s' out /\ True /\
                 (fun x : cstate => x) s' = fst (c_step s o) /\ map (fun b : obs => b) out = snd (c_step s o).
Proof.
  intros [items d] o _.
  pose proof (calls_run cc_act CL_calls (fun _ _ _ _ => eq_refl)) as CallsRun.
  pose proof (lock_calls cc_act CL_calls (fun _ _ _ _ => eq_refl)) as LockCalls.
  destruct o as [i|i| | |i| | |]; cbn [cc_start c_step c_disposed c_items].
  - (* add *) destruct d.
    + refines; [|reflexivity|apply map_id].
      eapply RT_silent; [reflexivity|exact (CallsRun [] _ i [])].
    + refines; [|reflexivity|apply map_id].
      apply RT_last. reflexivity.
  - (* remove *) destruct d.
    + refines; [|reflexivity|apply map_id].
      apply RT_last. reflexivity.
    + destruct (mem i items) eqn:M.
      * refines; [|reflexivity|apply map_id].
        eapply RT_silent; [reflexivity|]. eapply RT_silent; [cbn [cc_act c_items c_disposed]; rewrite M; reflexivity|].
        exact (CallsRun [] _ i [OBool true]).
      * refines; [|reflexivity|apply map_id].
        eapply RT_silent; [reflexivity|]. apply RT_last. cbn [cc_act c_items c_disposed]. rewrite M. reflexivity.
  - (* dispose *) destruct d.
    + refines; [|reflexivity|apply map_id].
      apply RT_last. reflexivity.
    + refines; [|reflexivity|apply map_id].
      eapply RT_silent; [reflexivity|]. apply LockCalls. reflexivity.
  - (* clear *)
    refines; [|reflexivity|apply map_id].
    apply LockCalls. reflexivity.
  - refines; [apply RT_last; reflexivity|reflexivity|reflexivity].
  - refines; [apply RT_last; reflexivity|reflexivity|reflexivity].
  - refines; [apply RT_last; reflexivity|reflexivity|reflexivity].
  - refines; [apply RT_last; reflexivity|reflexivity|reflexivity].
Qed.

Theorem cc_one_thread_refines : forall l0 h, exists n, forall m,
  let c := cc_run l0 [h] (repeat 0 (n + m)) in
  plain (c_log c) = log c_step (c_init l0) h /\
  c_sh c = final c_step (c_init l0) h /\
  quiescent c = true.
Proof.
  intros l0 h.
  destruct (one_thread_refines cc_start cc_act c_step (fun x => x) (fun b => b) (fun _ => True)
              cc_call_refines h (c_init l0) I) as [n H].
  exists n. intros m. specialize (H m). cbv zeta in *. rewrite map_id in H. exact H.
Qed.

Definition slot_seq (k : slot_kind) : sstate -> sop -> sstate * list obs :=
  match k with KSerial => ser_step | KMultiple => mad_step | KSingle => sad_step end.
(* the interleaving model names the rejected item ([ORej i]); the sequential log has one [ORaise] per call *)
Definition unrej (b : obs) : obs := match b with ORej _ => ORaise | _ => b end.
Definition slot_f (k : slot_kind) : obs -> obs := match k with KSingle => unrej | _ => fun b => b end.

Lemma map_slot_f_disp : forall k l, map (slot_f k) (map ODisp l) = map ODisp l.
Proof. intros k l. rewrite map_map. destruct k; reflexivity. Qed.

Lemma sc_call_refines : forall k x o, True ->
  exists x' out, runs_to (sc_act k) x (sc_start o) x' out /\ True /\
                 x_s x' = fst (slot_seq k (x_s x) o) /\ map (slot_f k) out = snd (slot_seq k (x_s x) o).
Proof.
  intros k [[cur d] dr] o _.
  pose proof (lock_calls (sc_act k) SL_calls (fun _ _ _ _ => eq_refl)) as LockCalls. destruct o as [i| | |].
  - (* set *) destruct k; cbn [sc_start slot_seq ser_step mad_step sad_step x_s s_disposed s_cur].
    + destruct d.
      * refines; [apply (LockCalls _ _ _ [i]); reflexivity|reflexivity|reflexivity].
      * refines; [apply (LockCalls _ _ _ (opt_list cur)); reflexivity|reflexivity|].
        rewrite map_slot_f_disp, map_ODisp_opt_list. reflexivity.
    + destruct d.
      * refines; [apply (LockCalls _ _ _ [i]); reflexivity|reflexivity|reflexivity].
      * refines; [apply RT_last; reflexivity|reflexivity|reflexivity].
    + destruct cur as [c|].
      * refines; [apply RT_last; reflexivity|reflexivity|reflexivity].
      * destruct d.
        -- refines; [apply (LockCalls _ _ _ [i]); reflexivity|reflexivity|reflexivity].
        -- refines; [apply RT_last; reflexivity|reflexivity|reflexivity].
  - (* dispose: the same text in the three classes *)
    assert (E : slot_seq k (SState cur d) SDispose = slot_dispose (SState cur d)) by (destruct k; reflexivity).
    cbn [x_s]. rewrite E. unfold slot_dispose. cbn [s_disposed s_cur sc_start]. destruct d.
    + refines; [apply RT_last; destruct k; reflexivity|reflexivity|destruct k; reflexivity].
    + refines; [apply (LockCalls _ _ _ (opt_list cur)); destruct k; reflexivity|reflexivity|].
      rewrite map_slot_f_disp, map_ODisp_opt_list. reflexivity.
  - refines; [apply RT_last; reflexivity|destruct k; reflexivity|destruct k; reflexivity].
  - refines; [apply RT_last; reflexivity|destruct k; reflexivity|destruct k; reflexivity].
Qed.

Theorem sc_one_thread_refines : forall k h, exists n, forall m,
  let c := sc_run k [h] (repeat 0 (n + m)) in
  map (slot_f k) (plain (c_log c)) = log (slot_seq k) s_init h /\
  x_s (c_sh c) = final (slot_seq k) s_init h /\
  quiescent c = true.
Proof.
  intros k h.
  exact (one_thread_refines sc_start (sc_act k) (slot_seq k) x_s (slot_f k) (fun _ => True)
           (sc_call_refines k) h x_init I).
Qed.

Corollary serial_one_thread_refines : forall h, exists n, forall m,
  let c := sc_run KSerial [h] (repeat 0 (n + m)) in
  plain (c_log c) = log ser_step s_init h /\ x_s (c_sh c) = final ser_step s_init h /\ quiescent c = true.
Proof.
  intros h. destruct (sc_one_thread_refines KSerial h) as [n H]. exists n. intros m. specialize (H m).
  cbv zeta in *. cbn [slot_f slot_seq] in H. rewrite map_id in H. exact H.
Qed.

Corollary multiple_one_thread_refines : forall h, exists n, forall m,
  let c := sc_run KMultiple [h] (repeat 0 (n + m)) in
  plain (c_log c) = log mad_step s_init h /\ x_s (c_sh c) = final mad_step s_init h /\ quiescent c = true.
Proof.
  intros h. destruct (sc_one_thread_refines KMultiple h) as [n H]. exists n. intros m. specialize (H m).
  cbv zeta in *. cbn [slot_f slot_seq] in H. rewrite map_id in H. exact H.
Qed.

Corollary single_one_thread_refines : forall h, exists n, forall m,
  let c := sc_run KSingle [h] (repeat 0 (n + m)) in
  map unrej (plain (c_log c)) = log sad_step s_init h /\ x_s (c_sh c) = final sad_step s_init h /\
  quiescent c = true.
Proof. intros h. exact (sc_one_thread_refines KSingle h). Qed.

Lemma disposes_map_unrej : forall i l, disposes i (map unrej l) = disposes i l.
Proof.
  intros i l. unfold disposes. induction l as [|b t IH]; [reflexivity|].
  cbn [map filter]. destruct b; cbn [unrej is_disp]; try exact IH. destruct (Nat.eqb i i0); cbn [length]; rewrite IH; reflexivity.
Qed.

(* SingleAssignmentDisposable: every assignment was rejected (the call raised), or its item is the current
   one, or the item was disposed exactly once *)
Corollary single_one_thread_exactly_once : forall h i, exists n, forall m,
  let c := sc_run KSingle [h] (repeat 0 (n + m)) in
  quiescent c = true /\
  disposes i (plain (c_log c)) + ocnt i (s_cur (x_s (c_sh c))) + s_rejected i h (outs sad_step s_init h)
    = s_hsets i h /\
  (In SDispose h -> s_cur (x_s (c_sh c)) = None).
Proof.
  intros h i. destruct (single_one_thread_refines h) as [n H]. exists n. intros m. specialize (H m).
  cbv zeta in *. destruct H as (HL & HS & HQ). rewrite <- (disposes_map_unrej i), HL, HS. split; [exact HQ|].
  split; [apply sad_conservation|].
  intros D. apply in_split in D. destruct D as (h1 & h2 & ->).
  apply sad_final_ok, sad_disposed_after_dispose.
Qed.
