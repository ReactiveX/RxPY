(* C36 -- facts about Core/TimeConv.v.  Two ideas carry most of it: rne_div is the only integer within b/2 of
   a/b that is even on a tie (rne_div_spec, rne_div_charact), and the exponent chosen by rn is the only one
   whose binade holds a/b (binade, exp_order).  The round trip is then a corollary of the error bound of
   float -> microseconds (us_of_float_close). *)
From Coq Require Import ZArith Lia.
From RxVerif Require Import Core.TimeConv.
Open Scope Z_scope.

Lemma dt_td_dt : forall d, to_datetime_td (to_timedelta_dt d) = d.
Proof. intros d. unfold to_datetime_td, to_timedelta_dt, epoch_plus, dt_minus_epoch, utc_zero. lia. Qed.

Lemma td_dt_td : forall t, to_timedelta_dt (to_datetime_td t) = t.
Proof. intros t. unfold to_datetime_td, to_timedelta_dt, epoch_plus, dt_minus_epoch, utc_zero. lia. Qed.

Lemma to_timedelta_dt_strict : forall d d', d < d' <-> to_timedelta_dt d < to_timedelta_dt d'.
Proof. intros. unfold to_timedelta_dt, dt_minus_epoch, utc_zero. lia. Qed.

Lemma to_datetime_td_strict : forall t t', t < t' <-> to_datetime_td t < to_datetime_td t'.
Proof. intros. unfold to_datetime_td, epoch_plus, utc_zero. lia. Qed.

Lemma rne_div_spec : forall a b, 0 < b ->
  2 * Z.abs (rne_div a b * b - a) <= b /\
  (2 * Z.abs (rne_div a b * b - a) = b -> Z.even (rne_div a b) = true).
Proof.
  intros a b Hb. unfold rne_div.
  pose proof (Z.div_mod a b ltac:(lia)) as Hdm. pose proof (Z.mod_pos_bound a b Hb) as Hr.
  destruct (Z.ltb_spec (2 * (a mod b)) b); [split; nia|].
  destruct (Z.ltb_spec b (2 * (a mod b))); [split; nia|].
  destruct (Z.even (a / b)) eqn:Ev; (split; [nia | intros _]); [exact Ev|].
  rewrite Z.even_add, Ev. reflexivity.
Qed.

Lemma rne_div_err : forall a b, 0 < b -> 2 * Z.abs (rne_div a b * b - a) <= b.
Proof. intros a b Hb. apply rne_div_spec, Hb. Qed.

Lemma rne_div_tie_even : forall a b, 0 < b -> 2 * Z.abs (rne_div a b * b - a) = b -> Z.even (rne_div a b) = true.
Proof. intros a b Hb. apply rne_div_spec, Hb. Qed.

Lemma rne_div_charact : forall a b R, 0 < b ->
  2 * Z.abs (R * b - a) <= b -> (2 * Z.abs (R * b - a) = b -> Z.even R = true) -> rne_div a b = R.
Proof.
  intros a b R Hb H1 H2.
  pose proof (rne_div_err a b Hb) as E1. pose proof (rne_div_tie_even a b Hb) as E2.
  set (Q := rne_div a b) in *.
  destruct (Z.eq_dec Q R) as [D|D]; [exact D|exfalso].
  (* two different integers within b/2 of a/b are neighbours on either side of a tie: not both even *)
  assert (N : Q = R + 1 \/ R = Q + 1) by nia.
  assert (T : 2 * Z.abs (Q * b - a) = b /\ 2 * Z.abs (R * b - a) = b) by (destruct N as [N|N]; rewrite N in *; lia).
  destruct T as [T1 T2]. specialize (E2 T1). specialize (H2 T2).
  apply Z.even_spec in E2, H2. destruct E2 as [x E2], H2 as [y H2]. lia.
Qed.

Lemma rne_div_mono : forall a a' b, 0 < b -> a <= a' -> rne_div a b <= rne_div a' b.
Proof.
  intros a a' b Hb Ha. destruct (Z.eq_dec a a') as [->|N]; [lia|].
  pose proof (rne_div_err a b Hb). pose proof (rne_div_err a' b Hb). nia.
Qed.

Lemma rne_div_scale : forall a b k, 0 < b -> 0 < k -> rne_div (a * k) (b * k) = rne_div a b.
Proof.
  intros a b k Hb Hk. destruct (rne_div_spec a b Hb) as [E T]. set (R := rne_div a b) in *.
  assert (S : 2 * Z.abs (R * (b * k) - a * k) = k * (2 * Z.abs (R * b - a))).
  { replace (R * (b * k) - a * k) with ((R * b - a) * k) by ring. rewrite Z.abs_mul, (Z.abs_eq k) by lia. ring. }
  apply rne_div_charact; [nia | rewrite S; nia | rewrite S; intros C; apply T; nia].
Qed.

Lemma rne_div_mono_frac : forall a b a' b', 0 < b -> 0 < b' -> a * b' <= a' * b ->
  rne_div a b <= rne_div a' b'.
Proof.
  intros a b a' b' Hb Hb' H.
  rewrite <- (rne_div_scale a b b') by assumption.
  rewrite <- (rne_div_scale a' b' b) by assumption.
  rewrite (Z.mul_comm b' b). apply rne_div_mono; [nia | exact H].
Qed.

Lemma rne_div_exact : forall k b, 0 < b -> rne_div (k * b) b = k.
Proof.
  intros k b Hb. unfold rne_div. rewrite Z.div_mul, Z.mod_mul by lia.
  destruct (Z.ltb_spec (2 * 0) b); [reflexivity | lia].
Qed.

Lemma rne_div_le_bound : forall X Y k, 0 < Y -> X <= k * Y -> rne_div X Y <= k.
Proof. intros X Y k HY H. rewrite <- (rne_div_exact k Y HY). apply rne_div_mono; assumption. Qed.

Lemma rne_div_ge_bound : forall X Y k, 0 < Y -> k * Y <= X -> k <= rne_div X Y.
Proof. intros X Y k HY H. rewrite <- (rne_div_exact k Y HY). apply rne_div_mono; assumption. Qed.

Lemma rne_div_opp : forall a b, 0 < b -> rne_div (- a) b = - rne_div a b.
Proof.
  intros a b Hb. destruct (rne_div_spec a b Hb) as [E T].
  assert (S : - rne_div a b * b - - a = - (rne_div a b * b - a)) by ring.
  apply rne_div_charact; [exact Hb | rewrite S, Z.abs_opp; exact E | rewrite S, Z.abs_opp, Z.even_opp; exact T].
Qed.

(* stated apart, as two_roundings, cross_lt and first_guess below, so that nia sees these hypotheses only *)
Lemma abs_mul_lt_one : forall d P, Z.abs (d * P) < P -> d = 0.
Proof. intros. nia. Qed.

(* a / P rounded to a multiple M / T of 1 / T, and that to an integer K: with x = K P - a, u = K T - M,
   v = M P - a T the identity x T = u P + v adds the two rounding errors, |K - a / P| <= 1/2 + 1/(2T) *)
Lemma two_roundings : forall x u v P T, 0 < P -> 0 < T -> x * T = u * P + v ->
  2 * Z.abs u <= T -> 2 * Z.abs v <= P -> T * (2 * Z.abs x - P) <= P.
Proof. intros. nia. Qed.

Lemma rne_div_twice : forall a P T, 0 < P -> 0 < T ->
  T * (2 * Z.abs (rne_div (rne_div (a * T) P) T * P - a) - P) <= P.
Proof.
  intros a P T HP HT.
  pose proof (rne_div_err (a * T) P HP) as E1. set (M := rne_div (a * T) P) in *.
  pose proof (rne_div_err M T HT) as E2. set (K := rne_div M T) in *.
  apply (two_roundings _ (K * T - M) (M * P - a * T)); [assumption | assumption | ring | assumption | assumption].
Qed.

(* powers of two with integer exponents: 2^e = up e / dn e *)
Definition up (e : Z) : Z := 2 ^ (Z.max e 0).
Definition dn (e : Z) : Z := 2 ^ (Z.max (- e) 0).

Lemma up_pos : forall e, 0 < up e.
Proof. intros e. unfold up. apply Z.pow_pos_nonneg; lia. Qed.
Lemma dn_pos : forall e, 0 < dn e.
Proof. intros e. unfold dn. apply Z.pow_pos_nonneg; lia. Qed.
Lemma den_pos : forall b e, 0 < b -> 0 < b * up e.
Proof. intros b e Hb. apply Z.mul_pos_pos; [exact Hb | apply up_pos]. Qed.

Lemma updn_nonpos : forall e, e <= 0 -> up e = 1 /\ dn e = 2 ^ (- e).
Proof. intros e H. unfold up, dn. rewrite Z.max_r, Z.max_l by lia. split; reflexivity. Qed.

Lemma updn_nonneg : forall e, 0 <= e -> up e = 2 ^ e /\ dn e = 1.
Proof. intros e H. unfold up, dn. rewrite Z.max_l, Z.max_r by lia. split; reflexivity. Qed.

Lemma scaled_updn : forall a b e, scaled_num a e = a * dn e /\ scaled_den b e = b * up e.
Proof.
  intros a b e. unfold scaled_num, scaled_den. destruct (Z.ltb_spec e 0).
  - destruct (updn_nonpos e) as [-> ->]; [lia|]. split; ring.
  - destruct (updn_nonneg e) as [-> ->]; [lia|]. split; ring.
Qed.

Lemma scaled_neg : forall a b e, e < 0 ->
  scaled_num a e = a * 2 ^ (- e) /\ scaled_den b e = b.
Proof.
  intros a b e He. destruct (scaled_updn a b e) as [-> ->]. destruct (updn_nonpos e) as [-> ->]; [lia|].
  split; [reflexivity | apply Z.mul_1_r].
Qed.

Lemma pow_shift : forall e e', e <= e' -> up e' * dn e = 2 ^ (e' - e) * up e * dn e'.
Proof.
  intros e e' H. destruct (Z_lt_le_dec e 0) as [A|A]; destruct (Z_lt_le_dec e' 0) as [B|B]; try lia.
  - destruct (updn_nonpos e) as [-> ->]; [lia|]. destruct (updn_nonpos e') as [-> ->]; [lia|].
    replace (- e) with ((e' - e) + (- e')) at 1 by lia. rewrite Z.pow_add_r by lia. ring.
  - destruct (updn_nonpos e) as [-> ->]; [lia|]. destruct (updn_nonneg e') as [-> ->]; [lia|].
    replace (e' - e) with (e' + - e) by lia. rewrite Z.pow_add_r by lia. ring.
  - destruct (updn_nonneg e) as [-> ->]; [lia|]. destruct (updn_nonneg e') as [-> ->]; [lia|].
    replace e' with ((e' - e) + e) at 1 by lia. rewrite Z.pow_add_r by lia. ring.
Qed.

(* a / b compared with c * 2^e' : the same comparison written at a smaller exponent *)
Lemma shift_lower : forall a b c e e' j, 0 <= j -> e' = e + j ->
  c * (b * up e') <= a * dn e' <-> 2 ^ j * c * (b * up e) <= a * dn e.
Proof.
  intros a b c e e' j Hj ->. pose proof (pow_shift e (e + j) ltac:(lia)) as PS.
  replace (e + j - e) with j in PS by lia.
  rewrite (Z.mul_le_mono_pos_r _ _ (dn e) (dn_pos e)).
  rewrite (Z.mul_le_mono_pos_r (2 ^ j * c * (b * up e)) _ (dn (e + j)) (dn_pos _)).
  replace (c * (b * up (e + j)) * dn e) with (c * b * (up (e + j) * dn e)) by ring. rewrite PS.
  replace (c * b * (2 ^ j * up e * dn (e + j))) with (2 ^ j * c * (b * up e) * dn (e + j)) by ring.
  replace (a * dn (e + j) * dn e) with (a * dn e * dn (e + j)) by ring. reflexivity.
Qed.

Lemma shift_upper : forall a b c e e' j, 0 <= j -> e' = e + j ->
  a * dn e' < c * (b * up e') <-> a * dn e < 2 ^ j * c * (b * up e).
Proof. intros. rewrite !Z.lt_nge. apply not_iff_compat, shift_lower; assumption. Qed.

Lemma cross_lt : forall a b a' b' u d X, 0 < b -> 0 < b' -> 0 < d ->
  X * (b * u) <= a * d -> a' * d < X * (b' * u) -> a' * b < a * b'.
Proof. intros. nia. Qed.

(* 2^52 * 2^e <= a/b <= a'/b' < 2^53 * 2^e' forces e <= e' *)
Lemma exp_order : forall a b a' b' e e', 0 < b -> 0 < b' ->
  2 ^ 52 * (b * up e) <= a * dn e -> a' * dn e' < 2 ^ 53 * (b' * up e') -> a * b' <= a' * b -> e <= e'.
Proof.
  intros a b a' b' e e' Hb Hb' L U H. destruct (Z_le_gt_dec e e') as [C|C]; [exact C|exfalso].
  apply (shift_lower a b _ e' e (e - e')) in L; [|lia|lia].
  assert (K : 2 ^ 1 <= 2 ^ (e - e')) by (apply Z.pow_le_mono_r; lia).
  assert (L2 : 2 ^ 53 * (b * up e') <= a * dn e').
  { pose proof (up_pos e') as UP. change (2 ^ 53) with (2 ^ 1 * 2 ^ 52). clear - L K Hb UP. nia. }
  pose proof (cross_lt a b a' b' (up e') (dn e') (2 ^ 53) Hb Hb' (dn_pos e') L2 U). lia.
Qed.

(* e is the exponent of the last place of a/b: 2^52 * 2^e <= a/b < 2^53 * 2^e, the lower bound waived at the
   smallest exponent (subnormal) *)
Definition binade (a b e : Z) : Prop :=
  -1074 <= e /\ a * dn e < 2 ^ 53 * (b * up e) /\ (-1074 < e -> 2 ^ 52 * (b * up e) <= a * dn e).

(* the first guess e0 = log2 a - log2 b - 53 of rn_exp is right or one too small: u/d = 2^e0 = A/(2^53 B)
   with A <= a < 2A, B <= b < 2B *)
Lemma first_guess : forall a b A B u d, 0 < u -> 0 < d -> A <= a < 2 * A -> B <= b < 2 * B ->
  u * (2 ^ 53 * B) = d * A -> 2 ^ 52 * (b * u) <= a * d < 2 * 2 ^ 53 * (b * u).
Proof. intros. nia. Qed.

Lemma rn_exp_spec : forall a b, 0 < a -> 0 < b -> binade a b (rn_exp a b).
Proof.
  intros a b Ha Hb. unfold rn_exp. rewrite (Z.abs_eq a) by lia.
  set (e0 := Z.log2 a - Z.log2 b - 53).
  assert (G : 2 ^ 52 * (b * up e0) <= a * dn e0 < 2 * 2 ^ 53 * (b * up e0)).
  { pose proof (Z.log2_nonneg a). pose proof (Z.log2_nonneg b).
    pose proof (Z.log2_spec a Ha) as La. pose proof (Z.log2_spec b Hb) as Lb.
    rewrite Z.pow_succ_r in La, Lb by assumption.
    apply (first_guess a b (2 ^ Z.log2 a) (2 ^ Z.log2 b)); [apply up_pos | apply dn_pos | exact La | exact Lb |].
    (* u * (2^53 B) = d * A of first_guess is pow_shift between -(53 + log2 b), where up = 1 and dn = 2^53 B,
       and e0, which lies log2 a above it *)
    pose proof (pow_shift (- (53 + Z.log2 b)) e0 ltac:(lia)) as PS.
    destruct (updn_nonpos (- (53 + Z.log2 b))) as [U D]; [lia|]. rewrite U, D, Z.opp_involutive in PS.
    replace (e0 - - (53 + Z.log2 b)) with (Z.log2 a) in PS by lia.
    rewrite <- Z.pow_add_r by lia. clear - PS. lia. }
  destruct G as [G1 G2]. destruct (scaled_updn a b e0) as [-> ->].
  pose proof (den_pos b e0 Hb) as HY.
  set (e1 := if 2 ^ 53 <=? _ then e0 + 1 else e0).
  assert (B : a * dn e1 < 2 ^ 53 * (b * up e1) /\ 2 ^ 52 * (b * up e1) <= a * dn e1).
  { unfold e1. destruct (Z.leb_spec (2 ^ 53) (a * dn e0 / (b * up e0))) as [Q|Q].
    - split.
      + apply (shift_upper a b _ e0 (e0 + 1) 1); [lia | lia | exact G2].
      + apply (shift_lower a b _ e0 (e0 + 1) 1); [lia | lia |]. change (2 ^ 1 * 2 ^ 52) with (2 ^ 53).
        pose proof (Z.mul_div_le (a * dn e0) (b * up e0) HY) as D. clear - Q HY D. nia.
    - split; [|exact G1]. pose proof (Z.mul_succ_div_gt (a * dn e0) (b * up e0) HY) as D. clear - Q HY D. nia. }
  clearbody e1. destruct B as [B1 B2]. unfold binade.
  destruct (Z.max_spec e1 (-1074)) as [[C ->]|[C ->]].
  - (* subnormal: a/b < 2^53 * 2^e1 with e1 < -1074 *)
    split; [lia|]. split; [|lia].
    apply (shift_upper a b _ e1 (-1074) (-1074 - e1)); [lia | lia |].
    pose proof (Z.pow_pos_nonneg 2 (-1074 - e1) eq_refl ltac:(lia)) as D. clear - B1 B2 D. nia.
  - split; [lia|]. split; [exact B1 | intros _; exact B2].
Qed.

Lemma rn_exp_le : forall a b e, 0 < a -> 0 < b -> -1074 <= e ->
  a * dn e < 2 ^ 53 * (b * up e) -> rn_exp a b <= e.
Proof.
  intros a b e Ha Hb He U. destruct (rn_exp_spec a b Ha Hb) as [_ [_ L]].
  destruct (Z_le_gt_dec (rn_exp a b) (-1074)); [lia|].
  apply (exp_order a b a b); [assumption | assumption | apply L; lia | exact U | lia].
Qed.

Lemma rn_exp_unique : forall a b e, 0 < a -> 0 < b -> binade a b e -> rn_exp a b = e.
Proof.
  intros a b e Ha Hb [N [U L]]. apply Z.le_antisymm; [apply rn_exp_le; assumption|].
  destruct (rn_exp_spec a b Ha Hb) as [N' [U' _]]. destruct (Z_le_gt_dec e (-1074)); [lia|].
  apply (exp_order a b a b); [assumption | assumption | apply L; lia | exact U' | lia].
Qed.

Lemma rn_exp_abs : forall a b, rn_exp a b = rn_exp (Z.abs a) b.
Proof. intros a b. unfold rn_exp. rewrite Z.abs_involutive. reflexivity. Qed.

(* the two places the round trip uses rn: n / 10^6 below 2^33 has its last place at 2^-20 or below, a proper
   fraction times 10^6 at 2^-33 or below *)
Lemma rn_exp_seconds : forall n, n <> 0 -> Z.abs n < 2 ^ 33 * us_per_s ->
  -1074 <= rn_exp n us_per_s <= -20.
Proof.
  intros n Hn Hb. rewrite rn_exp_abs.
  split; [apply rn_exp_spec; [lia | reflexivity] | apply rn_exp_le; [lia | reflexivity | lia |]].
  change (dn (-20)) with (2 ^ 20). change (up (-20)) with 1. unfold us_per_s in *. lia.
Qed.

Lemma rn_exp_frac : forall mf s, 0 <= s -> mf <> 0 -> Z.abs mf < 2 ^ s ->
  rn_exp (mf * us_per_s) (2 ^ s) <= -33.
Proof.
  intros mf s Hs Hmf Hb. assert (HP : 0 < 2 ^ s) by (apply Z.pow_pos_nonneg; lia).
  rewrite rn_exp_abs, Z.abs_mul. apply rn_exp_le; [unfold us_per_s; lia | exact HP | lia |].
  change (dn (-33)) with (2 ^ 33). change (up (-33)) with 1. unfold us_per_s. set (P := 2 ^ s) in *. lia.
Qed.

Lemma rn_form : forall a b, a <> 0 -> rn a b = F (rne_div (a * dn (rn_exp a b)) (b * up (rn_exp a b))) (rn_exp a b).
Proof.
  intros a b Ha. unfold rn. destruct (Z.eqb_spec a 0) as [E|_]; [destruct (Ha E)|].
  destruct (scaled_updn a b (rn_exp a b)) as [-> ->]. reflexivity.
Qed.

(* the exponent by binade, the mantissa by rne_div_charact: the converse of the description of rn a b as the
   correctly rounded quotient *)
Lemma rn_eq : forall a b m e, 0 < a -> 0 < b -> binade a b e ->
  2 * Z.abs (m * (b * up e) - a * dn e) <= b * up e ->
  (2 * Z.abs (m * (b * up e) - a * dn e) = b * up e -> Z.even m = true) -> rn a b = F m e.
Proof.
  intros a b m e Ha Hb B E T. rewrite rn_form, (rn_exp_unique a b e Ha Hb B) by lia. f_equal.
  apply rne_div_charact; [apply den_pos; exact Hb | exact E | exact T].
Qed.

Lemma rn_mono_pos : forall a b a' b', 0 < a -> 0 < b -> 0 < a' -> 0 < b' -> a * b' <= a' * b ->
  fl_le (rn a b) (rn a' b').
Proof.
  intros a b a' b' Ha Hb Ha' Hb' H.
  rewrite !rn_form by lia.
  destruct (rn_exp_spec a b Ha Hb) as [N [U L]]. destruct (rn_exp_spec a' b' Ha' Hb') as [N' [U' L']].
  set (e := rn_exp a b) in *. set (e' := rn_exp a' b') in *.
  pose proof (den_pos b e Hb) as Y. pose proof (den_pos b' e' Hb') as Y'.
  assert (C : e <= e').
  { destruct (Z_le_gt_dec e (-1074)); [lia|].
    apply (exp_order a b a' b'); [exact Hb | exact Hb' | apply L; lia | exact U' | exact H]. }
  unfold fl_le. rewrite Z.min_l, Z.sub_diag, Z.pow_0_r, Z.mul_1_r by exact C.
  destruct (Z.eq_dec e e') as [E|E].
  - rewrite <- E in *. rewrite Z.sub_diag, Z.pow_0_r, Z.mul_1_r.
    apply rne_div_mono_frac; [exact Y | exact Y' |].
    pose proof (Z.mul_pos_pos _ _ (dn_pos e) (up_pos e)) as DU. clear - H DU. nia.
  - (* the mantissa on the left is at most 2^53, the one on the right at least 2^52 and weighs 2^(e'-e) >= 2 *)
    assert (M : rne_div (a * dn e) (b * up e) <= 2 ^ 53) by (apply rne_div_le_bound; [exact Y | lia]).
    assert (M' : 2 ^ 52 <= rne_div (a' * dn e') (b' * up e')) by (apply rne_div_ge_bound; [exact Y' | apply L'; lia]).
    assert (K : 2 ^ 1 <= 2 ^ (e' - e)) by (apply Z.pow_le_mono_r; lia).
    clear - M M' K. nia.
Qed.

Definition fl_opp (x : fl) : fl := let 'F m e := x in F (- m) e.

Lemma rn_opp : forall a b, 0 < b -> rn (- a) b = fl_opp (rn a b).
Proof.
  intros a b Hb. destruct (Z.eq_dec a 0) as [->|N]; [reflexivity|].
  rewrite !rn_form by lia. rewrite (rn_exp_abs (- a)), Z.abs_opp, <- rn_exp_abs. simpl. f_equal.
  rewrite Z.mul_opp_l. apply rne_div_opp, den_pos, Hb.
Qed.

Lemma fl_le_opp : forall x y, fl_le x y -> fl_le (fl_opp y) (fl_opp x).
Proof.
  intros [m e] [m' e'] H. unfold fl_le, fl_opp in *. rewrite (Z.min_comm e' e). lia.
Qed.

Lemma rn_nonneg : forall a b, 0 <= a -> 0 < b -> exists m e, rn a b = F m e /\ 0 <= m.
Proof.
  intros a b Ha Hb. destruct (Z.eq_dec a 0) as [E|E].
  - subst. exists 0, 0. split; [reflexivity | lia].
  - rewrite rn_form by exact E. eexists. eexists. split; [reflexivity|].
    apply rne_div_ge_bound; [apply den_pos; exact Hb | pose proof (dn_pos (rn_exp a b)); nia].
Qed.

Lemma fl_le_zero_nonneg : forall m e m' e', m <= 0 -> 0 <= m' -> fl_le (F m e) (F m' e').
Proof.
  intros m e m' e' H H'. unfold fl_le.
  assert (0 < 2 ^ (e - Z.min e e')) by (apply Z.pow_pos_nonneg; lia).
  assert (0 < 2 ^ (e' - Z.min e e')) by (apply Z.pow_pos_nonneg; lia). nia.
Qed.

Lemma rn_mono : forall a a' b, 0 < b -> a <= a' -> fl_le (rn a b) (rn a' b).
Proof.
  intros a a' b Hb H.
  destruct (Z_lt_le_dec 0 a) as [Pa|Na].
  - apply rn_mono_pos; try lia. nia.
  - destruct (Z_lt_le_dec a' 0) as [Na'|Pa'].
    + (* both negative *)
      replace a with (- - a) by ring. replace a' with (- - a') by ring.
      rewrite (rn_opp (- a) b Hb), (rn_opp (- a') b Hb). apply fl_le_opp.
      apply rn_mono_pos; try lia. nia.
    + (* a <= 0 <= a' *)
      destruct (rn_nonneg a' b Pa' Hb) as [m' [e' [E' M']]]. rewrite E'.
      destruct (rn_nonneg (- a) b ltac:(lia) Hb) as [m [e [E M]]].
      replace a with (- - a) by ring. rewrite (rn_opp (- a) b Hb), E. simpl.
      apply fl_le_zero_nonneg; lia.
Qed.

(* to_seconds preserves the order of timedeltas and of aware datetimes (ALL values) *)
Theorem to_seconds_td_mono : forall n n', n <= n' -> fl_le (to_seconds_td n) (to_seconds_td n').
Proof. intros n n' H. apply rn_mono; [reflexivity | exact H]. Qed.

Theorem to_seconds_dt_mono : forall d d', d <= d' -> fl_le (to_seconds_dt d) (to_seconds_dt d').
Proof. intros d d' H. apply to_seconds_td_mono. unfold dt_minus_epoch, utc_zero. lia. Qed.

Lemma rn_exp_scale2 : forall a b k, a <> 0 -> 0 < b -> 0 <= k ->
  rn_exp (a * 2 ^ k) (b * 2 ^ k) = rn_exp a b.
Proof.
  intros a b k Ha Hb Hk. assert (Pk : 0 < 2 ^ k) by (apply Z.pow_pos_nonneg; lia).
  rewrite (rn_exp_abs a), rn_exp_abs, Z.abs_mul, (Z.abs_eq (2 ^ k)) by lia.
  destruct (rn_exp_spec (Z.abs a) b ltac:(lia) Hb) as [N [U L]].
  apply rn_exp_unique; [nia | nia |]. set (e := rn_exp (Z.abs a) b) in *. set (A := Z.abs a) in *.
  split; [exact N|]. split; [|intros C; specialize (L C)]; clear - U L Pk; nia.
Qed.

Lemma rn_scale2 : forall a b k, 0 < b -> 0 <= k -> rn (a * 2 ^ k) (b * 2 ^ k) = rn a b.
Proof.
  intros a b k Hb Hk. assert (Pk : 0 < 2 ^ k) by (apply Z.pow_pos_nonneg; lia).
  destruct (Z.eq_dec a 0) as [->|N]; [reflexivity|].
  rewrite !rn_form by nia. rewrite rn_exp_scale2 by assumption. set (e := rn_exp a b). f_equal.
  rewrite (Z.mul_shuffle0 a), (Z.mul_shuffle0 b).
  apply rne_div_scale; [apply den_pos; exact Hb | exact Pk].
Qed.

(* contribution of the fractional part mf / P, P = 2^s *)
Definition contrib (mf P : Z) : Z := fl_rhe (rn (mf * us_per_s) P).

Lemma contrib_zero : forall P, contrib 0 P = 0.
Proof. intros P. reflexivity. Qed.

Lemma us_of_float_form : forall m e, e < 0 ->
  us_of_float (F m e) = Z.quot m (2 ^ (- e)) * us_per_s + contrib (Z.rem m (2 ^ (- e))) (2 ^ (- e)).
Proof.
  intros m e He. unfold us_of_float, fl_trunc, fl_frac, fl_mul_us, contrib.
  assert (A : (e <? 0) = true) by (apply Z.ltb_lt; exact He). rewrite !A. reflexivity.
Qed.

Lemma us_of_float_form_nonneg : forall m e, 0 <= e -> us_of_float (F m e) = m * 2 ^ e * us_per_s.
Proof.
  intros m e He. unfold us_of_float, fl_trunc, fl_frac.
  destruct (Z.ltb_spec e 0); [lia|]. replace (fl_rhe (fl_mul_us (F 0 0))) with 0 by reflexivity. ring.
Qed.

(* truncating division, as modf does it: the remainder has the sign of the dividend *)
Lemma quot_rem_split : forall m P, 0 < P ->
  m = P * Z.quot m P + Z.rem m P /\ Z.abs (Z.rem m P) < P /\
  (0 <= m -> 0 <= Z.rem m P) /\ (m <= 0 -> Z.rem m P <= 0).
Proof.
  intros m P HP. split; [apply Z.quot_rem'|]. split; [pose proof (Z.rem_bound_abs m P); lia|].
  split; intros Hm; [apply Z.rem_nonneg | apply Z.rem_nonpos]; lia.
Qed.

Lemma us_of_float_split : forall m e, e < 0 -> exists q r,
  m = 2 ^ (- e) * q + r /\ Z.abs r < 2 ^ (- e) /\ us_of_float (F m e) = q * us_per_s + contrib r (2 ^ (- e)).
Proof.
  intros m e He. assert (HP : 0 < 2 ^ (- e)) by (apply Z.pow_pos_nonneg; lia).
  destruct (quot_rem_split m (2 ^ (- e)) HP) as [Hm [Hr _]].
  exists (Z.quot m (2 ^ (- e))), (Z.rem m (2 ^ (- e))).
  split; [exact Hm|]. split; [exact Hr | apply us_of_float_form; exact He].
Qed.

(* a proper fraction r / 2^s times 10^6 has its last place at 2^-t, t >= 33: the product is rounded to a multiple
   of 2^-t, and that to an integer *)
Lemma contrib_twice : forall r s, 0 <= s -> r <> 0 -> Z.abs r < 2 ^ s ->
  exists t, 33 <= t /\ contrib r (2 ^ s) = rne_div (rne_div (r * us_per_s * 2 ^ t) (2 ^ s)) (2 ^ t).
Proof.
  intros r s Hs Hnz Hr. pose proof (rn_exp_frac r s Hs Hnz Hr) as HE.
  exists (- rn_exp (r * us_per_s) (2 ^ s)). split; [lia|].
  unfold contrib. rewrite rn_form by (unfold us_per_s; lia). set (E := rn_exp _ _) in *.
  destruct (updn_nonpos E) as [-> ->]; [lia|]. rewrite Z.mul_1_r.
  unfold fl_rhe. destruct (Z.ltb_spec E 0); [reflexivity | lia].
Qed.

(* error at most (1/2 + 2^-34) us, stated on integers after multiplying by 2^s *)
Lemma contrib_err : forall r s, 0 <= s -> Z.abs r < 2 ^ s ->
  2 ^ 33 * (2 * Z.abs (contrib r (2 ^ s) * 2 ^ s - r * us_per_s) - 2 ^ s) <= 2 ^ s.
Proof.
  intros r s Hs Hr. assert (HP : 0 < 2 ^ s) by (apply Z.pow_pos_nonneg; lia).
  destruct (Z.eq_dec r 0) as [->|Hnz]; [rewrite contrib_zero; lia|].
  destruct (contrib_twice r s Hs Hnz Hr) as [t [Ht ->]].
  assert (HT : 2 ^ 33 <= 2 ^ t) by (apply Z.pow_le_mono_r; lia).
  pose proof (rne_div_twice (r * us_per_s) (2 ^ s) (2 ^ t) HP ltac:(lia)) as D.
  set (y := 2 * Z.abs _ - 2 ^ s) in *. clearbody y. clear - D HT HP. nia.
Qed.

Lemma contrib_range : forall r s, 0 <= s -> Z.abs r < 2 ^ s ->
  (0 <= r -> 0 <= contrib r (2 ^ s) <= us_per_s) /\ (r <= 0 -> - us_per_s <= contrib r (2 ^ s) <= 0).
Proof.
  intros r s Hs Hr. pose proof (contrib_err r s Hs Hr) as E.
  set (c := contrib r (2 ^ s)) in *. set (P := 2 ^ s) in *. unfold us_per_s in *.
  assert (D : Z.abs (c * P - r * 1000000) < P) by lia. clear E. apply Z.abs_lt in D, Hr. nia.
Qed.

(* x = m * 2^e, e < 0.  us_of_float x * 2^-e  vs  m * 10^6 : the distance is at most (1/2 + 2^-34) * 2^-e *)
Theorem us_of_float_close : forall m e, e < 0 ->
  2 ^ 33 * (2 * Z.abs (us_of_float (F m e) * 2 ^ (- e) - m * us_per_s) - 2 ^ (- e)) <= 2 ^ (- e).
Proof.
  intros m e He. destruct (us_of_float_split m e He) as [q [r [-> [Hr ->]]]].
  pose proof (contrib_err r (- e) ltac:(lia) Hr) as C.
  replace ((q * us_per_s + contrib r (2 ^ (- e))) * 2 ^ (- e) - (2 ^ (- e) * q + r) * us_per_s)
    with (contrib r (2 ^ (- e)) * 2 ^ (- e) - r * us_per_s) by ring.
  exact C.
Qed.

(* hence the result is n whenever x * 10^6 is closer than 1/2 - 2^-34 to the integer n: an integer less than 1
   away from n is n *)
Lemma us_of_float_near : forall m e n, e < 0 ->
  2 ^ 33 * (2 * Z.abs (m * us_per_s - n * 2 ^ (- e))) < (2 ^ 33 - 1) * 2 ^ (- e) -> us_of_float (F m e) = n.
Proof.
  intros m e n He H. pose proof (us_of_float_close m e He) as C.
  apply Zminus_eq, (abs_mul_lt_one _ (2 ^ (- e))). set (P := 2 ^ (- e)) in *. lia.
Qed.

(* microseconds -> float seconds (total_seconds) -> microseconds (timedelta(seconds=) /
   fromtimestamp): exact below 2^33 s.  The seconds value m * 2^e is within 1/2 us of n, and that is less than
   1/2 - 2^-34 of a unit 2^e <= 2^-20 s. *)
Theorem roundtrip_us : forall n, Z.abs n < 2 ^ 33 * us_per_s ->
  us_of_float (to_seconds_td n) = n.
Proof.
  intros n Hb. unfold to_seconds_td. destruct (Z.eq_dec n 0) as [->|Hz]; [reflexivity|]. rewrite rn_form by exact Hz.
  pose proof (rn_exp_seconds n Hz Hb) as He. set (e := rn_exp n us_per_s) in *.
  destruct (updn_nonpos e) as [-> ->]; [lia|]. rewrite Z.mul_1_r.
  pose proof (rne_div_err (n * 2 ^ (- e)) us_per_s eq_refl) as Hm. set (m := rne_div _ _) in *.
  assert (HP : 2 ^ 20 <= 2 ^ (- e)) by (apply Z.pow_le_mono_r; lia).
  apply us_of_float_near; [lia|]. set (P := 2 ^ (- e)) in *. clearbody P. unfold us_per_s in *. clear - Hm HP. lia.
Qed.

(* float -> microseconds preserves the order of the floats that denote microsecond counts
   (the doubles nearest to n / 10^6, |n| < 2^33 * 10^6) *)
Theorem us_of_float_mono_aligned : forall n n',
  Z.abs n < 2 ^ 33 * us_per_s -> Z.abs n' < 2 ^ 33 * us_per_s -> n <= n' ->
  us_of_float (to_seconds_td n) <= us_of_float (to_seconds_td n').
Proof. intros n n' H H' L. rewrite !roundtrip_us by assumption. exact L. Qed.

(* float seconds -> microseconds is monotone for ALL floats: a function of floats that does not change when
   the same value is written with a smaller exponent (shift_invariant) and is monotone in the mantissa at each
   exponent (mono_same_exp) is monotone; fl_rhe and us_of_float are both such *)
Definition shift_invariant (f : fl -> Z) : Prop :=
  forall m e j, 0 <= j -> f (F (m * 2 ^ j) (e - j)) = f (F m e).
Definition mono_same_exp (f : fl -> Z) : Prop :=
  forall k M M', M <= M' -> f (F M k) <= f (F M' k).

Lemma mono_by_common_exponent : forall f, shift_invariant f -> mono_same_exp f ->
  forall x y, fl_le x y -> f x <= f y.
Proof.
  intros f Hs Hm [m e] [m' e'] H. unfold fl_le in H. set (k := Z.min e e') in *.
  rewrite <- (Hs m e (e - k)) by lia. rewrite <- (Hs m' e' (e' - k)) by lia.
  replace (e - (e - k)) with k by lia. replace (e' - (e' - k)) with k by lia.
  apply Hm. exact H.
Qed.

Lemma pow2_split : forall m e j, 0 <= e -> e - j < 0 -> m * 2 ^ j = m * 2 ^ e * 2 ^ (- (e - j)).
Proof. intros m e j He Hj. rewrite <- Z.mul_assoc, <- Z.pow_add_r by lia. do 2 f_equal. lia. Qed.

Lemma pow2_join : forall m e j, 0 <= j -> 0 <= e - j -> m * 2 ^ j * 2 ^ (e - j) = m * 2 ^ e.
Proof. intros m e j Hj He. rewrite <- Z.mul_assoc, <- Z.pow_add_r by lia. do 2 f_equal. lia. Qed.

Lemma fl_rhe_shift : shift_invariant fl_rhe.
Proof.
  intros m e j Hj. unfold fl_rhe. assert (Pj : 0 < 2 ^ j) by (apply Z.pow_pos_nonneg; lia).
  destruct (Z.ltb_spec (e - j) 0); destruct (Z.ltb_spec e 0); try lia.
  - replace (- (e - j)) with (- e + j) by lia. rewrite Z.pow_add_r by lia.
    apply rne_div_scale; [apply Z.pow_pos_nonneg; lia | exact Pj].
  - rewrite (pow2_split m e j) by lia. apply rne_div_exact. apply Z.pow_pos_nonneg; lia.
  - apply pow2_join; lia.
Qed.

Lemma fl_rhe_same_exp : mono_same_exp fl_rhe.
Proof.
  intros k M M' H. unfold fl_rhe. destruct (k <? 0) eqn:A.
  - apply rne_div_mono; [apply Z.pow_pos_nonneg; apply Z.ltb_lt in A; lia | exact H].
  - apply Z.ltb_ge in A. assert (0 < 2 ^ k) by (apply Z.pow_pos_nonneg; lia). nia.
Qed.

Lemma fl_rhe_mono : forall x y, fl_le x y -> fl_rhe x <= fl_rhe y.
Proof. apply mono_by_common_exponent; [exact fl_rhe_shift | exact fl_rhe_same_exp]. Qed.

Lemma contrib_mono : forall mf mf' P, 0 < P -> mf <= mf' -> contrib mf P <= contrib mf' P.
Proof.
  intros mf mf' P HP H. unfold contrib. apply fl_rhe_mono. apply rn_mono; [exact HP | unfold us_per_s; lia].
Qed.

Lemma us_of_float_shift : shift_invariant us_of_float.
Proof.
  intros m e j Hj. assert (Pj : 0 < 2 ^ j) by (apply Z.pow_pos_nonneg; lia).
  destruct (Z_lt_le_dec e 0) as [B|B].
  - (* both exponents negative *)
    rewrite (us_of_float_form _ (e - j)) by lia. rewrite (us_of_float_form m e) by lia.
    replace (- (e - j)) with (- e + j) by lia. rewrite Z.pow_add_r by lia.
    set (P := 2 ^ (- e)). assert (HP : 0 < P) by (apply Z.pow_pos_nonneg; lia).
    rewrite Z.quot_mul_cancel_r by lia. rewrite Z.mul_rem_distr_r by lia.
    unfold contrib. f_equal. f_equal.
    replace (Z.rem m P * 2 ^ j * us_per_s) with (Z.rem m P * us_per_s * 2 ^ j) by ring.
    apply rn_scale2; lia.
  - rewrite (us_of_float_form_nonneg m e) by lia.
    destruct (Z_lt_le_dec (e - j) 0) as [A|A].
    + rewrite us_of_float_form by lia.
      assert (HP : 0 < 2 ^ (- (e - j))) by (apply Z.pow_pos_nonneg; lia).
      rewrite (pow2_split m e j), Z.quot_mul, Z.rem_mul, contrib_zero by lia. ring.
    + rewrite us_of_float_form_nonneg, pow2_join by lia. reflexivity.
Qed.

Lemma us_of_float_same_exp : mono_same_exp us_of_float.
Proof.
  intros k M M' H. destruct (Z_lt_le_dec k 0) as [A|A].
  - rewrite !us_of_float_form by lia. set (P := 2 ^ (- k)).
    assert (HP : 0 < P) by (apply Z.pow_pos_nonneg; lia).
    destruct (quot_rem_split M P HP) as [QM [BM SM]]. destruct (quot_rem_split M' P HP) as [QM' [BM' SM']].
    pose proof (contrib_range (Z.rem M P) (- k) ltac:(lia) BM) as C.
    pose proof (contrib_range (Z.rem M' P) (- k) ltac:(lia) BM') as C'. fold P in C, C'.
    pose proof (Z.quot_le_mono M M' P HP H) as Hq.
    set (q := Z.quot M P) in *. set (q' := Z.quot M' P) in *.
    set (r := Z.rem M P) in *. set (r' := Z.rem M' P) in *.
    destruct (Z.eq_dec q q') as [E|E].
    + (* the same whole second: the remainders are ordered as M and M' *)
      rewrite <- E. assert (R : r <= r') by (clear - QM QM' E H HP; nia). pose proof (contrib_mono r r' P HP R) as Cm. clear - Cm. lia.
    + (* a whole second apart: the contributions, of the sign of M and M' and at most a second, cannot make up for it *)
      unfold us_per_s in *. clear - H Hq E SM SM' C C'. lia.
  - rewrite !us_of_float_form_nonneg by lia. assert (0 < 2 ^ k) by (apply Z.pow_pos_nonneg; lia).
    unfold us_per_s. nia.
Qed.

(* float seconds -> microseconds (fromtimestamp / timedelta(seconds=)) preserves order, ALL floats *)
Theorem us_of_float_mono : forall x y, fl_le x y -> us_of_float x <= us_of_float y.
Proof. apply mono_by_common_exponent; [exact us_of_float_shift | exact us_of_float_same_exp]. Qed.
