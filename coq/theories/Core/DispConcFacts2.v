(* The interleaving models of Core/DispConc.v: what the ghost call histories say.  Every theorem
   quantifies over ALL schedules, all per-thread programs and any number of threads.
   - generic: the ghost history of a thread is a prefix of its program ([hist_todo_progs]), thread
     count is constant, histories only grow; a call in progress is a state of the most recent call of
     the history ([cur_inv]); what is logged after a stable property of the shared state holds
     ([log_suffix_invariant]);
   - Disposable / BooleanDisposable ([reports_flag]): the flag is set as soon as some thread has started a
     dispose(), and every query answered from then on returns True ([reported_from_then_on]);
   - Disposable: the flag is set only by a dispose() call, and says at quiescence whether some program
     contains one;
   - CompositeDisposable: an action disposes no more occurrences of an item than its call holds;
   - SingleAssignmentDisposable without dispose(): every call is a single action and nothing is rejected
     while the slot is empty;
   - ScheduledDisposable: only a thread on which the scheduler invoked a queued action disposes. *)
From RxVerif Require Import Base.Prelude Core.Disposables Core.DisposablesFacts Core.DispConc Core.DispConcFacts.
Local Open Scope Z_scope.

Section Histories.
Context {Sh L O : Type}.
Variable start : O -> L.
Variable act : Sh -> L -> Sh * option L * list obs.
Notation thread := (@thread L O).
Notation config := (@config Sh L O).
Notation tstep := (@tstep Sh L O start act).
Notation crun := (@crun Sh L O start act).

Lemma next_frame_text : forall (t : thread) l todo hist,
  next_frame start t = Some (l, todo, hist) ->
  rev hist ++ todo = rev (t_hist t) ++ t_todo t /\ exists more, hist = more ++ t_hist t.
Proof.
  intros t l todo hist F. destruct (next_frame_cases start t l todo hist F) as [[_ [-> ->]]|[_ [o [-> [_ ->]]]]].
  - split; [reflexivity|exists []; reflexivity].
  - split; [cbn [rev]; rewrite <- app_assoc; reflexivity|exists [o]; reflexivity].
Qed.

(* the text of thread k: calls started so far (oldest first) followed by the calls not yet started *)
Definition text_inv (progs : list (list O)) (c : config) : Prop :=
  length (c_ths c) = length progs /\
  forall k t, nth_error (c_ths c) k = Some t -> nth_error progs k = Some (rev (t_hist t) ++ t_todo t).

Lemma text_inv_step : forall progs (c : config) tid, text_inv progs c -> text_inv progs (tstep c tid).
Proof.
  intros progs c tid [HL H]. apply tstep_elim; [split; assumption|]. intros t l todo hist s' l' out N F A.
  split; cbn [c_ths]; [rewrite set_nth_length; exact HL|].
  intros k t' N'. destruct (nth_error_set_nth_cases N') as [[-> ->]|[_ N2]]; [|apply (H k t' N2)].
  cbn [t_hist t_todo]. destruct (next_frame_text t l todo hist F) as [-> _]. apply (H tid t N).
Qed.

Lemma text_inv_init : forall s progs, text_inv progs (cinit s progs).
Proof.
  intros s progs. split; [apply map_length|].
  intros k t N. destruct (cinit_thread s progs k t N) as [p [Hp ->]]. exact Hp.
Qed.

(* the link between the ghost histories and the programs, every schedule, every moment *)
Theorem hist_todo_progs : forall s progs sched k t,
  nth_error (c_ths (crun (cinit s progs) sched)) k = Some t ->
  nth_error progs k = Some (rev (t_hist t) ++ t_todo t).
Proof.
  intros s progs sched k t.
  apply (crun_invariant start act (text_inv progs) (text_inv_step progs) sched _ (text_inv_init s progs)).
Qed.

Lemma hist_in_progs : forall s progs sched k t x,
  nth_error (c_ths (crun (cinit s progs) sched)) k = Some t -> In x (t_hist t) -> exists p, In p progs /\ In x p.
Proof.
  intros s progs sched k t x N I. exists (rev (t_hist t) ++ t_todo t).
  split; [exact (nth_error_In _ _ (hist_todo_progs s progs sched k t N))|].
  apply in_or_app. left. apply -> in_rev. exact I.
Qed.

Theorem ths_length : forall s progs sched,
  length (c_ths (crun (cinit s progs) sched)) = length progs.
Proof.
  intros s progs sched.
  apply (crun_invariant start act (text_inv progs) (text_inv_step progs) sched _ (text_inv_init s progs)).
Qed.

Lemma thread_of_prog : forall s progs sched k p,
  nth_error progs k = Some p ->
  exists t, nth_error (c_ths (crun (cinit s progs) sched)) k = Some t /\ p = rev (t_hist t) ++ t_todo t.
Proof.
  intros s progs sched k p N.
  destruct (nth_error (c_ths (crun (cinit s progs) sched)) k) as [t|] eqn:T.
  - exists t. split; [reflexivity|]. rewrite (hist_todo_progs s progs sched k t T) in N. congruence.
  - exfalso. apply nth_error_None in T. rewrite ths_length in T.
    assert (nth_error progs k <> None) as X by congruence. apply nth_error_Some in X. lia.
Qed.

Lemma hist_grows_step : forall (c : config) tid k t,
  nth_error (c_ths c) k = Some t ->
  exists t' more, nth_error (c_ths (tstep c tid)) k = Some t' /\ t_hist t' = more ++ t_hist t.
Proof.
  intros c tid k t N.
  apply (tstep_elim start act (fun c' => exists t' more, nth_error (c_ths c') k = Some t' /\ t_hist t' = more ++ t_hist t)).
  - exists t, []. split; [exact N|reflexivity].
  - intros t0 l todo hist s' l' out N0 F A. cbn [c_ths]. destruct (Nat.eq_dec k tid) as [->|NE].
    + rewrite N in N0. injection N0 as <-. destruct (next_frame_text t l todo hist F) as [_ [more ->]].
      exists (Thread l' todo (more ++ t_hist t)), more. split; [|reflexivity].
      apply nth_set_nth_eq. apply nth_error_Some. congruence.
    + exists t, []. split; [|reflexivity]. rewrite nth_set_nth_neq by exact NE. exact N.
Qed.

Lemma hist_grows : forall sched (c : config) k t,
  nth_error (c_ths c) k = Some t ->
  exists t' more, nth_error (c_ths (crun c sched)) k = Some t' /\ t_hist t' = more ++ t_hist t.
Proof.
  induction sched as [|tid s IH]; intros c k t N.
  - exists t, []. split; [exact N|reflexivity].
  - rewrite crun_cons. destruct (hist_grows_step c tid k t N) as [t1 [m1 [N1 H1]]].
    destruct (IH (tstep c tid) k t1 N1) as [t2 [m2 [N2 H2]]]. exists t2, (m2 ++ m1). split; [exact N2|].
    rewrite H2, H1, app_assoc. reflexivity.
Qed.

(* a property of the shared state that every action preserves, with a property of everything that is
   logged while it holds *)
Lemma log_suffix_run : forall (P : Sh -> Prop) (Q : obs -> Prop),
  (forall s l, P s -> P (fst (fst (act s l))) /\ forall o, In o (snd (act s l)) -> Q o) ->
  forall sched (c : config), P (c_sh c) ->
  exists more, c_log (crun c sched) = c_log c ++ more /\
    P (c_sh (crun c sched)) /\ forall tid o, In (tid, o) more -> Q o.
Proof.
  intros P Q Hs sched c HP.
  apply (crun_invariant start act (fun c' => exists more, c_log c' = c_log c ++ more /\ P (c_sh c') /\
                                                        forall tid o, In (tid, o) more -> Q o)).
  - intros c' t [more [E [HP' HQ]]]. apply tstep_elim; [exists more; auto|].
    intros t0 l todo hist s' l' out _ _ A. destruct (Hs (c_sh c') l HP') as [HP1 HQ1]. rewrite A in HP1, HQ1.
    exists (more ++ map (pair t) out). cbn [c_log c_sh]. split; [rewrite E, app_assoc; reflexivity|].
    split; [exact HP1|]. intros tid o I. apply in_app_or in I. destruct I as [I|I]; [apply (HQ tid o I)|].
    apply in_map_iff in I. destruct I as [o' [X I]]. injection X as _ <-. apply HQ1, I.
  - exists []. rewrite app_nil_r. split; [reflexivity|]. split; [exact HP|intros tid o []].
Qed.

Lemma log_suffix_invariant : forall (P : Sh -> Prop) (Q : obs -> Prop),
  (forall s l, P s -> P (fst (fst (act s l))) /\ forall o, In o (snd (act s l)) -> Q o) ->
  forall sched (c : config) more,
  P (c_sh c) -> c_log (crun c sched) = c_log c ++ more ->
  P (c_sh (crun c sched)) /\ forall tid o, In (tid, o) more -> Q o.
Proof.
  intros P Q Hs sched c more HP HL. destruct (log_suffix_run P Q Hs sched c HP) as [m [E [HP' HQ]]].
  rewrite E in HL. apply app_inv_head in HL. subst m. split; assumption.
Qed.

(* a call, once started, stays in the history: a witness "some thread has started call x" persists *)
Lemma hist_witness_step : forall (c : config) tid x,
  (exists k t, nth_error (c_ths c) k = Some t /\ In x (t_hist t)) ->
  exists k t, nth_error (c_ths (tstep c tid)) k = Some t /\ In x (t_hist t).
Proof.
  intros c tid x [k [t [N I]]]. destruct (hist_grows_step c tid k t N) as [t' [more [N' H']]].
  exists k, t'. split; [exact N'|]. rewrite H'. apply in_or_app. right. exact I.
Qed.

(* the local states a call [o] can be in: its first action's, and whatever an action leads to *)
Inductive in_call (o : O) : L -> Prop :=
| ic_start : in_call o (start o)
| ic_step : forall s l s' l' out, in_call o l -> act s l = (s', Some l', out) -> in_call o l'.

(* a call in progress is a state of the most recent call of the thread's history *)
Definition cur_inv (c : config) : Prop :=
  forall k t l, nth_error (c_ths c) k = Some t -> t_cur t = Some l ->
    exists o rest, t_hist t = o :: rest /\ in_call o l.

Lemma frame_in_call : forall (t : thread) l todo hist,
  (forall l0, t_cur t = Some l0 -> exists o rest, t_hist t = o :: rest /\ in_call o l0) ->
  next_frame start t = Some (l, todo, hist) -> exists o rest, hist = o :: rest /\ in_call o l.
Proof.
  intros t l todo hist H F. destruct (next_frame_cases start t l todo hist F) as [[C [_ ->]]|[_ [o [_ [-> ->]]]]].
  - apply H, C.
  - exists o, (t_hist t). split; [reflexivity|apply ic_start].
Qed.

Lemma cur_inv_step : forall (c : config) tid, cur_inv c -> cur_inv (tstep c tid).
Proof.
  intros c tid H. apply tstep_elim; [exact H|]. intros t l todo hist s' l' out N F A.
  unfold cur_inv. cbn [c_ths]. intros k t' l1 N' C'.
  destruct (nth_error_set_nth_cases N') as [[-> ->]|[_ N2]]; [|apply (H k t' l1 N2 C')].
  cbn [t_cur t_hist] in *. subst l'.
  destruct (frame_in_call t l todo hist (fun l0 => H tid t l0 N) F) as [o [rest [-> IC]]].
  exists o, rest. split; [reflexivity|]. apply (ic_step o (c_sh c) l s' l1 out IC A).
Qed.

Lemma cur_inv_run : forall s progs sched, cur_inv (crun (cinit s progs) sched).
Proof.
  intros s progs sched. apply (crun_invariant start act cur_inv cur_inv_step).
  intros k t l N C. destruct (cinit_thread s progs k t N) as [p [_ ->]]. discriminate C.
Qed.
End Histories.

(* a flag that only the actions of one kind of call [o0] set *)
Section FlagCalled.
Context {Sh L O : Type}.
Variable start : O -> L.
Variable act : Sh -> L -> Sh * option L * list obs.
Variable flag : Sh -> bool.
Variable o0 : O.
Hypothesis sets : forall s l s' l' out o,
  act s l = (s', l', out) -> flag s = false -> flag s' = true -> in_call start act o l -> o = o0.

Definition flag_inv (c : @config Sh L O) : Prop :=
  cur_inv start act c /\
  (flag (c_sh c) = true -> exists k t, nth_error (c_ths c) k = Some t /\ In o0 (t_hist t)).

Lemma flag_inv_step : forall c tid, flag_inv c -> flag_inv (tstep start act c tid).
Proof.
  intros c tid [CI HF]. split; [apply cur_inv_step, CI|].
  (* [tstep_elim] rewrites the step in the goal only: what is known about the step goes into the goal first *)
  pose proof (hist_witness_step start act c tid o0) as KEEP. revert KEEP.
  pattern (tstep start act c tid). apply tstep_elim; [intros _; exact HF|].
  intros t l todo hist s' l' out N F A KEEP. cbn [c_sh c_ths] in *. intros F'.
  destruct (flag (c_sh c)) eqn:F0; [apply KEEP, HF; reflexivity|].
  (* the flag is set by this action: the acting thread is inside a call o0 *)
  destruct (frame_in_call start act t l todo hist (fun l0 => CI tid t l0 N) F) as [o [rest [Hh IC]]].
  rewrite (sets _ _ _ _ _ _ A F0 F' IC) in Hh.
  exists tid, (Thread l' todo hist). split; [apply nth_set_nth_eq; apply nth_error_Some; congruence|].
  cbn [t_hist]. rewrite Hh. left. reflexivity.
Qed.

(* the flag, once set, is witnessed by a call [o0] in some thread's history *)
Theorem flag_called : forall s progs sched, flag s = false ->
  let c := crun start act (cinit s progs) sched in
  flag (c_sh c) = true -> exists k t, nth_error (c_ths c) k = Some t /\ In o0 (t_hist t).
Proof.
  intros s progs sched F0. apply (crun_invariant start act flag_inv flag_inv_step).
  split; [apply (cur_inv_run start act s progs [])|]. cbn [cinit c_sh]. congruence.
Qed.
End FlagCalled.

(* a boolean flag that the first action of dispose() sets, nothing resets, and queries report *)
Definition reports_flag {L} (start : dop -> L) (act : dstate -> L -> dstate * option L * list obs) : Prop :=
  (forall s l, fst (fst (act s l)) = false -> s = false) /\
  (forall s, fst (fst (act s (start DDispose))) = true) /\
  (forall l b, In (OBool b) (snd (act true l)) -> b = true).

Section Reports.
Context {L : Type}.
Variable start : dop -> L.
Variable act : dstate -> L -> dstate * option L * list obs.
Hypothesis flag_ok : reports_flag start act.

Definition rep_inv (c : @config dstate L dop) : Prop :=
  c_sh c = false -> forall k t, nth_error (c_ths c) k = Some t -> ~ In DDispose (t_hist t).

Lemma rep_inv_step : forall c tid, rep_inv c -> rep_inv (tstep start act c tid).
Proof.
  destruct flag_ok as [no_reset [first_sets _]].
  intros c tid H. apply tstep_elim; [exact H|]. intros t l todo hist s' l' out N F A.
  unfold rep_inv in *. cbn [c_sh c_ths]. intros S' k t' N'.
  assert (c_sh c = false) as S0. { apply (no_reset (c_sh c) l). rewrite A. exact S'. }
  destruct (nth_error_set_nth_cases N') as [[-> ->]|[_ N2]]; [|apply (H S0 k t' N2)].
  cbn [t_hist]. destruct (next_frame_cases _ _ _ _ _ F) as [[_ [_ ->]]|[_ [o [_ [-> ->]]]]]; [apply (H S0 tid t N)|].
  (* a call is started: were it a dispose(), the flag would be set now *)
  intros [X|X]; [|apply (H S0 tid t N X)].
  subst o. pose proof (first_sets (c_sh c)) as FS. rewrite A in FS. cbn [fst] in FS. congruence.
Qed.

(* once ANY thread has executed the first action of a dispose() call -- a fortiori once any dispose()
   returned -- is_disposed is True, and it stays True *)
Theorem reports_disposed : forall progs sched k t,
  let c := crun start act (cinit d_init progs) sched in
  nth_error (c_ths c) k = Some t -> In DDispose (t_hist t) -> c_sh c = true.
Proof.
  intros progs sched k t c N I.
  assert (rep_inv c) as R.
  { unfold c. apply (crun_invariant start act rep_inv rep_inv_step). intros _ k0 t0 N0.
    destruct (cinit_thread _ _ _ _ N0) as [p [_ ->]]. intros []. }
  destruct (c_sh c) eqn:S; [reflexivity|]. exfalso. exact (R S k t N I).
Qed.

(* once some thread has started a dispose() (after s1): every query answered from then on, by any thread, under
   any continuation s2 of the schedule, returns True *)
Theorem reported_from_then_on : forall progs s1 s2 k t more tid b,
  nth_error (c_ths (crun start act (cinit d_init progs) s1)) k = Some t -> In DDispose (t_hist t) ->
  c_log (crun start act (cinit d_init progs) (s1 ++ s2)) = c_log (crun start act (cinit d_init progs) s1) ++ more ->
  In (tid, OBool b) more -> b = true.
Proof.
  intros progs s1 s2 k t more tid b N I HL IM. rewrite crun_app in HL. destruct flag_ok as [no_reset [_ answers]].
  destruct (log_suffix_invariant start act (fun s => s = true) (fun o => forall b, o = OBool b -> b = true))
    with (sched := s2) (c := crun start act (cinit d_init progs) s1) (more := more) as [_ R];
    [|exact (reports_disposed progs s1 k t N I)|exact HL|exact (R tid (OBool b) IM b eq_refl)].
  intros s l ->. split.
  - destruct (fst (fst (act true l))) eqn:E; [reflexivity|]. discriminate (no_reset true l E).
  - intros o I0 b0 ->. exact (answers l b0 I0).
Qed.
End Reports.

Lemma dd_reports_flag : reports_flag dd_start dd_act.
Proof.
  split; [|split].
  - intros s l. destruct l, s; cbn; congruence.
  - intros s. destruct s; reflexivity.
  - intros l b X. destruct l; cbn in X; intuition congruence.
Qed.

Lemma bd_reports_flag : reports_flag bd_start bd_act.
Proof.
  split; [|split].
  - intros s l. destruct l, s; cbn; congruence.
  - intros s. reflexivity.
  - intros l b X. destruct l; cbn in X; intuition congruence.
Qed.

Theorem disposable_conc_reports : forall progs sched k t,
  let c := dd_run progs sched in
  nth_error (c_ths c) k = Some t -> In DDispose (t_hist t) -> c_sh c = true.
Proof. exact (reports_disposed dd_start dd_act dd_reports_flag). Qed.

(* converse of [disposable_conc_reports]: the flag is only ever set by a dispose() call *)
Theorem disposable_conc_flag_called : forall progs sched,
  let c := dd_run progs sched in
  c_sh c = true -> exists k t, nth_error (c_ths c) k = Some t /\ In DDispose (t_hist t).
Proof.
  intros progs sched. apply (flag_called dd_start dd_act (fun s => s) DDispose); [|reflexivity].
  intros s l s' l' out o A F0 F' IC.
  (* only the locked block changes the flag *)
  assert (l = DL_lock) as -> by (destruct l; cbn in A; [reflexivity|..]; injection A as <- _ _; congruence).
  (* no action leads to the locked block: it is the first action of a dispose() *)
  inversion IC as [E|s0 l0 s1 l1 out0 _ A0 E]; [destruct o; [reflexivity|discriminate E]|].
  destruct l0, s0; discriminate A0.
Qed.

Lemma existsb_is_ddispose : forall p, existsb is_ddispose p = true <-> In DDispose p.
Proof.
  intros p. rewrite existsb_exists. split.
  - intros [o [I X]]. destruct o; [exact I|discriminate X].
  - intros I. exists DDispose. split; [exact I|reflexivity].
Qed.

(* the flag, once all calls have returned, says whether any program contains a dispose() *)
Theorem disposable_conc_flag_iff_called : forall progs sched,
  let c := dd_run progs sched in
  (c_sh c = true -> existsb (existsb is_ddispose) progs = true) /\
  (quiescent c = true -> c_sh c = existsb (existsb is_ddispose) progs).
Proof.
  intros progs sched c.
  assert (c_sh c = true -> existsb (existsb is_ddispose) progs = true) as D1.
  { intros S. destruct (disposable_conc_flag_called progs sched S) as [k [t [N I]]].
    destruct (hist_in_progs dd_start dd_act d_init progs sched k t _ N I) as [p [Ip Xp]].
    apply existsb_exists. exists p. split; [exact Ip|apply existsb_is_ddispose, Xp]. }
  split; [exact D1|]. intros Q.
  destruct (existsb (existsb is_ddispose) progs) eqn:X.
  - apply existsb_exists in X. destruct X as [p [Ip Xp]]. apply existsb_is_ddispose in Xp.
    apply In_nth_error in Ip. destruct Ip as [k Nk].
    destruct (thread_of_prog dd_start dd_act d_init progs sched k p Nk) as [t [Nt ->]].
    fold (dd_run progs sched) in Nt. fold c in Nt.
    destruct (quiescent_thread c t Q (nth_error_In _ _ Nt)) as [_ TD]. rewrite TD, app_nil_r in Xp. apply in_rev in Xp.
    apply (disposable_conc_reports progs sched k t Nt Xp).
  - destruct (c_sh c) eqn:S; [|reflexivity]. specialize (D1 eq_refl). discriminate D1.
Qed.

(* an action emits no more dispose() calls on i than the occurrences of i the acting call holds *)
Lemma cc_out_le_pl : forall i s l, zdisp i (snd (cc_act s l)) <= cc_pl i l.
Proof.
  intros i s l. destruct l as [o|o|l ret|o].
  - destruct o; cbn [cc_act cc_pl]; try destruct (c_disposed s); cbn [snd];
      rewrite ?zdisp_cons, ?zdisp_nil; cbn [is_disp]; lia.
  - pose proof (cc_pl_nonneg i (CL_lock o)) as NN.
    destruct o as [j|j| | |j| | |]; cbn [cc_act]; try exact NN.
    + destruct (c_disposed s); exact NN.
    + destruct (mem j (c_items s)); cbn [snd]; rewrite ?zdisp_cons, ?zdisp_nil; cbn [is_disp]; lia.
    + destruct (c_items s); exact NN.
    + destruct (c_items s); exact NN.
  - destruct l as [|x r]; cbn [cc_act cc_pl snd].
    + rewrite zcnt_nil. lia.
    + pose proof (zcnt_nonneg i r). pose proof (zcnt_nonneg i []).
      assert (0 <= zdisp i ret) by (unfold zdisp; lia).
      destruct r; cbn [calls snd]; rewrite zdisp_cons, zcnt_cons, ?zdisp_nil; cbn [is_disp];
        destruct (Nat.eqb i x); lia.
  - cbn [cc_act snd cc_pl]. destruct o; cbn [c_step snd]; rewrite ?zdisp_cons, ?zdisp_nil; cbn [is_disp]; lia.
Qed.

(* not held at the dispose: whenever a scheduled step makes an item that was handed over exactly once
   receive a dispose() call, the container holds it neither just before nor just after that step *)
Theorem composite_conc_not_held_at_dispose : forall l0 progs sched tid i,
  let c := cc_run l0 progs sched in
  let c' := tstep cc_start cc_act c tid in
  cc_total i l0 progs = 1 ->
  zdisp i (plain (c_log c')) = zdisp i (plain (c_log c)) + 1 ->
  mem i (c_items (c_sh c)) = false /\ mem i (c_items (c_sh c')) = false.
Proof.
  intros l0 progs sched tid i c c' T D.
  pose proof (composite_conc_conservation l0 progs sched i) as H. cbv zeta in H. fold c in H.
  pose proof (composite_conc_conservation l0 progs (sched ++ [tid]) i) as H'. cbv zeta in H'.
  unfold cc_run in H'. rewrite crun_app in H'. fold (cc_run l0 progs sched) in H'. fold c in H'.
  rewrite crun_cons, crun_nil in H'. fold c' in H'.
  pose proof (cc_in_flight_nonneg i c) as NF. pose proof (cc_in_flight_nonneg i c') as NF'.
  pose proof (zcnt_nonneg i (c_items (c_sh c))) as NC. pose proof (zcnt_nonneg i (c_items (c_sh c'))) as NC'.
  assert (0 <= zdisp i (plain (c_log c))) as ND by (unfold zdisp; lia).
  assert (1 <= cc_in_flight i c) as FL.
  { (* the acting thread holds the occurrence it disposes *)
    revert D. unfold c'. pattern (tstep cc_start cc_act c tid). apply tstep_elim; [lia|].
    intros t l todo hist s' l' out N F A. cbn [c_log]. rewrite plain_app, plain_tag, zdisp_app. intros D.
    pose proof (cc_out_le_pl i (c_sh c) l) as LE. rewrite A in LE. cbn [snd] in LE.
    pose proof (frame_le_in_flight cc_start (cc_pl i) (cc_adds i) (cc_start_ok i) (cc_pl_nonneg i) (cc_adds_nonneg i)
                  _ _ _ _ _ _ N F).
    unfold cc_in_flight. lia. }
  split; apply cnt_zero_not_mem; unfold zcnt in *; lia.
Qed.

(* while no dispose() is ever called, the container stays live, every call is a single action (no thread
   is ever parked inside a call), and nothing is rejected while the slot is empty *)
Definition sc_nodisp (c : @config xstate slocal sop) : Prop :=
  s_disposed (x_s (c_sh c)) = false /\
  (forall k t, nth_error (c_ths c) k = Some t -> ~ In SDispose (t_todo t) /\ t_cur t = None) /\
  (s_cur (x_s (c_sh c)) = None -> forall j, rejs j (plain (c_log c)) = 0%nat).

Lemma sc_nodisp_step : forall c tid, sc_nodisp c -> sc_nodisp (tstep sc_start (sc_act KSingle) c tid).
Proof.
  intros c tid [D [H R]]. apply tstep_elim; [split; [exact D|split; assumption]|].
  intros t l todo hist s' l' out N F A. destruct (H tid t N) as [T1 T2].
  destruct (next_frame_cases _ _ _ _ _ F) as [[C _]|[_ [o [TD [-> _]]]]]; [congruence|]. rewrite TD in T1.
  (* the first action of a call other than dispose(), on a live container *)
  destruct (sc_act_live KSingle (c_sh c) (sc_start o) s' l' out) as [D' [-> [_ R']]];
    [discriminate|exact D|destruct o; discriminate| |exact A|].
  { intros X. apply T1. left. destruct o; try discriminate X. reflexivity. }
  split; [exact D'|]. split; cbn [c_sh c_ths c_log].
  - intros k t' N'. destruct (nth_error_set_nth_cases N') as [[-> ->]|[_ N2]]; [|apply (H k t' N2)].
    cbn [t_todo t_cur]. split; [intros X; apply T1; right; exact X|reflexivity].
  - intros C j. destruct (R' eq_refl C) as [C0 R0]. rewrite plain_app, plain_tag, rejs_app, (R C0 j), (R0 j). reflexivity.
Qed.

Lemma sc_run_nodisp : forall progs sched,
  (forall p, In p progs -> ~ In SDispose p) -> sc_nodisp (sc_run KSingle progs sched).
Proof.
  intros progs sched NP. unfold sc_run.
  apply (crun_invariant sc_start (sc_act KSingle) sc_nodisp sc_nodisp_step). split; [reflexivity|]. split.
  - intros k t N. destruct (cinit_thread _ _ _ _ N) as [p [Hp ->]].
    split; [apply NP; eapply nth_error_In; exact Hp|reflexivity].
  - intros _ j. reflexivity.
Qed.

(* a thread inside inner.dispose() -- at its locked block or making the dispose() calls -- is a worker
   that was invoked by the scheduler (it logged ORun itself), and so is every thread that ever emitted a
   dispose() call *)
Definition hc_worker_inv (c : @config schstate schlocal schop) : Prop :=
  (forall tid t, nth_error (c_ths c) tid = Some t ->
     (t_cur t = Some HL_lock \/ exists l, t_cur t = Some (HL_calls l)) -> In (tid, ORun) (c_log c)) /\
  (forall tid i, In (tid, ODisp i) (c_log c) -> In (tid, ORun) (c_log c)).

(* an action that leads into inner.dispose() (its locked block, its dispose() calls) or emits a dispose()
   call is the scheduler invoking a queued action (ORun), or an action of inner.dispose() itself *)
Lemma hc_act_inner : forall s l s' l' out, hc_act s l = (s', l', out) ->
  (l' = Some HL_lock \/ (exists l0, l' = Some (HL_calls l0)) \/ exists i, In (ODisp i) out) ->
  In ORun out \/ l = HL_lock \/ exists l0, l = HL_calls l0.
Proof.
  intros s l s' l' out A X. destruct l as [| | |l0|]; [| |auto|eauto|]; cbn [hc_act] in A.
  - injection A as _ <- <-. destruct X as [X|[[l0 X]|[i [X|[]]]]]; discriminate X.
  - destruct (sch_queue s); injection A as _ <- <-; [|left; left; reflexivity].
    destruct X as [X|[[l0 X]|[i []]]]; discriminate X.
  - injection A as _ <- <-. destruct X as [X|[[l0 X]|[i [X|[]]]]]; discriminate X.
Qed.

Lemma hc_worker_inv_step : forall c tid, hc_worker_inv c -> hc_worker_inv (tstep hc_start hc_act c tid).
Proof.
  intros c tid [I1 I2]. apply tstep_elim; [split; assumption|]. intros t l todo hist s' l' out N F A.
  assert ((l' = Some HL_lock \/ (exists l0, l' = Some (HL_calls l0)) \/ exists i, In (ODisp i) out) ->
          In (tid, ORun) (c_log c ++ map (pair tid) out)) as KEY.
  { intros X. apply in_or_app. destruct (hc_act_inner _ _ _ _ _ A X) as [R|W]; [right; apply in_map; exact R|left].
    (* no call starts inside inner.dispose(): the acting thread was parked there, so it is a worker *)
    apply (I1 tid t N). destruct (next_frame_cases _ _ _ _ _ F) as [[C _]|[_ [o [_ [-> _]]]]].
    - rewrite C. destruct W as [->|[l0 ->]]; [left; reflexivity|right; exists l0; reflexivity].
    - exfalso. destruct W as [W|[l0 W]]; destruct o; discriminate W. }
  split; cbn [c_ths c_log].
  - intros k t' N' C'. destruct (nth_error_set_nth_cases N') as [[-> ->]|[_ N2]].
    + cbn [t_cur] in C'. apply KEY. destruct C' as [C'|C']; [left; exact C'|right; left; exact C'].
    + apply in_or_app. left. apply (I1 k t' N2 C').
  - intros k i I. apply in_app_or in I. destruct I as [I|I].
    + apply in_or_app. left. apply (I2 k i I).
    + apply in_map_iff in I. destruct I as [o [X I]]. injection X as <- ->. apply KEY. right. right.
      exists i. exact I.
Qed.

Lemma hc_run_worker_inv : forall w progs sched, hc_worker_inv (hc_run w progs sched).
Proof.
  intros. unfold hc_run. apply (crun_invariant hc_start hc_act hc_worker_inv hc_worker_inv_step). split.
  - intros tid t N C. destruct (cinit_thread _ _ _ _ N) as [p [_ ->]]. destruct C as [C|[l C]]; discriminate C.
  - intros tid i [].
Qed.
