(* The Observer base class (Core/ObserverBase.v) against AutoDetachObserver: [ob_agrees], the same stopped
   flag and the same effects once the wrapper's SubDispose is erased.  Then as_observer() ([lay_run_call], a
   second Observer in front of the first): with every call made on the view the two layers behave like one
   observer ([lay_ok_run_calls]). *)
From RxVerif Require Import Base.Prelude Ops.Machine Core.AutoDetach Core.AutoDetachFacts Core.ObserverBase.

Section Facts.
Context {A : Type}.

Lemma ob_run_list_eq (l : list (call A)) : forall st,
  (fix run_list (st : bool) (l : list (call A)) : bool * list (effect A) :=
     match l with
     | [] => (st, [])
     | c :: t => let '(st1, e1) := ob_run_call st c in
                 let '(st2, e2) := run_list st1 t in (st2, e1 ++ e2)
     end) st l = ob_run_calls st l.
Proof.
  induction l as [|c t IH]; intros st; [reflexivity|].
  cbn [ob_run_calls]. destruct (ob_run_call st c) as [st1 e1]. rewrite IH. reflexivity.
Qed.

Lemma ob_run_call_unfold st k during raises :
  ob_run_call st (Call k during raises) =
  match k return bool * list (effect A) with
  | KNext a =>
      if st then (st, [])
      else let '(st', es) := ob_run_calls st during in
           (st', Deliver (Next a) :: es ++ (if raises then [Raised EXN_CALLBACK] else []))
  | KError e =>
      if st then (st, [])
      else let '(_, es) := ob_run_calls true during in
           (true, Deliver (Err e) :: es ++ (if raises then [Raised EXN_CALLBACK] else []))
  | KCompleted =>
      if st then (st, [])
      else let '(_, es) := ob_run_calls true during in
           (true, Deliver Done :: es ++ (if raises then [Raised EXN_CALLBACK] else []))
  | KDispose => (true, [])
  | KFail e =>
      if st then (st, [FailReturned false])
      else let '(_, es) := ob_run_calls true during in
           (true, Deliver (Err e) :: es ++ (if raises then [Raised EXN_CALLBACK] else [FailReturned true]))
  end.
Proof. destruct k; cbn [ob_run_call]; rewrite ?ob_run_list_eq; reflexivity. Qed.

Lemma no_subdispose_app (a b : list (effect A)) :
  no_subdispose (a ++ b) = no_subdispose a ++ no_subdispose b.
Proof. apply filter_app. Qed.

Lemma no_subdispose_deliver (e : ev A) (l : list (effect A)) :
  no_subdispose (Deliver e :: l) = Deliver e :: no_subdispose l.
Proof. reflexivity. Qed.

Lemma no_subdispose_raised (raises : bool) (tl : list (effect A)) :
  no_subdispose ((if raises then [Raised EXN_CALLBACK] else []) ++ tl)
  = (if raises then [Raised EXN_CALLBACK] else []) ++ no_subdispose tl.
Proof. destruct raises; reflexivity. Qed.

Lemma delivered_no_subdispose (l : list (effect A)) : delivered (no_subdispose l) = delivered l.
Proof.
  induction l as [|e t IH]; [reflexivity|]. destruct e; cbn [no_subdispose filter delivered] in *;
    fold (no_subdispose t); now rewrite ?IH.
Qed.

(* Observer = AutoDetachObserver minus the subscription: same state, same
   effects once SubDispose is erased *)
Definition agrees (r1 r2 : bool * list (effect A)) : Prop :=
  fst r1 = fst r2 /\ snd r1 = no_subdispose (snd r2).

Lemma agrees_calls (l : list (call A)) :
  Forall (fun c => forall st, agrees (ob_run_call st c) (run_call st c)) l ->
  forall st, agrees (ob_run_calls st l) (run_calls st l).
Proof.
  induction 1 as [|c t Hc Ht IH]; intros st.
  - split; reflexivity.
  - cbn [ob_run_calls run_calls]. specialize (Hc st). unfold agrees in *.
    destruct (ob_run_call st c) as [s1 e1]. destruct (run_call st c) as [s1' e1'].
    cbn [fst snd] in Hc. destruct Hc as [-> ->].
    specialize (IH s1'). destruct (ob_run_calls s1' t) as [s2 e2]. destruct (run_calls s1' t) as [s2' e2'].
    cbn [fst snd] in *. destruct IH as [-> ->]. split; [reflexivity|]. now rewrite no_subdispose_app.
Qed.

Theorem ob_agrees_call (c : call A) : forall st, agrees (ob_run_call st c) (run_call st c).
Proof.
  induction c as [k during raises IH] using call_ind'. intros st.
  rewrite ob_run_call_unfold, run_call_unfold.
  pose proof (agrees_calls during IH) as Hd. unfold agrees in *.
  destruct k as [a|e| | |e]; [| | |split; reflexivity|]; (destruct st; [split; reflexivity|]).
  (* the nested calls run on a live observer under on_next, on a stopped one otherwise; the only
     difference is the wrapper's SubDispose, which [no_subdispose] erases *)
  all: match goal with |- context [run_calls ?b ?d] =>
         specialize (Hd b); destruct (ob_run_calls b d) as [s es]; destruct (run_calls b d) as [s' es'] end;
    cbn [fst snd] in *; destruct Hd as [Hs ->]; split; [first [exact Hs|reflexivity]|];
    rewrite no_subdispose_deliver, !no_subdispose_app; destruct raises; reflexivity.
Qed.

Theorem ob_agrees (h : list (call A)) (st : bool) :
  ob_run_calls st h = (fst (run_calls st h), no_subdispose (snd (run_calls st h))).
Proof.
  pose proof (agrees_calls h (proj2 (Forall_forall _ _) (fun c _ => ob_agrees_call c)) st) as [H1 H2].
  destruct (ob_run_calls st h) as [s es]. cbn [fst snd] in *. now rewrite H1, H2.
Qed.

Lemma lay_run_list_eq (l : list (call A)) : forall so si,
  (fix run_list (so si : bool) (l : list (call A)) : (bool * bool) * list (effect A) :=
     match l with
     | [] => ((so, si), [])
     | c :: t => let '((so1, si1), e1) := lay_run_call so si c in
                 let '(s2, e2) := run_list so1 si1 t in (s2, e1 ++ e2)
     end) so si l = lay_run_calls so si l.
Proof.
  induction l as [|c t IH]; intros so si; [reflexivity|].
  cbn [lay_run_calls]. destruct (lay_run_call so si c) as [[so1 si1] e1]. rewrite IH. reflexivity.
Qed.

Lemma lay_run_call_unfold so si k during raises :
  lay_run_call so si (Call k during raises) =
  match k return (bool * bool) * list (effect A) with
  | KNext a =>
      if so then ((so, si), [])
      else if si then ((so, si), [])
        else let '(s', es) := lay_run_calls so si during in
             (s', Deliver (Next a) :: es ++ (if raises then [Raised EXN_CALLBACK] else []))
  | KError e =>
      if so then ((so, si), [])
      else if si then ((true, si), [])
        else let '(_, es) := lay_run_calls true true during in
             ((true, true), Deliver (Err e) :: es ++ (if raises then [Raised EXN_CALLBACK] else []))
  | KCompleted =>
      if so then ((so, si), [])
      else if si then ((true, si), [])
        else let '(_, es) := lay_run_calls true true during in
             ((true, true), Deliver Done :: es ++ (if raises then [Raised EXN_CALLBACK] else []))
  | KDispose => ((true, si), [])
  | KFail e =>
      if so then ((so, si), [FailReturned false])
      else if si then ((true, si), [FailReturned true])
        else let '(_, es) := lay_run_calls true true during in
             ((true, true), Deliver (Err e) :: es ++ (if raises then [Raised EXN_CALLBACK] else [FailReturned true]))
  end.
Proof. destruct k; cbn [lay_run_call]; rewrite ?lay_run_list_eq; reflexivity. Qed.

(* invariant [si -> so]; same effects and same (outer) flag as the one-layer model *)
Definition lay_ok (r : (bool * bool) * list (effect A)) (r' : bool * list (effect A)) : Prop :=
  fst (fst r) = fst r' /\ (snd (fst r) = true -> fst (fst r) = true) /\ snd r = snd r'.

Lemma lay_ok_calls (l : list (call A)) :
  Forall (fun c => forall so si, (si = true -> so = true) -> lay_ok (lay_run_call so si c) (ob_run_call so c)) l ->
  forall so si, (si = true -> so = true) -> lay_ok (lay_run_calls so si l) (ob_run_calls so l).
Proof.
  induction 1 as [|c t Hc Ht IH]; intros so si Hinv.
  - repeat split; auto.
  - cbn [lay_run_calls ob_run_calls]. specialize (Hc so si Hinv). unfold lay_ok in *.
    destruct (lay_run_call so si c) as [[so1 si1] e1]. destruct (ob_run_call so c) as [s1 e1'].
    cbn [fst snd] in Hc. destruct Hc as (-> & Hi & ->).
    specialize (IH s1 si1 Hi). destruct (lay_run_calls s1 si1 t) as [[so2 si2] e2].
    destruct (ob_run_calls s1 t) as [s2 e2']. cbn [fst snd] in *. destruct IH as (-> & Hi2 & ->).
    repeat split; auto.
Qed.

Theorem lay_ok_call (c : call A) :
  forall so si, (si = true -> so = true) -> lay_ok (lay_run_call so si c) (ob_run_call so c).
Proof.
  induction c as [k during raises IH] using call_ind'. intros so si Hinv.
  rewrite lay_run_call_unfold, ob_run_call_unfold.
  pose proof (lay_ok_calls during IH) as Hd. unfold lay_ok in *.
  destruct k as [a|e| | |e]; [| | |repeat split; auto|]; (destruct so; [repeat split; auto|]);
    (destruct si; [specialize (Hinv eq_refl); discriminate|]).
  { specialize (Hd false false Hinv). destruct (lay_run_calls false false during) as [[so' si'] es].
       destruct (ob_run_calls false during) as [s' es']. cbn [fst snd] in *. destruct Hd as (-> & Hi & ->).
       repeat split; auto. }
  (* on_error, on_completed, fail: both layers are stopped before the handler runs *)
  all: specialize (Hd true true (fun _ => eq_refl)); destruct (lay_run_calls true true during) as [[so' si'] es];
    destruct (ob_run_calls true during) as [s' es']; cbn [fst snd] in *; destruct Hd as (_ & _ & ->);
    repeat split; auto.
Qed.

(* every call made on the view, from any state in which the observer behind it is stopped only if the view is:
   state and effects are those of the base-class model *)
Theorem lay_ok_run_calls (h : list (call A)) : forall so si, (si = true -> so = true) ->
  lay_ok (lay_run_calls so si h) (ob_run_calls so h).
Proof. apply lay_ok_calls, Forall_forall. intros c _. apply lay_ok_call. Qed.
End Facts.
