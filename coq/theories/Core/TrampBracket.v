(* C30: log-level "one at a time": between two starts of actions of one trampoline the
   first action has returned.  No ghost counter is used in the statement; the proof relates
   the log to the FInvoke frames on the threads' stacks. *)
From RxVerif Require Import Base.Prelude Core.Trampoline Core.TrampolineFacts.

(* the action of trampoline k that is open at the head of a log (newest first): the newest
   EStart k / EEnd k event decides *)
Fixpoint cur (k : key) (lg : list event) : option (nat * Z) :=
  match lg with
  | [] => None
  | EStart k' id l _ _ _ _ _ :: t => if key_eqb k k' then Some (id, l) else cur k t
  | EEnd k' _ _ _ :: t => if key_eqb k k' then None else cur k t
  | _ :: t => cur k t
  end.

(* every EStart k happens when no action of k is open, every EEnd k id l closes the open
   action (id, l) of k *)
Definition brk_ev (k : key) (e : event) (before : list event) : Prop :=
  match e with
  | EStart k' _ _ _ _ _ _ _ => k' = k -> cur k before = None
  | EEnd k' id l _ => k' = k -> cur k before = Some (id, l)
  | _ => True
  end.

Definition optl {A} (o : option A) : list A := match o with Some x => [x] | None => [] end.

(* the invocations of trampoline k in progress on a stack *)
Fixpoint finv (k : key) (s : list frame) : list (nat * Z) :=
  match s with
  | [] => []
  | FInvoke k' id l :: r => if key_eqb k k' then (id, l) :: finv k r else finv k r
  | _ :: r => finv k r
  end.

Definition frames_k (k : key) (ts : list thread) : list (nat * Z) :=
  flat_map (fun t => finv k (stk t)) ts.

Lemma flat_map_nth {A B} (f : A -> list B) : forall ts n t, nth_error ts n = Some t ->
  flat_map f ts = flat_map f (firstn n ts) ++ f t ++ flat_map f (skipn (S n) ts).
Proof.
  induction ts as [|a ts IH]; intros [|n] t H; cbn in H; try discriminate.
  - inversion H; subst. reflexivity.
  - cbn [flat_map firstn skipn]. rewrite (IH n t H), <- app_assoc. reflexivity.
Qed.

Lemma flat_map_set_nth {A B} (f : A -> list B) : forall ts n t t', nth_error ts n = Some t ->
  flat_map f (set_nth n t' ts) = flat_map f (firstn n ts) ++ f t' ++ flat_map f (skipn (S n) ts).
Proof.
  induction ts as [|a ts IH]; intros [|n] t t' H; cbn in H; try discriminate.
  - reflexivity.
  - cbn [set_nth flat_map firstn skipn]. rewrite (IH n t t' H), <- app_assoc. reflexivity.
Qed.

Lemma length_finv k : forall s, Z.of_nat (length (finv k s)) = sumf (inv_c k) s.
Proof.
  induction s as [|f s IH]; [reflexivity|].
  destruct f as [top cs|k' it|k' id l|l|k' r ph]; cbn [finv sumf inv_c]; try (rewrite IH; lia).
  destruct (key_eqb k k'); cbn [length]; lia.
Qed.

Lemma length_frames_k k : forall ts, Z.of_nat (length (frames_k k ts)) = sumf (invs k) ts.
Proof.
  induction ts as [|t ts IH]; [reflexivity|].
  unfold frames_k in *. cbn [flat_map sumf]. rewrite app_length, Nat2Z.inj_add, IH.
  unfold invs at 1. rewrite length_finv. reflexivity.
Qed.

Lemma app3_single {A} (X F Y : list A) p o :
  X ++ (p :: F) ++ Y = optl o -> X = [] /\ F = [] /\ Y = [] /\ o = Some p.
Proof.
  intro H. destruct o; [|destruct X; discriminate]. destruct X as [|x X]; cbn in H.
  - injection H as -> H. apply app_eq_nil in H. destruct H; auto.
  - injection H as _ H. destruct X; discriminate.
Qed.

(* one micro-step of thread th, seen from trampoline k0; X and Y are the invocations of k0 in
   progress on the threads before and after th *)
Lemma brk_local : forall c th w t w' t' k0 (X Y : list (nat * Z)),
  mstep c th w t = Some (w', t') ->
  (forall x r rest, stk t = FRun k0 (x :: r) P2 :: rest -> cur k0 (log w) = None) ->
  X ++ finv k0 (stk t) ++ Y = optl (cur k0 (log w)) ->
  log_all (brk_ev k0) (log w) ->
  X ++ finv k0 (stk t') ++ Y = optl (cur k0 (log w')) /\ log_all (brk_ev k0) (log w').
Proof.
  intros c th w t w' t' k0 X Y H St K B. cbn [stk] in *.
  (* only the return of an action and the start of one concern [finv] and [cur] *)
  mstep_inv H; wsimpl; cbn [finv cur log_all brk_ev] in *; try (split; [exact K | repeat split; exact B]);
  keycase k0 k; cbn [finv cur] in *; try (split; [exact K | repeat split; try exact B; congruence]).
  - (* the action returns, or an exception leaves it: EEnd k id l *)
    destruct (app3_single _ _ _ _ _ K) as (-> & -> & -> & E).
    split; [reflexivity | split; [intros _; exact E | exact B]].
  - (* an action of k starts *)
    pose proof (St _ _ _ eq_refl) as N. rewrite N in K.
    apply app_eq_nil in K. destruct K as [-> K]. apply app_eq_nil in K. destruct K as [-> ->].
    split; [reflexivity | split; [intros _; exact N | exact B]].
Qed.

Definition BInv (cf : config) : Prop :=
  forall k, frames_k k (snd cf) = optl (cur k (log (fst cf))) /\ log_all (brk_ev k) (log (fst cf)).

Theorem reachable_brk c c0 hs sch k : log_all (brk_ev k) (log (fst (crun c (start_config c0 hs) sch))).
Proof.
  apply (reach_ind c BInv); [auto | |].
  - intros w ts th t w' t' I B N M k0. pose proof (Inv_wf _ _ I) as W. destruct I as (_ & C & _).
    destruct (B k0) as [K Bk]. cbn [fst snd] in *.
    unfold frames_k. rewrite (flat_map_set_nth _ ts th t t' N).
    apply (brk_local c th w t w' t' k0 _ _ M); [| |exact Bk].
    + intros x r rest E. destruct t as [s ex]. cbn [stk] in E. subst s.
      pose proof (start_active_zero w ts th k0 x r rest ex W C N) as A0.
      destruct (C k0) as (C1 & _). cbn [fst snd] in C1. rewrite A0 in C1.
      rewrite <- length_frames_k in C1.
      destruct (cur k0 (log w)); [|reflexivity]. rewrite K in C1. cbn in C1. lia.
    + rewrite <- (flat_map_nth (fun t0 => finv k0 (stk t0)) ts th t N). exact K.
  - intro k0. split; [|exact I]. cbn. unfold frames_k. induction hs as [|h hs IH]; [reflexivity|exact IH].
Qed.

Lemma brk_between k x lx thx dx cx dkx ddx l1 : forall l2,
  log_all (brk_ev k) (l2 ++ EStart k x lx thx dx cx dkx ddx :: l1) ->
  cur k (l2 ++ EStart k x lx thx dx cx dkx ddx :: l1) = Some (x, lx) \/ exists r, In (EEnd k x lx r) l2.
Proof.
  induction l2 as [|e l2 IH]; cbn [app log_all]; intros [Be B].
  - left. cbn [cur]. rewrite key_eqb_refl. reflexivity.
  - destruct (IH B) as [Hc|[r Hr]]; [|right; exists r; right; exact Hr].
    destruct e; cbn [cur brk_ev] in *; auto; destruct (key_eqb k k0) eqn:Ek; auto;
    apply key_eqb_eq in Ek; rewrite Be in Hc by auto; [discriminate|].
    injection Hc as -> ->. subst. right. eexists. left. reflexivity.
Qed.

Definition no_start_end (k : key) (e : event) : Prop :=
  match e with EStart k' _ _ _ _ _ _ _ | EEnd k' _ _ _ => k' <> k | _ => True end.

Lemma cur_cons k e lg p : cur k (e :: lg) = Some p ->
  (exists th due clk dk d, e = EStart k (fst p) (snd p) th due clk dk d) \/
  (no_start_end k e /\ cur k lg = Some p).
Proof.
  assert (NE : forall k', key_eqb k k' = false -> k' <> k)
    by (intros k' E ->; rewrite key_eqb_refl in E; discriminate).
  destruct e; cbn [cur no_start_end]; auto; destruct (key_eqb k k0) eqn:Ek; auto; [|discriminate].
  apply key_eqb_eq in Ek. subst k0. intro E. injection E as <-. left. cbn [fst snd]. eauto 6.
Qed.

Lemma cur_some_start k : forall lg id l, cur k lg = Some (id, l) ->
  exists l2 th due clk dk d l1, lg = l2 ++ EStart k id l th due clk dk d :: l1 /\
    forall e, In e l2 -> no_start_end k e.
Proof.
  induction lg as [|e lg IH]; intros id l E; [discriminate|].
  apply cur_cons in E. destruct E as [(th & due & clk & dk & d & ->)|[He E]].
  - exists [], th, due, clk, dk, d, lg. split; [reflexivity | intros e0 []].
  - destruct (IH _ _ E) as (l2 & th & due & clk & dk & d & l1 & -> & F).
    exists (e :: l2), th, due, clk, dk, d, l1. split; [reflexivity|].
    intros e0 [<-|H0]; [exact He | exact (F _ H0)].
Qed.
