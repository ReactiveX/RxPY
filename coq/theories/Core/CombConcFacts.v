(* Facts about the transition systems of Core/CombConc.v: for ALL schedules, all per-source programs
   and any number of source threads, the operator never has two calls of its downstream observer in
   progress at once, and what the subscriber's callbacks see obeys Next* (Err|Done)?.
   The grammar holds of EVERY step function ([grammar_is_wrapper]); seriality follows from any
   invariant that makes the threads inside the downstream observer one thread ([gen_serial]): the lock
   discipline for seven operators ([lock_serial]), the choice for amb ([amb_serial]).  The two
   disciplines are invariants of any wrapper of the step function ([wraps]), of which [gact] is one. *)
From RxVerif Require Import Base.Prelude Core.Lts Core.LtsFacts Core.CombConc.
Local Open Scope nat_scope.

Notation thread := (@thread pos sev).

(* an "owner" discipline over any transition system: whoever is parked at a P-position is the
   owner recorded in the shared state; hence two threads at P-positions are the same thread *)
Section Owner.
Context {Sh L O Ob : Type}.
Variable start : O -> L.
Variable act : nat -> Sh -> L -> option (Sh * option L * list Ob).
Variable owner : Sh -> option nat.
Variable P : L -> bool.
Hypothesis Hstart : forall o, P (start o) = false.
(* HA: a step that reaches a P-position leaves the stepping thread the owner (it may assume it was the owner if it
   stood at a P-position already); HB: a step from outside P does not take the ownership from another thread *)
Hypothesis HA : forall tid s l s' l' out,
  act tid s l = Some (s', Some l', out) -> P l' = true -> (P l = true -> owner s = Some tid) -> owner s' = Some tid.
Hypothesis HB : forall tid s l s' l' out tid',
  act tid s l = Some (s', l', out) -> owner s = Some tid' -> tid' <> tid -> P l = false -> owner s' = Some tid'.

Notation config := (@config Sh L O Ob).
Definition OInv (c : config) : Prop :=
  forall tid t, nth_error (c_ths c) tid = Some t -> at_pos P t = true -> owner (c_sh c) = Some tid.

Lemma oinv_step : forall c tid, OInv c -> OInv (tstep start act c tid).
Proof.
  intros c tid I. apply (tstep_preserves start act); [exact I|]. intros t l todo s' l' out N F A.
  intros j y Ny Py. cbn [c_ths c_sh] in *.
  assert (Hl : P l = true -> owner (c_sh c) = Some tid).
  { intros H. apply (I tid t N). unfold at_pos. rewrite (frame_at start P Hstart t l todo F H). exact H. }
  destruct (nth_upd_cases _ _ _ _ _ _ _ N Ny) as [[-> ->]|[Hj Ny']].
  - unfold at_pos in Py. cbn [t_cur] in Py.
    destruct l' as [q|]; [|discriminate Py]. exact (HA tid (c_sh c) l s' q out A Py Hl).
  - pose proof (I j y Ny' Py) as Oj.
    apply (HB tid (c_sh c) l s' l' out j A Oj Hj).
    destruct (P l) eqn:Pl; [|reflexivity]. rewrite (Hl eq_refl) in Oj. congruence.
Qed.

Lemma oinv_init : forall s progs, OInv (init s progs).
Proof.
  intros s progs tid t N H. unfold at_pos in H. rewrite (init_threads s progs tid t N) in H. discriminate H.
Qed.

Lemma oinv_excl : forall c i j ti tj, OInv c ->
  nth_error (c_ths c) i = Some ti -> nth_error (c_ths c) j = Some tj ->
  at_pos P ti = true -> at_pos P tj = true -> i = j.
Proof. intros c i j ti tj I Ni Nj Pi Pj. pose proof (I i ti Ni Pi). pose proof (I j tj Nj Pj). congruence. Qed.
End Owner.

Lemma cfold_app : forall a b, cfold (a ++ b) = fold_left cstep b (cfold a).
Proof. intros. unfold cfold. apply fold_left_app. Qed.
Lemma users_app : forall a b, users (a ++ b) = users a ++ users b.
Proof. intros. unfold users. apply flat_map_app. Qed.

Definition all_next (l : list dev) : bool := forallb (fun d => negb (is_term d)) l.
Lemma gram_next : forall l, all_next l = true -> gram l = true.
Proof.
  induction l as [|d r IH]; [reflexivity|]. cbn [all_next forallb]. intros H. apply andb_true_iff in H.
  destruct H as [H1 H2]. destruct d; try discriminate H1. cbn [gram]. apply IH, H2.
Qed.
Lemma gram_snoc : forall l d, all_next l = true -> gram (l ++ [d]) = true.
Proof.
  induction l as [|x r IH]; intros d H.
  - destruct d; reflexivity.
  - cbn [all_next forallb] in H. apply andb_true_iff in H. destruct H as [H1 H2].
    destruct x; try discriminate H1. cbn [app gram]. apply IH, H2.
Qed.
Lemma gram_user : forall l d, all_next l = true ->
  gram (l ++ [d]) = true /\ (is_term d = false -> all_next (l ++ [d]) = true).
Proof.
  intros l d H. split; [apply gram_snoc, H|]. intros Hd. unfold all_next in *. rewrite forallb_app, H. cbn. rewrite Hd. reflexivity.
Qed.

(* the two side conditions on a step from position l to position q of an operator that serialises by
   its lock: a lock-holding position is reached only from an acquisition or a lock-holding position,
   and every downstream call is made from a lock-holding position *)
Definition lock_ok (l q : pos) : bool :=
  (negb (holds q) || (holds l || is_acq l)) && (negb (inside q) || holds q).
Definition lock_wf {S} (ostep : nat -> S -> pos -> option (S * option pos)) : Prop :=
  forall tid st l st' q, ostep tid st l = Some (st', Some q) -> lock_ok l q = true.

Lemma lock_ok_holds : forall l q, lock_ok l q = true -> holds q = true -> holds l = true \/ is_acq l = true.
Proof.
  intros l q H Hq. unfold lock_ok in H. rewrite Hq in H. cbn [negb orb] in H.
  apply andb_true_iff in H. destruct H as [H _]. apply orb_true_iff, H.
Qed.
Lemma lock_ok_inside : forall l q, lock_ok l q = true -> inside q = true -> holds q = true.
Proof.
  intros l q H Hq. unfold lock_ok in H. rewrite Hq in H. apply andb_true_iff in H. exact (proj2 H).
Qed.

Lemma lock_wf_intro : forall S (ostep : nat -> S -> pos -> option (S * option pos)),
  (forall tid st l st' q, ostep tid st l = Some (st', Some q) -> holds q = true -> holds l = true \/ is_acq l = true) ->
  (forall tid st l st' h d k, ostep tid st l = Some (st', Some (PI h d k)) -> h = true) ->
  lock_wf ostep.
Proof.
  intros S ostep H1 H2 tid st l st' q Os. unfold lock_ok. apply andb_true_iff. split.
  - destruct (holds q) eqn:Hq; [|reflexivity]. cbn [negb orb]. apply orb_true_iff, (H1 tid st l st' q Os Hq).
  - destruct q as [| | | | |h d k]; try reflexivity. exact (H2 tid st l st' h d k Os).
Qed.

(* a step of the operator from position l under the lock protocol of [gact]: an acquisition finds the lock
   free or its own; afterwards the lock is the stepping thread's iff the next position holds it *)
Definition lock_step {S} (ostep : nat -> S -> pos -> option (S * option pos))
    (tid : nat) (sh : gsh S) (l : pos) (sh' : gsh S) (nxt : option pos) : Prop :=
  ostep tid (g_st sh) l = Some (g_st sh', nxt) /\
  (is_acq l = true -> lock_free tid (g_lock sh) = true) /\
  g_lock sh' = (if match nxt with Some q => holds q | None => false end then Some tid
                else if holds l || is_acq l then None else g_lock sh).

Section GenFacts.
Context {S : Type}.
Variable ostep : nat -> S -> pos -> option (S * option pos).
Notation config := (@config (gsh S) pos sev cobs).
Notation gstep := (tstep start (gact ostep)).

Definition tinside (t : thread) : bool := at_pos inside t.
Definition excl (c : config) : Prop :=
  forall i j ti tj, nth_error (c_ths c) i = Some ti -> nth_error (c_ths c) j = Some tj ->
                    tinside ti = true -> tinside tj = true -> i = j.

Lemma tin_out : forall t : thread, tinside t = false -> tin t = [].
Proof. intros t. unfold tinside, at_pos, tin. destruct (t_cur t) as [[]|]; cbn; intros; try reflexivity; discriminate. Qed.

Lemma gact_inv : forall tid sh l sh' nxt out,
  gact ostep tid sh l = Some (sh', nxt, out) ->
  lock_step ostep tid sh l sh' nxt /\
  g_dn sh' = match l with PI _ d _ => fst (fin (g_dn sh) d) | _ => g_dn sh end /\
  out = match l with PI _ d _ => snd (fin (g_dn sh) d) | _ => [] end ++
        match nxt with Some (PI _ d _) => [CEnter d] | _ => [] end.
Proof.
  intros tid sh l sh' nxt out A. unfold gact in A.
  destruct (is_acq l && negb (lock_free tid (g_lock sh))) eqn:B; [discriminate A|].
  destruct (ostep tid (g_st sh) l) as [[st' nx]|] eqn:Os; [|discriminate A].
  assert (Fn : match l with PI _ d _ => fin (g_dn sh) d | _ => (g_dn sh, []) end
               = (match l with PI _ d _ => fst (fin (g_dn sh) d) | _ => g_dn sh end,
                  match l with PI _ d _ => snd (fin (g_dn sh) d) | _ => [] end))
    by (destruct l; try reflexivity; apply surjective_pairing).
  rewrite Fn in A. injection A as <- <- <-. unfold lock_step. cbn [g_st g_lock g_dn]. repeat split; [exact Os|].
  intros Ha. rewrite Ha in B. cbn [andb] in B. destruct (lock_free tid (g_lock sh)); [reflexivity|discriminate B].
Qed.

(* the log invariant: the log is serial so far and the open call is the one of the thread inside *)
Definition LInv (c : config) : Prop := cfold (untag (c_log c)) = Some (flat_map tin (c_ths c)).

Lemma frame_inside : forall (t : thread) l todo,
  next_frame start t = Some (l, todo) -> tin t = match l with PI _ d _ => [d] | _ => [] end /\ tinside t = inside l.
Proof.
  apply (frame_cases start (fun t l _ => tin t = match l with PI _ d _ => [d] | _ => [] end /\ tinside t = inside l)).
  - intros l todo. destruct l; split; reflexivity.
  - intros o todo. destruct o; split; reflexivity.
Qed.

Lemma linv_step : forall c tid, excl c -> excl (gstep c tid) -> LInv c -> LInv (gstep c tid).
Proof.
  intros c tid E0 E1 I. revert E1. apply (tstep_preserves start (gact ostep)); [intros _; exact I|].
  intros t l todo s' nxt out N F A E1.
  destruct (gact_inv _ _ _ _ _ _ A) as (_ & _ & Eout).
  destruct (frame_inside t l todo F) as [Tt Ti].
  unfold LInv in *. cbn [c_log c_ths] in *. rewrite untag_step, cfold_app, I, Eout.
  set (new := Thread nxt todo) in *.
  assert (Nn : nth_error (upd_nth tid new (c_ths c)) tid = Some new) by exact (nth_upd_same _ _ _ _ _ N).
  destruct (inside l || tinside new) eqn:B.
  - (* the thread is inside a call before or after the step: no other thread is, before and after *)
    assert (Oth : forall j y, j <> tid -> nth_error (c_ths c) j = Some y -> tin y = []).
    { intros j y Hj Ny. apply tin_out. destruct (tinside y) eqn:Ty; [exfalso; apply Hj|reflexivity].
      apply orb_true_iff in B. destruct B as [B|B].
      - apply (E0 j tid y t Ny N Ty). rewrite Ti. exact B.
      - apply (E1 j tid y new); [cbn [c_ths]; rewrite nth_upd_other by exact Hj; exact Ny|exact Nn|exact Ty|exact B]. }
    rewrite (fm_single _ _ tin (c_ths c) tid t N Oth), Tt, (fm_single _ _ tin _ tid new Nn).
    + (* the open call, if any, is closed; then the new one, if any, is opened *)
      rewrite fold_left_app.
      assert (Z : fold_left cstep (match l with PI _ d _ => snd (fin (g_dn (c_sh c)) d) | _ => [] end)
                    (Some (match l with PI _ d _ => [d] | _ => [] end)) = Some [])
        by (unfold fin; destruct l; try reflexivity; destruct (g_dn (c_sh c)); reflexivity).
      rewrite Z. destruct nxt as [[]|]; reflexivity.
    + intros j y Hj Ny. rewrite nth_upd_other in Ny by exact Hj. exact (Oth j y Hj Ny).
  - (* neither: nothing is logged *)
    apply orb_false_iff in B. destruct B as [Bl Bn].
    rewrite (fm_upd_same _ _ tin (c_ths c) tid new t N).
    + replace (match l with PI _ d _ => snd (fin (g_dn (c_sh c)) d) | _ => [] end) with (@nil cobs)
        by (destruct l; try reflexivity; discriminate Bl).
      replace (match nxt with Some (PI _ d _) => [CEnter d] | _ => [] end) with (@nil cobs)
        by (destruct nxt as [[]|]; try reflexivity; discriminate Bn).
      reflexivity.
    + rewrite (tin_out new Bn). symmetry. apply tin_out. rewrite Ti. exact Bl.
Qed.

(* the subscriber's view: grammar, for every step function *)
Definition GInv (c : config) : Prop :=
  gram (users (untag (c_log c))) = true /\
  (g_dn (c_sh c) = false -> all_next (users (untag (c_log c))) = true).

Lemma ginv_step : forall c tid, GInv c -> GInv (gstep c tid).
Proof.
  intros c tid G. apply (tstep_preserves start (gact ostep)); [exact G|]. destruct G as [G1 G2].
  intros t l todo s' nxt out N F A.
  destruct (gact_inv _ _ _ _ _ _ A) as (_ & Edn & Eout).
  unfold GInv. cbn [c_log c_sh]. rewrite untag_step, users_app, Edn, Eout, users_app.
  assert (Z : users (match nxt with Some (PI _ d _) => [CEnter d] | _ => [] end) = []) by (destruct nxt as [[]|]; reflexivity).
  rewrite Z, app_nil_r.
  destruct l as [| | | | |h d k]; cbn [users flat_map]; rewrite ?app_nil_r; try (split; assumption).
  unfold fin. destruct (g_dn (c_sh c)) eqn:Dn; cbn [fst snd users flat_map app].
  - rewrite app_nil_r. split; [exact G1|discriminate].
  - exact (gram_user _ d (G2 eq_refl)).
Qed.

Lemma ginv_run : forall st0 progs sched, GInv (grun ostep st0 progs sched).
Proof.
  intros st0 progs sched. unfold grun. apply (run_invariant start (gact ostep) GInv ginv_step).
  split; [reflexivity|]. intros _. reflexivity.
Qed.

(* What the subscriber's callbacks see is Next* (Err|Done)? for EVERY step function: a property of the
   subscriber's AutoDetachObserver as modelled (ONE atomic test-and-set in [fin]), not evidence about
   the operators *)
Theorem grammar_is_wrapper : forall (st0 : S) (progs : list (list sev)) (sched : list nat),
  gram (users (untag (c_log (grun ostep st0 progs sched)))) = true.
Proof. intros st0 progs sched. exact (proj1 (ginv_run st0 progs sched)). Qed.

Lemma linv_init : forall st0 progs, LInv (init (GS None false st0) progs).
Proof.
  intros. unfold LInv. cbn [init c_log c_ths untag map cfold fold_left]. f_equal. symmetry.
  apply fm_nil. intros y Hy. apply in_map_iff in Hy. destruct Hy as [p [<- _]]. reflexivity.
Qed.

(* the generic theorem: any invariant J that implies exclusivity of the downstream call gives
   seriality of the log *)
Theorem gen_serial : forall (J : config -> Prop) st0 progs,
  J (init (GS None false st0) progs) ->
  (forall c tid, J c -> J (gstep c tid)) ->
  (forall c, J c -> excl c) ->
  forall sched, let c := grun ostep st0 progs sched in
  J c /\ serial (untag (c_log c)) = true /\ gram (users (untag (c_log c))) = true.
Proof.
  intros J st0 progs J0 Js Je sched c.
  assert (H : J c /\ LInv c).
  { unfold c, grun. apply (run_invariant start (gact ostep) (fun c => J c /\ LInv c)).
    - intros c0 tid (Hj & Hl). pose proof (Js c0 tid Hj) as Hj'. split; [exact Hj'|].
      apply linv_step; [apply Je, Hj|apply Je, Hj'|exact Hl].
    - split; [exact J0|apply linv_init]. }
  destruct H as (Hj & Hl). split; [exact Hj|split; [|apply grammar_is_wrapper]].
  unfold serial. unfold LInv in Hl. rewrite Hl. reflexivity.
Qed.

End GenFacts.

(* The lock discipline, under any wrapper of the step function.  A wrapper [actL] over positions [L]
   runs the operator's step function from the position [base l] under the lock protocol of [gact], or
   moves within a downstream call without touching the shared state.  [gact] is one ([base] the
   identity), the wrapper of Core/CombConcSplit.v another. *)
Definition wraps {S L} (ostep : nat -> S -> pos -> option (S * option pos)) (base : L -> pos)
    (actL : nat -> gsh S -> L -> option (gsh S * option L * list cobs)) : Prop :=
  forall tid sh l sh' l' out, actL tid sh l = Some (sh', l', out) ->
  (sh' = sh /\ exists q, l' = Some q /\ base q = base l) \/
  lock_step ostep tid sh (base l) sh' (option_map base l').

Lemma gact_wraps : forall S (ostep : nat -> S -> pos -> option (S * option pos)),
  wraps ostep (fun l => l) (gact ostep).
Proof.
  intros S ostep tid sh l sh' l' out A. right.
  replace (option_map (fun l => l) l') with l' by (destruct l'; reflexivity). exact (proj1 (gact_inv ostep _ _ _ _ _ _ A)).
Qed.

Section Wrapper.
Context {S L : Type}.
Variable ostep : nat -> S -> pos -> option (S * option pos).
Variable base : L -> pos.
Variable startL : sev -> L.
Variable actL : nat -> gsh S -> L -> option (gsh S * option L * list cobs).
Hypothesis base_start : forall e, base (startL e) = start e.
Hypothesis W : wraps ostep base actL.
Notation config := (@config (gsh S) L sev cobs).

Lemma inside_start : forall e, inside (base (startL e)) = false.
Proof. intros e. rewrite base_start. destruct e; reflexivity. Qed.

(* operators that make every downstream call while holding their lock *)
Hypothesis wf : lock_wf ostep.

(* every thread inside a downstream call holds the lock *)
Definition AllH (c : config) : Prop :=
  forall tid t, nth_error (c_ths c) tid = Some t ->
                at_pos (fun l => inside (base l)) t = true -> at_pos (fun l => holds (base l)) t = true.

Lemma allh_step : forall c tid, AllH c -> AllH (tstep startL actL c tid).
Proof.
  intros c tid I. apply (tstep_preserves startL actL); [exact I|]. intros t l todo s' l' out N F A.
  intros j y Ny Ty. cbn [c_ths] in Ny.
  destruct (nth_upd_cases _ _ _ _ _ _ _ N Ny) as [[-> ->]|[_ Ny']]; [|exact (I j y Ny' Ty)].
  unfold at_pos in *. cbn [t_cur] in *. destruct l' as [q|]; [|discriminate Ty].
  destruct (W _ _ _ _ _ _ A) as [(_ & q0 & E & Eb)|(Os & _)].
  - injection E as <-. rewrite Eb in *. pose proof (I tid t N) as It. unfold at_pos in It.
    rewrite (frame_at startL (fun l => inside (base l)) inside_start t l todo F Ty) in It. exact (It Ty).
  - exact (lock_ok_inside _ _ (wf tid _ _ _ _ Os) Ty).
Qed.

Definition JLock (c : config) : Prop := OInv g_lock (fun l => holds (base l)) c /\ AllH c.

Lemma jlock_init : forall st0 progs, JLock (init (GS None false st0) progs).
Proof.
  intros st0 progs. split; [apply oinv_init|].
  intros tid t N H. unfold at_pos in H. rewrite (init_threads _ _ _ _ N) in H. discriminate H.
Qed.

Lemma jlock_step : forall c tid, JLock c -> JLock (tstep startL actL c tid).
Proof.
  intros c tid [Io Ia]. split; [|apply allh_step, Ia].
  apply (oinv_step startL actL g_lock (fun l => holds (base l))); [| | |exact Io].
  - intros e. rewrite base_start. destruct e; reflexivity.
  - (* a lock-holding position is reached: the step takes or keeps the lock *)
    intros tid0 s l s' l' out A H Hl. destruct (W _ _ _ _ _ _ A) as [(-> & q & E & Eb)|(_ & _ & El)].
    + injection E as ->. apply Hl. rewrite <- Eb. exact H.
    + rewrite El. cbn [option_map]. rewrite H. reflexivity.
  - (* another thread holds the lock: the step is not an acquisition, and reaches no lock-holding position *)
    intros tid0 s l s' l' out tid' A Ho Hn Hl.
    destruct (W _ _ _ _ _ _ A) as [(-> & _)|(Os & Hacq & El)]; [exact Ho|].
    assert (Ia' : is_acq (base l) = false).
    { destruct (is_acq (base l)) eqn:Ia'; [|reflexivity]. specialize (Hacq eq_refl). rewrite Ho in Hacq.
      cbn [lock_free] in Hacq. apply Nat.eqb_eq in Hacq. congruence. }
    rewrite El, Hl, Ia'. cbn [orb].
    destruct l' as [q|]; [|exact Ho]. cbn [option_map] in *. destruct (holds (base q)) eqn:Hq; [|exact Ho].
    destruct (lock_ok_holds (base l) (base q) (wf tid0 _ _ _ _ Os) Hq) as [H|H]; congruence.
Qed.

Lemma jlock_excl : forall c i j ti tj, JLock c ->
  nth_error (c_ths c) i = Some ti -> nth_error (c_ths c) j = Some tj ->
  at_pos (fun l => inside (base l)) ti = true -> at_pos (fun l => inside (base l)) tj = true -> i = j.
Proof.
  intros c i j ti tj [Io Ia] Ni Nj Ti Tj.
  exact (oinv_excl g_lock _ c i j ti tj Io Ni Nj (Ia i ti Ni Ti) (Ia j tj Nj Tj)).
Qed.
End Wrapper.

(* the lock is held by at most one thread, and whoever is inside the downstream observer holds it *)
Theorem lock_serial : forall {S} (ostep : nat -> S -> pos -> option (S * option pos)), lock_wf ostep ->
  forall st0 progs sched,
  let c := grun ostep st0 progs sched in
  serial (untag (c_log c)) = true /\ gram (users (untag (c_log c))) = true /\ excl c /\
  (forall tid t, nth_error (c_ths c) tid = Some t -> at_pos holds t = true -> g_lock (c_sh c) = Some tid).
Proof.
  intros S ostep wf st0 progs sched c.
  destruct (gen_serial ostep (JLock (fun l => l)) st0 progs) with (sched := sched) as (Hj & Hs & Hg).
  - apply jlock_init.
  - exact (jlock_step ostep (fun l => l) start (gact ostep) (fun e => eq_refl) (gact_wraps S ostep) wf).
  - intros c0 J i j ti tj. exact (jlock_excl (fun l => l) c0 i j ti tj J).
  - fold c in Hj, Hs, Hg. repeat split; [exact Hs|exact Hg| |exact (proj1 Hj)].
    intros i j ti tj. exact (jlock_excl (fun l => l) c i j ti tj Hj).
Qed.

(* the operators of the current tree make every downstream call while holding their lock: a finite
   check of each step function, position by position.  [step_ok] is stated about the RESULT of the step: after
   a case analysis of every test of the code each goal is closed by evaluation, with no hypothesis
   [ostep .. = Some ..] to invert *)
Definition step_ok {S} (l : pos) (r : option (S * option pos)) : bool :=
  match r with Some (_, Some q) => lock_ok l q | _ => true end.

Lemma lock_wf_chk : forall S (ostep : nat -> S -> pos -> option (S * option pos)),
  (forall tid st l, step_ok l (ostep tid st l) = true) -> lock_wf ostep.
Proof. intros S ostep H tid st l st' q Os. specialize (H tid st l). rewrite Os in H. exact H. Qed.

(* every branch of the step function in the goal, each closed by evaluation *)
Ltac branches_tac :=
  repeat match goal with |- context [match ?x with _ => _ end] => destruct x end; reflexivity.

Lemma zip_wf : lock_wf (zip_step true).
Proof. apply lock_wf_chk. intros tid st l. unfold zip_step. branches_tac. Qed.
Lemma cl_wf : lock_wf (cl_step true).
Proof. apply lock_wf_chk. intros tid st l. unfold cl_step. branches_tac. Qed.
Lemma wl_wf : lock_wf (wl_step true).
Proof. apply lock_wf_chk. intros tid st l. unfold wl_step. branches_tac. Qed.
Lemma ma_wf : forall n, lock_wf (ma_step true n).
Proof. intros n. apply lock_wf_chk. intros tid st l. unfold ma_step. branches_tac. Qed.
Lemma mm_wf : forall n m, lock_wf (mm_step true n m).
Proof. intros n m. apply lock_wf_chk. intros tid st l. unfold mm_step. branches_tac. Qed.
Lemma wc_wf : forall count, lock_wf (wc_step count).
Proof. intros count. apply lock_wf_chk. intros tid st l. unfold wc_step. branches_tac. Qed.
Lemma wt_wf : forall shift, lock_wf (wt_step shift).
Proof. intros shift. apply lock_wf_chk. intros tid st l. unfold wt_step. branches_tac. Qed.

(* amb forwards OUTSIDE the lock; it is serial because only the chosen side forwards, the choice
   is written once, and each side is one thread *)
Definition am_owner (sh : gsh amst) : option nat := am_choice (g_st sh).

(* a step that reaches a position inside the downstream observer is made by the chosen side *)
Lemma am_step_inside : forall tid st l st' h d k,
  am_step tid st l = Some (st', Some (PI h d k)) -> am_choice st' = Some tid.
Proof.
  intros tid [ch gate] l st' h d k Os. unfold am_step in Os.
  destruct l as [e| |[|k0] a|[|k0] a|h0 a|h0 d0 k1]; try discriminate Os.
  - destruct e; try discriminate Os; destruct (getb gate tid); discriminate Os.
  - destruct ch as [c|]; [|discriminate Os].
    destruct (Nat.eqb c tid) eqn:Ec; [|discriminate Os]. injection Os as <- _ _ _.
    cbn [am_choice]. f_equal. apply Nat.eqb_eq, Ec.
  - destruct ch; discriminate Os.
Qed.

(* the choice, once made, is never changed *)
Lemma am_step_stable : forall tid st l st' nxt c,
  am_step tid st l = Some (st', nxt) -> am_choice st = Some c -> am_choice st' = Some c.
Proof.
  intros tid [ch gate] l st' nxt c Os Ho. cbn [am_choice] in Ho. subst ch.
  (* about the result of the step, as for [step_ok] *)
  assert (H : option_map (fun r => am_choice (fst r)) (am_step tid (AM (Some c) gate) l) = Some (Some c))
    by (unfold am_step; branches_tac).
  rewrite Os in H. injection H as H. exact H.
Qed.

(* hence, under any wrapper: whoever is inside the downstream observer is the chosen side *)
Section AmbWrapper.
Context {L : Type}.
Variable base : L -> pos.
Variable startL : sev -> L.
Variable actL : nat -> gsh amst -> L -> option (gsh amst * option L * list cobs).
Hypothesis base_start : forall e, base (startL e) = start e.
Hypothesis W : wraps am_step base actL.

Lemma am_choice_stable : forall tid s l s' l' out c,
  actL tid s l = Some (s', l', out) -> am_owner s = Some c -> am_owner s' = Some c.
Proof.
  intros tid s l s' l' out c A Ho. destruct (W _ _ _ _ _ _ A) as [(-> & _)|(Os & _)]; [exact Ho|].
  exact (am_step_stable tid _ _ _ _ c Os Ho).
Qed.

Lemma am_oinv_step : forall c tid,
  OInv am_owner (fun l => inside (base l)) c -> OInv am_owner (fun l => inside (base l)) (tstep startL actL c tid).
Proof.
  intros c tid. apply (oinv_step startL actL am_owner (fun l => inside (base l))).
  - exact (inside_start base startL base_start).
  - intros t s l s' l' out A H Hl. destruct (W _ _ _ _ _ _ A) as [(-> & q & E & Eb)|(Os & _)].
    + injection E as ->. apply Hl. rewrite <- Eb. exact H.
    + cbn [option_map] in Os. destruct (base l') as [| | | | |h d k]; try discriminate H.
      exact (am_step_inside t _ _ _ h d k Os).
  - intros t s l s' l' out t' A Ho _ _. exact (am_choice_stable t s l s' l' out t' A Ho).
Qed.
End AmbWrapper.

Theorem amb_serial : forall progs sched,
  let c := run_am progs sched in
  OInv am_owner inside c /\ serial (untag (c_log c)) = true /\ gram (users (untag (c_log c))) = true.
Proof.
  intros progs sched. apply (gen_serial am_step (OInv am_owner inside) am_init progs).
  - apply oinv_init.
  - exact (am_oinv_step (fun l => l) start (gact am_step) (fun e => eq_refl) (gact_wraps _ am_step)).
  - intros c I i j ti tj. exact (oinv_excl am_owner inside c i j ti tj I).
Qed.

Lemma fin_no_enter : forall dn d0 d, ~ In (CEnter d) (snd (fin dn d0)).
Proof. intros dn d0 d. unfold fin. destruct dn; cbn; intros H; repeat (destruct H as [H|H]; [discriminate H|]); exact H. Qed.

(* a step that logs an entry into the downstream observer is made by the chosen side *)
Lemma am_enter_chosen : forall tid (s : gsh amst) l s' l' out d,
  gact am_step tid s l = Some (s', l', out) -> In (CEnter d) out -> am_choice (g_st s') = Some tid.
Proof.
  intros tid s l s' l' out d A Hin.
  destruct (gact_inv _ _ _ _ _ _ _ A) as ((Os & _) & _ & Eout).
  assert (Hn : exists h d' k, l' = Some (PI h d' k)).
  { rewrite Eout in Hin. apply in_app_or in Hin. destruct Hin as [Hin|Hin].
    { exfalso. destruct l; try (destruct Hin; fail). exact (fin_no_enter _ _ _ Hin). }
    destruct l' as [[| | | | |h d' k]|]; try (destruct Hin; fail). eauto. }
  destruct Hn as (h & d' & k & ->). exact (am_step_inside tid _ l _ h d' k Os).
Qed.

Definition AmInv (c : @config (gsh amst) pos sev cobs) : Prop :=
  forall tid d, In (tid, CEnter d) (c_log c) -> am_choice (g_st (c_sh c)) = Some tid.

Lemma aminv_step : forall c tid, AmInv c -> AmInv (tstep start (gact am_step) c tid).
Proof.
  intros c tid I. apply (tstep_preserves start (gact am_step)); [exact I|]. intros t l todo s' nxt out N F A.
  intros j d Hin. cbn [c_log c_sh] in *. apply in_app_or in Hin. destruct Hin as [Hin|Hin].
  - exact (am_choice_stable (fun l => l) (gact am_step) (gact_wraps _ am_step) tid (c_sh c) l s' nxt out j A (I j d Hin)).
  - apply in_map_iff in Hin. destruct Hin as [o [Eo Ho]]. injection Eo as <- ->.
    exact (am_enter_chosen tid (c_sh c) l s' nxt out d A Ho).
Qed.

(* every call amb ever made on its downstream observer was made by the thread recorded in
   [am_choice] at the end of the run: one thread, for the whole run -- so the output of an amb is a
   single-thread serial source (what an enclosing amb / n-ary amb(a, b, c) assumes of its sources) *)
Theorem amb_single_caller : forall progs sched tid d,
  In (tid, CEnter d) (c_log (run_am progs sched)) ->
  am_choice (g_st (c_sh (run_am progs sched))) = Some tid.
Proof.
  intros progs sched. unfold run_am, grun.
  apply (run_invariant start (gact am_step) AmInv); [apply aminv_step|]. intros tid d H. destruct H.
Qed.
