(* C34, over ALL schedules.  About Core/RealTime.v: [imm_relative_spec] for the ImmediateScheduler function;
   [invR] for the TimeoutScheduler system (an action starts neither early nor after a cancel that returned
   before its due time).  About the EventLoopScheduler family (model Core/EventLoop.v, on top of
   Core/EventLoopFacts.v, from [checks_nil_in] on): [invM] and el_not_after_cancel_before_due; never early is
   el_not_early of Core/EventLoopFacts.v. *)
From RxVerif Require Import Base.Prelude Core.RealTime Core.EventLoop Core.EventLoopFacts.
Local Open Scope Z_scope.

Lemma imm_relative_spec : forall clock d a,
  (0 < d -> imm_relative clock d a = [IWouldBlock a]) /\
  (d <= 0 -> imm_relative clock d a = [IStart a clock; IEnd a; IRet a]).
Proof.
  intros. unfold imm_relative, imm_schedule. split; intros H.
  - destruct (d >? 0) eqn:E; [reflexivity|]. rewrite Z.gtb_ltb in E. apply Z.ltb_ge in E. lia.
  - destruct (d >? 0) eqn:E; [|reflexivity]. apply Z.gtb_lt in E. lia.
Qed.

(* RealTime.tupd is EventLoop.upd: the lemmas about the thread table carry over *)
Lemma tupd_upd : forall A k (x : A) l, tupd k x l = upd k x l.
Proof. intros A k x l. revert k. induction l as [|y t IH]; intros [|k]; cbn; congruence. Qed.

Lemma tnth_upd_same : forall A (l : list A) k x old,
  nth_error l k = Some old -> nth_error (tupd k x l) k = Some x.
Proof. intros. rewrite tupd_upd. eapply nth_upd_same; eassumption. Qed.
Lemma tnth_upd_other : forall A (l : list A) k j x, j <> k -> nth_error (tupd k x l) j = nth_error l j.
Proof. intros. rewrite tupd_upd. apply nth_upd_other. assumption. Qed.

Lemma tnth_after : forall (ths : list tthread) tid me (sp : option tthread) j st old,
  nth_error ths tid = Some old ->
  nth_error (tupd tid me ths ++ match sp with Some th => [th] | None => [] end) j = Some st ->
  (j = tid /\ st = me) \/ (j <> tid /\ nth_error ths j = Some st) \/ sp = Some st.
Proof.
  intros ths tid me sp j st old O H. rewrite tupd_upd in H.
  destruct (nth_step_cases _ _ _ _ _ _ _ _ O H) as [X|[X|[_ X]]]; auto.
  right. right. destruct sp as [th|]; [|destruct (j - _)%nat; discriminate X].
  destruct (j - _)%nat as [|[|k]]; inv X. reflexivity.
Qed.

Lemma in_tstamp : forall tid clk out tid' t e,
  In (tid', t, e) (tstamp tid clk out) <-> tid' = tid /\ t = clk /\ In e out.
Proof. intros. apply in_stamped. Qed.

Lemma trun_invariant : forall P : tconfig -> Prop,
  (forall c tid, P c -> P (ttstep c tid)) -> (forall c d, P c -> P (ttick c d)) ->
  forall sched c, P c -> P (trun c sched).
Proof.
  intros P Hs Ht. induction sched as [|m s IH]; intros c H; [exact H|].
  cbn. apply IH. destruct m; cbn; auto.
Qed.

Lemma caller_step_shape : forall ntid s pending todo s' me out sp,
  caller_step ntid s pending todo = Some (s', me, out, sp) ->
  tclock s' = tclock s /\
  ((tflags s' = tflags s /\ forall b, ~ In (TCancelRet b) out) \/
   (exists b, tflags s' = b :: tflags s /\ out = [TCancelRet b] /\ sp = None)) /\
  (forall a due, ~ In (TStart a due) out) /\
  (exists p t, me = Caller p t) /\
  (forall th, sp = Some th -> exists a due iv, th = Timer a due (PNew iv) /\ due <= tclock s + iv /\ In (TRet a due) out).
Proof.
  intros ntid s pending todo s' me out sp CS.
  destruct pending as [[t a]|]; [|destruct todo as [|[a|d a|t a|a] r]; [discriminate CS| | | |]];
    cbn [caller_step] in CS; injection CS as <- <- <- <-; (split; [reflexivity|]).
  (* the three calls that start a Timer; the first step of schedule_absolute logs and starts nothing *)
  all: try (split; [left; split; [reflexivity|intros b I; cbn in I; intuition discriminate]|];
            (split; [intros x y I; cbn in I; intuition discriminate|]); (split; [eauto|]);
            intros th [= <-]; do 3 eexists; (split; [reflexivity|]); cbn; (split; [lia|auto]); fail).
  (* cancel *)
  split; [right; eexists; repeat split|]. split; [intros x y [I|[]]; discriminate I|]. split; [eauto|]. intros th X. discriminate X.
Qed.

(* what a timer thread can do: exit on a set flag (while new or waiting), arm the wait, time out, start the
   action (TStart is logged by [ttstep], which knows the due time), end it *)
Lemma timer_step_cases : forall s a ph ph' out,
  timer_step s a ph = Some (ph', out) ->
  (tmem a (tflags s) = true /\ ((exists iv, ph = PNew iv) \/ exists dl, ph = PWaiting dl) /\ ph' = PDone /\ out = [TExit]) \/
  (tmem a (tflags s) = false /\ exists iv, ph = PNew iv /\ ph' = PWaiting (tclock s + iv) /\ out = []) \/
  (tmem a (tflags s) = false /\ exists dl, ph = PWaiting dl /\ dl <= tclock s /\ ph' = PFire /\ out = []) \/
  (ph = PFire /\ ph' = PRunning /\ out = []) \/
  (ph = PRunning /\ ph' = PDone /\ out = [TEnd a; TExit]).
Proof.
  intros s a ph ph' out TS. unfold timer_step in TS. destruct ph as [iv|dl| | |]; [| | | |discriminate TS].
  - destruct (tmem a (tflags s)); injection TS as <- <-; [left|right; left]; eauto 8.
  - destruct (tmem a (tflags s)); [injection TS as <- <-; left; eauto 8|].
    destruct (Z.leb_spec dl (tclock s)); [|discriminate TS]. injection TS as <- <-. right; right; left. eauto 8.
  - injection TS as <- <-. auto 8.
  - injection TS as <- <-. auto 8.
Qed.

(* what is known of a timer, by phase: the wait it will make / is making ends at or after the due time; once it
   has timed out the due time is past and every cancel logged so far returned at or after it *)
Definition timer_ok (c : tconfig) (a : nat) (due : Z) (ph : tph) : Prop :=
  match ph with
  | PNew iv => due <= tclock (t_sh c) + iv
  | PWaiting dl => due <= dl
  | PFire | PRunning =>
      due <= tclock (t_sh c) /\ forall tid t, In (tid, t, TCancelRet a) (t_log c) -> due <= t
  | PDone => True
  end.

Definition invR (c : tconfig) : Prop :=
  (forall tid t e, In (tid, t, e) (t_log c) -> t <= tclock (t_sh c)) /\
  (forall a, tmem a (tflags (t_sh c)) = false -> forall tid t, ~ In (tid, t, TCancelRet a) (t_log c)) /\
  (forall tid a due ph, nth_error (t_ths c) tid = Some (Timer a due ph) -> timer_ok c a due ph) /\
  (forall tid t a due, In (tid, t, TStart a due) (t_log c) ->
     due <= t /\ forall tid' t', In (tid', t', TCancelRet a) (t_log c) -> due <= t').

Lemma invR_init : forall t0 progs, invR (tinit t0 progs).
Proof.
  intros. unfold invR, tinit. cbn [t_sh t_ths t_log tclock tflags]. refine (conj _ (conj _ (conj _ _))).
  - intros tid t e [].
  - intros a _ tid t [].
  - intros tid a due ph H. apply nth_error_In in H. apply in_map_iff in H. destruct H as [p [E _]]. discriminate E.
  - intros tid t a due [].
Qed.

Lemma invR_tick : forall c d, invR c -> invR (ttick c d).
Proof.
  intros c d (R1 & R2 & R3 & R4). unfold invR, ttick. cbn [t_sh t_ths t_log tclock tflags].
  refine (conj _ (conj _ (conj _ _))).
  - intros tid t e I. specialize (R1 tid t e I). lia.
  - exact R2.
  - intros tid a due ph N. specialize (R3 tid a due ph N). unfold timer_ok in *. cbn [t_sh t_log tclock] in *.
    destruct ph; auto; try lia; (destruct R3 as [X Y]; split; [lia|exact Y]).
  - exact R4.
Qed.

(* what both kinds of step do: the clock stands and stamps what is logged; a cancel is logged only for a flag that
   is set afterwards; every timer of the new table, and every timer whose start is logged (as if at PFire), is in
   order with respect to the OLD configuration.  That is enough: a cancel logged in this step bears the current
   reading, which is at or past the due time of whatever has fired or started *)
Lemma invR_extend : forall c s' ths' tid out,
  invR c -> tclock s' = tclock (t_sh c) ->
  (forall a, tmem a (tflags s') = false -> tmem a (tflags (t_sh c)) = false /\ ~ In (TCancelRet a) out) ->
  (forall j a due ph, nth_error ths' j = Some (Timer a due ph) -> timer_ok c a due ph) ->
  (forall a due, In (TStart a due) out -> timer_ok c a due PFire) ->
  invR (TConfig s' ths' (t_log c ++ tstamp tid (tclock (t_sh c)) out)).
Proof.
  intros c s' ths' tid out (R1 & R2 & R3 & R4) CK FL TH ST.
  assert (CAN : forall a due, due <= tclock (t_sh c) ->
            (forall j t, In (j, t, TCancelRet a) (t_log c) -> due <= t) ->
            forall j t, In (j, t, TCancelRet a) (t_log c ++ tstamp tid (tclock (t_sh c)) out) -> due <= t).
  { intros a due X Y j t I. apply in_app_or in I. destruct I as [I|I]; [eapply Y, I|]. apply in_tstamp in I. lia. }
  unfold invR. cbn [t_sh t_ths t_log]. rewrite CK. refine (conj _ (conj _ (conj _ _))).
  - intros j t e I. apply in_app_or in I. destruct I as [I|I]; [eapply R1, I|]. apply in_tstamp in I. lia.
  - intros a F j t I. destruct (FL a F) as [F0 NC]. apply in_app_or in I.
    destruct I as [I|I]; [eapply R2; eassumption|]. apply in_tstamp in I. apply NC, I.
  - intros j a due ph E. specialize (TH j a due ph E). unfold timer_ok in *. cbn [t_sh t_log]. rewrite CK.
    destruct ph; auto; (destruct TH as [X Y]; split; [exact X|apply CAN; assumption]).
  - intros j t a due I. apply in_app_or in I. destruct I as [I|I].
    + destruct (R4 _ _ _ _ I) as [X Y]. split; [exact X|]. apply CAN; [|exact Y]. specialize (R1 _ _ _ I). lia.
    + apply in_tstamp in I. destruct I as (_ & -> & I). destruct (ST _ _ I) as [X Y]. split; [exact X|apply CAN; assumption].
Qed.

Lemma invR_step : forall c tid, invR c -> invR (ttstep c tid).
Proof.
  intros c tid R. pose proof R as (_ & R2 & R3 & _). unfold ttstep.
  destruct (nth_error (t_ths c) tid) as [[pending todo|a due ph]|] eqn:N; [| |exact R].
  - destruct (caller_step (length (t_ths c)) (t_sh c) pending todo) as [[[[s' me] out] sp]|] eqn:CS; [|exact R].
    destruct (caller_step_shape _ _ _ _ _ _ _ _ CS) as (CK & FL & NS & (p & t & ->) & SP).
    apply invR_extend; [exact R|exact CK| | |].
    + intros a F. destruct FL as [[FE NC]|(b & FE & -> & ->)]; rewrite FE in F; [auto|].
      cbn in F. apply orb_false_iff in F. destruct F as [F1 F2]. split; [exact F2|].
      intros [I|[]]. inv I. rewrite Nat.eqb_refl in F1. discriminate F1.
    + intros j a due ph E. destruct (tnth_after _ _ _ _ _ _ _ N E) as [[_ X]|[[NE E']|X]];
        [discriminate X|eapply R3, E'|].
      destruct (SP _ X) as (a0 & due0 & iv & E0 & LE & _). inv E0. exact LE.
    + intros a due I. elim (NS _ _ I).
  - destruct (timer_step (t_sh c) a ph) as [[ph' out]|] eqn:TS; [|exact R].
    pose proof (R3 tid a due ph N) as OK.
    (* the step logs no cancel, leaves its timer in order, and starts the action only from PFire; the [match] is
       what [ttstep] logs for this step *)
    assert (SH : (forall b, ~ In (TCancelRet b) (match ph with PFire => [TStart a due] | _ => out end)) /\
                 timer_ok c a due ph' /\
                 (forall b d, In (TStart b d) (match ph with PFire => [TStart a due] | _ => out end) ->
                    timer_ok c b d PFire)).
    { destruct (timer_step_cases _ _ _ _ _ TS)
        as [(F & [[iv ->]|[dl ->]] & -> & ->)|[(F & iv & -> & -> & ->)|[(F & dl & -> & LE & -> & ->)|[(-> & -> & ->)|(-> & -> & ->)]]]];
        cbn [timer_ok] in *; (split; [intros b I; cbn in I; intuition discriminate|]);
        (split; [|intros b d I; cbn in I; try (intuition discriminate)]); auto.
      - split; [lia|]. intros tid' t' I. exfalso. eapply R2; eassumption.
      - destruct I as [I|[]]. inv I. exact OK. }
    destruct SH as (NOC & OK' & ST).
    apply invR_extend; [exact R|reflexivity|auto| |exact ST].
    intros j a0 due0 ph0 E. destruct (Nat.eq_dec j tid) as [->|NE].
    + erewrite tnth_upd_same in E by exact N. inv E. exact OK'.
    + rewrite tnth_upd_other in E by exact NE. eapply R3, E.
Qed.

Lemma invR_run : forall t0 progs sched, invR (trun (tinit t0 progs) sched).
Proof. intros. apply trun_invariant; auto using invR_step, invR_tick, invR_init. Qed.

Lemma checks_nil_in : forall out i b, checks out = [] -> ~ In (ECheck i b) out.
Proof.
  intros out i b H I. assert (X : In i (checks out)) by (apply checks_in; eexists; exact I). rewrite H in X. destruct X.
Qed.

Lemma log_in_L : forall (c : config) tid t e, In (tid, t, e) (c_log c) -> In e (L c).
Proof. intros c tid t e I. unfold L, evs. apply in_map_iff. exists (tid, t, e). split; [reflexivity|exact I]. Qed.

Lemma L_in_log : forall (c : config) e, In e (L c) -> exists tid t, In (tid, t, e) (c_log c).
Proof.
  intros c e I. unfold L, evs in I. apply in_map_iff in I. destruct I as [[[tid t] e'] [E I]]. cbn in E. subst.
  eauto.
Qed.

Lemma loopstep_check : forall eie body me ntid s ph s' ph' out sp,
  loopstep eie body me ntid s ph s' ph' out sp ->
  forall i b, In (ECheck i b) out ->
    (exists r, tpend (TLoop ph) = i :: r) /\ (b = false -> mem (it_lbl i) (cancelled s) = false).
Proof.
  destruct 1; intros j b I; try (cbn in I; intuition discriminate).
  - destruct I as [I|[]]. inv I. split; [cbn; eauto|discriminate].
  - destruct I as [I|[]]. inv I. split; [cbn; eauto|auto].
  - discriminate (callish_in _ _ (opstep_callish _ _ _ _ _ _ _ _ _ H) I).
Qed.

Section Facts.
Variable eie : bool.
Variable body : nat -> list op.
Notation cstep := (cstep eie body).
Notation run := (run eie body).

Definition invM (c : config) : Prop :=
  (forall tid t e, In (tid, t, e) (c_log c) -> t <= clock (c_sh c)) /\
  (forall tid t i b, In (tid, t, ECheck i b) (c_log c) -> it_due i <= t) /\
  (forall i, In (ECheck i false) (L c) ->
     forall tid t, In (tid, t, ECancelRet (it_lbl i)) (c_log c) -> it_due i <= t).

Lemma invM_init : forall t0 progs, invM (init t0 progs).
Proof.
  intros. unfold invM, L, init. cbn. refine (conj _ (conj _ _)).
  - intros tid t e [].
  - intros tid t i b [].
  - intros i [].
Qed.

Lemma invM_tick : forall c d, invM c -> invM (tick c d).
Proof.
  intros c d (M1 & M2 & M3). unfold invM, L, tick in *. cbn [c_sh c_log clock] in *. refine (conj _ (conj M2 M3)).
  intros tid t e I. specialize (M1 tid t e I). lia.
Qed.

Lemma invM_step : forall c tid c', invAll eie c -> invM c -> cstep c tid c' -> invM c'.
Proof.
  intros c tid c' (A & D & S & _) (M1 & M2 & M3) St.
  pose proof (cstep_clock eie body _ _ _ A St) as CK.
  destruct D as (_ & _ & _ & _ & _ & _ & _ & D8). destruct S as (_ & _ & _ & S4).
  (* an is_cancelled() test made in this step is on the head of the pending items *)
  assert (EX : exists s' ths' out, c' = Config s' ths' (c_log c ++ stamp tid (clock (c_sh c)) out) /\
            forall i b, In (ECheck i b) out -> it_due i <= clock (c_sh c) /\
                                (b = false -> mem (it_lbl i) (cancelled (c_sh c)) = false)).
  { destruct St as [cur todo s' cur' todo' out sp N O|ph s' ph' out sp N LS];
      do 3 eexists; (split; [reflexivity|]); intros i b I.
    - discriminate (callish_in _ _ (opstep_callish _ _ _ _ _ _ _ _ _ O) I).
    - destruct (inflight_loop eie body _ _ _ _ _ _ _ A N LS) as [IF _].
      destruct (loopstep_check _ _ _ _ _ _ _ _ _ _ LS i b I) as [[r R] MF].
      split; [apply D8; rewrite IF, R; left; reflexivity|exact MF]. }
  destruct EX as (s' & ths' & out & -> & NEWCHK). cbn [c_sh] in CK.
  pose proof (L_step c tid s' ths' out) as LE.
  unfold invM. cbn [c_log c_sh]. rewrite CK. refine (conj _ (conj _ _)).
  - intros tid' t e I. apply in_app_or in I. destruct I as [I|I]; [eapply M1, I|]. apply in_stamp in I. lia.
  - intros tid' t i b I. apply in_app_or in I. destruct I as [I|I]; [eapply M2, I|]. apply in_stamp in I.
    destruct I as [_ [-> I]]. apply NEWCHK in I. apply I.
  - intros i IC tid' t I. rewrite LE in IC. apply in_app_or in IC. apply in_app_or in I.
    destruct I as [I|I].
    + destruct IC as [IC|IC]; [eapply M3; eassumption|].
      (* the test is new, the cancel is old: the flag was set, the test cannot have returned False *)
      exfalso. destruct (NEWCHK _ _ IC) as [_ MF]. specialize (MF eq_refl).
      rewrite <- S4 in MF. rewrite (mem_seen_after (L c) [] (it_lbl i)) in MF; [discriminate MF|].
      right. eapply log_in_L, I.
    + apply in_stamp in I. destruct I as [_ [-> _]]. destruct IC as [IC|IC].
      * destruct (L_in_log _ _ IC) as [tid0 [t0 I0]]. specialize (M2 _ _ _ _ I0). specialize (M1 _ _ _ I0). lia.
      * apply NEWCHK in IC. apply IC.
Qed.

Lemma invAllM_run : forall sched c, invAll eie c -> invM c -> invM (run c sched).
Proof.
  intros sched c A M. apply (run_invariant2 eie body invM (invAll eie)); auto.
  - intros. apply invAll_run. assumption.
  - intros. eapply invM_step; eassumption.
  - intros. apply invM_tick. assumption.
Qed.

(* an action that starts: every dispose() of its disposable returned at a clock reading that is not
   before its due time.  (Contrapositive: disposed before its due time => never starts.) *)
Theorem el_not_after_cancel_before_due : forall t0 progs sched tid t i tid' t',
  let c := run (init t0 progs) sched in
  In (tid, t, EStart i) (c_log c) -> In (tid', t', ECancelRet (it_lbl i)) (c_log c) -> it_due i <= t'.
Proof.
  intros t0 progs sched tid t i tid' t' c IS IC.
  pose proof (invAllM_run sched _ (invAll_init eie t0 progs) (invM_init t0 progs)) as (_ & _ & M3). fold c in M3.
  eapply M3; [|exact IC]. eapply el_started_was_accepted. eapply log_in_L, IS.
Qed.
End Facts.
