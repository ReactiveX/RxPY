(* Facts about the loop of NewThreadScheduler.schedule_periodic
   (Core/NewThreadPeriodic.v), for all scripts (induction on the script).

   The invocations in closed form: the k-th starts at c0 + max 0 p + [gaps p sc k] with state
   f^k st0 ([periodic_kth]), hence threading, spacing, the first invocation, never early.
   The order of tests, invocations and dispose() calls: every trace of the loop is accepted by
   an automaton over (flag, phase) ([ph], [delta], [runA]; [step_acc], [run_acc],
   [periodic_acc]: "A" and "acc" stand for this acceptor); the [acc_*] lemmas read the
   properties off acceptance alone and the [periodic_*] lemmas after them state each on the
   loop.  Last, existence: on quiet scripts the loop does invoke ([periodic_quiet_runs]). *)
From RxVerif Require Import Base.Prelude Core.NewThreadPeriodic.
Local Open Scope Z_scope.

(* clock at which the pending invocation starts if nothing stops the loop before *)
Definition start_of {T} (s : lstate T) : Z := l_clk s + Z.max 0 (l_tmo s).

Lemma invs_app {T} (a b : list (ev T)) : invs (a ++ b) = invs a ++ invs b.
Proof.
  induction a as [|e a IH]; [reflexivity|].
  destruct e; cbn; rewrite ?IH; reflexivity.
Qed.

Definition next_flag (it : iter) : bool :=
  i_win it || match i_in it with Some _ => true | None => false end.

(* PIdle: the loop is not between its test and the action;  PArmed c: disposed.is_set()
   returned False at clock c and the action has not been entered yet;  PDead: the thread ended *)
Inductive ph : Type := PIdle | PArmed (c : Z) | PDead.

(* (flag, phase) -> event -> next, None = not a behaviour of the loop *)
Definition delta {T} (st : bool * ph) (e : ev T) : option (bool * ph) :=
  let '(d, q) := st in
  match q with
  | PDead => None
  | _ =>
    match e with
    | EDisp c => match q with
                 | PArmed c0 => if c =? c0 then Some (true, q) else None
                 | _ => Some (true, q)
                 end
    | ETest c b => if Bool.eqb b d then Some (d, if b then PDead else PArmed c) else None
    | EInv c _ => match q with
                  | PArmed c0 => if c =? c0 then Some (d, PIdle) else None
                  | _ => None
                  end
    | ERaise _ => Some (d, PDead)
    | EWait _ _ => Some (d, PIdle)
    | EEnd _ => Some (d, PIdle)
    end
  end.

Fixpoint runA {T} (st : bool * ph) (l : list (ev T)) : option (bool * ph) :=
  match l with
  | [] => Some st
  | e :: t => match delta st e with Some st' => runA st' t | None => None end
  end.

Lemma runA_app {T} (a b : list (ev T)) : forall st,
  runA st (a ++ b) = match runA st a with Some st' => runA st' b | None => None end.
Proof.
  induction a as [|e a IH]; intro st; [reflexivity|].
  cbn [app runA]. destruct (delta st e); [apply IH | reflexivity].
Qed.

(* All that the rest of an iteration needs to know of [disposed.wait]: it invokes nothing, it
   leaves the acceptor idle with the flag it returns, and if that flag is clear the clock is
   the start clock of the pending invocation. *)
Lemma wait_part_spec {T} (s : lstate T) it :
  let '(w, fl, c) := wait_part s it in
  invs w = [] /\ runA (l_flag s, PIdle) w = Some (fl, PIdle) /\ (fl = false -> c = start_of s).
Proof.
  unfold wait_part, start_of. destruct s as [st tmo fl clk]; cbn [l_tmo l_flag l_clk].
  destruct (Z.ltb_spec 0 tmo) as [Ht|Ht]; [destruct fl|].
  - repeat split. discriminate.
  - destruct (i_wait it) as [o|]; [destruct ((0 <=? o) && (o <? tmo))|];
      repeat split; intros; try discriminate; lia.
  - repeat split. lia.
Qed.

Lemma step_invs {T} p (f : T -> T) (s : lstate T) it es r : step p f s it = (es, r) ->
  (r = Fin Stopped /\ invs es = []) \/
  (invs es = [(start_of s, l_st s)] /\
   (r = Fin Died \/
    r = Cont (LState (f (l_st s)) (p - dur_of it) (next_flag it) (start_of s + dur_of it)))).
Proof.
  unfold step, next_flag. pose proof (wait_part_spec s it) as W.
  destruct (wait_part s it) as [[w fl] c]. destruct W as (Iw & _ & Cw).
  destruct (fl || i_pre it) eqn:Hs.
  - intros [= <- <-]. left. rewrite !invs_app, Iw. destruct (i_pre it); auto.
  - apply orb_false_elim in Hs. destruct Hs as [-> ->]. rewrite (Cw eq_refl).
    destruct (i_raise it); intros [= <- <-]; right; rewrite !invs_app, Iw;
      destruct (i_win it), (i_in it); auto.
Qed.

Lemma iter_shift {T} (f : T -> T) k x : Nat.iter k f (f x) = f (Nat.iter k f x).
Proof.
  induction k as [|k IH]; [reflexivity|].
  change (Nat.iter (S k) f (f x)) with (f (Nat.iter k f (f x))). rewrite IH. reflexivity.
Qed.

Lemma run_invs_nth {T} p (f : T -> T) : forall sc (s : lstate T) tr o,
  run p f s sc = (tr, o) -> forall k c x, nth_error (invs tr) k = Some (c, x) ->
  x = Nat.iter k f (l_st s) /\ c = start_of s + gaps p sc k /\ (k < length sc)%nat.
Proof.
  induction sc as [|it sc IH]; intros s tr o H k c x Hk.
  - cbn in H. inversion H; subst. destruct k; discriminate Hk.
  - cbn [run] in H. destruct (step p f s it) as [es r] eqn:Hs.
    pose proof (step_invs _ _ _ _ _ _ Hs) as [[Hr Hi] | [Hi Hr]].
    + subst r. inversion H; subst. rewrite Hi in Hk. destruct k; discriminate Hk.
    + destruct Hr as [Hr | Hr]; subst r.
      * inversion H; subst. rewrite Hi in Hk. destruct k as [|k].
        { cbn in Hk. inversion Hk; subst. cbn. repeat split; lia. }
        { destruct k; discriminate Hk. }
      * destruct (run p f _ sc) as [es' o'] eqn:Hr'. inversion H; subst.
        rewrite invs_app, Hi in Hk. destruct k as [|k].
        { cbn in Hk. inversion Hk; subst. cbn. repeat split; lia. }
        { cbn [app nth_error] in Hk.
          destruct (IH _ _ _ Hr' _ _ _ Hk) as (Hx & Hc & Hl).
          cbn [l_st] in Hx. unfold start_of in Hc. cbn [l_clk l_tmo] in Hc.
          split; [|split].
          - rewrite Hx. cbn [Nat.iter nat_rect]. apply iter_shift.
          - cbn [gaps]. unfold gap. unfold start_of. lia.
          - cbn [length]. lia. }
Qed.

Lemma periodic_invs {T} p (f : T -> T) st0 c0 d0 sc :
  invs (fst (periodic p f st0 c0 d0 sc)) = invs (fst (run p f (init p st0 c0 d0) sc)).
Proof.
  unfold periodic. destruct (run p f (init p st0 c0 d0) sc) as [es o]. cbn [fst].
  destruct d0; reflexivity.
Qed.

(* the k-th invocation (k = 0, 1, ...): state and start clock *)
Lemma periodic_kth {T} p (f : T -> T) st0 c0 d0 sc k c x :
  nth_error (invs (fst (periodic p f st0 c0 d0 sc))) k = Some (c, x) ->
  x = Nat.iter k f st0 /\ c = c0 + Z.max 0 p + gaps p sc k /\ (k < length sc)%nat.
Proof.
  rewrite periodic_invs. destruct (run p f (init p st0 c0 d0) sc) as [es o] eqn:Hr. cbn [fst].
  intro Hk. exact (run_invs_nth p f sc _ _ _ Hr k c x Hk).
Qed.

Lemma periodic_threading {T} p (f : T -> T) st0 c0 d0 sc k c x c' x' :
  nth_error (invs (fst (periodic p f st0 c0 d0 sc))) k = Some (c, x) ->
  nth_error (invs (fst (periodic p f st0 c0 d0 sc))) (S k) = Some (c', x') ->
  x' = f x.
Proof.
  intros H1 H2. apply periodic_kth in H1. apply periodic_kth in H2.
  destruct H1 as (H1 & _), H2 as (H2 & _). subst. reflexivity.
Qed.

Lemma periodic_state_kth {T} p (f : T -> T) st0 c0 d0 sc k c x :
  nth_error (invs (fst (periodic p f st0 c0 d0 sc))) k = Some (c, x) -> x = Nat.iter k f st0.
Proof. intro H. apply periodic_kth in H. tauto. Qed.

Lemma periodic_first {T} p (f : T -> T) st0 c0 d0 sc c x :
  nth_error (invs (fst (periodic p f st0 c0 d0 sc))) 0 = Some (c, x) ->
  c = c0 + Z.max 0 p /\ c0 + p <= c /\ x = st0.
Proof.
  intro H. apply periodic_kth in H. destruct H as (Hx & Hc & _). cbn in Hc, Hx.
  destruct sc; cbn in Hc; repeat split; try assumption; lia.
Qed.

Lemma gaps_succ p : forall sc k it, nth_error sc k = Some it -> gaps p sc (S k) = gaps p sc k + gap p it.
Proof.
  induction sc as [|a sc IH]; intros k it H.
  - destruct k; discriminate H.
  - destruct k as [|k].
    + cbn in H. inversion H; subst. cbn. destruct sc; cbn; lia.
    + cbn [nth_error] in H. specialize (IH _ _ H).
      change (gaps p (a :: sc) (S (S k))) with (gap p a + gaps p sc (S k)).
      change (gaps p (a :: sc) (S k)) with (gap p a + gaps p sc k). lia.
Qed.

Lemma periodic_spacing {T} p (f : T -> T) st0 c0 d0 sc k c x c' x' :
  nth_error (invs (fst (periodic p f st0 c0 d0 sc))) k = Some (c, x) ->
  nth_error (invs (fst (periodic p f st0 c0 d0 sc))) (S k) = Some (c', x') ->
  exists it, nth_error sc k = Some it /\ c' = c + Z.max p (dur_of it) /\
             c + p <= c' /\ c + dur_of it <= c' /\ (dur_of it <= p -> c' = c + p).
Proof.
  intros H1 H2. apply periodic_kth in H1. apply periodic_kth in H2.
  destruct H1 as (_ & H1 & L1), H2 as (_ & H2 & _).
  destruct (nth_error sc k) as [it|] eqn:Hn.
  - exists it. rewrite (gaps_succ p sc k it Hn) in H2. unfold gap in H2.
    split; [reflexivity|]. repeat split; lia.
  - apply nth_error_None in Hn. lia.
Qed.

(* every gap is at least a period, and exactly one when the invocation did not overrun
   (the argument of PeriodicFacts.tsum_bound, on this model) *)
Lemma gaps_bound p : forall sc k, (k <= length sc)%nat ->
  Z.of_nat k * p <= gaps p sc k /\
  ((forall j it, (j < k)%nat -> nth_error sc j = Some it -> dur_of it <= p) -> gaps p sc k = Z.of_nat k * p).
Proof.
  induction sc as [|a sc IH]; intros [|k] Hk; cbn in Hk; try (cbn; lia).
  destruct (IH k ltac:(lia)) as [L O]. cbn [gaps]. unfold gap. split; [lia|].
  intro H. rewrite O by (intros j it Hj; apply (H (S j) it); lia).
  pose proof (H 0%nat a ltac:(lia) eq_refl). lia.
Qed.

(* exact period when no earlier invocation overran *)
Lemma periodic_kth_ontime {T} p (f : T -> T) st0 c0 d0 sc k c x : 0 <= p ->
  nth_error (invs (fst (periodic p f st0 c0 d0 sc))) k = Some (c, x) ->
  (forall j it, (j < k)%nat -> nth_error sc j = Some it -> dur_of it <= p) ->
  c = c0 + (Z.of_nat k + 1) * p.
Proof.
  intros Hp H Hd. apply periodic_kth in H. destruct H as (_ & Hc & Hl).
  rewrite (proj2 (gaps_bound p sc k ltac:(lia)) Hd) in Hc. lia.
Qed.

(* never early *)
Lemma periodic_kth_lower {T} p (f : T -> T) st0 c0 d0 sc k c x :
  nth_error (invs (fst (periodic p f st0 c0 d0 sc))) k = Some (c, x) ->
  c0 + (Z.of_nat k + 1) * p <= c.
Proof.
  intro H. apply periodic_kth in H. destruct H as (_ & Hc & Hl).
  pose proof (proj1 (gaps_bound p sc k ltac:(lia))). lia.
Qed.

Lemma step_acc {T} p (f : T -> T) (s : lstate T) it es r : step p f s it = (es, r) ->
  match r with
  | Fin Stopped => runA (l_flag s, PIdle) es = Some (true, PDead)
  | Fin Died => exists b, runA (l_flag s, PIdle) es = Some (b, PDead)
  | Fin Running => False
  | Cont s' => runA (l_flag s, PIdle) es = Some (l_flag s', PIdle)
  end.
Proof.
  unfold step. pose proof (wait_part_spec s it) as W.
  destruct (wait_part s it) as [[w fl] c]. destruct W as (_ & Aw & _).
  destruct (fl || i_pre it) eqn:Hs.
  - intros [= <- <-]. rewrite runA_app, Aw.
    destruct (i_pre it); [|rewrite orb_false_r in Hs; subst fl]; reflexivity.
  - apply orb_false_elim in Hs. destruct Hs as [-> ->].
    (* raise or return x dispose() in the window x dispose() during the invocation: each tail
       ETest false, [EDisp], EInv, [EDisp], ERaise/EEnd is accepted by evaluation *)
    destruct (i_raise it); intros [= <- <-]; rewrite !runA_app, Aw;
      destruct (i_win it), (i_in it); cbn; rewrite ?Z.eqb_refl; cbn; rewrite ?Z.eqb_refl; cbn; eauto.
Qed.

Lemma run_acc {T} p (f : T -> T) : forall sc (s : lstate T) tr o,
  run p f s sc = (tr, o) -> exists st', runA (l_flag s, PIdle) tr = Some st'.
Proof.
  induction sc as [|it sc IH]; intros s tr o H.
  - cbn in H. inversion H; subst. eexists; reflexivity.
  - cbn [run] in H. destruct (step p f s it) as [es r] eqn:Hs.
    pose proof (step_acc _ _ _ _ _ _ Hs) as A. destruct r as [s'|[| |]].
    + destruct (run p f s' sc) as [es' o'] eqn:Hr. inversion H; subst.
      destruct (IH _ _ _ Hr) as [st' Hst]. exists st'. rewrite runA_app, A. exact Hst.
    + inversion H; subst. eexists; exact A.
    + inversion H; subst. destruct A as [b A]. eexists; exact A.
    + destruct A.
Qed.

Lemma periodic_acc {T} p (f : T -> T) st0 c0 d0 sc :
  exists st', runA (false, PIdle) (fst (periodic p f st0 c0 d0 sc)) = Some st'.
Proof.
  unfold periodic. destruct (run p f (init p st0 c0 d0) sc) as [es o] eqn:Hr. cbn [fst].
  destruct (run_acc _ _ _ _ _ _ Hr) as [st' H]. cbn [init l_flag] in H.
  exists st'. destruct d0; cbn; exact H.
Qed.

Lemma runA_mid {T} st0 (l1 : list (ev T)) e l2 st : runA st0 (l1 ++ e :: l2) = Some st ->
  exists st1 st2, runA st0 l1 = Some st1 /\ delta st1 e = Some st2 /\ runA st2 l2 = Some st.
Proof.
  rewrite runA_app. destruct (runA st0 l1) as [st1|]; [|discriminate].
  cbn [runA]. destruct (delta st1 e) as [st2|] eqn:D; [|discriminate]. eauto.
Qed.

Lemma delta_disp {T} d q c st' : @delta T (d, q) (EDisp c) = Some st' ->
  st' = (true, q) /\ (forall c0, q = PArmed c0 -> c = c0).
Proof.
  destruct q as [|c0|]; cbn; [| |discriminate].
  - intros [= <-]. split; [reflexivity | discriminate].
  - destruct (Z.eqb_spec c c0); [|discriminate]. intros [= <-]. split; [reflexivity | congruence].
Qed.

Lemma delta_inv {T} d q c (x : T) st' : delta (d, q) (EInv c x) = Some st' -> q = PArmed c /\ st' = (d, PIdle).
Proof.
  destruct q as [|c0|]; cbn; try discriminate.
  destruct (Z.eqb_spec c c0); [|discriminate]. intros [= <-]. split; congruence.
Qed.

Lemma delta_test {T} d q c b st' : @delta T (d, q) (ETest c b) = Some st' ->
  b = d /\ st' = (d, if b then PDead else PArmed c).
Proof.
  destruct q; cbn; try discriminate; (destruct (Bool.eqb_spec b d); [|discriminate]); intros [= <-]; auto.
Qed.

Lemma delta_set {T} q (e : ev T) d' q' : delta (true, q) e = Some (d', q') -> d' = true.
Proof.
  destruct q, e; cbn; try discriminate;
    repeat match goal with |- context [if ?c then _ else _] => destruct c end;
    try discriminate; intros [= <- _]; reflexivity.
Qed.

Definition is_test {T} (e : ev T) : bool := match e with ETest _ _ => true | _ => false end.

(* from a phase that is not armed no invocation starts, and only a test that reports False arms *)
Lemma delta_unarmed {T} d q (e : ev T) d1 q1 : (forall c, q <> PArmed c) ->
  delta (d, q) e = Some (d1, q1) ->
  invs [e] = [] /\ (d = true -> d1 = true) /\ (d = true \/ is_test e = false -> forall c, q1 <> PArmed c).
Proof.
  intro Hq. destruct q as [|c0|]; [|destruct (Hq c0 eq_refl)|discriminate].
  destruct e as [c t|c b|c x|c|c|c]; cbn; try discriminate;
    try (intros [= <- <-]; split; [reflexivity|]; split; [auto|]; intros _ c'; discriminate).
  destruct b, d; cbn; try discriminate; intros [= <- <-]; (split; [reflexivity|]); (split; [auto|]).
  - intros _ c'; discriminate.
  - intros [|]; discriminate.
Qed.

(* armed at clock c with the flag set: a further dispose() at c changes nothing; anything else
   disarms, and is at most the armed invocation *)
Lemma delta_armed_set {T} c (e : ev T) d1 q1 : delta (true, PArmed c) e = Some (d1, q1) ->
  d1 = true /\
  ((e = EDisp c /\ q1 = PArmed c) \/
   ((forall c', q1 <> PArmed c') /\ (invs [e] = [] \/ exists x, invs [e] = [(c, x)]))).
Proof.
  destruct e as [c' t|c' b|c' x|c'|c'|c']; cbn;
    try (destruct b; cbn; [|discriminate]); try (destruct (Z.eqb_spec c' c) as [->|]; [|discriminate]);
    intros [= <- <-]; (split; [reflexivity|]).
  (* EDisp c: stays armed; EInv c x: the armed invocation; any other accepted event disarms *)
  all: first [ left; split; reflexivity
             | right; split; [discriminate | first [left; reflexivity | right; eexists; reflexivity]] ].
Qed.

(* what arms: a test that reports False; a dispose() leaves an armed loop armed *)
Lemma delta_arms {T} d1 q1 (e : ev T) d c : delta (d1, q1) e = Some (d, PArmed c) ->
  e = ETest c false \/ (e = EDisp c /\ q1 = PArmed c).
Proof.
  destruct q1 as [|c0|]; [| |discriminate]; destruct e as [c' t|c' b|c' x|c'|c'|c']; cbn; try discriminate;
    repeat match goal with |- context [if ?x then _ else _] => destruct x eqn:? end;
    try discriminate; intros [= _ <-]; auto.
  match goal with E : (_ =? _) = true |- _ => apply Z.eqb_eq in E; subst end. auto.
Qed.

Lemma dead_nil {T} (l : list (ev T)) d st : runA (d, PDead) l = Some st -> l = [].
Proof. destruct l as [|e l]; [reflexivity|]. cbn. discriminate. Qed.

Lemma flag_mono {T} : forall (l : list (ev T)) q d' q', runA (true, q) l = Some (d', q') -> d' = true.
Proof.
  induction l as [|e l IH]; intros q d' q' H; [injection H as <- _; reflexivity|].
  cbn [runA] in H. destruct (delta (true, q) e) as [[d1 q1]|] eqn:D; [|discriminate].
  rewrite (delta_set _ _ _ _ D) in H. eapply IH, H.
Qed.

(* the flag is set and the loop is not armed: no invocation can start any more *)
Lemma no_inv_idle {T} : forall (l : list (ev T)) q st, (forall c, q <> PArmed c) ->
  runA (true, q) l = Some st -> invs l = [].
Proof.
  induction l as [|e l IH]; intros q st Hq H; [reflexivity|].
  cbn [runA] in H. destruct (delta (true, q) e) as [[d1 q1]|] eqn:D; [|discriminate].
  destruct (delta_unarmed _ _ _ _ _ Hq D) as (Hi & Hd & Hq1). rewrite (Hd eq_refl) in H.
  change (e :: l) with ([e] ++ l). rewrite invs_app, Hi. exact (IH q1 st (Hq1 (or_introl eq_refl)) H).
Qed.

(* the flag is set while the loop is armed at clock c: at most the armed invocation, at clock c *)
Lemma one_inv_armed {T} : forall (l : list (ev T)) c st,
  runA (true, PArmed c) l = Some st -> invs l = [] \/ exists x, invs l = [(c, x)].
Proof.
  induction l as [|e l IH]; intros c st H; [left; reflexivity|].
  cbn [runA] in H. destruct (delta (true, PArmed c) e) as [[d1 q1]|] eqn:D; [|discriminate].
  destruct (delta_armed_set _ _ _ _ D) as (-> & [[-> ->]|[Hq Hi]]).
  - exact (IH c st H).
  - change (e :: l) with ([e] ++ l). rewrite invs_app, (no_inv_idle l q1 st Hq H), app_nil_r. exact Hi.
Qed.

(* after a dispose() call at most one invocation starts, and only at the very clock
   instant of that call (the one that had already passed its test) *)
Lemma acc_after_dispose {T} (l1 l2 : list (ev T)) c st0 st :
  runA st0 (l1 ++ EDisp c :: l2) = Some st -> invs l2 = [] \/ exists x, invs l2 = [(c, x)].
Proof.
  intro H. destruct (runA_mid _ _ _ _ _ H) as ([d q] & st2 & _ & D & H2).
  destruct (delta_disp _ _ _ _ D) as [-> Hc]. destruct q as [|c1|]; [left| |discriminate D].
  - eapply no_inv_idle; [|exact H2]. intros; discriminate.
  - rewrite (Hc c1 eq_refl). eapply one_inv_armed, H2.
Qed.

(* a test that follows a dispose() call reports True, and nothing follows it *)
Lemma acc_test_after_dispose {T} (l1 l2 l3 : list (ev T)) c c' b st0 st :
  runA st0 (l1 ++ EDisp c :: l2 ++ ETest c' b :: l3) = Some st -> b = true /\ l3 = [].
Proof.
  intro H. destruct (runA_mid _ _ _ _ _ H) as ([d q] & st2 & _ & D & H2). destruct (delta_disp _ _ _ _ D) as [-> _].
  destruct (runA_mid _ _ _ _ _ H2) as ([d2 q2] & st3 & R2 & D3 & H3). apply flag_mono in R2. subst d2.
  destruct (delta_test _ _ _ _ _ D3) as [-> ->]. apply dead_nil in H3. auto.
Qed.

(* the loop tests the flag before every invocation: an invocation at clock c is preceded
   by a test at clock c that reported False, with nothing but dispose() calls at c in between *)
Lemma armed_inv {T} : forall (l : list (ev T)) st0 d c,
  (forall c0, snd st0 <> PArmed c0) ->
  runA st0 l = Some (d, PArmed c) ->
  exists l0 w, l = l0 ++ ETest c false :: w /\ Forall (fun e => e = EDisp c) w.
Proof.
  intro l. induction l as [|e l IH] using rev_ind; intros st0 d c H0 H.
  - cbn in H. inversion H; subst. exfalso. apply (H0 c). reflexivity.
  - rewrite runA_app in H. destruct (runA st0 l) as [[d1 q1]|] eqn:R; [|discriminate].
    cbn [runA] in H. destruct (delta (d1, q1) e) as [st2|] eqn:D; [|discriminate]. injection H as ->.
    destruct (delta_arms _ _ _ _ _ D) as [->|[-> ->]].
    + exists l, []. split; [reflexivity | constructor].
    + destruct (IH _ _ _ H0 R) as (l0 & w & -> & F). exists l0, (w ++ [EDisp c]). split.
      * rewrite <- app_assoc. reflexivity.
      * apply Forall_app. split; [exact F | repeat constructor].
Qed.

Lemma acc_tested_before_inv {T} (l1 l2 : list (ev T)) c x st :
  runA (false, PIdle) (l1 ++ EInv c x :: l2) = Some st ->
  exists l0 w, l1 = l0 ++ ETest c false :: w /\ Forall (fun e => e = EDisp c) w.
Proof.
  intro H. destruct (runA_mid _ _ _ _ _ H) as ([d q] & st2 & R & D & _). destruct (delta_inv _ _ _ _ _ D) as [-> _].
  eapply armed_inv; [|exact R]. intros c0; cbn; discriminate.
Qed.

Lemma not_armed_without_test {T} : forall (l : list (ev T)) d q d' q',
  forallb (fun e => negb (is_test e)) l = true -> (forall c, q <> PArmed c) ->
  runA (d, q) l = Some (d', q') -> forall c, q' <> PArmed c.
Proof.
  induction l as [|e l IH]; intros d q d' q' Hn Hq H.
  - cbn in H. inversion H; subst. exact Hq.
  - cbn [forallb] in Hn. apply andb_true_iff in Hn. destruct Hn as [He Hn].
    cbn [runA] in H. destruct (delta (d, q) e) as [[d1 q1]|] eqn:D; [|discriminate].
    eapply IH; [exact Hn | | exact H].
    apply (proj2 (proj2 (delta_unarmed _ _ _ _ _ Hq D))). right. apply negb_true_iff, He.
Qed.

(* dispose() during an invocation (or anywhere before the loop's next test): that invocation
   is the last one *)
Lemma acc_dispose_during_inv {T} (l1 l2 l3 : list (ev T)) c x c' st0 st :
  runA st0 (l1 ++ EInv c x :: l2 ++ EDisp c' :: l3) = Some st ->
  forallb (fun e => negb (is_test e)) l2 = true -> invs l3 = [].
Proof.
  intros H Hn. destruct (runA_mid _ _ _ _ _ H) as ([d q] & st2 & _ & D & H2). destruct (delta_inv _ _ _ _ _ D) as [_ ->].
  destruct (runA_mid _ _ _ _ _ H2) as ([d2 q2] & st3 & R2 & D3 & H3). destruct (delta_disp _ _ _ _ D3) as [-> _].
  eapply no_inv_idle; [|exact H3].
  eapply (not_armed_without_test l2 d PIdle d2 q2 Hn); [intros; discriminate | exact R2].
Qed.

(* a raising invocation is the last event: the thread is dead *)
Lemma acc_raise_last {T} (l1 l2 : list (ev T)) c st0 st :
  runA st0 (l1 ++ ERaise c :: l2) = Some st -> l2 = [].
Proof.
  intro H. destruct (runA_mid _ _ _ _ _ H) as ([d q] & st2 & _ & D & H2).
  destruct q; cbn in D; try discriminate; injection D as <-; eapply dead_nil, H2.
Qed.

Lemma periodic_tested_before_every_invocation {T} p (f : T -> T) st0 c0 d0 sc l1 c x l2 :
  fst (periodic p f st0 c0 d0 sc) = l1 ++ EInv c x :: l2 ->
  exists l0 w, l1 = l0 ++ ETest c false :: w /\ Forall (fun e => e = EDisp c) w.
Proof.
  intro E. destruct (periodic_acc p f st0 c0 d0 sc) as [st A]. rewrite E in A.
  exact (acc_tested_before_inv l1 l2 c x st A).
Qed.

Lemma periodic_test_after_dispose {T} p (f : T -> T) st0 c0 d0 sc l1 c l2 c' b l3 :
  fst (periodic p f st0 c0 d0 sc) = l1 ++ EDisp c :: l2 ++ ETest c' b :: l3 ->
  b = true /\ l3 = [].
Proof.
  intro E. destruct (periodic_acc p f st0 c0 d0 sc) as [st A]. rewrite E in A.
  eapply acc_test_after_dispose; exact A.
Qed.

Lemma periodic_after_dispose {T} p (f : T -> T) st0 c0 d0 sc l1 c l2 :
  fst (periodic p f st0 c0 d0 sc) = l1 ++ EDisp c :: l2 ->
  invs l2 = [] \/ exists x, invs l2 = [(c, x)].
Proof.
  intro E. destruct (periodic_acc p f st0 c0 d0 sc) as [st A]. rewrite E in A.
  eapply acc_after_dispose; exact A.
Qed.

Lemma periodic_dispose_during_invocation {T} p (f : T -> T) st0 c0 d0 sc l1 c x l2 c' l3 :
  fst (periodic p f st0 c0 d0 sc) = l1 ++ EInv c x :: l2 ++ EDisp c' :: l3 ->
  forallb (fun e => negb (is_test e)) l2 = true -> invs l3 = [].
Proof.
  intros E Hn. destruct (periodic_acc p f st0 c0 d0 sc) as [st A]. rewrite E in A.
  eapply acc_dispose_during_inv; [exact A | exact Hn].
Qed.

Lemma periodic_raise_last {T} p (f : T -> T) st0 c0 d0 sc l1 c l2 :
  fst (periodic p f st0 c0 d0 sc) = l1 ++ ERaise c :: l2 -> l2 = [].
Proof.
  intro E. destruct (periodic_acc p f st0 c0 d0 sc) as [st A]. rewrite E in A.
  eapply acc_raise_last; exact A.
Qed.

(* dispose() before the thread runs: no invocation at all *)
Lemma periodic_disposed_before_start {T} p (f : T -> T) st0 c0 sc :
  invs (fst (periodic p f st0 c0 true sc)) = [].
Proof.
  destruct (periodic_acc p f st0 c0 true sc) as [st A].
  assert (E : exists l2, fst (periodic p f st0 c0 true sc) = [] ++ EDisp c0 :: l2).
  { unfold periodic. destruct (run p f (init p st0 c0 true) sc) as [es o]. exists es. reflexivity. }
  destruct E as [l2 E]. rewrite E in A |- *. cbn [app] in A. cbn [runA delta] in A.
  cbn [app invs]. eapply no_inv_idle; [|exact A]. intros; discriminate.
Qed.

(* existence: when nobody disposes and no invocation raises ([quiet] iterations, any
   durations), the loop invokes the action once per iteration and is still running; with
   [periodic_kth] this names the k-th invocation for every k below the number of iterations *)
Lemma run_quiet {T} p (f : T -> T) : forall durs s, l_flag s = false ->
  length (invs (fst (run p f s (map quiet durs)))) = length durs /\
  snd (run p f s (map quiet durs)) = Running.
Proof.
  induction durs as [|d durs IH]; intros s Hf; [split; reflexivity|].
  cbn [map run]. unfold step, wait_part, quiet at 1. cbn. rewrite Hf.
  destruct (0 <? l_tmo s); cbn;
  match goal with |- context [run p f ?s' _] =>
    destruct (IH s' eq_refl) as [A B]; destruct (run p f s' (map quiet durs)) as [es o] eqn:E end;
  cbn in *; rewrite ?invs_app; cbn; split; auto.
Qed.

Theorem periodic_quiet_runs {T} p (f : T -> T) st0 c0 durs :
  length (invs (fst (periodic p f st0 c0 false (map quiet durs)))) = length durs /\
  snd (periodic p f st0 c0 false (map quiet durs)) = Running.
Proof.
  destruct (run_quiet p f durs (init p st0 c0 false) eq_refl) as [A B]. split.
  - rewrite periodic_invs. exact A.
  - unfold periodic. destruct (run p f (init p st0 c0 false) (map quiet durs)) as [es o]. exact B.
Qed.
