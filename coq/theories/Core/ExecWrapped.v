(* C01: [exec] (Ops/Machine.v) IS the AutoDetachObserver model (Core/AutoDetach.v)
   put around the raw handlers.

   [exec] builds the library's plumbing into the way a mealy machine is run:
   inputs behind the source's terminal are dropped, nothing is emitted behind
   the operator's own terminal, and the handlers are no longer invoked then.
   Here the handlers are iterated RAW -- every input is handed to its handler,
   the state threads through, whatever the handlers answer ([raw]) -- and the
   two wrappers Observable.subscribe puts around a subscription are the
   AutoDetach model [run_calls]:
     - the wrapper around the operator's handlers sees the source's
       notifications as calls ([in_calls]); what it lets through ([delivered])
       is what the handlers get;
     - the wrapper around the downstream observer sees the handlers' answers as
       calls ([out_calls]); what it lets through is what the subscriber gets.
   THEOREM [exec_is_wrapped_raw]: that composition is [untag (exec m ins)], for
   every machine and every input list.  So the grammar of [exec] also follows
   from the AutoDetach theorem (C01_operator_grammar_from_autodetach);
   C01_operator_grammar and C01_pipeline_grammar themselves are read off the
   shape of [exec] (MachineFacts.exec_wellformed).

   The calls are flat ([during] = []) and their callbacks do not raise: a mealy
   handler runs to completion before the next input, and raising callbacks are
   handler results (Fail) in the machine model.  Re-entrant histories are
   covered by the AutoDetach theorems themselves, not by [exec]. *)
From RxVerif Require Import Base.Prelude Ops.Machine Ops.MachineFacts Core.AutoDetach Core.AutoDetachFacts.

Section Wrapped.
Context {A B : Type} (m : mealy A B).

(* the handlers, iterated without any liveness check *)
Fixpoint raw_from (s : m_state m) (ins : list (ev A)) : list (list B * fin) :=
  match ins with
  | [] => []
  | Next x :: rest => let '(s', outs, f) := m_next m s x in (outs, f) :: raw_from s' rest
  | Err e :: rest => m_err m s e :: raw_from s rest
  | Done :: rest => m_done m s :: raw_from s rest
  end.
Definition raw (ins : list (ev A)) : list (list B * fin) := m_pre m :: raw_from (m_init m) ins.

(* a notification as a call on a wrapper *)
Definition call_of {X} (e : ev X) : call X :=
  match e with
  | Next a => Call (KNext a) [] false
  | Err z => Call (KError z) [] false
  | Done => Call KCompleted [] false
  end.
Definition in_calls (ins : list (ev A)) : list (call A) := map call_of ins.

Definition fin_ev (f : fin) : list (ev B) :=
  match f with Cont => [] | Complete => [Done] | Fail z => [Err z] end.
Definition answer_evs (a : list B * fin) : list (ev B) := map Next (fst a) ++ fin_ev (snd a).
Definition out_calls (l : list (list B * fin)) : list (call B) := map call_of (flat_map answer_evs l).

(* the source's notifications up to and including its first terminal *)
Fixpoint upto_term {X} (l : list (ev X)) : list (ev X) :=
  match l with
  | [] => []
  | Next x :: t => Next x :: upto_term t
  | e :: _ => [e]
  end.

Lemma run_calls_app {X} (a b : list (call X)) : forall st,
  run_calls st (a ++ b)
  = (fst (run_calls (fst (run_calls st a)) b), snd (run_calls st a) ++ snd (run_calls (fst (run_calls st a)) b)).
Proof.
  induction a as [|c t IH]; intros st; cbn [app run_calls].
  - cbn [fst snd app]. destruct (run_calls st b); reflexivity.
  - destruct (run_call st c) as [st1 e1]. rewrite IH.
    destruct (run_calls st1 t) as [st2 e2]. cbn [fst snd].
    destruct (run_calls st2 b) as [st3 e3]. cbn [fst snd]. now rewrite app_assoc.
Qed.

Lemma run_calls_stopped {X} (l : list (ev X)) :
  run_calls true (map call_of l) = (true, []).
Proof.
  induction l as [|e t IH]; [reflexivity|]. cbn [map run_calls].
  destruct e; cbn [call_of]; rewrite run_call_unfold, IH; reflexivity.
Qed.

Lemma wrapper_on_flat_calls {X} (l : list (ev X)) :
  fst (run_calls false (map call_of l)) = existsb is_terminal l
  /\ delivered (snd (run_calls false (map call_of l))) = upto_term l.
Proof.
  induction l as [|e t [IH1 IH2]]; [split; reflexivity|]. cbn [map run_calls].
  destruct e as [a|z|]; cbn [call_of]; rewrite run_call_unfold; cbn [run_calls].
  - destruct (run_calls false (map call_of t)) as [st2 e2]. cbn [fst snd app delivered existsb is_terminal orb upto_term] in *.
    split; [exact IH1|]. now rewrite IH2.
  - rewrite run_calls_stopped. cbn. split; reflexivity.
  - rewrite run_calls_stopped. cbn. split; reflexivity.
Qed.

Lemma exec_from_upto_term (ins : list (ev A)) : forall s k,
  exec_from m s k ins = exec_from m s k (upto_term ins).
Proof.
  induction ins as [|e t IH]; intros s k; [reflexivity|].
  destruct e as [x|z|]; cbn [upto_term exec_from]; [|reflexivity|reflexivity].
  destruct (m_next m s x) as [[s' outs] f]. destruct (live f); [now rewrite IH|reflexivity].
Qed.

Lemma untag_emit k (outs : list B) f : untag (emit k outs f) = answer_evs (outs, f).
Proof. exact (MachineFacts.untag_emit k outs f). Qed.

Lemma terminal_answer (outs : list B) f :
  existsb is_terminal (answer_evs (outs, f)) = negb (live f).
Proof.
  unfold answer_evs. cbn [fst snd]. rewrite existsb_app.
  assert (E : existsb is_terminal (map (@Next B) outs) = false) by (induction outs; auto).
  rewrite E. destruct f; reflexivity.
Qed.

Lemma upto_term_answer (outs : list B) f rest :
  upto_term (answer_evs (outs, f) ++ rest)
  = answer_evs (outs, f) ++ (if live f then upto_term rest else []).
Proof.
  unfold answer_evs. cbn [fst snd]. induction outs as [|b t IH]; cbn [map app upto_term].
  - destruct f; reflexivity.
  - now rewrite IH.
Qed.

(* the downstream wrapper around the raw answers to the input cut at its first terminal;
   [k], the tag of the first step, is erased by [untag] *)
Lemma out_wrapper_from (ins : list (ev A)) : forall s k,
  upto_term (flat_map answer_evs (raw_from s (upto_term ins))) = untag (exec_from m s k ins).
Proof.
  induction ins as [|e t IH]; intros s k; [reflexivity|]. rewrite exec_from_handle, untag_app, untag_emit.
  transitivity (upto_term (answer_evs (snd (fst (handle m s e)), snd (handle m s e))
     ++ flat_map answer_evs (if is_terminal e then [] else raw_from (fst (fst (handle m s e))) (upto_term t)))).
  - destruct e as [x|z|]; cbn [upto_term raw_from handle is_terminal flat_map].
    + now destruct (m_next m s x) as [[s' outs] f].
    + now destruct (m_err m s z).
    + now destruct (m_done m s).
  - rewrite upto_term_answer. f_equal.
    destruct (live (snd (handle m s e))), (is_terminal e); [reflexivity|apply IH|reflexivity..].
Qed.

(* exec = output wrapper o raw handlers o input wrapper *)
Theorem exec_is_wrapped_raw (ins : list (ev A)) :
  delivered (snd (run_calls false
    (out_calls (raw (delivered (snd (run_calls false (in_calls ins))))))))
  = untag (exec m ins).
Proof.
  unfold in_calls, out_calls. rewrite (proj2 (wrapper_on_flat_calls ins)).
  rewrite (proj2 (wrapper_on_flat_calls _)).
  unfold raw, exec. destruct (m_pre m) as [outs f]. cbn [flat_map].
  rewrite upto_term_answer, untag_app, untag_emit. f_equal.
  destruct (live f); [apply out_wrapper_from|reflexivity].
Qed.

End Wrapped.
