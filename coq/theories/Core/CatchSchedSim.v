(* C42: the CatchScheduler run SIMULATES the run on the wrapped scheduler, for ALL raw programs
   (raising actions at any depth and raising periodic actions included) and ANY handler, up to
   the first exception the handler accepts.

   [run_catch c fuel h s hs] and [run c fuel s hs] are executed side by side.  As long as the handler
   has answered False to everything it was asked, the two states are equal field by field except
   that (1) pending bodies / periodic tables on the catch side are the wrapped ones and (2) the catch
   log has additional [EHandler] entries ([R]).  At the first accepted exception the runs part:
   the catch run swallows it and goes on, the inner run lets it escape; from then on only the
   logs written so far are related ([D]; both logs only grow).

   Consequences ([observe] = what the harness sees):
   - [catch_simulates_until_accept]: either no handler call of the whole run was answered True and
     the observations minus the handler calls ARE the inner scheduler's observations, or the
     observations before the first accepted call, minus handler calls, are a prefix of the inner
     scheduler's;
   - [catch_simulates_if_all_rejected]: if no handler call of the run was answered True (the
     reject-all handler, for one), the CatchScheduler is observationally the inner scheduler (plus
     the handler calls). *)
From RxVerif Require Import Base.Prelude Core.VTime Core.VTimeFacts Core.CatchSched Core.CatchSchedFacts.

Local Open Scope Z_scope.

Definition not_ehandler (e : event) : bool := match e with EHandler _ => false | _ => true end.
Definition not_handler (o : oev) : bool := match o with OHandler _ => false | _ => true end.

Definition wpay (h : Z -> bool) (p : payload) : payload :=
  match p with PAct l b => PAct l (cwrap_body h b) | PPer pid stt => PPer pid stt end.
Definition witem (h : Z -> bool) (it : item) : item :=
  Item (i_due it) (i_cnt it) (i_id it) (i_born it) (i_sclk it) (wpay h (i_pay it)).
Definition wpi (h : Z -> bool) (pi : pinfo) : pinfo :=
  PInfo (p_period pi) (cwrap_tab h (p_fn pi)) (p_disposed pi) (p_cur pi).

Definition rawpay (p : payload) : bool := match p with PAct _ b => forallb raw_cmd b | PPer _ _ => true end.
Definition rawq (q : list item) : Prop := Forall (fun it => rawpay (i_pay it) = true) q.
Definition rawp (ps : list pinfo) : Prop := Forall (fun pi => raw_tab (p_fn pi) = true) ps.

(* the handler has rejected everything so far *)
Definition noacc (h : Z -> bool) (l : list event) : Prop := forall e, In (EHandler e) l -> h e = false.

Section Sim.
Variable h : Z -> bool.

(* sc: state of the run through the CatchScheduler; si: state of the run on the inner scheduler *)
Definition R (sc si : st) : Prop :=
  clock sc = clock si /\ queue sc = map (witem h) (queue si) /\ count sc = count si /\
  enabled sc = enabled si /\ cancelled sc = cancelled si /\ next_id sc = next_id si /\
  pers sc = map (wpi h) (pers si) /\ npops sc = npops si /\
  filter not_ehandler (log sc) = log si /\ noacc h (log sc) /\ rawq (queue si) /\ rawp (pers si).

(* parted: an accepted handler call in the catch log; what was logged before it is related *)
Definition D (sc si : st) : Prop :=
  exists lc e l0 li, log sc = lc ++ EHandler e :: l0 /\ h e = true /\ noacc h l0 /\
                     log si = li ++ filter not_ehandler l0.

(* names the twelve conjuncts of [R]; the scripts below refer to these names *)
Ltac Rd H := destruct H as (Hclk & Hq & Hcnt & Hen & Hcan & Hnid & Hpers & Hnp & Hlog & Hacc & Hrq & Hrp).

Lemma R_init c0 : R (init c0) (init c0).
Proof. unfold R, noacc, rawq, rawp; simpl. repeat split; try constructor. intros e []. Qed.

Lemma noacc_cons e l : not_ehandler e = true -> noacc h l -> noacc h (e :: l).
Proof. intros K N x [E|Hin]; [subst e; discriminate K | apply N, Hin]. Qed.

Lemma R_set_clock sc si k : R sc si -> R (set_clock sc k) (set_clock si k).
Proof. intro H. Rd H. unfold R; simpl. repeat split; assumption. Qed.

Lemma R_set_enabled sc si b : R sc si -> R (set_enabled sc b) (set_enabled si b).
Proof. intro H. Rd H. unfold R; simpl. repeat split; assumption. Qed.

Lemma R_add_log sc si e : not_ehandler e = true -> R sc si -> R (add_log sc e) (add_log si e).
Proof.
  intros K H. Rd H. unfold R; simpl. rewrite K, Hlog. repeat split; try assumption. apply noacc_cons; assumption.
Qed.

Lemma R_handler sc si e : h e = false -> R sc si -> R (add_log sc (EHandler e)) si.
Proof.
  intros K H. Rd H. unfold R; simpl. repeat split; try assumption.
  intros x [E|Hin]; [inversion E; subst; exact K | apply Hacc, Hin].
Qed.

Lemma R_add_notes ns : forall sc si, R sc si -> R (add_notes sc ns) (add_notes si ns).
Proof. induction ns as [|n t IH]; intros sc si H; simpl; [exact H|]. apply IH, R_add_log; [reflexivity | exact H]. Qed.

Lemma key_lt_w x y : key_lt (witem h x) (witem h y) = key_lt x y.
Proof. reflexivity. Qed.

Lemma insert_w x : forall q, insert (witem h x) (map (witem h) q) = map (witem h) (insert x q).
Proof.
  induction q as [|y t IH]; simpl; [reflexivity|]. rewrite key_lt_w. destruct (key_lt x y); simpl; [reflexivity|].
  rewrite IH. reflexivity.
Qed.

Lemma R_enqueue sc si due p : rawpay p = true -> R sc si -> R (enqueue sc due (wpay h p)) (enqueue si due p).
Proof.
  intros Hp H. Rd H. unfold R, enqueue; simpl. rewrite Hclk, Hq, Hcnt, Hen, Hcan, Hnid, Hnp.
  repeat split; try assumption.
  - apply (insert_w (Item due (count si) (next_id si) (npops si) (clock si) p)).
  - apply Forall_insert; assumption.
Qed.

Lemma R_cancel_id sc si r : R sc si -> R (cancel_id sc r) (cancel_id si r).
Proof.
  intro H. pose proof H as H0. Rd H. unfold cancel_id. rewrite Hnid. destruct (r <? next_id si)%nat; [|exact H0].
  unfold R; simpl. rewrite Hcan, Hlog. repeat split; try assumption. apply noacc_cons; [reflexivity | assumption].
Qed.

Lemma R_set_pers sc si ps : rawp ps -> R sc si -> R (set_pers sc (map (wpi h) ps)) (set_pers si ps).
Proof. intros Hp H. Rd H. unfold R; simpl. repeat split; assumption. Qed.

Lemma map_set_nth {A B} (f : A -> B) x : forall l n, map f (set_nth n x l) = set_nth n (f x) (map f l).
Proof. induction l as [|y t IH]; intros [|n]; simpl; try reflexivity. rewrite IH. reflexivity. Qed.

Lemma nth_error_w ps pid : nth_error (map (wpi h) ps) pid = option_map (wpi h) (nth_error ps pid).
Proof. revert pid. induction ps as [|y t IH]; intros [|n]; simpl; auto. Qed.

Lemma rawp_nth ps pid pi : rawp ps -> nth_error ps pid = Some pi -> raw_tab (p_fn pi) = true.
Proof. intros Hp Hn. unfold rawp in Hp. rewrite Forall_forall in Hp. apply Hp. eapply nth_error_In; eassumption. Qed.

Lemma R_dispose_per sc si pid : R sc si -> R (dispose_per sc pid) (dispose_per si pid).
Proof.
  intro H. pose proof H as H0. Rd H. unfold dispose_per. rewrite Hpers, nth_error_w.
  destruct (nth_error (pers si) pid) as [pi|] eqn:Hn; simpl; [|exact H0].
  destruct (p_disposed pi); [exact H0|].
  apply R_cancel_id. apply R_add_log; [reflexivity|].
  change (PInfo (p_period pi) (cwrap_tab h (p_fn pi)) true (p_cur pi)) with (wpi h (PInfo (p_period pi) (p_fn pi) true (p_cur pi))).
  rewrite <- map_set_nth. apply R_set_pers; [|exact H0].
  apply Forall_set_nth; [|assumption]. simpl. eapply rawp_nth; eassumption.
Qed.

Lemma R_dequeue sc si q' : rawq q' -> R sc si -> R (dequeue sc (map (witem h) q')) (dequeue si q').
Proof.
  intros Hq' H. Rd H. unfold R, dequeue; simpl. rewrite Hnp, Hcnt. repeat split; try assumption.
  destruct q'; reflexivity.
Qed.

Lemma D_grow sc si sc' si' : D sc si -> steps sc sc' -> steps si si' -> D sc' si'.
Proof.
  intros (lc & e & l0 & li & Ec & He & Hn & Ei) Sc Si.
  destruct (steps_log_grows _ _ Sc) as [mc Emc]. destruct (steps_log_grows _ _ Si) as [mi Emi].
  exists (mc ++ lc), e, l0, (mi ++ li). rewrite Emc, Ec, Emi, Ei, !app_assoc. repeat split; assumption.
Qed.

(* the moment of parting *)
Lemma D_accept sc si e : h e = true -> R sc si ->
  D (add_log (add_log sc (ERaise e)) (EHandler e)) (add_log si (ERaise e)).
Proof.
  intros He H. Rd H. exists [], e, (ERaise e :: log sc), []. simpl. rewrite Hlog.
  repeat split; try assumption; try reflexivity. apply noacc_cons; [reflexivity | assumption].
Qed.

Definition Rb (rc ri : bres) : Prop :=
  match rc, ri with
  | BOk sc, BOk si => R sc si
  | BRaise e sc, BRaise e' si => e = e' /\ R sc si
  | _, _ => False
  end \/ D (bstate rc) (bstate ri).

Lemma raises_exec si k e : raw_cmd k = true -> raises k = Some e -> exec_cmd si k = BRaise e (add_log si (ERaise e)).
Proof.
  destruct k; simpl; try discriminate.
  - destruct (d <? 0); [|discriminate]. intros _ E. inversion E. reflexivity.
  - intros _ E. inversion E. reflexivity.
Qed.

(* the except clause of wrapped_action against the raising command of the plain action *)
Lemma handled_sim sc si e : R sc si ->
  Rb (exec_cmd sc (SHandled e (h e))) (BRaise e (add_log si (ERaise e))).
Proof.
  intro H. simpl. destruct (h e) eqn:He.
  - right. simpl. apply D_accept; assumption.
  - left. split; [reflexivity|]. apply R_handler; [exact He|]. apply R_add_log; [reflexivity | exact H].
Qed.

(* a command that does not raise, wrapped: same effect on related states *)
Lemma exec_cmd_sim sc si k : R sc si -> raw_cmd k = true -> raises k = None ->
  exists sc' si', exec_cmd sc (cwrap_cmd h k) = BOk sc' /\ exec_cmd si k = BOk si' /\ R sc' si'.
Proof.
  intros H Hr Hn. pose proof H as H0. Rd H.
  (* both sides return normally: it is enough to relate the two states *)
  assert (Ok : forall sc' si', R sc' si' -> exists a b, BOk sc' = BOk a /\ BOk si' = BOk b /\ R a b) by eauto.
  destruct k as [w l b|r| |d|e|e v|n|p f s0|pid]; try (simpl in Hn; discriminate);
    [rewrite cwrap_cmd_sched|..]; simpl in *.
  - (* SSched *) apply Ok. replace (due_of sc w) with (due_of si w) by (destruct w; simpl; rewrite ?Hclk; reflexivity).
    apply (R_enqueue sc si _ (PAct l b)); [exact Hr | exact H0].
  - (* SCancel *) apply Ok, R_cancel_id, H0.
  - (* SStop *) apply Ok, R_set_enabled, H0.
  - (* SSleep *) destruct (d <? 0); [discriminate|]. rewrite Hclk. apply Ok, R_set_clock, H0.
  - (* SNote *) apply Ok, R_add_log; [reflexivity | exact H0].
  - (* SPeriodic *) apply Ok. rewrite Hpers, map_length, Hnid, Hclk.
    change (PInfo p (cwrap_tab h f) false (next_id si)) with (wpi h (PInfo p f false (next_id si))).
    replace (map (wpi h) (pers si) ++ [wpi h (PInfo p f false (next_id si))])
      with (map (wpi h) (pers si ++ [PInfo p f false (next_id si)])) by (rewrite map_app; reflexivity).
    apply (R_enqueue _ _ _ (PPer (length (pers si)) s0)); [reflexivity|].
    apply R_set_pers; [|exact H0]. apply Forall_app. split; [assumption|]. constructor; [exact Hr | constructor].
  - (* SPCancel *) apply Ok, R_dispose_per, H0.
Qed.

Lemma exec_body_one s c : exec_body s [c] = exec_cmd s c.
Proof. simpl. destruct (exec_cmd s c); reflexivity. Qed.

Lemma exec_body_sim b : forall sc si, R sc si -> forallb raw_cmd b = true ->
  Rb (exec_body sc (cwrap_body h b)) (exec_body si b).
Proof.
  induction b as [|x t IH]; intros sc si H Hb; [left; exact H|].
  simpl in Hb. apply andb_true_iff in Hb. destruct Hb as [Hx Ht].
  cbn [cwrap_body]. destruct (raises x) as [e|] eqn:Er.
  - rewrite exec_body_one. cbn [exec_body]. rewrite (raises_exec si x e Hx Er). apply handled_sim, H.
  - destruct (exec_cmd_sim sc si x H Hx Er) as (sc' & si' & E1 & E2 & H'). cbn [exec_body]. rewrite E1, E2.
    apply IH; assumption.
Qed.

Lemma resched_disposed_sim sc si pid p : R sc si ->
  Rb (resched_disposed sc pid p) (resched_disposed si pid p).
Proof.
  intro H. left. unfold resched_disposed.
  pose proof (R_dispose_per sc si pid H) as H1. pose proof H1 as H2. Rd H2. rewrite Hnid, Hclk.
  apply R_cancel_id. apply (R_enqueue _ _ _ (PPer pid 0)); [reflexivity | exact H1].
Qed.

Lemma invoke_sim sc si p : R sc si -> rawpay p = true -> Rb (invoke sc (wpay h p)) (invoke si p).
Proof.
  intros H Hp. destruct p as [l b|pid stt]; simpl; [apply exec_body_sim; assumption|].
  pose proof H as H0. Rd H. rewrite Hpers, nth_error_w.
  destruct (nth_error (pers si) pid) as [pi|] eqn:Hn; simpl; [|left; exact H0].
  destruct (p_disposed pi) eqn:Hd; [left; exact H0|].
  pose proof (rawp_nth _ _ _ Hrp Hn) as Hraw.
  rewrite plookup_cwrap. rewrite Hclk.
  assert (H1 : forall ns, R (add_notes (add_log sc (ETick pid stt (clock si))) ns)
                            (add_notes (add_log si (ETick pid stt (clock si))) ns)).
  { intro ns. apply R_add_notes, R_add_log; [reflexivity | exact H0]. }
  pose proof (plookup_all raw_pres (p_fn pi) stt Hraw) as Hrawr.
  destruct (plookup (p_fn pi) stt) as [ns sl st'|ns|ns e|ns e v]; simpl cwrap_pres; cbv iota; try discriminate Hrawr.
  - (* PNext *)
    left. specialize (H1 ns). pose proof H1 as (Hclk2 & _ & _ & _ & _ & Hnid2 & Hpers2 & _ & _ & _ & _ & Hrp2).
    set (s2c := add_notes (add_log sc (ETick pid stt (clock si))) ns) in *.
    set (s2i := add_notes (add_log si (ETick pid stt (clock si))) ns) in *.
    cbn [clock set_clock set_pers pers next_id]. rewrite Hclk2, Hnid2, Hpers2.
    change (PInfo (p_period pi) (cwrap_tab h (p_fn pi)) false (next_id s2i))
      with (wpi h (PInfo (p_period pi) (p_fn pi) false (next_id s2i))).
    rewrite <- map_set_nth.
    apply (R_enqueue _ _ _ (PPer pid st')); [reflexivity|].
    apply R_set_pers.
    + apply Forall_set_nth; [exact Hraw | exact Hrp2].
    + apply R_set_clock. exact H1.
  - (* PNextDisposed *)
    apply resched_disposed_sim. apply H1.
  - (* PRaise on the inner scheduler, PHandled through the wrapper *)
    specialize (H1 ns).
    set (s2c := add_notes (add_log sc (ETick pid stt (clock si))) ns) in *.
    set (s2i := add_notes (add_log si (ETick pid stt (clock si))) ns) in *.
    cbn [wpi p_period].
    destruct (h e) eqn:He.
    + right. eapply D_grow; [apply D_accept; [exact He | exact H1] | | ].
      * apply resched_disposed_steps.
      * simpl. apply dispose_per_steps.
    + left. split; [reflexivity|]. apply R_dispose_per. apply R_handler; [exact He|].
      apply R_add_log; [reflexivity | exact H1].
Qed.

Lemma label_of_w p : label_of (wpay h p) = label_of p.
Proof. destruct p; reflexivity. Qed.

Lemma run_item_sim sc si it q' newclk bumped : R sc si -> queue si = it :: q' ->
  Rb (run_item sc (witem h it) (map (witem h) q') newclk bumped) (run_item si it q' newclk bumped).
Proof.
  intros H Eq0. pose proof H as H0. Rd H. unfold run_item. rewrite Eq0 in Hrq. inversion Hrq as [|? ? Hit Hq']; subst.
  cbn [witem i_id]. rewrite Hcan.
  assert (H1 : forall ran, R (add_log (set_clock (dequeue sc (map (witem h) q')) newclk) (mkpop sc (witem h it) newclk bumped ran))
                             (add_log (set_clock (dequeue si q') newclk) (mkpop si it newclk bumped ran))).
  { intro ran. unfold mkpop. cbn [witem i_id i_pay i_due i_sclk i_born]. rewrite label_of_w, Hclk, Hnp.
    apply R_add_log; [reflexivity|]. apply R_set_clock. apply R_dequeue; assumption. }
  destruct (negb (memb (i_id it) (cancelled si))); [|left; apply H1].
  cbn [i_pay]. apply invoke_sim; [apply H1 | exact Hit].
Qed.

Definition Ro (oc oi : outcome) : Prop :=
  match oc, oi with
  | Finished sc, Finished si | Deadlock sc, Deadlock si | OutOfFuel sc, OutOfFuel si => R sc si
  | Raised e sc, Raised e' si => e = e' /\ R sc si
  | _, _ => False
  end \/ D (ostate oc) (ostate oi).

(* one loop iteration on both sides: related results go on related, parted ones stay parted *)
Lemma pop_sim (kc ki : st -> outcome) rc ri : Rb rc ri ->
  (forall sc si, R sc si -> Ro (kc sc) (ki si)) ->
  (forall s, steps s (ostate (kc s))) -> (forall s, steps s (ostate (ki s))) ->
  Ro match rc with BOk s' => kc s' | BRaise e s' => Raised e s' end
     match ri with BOk s' => ki s' | BRaise e s' => Raised e s' end.
Proof.
  intros [S|S] Hk Tc Ti.
  - destruct rc, ri; try contradiction; [apply Hk, S | left; exact S].
  - right. destruct rc, ri; simpl in *; (eapply D_grow; [exact S | |]); auto using steps_refl.
Qed.

Lemma start_loop_sim c fuel : forall sc si sp, R sc si -> Ro (start_loop c fuel sc sp) (start_loop c fuel si sp).
Proof.
  induction fuel as [|fuel IH]; intros sc si sp H; pose proof H as H0; Rd H; simpl; rewrite Hen, Hq;
    (destruct (negb (enabled si)); [left; apply R_set_enabled, H0|]);
    (destruct (queue si) as [|it q'] eqn:Eq; simpl; [left; apply R_set_enabled, H0|]); [left; exact H0|].
  assert (Hstep : forall newclk bumped sp',
    Ro match run_item sc (witem h it) (map (witem h) q') newclk bumped with
       | BOk s' => start_loop c fuel s' sp' | BRaise e s' => Raised e s' end
       match run_item si it q' newclk bumped with
       | BOk s' => start_loop c fuel s' sp' | BRaise e s' => Raised e s' end).
  { intros newclk bumped sp'.
    apply (pop_sim (fun s => start_loop c fuel s sp') (fun s => start_loop c fuel s sp'));
      [apply run_item_sim; assumption | intros; apply IH; assumption | |]; intro; apply start_loop_steps. }
  cbn [witem i_due]. rewrite Hclk.
  destruct (clock si <? i_due it); [apply Hstep|].
  destruct (MAX_SPINNING <? sp)%nat; [|apply Hstep].
  destruct (c_kind c); [apply Hstep|]. destruct (c_prop_bump c); simpl; [left; exact H0 | apply Hstep].
Qed.

Lemma start_sim c fuel sc si : R sc si -> Ro (start c fuel sc) (start c fuel si).
Proof.
  intro H. pose proof H as H0. Rd H. unfold start. rewrite Hen. destruct (enabled si); [left; exact H0|].
  apply start_loop_sim, R_set_enabled, H0.
Qed.

Lemma finish_adv_sim sc si t : R sc si -> Ro (finish_adv sc t) (finish_adv si t).
Proof.
  intro H. pose proof H as H0. Rd H. left. unfold finish_adv. rewrite Hclk. apply R_set_enabled.
  destruct (clock si <? t); [apply R_set_clock|]; exact H0.
Qed.

Lemma advance_loop_sim fuel t : forall sc si, R sc si -> Ro (advance_loop fuel sc t) (advance_loop fuel si t).
Proof.
  induction fuel as [|fuel IH]; intros sc si H; pose proof H as H0; Rd H; simpl; rewrite Hen, Hq;
    (destruct (negb (enabled si)); [apply finish_adv_sim, H0|]);
    (destruct (queue si) as [|it q'] eqn:Eq; simpl; [apply finish_adv_sim, H0|]);
    (destruct (t <? i_due it); [apply finish_adv_sim, H0|]); [left; exact H0|].
  rewrite Hclk.
  apply (pop_sim (fun s => advance_loop fuel s t) (fun s => advance_loop fuel s t));
    [apply run_item_sim; assumption | exact IH | |]; intro; apply advance_loop_steps.
Qed.

Lemma advance_to_sim fuel sc si t : R sc si -> Ro (advance_to fuel sc t) (advance_to fuel si t).
Proof.
  intro H. pose proof H as H0. Rd H. unfold advance_to. rewrite Hclk, Hen.
  destruct (t <? clock si); [left; split; [reflexivity | exact H0]|].
  destruct ((clock si =? t) || enabled si); [left; exact H0|].
  apply advance_loop_sim, R_set_enabled, H0.
Qed.

Lemma step_t_sim c fuel sc si cmd : R sc si -> raw_t cmd = true ->
  Ro (step_t c fuel sc (cwrap_t h cmd)) (step_t c fuel si cmd).
Proof.
  intros H Hr. destruct cmd as [k| | |t|d]; simpl.
  - destruct (raises k) as [e|] eqn:Er.
    + (* a top-level call that raises by itself is not wrapped *)
      assert (Ek : cwrap_cmd h k = k) by (destruct k; simpl in *; try discriminate; reflexivity).
      rewrite Ek, !(raises_exec _ k e Hr Er). simpl. left. split; [reflexivity|].
      apply R_add_log; [reflexivity | exact H].
    + destruct (exec_cmd_sim sc si k H Hr Er) as (sc' & si' & E1 & E2 & H'). rewrite E1, E2. left. exact H'.
  - apply start_sim, H.
  - apply start_sim. unfold silent.
    apply (R_enqueue _ _ _ (PAct (-1) [])); [reflexivity|].
    apply (R_enqueue _ _ _ (PAct (-1) [])); [reflexivity|].
    apply (R_enqueue _ _ _ (PAct (-1) [])); [reflexivity|]. exact H.
  - apply advance_to_sim, H.
  - pose proof H as H0. Rd H. rewrite Hclk. apply advance_to_sim, H0.
Qed.

Definition Rr (rc ri : result) : Prop :=
  match rc, ri with
  | RDone sc, RDone si | RDeadlock sc, RDeadlock si | ROutOfFuel sc, ROutOfFuel si => R sc si
  | _, _ => False
  end \/ D (state_of rc) (state_of ri).

(* the rest of a history only extends the log of the state its first command ended in *)
Lemma run_cons_steps c fuel s cmd t : steps (ostate (step_t c fuel s cmd)) (state_of (run c fuel s (cmd :: t))).
Proof.
  simpl. destruct (step_t c fuel s cmd) as [s'|e s'|s'|s']; simpl; try apply steps_refl;
    (eapply steps_trans; [|apply run_steps]); repeat apply steps_log; try apply steps_refl; try exact I; reflexivity.
Qed.

Lemma D_add_log sc si ec ei : D sc si -> D (add_log sc ec) si /\ D sc (add_log si ei) /\ D (add_log sc ec) (add_log si ei).
Proof.
  intros (lc & e & l0 & li & Ec & He & Hn & Ei).
  repeat split.
  - exists (ec :: lc), e, l0, li. simpl. rewrite Ec. repeat split; assumption.
  - exists lc, e, l0, (ei :: li). simpl. rewrite Ei. repeat split; assumption.
  - exists (ec :: lc), e, l0, (ei :: li). simpl. rewrite Ec, Ei. repeat split; assumption.
Qed.

Lemma run_sim c fuel : forall hs sc si, R sc si -> forallb raw_t hs = true ->
  Rr (run c fuel sc (catch_history h hs)) (run c fuel si hs).
Proof.
  induction hs as [|cmd t IH]; intros sc si H Hr; [left; exact H|].
  simpl in Hr. apply andb_true_iff in Hr. destruct Hr as [Hc Ht].
  destruct (step_t_sim c fuel sc si cmd H Hc) as [S|S].
  - (* still related: both sides log the same clock (and exception) and go on *)
    cbn [catch_history map run].
    destruct (step_t c fuel sc (cwrap_t h cmd)) as [sc'|ec sc'|sc'|sc'], (step_t c fuel si cmd) as [si'|ei si'|si'|si'];
      try (exfalso; exact S); try (left; exact S).
    + pose proof S as S0. Rd S. rewrite Hclk. apply IH; [|exact Ht]. apply R_add_log; [reflexivity | exact S0].
    + destruct S as [<- S]. pose proof S as S0. Rd S. rewrite Hclk. apply IH; [|exact Ht].
      apply R_add_log; [reflexivity|]. apply R_add_log; [reflexivity | exact S0].
  - right. eapply D_grow; [exact S | apply (run_cons_steps c fuel sc (cwrap_t h cmd) (catch_history h t)) | apply run_cons_steps].
Qed.

(* [oe e]: what [obs_of] makes of one log entry *)
Definition oe (e : event) : list oev :=
  match e with
  | EPop r => if r_ran r && (0 <=? r_label r) then [ORun (r_label r) (r_clk r)] else []
  | ETick pid stt clk => [OTick pid stt clk]
  | EHandler e => [OHandler e]
  | ENote n => [ONote n]
  | EExc e => [OExc e]
  | EClock k => [OClock k]
  | ECancel _ | EPDispose _ | ERaise _ => []
  end.

Lemma obs_of_oe e t acc : obs_of (e :: t) acc = obs_of t (oe e ++ acc).
Proof. destruct e; simpl; try reflexivity. destruct (r_ran r && (0 <=? r_label r)); reflexivity. Qed.

Lemma obs_of_acc l : forall acc, obs_of l acc = obs_of l [] ++ acc.
Proof.
  induction l as [|e t IH]; intro acc; [reflexivity|]. rewrite !obs_of_oe, (IH (oe e ++ acc)), (IH (oe e ++ [])).
  rewrite app_nil_r, <- app_assoc. reflexivity.
Qed.

Lemma obs_of_app a b acc : obs_of (a ++ b) acc = obs_of b [] ++ obs_of a acc.
Proof.
  revert acc. induction a as [|e t IH]; intro acc; [apply obs_of_acc|].
  change ((e :: t) ++ b) with (e :: (t ++ b)). rewrite (obs_of_oe e (t ++ b)), (obs_of_oe e t). apply IH.
Qed.

Lemma obs_of_cons e t : obs_of (e :: t) [] = obs_of t [] ++ oe e.
Proof. rewrite obs_of_oe, obs_of_acc, app_nil_r. reflexivity. Qed.

Lemma obs_of_keep l : obs_of (filter not_ehandler l) [] = filter not_handler (obs_of l []).
Proof.
  induction l as [|e t IH]; [reflexivity|]. rewrite (obs_of_cons e t), filter_app, <- IH.
  destruct e; cbn [filter not_ehandler]; rewrite ?obs_of_cons; cbn [oe filter not_handler]; rewrite ?app_nil_r; try reflexivity.
  destruct (r_ran r && (0 <=? r_label r)); reflexivity.
Qed.

Lemma obs_handler_in l e : In (OHandler e) (obs_of l []) -> In (EHandler e) l.
Proof.
  induction l as [|x t IH]; [intros []|]. rewrite obs_of_oe, obs_of_acc. intro Hin. apply in_app_or in Hin.
  destruct Hin as [Hin|Hin]; [right; apply IH, Hin|]. rewrite app_nil_r in Hin.
  destruct x; simpl in Hin; try (destruct (r_ran r && (0 <=? r_label r))); simpl in Hin;
    try (destruct Hin as [Hin|[]]; try discriminate Hin); try (destruct Hin; fail).
  inversion Hin; subst. left. reflexivity.
Qed.

Definition tail_of (r : result) : list oev :=
  match r with RDone _ => [] | RDeadlock _ => [OHang] | ROutOfFuel _ => [OFuel] end.

Lemma observe_tail r : observe r = obs_of (log (state_of r)) [] ++ tail_of r.
Proof. destruct r; simpl; [rewrite app_nil_r; reflexivity | apply obs_of_acc | apply obs_of_acc]. Qed.

(* no handler call in [tail_of] *)
Lemma tail_nh r : filter not_handler (tail_of r) = tail_of r /\ forall e, ~ In (OHandler e) (tail_of r).
Proof. destruct r; simpl; split; try reflexivity; intros e H; try (destruct H as [H|[]]; discriminate H); destruct H. Qed.

Theorem run_observe_sim c fuel hs sc si : R sc si -> forallb raw_t hs = true ->
  let oc := observe (run c fuel sc (catch_history h hs)) in
  let oi := observe (run c fuel si hs) in
  ((forall e, In (OHandler e) oc -> h e = false) /\ filter not_handler oc = oi) \/
  (exists pre e post rest, oc = pre ++ OHandler e :: post /\ h e = true /\
     (forall e', In (OHandler e') pre -> h e' = false) /\ oi = filter not_handler pre ++ rest).
Proof.
  intros H Hr oc oi. pose proof (run_sim c fuel hs sc si H Hr) as S. unfold oc, oi. clear oc oi.
  set (rc := run c fuel sc (catch_history h hs)) in *. set (ri := run c fuel si hs) in *.
  rewrite (observe_tail rc), (observe_tail ri).
  destruct S as [S|S].
  - left.
    assert (E : R (state_of rc) (state_of ri) /\ tail_of rc = tail_of ri).
    { destruct rc, ri; simpl in S; try (exfalso; exact S); split; try exact S; reflexivity. }
    destruct E as [E Et]. Rd E. split.
    + intros e Hin. apply in_app_or in Hin. destruct Hin as [Hin|Hin]; [apply Hacc, obs_handler_in, Hin|].
      exfalso. exact (proj2 (tail_nh rc) e Hin).
    + rewrite filter_app, (proj1 (tail_nh rc)), <- obs_of_keep, Hlog, Et. reflexivity.
  - right. destruct S as (lc & e & l0 & li & Ec & He & Hn & Ei).
    exists (obs_of l0 []), e, (obs_of lc [] ++ tail_of rc), (obs_of li [] ++ tail_of ri).
    split; [|split; [exact He|split]].
    + rewrite Ec, obs_of_app, obs_of_cons. cbn [oe]. rewrite <- !app_assoc. reflexivity.
    + intros e' Hin. apply Hn, obs_handler_in, Hin.
    + rewrite Ei, obs_of_app, obs_of_keep, <- app_assoc. reflexivity.
Qed.
End Sim.

(* ANY handler, ANY raw history: up to the first accepted exception the CatchScheduler run shows
   what the inner scheduler shows (plus the handler calls) *)
Theorem catch_simulates_until_accept c fuel h c0 hs : forallb raw_t hs = true ->
  let oc := observe (run_catch c fuel h (init c0) hs) in
  let oi := observe (run c fuel (init c0) hs) in
  ((forall e, In (OHandler e) oc -> h e = false) /\ filter not_handler oc = oi) \/
  (exists pre e post rest, oc = pre ++ OHandler e :: post /\ h e = true /\
     (forall e', In (OHandler e') pre -> h e' = false) /\ oi = filter not_handler pre ++ rest).
Proof. intro Hr. unfold run_catch. apply run_observe_sim; [apply R_init | exact Hr]. Qed.

(* if no handler call of the run was answered True, the two runs show the same *)
Theorem catch_simulates_if_all_rejected c fuel h c0 hs : forallb raw_t hs = true ->
  (forall e, In (OHandler e) (observe (run_catch c fuel h (init c0) hs)) -> h e = false) ->
  filter not_handler (observe (run_catch c fuel h (init c0) hs)) = observe (run c fuel (init c0) hs).
Proof.
  intros Hr Hall. destruct (catch_simulates_until_accept c fuel h c0 hs Hr) as [[_ E]|(pre & e & post & rest & Eo & He & _)].
  - exact E.
  - exfalso. assert (Hf : h e = false) by (apply Hall; rewrite Eo; apply in_or_app; right; left; reflexivity).
    rewrite He in Hf. discriminate Hf.
Qed.
