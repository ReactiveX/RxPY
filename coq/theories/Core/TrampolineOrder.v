(* Run order on a trampoline that a single thread can reach (Core/Trampoline.v), for all
   schedules of all threads.  Used by Props/C30.v. *)
From RxVerif Require Import Base.Prelude Core.Trampoline Core.TrampolineFacts.
From Coq Require Import Sorting.Sorted.

(* run order: due time, then creation order *)
Definition plt (x y : item) : Prop := i_due x < i_due y \/ (i_due x = i_due y /\ (i_id x < i_id y)%nat).

Lemma sorted_app_inv : forall (R : item -> item -> Prop) a b,
  StronglySorted R (a ++ b) -> StronglySorted R a /\ StronglySorted R b /\
  Forall (fun x => Forall (R x) b) a.
Proof.
  induction a; cbn; intros b H.
  - repeat split; auto. constructor.
  - apply StronglySorted_inv in H. destruct H as [Hs Hh]. apply Forall_app in Hh.
    destruct (IHa _ Hs) as (A & B & C). repeat split; auto; constructor; tauto.
Qed.

Lemma sorted_app : forall (R : item -> item -> Prop) a b,
  StronglySorted R a -> StronglySorted R b -> Forall (fun x => Forall (R x) b) a ->
  StronglySorted R (a ++ b).
Proof.
  induction a; cbn; intros b A B C; auto.
  apply StronglySorted_inv in A. apply Forall_cons_iff in C.
  constructor; [apply IHa; tauto | apply Forall_app; tauto].
Qed.

(* inserting the newest item (largest count, largest id) into a queue sorted by (due, id) *)
Lemma insert_sorted_q : forall z q,
  StronglySorted plt q ->
  Forall (fun x => i_cnt x < i_cnt z) q -> Forall (fun x => (i_id x < i_id z)%nat) q ->
  StronglySorted plt (insert z q).
Proof.
  induction q as [|y q IH]; cbn; intros S C I.
  - repeat constructor.
  - apply StronglySorted_inv in S. destruct S as [Sq Sy].
    apply Forall_cons_iff in C. destruct C as [Cy C]. apply Forall_cons_iff in I. destruct I as [Iy I].
    unfold key_lt. destruct (i_due z =? i_due y) eqn:E.
    + replace (i_cnt z <? i_cnt y) with false by lia.
      constructor; auto. apply Forall_forall. intros u Hu. apply insert_In in Hu. destruct Hu as [->|Hu].
      * right. split; [lia|auto].
      * rewrite Forall_forall in Sy; auto.
    + destruct (i_due z <? i_due y) eqn:E2.
      * constructor; [constructor; auto|]. constructor; [left; lia|].
        rewrite Forall_forall in *. intros u Hu. specialize (Sy _ Hu). unfold plt in *. lia.
      * constructor; auto. apply Forall_forall. intros u Hu. apply insert_In in Hu. destruct Hu as [->|Hu].
        -- left. lia.
        -- rewrite Forall_forall in Sy; auto.
Qed.

Lemma insert_sorted : forall z r q,
  StronglySorted plt (r ++ q) ->
  Forall (fun x => i_cnt x < i_cnt z) q -> Forall (fun x => (i_id x < i_id z)%nat) (r ++ q) ->
  Forall (fun x => i_due x <= i_due z) r ->
  StronglySorted plt (r ++ insert z q).
Proof.
  intros z r q S C I D. destruct (sorted_app_inv _ _ _ S) as (Sr & Sq & X).
  apply Forall_app in I. destruct I as [Ir Iq].
  apply sorted_app; auto.
  - apply insert_sorted_q; auto.
  - rewrite Forall_forall in *. intros x Hx. apply Forall_forall. intros u Hu.
    apply insert_In in Hu. destruct Hu as [->|Hu].
    + specialize (D _ Hx). specialize (Ir _ Hx). unfold plt. lia.
    + specialize (X _ Hx). rewrite Forall_forall in X. auto.
Qed.

(* what the topmost drain loop of k on a stack holds ready; the item that the call on top of the
   stack is about to enqueue on k *)
Fixpoint ready_of (k : key) (s : list frame) : list item :=
  match s with
  | [] => []
  | FRun k' r _ :: rest => if key_eqb k k' then r else ready_of k rest
  | _ :: rest => ready_of k rest
  end.

Definition enq_of (k : key) (s : list frame) : option item :=
  match s with
  | FEnq k' z :: _ => if key_eqb k k' then Some z else None
  | _ => None
  end.

Definition no_past (k : key) (lg : list event) : Prop :=
  forall id th due clk, In (ECreate k id th due clk) lg -> clk <= due.

(* Trampoline k and the stack of the one thread that can reach it.  If nothing was scheduled in
   the past, the ready items followed by the queue are in run order; the counts in the queue are
   below the counter (so [insert] puts a new item behind those with its due time) and all ids
   below the id counter; an item about to be enqueued is newer than all of them and due no
   earlier than the ready ones (they were due when it was built). *)
Definition ord_ok (k : key) (w : world) (s : list frame) : Prop :=
  (no_past k (log w) -> StronglySorted plt (ready_of k s ++ t_queue (tramps w k))) /\
  Forall (fun x => i_cnt x < t_count (tramps w k)) (t_queue (tramps w k)) /\
  Forall (fun x => (i_id x < next_id w)%nat) (ready_of k s ++ t_queue (tramps w k)) /\
  (forall z, enq_of k s = Some z ->
     (i_id z < next_id w)%nat /\
     Forall (fun x => (i_id x < i_id z)%nat) (ready_of k s ++ t_queue (tramps w k)) /\
     (no_past k (log w) -> Forall (fun x => i_due x <= i_due z) (ready_of k s))).

Lemma ready_of_none : forall k s, sumf (run_c k) s = 0 -> ready_of k s = [].
Proof.
  induction s as [|f s IH]; cbn; intros H; auto.
  pose proof (runs_nonneg k s). pose proof (run_c_nonneg k f).
  destruct f as [top cs|k0 it|k0 id l|l|k0 r ph]; cbn in *; try (apply IH; lia).
  destruct (key_eqb k k0); [lia|apply IH; lia].
Qed.

Lemma no_past_cons : forall k e lg, no_past k (e :: lg) -> no_past k lg.
Proof. intros k e lg H id th due clk Hin. eapply H. right; eauto. Qed.

Lemma inner_enq_of : forall k s, Forall inner s -> enq_of k s = None.
Proof. intros k [|f s] H; cbn; auto. inversion H; subst. destruct f; cbn in *; auto; contradiction. Qed.

Lemma Forall_lt_mono : forall (l : list item) (a b : nat), (a <= b)%nat ->
  Forall (fun x => (i_id x < a)%nat) l -> Forall (fun x => (i_id x < b)%nat) l.
Proof. intros. eapply Forall_impl; [|eauto]. cbn; intros; lia. Qed.

Lemma ready_due : forall clk lg th k s,
  Forall (frame_ok clk lg th) s -> Forall (fun x => i_due x <= clk) (ready_of k s).
Proof.
  induction 1 as [|f s Hf _ IH]; cbn [ready_of]; [constructor|].
  destruct f as [top cs|k0 it|k0 id l|l|k0 r ph]; auto. destruct (key_eqb k k0); auto.
  destruct Hf as [_ Hf]. eapply Forall_impl; [|exact Hf]. cbn; tauto.
Qed.

(* schedule*, or ensure_trampoline on an idle trampoline: the item is built.  Nothing is scheduled in
   the past, so it is due no earlier than what a drain loop of this thread holds ready *)
Lemma ord_create : forall k0 th w s wh l b st,
  Forall (fun x => i_due x <= clock w) (ready_of k0 st) -> ord_ok k0 w st ->
  ord_ok k0 (create_item w th s wh l b) (FEnq (tkey s th) (new_item w wh l b) :: st).
Proof.
  intros k0 th w s wh l b st RD (O1 & O2 & O3 & _). unfold ord_ok. wsimpl. cbn [ready_of enq_of].
  split; [|split; [|split]]; auto.
  - intro NP. apply O1. apply no_past_cons in NP. exact NP.
  - eapply Forall_lt_mono; [|exact O3]. lia.
  - intros z Hz. destruct (key_eqb k0 (tkey s th)) eqn:E; [|discriminate].
    apply key_eqb_eq in E. injection Hz as <-. cbn [new_item i_id i_due]. repeat split; auto.
    intro NP. rewrite E in NP. pose proof (NP _ _ _ _ (or_introl eq_refl)) as D.
    eapply Forall_impl; [|exact RD]. cbn. intros. lia.
Qed.

(* run(item) under the lock: the item, the newest of all, goes into the queue *)
Lemma ord_enq : forall k w it st st' tr e,
  ord_ok k w (FEnq k it :: st) -> ready_of k st' = ready_of k st -> enq_of k st' = None ->
  t_queue tr = insert (Item (i_due it) (t_count (tramps w k)) (i_id it) (i_label it) (i_body it))
                      (t_queue (tramps w k)) ->
  t_count tr = t_count (tramps w k) + 1 ->
  ord_ok k (add_log (set_tramp w k tr) e) st'.
Proof.
  intros k w it st st' tr e (O1 & O2 & O3 & O4) R EN Q C. cbn [ready_of enq_of] in *.
  rewrite key_eqb_refl in O4. destruct (O4 it eq_refl) as (Z1 & Z2 & Z3).
  unfold ord_ok. wsimpl. unfold upd. rewrite key_eqb_refl, R, EN, Q, C.
  split; [|split; [|split]]; [| | |intros; discriminate].
  - intro NP. apply no_past_cons in NP. apply insert_sorted; cbn [i_cnt i_id i_due]; auto.
  - apply insert_Forall; cbn [i_cnt]; [lia|]. eapply Forall_impl; [|exact O2]. cbn; intros; lia.
  - apply Forall_app in O3. destruct O3 as [O3a O3b]. apply Forall_app. split; auto.
    apply insert_Forall; cbn [i_id]; auto.
Qed.

(* the queue of k and its counter stay, drain loops give up ready items from the front, a call
   about to enqueue stays or has gone *)
Lemma ord_weaken : forall k w w' s s' a,
  ord_ok k w s -> ext w w' ->
  t_queue (tramps w' k) = t_queue (tramps w k) -> t_count (tramps w' k) = t_count (tramps w k) ->
  ready_of k s = a ++ ready_of k s' ->
  enq_of k s' = None \/ a = [] /\ enq_of k s' = enq_of k s ->
  ord_ok k w' s'.
Proof.
  intros k w w' s s' a (O1 & O2 & O3 & O4) (_ & (evs & L) & N) Q C R E. unfold ord_ok.
  rewrite Q, C. rewrite R, <- app_assoc in *.
  assert (NP : no_past k (log w') -> no_past k (log w)).
  { intros H id th due clk Hin. eapply H. rewrite L. apply in_or_app; right; eauto. }
  split; [|split; [|split]].
  - intro H. apply sorted_app_inv in O1; [tauto | exact (NP H)].
  - exact O2.
  - apply Forall_app in O3. eapply Forall_lt_mono; [exact N | tauto].
  - intros z Hz. destruct E as [E|[-> E]]; [congruence|]. rewrite E in Hz.
    destruct (O4 z Hz) as (A & B & D). repeat split; auto. lia.
Qed.

Lemma ord_step : forall c th w t w' t' k0,
  mstep c th w t = Some (w', t') ->
  Forall (frame_ok (clock w) (log w) th) (stk t) ->
  inner_below (stk t) ->
  runs k0 t <= (if t_idle (tramps w k0) then 0 else 1) ->
  ord_ok k0 w (stk t) -> ord_ok k0 w' (stk t').
Proof.
  intros c th w t w' t' k0 H F ET RC O.
  pose proof (ready_due _ _ _ k0 _ F) as RD. pose proof (mstep_ext _ _ _ _ _ _ H) as X.
  (* the drain loop of k0 is the top frame, or k0 is idle: no drain loop of k0 is below *)
  assert (RR : forall f rest, stk t = f :: rest -> run_c k0 f = 1 \/ t_idle (tramps w k0) = true ->
                              ready_of k0 rest = []).
  { intros f rest E D. apply ready_of_none. unfold runs in RC. rewrite E in RC. cbn [sumf] in RC.
    pose proof (runs_nonneg k0 rest). pose proof (run_c_nonneg k0 f).
    destruct D as [D|D]; [destruct (t_idle (tramps w k0)) | rewrite D in RC]; lia. }
  clear F RC. cbn [stk] in *.
  mstep_inv H; cbn [inner_below] in ET;
  try (simple apply ord_create; [exact RD | exact O]);
  try (keygoal k0 k);
  (* most steps leave alone what ord_ok k0 speaks of *)
  try (apply (ord_weaken _ w _ _ _ [] O X); wsimpl; unfold upd, set_active; cbn [ready_of];
       rewrite ?key_eqb_refl; try rewrite E; auto using inner_enq_of; fail).
  - (* the exit path: nothing is left *)
    unfold ord_ok. wsimpl. unfold upd. rewrite key_eqb_refl, (inner_enq_of k rest ET).
    rewrite (RR _ _ eq_refl) by (cbn; rewrite key_eqb_refl; auto).
    cbn. repeat split; auto; try constructor; intros; discriminate.
  - (* enqueue; this call becomes the drain loop *)
    apply (ord_enq _ _ _ _ _ _ _ O); auto. cbn [ready_of]. rewrite key_eqb_refl.
    symmetry. apply (RR _ _ eq_refl). auto.
  - (* enqueue on a busy trampoline *)
    apply (ord_enq _ _ _ _ _ _ _ O); auto. apply inner_enq_of. exact ET.
  - (* first locked block of _run: due items move from the queue to the end of ready *)
    destruct O as (O1 & O2 & O3 & _). cbn [ready_of] in *. rewrite key_eqb_refl in *.
    destruct (split_due_spec _ _ _ _ Esplit) as (S1 & _). rewrite S1, app_assoc in *.
    unfold ord_ok. wsimpl. unfold upd. cbn [ready_of enq_of]. rewrite key_eqb_refl. cbn [t_queue t_count].
    split; [|split; [|split]]; auto; [|intros; discriminate].
    apply Forall_app in O2. destruct O2 as [_ O2].
    destruct moved; auto. destruct q'; auto.
  - (* the first ready item is skipped as cancelled: the rest stays sorted *)
    apply (ord_weaken _ w _ _ _ [x] O X); cbn [ready_of]; rewrite ?key_eqb_refl; auto.
  - (* ... or invoked *)
    apply (ord_weaken _ w _ _ _ [x] O X); wsimpl; unfold upd; cbn [ready_of]; rewrite ?key_eqb_refl; auto.
  - (* normal exit: the queue is empty, and so is ready outside the [while ready] loop *)
    apply (ord_weaken _ w _ _ _ ready O X); wsimpl; unfold upd; cbn [ready_of];
    rewrite ?key_eqb_refl, ?(RR _ _ eq_refl), ?app_nil_r by (cbn; rewrite key_eqb_refl; auto);
    auto using inner_enq_of.
Qed.

Definition uniq (lg : list event) : Prop :=
  forall k1 k2 id th1 th2 d1 d2 c1 c2,
    In (ECreate k1 id th1 d1 c1) lg -> In (ECreate k2 id th2 d2 c2) lg -> d1 = d2.

Definition ids_ok (lg : list event) (n : nat) : Prop :=
  (forall k id th due clk, In (ECreate k id th due clk) lg -> (id < n)%nat) /\ uniq lg.

Lemma ids_ok_other : forall e lg n,
  (forall k id th due clk, e <> ECreate k id th due clk) -> ids_ok lg n -> ids_ok (e :: lg) n.
Proof.
  intros e lg n Ne [I U]. split.
  - intros k id th due clk [E|Hin]; [destruct (Ne _ _ _ _ _ E) | eauto].
  - intros k1 k2 id th1 th2 d1 d2 c1 c2 [E|H1] [E'|H2];
    [destruct (Ne _ _ _ _ _ E) .. | destruct (Ne _ _ _ _ _ E') | eapply U; eauto].
Qed.

Lemma ids_ok_create : forall k th due clk lg n, ids_ok lg n -> ids_ok (ECreate k n th due clk :: lg) (S n).
Proof.
  intros k th due clk lg n [I U]. split.
  - intros k1 id th1 due1 clk1 [E|Hin]; [injection E as _ <- _ _ _; lia | apply I in Hin; lia].
  - intros k1 k2 id th1 th2 d1 d2 c1 c2 [E|H1] [E'|H2].
    + congruence.
    + injection E as _ <- _ _ _. apply I in H2. lia.
    + injection E' as _ <- _ _ _. apply I in H1. lia.
    + eapply U; eauto.
Qed.

Lemma ids_step : forall c th w t w' t',
  mstep c th w t = Some (w', t') -> ids_ok (log w) (next_id w) -> ids_ok (log w') (next_id w').
Proof.
  intros c th w t w' t' H IO.
  mstep_inv H; wsimpl; repeat (apply ids_ok_other; [intros; discriminate|]);
  try exact IO; apply ids_ok_create; exact IO.
Qed.

Definition lexlt (d1 : Z) (i1 : nat) (d2 : Z) (i2 : nat) : Prop := d1 < d2 \/ (d1 = d2 /\ (i1 < i2)%nat).

(* when an action of k starts -- nothing having been scheduled on k in the past -- every other
   item pending on k comes later in the order (due time, id) *)
Definition start_ok (k : key) (e : event) (before : list event) : Prop :=
  match e with
  | EStart k' x _ _ duex _ _ _ =>
      k' = k -> no_past k before ->
      forall y th duey clk, y <> x -> pending k y before -> In (ECreate k y th duey clk) before ->
                            lexlt duex x duey y
  | _ => True
  end.

Lemma head_order : forall k lg x r y duey th clk,
  StronglySorted plt (x :: r) -> Forall (item_ok lg k) (x :: r) -> uniq lg ->
  In y (ids_of (x :: r)) -> y <> i_id x -> In (ECreate k y th duey clk) lg ->
  lexlt (i_due x) (i_id x) duey y.
Proof.
  intros k lg x r y duey th clk S I U Hy Ne Hc.
  unfold ids_of in Hy. apply in_map_iff in Hy. destruct Hy as (y' & <- & Hin).
  destruct Hin as [->|Hin]; [congruence|].
  apply StronglySorted_inv in S. destruct S as [_ S]. rewrite Forall_forall in S. specialize (S _ Hin).
  rewrite Forall_forall in I. destruct (I y' (or_intror Hin)) as (th' & clk' & Hc').
  assert (i_due y' = duey) by (eapply U; eauto). subst duey. exact S.
Qed.

(* with at most one drain loop of k on the stack, what the loops of k hold is what that one holds *)
Lemma readys_single : forall k s, sumf (run_c k) s <= 1 -> readys k s = ready_of k s.
Proof.
  induction s as [|f s IH]; cbn [sumf readys ready_of]; intro L; [reflexivity|].
  pose proof (runs_nonneg k s). pose proof (run_c_nonneg k f).
  destruct f as [top cs|k0 it|k0 id l|l|k0 r ph]; cbn [run_c] in *; try (apply IH; lia).
  destruct (key_eqb k k0); [|apply IH; lia].
  rewrite IH by lia. rewrite ready_of_none by lia. apply app_nil_r.
Qed.

Lemma readys_nokey : forall k s, nokey k s -> readys k s = [].
Proof.
  induction 1 as [|f s Hf _ IH]; cbn [readys]; auto. destruct f as [top cs|k0 it|k0 id l|l|k0 r ph]; auto.
  destruct (key_eqb k k0) eqn:E; auto. apply key_eqb_eq in E. subst. exfalso. apply Hf. reflexivity.
Qed.

Lemma order_step : forall c th w t w' t' k0,
  mstep c th w t = Some (w', t') -> log_all (start_ok k0) (log w) ->
  (forall x r' rest, stk t = FRun k0 (x :: r') P2 :: rest -> exc t = None -> no_past k0 (log w) ->
     forall y th' duey clk, y <> i_id x -> pending k0 y (log w) -> In (ECreate k0 y th' duey clk) (log w) ->
                            lexlt (i_due x) (i_id x) duey y) ->
  log_all (start_ok k0) (log w').
Proof.
  intros c th w t w' t' k0 H L B. cbn [stk exc] in *.
  mstep_inv H; wsimpl; cbn [log_all start_ok]; auto.
  split; auto. intros -> NP. eapply B; eauto.
Qed.

Definition excl (k : key) (o : nat) (n : nat) : Prop :=
  forall th, th <> o -> (th < n)%nat -> forall s0, tkey s0 th <> k.

(* thread o alone has frames on k; [conserved] says that what is pending is in the queue or ready *)
Definition OInv (k : key) (o : nat) (cf : config) : Prop :=
  conserved cf /\ ids_ok (log (fst cf)) (next_id (fst cf)) /\
  (forall th t, nth_error (snd cf) th = Some t -> th <> o -> nokey k (stk t)) /\
  (forall t, nth_error (snd cf) o = Some t -> ord_ok k (fst cf) (stk t)) /\
  log_all (start_ok k) (log (fst cf)).

Lemma runs_bound : forall w ts th t k, counts_ok (w, ts) -> nth_error ts th = Some t ->
  runs k t <= (if t_idle (tramps w k) then 0 else 1).
Proof.
  intros w ts th t k C N. destruct (C k) as (_ & C2 & _). cbn [fst snd] in C2.
  rewrite (sumf_split _ _ _ _ N) in C2.
  assert (0 <= sumf (runs k) (others th ts)) by (apply sumf_nonneg; intros; apply runs_nonneg). lia.
Qed.

(* The drain loop of k is about to take x, the first of its ready items: everything pending on k is
   among the ready items and the queue ([conserved]; no other thread and no other loop holds any),
   and these are in run order with x at the head. *)
Lemma head_first : forall c k o w ts th x r' rest ex,
  Inv c (w, ts) -> OInv k o (w, ts) ->
  nth_error ts th = Some (Thread (FRun k (x :: r') P2 :: rest) ex) -> no_past k (log w) ->
  forall y th' duey clk, y <> i_id x -> pending k y (log w) -> In (ECreate k y th' duey clk) (log w) ->
                         lexlt (i_due x) (i_id x) duey y.
Proof.
  intros c k o w ts th x r' rest ex (_ & CO & (F & Q & _) & _) (C & IO & NK & OK & _) N NP
         y th' duey clk Ny P Hc.
  cbn [fst snd] in *.
  assert (th = o).
  { destruct (Nat.eq_dec th o) as [|n]; auto. exfalso. exact (Forall_inv (NK _ _ N n) eq_refl). }
  subst th. destruct (OK _ N) as (O1 & _). cbn [stk ready_of] in O1. rewrite key_eqb_refl in O1.
  specialize (O1 NP).
  pose proof (runs_bound _ _ _ _ k CO N) as RB.
  assert (In y (ids_of ((x :: r') ++ t_queue (tramps w k)))).
  { rewrite ids_of_app. apply in_or_app.
    destruct (C k y P) as [Hq|(th2 & t2 & N2 & Hh)]; cbn [fst snd] in *; [right; exact Hq|left].
    destruct (Nat.eq_dec th2 o) as [->|n].
    - rewrite N in N2. injection N2 as <-.
      rewrite readys_single in Hh by (unfold runs in RB; destruct (t_idle (tramps w k)); lia).
      cbn [stk ready_of] in Hh. rewrite key_eqb_refl in Hh. exact Hh.
    - rewrite (readys_nokey _ _ (NK _ _ N2 n)) in Hh. destruct Hh. }
  eapply head_order with (lg := log w) (r := r' ++ t_queue (tramps w k)); eauto; [|apply IO].
  specialize (F _ _ N). apply Forall_inv in F. destruct F as [_ F].
  change (x :: r' ++ t_queue (tramps w k)) with ((x :: r') ++ t_queue (tramps w k)).
  apply Forall_app. split; [|apply Q].
  eapply Forall_impl; [|exact F]. cbn; tauto.
Qed.

Lemma OInv_mstep : forall c k o w ts th t w' t',
  excl k o (length ts) -> Inv c (w, ts) -> OInv k o (w, ts) ->
  nth_error ts th = Some t -> mstep c th w t = Some (w', t') -> OInv k o (w', set_nth th t' ts).
Proof.
  intros c k o w ts th t w' t' X I OI N M. pose proof OI as (C & IO & NK & OK & OL).
  pose proof (Inv_wf _ _ I) as W.
  pose proof (mstep_ext _ _ _ _ _ _ M) as Xt.
  pose proof I as (Sh & CO & (F & _) & _). cbn [fst snd] in *.
  assert (Lth : (th < length ts)%nat) by (apply nth_error_Some; congruence).
  split; [exact (conserved_mstep _ _ _ _ _ _ _ W C N M)|]. cbn [fst snd].
  split; [exact (ids_step _ _ _ _ _ _ M IO)|split; [|split]].
  - intros th2 t2 N2 Hne. apply nth_error_set_nth in N2. destruct N2 as [[-> ->]|[_ N2]]; [|eauto].
    eapply nokey_step; eauto.
  - intros t2 N2. apply nth_error_set_nth in N2. destruct N2 as [[<- ->]|[Hne N2]].
    + eapply ord_step; eauto.
      * apply (Sh t (nth_error_In _ _ N)).
      * eapply runs_bound; eauto.
    + destruct (nokey_step _ _ _ _ _ _ k M (X th (not_eq_sym Hne) Lth) (NK _ _ N (not_eq_sym Hne))) as (_ & T & _).
      apply (ord_weaken k w _ _ _ [] (OK _ N2) Xt); rewrite ?T; auto.
  - eapply order_step; eauto.
    intros x r' rest Es Ee. destruct t as [s e]. cbn [stk] in Es. subst s.
    exact (head_first c k o w ts th x r' rest e I OI N).
Qed.

Lemma OInv_init : forall k o c0 hs, OInv k o (start_config c0 hs).
Proof.
  intros. unfold OInv. split; [apply conserved_init|].
  unfold start_config; cbn [fst snd init_world log].
  split; [|split; [|split]]; auto.
  - split; [intros k0 id th due clk [] | intros k1 k2 id th1 th2 d1 d2 c1 c2 []].
  - intros th t N _. apply nth_error_In in N. apply in_map_iff in N. destruct N as (h & <- & _).
    cbn. repeat constructor. cbn. congruence.
  - intros t N. apply nth_error_In in N. apply in_map_iff in N. destruct N as (h & <- & _).
    unfold ord_ok. cbn. repeat split; auto; try constructor; intros; discriminate.
  - exact I.
Qed.

(* Run order on a trampoline that only thread [o] can reach (a current-thread scheduler, or any
   scheduler when there is a single thread): if nothing was ever scheduled on it with a due time
   already in the past, then whenever an action starts, every item that is pending (enqueued,
   not started, not skipped, not dropped) comes later in the order (due time, creation order). *)
Theorem run_order : forall c c0 hs sch k o l2 x l th due clk dk d l1,
  excl k o (length hs) ->
  log (fst (crun c (start_config c0 hs) sch)) = l2 ++ EStart k x l th due clk dk d :: l1 ->
  no_past k l1 ->
  forall y th' duey clk', y <> x -> pending k y l1 -> In (ECreate k y th' duey clk') l1 ->
                          lexlt due x duey y.
Proof.
  intros c c0 hs sch k o l2 x l th due clk dk d l1 X E NP y th' duey clk' Ny P Hc.
  assert (OI : length (snd (crun c (start_config c0 hs) sch)) = length hs /\
               OInv k o (crun c (start_config c0 hs) sch)).
  { apply reach_ind; [| |split; [apply map_length|apply OInv_init]].
    - intros w ts d0 _ (Ln & C & IO & NK & OK & OL). split; [exact Ln|].
      split; [exact C|split; [exact IO|split; [exact NK|split; [|exact OL]]]].
      intros t N. apply (ord_weaken k w _ (stk t) _ [] (OK t N)); auto. repeat split; cbn; auto; [lia | exists []; auto].
    - intros w ts th0 t w' t' I [Ln O] N M. cbn [snd] in *. split; [rewrite length_set_nth; exact Ln|].
      eapply OInv_mstep; eauto. rewrite Ln. exact X. }
  destruct OI as (_ & _ & _ & _ & _ & OL). rewrite E in OL. apply log_all_at in OL.
  cbn in OL. eapply OL; eauto.
Qed.

Lemma excl_private : forall k o n, owner k = Some o -> excl k o n.
Proof. intros k o n Ho th Hn _ s0 E. subst k. exact (Hn (owned_tkey _ _ _ Ho)). Qed.

Lemma excl_single : forall k, excl k 0%nat 1%nat.
Proof. intros k th Hn Hl. lia. Qed.
