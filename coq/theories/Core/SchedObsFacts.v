(* Facts about the transition system of ScheduledObserver / ObserveOnObserver (Core/SchedObs.v).
   Every theorem quantifies over ALL schedules, all per-thread programs, any number of producer and
   worker threads and every set of raising deliveries; proofs are inductive invariants.  Each
   invariant is proved locally, over the transition relation [so_trans] of one step of one thread,
   with the other threads' contribution left abstract; [inv_step] puts the thread list back.

   Proved: what was delivered is a prefix of what was received (so_delivered_prefix), deliveries never overlap
   (so_serial, so_deliveries_complete), no lost wake-up (so_no_lost_wakeup, under [InvW]), at quiescence everything
   received was delivered, after a raising delivery nothing is delivered (so_fault_stops), and who delivers
   ([InvO]); for a single producer the delivered sequence is what it sent ([InvP], so_single_producer). *)
From RxVerif Require Import Base.Prelude Core.Lts Core.LtsFacts Core.SchedObs.
Local Open Scope nat_scope.

Notation thread := (@thread so_loc so_op).
Notation config := (@config so_state so_loc so_op so_obs).

(* one step of one thread: [so_act] as a relation; a delivery may return or raise whatever [raises] says,
   the invariants do not depend on it *)
Inductive so_trans : so_state -> so_loc -> so_state -> option so_loc -> list so_obs -> Prop :=
| tr_append q a f p r i ens :
    so_trans (SO q a f p r) (LP_append i ens) (SO (q ++ [i]) a f p (r ++ [i])) (if ens then Some LE_lock else None) []
| tr_ens_skip s (W : so_flt s = false -> so_q s <> [] -> so_acq s = true) : so_trans s LE_lock s None []
| tr_ens_own i q p r :
    so_trans (SO (i :: q) false false p r) LE_lock (SO (i :: q) true false p r) (Some LE_sched) []
| tr_sched q a f p r : so_trans (SO q a f p r) LE_sched (SO q a f (S p) r) None [OSched]
| tr_wpop q a f p r : so_trans (SO q a f (S p) r) LW_pop (SO q a f p r) (Some LR_lock) [OPop]
| tr_pop i q a f p r : so_trans (SO (i :: q) a f p r) LR_lock (SO q a f p r) (Some (LR_enter i)) []
| tr_release a f p r : so_trans (SO [] a f p r) LR_lock (SO [] false f p r) (Some LW_pop) []
| tr_enter s i : so_trans s (LR_enter i) s (Some (LR_exit i)) [OEnter i]
| tr_raise s i : so_trans s (LR_exit i) s (Some LR_fault) [ORaise i]
| tr_return s i : so_trans s (LR_exit i) s (Some LR_resched) [OExit i]
| tr_fault q a f p r : so_trans (SO q a f p r) LR_fault (SO [] a true p r) (Some LW_pop) []
| tr_resched q a f p r : so_trans (SO q a f p r) LR_resched (SO q a f (S p) r) (Some LW_pop) [OSched].

Lemma so_act_trans : forall raises tid s l s' l' out,
  so_act raises tid s l = Some (s', l', out) -> so_trans s l s' l' out.
Proof.
  intros raises tid [q a f p r] l s' l' out A.
  (* every branch of [so_act] is one rule *)
  assert (H : match so_act raises tid (SO q a f p r) l with
              | Some (s1, l1, o1) => so_trans (SO q a f p r) l s1 l1 o1
              | None => True
              end).
  { destruct l as [i ens| | | | |i|i| |]; cbn [so_act];
      [ | destruct f; [|destruct q; [|destruct a]] | | destruct p; [exact I|] | destruct q | | destruct (raises i) | | ];
      constructor; cbn; congruence. }
  rewrite A in H. exact H.
Qed.

(* the frame that steps stands at the position its thread is counted at *)
Lemma frame_pos : forall (t : thread) l todo,
  next_frame so_start t = Some (l, todo) ->
  ttok t = tok l /\ tfl t = flc l /\ tinfl t = infl l /\ topn t = opn l.
Proof.
  apply (frame_cases so_start (fun t l _ => ttok t = tok l /\ tfl t = flc l /\ tinfl t = infl l /\ topn t = opn l)).
  - intros l todo. repeat split; reflexivity.
  - intros o todo. destruct o; repeat split; reflexivity.
Qed.

(* a position that contributes to [infl]/[opn] holds the token *)
Lemma tok0_lists : forall y : thread, ttok y = 0 -> tinfl y = [] /\ topn y = [].
Proof.
  intros y. unfold ttok, tinfl, topn, olift. destruct (t_cur y) as [[]|]; cbn; intros; try (split; reflexivity); discriminate.
Qed.

Lemma no_token_lists : forall ths : list thread,
  nsum ttok ths = 0 -> flat_map tinfl ths = [] /\ flat_map topn ths = [].
Proof.
  intros ths H. split; apply fm_nil; intros y Hy; apply tok0_lists, (nsum_zero_inv _ ttok ths y H Hy).
Qed.

Lemma entered_app : forall a b, entered (a ++ b) = entered a ++ entered b.
Proof. intros. unfold entered. apply flat_map_app. Qed.
Lemma left_app : forall a b, left (a ++ b) = left a ++ left b.
Proof. intros. unfold left. apply flat_map_app. Qed.
Lemma sfold_app : forall a b, sfold (a ++ b) = fold_left sstep b (sfold a).
Proof. intros. unfold sfold. apply fold_left_app. Qed.
Lemma qfold_app : forall a b, qfold (a ++ b) = fold_left qstep b (qfold a).
Proof. intros. unfold qfold. apply fold_left_app. Qed.
Lemma qfold_none : forall l, fold_left qstep l None = None.
Proof. induction l as [|o t IH]; [reflexivity|]. cbn. exact IH. Qed.
Lemma sfold_none : forall l, fold_left sstep l None = None.
Proof. induction l as [|o t IH]; [reflexivity|]. cbn. exact IH. Qed.

(* In the local lemmas below [l] is the position of
   the stepping thread, [T], [F] the tokens and fault marks of the OTHER threads, [A], [B] what the threads
   before and after it contribute to a list. *)

(* the number of `run`s there should be *)
Definition alive (s : so_state) : nat := if so_acq s && negb (so_flt s) then 1 else 0.

Lemma alive_le : forall s, alive s <= 1.
Proof. intros [q [] [] p r]; cbn; lia. Qed.

(* the token count: whoever is counted has the observer acquired and not faulted, and is alone *)
Lemma alive_one : forall s n T F, n + T + F = alive s -> 1 <= n ->
  n = 1 /\ T = 0 /\ F = 0 /\ so_acq s = true /\ so_flt s = false.
Proof.
  intros s n T F E Hn. pose proof (alive_le s) as Hle.
  assert (H : (n = 1 /\ T = 0 /\ F = 0) /\ alive s = 1) by lia. destruct H as [(-> & -> & ->) Ha].
  unfold alive in Ha. destruct (so_acq s), (so_flt s); try discriminate Ha. repeat split; reflexivity.
Qed.

Lemma trans_count : forall s l s' l' out T F, so_trans s l s' l' out ->
  so_pend s + (T + tok l) + (F + flc l) = alive s ->
  so_pend s' + (T + olift tok 0 l') + (F + olift flc 0 l') = alive s'.
Proof.
  intros s l s' l' out T F H.
  (* [alive] changes at the owner's test-and-set (own rule), at the release and in the fault block *)
  destruct H; unfold alive; cbn; try destruct ens; cbn; try (intros E; exact E); try lia; destruct a, f; cbn; lia.
Qed.

(* what was received = what was delivered ++ what is popped and not yet delivered ++ (the queue,
   while not faulted) *)
Definition pref (s : so_state) (lg : list so_obs) (I : list nat) : Prop :=
  exists rest, so_recv s = entered lg ++ I ++ rest /\ (so_flt s = false -> rest = so_q s).

Lemma trans_pref : forall s l s' l' out A B lg, so_trans s l s' l' out ->
  (tok l = 1 -> A = [] /\ B = [] /\ so_flt s = false) ->
  pref s lg (A ++ infl l ++ B) -> pref s' (lg ++ out) (A ++ olift infl [] l' ++ B).
Proof.
  intros s l s' l' out A B lg H Tk (rest & E & Eq). unfold pref. rewrite entered_app.
  destruct H; cbn in *; rewrite ?app_nil_r; try (exists rest; split; [exact E|exact Eq]).
  - (* the append *)
    exists (rest ++ [i]). destruct ens; cbn; (split; [rewrite E, <- !app_assoc; reflexivity|]);
      intros Hf; rewrite (Eq Hf); reflexivity.
  - (* the pop: the head of the queue becomes the popped one *)
    destruct (Tk eq_refl) as (-> & -> & Hf). exists q. rewrite E, (Eq Hf). split; reflexivity.
  - (* entering: the popped one is delivered *)
    destruct (Tk eq_refl) as (-> & -> & _). exists rest. cbn [app] in *. rewrite E, <- app_assoc. split; [reflexivity|exact Eq].
  - (* the fault block empties the queue; nothing is claimed of a faulted observer's queue *)
    exists rest. split; [exact E|discriminate].
Qed.

(* the log is serial, the open delivery is the one of the thread inside, the others have ended *)
Definition ser (lg : list so_obs) (O : list nat) : Prop :=
  sfold lg = Some O /\ left lg ++ O = entered lg.

Lemma trans_ser : forall s l s' l' out A B lg, so_trans s l s' l' out ->
  (tok l = 1 -> A = [] /\ B = []) ->
  ser lg (A ++ opn l ++ B) -> ser (lg ++ out) (A ++ olift opn [] l' ++ B).
Proof.
  intros s l s' l' out A B lg H Tk (E1 & E2). unfold ser. rewrite sfold_app, entered_app, left_app, E1.
  destruct H; cbn in *; rewrite ?app_nil_r; try destruct ens; try (split; [reflexivity|exact E2]);
    destruct (Tk eq_refl) as (-> & ->); cbn in *; rewrite ?Nat.eqb_refl, ?app_nil_r.
  - (* entering *)
    split; [reflexivity|]. rewrite app_nil_r in E2. rewrite E2. reflexivity.
  - (* the delivery raises / returns *)
    split; [reflexivity|exact E2].
  - split; [reflexivity|exact E2].
Qed.

(* once a delivery has raised the observer is faulted, or about to be marked so by the thread whose
   delivery raised *)
Definition quiet (s : so_state) (F : nat) (lg : list so_obs) : Prop :=
  exists r, qfold lg = Some r /\ (r = true -> so_flt s = true \/ 1 <= F).

Lemma trans_quiet : forall s l s' l' out F lg, so_trans s l s' l' out ->
  (tok l = 1 -> F + flc l = 0 /\ so_flt s = false) ->
  quiet s (F + flc l) lg -> quiet s' (F + olift flc 0 l') (lg ++ out).
Proof.
  intros s l s' l' out F lg H Tk (r & E & Er). unfold quiet. rewrite qfold_app, E.
  destruct H; cbn in *; try destruct ens; try (exists r; split; [reflexivity|exact Er]).
  - (* entering: no delivery has raised, or this thread would not hold the token *)
    destruct (Tk eq_refl) as [HF Hf]. destruct r; [|exists false; split; [reflexivity|discriminate]].
    destruct (Er eq_refl); [congruence|lia].
  - (* the delivery raises: this thread is on its way to the fault block *)
    exists true. split; [reflexivity|]. intros _. right. lia.
  - (* the fault block *)
    exists r. split; [reflexivity|]. intros _. left. reflexivity.
Qed.

(* no lost wake-up, locally: after any step but an append, a non-empty queue of a non-faulted
   observer is acquired *)
Lemma trans_wake : forall s l s' l' out T F, so_trans s l s' l' out ->
  so_pend s + (T + tok l) + (F + flc l) = alive s ->
  so_q s' <> [] -> so_flt s' = false ->
  so_acq s' = true \/ exists i ens, l = LP_append i ens /\ l' = if ens then Some LE_lock else None.
Proof.
  intros s l s' l' out T F H C.
  assert (K : 1 <= so_pend s + tok l + flc l -> so_acq s = true).
  { intros K. apply (alive_one s (so_pend s + tok l + flc l) T F); [rewrite <- C; lia|exact K]. }
  clear C. destruct H; cbn in *; intros Hq Hf; try (left; apply K; lia).
  - (* the append *)
    right. eauto.
  - (* ensure_active finds nothing to do *)
    left. exact (W Hf Hq).
  - (* ensure_active acquires *)
    left. reflexivity.
  - (* the release: the queue is empty *)
    exfalso. apply Hq. reflexivity.
Qed.

(* the notification a thread is about to append *)
Definition appending (o : option so_loc) : list nat := match o with Some (LP_append i _) => [i] | _ => [] end.

Lemma trans_recv : forall s l s' l' out, so_trans s l s' l' out ->
  so_recv s' = so_recv s ++ appending (Some l) /\ appending l' = [].
Proof. intros s l s' l' out H. destruct H; cbn; rewrite ?app_nil_r; try destruct ens; split; reflexivity. Qed.

(* positions inside the worker loop / inside one `run` started by the scheduler *)
Definition wpos (l : so_loc) : Prop :=
  match l with LW_pop | LR_lock | LR_enter _ | LR_exit _ | LR_fault | LR_resched => True | _ => False end.
Definition rpos (l : so_loc) : Prop :=
  match l with LR_lock | LR_enter _ | LR_exit _ | LR_fault | LR_resched => True | _ => False end.
Lemma rpos_wpos : forall l, rpos l -> wpos l.
Proof. destruct l; cbn; auto. Qed.
Definition owpos (o : option so_loc) : Prop := match o with Some l => wpos l | None => False end.
Definition orpos (o : option so_loc) : Prop := match o with Some l => rpos l | None => False end.

Lemma trans_pos : forall s l s' l' out, so_trans s l s' l' out ->
  (owpos l' -> wpos l) /\ (orpos l' -> rpos l \/ In OPop out) /\ (forall i, In (OEnter i) out -> rpos l).
Proof.
  intros s l s' l' out H. destruct H; cbn; try destruct ens; cbn; repeat split; try (intros; auto; contradiction);
    intros i0 [H|[]]; discriminate H.
Qed.

Section Facts.
Variable raises : nat -> bool.
Notation tstep := (@tstep so_state so_loc so_op so_obs so_start (so_act raises)).

Definition Inv (c : config) : Prop :=
  let s := c_sh c in let ths := c_ths c in let lg := untag (c_log c) in
  so_pend s + nsum ttok ths + nsum tfl ths = alive s /\
  pref s lg (flat_map tinfl ths) /\ ser lg (flat_map topn ths) /\ quiet s (nsum tfl ths) lg.

Lemma inv_init : forall progs, Inv (init so_init progs).
Proof.
  intros progs. unfold Inv.
  assert (Z : forall f : thread -> nat, (forall p, f (Thread None p) = 0) -> nsum f (c_ths (init (Ob:=so_obs) so_init progs)) = 0).
  { intros f Hf. apply nsum_zero. intros x Hx. apply in_map_iff in Hx. destruct Hx as [p [<- _]]. apply Hf. }
  rewrite (Z ttok), (Z tfl) by reflexivity.
  destruct (no_token_lists _ (Z ttok (fun _ => eq_refl))) as [-> ->]. cbn. repeat split.
  - exists []. split; reflexivity.
  - exists false. split; [reflexivity|discriminate].
Qed.

Lemma inv_step : forall c tid, Inv c -> Inv (tstep c tid).
Proof.
  intros c tid I. apply (tstep_preserves so_start (so_act raises)); [exact I|]. intros t l todo s' l' out N F A.
  apply so_act_trans in A. destruct (frame_pos t l todo F) as (Pt & Pf & Pi & Po).
  destruct (nth_split_upd _ _ _ _ N) as (l1 & l2 & E1 & E2).
  destruct I as (I1 & I2 & I3 & I4). rewrite E1 in I1, I2, I3, I4.
  rewrite !nsum_mid, Pt, Pf in I1. rewrite fm_mid, Pi in I2. rewrite fm_mid, Po in I3. rewrite nsum_mid, Pf in I4.
  unfold Inv. cbn [c_sh c_ths c_log]. rewrite E2, untag_step. clear N E1 E2.
  assert (Tk : tok l = 1 -> nsum tfl (l1 ++ l2) + flc l = 0 /\ so_flt (c_sh c) = false /\
                            flat_map tinfl l1 = [] /\ flat_map tinfl l2 = [] /\ flat_map topn l1 = [] /\ flat_map topn l2 = []).
  { intros K. rewrite K in I1.
    destruct (alive_one (c_sh c) (so_pend (c_sh c) + 1) (nsum ttok (l1 ++ l2)) (nsum tfl (l1 ++ l2) + flc l)) as (_ & Z & ZF & _ & Hf);
      [rewrite <- I1; lia|lia|].
    rewrite nsum_app in Z. destruct (no_token_lists l1) as [-> ->]; [lia|]. destruct (no_token_lists l2) as [-> ->]; [lia|].
    repeat split; assumption. }
  split; [rewrite !nsum_mid; exact (trans_count _ _ _ _ _ _ _ A I1)|]. split; [|split].
  - rewrite fm_mid. apply (trans_pref _ _ _ _ _ _ _ _ A); [|exact I2]. intros K. destruct (Tk K) as (_ & Hf & -> & -> & _). auto.
  - rewrite fm_mid. apply (trans_ser _ _ _ _ _ _ _ _ A); [|exact I3]. intros K. destruct (Tk K) as (_ & _ & _ & _ & -> & ->). auto.
  - rewrite nsum_mid. apply (trans_quiet _ _ _ _ _ _ _ A); [|exact I4]. intros K. destruct (Tk K) as (HF & Hf & _). auto.
Qed.

(* [tcov]: in what is left of the thread's program every plain enqueue is followed by an ensure_active, the
   enqueue in progress included.  [InvW]: every thread is so, and a non-empty queue of a non-faulted observer is
   acquired or some thread is going to execute ensure_active. *)
Definition tcov (t : thread) : bool :=
  covered (t_todo t) &&
  match t_cur t with Some (LP_append _ false) => has_ens (t_todo t) | _ => true end.

Definition InvW (c : config) : Prop :=
  (forall tid t, nth_error (c_ths c) tid = Some t -> tcov t = true) /\
  (so_q (c_sh c) <> [] -> so_flt (c_sh c) = false ->
     so_acq (c_sh c) = true \/ exists tid t, nth_error (c_ths c) tid = Some t /\ will_ensure t = true).

Lemma invw_init : forall progs, forallb covered progs = true -> InvW (init so_init progs).
Proof.
  intros progs H. split.
  - intros tid t N. cbn [init c_ths] in N. apply nth_error_In in N. apply in_map_iff in N.
    destruct N as [p [<- Hp]]. unfold tcov. cbn [t_cur t_todo]. rewrite andb_true_r.
    rewrite forallb_forall in H. apply H, Hp.
  - cbn. intros H0. exfalso. apply H0. reflexivity.
Qed.

(* the frame that steps: what is known about the rest of its program *)
Lemma frame_cov : forall (t : thread) l todo,
  next_frame so_start t = Some (l, todo) -> tcov t = true ->
  covered todo = true /\ (forall i, l = LP_append i false -> has_ens todo = true).
Proof.
  apply (frame_cases so_start (fun t l todo => tcov t = true ->
           covered todo = true /\ (forall i, l = LP_append i false -> has_ens todo = true)));
    unfold tcov; cbn [t_cur t_todo]; intros x todo C; apply andb_true_iff in C; destruct C as [C1 C2].
  - split; [exact C1|]. intros i ->. exact C2.
  - destruct x; cbn [covered so_start] in *; try (split; [exact C1|intros i0 H; discriminate H]).
    apply andb_true_iff in C1. destruct C1 as [C3 C4]. split; [exact C4|]. intros _ _. exact C3.
Qed.

Lemma invw_step : forall c tid, Inv c -> InvW c -> InvW (tstep c tid).
Proof.
  intros c tid I W. apply (tstep_preserves so_start (so_act raises)); [exact W|]. destruct W as [W1 W2].
  intros t l todo s' l' out N F A.
  apply so_act_trans in A. destruct (frame_pos t l todo F) as (Pt & Pf & _ & _).
  destruct (frame_cov t l todo F (W1 tid t N)) as [C1 C2].
  split; cbn [c_sh c_ths].
  - (* coverage: the thread that stepped is not about to append *)
    intros j y Ny. destruct (nth_upd_cases _ _ _ _ _ _ _ N Ny) as [[-> ->]|[_ Ny']]; [|exact (W1 j y Ny')].
    unfold tcov. cbn [t_cur t_todo]. rewrite C1.
    destruct (trans_recv _ _ _ _ _ A) as [_ Z]. destruct l' as [[]|]; try reflexivity. discriminate Z.
  - (* wake-up: only an append leaves it to a thread that will run ensure_active -- the appending one *)
    destruct I as (I1 & _). destruct (nth_split_upd _ _ _ _ N) as (l1 & l2 & E1 & _).
    rewrite E1, !nsum_mid, Pt, Pf in I1. intros Hq Hf.
    destruct (trans_wake _ _ _ _ _ _ _ A I1 Hq Hf) as [Ha|(i & ens & -> & ->)]; [left; exact Ha|right].
    eexists tid, _. split; [exact (nth_upd_same _ _ _ _ _ N)|].
    unfold will_ensure. cbn [t_cur t_todo]. destruct ens; [reflexivity|exact (C2 i eq_refl)].
Qed.

Lemma so_inv : forall progs sched, Inv (so_run raises progs sched).
Proof.
  intros progs sched. unfold so_run.
  apply (run_invariant so_start (so_act raises) Inv inv_step), inv_init.
Qed.

Lemma so_invw : forall progs sched, forallb covered progs = true ->
  Inv (so_run raises progs sched) /\ InvW (so_run raises progs sched).
Proof.
  intros progs sched H. unfold so_run.
  apply (run_invariant so_start (so_act raises) (fun c => Inv c /\ InvW c)).
  - intros c tid [I W]. split; [apply inv_step, I|apply invw_step; assumption].
  - split; [apply inv_init|apply invw_init, H].
Qed.

(* what has been delivered is a prefix of what has been received: every received notification is
   delivered at most once and in the order received; the rest is the one popped and not yet
   delivered followed by the queue *)
Theorem so_delivered_prefix : forall progs sched,
  let c := so_run raises progs sched in
  exists rest, so_recv (c_sh c) = entered (untag (c_log c)) ++ rest /\
               (so_flt (c_sh c) = false -> rest = flat_map tinfl (c_ths c) ++ so_q (c_sh c)).
Proof.
  intros progs sched c. destruct (so_inv progs sched) as (_ & (rest & I2 & I2q) & _).
  exists (flat_map tinfl (c_ths c) ++ rest). split; [exact I2|]. intros H. rewrite (I2q H). reflexivity.
Qed.

(* never two deliveries at once (log) *)
Theorem so_serial : forall progs sched,
  serial (untag (c_log (so_run raises progs sched))) = true.
Proof.
  intros progs sched. destruct (so_inv progs sched) as (_ & _ & (I3 & _) & _). unfold serial. rewrite I3. reflexivity.
Qed.

(* every delivery that was entered and is not open has returned or raised, in the same order *)
Theorem so_deliveries_complete : forall progs sched,
  let c := so_run raises progs sched in
  left (untag (c_log c)) ++ flat_map topn (c_ths c) = entered (untag (c_log c)).
Proof. intros progs sched c. destruct (so_inv progs sched) as (_ & _ & (_ & I3l) & _). exact I3l. Qed.

(* no lost wake-up: a non-empty queue of a non-faulted observer always has a runner (pending,
   being scheduled or active) or a producer that is about to execute ensure_active *)
Theorem so_no_lost_wakeup : forall progs sched,
  forallb covered progs = true ->
  let c := so_run raises progs sched in
  so_q (c_sh c) <> [] -> so_flt (c_sh c) = false ->
  runs_alive c = 1 \/ exists tid t, nth_error (c_ths c) tid = Some t /\ will_ensure t = true.
Proof.
  intros progs sched H c Hq Hf. destruct (so_invw progs sched H) as [(I1 & _) [_ W2]]. fold c in I1, W2.
  destruct (W2 Hq Hf) as [Ha|Hw]; [left|right; exact Hw].
  unfold runs_alive. rewrite I1. unfold alive. rewrite Ha, Hf. reflexivity.
Qed.

Lemma idle_no_token : forall t : thread, idle t = true -> ttok t = 0 /\ tfl t = 0 /\ will_ensure t = false.
Proof.
  intros t H. unfold idle in H. unfold ttok, tfl, will_ensure.
  destruct (t_cur t) as [[]|]; try discriminate H; cbn; repeat split; try reflexivity.
  destruct (t_todo t); [reflexivity|discriminate H].
Qed.

(* at quiescence (every producer call returned, the scheduler has nothing pending and no action
   running) of a non-faulted observer nothing received remains undelivered: the delivered
   sequence IS the received one, every delivery has returned, the queue is empty *)
Theorem so_quiescent_all_delivered : forall progs sched,
  forallb covered progs = true ->
  let c := so_run raises progs sched in
  quiescent c = true -> so_flt (c_sh c) = false ->
  entered (untag (c_log c)) = so_recv (c_sh c) /\
  left (untag (c_log c)) = so_recv (c_sh c) /\
  so_q (c_sh c) = [] /\ so_acq (c_sh c) = false.
Proof.
  intros progs sched H c Q Hf.
  destruct (so_invw progs sched H) as [(I1 & (rest & I2 & I2q) & (_ & I3l) & _) [_ W2]]. fold c in I1, I2, I2q, I3l, W2.
  unfold quiescent in Q. apply andb_true_iff in Q. destruct Q as [Q1 Q2]. apply Nat.eqb_eq in Q2.
  rewrite forallb_forall in Q1.
  assert (Z1 : nsum ttok (c_ths c) = 0) by (apply nsum_zero; intros x Hx; apply (idle_no_token x (Q1 x Hx))).
  assert (Z2 : nsum tfl (c_ths c) = 0) by (apply nsum_zero; intros x Hx; apply (idle_no_token x (Q1 x Hx))).
  destruct (no_token_lists _ Z1) as [Z3 Z4].
  unfold alive in I1. rewrite Q2, Z1, Z2, Hf in I1. cbn [negb] in I1. rewrite andb_true_r in I1.
  assert (Ha : so_acq (c_sh c) = false) by (destruct (so_acq (c_sh c)); [discriminate I1|reflexivity]).
  assert (Hq : so_q (c_sh c) = []).
  { destruct (so_q (c_sh c)) as [|x r] eqn:Eq; [reflexivity|exfalso].
    destruct W2 as [W|[tid [t [N W]]]]; [discriminate|exact Hf|congruence|].
    apply nth_error_In in N. destruct (idle_no_token t (Q1 t N)) as (_ & _ & W'). congruence. }
  rewrite Z3, (I2q Hf), Hq in I2. cbn [app] in I2. rewrite app_nil_r in I2.
  rewrite Z4, app_nil_r in I3l.
  split; [symmetry; exact I2|]. split; [rewrite I3l; symmetry; exact I2|]. split; [exact Hq|exact Ha].
Qed.

(* after a delivery raised nothing further is delivered *)
Theorem so_fault_stops : forall progs sched,
  quiet_after_raise (untag (c_log (so_run raises progs sched))) = true.
Proof.
  intros progs sched. destruct (so_inv progs sched) as (_ & _ & _ & (r & I4 & _)).
  unfold quiet_after_raise. rewrite I4. reflexivity.
Qed.

Lemma quiet_after : forall b r, fold_left qstep b (Some true) = Some r -> entered b = [].
Proof.
  induction b as [|o t IH]; intros r H; [reflexivity|].
  destruct o; cbn [fold_left qstep] in H; try (cbn [entered flat_map app]; fold (entered t); eapply IH; exact H).
  rewrite qfold_none in H. discriminate H.
Qed.

(* the same, spelled out: no OEnter follows an ORaise in the log *)
Theorem so_fault_stops_explicit : forall progs sched l1 t i l2,
  c_log (so_run raises progs sched) = l1 ++ (t, ORaise i) :: l2 -> entered (untag l2) = [].
Proof.
  intros progs sched l1 t i l2 E. pose proof (so_fault_stops progs sched) as Q.
  unfold quiet_after_raise in Q. rewrite E, untag_app in Q. cbn [untag map snd] in Q. fold (untag l2) in Q.
  rewrite qfold_app in Q. cbn [fold_left] in Q.
  destruct (qfold (untag l1)) as [r1|].
  - cbn [qstep] in Q. destruct (fold_left qstep (untag l2) (Some true)) as [r|] eqn:F; [|discriminate Q].
    exact (quiet_after _ r F).
  - cbn [qstep] in Q. rewrite qfold_none in Q. discriminate Q.
Qed.

(* who delivers: every thread executes a suffix of its program; a thread inside the worker loop has
   [OWork] in its program; a thread inside a `run` has logged the scheduler's start of it; so has every
   thread that logged a delivery *)
Definition InvO (progs : list (list so_op)) (c : config) : Prop :=
  (forall tid t, nth_error (c_ths c) tid = Some t ->
     exists p, nth_error progs tid = Some p /\ (forall o, In o (t_todo t) -> In o p) /\
               (owpos (t_cur t) -> In OWork p) /\ (orpos (t_cur t) -> In (tid, OPop) (c_log c))) /\
  (forall tid i, In (tid, OEnter i) (c_log c) ->
     In (tid, OPop) (c_log c) /\ exists p, nth_error progs tid = Some p /\ In OWork p).

Lemma invo_init : forall progs, InvO progs (init so_init progs).
Proof.
  intros progs. split.
  - intros tid t N. cbn [init c_ths] in N. rewrite nth_error_map in N.
    destruct (nth_error progs tid) as [p|]; [|discriminate N]. injection N as <-.
    exists p. cbn. repeat split; try contradiction. intros o Ho. exact Ho.
  - intros tid i H. destruct H.
Qed.

Lemma invo_step : forall progs c tid, InvO progs c ->
  InvO progs (tstep c tid).
Proof.
  intros progs c tid J. apply (tstep_preserves so_start (so_act raises)); [exact J|]. destruct J as [J1 J2].
  intros t l todo s' l' out N F A.
  destruct (trans_pos _ _ _ _ _ (so_act_trans _ _ _ _ _ _ _ A)) as (Pw & Pr & Pe).
  destruct (J1 tid t N) as (p & Np & Jt & Jw & Jr).
  assert (FT : (forall o, In o todo -> In o p) /\ (wpos l -> In OWork p) /\ (rpos l -> In (tid, OPop) (c_log c))).
  { revert Jt Jw Jr. pattern t, l, todo. apply (frame_cases so_start); [| |exact F]; cbn [t_cur t_todo owpos orpos].
    - intros l0 td Jt Jw Jr. repeat split; assumption.
    - intros o td Jt _ _. split; [intros o' Ho; apply Jt; right; exact Ho|].
      split; destruct o; cbn [so_start wpos rpos]; try contradiction. intros _. apply Jt. left. reflexivity. }
  destruct FT as (Ft & Fw & Fr).
  assert (Hlog : forall x, In x (c_log c) -> In x (c_log c ++ map (pair tid) out))
    by (intros x Hx; apply in_or_app; left; exact Hx).
  split.
  - intros j y Ny. cbn [c_ths c_log] in *. destruct (nth_upd_cases _ _ _ _ _ _ _ N Ny) as [[-> ->]|[_ Ny']].
    + exists p. cbn [t_cur t_todo].
      split; [exact Np|]. split; [exact Ft|]. split; [intros H; exact (Fw (Pw H))|].
      intros H. destruct (Pr H) as [H1|H1]; [apply Hlog, Fr, H1|].
      apply in_or_app. right. apply in_map_iff. exists OPop. split; [reflexivity|exact H1].
    + destruct (J1 j y Ny') as (p' & Np' & Jt' & Jw' & Jr').
      exists p'. repeat split; try assumption. intros H. apply Hlog, Jr', H.
  - intros j i H. cbn [c_log] in *. apply in_app_or in H. destruct H as [H|H].
    + destruct (J2 j i H) as [H1 H2]. split; [apply Hlog, H1|exact H2].
    + apply in_map_iff in H. destruct H as (o & Eo & Ho). injection Eo as <- ->.
      pose proof (Pe i Ho) as R. split; [apply Hlog, Fr, R|]. exists p. split; [exact Np|]. apply Fw, rpos_wpos, R.
Qed.

Lemma so_invo : forall progs sched, InvO progs (so_run raises progs sched).
Proof.
  intros progs sched. unfold so_run.
  apply (run_invariant so_start (so_act raises) (InvO progs) (invo_step progs)), invo_init.
Qed.

(* one producer: what was received is what the producer sent *)
Definition pend_ids (t : thread) : list nat := appending (t_cur t) ++ ids_of (t_todo t).

Lemma pend_ids_frame : forall (t : thread) l todo,
  next_frame so_start t = Some (l, todo) -> pend_ids t = appending (Some l) ++ ids_of todo.
Proof.
  apply (frame_cases so_start (fun t l todo => pend_ids t = appending (Some l) ++ ids_of todo)); [reflexivity|].
  intros o todo. destruct o; reflexivity.
Qed.

Definition InvP (p0 : list so_op) (c : config) : Prop :=
  (exists t0, nth_error (c_ths c) 0 = Some t0 /\ so_recv (c_sh c) ++ pend_ids t0 = ids_of p0) /\
  (forall j t, j <> 0 -> nth_error (c_ths c) j = Some t -> pend_ids t = []).

Lemma invp_step : forall p0 c tid, InvP p0 c ->
  InvP p0 (tstep c tid).
Proof.
  intros p0 c tid P. apply (tstep_preserves so_start (so_act raises)); [exact P|]. destruct P as [[t0 [N0 R0]] Ho].
  intros t l todo s' l' out N F A.
  destruct (trans_recv _ _ _ _ _ (so_act_trans _ _ _ _ _ _ _ A)) as [Er Hl]. pose proof (pend_ids_frame t l todo F) as Ep.
  assert (En : pend_ids (Thread l' todo) = ids_of todo) by (unfold pend_ids; cbn [t_cur t_todo]; rewrite Hl; reflexivity).
  unfold InvP. cbn [c_sh c_ths]. split.
  - destruct (Nat.eq_dec tid 0) as [->|Ht].
    + exists (Thread l' todo). split; [exact (nth_upd_same _ _ _ _ _ N)|].
      rewrite N0 in N. injection N as <-. rewrite En, Er, <- R0, Ep, <- app_assoc. reflexivity.
    + exists t0. split; [rewrite nth_upd_other by congruence; exact N0|].
      rewrite Er. pose proof (Ho tid t Ht N) as Z. rewrite Ep in Z. apply app_eq_nil in Z. destruct Z as [Z _].
      rewrite Z, app_nil_r. exact R0.
  - intros j y Hj Ny. destruct (nth_upd_cases _ _ _ _ _ _ _ N Ny) as [[-> ->]|[_ Ny']]; [|exact (Ho j y Hj Ny')].
    rewrite En. pose proof (Ho tid t Hj N) as Z. rewrite Ep in Z. apply app_eq_nil in Z. exact (proj2 Z).
Qed.

Lemma so_invp : forall p0 ws sched,
  (forall w, In w ws -> ids_of w = []) -> InvP p0 (so_run raises (p0 :: ws) sched).
Proof.
  intros p0 ws sched H. unfold so_run.
  apply (run_invariant so_start (so_act raises) (InvP p0) (invp_step p0)). split.
  - exists (Thread None p0). split; reflexivity.
  - intros j t Hj N. destruct j as [|j']; [congruence|]. cbn [init c_ths map nth_error] in N.
    apply nth_error_In in N. apply in_map_iff in N. destruct N as [w [<- Hw]]. unfold pend_ids. cbn. apply H, Hw.
Qed.

(* ONE thread that only produces (its program [p0] has no worker loop, and every plain enqueue is
   followed by an ensure_active) and any number of scheduler workers: at every moment the delivered
   sequence is a prefix of what [p0] sends; at quiescence without a fault it is all of it and every
   delivery has returned *)
Theorem so_single_producer : forall p0 nworkers sched,
  covered p0 = true -> ~ In OWork p0 ->
  let c := so_run raises (p0 :: repeat [OWork] nworkers) sched in
  (exists rest, ids_of p0 = entered (untag (c_log c)) ++ rest) /\
  (quiescent c = true -> so_flt (c_sh c) = false ->
     entered (untag (c_log c)) = ids_of p0 /\ left (untag (c_log c)) = ids_of p0).
Proof.
  intros p0 nw sched Hp Hnw c.
  assert (Hw : forall w, In w (repeat [OWork] nw) -> ids_of w = [] /\ covered w = true).
  { intros w Hw. apply repeat_spec in Hw. subst w. split; reflexivity. }
  destruct (so_invp p0 (repeat [OWork] nw) sched (fun w H => proj1 (Hw w H))) as [[t0 [N0 R0]] _]. fold c in N0, R0.
  assert (Hc : forallb covered (p0 :: repeat [OWork] nw) = true).
  { cbn [forallb]. rewrite Hp. apply forallb_forall. intros w H. exact (proj2 (Hw w H)). }
  split.
  - destruct (so_delivered_prefix (p0 :: repeat [OWork] nw) sched) as [rest [E _]]. fold c in E.
    exists (rest ++ pend_ids t0). rewrite app_assoc, <- E. symmetry. exact R0.
  - intros Q Hf.
    destruct (so_quiescent_all_delivered _ sched Hc Q Hf) as (E1 & E2 & _). fold c in E1, E2.
    assert (Z : pend_ids t0 = []).
    { (* thread 0 is idle, and it is not in a worker loop: it has finished *)
      unfold quiescent in Q. apply andb_true_iff in Q. destruct Q as [Q1 _]. rewrite forallb_forall in Q1.
      pose proof (Q1 t0 (nth_error_In _ _ N0)) as I0. unfold idle in I0. unfold pend_ids.
      destruct (proj1 (so_invo (p0 :: repeat [OWork] nw) sched) 0 t0 N0) as (p & Np & _ & Pw & _).
      cbn [nth_error] in Np. injection Np as <-.
      destruct (t_cur t0) as [[]|]; try discriminate I0.
      - exfalso. apply Hnw, Pw. exact I.
      - destruct (t_todo t0); [reflexivity|discriminate I0]. }
    rewrite Z, app_nil_r in R0. split; congruence.
Qed.

(* observe_on: each notification is one call that appends and then runs ensure_active *)
Lemma producer_spec : forall ids,
  covered (producer ids) = true /\ ~ In OWork (producer ids) /\ ids_of (producer ids) = ids.
Proof.
  induction ids as [|i r (IH1 & IH2 & IH3)]; [repeat split; intros []|].
  split; [exact IH1|]. split.
  - intros [H|H]; [discriminate H|exact (IH2 H)].
  - cbn. f_equal. exact IH3.
Qed.

(* ReplaySubject: the enqueues, then one ensure_active *)
Lemma replay_spec : forall ids, let p := map OEnq ids ++ [OEnsure] in
  (covered p = true /\ has_ens p = true) /\ ~ In OWork p /\ ids_of p = ids.
Proof.
  induction ids as [|i r ((IH1 & IH1') & IH2 & IH3)].
  - cbn. repeat split. intros [H|[]]; discriminate H.
  - cbn [map app]. split; [|split].
    + cbn [covered has_ens]. rewrite IH1, IH1'. split; reflexivity.
    + intros [H|H]; [discriminate H|exact (IH2 H)].
    + cbn. f_equal. exact IH3.
Qed.
End Facts.
