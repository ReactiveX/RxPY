(* The sequential disposable models of Core/Disposables.v: every statement quantifies over ALL call histories
   of one thread (induction over the list).  First what holds of every model: [final] and [log] along a
   history, [final_invariant], [final_after], and [run_conservation] (a balance of every call is a balance
   of every history).  Then, class by class (Disposable / Boolean, Composite, Serial, SingleAssignment,
   MultipleAssignment, Scheduled, RefCount): the balance or closed form of one call from ANY state, and the
   theorem about histories it gives.  The vocabulary in which Props/C25.v and C27.v state histories
   ([is_ddispose], [c_hadds], [s_hsets], [s_rejected], [eff_runs], [gets], [dispd], [rwf], ...) is defined
   here, next to its first use. *)
From RxVerif Require Import Base.Prelude Core.Disposables.
Local Open Scope nat_scope.

Section RunFacts.
Context {S O : Type} (step : S -> O -> S * list obs).

Lemma run_cons : forall s o t,
  run step s (o :: t) =
  (fst (run step (fst (step s o)) t), snd (step s o) :: snd (run step (fst (step s o)) t)).
Proof.
  intros s o t. cbn [run]. destruct (step s o) as [s1 out]. cbn [fst snd].
  destruct (run step s1 t) as [s2 os]. reflexivity.
Qed.

Lemma final_nil : forall s, final step s [] = s.
Proof. reflexivity. Qed.
Lemma log_nil : forall s, log step s [] = [].
Proof. reflexivity. Qed.

Lemma final_cons : forall s o t, final step s (o :: t) = final step (fst (step s o)) t.
Proof. intros. unfold final. rewrite run_cons. reflexivity. Qed.

Lemma outs_cons : forall s o t,
  outs step s (o :: t) = snd (step s o) :: outs step (fst (step s o)) t.
Proof. intros. unfold outs. rewrite run_cons. reflexivity. Qed.

Lemma log_cons : forall s o t,
  log step s (o :: t) = snd (step s o) ++ log step (fst (step s o)) t.
Proof. intros. unfold log. rewrite outs_cons. reflexivity. Qed.

Lemma final_app : forall h1 h2 s, final step s (h1 ++ h2) = final step (final step s h1) h2.
Proof.
  induction h1 as [|o t IH]; intros h2 s; [reflexivity|].
  cbn [app]. rewrite !final_cons. apply IH.
Qed.

Lemma outs_app : forall h1 h2 s,
  outs step s (h1 ++ h2) = outs step s h1 ++ outs step (final step s h1) h2.
Proof.
  induction h1 as [|o t IH]; intros h2 s; [reflexivity|].
  cbn [app]. rewrite !outs_cons, final_cons, IH. reflexivity.
Qed.

Lemma log_app : forall h1 h2 s,
  log step s (h1 ++ h2) = log step s h1 ++ log step (final step s h1) h2.
Proof. intros. unfold log. rewrite outs_app, concat_app. reflexivity. Qed.

Lemma outs_single : forall s o, outs step s [o] = [snd (step s o)].
Proof. intros. rewrite outs_cons. reflexivity. Qed.

Lemma outs_snoc_last : forall h o s,
  last (outs step s (h ++ [o])) [] = snd (step (final step s h) o).
Proof. intros. rewrite outs_app, outs_single, last_last. reflexivity. Qed.

Lemma outs_length : forall h s, length (outs step s h) = length h.
Proof.
  induction h as [|o t IH]; intros s; [reflexivity|].
  rewrite outs_cons. cbn [length]. rewrite IH. reflexivity.
Qed.

Lemma final_invariant : forall (P : S -> Prop),
  (forall s o, P s -> P (fst (step s o))) -> forall h s, P s -> P (final step s h).
Proof.
  intros P Hs. induction h as [|o t IH]; intros s H; [exact H|]. rewrite final_cons. apply IH, Hs, H.
Qed.

(* what one kind of call establishes and every call keeps holds ever after such a call *)
Lemma final_after : forall (P : S -> Prop) o0,
  (forall s o, P s -> P (fst (step s o))) -> (forall s, P (fst (step s o0))) ->
  forall h1 h2 s, P (final step s (h1 ++ o0 :: h2)).
Proof.
  intros P o0 Hs H0 h1 h2 s. rewrite final_app, final_cons. apply final_invariant; [exact Hs|apply H0].
Qed.
End RunFacts.

Lemma disposes_app : forall i a b, disposes i (a ++ b) = disposes i a + disposes i b.
Proof. intros. unfold disposes. rewrite filter_app, app_length. reflexivity. Qed.
Lemma raises_app : forall a b, raises (a ++ b) = raises a + raises b.
Proof. intros. unfold raises. rewrite filter_app, app_length. reflexivity. Qed.
Lemma runs_app : forall a b, runs (a ++ b) = runs a + runs b.
Proof. intros. unfold runs. rewrite filter_app, app_length. reflexivity. Qed.

Lemma list_sum_cons : forall x l, list_sum (x :: l) = x + list_sum l.
Proof. reflexivity. Qed.
Lemma disposes_cons : forall i o l, disposes i (o :: l) = (if is_disp i o then 1 else 0) + disposes i l.
Proof. intros. unfold disposes. cbn [filter]. destruct (is_disp i o); reflexivity. Qed.
Lemma disposes_nil : forall i, disposes i [] = 0.
Proof. reflexivity. Qed.
Lemma cnt_nil : forall i, cnt i [] = 0.
Proof. reflexivity. Qed.

Lemma disposes_map_ODisp : forall i l, disposes i (map ODisp l) = cnt i l.
Proof.
  intros i l. unfold disposes, cnt. induction l as [|x t IH]; [reflexivity|].
  cbn [map filter is_disp]. destruct (Nat.eqb i x); cbn [length]; rewrite IH; reflexivity.
Qed.

Lemma disposes_opt_disp : forall i o, disposes i (opt_disp o) = ocnt i o.
Proof.
  intros i [j|]; [|reflexivity]. unfold disposes, ocnt. cbn. destruct (Nat.eqb i j); reflexivity.
Qed.

(* a balance of every call (dispose() calls made + held afterwards = held before + handed over) is a
   balance of every history *)
Lemma run_conservation : forall {S O} (step : S -> O -> S * list obs) i (held : S -> nat) (adds : O -> nat),
  (forall s o, disposes i (snd (step s o)) + held (fst (step s o)) = held s + adds o) ->
  forall h s, disposes i (log step s h) + held (final step s h) = held s + list_sum (map adds h).
Proof.
  intros S O step i held adds Hs. induction h as [|o t IH]; intros s.
  - rewrite log_nil, final_nil. cbn. lia.
  - rewrite log_cons, final_cons, disposes_app. cbn [map]. rewrite list_sum_cons.
    specialize (IH (fst (step s o))). specialize (Hs s o). lia.
Qed.

Lemma cnt_app : forall i a b, cnt i (a ++ b) = cnt i a + cnt i b.
Proof. intros. unfold cnt. rewrite filter_app, app_length. reflexivity. Qed.

Lemma cnt_cons : forall i x t, cnt i (x :: t) = (if Nat.eqb i x then 1 else 0) + cnt i t.
Proof. intros. unfold cnt. cbn [filter]. destruct (Nat.eqb i x); reflexivity. Qed.

Lemma cnt_remove_first_same : forall i l, mem i l = true -> S (cnt i (remove_first i l)) = cnt i l.
Proof.
  intros i l. induction l as [|x t IH]; intros Hm; [discriminate|].
  cbn [remove_first]. rewrite cnt_cons. cbn [mem existsb] in Hm.
  destruct (Nat.eqb i x) eqn:E; [reflexivity|].
  cbn [orb] in Hm. rewrite cnt_cons, E. cbn [Nat.add]. apply IH. exact Hm.
Qed.

Lemma cnt_remove_first_other : forall i j l, i <> j -> cnt i (remove_first j l) = cnt i l.
Proof.
  intros i j l Hij. induction l as [|x t IH]; [reflexivity|].
  cbn [remove_first]. destruct (Nat.eqb j x) eqn:E.
  - apply Nat.eqb_eq in E. subst x. rewrite cnt_cons.
    destruct (Nat.eqb i j) eqn:E2; [apply Nat.eqb_eq in E2; contradiction|reflexivity].
  - rewrite !cnt_cons, IH. reflexivity.
Qed.

Lemma cnt_mem : forall i l, mem i l = true <-> 0 < cnt i l.
Proof.
  intros i l. induction l as [|x t IH]; cbn [mem existsb].
  - split; [discriminate|]. unfold cnt. cbn. lia.
  - rewrite cnt_cons. destruct (Nat.eqb i x); cbn [orb].
    + split; [lia|reflexivity].
    + exact IH.
Qed.

Lemma cnt_zero_not_mem : forall i l, cnt i l = 0 <-> mem i l = false.
Proof.
  intros i l. destruct (mem i l) eqn:E.
  - apply cnt_mem in E. split; [lia|discriminate].
  - split; [reflexivity|]. intros _. destruct (cnt i l) eqn:C; [reflexivity|].
    assert (H : mem i l = true) by (apply cnt_mem; lia). congruence.
Qed.

Definition is_ddispose (o : dop) : bool := match o with DDispose => true | _ => false end.

Lemma d_run_gen : forall h s,
  final d_step s h = (s || existsb is_ddispose h)%bool /\
  runs (log d_step s h) = (if s then 0 else if existsb is_ddispose h then 1 else 0).
Proof.
  induction h as [|o t IH]; intros s.
  - rewrite final_nil, log_nil. cbn. rewrite orb_false_r. destruct s; auto.
  - rewrite final_cons, log_cons, runs_app. destruct (IH (fst (d_step s o))) as [IH1 IH2].
    rewrite IH1, IH2. destruct o, s; cbn; auto; destruct (existsb is_ddispose t); auto.
Qed.

Lemma b_run_gen : forall h s,
  final b_step s h = (s || existsb is_ddispose h)%bool /\
  runs (log b_step s h) = 0 /\ (forall i, disposes i (log b_step s h) = 0).
Proof.
  induction h as [|o t IH]; intros s.
  - rewrite final_nil, log_nil. cbn. rewrite orb_false_r. auto.
  - rewrite final_cons, log_cons, runs_app. destruct (IH (fst (b_step s o))) as [IH1 [IH2 IH3]].
    rewrite IH1, IH2. split; [|split].
    + destruct o, s; cbn; auto.
    + destruct o; reflexivity.
    + intros i. rewrite disposes_app, IH3. destruct o; reflexivity.
Qed.

(* BooleanDisposable only flips its flag *)
Lemma boolean_flag_only : forall h,
  final b_step d_init h = existsb is_ddispose h /\
  runs (log b_step d_init h) = 0 /\ (forall i, disposes i (log b_step d_init h) = 0).
Proof. intros h. exact (b_run_gen h d_init). Qed.

Definition c_hadds (i : item) (h : list cop) : nat := list_sum (map (c_adds i) h).
Definition is_cdispose (o : cop) : bool := match o with CDispose => true | _ => false end.
(* invariant of reachable states: a disposed composite holds nothing *)
Definition c_ok (s : cstate) : Prop := c_disposed s = true -> c_items s = [].

Lemma c_step_ok : forall s o, c_ok s -> c_ok (fst (c_step s o)).
Proof.
  unfold c_ok. intros s o H. destruct o as [j|j| | |j| | |]; cbn [c_step]; try exact H.
  - destruct (c_disposed s) eqn:D; cbn [fst c_items c_disposed]; [rewrite D; exact H|discriminate].
  - destruct (c_disposed s) eqn:D; cbn [fst]; [rewrite D; exact H|].
    destruct (mem j (c_items s)); cbn [fst c_items c_disposed]; [discriminate|rewrite D; discriminate].
  - destruct (c_disposed s) eqn:D; cbn [fst c_items c_disposed]; [rewrite D; exact H|reflexivity].
  - cbn [fst c_items c_disposed]. reflexivity.
Qed.

Lemma c_init_ok : forall l, c_ok (c_init l).
Proof. intros l H. discriminate. Qed.

Lemma c_final_ok : forall l h, c_ok (final c_step (c_init l) h).
Proof. intros l h. apply (final_invariant c_step c_ok c_step_ok), c_init_ok. Qed.

Lemma c_step_conservation : forall s o i,
  disposes i (snd (c_step s o)) + cnt i (c_items (fst (c_step s o))) = cnt i (c_items s) + c_adds i o.
Proof.
  intros s o i. destruct o as [j|j| | |j| | |]; cbn [c_step c_adds];
    try (cbn [fst snd]; rewrite disposes_cons, disposes_nil; cbn [is_disp]; lia).   (* the queries *)
  - destruct (c_disposed s); cbn [fst snd c_items].
    + rewrite disposes_cons, disposes_nil. cbn [is_disp]. destruct (Nat.eqb i j); lia.
    + rewrite cnt_app, cnt_cons, cnt_nil, disposes_nil. destruct (Nat.eqb i j); lia.
  - destruct (c_disposed s); cbn [fst snd c_items]; [rewrite disposes_cons, disposes_nil; cbn [is_disp]; lia|].
    destruct (mem j (c_items s)) eqn:M; cbn [fst snd c_items];
      [|rewrite disposes_cons, disposes_nil; cbn [is_disp]; lia].
    rewrite !disposes_cons, disposes_nil. cbn [is_disp]. destruct (Nat.eqb i j) eqn:E.
    + apply Nat.eqb_eq in E. subst j. pose proof (cnt_remove_first_same i _ M). lia.
    + apply Nat.eqb_neq in E. rewrite (cnt_remove_first_other i j _ E). lia.
  - destruct (c_disposed s) eqn:D; cbn [fst snd c_items]; [rewrite disposes_nil; lia|].
    rewrite disposes_map_ODisp, cnt_nil. lia.
  - cbn [fst snd c_items]. rewrite disposes_map_ODisp, cnt_nil. lia.
Qed.

(* all histories: for every item, (#dispose() calls it received)
   + (#occurrences still held) = (#times it was handed to the container). *)
Lemma composite_conservation : forall l h i,
  disposes i (log c_step (c_init l) h) + cnt i (c_items (final c_step (c_init l) h))
  = cnt i l + c_hadds i h.
Proof.
  intros l h i. apply (run_conservation c_step i (fun s => cnt i (c_items s)) (c_adds i)).
  intros s o. apply c_step_conservation.
Qed.

Lemma c_disposed_after_dispose : forall h1 h2 s, c_disposed (final c_step s (h1 ++ CDispose :: h2)) = true.
Proof.
  apply (final_after c_step (fun s => c_disposed s = true)).
  - intros s o H. destruct o; cbn [c_step]; rewrite ?H; cbn [fst c_disposed]; auto.
  - intros s. cbn [c_step]. destruct (c_disposed s) eqn:D; cbn [fst c_disposed]; auto.
Qed.

Definition s_hsets (i : item) (h : list sop) : nat := list_sum (map (s_sets i) h).
Definition s_ok (s : sstate) : Prop := s_disposed s = true -> s_cur s = None.

Lemma ocnt_none : forall i, ocnt i None = 0.
Proof. reflexivity. Qed.
Lemma ocnt_same : forall i, ocnt i (Some i) = 1.
Proof. intros i. cbn [ocnt]. rewrite Nat.eqb_refl. reflexivity. Qed.
Lemma ocnt_other : forall i o, o <> Some i -> ocnt i o = 0.
Proof.
  intros i [j|] H; [|reflexivity]. cbn [ocnt]. destruct (Nat.eqb_spec i j) as [->|]; [contradiction H|]; reflexivity.
Qed.

Lemma slot_dispose_conservation : forall s i,
  disposes i (snd (slot_dispose s)) + ocnt i (s_cur (fst (slot_dispose s))) = ocnt i (s_cur s).
Proof.
  intros s i. unfold slot_dispose. destruct (s_disposed s); cbn [fst snd s_cur].
  - unfold disposes. cbn. lia.
  - rewrite disposes_opt_disp, ocnt_none. lia.
Qed.

Lemma slot_query_id : forall s o, fst (slot_query s o) = s.
Proof. intros s o. destruct o; reflexivity. Qed.
Lemma slot_query_silent : forall s o i, disposes i (snd (slot_query s o)) = 0.
Proof. intros s o i. destruct o; reflexivity. Qed.
Lemma slot_query_noraise : forall s o, raises (snd (slot_query s o)) = 0.
Proof. intros s o. destruct o; reflexivity. Qed.

Lemma ser_step_conservation : forall s o i,
  disposes i (snd (ser_step s o)) + ocnt i (s_cur (fst (ser_step s o))) = ocnt i (s_cur s) + s_sets i o.
Proof.
  intros s o i. destruct o as [j| | |]; cbn [ser_step s_sets].
  - destruct (s_disposed s); cbn [fst snd s_cur].
    + unfold disposes. cbn. destruct (Nat.eqb i j); cbn; lia.
    + rewrite disposes_opt_disp. cbn [ocnt]. destruct (Nat.eqb i j); lia.
  - pose proof (slot_dispose_conservation s i). lia.
  - rewrite slot_query_id, slot_query_silent. lia.
  - rewrite slot_query_id, slot_query_silent. lia.
Qed.

Lemma serial_conservation : forall h i,
  disposes i (log ser_step s_init h) + ocnt i (s_cur (final ser_step s_init h)) = s_hsets i h.
Proof.
  intros h i. apply (run_conservation ser_step i (fun s => ocnt i (s_cur s)) (s_sets i)).
  intros s o. apply ser_step_conservation.
Qed.

Lemma slot_dispose_ok : forall s, s_ok s -> s_ok (fst (slot_dispose s)).
Proof.
  intros s H. unfold slot_dispose. destruct (s_disposed s) eqn:D; cbn [fst]; [exact H|].
  intros _. reflexivity.
Qed.

Lemma slot_dispose_disposed : forall s, s_disposed (fst (slot_dispose s)) = true.
Proof. intros s. unfold slot_dispose. destruct (s_disposed s) eqn:D; cbn [fst s_disposed]; auto. Qed.

Lemma ser_step_ok : forall s o, s_ok s -> s_ok (fst (ser_step s o)).
Proof.
  intros s o H. destruct o as [j| | |]; cbn [ser_step].
  - destruct (s_disposed s) eqn:D; cbn [fst]; [exact H|]. intros X. discriminate X.
  - apply slot_dispose_ok, H.
  - rewrite slot_query_id. exact H.
  - rewrite slot_query_id. exact H.
Qed.

Lemma s_init_ok : s_ok s_init.
Proof. intros H. discriminate H. Qed.

Lemma ser_final_ok : forall h, s_ok (final ser_step s_init h).
Proof. intros h. apply (final_invariant ser_step s_ok ser_step_ok), s_init_ok. Qed.

Lemma ser_sticky1 : forall s o, s_disposed s = true -> s_disposed (fst (ser_step s o)) = true.
Proof.
  intros s o H. destruct o; cbn [ser_step]; rewrite ?slot_query_id; auto.
  - rewrite H. exact H.
  - apply slot_dispose_disposed.
Qed.

Lemma serial_disposed_after_dispose : forall h1 h2,
  s_disposed (final ser_step s_init (h1 ++ SDispose :: h2)) = true.
Proof.
  intros. apply (final_after ser_step (fun s => s_disposed s = true) SDispose ser_sticky1).
  intros s. apply slot_dispose_disposed.
Qed.

(* assignments of item i that were rejected (the call raised) *)
Fixpoint s_rejected (i : item) (h : list sop) (os : list (list obs)) : nat :=
  match h, os with
  | o :: h', out :: os' => (if 0 <? raises out then s_sets i o else 0) + s_rejected i h' os'
  | _, _ => 0
  end.

Lemma sad_step_conservation : forall s o i,
  disposes i (snd (sad_step s o)) + ocnt i (s_cur (fst (sad_step s o)))
  + (if 0 <? raises (snd (sad_step s o)) then s_sets i o else 0) = ocnt i (s_cur s) + s_sets i o.
Proof.
  intros s o i. destruct o as [j| | |]; cbn [sad_step s_sets].
  - destruct (s_cur s) as [c|] eqn:C; cbn [fst snd].
    + rewrite C. cbn. lia.
    + destruct (s_disposed s); cbn [fst snd s_cur].
      * rewrite disposes_cons, disposes_nil. cbn [is_disp]. rewrite C. cbn. destruct (Nat.eqb i j); lia.
      * rewrite disposes_nil. cbn. destruct (Nat.eqb i j); lia.
  - pose proof (slot_dispose_conservation s i). unfold slot_dispose in *.
    destruct (s_disposed s); cbn [fst snd] in *.
    + cbn. lia.
    + replace (raises (opt_disp (s_cur s))) with 0 by (destruct (s_cur s); reflexivity).
      cbn [s_cur ocnt] in *. cbn. lia.
  - rewrite slot_query_id, slot_query_silent, slot_query_noraise. cbn. lia.
  - rewrite slot_query_id, slot_query_silent, slot_query_noraise. cbn. lia.
Qed.

Lemma sad_conservation_gen : forall h s i,
  disposes i (log sad_step s h) + ocnt i (s_cur (final sad_step s h)) + s_rejected i h (outs sad_step s h)
  = ocnt i (s_cur s) + s_hsets i h.
Proof.
  induction h as [|o t IH]; intros s i.
  - rewrite log_nil, final_nil. unfold s_hsets. cbn. lia.
  - rewrite log_cons, final_cons, outs_cons, disposes_app. cbn [s_rejected].
    pose proof (IH (fst (sad_step s o)) i) as H1. pose proof (sad_step_conservation s o i) as H2.
    unfold s_hsets in *. cbn [map]. rewrite list_sum_cons. lia.
Qed.

(* conservation: every assignment is either rejected (raised), or its item is the current one, or the
   item received exactly one dispose() *)
Lemma sad_conservation : forall h i,
  disposes i (log sad_step s_init h) + ocnt i (s_cur (final sad_step s_init h))
  + s_rejected i h (outs sad_step s_init h) = s_hsets i h.
Proof. intros. rewrite sad_conservation_gen. reflexivity. Qed.

Lemma sad_step_ok : forall s o, s_ok s -> s_ok (fst (sad_step s o)).
Proof.
  intros s o H. destruct o as [j| | |]; cbn [sad_step].
  - destruct (s_cur s) eqn:C; cbn [fst]; [exact H|].
    destruct (s_disposed s) eqn:D; cbn [fst]; [exact H|]. intros X. discriminate X.
  - apply slot_dispose_ok, H.
  - rewrite slot_query_id. exact H.
  - rewrite slot_query_id. exact H.
Qed.

Lemma sad_final_ok : forall h, s_ok (final sad_step s_init h).
Proof. intros h. apply (final_invariant sad_step s_ok sad_step_ok), s_init_ok. Qed.

Lemma sad_sticky1 : forall s o, s_disposed s = true -> s_disposed (fst (sad_step s o)) = true.
Proof.
  intros s o H. destruct o; cbn [sad_step]; rewrite ?slot_query_id; auto.
  - destruct (s_cur s); cbn [fst]; [exact H|]. rewrite H. exact H.
  - apply slot_dispose_disposed.
Qed.

Lemma sad_live_keeps : forall h s,
  existsb is_sdispose h = false -> s_disposed s = false ->
  s_disposed (final sad_step s h) = false /\
  (forall c, s_cur s = Some c -> s_cur (final sad_step s h) = Some c).
Proof.
  induction h as [|o t IH]; intros s N D; [rewrite final_nil; auto|].
  cbn [existsb] in N. apply orb_false_iff in N. destruct N as [N1 N2]. rewrite final_cons.
  destruct o as [j| | |]; try discriminate N1; cbn [sad_step]; rewrite ?slot_query_id; try apply (IH s N2 D).
  destruct (s_cur s) as [c|] eqn:C; cbn [fst].
  - destruct (IH s N2 D) as [A B]. split; [exact A|]. intros c0 E. apply B. rewrite C. exact E.
  - rewrite D. cbn [fst]. destruct (IH (SState (Some j) false) N2 eq_refl) as [A _]. split; [exact A|discriminate].
Qed.

(* A second assignment to a SingleAssignmentDisposable that is not disposed is rejected, whatever
   else (other than dispose) happened in between; it changes nothing. *)
Lemma sad_second_assignment_rejected : forall h1 h2 i j,
  existsb is_sdispose (h1 ++ SSet i :: h2) = false ->
  let s := final sad_step s_init (h1 ++ SSet i :: h2) in
  sad_step s (SSet j) = (s, [ORaise]).
Proof.
  intros h1 h2 i j N s. rewrite existsb_app in N. apply orb_false_iff in N. destruct N as [N1 N2].
  cbn [existsb is_sdispose orb] in N2. destruct (sad_live_keeps h1 s_init N1 eq_refl) as [A1 _].
  unfold s. rewrite final_app, final_cons. set (s1 := fst (sad_step (final sad_step s_init h1) (SSet i))).
  (* after the assignment of i the container is live and its slot is taken *)
  assert (s_disposed s1 = false /\ exists c, s_cur s1 = Some c) as [Hd [c Hc]].
  { unfold s1. cbn [sad_step]. destruct (s_cur (final sad_step s_init h1)) as [c|] eqn:C; cbn [fst].
    - split; [exact A1|exists c; exact C].
    - rewrite A1. split; [reflexivity|exists i; reflexivity]. }
  destruct (sad_live_keeps h2 s1 N2 Hd) as [_ B]. cbn [sad_step]. rewrite (B c Hc). reflexivity.
Qed.

(* before the first assignment the slot is empty (so the first assignment is never rejected) *)
Definition is_sset (o : sop) : bool := match o with SSet _ => true | _ => false end.
Lemma sad_no_set_no_current : forall h s,
  existsb is_sset h = false -> s_cur s = None -> s_cur (final sad_step s h) = None.
Proof.
  induction h as [|o t IH]; intros s N C; [exact C|].
  cbn [existsb] in N. apply orb_false_iff in N. destruct N as [N1 N2]. rewrite final_cons.
  apply IH; [exact N2|]. destruct o; try discriminate N1; cbn [sad_step]; rewrite ?slot_query_id; auto.
  unfold slot_dispose. destruct (s_disposed s); cbn [fst s_cur]; auto.
Qed.

Lemma sad_disposed_after_dispose : forall h1 h2,
  s_disposed (final sad_step s_init (h1 ++ SDispose :: h2)) = true.
Proof.
  intros. apply (final_after sad_step (fun s => s_disposed s = true) SDispose sad_sticky1).
  intros s. apply slot_dispose_disposed.
Qed.

(* MultipleAssignmentDisposable: which items are disposed, in order *)
Fixpoint disp_ids (l : list obs) : list item :=
  match l with [] => [] | ODisp i :: t => i :: disp_ids t | _ :: t => disp_ids t end.
Fixpoint sets_of (h : list sop) : list item :=
  match h with [] => [] | SSet i :: t => i :: sets_of t | _ :: t => sets_of t end.
Definition last_set (h : list sop) : option item :=
  match rev (sets_of h) with [] => None | i :: _ => Some i end.
Definition opt_items (o : option item) : list item := match o with Some i => [i] | None => [] end.

Lemma disp_ids_app : forall a b, disp_ids (a ++ b) = disp_ids a ++ disp_ids b.
Proof.
  induction a as [|x t IH]; intros b; [reflexivity|]. cbn [app disp_ids]. destruct x; rewrite IH; reflexivity.
Qed.

Lemma sets_of_app : forall a b, sets_of (a ++ b) = sets_of a ++ sets_of b.
Proof.
  induction a as [|x t IH]; intros b; [reflexivity|]. cbn [app sets_of]. destruct x; rewrite IH; reflexivity.
Qed.

(* no dispose(): nothing is ever disposed, the current item is the last one assigned *)
Lemma mad_live : forall h s,
  existsb is_sdispose h = false -> s_disposed s = false ->
  s_disposed (final mad_step s h) = false /\
  disp_ids (log mad_step s h) = [] /\
  s_cur (final mad_step s h) = match last_set h with Some i => Some i | None => s_cur s end.
Proof.
  induction h as [|o t IH]; intros s N D.
  - rewrite final_nil, log_nil. auto.
  - cbn [existsb] in N. apply orb_false_iff in N. destruct N as [N1 N2].
    rewrite final_cons, log_cons, disp_ids_app.
    destruct o as [j| | |]; try discriminate N1; cbn [mad_step]; rewrite ?slot_query_id; try exact (IH s N2 D).
    rewrite D. cbn [fst snd]. destruct (IH (SState (Some j) false) N2 eq_refl) as [A [B C]].
    split; [exact A|]. split; [rewrite B; reflexivity|]. rewrite C.
    unfold last_set. cbn [sets_of rev s_cur]. destruct (rev (sets_of t)) as [|x r] eqn:R; reflexivity.
Qed.

(* once disposed: each later assignment is disposed at once, nothing else *)
Lemma mad_dead : forall h s, s_disposed s = true -> disp_ids (log mad_step s h) = sets_of h.
Proof.
  induction h as [|o t IH]; intros s D; [reflexivity|].
  rewrite log_cons, disp_ids_app. destruct o as [j| | |]; cbn [mad_step sets_of]; rewrite ?slot_query_id; try exact (IH s D).
  - rewrite D. cbn [fst snd disp_ids app]. rewrite (IH s D). reflexivity.
  - unfold slot_dispose. rewrite D. exact (IH s D).
Qed.

(* number of queued actions the scheduler actually ran *)
Fixpoint eff_runs (q : nat) (h : list schop) : nat :=
  match h with
  | [] => 0
  | SchDispose :: t => eff_runs (S q) t
  | SchRunOne :: t => match q with O => eff_runs O t | S q' => S (eff_runs q' t) end
  | SchIsDisposed :: t => eff_runs q t
  end.
Definition is_sched (o : obs) : bool := match o with OSched => true | _ => false end.
Definition scheds (l : list obs) : nat := length (filter is_sched l).
Definition is_schdispose (o : schop) : bool := match o with SchDispose => true | _ => false end.

(* whatever the inner slot holds is disposed by the first queued action the scheduler runs *)
Lemma scheduled_gen : forall h inner q,
  s_ok inner ->
  let s := SchState inner q in
  (forall j, disposes j (log sch_step s h) =
             if 0 <? eff_runs q h then ocnt j (s_cur inner) else 0) /\
  s_disposed (sch_inner (final sch_step s h)) = (s_disposed inner || (0 <? eff_runs q h))%bool.
Proof.
  induction h as [|o t IH]; intros inner q OK s.
  - rewrite log_nil, final_nil. cbn. rewrite orb_false_r. split; [intros; reflexivity|reflexivity].
  - unfold s. rewrite log_cons, final_cons. destruct o; cbn [sch_step eff_runs].
    + exact (IH inner (S q) OK).
    + destruct q as [|q']; cbn [sch_queue]; [exact (IH inner 0 OK)|].
      (* the scheduler runs a queued action: inner.dispose() *)
      cbn [sch_inner sad_step]. unfold slot_dispose. change (0 <? S (eff_runs q' t)) with true. cbn iota.
      destruct (s_disposed inner) eqn:D; cbn [fst snd].
      * destruct (IH inner q' OK) as [A B]. split; [|rewrite B, D; reflexivity].
        intros j. rewrite disposes_app, A, (OK D), disposes_cons, disposes_nil. cbn [s_cur ocnt is_disp].
        destruct (0 <? eff_runs q' t); reflexivity.
      * destruct (IH (SState None true) q' (fun _ => eq_refl)) as [A B]. split; [|rewrite B; reflexivity].
        intros j. rewrite disposes_app, A, disposes_cons, disposes_opt_disp. cbn [s_cur ocnt is_disp].
        destruct (0 <? eff_runs q' t); lia.
    + exact (IH inner q OK).
Qed.

(* the wrapped item is disposed exactly once iff the scheduler ran at least one of the queued
   actions, never otherwise, and nothing else is disposed; is_disposed reports exactly that *)
Lemma scheduled_once : forall h i,
  let s0 := sch_init i in
  disposes i (log sch_step s0 h) = (if 0 <? eff_runs 0 h then 1 else 0) /\
  (forall j, j <> i -> disposes j (log sch_step s0 h) = 0) /\
  s_disposed (sch_inner (final sch_step s0 h)) = (0 <? eff_runs 0 h).
Proof.
  intros h i s0. unfold s0, sch_init. cbn [sad_step s_init s_cur s_disposed fst].
  destruct (scheduled_gen h (SState (Some i) false) 0) as [A B]; [intros X; discriminate X|]. split; [|split].
  - rewrite A. cbn [s_cur]. rewrite ocnt_same. reflexivity.
  - intros j Hj. rewrite A. cbn [s_cur ocnt].
    rewrite (proj2 (Nat.eqb_neq j i) Hj). destruct (0 <? eff_runs 0 h); reflexivity.
  - rewrite B. reflexivity.
Qed.

Definition is_live (d : dep) : bool := match d with DInner true => true | _ => false end.
Definition live (l : list dep) : nat := length (filter is_live l).
Definition is_rget (o : rop) : bool := match o with RGet => true | _ => false end.
Definition gets (h : list rop) : nat := length (filter is_rget h).
Definition is_rdispose (o : rop) : bool := match o with RDispose => true | _ => false end.
Definition is_rdisp (k : nat) (o : rop) : bool := match o with RDispDep j => Nat.eqb k j | _ => false end.
(* dependent k was disposed (at least once) in h *)
Definition dispd (k : nat) (h : list rop) : bool := existsb (is_rdisp k) h.
(* a history only disposes dependents that were handed out before ([n] handed out so far) *)
Fixpoint rwf (n : nat) (h : list rop) : bool :=
  match h with
  | [] => true
  | RGet :: t => rwf (S n) t
  | RDispDep k :: t => (k <? n) && rwf n t
  | _ :: t => rwf n t
  end.
Definition b2n (b : bool) : nat := if b then 1 else 0.
Definition u_disposes (l : list obs) : nat := disposes underlying l.

(* count = #handles whose parent link is set; released = primary disposed and no such handle *)
Definition r_ok (s : rstate) : Prop :=
  r_count s = Z.of_nat (live (r_deps s)) /\
  r_disposed s = (r_primary s && (live (r_deps s) =? 0))%bool.

Lemma live_app : forall a b, live (a ++ b) = live a + live b.
Proof. intros. unfold live. rewrite filter_app, app_length. reflexivity. Qed.
Lemma live_nil : live [] = 0.
Proof. reflexivity. Qed.
Lemma live_cons : forall d l, live (d :: l) = b2n (is_live d) + live l.
Proof. intros. unfold live. cbn [filter]. destruct (is_live d); reflexivity. Qed.

Lemma live_set_nth : forall l k d d',
  nth_error l k = Some d -> live (set_nth k d' l) + b2n (is_live d) = live l + b2n (is_live d').
Proof.
  induction l as [|x t IH]; intros k d d' H.
  - destruct k; discriminate H.
  - destruct k as [|k']; cbn [nth_error] in H; cbn [set_nth].
    + injection H as ->. rewrite !live_cons. lia.
    + rewrite !live_cons. specialize (IH k' d d' H). lia.
Qed.

Lemma set_nth_length : forall A (l : list A) k x, length (set_nth k x l) = length l.
Proof.
  induction l as [|y t IH]; intros k x; [destruct k; reflexivity|]. destruct k; cbn [set_nth length]; [reflexivity|].
  rewrite IH. reflexivity.
Qed.

Lemma set_nth_same : forall A (l : list A) k x, nth_error l k = Some x -> set_nth k x l = l.
Proof.
  induction l as [|y t IH]; intros k x H; [destruct k; reflexivity|]. destruct k; cbn [nth_error] in H; cbn [set_nth].
  - injection H as ->. reflexivity.
  - rewrite IH; [reflexivity|exact H].
Qed.

Lemma nth_set_nth_eq : forall A (l : list A) k x, k < length l -> nth_error (set_nth k x l) k = Some x.
Proof.
  induction l as [|y t IH]; intros k x H; [cbn in H; lia|]. destruct k; cbn [set_nth nth_error]; [reflexivity|].
  apply IH. cbn in H. lia.
Qed.

Lemma nth_set_nth_neq : forall A (l : list A) k j x, k <> j -> nth_error (set_nth j x l) k = nth_error l k.
Proof.
  induction l as [|y t IH]; intros k j x H; [destruct j; reflexivity|].
  destruct j, k; cbn [set_nth nth_error]; try reflexivity; [lia|]. apply IH. lia.
Qed.

Lemma live_zero_nth : forall l k, live l = 0 -> nth_error l k <> Some (DInner true).
Proof.
  induction l as [|x t IH]; intros k H; [destruct k; discriminate|].
  rewrite live_cons in H. destruct k; cbn [nth_error].
  - intros E. injection E as ->. cbn in H. lia.
  - apply IH. lia.
Qed.

Lemma live_pos_nth : forall l, live l <> 0 -> exists k, nth_error l k = Some (DInner true).
Proof.
  induction l as [|x t IH]; intros H; [unfold live in H; cbn in H; lia|].
  rewrite live_cons in H. destruct x as [[|]|b].
  - exists 0. reflexivity.
  - cbn in H. destruct (IH H) as [k Hk]. exists (S k). exact Hk.
  - cbn in H. destruct (IH H) as [k Hk]. exists (S k). exact Hk.
Qed.

(* release() on a consistent state that still has at least one outstanding token *)
Lemma r_release_spec : forall c p deps,
  (c = Z.of_nat (S (live deps)))%Z ->
  let s' := fst (r_release (RState c p false deps)) in
  r_count s' = Z.of_nat (live deps) /\ r_primary s' = p /\ r_deps s' = deps /\
  r_disposed s' = (p && (live deps =? 0))%bool /\
  snd (r_release (RState c p false deps)) = if (p && (live deps =? 0))%bool then [ODisp underlying] else [].
Proof.
  intros c p deps C. unfold r_release. cbn [r_disposed r_count r_primary r_deps].
  assert (((c - 1 =? 0)%Z) = (live deps =? 0)) as E.
  { destruct (live deps =? 0) eqn:L.
    - apply Nat.eqb_eq in L. apply Z.eqb_eq. lia.
    - apply Nat.eqb_neq in L. apply Z.eqb_neq. lia. }
  rewrite E. rewrite andb_comm.
  destruct (p && (live deps =? 0))%bool eqn:PL; cbn [fst snd r_count r_primary r_deps r_disposed];
    repeat split; try lia; try reflexivity.
Qed.

(* a handle whose parent link is still set: the object is not released, and the count is one more than
   the handles that remain live once this one is taken *)
Lemma r_live_handle : forall c p d deps k,
  r_ok (RState c p d deps) -> nth_error deps k = Some (DInner true) ->
  d = false /\ (c = Z.of_nat (S (live (set_nth k (DInner false) deps))))%Z.
Proof.
  intros c p d deps k [Hc Hd] N. cbn [r_count r_primary r_disposed r_deps] in *.
  pose proof (live_set_nth deps k _ (DInner false) N) as LS. cbn [is_live b2n] in LS. split; [|lia].
  rewrite Hd. destruct (Nat.eqb_spec (live deps) 0); [lia|apply andb_false_r].
Qed.

(* one call on a consistent state: consistency is kept, the primary flag is set by dispose() only, and the
   underlying item is disposed by this call iff this call is the one that releases; nothing else is *)
Lemma r_step_spec : forall s o, r_ok s ->
  r_ok (fst (r_step s o)) /\
  r_primary (fst (r_step s o)) = (r_primary s || is_rdispose o)%bool /\
  u_disposes (snd (r_step s o)) + b2n (r_disposed s) = b2n (r_disposed (fst (r_step s o))) /\
  (forall j, j <> underlying -> disposes j (snd (r_step s o)) = 0).
Proof.
  assert (forall j, j <> underlying -> disposes j [ODisp underlying] = 0) as UO.
  { intros j Hj. rewrite disposes_cons, disposes_nil. cbn [is_disp]. rewrite (proj2 (Nat.eqb_neq j underlying) Hj). reflexivity. }
  intros [c p d deps] o [Hc Hd]. cbn [r_count r_primary r_disposed r_deps] in *. unfold u_disposes, r_ok.
  destruct o as [|k| |]; cbn [r_step is_rdispose r_count r_primary r_disposed r_deps]; rewrite ?orb_false_r.
  - (* a handle is handed out: a live one, or an inert one after the release *)
    destruct d; cbn [fst snd r_count r_primary r_disposed r_deps];
      rewrite live_app, live_cons, live_nil; cbn [is_live b2n]; rewrite ?Nat.add_0_r; (split; [split; [lia|]|repeat split]).
    + exact Hd.
    + rewrite Nat.add_1_r. symmetry. apply andb_false_r.
  - destruct (nth_error deps k) as [[[|]|b]|] eqn:N; cbn [fst snd r_count r_primary r_disposed r_deps];
      try (split; [split; assumption|repeat split]).
    + (* the parent link is taken: release() *)
      destruct (r_live_handle c p d deps k (conj Hc Hd) N) as [-> C].
      destruct (r_release_spec c p (set_nth k (DInner false) deps) C) as [R1 [R2 [R3 [R4 R5]]]].
      rewrite R1, R2, R3, R4, R5. split; [split; reflexivity|split; [reflexivity|]].
      destruct (p && (live (set_nth k (DInner false) deps) =? 0))%bool; split; auto.
    + pose proof (live_set_nth deps k _ (DInert true) N) as LS. cbn [is_live b2n] in LS.
      replace (live (set_nth k (DInert true) deps)) with (live deps) by lia. split; [split; assumption|repeat split].
  - (* dispose() of the primary: releases iff no handle is live *)
    assert ((c =? 0)%Z = (live deps =? 0)) as E.
    { destruct (Nat.eqb_spec (live deps) 0); [apply Z.eqb_eq|apply Z.eqb_neq]; lia. }
    rewrite E. destruct p; cbn [andb] in Hd; subst d;
      destruct (live deps =? 0) eqn:L; cbn [fst snd r_count r_primary r_disposed r_deps andb]; rewrite ?L; repeat split; auto.
  - cbn [fst snd]. split; [split; assumption|]. repeat split.
Qed.

Lemma r_step_ok : forall s o, r_ok s -> r_ok (fst (r_step s o)).
Proof. intros s o H. apply r_step_spec, H. Qed.

Lemma r_final_ok : forall h s, r_ok s -> r_ok (final r_step s h).
Proof. exact (final_invariant r_step r_ok r_step_ok). Qed.

Lemma r_init_ok : r_ok r_init.
Proof. split; reflexivity. Qed.

Lemma rc_log_gen : forall h s, r_ok s ->
  u_disposes (log r_step s h) + b2n (r_disposed s) = b2n (r_disposed (final r_step s h)) /\
  (forall j, j <> underlying -> disposes j (log r_step s h) = 0).
Proof.
  induction h as [|o t IH]; intros s H.
  - rewrite log_nil, final_nil. split; [reflexivity|intros; reflexivity].
  - rewrite log_cons, final_cons. destruct (r_step_spec s o H) as [_ [_ [A1 A2]]].
    destruct (IH _ (r_step_ok s o H)) as [B1 B2]. unfold u_disposes in *. split.
    + rewrite disposes_app. lia.
    + intros j Hj. rewrite disposes_app, A2, B2; auto.
Qed.

Lemma rc_underlying_is_released_flag : forall h,
  u_disposes (log r_step r_init h) = b2n (r_disposed (final r_step r_init h)).
Proof. intros h. destruct (rc_log_gen h r_init r_init_ok) as [A _]. cbn [r_init r_disposed b2n] in A. lia. Qed.

Lemma r_primary_gen : forall h s, r_ok s ->
  r_primary (final r_step s h) = (r_primary s || existsb is_rdispose h)%bool.
Proof.
  induction h as [|o t IH]; intros s H.
  - rewrite final_nil. cbn. rewrite orb_false_r. reflexivity.
  - destruct (r_step_spec s o H) as [_ [P _]].
    rewrite final_cons, (IH _ (r_step_ok s o H)), P, <- orb_assoc. reflexivity.
Qed.

Lemma r_release_deps : forall s, r_deps (fst (r_release s)) = r_deps s.
Proof.
  intros s. unfold r_release. destruct (r_disposed s); [reflexivity|].
  destruct ((r_count s - 1 =? 0)%Z && r_primary s)%bool; reflexivity.
Qed.

Lemma r_release_disposed_mono : forall s, r_disposed s = true -> r_disposed (fst (r_release s)) = true.
Proof. intros s H. unfold r_release. rewrite H. exact H. Qed.

Lemma r_step_length : forall s o,
  length (r_deps (fst (r_step s o))) = length (r_deps s) + b2n (is_rget o).
Proof.
  intros s o. destruct o as [|k| |]; cbn [r_step is_rget b2n].
  - destruct (r_disposed s); cbn [fst r_deps]; rewrite app_length; reflexivity.
  - destruct (nth_error (r_deps s) k) as [[[|]|b]|]; cbn [fst r_deps];
      rewrite ?r_release_deps; cbn [r_deps]; rewrite ?set_nth_length; lia.
  - destruct (r_disposed s); [cbn; lia|]. destruct (r_primary s); [cbn; lia|].
    destruct (r_count s =? 0)%Z; cbn; lia.
  - cbn. lia.
Qed.

Lemma r_final_length : forall h s, length (r_deps (final r_step s h)) = length (r_deps s) + gets h.
Proof.
  induction h as [|o t IH]; intros s.
  - rewrite final_nil. unfold gets. cbn. lia.
  - rewrite final_cons, IH, r_step_length. unfold gets. cbn [filter]. destruct (is_rget o); cbn [b2n length]; lia.
Qed.

(* status of a handle after one more call *)
Definition dep_after (d : dep) (hit : bool) : dep :=
  match d with
  | DInner b => DInner (b && negb hit)
  | DInert b => DInert (b || hit)
  end.

Lemma dep_after_false : forall d, dep_after d false = d.
Proof. intros [b|b]; cbn; rewrite ?andb_true_r, ?orb_false_r; reflexivity. Qed.

Lemma r_step_nth : forall s o k d,
  nth_error (r_deps s) k = Some d ->
  nth_error (r_deps (fst (r_step s o))) k = Some (dep_after d (is_rdisp k o)).
Proof.
  intros s o k d N. assert (k < length (r_deps s)) as L by (apply nth_error_Some; congruence).
  destruct o as [|j| |]; cbn [r_step is_rdisp].
  - rewrite dep_after_false. destruct (r_disposed s); cbn [fst r_deps]; rewrite nth_error_app1 by exact L; exact N.
  - destruct (Nat.eqb k j) eqn:E.
    + apply Nat.eqb_eq in E. subst j. rewrite N. destruct d as [[|]|b]; cbn [fst r_deps dep_after].
      * rewrite r_release_deps. cbn [r_deps]. rewrite nth_set_nth_eq by exact L. reflexivity.
      * rewrite N. reflexivity.
      * rewrite nth_set_nth_eq by exact L. cbn. rewrite orb_true_r. reflexivity.
    + apply Nat.eqb_neq in E. rewrite dep_after_false.
      destruct (nth_error (r_deps s) j) as [[[|]|b]|]; cbn [fst r_deps]; rewrite ?r_release_deps; cbn [r_deps];
        rewrite ?nth_set_nth_neq by exact E; exact N.
  - rewrite dep_after_false. destruct (r_disposed s); [exact N|]. destruct (r_primary s); [exact N|].
    destruct (r_count s =? 0)%Z; exact N.
  - rewrite dep_after_false. exact N.
Qed.

Lemma dep_after_after : forall d a b, dep_after (dep_after d a) b = dep_after d (a || b).
Proof.
  intros [x|x] a b; cbn; f_equal.
  - rewrite negb_orb, andb_assoc. reflexivity.
  - rewrite orb_assoc. reflexivity.
Qed.

Lemma r_final_nth : forall h s k d,
  nth_error (r_deps s) k = Some d ->
  nth_error (r_deps (final r_step s h)) k = Some (dep_after d (dispd k h)).
Proof.
  induction h as [|o t IH]; intros s k d N.
  - rewrite final_nil. unfold dispd. cbn [existsb]. rewrite dep_after_false. exact N.
  - rewrite final_cons. rewrite (IH _ k _ (r_step_nth s o k d N)). rewrite dep_after_after. reflexivity.
Qed.

Lemma r_disposed_sticky1 : forall s o, r_disposed s = true -> r_disposed (fst (r_step s o)) = true.
Proof.
  intros s o H. destruct o as [|k| |]; cbn [r_step]; rewrite ?H; cbn [fst r_disposed]; auto.
  destruct (nth_error (r_deps s) k) as [[[|]|b]|]; cbn [fst r_disposed]; auto;
    try (apply r_release_disposed_mono; exact H).
Qed.

(* a handle created during h: by which RGet, and what state the object was in at that moment *)
Lemma r_created : forall h s k d,
  length (r_deps s) <= k ->
  nth_error (r_deps (final r_step s h)) k = Some d ->
  exists h1 h2, h = h1 ++ RGet :: h2 /\ length (r_deps s) + gets h1 = k /\
    d = dep_after (if r_disposed (final r_step s h1) then DInert false else DInner true) (dispd k h2).
Proof.
  induction h as [|o t IH]; intros s k d L N.
  - rewrite final_nil in N. apply nth_error_None in L. congruence.
  - rewrite final_cons in N. pose proof (r_step_length s o) as SL.
    destruct (Nat.lt_ge_cases k (length (r_deps (fst (r_step s o))))) as [Lt|Ge].
    + (* created by this very call *)
      destruct o as [|j| |]; cbn [is_rget b2n] in SL; try lia.   (* only RGet lengthens the list *)
      assert (k = length (r_deps s)) as -> by lia.
      exists [], t. split; [reflexivity|]. split; [unfold gets; cbn; lia|].
      rewrite final_nil.
      assert (nth_error (r_deps (fst (r_step s RGet))) (length (r_deps s)) =
              Some (if r_disposed s then DInert false else DInner true)) as N0.
      { cbn [r_step]. destruct (r_disposed s); cbn [fst r_deps];
          rewrite nth_error_app2 by lia; rewrite Nat.sub_diag; reflexivity. }
      rewrite (r_final_nth t _ _ _ N0) in N. injection N as <-. reflexivity.
    + destruct (IH _ k d Ge N) as [h1 [h2 [E [G D]]]].
      exists (o :: h1), h2. split; [rewrite E; reflexivity|]. split.
      * unfold gets in *. cbn [filter]. destruct (is_rget o); cbn [b2n length] in *; lia.
      * rewrite final_cons. exact D.
Qed.

Lemma rwf_dispd_bound : forall h1 n k rest,
  rwf n (h1 ++ rest) = true -> dispd k h1 = true -> k < n + gets h1.
Proof.
  induction h1 as [|o t IH]; intros n k rest W D; [discriminate D|].
  cbn [app] in W. unfold dispd in D. cbn [existsb] in D. unfold gets. cbn [filter].
  destruct o as [|j| |]; cbn [rwf is_rdisp is_rget orb length] in *.
  - specialize (IH (S n) k rest W D). unfold gets in IH. lia.
  - apply andb_true_iff in W. destruct W as [W1 W2]. apply Nat.ltb_lt in W1.
    destruct (Nat.eqb k j) eqn:E.
    + apply Nat.eqb_eq in E. subst j. lia.
    + cbn [orb] in D. specialize (IH n k rest W2 D). unfold gets in IH. lia.
  - specialize (IH n k rest W D). unfold gets in IH. lia.
  - specialize (IH n k rest W D). unfold gets in IH. lia.
Qed.

Lemma dispd_app : forall k a b, dispd k (a ++ b) = (dispd k a || dispd k b)%bool.
Proof. intros. unfold dispd. apply existsb_app. Qed.

(* the dispose() calls of a handle are those made after the RGet that created it; a well-formed history
   makes none before *)
Lemma dispd_created : forall h1 h2,
  dispd (gets h1) (h1 ++ RGet :: h2) = (dispd (gets h1) h1 || dispd (gets h1) h2)%bool /\
  (rwf 0 (h1 ++ RGet :: h2) = true -> dispd (gets h1) h1 = false).
Proof.
  intros h1 h2. split; [rewrite dispd_app; reflexivity|]. intros W.
  destruct (dispd (gets h1) h1) eqn:B; [|reflexivity]. pose proof (rwf_dispd_bound h1 0 _ _ W B). lia.
Qed.

Lemma r_handle : forall h k d,
  nth_error (r_deps (final r_step r_init h)) k = Some d ->
  exists h1 h2, h = h1 ++ RGet :: h2 /\ gets h1 = k /\
    d = dep_after (if r_disposed (final r_step r_init h1) then DInert false else DInner true) (dispd k h2).
Proof. intros h k d N. exact (r_created h r_init k d (Nat.le_0_l _) N). Qed.

Lemma r_handle_exists : forall h k, k < gets h -> exists d, nth_error (r_deps (final r_step r_init h)) k = Some d.
Proof.
  intros h k Hk. destruct (nth_error (r_deps (final r_step r_init h)) k) as [d|] eqn:N; [exists d; reflexivity|].
  apply nth_error_None in N. rewrite r_final_length in N. cbn [r_init r_deps length] in N. lia.
Qed.

(* only after: if the underlying item was disposed then dispose() was called on the primary and every
   dependent handed out was disposed -- except those requested after the release (which are inert) *)
Lemma rc_released_only_after : forall h,
  u_disposes (log r_step r_init h) = 1 ->
  existsb is_rdispose h = true /\
  forall k, k < gets h ->
    dispd k h = true \/
    exists h1 h2, h = h1 ++ RGet :: h2 /\ gets h1 = k /\ u_disposes (log r_step r_init h1) = 1.
Proof.
  intros h U. rewrite rc_underlying_is_released_flag in U.
  pose proof (r_final_ok h r_init r_init_ok) as [_ HD]. rewrite HD in U.
  destruct (r_primary (final r_step r_init h)) eqn:P; [|discriminate U].
  destruct (Nat.eqb_spec (live (r_deps (final r_step r_init h))) 0) as [L|]; [|discriminate U]. split.
  - rewrite (r_primary_gen h r_init r_init_ok) in P. exact P.
  - intros k Hk. destruct (r_handle_exists h k Hk) as [d N]. destruct (r_handle h k d N) as [h1 [h2 [E [G Dd]]]].
    destruct (r_disposed (final r_step r_init h1)) eqn:D1.
    + right. exists h1, h2. split; [exact E|]. split; [exact G|].
      rewrite rc_underlying_is_released_flag, D1. reflexivity.
    + left. subst k. rewrite E, (proj1 (dispd_created h1 h2)). destruct (dispd (gets h1) h2); [apply orb_true_r|].
      (* created live and never disposed: it would still be live *)
      exfalso. subst d. exact (live_zero_nth _ _ L N).
Qed.

(* the converse, for histories that only dispose handles already handed out ([rwf]): if dispose() was
   called on the primary and every dependent handed out was disposed, the underlying item has been disposed
   (once) *)
Lemma rc_released_when_all_done : forall h,
  rwf 0 h = true -> existsb is_rdispose h = true ->
  (forall k, k < gets h -> dispd k h = true) ->
  u_disposes (log r_step r_init h) = 1.
Proof.
  intros h W P A. rewrite rc_underlying_is_released_flag.
  pose proof (r_final_ok h r_init r_init_ok) as [_ HD]. rewrite HD, (r_primary_gen h r_init r_init_ok), P.
  destruct (Nat.eqb_spec (live (r_deps (final r_step r_init h))) 0) as [|L]; [reflexivity|]. exfalso.
  (* a handle that is still live was disposed, after its creation: it is not live *)
  destruct (live_pos_nth _ L) as [k N]. destruct (r_handle h k _ N) as [h1 [h2 [E [G Dd]]]]. subst k.
  assert (gets h1 < gets h) as Hk.
  { rewrite E. unfold gets. rewrite filter_app, app_length. cbn [filter is_rget length]. lia. }
  specialize (A _ Hk). rewrite E in A, W. destruct (dispd_created h1 h2) as [DA DW].
  rewrite DA, (DW W) in A. cbn [orb] in A. rewrite A in Dd.
  destruct (r_disposed (final r_step r_init h1)); cbn in Dd; discriminate Dd.
Qed.

(* double dispose: disposing a dependent that was already disposed changes nothing and emits nothing *)
Lemma rc_second_dispose_noop : forall h k,
  rwf 0 h = true -> dispd k h = true ->
  r_step (final r_step r_init h) (RDispDep k) = (final r_step r_init h, []).
Proof.
  intros h k W Dk.
  assert (k < gets h) as Hk.
  { pose proof (rwf_dispd_bound h 0 k [] ) as X. rewrite app_nil_r in X. specialize (X W Dk). lia. }
  destruct (r_handle_exists h k Hk) as [d N]. destruct (r_handle h k d N) as [h1 [h2 [E [G Dd]]]]. subst k.
  rewrite E in Dk, W. destruct (dispd_created h1 h2) as [DA DW]. rewrite DA, (DW W) in Dk. cbn [orb] in Dk.
  rewrite Dk in Dd. cbn [r_step]. rewrite N.
  destruct (r_disposed (final r_step r_init h1)); cbn in Dd; subst d.
  - rewrite (set_nth_same _ _ _ _ N). destruct (final r_step r_init h); reflexivity.
  - reflexivity.
Qed.

(* a marked element of a list that ends in [o] is that last element or lies before it *)
Lemma split_last_cases : forall A (ha hb h1 : list A) x o,
  ha ++ x :: hb = h1 ++ [o] ->
  (hb = [] /\ ha = h1 /\ x = o) \/ exists hb', hb = hb' ++ [o] /\ h1 = ha ++ x :: hb'.
Proof.
  intros A ha hb h1 x o H. destruct hb as [|y r].
  - left. apply app_inj_tail in H. destruct H as [-> ->]. auto.
  - right. destruct (@exists_last _ (y :: r)) as [hb' [a Hb]]; [discriminate|]. rewrite Hb in *.
    change (ha ++ x :: hb' ++ [a]) with (ha ++ (x :: hb') ++ [a]) in H. rewrite app_assoc in H.
    apply app_inj_tail in H. destruct H as [<- ->]. exists hb'. auto.
Qed.
