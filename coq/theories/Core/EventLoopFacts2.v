(* More facts about Core/EventLoop.v (C31):
   - the call a thread is in and the calls it has still to make (tcur, ttodo), where a call can come from (src);
   - with exit_if_empty the loop thread HAS exited in every quiescent state whose due times are past;
   - after scheduler.dispose() returned every new schedule call raises. *)
From RxVerif Require Import Base.Prelude Core.EventLoop Core.EventLoopFacts.
Local Open Scope Z_scope.

Definition tcur (st : tstate) : option opst :=
  match st with TSched cur _ => cur | TLoop (LBody _ cur _ _) => cur | _ => None end.
Definition ttodo (st : tstate) : list op :=
  match st with TSched _ todo => todo | TLoop (LBody _ _ todo _) => todo | _ => [] end.
(* the call in progress has uid u, action a and due time due, before or after its unlocked _is_disposed test *)
Definition cur_is (cur : option opst) (u a : nat) (due : Z) : Prop :=
  cur = Some (PS1 u a due) \/ cur = Some (PS2 u a due).

Lemma tcur_tcall : forall st, tcur st = fst (tcall st).
Proof. destruct st as [|[]]; reflexivity. Qed.
Lemma ttodo_tcall : forall st, ttodo st = snd (tcall st).
Proof. destruct st as [|[]]; reflexivity. Qed.

Section Src.
Variable body : nat -> list op.
Variable progs : list (list op).

(* the call occurs in the program of a scheduling thread or in the body of an action *)
Definition src (o : op) : Prop := (exists p, In p progs /\ In o p) \/ exists a, In o (body a).
End Src.

(* the proviso of el_accepted_due_linked (Core/EventLoopFacts3.v) is needed: schedule_absolute with a time in the past is accepted with
   due = t although the call was made later (the item is immediately due: it runs at once, late, never early) *)
Definition abs_past_witness : config :=
  run false nobody (init 100 [[SchedAbs 50 7%nat]]) (steps [0; 0]%nat).

Section Exit.
Variable eie : bool.
Variable body : nat -> list op.
Notation cstep := (cstep eie body).
Notation run := (run eie body).

(* a waiter with a timeout that has not been notified waits for a queued item;
   with exit_if_empty every waiter has a timeout *)
Definition invX (s : shared) : Prop :=
  (forall w d, wt s = Some w -> w_notified w = false -> w_deadline w = Some d -> q s <> []) /\
  (eie = true -> forall w, wt s = Some w -> w_deadline w <> None).

Lemma invX_init : forall t0, invX (sh0 t0).
Proof. intros. unfold invX, sh0. cbn. split; intros; discriminate. Qed.

Lemma invX_opstep : forall ntid s cur todo s' cur' todo' out sp,
  opstep ntid s cur todo s' cur' todo' out sp -> invX s -> invX s'.
Proof.
  intros ntid s cur todo s' cur' todo' out sp O [X1 X2].
  assert (N1 : forall w, notify (wt s) = Some w -> w_notified w = false -> False).
  { intros w E F. rewrite (notify_notified _ _ E) in F. discriminate F. }
  assert (N2 : eie = true -> forall w, notify (wt s) = Some w -> w_deadline w <> None).
  { intros E w Hn. destruct (notify_some _ _ Hn) as (w1 & W1 & _ & -> & _). apply (X2 E w1 W1). }
  (* a call step leaves wt alone or notifies it: a notified waiter is no concern of the first part (N1), and keeps
     its deadline (N2) *)
  destruct O; unfold set_q; cbn [wt q]; split; auto; try (intros w d E F _; exfalso; exact (N1 w E F)).
Qed.

Lemma invX_step : forall c tid c', invA c -> invX (c_sh c) -> cstep c tid c' -> invX (c_sh c').
Proof.
  intros c tid c' A X S. destruct S as [cur todo s' cur' todo' out sp N O|ph s' ph' out sp N LS]; cbn [c_sh].
  - eapply invX_opstep; eassumption.
  - destruct X as [X1 X2]. unfold invX.
    pose proof (stepping_loop_is_thr eie body _ _ _ _ _ _ _ _ A N LS) as THR.
    destruct LS; unfold set_q; cbn [wt q]; try (split; assumption).
    + (* collect: the collecting thread is the live thread, so nobody is waiting *)
      split; [|exact X2]. intros w0 d0 W.
      rewrite (no_waiter_while_running _ _ _ A N THR) in W by discriminate. discriminate W.
    + (* inside an action *)
      eapply invX_opstep; [eassumption|split; assumption].
    + (* wait with a timeout: the head of the queue *)
      split.
      * intros w0 d0 _ _ _. rewrite H0. discriminate.
      * intros _ w0 W. inv W. discriminate.
    + (* wait for ever: only without exit_if_empty *)
      split.
      * intros w0 d0 W _ D. inv W. discriminate D.
      * intros E. congruence.
    + (* woken up *)
      split; [intros w0 d0 W; discriminate W|intros _ w0 W; discriminate W].
Qed.

Lemma invX_run : forall sched c, invAll eie c -> invX (c_sh c) -> invX (c_sh (run c sched)).
Proof.
  intros sched c A X. apply (run_invariant2 eie body (fun c => invX (c_sh c)) (invAll eie)); auto.
  - intros. apply invAll_run. assumption.
  - intros c0 tid c' (A0 & _) X0 S. eapply invX_step; eassumption.
Qed.
End Exit.

(* with exit_if_empty: in every quiescent state of a scheduler that is not disposed, with the clock past
   every accepted due time, the scheduler has NO thread and every loop thread that was ever started has
   exited *)
Theorem el_exits_when_idle : forall body t0 progs sched,
  let c := run true body (init t0 progs) sched in
  quiescent c = true -> disposed (c_sh c) = false ->
  (forall i, In (EAcc i) (L c) -> it_due i <= clock (c_sh c)) ->
  thr (c_sh c) = None /\
  forall t ph, nth_error (c_ths c) t = Some (TLoop ph) -> ph = LExited.
Proof.
  intros body t0 progs sched c Q D DUE.
  pose proof (reach true body t0 progs sched) as R. fold c in R.
  pose proof (invX_run true body sched _ (invAll_init true t0 progs) (invX_init true t0)) as [X1 X2]. fold c in X1, X2.
  destruct R as (_ & _ & _ & _ & _ & _ & (_ & _ & H3)).
  assert (EX : forall t ph, nth_error (c_ths c) t = Some (TLoop ph) -> ph = LExited).
  { intros t ph P.
    pose proof (quiescent_idle _ _ _ P Q) as I.
    destruct ph; try discriminate I; [exfalso|reflexivity].
    destruct (idle_waiter_no_work true body t0 progs sched DUE t P I) as (w & W & NN & _ & QQ).
    destruct (w_deadline w) as [d|] eqn:DL; [exact (X1 w d W NN DL QQ)|exact (X2 eq_refl w W DL)]. }
  split; [|exact EX].
  destruct (thr (c_sh c)) as [t|] eqn:T; [exfalso|reflexivity].
  destruct (H3 t eq_refl D) as [ph [P LV]]. apply LV. eapply EX, P.
Qed.

Lemma opstep_raise : forall ntid s cur todo s' cur' todo' out sp,
  opstep ntid s cur todo s' cur' todo' out sp -> disposed s = true ->
  disposed s' = true /\
  (forall u a due, cur = Some (PS1 u a due) -> In (ERaise a) out) /\
  (forall u a, In (ECall u a) out -> In (ERaise a) out \/ exists due, cur' = Some (PS1 u a due)).
Proof.
  intros ntid s cur todo s' cur' todo' out sp O D.
  (* as in [opstep_uids]: every constructor gives [out] as a literal list *)
  destruct O; cbn; try congruence; repeat split; intros; in_literal;
    try discriminate; auto;
    match goal with X : _ = _ |- _ => injection X as <- <- <- || injection X as <- <- end; eauto.
Qed.

Section Raise.
Variable eie : bool.
Variable body : nat -> list op.
Notation cstep := (cstep eie body).
Notation run := (run eie body).

(* relative to the log [B] of the moment the flag was found set *)
Definition invG (B : list (nat * Z * ev)) (c : config) : Prop :=
  disposed (c_sh c) = true /\
  exists more, c_log c = B ++ more /\
    forall tid t u a, In (tid, t, ECall u a) more ->
      (exists t', In (tid, t', ERaise a) more) \/
      (exists st due, nth_error (c_ths c) tid = Some st /\ tcur st = Some (PS1 u a due)).

Lemma invG_step : forall B c tid c', invG B c -> cstep c tid c' -> invG B c'.
Proof.
  intros B c tid c' (G1 & more & G2 & G3) S.
  destruct (cstep_call_or_loop _ _ _ _ _ S) as (st & st' & s' & out & sp & N & -> & H).
  (* the flag stays; a thread standing at the test raises now; a call begun now raises or stands at the test *)
  assert (R : disposed s' = true /\
            (forall u a due, tcur st = Some (PS1 u a due) -> In (ERaise a) out) /\
            (forall u a, In (ECall u a) out -> In (ERaise a) out \/ exists due, tcur st' = Some (PS1 u a due))).
  { rewrite !tcur_tcall. destruct H as [O|(_ & _ & CE & _ & DI & TC & _)].
    - exact (opstep_raise _ _ _ _ _ _ _ _ _ O G1).
    - rewrite TC. repeat split; [congruence|discriminate|]. intros u a I. discriminate (CE _ I). }
  destruct R as (R1 & R2 & R3).
  split; [exact R1|]. exists (more ++ stamp tid (clock (c_sh c)) out). cbn [c_log c_ths].
  split; [rewrite G2, app_assoc; reflexivity|].
  intros j t u a I. apply in_app_or in I. destruct I as [I|I].
  - destruct (G3 j t u a I) as [(t' & X)|(x & due & Nx & Cx)].
    + left. exists t'. apply in_or_app. left. exact X.
    + destruct (Nat.eq_dec j tid) as [->|NE].
      * rewrite N in Nx. inv Nx. left. exists (clock (c_sh c)). apply in_or_app. right.
        apply in_stamp. repeat split. eapply R2. exact Cx.
      * right. exists x, due. split; [|exact Cx]. erewrite nth_step_old; [reflexivity|exact NE|exact Nx].
  - apply in_stamp in I. destruct I as (-> & -> & I). destruct (R3 u a I) as [X|(due & X)].
    + left. exists (clock (c_sh c)). apply in_or_app. right. apply in_stamp. auto.
    + right. exists st', due. split; [erewrite nth_step_same by exact N; reflexivity|exact X].
Qed.

Lemma invG_run : forall B sched c, invG B c -> invG B (run c sched).
Proof.
  intros B. apply (run_invariant eie body (invG B)).
  - intros; eapply invG_step; eassumption.
  - intros c d H. exact H.
Qed.

(* once the scheduler is disposed, every schedule call that BEGINS afterwards raises DisposedException on
   the calling thread, or that thread still stands at the unlocked `if self._is_disposed` test of that
   call (it will raise at its next step: [opstep_raise]) *)
Theorem el_dispose_raises : forall t0 progs sched1 sched2 tid t u a,
  let c1 := run (init t0 progs) sched1 in
  let c2 := run c1 sched2 in
  disposed (c_sh c1) = true ->
  In (tid, t, ECall u a) (skipn (length (c_log c1)) (c_log c2)) ->
  (exists t', In (tid, t', ERaise a) (skipn (length (c_log c1)) (c_log c2))) \/
  (exists st due, nth_error (c_ths c2) tid = Some st /\ tcur st = Some (PS1 u a due)).
Proof.
  intros t0 progs sched1 sched2 tid t u a c1 c2 D I.
  assert (G0 : invG (c_log c1) c1).
  { split; [exact D|]. exists []. split; [rewrite app_nil_r; reflexivity|]. intros ? ? ? ? []. }
  destruct (invG_run (c_log c1) sched2 c1 G0) as (_ & more & E & G). fold c2 in E, G.
  rewrite E, skipn_app, skipn_all, Nat.sub_diag in I |- *. cbn [skipn app] in I |- *. exact (G tid t u a I).
Qed.

End Raise.
