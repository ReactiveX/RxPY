(* C36 -- [rn] is THE correctly rounded binary64 quotient: what that says (rn_spec), that rn satisfies it
   (rn_correct), and the boolean order on float values (fl_leb_le). *)
From Coq Require Import ZArith Lia.
From RxVerif Require Import Core.TimeConv Core.TimeConvFacts.
Open Scope Z_scope.

Lemma fl_leb_le : forall x y, fl_leb x y = true <-> fl_le x y.
Proof. intros [m e] [m' e']. apply Z.leb_le. Qed.

(* rn a b is the correctly rounded binary64 of a / b (a, b > 0; 2^e = up e / dn e):
   exponent at least -1074, mantissa at most 2^53 (and at least 2^52 unless subnormal),
   error at most half a unit in the last place, ties to the even mantissa *)
Definition rn_spec (a b : Z) (x : fl) : Prop :=
  let 'F m e := x in
  -1074 <= e /\ 0 <= m <= 2 ^ 53 /\ (-1074 < e -> 2 ^ 52 <= m) /\
  2 * Z.abs (m * (b * up e) - a * dn e) <= b * up e /\
  (2 * Z.abs (m * (b * up e) - a * dn e) = b * up e -> Z.even m = true).

Theorem rn_correct : forall a b, 0 < a -> 0 < b -> rn_spec a b (rn a b).
Proof.
  intros a b Ha Hb. rewrite rn_form by lia. unfold rn_spec.
  destruct (rn_exp_spec a b Ha Hb) as [N1 [N2 N3]].
  set (e := rn_exp a b) in *. pose proof (den_pos b e Hb) as HY. pose proof (dn_pos e) as D.
  repeat split.
  - exact N1.
  - apply rne_div_ge_bound; [exact HY | nia].
  - apply rne_div_le_bound; [exact HY | lia].
  - intros C. apply rne_div_ge_bound; [exact HY | exact (N3 C)].
  - apply rne_div_err, HY.
  - apply rne_div_tie_even, HY.
Qed.

(* to_seconds(timedelta) is the correctly rounded n / 10^6 *)
Corollary to_seconds_correctly_rounded : forall n, 0 < n -> rn_spec n us_per_s (to_seconds_td n).
Proof. intros n H. apply rn_correct; [exact H | reflexivity]. Qed.
