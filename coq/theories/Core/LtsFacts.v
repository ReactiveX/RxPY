(* Generic facts about the interleaving semantics of Core/Lts.v.  First the list layer: [upd_nth], sums over the
   thread list ([nsum]) and what the threads contribute to a list (fm_* : [flat_map]); then steps and runs. *)
From RxVerif Require Import Base.Prelude Core.Lts.
Local Open Scope nat_scope.

Lemma nth_upd_same : forall A (l : list A) k x old,
  nth_error l k = Some old -> nth_error (upd_nth k x l) k = Some x.
Proof.
  induction l as [|y t IH]; intros k x old H; [destruct k; discriminate H|].
  destruct k as [|k']; cbn [upd_nth nth_error] in *; [reflexivity|]. eapply IH, H.
Qed.

Lemma nth_upd_other : forall A (l : list A) k j x,
  j <> k -> nth_error (upd_nth k x l) j = nth_error l j.
Proof.
  induction l as [|y t IH]; intros k j x H; [destruct k; reflexivity|].
  destruct k as [|k'], j as [|j']; cbn [upd_nth nth_error]; try reflexivity; [congruence|].
  apply IH. congruence.
Qed.

(* read on the thread list after a step: the entry is the thread that stepped, or one that was there before *)
Lemma nth_upd_cases : forall A (l : list A) k x old j y,
  nth_error l k = Some old -> nth_error (upd_nth k x l) j = Some y ->
  (j = k /\ y = x) \/ (j <> k /\ nth_error l j = Some y).
Proof.
  intros A l k x old j y N H. destruct (Nat.eq_dec j k) as [->|Hj].
  - left. rewrite (nth_upd_same _ _ _ _ _ N) in H. injection H as <-. split; reflexivity.
  - right. rewrite nth_upd_other in H by exact Hj. split; assumption.
Qed.

Lemma upd_nth_neq : forall A (l : list A) k x old,
  nth_error l k = Some old -> x <> old -> upd_nth k x l <> l.
Proof.
  intros A l k x old N Hx E. pose proof (nth_upd_same _ l k x old N) as H. rewrite E, N in H.
  injection H as H. exact (Hx (eq_sym H)).
Qed.

Lemma upd_nth_length : forall A (l : list A) k x, length (upd_nth k x l) = length l.
Proof.
  induction l as [|y t IH]; intros k x; [destruct k; reflexivity|].
  destruct k; cbn [upd_nth length]; [reflexivity|]. rewrite IH. reflexivity.
Qed.

(* the list around position k, which an update of that position leaves alone *)
Lemma nth_split_upd : forall A (l : list A) k old,
  nth_error l k = Some old ->
  exists l1 l2, l = l1 ++ old :: l2 /\ forall x, upd_nth k x l = l1 ++ x :: l2.
Proof.
  induction l as [|y t IH]; intros k old H; [destruct k; discriminate H|].
  destruct k as [|k']; cbn [nth_error] in H.
  - injection H as ->. exists [], t. split; reflexivity.
  - destruct (IH k' old H) as (l1 & l2 & E1 & E2). exists (y :: l1), l2. cbn [app upd_nth].
    split; [rewrite E1; reflexivity|]. intros x. rewrite E2. reflexivity.
Qed.

Lemma nsum_cons : forall A (f : A -> nat) x l, nsum f (x :: l) = f x + nsum f l.
Proof. reflexivity. Qed.

Lemma nsum_app : forall A (f : A -> nat) a b, nsum f (a ++ b) = nsum f a + nsum f b.
Proof. induction a as [|y t IH]; intros b; [reflexivity|]. cbn [app]. rewrite !nsum_cons, IH. lia. Qed.

(* one thread's contribution set apart from the others' *)
Lemma nsum_mid : forall A (f : A -> nat) l1 x l2, nsum f (l1 ++ x :: l2) = nsum f (l1 ++ l2) + f x.
Proof. intros. rewrite !nsum_app, nsum_cons. lia. Qed.

Lemma nsum_ge : forall A (f : A -> nat) l k x, nth_error l k = Some x -> f x <= nsum f l.
Proof.
  induction l as [|y t IH]; intros k x H; [destruct k; discriminate H|].
  rewrite nsum_cons. destruct k as [|k']; cbn [nth_error] in H.
  - injection H as ->. lia.
  - specialize (IH k' x H). lia.
Qed.

Lemma nsum_zero : forall A (f : A -> nat) l, (forall x, In x l -> f x = 0) -> nsum f l = 0.
Proof.
  intros A f l H. induction l as [|y t IH]; [reflexivity|]. rewrite nsum_cons, IH, (H y); [reflexivity|left; reflexivity|].
  intros x Hx. apply H. right. exact Hx.
Qed.

Lemma nsum_zero_inv : forall A (f : A -> nat) l x, nsum f l = 0 -> In x l -> f x = 0.
Proof.
  intros A f l x H I. induction l as [|y t IH]; [destruct I|]. rewrite nsum_cons in H.
  destruct I as [->|I]; [lia|]. apply IH; [lia|exact I].
Qed.

Lemma nsum_two : forall A (f : A -> nat) l i j x y,
  i <> j -> nth_error l i = Some x -> nth_error l j = Some y -> f x + f y <= nsum f l.
Proof.
  induction l as [|z t IH]; intros i j x y N Hi Hj; [destruct i; discriminate Hi|].
  rewrite nsum_cons. destruct i as [|i'], j as [|j']; cbn [nth_error] in Hi, Hj.
  - congruence.
  - injection Hi as ->. pose proof (nsum_ge A f t j' y Hj). lia.
  - injection Hj as ->. pose proof (nsum_ge A f t i' x Hi). lia.
  - assert (i' <> j') by congruence. specialize (IH i' j' x y H Hi Hj). lia.
Qed.

Lemma fm_nil : forall A B (g : A -> list B) l, (forall y, In y l -> g y = []) -> flat_map g l = [].
Proof.
  intros A B g l H. induction l as [|y t IH]; [reflexivity|]. cbn [flat_map].
  rewrite (H y), IH; [reflexivity| |left; reflexivity]. intros z Hz. apply H. right. exact Hz.
Qed.

Lemma fm_mid : forall A B (g : A -> list B) l1 x l2,
  flat_map g (l1 ++ x :: l2) = flat_map g l1 ++ g x ++ flat_map g l2.
Proof. intros. rewrite flat_map_app. reflexivity. Qed.

Lemma fm_upd_same : forall A B (g : A -> list B) l k x old,
  nth_error l k = Some old -> g x = g old -> flat_map g (upd_nth k x l) = flat_map g l.
Proof.
  induction l as [|y t IH]; intros k x old H E; [destruct k; discriminate H|].
  destruct k as [|k']; cbn [nth_error] in H; cbn [upd_nth flat_map].
  - injection H as ->. rewrite E. reflexivity.
  - rewrite (IH k' x old H E). reflexivity.
Qed.

Lemma fm_single : forall A B (g : A -> list B) l k old,
  nth_error l k = Some old ->
  (forall j y, j <> k -> nth_error l j = Some y -> g y = []) -> flat_map g l = g old.
Proof.
  induction l as [|z t IH]; intros k old H Ho; [destruct k; discriminate H|].
  destruct k as [|k']; cbn [nth_error] in H; cbn [flat_map].
  - injection H as ->. rewrite fm_nil; [apply app_nil_r|]. intros y Hy.
    apply In_nth_error in Hy. destruct Hy as [n Hn]. apply (Ho (S n) y); [discriminate|exact Hn].
  - rewrite (Ho 0 z); [|discriminate|reflexivity]. cbn [app]. apply (IH k' old H).
    intros j y Hj Hy. apply (Ho (S j) y); [congruence|exact Hy].
Qed.

Lemma untag_app : forall Ob (a b : list (nat * Ob)), untag (a ++ b) = untag a ++ untag b.
Proof. intros. unfold untag. apply map_app. Qed.

(* the log after a step *)
Lemma untag_step : forall Ob (lg : list (nat * Ob)) tid out, untag (lg ++ map (pair tid) out) = untag lg ++ out.
Proof. intros. rewrite untag_app. unfold untag at 2. rewrite map_map. cbn. rewrite map_id. reflexivity. Qed.

Section Facts.
Context {Sh L O Ob : Type}.
Variable start : O -> L.
Variable act : nat -> Sh -> L -> option (Sh * option L * list Ob).
Notation thread := (@thread L O).
Notation config := (@config Sh L O Ob).
Notation tstep := (@tstep Sh L O Ob start act).
Notation run := (@run Sh L O Ob start act).

Lemma run_nil : forall c : config, run c [] = c.
Proof. reflexivity. Qed.
Lemma run_cons : forall (c : config) t s, run c (t :: s) = run (tstep c t) s.
Proof. reflexivity. Qed.
Lemma run_app : forall a b (c : config), run c (a ++ b) = run (run c a) b.
Proof. intros. unfold Lts.run. apply fold_left_app. Qed.

(* a property of configurations survives a scheduled step if it survives a step the scheduled thread takes
   (the other schedulings -- no such thread, finished, blocked -- are stutters) *)
Lemma tstep_preserves : forall (P : config -> Prop) (c : config) tid,
  P c ->
  (forall t l todo s' l' out,
     nth_error (c_ths c) tid = Some t -> next_frame start t = Some (l, todo) ->
     act tid (c_sh c) l = Some (s', l', out) ->
     P (Config s' (upd_nth tid (Thread l' todo) (c_ths c)) (c_log c ++ map (pair tid) out))) ->
  P (tstep c tid).
Proof.
  intros P c tid H0 Hs. unfold Lts.tstep.
  destruct (nth_error (c_ths c) tid) as [t|]; [|exact H0].
  destruct (next_frame start t) as [[l todo]|] eqn:F; [|exact H0].
  destruct (act tid (c_sh c) l) as [[[s' l'] out]|] eqn:A; [|exact H0].
  (* the first case analysis has turned the first premise of [Hs] into [Some t = Some _] *)
  exact (Hs t l todo s' l' out eq_refl F A).
Qed.

Lemma run_invariant : forall (P : config -> Prop),
  (forall c tid, P c -> P (tstep c tid)) -> forall sched c, P c -> P (run c sched).
Proof.
  intros P Hs. induction sched as [|t s IH]; intros c H; [exact H|].
  rewrite run_cons. apply IH, Hs, H.
Qed.

Lemma log_grows : forall sched (c : config), exists more, c_log (run c sched) = c_log c ++ more.
Proof.
  induction sched as [|t s IH]; intros c; [exists []; rewrite app_nil_r; reflexivity|].
  rewrite run_cons. destruct (IH (tstep c t)) as [m Hm]. rewrite Hm.
  apply (tstep_preserves (fun c' => exists more, c_log c' ++ m = c_log c ++ more)).
  - exists m. reflexivity.
  - intros t0 l todo s' l' out _ _ _. cbn [c_log]. exists (map (pair t) out ++ m). rewrite app_assoc. reflexivity.
Qed.

(* the frame that steps is the call in progress, or the first yield point of the next call *)
Lemma frame_cases : forall P : thread -> L -> list O -> Prop,
  (forall l todo, P (Thread (Some l) todo) l todo) ->
  (forall o todo, P (Thread None (o :: todo)) (start o) todo) ->
  forall t l todo, next_frame start t = Some (l, todo) -> P t l todo.
Proof.
  intros P H1 H2 [[l0|] td] l todo F; unfold next_frame in F; cbn [t_cur t_todo] in F.
  - injection F as <- <-. apply H1.
  - destruct td as [|o r]; [discriminate F|]. injection F as <- <-. apply H2.
Qed.

(* a frame at a position that no call starts at is a call in progress *)
Lemma frame_at : forall P : L -> bool, (forall o, P (start o) = false) ->
  forall (t : thread) l todo, next_frame start t = Some (l, todo) -> P l = true -> t_cur t = Some l.
Proof.
  intros P Hs. apply (frame_cases (fun t l _ => P l = true -> t_cur t = Some l)); [reflexivity|].
  intros o todo H. rewrite Hs in H. discriminate H.
Qed.

Lemma next_frame_none : forall t : thread, next_frame start t = None <-> finished t = true.
Proof.
  intros [[l|] [|o r]]; cbn; split; intros H; try reflexivity; discriminate H.
Qed.

Lemma init_threads : forall (s : Sh) progs tid (t : thread),
  nth_error (c_ths (init (Ob:=Ob) s progs)) tid = Some t -> t_cur t = None.
Proof.
  intros s progs tid t H. cbn [init c_ths] in H. apply nth_error_In in H. apply in_map_iff in H.
  destruct H as [p [<- _]]. reflexivity.
Qed.
End Facts.
