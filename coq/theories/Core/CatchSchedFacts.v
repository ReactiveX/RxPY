(* Facts about Core/CatchSched.v (CatchScheduler over the virtual-time model).

   The vocabulary: [raw_*] (programs as a user writes them, no catch wrapper inside), [wr_*]
   (wrapped by handler h), [noraise_*] (cannot raise).  Transparency: the wrapper leaves a
   program that cannot raise unchanged ([catch_transparent]).  Routing: [routed] and [excs_ok]
   are kept, with "everything pending is wrapped", by every function of the model ([good],
   [run_good] through [run_walk]), hence [catch_routes_all] and
   [catch_escape_only_if_rejected_start].  The wrapped periodic action makes the calls of the
   plain one ([catch_periodic_solo]).  Last, the witnesses of Props/C42.v.  The side-by-side
   simulation is in Core/CatchSchedSim.v. *)
From RxVerif Require Import Base.Prelude Core.VTime Core.VTimeFacts Core.Periodic Core.PeriodicFacts Core.CatchSched.

Local Open Scope Z_scope.

(* the generated [scmd_ind] has no hypothesis for the bodies nested in [SSched] *)
Lemma scmd_ind' (P : scmd -> Prop) :
  (forall w l b, Forall P b -> P (SSched w l b)) ->
  (forall r, P (SCancel r)) -> P SStop -> (forall d, P (SSleep d)) -> (forall e, P (SRaise e)) ->
  (forall e v, P (SHandled e v)) -> (forall n, P (SNote n)) -> (forall p f s0, P (SPeriodic p f s0)) ->
  (forall pid, P (SPCancel pid)) -> forall c, P c.
Proof.
  intros H1 H2 H3 H4 H5 H6 H7 H8 H9. fix IH 1.
  intros [w l b|r| |d|e|e v|n|p f s0|pid];
    [|apply H2|apply H3|apply H4|apply H5|apply H6|apply H7|apply H8|apply H9].
  apply H1. induction b as [|x t IHb]; constructor; [apply IH | exact IHb].
Qed.

Lemma cwrap_cmd_sched h w l b : cwrap_cmd h (SSched w l b) = SSched w l (cwrap_body h b).
Proof.
  simpl. f_equal. induction b as [|x t IH]; simpl; [reflexivity|].
  destruct (raises x); [reflexivity|]. f_equal. exact IH.
Qed.

(* programs without nested catch wrappers (what a user writes) *)
Definition raw_pres (r : pres) : bool := match r with PHandled _ _ _ => false | _ => true end.
Definition raw_tab (f : ptable) : bool := forallb (fun kv => raw_pres (snd kv)) (fst f) && raw_pres (snd f).
Fixpoint raw_cmd (c : scmd) : bool :=
  match c with
  | SSched _ _ b => forallb raw_cmd b
  | SHandled _ _ => false
  | SPeriodic _ f _ => raw_tab f
  | _ => true
  end.
Definition raw_t (c : tcmd) : bool := match c with TDo k => raw_cmd k | _ => true end.

(* a top-level call that raises by itself (sleep(-1), an explicit raise) is not an
   action of the scheduler; such calls are excluded from the routing statement *)
Definition top_quiet (c : tcmd) : bool :=
  match c with TDo k => match raises k with None => true | Some _ => false end | _ => true end.

(* "wrapped by handler h": no unguarded raising command, hereditarily; every
   except-clause that re-raises does so because h rejected the exception *)
Definition wr_pres (h : Z -> bool) (r : pres) : bool :=
  match r with PRaise _ _ => false | PHandled _ e v => v || negb (h e) | _ => true end.
Definition wr_tab (h : Z -> bool) (f : ptable) : bool :=
  forallb (fun kv => wr_pres h (snd kv)) (fst f) && wr_pres h (snd f).
Fixpoint wr_cmd (h : Z -> bool) (c : scmd) : bool :=
  match c with
  | SSched _ _ b => forallb (wr_cmd h) b
  | SRaise _ => false
  | SSleep d => 0 <=? d
  | SHandled e v => v || negb (h e)
  | SPeriodic _ f _ => wr_tab h f
  | _ => true
  end.
Definition wr_pay (h : Z -> bool) (p : payload) : bool :=
  match p with PAct _ b => forallb (wr_cmd h) b | PPer _ _ => true end.
Definition wr_t (h : Z -> bool) (c : tcmd) : bool := match c with TDo k => wr_cmd h k | _ => true end.

Lemma cwrap_pres_wr h r : raw_pres r = true -> wr_pres h (cwrap_pres h r) = true.
Proof. destruct r; simpl; try reflexivity; [|discriminate]. intros _. destruct (h e); reflexivity. Qed.

Lemma cwrap_tab_wr h f : raw_tab f = true -> wr_tab h (cwrap_tab h f) = true.
Proof.
  destruct f as [l d]. unfold raw_tab, wr_tab, cwrap_tab; simpl. intro H.
  apply andb_true_iff in H. destruct H as [Hl Hd]. rewrite (cwrap_pres_wr h d Hd), andb_true_r.
  induction l as [|[k v] t IH]; simpl in *; [reflexivity|].
  apply andb_true_iff in Hl. destruct Hl as [Hv Ht]. rewrite (cwrap_pres_wr h v Hv). simpl. auto.
Qed.

Lemma cwrap_wr h : forall c, raw_cmd c = true -> raises c = None -> wr_cmd h (cwrap_cmd h c) = true.
Proof.
  induction c as [w l b IHb|r| |d|e|e v|n|p f s0|pid] using scmd_ind'; intros Hraw Hr;
    [rewrite cwrap_cmd_sched|..]; simpl in *; try reflexivity; try discriminate.
  - induction b as [|x t IHt]; simpl; [reflexivity|].
    inversion IHb as [|? ? Hx Ht]; subst. simpl in Hraw. apply andb_true_iff in Hraw. destruct Hraw as [Rx Rt].
    destruct (raises x) as [e|] eqn:Er; simpl.
    + destruct (h e); reflexivity.
    + rewrite (Hx Rx eq_refl). simpl. apply IHt; assumption.
  - destruct (d <? 0) eqn:E; [discriminate|]. apply Z.leb_le. apply Z.ltb_ge in E. lia.
  - apply cwrap_tab_wr. assumption.
Qed.

Lemma cwrap_body_wr h : forall b, forallb raw_cmd b = true -> forallb (wr_cmd h) (cwrap_body h b) = true.
Proof.
  induction b as [|x t IH]; simpl; [reflexivity|]. intro H. apply andb_true_iff in H. destruct H as [Rx Rt].
  destruct (raises x) as [e|] eqn:Er; simpl.
  - destruct (h e); reflexivity.
  - rewrite (cwrap_wr h x Rx Er). simpl. auto.
Qed.

Lemma cwrap_t_wr h c : raw_t c = true -> top_quiet c = true -> wr_t h (cwrap_t h c) = true.
Proof.
  destruct c as [k| | |t|d]; simpl; try reflexivity. intros Hr Hq.
  destruct (raises k) eqn:E; [discriminate|]. apply cwrap_wr; assumption.
Qed.

(* transparency: a program that cannot raise is left unchanged by the wrapper *)
Definition noraise_pres (r : pres) : bool :=
  match r with PRaise _ _ => false | _ => true end.
Definition noraise_tab (f : ptable) : bool :=
  forallb (fun kv => noraise_pres (snd kv)) (fst f) && noraise_pres (snd f).
Fixpoint noraise_cmd (c : scmd) : bool :=
  match c with
  | SSched _ _ b => forallb noraise_cmd b
  | SRaise _ => false
  | SSleep d => 0 <=? d
  | SHandled _ v => v
  | SPeriodic _ f _ => noraise_tab f
  | _ => true
  end.
Definition noraise_t (c : tcmd) : bool := match c with TDo k => noraise_cmd k | _ => true end.

Lemma noraise_raises c : noraise_cmd c = true -> raises c = None.
Proof.
  destruct c; simpl; try reflexivity; try discriminate.
  - intro H. apply Z.leb_le in H. assert (E : d <? 0 = false) by (apply Z.ltb_ge; lia). rewrite E. reflexivity.
  - intros ->. reflexivity.
Qed.

Lemma cwrap_pres_id h r : noraise_pres r = true -> cwrap_pres h r = r.
Proof. destruct r; simpl; try reflexivity. discriminate. Qed.

Lemma cwrap_tab_id h f : noraise_tab f = true -> cwrap_tab h f = f.
Proof.
  destruct f as [l d]. unfold noraise_tab, cwrap_tab; simpl. intro H.
  apply andb_true_iff in H. destruct H as [Hl Hd]. rewrite (cwrap_pres_id h d Hd). f_equal.
  induction l as [|[k v] t IH]; simpl in *; [reflexivity|].
  apply andb_true_iff in Hl. destruct Hl as [Hv Ht]. rewrite (cwrap_pres_id h v Hv), (IH Ht). reflexivity.
Qed.

Lemma cwrap_id h : forall c, noraise_cmd c = true -> cwrap_cmd h c = c.
Proof.
  induction c as [w l b IHb|r| |d|e|e v|n|p f s0|pid] using scmd_ind'; intros Hn;
    [rewrite cwrap_cmd_sched|..]; simpl in *; try reflexivity.
  - f_equal. induction b as [|x t IHt]; simpl; [reflexivity|].
    inversion IHb as [|? ? Hx Ht]; subst. simpl in Hn. apply andb_true_iff in Hn. destruct Hn as [Nx Nt].
    rewrite (noraise_raises x Nx), (Hx Nx), (IHt Ht Nt). reflexivity.
  - rewrite (cwrap_tab_id h f Hn). reflexivity.
Qed.

Theorem catch_transparent h hs : forallb noraise_t hs = true -> catch_history h hs = hs.
Proof.
  induction hs as [|c t IH]; simpl; [reflexivity|]. intro H. apply andb_true_iff in H. destruct H as [Hc Ht].
  rewrite (IH Ht). f_equal. destruct c; simpl in *; try reflexivity. rewrite (cwrap_id h c Hc). reflexivity.
Qed.

(* routing: every exception raised by an action reaches the handler *)

(* log (newest first): every ERaise e is immediately followed in time by
   EHandler e, and the handler is called only then: raises and handler calls are
   in one-to-one, adjacent correspondence *)
Fixpoint routed (l : list event) : Prop :=
  match l with
  | [] => True
  | EHandler e :: rest =>
      match rest with ERaise e' :: older => e = e' /\ routed older | _ => False end
  | ERaise _ :: _ => False
  | _ :: older => routed older
  end.

Definition plain (e : event) : Prop :=
  match e with ERaise _ | EHandler _ => False | _ => True end.

Lemma routed_plain ev l : plain ev -> routed l -> routed (ev :: l).
Proof. destruct ev; simpl; tauto. Qed.

Lemma routed_pair e l : routed l -> routed (EHandler e :: ERaise e :: l).
Proof. simpl. auto. Qed.

(* exceptions that left a top-level call were rejected by the handler (or are the
   argument check of advance_to/sleep itself) *)
Definition excs_ok (h : Z -> bool) (l : list event) : Prop :=
  forall e, In (EExc e) l -> h e = false \/ e = AOOR.

Definition good (h : Z -> bool) (s : st) : Prop :=
  Forall (fun it => wr_pay h (i_pay it) = true) (queue s) /\
  Forall (fun pi => wr_tab h (p_fn pi) = true) (pers s) /\
  routed (log s) /\ excs_ok h (log s).

Lemma good_init h c0 : good h (init c0).
Proof. unfold good, excs_ok; simpl. repeat split; try constructor; intros; tauto. Qed.

Lemma good_log h s e : plain e -> (forall x, e <> EExc x) -> good h s -> good h (add_log s e).
Proof.
  intros Hp Hx (A & B & C & D). repeat split; simpl; auto.
  - apply routed_plain; assumption.
  - intros x [E|Hin]; [exfalso; eapply Hx; eassumption | auto].
Qed.

(* a raise that goes to the handler at once *)
Lemma good_handled h s e : good h s -> good h (add_log (add_log s (ERaise e)) (EHandler e)).
Proof.
  intros (A & B & C & D). split; [exact A|]. split; [exact B|]. split; [apply routed_pair, C|].
  intros x [E|[E|Hin]]; try discriminate. auto.
Qed.

Lemma good_enq h s due p : wr_pay h p = true -> good h s -> good h (enqueue s due p).
Proof. intros Hp (A & B & C & D). repeat split; simpl; auto. apply Forall_insert; assumption. Qed.

Lemma good_cancel h s r : good h s -> good h (cancel_id s r).
Proof.
  intros (A & B & C & D). unfold cancel_id. destruct (r <? next_id s)%nat; [|repeat split; assumption].
  repeat split; simpl; auto. intros x [E|Hin]; [discriminate | auto].
Qed.

Lemma good_enabled h s b : good h s -> good h (set_enabled s b).
Proof. intros (A & B & C & D). repeat split; assumption. Qed.

Lemma good_clock h s c : good h s -> good h (set_clock s c).
Proof. intros (A & B & C & D). repeat split; assumption. Qed.

Lemma good_pers h s ps : Forall (fun pi => wr_tab h (p_fn pi) = true) ps -> good h s -> good h (set_pers s ps).
Proof. intros Hp (A & B & C & D). repeat split; assumption. Qed.

Lemma good_notes h ns : forall s, good h s -> good h (add_notes s ns).
Proof.
  induction ns as [|n t IH]; intros s G; simpl; [assumption|].
  apply IH. apply good_log; try exact I; try discriminate; try assumption.
Qed.

Lemma good_dispose_per h s pid : good h s -> good h (dispose_per s pid).
Proof.
  intro G. unfold dispose_per. destruct (nth_error (pers s) pid) as [pi|] eqn:Hn; [|assumption].
  destruct (p_disposed pi); [assumption|].
  apply good_cancel. apply good_log; try exact I; try discriminate.
  apply good_pers; [|assumption]. destruct G as (_ & B & _). apply Forall_set_nth; [|assumption].
  simpl. rewrite Forall_forall in B. apply B. eapply nth_error_In; eassumption.
Qed.

(* what is known of an exception that leaves an action: the handler saw and rejected it *)
Definition rejected (h : Z -> bool) (e : Z) (s : st) : Prop := h e = false /\ In (EHandler e) (log s).

Definition bgood (h : Z -> bool) : bres -> Prop := bwalk (good h) (rejected h).

Lemma exec_cmd_good h s c : good h s -> wr_cmd h c = true -> bgood h (exec_cmd s c).
Proof.
  intros G Hc. destruct c; simpl in *; try discriminate.
  - (* SSched *) apply good_enq; assumption.
  - (* SCancel *) apply good_cancel; assumption.
  - (* SStop *) apply good_enabled; assumption.
  - (* SSleep *) apply Z.leb_le in Hc. assert (E : d <? 0 = false) by (apply Z.ltb_ge; lia). rewrite E. simpl.
    apply good_clock; assumption.
  - (* SHandled *) pose proof (good_handled h s e G) as G'.
    destruct v; simpl; [assumption|]. simpl in Hc. apply Bool.negb_true_iff in Hc.
    split; [exact G' | split; [assumption | simpl; auto]].
  - (* SNote *) apply good_log; try exact I; try discriminate; try assumption.
  - (* SPeriodic *) apply good_enq; [reflexivity|]. apply good_pers; [|assumption].
    destruct G as (_ & B & _). apply Forall_app. split; [assumption|]. constructor; [assumption | constructor].
  - (* SPCancel *) apply good_dispose_per; assumption.
Qed.

Lemma exec_body_good h b : forall s, good h s -> forallb (wr_cmd h) b = true -> bgood h (exec_body s b).
Proof.
  induction b as [|c t IH]; intros s G Hb; simpl in *; [assumption|].
  apply andb_true_iff in Hb. destruct Hb as [Hc Ht].
  pose proof (exec_cmd_good h s c G Hc) as H.
  destruct (exec_cmd s c) as [s'|e s']; simpl in *; [apply IH; assumption | assumption].
Qed.

(* [raw_tab], [wr_tab h], [noraise_tab] say that every entry and the default satisfy a test:
   so does whatever a lookup returns *)
Lemma plookup_all (P : pres -> bool) f z :
  forallb (fun kv => P (snd kv)) (fst f) && P (snd f) = true -> P (plookup f z) = true.
Proof.
  destruct f as [l d]. unfold plookup; simpl. intro H. apply andb_true_iff in H. destruct H as [Hl Hd].
  induction l as [|[k v] t IH]; simpl in *; [assumption|].
  apply andb_true_iff in Hl. destruct Hl as [Hv Ht]. destruct (k =? z); auto.
Qed.

Lemma resched_disposed_good h s pid p : good h s -> bgood h (resched_disposed s pid p).
Proof.
  intro G. unfold resched_disposed; simpl. apply good_cancel. apply good_enq; [reflexivity|].
  apply good_dispose_per; assumption.
Qed.

Lemma invoke_good h s p : good h s -> wr_pay h p = true -> bgood h (invoke s p).
Proof.
  intros G Hp. destruct p as [l b|pid stt]; simpl in *; [apply exec_body_good; assumption|].
  destruct (nth_error (pers s) pid) as [pi|] eqn:Hn; [|assumption].
  destruct (p_disposed pi); [assumption|].
  assert (Hf : wr_tab h (p_fn pi) = true).
  { destruct G as (_ & B & _). rewrite Forall_forall in B. apply B. eapply nth_error_In; eassumption. }
  pose proof (plookup_all (wr_pres h) (p_fn pi) stt Hf) as Hr.
  assert (G1 : forall ns, good h (add_notes (add_log s (ETick pid stt (clock s))) ns)).
  { intro ns. apply good_notes. apply good_log; try exact I; try discriminate; try assumption. }
  destruct (plookup (p_fn pi) stt) as [ns sl st'|ns|ns e|ns e v]; simpl in *; try discriminate.
  - apply good_enq; [reflexivity|]. apply good_pers; [|apply good_clock; apply G1].
    apply Forall_set_nth; [exact Hf|]. destruct (G1 ns) as (_ & B & _). exact B.
  - apply resched_disposed_good. apply G1.
  - set (s2 := add_log (add_log (add_notes (add_log s (ETick pid stt (clock s))) ns) (ERaise e)) (EHandler e)).
    pose proof (good_handled h _ e (G1 ns)) as G2. fold s2 in G2.
    destruct v; simpl.
    + apply resched_disposed_good. exact G2.
    + simpl in Hr. apply Bool.negb_true_iff in Hr.
      split; [apply good_dispose_per; exact G2 | split; [assumption|]].
      apply (steps_log_in s2); [apply dispose_per_steps | simpl; auto].
Qed.

(* [pop_clock_ok] is not used: the statement has the shape [run_walk] asks for *)
Lemma run_item_good h s it q' newclk bumped :
  queue s = it :: q' -> pop_clock_ok s it newclk bumped -> good h s -> bgood h (run_item s it q' newclk bumped).
Proof.
  intros Hq _ G. unfold run_item.
  assert (G1 : good h (add_log (set_clock (dequeue s q') newclk)
                         (mkpop s it newclk bumped (negb (memb (i_id it) (cancelled s)))))).
  { destruct G as (A & B & C & D). rewrite Hq in A. inversion A; subst.
    repeat split; simpl; auto. intros x [E|Hin]; [discriminate | auto]. }
  destruct (negb (memb (i_id it) (cancelled s))); simpl; [|exact G1].
  apply invoke_good; [exact G1|]. destruct G as (A & _). rewrite Hq in A. inversion A; assumption.
Qed.

Lemma run_good h c fuel hs s : good h s -> forallb (wr_t h) hs = true -> good h (state_of (run c fuel s hs)).
Proof.
  intros G Hh. apply (run_walk (good h) (rejected h) (fun cmd => wr_t h cmd = true)); [| | | | | | | |exact G].
  - (* I_enabled *) apply good_enabled.
  - (* I_clock *) intros; apply good_clock; assumption.
  - (* I_run_item *) apply run_item_good.
  - (* I_exec *) intros s0 k Hk G0. exact (exec_cmd_good h s0 k G0 Hk).
  - (* I_silent *) intros; apply good_enq; auto.
  - (* I_clock_log *) intros; apply good_log; try exact I; try discriminate; assumption.
  - (* I_exc_log: what escapes was rejected, or is the argument check *)
    intros s0 e (A1 & A2 & A3 & A4) B. repeat split; simpl; auto.
    intros x [E|Hin]; [|auto]. inversion E; subst. destruct B as [[B _]|B]; auto.
  - apply Forall_forall. intros x Hx. exact (proj1 (forallb_forall _ _) Hh x Hx).
Qed.

Lemma catch_history_wr h hs :
  forallb raw_t hs = true -> forallb top_quiet hs = true -> forallb (wr_t h) (catch_history h hs) = true.
Proof.
  induction hs as [|c t IH]; simpl; [reflexivity|]. intros H1 H2.
  apply andb_true_iff in H1. destruct H1 as [R1 R2]. apply andb_true_iff in H2. destruct H2 as [Q1 Q2].
  rewrite (cwrap_t_wr h c R1 Q1). simpl. auto.
Qed.

(* Every exception raised by an action -- at any depth of recursive scheduling
   through the scheduler handed to the action, and in periodic actions -- is
   passed to the handler, exactly once, immediately; exceptions that leave
   start()/advance_to() were rejected by the handler. *)
Theorem catch_routes_all c fuel h c0 hs :
  forallb raw_t hs = true -> forallb top_quiet hs = true ->
  let s := state_of (run_catch c fuel h (init c0) hs) in
  routed (log s) /\ excs_ok h (log s).
Proof.
  intros H1 H2. pose proof (run_good h c fuel (catch_history h hs) (init c0) (good_init h c0)
                                     (catch_history_wr h hs H1 H2)) as (_ & _ & A & B).
  split; assumption.
Qed.

(* an exception that leaves start(), in any state whose pending work is wrapped, was shown to
   the handler and rejected by it: one accepted by the handler does not propagate *)
Theorem catch_escape_only_if_rejected_start h c fuel s e s' :
  good h s -> start c fuel s = Raised e s' -> h e = false /\ In (EHandler e) (log s').
Proof.
  intros G E.
  pose proof (start_walk (good h) (rejected h) (good_enabled h) (run_item_good h) c fuel s G) as W.
  rewrite E in W. exact (proj2 W).
Qed.

(* the wrapped periodic action: a raising call becomes a handled call *)
Lemma plookup_cwrap h f z : plookup (cwrap_tab h f) z = cwrap_pres h (plookup f z).
Proof.
  destruct f as [l d]. unfold plookup, cwrap_tab; simpl.
  induction l as [|[k v] t IH]; simpl; [reflexivity|]. destruct (k =? z); auto.
Qed.

(* the periodic wrapper is invisible to the calls a solo periodic subscription makes *)
Lemma solo_spec_cwrap h f p : forall n clk due st t,
  solo_spec (cwrap_tab h f) p n clk due st t = solo_spec f p n clk due st t.
Proof.
  induction n as [|n IH]; intros; cbn [solo_spec]; [reflexivity|].
  destruct (t <? due); [reflexivity|]. rewrite plookup_cwrap.
  destruct (plookup f st); cbn [cwrap_pres]; try reflexivity. rewrite IH. reflexivity.
Qed.

(* schedule_periodic(p, f, st0) made THROUGH a CatchScheduler with any handler h on a
   fresh scheduler, then advance_to(t): the calls (state, clock) are those of the
   unwrapped action table f on the inner scheduler -- for all tables, raising ones
   included; [solo_spec] stops at the first call that does not return a state. *)
Theorem catch_periodic_solo c fuel h c0 p f st0 t : c0 < t ->
  let r := run_catch c fuel h (init c0) (solo_history p f st0 t) in
  rev (ticks_of 0 (log (state_of r))) = solo_spec f p fuel c0 (c0 + p) st0 t /\
  (match r with ROutOfFuel _ => length (solo_spec f p fuel c0 (c0 + p) st0 t) = fuel
              | RDeadlock _ => False | RDone _ => True end).
Proof.
  intro Hlt.
  change (run_catch c fuel h (init c0) (solo_history p f st0 t))
    with (run c fuel (init c0) (solo_history p (cwrap_tab h f) st0 t)).
  pose proof (periodic_solo c fuel c0 p (cwrap_tab h f) st0 t Hlt) as H.
  cbv zeta in H. rewrite solo_spec_cwrap in H. exact H.
Qed.

(* witnesses used in Props/C42.v *)

(* handler accepts 1, rejects 2 *)
Definition hv : Z -> bool := verdict [(1, true); (2, false)].

Definition ex_c42 : list tcmd :=
  [ TDo (SSched (Abs 1) 0 [SSched (Rel 1) 1 [SNote 7; SRaise 1; SNote 8]; SNote 9]);
    TDo (SSched (Abs 5) 2 [SSched Now 3 [SRaise 2]]);
    TDo (SSched (Abs 6) 4 []);
    TStart ].

