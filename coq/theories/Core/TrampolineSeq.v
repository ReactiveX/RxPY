(* Sequential runs and controlled (macro-step) runs of Core/Trampoline.v are schedules of
   micro-steps; a single thread returns from all its calls within any fuel that is at least its
   potential, which every micro-step decreases ([run1_terminates]; that the fuel of [run_history]
   is at least the potential of the initial state is computed in Props/C30.v); executable checkers
   for the witnesses of Props/C30.v; [cancelled_never_run]. *)
From RxVerif Require Import Base.Prelude Core.Trampoline Core.TrampolineFacts.

Lemma crun_app : forall c cf s1 s2, crun c cf (s1 ++ s2) = crun c (crun c cf s1) s2.
Proof. intros; unfold crun; apply fold_left_app. Qed.

Lemma crun_step : forall c w ts th t w' t' sch,
  nth_error ts th = Some t -> mstep c th w t = Some (w', t') ->
  crun c (w, ts) (Run th :: sch) = crun c (w', set_nth th t' ts) sch.
Proof. intros c w ts th t w' t' sch N M. unfold crun. cbn [fold_left cstep]. rewrite N, M. reflexivity. Qed.

Lemma mstep_none : forall c th w t, mstep c th w t = None -> stk t = [].
Proof.
  intros c th w [[|f s] ex] M; cbn [mstep stk exc] in M; [reflexivity|].
  destruct ex; try discriminate. destruct f; try discriminate. destruct cs; discriminate.
Qed.

Lemma run1_is_crun : forall c fuel w t,
  exists n t', crun c (w, [t]) (repeat (Run 0) n) = (world_of (run1 c fuel 0 w t), [t']) /\
               (forall w', run1 c fuel 0 w t = Finished w' -> stk t' = []).
Proof.
  induction fuel; intros w t; cbn [run1]; destruct (mstep c 0 w t) as [[w' t']|] eqn:M;
  try (exists 0%nat, t; split; [reflexivity | intros; exact (mstep_none _ _ _ _ M)]).
  - exists 0%nat, t. split; [reflexivity | intros; discriminate].
  - destruct (IHfuel w' t') as (n & t'' & E & Fn). exists (S n), t''. cbn [repeat].
    rewrite (crun_step c w [t] 0%nat t w' t' _ eq_refl M). auto.
Qed.

Lemma set_nth_same : forall {A} (l : list A) n x, nth_error l n = Some x -> set_nth n x l = l.
Proof. induction l; destruct n; cbn; intros; try discriminate; auto; [congruence|f_equal; auto]. Qed.

Lemma set_nth_twice : forall {A} (l : list A) n x y, set_nth n y (set_nth n x l) = set_nth n y l.
Proof. induction l; destruct n; cbn; intros; auto. f_equal; auto. Qed.

Lemma settle_is_crun : forall c fuel th w t ts,
  nth_error ts th = Some t ->
  exists n, crun c (w, ts) (repeat (Run th) n) =
            (fst (settle c fuel th w t), set_nth th (snd (settle c fuel th w t)) ts).
Proof.
  induction fuel; intros th w t ts N; cbn [settle].
  - exists 0%nat. destruct (yields t); cbn; rewrite set_nth_same; auto.
  - destruct (yields t).
    + exists 0%nat. cbn. rewrite set_nth_same; auto.
    + destruct (mstep c th w t) as [[w' t']|] eqn:M.
      * destruct (IHfuel th w' t' (set_nth th t' ts) (nth_error_set_nth_eq _ _ _ _ N)) as (n & E).
        exists (S n). cbn [repeat]. rewrite (crun_step _ _ _ _ _ _ _ _ N M), E, set_nth_twice. reflexivity.
      * exists 0%nat. cbn. rewrite set_nth_same; auto.
Qed.

Lemma macro_is_crun : forall c fuel cf th, exists n, macro c fuel cf th = crun c cf (repeat (Run th) n).
Proof.
  intros c fuel [w ts] th. unfold macro.
  destruct (nth_error ts th) as [t|] eqn:N; [|exists 0%nat; reflexivity].
  destruct (mstep c th w t) as [[w' t']|] eqn:M; [|exists 0%nat; reflexivity].
  destruct (settle_is_crun c fuel th w' t' (set_nth th t' ts) (nth_error_set_nth_eq _ _ _ _ N)) as (n & E).
  exists (S n). cbn [repeat]. rewrite (crun_step _ _ _ _ _ _ _ _ N M), E, set_nth_twice.
  destruct (settle c fuel th w' t'); reflexivity.
Qed.

Theorem run_history_is_crun : forall c c0 h,
  exists n t', crun c (start_config c0 [h]) (repeat (Run 0) n) = (world_of (run_history c c0 h), [t']) /\
               (forall w', run_history c c0 h = Finished w' -> finished [t']).
Proof.
  intros. unfold run_history, start_config. cbn [map].
  destruct (run1_is_crun c (2 + bsize h) (init_world c0) (start_thread h)) as (n & t' & E & F).
  exists n, t'. split; auto. intros w' Hf u [<-|[]]. eauto.
Qed.

(* A potential that every micro-step of a single thread decreases.  A drain loop counts down
   through P1 with the head of the queue not due (5), P2 (4), P3 (3), the wait (2), P1 with the head
   due (0); an item loses 5 when it moves from the queue to ready, which pays for the loop's return
   to P2; a ready item holds 3: its start, the frame of its body, the frame of the invocation; a call
   about to enqueue holds 7 more than the item in the queue: its own step, the frame of the drain
   loop it may become and that loop's rank. *)
Definition bw (b : list cmd) : Z := Z.of_nat (bsize b).
Definition wi (x : item) : Z := 3 + bw (i_body x).
Definition wq (x : item) : Z := wi x + 5.

Definition head_due (w : world) (k : key) : bool :=
  match t_queue (tramps w k) with x :: _ => i_due x <=? clock w | [] => false end.

Definition rank (w : world) (k : key) (ph : phase) : Z :=
  match ph with
  | P1 => if head_due w k then 0 else 5
  | P2 => 4
  | P3 => 3
  | PWait _ => 2
  | PFin => 0
  end.

Definition phi (w : world) (f : frame) : Z :=
  match f with
  | FBody _ cs => 1 + bw cs
  | FEnq k it => wq it + 7
  | FInvoke _ _ _ => 1
  | FInline _ => 1
  | FRun k r ph => 1 + sumf wi r + sumf wq (t_queue (tramps w k)) + rank w k ph
  end.

Definition Phi (w : world) (t : thread) : Z :=
  (match exc t with Some _ => 1 | None => 0 end) + sumf (phi w) (stk t).

Lemma bw_nonneg : forall b, 0 <= bw b. Proof. intros; unfold bw; lia. Qed.
Lemma wi_pos : forall x, 3 <= wi x. Proof. intros; unfold wi; pose proof (bw_nonneg (i_body x)); lia. Qed.
Lemma sum_wi_nonneg : forall l, 0 <= sumf wi l.
Proof. intros; apply sumf_nonneg; intros x _; pose proof (wi_pos x); lia. Qed.
Lemma sum_wq_nonneg : forall l, 0 <= sumf wq l.
Proof. intros; apply sumf_nonneg; intros x _; unfold wq; pose proof (wi_pos x); lia. Qed.
Lemma rank_nonneg : forall w k ph, 0 <= rank w k ph.
Proof. intros; destruct ph; cbn; try lia. destruct (head_due w k); lia. Qed.
Lemma phi_pos : forall w f, 1 <= phi w f.
Proof.
  intros w f; destruct f as [top cs|k it|k id l|l|k ready ph]; cbn [phi]; try lia.
  - pose proof (bw_nonneg cs); lia.
  - unfold wq. pose proof (wi_pos it); lia.
  - pose proof (sum_wi_nonneg ready). pose proof (sum_wq_nonneg (t_queue (tramps w k))).
    pose proof (rank_nonneg w k ph). lia.
Qed.
Lemma Phi_nonneg : forall w t, 0 <= Phi w t.
Proof.
  intros. unfold Phi. assert (0 <= sumf (phi w) (stk t)).
  { apply sumf_nonneg. intros x _. pose proof (phi_pos w x). lia. }
  destruct (exc t); lia.
Qed.

Lemma bw_cons : forall c cs, bw (c :: cs) = Z.of_nat (csize c) + bw cs.
Proof.
  intros. unfold bw, bsize. cbn [map].
  change (list_sum (csize c :: map csize cs)) with (csize c + list_sum (map csize cs))%nat. lia.
Qed.

(* the potential of the frames below the top depends on the world only through the queues *)
Lemma phi_rest_upd : forall w w' k tr rest,
  Forall inner rest -> tramps w' = upd k tr (tramps w) ->
  sumf (phi w') rest =
  sumf (phi w) rest + (sumf wq (t_queue tr) - sumf wq (t_queue (tramps w k))) * sumf (run_c k) rest.
Proof.
  intros w w' k tr rest F E. induction rest as [|f rest IH]; [cbn; lia|].
  apply Forall_cons_iff in F. destruct F as [Ff F]. cbn [sumf]. rewrite (IH F).
  destruct f as [top cs|k0 it|k0 id l|l|k0 r ph]; cbn [phi run_c inner] in *; try lia; try contradiction.
  subst ph. cbn [rank]. rewrite E. unfold upd. rewrite (key_eqb_sym k0 k). keygoal k k0; lia.
Qed.

Lemma phi_rest_same : forall w w' rest,
  Forall inner rest -> tramps w' = tramps w -> sumf (phi w') rest = sumf (phi w) rest.
Proof.
  intros w w' rest F H. induction rest as [|f rest IH]; [reflexivity|].
  apply Forall_cons_iff in F. destruct F as [Ff F]. cbn [sumf]. rewrite (IH F).
  destruct f as [top cs|k it|k id l|l|k r ph]; cbn [phi inner] in *; try lia; try contradiction. subst ph. cbn [rank]. rewrite H. lia.
Qed.

(* the trampoline, and the due time, that a thread is waiting for inside Condition.wait *)
Definition waiting_at (t : thread) : option (key * Z) :=
  match stk t, exc t with FRun k _ (PWait u) :: _, None => Some (k, u) | _, _ => None end.

Lemma waiting_at_inner : forall s ex, Forall inner s -> waiting_at (Thread s ex) = None.
Proof.
  intros [|f s] ex H; cbn; auto. apply Forall_inv in H. destruct f; auto. cbn in H. subst. reflexivity.
Qed.

(* with one thread nobody notifies, and a trampoline has a waiter only while that thread is inside
   the wait, for the due time of the head of the queue *)
Definition SInv (c : cfg) (w : world) (t : thread) : Prop :=
  Inv c (w, [t]) /\ (forall k, t_signal (tramps w k) = false) /\
  match waiting_at t with
  | None => forall k, t_waiting (tramps w k) = false
  | Some (k, u) => (forall k', k' <> k -> t_waiting (tramps w k') = false) /\
                   exists x q, t_queue (tramps w k) = x :: q /\ i_due x = u
  end.

Lemma single_runs : forall c w t k, Inv c (w, [t]) ->
  runs k t = (if t_idle (tramps w k) then 0 else 1) /\
  (t_idle (tramps w k) = true -> t_queue (tramps w k) = []).
Proof.
  intros c w t k (_ & C & _). destruct (C k) as (_ & C2 & C3). cbn [fst snd sumf] in *. split; auto. lia.
Qed.

Lemma split_due_head : forall now q moved q',
  split_due now q = (moved, q') ->
  (match q with x :: _ => i_due x <=? now | [] => false end) = (match moved with [] => false | _ => true end).
Proof.
  intros now [|x q] moved q' H; cbn in H.
  - inversion H; reflexivity.
  - destruct (i_due x <=? now) eqn:E.
    + destruct (split_due now q). inversion H; subst. reflexivity.
    + inversion H; subst. reflexivity.
Qed.

Lemma sum_wq_wi : forall l, sumf wq l = sumf wi l + 5 * Z.of_nat (length l).
Proof. induction l; cbn [sumf length]; [lia|]. unfold wq at 1. lia. Qed.

Lemma sum_wq_insert : forall z q, sumf wq (insert z q) = wq z + sumf wq q.
Proof.
  induction q as [|y q IH]; cbn [insert sumf]; [lia|].
  destruct (key_lt z y); cbn [sumf]; lia.
Qed.

Lemma sinv_step : forall c w t w' t',
  SInv c w t -> mstep c 0 w t = Some (w', t') -> SInv c w' t'.
Proof.
  intros c w t w' t' (I & SG & WA) H.
  assert (B : inner_below (stk t)) by (apply I; left; reflexivity).
  split; [exact (Inv_mstep c w [t] 0%nat t w' t' I eq_refl H)|]. clear I.
  mstep_inv H; cbn [inner_below] in B; rewrite ?(waiting_at_inner _ _ B); cbn [waiting_at stk exc] in *; wsimpl;
  (* no trampoline changes, or one does but in neither flag *)
  try (split; [exact SG | exact WA]);
  try (split; intro k0; unfold upd, set_active; destruct (key_eqb k0 k); cbn [t_signal t_waiting]; auto; fail).
  - (* the exit path: if the thread was waiting, on this trampoline *)
    assert (WO : forall k', k' <> k -> t_waiting (tramps w k') = false)
      by (destruct ph; auto; destruct ex; auto; apply WA).
    split; intro k0; unfold upd; keycase k0 k; cbn [t_signal t_waiting]; auto.
  - (* enqueue on a busy trampoline: nobody waits, so nobody is notified *)
    split; intro k0; unfold upd; destruct (key_eqb k0 k); cbn [t_signal t_waiting]; auto.
    rewrite WA, SG. reflexivity.
  - (* the runner starts to wait for the head of its queue *)
    split; [|split].
    + intro k0. unfold upd. destruct (key_eqb k0 k); cbn [t_signal]; auto.
    + intros k' Hk. rewrite upd_other by exact Hk. apply WA.
    + rewrite upd_same. eexists _, _. split; reflexivity.
  - (* back from the wait: no other trampoline had a waiter *)
    split; intro k0; unfold upd; keycase k0 k; cbn [t_signal t_waiting]; auto; apply WA; assumption.
  - (* the same after a timeout *)
    split; intro k0; unfold upd; keycase k0 k; cbn [t_signal t_waiting]; auto; apply WA; assumption.
Qed.

Lemma pot_step : forall c w t w' t',
  SInv c w t -> mstep c 0 w t = Some (w', t') -> Phi w' t' + 1 <= Phi w t.
Proof.
  intros c w t w' t' (I & SG & WA) H.
  assert (B : Forall inner (tl (stk t))).
  { assert (B : inner_below (stk t)) by (apply I; left; reflexivity). destruct (stk t); [constructor | exact B]. }
  assert (RK : forall k, runs k t = (if t_idle (tramps w k) then 0 else 1) /\
                         (t_idle (tramps w k) = true -> t_queue (tramps w k) = []))
    by (intro k; eapply single_runs; eauto).
  (* below the drain loop of k there is no other *)
  assert (R0 : forall k r ph rest, stk t = FRun k r ph :: rest -> sumf (run_c k) rest = 0).
  { intros k r ph rest E. destruct (RK k) as [R _]. unfold runs in R. rewrite E in R.
    cbn [sumf run_c] in R. rewrite key_eqb_refl in R. pose proof (runs_nonneg k rest).
    destruct (t_idle (tramps w k)); lia. }
  (* the frames below the top: nothing changes, or the queue of one trampoline does *)
  pose proof (phi_rest_same w w' _ B) as RS.
  pose proof (fun k tr => phi_rest_upd w w' k tr _ B) as RU.
  clear I. unfold Phi, runs in *.
  mstep_inv H; cbn [sumf phi tl exc stk] in *; wsimpl;
  try rewrite (RS eq_refl); try rewrite (RU k _ eq_refl); try rewrite (R0 _ _ _ _ eq_refl);
  unfold upd, set_active; rewrite ?key_eqb_refl, ?bw_cons; cbn [t_queue csize rank sumf];
  try (unfold wq, wi, bw, bsize in *; cbn [i_body new_item]; lia).
  - (* the exit path: the frame of the drain loop goes, with what it held *)
    pose proof (sum_wi_nonneg ready). pose proof (sum_wq_nonneg (t_queue (tramps w k))).
    pose proof (rank_nonneg w k ph). lia.
  - (* enqueue on an idle trampoline: this call becomes the drain loop *)
    destruct (RK k) as [R1 R2]. cbn [sumf run_c] in R1. rewrite Eidle in R1.
    replace (sumf (run_c k) rest) with 0 by lia. rewrite sum_wq_insert, (R2 Eidle).
    match goal with |- context [head_due ?w1 k] => destruct (head_due w1 k) end;
    unfold wq, wi; cbn [i_body sumf]; lia.
  - (* enqueue on a busy trampoline: the drain loop below will run the item *)
    destruct (RK k) as [R1 _]. cbn [sumf run_c] in R1. rewrite Eidle in R1.
    replace (sumf (run_c k) rest) with 1 by lia. rewrite sum_wq_insert. unfold wq, wi; cbn [i_body]. lia.
  - (* first locked block of _run: 5 per item that has become due *)
    destruct (split_due_spec _ _ _ _ Esplit) as (S1 & _). unfold head_due.
    rewrite (split_due_head _ _ _ _ Esplit), S1, !sumf_app, (sum_wq_wi moved).
    destruct moved; cbn [length]; lia.
  - (* normal exit *)
    pose proof (sum_wi_nonneg ready). pose proof (sum_wq_nonneg (t_queue (tramps w k))). lia.
  - (* the head of the queue is not due: wait *)
    rewrite Eq. cbn [sumf]. lia.
  - (* the head of the queue is due by now: back to the first block *)
    unfold head_due. rewrite Eq. replace (i_due x <=? clock w) with true by lia. lia.
  - (* notified: impossible with a single thread *)
    rewrite (SG k) in Esig. discriminate.
  - (* the wait timed out: the clock is at the due time of the head *)
    destruct WA as (_ & x & q & Q1 & Q2).
    unfold head_due. wsimpl. rewrite upd_same. cbn [t_queue]. rewrite Q1.
    replace (i_due x <=? Z.max (clock w) u) with true by lia. lia.
Qed.

Theorem run1_terminates : forall c fuel w t,
  SInv c w t -> Phi w t <= Z.of_nat fuel -> exists w', run1 c fuel 0 w t = Finished w'.
Proof.
  intros c. induction fuel as [|fuel IH]; intros w t S H; cbn [run1].
  - destruct (mstep c 0 w t) as [[w' t']|] eqn:M; [|eexists; reflexivity].
    pose proof (pot_step _ _ _ _ _ S M). pose proof (Phi_nonneg w' t'). lia.
  - destruct (mstep c 0 w t) as [[w' t']|] eqn:M; [|eexists; reflexivity].
    apply IH.
    + eapply sinv_step; eauto.
    + pose proof (pot_step _ _ _ _ _ S M). lia.
Qed.

Lemma SInv_init : forall c c0 h, SInv c (init_world c0) (start_thread h).
Proof.
  intros. split; [exact (Inv_init c c0 [h])|]. split; intro k; reflexivity.
Qed.

(* executable checkers for the witnesses in Props/C30.v *)
Definition ev_is_start (k : key) (id : nat) (e : event) : bool :=
  match e with EStart k' id' _ _ _ _ _ _ => key_eqb k' k && Nat.eqb id' id | _ => false end.
Definition ev_is_skip (k : key) (id : nat) (e : event) : bool :=
  match e with ESkip k' id' => key_eqb k' k && Nat.eqb id' id | _ => false end.
Definition ev_is_drop (k : key) (id : nat) (e : event) : bool :=
  match e with EDrop k' ids _ => key_eqb k' k && memb id ids | _ => false end.
Definition ev_is_enq (k : key) (id : nat) (e : event) : bool :=
  match e with EEnq k' id' _ _ => key_eqb k' k && Nat.eqb id' id | _ => false end.

Definition pendingb (k : key) (id : nat) (lg : list event) : bool :=
  existsb (ev_is_enq k id) lg && negb (existsb (ev_is_start k id) lg) &&
  negb (existsb (ev_is_skip k id) lg) && negb (existsb (ev_is_drop k id) lg).

(* ids of items created on k in lg, with their due times *)
Fixpoint created_on (k : key) (lg : list event) : list (nat * Z) :=
  match lg with
  | [] => []
  | ECreate k' id _ due _ :: t => if key_eqb k' k then (id, due) :: created_on k t else created_on k t
  | _ :: t => created_on k t
  end.

(* (x, y): action x started while y was pending and y comes strictly before x in (due, id) *)
Fixpoint order_violations (k : key) (lg : list event) : list (nat * nat) :=
  match lg with
  | [] => []
  | e :: before =>
      (match e with
       | EStart k' x _ _ duex _ _ _ =>
           if key_eqb k' k
           then map (fun p => (x, fst p))
                    (filter (fun p => pendingb k (fst p) before && negb (Nat.eqb (fst p) x) &&
                                      ((snd p <? duex) || ((snd p =? duex) && (fst p <? x)%nat)))
                            (created_on k before))
           else []
       | _ => []
       end) ++ order_violations k before
  end.

Fixpoint dropped_without_exception (lg : list event) : list nat :=
  match lg with
  | [] => []
  | EDrop _ ids false :: t => ids ++ dropped_without_exception t
  | _ :: t => dropped_without_exception t
  end.

Definition no_pastb (k : key) (lg : list event) : bool :=
  forallb (fun e => match e with ECreate k' _ _ due clk => negb (key_eqb k' k) || (clk <=? due) | _ => true end) lg.

(* what [pendingb] decides.  [order_violations], [no_pastb], [dropped_without_exception] and
   [created_on] have no specification: Props/C30.v uses only their values on concrete logs. *)
Lemma ev_is_start_spec : forall k id lg, existsb (ev_is_start k id) lg = true <-> started k id lg.
Proof.
  intros k id lg. rewrite existsb_exists. split.
  - intros (e & Hin & He). destruct e; try discriminate.
    cbn in He. apply andb_true_iff in He. destruct He as [A B]. apply key_eqb_eq in A. apply Nat.eqb_eq in B.
    subst. do 6 eexists. exact Hin.
  - intros (l & th & due & clk & dk & d & Hin). eexists; split; [exact Hin|].
    cbn. rewrite key_eqb_refl, Nat.eqb_refl. reflexivity.
Qed.

Lemma ev_is_skip_spec : forall k id lg, existsb (ev_is_skip k id) lg = true <-> skipped k id lg.
Proof.
  intros k id lg. rewrite existsb_exists. split.
  - intros (e & Hin & He). destruct e; try discriminate.
    cbn in He. apply andb_true_iff in He. destruct He as [A B]. apply key_eqb_eq in A. apply Nat.eqb_eq in B.
    subst. exact Hin.
  - intro Hin. eexists; split; [exact Hin|]. cbn. rewrite key_eqb_refl, Nat.eqb_refl. reflexivity.
Qed.

Lemma pendingb_sound : forall k id lg, pendingb k id lg = true -> pending k id lg.
Proof.
  unfold pendingb, pending. intros k id lg H.
  rewrite !andb_true_iff, !negb_true_iff in H. destruct H as [[[E S] K] D].
  repeat split.
  - apply existsb_exists in E. destruct E as (e & Hin & He). destruct e; try discriminate.
    cbn in He. apply andb_true_iff in He. destruct He as [A B]. apply key_eqb_eq in A. apply Nat.eqb_eq in B.
    subst. do 2 eexists. exact Hin.
  - rewrite <- ev_is_start_spec. congruence.
  - rewrite <- ev_is_skip_spec. congruence.
  - intros (ids & exn & Hin & Hi). assert (existsb (ev_is_drop k id) lg = true); [|congruence].
    apply existsb_exists. eexists; split; [exact Hin|]. cbn. rewrite key_eqb_refl. cbn.
    apply memb_true. exact Hi.
Qed.

Lemma cancelled_never_run : forall c c0 hs sch l2 k id l th due clk dk d l1,
  log (fst (crun c (start_config c0 hs) sch)) = l2 ++ EStart k id l th due clk dk d :: l1 ->
  ~ In (ECancel id) l1.
Proof.
  intros c c0 hs sch l2 k id l th due clk dk d l1 H. apply reachable_ev_ok in H. apply H.
Qed.
