(* C30: independence of the per-thread trampolines over WHOLE runs.

   Core/TrampolineFacts.independent is a one-step statement.  Here:
   - [others_stutter]: any stretch of a schedule in which thread o is not scheduled (other threads
     run, time passes) leaves thread o itself, every trampoline that belongs to o and everything
     the log says about those trampolines unchanged -- other threads reach o only through the
     shared clock, the set of disposed items and the item counter;
   - the stronger statement "what the log says about o's trampolines is what it says in the run where
     every step of another thread is replaced by the passage of the time it took" is FALSE of the
     model in general ([proj], three refutations: another thread disposes an item of o; a shared
     TrampolineScheduler whose runner is o executes another thread's action, which schedules on
     o's current-thread scheduler; the item ids come from a shared counter). *)
From RxVerif Require Import Base.Prelude Core.Trampoline Core.TrampolineFacts.
Local Open Scope Z_scope.

Definition key_is (k : key) (e : event) : bool :=
  match ev_key e with Some k' => key_eqb k' k | None => false end.
(* what the log says about trampoline k *)
Definition klog (k : key) (l : list event) : list event := filter (key_is k) l.

Lemma klog_app k a b : klog k (a ++ b) = klog k a ++ klog k b.
Proof. apply filter_app. Qed.

Lemma klog_none k evs : Forall (fun e => ev_key e <> Some k) evs -> klog k evs = [].
Proof.
  induction 1 as [|e t He _ IH]; [reflexivity|]. cbn [klog filter]. unfold key_is at 1.
  destruct (ev_key e) as [k'|] eqn:E; [|exact IH].
  destruct (key_eqb k' k) eqn:Ek; [|exact IH]. apply key_eqb_eq in Ek. subst k'. exfalso. apply He. reflexivity.
Qed.

Definition no_run (o : nat) (b : list sstep) : Prop := forall th, In (Run th) b -> th <> o.

Lemma stutter_step : forall c o s cf, Inv c cf -> s <> Run o ->
  nth_error (snd (cstep c cf s)) o = nth_error (snd cf) o /\
  forall k, owner k = Some o ->
    tramps (fst (cstep c cf s)) k = tramps (fst cf) k /\ klog k (log (fst (cstep c cf s))) = klog k (log (fst cf)).
Proof.
  intros c o [th|d] [w ts] I Hs; [|split; [reflexivity | intros; split; reflexivity]].
  assert (Hn : o <> th) by congruence. split.
  - unfold cstep. destruct (nth_error ts th) as [t|] eqn:N; [|reflexivity].
    destruct (mstep c th w t) as [[w' t']|]; [|reflexivity]. cbn [snd].
    apply nth_error_set_nth_neq. congruence.
  - intros k Ho. destruct (indep_cstep c (w, ts) th k o I Ho Hn) as [T (evs & El & Hev)].
    split; [exact T|]. rewrite El, klog_app, (klog_none k evs Hev). reflexivity.
Qed.

Lemma stutter : forall c o b cf, Inv c cf -> no_run o b ->
  nth_error (snd (crun c cf b)) o = nth_error (snd cf) o /\
  forall k, owner k = Some o ->
    tramps (fst (crun c cf b)) k = tramps (fst cf) k /\ klog k (log (fst (crun c cf b))) = klog k (log (fst cf)).
Proof.
  intros c o. induction b as [|s b IH]; intros cf I Hb; [split; [reflexivity | intros; split; reflexivity]|].
  change (crun c cf (s :: b)) with (crun c (cstep c cf s) b).
  destruct (IH (cstep c cf s) (Inv_crun c [s] cf I) (fun th Hin => Hb th (or_intror Hin))) as [IH1 IH2].
  destruct (stutter_step c o s cf I) as [O1 O2]; [intros ->; exact (Hb o (or_introl eq_refl) eq_refl)|].
  split; [rewrite IH1; exact O1|].
  intros k Ho. destruct (IH2 k Ho) as [A B]. destruct (O2 k Ho) as [A' B']. split; congruence.
Qed.

Theorem others_stutter : forall c c0 hs a b o,
  no_run o b ->
  let cf := crun c (start_config c0 hs) a in
  let cf' := crun c cf b in
  nth_error (snd cf') o = nth_error (snd cf) o /\
  forall k, owner k = Some o ->
    tramps (fst cf') k = tramps (fst cf) k /\ klog k (log (fst cf')) = klog k (log (fst cf)).
Proof. intros c c0 hs a b o Hb. apply stutter; [apply reachable_Inv | exact Hb]. Qed.

(* the schedule in which every step of a thread other than o is replaced by the passage of the time
   it took *)
Fixpoint proj (c : cfg) (o : nat) (cf : config) (sch : list sstep) : list sstep :=
  match sch with
  | [] => []
  | s :: r =>
      match s with
      | Run th => if Nat.eqb th o then Run th else Tick (clock (fst (cstep c cf s)) - clock (fst cf))
      | Tick d => Tick d
      end :: proj c o (cstep c cf s) r
  end.

(* (1) thread 1 disposes the item thread 0 scheduled on its current-thread scheduler while thread 0
       waits for it to become due: skipped in the real run, started in the projected one *)
Definition hs_cancel : list (list cmd) := [[CSched CTS (Rel 10) 5 []]; [CCancel 0]].
Definition sch_cancel : list sstep := [Run 0; Run 0; Run 0; Run 0; Run 0; Run 1; Run 0; Run 0; Run 0; Run 0; Run 0]%nat.

Lemma proj_refuted_cancel :
  let cf0 := start_config 0 hs_cancel in
  proj (Cfg false) 0 cf0 sch_cancel
    = [Run 0; Run 0; Run 0; Run 0; Run 0; Tick 0; Run 0; Run 0; Run 0; Run 0; Run 0]%nat /\
  klog (KLocal 0) (log (fst (crun (Cfg false) cf0 sch_cancel)))
    = [EIdle (KLocal 0) 0; ESkip (KLocal 0) 0; EEnq (KLocal 0) 0 0 true; ECreate (KLocal 0) 0 0 10 0] /\
  klog (KLocal 0) (log (fst (crun (Cfg false) cf0 (proj (Cfg false) 0 cf0 sch_cancel))))
    = [EEnd (KLocal 0) 0 5 false; EStart (KLocal 0) 0 5 0 10 10 0 0; EEnq (KLocal 0) 0 0 true; ECreate (KLocal 0) 0 0 10 0].
Proof. vm_compute. repeat split; reflexivity. Qed.

(* (2) thread 0 is the runner of a shared TrampolineScheduler and waits; thread 1 schedules on it an
       action that schedules on the CURRENT-THREAD scheduler; thread 0 runs it, so the nested action
       lands on thread 0's own trampoline -- which in the projected run is never used at all *)
Definition hs_shared : list (list cmd) :=
  [[CSched (TS 0) (Rel 10) 1 []]; [CSched (TS 0) Now 7 [CSched CTS Now 8 []]]].
Definition sch_shared : list sstep :=
  [Run 0; Run 0; Run 0; Run 0; Run 0; Run 1; Run 1; Run 0; Run 0; Run 0; Run 0; Run 0; Run 0; Run 0; Run 0; Run 0;
   Run 0; Run 0; Run 0; Run 0]%nat.

Lemma proj_refuted_shared :
  let cf0 := start_config 0 hs_shared in
  klog (KLocal 0) (log (fst (crun (Cfg false) cf0 sch_shared)))
    = [EIdle (KLocal 0) 0; EEnd (KLocal 0) 2 8 false; EStart (KLocal 0) 2 8 0 0 0 0 1; EEnq (KLocal 0) 2 0 true;
       ECreate (KLocal 0) 2 0 0 0] /\
  klog (KLocal 0) (log (fst (crun (Cfg false) cf0 (proj (Cfg false) 0 cf0 sch_shared)))) = [].
Proof. vm_compute. split; reflexivity. Qed.

(* (3) even without cancellation and shared schedulers the two logs agree only UP TO THE ITEM IDS:
       the id counter is shared, so an item of thread 0 created after one of thread 1 is item 1
       in the real run and item 0 in the projected one *)
Definition hs_ids : list (list cmd) := [[CSched CTS Now 1 []]; [CSched CTS Now 2 []]].
Definition sch_ids : list sstep := [Run 1; Run 0; Run 0]%nat.

Lemma proj_refuted_ids :
  let cf0 := start_config 0 hs_ids in
  klog (KLocal 0) (log (fst (crun (Cfg false) cf0 sch_ids)))
    = [EEnq (KLocal 0) 1 0 true; ECreate (KLocal 0) 1 0 0 0] /\
  klog (KLocal 0) (log (fst (crun (Cfg false) cf0 (proj (Cfg false) 0 cf0 sch_ids))))
    = [EEnq (KLocal 0) 0 0 true; ECreate (KLocal 0) 0 0 0 0].
Proof. vm_compute. split; reflexivity. Qed.

(* the statement in general, refuted by witness (2) *)
Theorem independence_by_projection_refuted :
  ~ (forall c c0 hs sch k o, owner k = Some o ->
       klog k (log (fst (crun c (start_config c0 hs) sch)))
       = klog k (log (fst (crun c (start_config c0 hs) (proj c o (start_config c0 hs) sch))))).
Proof.
  intro H. specialize (H (Cfg false) 0 hs_shared sch_shared (KLocal 0) 0%nat eq_refl).
  destruct proj_refuted_shared as [A B]. cbv zeta in A, B. rewrite A, B in H. discriminate H.
Qed.
