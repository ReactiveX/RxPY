(* C36 -- non-aligned floats: what to_timedelta(x) / to_datetime(x) IS relative to x.
   timedelta(seconds=x) and fromtimestamp(x) compute  trunc(x) * 10^6 + rhe(fl(frac(x) * 1e6)):
   the product is rounded to a double first, then half-even to an integer.  Hence the result is within
   1/2 + 2^-34 microsecond of x * 10^6 (so strictly within one microsecond); it is NOT always the nearest
   microsecond count: when frac(x) * 10^6 lies less than half an ulp below k + 1/2, the first rounding
   lands on the tie and the second goes to the even neighbour (witness at the end). *)
From Coq Require Import ZArith Lia Bool.
From RxVerif Require Import Core.TimeConv Core.TimeConvFacts.
Open Scope Z_scope.

(* |to_timedelta(x) - x * 10^6| < 1 microsecond: us_of_float_close weakened; the result is NOT always the nearest
   count, whatever the name says (head of the file, double_rounding_witness) *)
Theorem us_of_float_nearest : forall m e, e < 0 ->
  Z.abs (us_of_float (F m e) * 2 ^ (- e) - m * us_per_s) < 2 ^ (- e).
Proof.
  intros m e He. pose proof (us_of_float_close m e He) as C.
  assert (HP : 0 < 2 ^ (- e)) by (apply Z.pow_pos_nonneg; lia).
  change (2 ^ 33) with 8589934592 in C. lia.
Qed.

(* hence the result is one of the two microsecond counts around x * 10^6 (floor or ceiling); the third disjunct
   of the statement never occurs: the proof shows d <= u <= d + 1 *)
Corollary us_of_float_floor_or_ceil : forall m e, e < 0 ->
  let P := 2 ^ (- e) in
  us_of_float (F m e) = (m * us_per_s) / P \/ us_of_float (F m e) = (m * us_per_s) / P + 1 \/
  (us_of_float (F m e) = (m * us_per_s) / P - 1 /\ (m * us_per_s) mod P = 0).
Proof.
  intros m e He P. pose proof (us_of_float_nearest m e He) as N. fold P in N.
  assert (HP : 0 < P) by (apply Z.pow_pos_nonneg; lia).
  pose proof (Z.div_mod (m * us_per_s) P ltac:(lia)) as DM.
  pose proof (Z.mod_pos_bound (m * us_per_s) P HP) as MB.
  set (u := us_of_float (F m e)) in *. set (d := m * us_per_s / P) in *. clearbody u d P.
  assert (d <= u <= d + 1) by nia. lia.
Qed.

(* exactly the nearest, ties to even, for floats with at most 33 fractional bits (multiples of 2^-33 s, about
   0.12 ns): then frac(x) * 10^6 is itself a double, the first rounding is exact
   and only the half-even rounding to an integer remains *)
(* adding an even multiple of b moves the quotient by k and keeps its parity, hence the decision on a tie *)
Lemma rne_div_add_even : forall a k b, 0 < b -> Z.even k = true -> rne_div (a + k * b) b = k + rne_div a b.
Proof.
  intros a k b Hb Hk. unfold rne_div. rewrite Z.div_add, Z.mod_add by lia.
  rewrite Z.even_add, Hk. destruct (Z.even (a / b)); cbn [Bool.eqb];
  destruct (2 * (a mod b) <? b); try lia; destruct (b <? 2 * (a mod b)); lia.
Qed.

Lemma contrib_exact_coarse : forall r s, 0 <= s <= 33 -> Z.abs r < 2 ^ s ->
  contrib r (2 ^ s) = rne_div (r * us_per_s) (2 ^ s).
Proof.
  intros r s Hs Hr. assert (HP : 0 < 2 ^ s) by (apply Z.pow_pos_nonneg; lia).
  destruct (Z.eq_dec r 0) as [->|Hnz].
  { rewrite contrib_zero. symmetry. exact (rne_div_exact 0 (2 ^ s) HP). }
  destruct (contrib_twice r s ltac:(lia) Hnz Hr) as [t [Ht ->]].
  assert (HT : 2 ^ t = 2 ^ (t - s) * 2 ^ s) by (rewrite <- Z.pow_add_r by lia; f_equal; lia).
  assert (Hk : 0 < 2 ^ (t - s)) by (apply Z.pow_pos_nonneg; lia).
  rewrite HT, Z.mul_assoc, rne_div_exact by exact HP.
  rewrite (Z.mul_comm (2 ^ (t - s))). apply rne_div_scale; assumption.
Qed.

Theorem us_of_float_rne_coarse : forall m e, -33 <= e < 0 ->
  us_of_float (F m e) = rne_div (m * us_per_s) (2 ^ (- e)).
Proof.
  intros m e He. destruct (us_of_float_split m e ltac:(lia)) as [q [r [-> [Hr ->]]]].
  rewrite (contrib_exact_coarse r (- e) ltac:(lia) Hr).
  replace ((2 ^ (- e) * q + r) * us_per_s) with (r * us_per_s + q * us_per_s * 2 ^ (- e)) by ring.
  rewrite rne_div_add_even; [reflexivity | apply Z.pow_pos_nonneg; lia |].
  rewrite Z.even_mul. apply orb_true_r.
Qed.

(* "THE nearest microsecond count" is false of timedelta(seconds=x) / fromtimestamp(x), because of the double
   rounding: x = 582357982919 * 2^-40 (a binary64, 0x1.0f2e7b3d8e000p-1) has x * 10^6 = 529651.5 - 2^-34,
   whose nearest integer is 529651; the product rounds to the double 529651.5 and half-even gives 529652
   (evaluated in Props/C36.v, C36_us_of_float_nearest_exact_refuted) *)
Definition double_rounding_witness : fl := F 582357982919 (-40).
