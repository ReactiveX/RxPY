(* Which states of the transition system of ScheduledObserver / ObserveOnObserver (Core/SchedObs.v) are
   dead (no thread can step), and when some thread can.  Any state, reachable or not. *)
From RxVerif Require Import Base.Prelude Core.Lts Core.LtsFacts Core.SchedObs Core.SchedObsFacts.
Local Open Scope nat_scope.

(* the thread is a worker of the scheduler waiting for a pending `run` (inside the loop or about to
   enter it) *)
Definition waiting (t : thread) : Prop := exists todo, next_frame so_start t = Some (LW_pop, todo).

Section Progress.
Variable raises : nat -> bool.
Notation tstep := (@tstep so_state so_loc so_op so_obs so_start (so_act raises)).

(* every position except the worker's wait is enabled, and the step moves the thread *)
Lemma so_act_enabled : forall tid s l,
  l <> LW_pop -> exists s' l' out, so_act raises tid s l = Some (s', l', out) /\ l' <> Some l.
Proof.
  intros tid [q acq flt pend recv] l Hl. destruct l as [i ens| | | | |i|i| |]; cbn [so_act]; try congruence;
    [destruct ens | destruct flt; [|destruct q; [|destruct acq]] | | destruct q | | destruct (raises i) | | ];
    eexists _, _, _; (split; [reflexivity|discriminate]).
Qed.

Lemma frame_moves : forall (t : thread) l todo l',
  next_frame so_start t = Some (l, todo) -> l' <> Some l -> Thread l' todo <> t.
Proof.
  intros t l todo l' F Hl E. subst t. unfold next_frame in F. cbn [t_cur t_todo] in F.
  destruct l' as [l0|].
  - injection F as ->. congruence.
  - destruct todo as [|o r]; [discriminate F|]. injection F as _ F.
    apply (f_equal (@length so_op)) in F. cbn [length] in F. lia.
Qed.

Lemma so_step_enabled : forall (c : config) tid t l todo,
  nth_error (c_ths c) tid = Some t -> next_frame so_start t = Some (l, todo) -> l <> LW_pop ->
  tstep c tid <> c.
Proof.
  intros c tid t l todo N F Hl. destruct (so_act_enabled tid (c_sh c) l Hl) as (s' & l' & out & A & Hm).
  unfold Lts.tstep. rewrite N, F, A. intros E. apply (f_equal c_ths) in E. cbn [c_ths] in E.
  exact (upd_nth_neq _ _ _ _ _ N (frame_moves t l todo l' F Hm) E).
Qed.

Lemma so_worker_enabled : forall (c : config) tid t,
  nth_error (c_ths c) tid = Some t -> waiting t -> so_pend (c_sh c) <> 0 -> tstep c tid <> c.
Proof.
  intros c tid t N [todo F] Hp. unfold Lts.tstep. rewrite N, F.
  destruct (c_sh c) as [q acq flt pend recv] eqn:Es. cbn [so_pend] in Hp. cbn [so_act].
  destruct pend as [|p]; [congruence|]. intros E. apply (f_equal c_sh) in E. cbn [c_sh] in E.
  rewrite Es in E. injection E as E. lia.
Qed.

(* exact characterisation: NO thread can step iff every thread is finished or a worker waiting for
   work, and nothing is pending on the scheduler unless it has no worker at all *)
Theorem so_dead_iff : forall c : config,
  (forall tid, tstep c tid = c) <->
  (forall tid t, nth_error (c_ths c) tid = Some t -> finished t = true \/ waiting t) /\
  (so_pend (c_sh c) = 0 \/ forall tid t, nth_error (c_ths c) tid = Some t -> ~ waiting t).
Proof.
  intros c. split.
  - intros D. split.
    + intros tid t N. destruct (next_frame so_start t) as [[l todo]|] eqn:F.
      * right. destruct l; try (exists todo; exact F);
          (exfalso; apply (so_step_enabled c tid t _ todo N F); [discriminate|apply D]).
      * left. apply (next_frame_none so_start), F.
    + destruct (Nat.eq_dec (so_pend (c_sh c)) 0) as [Z|NZ]; [left; exact Z|right].
      intros tid t N W. exact (so_worker_enabled c tid t N W NZ (D tid)).
  - intros [H1 H2] tid. unfold Lts.tstep.
    destruct (nth_error (c_ths c) tid) as [t|] eqn:N; [|reflexivity].
    destruct (H1 tid t N) as [Fi|[todo F]].
    + rewrite (proj2 (next_frame_none so_start t) Fi). reflexivity.
    + rewrite F. destruct H2 as [Z|NW]; [|exfalso; exact (NW tid t N (ex_intro _ todo F))].
      destruct (c_sh c) as [q acq flt pend recv]. cbn [so_pend] in Z. subst pend. reflexivity.
Qed.

(* progress: in a non-quiescent state that has a worker inside its loop waiting for work, and in which
   no thread stands in front of a worker loop it has not entered yet (such a thread is not idle, yet it is
   [waiting] and cannot step while nothing is pending), some thread can step *)
Theorem so_progress : forall c : config,
  quiescent c = false ->
  (exists w t, nth_error (c_ths c) w = Some t /\ t_cur t = Some LW_pop) ->
  (forall tid t r, nth_error (c_ths c) tid = Some t -> t_cur t = None -> t_todo t <> OWork :: r) ->
  exists tid, tstep c tid <> c.
Proof.
  intros c Q (w & tw & Nw & Cw) NU.
  destruct (Nat.eq_dec (so_pend (c_sh c)) 0) as [Z|NZ].
  - unfold quiescent in Q. rewrite Z, Nat.eqb_refl, andb_true_r in Q.
    assert (exists t, In t (c_ths c) /\ idle t = false) as (t & Ht & Hi).
    { clear - Q. induction (c_ths c) as [|y r IH]; [discriminate Q|]. cbn [forallb] in Q.
      destruct (idle y) eqn:Ey.
      - destruct (IH Q) as (t & Ht & Hi). exists t. split; [right; exact Ht|exact Hi].
      - exists y. split; [left; reflexivity|exact Ey]. }
    apply In_nth_error in Ht. destruct Ht as [tid N]. exists tid.
    unfold idle in Hi. destruct (t_cur t) as [l|] eqn:Ec.
    + apply (so_step_enabled c tid t l (t_todo t) N); [unfold next_frame; rewrite Ec; reflexivity|].
      intros ->. discriminate Hi.
    + destruct (t_todo t) as [|o r] eqn:Et; [discriminate Hi|].
      apply (so_step_enabled c tid t (so_start o) r N); [unfold next_frame; rewrite Ec, Et; reflexivity|].
      destruct o; cbn [so_start]; try discriminate. exfalso. exact (NU tid t r N Ec Et).
  - exists w. apply (so_worker_enabled c w tw Nw); [|exact NZ]. exists (t_todo tw). unfold next_frame. rewrite Cw. reflexivity.
Qed.
End Progress.
