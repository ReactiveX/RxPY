(* Facts about Core/EventLoop.v (EventLoopScheduler): theorems over ALL schedules -- arbitrary
   lists of moves (thread steps and clock advances), any number of scheduling threads, any
   programs, any action bodies, both settings of exit_if_empty.

   The step functions are characterised as relations (opstep / loopstep, and cstep on configurations).
   First what needs no configuration: the queue operations, the projections and scanners of the log, what
   one step of either relation does.  Then every theorem is an inductive invariant of [run]:
     invA  thread structure: every live loop thread is the scheduler's _thread; the waiter of the
           condition is parked in wait and conversely
     invD  data: flags of queued items, FIFO of immediate items, conservation (Permutation),
           sortedness of the queue and of the dispatched timed items, due <= clock for what is ready
     invS  three scanners of the log: actions never overlap, an action starts only with its own passed
           is_cancelled() test pending (no other passed test or start in between; [win] of
           Core/EventLoopBatch.v: no event of the loop at all in between), no passed test after a cancel
     invT  never early      invI  which thread runs actions, how many threads are started
     invU, invP, invJ  uids / the unlocked _is_disposed test / after dispose() returned
     invH  no lost wake-up, no queued item without a live thread
   [reach]: all but invJ hold of every reachable state; the el_* theorems are read off it.
   Built on this file, each with invariants of its own: Core/EventLoopFacts2.v (invX: exit_if_empty at
   quiescence; invG: calls after dispose() raise), Core/EventLoopFacts3.v (invKX: exact due times; invZ:
   NewThreadScheduler), Core/EventLoopBatch.v (invW: the test is made right before the invocation),
   Core/RealTimeFacts.v (invM: never after a cancel that returned before the due time). *)
From RxVerif Require Import Base.Prelude Core.EventLoop.
From Coq Require Import Permutation Sorted.
Local Open Scope Z_scope.

(* inversion that substitutes the equations it makes and drops the hypothesis *)
Ltac inv H := inversion H; subst; clear H.
(* a hypothesis [In e [e1; ..; en]], once computed, is a disjunction that ends in False: one goal per element *)
Ltac in_literal := repeat match goal with X : _ \/ _ |- _ => destruct X as [X|X] | X : False |- _ => destruct X end.

Lemma nth_upd_same : forall A (l : list A) k x old,
  nth_error l k = Some old -> nth_error (upd k x l) k = Some x.
Proof.
  induction l as [|y t IH]; intros k x old H; [destruct k; discriminate H|].
  destruct k as [|k']; cbn [upd nth_error] in *; [reflexivity|]. eapply IH, H.
Qed.

Lemma nth_upd_other : forall A (l : list A) k j x,
  j <> k -> nth_error (upd k x l) j = nth_error l j.
Proof.
  induction l as [|y t IH]; intros k j x H; [destruct k; reflexivity|].
  destruct k as [|k'], j as [|j']; cbn [upd nth_error]; try reflexivity; [congruence|].
  apply IH. congruence.
Qed.

Lemma upd_length : forall A (l : list A) k x, length (upd k x l) = length l.
Proof.
  induction l as [|y t IH]; intros k x; [destruct k; reflexivity|].
  destruct k; cbn [upd length]; [reflexivity|]. rewrite IH. reflexivity.
Qed.

Lemma nth_error_lt : forall A (l : list A) k x, nth_error l k = Some x -> (k < length l)%nat.
Proof. intros A l k x H. apply nth_error_Some. congruence. Qed.

(* the thread table after a step: thread k replaced, possibly one thread appended *)
Lemma nth_step_same : forall A (l : list A) k x old ext,
  nth_error l k = Some old -> nth_error (upd k x l ++ ext) k = Some x.
Proof.
  intros A l k x old ext H. rewrite nth_error_app1; [eapply nth_upd_same, H|].
  rewrite upd_length. eapply nth_error_lt, H.
Qed.

Lemma nth_step_old : forall A (l : list A) k j x ext y,
  j <> k -> nth_error l j = Some y -> nth_error (upd k x l ++ ext) j = Some y.
Proof.
  intros A l k j x ext y N H. rewrite nth_error_app1 by (rewrite upd_length; eapply nth_error_lt, H).
  rewrite nth_upd_other by exact N. exact H.
Qed.

Lemma nth_step_new : forall A (l : list A) k x y,
  nth_error (upd k x l ++ [y]) (length l) = Some y.
Proof.
  intros. rewrite nth_error_app2 by (rewrite upd_length; lia). rewrite upd_length, Nat.sub_diag. reflexivity.
Qed.

Lemma nth_step_cases : forall A (l : list A) k x ext j y old,
  nth_error l k = Some old -> nth_error (upd k x l ++ ext) j = Some y ->
  (j = k /\ y = x) \/ (j <> k /\ nth_error l j = Some y) \/
  ((length l <= j)%nat /\ nth_error ext (j - length l) = Some y).
Proof.
  intros A l k x ext j y old O H. destruct (Nat.eq_dec j k) as [->|N].
  - erewrite nth_step_same in H by exact O. inv H. left. auto.
  - right. destruct (Nat.lt_ge_cases j (length l)) as [LT|GE].
    + rewrite nth_error_app1, nth_upd_other in H by (rewrite ?upd_length; assumption). left. auto.
    + rewrite nth_error_app2, upd_length in H by (rewrite upd_length; exact GE). right. auto.
Qed.

Lemma nth_after : forall (ths : list tstate) tid st' (sp : bool) t st old,
  nth_error ths tid = Some old ->
  nth_error (upd tid st' ths ++ (if sp then [TLoop LNew] else [])) t = Some st ->
  (t = tid /\ st = st') \/ (t <> tid /\ nth_error ths t = Some st) \/
  (sp = true /\ t = length ths /\ st = TLoop LNew).
Proof.
  intros ths tid st' sp t st old O H. destruct (nth_step_cases _ _ _ _ _ _ _ _ O H) as [X|[X|[GE X]]]; auto.
  right. right. destruct sp; [|destruct (t - length ths)%nat; discriminate X].
  destruct (t - length ths)%nat as [|[|k]] eqn:K; inv X. repeat split. lia.
Qed.

(* [s] with the ready list, the queue, _thread and the waiter replaced *)
Definition set_q (s : shared) (rl' q' : list item) (th : option nat) (w : option wait) : shared :=
  Sh (clock s) (disposed s) rl' q' th w (cancelled s) (nuid s).

Inductive opstep (ntid : nat) (s : shared)
  : option opst -> list op -> shared -> option opst -> list op -> list ev -> bool -> Prop :=
| OS_now : forall a r,
    opstep ntid s None (SchedNow a :: r) (bump s) (Some (PS1 (nuid s) a (clock s))) r [ECall (nuid s) a] false
| OS_rel : forall d a r,
    opstep ntid s None (SchedRel d a :: r) (bump s) (Some (PS1 (nuid s) a (clock s + Z.max 0 d))) r
           [ECall (nuid s) a] false
| OS_abs_raise : forall t a r, disposed s = true ->
    opstep ntid s None (SchedAbs t a :: r) (bump s) None r [ECall (nuid s) a; ERaise a] false
| OS_abs_pass : forall t a r, disposed s = false ->
    opstep ntid s None (SchedAbs t a :: r) (bump s) (Some (PS2 (nuid s) a t)) r
           [ECall (nuid s) a; EPass (nuid s)] false
| OS_cancel : forall a r,
    opstep ntid s None (Cancel a :: r)
           (Sh (clock s) (disposed s) (rl s) (q s) (thr s) (wt s) (a :: cancelled s) (nuid s))
           None r [ECancelRet a] false
| OS_dispose_again : forall r, disposed s = true ->
    opstep ntid s None (Dispose :: r) s None r [EDisposeRet] false
| OS_dispose : forall r, disposed s = false ->
    opstep ntid s None (Dispose :: r)
           (Sh (clock s) true (rl s) (q s) (thr s) (notify (wt s)) (cancelled s) (nuid s))
           None r [EDisposeRet] false
| OS_s1_raise : forall u a due todo, disposed s = true ->
    opstep ntid s (Some (PS1 u a due)) todo s None todo [ERaise a] false
| OS_s1_pass : forall u a due todo, disposed s = false ->
    opstep ntid s (Some (PS1 u a due)) todo s (Some (PS2 u a due)) todo [EPass u] false
| OS_s2_imm : forall u a due todo t, due <= clock s -> thr s = Some t ->
    opstep ntid s (Some (PS2 u a due)) todo
           (set_q s (rl s ++ [Item u a due true]) (q s) (thr s) (notify (wt s)))
           None todo [EAcc (Item u a due true); ERet a] false
| OS_s2_imm_spawn : forall u a due todo, due <= clock s -> thr s = None ->
    opstep ntid s (Some (PS2 u a due)) todo
           (set_q s (rl s ++ [Item u a due true]) (q s) (Some ntid) (notify (wt s)))
           None todo [EAcc (Item u a due true); ESpawn ntid; ERet a] true
| OS_s2_timed : forall u a due todo t, clock s < due -> thr s = Some t ->
    opstep ntid s (Some (PS2 u a due)) todo
           (set_q s (rl s) (insert (Item u a due false) (q s)) (thr s) (notify (wt s)))
           None todo [EAcc (Item u a due false); ERet a] false
| OS_s2_timed_spawn : forall u a due todo, clock s < due -> thr s = None ->
    opstep ntid s (Some (PS2 u a due)) todo
           (set_q s (rl s) (insert (Item u a due false) (q s)) (Some ntid) (notify (wt s)))
           None todo [EAcc (Item u a due false); ESpawn ntid; ERet a] true.

(* [s] is taken apart in the two lemmas below so that a case analysis on one of its fields reaches the
   occurrences of that field in the constructors' statements as well *)
Lemma op_step_spec : forall ntid s cur todo s' cur' todo' out sp,
  op_step ntid s cur todo = Some (s', cur', todo', out, sp) ->
  opstep ntid s cur todo s' cur' todo' out sp.
Proof.
  intros ntid [ck dp r qq th w cn nu] cur todo s' cur' todo' out sp H.
  destruct cur as [[u a due|u a due]|].
  - destruct dp; cbn [op_step s1 disposed] in H; injection H as <- <- <- <- <-; constructor; reflexivity.
  - destruct th as [t|]; cbn [op_step s2 clock disposed rl q thr wt cancelled nuid] in H;
      (destruct (due <=? ck) eqn:I; [apply Z.leb_le in I|apply Z.leb_gt in I]);
      injection H as <- <- <- <- <-; econstructor; first [exact I|reflexivity].
  - destruct todo as [|[a|d a|t a|a|] r0]; [discriminate H| | |destruct dp| |destruct dp];
      cbn [op_step s1 bump clock disposed rl q thr wt cancelled nuid] in H;
      injection H as <- <- <- <- <-; constructor; reflexivity.
Qed.

Inductive loopstep (eie : bool) (body : nat -> list op) (me ntid : nat) (s : shared)
  : lphase -> shared -> lphase -> list ev -> bool -> Prop :=
| LS_new : loopstep eie body me ntid s LNew s LCollect [] false
| LS_collect_exit : disposed s = true -> loopstep eie body me ntid s LCollect s LExited [EExit] false
| LS_collect : forall ready q', disposed s = false -> collect (clock s) (q s) (rl s) = (ready, q') ->
    loopstep eie body me ntid s LCollect (set_q s [] q' (thr s) (wt s)) (next_phase ready) [] false
| LS_exec_nil : loopstep eie body me ntid s (LExec []) s LWaitSec [] false
| LS_skip : forall i r, mem (it_lbl i) (cancelled s) = true ->
    loopstep eie body me ntid s (LExec (i :: r)) s (next_phase r) [ECheck i true] false
| LS_pick : forall i r, mem (it_lbl i) (cancelled s) = false ->
    loopstep eie body me ntid s (LExec (i :: r)) s (LInvoke i r) [ECheck i false] false
| LS_invoke : forall i r,
    loopstep eie body me ntid s (LInvoke i r) s (LBody i None (body (it_lbl i)) r) [EStart i] false
| LS_body : forall i cur todo r s' cur' todo' out sp,
    opstep ntid s cur todo s' cur' todo' out sp ->
    loopstep eie body me ntid s (LBody i cur todo r) s' (LBody i cur' todo' r) out sp
| LS_end : forall i r,
    loopstep eie body me ntid s (LBody i None [] r) s (next_phase r) [EEnd i] false
| LS_ws_continue : forall x t, rl s = x :: t -> loopstep eie body me ntid s LWaitSec s LCollect [] false
| LS_ws_timed : forall x t, rl s = [] -> q s = x :: t -> clock s < it_due x ->
    loopstep eie body me ntid s LWaitSec
             (set_q s (rl s) (q s) (thr s) (Some (Wait me (Some (it_due x)) false))) LWaiting [] false
| LS_ws_due : forall x t, rl s = [] -> q s = x :: t -> it_due x <= clock s ->
    loopstep eie body me ntid s LWaitSec s LCollect [] false
| LS_ws_exit : rl s = [] -> q s = [] -> eie = true ->
    loopstep eie body me ntid s LWaitSec (set_q s (rl s) (q s) None (wt s)) LExited [EExit] false
| LS_ws_wait : rl s = [] -> q s = [] -> eie = false ->
    loopstep eie body me ntid s LWaitSec
             (set_q s (rl s) (q s) (thr s) (Some (Wait me None false))) LWaiting [] false
| LS_wake : forall w, wt s = Some w -> w_tid w = me -> (w_notified w || timed_out s w) = true ->
    loopstep eie body me ntid s LWaiting (set_q s (rl s) (q s) (thr s) None) LCollect [] false.

Lemma loop_step_spec : forall eie body me ntid s ph s' ph' out sp,
  loop_step eie body me ntid s ph = Some (s', ph', out, sp) ->
  loopstep eie body me ntid s ph s' ph' out sp.
Proof.
  intros eie body me ntid [ck dp r qq th w cn nu] ph s' ph' out sp H.
  destruct ph as [| |ready|i r0|i cur todo r0| | |]; cbn [loop_step clock disposed rl q thr wt cancelled nuid] in H.
  - injection H as <- <- <- <-. constructor.
  - destruct dp; [injection H as <- <- <- <-; constructor; reflexivity|].
    destruct (collect ck qq r) as [ready q'] eqn:C. injection H as <- <- <- <-.
    eapply LS_collect; [reflexivity|exact C].
  - destruct ready as [|i r0]; [injection H as <- <- <- <-; constructor|].
    destruct (mem (it_lbl i) cn) eqn:M; injection H as <- <- <- <-; constructor; exact M.
  - injection H as <- <- <- <-. constructor.
  - destruct (op_step ntid _ cur todo) as [[[[[s1' c1] t1] o1] sp1]|] eqn:O.
    + injection H as <- <- <- <-. apply LS_body, op_step_spec, O.
    + (* the code of the action is stuck only with no call in progress and none left: the action ends *)
      destruct cur as [[? ? ?|? ? ?]|]; try discriminate O.
      destruct todo as [|[?|? ?|t0 a0|?|] l0]; cbn [op_step] in O; try discriminate O.
      * injection H as <- <- <- <-. constructor.
      * destruct (s1 _ _ a0 t0 l0) as [[[[? ?] ?] ?] ?]. discriminate O.
  - destruct r as [|x t]; [|injection H as <- <- <- <-; eapply LS_ws_continue; reflexivity].
    destruct qq as [|x t].
    + destruct eie; injection H as <- <- <- <-; [apply LS_ws_exit|apply LS_ws_wait]; reflexivity.
    + rewrite Z.gtb_ltb in H. destruct (Z.ltb_spec 0 (it_due x - ck)) as [G|G]; injection H as <- <- <- <-.
      * eapply LS_ws_timed; [reflexivity|reflexivity|cbn [clock]; lia].
      * eapply LS_ws_due; [reflexivity|reflexivity|cbn [clock]; lia].
  - destruct w as [w|]; [|discriminate H].
    destruct (Nat.eqb (w_tid w) me && (w_notified w || timed_out _ w)) eqn:B; [|discriminate H].
    injection H as <- <- <- <-. apply andb_true_iff in B. destruct B as [B1 B2]. apply Nat.eqb_eq in B1.
    eapply LS_wake; [reflexivity|exact B1|exact B2].
  - discriminate H.
Qed.

Lemma notify_some : forall w w', notify w = Some w' ->
  exists w0, w = Some w0 /\ w_tid w' = w_tid w0 /\ w_deadline w' = w_deadline w0 /\ w_notified w' = true.
Proof. intros [[t d n]|] w' H; inv H. eexists. repeat split. Qed.
Lemma notify_notified : forall w0 w, notify w0 = Some w -> w_notified w = true.
Proof. intros w0 w H. destruct (notify_some _ _ H) as (_ & _ & _ & _ & N). exact N. Qed.
Lemma notify_of_some : forall w0, exists w', notify (Some w0) = Some w' /\ w_tid w' = w_tid w0 /\
  w_deadline w' = w_deadline w0 /\ w_notified w' = true.
Proof. intros [t d n]. eexists. repeat split. Qed.

Lemma opstep_thr : forall ntid s cur todo s' cur' todo' out sp,
  opstep ntid s cur todo s' cur' todo' out sp ->
  (sp = false /\ thr s' = thr s) \/ (sp = true /\ thr s = None /\ thr s' = Some ntid).
Proof. destruct 1; cbn; auto. Qed.

Lemma opstep_wt : forall ntid s cur todo s' cur' todo' out sp,
  opstep ntid s cur todo s' cur' todo' out sp -> wt s' = wt s \/ wt s' = notify (wt s).
Proof. destruct 1; cbn; auto. Qed.

Lemma wt_cases_preserved : forall (ths ths' : list tstate) w w',
  (w' = w \/ w' = notify w) ->
  (forall x, w = Some x -> nth_error ths (w_tid x) = Some (TLoop LWaiting)) ->
  (forall t, nth_error ths t = Some (TLoop LWaiting) -> nth_error ths' t = Some (TLoop LWaiting)) ->
  forall x, w' = Some x -> nth_error ths' (w_tid x) = Some (TLoop LWaiting).
Proof.
  intros ths ths' w w' [->| ->] H1 H2 x E.
  - apply H2, H1, E.
  - apply notify_some in E. destruct E as (w0 & E1 & E2 & _). rewrite E2. apply H2, H1, E1.
Qed.

Lemma wt_cases_conv : forall w w' t,
  (w' = w \/ w' = notify w) ->
  (exists x, w = Some x /\ w_tid x = t) -> exists x, w' = Some x /\ w_tid x = t.
Proof.
  intros w w' t [->| ->] [x [E1 E2]]; [eauto|]. subst w.
  destruct (notify_of_some x) as [w' [N1 [N2 _]]]. exists w'. split; [exact N1|congruence].
Qed.

Lemma next_phase_live : forall r, next_phase r <> LWaiting /\ next_phase r <> LExited.
Proof. destruct r; split; discriminate. Qed.

Inductive merge {A} : list A -> list A -> list A -> Prop :=
| M_nil : merge [] [] []
| M_l : forall x l1 l2 l, merge l1 l2 l -> merge (x :: l1) l2 (x :: l)
| M_r : forall x l1 l2 l, merge l1 l2 l -> merge l1 (x :: l2) (x :: l).

Lemma merge_nil_r : forall A (l : list A), merge l [] l.
Proof. induction l; constructor; assumption. Qed.
Lemma merge_nil_l : forall A (l : list A), merge [] l l.
Proof. induction l; constructor; assumption. Qed.

Lemma merge_app_l : forall A (m l1 l2 l : list A), merge l1 l2 l -> merge (m ++ l1) l2 (m ++ l).
Proof. induction m; intros; cbn; [assumption|]. constructor. apply IHm. assumption. Qed.

Lemma merge_perm : forall A (l1 l2 l : list A), merge l1 l2 l -> Permutation l (l1 ++ l2).
Proof.
  induction 1; cbn; [constructor|constructor; assumption|].
  etransitivity; [apply perm_skip; eassumption|]. apply Permutation_middle.
Qed.

Lemma merge_filter_l : forall A (p : A -> bool) (l1 l2 l : list A), merge l1 l2 l ->
  (forall x, In x l2 -> p x = false) -> filter p l = filter p l1.
Proof.
  induction 1; intros H2; cbn; [reflexivity| |].
  - rewrite IHmerge by assumption. reflexivity.
  - rewrite (H2 x) by (left; reflexivity). apply IHmerge. intros y Y. apply H2. right. exact Y.
Qed.

Lemma merge_filter_r : forall A (p : A -> bool) (l1 l2 l : list A), merge l1 l2 l ->
  (forall x, In x l1 -> p x = false) -> filter p l = filter p l2.
Proof.
  induction 1; intros H1; cbn; [reflexivity| |].
  - rewrite (H1 x) by (left; reflexivity). apply IHmerge. intros y Y. apply H1. right. exact Y.
  - rewrite IHmerge by assumption. reflexivity.
Qed.

Lemma take_lt_app : forall d l m rest, take_lt d l = (m, rest) -> l = m ++ rest.
Proof.
  induction l as [|r t IH]; intros m rest H; cbn in H; [inv H; reflexivity|].
  destruct (d >? it_due r); [|inv H; reflexivity].
  destruct (take_lt d t) as [m0 rest0]. inv H. cbn. f_equal. apply IH. reflexivity.
Qed.

Definition head_after (time : Z) (l : list item) : Prop :=
  match l with [] => True | y :: _ => time < it_due y end.

Lemma collect_merge : forall time qu rdy ready q',
  collect time qu rdy = (ready, q') ->
  exists taken, qu = taken ++ q' /\ merge rdy taken ready /\
                (forall x, In x taken -> it_due x <= time) /\ head_after time q'.
Proof.
  induction qu as [|x qu IH]; intros rdy ready q' H; cbn in H.
  - inv H. exists []. repeat split; [apply merge_nil_r|intros x []].
  - destruct (take_lt (it_due x) rdy) as [m rest] eqn:T. apply take_lt_app in T. subst rdy.
    destruct (it_due x >? time) eqn:G.
    + inv H. exists []. repeat split; [apply merge_nil_r|intros y []|]. cbn. apply Z.gtb_lt in G. lia.
    + destruct (collect time qu rest) as [r qu''] eqn:C. inv H.
      destruct (IH rest r q' C) as [taken [E [M [D HA]]]]. exists (x :: taken). repeat split.
      * cbn. f_equal. exact E.
      * apply merge_app_l. apply M_r. exact M.
      * intros y [<-|Y]; [|apply D; exact Y]. rewrite Z.gtb_ltb in G. apply Z.ltb_ge in G. exact G.
      * exact HA.
Qed.

Lemma insert_perm : forall x l, Permutation (insert x l) (x :: l).
Proof.
  induction l as [|y t IH]; cbn; [reflexivity|]. destruct (it_due x <? it_due y); [reflexivity|].
  etransitivity; [apply perm_skip; exact IH|]. apply perm_swap.
Qed.

Lemma insert_in : forall x l y, In y (insert x l) <-> y = x \/ In y l.
Proof.
  intros x l y. split; intros H.
  - apply (Permutation_in _ (insert_perm x l)) in H. destruct H as [<-|H]; auto.
  - apply (Permutation_in _ (Permutation_sym (insert_perm x l))). destruct H as [->|H]; [left|right]; auto.
Qed.

Definition le_due (a b : item) : Prop := it_due a <= it_due b.

Lemma insert_sorted : forall x l, StronglySorted le_due l -> StronglySorted le_due (insert x l).
Proof.
  induction l as [|y t IH]; intros S; cbn; [repeat constructor|].
  inversion S as [|? ? S' F]; subst. destruct (it_due x <? it_due y) eqn:C.
  - apply Z.ltb_lt in C. constructor; [exact S|]. constructor; [unfold le_due; lia|].
    eapply Forall_impl; [|exact F]. unfold le_due. intros; lia.
  - apply Z.ltb_ge in C. constructor; [apply IH; exact S'|]. apply Forall_forall. intros z Z0.
    apply insert_in in Z0. destruct Z0 as [->|Z0]; [exact C|]. rewrite Forall_forall in F. apply F, Z0.
Qed.

Lemma sorted_app : forall (l1 l2 : list item),
  StronglySorted le_due l1 -> StronglySorted le_due l2 ->
  (forall x y, In x l1 -> In y l2 -> le_due x y) -> StronglySorted le_due (l1 ++ l2).
Proof.
  induction l1 as [|a l1 IH]; intros l2 S1 S2 H; cbn; [exact S2|].
  inversion S1 as [|? ? S1' F]; subst. constructor.
  - apply IH; [exact S1'|exact S2|]. intros x y X Y. apply H; [right; exact X|exact Y].
  - apply Forall_forall. intros z Z0. apply in_app_or in Z0. destruct Z0 as [Z0|Z0].
    + rewrite Forall_forall in F. apply F, Z0.
    + apply H; [left; reflexivity|exact Z0].
Qed.

Lemma sorted_app_l : forall (l1 l2 : list item), StronglySorted le_due (l1 ++ l2) -> StronglySorted le_due l1.
Proof.
  induction l1 as [|a l1 IH]; intros l2 S; [constructor|]. cbn in S. inversion S as [|? ? S' F]; subst.
  constructor; [eapply IH; exact S'|]. rewrite Forall_forall in *. intros z Z0. apply F. apply in_or_app. left. exact Z0.
Qed.

Lemma sorted_app_r : forall (l1 l2 : list item), StronglySorted le_due (l1 ++ l2) -> StronglySorted le_due l2.
Proof. induction l1 as [|a l1 IH]; intros l2 S; [exact S|]. cbn in S. inversion S; subst. apply IH. assumption. Qed.

Lemma sorted_head_le : forall x l y, StronglySorted le_due (x :: l) -> In y (x :: l) -> it_due x <= it_due y.
Proof.
  intros x l y S [<-|Y]; [lia|]. inversion S as [|? ? _ F]; subst. rewrite Forall_forall in F. apply F, Y.
Qed.

Lemma sorted_filter : forall p (l : list item), StronglySorted le_due l -> StronglySorted le_due (filter p l).
Proof.
  induction l as [|a l IH]; intros S; cbn; [constructor|]. inversion S as [|? ? S' F]; subst.
  destruct (p a); [|apply IH; exact S']. constructor; [apply IH; exact S'|].
  rewrite Forall_forall in *. intros z Z0. apply filter_In in Z0. apply F, Z0.
Qed.

(* [stamp] here and [tstamp] of Core/RealTime.v are this map, at their own types of events *)
Lemma in_stamped : forall (E : Type) (tid : nat) (clk : Z) (out : list E) tid' t e,
  In (tid', t, e) (map (fun e => (tid, clk, e)) out) <-> tid' = tid /\ t = clk /\ In e out.
Proof.
  intros. rewrite in_map_iff. split.
  - intros [x [X I]]. inv X. auto.
  - intros [-> [-> I]]. exists e. auto.
Qed.

Lemma in_stamp : forall tid clk out tid' t e,
  In (tid', t, e) (stamp tid clk out) <-> tid' = tid /\ t = clk /\ In e out.
Proof. intros. apply in_stamped. Qed.

Lemma evs_app : forall a b, evs (a ++ b) = evs a ++ evs b.
Proof. intros. unfold evs. apply map_app. Qed.
Lemma evs_stamp : forall tid clk out, evs (stamp tid clk out) = out.
Proof. intros. unfold evs, stamp. rewrite map_map. cbn. apply map_id. Qed.

(* accepted items, dispatched (= tested for cancellation) items, in log order *)
Fixpoint accs (l : list ev) : list item :=
  match l with [] => [] | EAcc i :: t => i :: accs t | _ :: t => accs t end.
Fixpoint checks (l : list ev) : list item :=
  match l with [] => [] | ECheck i _ :: t => i :: checks t | _ :: t => checks t end.

Lemma accs_app : forall a b, accs (a ++ b) = accs a ++ accs b.
Proof. induction a as [|[] a IH]; intros b; cbn; rewrite ?IH; reflexivity. Qed.
Lemma checks_app : forall a b, checks (a ++ b) = checks a ++ checks b.
Proof. induction a as [|[] a IH]; intros b; cbn; rewrite ?IH; reflexivity. Qed.

(* the items a loop thread has collected and not yet tested *)
Definition tpend (t : tstate) : list item :=
  match t with
  | TLoop (LExec r) | TLoop (LInvoke _ r) | TLoop (LBody _ _ _ r) => r
  | _ => []
  end.

(* a quantity read off the state of the scheduler's thread (default when there is none) *)
Definition at_thr {X} (f : tstate -> X) (d : X) (c : config) : X :=
  match thr (c_sh c) with
  | Some t => match nth_error (c_ths c) t with Some st => f st | None => d end
  | None => d
  end.

Definition inflight (c : config) : list item := at_thr tpend [] c.

Lemma tpend_next : forall r, tpend (TLoop (next_phase r)) = r.
Proof. destruct r; reflexivity. Qed.

(* the effect of one call step on the queues: none, an immediately-due item appended to the ready list, or a
   timed item inserted into the queue; an enqueue notifies the waiter and leaves the scheduler with a thread *)
Inductive enq_eff (s s' : shared) (out : list ev) : Prop :=
| EF_none : rl s' = rl s -> q s' = q s -> accs out = [] -> enq_eff s s' out
| EF_imm : forall it, rl s' = rl s ++ [it] -> q s' = q s -> accs out = [it] -> wt s' = notify (wt s) ->
    it_imm it = true -> it_due it <= clock s -> thr s' <> None -> enq_eff s s' out
| EF_timed : forall it, rl s' = rl s -> q s' = insert it (q s) -> accs out = [it] -> wt s' = notify (wt s) ->
    it_imm it = false -> clock s < it_due it -> thr s' <> None -> enq_eff s s' out.

Lemma opstep_enq : forall ntid s cur todo s' cur' todo' out sp,
  opstep ntid s cur todo s' cur' todo' out sp ->
  enq_eff s s' out /\ checks out = [] /\ clock s' = clock s /\ (disposed s = true -> disposed s' = true).
Proof.
  destruct 1; cbn; repeat split; auto;
    try (apply EF_none; reflexivity);
    try (eapply EF_imm; cbn; try reflexivity; try assumption; congruence);
    try (eapply EF_timed; cbn; try reflexivity; try assumption; congruence).
Qed.

Definition timed (i : item) : bool := negb (it_imm i).
Definition L (c : config) : list ev := evs (c_log c).

Lemma L_step : forall c tid s' ths' out,
  L (Config s' ths' (c_log c ++ stamp tid (clock (c_sh c)) out)) = L c ++ out.
Proof. intros. unfold L. cbn [c_log]. rewrite evs_app, evs_stamp. reflexivity. Qed.

Lemma filter_all : forall A (p : A -> bool) l, (forall x, In x l -> p x = true) -> filter p l = l.
Proof.
  induction l as [|a l IH]; intros H; cbn; [reflexivity|]. rewrite (H a) by (left; reflexivity).
  f_equal. apply IH. intros x X. apply H. right. exact X.
Qed.
Lemma filter_none : forall A (p : A -> bool) l, (forall x, In x l -> p x = false) -> filter p l = [].
Proof.
  induction l as [|a l IH]; intros H; cbn; [reflexivity|]. rewrite (H a) by (left; reflexivity).
  apply IH. intros x X. apply H. right. exact X.
Qed.

Lemma perm_enq_rl : forall (a x y r qq : list item) it,
  Permutation a (x ++ y ++ r ++ qq) -> Permutation (a ++ [it]) (x ++ y ++ (r ++ [it]) ++ qq).
Proof.
  intros a x y r qq it P. etransitivity; [apply Permutation_app_tail; exact P|].
  rewrite <- !app_assoc. do 3 apply Permutation_app_head.
  cbn. apply Permutation_sym, Permutation_cons_append.
Qed.

Lemma perm_enq_q : forall (a x y r qq : list item) it,
  Permutation a (x ++ y ++ r ++ qq) -> Permutation (a ++ [it]) (x ++ y ++ r ++ insert it qq).
Proof.
  intros a x y r qq it P. etransitivity; [apply Permutation_app_tail; exact P|].
  rewrite <- !app_assoc. do 3 apply Permutation_app_head.
  etransitivity; [apply Permutation_sym, Permutation_cons_append|]. apply Permutation_sym, insert_perm.
Qed.

(* what run() gathers: the whole ready list and a prefix [taken] of the queue, all of it due.  Ready-list items
   carry the immediate flag and queued ones do not, so the two sources can be read off the result *)
Lemma collect_split : forall time qu rdy ready q',
  collect time qu rdy = (ready, q') ->
  (forall i, In i rdy -> it_imm i = true) -> (forall i, In i qu -> it_imm i = false) ->
  exists taken, qu = taken ++ q' /\ Permutation ready (rdy ++ taken) /\
    filter it_imm ready = rdy /\ filter timed ready = taken /\
    (forall x, In x taken -> it_due x <= time) /\ head_after time q'.
Proof.
  intros time qu rdy ready q' C D1 D2. destruct (collect_merge _ _ _ _ _ C) as (taken & EQ & M & TD & HA).
  assert (TQ : forall x, In x taken -> it_imm x = false) by (intros x X; apply D2; rewrite EQ; apply in_or_app; left; exact X).
  exists taken. split; [exact EQ|]. split; [apply merge_perm, M|]. split; [|split; [|split; [exact TD|exact HA]]].
  - rewrite (merge_filter_l _ it_imm _ _ _ M) by exact TQ. apply filter_all, D1.
  - rewrite (merge_filter_r _ timed _ _ _ M).
    + apply filter_all. intros x X. unfold timed. rewrite (TQ x X). reflexivity.
    + intros x X. unfold timed. rewrite (D1 x X). reflexivity.
Qed.

Definition item_eqb (i j : item) : bool :=
  Nat.eqb (it_uid i) (it_uid j) && Nat.eqb (it_lbl i) (it_lbl j) && Z.eqb (it_due i) (it_due j)
  && Bool.eqb (it_imm i) (it_imm j).
Lemma item_eqb_refl : forall i, item_eqb i i = true.
Proof. intros [u a d m]. unfold item_eqb. cbn. rewrite !Nat.eqb_refl, Z.eqb_refl, eqb_reflx. reflexivity. Qed.
Lemma item_eqb_eq : forall i j, item_eqb i j = true -> i = j.
Proof.
  intros [u a d m] [u' a' d' m'] H. unfold item_eqb in H. cbn in H.
  apply andb_true_iff in H. destruct H as [H H4]. apply andb_true_iff in H. destruct H as [H H3].
  apply andb_true_iff in H. destruct H as [H1 H2].
  apply Nat.eqb_eq in H1, H2. apply Z.eqb_eq in H3. apply eqb_prop in H4. subst. reflexivity.
Qed.

(* events made by the code of a call (never by the loop itself) *)
Definition callish (e : ev) : bool :=
  match e with
  | ECall _ _ | EPass _ | EAcc _ | ERet _ | ERaise _ | ECancelRet _ | EDisposeRet | ESpawn _ => true
  | _ => false
  end.

Lemma opstep_callish : forall ntid s cur todo s' cur' todo' out sp,
  opstep ntid s cur todo s' cur' todo' out sp -> forallb callish out = true.
Proof. destruct 1; reflexivity. Qed.
Lemma callish_in : forall out e, forallb callish out = true -> In e out -> callish e = true.
Proof. intros out e H I. rewrite forallb_forall in H. apply H, I. Qed.

(* scanner 1: actions never overlap.  State: the action that is running; result None = failure *)
Fixpoint ser (o : option item) (l : list ev) : option (option item) :=
  match l with
  | [] => Some o
  | EStart i :: r => match o with None => ser (Some i) r | Some _ => None end
  | EEnd i :: r => match o with Some j => if item_eqb i j then ser None r else None | None => None end
  | _ :: r => ser o r
  end.

Lemma ser_app : forall a b o, ser o (a ++ b) = match ser o a with Some o' => ser o' b | None => None end.
Proof.
  induction a as [|e a IH]; intros b o; [reflexivity|]. destruct e; cbn; try apply IH.
  - destruct o; [reflexivity|apply IH].
  - destruct o as [j|]; [|reflexivity]. destruct (item_eqb it j); [apply IH|reflexivity].
Qed.

Lemma ser_callish : forall l o, forallb callish l = true -> ser o l = Some o.
Proof.
  induction l as [|e l IH]; intros o H; [reflexivity|]. cbn in H. apply andb_true_iff in H. destruct H as [H1 H2].
  destruct e; try discriminate H1; cbn; apply IH; exact H2.
Qed.

(* scanner 2: an action starts only with its own is_cancelled() -> False pending.  State: the item that passed the
   test and has not started yet; while there is one, no other item passes a test or starts (ends and tests
   that return True are skipped: only [win] of Core/EventLoopBatch.v forbids them in between) *)
Fixpoint pick (o : option item) (l : list ev) : option (option item) :=
  match l with
  | [] => Some o
  | ECheck i false :: r => match o with None => pick (Some i) r | Some _ => None end
  | EStart i :: r => match o with Some j => if item_eqb i j then pick None r else None | None => None end
  | _ :: r => pick o r
  end.

Lemma pick_app : forall a b o, pick o (a ++ b) = match pick o a with Some o' => pick o' b | None => None end.
Proof.
  induction a as [|e a IH]; intros b o; [reflexivity|]. destruct e; cbn; try apply IH.
  - destruct c; [apply IH|]. destruct o; [reflexivity|apply IH].
  - destruct o as [j|]; [|reflexivity]. destruct (item_eqb it j); [apply IH|reflexivity].
Qed.

Lemma pick_callish : forall l o, forallb callish l = true -> pick o l = Some o.
Proof.
  induction l as [|e l IH]; intros o H; [reflexivity|]. cbn in H. apply andb_true_iff in H. destruct H as [H1 H2].
  destruct e; try discriminate H1; cbn; apply IH; exact H2.
Qed.

(* scanner 3: no is_cancelled() -> False after the item's disposable was disposed *)
Fixpoint seen_after (seen : list nat) (l : list ev) : list nat :=
  match l with
  | [] => seen
  | ECancelRet a :: r => seen_after (a :: seen) r
  | _ :: r => seen_after seen r
  end.

Fixpoint cancel_ok (seen : list nat) (l : list ev) : bool :=
  match l with
  | [] => true
  | ECancelRet a :: r => cancel_ok (a :: seen) r
  | ECheck i false :: r => negb (mem (it_lbl i) seen) && cancel_ok seen r
  | _ :: r => cancel_ok seen r
  end.

Lemma seen_after_app : forall a b seen, seen_after seen (a ++ b) = seen_after (seen_after seen a) b.
Proof. induction a as [|e a IH]; intros b seen; [reflexivity|]. destruct e; cbn; apply IH. Qed.

Lemma cancel_ok_app : forall a b seen,
  cancel_ok seen (a ++ b) = cancel_ok seen a && cancel_ok (seen_after seen a) b.
Proof.
  induction a as [|e a IH]; intros b seen; [reflexivity|]. destruct e; cbn; try apply IH.
  destruct c; [apply IH|]. rewrite IH. rewrite andb_assoc. reflexivity.
Qed.

Lemma cancel_ok_callish : forall l seen, forallb callish l = true -> cancel_ok seen l = true.
Proof.
  induction l as [|e l IH]; intros seen H; [reflexivity|]. cbn in H. apply andb_true_iff in H. destruct H as [H1 H2].
  destruct e; try discriminate H1; cbn; apply IH; exact H2.
Qed.

Lemma mem_seen_after : forall l seen a, mem a seen = true \/ In (ECancelRet a) l -> mem a (seen_after seen l) = true.
Proof.
  induction l as [|e l IH]; intros seen a H; cbn.
  - destruct H as [H|[]]. exact H.
  - destruct e; try (apply IH; destruct H as [H|[H|H]]; [left; exact H|discriminate H|right; exact H]).
    apply IH. destruct H as [H|[H|H]].
    + left. cbn. rewrite H. apply orb_true_r.
    + inv H. left. cbn. rewrite Nat.eqb_refl. reflexivity.
    + right. exact H.
Qed.

Lemma cancel_ok_spec : forall l1 i l2 seen,
  cancel_ok seen (l1 ++ ECheck i false :: l2) = true -> ~ In (ECancelRet (it_lbl i)) l1.
Proof.
  intros l1 i l2 seen H I. rewrite cancel_ok_app in H. apply andb_true_iff in H. destruct H as [_ H].
  cbn in H. apply andb_true_iff in H. destruct H as [H _].
  rewrite (mem_seen_after l1 seen (it_lbl i)) in H by (right; exact I). discriminate H.
Qed.

Lemma pick_spec : forall l1 i l2 o r,
  pick o (l1 ++ EStart i :: l2) = Some r -> o = Some i \/ In (ECheck i false) l1.
Proof.
  induction l1 as [|e l1 IH]; intros i l2 o r H.
  - cbn in H. destruct o as [j|]; [|discriminate H]. destruct (item_eqb i j) eqn:E; [|discriminate H].
    apply item_eqb_eq in E. subst. left. reflexivity.
  - cbn [app] in H. destruct e; cbn in H; try (destruct (IH _ _ _ _ H) as [X|X]; [left; exact X|right; right; exact X]).
    + destruct c.
      * destruct (IH _ _ _ _ H) as [X|X]; [left; exact X|right; right; exact X].
      * destruct o; [discriminate H|]. destruct (IH _ _ _ _ H) as [X|X]; [inv X; right; left; reflexivity|right; right; exact X].
    + destruct o as [j|]; [|discriminate H]. destruct (item_eqb it j); [|discriminate H].
      destruct (IH _ _ _ _ H) as [X|X]; [discriminate X|right; right; exact X].
Qed.

Lemma ser_spec : forall l1 i l2 r,
  ser None (l1 ++ EStart i :: l2) = Some r -> ser None l1 = Some None.
Proof.
  intros l1 i l2 r H. rewrite ser_app in H. destruct (ser None l1) as [[j|]|]; [|reflexivity|discriminate H].
  cbn in H. discriminate H.
Qed.

(* at the end of a log accepted with nothing open: every start has its end, every passed test its start;
   stated with the open item so that one induction does *)
Lemma ser_closed : forall l o i, ser o l = Some None -> o = Some i \/ In (EStart i) l -> In (EEnd i) l.
Proof.
  induction l as [|e l IH]; intros o i H I; [destruct I as [->|[]]; discriminate H|].
  destruct e; cbn in H;
    try (right; apply (IH o i H); destruct I as [I|[I|I]]; [left; exact I|discriminate I|right; exact I]).
  - destruct o; [discriminate H|]. right. apply (IH _ i H).
    destruct I as [I|[I|I]]; [discriminate I|inv I; left; reflexivity|right; exact I].
  - destruct o as [j|]; [|discriminate H]. destruct (item_eqb it j) eqn:E; [|discriminate H].
    apply item_eqb_eq in E. subst j.
    destruct I as [I|[I|I]]; [inv I; left; reflexivity|discriminate I|right; apply (IH None i H); right; exact I].
Qed.

Lemma pick_closed : forall l o i, pick o l = Some None -> o = Some i \/ In (ECheck i false) l -> In (EStart i) l.
Proof.
  induction l as [|e l IH]; intros o i H I; [destruct I as [->|[]]; discriminate H|].
  destruct e; cbn in H;
    try (right; apply (IH o i H); destruct I as [I|[I|I]]; [left; exact I|discriminate I|right; exact I]).
  - destruct c; [right; apply (IH o i H); destruct I as [I|[I|I]]; [left; exact I|discriminate I|right; exact I]|].
    destruct o; [discriminate H|]. right. apply (IH _ i H).
    destruct I as [I|[I|I]]; [discriminate I|inv I; left; reflexivity|right; exact I].
  - destruct o as [j|]; [|discriminate H]. destruct (item_eqb it j) eqn:E; [|discriminate H].
    apply item_eqb_eq in E. subst j.
    destruct I as [I|[I|I]]; [inv I; left; reflexivity|discriminate I|right; apply (IH None i H); right; exact I].
Qed.

(* the item whose action the thread is running / the item that passed its test and is about to be invoked *)
Definition tbody (st : tstate) : option item :=
  match st with TLoop (LBody i _ _ _) => Some i | _ => None end.
Definition tinv (st : tstate) : option item :=
  match st with TLoop (LInvoke i _) => Some i | _ => None end.

Lemma tbody_next : forall r, tbody (TLoop (next_phase r)) = None.
Proof. destruct r; reflexivity. Qed.
Lemma tinv_next : forall r, tinv (TLoop (next_phase r)) = None.
Proof. destruct r; reflexivity. Qed.

Lemma opstep_seen : forall ntid s cur todo s' cur' todo' out sp,
  opstep ntid s cur todo s' cur' todo' out sp -> seen_after (cancelled s) out = cancelled s'.
Proof. destruct 1; reflexivity. Qed.

Definition is_spawn (e : ev) : bool := match e with ESpawn _ => true | _ => false end.
Definition nspawn (l : list ev) : nat := length (filter is_spawn l).

Lemma nspawn_app : forall a b, nspawn (a ++ b) = (nspawn a + nspawn b)%nat.
Proof. intros. unfold nspawn. rewrite filter_app, app_length. reflexivity. Qed.

Lemma opstep_spawn : forall ntid s cur todo s' cur' todo' out sp,
  opstep ntid s cur todo s' cur' todo' out sp ->
  nspawn out = (if sp then 1 else 0)%nat /\ (sp = true -> In (ESpawn ntid) out /\ thr s = None) /\
  (thr s' = None -> thr s = None /\ sp = false).
Proof. destruct 1; cbn; repeat split; auto; discriminate. Qed.

Lemma loopstep_spawn : forall eie body me ntid s ph s' ph' out sp,
  loopstep eie body me ntid s ph s' ph' out sp ->
  nspawn out = (if sp then 1 else 0)%nat /\ (sp = true -> In (ESpawn ntid) out /\ thr s = None) /\
  (eie = false -> thr s' = None -> thr s = None /\ sp = false).
Proof.
  destruct 1; try (cbn; repeat split; auto; congruence).
  destruct (opstep_spawn _ _ _ _ _ _ _ _ _ H) as (X & Y & Z). auto.
Qed.

Lemma loopstep_invoke : forall eie body me ntid s ph s' ph' out sp,
  loopstep eie body me ntid s ph s' ph' out sp ->
  (forall i, tinv (TLoop ph') = Some i -> exists r, tpend (TLoop ph) = i :: r) /\
  (forall i, In (EStart i) out -> tinv (TLoop ph) = Some i).
Proof.
  destruct 1; rewrite ?tinv_next; cbn; split; intros j X; try discriminate X; try (intuition discriminate).
  - inv X. eauto.
  - destruct X as [X|[]]. inv X. reflexivity.
  - discriminate (callish_in _ _ (opstep_callish _ _ _ _ _ _ _ _ _ H) X).
Qed.

Lemma nspawn_one : forall l a b, (nspawn l <= 1)%nat -> In (ESpawn a) l -> In (ESpawn b) l -> a = b.
Proof.
  intros l a b H A B. unfold nspawn in H.
  assert (A' : In (ESpawn a) (filter is_spawn l)) by (apply filter_In; auto).
  assert (B' : In (ESpawn b) (filter is_spawn l)) by (apply filter_In; auto).
  destruct (filter is_spawn l) as [|x [|y t]]; cbn in H; [destruct A'| |lia].
  destruct A' as [->|[]], B' as [E|[]]. injection E as ->. reflexivity.
Qed.

Definition uids_opst (cur : option opst) : list nat :=
  match cur with Some (PS1 u _ _) | Some (PS2 u _ _) => [u] | None => [] end.
Definition topst (st : tstate) : list nat :=
  match st with TSched cur _ => uids_opst cur | TLoop (LBody _ cur _ _) => uids_opst cur | _ => [] end.
Definition ps2_of (cur : option opst) : option nat :=
  match cur with Some (PS2 u _ _) => Some u | _ => None end.
Definition tps2 (st : tstate) : option nat :=
  match st with TSched cur _ => ps2_of cur | TLoop (LBody _ cur _ _) => ps2_of cur | _ => None end.

Lemma accs_in : forall l i, In i (accs l) <-> In (EAcc i) l.
Proof.
  induction l as [|e l IH]; intros i; [split; intros []|].
  destruct e; cbn [accs]; try (rewrite IH; split; [intros H; right; exact H|intros [H|H]; [discriminate H|exact H]]).
  split.
  - intros [H|H]; [subst; left; reflexivity|right; apply IH; exact H].
  - intros [H|H]; [inv H; left; reflexivity|right; apply IH; exact H].
Qed.
Lemma checks_in : forall l i, In i (checks l) <-> exists b, In (ECheck i b) l.
Proof.
  induction l as [|e l IH]; intros i; [split; [intros []|intros [b []]]|].
  destruct e; cbn [checks];
    try (rewrite IH; split; [intros [b H]; exists b; right; exact H|intros [b [H|H]]; [discriminate H|exists b; exact H]]).
  split.
  - intros [H|H]; [subst; exists c; left; reflexivity|]. apply IH in H. destruct H as [b H]. exists b. right. exact H.
  - intros [b [H|H]]; [inv H; left; reflexivity|right; apply IH; exists b; exact H].
Qed.

Lemma opstep_uids : forall ntid s cur todo s' cur' todo' out sp,
  opstep ntid s cur todo s' cur' todo' out sp ->
  (nuid s <= nuid s')%nat /\
  (forall u, In u (uids_opst cur') -> (In u (uids_opst cur) \/ (u < nuid s')%nat)) /\
  (forall u a, In (ECall u a) out -> u = nuid s /\ (u < nuid s')%nat) /\
  (forall u, In (EPass u) out -> ps2_of cur' = Some u /\ (In u (uids_opst cur) \/ (u < nuid s')%nat)) /\
  (forall u, ps2_of cur' = Some u -> In (EPass u) out) /\
  (forall i, In (EAcc i) out -> ps2_of cur = Some (it_uid i)) /\
  (disposed s = true -> disposed s' = true /\ forall u, ~ In (EPass u) out) /\
  (In EDisposeRet out -> disposed s' = true).
Proof.
  (* every constructor gives [out] as a literal list: each membership is split into its events, the rest is
     equations between constructors and arithmetic on nuid *)
  destruct 1; cbn; unfold not; repeat split; intros; in_literal;
    try discriminate; try congruence; try lia;
    try (match goal with X : _ = _ |- _ => injection X as <- end || match goal with X : _ = _ |- _ => injection X as <- <- end);
    cbn; auto; try lia.
Qed.

(* the call a thread is in: the one in progress and those still to make *)
Definition tcall (st : tstate) : option opst * list op :=
  match st with
  | TSched cur todo | TLoop (LBody _ cur todo _) => (cur, todo)
  | _ => (None, [])
  end.

Lemma tcall_next : forall r, tcall (TLoop (next_phase r)) = (None, []).
Proof. destruct r; reflexivity. Qed.

Lemma topst_tcall : forall st, topst st = uids_opst (fst (tcall st)).
Proof. destruct st as [|[]]; reflexivity. Qed.
Lemma tps2_tcall : forall st, tps2 st = ps2_of (fst (tcall st)).
Proof. destruct st as [|[]]; reflexivity. Qed.

(* the part of the wake-up invariant that speaks of the shared state alone *)
Definition wake_ok (s : shared) : Prop :=
  (forall w, wt s = Some w -> w_notified w = false ->
     rl s = [] /\ forall i, In i (q s) -> exists d, w_deadline w = Some d /\ d <= it_due i) /\
  (thr s = None -> rl s = [] /\ q s = []).

(* a call step that enqueues notifies and leaves a thread; any other leaves the queues alone *)
Lemma opstep_wake_ok : forall ntid s cur todo s' cur' todo' out sp,
  opstep ntid s cur todo s' cur' todo' out sp -> wake_ok s -> wake_ok s'.
Proof.
  intros ntid s cur todo s' cur' todo' out sp O [HA HB].
  destruct (opstep_enq _ _ _ _ _ _ _ _ _ O) as (EQ & _).
  pose proof (opstep_thr _ _ _ _ _ _ _ _ _ O) as T. pose proof (opstep_wt _ _ _ _ _ _ _ _ _ O) as W.
  assert (QS : (rl s' = rl s /\ q s' = q s) \/ (wt s' = notify (wt s) /\ thr s' <> None)) by (destruct EQ; auto).
  split.
  - intros w E NN. destruct QS as [[R Q]|[W' _]]; [destruct W as [W'|W']|]; rewrite W' in E;
      try (rewrite (notify_notified _ _ E) in NN; discriminate NN).
    rewrite R, Q. apply HA; assumption.
  - intros E. destruct QS as [[R Q]|[_ TN]]; [|contradiction]. rewrite R, Q.
    destruct T as [[-> T]|[-> [T0 T]]]; [|congruence]. rewrite T in E. apply HB, E.
Qed.

(* the loop waits with the due time of the head of the sorted queue as its timeout, or for ever on empty queues *)
Lemma loopstep_wake_ok : forall eie body me ntid s ph s' ph' out sp,
  loopstep eie body me ntid s ph s' ph' out sp -> StronglySorted le_due (q s) -> wake_ok s -> wake_ok s'.
Proof.
  intros eie body me ntid s ph s' ph' out sp LS SQ [HA HB].
  destruct LS; try (split; assumption); try (eapply opstep_wake_ok; [eassumption|split; assumption]);
    unfold wake_ok, set_q; cbn [rl q wt thr].
  - destruct (collect_merge _ _ _ _ _ H0) as [taken [EQ _]]. split.
    + intros w E NN. destruct (HA w E NN) as [_ X]. split; [reflexivity|]. intros i I. apply X. rewrite EQ.
      apply in_or_app. right. exact I.
    + intros E. destruct (HB E) as [_ Q0]. rewrite Q0 in EQ. symmetry in EQ. apply app_eq_nil in EQ.
      split; [reflexivity|apply EQ].
  - split; [|exact HB]. intros w E NN. inv E. split; [assumption|]. intros i I.
    exists (it_due x). split; [reflexivity|]. rewrite H0 in SQ, I. apply (sorted_head_le _ _ _ SQ I).
  - split; [exact HA|auto].
  - split; [|exact HB]. intros w E NN. inv E. split; [assumption|]. intros i I. rewrite H0 in I. destruct I.
  - split; [discriminate|exact HB].
Qed.

Lemma loopstep_exit : forall eie body me ntid s ph s' ph' out sp,
  loopstep eie body me ntid s ph s' ph' out sp -> ph' = LExited -> disposed s' = true \/ thr s' = None.
Proof. destruct 1; cbn; intros X; auto; try discriminate X; exfalso; revert X; apply next_phase_live. Qed.

Section Invariants.
Variable eie : bool.
Variable body : nat -> list op.
Notation tstep := (tstep eie body).
Notation mstep := (mstep eie body).
Notation run := (run eie body).

Inductive cstep (c : config) (tid : nat) : config -> Prop :=
| CS_sched : forall cur todo s' cur' todo' out sp,
    nth_error (c_ths c) tid = Some (TSched cur todo) ->
    opstep (length (c_ths c)) (c_sh c) cur todo s' cur' todo' out sp ->
    cstep c tid (Config s' (upd tid (TSched cur' todo') (c_ths c) ++ (if sp then [TLoop LNew] else []))
                        (c_log c ++ stamp tid (clock (c_sh c)) out))
| CS_loop : forall ph s' ph' out sp,
    nth_error (c_ths c) tid = Some (TLoop ph) ->
    loopstep eie body tid (length (c_ths c)) (c_sh c) ph s' ph' out sp ->
    cstep c tid (Config s' (upd tid (TLoop ph') (c_ths c) ++ (if sp then [TLoop LNew] else []))
                        (c_log c ++ stamp tid (clock (c_sh c)) out)).

Lemma tstep_spec : forall c tid, tstep c tid = c \/ cstep c tid (tstep c tid).
Proof.
  intros c tid. unfold EventLoop.tstep.
  destruct (nth_error (c_ths c) tid) as [[cur todo|ph]|] eqn:N; [| |left; reflexivity].
  - destruct (op_step (length (c_ths c)) (c_sh c) cur todo) as [[[[[s' cur'] todo'] out] sp]|] eqn:O;
      [|left; reflexivity].
    right. eapply CS_sched; [exact N|]. apply op_step_spec. exact O.
  - destruct (loop_step eie body tid (length (c_ths c)) (c_sh c) ph) as [[[[s' ph'] out] sp]|] eqn:O;
      [|left; reflexivity].
    right. eapply CS_loop; [exact N|]. apply loop_step_spec. exact O.
Qed.

Lemma run_nil : forall c, run c [] = c.
Proof. reflexivity. Qed.
Lemma run_cons : forall c m s, run c (m :: s) = run (mstep c m) s.
Proof. reflexivity. Qed.
Lemma run_app : forall a b c, run c (a ++ b) = run (run c a) b.
Proof. intros. unfold EventLoop.run. apply fold_left_app. Qed.

Lemma run_invariant : forall P : config -> Prop,
  (forall c tid c', P c -> cstep c tid c' -> P c') ->
  (forall c d, P c -> P (tick c d)) ->
  forall sched c, P c -> P (run c sched).
Proof.
  intros P Hs Ht. induction sched as [|m s IH]; intros c H; [exact H|].
  rewrite run_cons. apply IH. destruct m as [tid|d]; cbn [EventLoop.mstep].
  - destruct (tstep_spec c tid) as [E|E]; [rewrite E; exact H|]. eapply Hs; eassumption.
  - apply Ht. exact H.
Qed.

(* an invariant that may use another, already established one *)
Lemma run_invariant2 : forall P Q : config -> Prop,
  (forall sched c, Q c -> Q (run c sched)) ->
  (forall c tid c', Q c -> P c -> cstep c tid c' -> P c') ->
  (forall c d, Q c -> P c -> P (tick c d)) ->
  forall sched c, Q c -> P c -> P (run c sched).
Proof.
  intros P Q HQ Hs Ht. induction sched as [|m s IH]; intros c Hq H; [exact H|].
  rewrite run_cons. pose proof (HQ [m] c Hq) as Hq'. change (Q (mstep c m)) in Hq'. apply IH; [exact Hq'|].
  destruct m as [tid|d]; cbn [EventLoop.mstep].
  - destruct (tstep_spec c tid) as [E|E]; [rewrite E; exact H|]. exact (Hs c tid _ Hq H E).
  - apply Ht; assumption.
Qed.

Definition invA (c : config) : Prop :=
  (forall t, thr (c_sh c) = Some t -> exists ph, nth_error (c_ths c) t = Some (TLoop ph)) /\
  (forall t ph, nth_error (c_ths c) t = Some (TLoop ph) -> ph <> LExited -> thr (c_sh c) = Some t) /\
  (forall w, wt (c_sh c) = Some w -> nth_error (c_ths c) (w_tid w) = Some (TLoop LWaiting)) /\
  (forall t, nth_error (c_ths c) t = Some (TLoop LWaiting) -> exists w, wt (c_sh c) = Some w /\ w_tid w = t).

Lemma invA_init : forall t0 progs, invA (init t0 progs).
Proof.
  intros t0 progs. unfold invA, init. cbn [c_sh c_ths sh0 thr wt]. repeat split; try discriminate.
  - intros t ph H. apply nth_error_In in H. apply in_map_iff in H. destruct H as [p [E _]]. discriminate E.
  - intros t H. apply nth_error_In in H. apply in_map_iff in H. destruct H as [p [E _]]. discriminate E.
Qed.

Lemma loopstep_thr : forall tid ntid s ph s' ph' out sp,
  loopstep eie body tid ntid s ph s' ph' out sp -> thr s = Some tid ->
  sp = false /\ (thr s' = Some tid \/ (thr s' = None /\ ph' = LExited)).
Proof.
  intros tid ntid s ph s' ph' out sp LS T. destruct LS; cbn; auto.
  destruct (opstep_thr _ _ _ _ _ _ _ _ _ H) as [[-> T']|[_ [T0 _]]]; [rewrite T'; auto|congruence].
Qed.

Lemma loopstep_wt : forall tid ntid s ph s' ph' out sp,
  loopstep eie body tid ntid s ph s' ph' out sp -> (ph <> LWaiting -> wt s = None) ->
  (ph' = LWaiting /\ exists d, wt s' = Some (Wait tid d false)) \/ (ph' <> LWaiting /\ wt s' = None).
Proof.
  intros tid ntid s ph s' ph' out sp LS NW.
  destruct LS; try (left; cbn; eauto; fail); right; cbn;
    try (split; [first [discriminate|apply next_phase_live]|apply NW; discriminate]).
  - split; [discriminate|]. destruct (opstep_wt _ _ _ _ _ _ _ _ _ H) as [W|W]; rewrite W, NW; auto; discriminate.
  - split; [discriminate|reflexivity].
Qed.

Lemma stepping_loop_is_thr : forall c tid ntid ph s' ph' out sp,
  invA c -> nth_error (c_ths c) tid = Some (TLoop ph) -> loopstep eie body tid ntid (c_sh c) ph s' ph' out sp ->
  thr (c_sh c) = Some tid.
Proof. intros c tid ntid ph s' ph' out sp [_ [A2 _]] N LS. eapply A2; [exact N|]. destruct LS; discriminate. Qed.

Lemma no_waiter_while_running : forall c tid ph,
  invA c -> nth_error (c_ths c) tid = Some (TLoop ph) -> thr (c_sh c) = Some tid -> ph <> LWaiting ->
  wt (c_sh c) = None.
Proof.
  intros c tid ph [_ [A2 [A3 _]]] N T P. destruct (wt (c_sh c)) as [w|] eqn:W; [exfalso|reflexivity].
  specialize (A3 w eq_refl). assert (T' : thr (c_sh c) = Some (w_tid w)) by (eapply A2; [exact A3|discriminate]).
  rewrite T in T'. inv T'. congruence.
Qed.

Lemma invA_step : forall c tid c', invA c -> cstep c tid c' -> invA c'.
Proof.
  intros c tid c' A S. pose proof A as [A1 [A2 [A3 A4]]].
  destruct S as [cur todo s' cur' todo' out sp N O|ph s' ph' out sp N LS].
  - pose proof (opstep_thr _ _ _ _ _ _ _ _ _ O) as T. pose proof (opstep_wt _ _ _ _ _ _ _ _ _ O) as W.
    assert (OLD : forall t ph, nth_error (c_ths c) t = Some (TLoop ph) ->
              nth_error (upd tid (TSched cur' todo') (c_ths c) ++ (if sp then [TLoop LNew] else [])) t = Some (TLoop ph))
      by (intros t ph E; apply nth_step_old; [congruence|exact E]).
    unfold invA. cbn [c_sh c_ths]. repeat split.
    + intros t E. destruct T as [[-> T]|[-> [T0 T]]]; rewrite T in E.
      * destruct (A1 t E) as [ph P]. exists ph. apply OLD, P.
      * inv E. exists LNew. apply nth_step_new.
    + intros t ph E LV. destruct (nth_after _ _ _ _ _ _ _ N E) as [[_ X]|[[NE E']|(SP & -> & _)]]; [discriminate X| |].
      * specialize (A2 t ph E' LV). destruct T as [[-> T]|[-> [T0 T]]]; congruence.
      * destruct T as [[-> T]|[_ [_ T]]]; [discriminate SP|exact T].
    + eapply wt_cases_preserved; [exact W|exact A3|]. intros t E. apply OLD, E.
    + intros t E. eapply wt_cases_conv; [exact W|]. apply A4.
      destruct (nth_after _ _ _ _ _ _ _ N E) as [[_ X]|[[_ E']|(_ & _ & X)]]; [discriminate X|exact E'|discriminate X].
  - (* a loop thread: it is the scheduler's thread, the only live one, and the only possible waiter *)
    pose proof (stepping_loop_is_thr _ _ _ _ _ _ _ _ A N LS) as THR.
    assert (OTHER : forall t ph0, t <> tid -> nth_error (c_ths c) t = Some (TLoop ph0) -> ph0 = LExited).
    { intros t ph0 NE E. destruct ph0; try reflexivity; exfalso; apply NE;
        (assert (X : thr (c_sh c) = Some t) by (eapply A2; [exact E|discriminate])); congruence. }
    pose proof (no_waiter_while_running _ _ _ A N THR) as NW.
    destruct (loopstep_thr _ _ _ _ _ _ _ _ LS THR) as [-> T]. pose proof (loopstep_wt _ _ _ _ _ _ _ _ LS NW) as W.
    unfold invA. cbn [c_sh c_ths]. repeat split.
    + intros t E. destruct T as [T|[T _]]; rewrite T in E; inv E. exists ph'. eapply nth_step_same, N.
    + intros t ph0 E LV. destruct (nth_after _ _ _ false _ _ _ N E) as [[-> X]|[[NE E']|(X & _)]];
        [|elim LV; eapply OTHER; eassumption|discriminate X].
      inv X. destruct T as [T|[_ T]]; congruence.
    + intros w E. destruct W as [[-> [d W]]|[_ W]]; rewrite W in E; inv E. eapply nth_step_same, N.
    + intros t E. destruct (nth_after _ _ _ false _ _ _ N E) as [[-> X]|[[NE E']|(X & _)]];
        [|discriminate (OTHER _ _ NE E')|discriminate X].
      inv X. destruct W as [[_ [d W]]|[P _]]; [|congruence]. rewrite W. eexists. split; reflexivity.
Qed.

Lemma invA_tick : forall c d, invA c -> invA (tick c d).
Proof. intros c d H. exact H. Qed.

Lemma invA_run : forall sched c, invA c -> invA (run c sched).
Proof. intros. apply run_invariant; auto using invA_tick. intros; eapply invA_step; eassumption. Qed.

(* the effect of one step of any thread on queues, pending items and the log: the three of [enq_eff], and the two
   steps of the loop that change the pending items -- collect fills them from empty, a test pops their head *)
Inductive deff (c c' : config) (out : list ev) : Prop :=
| DE_none :
    rl (c_sh c') = rl (c_sh c) -> q (c_sh c') = q (c_sh c) -> inflight c' = inflight c ->
    accs out = [] -> checks out = [] -> deff c c' out
| DE_imm : forall it,
    rl (c_sh c') = rl (c_sh c) ++ [it] -> q (c_sh c') = q (c_sh c) -> inflight c' = inflight c ->
    accs out = [it] -> checks out = [] -> wt (c_sh c') = notify (wt (c_sh c)) ->
    it_imm it = true -> it_due it <= clock (c_sh c) -> deff c c' out
| DE_timed : forall it,
    rl (c_sh c') = rl (c_sh c) -> q (c_sh c') = insert it (q (c_sh c)) -> inflight c' = inflight c ->
    accs out = [it] -> checks out = [] -> wt (c_sh c') = notify (wt (c_sh c)) ->
    it_imm it = false -> clock (c_sh c) < it_due it -> deff c c' out
| DE_collect : forall ready q',
    disposed (c_sh c) = false ->
    collect (clock (c_sh c)) (q (c_sh c)) (rl (c_sh c)) = (ready, q') ->
    rl (c_sh c') = [] -> q (c_sh c') = q' -> inflight c = [] -> inflight c' = ready ->
    accs out = [] -> checks out = [] -> wt (c_sh c') = wt (c_sh c) -> deff c c' out
| DE_check : forall i r b,
    rl (c_sh c') = rl (c_sh c) -> q (c_sh c') = q (c_sh c) -> inflight c = i :: r -> inflight c' = r ->
    accs out = [] -> out = [ECheck i b] -> wt (c_sh c') = wt (c_sh c) -> deff c c' out.

Lemma at_thr_sched : forall X (f : tstate -> X) d c tid cur todo s' cur' todo' out sp,
  f (TLoop LNew) = d ->
  invA c -> nth_error (c_ths c) tid = Some (TSched cur todo) ->
  opstep (length (c_ths c)) (c_sh c) cur todo s' cur' todo' out sp ->
  at_thr f d (Config s' (upd tid (TSched cur' todo') (c_ths c) ++ (if sp then [TLoop LNew] else []))
                     (c_log c ++ stamp tid (clock (c_sh c)) out)) = at_thr f d c.
Proof.
  intros X f d c tid cur todo s' cur' todo' out sp FN [A1 _] N O. unfold at_thr. cbn [c_sh c_ths].
  destruct (opstep_thr _ _ _ _ _ _ _ _ _ O) as [[-> T]|[-> [T0 T]]]; rewrite T.
  - destruct (thr (c_sh c)) as [t|] eqn:E; [|reflexivity]. destruct (A1 t eq_refl) as [ph P].
    rewrite P. erewrite nth_step_old; [reflexivity| |exact P]. intros ->. congruence.
  - rewrite T0. rewrite nth_error_app2 by (rewrite upd_length; lia). rewrite upd_length, Nat.sub_diag. exact FN.
Qed.

Lemma at_thr_loop : forall X (f : tstate -> X) d c tid ph s' ph' out sp,
  f (TLoop LExited) = d ->
  invA c -> nth_error (c_ths c) tid = Some (TLoop ph) ->
  loopstep eie body tid (length (c_ths c)) (c_sh c) ph s' ph' out sp ->
  thr (c_sh c) = Some tid /\ at_thr f d c = f (TLoop ph) /\
  at_thr f d (Config s' (upd tid (TLoop ph') (c_ths c) ++ (if sp then [TLoop LNew] else []))
                     (c_log c ++ stamp tid (clock (c_sh c)) out)) = f (TLoop ph').
Proof.
  intros X f d c tid ph s' ph' out sp FE A N LS.
  pose proof (stepping_loop_is_thr _ _ _ _ _ _ _ _ A N LS) as T. split; [exact T|]. split; [unfold at_thr; rewrite T, N; reflexivity|].
  unfold at_thr. cbn [c_sh c_ths].
  destruct (loopstep_thr _ _ _ _ _ _ _ _ LS T) as [-> [T'|[T' ->]]]; rewrite T'; [|symmetry; exact FE].
  erewrite nth_step_same by exact N. reflexivity.
Qed.

Lemma inflight_sched : forall c tid cur todo s' cur' todo' out sp,
  invA c -> nth_error (c_ths c) tid = Some (TSched cur todo) ->
  opstep (length (c_ths c)) (c_sh c) cur todo s' cur' todo' out sp ->
  inflight (Config s' (upd tid (TSched cur' todo') (c_ths c) ++ (if sp then [TLoop LNew] else []))
                   (c_log c ++ stamp tid (clock (c_sh c)) out)) = inflight c.
Proof. intros. eapply at_thr_sched; eauto. Qed.

Lemma inflight_loop : forall c tid ph s' ph' out sp,
  invA c -> nth_error (c_ths c) tid = Some (TLoop ph) ->
  loopstep eie body tid (length (c_ths c)) (c_sh c) ph s' ph' out sp ->
  inflight c = tpend (TLoop ph) /\
  inflight (Config s' (upd tid (TLoop ph') (c_ths c) ++ (if sp then [TLoop LNew] else []))
                   (c_log c ++ stamp tid (clock (c_sh c)) out)) = tpend (TLoop ph').
Proof. intros. eapply (at_thr_loop _ tpend []); eauto. Qed.

Lemma cstep_deff : forall c tid c', invA c -> cstep c tid c' ->
  exists out, c_log c' = c_log c ++ stamp tid (clock (c_sh c)) out /\
              clock (c_sh c') = clock (c_sh c) /\ deff c c' out.
Proof.
  intros c tid c' A S. destruct S as [cur todo s' cur' todo' out sp N O|ph s' ph' out sp N LS]; exists out; cbn [c_log c_sh].
  - split; [reflexivity|]. pose proof (inflight_sched _ _ _ _ _ _ _ _ _ A N O) as I.
    destruct (opstep_enq _ _ _ _ _ _ _ _ _ O) as [E [C [K _]]]. split; [exact K|].
    destruct E; [apply DE_none|eapply DE_imm|eapply DE_timed]; eauto.
  - split; [reflexivity|]. destruct (inflight_loop _ _ _ _ _ _ _ A N LS) as [I1 I2].
    destruct LS; try rewrite tpend_next in *; cbn [tpend] in *;
      try (split; [reflexivity|]; apply DE_none; unfold set_q in *; cbn [c_sh rl q wt clock accs checks]; auto; congruence).
    + split; [reflexivity|]. eapply DE_collect; eauto.
    + split; [reflexivity|]. eapply DE_check; eauto.
    + split; [reflexivity|]. eapply DE_check; eauto.
    + destruct (opstep_enq _ _ _ _ _ _ _ _ _ H) as [E [C [K _]]]. split; [exact K|].
      destruct E; [apply DE_none|eapply DE_imm|eapply DE_timed]; eauto; congruence.
Qed.

(* in order: flags of the ready list / of the queue; FIFO of immediate items; conservation; the queue is sorted;
   [lct], the clock reading of the last collect, separates what was dispatched (timed items tested or pending:
   due <= lct, in due order) from what is queued (lct < due); what is ready / pending is due *)
Definition invD (c : config) : Prop :=
  (forall i, In i (rl (c_sh c)) -> it_imm i = true) /\
  (forall i, In i (q (c_sh c)) -> it_imm i = false) /\
  filter it_imm (accs (L c)) = filter it_imm (checks (L c)) ++ filter it_imm (inflight c) ++ rl (c_sh c) /\
  Permutation (accs (L c)) (checks (L c) ++ inflight c ++ rl (c_sh c) ++ q (c_sh c)) /\
  StronglySorted le_due (q (c_sh c)) /\
  (exists lct, lct <= clock (c_sh c) /\
     (forall i, In i (q (c_sh c)) -> lct < it_due i) /\
     (forall i, In i (filter timed (checks (L c) ++ inflight c)) -> it_due i <= lct) /\
     StronglySorted le_due (filter timed (checks (L c) ++ inflight c))) /\
  (forall i, In i (rl (c_sh c)) -> it_due i <= clock (c_sh c)) /\
  (forall i, In i (inflight c) -> it_due i <= clock (c_sh c)).

Lemma invD_init : forall t0 progs, invD (init t0 progs).
Proof.
  intros. unfold invD, L, inflight, init. cbn. repeat split; try (intros i []); try constructor.
  exists t0. repeat split; try lia; try (intros i []). constructor.
Qed.

Lemma invD_tick : forall c d, invD c -> invD (tick c d).
Proof.
  intros c d (D1 & D2 & D3 & D4 & D5 & (lct & E1 & E2 & E3 & E4) & D7 & D8).
  unfold invD, L, inflight in *. cbn [tick c_sh c_ths c_log rl q thr clock] in *.
  repeat split; auto.
  - exists lct. repeat split; auto. lia.
  - intros i I. specialize (D7 i I). lia.
  - intros i I. specialize (D8 i I). lia.
Qed.

Lemma invD_step : forall c tid c', invA c -> invD c -> cstep c tid c' -> invD c'.
Proof.
  intros c tid c' A (D1 & D2 & D3 & D4 & D5 & (lct & E1 & E2 & E3 & E4) & D7 & D8) S.
  destruct (cstep_deff c tid c' A S) as [out [LG [CK DF]]].
  assert (LE : L c' = L c ++ out) by (unfold L; rewrite LG, evs_app, evs_stamp; reflexivity).
  unfold invD. rewrite LE, CK, accs_app, checks_app.
  destruct DF as [R Q I Ao Co|it R Q I Ao Co W Im Du|it R Q I Ao Co W Im Du|ready q' Dp Cl R Q I0 I Ao Co W|i r b R Q I0 I Ao Co W].
  - rewrite R, Q, I, Ao, Co, !app_nil_r. repeat split; auto. exists lct. repeat split; auto.
  - rewrite R, Q, I, Ao, Co, !app_nil_r. repeat split; auto.
    + intros i X. apply in_app_or in X. destruct X as [X|[<-|[]]]; auto.
    + rewrite filter_app. cbn. rewrite Im, D3, <- !app_assoc. reflexivity.
    + apply perm_enq_rl. exact D4.
    + exists lct. repeat split; auto.
    + intros i X. apply in_app_or in X. destruct X as [X|[<-|[]]]; auto.
  - rewrite R, Q, I, Ao, Co, !app_nil_r. repeat split; auto.
    + intros i X. apply insert_in in X. destruct X as [->|X]; auto.
    + rewrite filter_app. cbn. rewrite Im, app_nil_r. exact D3.
    + apply perm_enq_q. exact D4.
    + apply insert_sorted. exact D5.
    + exists lct. repeat split; auto. intros i X. apply insert_in in X. destruct X as [->|X]; [lia|auto].
  - rewrite I0 in *. rewrite R, Q, I, Ao, Co, !app_nil_r in *. cbn [app filter] in D3, D4.
    destruct (collect_split _ _ _ _ _ Cl D1 D2) as (taken & EQ & PR & FR & FT & TD & HA).
    assert (TQ : forall x, In x taken -> In x (q (c_sh c))) by (intros x X; rewrite EQ; apply in_or_app; left; exact X).
    assert (QQ : forall x, In x q' -> In x (q (c_sh c))) by (intros x X; rewrite EQ; apply in_or_app; right; exact X).
    repeat split.
    + intros i [].
    + intros i X. apply D2, QQ, X.
    + rewrite FR. rewrite D3. reflexivity.
    + cbn [app]. rewrite PR, <- app_assoc, <- EQ. exact D4.
    + rewrite EQ in D5. eapply sorted_app_r, D5.
    + (* the new watermark is the clock: what was taken is due now, what stays is later than now (head_after, and
         the queue is sorted), and what was taken comes after everything dispatched before (E2) *)
      exists (clock (c_sh c)). repeat split; [lia| | |].
      * intros i X. rewrite EQ in D5. apply sorted_app_r in D5. destruct q' as [|y q'']; [destruct X|].
        cbn in HA. pose proof (sorted_head_le _ _ _ D5 X). lia.
      * intros i X. rewrite filter_app, FT in X. apply in_app_or in X. destruct X as [X|X].
        -- specialize (E3 i X). lia.
        -- apply TD, X.
      * rewrite filter_app, FT. apply sorted_app; [exact E4| |].
        -- rewrite EQ in D5. eapply sorted_app_l, D5.
        -- intros x y X Y. specialize (E3 x X). specialize (E2 y (TQ y Y)). unfold le_due. lia.
    + intros i [].
    + intros i X. apply (Permutation_in _ PR), in_app_or in X. destruct X as [X|X]; [apply D7, X|apply TD, X].
  - rewrite I0 in *. rewrite R, Q, I, Ao, Co in *. cbn [checks accs] in *. rewrite !app_nil_r.
    assert (EQ1 : forall z : list item, (checks (L c) ++ [i]) ++ r ++ z = checks (L c) ++ (i :: r) ++ z)
      by (intros; rewrite <- app_assoc; reflexivity).
    assert (EQ2 : (checks (L c) ++ [i]) ++ r = checks (L c) ++ i :: r)
      by (rewrite <- app_assoc; reflexivity).
    repeat split; auto.
    + rewrite D3, filter_app. cbn [filter]. destruct (it_imm i); cbn; rewrite <- !app_assoc; reflexivity.
    + rewrite EQ1. exact D4.
    + exists lct. rewrite EQ2. repeat split; auto.
    + intros x X. apply D8. right. exact X.
Qed.

Lemma invAD_run : forall sched c, invA c -> invD c -> invA (run c sched) /\ invD (run c sched).
Proof.
  intros sched c A D. split; [apply invA_run; exact A|].
  apply (run_invariant2 invD invA); auto.
  - intros. apply invA_run. assumption.
  - intros. eapply invD_step; eassumption.
  - intros. apply invD_tick. assumption.
Qed.

Definition invS (c : config) : Prop :=
  ser None (L c) = Some (at_thr tbody None c) /\
  pick None (L c) = Some (at_thr tinv None c) /\
  cancel_ok [] (L c) = true /\
  seen_after [] (L c) = cancelled (c_sh c).

Lemma invS_init : forall t0 progs, invS (init t0 progs).
Proof. intros. unfold invS, L, at_thr, init. cbn. auto. Qed.

Lemma invS_step : forall c tid c', invA c -> invS c -> cstep c tid c' -> invS c'.
Proof.
  intros c tid c' A (S1 & S2 & S3 & S4) S.
  destruct S as [cur todo s' cur' todo' out sp N O|ph s' ph' out sp N LS].
  - pose proof (opstep_callish _ _ _ _ _ _ _ _ _ O) as CL.
    unfold invS. rewrite L_step. cbn [c_sh].
    rewrite ser_app, pick_app, cancel_ok_app, seen_after_app, S1, S2, S3, S4.
    rewrite (ser_callish _ _ CL), (pick_callish _ _ CL), (cancel_ok_callish _ _ CL).
    rewrite (opstep_seen _ _ _ _ _ _ _ _ _ O).
    rewrite !(at_thr_sched _ _ _ c tid cur todo) by (try reflexivity; assumption). auto.
  - destruct (at_thr_loop _ tbody None c tid ph s' ph' out sp eq_refl A N LS) as [_ [B1 B2]].
    destruct (at_thr_loop _ tinv None c tid ph s' ph' out sp eq_refl A N LS) as [_ [I1 I2]].
    unfold invS. rewrite L_step. cbn [c_sh].
    rewrite ser_app, pick_app, cancel_ok_app, seen_after_app, S1, S2, S3, S4, B1, B2, I1, I2.
    destruct LS; rewrite ?tbody_next, ?tinv_next; cbn [tbody tinv ser pick cancel_ok seen_after andb]; rewrite ?item_eqb_refl; auto.
    + rewrite H. auto.
    + (* a call inside the action *)
      pose proof (opstep_callish _ _ _ _ _ _ _ _ _ H) as CL.
      rewrite (ser_callish _ _ CL), (pick_callish _ _ CL), (cancel_ok_callish _ _ CL).
      rewrite (opstep_seen _ _ _ _ _ _ _ _ _ H). auto.
Qed.

Lemma invS_tick : forall c d, invS c -> invS (tick c d).
Proof. intros c d H. exact H. Qed.

Lemma invAS_run : forall sched c, invA c -> invS c -> invS (run c sched).
Proof.
  intros sched c A D. apply (run_invariant2 invS invA); auto.
  - intros. apply invA_run. assumption.
  - intros. eapply invS_step; eassumption.
Qed.

Lemma cstep_clock : forall c tid c', invA c -> cstep c tid c' -> clock (c_sh c') = clock (c_sh c).
Proof. intros c tid c' A S. destruct (cstep_deff c tid c' A S) as [out [_ [K _]]]. exact K. Qed.

Definition invT (c : config) : Prop :=
  (forall i, at_thr tinv None c = Some i -> it_due i <= clock (c_sh c)) /\
  (forall tid t i, In (tid, t, EStart i) (c_log c) -> it_due i <= t).

Lemma invT_init : forall t0 progs, invT (init t0 progs).
Proof. intros. unfold invT, at_thr, init. cbn. split; [discriminate|intros ? ? ? []]. Qed.

Lemma invT_tick : forall c d, invT c -> invT (tick c d).
Proof.
  intros c d [T1 T2]. split; [|exact T2]. intros i H. unfold at_thr in *. cbn [tick c_sh c_ths thr clock] in *.
  specialize (T1 i H). lia.
Qed.

Lemma invT_step : forall c tid c', invA c /\ invD c -> invT c -> cstep c tid c' -> invT c'.
Proof.
  intros c tid c' [A D] [T1 T2] S. pose proof (cstep_clock _ _ _ A S) as CK.
  destruct D as (_ & _ & _ & _ & _ & _ & _ & D8).
  destruct S as [cur todo s' cur' todo' out sp N O|ph s' ph' out sp N LS]; unfold invT; cbn [c_sh c_log] in *; rewrite CK.
  - pose proof (opstep_callish _ _ _ _ _ _ _ _ _ O) as CL. split.
    + intros i E. rewrite (at_thr_sched _ _ _ c tid cur todo) in E by (try reflexivity; assumption). apply T1, E.
    + intros tid' t i I. apply in_app_or in I. destruct I as [I|I]; [eapply T2, I|].
      apply in_stamp in I. destruct I as [_ [_ I]]. discriminate (callish_in _ _ CL I).
  - destruct (at_thr_loop _ tinv None c tid ph s' ph' out sp eq_refl A N LS) as [_ [I1 I2]].
    destruct (inflight_loop _ _ _ _ _ _ _ A N LS) as [P1 _]. destruct (loopstep_invoke _ _ _ _ _ _ _ _ _ _ LS) as [V1 V2]. split.
    + intros i E. rewrite I2 in E. destruct (V1 i E) as [r R]. apply D8. rewrite P1, R. left. reflexivity.
    + intros tid' t i I. apply in_app_or in I. destruct I as [I|I]; [eapply T2, I|].
      apply in_stamp in I. destruct I as [_ [-> I]]. apply T1. rewrite I1. apply V2, I.
Qed.

Definition invI (c : config) : Prop :=
  (forall t ph, nth_error (c_ths c) t = Some (TLoop ph) -> In (ESpawn t) (L c)) /\
  (forall tid t e, In (tid, t, e) (c_log c) -> callish e = false -> In (ESpawn tid) (L c)) /\
  (eie = false -> (nspawn (L c) <= 1)%nat /\ (thr (c_sh c) = None -> nspawn (L c) = 0%nat)).

Lemma invI_init : forall t0 progs, invI (init t0 progs).
Proof.
  intros. unfold invI, L, init. cbn. repeat split; auto; try (intros ? ? ? []; fail).
  intros t ph H. apply nth_error_In in H. apply in_map_iff in H. destruct H as [p [E _]]. discriminate E.
Qed.

Lemma invI_step : forall c tid c', invI c -> cstep c tid c' -> invI c'.
Proof.
  intros c tid c' (I1 & I2 & I3) S.
  (* what matters of a step: only a loop thread stays one or logs an event of the loop; how it spawns *)
  assert (KEY : forall s' st' out (sp : bool) old, nth_error (c_ths c) tid = Some old ->
            ((exists ph, st' = TLoop ph) \/ (exists e, In e out /\ callish e = false) -> In (ESpawn tid) (L c)) ->
            nspawn out = (if sp then 1 else 0)%nat /\
            (sp = true -> In (ESpawn (length (c_ths c))) out /\ thr (c_sh c) = None) /\
            (eie = false -> thr s' = None -> thr (c_sh c) = None /\ sp = false) ->
            invI (Config s' (upd tid st' (c_ths c) ++ (if sp then [TLoop LNew] else []))
                         (c_log c ++ stamp tid (clock (c_sh c)) out))).
  { intros s' st' out sp old N LP (NS & SP & TN). unfold invI. rewrite L_step. cbn [c_ths c_log c_sh].
    split; [|split; [|intros EF; split]].
    - intros t ph E. apply in_or_app. destruct (nth_after _ _ _ _ _ _ _ N E) as [[-> X]|[[_ E']|(SPT & -> & _)]].
      + left. apply LP. left. exists ph. symmetry. exact X.
      + left. eapply I1, E'.
      + right. apply SP, SPT.
    - intros tid' t e I NC. apply in_or_app. left. apply in_app_or in I. destruct I as [I|I]; [eapply I2; eassumption|].
      apply in_stamp in I. destruct I as [-> [_ I]]. apply LP. right. eauto.
    - rewrite nspawn_app, NS. destruct (I3 EF) as [J1 J2]. destruct sp; [|lia].
      destruct (SP eq_refl) as [_ T0]. rewrite (J2 T0). lia.
    - intros T1. rewrite nspawn_app, NS. destruct (I3 EF) as [_ J2]. destruct (TN EF T1) as [T0 ->]. rewrite (J2 T0). reflexivity. }
  destruct S as [cur todo s' cur' todo' out sp N O|ph s' ph' out sp N LS]; eapply KEY; try exact N.
  - intros [[ph X]|(e & I & NC)]; [discriminate X|].
    rewrite (callish_in _ _ (opstep_callish _ _ _ _ _ _ _ _ _ O) I) in NC. discriminate NC.
  - destruct (opstep_spawn _ _ _ _ _ _ _ _ _ O) as (X & Y & Z). auto.
  - intros _. eapply I1, N.
  - eapply loopstep_spawn, LS.
Qed.

Lemma invI_run : forall sched c, invI c -> invI (run c sched).
Proof. intros. apply run_invariant; auto. intros; eapply invI_step; eassumption. Qed.

(* a step is a step of a call -- made by a scheduling thread or by the loop thread inside an action --
   or a step of the loop proper, which touches neither uids nor the flag, logs no event of a call, and
   leaves the thread outside any call, at most at the start of an action's body *)
Lemma cstep_call_or_loop : forall c tid c', cstep c tid c' ->
  exists st st' s' out (sp : bool),
    nth_error (c_ths c) tid = Some st /\
    c' = Config s' (upd tid st' (c_ths c) ++ (if sp then [TLoop LNew] else [])) (c_log c ++ stamp tid (clock (c_sh c)) out) /\
    (opstep (length (c_ths c)) (c_sh c) (fst (tcall st)) (snd (tcall st)) s' (fst (tcall st')) (snd (tcall st')) out sp \/
     ((exists ph, st = TLoop ph) /\ sp = false /\ (forall e, In e out -> callish e = false) /\
      nuid s' = nuid (c_sh c) /\ disposed s' = disposed (c_sh c) /\
      tcall st = (None, []) /\ (tcall st' = (None, []) \/ exists a, tcall st' = (None, body a)))).
Proof.
  intros c tid c' S. destruct S as [cur todo s' cur' todo' out sp N O|ph s' ph' out sp N LS].
  - exists (TSched cur todo), (TSched cur' todo'), s', out, sp. auto.
  - exists (TLoop ph), (TLoop ph'), s', out, sp. split; [exact N|]. split; [reflexivity|].
    destruct LS; try (left; assumption); right; rewrite ?tcall_next;
      (split; [eexists; reflexivity|]); (split; [reflexivity|]);
      (split; [first [intros e [<-|[]]; reflexivity|intros e []]|]); cbn [tcall];
      repeat split; first [reflexivity|left; reflexivity|right; eexists; reflexivity].
Qed.

(* what [opstep_uids] says of a call step holds, trivially, of a step of the loop proper as well *)
Lemma cstep_uids : forall c tid c', cstep c tid c' ->
  exists st st' s' out (sp : bool),
    nth_error (c_ths c) tid = Some st /\
    c' = Config s' (upd tid st' (c_ths c) ++ (if sp then [TLoop LNew] else [])) (c_log c ++ stamp tid (clock (c_sh c)) out) /\
    (nuid (c_sh c) <= nuid s')%nat /\
    (forall u, In u (topst st') -> (In u (topst st) \/ (u < nuid s')%nat)) /\
    (forall u a, In (ECall u a) out -> u = nuid (c_sh c) /\ (u < nuid s')%nat) /\
    (forall u, In (EPass u) out -> tps2 st' = Some u /\ (In u (topst st) \/ (u < nuid s')%nat)) /\
    (forall u, tps2 st' = Some u -> In (EPass u) out) /\
    (forall i, In (EAcc i) out -> tps2 st = Some (it_uid i)) /\
    (disposed (c_sh c) = true -> disposed s' = true /\ forall u, ~ In (EPass u) out) /\
    (In EDisposeRet out -> disposed s' = true).
Proof.
  intros c tid c' S. destruct (cstep_call_or_loop _ _ _ S) as (st & st' & s' & out & sp & N & E & H).
  exists st, st', s', out, sp. split; [exact N|]. split; [exact E|].
  rewrite !topst_tcall, !tps2_tcall. destruct H as [O|(_ & _ & CE & -> & -> & -> & TC)].
  - exact (opstep_uids _ _ _ _ _ _ _ _ _ O).
  - assert (NC : fst (tcall st') = None) by (destruct TC as [T|[a T]]; rewrite T; reflexivity). rewrite NC.
    repeat split; auto; try discriminate; try contradiction; intros; try intros I;
      match goal with I : In _ out |- _ => discriminate (CE _ I) end.
Qed.

(* uids are allocated in increasing order; a call in progress carries an allocated uid *)
Definition invU (c : config) : Prop :=
  (forall u a, In (ECall u a) (L c) -> (u < nuid (c_sh c))%nat) /\
  (forall u, In (EPass u) (L c) -> (u < nuid (c_sh c))%nat) /\
  (forall t st u, nth_error (c_ths c) t = Some st -> In u (topst st) -> (u < nuid (c_sh c))%nat).

(* an accepted item passed the unlocked test; dispose() returned => the flag is set *)
Definition invP (c : config) : Prop :=
  (forall t st u, nth_error (c_ths c) t = Some st -> tps2 st = Some u -> In (EPass u) (L c)) /\
  (forall i, In (EAcc i) (L c) -> In (EPass (it_uid i)) (L c)) /\
  (In EDisposeRet (L c) -> disposed (c_sh c) = true).

Lemma invUP_init : forall t0 progs, invU (init t0 progs) /\ invP (init t0 progs).
Proof.
  intros. unfold invU, invP, L, init. cbn. repeat split; try (intros; contradiction).
  - intros t st u H I. apply nth_error_In in H. apply in_map_iff in H. destruct H as [p [<- _]]. destruct I.
  - intros t st u H I. apply nth_error_In in H. apply in_map_iff in H. destruct H as [p [<- _]]. discriminate I.
Qed.

Lemma invUP_step : forall c tid c', invU c /\ invP c -> cstep c tid c' -> invU c' /\ invP c'.
Proof.
  intros c tid c' [(U1 & U2 & U3) (P1 & P2 & P3)] S.
  destruct (cstep_uids _ _ _ S) as (st & st' & s' & out & sp & N & -> & NN & Q1 & Q2 & Q3 & Q4 & Q5 & Q6 & Q7).
  unfold invU, invP; rewrite !L_step; cbn [c_sh c_ths]. repeat split.
  - intros u a I. apply in_app_or in I. destruct I as [I|I]; [specialize (U1 u a I); lia|apply (Q2 u a I)].
  - intros u I. apply in_app_or in I. destruct I as [I|I]; [specialize (U2 u I); lia|].
    destruct (Q3 u I) as [_ [X|X]]; [|exact X]. specialize (U3 tid _ u N X). lia.
  - intros t x u E I. destruct (nth_after _ _ _ _ _ _ _ N E) as [[-> ->]|[[NE E']|(_ & _ & ->)]].
    + destruct (Q1 u I) as [X|X]; [|exact X]. specialize (U3 tid _ u N X). lia.
    + specialize (U3 t x u E' I). lia.
    + destruct I.
  - intros t x u E I. apply in_or_app. destruct (nth_after _ _ _ _ _ _ _ N E) as [[-> ->]|[[NE E']|(_ & _ & ->)]].
    + right. apply Q4, I.
    + left. eapply P1; eassumption.
    + discriminate I.
  - intros i I. apply in_or_app. left. apply in_app_or in I. destruct I as [I|I]; [apply P2, I|].
    eapply P1; [exact N|]. apply Q5, I.
  - intros I. apply in_app_or in I. destruct I as [I|I]; [|apply Q7, I].
    destruct Q6 as [Q6 _]; [apply P3, I|exact Q6].
Qed.

Lemma invUP_run : forall sched c, invU c /\ invP c -> invU (run c sched) /\ invP (run c sched).
Proof.
  intros. apply (run_invariant (fun c => invU c /\ invP c)); auto.
  - intros; eapply invUP_step; eassumption.
Qed.

(* relative to a base log B and the uid watermark N of the moment dispose() had returned *)
Definition invJ (B : list ev) (N : nat) (c : config) : Prop :=
  disposed (c_sh c) = true /\ (N <= nuid (c_sh c))%nat /\
  exists more, L c = B ++ more /\ (forall u, ~ In (EPass u) more) /\
               (forall u a, In (ECall u a) more -> (N <= u)%nat).

Lemma invJ_step : forall B N c tid c', invJ B N c -> cstep c tid c' -> invJ B N c'.
Proof.
  intros B N c tid c' (J1 & J2 & more & J3 & J4 & J5) S.
  destruct (cstep_uids _ _ _ S) as (st & st' & s' & out & sp & _ & -> & NN & _ & Q2 & _ & _ & _ & Q6 & _).
  destruct (Q6 J1) as [D' NP]. unfold invJ. rewrite L_step, J3, <- app_assoc. cbn [c_sh].
  repeat split; [exact D'|lia|]. exists (more ++ out). repeat split.
  - intros u I. apply in_app_or in I. destruct I as [I|I]; [eapply J4, I|eapply NP, I].
  - intros u a I. apply in_app_or in I. destruct I as [I|I]; [eapply J5, I|]. destruct (Q2 u a I) as [-> _]. exact J2.
Qed.

Lemma invJ_run : forall B N sched c, invJ B N c -> invJ B N (run c sched).
Proof.
  intros B N. apply (run_invariant (invJ B N)).
  - intros; eapply invJ_step; eassumption.
  - intros c d H. exact H.
Qed.

Definition invH (c : config) : Prop :=
  (forall w, wt (c_sh c) = Some w -> w_notified w = false ->
     rl (c_sh c) = [] /\ forall i, In i (q (c_sh c)) -> exists d, w_deadline w = Some d /\ d <= it_due i) /\
  (thr (c_sh c) = None -> rl (c_sh c) = [] /\ q (c_sh c) = []) /\
  (forall t, thr (c_sh c) = Some t -> disposed (c_sh c) = false ->
     exists ph, nth_error (c_ths c) t = Some (TLoop ph) /\ ph <> LExited).

Lemma invH_init : forall t0 progs, invH (init t0 progs).
Proof. intros. unfold invH, init. cbn. repeat split; discriminate. Qed.

Lemma invH_step : forall c tid c', invA c /\ invD c -> invH c -> cstep c tid c' -> invH c'.
Proof.
  intros c tid c' [A D] (HA & HB & HC) S. destruct D as (_ & _ & _ & _ & SQ & _).
  destruct S as [cur todo s' cur' todo' out sp N O|ph s' ph' out sp N LS].
  - destruct (opstep_wake_ok _ _ _ _ _ _ _ _ _ O (conj HA HB)) as [HA' HB'].
    refine (conj HA' (conj HB' _)). cbn [c_sh c_ths]. intros t E DD.
    destruct (opstep_enq _ _ _ _ _ _ _ _ _ O) as (_ & _ & _ & DM).
    assert (DM' : disposed (c_sh c) = false) by (destruct (disposed (c_sh c)); [rewrite DM in DD|]; congruence).
    destruct (opstep_thr _ _ _ _ _ _ _ _ _ O) as [[-> T]|[-> [T0 T]]]; rewrite T in E.
    + destruct (HC t E DM') as [ph [P LV]]. exists ph. split; [|exact LV]. apply nth_step_old; [congruence|exact P].
    + inv E. exists LNew. split; [apply nth_step_new|discriminate].
  - (* the stepping loop thread is the scheduler's thread; if it stays so undisposed, it has not exited *)
    pose proof (stepping_loop_is_thr _ _ _ _ _ _ _ _ A N LS) as THR.
    destruct (loopstep_wake_ok _ _ _ _ _ _ _ _ _ _ LS SQ (conj HA HB)) as [HA' HB'].
    refine (conj HA' (conj HB' _)). cbn [c_sh c_ths]. intros t E DD.
    destruct (loopstep_thr _ _ _ _ _ _ _ _ LS THR) as [_ [T|[T _]]]; rewrite T in E; inv E.
    exists ph'. split; [eapply nth_step_same, N|]. intros X.
    destruct (loopstep_exit _ _ _ _ _ _ _ _ _ _ LS X); congruence.
Qed.
End Invariants.

(* a thread that cannot take a step: finished, exited, or parked in wait with neither a
   notification nor an expired timeout *)
Definition idle (s : shared) (t : tstate) : bool :=
  match t with
  | TSched None [] => true
  | TLoop LExited => true
  | TLoop LWaiting =>
      match wt s with Some w => negb (w_notified w || timed_out s w) | None => true end
  | _ => false
  end.
Definition quiescent (c : config) : bool := forallb (idle (c_sh c)) (c_ths c).

Lemma quiescent_idle : forall c t st,
  nth_error (c_ths c) t = Some st -> quiescent c = true -> idle (c_sh c) st = true.
Proof. intros c t st N Q. unfold quiescent in Q. rewrite forallb_forall in Q. apply Q. eapply nth_error_In, N. Qed.

Section Theorems.
Variable eie : bool.
Variable body : nat -> list op.
Notation cstep := (cstep eie body).
Notation run := (run eie body).
Notation tstep := (tstep eie body).

Lemma quiescent_stutter : forall c, quiescent c = true -> forall tid, tstep c tid = c.
Proof.
  intros c Q tid. unfold EventLoop.tstep. destruct (nth_error (c_ths c) tid) as [st|] eqn:N; [|reflexivity].
  apply (quiescent_idle _ _ _ N) in Q.
  destruct st as [[o|] [|x todo]|ph]; try discriminate Q; [reflexivity|].
  destruct ph; try discriminate Q; [|reflexivity]. cbn in *.
  destruct (wt (c_sh c)) as [w|]; [|reflexivity]. apply negb_true_iff in Q. rewrite Q, andb_false_r. reflexivity.
Qed.

Definition invAll (c : config) : Prop :=
  invA c /\ invD c /\ invS c /\ invT c /\ invI eie c /\ (invU c /\ invP c) /\ invH c.

Lemma invAll_init : forall t0 progs, invAll (init t0 progs).
Proof.
  intros t0 progs. unfold invAll. refine (conj _ (conj _ (conj _ (conj _ (conj _ (conj (conj _ _) _)))))).
  - apply invA_init.
  - apply invD_init.
  - apply invS_init.
  - apply invT_init.
  - apply invI_init.
  - exact (proj1 (invUP_init t0 progs)).
  - exact (proj2 (invUP_init t0 progs)).
  - apply invH_init.
Qed.

Lemma invAll_run : forall sched c, invAll c -> invAll (run c sched).
Proof.
  apply (run_invariant eie body invAll).
  - intros c tid c' (A & D & S & T & I & UP & H) St. unfold invAll.
    refine (conj _ (conj _ (conj _ (conj _ (conj _ (conj (conj _ _) _)))))).
    + eapply invA_step; eassumption.
    + eapply invD_step; eassumption.
    + eapply invS_step; eassumption.
    + eapply invT_step; [split; eassumption|eassumption|eassumption].
    + eapply invI_step; eassumption.
    + exact (proj1 (invUP_step _ _ _ _ _ UP St)).
    + exact (proj2 (invUP_step _ _ _ _ _ UP St)).
    + eapply invH_step; [split; eassumption|eassumption|eassumption].
  - intros c d (A & D & S & T & I & UP & H). unfold invAll.
    refine (conj _ (conj _ (conj _ (conj _ (conj _ (conj (conj _ _) _)))))); auto.
    + apply invD_tick, D.
    + apply invT_tick, T.
    + apply UP.
    + apply UP.
Qed.

Lemma reach : forall t0 progs sched, invAll (run (init t0 progs) sched).
Proof. intros. apply invAll_run, invAll_init. Qed.

Theorem el_single_thread : forall t0 progs sched tid1 t1 e1 tid2 t2 e2,
  eie = false ->
  let c := run (init t0 progs) sched in
  In (tid1, t1, e1) (c_log c) -> callish e1 = false ->
  In (tid2, t2, e2) (c_log c) -> callish e2 = false -> tid1 = tid2.
Proof.
  intros t0 progs sched tid1 t1 e1 tid2 t2 e2 E c I1 N1 I2 N2.
  destruct (reach t0 progs sched) as (_ & _ & _ & _ & (_ & J2 & J3) & _). destruct (J3 E) as [J _].
  eapply nspawn_one; [exact J|eapply J2; eassumption|eapply J2; eassumption].
Qed.

(* never two at once: the log is accepted by the scanner [ser]; in particular no action is
   running when another one starts *)
Theorem el_serial : forall t0 progs sched,
  exists o, ser None (L (run (init t0 progs) sched)) = Some o.
Proof. intros. destruct (reach t0 progs sched) as (_ & _ & (S1 & _) & _). eexists. exact S1. Qed.

(* immediately-due actions are tested (and, if not cancelled, run) in submission order:
   the dispatched immediate items are a prefix of the accepted immediate items *)
Theorem el_fifo_immediate : forall t0 progs sched,
  let c := run (init t0 progs) sched in
  exists rest, filter it_imm (accs (L c)) = filter it_imm (checks (L c)) ++ rest.
Proof. intros. destruct (reach t0 progs sched) as (_ & (_ & _ & D3 & _) & _). eexists. exact D3. Qed.

(* timed actions are dispatched in due-time order *)
Theorem el_due_order : forall t0 progs sched,
  StronglySorted le_due (filter timed (checks (L (run (init t0 progs) sched)))).
Proof.
  intros. destruct (reach t0 progs sched) as (_ & (_ & _ & _ & _ & _ & (lct & _ & _ & _ & E4) & _) & _).
  rewrite filter_app in E4. eapply sorted_app_l, E4.
Qed.

Theorem el_not_early : forall t0 progs sched tid t i,
  In (tid, t, EStart i) (c_log (run (init t0 progs) sched)) -> it_due i <= t.
Proof. intros. destruct (reach t0 progs sched) as (_ & _ & _ & (_ & T2) & _). eapply T2; eassumption. Qed.

(* what is run was accepted, with that due time *)
Theorem el_started_was_accepted : forall t0 progs sched i,
  let c := run (init t0 progs) sched in
  In (EStart i) (L c) -> In (EAcc i) (L c) /\ In (ECheck i false) (L c).
Proof.
  intros t0 progs sched i c I. destruct (reach t0 progs sched) as (_ & (_ & _ & _ & D4 & _) & (_ & S2 & _) & _).
  fold c in D4, S2. destruct (in_split _ _ I) as [l1 [l2 E]]. rewrite E in S2.
  destruct (pick_spec _ _ _ _ _ S2) as [X|X]; [discriminate X|].
  assert (C : In (ECheck i false) (L c)) by (rewrite E; apply in_or_app; left; exact X).
  split; [|exact C]. apply accs_in. eapply Permutation_in; [symmetry; exact D4|].
  apply in_or_app. left. apply checks_in. eexists. exact C.
Qed.

(* once dispose() has returned (state c1), whatever happens next (sched2): no call passes the
   `_is_disposed` test any more (each raises DisposedException at that test), and no call made
   afterwards is ever enqueued, tested or run *)
Theorem el_dispose : forall t0 progs sched1 sched2,
  let c1 := run (init t0 progs) sched1 in
  let c2 := run c1 sched2 in
  disposed (c_sh c1) = true ->
  exists more, L c2 = L c1 ++ more /\
    (forall u, ~ In (EPass u) more) /\
    (forall u a i, In (ECall u a) more -> it_uid i = u ->
       ~ In (EAcc i) (L c2) /\ ~ In (ECheck i false) (L c2) /\ ~ In (EStart i) (L c2)).
Proof.
  intros t0 progs sched1 sched2 c1 c2 D.
  assert (J1 : invJ (L c1) (nuid (c_sh c1)) c1).
  { unfold invJ. repeat split; [exact D|lia|]. exists []. rewrite app_nil_r. split; [reflexivity|]. split; [intros u X; destruct X|intros u a X; destruct X]. }
  pose proof (invJ_run eie body _ _ sched2 c1 J1) as (_ & _ & more & E & NP & NC). fold c2 in E.
  exists more. split; [exact E|]. split; [exact NP|]. intros u a i IC EU.
  destruct (reach t0 progs sched1) as (_ & _ & _ & _ & _ & ((_ & U2 & _) & _) & _). fold c1 in U2.
  pose proof (reach t0 progs (sched1 ++ sched2)) as R2. rewrite run_app in R2. fold c1 in R2. fold c2 in R2.
  destruct R2 as (_ & (_ & _ & _ & D4 & _) & (_ & S2 & _) & _ & _ & (_ & (_ & P2 & _)) & _).
  assert (NOACC : ~ In (EAcc i) (L c2)).
  { intros X. apply P2 in X. rewrite EU, E in X. apply in_app_or in X. destruct X as [X|X]; [|eapply NP, X].
    specialize (U2 u X). specialize (NC u a IC). lia. }
  assert (NOCHK : forall b, ~ In (ECheck i b) (L c2)).
  { intros b X. apply NOACC. apply accs_in. eapply Permutation_in; [symmetry; exact D4|].
    apply in_or_app. left. apply checks_in. eexists. exact X. }
  repeat split; [exact NOACC|apply NOCHK|]. intros X. destruct (in_split _ _ X) as [l1 [l2 E2]]. rewrite E2 in S2.
  destruct (pick_spec _ _ _ _ _ S2) as [Y|Y]; [discriminate Y|]. apply (NOCHK false). rewrite E2. apply in_or_app. left. exact Y.
Qed.

Lemma quiescent_idle_thr : forall c, quiescent c = true ->
  at_thr tbody None c = None /\ at_thr tinv None c = None /\ inflight c = [].
Proof.
  intros c Q. unfold inflight, at_thr. destruct (thr (c_sh c)) as [t|]; [|auto].
  destruct (nth_error (c_ths c) t) as [st|] eqn:N; [|auto].
  apply (quiescent_idle _ _ _ N) in Q.
  destruct st as [[o|] [|x todo]|ph]; try discriminate Q; auto. destruct ph; try discriminate Q; auto.
Qed.

(* a loop thread parked in wait that cannot wake up (neither notified nor timed out), with the clock past
   every accepted due time: nothing is queued -- a queued item would be accepted, hence due, and the wait
   would have timed out at its due time at the latest *)
Lemma idle_waiter_no_work : forall t0 progs sched,
  let c := run (init t0 progs) sched in
  (forall i, In (EAcc i) (L c) -> it_due i <= clock (c_sh c)) ->
  forall t, nth_error (c_ths c) t = Some (TLoop LWaiting) -> idle (c_sh c) (TLoop LWaiting) = true ->
  exists w, wt (c_sh c) = Some w /\ w_notified w = false /\ rl (c_sh c) = [] /\ q (c_sh c) = [].
Proof.
  intros t0 progs sched c DUE t P I.
  destruct (reach t0 progs sched) as ((_ & _ & _ & A4) & (_ & _ & _ & D4 & _) & _ & _ & _ & _ & (H1 & _)).
  fold c in A4, D4, H1. destruct (A4 t P) as [w [W _]].
  cbn in I. rewrite W in I. apply negb_true_iff, orb_false_iff in I. destruct I as [NN TO].
  destruct (H1 w W NN) as [R X]. exists w. repeat split; auto.
  destruct (q (c_sh c)) as [|i qq] eqn:QQ; [reflexivity|exfalso].
  destruct (X i (or_introl eq_refl)) as [d [DL LE]]. unfold timed_out in TO. rewrite DL in TO. apply Z.leb_gt in TO.
  assert (IA : In (EAcc i) (L c)).
  { apply accs_in. eapply Permutation_in; [symmetry; exact D4|]. do 3 (apply in_or_app; right). left. reflexivity. }
  specialize (DUE i IA). lia.
Qed.

(* at quiescence, with the clock past every accepted due time and the scheduler not disposed:
   every accepted item has been dispatched (tested), every item that passed the test has run to
   completion, and the queues are empty *)
Theorem el_nothing_lost : forall t0 progs sched,
  let c := run (init t0 progs) sched in
  quiescent c = true -> disposed (c_sh c) = false ->
  (forall i, In (EAcc i) (L c) -> it_due i <= clock (c_sh c)) ->
  Permutation (accs (L c)) (checks (L c)) /\ rl (c_sh c) = [] /\ q (c_sh c) = [] /\
  (forall i, In (ECheck i false) (L c) -> In (EStart i) (L c) /\ In (EEnd i) (L c)).
Proof.
  intros t0 progs sched c Q D DUE.
  destruct (reach t0 progs sched) as (_ & (_ & _ & _ & D4 & _) & (S1 & S2 & _) & _ & _ & _ & (_ & H2 & H3)).
  fold c in D4, S1, S2, H2, H3.
  destruct (quiescent_idle_thr c Q) as (QB & QI & QF). rewrite QB in S1. rewrite QI in S2. rewrite QF in D4.
  assert (EMPTY : rl (c_sh c) = [] /\ q (c_sh c) = []).
  { destruct (thr (c_sh c)) as [t|] eqn:T; [|apply H2; reflexivity].
    destruct (H3 t eq_refl D) as [ph [P LV]].
    pose proof (quiescent_idle _ _ _ P Q) as I.
    destruct ph; try discriminate I; [|contradiction].
    destruct (idle_waiter_no_work t0 progs sched DUE t P I) as (w & _ & _ & R & QQ). auto. }
  destruct EMPTY as [R QQ]. rewrite R, QQ in D4. cbn [app] in D4. rewrite app_nil_r in D4.
  repeat split; auto.
  - eapply pick_closed; [exact S2|right; assumption].
  - eapply ser_closed; [exact S1|right]. eapply pick_closed; [exact S2|right; assumption].
Qed.
End Theorems.

(* for the concrete witnesses here, in Core/EventLoopFacts2.v and Core/EventLoopBatch.v, and the examples of
   Props/C31.v and Props/C34.v *)
Definition nobody (a : nat) : list op := [].
Definition steps (l : list nat) : list move := map MStep l.

Fixpoint index_of (p : ev -> bool) (l : list ev) : option nat :=
  match l with
  | [] => None
  | e :: r => if p e then Some O else match index_of p r with Some k => Some (S k) | None => None end
  end.
Definition is_start_of (a : nat) (e : ev) : bool :=
  match e with EStart i => Nat.eqb (it_lbl i) a | _ => false end.
Definition is_cancelret_of (a : nat) (e : ev) : bool :=
  match e with ECancelRet b => Nat.eqb a b | _ => false end.
Definition is_test_of (a : nat) (e : ev) : bool :=
  match e with ECheck i false => Nat.eqb (it_lbl i) a | _ => false end.
(* p-event strictly before q-event *)
Definition before (p q : ev -> bool) (l : list ev) : bool :=
  match index_of p l, index_of q l with Some x, Some y => Nat.ltb x y | _, _ => false end.

(* the strict reading of "an action cancelled before it starts never runs" is FALSE of the code:
   T0 schedule(1) (3 steps) ; loop thread: start, collect, is_cancelled() -> False ; T0: dispose the
   returned disposable (returns) ; loop thread: invokes action 1 *)
Definition cancel_window_witness : config :=
  run false nobody (init 0 [[SchedNow 1%nat; Cancel 1%nat]]) (steps [0; 0; 0; 1; 1; 1; 0; 1; 1; 1]%nat).

(* quirk (not part of C31): dispose() while the loop thread is between its two locked blocks loses
   the notification; the thread then waits for ever (it is never ended), although disposed *)
Definition dispose_sleep_witness : config :=
  run false nobody (init 0 [[SchedNow 1%nat]; [Dispose]]) (steps [0; 0; 0; 2; 2; 2; 2; 2; 1; 2]%nat).

