(* The interleaving models of Core/DispConc.v under ALL schedules (lists of thread ids), all per-thread
   programs and any number of threads.
   - for every model (Section ConcFacts): one scheduled step in elimination form ([tstep_elim]), inductive
     invariants of a run ([crun_invariant], [shared_invariant]), and the conservation of a measure
     ([conservation]): if every action balances "accounted for in its output + held by the shared state +
     held or owed by the acting call", then log + state + all threads add up to the same at every moment;
   - one instance of the measure per class (Composite, the one-slot containers, Disposable, Scheduled,
     RefCount with two: tokens and the owed dispose()), each with the invariant of the shared state that
     turns the balance into at most once / exactly once / never while held;
   - beside the balances: a live Multiple/SingleAssignmentDisposable disposes nothing
     ([slot_conc_live_silent]); for ScheduledDisposable the relation between "the scheduler invoked a queued
     action" (ORun in the log) and the flag of the inner slot ([hc_inv]); for RefCount which actions set the
     primary flag and where an action leads ([rc_act_primary], [rc_act_next], at the end, for
     Core/RefCountOnceFacts.v);
   - last, the run of the SingleAssignmentDisposable model that decides outside its lock ([s0_run]), for the
     refuting schedules of Props/C26.v. *)
From RxVerif Require Import Base.Prelude Core.Disposables Core.DisposablesFacts Core.DispConc.
Local Open Scope Z_scope.

Definition zsum {A} (f : A -> Z) (l : list A) : Z := fold_right (fun x a => f x + a) 0 l.

Lemma zsum_cons : forall A (f : A -> Z) x l, zsum f (x :: l) = f x + zsum f l.
Proof. reflexivity. Qed.

Lemma zsum_set_nth : forall A (f : A -> Z) l k x old,
  nth_error l k = Some old -> zsum f (set_nth k x l) + f old = zsum f l + f x.
Proof.
  induction l as [|y t IH]; intros k x old H.
  - destruct k; discriminate H.
  - destruct k as [|k']; cbn [nth_error] in H; cbn [set_nth]; rewrite !zsum_cons.
    + injection H as ->. lia.
    + specialize (IH k' x old H). lia.
Qed.

Lemma zsum_nonneg : forall A (f : A -> Z) l, (forall x, 0 <= f x) -> 0 <= zsum f l.
Proof. intros A f l H. induction l as [|y t IH]; [cbn; lia|]. rewrite zsum_cons. specialize (H y). lia. Qed.

Lemma zsum_ge_elem : forall A (f : A -> Z) l k x,
  (forall y, 0 <= f y) -> nth_error l k = Some x -> f x <= zsum f l.
Proof.
  induction l as [|y t IH]; intros k x Hf H; [destruct k; discriminate H|].
  rewrite zsum_cons. destruct k as [|k']; cbn [nth_error] in H.
  - injection H as ->. pose proof (zsum_nonneg A f t Hf). lia.
  - specialize (IH k' x Hf H). specialize (Hf y). lia.
Qed.

Lemma zsum_zero : forall A (f : A -> Z) l, (forall x, In x l -> f x = 0) -> zsum f l = 0.
Proof.
  intros A f l H. induction l as [|y t IH]; [reflexivity|]. rewrite zsum_cons, IH, (H y); [lia|left; reflexivity|].
  intros x Hx. apply H. right. exact Hx.
Qed.

Lemma zsum_map : forall A B (g : A -> B) (f : B -> Z) l, zsum f (map g l) = zsum (fun x => f (g x)) l.
Proof. intros. induction l as [|y t IH]; [reflexivity|]. cbn [map]. rewrite !zsum_cons, IH. reflexivity. Qed.

Lemma plain_app : forall a b, plain (a ++ b) = plain a ++ plain b.
Proof. intros. unfold plain. apply map_app. Qed.
Lemma plain_tag : forall tid out, plain (map (pair tid) out) = out.
Proof. intros. unfold plain. rewrite map_map. cbn. apply map_id. Qed.

Lemma In_set_nth : forall A (l : list A) k x y, In y (set_nth k x l) -> y = x \/ In y l.
Proof.
  induction l as [|z t IH]; intros k x y H; [destruct k; destruct H|].
  destruct k as [|k']; cbn [set_nth] in H; destruct H as [H|H].
  - left. symmetry. exact H.
  - right. right. exact H.
  - right. left. exact H.
  - destruct (IH k' x y H) as [E|E]; [left; exact E|right; right; exact E].
Qed.

Lemma nth_error_set_nth_cases : forall {A} {l : list A} {k j x y},
  nth_error (set_nth j x l) k = Some y ->
  (k = j /\ y = x) \/ (k <> j /\ nth_error l k = Some y).
Proof.
  intros A l k j x y H. destruct (Nat.eq_dec k j) as [->|N].
  - left. split; [reflexivity|].
    assert (j < length l)%nat as Lj.
    { assert (nth_error (set_nth j x l) j <> None) as X by congruence.
      apply nth_error_Some in X. rewrite set_nth_length in X. exact X. }
    rewrite nth_set_nth_eq in H by exact Lj. congruence.
  - right. split; [exact N|]. rewrite nth_set_nth_neq in H by exact N. exact H.
Qed.

Section ConcFacts.
Context {Sh L O : Type}.
Variable start : O -> L.
Variable act : Sh -> L -> Sh * option L * list obs.
Notation thread := (@thread L O).
Notation config := (@config Sh L O).
Notation tstep := (@tstep Sh L O start act).
Notation crun := (@crun Sh L O start act).

Lemma crun_nil : forall c : config, crun c [] = c.
Proof. reflexivity. Qed.
Lemma crun_cons : forall (c : config) t s, crun c (t :: s) = crun (tstep c t) s.
Proof. reflexivity. Qed.
Lemma crun_app : forall a b (c : config), crun c (a ++ b) = crun (crun c a) b.
Proof. intros. unfold DispConc.crun. apply fold_left_app. Qed.

(* One scheduled step, in elimination form: a no-op, or the next action of thread [tid]'s frame. *)
Lemma tstep_elim : forall (P : config -> Prop) (c : config) tid,
  P c ->
  (forall t l todo hist s' l' out,
     nth_error (c_ths c) tid = Some t -> next_frame start t = Some (l, todo, hist) ->
     act (c_sh c) l = (s', l', out) ->
     P (Config s' (set_nth tid (Thread l' todo hist) (c_ths c)) (c_log c ++ map (pair tid) out))) ->
  P (tstep c tid).
Proof.
  intros P c tid H0 H. unfold DispConc.tstep.
  destruct (nth_error (c_ths c) tid) as [t|] eqn:N; [|exact H0].
  destruct (next_frame start t) as [[[l todo] hist]|] eqn:F; [|exact H0].
  destruct (act (c_sh c) l) as [[s' l'] out] eqn:A. exact (H t l todo hist s' l' out eq_refl F A).
Qed.

(* a frame is the call in progress, or the first action of the next call *)
Lemma next_frame_cases : forall (t : thread) l todo hist,
  next_frame start t = Some (l, todo, hist) ->
  (t_cur t = Some l /\ todo = t_todo t /\ hist = t_hist t) \/
  (t_cur t = None /\ exists o, t_todo t = o :: todo /\ l = start o /\ hist = o :: t_hist t).
Proof.
  intros t l todo hist F. unfold next_frame in F. destruct (t_cur t) as [l0|].
  - injection F as -> <- <-. left. auto.
  - destruct (t_todo t) as [|o r]; [discriminate F|]. injection F as <- <- <-. right. split; [reflexivity|]. exists o. auto.
Qed.

Lemma cinit_thread : forall (s : Sh) progs k (t : thread),
  nth_error (c_ths (cinit s progs)) k = Some t -> exists p, nth_error progs k = Some p /\ t = Thread None p [].
Proof.
  intros s progs k t N. unfold cinit in N. cbn [c_ths] in N. rewrite nth_error_map in N.
  destruct (nth_error progs k) as [p|]; [|discriminate N]. injection N as <-. exists p. auto.
Qed.

Lemma quiescent_thread : forall (c : config) t,
  quiescent c = true -> In t (c_ths c) -> t_cur t = None /\ t_todo t = [].
Proof.
  intros c t Q I. unfold quiescent in Q. rewrite forallb_forall in Q. specialize (Q t I). unfold finished in Q.
  destruct (t_cur t); [discriminate Q|]. destruct (t_todo t); [split; reflexivity|discriminate Q].
Qed.

Lemma crun_invariant : forall (P : config -> Prop),
  (forall c tid, P c -> P (tstep c tid)) -> forall sched c, P c -> P (crun c sched).
Proof.
  intros P Hs. induction sched as [|t s IH]; intros c H; [exact H|].
  rewrite crun_cons. apply IH, Hs, H.
Qed.

Lemma shared_invariant : forall (P : Sh -> Prop),
  (forall s l, P s -> P (fst (fst (act s l)))) ->
  forall sched (c : config), P (c_sh c) -> P (c_sh (crun c sched)).
Proof.
  intros P Hs. apply (crun_invariant (fun c => P (c_sh c))). intros c tid H.
  apply (tstep_elim (fun c' => P (c_sh c'))); [exact H|]. intros t l todo hist s' l' out _ _ A.
  specialize (Hs (c_sh c) l H). rewrite A in Hs. exact Hs.
Qed.

Section Measure.
Variable acc : list obs -> Z.          (* what a piece of log accounts for *)
Hypothesis acc_app : forall a b, acc (a ++ b) = acc a + acc b.
Variable held : Sh -> Z.               (* what the shared state holds *)
Variable pl : L -> Z.                  (* what a call in progress still holds / owes *)
Variable adds : O -> Z.                (* what a call not yet started will hand over *)
Hypothesis start_ok : forall o, pl (start o) = adds o.

Definition opl (l : option L) : Z := match l with Some x => pl x | None => 0 end.
Definition tmeasure (t : thread) : Z := opl (t_cur t) + zsum adds (t_todo t).
Definition measure (c : config) : Z := acc (plain (c_log c)) + held (c_sh c) + zsum tmeasure (c_ths c).

Lemma next_frame_measure : forall t l todo hist,
  next_frame start t = Some (l, todo, hist) -> tmeasure t = pl l + zsum adds todo.
Proof.
  intros t l todo hist F. unfold tmeasure.
  destruct (next_frame_cases t l todo hist F) as [[-> [-> _]]|[-> [o [-> [-> _]]]]]; [reflexivity|].
  cbn [opl]. rewrite zsum_cons, start_ok. lia.
Qed.

Lemma in_flight_step : forall (ths : list thread) tid t l todo hist l',
  nth_error ths tid = Some t -> next_frame start t = Some (l, todo, hist) ->
  zsum tmeasure (set_nth tid (Thread l' todo hist) ths) + pl l = zsum tmeasure ths + opl l'.
Proof.
  intros ths tid t l todo hist l' N F.
  pose proof (zsum_set_nth _ tmeasure ths tid (Thread l' todo hist) t N) as Z1.
  rewrite (next_frame_measure t l todo hist F) in Z1. unfold tmeasure at 3 in Z1. cbn [t_cur t_todo] in Z1. lia.
Qed.

Hypothesis act_ok : forall s l,
  acc (snd (act s l)) + held (fst (fst (act s l))) + opl (snd (fst (act s l))) = held s + pl l.

Lemma measure_tstep : forall (c : config) tid, measure (tstep c tid) = measure c.
Proof.
  intros c tid. apply (tstep_elim (fun c' => measure c' = measure c)); [reflexivity|].
  intros t l todo hist s' l' out N F A. pose proof (act_ok (c_sh c) l) as H. rewrite A in H. cbn [fst snd] in H.
  unfold measure. cbn [c_sh c_ths c_log]. rewrite plain_app, plain_tag, acc_app.
  pose proof (in_flight_step (c_ths c) tid t l todo hist l' N F). lia.
Qed.

Lemma measure_crun : forall sched (c : config), measure (crun c sched) = measure c.
Proof.
  induction sched as [|t s IH]; intros c; [reflexivity|]. rewrite crun_cons, IH. apply measure_tstep.
Qed.

Hypothesis acc_nil : acc [] = 0.

Lemma in_flight_init : forall (s : Sh) progs, zsum tmeasure (c_ths (cinit s progs)) = zsum (zsum adds) progs.
Proof. intros s progs. unfold cinit. cbn [c_ths]. rewrite zsum_map. reflexivity. Qed.

Lemma measure_init : forall s progs,
  measure (cinit s progs) = held s + zsum (zsum adds) progs.
Proof. intros s progs. unfold measure. rewrite in_flight_init. cbn [cinit c_sh c_log plain map]. rewrite acc_nil. lia. Qed.

Lemma quiescent_tmeasure : forall (c : config), quiescent c = true -> zsum tmeasure (c_ths c) = 0.
Proof.
  intros c Q. apply zsum_zero. intros t Ht. destruct (quiescent_thread c t Q Ht) as [C T].
  unfold tmeasure. rewrite C, T. reflexivity.
Qed.

(* conservation, for every schedule: accounted + held + in flight = initially held + handed over *)
Theorem conservation : forall s progs sched,
  let c := crun (cinit s progs) sched in
  acc (plain (c_log c)) + held (c_sh c) + zsum tmeasure (c_ths c) = held s + zsum (zsum adds) progs.
Proof. intros s progs sched c. unfold c. fold (measure (crun (cinit s progs) sched)). rewrite measure_crun. apply measure_init. Qed.

End Measure.

Lemma zsum_zsum_zero : forall (adds : O -> Z) (progs : list (list O)),
  (forall o, adds o = 0) -> zsum (zsum adds) progs = 0.
Proof. intros adds progs H. apply zsum_zero. intros p _. apply zsum_zero. intros o _. apply H. Qed.
End ConcFacts.

(* nonnegative measures: what is in flight bounds what one thread holds *)
Section InFlight.
Context {L O : Type}.
Variable start : O -> L.
Variable pl : L -> Z.
Variable adds : O -> Z.
Hypothesis start_ok : forall o, pl (start o) = adds o.
Notation thread := (@thread L O).
Notation tmeasure := (tmeasure pl adds).

Hypothesis pl_nonneg : forall l, 0 <= pl l.
Hypothesis adds_nonneg : forall o, 0 <= adds o.

Lemma tmeasure_nonneg : forall t, 0 <= tmeasure t.
Proof.
  intros t. unfold tmeasure. pose proof (zsum_nonneg _ adds (t_todo t) adds_nonneg).
  destruct (t_cur t) as [l|]; cbn [opl]; [specialize (pl_nonneg l)|]; lia.
Qed.

Lemma in_flight_nonneg : forall ths, 0 <= zsum tmeasure ths.
Proof. intros. apply zsum_nonneg, tmeasure_nonneg. Qed.

Lemma frame_le_in_flight : forall ths tid t l todo hist,
  nth_error ths tid = Some t -> next_frame start t = Some (l, todo, hist) -> pl l <= zsum tmeasure ths.
Proof.
  intros ths tid t l todo hist N F. pose proof (zsum_ge_elem _ tmeasure ths tid t tmeasure_nonneg N) as G.
  rewrite (next_frame_measure start pl adds start_ok t l todo hist F) in G. pose proof (zsum_nonneg _ adds todo adds_nonneg). lia.
Qed.
End InFlight.

Definition zdisp (i : item) (l : list obs) : Z := Z.of_nat (disposes i l).
Definition is_rej (i : item) (o : obs) : bool := match o with ORej j => Nat.eqb i j | _ => false end.
Definition rejs (i : item) (l : list obs) : nat := length (filter (is_rej i) l).
Definition zcnt (i : item) (l : list item) : Z := Z.of_nat (cnt i l).

Lemma zdisp_app : forall i a b, zdisp i (a ++ b) = zdisp i a + zdisp i b.
Proof. intros. unfold zdisp. rewrite disposes_app. lia. Qed.
Lemma rejs_app : forall i a b, rejs i (a ++ b) = (rejs i a + rejs i b)%nat.
Proof. intros. unfold rejs. rewrite filter_app, app_length. reflexivity. Qed.
Lemma zdisp_cons : forall i o l, zdisp i (o :: l) = (if is_disp i o then 1 else 0) + zdisp i l.
Proof. intros. unfold zdisp. rewrite disposes_cons. destruct (is_disp i o); lia. Qed.
Lemma zdisp_nil : forall i, zdisp i [] = 0.
Proof. reflexivity. Qed.
Lemma zcnt_cons : forall i x t, zcnt i (x :: t) = (if Nat.eqb i x then 1 else 0) + zcnt i t.
Proof. intros. unfold zcnt. rewrite cnt_cons. destruct (Nat.eqb i x); lia. Qed.
Lemma zcnt_nil : forall i, zcnt i [] = 0.
Proof. reflexivity. Qed.
Lemma zcnt_app : forall i a b, zcnt i (a ++ b) = zcnt i a + zcnt i b.
Proof. intros. unfold zcnt. rewrite cnt_app. lia. Qed.
Lemma zcnt_nonneg : forall i l, 0 <= zcnt i l.
Proof. intros. unfold zcnt. lia. Qed.

(* the balance of [calls]: what it emits now plus what it leaves pending *)
Lemma calls_balance : forall L (mk : list item -> list obs -> L) (pl : L -> Z) (acc : list obs -> Z) i l ret,
  (forall l, pl (mk l ret) = zcnt i l + acc ret) -> acc [] = 0 ->
  acc (snd (calls mk l ret)) + opl pl (fst (calls mk l ret)) = zcnt i l + acc ret.
Proof.
  intros L mk pl acc i l ret Hpl Hnil. unfold calls. destruct l as [|x r]; cbn [fst snd opl].
  - rewrite zcnt_nil. lia.
  - rewrite Hpl, Hnil. lia.
Qed.

(* the actions hand their item lists to [calls] under a [let]: expose the components *)
Lemma let_calls : forall A L (p : option L * list obs) (s : A),
  (let '(l', out) := p in (s, l', out)) = (s, fst p, snd p).
Proof. intros A L [l' out] s. reflexivity. Qed.

Section CompositeConc.
Variable i : item.
Definition cc_pl (l : clocal) : Z :=
  match l with
  | CL_read _ => 0
  | CL_lock o => Z.of_nat (c_adds i o)
  | CL_calls l ret => zcnt i l + zdisp i ret
  | CL_query _ => 0
  end.
Definition cc_adds (o : cop) : Z := Z.of_nat (c_adds i o).
Definition cc_held (s : cstate) : Z := zcnt i (c_items s).

Lemma cc_start_ok : forall o, cc_pl (cc_start o) = cc_adds o.
Proof. intros o. destruct o; reflexivity. Qed.

Lemma cc_calls_balance : forall l ret,
  zdisp i (snd (calls CL_calls l ret)) + opl cc_pl (fst (calls CL_calls l ret)) = zcnt i l + zdisp i ret.
Proof. intros. apply calls_balance; reflexivity. Qed.

Lemma zcnt_remove_first : forall j l, mem j l = true ->
  zcnt i (remove_first j l) + (if Nat.eqb i j then 1 else 0) = zcnt i l.
Proof.
  intros j l M. unfold zcnt. destruct (Nat.eqb i j) eqn:E.
  - apply Nat.eqb_eq in E. subst j. pose proof (cnt_remove_first_same i l M). lia.
  - apply Nat.eqb_neq in E. rewrite (cnt_remove_first_other i j l E). lia.
Qed.

Lemma cc_act_ok : forall s l,
  zdisp i (snd (cc_act s l)) + cc_held (fst (fst (cc_act s l))) + opl cc_pl (snd (fst (cc_act s l)))
  = cc_held s + cc_pl l.
Proof.
  intros s l. unfold cc_held. destruct l as [o|o|l ret|o].
  - (* unlocked read *)
    destruct o as [j|j| | |j| | |]; cbn [cc_act cc_pl];
      try destruct (c_disposed s); cbn [fst snd opl cc_pl c_adds];
      rewrite ?zdisp_cons, ?zdisp_nil; cbn [is_disp]; lia.
  - (* locked block (the queries never reach it) *)
    destruct o as [j|j| | |j| | |]; cbn [cc_act cc_pl c_adds]; rewrite ?let_calls; try reflexivity.
    + destruct (c_disposed s); cbn [fst snd opl cc_pl c_items];
        rewrite zdisp_nil, ?zcnt_app, zcnt_cons, zcnt_nil; destruct (Nat.eqb i j); lia.
    + destruct (mem j (c_items s)) eqn:M; cbn [fst snd opl cc_pl c_items].
      * pose proof (zcnt_remove_first j _ M). rewrite !zdisp_nil, zcnt_cons, zcnt_nil, zdisp_cons, zdisp_nil.
        cbn [is_disp]. destruct (Nat.eqb i j); lia.
      * rewrite zdisp_cons, zdisp_nil. cbn [is_disp]. lia.
    + pose proof (cc_calls_balance (c_items s) []). cbn [fst snd c_items]. rewrite zcnt_nil, zdisp_nil in *. lia.
    + pose proof (cc_calls_balance (c_items s) []). cbn [fst snd c_items]. rewrite zcnt_nil, zdisp_nil in *. lia.
  - (* calls *)
    destruct l as [|x r]; cbn [cc_act cc_pl].
    + cbn [fst snd opl]. rewrite zcnt_nil. lia.
    + pose proof (cc_calls_balance r ret) as B. destruct (calls CL_calls r ret) as [l' out]. cbn [fst snd] in *.
      rewrite zdisp_cons, zcnt_cons. cbn [is_disp]. destruct (Nat.eqb i x); lia.
  - (* queries *)
    cbn [cc_act fst snd opl cc_pl].
    destruct o; cbn [c_step snd]; rewrite ?zdisp_cons, ?zdisp_nil; cbn [is_disp]; lia.
Qed.

Lemma cc_pl_nonneg : forall l, 0 <= cc_pl l.
Proof. intros l. destruct l; cbn [cc_pl]; unfold zcnt, zdisp; lia. Qed.
Lemma cc_adds_nonneg : forall o, 0 <= cc_adds o.
Proof. intros o. unfold cc_adds. lia. Qed.
End CompositeConc.

Definition cc_run (l0 : list item) (progs : list (list cop)) (sched : list nat) :=
  crun cc_start cc_act (cinit (c_init l0) progs) sched.
(* occurrences of item i that calls in progress or not yet started still hold / will hand over *)
Definition cc_in_flight (i : item) (c : @config cstate clocal cop) : Z := zsum (tmeasure (cc_pl i) (cc_adds i)) (c_ths c).
Definition cc_total (i : item) (l0 : list item) (progs : list (list cop)) : Z :=
  zcnt i l0 + zsum (zsum (cc_adds i)) progs.

Lemma cc_in_flight_nonneg : forall i c, 0 <= cc_in_flight i c.
Proof. intros. apply in_flight_nonneg; [apply cc_pl_nonneg|apply cc_adds_nonneg]. Qed.

(* under every schedule, at every moment: dispose() calls received + occurrences held by the container
   + occurrences in flight = occurrences ever handed over *)
Theorem composite_conc_conservation : forall l0 progs sched i,
  let c := cc_run l0 progs sched in
  zdisp i (plain (c_log c)) + zcnt i (c_items (c_sh c)) + cc_in_flight i c = cc_total i l0 progs.
Proof.
  intros l0 progs sched i.
  exact (conservation cc_start cc_act (zdisp i) (zdisp_app i) (cc_held i) (cc_pl i) (cc_adds i)
           (cc_start_ok i) (cc_act_ok i) (zdisp_nil i) (c_init l0) progs sched).
Qed.

Lemma cc_act_c_ok : forall s l, c_ok s -> c_ok (fst (fst (cc_act s l))).
Proof.
  unfold c_ok. intros [its d] l H. cbn [c_items c_disposed] in *. destruct l as [o|o|l ret|o].
  - destruct o; cbn [cc_act c_disposed]; try destruct d; cbn [fst c_items c_disposed]; exact H.
  - destruct o as [j|j| | |j| | |]; cbn [cc_act c_items c_disposed]; try exact H.
    + destruct d; cbn [fst c_items c_disposed]; [exact H|discriminate].
    + destruct (mem j its) eqn:M; cbn [fst c_items c_disposed]; [|exact H].
      intros D. rewrite (H D) in M. discriminate M.
    + destruct (calls CL_calls its []). cbn [fst c_items]. reflexivity.
    + destruct (calls CL_calls its []). cbn [fst c_items]. reflexivity.
  - destruct l as [|x r]; cbn [cc_act]; [exact H|]. destruct (calls CL_calls r ret). exact H.
  - exact H.
Qed.

Lemma cc_run_c_ok : forall l0 progs sched, c_ok (c_sh (cc_run l0 progs sched)).
Proof.
  intros. unfold cc_run. apply (shared_invariant cc_start cc_act c_ok cc_act_c_ok). apply c_init_ok.
Qed.

(* the one-slot containers: Serial, MultipleAssignment, SingleAssignment ([slot_kind]) *)
Section SlotConc.
Variable i : item.
Definition sc_acc (l : list obs) : Z := zdisp i l + Z.of_nat (rejs i l).
Definition sc_pl (l : slocal) : Z :=
  match l with
  | SL_lock o => Z.of_nat (s_sets i o)
  | SL_calls l ret => zcnt i l + sc_acc ret
  | SL_query _ => 0
  end.
Definition sc_adds (o : sop) : Z := Z.of_nat (s_sets i o).
Definition sc_held (x : xstate) : Z := Z.of_nat (ocnt i (s_cur (x_s x))) + zcnt i (x_dropped x).

Lemma sc_acc_app : forall a b, sc_acc (a ++ b) = sc_acc a + sc_acc b.
Proof. intros. unfold sc_acc. rewrite zdisp_app, rejs_app. lia. Qed.
Lemma sc_acc_nil : sc_acc [] = 0.
Proof. reflexivity. Qed.
Lemma sc_acc_cons : forall o l,
  sc_acc (o :: l) = (if is_disp i o then 1 else 0) + (if is_rej i o then 1 else 0) + sc_acc l.
Proof.
  intros. unfold sc_acc. rewrite zdisp_cons. unfold rejs. cbn [filter]. destruct (is_rej i o); cbn [length]; lia.
Qed.

Lemma sc_start_ok : forall o, sc_pl (sc_start o) = sc_adds o.
Proof. intros o. destruct o; reflexivity. Qed.

Lemma sc_calls_balance : forall l ret,
  sc_acc (snd (calls SL_calls l ret)) + opl sc_pl (fst (calls SL_calls l ret)) = zcnt i l + sc_acc ret.
Proof. intros. apply calls_balance; reflexivity. Qed.

Lemma zcnt_opt_list : forall o, zcnt i (opt_list o) = Z.of_nat (ocnt i o).
Proof. intros [j|]; [|reflexivity]. cbn [opt_list ocnt]. rewrite zcnt_cons, zcnt_nil. destruct (Nat.eqb i j); lia. Qed.

Lemma sc_act_ok : forall k x l,
  sc_acc (snd (sc_act k x l)) + sc_held (fst (fst (sc_act k x l))) + opl sc_pl (snd (fst (sc_act k x l)))
  = sc_held x + sc_pl l.
Proof.
  intros k [s dr] l. unfold sc_held. destruct l as [o|l ret|o].
  - destruct o as [j| | |]; cbn [sc_act sc_pl s_sets x_s x_dropped]; rewrite ?let_calls; try reflexivity.
    + (* set: the new item or the previous one goes to the dispose loop, or nothing does *)
      pose proof (sc_calls_balance [j] []) as B1. rewrite zcnt_cons, zcnt_nil, sc_acc_nil in B1.
      pose proof (sc_calls_balance (opt_list (s_cur s)) []) as B2. rewrite zcnt_opt_list, sc_acc_nil in B2.
      destruct k; [| |destruct (s_cur s) as [c|] eqn:C]; try destruct (s_disposed s);
        cbn [fst snd opl x_s x_dropped s_cur ocnt] in *;
        rewrite ?C, ?zcnt_app, ?zcnt_opt_list, ?sc_acc_cons, ?sc_acc_nil; cbn [is_disp is_rej ocnt];
        destruct (Nat.eqb i j); lia.
    + (* dispose *)
      pose proof (sc_calls_balance (opt_list (s_cur s)) []) as B. rewrite zcnt_opt_list, sc_acc_nil in B.
      destruct (s_disposed s); cbn [fst snd opl x_s x_dropped s_cur ocnt] in *; rewrite ?sc_acc_nil; lia.
  - destruct l as [|y r]; cbn [sc_act sc_pl].
    + cbn [fst snd opl x_s x_dropped]. rewrite zcnt_nil. lia.
    + pose proof (sc_calls_balance r ret) as B. destruct (calls SL_calls r ret) as [l' out].
      cbn [fst snd x_s x_dropped] in *. rewrite sc_acc_cons, zcnt_cons. cbn [is_disp is_rej].
      destruct (Nat.eqb i y); lia.
  - cbn [sc_act fst snd opl sc_pl x_s x_dropped].
    destruct o; cbn [slot_query snd]; rewrite sc_acc_cons, sc_acc_nil; cbn [is_disp is_rej]; lia.
Qed.

Lemma sc_pl_nonneg : forall l, 0 <= sc_pl l.
Proof. intros l. destruct l; cbn [sc_pl]; unfold sc_acc, zcnt, zdisp; lia. Qed.
Lemma sc_adds_nonneg : forall o, 0 <= sc_adds o.
Proof. intros o. unfold sc_adds. lia. Qed.
End SlotConc.

Definition sc_run (k : slot_kind) (progs : list (list sop)) (sched : list nat) :=
  crun sc_start (sc_act k) (cinit x_init progs) sched.
Definition sc_in_flight (i : item) (c : @config xstate slocal sop) : Z := zsum (tmeasure (sc_pl i) (sc_adds i)) (c_ths c).
Definition sc_total (i : item) (progs : list (list sop)) : Z := zsum (zsum (sc_adds i)) progs.

Lemma sc_in_flight_nonneg : forall i c, 0 <= sc_in_flight i c.
Proof. intros. apply in_flight_nonneg; [apply sc_pl_nonneg|apply sc_adds_nonneg]. Qed.

(* Serial, MultipleAssignment, SingleAssignment, every schedule, every moment:
   dispose() calls + rejected assignments + current + let go by replacement (Multiple only) + in flight
   = assignments made *)
Theorem slot_conc_conservation : forall k progs sched i,
  let c := sc_run k progs sched in
  zdisp i (plain (c_log c)) + Z.of_nat (rejs i (plain (c_log c)))
  + Z.of_nat (ocnt i (s_cur (x_s (c_sh c)))) + zcnt i (x_dropped (c_sh c)) + sc_in_flight i c
  = sc_total i progs.
Proof.
  intros k progs sched i.
  pose proof (conservation sc_start (sc_act k) (sc_acc i) (sc_acc_app i) (sc_held i) (sc_pl i) (sc_adds i)
           (sc_start_ok i) (sc_act_ok i k) (sc_acc_nil i) x_init progs sched) as H.
  cbv zeta in *. unfold sc_acc, sc_held in H. cbn [x_init x_s x_dropped s_init s_cur ocnt] in H.
  rewrite zcnt_nil in H. unfold sc_run, sc_in_flight, sc_total. lia.
Qed.

(* only a MultipleAssignmentDisposable lets go of an item without disposing it; nobody but a
   SingleAssignmentDisposable rejects *)
Definition x_ok (k : slot_kind) (x : xstate) : Prop :=
  (s_disposed (x_s x) = true -> s_cur (x_s x) = None) /\
  (k <> KMultiple -> x_dropped x = []).

Lemma sc_act_x_ok : forall k x l, x_ok k x -> x_ok k (fst (fst (sc_act k x l))).
Proof.
  intros k [[cur d] dr] l [H1 H2]. unfold x_ok in *. cbn [x_s x_dropped s_cur s_disposed] in *.
  destruct l as [o|l ret|o].
  - destruct o as [j| | |]; cbn [sc_act x_s x_dropped s_cur s_disposed]; rewrite ?let_calls.
    + (* set: the state is unchanged, or the slot of a live container is filled (only Multiple drops) *)
      destruct k; [| |destruct cur]; try destruct d; cbn [fst x_s x_dropped s_cur s_disposed];
        (split; [assumption || discriminate|assumption || (intros X; contradiction X; reflexivity)]).
    + destruct d; cbn [fst x_s x_dropped s_cur s_disposed]; (split; [assumption || reflexivity|exact H2]).
    + split; assumption.
    + split; assumption.
  - destruct l as [|y r]; cbn [sc_act]; [|destruct (calls SL_calls r ret)]; split; assumption.
  - split; assumption.
Qed.

Lemma sc_run_x_ok : forall k progs sched, x_ok k (c_sh (sc_run k progs sched)).
Proof.
  intros. unfold sc_run. apply (shared_invariant sc_start (sc_act k) (x_ok k) (sc_act_x_ok k)).
  split; [discriminate|reflexivity].
Qed.

(* Serial / SingleAssignment: every assignment is, at every moment, exactly one of: rejected, current,
   in flight, or disposed exactly once; in particular never disposed while it is the current one *)
Theorem slot_conc_exact : forall k progs sched i,
  k <> KMultiple ->
  let c := sc_run k progs sched in
  zdisp i (plain (c_log c)) + Z.of_nat (rejs i (plain (c_log c)))
  + Z.of_nat (ocnt i (s_cur (x_s (c_sh c)))) + sc_in_flight i c = sc_total i progs /\
  (sc_total i progs = 1 -> s_cur (x_s (c_sh c)) = Some i -> zdisp i (plain (c_log c)) = 0) /\
  (quiescent c = true -> s_disposed (x_s (c_sh c)) = true ->
   zdisp i (plain (c_log c)) + Z.of_nat (rejs i (plain (c_log c))) = sc_total i progs).
Proof.
  intros k progs sched i K c. pose proof (slot_conc_conservation k progs sched i) as H. cbv zeta in H. fold c in H.
  destruct (sc_run_x_ok k progs sched) as [O1 O2]. fold c in O1, O2. rewrite (O2 K), zcnt_nil in H.
  pose proof (sc_in_flight_nonneg i c) as NF. split; [lia|]. split.
  - intros T C. rewrite C, ocnt_same in H. unfold zdisp in *. lia.
  - intros Q D. rewrite (O1 D) in H. cbn [ocnt] in H.
    assert (sc_in_flight i c = 0) as F0.
    { unfold sc_in_flight. apply (quiescent_tmeasure (sc_pl i) (sc_adds i) c Q). }
    lia.
Qed.

(* Multiple / Single: nothing is disposed and nothing is about to be while the container is live *)
Definition no_calls (t : @thread slocal sop) : Prop := forall l ret, t_cur t <> Some (SL_calls l ret).
Definition sc_live_silent (c : @config xstate slocal sop) : Prop :=
  s_disposed (x_s (c_sh c)) = false ->
  (forall t, In t (c_ths c) -> no_calls t) /\ (forall j, disposes j (plain (c_log c)) = 0%nat).

Lemma sc_act_disposed : forall k x l,
  s_disposed (x_s (fst (fst (sc_act k x l)))) =
  (s_disposed (x_s x) || match l with SL_lock SDispose => true | _ => false end)%bool.
Proof.
  intros k [[cur d] dr] l. destruct l as [o|l ret|o].
  - destruct o as [j| | |]; cbn [sc_act x_s x_dropped s_cur s_disposed]; rewrite ?let_calls.
    + destruct k; [| |destruct cur]; destruct d; reflexivity.
    + destruct d; reflexivity.
    + rewrite orb_false_r; reflexivity.
    + rewrite orb_false_r; reflexivity.
  - destruct l as [|y r]; cbn [sc_act]; [|destruct (calls SL_calls r ret)]; rewrite orb_false_r; reflexivity.
  - rewrite orb_false_r; reflexivity.
Qed.

(* a live container that is not a SerialDisposable: an action other than the locked block of dispose()
   is a whole call, leaves the container live and disposes nothing; a SingleAssignmentDisposable
   rejects only while its slot is taken *)
Lemma sc_act_live : forall k x l x' l' out,
  k <> KSerial -> s_disposed (x_s x) = false ->
  (forall l0 ret, l <> SL_calls l0 ret) -> l <> SL_lock SDispose ->
  sc_act k x l = (x', l', out) ->
  s_disposed (x_s x') = false /\ l' = None /\ (forall j, disposes j out = 0%nat) /\
  (k = KSingle -> s_cur (x_s x') = None -> s_cur (x_s x) = None /\ forall j, rejs j out = 0%nat).
Proof.
  intros k [s dr] l x' l' out K D NC ND A. cbn [x_s] in D.
  destruct l as [o|l0 ret|o]; [destruct o as [j| | |]|contradiction (NC l0 ret eq_refl)|];
    cbn [sc_act x_s x_dropped] in A.
  - (* an assignment fills the slot, or is rejected because the slot is taken *)
    destruct k; [contradiction K; reflexivity| |destruct (s_cur s) eqn:C]; rewrite ?D in A;
      injection A as <- <- <-; cbn [x_s s_cur s_disposed];
      (split; [exact D || reflexivity|split; [reflexivity|split; [reflexivity|intros; congruence]]]).
  - contradiction ND; reflexivity.
  - injection A as <- <- <-. auto.
  - injection A as <- <- <-. auto.
  - injection A as <- <- <-. cbn [x_s]. split; [exact D|]. split; [reflexivity|].
    split; [|intros _ C; split; [exact C|]]; intros j; destruct o; reflexivity.
Qed.

Lemma sc_live_silent_step : forall k c tid,
  k <> KSerial -> sc_live_silent c -> sc_live_silent (tstep sc_start (sc_act k) c tid).
Proof.
  intros k c tid K H. apply tstep_elim; [exact H|]. intros t l todo hist s' l' out N F A.
  unfold sc_live_silent in *. cbn [c_sh c_ths c_log]. intros D'.
  (* the container was live before this action too, which is not the locked block of dispose() *)
  pose proof (sc_act_disposed k (c_sh c) l) as SD. rewrite A in SD. cbn [fst] in SD. rewrite D' in SD.
  symmetry in SD. apply orb_false_iff in SD. destruct SD as [D ND]. destruct (H D) as [H1 H2].
  assert (forall l0 ret, l <> SL_calls l0 ret) as NC.
  { intros l0 ret ->. destruct (next_frame_cases _ _ _ _ _ F) as [[TC _]|[_ [o [_ [X _]]]]].
    - exact (H1 t (nth_error_In _ _ N) l0 ret TC).
    - destruct o; discriminate X. }
  destruct (sc_act_live k (c_sh c) l s' l' out K D NC) as [_ [-> [NO _]]]; [intros ->; discriminate ND|exact A|].
  split.
  - intros t' Ht'. destruct (In_set_nth _ _ _ _ _ Ht') as [->|X]; [intros l0 ret0; discriminate|apply H1, X].
  - intros j. rewrite plain_app, plain_tag, disposes_app, H2, NO. reflexivity.
Qed.

Theorem slot_conc_live_silent : forall k progs sched,
  k <> KSerial -> sc_live_silent (sc_run k progs sched).
Proof.
  intros k progs sched K. unfold sc_run.
  apply (crun_invariant sc_start (sc_act k) sc_live_silent (fun c tid => sc_live_silent_step k c tid K)).
  intros _. split.
  - intros t Ht l ret. apply In_nth_error in Ht. destruct Ht as [n Ht].
    destruct (cinit_thread _ _ _ _ Ht) as [p [_ ->]]. discriminate.
  - intros j. reflexivity.
Qed.

Definition dd_run (progs : list (list dop)) (sched : list nat) := crun dd_start dd_act (cinit d_init progs) sched.
Definition bd_run (progs : list (list dop)) (sched : list nat) := crun bd_start bd_act (cinit d_init progs) sched.

Definition dd_acc (l : list obs) : Z := Z.of_nat (runs l).
Definition dd_held (s : dstate) : Z := if s then 0 else 1.
Definition dd_pl (l : dlocal) : Z := match l with DL_action => 1 | _ => 0 end.
Definition dd_adds (o : dop) : Z := 0.
Definition dd_in_flight (c : @config dstate dlocal dop) : Z := zsum (tmeasure dd_pl dd_adds) (c_ths c).

Lemma dd_acc_app : forall a b, dd_acc (a ++ b) = dd_acc a + dd_acc b.
Proof. intros. unfold dd_acc. rewrite runs_app. lia. Qed.
Lemma dd_act_ok : forall s l,
  dd_acc (snd (dd_act s l)) + dd_held (fst (fst (dd_act s l))) + opl dd_pl (snd (fst (dd_act s l))) = dd_held s + dd_pl l.
Proof. intros s l. destruct l, s; reflexivity. Qed.

Lemma dd_in_flight_nonneg : forall c, 0 <= dd_in_flight c.
Proof. intros. apply in_flight_nonneg; [intros l; destruct l; cbn; lia|intros o; unfold dd_adds; lia]. Qed.

(* the action is invoked at most once under every interleaving of any number of threads and calls:
   (#invocations) + (1 if not yet disposed) + (#threads between the test-and-set and the call) = 1 *)
Theorem disposable_conc_once : forall progs sched,
  let c := dd_run progs sched in
  Z.of_nat (runs (plain (c_log c))) + dd_held (c_sh c) + dd_in_flight c = 1 /\
  (runs (plain (c_log c)) <= 1)%nat /\
  (quiescent c = true -> runs (plain (c_log c)) = if c_sh c then 1%nat else 0%nat).
Proof.
  intros progs sched c.
  pose proof (conservation dd_start dd_act dd_acc dd_acc_app dd_held dd_pl dd_adds (fun o => ltac:(destruct o; reflexivity))
                dd_act_ok eq_refl d_init progs sched) as H. cbv zeta in H. fold (dd_run progs sched) in H. fold c in H.
  rewrite (zsum_zsum_zero dd_adds progs (fun _ => eq_refl)) in H. cbn [d_init dd_held] in H. unfold dd_acc in H.
  fold (dd_in_flight c) in H.
  pose proof (dd_in_flight_nonneg c) as NF.
  assert (0 <= dd_held (c_sh c)) as NH by (unfold dd_held; destruct (c_sh c); lia).
  split; [lia|]. split; [lia|]. intros Q.
  assert (dd_in_flight c = 0) as F0 by (apply (quiescent_tmeasure dd_pl dd_adds c Q)).
  unfold dd_held in *. destruct (c_sh c); lia.
Qed.

(* the answer to an is_disposed query: the only kind of output a BooleanDisposable ever logs (it invokes
   and disposes nothing; the theorem over [bd_run] is in Props/C25.v) *)
Definition quiet (o : obs) : bool := match o with OBool _ => true | _ => false end.

(* ScheduledDisposable: dispose() calls interleaved with scheduler workers *)
Definition hc_run (w : item) (progs : list (list schop)) (sched : list nat) :=
  crun hc_start hc_act (cinit (sch_init w) progs) sched.

Section SchedConc.
Variable i : item.
Definition hc_pl (l : schlocal) : Z := match l with HL_calls l => zcnt i l | _ => 0 end.
Definition hc_adds (o : schop) : Z := 0.
Definition hc_held (s : schstate) : Z := Z.of_nat (ocnt i (s_cur (sch_inner s))).

Lemma hc_calls_balance : forall l,
  zdisp i (snd (calls hl_calls l [])) + opl hc_pl (fst (calls hl_calls l [])) = zcnt i l.
Proof.
  intros l. rewrite (calls_balance _ hl_calls hc_pl (zdisp i) i l []); [rewrite zdisp_nil; lia| |reflexivity].
  intros. rewrite zdisp_nil. cbn. lia.
Qed.

Lemma hc_act_ok : forall s l,
  zdisp i (snd (hc_act s l)) + hc_held (fst (fst (hc_act s l))) + opl hc_pl (snd (fst (hc_act s l)))
  = hc_held s + hc_pl l.
Proof.
  intros [inner q] l. unfold hc_held. destruct l as [| | |l|]; cbn [hc_act hc_pl sch_inner sch_queue].
  - cbn [fst snd opl sch_inner]. rewrite zdisp_cons, zdisp_nil. cbn [is_disp]. lia.
  - destruct q; cbn [fst snd opl sch_inner]; rewrite ?zdisp_cons, ?zdisp_nil; cbn [is_disp hc_pl]; lia.
  - destruct (s_disposed inner).
    + cbn [fst snd opl sch_inner]. rewrite zdisp_nil. lia.
    + pose proof (hc_calls_balance (opt_list (s_cur inner))) as B.
      destruct (calls hl_calls (opt_list (s_cur inner)) []) as [l' out].
      cbn [fst snd sch_inner s_cur ocnt] in *. rewrite zcnt_opt_list in B. lia.
  - destruct l as [|y r].
    + cbn [fst snd opl sch_inner]. rewrite zcnt_nil, zdisp_nil. lia.
    + pose proof (hc_calls_balance r) as B. destruct (calls hl_calls r []) as [l' out].
      cbn [fst snd sch_inner] in *. rewrite zdisp_cons, zcnt_cons. cbn [is_disp]. destruct (Nat.eqb i y); lia.
  - cbn [fst snd opl sch_inner]. rewrite zdisp_cons, zdisp_nil. cbn [is_disp]. lia.
Qed.
End SchedConc.

Definition hc_in_flight (i : item) (c : @config schstate schlocal schop) : Z :=
  zsum (tmeasure (hc_pl i) hc_adds) (c_ths c).
Lemma hc_in_flight_nonneg : forall i c, 0 <= hc_in_flight i c.
Proof.
  intros. apply in_flight_nonneg; [intros l; destruct l; cbn [hc_pl]; unfold zcnt; lia|intros o; unfold hc_adds; lia].
Qed.

Theorem scheduled_conc_conservation : forall w progs sched i,
  let c := hc_run w progs sched in
  zdisp i (plain (c_log c)) + Z.of_nat (ocnt i (s_cur (sch_inner (c_sh c)))) + hc_in_flight i c
  = (if Nat.eqb i w then 1 else 0).
Proof.
  intros w progs sched i.
  pose proof (conservation hc_start hc_act (zdisp i) (zdisp_app i) (hc_held i) (hc_pl i) hc_adds
                (fun o => ltac:(destruct o; reflexivity)) (hc_act_ok i) (zdisp_nil i) (sch_init w) progs sched) as H.
  cbv zeta in *. rewrite (zsum_zsum_zero hc_adds progs (fun _ => eq_refl)) in H. unfold hc_held in H.
  unfold hc_run, hc_in_flight.
  replace (Z.of_nat (ocnt i (s_cur (sch_inner (sch_init w))))) with (if Nat.eqb i w then 1 else 0) in H
    by (cbn; destruct (Nat.eqb i w); reflexivity).
  lia.
Qed.

(* the inner slot: it holds the wrapped item until the first queued action disposes it *)
Definition sch_ok (w : item) (s : schstate) : Prop :=
  (s_disposed (sch_inner s) = true -> s_cur (sch_inner s) = None) /\
  (s_disposed (sch_inner s) = false -> s_cur (sch_inner s) = Some w).

Lemma hc_act_sch_ok : forall w s l, sch_ok w s -> sch_ok w (fst (fst (hc_act s l))).
Proof.
  intros w [[cur d] q] l [H1 H2]. unfold sch_ok in *. cbn [sch_inner s_cur s_disposed] in *.
  destruct l as [| | |l|]; cbn [hc_act sch_inner sch_queue s_cur s_disposed].
  - cbn [fst sch_inner s_cur s_disposed]. split; assumption.
  - destruct q; cbn [fst sch_inner s_cur s_disposed]; split; assumption.
  - destruct d; [cbn [fst sch_inner s_cur s_disposed]; split; assumption|].
    destruct (calls hl_calls (opt_list cur) []). cbn [fst sch_inner s_cur s_disposed]. split; [reflexivity|discriminate].
  - destruct l as [|y r]; [cbn [fst sch_inner s_cur s_disposed]; split; assumption|].
    destruct (calls hl_calls r []). cbn [fst sch_inner s_cur s_disposed]. split; assumption.
  - cbn [fst sch_inner s_cur s_disposed]. split; assumption.
Qed.

Lemma hc_run_sch_ok : forall w progs sched, sch_ok w (c_sh (hc_run w progs sched)).
Proof.
  intros. unfold hc_run. apply (shared_invariant hc_start hc_act (sch_ok w) (hc_act_sch_ok w)).
  split; [discriminate|reflexivity].
Qed.

(* relation between "the scheduler invoked a queued action" (ORun) and the inner slot being disposed *)
Definition hc_inv (c : @config schstate schlocal schop) : Prop :=
  (forall k t, nth_error (c_ths c) k = Some t -> t_cur t = Some HL_lock -> (1 <= runs (plain (c_log c)))%nat) /\
  ((1 <= runs (plain (c_log c)))%nat ->
   s_disposed (sch_inner (c_sh c)) = true \/
   exists k t, nth_error (c_ths c) k = Some t /\ t_cur t = Some HL_lock) /\
  (s_disposed (sch_inner (c_sh c)) = true -> (1 <= runs (plain (c_log c)))%nat).

Lemma hc_act_disposed : forall s l,
  s_disposed (sch_inner (fst (fst (hc_act s l)))) =
  (s_disposed (sch_inner s) || match l with HL_lock => true | _ => false end)%bool.
Proof.
  intros [[cur d] q] l. destruct l as [| | |l|]; cbn [hc_act sch_inner sch_queue s_cur s_disposed].
  - rewrite orb_false_r; reflexivity.
  - destruct q; rewrite orb_false_r; reflexivity.
  - destruct d; [reflexivity|]. destruct (calls hl_calls (opt_list cur) []). reflexivity.
  - destruct l as [|y r]; [|destruct (calls hl_calls r [])]; rewrite orb_false_r; reflexivity.
  - rewrite orb_false_r; reflexivity.
Qed.

(* the pop of a non-empty queue logs ORun and leads to the locked block; nothing else does either *)
Lemma hc_act_runs : forall s l,
  (snd (fst (hc_act s l)) = Some HL_lock /\ runs (snd (hc_act s l)) = 1%nat) \/
  (snd (fst (hc_act s l)) <> Some HL_lock /\ runs (snd (hc_act s l)) = 0%nat).
Proof.
  intros [inner q] l. destruct l as [| | |l|]; cbn [hc_act sch_inner sch_queue].
  - right. split; [discriminate|reflexivity].
  - destruct q; [right; split; [discriminate|reflexivity]|left; split; reflexivity].
  - right. destruct (s_disposed inner); [split; [discriminate|reflexivity]|].
    destruct (opt_list (s_cur inner)); split; (discriminate || reflexivity).
  - right. destruct l as [|y [|z r]]; split; (discriminate || reflexivity).
  - right. split; [discriminate|reflexivity].
Qed.

Lemma hc_inv_step : forall c tid, hc_inv c -> hc_inv (tstep hc_start hc_act c tid).
Proof.
  intros c tid [I1 [I2 I3]]. apply tstep_elim; [split; [exact I1|split; assumption]|].
  intros t l todo hist s' l' out N F A.
  pose proof (hc_act_disposed (c_sh c) l) as SD. rewrite A in SD. cbn [fst] in SD.
  (* no call starts at the locked block: a thread whose next action it is, is parked there *)
  assert (l = HL_lock <-> t_cur t = Some HL_lock) as AtLock.
  { destruct (next_frame_cases _ _ _ _ _ F) as [[TC _]|[TC [o [_ [X _]]]]]; rewrite TC; [split; congruence|].
    split; [intros ->; destruct o|]; discriminate. }
  unfold hc_inv. cbn [c_sh c_ths c_log]. rewrite plain_app, plain_tag, runs_app, SD.
  destruct (hc_act_runs (c_sh c) l) as [[L' RO]|[L' RO]]; rewrite A in L', RO; cbn [fst snd] in L', RO; rewrite RO.
  - (* the scheduler invokes a queued action: the acting thread goes to the locked block *)
    split; [intros; lia|split; [|intros; lia]]. intros _. right. exists tid, (Thread l' todo hist).
    split; [apply nth_set_nth_eq; apply nth_error_Some; congruence|exact L'].
  - rewrite Nat.add_0_r. split; [|split].
    + intros k t' N' C'. destruct (nth_error_set_nth_cases N') as [[-> ->]|[_ N2]]; [contradiction|apply (I1 k t' N2 C')].
    + intros R. destruct (I2 R) as [D|[k [t0 [N0 C0]]]]; [left; rewrite D; reflexivity|].
      destruct (Nat.eq_dec k tid) as [->|NE].
      * (* the thread that was at the locked block has just executed it *)
        left. rewrite N in N0. injection N0 as <-. apply AtLock in C0. subst l. apply orb_true_r.
      * right. exists k, t0. split; [rewrite nth_set_nth_neq by exact NE; exact N0|exact C0].
    + intros D'. apply orb_true_iff in D'. destruct D' as [D|X]; [exact (I3 D)|].
      destruct l; try discriminate X. apply (I1 tid t N). apply AtLock. reflexivity.
Qed.

Lemma hc_run_inv : forall w progs sched, hc_inv (hc_run w progs sched).
Proof.
  intros. unfold hc_run. apply (crun_invariant hc_start hc_act hc_inv hc_inv_step).
  unfold hc_inv, cinit. cbn [c_sh c_ths c_log plain map runs filter length sch_init]. split; [|split].
  - intros k t N C. destruct (cinit_thread (sch_init w) _ _ _ N) as [p [_ ->]]. discriminate C.
  - intros X. lia.
  - cbn. discriminate.
Qed.

(* the wrapped item sits in the inner slot until the first queued action takes it: its dispose() calls,
   made or about to be made, are as many as the inner flag says *)
Lemma scheduled_conc_balance : forall w progs sched,
  let c := hc_run w progs sched in
  zdisp w (plain (c_log c)) + hc_in_flight w c = (if s_disposed (sch_inner (c_sh c)) then 1 else 0).
Proof.
  intros w progs sched c. pose proof (scheduled_conc_conservation w progs sched w) as H. cbv zeta in H. fold c in H.
  rewrite Nat.eqb_refl in H. destruct (hc_run_sch_ok w progs sched) as [O1 O2]. fold c in O1, O2.
  destruct (s_disposed (sch_inner (c_sh c))); [rewrite (O1 eq_refl), ocnt_none in H|rewrite (O2 eq_refl), ocnt_same in H]; lia.
Qed.

(* exactly once, on the scheduler: under every interleaving the wrapped item receives at most one
   dispose() and nothing else is disposed; once all calls returned it received exactly one iff the
   scheduler invoked at least one of the queued actions *)
Theorem scheduled_conc_once : forall w progs sched,
  let c := hc_run w progs sched in
  zdisp w (plain (c_log c)) <= 1 /\
  (forall j, j <> w -> zdisp j (plain (c_log c)) = 0) /\
  (quiescent c = true ->
   zdisp w (plain (c_log c)) = (if (1 <=? runs (plain (c_log c)))%nat then 1 else 0) /\
   s_disposed (sch_inner (c_sh c)) = (1 <=? runs (plain (c_log c)))%nat).
Proof.
  intros w progs sched c.
  pose proof (scheduled_conc_balance w progs sched) as B. cbv zeta in B. fold c in B.
  pose proof (hc_in_flight_nonneg w c) as NF.
  split; [destruct (s_disposed (sch_inner (c_sh c))); lia|]. split.
  - intros j Hj. pose proof (scheduled_conc_conservation w progs sched j) as Hjc. cbv zeta in Hjc. fold c in Hjc.
    rewrite (proj2 (Nat.eqb_neq j w) Hj) in Hjc.
    pose proof (hc_in_flight_nonneg j c). unfold zdisp in *. lia.
  - intros Q. destruct (hc_run_inv w progs sched) as [_ [I2 I3]]. fold c in I2, I3.
    assert (hc_in_flight w c = 0) as F0 by (apply (quiescent_tmeasure (hc_pl w) hc_adds c Q)).
    (* no thread is left at the locked block, so the flag says whether an action was invoked *)
    assert (s_disposed (sch_inner (c_sh c)) = (1 <=? runs (plain (c_log c)))%nat) as E.
    { destruct (s_disposed (sch_inner (c_sh c))) eqn:D; symmetry; [apply Nat.leb_le, I3; reflexivity|].
      apply Nat.leb_gt. destruct (le_lt_dec 1 (runs (plain (c_log c)))) as [LE|LT]; [|exact LT]. exfalso.
      destruct (I2 LE) as [X|[k [t [Nk Ck]]]]; [discriminate X|].
      destruct (quiescent_thread c t Q (nth_error_In _ _ Nk)) as [C _]. congruence. }
    rewrite <- E. split; [lia|reflexivity].
Qed.

Definition rc_run (progs : list (list rop)) (sched : list nat) := crun rc_start rc_act (cinit r_init progs) sched.

Definition b2z (b : bool) : Z := if b then 1 else 0.
Definition zero_acc (l : list obs) : Z := 0.
Definition radds (o : rop) : Z := 0.
(* tokens: a thread between taking an inner handle's parent and the decrement holds one unit of count *)
Definition tok_pl (l : rlocal) : Z := match l with RL_relread | RL_rellock => 1 | _ => 0 end.
Definition tok_held (s : rstate) : Z := Z.of_nat (live (r_deps s)) - r_count s.
(* the underlying item: a thread that set is_disposed owes exactly one dispose() *)
Definition und_pl (l : rlocal) : Z := match l with RL_callu => 1 | _ => 0 end.
Definition und_held (s : rstate) : Z := - b2z (r_disposed s).
Definition und_acc (l : list obs) : Z := zdisp underlying l.

Definition rc_tokens (c : @config rstate rlocal rop) : Z := zsum (tmeasure tok_pl radds) (c_ths c).
Definition rc_owed (c : @config rstate rlocal rop) : Z := zsum (tmeasure und_pl radds) (c_ths c).

Definition rc_inv (c : @config rstate rlocal rop) : Prop :=
  r_count (c_sh c) = Z.of_nat (live (r_deps (c_sh c))) + rc_tokens c /\
  und_acc (plain (c_log c)) + rc_owed c = b2z (r_disposed (c_sh c)) /\
  r_disposed (c_sh c) = (r_primary (c_sh c) && (r_count (c_sh c) =? 0))%bool.

Lemma tok_pl_nonneg : forall l, 0 <= tok_pl l.
Proof. intros l. destruct l; cbn; lia. Qed.
Lemma und_pl_nonneg : forall l, 0 <= und_pl l.
Proof. intros l. destruct l; cbn; lia. Qed.
Lemma radds_nonneg : forall o, 0 <= radds o.
Proof. intros o. unfold radds. lia. Qed.
Lemma rc_tokens_nonneg : forall c, 0 <= rc_tokens c.
Proof. intros. apply in_flight_nonneg; [apply tok_pl_nonneg|apply radds_nonneg]. Qed.
Lemma rc_owed_nonneg : forall c, 0 <= rc_owed c.
Proof. intros. apply in_flight_nonneg; [apply und_pl_nonneg|apply radds_nonneg]. Qed.

Lemma rc_start_tok : forall o, tok_pl (rc_start o) = radds o.
Proof. intros o. destruct o; reflexivity. Qed.
Lemma rc_start_und : forall o, und_pl (rc_start o) = radds o.
Proof. intros o. destruct o; reflexivity. Qed.

Lemma live_snoc : forall l d, live (l ++ [d]) = (live l + (if is_live d then 1 else 0))%nat.
Proof. intros. rewrite live_app, live_cons, live_nil. unfold b2n. destruct (is_live d); lia. Qed.

(* the balances of one action: tokens, the owed dispose() of the underlying item, and the flag.  Of the
   configuration it needs: the count is not negative, the flag relation, and an acting thread that holds
   a token sees a positive count (so the object cannot be released yet) *)
Lemma rc_act_balance : forall s l s' l' out,
  0 <= r_count s -> r_disposed s = (r_primary s && (r_count s =? 0))%bool ->
  (tok_pl l = 1 -> 1 <= r_count s) ->
  rc_act s l = (s', l', out) ->
  tok_held s' + opl tok_pl l' = tok_held s + tok_pl l /\
  und_acc out + und_held s' + opl und_pl l' = und_held s + und_pl l /\
  r_disposed s' = (r_primary s' && (r_count s' =? 0))%bool.
Proof.
  intros [cn p d deps] l s' l' out CN I3 TP A. unfold tok_held, und_held, und_acc.
  cbn [r_count r_primary r_disposed r_deps] in *.
  assert (1 <= cn -> d = false) as NR.
  { intros P1. rewrite I3. destruct (Z.eqb_spec cn 0); [lia|apply andb_false_r]. }
  destruct l; cbn [rc_act r_step r_count r_primary r_disposed r_deps tok_pl] in A, TP.
  - (* the disposable property *)
    destruct d; cbn [fst] in A; injection A as <- <- <-; cbn [r_count r_primary r_disposed r_deps opl tok_pl und_pl];
      rewrite live_snoc, zdisp_nil; cbn [is_live b2z]; (split; [lia|split; [lia|]]).
    + exact I3.
    + destruct (cn + 1 =? 0) eqn:E1; [apply Z.eqb_eq in E1; lia|]. rewrite andb_false_r. reflexivity.
  - (* an inner handle's own locked block *)
    destruct (nth_error deps k) as [[[|]|b]|] eqn:NK; injection A as <- <- <-;
      cbn [r_count r_primary r_disposed r_deps opl tok_pl und_pl]; rewrite zdisp_nil.
    + pose proof (live_set_nth deps k _ (DInner false) NK) as LS. cbn [is_live b2n] in LS.
      split; [lia|split; [lia|exact I3]].
    + split; [lia|split; [lia|exact I3]].
    + pose proof (live_set_nth deps k _ (DInert true) NK) as LS. cbn [is_live b2n] in LS.
      split; [lia|split; [lia|exact I3]].
    + split; [lia|split; [lia|exact I3]].
  - (* release(): unlocked is_disposed pre-check; a token holder never sees it set *)
    rewrite (NR (TP eq_refl)) in *. injection A as <- <- <-.
    cbn [r_count r_primary r_disposed r_deps opl tok_pl und_pl]. rewrite zdisp_nil. split; [lia|split; [lia|exact I3]].
  - (* release(): the decrement *)
    rewrite (NR (TP eq_refl)) in *.
    destruct ((cn - 1 =? 0) && p)%bool eqn:Z0; injection A as <- <- <-;
      cbn [r_count r_primary r_disposed r_deps opl tok_pl und_pl b2z]; rewrite zdisp_nil.
    + apply andb_true_iff in Z0. destruct Z0 as [Z1 ->]. rewrite Z1. split; [lia|split; [lia|reflexivity]].
    + split; [lia|split; [lia|]]. rewrite andb_comm in Z0. symmetry. exact Z0.
  - (* dispose(): unlocked pre-check *)
    destruct d; injection A as <- <- <-; cbn [r_count r_primary r_disposed r_deps opl tok_pl und_pl]; rewrite zdisp_nil;
      (split; [lia|split; [lia|exact I3]]).
  - (* dispose(): locked block *)
    destruct p.
    + injection A as <- <- <-. cbn [r_count r_primary r_disposed r_deps opl tok_pl und_pl]. rewrite zdisp_nil.
      split; [lia|split; [lia|exact I3]].
    + cbn [andb] in I3. subst d. destruct (cn =? 0) eqn:Z0; injection A as <- <- <-;
        cbn [r_count r_primary r_disposed r_deps opl tok_pl und_pl b2z]; rewrite zdisp_nil, Z0;
        (split; [lia|split; [lia|reflexivity]]).
  - (* the call on the underlying item *)
    injection A as <- <- <-. cbn [r_count r_primary r_disposed r_deps opl tok_pl und_pl].
    rewrite zdisp_cons, zdisp_nil. cbn [is_disp underlying Nat.eqb]. split; [lia|split; [lia|exact I3]].
  - injection A as <- <- <-. cbn [r_count r_primary r_disposed r_deps opl tok_pl und_pl].
    rewrite zdisp_cons, zdisp_nil. cbn [is_disp]. split; [lia|split; [lia|exact I3]].
Qed.

Lemma rc_inv_step : forall c tid, rc_inv c -> rc_inv (tstep rc_start rc_act c tid).
Proof.
  intros c tid I. apply tstep_elim; [exact I|]. intros t l todo hist s' l' out N F A. destruct I as [I1 [I2 I3]].
  pose proof (rc_tokens_nonneg c) as TN.
  (* what the acting thread holds is part of the tokens in flight *)
  pose proof (frame_le_in_flight rc_start tok_pl radds rc_start_tok tok_pl_nonneg radds_nonneg _ _ _ _ _ _ N F) as G.
  fold (rc_tokens c) in G.
  destruct (rc_act_balance (c_sh c) l s' l' out) as [B1 [B2 B3]]; [lia|exact I3|lia|exact A|].
  pose proof (in_flight_step rc_start tok_pl radds rc_start_tok (c_ths c) tid t l todo hist l' N F) as Z1.
  pose proof (in_flight_step rc_start und_pl radds rc_start_und (c_ths c) tid t l todo hist l' N F) as Z2.
  unfold rc_inv, rc_tokens, rc_owed, tok_held, und_held, und_acc in *. cbn [c_sh c_ths c_log].
  rewrite plain_app, plain_tag, zdisp_app. split; [lia|split; [lia|exact B3]].
Qed.

Theorem rc_run_inv : forall progs sched, rc_inv (rc_run progs sched).
Proof.
  intros. unfold rc_run. apply (crun_invariant rc_start rc_act rc_inv rc_inv_step).
  unfold rc_inv, rc_tokens, rc_owed. rewrite !in_flight_init, (zsum_zsum_zero radds progs (fun _ => eq_refl)).
  repeat split.
Qed.

(* C27 under every interleaving, at every moment:
   - the underlying item receives at most one dispose();
   - if it received one, dispose() was executed on the primary (is_primary_disposed), the count is zero:
     no handed-out dependent is still undisposed and no dependent's dispose() is still in progress
     between taking the handle and the decrement -- each handle contributes at most one decrement
     however many threads dispose it, because its parent link is taken under its own lock;
   - when all calls have returned, it received exactly one iff the primary was disposed and every
     handed-out dependent was disposed. *)
Theorem refcount_conc : forall progs sched,
  let c := rc_run progs sched in
  und_acc (plain (c_log c)) <= 1 /\
  (1 <= und_acc (plain (c_log c)) ->
   r_primary (c_sh c) = true /\ live (r_deps (c_sh c)) = 0%nat /\ rc_tokens c = 0) /\
  (quiescent c = true ->
   und_acc (plain (c_log c)) = b2z (r_primary (c_sh c) && (live (r_deps (c_sh c)) =? 0)%nat)).
Proof.
  intros progs sched c. destruct (rc_run_inv progs sched) as [I1 [I2 I3]]. fold c in I1, I2, I3.
  pose proof (rc_tokens_nonneg c) as TN. pose proof (rc_owed_nonneg c) as ON.
  split; [unfold b2z in I2; destruct (r_disposed (c_sh c)); lia|]. split.
  - intros U. assert (r_disposed (c_sh c) = true) as D by (unfold b2z in I2; destruct (r_disposed (c_sh c)); [reflexivity|lia]).
    rewrite D in I3. symmetry in I3. apply andb_true_iff in I3. destruct I3 as [P Z0]. apply Z.eqb_eq in Z0.
    split; [exact P|]. split; lia.
  - intros Q. assert (rc_tokens c = 0) as T0 by (apply (quiescent_tmeasure tok_pl radds c Q)).
    assert (rc_owed c = 0) as O0 by (apply (quiescent_tmeasure und_pl radds c Q)).
    rewrite O0, Z.add_0_r in I2. rewrite I2, I3. f_equal. f_equal.
    destruct (live (r_deps (c_sh c)) =? 0)%nat eqn:L.
    + apply Nat.eqb_eq in L. apply Z.eqb_eq. lia.
    + apply Nat.eqb_neq in L. apply Z.eqb_neq. lia.
Qed.

Lemma rc_act_primary : forall s l,
  r_primary (fst (fst (rc_act s l))) = (r_primary s || match l with RL_lock => true | _ => false end)%bool.
Proof.
  intros s l. destruct l; cbn [rc_act r_step]; rewrite ?orb_false_r.
  - destruct (r_disposed s); reflexivity.
  - destruct (nth_error (r_deps s) k) as [[[|]|b]|]; reflexivity.
  - destruct (r_disposed s); reflexivity.
  - destruct ((r_count s - 1 =? 0) && r_primary s)%bool; reflexivity.
  - destruct (r_disposed s); reflexivity.
  - destruct (r_primary s) eqn:P; [exact P|]. destruct (r_count s =? 0); reflexivity.
  - reflexivity.
  - reflexivity.
Qed.

Lemma rc_act_next : forall s l s' l' out, rc_act s l = (s', Some l', out) ->
  match l' with
  | RL_lock => l = RL_read
  | RL_relread | RL_rellock | RL_callu => True
  | _ => False
  end.
Proof.
  intros s l s' l' out A. destruct l; cbn [rc_act r_step] in A.
  - discriminate A.
  - destruct (nth_error (r_deps s) k) as [[[|]|b]|]; try discriminate A. injection A as _ <- _. exact I.
  - destruct (r_disposed s); try discriminate A. injection A as _ <- _. exact I.
  - destruct ((r_count s - 1 =? 0) && r_primary s)%bool; try discriminate A. injection A as _ <- _. exact I.
  - destruct (r_disposed s); try discriminate A. injection A as _ <- _. reflexivity.
  - destruct (r_primary s); [discriminate A|]. destruct (r_count s =? 0); try discriminate A.
    injection A as _ <- _. exact I.
  - discriminate A.
  - discriminate A.
Qed.

(* For the refutations in Props/C26.v (witnesses by evaluation): SingleAssignmentDisposable without
   proposed_fixes/C26-singleassignment-locked-decision.diff, i.e. deciding outside the lock (models
   [sad0_step], [s0_act]).  The refuting schedules are interleavings that the K3 thread controller of the
   harness reproduces on that source file.
   Item 0 stands for a falsy disposable (an empty CompositeDisposable: __len__ == 0). *)
Definition truthy_ex (i : item) : bool := negb (Nat.eqb i 0).

Definition s0_run (progs : list (list sop)) (sched : list nat) :=
  crun s0_start (s0_act (fun _ => true)) (cinit s_init progs) sched.
