(* The clause "no earlier than their due time" of C33, on the transition system Core/AsyncIO.v.

   Every schedule call records the due time of the new call in the ghost list [adue] (index = uid of the
   call): the clock at the call, plus the relative delay when that is positive (schedule_absolute:
   the delay is `duetime - now`).  [adue] is append-only.  Proved over ALL schedules (thread steps and clock
   advances), for both schedulers, repaired or not, any loop-thread calls, any foreign threads, any action
   bodies, any placement of loop.stop() / run again:  an action starts only when the clock has reached the
   due time recorded for its call.

   The invariant [NI] follows a handle through the loop:
     - an `interval` handle (CbAction u) that is in _ready, or popped and being tested / run, is due:
       adue[u] <= clock  (call_soon: created with due = clock; a timer is moved to _ready by the timer-heap
       step of _run_once only when its `when` <= clock, see [split_due]);
     - an `interval` handle in the timer heap with key `when` has adue[u] <= when
       (plain scheduler: when = clock at the call + d = adue[u]; thread-safe: stage2 runs call_later(d) LATER
       than the call, when = clock' + d with clock' >= clock at the call);
     - a `stage2` handle (CbStage2 u d), wherever it is, has adue[u] <= clock + d (the clock never goes back);
     - every handle the loop can reach exists (index < number of handles), so a handle created later cannot
       be confused with it. *)
From RxVerif Require Import Base.Prelude Core.AsyncIO Core.AsyncIOFacts.
Local Open Scope Z_scope.

Definition dueat (due : list Z) (u : nat) (bound : Z) : Prop :=
  exists dv, nth_error due u = Some dv /\ dv <= bound.

Lemma dueat_ext : forall due x u b, dueat due u b -> dueat (due ++ [x]) u b.
Proof. intros due x u b [dv [N L]]. exists dv. split; [apply nth_error_app_old; exact N|exact L]. Qed.

Lemma dueat_mono : forall due u b b', dueat due u b -> b <= b' -> dueat due u b'.
Proof. intros due u b b' [dv [N L]] LE. exists dv. split; [exact N|lia]. Qed.

Record NI (clk : Z) (hs : list cb) (hd rd : list nat) (tm : list (Z * nat)) (due : list Z) (n : nat)
          (lg : list (nat * Z * aev)) : Prop := {
  n_len : length due = n;
  n_bound : forall h, In h (hd ++ rd ++ map snd tm) -> (h < length hs)%nat;
  n_ready : forall h u, In h (hd ++ rd) -> nth_error hs h = Some (CbAction u) -> dueat due u clk;
  n_timer : forall w h u, In (w, h) tm -> nth_error hs h = Some (CbAction u) -> dueat due u w;
  n_stage : forall h u d, nth_error hs h = Some (CbStage2 u d) -> dueat due u (clk + d);
  n_log : forall tid t u, In (tid, t, AStart u) lg -> dueat due u t
}.
Arguments n_len {clk hs hd rd tm due n lg} _.
Arguments n_bound {clk hs hd rd tm due n lg} _.
Arguments n_ready {clk hs hd rd tm due n lg} _.
Arguments n_timer {clk hs hd rd tm due n lg} _.
Arguments n_stage {clk hs hd rd tm due n lg} _.
Arguments n_log {clk hs hd rd tm due n lg} _.

Lemma NI_clock : forall clk clk' hs hd rd tm due n lg, clk <= clk' ->
  NI clk hs hd rd tm due n lg -> NI clk' hs hd rd tm due n lg.
Proof.
  intros clk clk' hs hd rd tm due n lg LE q. constructor; try apply q.
  - intros h u I N. eapply dueat_mono; [eapply (n_ready q); eassumption|exact LE].
  - intros h u d N. eapply dueat_mono; [eapply (n_stage q); eassumption|lia].
Qed.

Lemma NI_push_due : forall clk hs hd rd tm due n lg x,
  NI clk hs hd rd tm due n lg -> NI clk hs hd rd tm (due ++ [x]) (S n) lg.
Proof.
  intros clk hs hd rd tm due n lg x q. constructor.
  - rewrite app_length. cbn. rewrite (n_len q). lia.
  - apply q.
  - intros h u I N. apply dueat_ext. eapply (n_ready q); eassumption.
  - intros w h u I N. apply dueat_ext. eapply (n_timer q); eassumption.
  - intros h u d N. apply dueat_ext. eapply (n_stage q); eassumption.
  - intros tid t u I. apply dueat_ext. eapply (n_log q); eassumption.
Qed.

(* a new handle: its index goes to _ready (call_soon[_threadsafe]: an interval must be due now) or into the
   heap with expiry [w] (call_later) *)
Lemma NI_add_handle : forall clk hs hd rd tm due n lg c rd' tm' w,
  NI clk hs hd rd tm due n lg ->
  (rd' = rd ++ [length hs] /\ tm' = tm /\ w = clk \/ rd' = rd /\ tm' = tinsert w (length hs) tm) ->
  (forall u, c = CbAction u -> dueat due u w) ->
  (forall u d, c = CbStage2 u d -> dueat due u (clk + d)) ->
  NI clk (hs ++ [c]) hd rd' tm' due n lg.
Proof.
  intros clk hs hd rd tm due n lg c rd' tm' w q PL CA CS.
  assert (OLD : forall h x, nth_error (hs ++ [c]) h = Some x -> In h (hd ++ rd ++ map snd tm) -> nth_error hs h = Some x).
  { intros h x N I. apply nth_error_app_inv in N. destruct N as [N|[-> _]]; [exact N|].
    apply (n_bound q) in I. lia. }
  constructor; try apply q.
  - intros h I. rewrite app_length. cbn [length].
    assert (J : h = length hs \/ In h (hd ++ rd ++ map snd tm)).
    { destruct PL as [(-> & -> & _)|[-> ->]]; [apply in_add_ready|eapply in_add_timer]; exact I. }
    destruct J as [->|J]; [lia|]. apply (n_bound q) in J. lia.
  - intros h u I N. destruct PL as [(-> & _ & ->)|[-> _]].
    + rewrite app_assoc in I. apply in_app_or in I. destruct I as [I|[<-|[]]].
      * eapply (n_ready q); [exact I|]. apply (OLD _ _ N). rewrite app_assoc. apply in_or_app. left. exact I.
      * rewrite nth_error_app_last in N. inv N. apply CA. reflexivity.
    + eapply (n_ready q); [exact I|]. apply (OLD _ _ N). rewrite app_assoc. apply in_or_app. left. exact I.
  - intros w0 h u I N.
    assert (J : In (w0, h) tm \/ (w0 = w /\ h = length hs)).
    { destruct PL as [(_ & -> & _)|[_ ->]]; [left; exact I|]. apply tinsert_in in I.
      destruct I as [I|I]; [inv I; auto|left; exact I]. }
    destruct J as [J|[-> ->]].
    + eapply (n_timer q); [exact J|]. apply (OLD _ _ N). apply in_or_app. right. apply in_or_app. right.
      apply in_map_iff. exists (w0, h). split; [reflexivity|exact J].
    + rewrite nth_error_app_last in N. inv N. apply CA. reflexivity.
  - intros h u d N. apply nth_error_app_inv in N. destruct N as [N|[_ <-]]; [apply (n_stage q _ _ _ N)|].
    apply CS. reflexivity.
Qed.

(* `while self._scheduled and self._scheduled[0]._cancelled: heappop` *)
Lemma NI_drop : forall clk hs hd rd tm due n lg canc,
  NI clk hs hd rd tm due n lg -> NI clk hs hd rd (drop_cancelled canc tm) due n lg.
Proof.
  intros clk hs hd rd tm due n lg canc q. constructor; try apply q.
  - intros h I. apply (n_bound q).
    apply in_app_or in I. destruct I as [I|I]; [apply in_or_app; left; exact I|].
    apply in_app_or in I. destruct I as [I|I]; apply in_or_app; right; apply in_or_app; [left; exact I|right].
    apply in_map_iff in I. destruct I as [[w0 h0] [E I]]. apply in_map_iff. exists (w0, h0). split; [exact E|].
    eapply drop_cancelled_in, I.
  - intros w h u I N. eapply (n_timer q); [eapply drop_cancelled_in, I|exact N].
Qed.

(* the timer-heap step of _run_once: exactly the timers with `when <= now` are moved to _ready *)
Lemma NI_wake : forall clk hs rd tm due n lg dl rest, split_due clk tm = (dl, rest) ->
  NI clk hs [] rd tm due n lg -> NI clk hs [] (rd ++ dl) rest due n lg.
Proof.
  intros clk hs rd tm due n lg dl rest S q. constructor; try apply q.
  - intros h I. apply (n_bound q). cbn [app] in *. rewrite (split_due_handles _ _ _ _ S).
    rewrite <- app_assoc in I. exact I.
  - intros h u I N. cbn [app] in I. apply in_app_or in I. destruct I as [I|I].
    + eapply (n_ready q); [cbn [app]; exact I|exact N].
    + destruct (split_due_due _ _ _ _ S h I) as [w [IW LE]].
      eapply dueat_mono; [eapply (n_timer q); eassumption|exact LE].
  - intros w h u I N. eapply (n_timer q); [eapply split_due_rest; eassumption|exact N].
Qed.

Lemma NI_release : forall clk hs h rd tm due n lg,
  NI clk hs [h] rd tm due n lg -> NI clk hs [] rd tm due n lg.
Proof.
  intros clk hs h rd tm due n lg q. constructor; try apply q.
  - intros h0 I. apply (n_bound q). right. exact I.
  - intros h0 u I N. eapply (n_ready q); [right; exact I|exact N].
Qed.

Lemma NI_log : forall clk hs hd rd tm due n lg ext,
  NI clk hs hd rd tm due n lg ->
  (forall tid t u, In (tid, t, AStart u) ext -> dueat due u t) ->
  NI clk hs hd rd tm due n (lg ++ ext).
Proof.
  intros clk hs hd rd tm due n lg ext q E. constructor; try apply q.
  intros tid t u I. apply in_app_or in I. destruct I as [I|I]; [eapply (n_log q), I|eapply E, I].
Qed.

Definition N (s : ash) (hd : list nat) (lg : list (nat * Z * aev)) : Prop :=
  NI (aclock s) (ahs s) hd (aready s) (atimers s) (adue s) (length (ahl s)) lg.

Section Time.
Variable ts : bool.
Variable fixed : bool.
Variable abody : nat -> list aop.

(* what a schedule call records: the clock at the call plus the positive part of the delay *)
Lemma do_sched_due : forall s d,
  adue (fst (do_sched ts s d)) = adue s ++ [aclock s + Z.max 0 d].
Proof.
  intros s d. unfold do_sched. destruct (d <=? 0) eqn:E; [|destruct ts]; unfold set_core; cbn [fst adue].
  - apply Z.leb_le in E. rewrite Z.max_l by lia. rewrite Z.add_0_r. reflexivity.
  - apply Z.leb_gt in E. rewrite Z.max_r by lia. reflexivity.
  - apply Z.leb_gt in E. rewrite Z.max_r by lia. reflexivity.
Qed.

Lemma N_sched : forall s d hd lg, N s hd lg -> N (fst (do_sched ts s d)) hd lg.
Proof.
  intros s d hd lg q. unfold N in *. unfold do_sched.
  pose proof (n_len q) as LN.
  assert (NEW : forall x b, x <= b -> dueat (adue s ++ [x]) (length (ahl s)) b).
  { intros x b LE. exists x. split; [|exact LE]. rewrite <- LN. apply nth_error_app_last. }
  destruct (d <=? 0) eqn:E; [|destruct ts]; unfold set_core; cbn [fst]; proj; rewrite app_length; cbn [length];
    rewrite Nat.add_1_r.
  - eapply NI_add_handle; [apply NI_push_due; exact q|left; auto| |intros u d0 X; discriminate X].
    intros u X. inv X. apply NEW. lia.
  - apply Z.leb_gt in E. eapply NI_add_handle; [apply NI_push_due; exact q|left; auto|intros u X; discriminate X|].
    intros u d0 X. inv X. apply NEW. lia.
  - apply Z.leb_gt in E. eapply NI_add_handle; [apply NI_push_due; exact q|right; auto| |intros u d0 X; discriminate X].
    intros u X. inv X. apply NEW. lia.
Qed.

Lemma N_cstep : forall ol s cur todo s' cur' todo' out hd lg,
  cstep ts fixed ol s cur todo s' cur' todo' out -> N s hd lg -> N s' hd lg.
Proof.
  intros ol s cur todo s' cur' todo' out hd lg C q.
  (* of the calls only a schedule call and the marshalled dispose touch what [N] reads *)
  destruct C; try exact q; try (apply N_sched; exact q); unfold N in *; unfold set_stop; proj; rewrite ?aupd_length; try exact q.
  (* marshalled: call_soon_threadsafe(cancel_handle) *)
  eapply NI_add_handle; [exact q|left; auto|intros u0 X; discriminate X|intros u0 d X; discriminate X].
Qed.

Lemma cstep_due : forall ol s cur todo s' cur' todo' out,
  cstep ts fixed ol s cur todo s' cur' todo' out -> exists ext, adue s' = adue s ++ ext.
Proof.
  intros ol s cur todo s' cur' todo' out C.
  destruct C; try (eexists; apply do_sched_due); exists []; rewrite app_nil_r; reflexivity.
Qed.

(* going on with the next handle of this iteration, or ending the iteration (run_forever tests _stopping;
   the next iteration begins by dropping cancelled timers from the head of the heap) *)
Lemma N_next : forall s k s' ph' lg, next_handle s k = (s', ph') -> N s [] lg -> N s' (held ph') lg.
Proof.
  intros s k s' ph' lg E q. unfold next_handle in E.
  assert (EI : forall s1 p1, end_iter s = (s1, p1) -> N s1 (held p1) lg).
  { intros s1 p1 X. unfold end_iter in X. destruct (astopping s).
    - unfold stop_loop in X. destruct (asegs s); inv X; exact q.
    - unfold begin_iter in X. inv X. unfold N, set_core. proj. cbn [held]. apply NI_drop. exact q. }
  destruct k as [|k']; [apply EI; exact E|]. destruct (aready s) as [|h r] eqn:R; [apply EI; exact E|].
  inv E. unfold N, set_core in *. proj. cbn [held]. rewrite R in q. constructor; try apply q.
Qed.

Lemma next_due : forall s k, adue (fst (next_handle s k)) = adue s.
Proof.
  intros s k. unfold next_handle, end_iter, stop_loop, begin_iter, set_core.
  destruct k; [|destruct (aready s)]; try reflexivity; destruct (astopping s); try reflexivity; destruct (asegs s); reflexivity.
Qed.

Lemma log_nil : forall (lg : list (nat * Z * aev)) tid clk, lg ++ astamp tid clk [] = lg.
Proof. intros. cbn. apply app_nil_r. Qed.

Lemma N_log_other : forall s hd lg tid clk out, N s hd lg -> (forall u, ~ In (AStart u) out) ->
  N s hd (lg ++ astamp tid clk out).
Proof.
  intros s hd lg tid clk out q NS. apply NI_log; [exact q|]. intros tid0 t u I. apply in_astamp in I.
  exfalso. eapply NS. apply I.
Qed.

Lemma N_loop_step : forall quiet s ph s' ph' out lg tid,
  loop_step ts fixed abody quiet s ph = Some (s', ph', out) -> N s (held ph) lg ->
  N s' (held ph') (lg ++ astamp tid (aclock s) out) /\ exists ext, adue s' = adue s ++ ext.
Proof.
  intros quiet s ph s' ph' out lg tid LS q. apply loop_step_spec in LS.
  assert (SAME : forall s0, adue s0 = adue s -> exists ext, adue s0 = adue s ++ ext).
  { intros s0 E. exists []. rewrite app_nil_r. exact E. }
  assert (CALL : forall cur todo s1 cur1 todo1 out1 hd, cstep ts fixed true s cur todo s1 cur1 todo1 out1 ->
            N s hd lg -> N s1 hd (lg ++ astamp tid (aclock s) out1) /\ exists ext, adue s1 = adue s ++ ext).
  { intros cur todo s1 cur1 todo1 out1 hd CS q0. split.
    - apply N_log_other; [eapply N_cstep; eassumption|]. intros u. eapply cstep_no_start, CS.
    - eapply cstep_due, CS. }
  destruct LS as [cur todo s' cur' todo' out C|u k cur todo s' cur' todo' out C|s1 QU ->|h k M|h k u M NT|h k u d M NT
                 |ph s1 k out F]; cbn [held] in *.
  - eapply CALL; eassumption.
  - eapply CALL; eassumption.
  - (* run_forever() *)
    rewrite log_nil. split; [|apply SAME; reflexivity]. unfold begin_iter, N, set_core. cbn [fst snd held]. proj.
    apply NI_drop, q.
  - rewrite log_nil. split; [exact q|apply SAME; reflexivity].
  - (* interval: the action starts -- the handle is due *)
    split; [|apply SAME; reflexivity].
    apply NI_log; [eapply NI_release; exact q|]. intros tid0 t u0 I. apply in_astamp in I.
    destruct I as (_ & -> & [X|[]]). inv X.
    eapply (n_ready q); [left; reflexivity|exact NT].
  - (* stage2: call_later(d, interval) *)
    rewrite log_nil. split; [|apply SAME; reflexivity].
    unfold N. proj. eapply NI_add_handle; [eapply NI_release; exact q|right; auto| |intros u0 d0 X; discriminate X].
    intros u0 X. inv X. eapply (n_stage q). exact NT.
  - (* the loop goes on with the next handle: nothing is held, no call was made *)
    assert (G : N s1 [] (lg ++ astamp tid (aclock s) out) /\ adue s1 = adue s).
    { destruct F as [dl due rst SD|h k M|h k M|h k u f NT|h k NT|u k|u h k]; cbn [held] in q; rewrite ?log_nil;
        (split; [|reflexivity]).
      - unfold N, set_core. proj. eapply NI_wake; eassumption.
      - eapply NI_release. exact q.
      - apply N_log_other; [eapply NI_release; exact q|intros u [X|[]]; discriminate X].
      - unfold N, set_canc, cancel_all. proj.
        destruct (nth_error (ahl s) u) as [[[|] l]|]; cbn [snd]; rewrite ?aupd_length; eapply NI_release; exact q.
      - eapply NI_release. exact q.
      - apply N_log_other; [exact q|intros u0 [X|[]]; discriminate X].
      - unfold N, set_core. proj. destruct (nth_error (ahl s) u) as [[two l]|]; rewrite ?aupd_length; exact q. }
    destruct G as [q1 D]. split; [eapply N_next; [apply surjective_pairing|exact q1]|].
    apply SAME. rewrite next_due. exact D.
Qed.

Notation atstep := (atstep ts fixed abody).
Notation arun := (arun ts fixed abody).

Definition invT (c : aconfig) : Prop :=
  exists ph rest, a_ths c = AL ph :: rest /\ (forall t, In t rest -> is_af t = true) /\
                  N (a_sh c) (held ph) (a_log c).

Lemma in_aupd : forall A (l : list A) k x y, In y (aupd k x l) -> y = x \/ In y l.
Proof.
  induction l as [|z t IH]; intros k x y I; [destruct k; destruct I|].
  destruct k; cbn [aupd] in I; destruct I as [E|I].
  - left. symmetry. exact E.
  - right. right. exact I.
  - right. left. exact E.
  - destruct (IH _ _ _ I) as [E|J]; [left; exact E|right; right; exact J].
Qed.

Lemma invT_step : forall c tid, invT c ->
  invT (atstep c tid) /\ exists ext, adue (a_sh (atstep c tid)) = adue (a_sh c) ++ ext.
Proof.
  intros c tid (ph & rest & TH & AFS & q).
  assert (STAY : invT c /\ exists ext, adue (a_sh c) = adue (a_sh c) ++ ext).
  { split; [exists ph, rest; auto|exists []; rewrite app_nil_r; reflexivity]. }
  unfold AsyncIO.atstep. rewrite TH. destruct tid as [|n]; cbn [nth_error].
  - destruct (loop_step ts fixed abody _ (a_sh c) ph) as [[[s' ph'] out]|] eqn:LS; [|exact STAY].
    destruct (N_loop_step _ _ _ _ _ _ (a_log c) 0%nat LS q) as [q' D]. cbn [a_sh a_log]. split; [|exact D].
    exists ph', rest. split; [reflexivity|]. split; [exact AFS|exact q'].
  - destruct (nth_error rest n) as [t|] eqn:NT; [|exact STAY].
    pose proof (AFS t (nth_error_In _ _ NT)) as AFt. destruct t as [cur todo|p]; [|discriminate AFt].
    destruct (call_step ts fixed false (a_sh c) cur todo) as [[[[s' cur'] todo'] out]|] eqn:CS; [|exact STAY].
    apply call_step_spec in CS. cbn [a_sh a_log]. split; [|eapply cstep_due, CS].
    exists ph, (aupd n (AF cur' todo') rest). split; [reflexivity|]. split.
    + intros t I. apply in_aupd in I. destruct I as [->|I]; [reflexivity|apply AFS, I].
    + apply N_log_other; [eapply N_cstep; eassumption|]. intros u. eapply cstep_no_start, CS.
Qed.

Lemma invT_tick : forall c d, invT c -> invT (atick c d).
Proof.
  intros c d (ph & rest & TH & AFS & q). exists ph, rest. split; [exact TH|]. split; [exact AFS|].
  unfold atick, N in *. cbn [a_sh a_log]. proj. eapply NI_clock; [|exact q]. lia.
Qed.

Lemma invT_init : forall t0 pre segs progs, invT (ainit t0 pre segs progs).
Proof.
  intros. exists (LPre None pre), (map (fun p => AF None p) progs). split; [reflexivity|]. split.
  - intros t I. apply in_map_iff in I. destruct I as [p [<- _]]. reflexivity.
  - unfold ainit, N. cbn [a_sh a_log held]. proj. constructor; cbn; try (intros; contradiction); try reflexivity.
    all: intros; rewrite anth_nil in *; discriminate.
Qed.

Lemma invT_run : forall sched c, invT c ->
  invT (arun c sched) /\ exists ext, adue (a_sh (arun c sched)) = adue (a_sh c) ++ ext.
Proof.
  intros sched c H.
  apply (arun_inv ts fixed abody (fun c' => invT c' /\ exists ext, adue (a_sh c') = adue (a_sh c) ++ ext)).
  - intros c' tid [I [e1 E1]]. destruct (invT_step c' tid I) as [I' [e2 E2]]. split; [exact I'|].
    exists (e1 ++ e2). rewrite E2, E1, app_assoc. reflexivity.
  - intros c' d [I E]. split; [apply invT_tick, I|exact E].
  - split; [exact H|exists []; rewrite app_nil_r; reflexivity].
Qed.

(* an action starts no earlier than the due time recorded for its call *)
Theorem aio_not_early : forall t0 pre segs progs sched tid t u,
  let c := arun (ainit t0 pre segs progs) sched in
  In (tid, t, AStart u) (a_log c) -> exists due, nth_error (adue (a_sh c)) u = Some due /\ due <= t.
Proof.
  intros t0 pre segs progs sched tid t u c I.
  destruct (invT_run sched _ (invT_init t0 pre segs progs)) as [(ph & rest & _ & _ & q) _]. fold c in q.
  exact (n_log q _ _ _ I).
Qed.

(* the recorded due times are never changed afterwards *)
Lemma aio_due_stable_inv : forall c sched u due, invT c ->
  nth_error (adue (a_sh c)) u = Some due -> nth_error (adue (a_sh (arun c sched))) u = Some due.
Proof.
  intros c sched u due H NT. destruct (invT_run sched c H) as [_ [ext E]]. rewrite E.
  rewrite nth_error_app1; [exact NT|]. apply nth_error_Some. congruence.
Qed.

End Time.
