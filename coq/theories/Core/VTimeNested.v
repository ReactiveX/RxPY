(* start() / advance_to() / advance_by() issued from INSIDE a running action.

   Core/VTime.v has no command for such a call.  These lemmas are the formal basis
   of the rendering used by harness/vt.py (g_history erases the call, or prints
   advance_by(d < 0) as the equally raising sleep(d)):

     1. the run loops invoke an item only while [enabled] is set
        ([start_loop_disabled], [advance_loop_disabled]: a loop entered with the
        flag cleared invokes nothing), and the state handed to the action has the
        flag of the loop state ([run_item_invokes_with_flag]);
     2. no command other than stop() changes the flag ([exec_cmd_keeps_enabled],
        [exec_body_keeps_enabled]): at every position of a body that is not
        preceded by stop(), the flag is still set, and the rest of the body runs
        from there ([exec_body_prefix_enabled]);
     3. with the flag set, start() returns at once ([start_while_enabled]) and so
        does advance_to(t) for t >= clock ([advance_to_while_enabled]); for
        t < clock it raises ArgumentOutOfRange and changes nothing
        (VTimeFacts.advance_to_past_raises), exactly like sleep(d), d < 0.

   virtualtimescheduler.py: start [with self._lock: if self._is_enabled: return],
   advance_to [if self.now > dt: raise ...; if self.now == dt or self._is_enabled: return]. *)
From RxVerif Require Import Base.Prelude Core.VTime Core.VTimeFacts.

Lemma start_while_enabled c fuel s : enabled s = true -> start c fuel s = Finished s.
Proof. intro H. unfold start. rewrite H. reflexivity. Qed.

Lemma advance_to_while_enabled fuel s t :
  enabled s = true -> clock s <= t -> advance_to fuel s t = Finished s.
Proof.
  intros H L. unfold advance_to.
  assert (E : t <? clock s = false) by (apply Z.ltb_ge; lia).
  rewrite E, H, orb_true_r. reflexivity.
Qed.

Lemma start_loop_disabled c fuel s sp :
  enabled s = false -> start_loop c fuel s sp = Finished (set_enabled s false).
Proof. intro H. destruct fuel; simpl; rewrite H; reflexivity. Qed.

Lemma advance_loop_disabled fuel s t :
  enabled s = false -> advance_loop fuel s t = finish_adv s t.
Proof. intro H. destruct fuel; simpl; rewrite H; reflexivity. Qed.

(* the state in which run_item invokes the action (the same term as VTimeFacts.pop_state) *)
Definition invoke_state (s : st) (it : item) (q' : list item) (newclk : Z) (bumped : bool) : st :=
  add_log (set_clock (dequeue s q') newclk)
          (mkpop s it newclk bumped (negb (memb (i_id it) (cancelled s)))).

Lemma run_item_invokes_with_flag s it q' newclk bumped :
  run_item s it q' newclk bumped =
    (if negb (memb (i_id it) (cancelled s))
     then invoke (invoke_state s it q' newclk bumped) (i_pay it)
     else BOk (invoke_state s it q' newclk bumped))
  /\ enabled (invoke_state s it q' newclk bumped) = enabled s.
Proof. split; reflexivity. Qed.

Definition is_stop (c : scmd) : bool := match c with SStop => true | _ => false end.
Definition nostop (b : list scmd) : bool := forallb (fun c => negb (is_stop c)) b.

Lemma exec_cmd_keeps_enabled s c :
  is_stop c = false -> enabled (bstate (exec_cmd s c)) = enabled s.
Proof.
  intro H. destruct c; simpl in *; try discriminate; try reflexivity.
  - destruct (cancel_id_fields s r) as (_ & _ & _ & A & _). exact A.
  - destruct (d <? 0); reflexivity.
  - destruct v; reflexivity.
  - destruct (dispose_per_fields s pid) as (_ & _ & A & _). exact A.
Qed.

(* the flag after any prefix of a body without stop(): whether the body goes on or raised there *)
Lemma exec_body_keeps_enabled b : forall s,
  nostop b = true -> enabled (bstate (exec_body s b)) = enabled s.
Proof.
  induction b as [|c t IH]; intros s H; simpl in *; [reflexivity|].
  apply andb_true_iff in H. destruct H as [Hc Ht]. apply negb_true_iff in Hc.
  pose proof (exec_cmd_keeps_enabled s c Hc) as E.
  destruct (exec_cmd s c) as [s1|e s1]; simpl in *.
  - rewrite (IH s1 Ht). exact E.
  - exact E.
Qed.

Lemma exec_body_prefix_enabled b1 b2 s s1 :
  nostop b1 = true -> exec_body s b1 = BOk s1 ->
  enabled s1 = enabled s /\ exec_body s (b1 ++ b2) = exec_body s1 b2.
Proof.
  intros H E. split.
  - pose proof (exec_body_keeps_enabled b1 s H) as K. rewrite E in K. exact K.
  - revert s E. clear H. induction b1 as [|c t IH]; intros s E; simpl in *.
    + inversion E. reflexivity.
    + destruct (exec_cmd s c) as [s2|e s2]; [apply IH; exact E | discriminate].
Qed.
