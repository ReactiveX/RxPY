(* Facts about Core/Trampoline.v, for any number of threads and all schedules; used by Props/C30.v.
   In this order: [key_eqb] and [upd]; [set_nth] and [sumf] on lists; [step], the micro-step [mstep] as a relation with
   one constructor per case; the invariant [Inv] of reachable configurations (stack shape, frame
   counts against [t_active]/[t_idle], items and frames against the log, what every logged event
   satisfies); conservation of enqueued items ([all_run]); independence of the trampolines of
   different threads ([independent]). *)
From RxVerif Require Import Base.Prelude Core.Trampoline.

Lemma key_eqb_eq : forall a b, key_eqb a b = true <-> a = b.
Proof.
  destruct a, b; cbn; rewrite ?andb_true_iff, ?Nat.eqb_eq; split; intro H;
  try discriminate; try congruence.
  - destruct H; congruence.
  - split; congruence.
Qed.

Lemma key_eqb_refl : forall k, key_eqb k k = true.
Proof. intro; apply key_eqb_eq; reflexivity. Qed.

Lemma key_eqb_neq : forall a b, a <> b -> key_eqb a b = false.
Proof. intros a b H; destruct (key_eqb a b) eqn:E; auto; apply key_eqb_eq in E; contradiction. Qed.

Lemma key_eqb_sym : forall a b, key_eqb a b = key_eqb b a.
Proof.
  intros; destruct (key_eqb b a) eqn:E; [apply key_eqb_eq in E; subst; apply key_eqb_refl|].
  apply key_eqb_neq. intros ->. rewrite key_eqb_refl in E. discriminate.
Qed.

Lemma upd_same : forall k t f, upd k t f k = t.
Proof. intros; unfold upd; rewrite key_eqb_refl; reflexivity. Qed.

Lemma upd_other : forall k k' t f, k' <> k -> upd k t f k' = f k'.
Proof. intros; unfold upd; rewrite key_eqb_neq; auto. Qed.

(* case analysis on [key_eqb k0 k], rewritten everywhere; in the first case [k0] is replaced by [k],
   in the second [k0 <> k] is added.  [upd], [run_c], [inv_c] and [readys] test in this order: the key
   looked for first. *)
Ltac keycase k0 k :=
  let E := fresh "E" in
  destruct (key_eqb k0 k) eqn:E;
  [apply key_eqb_eq in E; subst k0; rewrite ?key_eqb_refl in *
  |rewrite ?E in *;
   assert (k0 <> k) by (intro; subst; rewrite key_eqb_refl in E; discriminate)].

(* the same in the goal only (cheap when the context is large) *)
Ltac keygoal k0 k :=
  let E := fresh "E" in
  destruct (key_eqb k0 k) eqn:E; [apply key_eqb_eq in E; subst k0; rewrite ?key_eqb_refl|].

Lemma nth_error_set_nth_eq : forall {A} (l : list A) n x y,
  nth_error l n = Some x -> nth_error (set_nth n y l) n = Some y.
Proof. induction l; destruct n; cbn; intros; try discriminate; eauto. Qed.

Lemma nth_error_set_nth_neq : forall {A} (l : list A) n m y,
  n <> m -> nth_error (set_nth n y l) m = nth_error l m.
Proof. induction l; destruct n, m; cbn; intros; try congruence; auto. Qed.

Lemma nth_error_set_nth : forall {A} (l : list A) n m y x,
  nth_error (set_nth n y l) m = Some x -> m = n /\ x = y \/ m <> n /\ nth_error l m = Some x.
Proof.
  intros A l n m y x H. destruct (Nat.eq_dec n m) as [<-|Hn].
  - left. destruct (nth_error l n) eqn:E.
    + rewrite (nth_error_set_nth_eq _ _ _ _ E) in H. split; congruence.
    + exfalso. revert n H E. induction l; destruct n; cbn; intros; try discriminate; eauto.
  - right. rewrite nth_error_set_nth_neq in H by exact Hn. auto.
Qed.

Lemma In_set_nth : forall {A} (l : list A) n y u, In u (set_nth n y l) -> u = y \/ In u l.
Proof.
  intros A l n y u H. apply In_nth_error in H. destruct H as [m H].
  apply nth_error_set_nth in H. destruct H as [[_ ->]|[_ H]]; [auto | right; eapply nth_error_In; eauto].
Qed.

Lemma length_set_nth : forall {A} (l : list A) n y, length (set_nth n y l) = length l.
Proof. induction l; destruct n; cbn; intros; auto. Qed.

Fixpoint sumf {A} (f : A -> Z) (l : list A) : Z :=
  match l with [] => 0 | x :: t => f x + sumf f t end.

Definition others {A} (n : nat) (l : list A) : list A := firstn n l ++ skipn (S n) l.

Lemma sumf_app : forall {A} (f : A -> Z) l1 l2, sumf f (l1 ++ l2) = sumf f l1 + sumf f l2.
Proof. induction l1; cbn; intros; auto. rewrite IHl1; lia. Qed.

Lemma sumf_split : forall {A} (f : A -> Z) l n x,
  nth_error l n = Some x -> sumf f l = f x + sumf f (others n l).
Proof.
  unfold others. induction l; destruct n; cbn; intros; try discriminate.
  - inversion H; subst. reflexivity.
  - rewrite (IHl _ _ H). destruct l; cbn; lia.
Qed.

Lemma others_set_nth : forall {A} (l : list A) n y, others n (set_nth n y l) = others n l.
Proof.
  unfold others. induction l; destruct n; cbn; intros; auto.
  f_equal. specialize (IHl n y). destruct l; cbn in *; auto.
Qed.

Lemma sumf_set_nth : forall {A} (f : A -> Z) l n x y,
  nth_error l n = Some x -> sumf f (set_nth n y l) = f y + sumf f (others n l).
Proof.
  intros. rewrite (sumf_split f _ n y (nth_error_set_nth_eq _ _ _ _ H)). rewrite others_set_nth. reflexivity.
Qed.

Lemma sumf_nonneg : forall {A} (f : A -> Z) l, (forall x, In x l -> 0 <= f x) -> 0 <= sumf f l.
Proof. induction l; cbn; intros; [lia|]. assert (0 <= f a) by auto. assert (0 <= sumf f l) by auto. lia. Qed.

Lemma sumf_le : forall {A} (f g : A -> Z) l, (forall x, In x l -> f x <= g x) -> sumf f l <= sumf g l.
Proof. induction l; cbn; intros; [lia|]. assert (f a <= g a) by auto. assert (sumf f l <= sumf g l) by auto. lia. Qed.

Lemma In_others : forall {A} (l : list A) n x, In x (others n l) -> In x l.
Proof.
  unfold others. induction l; intros n x H.
  - destruct n; cbn in H; contradiction.
  - destruct n; cbn in H.
    + right; exact H.
    + destruct H as [H|H]; [left; exact H|]. right. apply (IHl n). exact H.
Qed.

Lemma crun_ind : forall c (P : config -> Prop),
  (forall w ts d, P (w, ts) -> P (set_clock w (clock w + Z.max 0 d), ts)) ->
  (forall w ts th t w' t', P (w, ts) -> nth_error ts th = Some t -> mstep c th w t = Some (w', t') ->
                           P (w', set_nth th t' ts)) ->
  forall sch cf, P cf -> P (crun c cf sch).
Proof.
  intros c P HT HS. unfold crun. induction sch as [|s sch IH]; cbn [fold_left]; intros [w ts] H; [exact H|].
  apply IH. destruct s as [th|d]; cbn [cstep]; [|apply HT; exact H].
  destruct (nth_error ts th) as [t|] eqn:N; [|exact H].
  destruct (mstep c th w t) as [[w' t']|] eqn:M; [eapply HS; eauto | exact H].
Qed.

(* [raise] has happened and the exception has not been caught yet *)
Definition raised (ex : option Z) : bool := match ex with Some _ => true | None => false end.

(* One micro-step, case by case: what [mstep] computes, with the tests it makes as hypotheses.
   The outcome of a test is substituted in the result: [S_enq_busy] has [false] for [t_idle],
   [S_p3_wait] has [x :: q] for the queue.  Where [mstep] does the same with and without a pending
   exception (an action or the drain loop is left) there is one case, with the exception [ex] as
   it is. *)
Inductive step (c : cfg) (th : nat) (w : world) : thread -> world -> thread -> Prop :=
  | S_catch cs rest e :
      step c th w (Thread (FBody true cs :: rest) (Some e))
           (add_log w (EExc th e)) (Thread (FBody true cs :: rest) None)
  | S_exc_body cs rest e :
      step c th w (Thread (FBody false cs :: rest) (Some e)) w (Thread rest (Some e))
  | S_exc_enq k it rest e :
      step c th w (Thread (FEnq k it :: rest) (Some e)) w (Thread rest (Some e))
  | S_return k id l rest ex :
      step c th w (Thread (FInvoke k id l :: rest) ex)
           (add_log (set_tramp w k (set_active (tramps w k) (pred (t_active (tramps w k)))))
                    (EEnd k id l (raised ex)))
           (Thread rest ex)
  | S_inline_end l rest ex :
      step c th w (Thread (FInline l :: rest) ex) (add_log w (EInlineEnd l (raised ex))) (Thread rest ex)
  (* [except] of Trampoline.run, in any phase of the loop; or, with [exit_race = true], its [finally] *)
  | S_exit k ready ph rest ex (Hph : ex = None -> ph = PFin) :
      step c th w (Thread (FRun k ready ph :: rest) ex) (exit_path w k ready th (raised ex)) (Thread rest ex)
  | S_body_end top rest :
      step c th w (Thread (FBody top [] :: rest) None) w (Thread rest None)
  | S_sched top s wh l b cs rest :
      step c th w (Thread (FBody top (CSched s wh l b :: cs) :: rest) None)
           (create_item w th s wh l b)
           (Thread (FEnq (tkey s th) (new_item w wh l b) :: FBody top cs :: rest) None)
  | S_cancel top r cs rest (Er : (r <? next_id w)%nat = true) :
      step c th w (Thread (FBody top (CCancel r :: cs) :: rest) None)
           (World (clock w) (tramps w) (r :: cancelled w) (next_id w) (ECancel r :: log w))
           (Thread (FBody top cs :: rest) None)
  | S_cancel_none top r cs rest (Er : (r <? next_id w)%nat = false) :
      step c th w (Thread (FBody top (CCancel r :: cs) :: rest) None) w (Thread (FBody top cs :: rest) None)
  | S_sleep top dt cs rest :
      step c th w (Thread (FBody top (CSleep dt :: cs) :: rest) None)
           (set_clock w (clock w + Z.max 0 dt)) (Thread (FBody top cs :: rest) None)
  | S_raise top e cs rest :
      step c th w (Thread (FBody top (CRaise e :: cs) :: rest) None) w (Thread (FBody top cs :: rest) (Some e))
  | S_required top s cs rest :
      step c th w (Thread (FBody top (CRequired s :: cs) :: rest) None)
           (add_log w (ERequired (tkey s th) th (t_idle (tramps w (tkey s th)))))
           (Thread (FBody top cs :: rest) None)
  | S_ensure_sched top s l b cs rest (Eidle : t_idle (tramps w (tkey s th)) = true) :
      step c th w (Thread (FBody top (CEnsure s l b :: cs) :: rest) None)
           (create_item w th s Now l b)
           (Thread (FEnq (tkey s th) (new_item w Now l b) :: FBody top cs :: rest) None)
  | S_ensure_inline top s l b cs rest (Eidle : t_idle (tramps w (tkey s th)) = false) :
      step c th w (Thread (FBody top (CEnsure s l b :: cs) :: rest) None)
           (add_log w (EInline l th (clock w) (depth_of (FBody top (CEnsure s l b :: cs) :: rest))))
           (Thread (FBody false b :: FInline l :: FBody top cs :: rest) None)
  | S_enq_runner k it rest (Eidle : t_idle (tramps w k) = true) :
      step c th w (Thread (FEnq k it :: rest) None)
           (add_log (set_tramp w k
                       (Tramp false
                          (insert (Item (i_due it) (t_count (tramps w k)) (i_id it) (i_label it) (i_body it))
                                  (t_queue (tramps w k)))
                          (t_count (tramps w k) + 1) (t_waiting (tramps w k)) (t_signal (tramps w k))
                          (t_active (tramps w k))))
                    (EEnq k (i_id it) th true))
           (Thread (FRun k [] P1 :: rest) None)
  | S_enq_busy k it rest (Eidle : t_idle (tramps w k) = false) :
      step c th w (Thread (FEnq k it :: rest) None)
           (add_log (set_tramp w k
                       (Tramp false
                          (insert (Item (i_due it) (t_count (tramps w k)) (i_id it) (i_label it) (i_body it))
                                  (t_queue (tramps w k)))
                          (t_count (tramps w k) + 1) (t_waiting (tramps w k))
                          (t_waiting (tramps w k) || t_signal (tramps w k)) (t_active (tramps w k))))
                    (EEnq k (i_id it) th false))
           (Thread rest None)
  | S_p1 k ready rest moved q' (Esplit : split_due (clock w) (t_queue (tramps w k)) = (moved, q')) :
      step c th w (Thread (FRun k ready P1 :: rest) None)
           (set_tramp w k
              (Tramp (t_idle (tramps w k)) q'
                     match moved with
                     | [] => t_count (tramps w k)
                     | _ :: _ => match q' with [] => MIN_COUNT | _ :: _ => t_count (tramps w k) end
                     end
                     (t_waiting (tramps w k)) (t_signal (tramps w k)) (t_active (tramps w k))))
           (Thread (FRun k (ready ++ moved) P2 :: rest) None)
  | S_p2_done k rest :
      step c th w (Thread (FRun k [] P2 :: rest) None) w (Thread (FRun k [] P3 :: rest) None)
  | S_p2_skip k x ready' rest (Ememb : memb (i_id x) (cancelled w) = true) :
      step c th w (Thread (FRun k (x :: ready') P2 :: rest) None)
           (add_log w (ESkip k (i_id x))) (Thread (FRun k ready' P2 :: rest) None)
  | S_p2_start k x ready' rest (Ememb : memb (i_id x) (cancelled w) = false) :
      step c th w (Thread (FRun k (x :: ready') P2 :: rest) None)
           (add_log (set_tramp w k (set_active (tramps w k) (S (t_active (tramps w k)))))
                    (EStart k (i_id x) (i_label x) th (i_due x) (clock w) (t_active (tramps w k))
                            (depth_of (FRun k (x :: ready') P2 :: rest))))
           (Thread (FBody false (i_body x) :: FInvoke k (i_id x) (i_label x) :: FRun k ready' P2 :: rest) None)
  | S_p3_race k ready rest (Eq : t_queue (tramps w k) = []) (Erace : exit_race c = true) :
      step c th w (Thread (FRun k ready P3 :: rest) None) w (Thread (FRun k ready PFin :: rest) None)
  | S_p3_exit k ready rest (Eq : t_queue (tramps w k) = []) (Erace : exit_race c = false) :
      step c th w (Thread (FRun k ready P3 :: rest) None)
           (add_log (set_tramp w k (Tramp true [] (t_count (tramps w k)) false false (t_active (tramps w k))))
                    (EIdle k th))
           (Thread rest None)
  | S_p3_wait k ready rest x q (Eq : t_queue (tramps w k) = x :: q) (Elt : (clock w <? i_due x) = true) :
      step c th w (Thread (FRun k ready P3 :: rest) None)
           (set_tramp w k (Tramp (t_idle (tramps w k)) (x :: q) (t_count (tramps w k)) true false
                                 (t_active (tramps w k))))
           (Thread (FRun k ready (PWait (i_due x)) :: rest) None)
  | S_p3_due k ready rest x q (Eq : t_queue (tramps w k) = x :: q) (Elt : (clock w <? i_due x) = false) :
      step c th w (Thread (FRun k ready P3 :: rest) None) w (Thread (FRun k ready P1 :: rest) None)
  | S_wait_signal k ready u rest (Esig : t_signal (tramps w k) = true) :
      step c th w (Thread (FRun k ready (PWait u) :: rest) None)
           (set_tramp w k (Tramp (t_idle (tramps w k)) (t_queue (tramps w k)) (t_count (tramps w k)) false false
                                 (t_active (tramps w k))))
           (Thread (FRun k ready P1 :: rest) None)
  | S_wait_timeout k ready u rest (Esig : t_signal (tramps w k) = false) :
      step c th w (Thread (FRun k ready (PWait u) :: rest) None)
           (set_clock (set_tramp w k (Tramp (t_idle (tramps w k)) (t_queue (tramps w k)) (t_count (tramps w k))
                                            false false (t_active (tramps w k))))
                      (Z.max (clock w) u))
           (Thread (FRun k ready P1 :: rest) None).

Lemma mstep_step : forall c th w t w' t', mstep c th w t = Some (w', t') -> step c th w t w' t'.
Proof.
  intros c th w [[|f rest] ex] w' t' H; cbn [mstep stk exc] in H; [discriminate|].
  destruct ex as [e|].
  - destruct f as [[|] cs|k it|k id l|l|k ready ph]; cbn [step_exc] in H; injection H as <- <-.
    + apply S_catch.
    + apply S_exc_body.
    + apply S_exc_enq.
    + apply (S_return _ _ _ _ _ _ _ (Some e)).
    + apply (S_inline_end _ _ _ _ _ (Some e)).
    + apply (S_exit _ _ _ _ _ _ _ (Some e)). discriminate.
  - destruct f as [top [|cm cs]|k it|k id l|l|k ready ph].
    + injection H as <- <-. constructor.
    + destruct cm as [s wh l b|r|dt|e|s|s l b]; cbn [step_cmd] in H;
      [ | destruct (r <? next_id _)%nat eqn:Er | | | | destruct (t_idle (tramps _ (tkey s _))) eqn:Eidle ];
      injection H as <- <-; constructor; assumption.
    + unfold step_enq in H. destruct (t_idle (tramps _ k)) eqn:Eidle; injection H as <- <-; constructor; assumption.
    + injection H as <- <-. apply (S_return _ _ _ _ _ _ _ None).
    + injection H as <- <-. apply (S_inline_end _ _ _ _ _ None).
    + destruct ph as [| | |u|]; cbn [step_run] in H;
      [ destruct (split_due _ _) as [moved q'] eqn:Esplit
      | destruct ready as [|x ready']; [| destruct (memb _ _) eqn:Ememb]
      | destruct (t_queue (tramps _ k)) as [|x q] eqn:Eq;
        [destruct (exit_race _) eqn:Erace | destruct (_ <? _) eqn:Elt]
      | destruct (t_signal _) eqn:Esig
      | ]; injection H as <- <-; try (econstructor; eassumption).
      apply (S_exit _ _ _ _ _ _ _ None). reflexivity.
Qed.

(* the case analysis, in the order of the constructors; the scripts after it use the names the
   constructors give their hypotheses ([Hph], [Er], [Eidle], [Esplit], [Ememb], [Eq], [Erace], [Elt], [Esig]) *)
Ltac mstep_inv H := apply mstep_step in H; destruct H; cbn [stk exc] in *.

(* an action being invoked sits on the drain loop that invoked it; a drain loop holds ready items
   only inside its [while ready] loop *)
Fixpoint wf_stk (s : list frame) : Prop :=
  match s with
  | [] => True
  | FInvoke k _ _ :: rest => match rest with FRun k' _ P2 :: _ => k' = k | _ => False end /\ wf_stk rest
  | FRun _ r ph :: rest => (ph <> P2 -> r = []) /\ wf_stk rest
  | _ :: rest => wf_stk rest
  end.

(* PFin is reached only with [exit_race = true] *)
Definition fin_frame (c : cfg) (f : frame) : Prop :=
  match f with FRun _ _ PFin => exit_race c = true | _ => True end.

(* below the top of a stack there is no Trampoline.run(item) about to take the lock, and a drain
   loop there is inside its [while ready] loop *)
Definition inner (f : frame) : Prop :=
  match f with FEnq _ _ => False | FRun _ _ ph => ph = P2 | _ => True end.
Definition inner_below (s : list frame) : Prop := match s with [] => True | _ :: rest => Forall inner rest end.

Definition shape (c : cfg) (s : list frame) : Prop := wf_stk s /\ Forall (fin_frame c) s /\ inner_below s.

(* a hypothesis [Forall P (x :: l)] becomes [P x] and [Forall P l] *)
Ltac fa := repeat match goal with H : Forall _ (_ :: _) |- _ => apply Forall_cons_iff in H; destruct H end.

Lemma shape_step : forall c th w t w' t',
  mstep c th w t = Some (w', t') -> shape c (stk t) -> shape c (stk t').
Proof.
  intros c th w t w' t' H (W & F & B). unfold shape. cbn [stk] in *.
  mstep_inv H; cbn [stk wf_stk inner_below] in *; fa; cbn [fin_frame inner] in *;
  repeat split; repeat (constructor; cbn [fin_frame inner]; auto); try tauto; try congruence;
  try (intros _; apply W; discriminate).
  all: destruct rest; cbn [inner_below]; auto; inversion B; auto.
Qed.

Definition run_c (k : key) (f : frame) : Z :=
  match f with FRun k' _ _ => if key_eqb k k' then 1 else 0 | _ => 0 end.
Definition inv_c (k : key) (f : frame) : Z :=
  match f with FInvoke k' _ _ => if key_eqb k k' then 1 else 0 | _ => 0 end.
Definition runs (k : key) (t : thread) : Z := sumf (run_c k) (stk t).
Definition invs (k : key) (t : thread) : Z := sumf (inv_c k) (stk t).

Lemma run_c_nonneg : forall k f, 0 <= run_c k f.
Proof. destruct f; cbn; try lia. destruct (key_eqb _ _); lia. Qed.
Lemma runs_nonneg : forall k s, 0 <= sumf (run_c k) s.
Proof. intros; apply sumf_nonneg; intros; apply run_c_nonneg. Qed.
Lemma invs_nonneg : forall k s, 0 <= sumf (inv_c k) s.
Proof. intros; apply sumf_nonneg; intros f _; destruct f; cbn; try lia. destruct (key_eqb _ _); lia. Qed.

(* every invocation sits on a drain loop of its own ([tl s]: that loop is the frame below) *)
Lemma inv_le_run : forall k s, wf_stk s -> sumf (inv_c k) s <= sumf (run_c k) s.
Proof.
  intros k s W.
  enough (sumf (inv_c k) s <= sumf (run_c k) s /\ sumf (inv_c k) (tl s) <= sumf (run_c k) (tl s)) by tauto.
  induction s as [|f s IH]; [cbn; lia|].
  assert (Ws : wf_stk s) by (destruct f; cbn [wf_stk] in W; tauto).
  destruct (IH Ws) as [I1 I2]. split; [|exact I1].
  destruct f as [| |k0 id l| |k0 r ph]; cbn [sumf inv_c run_c]; try lia.
  - destruct W as [W1 _]. destruct s as [|[] s']; try contradiction. destruct ph; try contradiction. subst.
    cbn [sumf inv_c run_c tl] in *. destruct (key_eqb k k0); lia.
  - destruct (key_eqb k k0); lia.
Qed.

Definition all_wf (ts : list thread) : Prop := forall t, In t ts -> wf_stk (stk t).

Definition counts_ok (cf : config) : Prop :=
  forall k,
    sumf (invs k) (snd cf) = Z.of_nat (t_active (tramps (fst cf) k)) /\
    sumf (runs k) (snd cf) = (if t_idle (tramps (fst cf) k) then 0 else 1) /\
    (t_idle (tramps (fst cf) k) = true -> t_queue (tramps (fst cf) k) = []).

Lemma others_bounds : forall k th ts, all_wf ts ->
  0 <= sumf (invs k) (others th ts) <= sumf (runs k) (others th ts).
Proof.
  intros k th ts W. split.
  - apply sumf_nonneg; intros; apply invs_nonneg.
  - apply sumf_le. intros x Hx. apply inv_le_run, W. eapply In_others; eauto.
Qed.

(* One micro-step of thread th seen from trampoline k; A and B count the invocations and the
   drain loops of k on the other threads. *)
Lemma counts_local : forall c th w t w' t' k A B,
  mstep c th w t = Some (w', t') -> wf_stk (stk t) -> 0 <= A <= B ->
  invs k t + A = Z.of_nat (t_active (tramps w k)) /\
  runs k t + B = (if t_idle (tramps w k) then 0 else 1) /\
  (t_idle (tramps w k) = true -> t_queue (tramps w k) = []) ->
  invs k t' + A = Z.of_nat (t_active (tramps w' k)) /\
  runs k t' + B = (if t_idle (tramps w' k) then 0 else 1) /\
  (t_idle (tramps w' k) = true -> t_queue (tramps w' k) = []).
Proof.
  intros c th w t w' t' k0 A B H W AB C. pose proof (inv_le_run k0 _ W) as Lt. clear W.
  unfold invs, runs in *. cbn [stk] in *. revert Lt C.
  mstep_inv H; cbn [stk sumf inv_c run_c tramps set_tramp add_log set_clock create_item exit_path
                   t_idle t_queue t_active]; unfold upd, set_active;
  try (keygoal k0 k); cbn [t_idle t_queue t_active]; intros Lt C; try exact C.
  (* left: an invocation ends or starts, a call becomes the drain loop or only enqueues, the loop
     takes due items, waits or exits -- all on k itself *)
  all: destruct C as (C1 & C2 & C3); pose proof (runs_nonneg k rest); pose proof (invs_nonneg k rest).
  all: rewrite ?Eidle in *; destruct (t_idle (tramps w k)); try (exfalso; lia).
  all: (split; [|split]); try lia; try congruence.
  all: destruct (t_active (tramps w k)); cbn [Init.Nat.pred] in *; lia.
Qed.

Lemma counts_step : forall c th w ts t w' t',
  nth_error ts th = Some t -> mstep c th w t = Some (w', t') -> all_wf ts ->
  counts_ok (w, ts) -> counts_ok (w', set_nth th t' ts).
Proof.
  intros c th w ts t w' t' N H W C k. specialize (C k). cbn [fst snd] in *.
  rewrite (sumf_set_nth (invs k) _ _ _ _ N), (sumf_set_nth (runs k) _ _ _ _ N).
  rewrite (sumf_split (invs k) _ _ _ N), (sumf_split (runs k) _ _ _ N) in C.
  exact (counts_local _ _ _ _ _ _ k _ _ H (W _ (nth_error_In _ _ N)) (others_bounds k th ts W) C).
Qed.

Lemma insert_In : forall z q x, In x (insert z q) <-> x = z \/ In x q.
Proof.
  induction q; cbn; intros.
  - intuition.
  - destruct (key_lt z a); cbn; [intuition|]. rewrite IHq. intuition.
Qed.

Lemma insert_Forall : forall (P : item -> Prop) z q, P z -> Forall P q -> Forall P (insert z q).
Proof.
  intros P z q Hz Hq. apply Forall_forall. intros x Hx. apply insert_In in Hx. destruct Hx as [->|Hx]; [exact Hz|].
  rewrite Forall_forall in Hq; auto.
Qed.

Lemma split_due_spec : forall now q a b, split_due now q = (a, b) ->
  q = a ++ b /\ Forall (fun x => i_due x <= now) a /\
  match b with [] => True | y :: _ => now < i_due y end.
Proof.
  induction q; cbn; intros a0 b H.
  - inversion H; subst. auto.
  - destruct (i_due a <=? now) eqn:E.
    + destruct (split_due now q) as [a1 b1] eqn:E1. inversion H; subst.
      destruct (IHq _ _ eq_refl) as (Q1 & Q2 & Q3). subst q. repeat split; auto.
      constructor; auto. lia.
    + inversion H; subst. repeat split; auto. lia.
Qed.

Definition ext (w w' : world) : Prop :=
  clock w <= clock w' /\ (exists evs, log w' = evs ++ log w) /\ (next_id w <= next_id w')%nat.

Lemma ext_refl : forall w, ext w w.
Proof. intro; repeat split; try lia. exists []; reflexivity. Qed.

Lemma mstep_ext : forall c th w t w' t', mstep c th w t = Some (w', t') -> ext w w'.
Proof.
  intros c th w t w' t' H. unfold ext.
  mstep_inv H; cbn [clock log next_id set_tramp add_log set_clock create_item exit_path];
  (split; [try lia|split; [|lia]]);
  try (exists []; reflexivity);
  try (eexists [_]; reflexivity); try (eexists [_; _]; reflexivity).
Qed.

(* items and frames carry what the log says *)
Definition item_ok (lg : list event) (k : key) (x : item) : Prop :=
  exists th clk, In (ECreate k (i_id x) th (i_due x) clk) lg.

Definition owned (k : key) (th : nat) : Prop := forall o, owner k = Some o -> th = o.

Definition frame_ok (clk : Z) (lg : list event) (th : nat) (f : frame) : Prop :=
  match f with
  | FRun k r _ => owned k th /\ Forall (fun x => i_due x <= clk /\ item_ok lg k x) r
  | FEnq k z => owned k th /\ item_ok lg k z
  | _ => True
  end.

Definition state_ok (cf : config) : Prop :=
  (forall th t, nth_error (snd cf) th = Some t ->
                Forall (frame_ok (clock (fst cf)) (log (fst cf)) th) (stk t)) /\
  (forall k, Forall (item_ok (log (fst cf)) k) (t_queue (tramps (fst cf) k))) /\
  (forall id, In (ECancel id) (log (fst cf)) -> memb id (cancelled (fst cf)) = true).

Lemma item_ok_ext : forall lg evs k x, item_ok lg k x -> item_ok (evs ++ lg) k x.
Proof. intros lg evs k x (th & clk & H). exists th, clk. apply in_or_app; auto. Qed.

Lemma frame_ok_ext : forall clk clk' lg evs th f,
  clk <= clk' -> frame_ok clk lg th f -> frame_ok clk' (evs ++ lg) th f.
Proof.
  intros clk clk' lg evs th f X H. destruct f; cbn in *; auto.
  - destruct H; split; auto. apply item_ok_ext; auto.
  - destruct H as [H1 H2]; split; auto. eapply Forall_impl; [|exact H2].
    cbn; intros a [Ha1 Ha2]. split; [lia|apply item_ok_ext; auto].
Qed.

Lemma frames_ok_ext : forall w w' th s, ext w w' ->
  Forall (frame_ok (clock w) (log w) th) s -> Forall (frame_ok (clock w') (log w') th) s.
Proof. intros w w' th s (X & (evs & ->) & _). apply Forall_impl. intro; apply frame_ok_ext; exact X. Qed.

Lemma queue_ok_ext : forall w w' k q, ext w w' ->
  Forall (item_ok (log w) k) q -> Forall (item_ok (log w') k) q.
Proof. intros w w' k q (_ & (evs & ->) & _). apply Forall_impl. intro; apply item_ok_ext. Qed.

Lemma owned_tkey : forall s th, owned (tkey s th) th.
Proof. intros [i|i|] th o; cbn; congruence. Qed.

Lemma memb_true : forall n l, memb n l = true <-> In n l.
Proof.
  unfold memb; intros; rewrite existsb_exists; split.
  - intros (x & Hx & E). apply Nat.eqb_eq in E; subst; auto.
  - intros; exists n; split; auto. apply Nat.eqb_refl.
Qed.

(* the fields of the world and of the items after a step, computed *)
Ltac wsimpl := cbn [log tramps cancelled clock next_id add_log set_tramp set_clock create_item exit_path
                       new_item i_id i_due i_cnt i_label i_body stk fst snd] in *.

Lemma cancel_step : forall c th w t w' t',
  mstep c th w t = Some (w', t') ->
  (forall id, In (ECancel id) (log w) -> memb id (cancelled w) = true) ->
  (forall id, In (ECancel id) (log w') -> memb id (cancelled w') = true).
Proof.
  intros c th w t w' t' H K id0 Hin.
  mstep_inv H; wsimpl; auto;
  repeat (destruct Hin as [Hin|Hin]; [try discriminate|]); auto.
  - inversion Hin; subst. apply memb_true; left; reflexivity.
  - apply memb_true; right; apply memb_true; auto.
Qed.

(* in the next two lemmas what is known before the step has been carried over to the log and
   clock after it (frames_ok_ext, queue_ok_ext) *)
Lemma queue_step : forall c th w t w' t',
  mstep c th w t = Some (w', t') ->
  Forall (frame_ok (clock w') (log w') th) (stk t) ->
  (forall k, Forall (item_ok (log w') k) (t_queue (tramps w k))) ->
  forall k, Forall (item_ok (log w') k) (t_queue (tramps w' k)).
Proof.
  intros c th w t w' t' H F' Q' k0. cbn [stk] in *.
  mstep_inv H; wsimpl; unfold upd, set_active; try (keygoal k0 k); cbn [t_queue]; auto.
  - (* enqueue (the call becomes the drain loop, or not): the frame of the call carries the item *)
    apply insert_Forall; auto. apply Forall_inv in F'. exact (proj2 F').
  - apply insert_Forall; auto. apply Forall_inv in F'. exact (proj2 F').
  - specialize (Q' k). destruct (split_due_spec _ _ _ _ Esplit) as (S1 & _). rewrite S1 in Q'.
    apply Forall_app in Q'. tauto.
  - specialize (Q' k). rewrite Eq in Q'. exact Q'.
Qed.

Lemma frames_step : forall c th w t w' t',
  mstep c th w t = Some (w', t') ->
  Forall (frame_ok (clock w') (log w') th) (stk t) ->
  (forall k, Forall (item_ok (log w') k) (t_queue (tramps w k))) ->
  Forall (frame_ok (clock w') (log w') th) (stk t').
Proof.
  intros c th w t w' t' H F' Q'. cbn [stk] in *.
  mstep_inv H; wsimpl; fa;
  repeat (constructor; auto); cbn [frame_ok] in *;
  repeat match goal with H : _ /\ _ |- _ => destruct H end; auto;
  try apply owned_tkey;
  try (unfold item_ok, new_item; cbn [i_id i_due]; eexists _, _; left; reflexivity);
  fa; auto.
  apply Forall_app; split; auto.
  destruct (split_due_spec _ _ _ _ Esplit) as (S1 & S2 & _).
  specialize (Q' k). rewrite S1 in Q'. apply Forall_app in Q'. destruct Q' as [Q1 _].
  rewrite Forall_forall in *. intros y Hy. split; auto.
Qed.

Lemma state_mstep : forall c th w ts t w' t',
  nth_error ts th = Some t -> mstep c th w t = Some (w', t') ->
  state_ok (w, ts) -> state_ok (w', set_nth th t' ts).
Proof.
  intros c th w ts t w' t' N M (F & Q & K). cbn [fst snd] in *.
  pose proof (mstep_ext _ _ _ _ _ _ M) as X.
  pose proof (frames_ok_ext _ _ _ _ X (F _ _ N)) as F'.
  pose proof (fun k => queue_ok_ext _ _ k _ X (Q k)) as Q'.
  split; [|split]; cbn [fst snd].
  - intros th2 t2 N2. apply nth_error_set_nth in N2. destruct N2 as [[-> ->]|[_ N2]].
    + eapply frames_step; eauto.
    + eapply frames_ok_ext; eauto.
  - eapply queue_step; eauto.
  - eapply cancel_step; eauto.
Qed.

Lemma state_tick : forall w ts x, clock w <= x -> state_ok (w, ts) -> state_ok (set_clock w x, ts).
Proof.
  intros w ts x L (F & Q & K). split; [|split]; cbn [fst snd]; auto.
  intros th t N. apply (frames_ok_ext w); [|apply (F _ _ N)].
  repeat split; cbn; auto. exists []; reflexivity.
Qed.

Definition ev_ok (c : cfg) (e : event) (before : list event) : Prop :=
  match e with
  | EStart k id l th due clk dk d =>
      dk = 0%nat /\ due <= clk /\ ~ In (ECancel id) before /\ owned k th /\
      (exists th' clk', In (ECreate k id th' due clk') before)
  | ECreate k id th due clk => owned k th
  | EEnq k id th r => owned k th
  | EDrop k ids exn => exit_race c = false -> exn = true
  | _ => True
  end.

(* every event of a log (newest first) satisfies P, given what came before it *)
Fixpoint log_all (P : event -> list event -> Prop) (l : list event) : Prop :=
  match l with [] => True | e :: t => P e t /\ log_all P t end.

Lemma log_all_app : forall P l2 l1, log_all P (l2 ++ l1) -> log_all P l1.
Proof. induction l2; cbn; intros l1 H; [exact H|]. apply IHl2. tauto. Qed.

Lemma log_all_at : forall P l2 e l1, log_all P (l2 ++ e :: l1) -> P e l1.
Proof. intros P l2 e l1 H. apply log_all_app in H. apply H. Qed.

Lemma start_active_zero : forall w ts th k x r rest ex,
  all_wf ts -> counts_ok (w, ts) ->
  nth_error ts th = Some (Thread (FRun k (x :: r) P2 :: rest) ex) ->
  t_active (tramps w k) = 0%nat.
Proof.
  intros w ts th k x r rest ex W C N. specialize (C k). cbn [fst snd] in C.
  rewrite (sumf_split (invs k) _ _ _ N), (sumf_split (runs k) _ _ _ N) in C.
  pose proof (others_bounds k th ts W) as AB.
  assert (Wt : wf_stk (FRun k (x :: r) P2 :: rest)) by (apply (W _ (nth_error_In _ _ N))).
  cbn [wf_stk] in Wt. destruct Wt as [_ Wr].
  pose proof (inv_le_run k _ Wr) as Lr.
  unfold invs, runs in *. cbn [stk sumf inv_c run_c] in C. rewrite key_eqb_refl in C.
  destruct C as (C1 & C2 & _). pose proof (invs_nonneg k rest).
  destruct (t_idle (tramps w k)); lia.
Qed.

Lemma log_step : forall c th w ts t w' t',
  nth_error ts th = Some t -> mstep c th w t = Some (w', t') ->
  all_wf ts -> counts_ok (w, ts) -> state_ok (w, ts) -> Forall (fin_frame c) (stk t) ->
  log_all (ev_ok c) (log w) -> log_all (ev_ok c) (log w').
Proof.
  intros c th w ts t w' t' N H W C (F & Q & K) Fin L. cbn [fst snd] in *.
  specialize (F _ _ N).
  mstep_inv H; wsimpl; cbn [log_all ev_ok]; auto;
  repeat (fa; cbn [frame_ok fin_frame] in *; match goal with H : _ /\ _ |- _ => destruct H end);
  repeat split; auto; try apply owned_tkey; try congruence.
  - (* the exit path without an exception is the [finally] of [exit_race = true] *)
    intro R. destruct ex; [reflexivity|]. rewrite (Hph eq_refl) in *. congruence.
  - eapply start_active_zero; eauto.
  - intro Hc. apply K in Hc. congruence.
Qed.

Definition Inv (c : cfg) (cf : config) : Prop :=
  (forall t, In t (snd cf) -> shape c (stk t)) /\ counts_ok cf /\ state_ok cf /\ log_all (ev_ok c) (log (fst cf)).

Lemma Inv_wf : forall c cf, Inv c cf -> all_wf (snd cf).
Proof. intros c cf (Sh & _) t Ht. apply (Sh t Ht). Qed.

Lemma Inv_mstep : forall c w ts th t w' t',
  Inv c (w, ts) -> nth_error ts th = Some t -> mstep c th w t = Some (w', t') ->
  Inv c (w', set_nth th t' ts).
Proof.
  intros c w ts th t w' t' I N M. pose proof (Inv_wf _ _ I) as W.
  destruct I as (Sh & C & S & L). cbn [fst snd] in *.
  pose proof (Sh t (nth_error_In _ _ N)) as Sht.
  split; [|split; [|split]]; cbn [fst snd].
  - intros u Hu. apply In_set_nth in Hu. destruct Hu as [->|Hu]; [eapply shape_step; eauto | auto].
  - eapply counts_step; eauto.
  - eapply state_mstep; eauto.
  - eapply log_step; eauto. apply Sht.
Qed.

Lemma Inv_tick : forall c w ts x, clock w <= x -> Inv c (w, ts) -> Inv c (set_clock w x, ts).
Proof.
  intros c w ts x Lx (Sh & C & S & L). split; [|split; [|split]]; auto. apply state_tick; auto.
Qed.

Lemma Inv_init : forall c c0 hs, Inv c (start_config c0 hs).
Proof.
  intros c c0 hs. unfold Inv, start_config. cbn [fst snd init_world log].
  split; [|split; [|split]].
  - intros t Ht. apply in_map_iff in Ht. destruct Ht as (h & <- & _). cbn. repeat constructor.
  - intro k. cbn [fst snd tramps fresh t_active t_idle t_queue]. repeat split; auto.
    + induction hs; cbn; auto.
    + induction hs; cbn; auto.
  - split; [|split]; cbn [fst snd tramps fresh t_queue log clock cancelled].
    + intros th t N. apply nth_error_In in N. apply in_map_iff in N. destruct N as (h & <- & _).
      cbn. repeat constructor.
    + intro k. constructor.
    + intros id [].
  - exact I.
Qed.

Lemma Inv_crun : forall c sch cf, Inv c cf -> Inv c (crun c cf sch).
Proof.
  intro c. apply crun_ind.
  - intros. apply Inv_tick; [lia|assumption].
  - intros. eapply Inv_mstep; eauto.
Qed.

Theorem reachable_Inv : forall c c0 hs sch, Inv c (crun c (start_config c0 hs) sch).
Proof. intros. apply Inv_crun, Inv_init. Qed.

Lemma reach_ind : forall c (P : config -> Prop),
  (forall w ts d, Inv c (w, ts) -> P (w, ts) -> P (set_clock w (clock w + Z.max 0 d), ts)) ->
  (forall w ts th t w' t', Inv c (w, ts) -> P (w, ts) -> nth_error ts th = Some t ->
                           mstep c th w t = Some (w', t') -> P (w', set_nth th t' ts)) ->
  forall c0 hs sch, P (start_config c0 hs) -> P (crun c (start_config c0 hs) sch).
Proof.
  intros c P HT HS c0 hs sch H0.
  enough (Inv c (crun c (start_config c0 hs) sch) /\ P (crun c (start_config c0 hs) sch)) by tauto.
  apply crun_ind with (P := fun cf => Inv c cf /\ P cf); [| |split; [apply Inv_init|exact H0]].
  - intros w ts d [I H]. split; [apply Inv_tick; [lia|exact I] | apply HT; assumption].
  - intros w ts th t w' t' [I H] N M. split; [eapply Inv_mstep; eauto | eapply HS; eauto].
Qed.

Lemma active_le_1 : forall c cf k, Inv c cf -> (t_active (tramps (fst cf) k) <= 1)%nat.
Proof.
  intros c [w ts] k (W & C & _). cbn [fst snd] in *. destruct (C k) as (C1 & C2 & _). cbn [fst snd] in *.
  assert (sumf (invs k) ts <= sumf (runs k) ts).
  { apply sumf_le. intros x Hx. apply inv_le_run. apply W; auto. }
  destruct (t_idle (tramps w k)); lia.
Qed.

Definition ev_key (e : event) : option key :=
  match e with
  | ECreate k _ _ _ _ | EEnq k _ _ _ | EStart k _ _ _ _ _ _ _ | EEnd k _ _ _ | ESkip k _
  | EDrop k _ _ | EIdle k _ | ERequired k _ _ => Some k
  | _ => None
  end.

Definition frame_key (f : frame) : option key :=
  match f with FRun k _ _ | FEnq k _ | FInvoke k _ _ => Some k | _ => None end.

Lemma frames_owned : forall clk lg th s, wf_stk s -> Forall (frame_ok clk lg th) s ->
  forall f k, In f s -> frame_key f = Some k -> owned k th.
Proof.
  induction s as [|g s IH]; intros W F f k Hin Hk; [destruct Hin|].
  apply Forall_cons_iff in F. destruct F as [Fg Fs]. destruct Hin as [->|Hin].
  - destruct f as [top cs|k0 it|k0 id l|l|k0 r ph]; cbn in Hk; try discriminate; injection Hk as ->; cbn [frame_ok wf_stk] in *; try tauto.
    (* an invocation: the drain loop it sits on is owned *)
    destruct W as [W1 _]. destruct s as [|[] s']; try contradiction. destruct ph; try contradiction. subst.
    apply Forall_inv in Fs. exact (proj1 Fs).
  - apply IH with (f := f); auto. destruct g; cbn [wf_stk] in W; tauto.
Qed.

Definition nokey (k : key) (s : list frame) : Prop := Forall (fun f => frame_key f <> Some k) s.

Lemma nokey_step : forall c th w t w' t' k,
  mstep c th w t = Some (w', t') -> (forall s0, tkey s0 th <> k) -> nokey k (stk t) ->
  nokey k (stk t') /\ tramps w' k = tramps w k /\
  exists evs, log w' = evs ++ log w /\ Forall (fun e => ev_key e <> Some k) evs.
Proof.
  intros c th w t w' t' k0 H NK N. unfold nokey in *. cbn [stk] in *.
  (* in every case the new frames, the trampoline updated and the events logged carry the key of
     the top frame or [tkey s th] *)
  mstep_inv H; wsimpl; unfold upd, set_active; fa; cbn [frame_key] in *;
  try (assert (k <> k0) by congruence; rewrite (key_eqb_neq k0 k) by congruence);
  (split; [repeat (constructor; auto); cbn [frame_key]; try congruence;
           try (intro E; inversion E; eapply NK; eauto)
          |split; [reflexivity|]]);
  try (exists []; split; [reflexivity|constructor]);
  try (eexists [_]; split; [reflexivity|]); try (eexists [_; _]; split; [reflexivity|]);
  repeat constructor; cbn [ev_key]; try congruence;
  try (intro E; inversion E; subst; eapply NK; eauto).
Qed.

Definition started (k : key) (id : nat) (lg : list event) : Prop :=
  exists l th due clk dk d, In (EStart k id l th due clk dk d) lg.
Definition skipped (k : key) (id : nat) (lg : list event) : Prop := In (ESkip k id) lg.
Definition dropped (k : key) (id : nat) (lg : list event) : Prop :=
  exists ids exn, In (EDrop k ids exn) lg /\ In id ids.
Definition enqueued (k : key) (id : nat) (lg : list event) : Prop := exists th r, In (EEnq k id th r) lg.
Definition pending (k : key) (id : nat) (lg : list event) : Prop :=
  enqueued k id lg /\ ~ started k id lg /\ ~ skipped k id lg /\ ~ dropped k id lg.

Lemma pending_cons : forall k id e lg,
  pending k id (e :: lg) -> (forall th r, e <> EEnq k id th r) -> pending k id lg.
Proof.
  intros k id e lg (E & S & K & D) NE. repeat split.
  - destruct E as (th & r & [E|E]); [subst; exfalso; eapply NE; eauto|]. exists th, r; auto.
  - intros (l & th & due & clk & dk & d & H). apply S. exists l, th, due, clk, dk, d. right; auto.
  - intro H. apply K. right; auto.
  - intros (ids & exn & H & Hi). apply D. exists ids, exn. split; auto. right; auto.
Qed.

Lemma pending_enq : forall k id id' th r lg, pending k id (EEnq k id' th r :: lg) -> id = id' \/ pending k id lg.
Proof.
  intros k id id' th r lg P. destruct (Nat.eq_dec id id'); [auto|]. right.
  apply pending_cons in P; [exact P | intros; congruence].
Qed.

Lemma pending_not_started : forall k id l th due clk dk d lg,
  pending k id (EStart k id l th due clk dk d :: lg) -> False.
Proof. intros k id l th due clk dk d lg (_ & S & _). apply S. exists l, th, due, clk, dk, d. left; auto. Qed.

Lemma pending_not_skipped : forall k id lg, pending k id (ESkip k id :: lg) -> False.
Proof. intros k id lg (_ & _ & K & _). apply K. left; auto. Qed.

Lemma pending_not_dropped : forall k id ids exn lg, In id ids -> pending k id (EDrop k ids exn :: lg) -> False.
Proof. intros k id ids exn lg Hi (_ & _ & _ & D). apply D. exists ids, exn. split; auto. left; auto. Qed.

(* the exit path logs the drop, then [EIdle] *)
Lemma pending_dropped : forall k id e ids exn lg,
  pending k id (e :: EDrop k ids exn :: lg) -> (forall th r, e <> EEnq k id th r) ->
  pending k id lg /\ ~ In id ids.
Proof.
  intros k id e ids exn lg P Ne. apply pending_cons in P; [|exact Ne]. split.
  - apply pending_cons in P; [exact P | intros; congruence].
  - intro Hi. eapply pending_not_dropped; eauto.
Qed.

Lemma ids_of_app : forall a b, ids_of (a ++ b) = ids_of a ++ ids_of b.
Proof. intros; unfold ids_of; apply map_app. Qed.

Lemma ids_insert : forall id z q, In id (ids_of (insert z q)) <-> id = i_id z \/ In id (ids_of q).
Proof.
  intros. unfold ids_of. rewrite !in_map_iff. split.
  - intros (x & E & Hx). apply insert_In in Hx. destruct Hx; [subst; auto|]. right. exists x; auto.
  - intros [->|(x & E & Hx)]; [exists z; split; auto; apply insert_In; auto|].
    exists x; split; auto. apply insert_In; auto.
Qed.

(* the ready items that the drain loops of k on a stack hold *)
Fixpoint readys (k : key) (s : list frame) : list item :=
  match s with
  | [] => []
  | FRun k' r _ :: rest => if key_eqb k k' then r ++ readys k rest else readys k rest
  | _ :: rest => readys k rest
  end.

(* One micro-step of thread th: an item that is pending afterwards is in the queue of its
   trampoline or held by a drain loop of th, or [Other] (held by another thread) is the case. *)
Lemma cons_local : forall c th w t w' t' (Other : Prop) k id,
  mstep c th w t = Some (w', t') -> wf_stk (stk t) ->
  (pending k id (log w) -> In id (ids_of (t_queue (tramps w k) ++ readys k (stk t))) \/ Other) ->
  pending k id (log w') -> In id (ids_of (t_queue (tramps w' k) ++ readys k (stk t'))) \/ Other.
Proof.
  intros c th w t w' t' Other k0 id0 H W Hold P. cbn [stk] in *.
  mstep_inv H; wsimpl; unfold upd, set_active; cbn [readys wf_stk] in *;
  try (keycase k0 k); cbn [t_queue] in *;
  try (apply Hold; repeat (apply pending_cons in P; [|intros; congruence]); exact P).
  - (* the exit path: what the loop held and the queue are dropped *)
    destruct (pending_dropped _ _ _ _ _ _ P) as [P0 ND]; [intros; congruence|].
    destruct (Hold P0) as [Hin|]; auto. clear - Hin ND. rewrite !ids_of_app, !in_app_iff in *. cbn [app]. tauto.
  - (* enqueue, the call becomes the drain loop: the item is in the queue *)
    rewrite ids_of_app, in_app_iff, ids_insert in *. cbn [i_id].
    destruct (pending_enq _ _ _ _ _ _ P) as [->|P0]; [auto | specialize (Hold P0); clear - Hold; tauto].
  - (* enqueue on a busy trampoline *)
    rewrite ids_of_app, in_app_iff, ids_insert in *. cbn [i_id].
    destruct (pending_enq _ _ _ _ _ _ P) as [->|P0]; [auto | specialize (Hold P0); clear - Hold; tauto].
  - (* first locked block: due items move from the queue to ready *)
    destruct (split_due_spec _ _ _ _ Esplit) as (S1 & _). rewrite S1 in Hold. specialize (Hold P).
    clear - Hold. rewrite !ids_of_app, !in_app_iff in *. tauto.
  - (* a cancelled item is skipped *)
    destruct (Nat.eq_dec (i_id x) id0) as [<-|]; [exfalso; eapply pending_not_skipped; eauto|].
    apply pending_cons in P; [|intros; congruence]. specialize (Hold P). clear - Hold n.
    rewrite !ids_of_app, !in_app_iff in *. cbn [ids_of map In] in Hold. tauto.
  - destruct (Nat.eq_dec (i_id x) id0) as [<-|]; [exfalso; eapply pending_not_started; eauto|].
    apply pending_cons in P; [|intros; congruence]. specialize (Hold P). clear - Hold n.
    rewrite !ids_of_app, !in_app_iff in *. cbn [ids_of map In] in Hold. tauto.
  - (* normal exit: nothing is held *)
    apply pending_cons in P; [|intros; congruence]. destruct W as [W1 _].
    rewrite Eq, W1 in Hold by congruence. exact (Hold P).
  - rewrite Eq in Hold. exact (Hold P).
Qed.

Definition held (cf : config) (k : key) (id : nat) : Prop :=
  In id (ids_of (t_queue (tramps (fst cf) k))) \/
  exists th t, nth_error (snd cf) th = Some t /\ In id (ids_of (readys k (stk t))).

(* conservation: an enqueued item is held until it is started, skipped or dropped *)
Definition conserved (cf : config) : Prop :=
  forall k id, pending k id (log (fst cf)) -> held cf k id.

Lemma conserved_mstep : forall c w ts th t w' t',
  all_wf ts -> conserved (w, ts) -> nth_error ts th = Some t -> mstep c th w t = Some (w', t') ->
  conserved (w', set_nth th t' ts).
Proof.
  intros c w ts th t w' t' W C N M k id P. unfold held. cbn [fst snd] in *.
  assert (Wt : wf_stk (stk t)) by (apply W; eapply nth_error_In; eauto).
  destruct (cons_local c th w t w' t'
              (exists th2 t2, th2 <> th /\ nth_error ts th2 = Some t2 /\ In id (ids_of (readys k (stk t2))))
              k id M Wt) as [L|(th2 & t2 & Hn & N2 & Hh)]; auto.
  - intro P0. rewrite ids_of_app, in_app_iff.
    destruct (C k id P0) as [Hq|(th2 & t2 & N2 & Hh)]; cbn [fst snd] in *; auto.
    destruct (Nat.eq_dec th2 th) as [->|]; [|right; eauto].
    rewrite N in N2. injection N2 as <-. auto.
  - rewrite ids_of_app, in_app_iff in L. destruct L as [L|L]; auto.
    right. exists th, t'. split; auto. eapply nth_error_set_nth_eq; eauto.
  - right. exists th2, t2. split; auto. rewrite nth_error_set_nth_neq; auto.
Qed.

Lemma conserved_init : forall c0 hs, conserved (start_config c0 hs).
Proof. intros c0 hs k id (E & _). destruct E as (th & r & []). Qed.

Theorem reachable_conserved : forall c c0 hs sch, conserved (crun c (start_config c0 hs) sch).
Proof.
  intros. apply reach_ind; [auto | | apply conserved_init].
  intros w ts th t w' t' I C N M. exact (conserved_mstep _ _ _ _ _ _ _ (Inv_wf _ _ I) C N M).
Qed.

(* every thread has returned *)
Definition finished (ts : list thread) : Prop := forall t, In t ts -> stk t = [].

Lemma finished_sum : forall (g : frame -> Z) ts, finished ts -> sumf (fun t => sumf g (stk t)) ts = 0.
Proof.
  induction ts as [|a ts IH]; intro F; cbn [sumf]; [reflexivity|].
  rewrite IH by (intros u Hu; apply F; right; exact Hu). rewrite (F a) by (left; reflexivity). reflexivity.
Qed.

Lemma finished_idle : forall c cf k, Inv c cf -> finished (snd cf) ->
  t_idle (tramps (fst cf) k) = true /\ t_queue (tramps (fst cf) k) = [] /\ t_active (tramps (fst cf) k) = 0%nat.
Proof.
  intros c [w ts] k (_ & C & _) F. cbn [fst snd] in *. destruct (C k) as (C1 & C2 & C3). cbn [fst snd] in *.
  pose proof (finished_sum (run_c k) ts F) as Z1. pose proof (finished_sum (inv_c k) ts F) as Z2.
  change (sumf (runs k) ts = 0) in Z1. change (sumf (invs k) ts = 0) in Z2.
  destruct (t_idle (tramps w k)); [|lia]. repeat split; auto. lia.
Qed.

(* when every thread has returned nothing is pending: every enqueued item has been started,
   skipped (found cancelled) or dropped *)
Theorem all_run : forall c c0 hs sch k id,
  let cf := crun c (start_config c0 hs) sch in
  finished (snd cf) -> ~ pending k id (log (fst cf)).
Proof.
  intros c c0 hs sch k id cf F P.
  pose proof (reachable_Inv c c0 hs sch) as I. pose proof (reachable_conserved c c0 hs sch) as C.
  fold cf in I, C.
  destruct (finished_idle c cf k I F) as (_ & Q & _).
  destruct (C k id P) as [Hq|(th & t & N & Hin)].
  - rewrite Q in Hq. destruct Hq.
  - rewrite (F t) in Hin by (eapply nth_error_In; eauto). exact Hin.
Qed.

Theorem reachable_ev_ok : forall c c0 hs sch l2 e l1,
  log (fst (crun c (start_config c0 hs) sch)) = l2 ++ e :: l1 -> ev_ok c e l1.
Proof.
  intros c c0 hs sch l2 e l1 H. destruct (reachable_Inv c c0 hs sch) as (_ & _ & _ & L).
  rewrite H in L. exact (log_all_at _ _ _ _ L).
Qed.

(* [nokey_step] for a trampoline that belongs to another thread, in any configuration that satisfies
   the invariant: the frames of a thread are on trampolines it can reach ([frames_owned]) *)
Lemma indep_cstep : forall c cf th k o, Inv c cf -> owner k = Some o -> o <> th ->
  tramps (fst (cstep c cf (Run th))) k = tramps (fst cf) k /\
  exists evs, log (fst (cstep c cf (Run th))) = evs ++ log (fst cf) /\ Forall (fun e => ev_key e <> Some k) evs.
Proof.
  intros c [w ts] th k o I Ho Hn.
  pose proof (Inv_wf _ _ I) as W. destruct I as (_ & _ & (F & _) & _). cbn [fst snd] in *.
  unfold cstep. destruct (nth_error ts th) as [t|] eqn:N; [|split; auto; exists []; split; auto].
  destruct (mstep c th w t) as [[w' t']|] eqn:M; [|split; auto; exists []; split; auto].
  cbn [fst]. eapply nokey_step; eauto.
  - intros s0 E. subst k. exact (Hn (eq_sym (owned_tkey _ _ _ Ho))).
  - apply Forall_forall. intros f Hin Hk. apply Hn. symmetry.
    exact (frames_owned _ _ _ _ (W _ (nth_error_In _ _ N)) (F _ _ N) f k Hin Hk o Ho).
Qed.

Theorem independent : forall c c0 hs sch th k o,
  let cf := crun c (start_config c0 hs) sch in
  let cf' := cstep c cf (Run th) in
  owner k = Some o -> o <> th ->
  tramps (fst cf') k = tramps (fst cf) k /\
  exists evs, log (fst cf') = evs ++ log (fst cf) /\ Forall (fun e => ev_key e <> Some k) evs.
Proof. intros c c0 hs sch th k o cf cf'. apply indep_cstep, reachable_Inv. Qed.
