(* AutoDetachObserver (Core/AutoDetach.v: [run_call] / [run_calls] over call forests):
   the guarantee [good] of one call, carried over forests; the grammar of what the user
   callbacks see and the silence once stopped are its readings. *)
From RxVerif Require Import Base.Prelude Ops.Machine Core.AutoDetach.

Section Facts.
Context {A : Type}.

(* [call] is nested in [list]: the generated principle has no hypothesis for [during] *)
Section Ind.
Variable P : call A -> Prop.
Hypothesis H : forall k during raises, Forall P during -> P (Call k during raises).
Fixpoint call_ind' (c : call A) : P c :=
  match c with
  | Call k during r =>
      H k during r
        ((fix go (l : list (call A)) : Forall P l :=
            match l with
            | [] => Forall_nil P
            | x :: t => Forall_cons x (call_ind' x) (go t)
            end) during)
  end.
End Ind.

(* the local fix inside run_call is run_calls *)
Lemma run_list_eq (l : list (call A)) : forall st,
  (fix run_list (st : bool) (l : list (call A)) : bool * list (effect A) :=
     match l with
     | [] => (st, [])
     | c :: t => let '(st1, e1) := run_call st c in
                 let '(st2, e2) := run_list st1 t in (st2, e1 ++ e2)
     end) st l = run_calls st l.
Proof.
  induction l as [|c t IH]; intros st; [reflexivity|].
  cbn [run_calls]. destruct (run_call st c) as [st1 e1]. rewrite IH. reflexivity.
Qed.

Lemma run_call_unfold st k during raises :
  run_call st (Call k during raises) =
  match k return bool * list (effect A) with
  | KNext a =>
      if st then (st, [])
      else let '(st', es) := run_calls st during in
           (st', Deliver (Next a) :: es ++ (if raises then [Raised EXN_CALLBACK] else []))
  | KError e =>
      if st then (st, [])
      else let '(_, es) := run_calls true during in
           (true, Deliver (Err e) :: es ++ [SubDispose] ++ (if raises then [Raised EXN_CALLBACK] else []))
  | KCompleted =>
      if st then (st, [])
      else let '(_, es) := run_calls true during in
           (true, Deliver Done :: es ++ [SubDispose] ++ (if raises then [Raised EXN_CALLBACK] else []))
  | KDispose => (true, [SubDispose])
  | KFail e =>
      if st then (st, [FailReturned false])
      else let '(_, es) := run_calls true during in
           (true, Deliver (Err e) :: es ++ (if raises then [Raised EXN_CALLBACK] else [FailReturned true]))
  end.
Proof. destruct k; cbn [run_call]; rewrite ?run_list_eq; reflexivity. Qed.

Lemma delivered_app (a b : list (effect A)) : delivered (a ++ b) = delivered a ++ delivered b.
Proof.
  induction a as [|e t IH]; [reflexivity|]. destruct e; cbn [app delivered]; now rewrite IH.
Qed.

Definition ended (l : list (ev A)) : bool := existsb is_terminal l.

(* what one call (or a forest) guarantees *)
Definition good (st : bool) (r : bool * list (effect A)) : Prop :=
  let '(st', es) := r in
  (st = true -> delivered es = [] /\ st' = true)
  /\ wellformed (delivered es) = true
  /\ (ended (delivered es) = true -> st' = true).

Lemma wellformed_app_notended (l1 l2 : list (ev A)) :
  wellformed l1 = true -> ended l1 = false -> wellformed l2 = true -> wellformed (l1 ++ l2) = true.
Proof.
  induction l1 as [|e t IH]; intros H1 H2 H3; [exact H3|].
  destruct e; cbn [app wellformed ended existsb is_terminal orb] in *; try discriminate.
  apply IH; assumption.
Qed.

Lemma ended_app (l1 l2 : list (ev A)) : ended (l1 ++ l2) = ended l1 || ended l2.
Proof. unfold ended. apply existsb_app. Qed.

Lemma good_calls (l : list (call A)) :
  Forall (fun c => forall st, good st (run_call st c)) l -> forall st, good st (run_calls st l).
Proof.
  induction 1 as [|c t Hc Ht IH]; intros st.
  - cbn. repeat split; auto; discriminate.
  - cbn [run_calls]. specialize (Hc st). destruct (run_call st c) as [st1 e1].
    specialize (IH st1). destruct (run_calls st1 t) as [st2 e2].
    unfold good in *. destruct Hc as (Hc1 & Hc2 & Hc3). destruct IH as (I1 & I2 & I3).
    rewrite delivered_app.
    split; [|split].
    + intros Hst. destruct (Hc1 Hst) as [Hd Hs1]. destruct (I1 Hs1) as [Hd2 Hs2].
      now rewrite Hd, Hd2.
    + destruct (ended (delivered e1)) eqn:He.
      * destruct (I1 (Hc3 eq_refl)) as [Hd2 _]. now rewrite Hd2, app_nil_r.
      * apply wellformed_app_notended; assumption.
    + rewrite ended_app. intros Hor. apply orb_true_iff in Hor. destruct Hor as [Ho|Ho].
      * destruct (I1 (Hc3 Ho)) as [_ Hs2]. exact Hs2.
      * auto.
Qed.

Lemma raised_silent (raises : bool) : @delivered A (if raises then [Raised EXN_CALLBACK] else []) = [].
Proof. destruct raises; reflexivity. Qed.

Theorem good_call (c : call A) : forall st, good st (run_call st c).
Proof.
  induction c as [k during raises IH] using call_ind'. intros st.
  rewrite run_call_unfold.
  pose proof (good_calls during IH) as Hd.
  destruct k as [a|e| | |e]; [| | |cbn; repeat split; auto; discriminate|];
    (destruct st; [cbn; repeat split; auto; discriminate|]).
  { (* on_next: the nested calls run on the live wrapper *)
    specialize (Hd false). destruct (run_calls false during) as [st' es].
    unfold good in *. destruct Hd as (_ & H2 & H3).
    cbn [delivered]. rewrite delivered_app, raised_silent, app_nil_r.
    split; [discriminate|]. split; [exact H2|]. exact H3. }
  (* on_error, on_completed, fail: is_stopped is set first, the nested calls deliver nothing *)
  all: specialize (Hd true); destruct (run_calls true during) as [st' es];
    unfold good in *; destruct Hd as (H1 & _ & _); destruct (H1 eq_refl) as [Hnil _];
    cbn [delivered]; rewrite !delivered_app, Hnil; destruct raises; cbn; repeat split; auto; discriminate.
Qed.

Lemma good_run_calls (h : list (call A)) (st : bool) : good st (run_calls st h).
Proof. apply good_calls, Forall_forall. intros c _. apply good_call. Qed.

(* the choke point of C01: whatever is called on the wrapper, in whatever
   nesting, with whichever callbacks raising, the user callbacks see
   Next* (Err|Done)? -- and nothing once stopped *)
Theorem autodetach_grammar (h : list (call A)) (st : bool) :
  wellformed (delivered (snd (run_calls st h))) = true.
Proof. pose proof (good_run_calls h st) as G. destruct (run_calls st h). apply G. Qed.

Theorem autodetach_silent_once_stopped (h : list (call A)) :
  delivered (snd (run_calls true h)) = [].
Proof. pose proof (good_run_calls h true) as G. destruct (run_calls true h). now apply G. Qed.
End Facts.
