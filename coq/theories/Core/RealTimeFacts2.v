(* More facts about the TimeoutScheduler system of Core/RealTime.v (C34): the ghost due time carried by
   TStart is the one the schedule call returned ([invR2], on top of [invR] of Core/RealTimeFacts.v). *)
From RxVerif Require Import Base.Prelude Core.RealTime Core.RealTimeFacts.
Local Open Scope Z_scope.

Definition invR2 (c : tconfig) : Prop :=
  (forall tid a due ph, nth_error (t_ths c) tid = Some (Timer a due ph) ->
     exists tid' t', In (tid', t', TRet a due) (t_log c)) /\
  (forall tid t a due, In (tid, t, TStart a due) (t_log c) ->
     exists tid' t', In (tid', t', TRet a due) (t_log c) /\ t' <= t).

Lemma invR2_init : forall t0 progs, invR2 (tinit t0 progs).
Proof.
  intros. split.
  - intros tid a due ph H. cbn [tinit t_ths] in H. apply nth_error_In, in_map_iff in H.
    destruct H as [p [E _]]. discriminate E.
  - intros tid t a due [].
Qed.

Lemma invR2_tick : forall c d, invR2 c -> invR2 (ttick c d).
Proof. intros c d H. exact H. Qed.

Lemma timer_step_no_start : forall s a ph ph' out b due,
  timer_step s a ph = Some (ph', out) -> ~ In (TStart b due) out.
Proof.
  intros s a ph ph' out b due TS I.
  destruct (timer_step_cases _ _ _ _ _ TS)
    as [(_ & _ & _ & ->)|[(_ & _ & _ & _ & ->)|[(_ & _ & _ & _ & _ & ->)|[(_ & _ & ->)|(_ & _ & ->)]]]];
    cbn in I; intuition discriminate.
Qed.

Lemma invR2_step : forall c tid, invR c -> invR2 c -> invR2 (ttstep c tid).
Proof.
  intros c tid (R1 & _) (T1 & T2). unfold ttstep.
  destruct (nth_error (t_ths c) tid) as [[pending todo|a due ph]|] eqn:N; [| |split; assumption].
  - destruct (caller_step (length (t_ths c)) (t_sh c) pending todo) as [[[[s' me] out] sp]|] eqn:CS; [|split; assumption].
    destruct (caller_step_shape _ _ _ _ _ _ _ _ CS) as (_ & _ & NS & (p & t & ->) & SP).
    split; cbn [t_ths t_log].
    + intros j a due ph E. destruct (tnth_after _ _ _ _ _ _ _ N E) as [[_ X]|[[NE E']|X]].
      * discriminate X.
      * destruct (T1 j a due ph E') as (tid' & t' & I). exists tid', t'. apply in_or_app. left. exact I.
      * destruct (SP _ X) as (a0 & due0 & iv & E0 & _ & I0). injection E0 as -> -> ->.
        exists tid, (tclock (t_sh c)). apply in_or_app. right. apply in_tstamp. auto.
    + intros j t0 a due I. apply in_app_or in I. destruct I as [I|I]; [|apply in_tstamp in I; exfalso; eapply NS, I].
      destruct (T2 _ _ _ _ I) as (tid' & t' & I' & LE). exists tid', t'. split; [apply in_or_app; left; exact I'|exact LE].
  - destruct (timer_step (t_sh c) a ph) as [[ph' out]|] eqn:TS; [|split; assumption].
    split; cbn [t_ths t_log].
    + intros j a0 due0 ph0 E. destruct (Nat.eq_dec j tid) as [->|NE].
      * erewrite tnth_upd_same in E by exact N. injection E as <- <- <-. destruct (T1 tid a due ph N) as (tid' & t' & I).
        exists tid', t'. apply in_or_app. left. exact I.
      * rewrite tnth_upd_other in E by exact NE. destruct (T1 j a0 due0 ph0 E) as (tid' & t' & I).
        exists tid', t'. apply in_or_app. left. exact I.
    + intros j t0 a0 due0 I. apply in_app_or in I. destruct I as [I|I].
      * destruct (T2 _ _ _ _ I) as (tid' & t' & I' & LE). exists tid', t'. split; [apply in_or_app; left; exact I'|exact LE].
      * (* a start logged now is this timer's own (logged from PFire only); its TRet is in the old log, whose
           stamps are at or before the clock (R1) *)
        apply in_tstamp in I. destruct I as [-> [-> I]].
        assert (E : a0 = a /\ due0 = due).
        { destruct ph; try (exfalso; eapply timer_step_no_start; [exact TS|exact I]).
          destruct I as [I|[]]. injection I as -> ->. auto. }
        destruct E as [-> ->]. destruct (T1 tid a due ph N) as (tid' & t' & I').
        exists tid', t'. split; [apply in_or_app; left; exact I'|]. eapply R1, I'.
Qed.

Lemma invR2_run : forall t0 progs sched, invR (trun (tinit t0 progs) sched) /\ invR2 (trun (tinit t0 progs) sched).
Proof.
  intros. apply (trun_invariant (fun c => invR c /\ invR2 c)).
  - intros c tid [A B]. split; [apply invR_step, A|apply invR2_step; assumption].
  - intros c d [A B]. split; [apply invR_tick, A|apply invR2_tick, B].
  - split; [apply invR_init|apply invR2_init].
Qed.

(* "the call returned at or before its due time" is NOT a theorem: schedule_absolute with a time in the
   past returns due = t although the clock is already past t (the action then runs at once -- late, never
   early) *)
Definition timeout_abs_past_witness : tconfig :=
  trun (tinit 100 [[TAbs 50 7%nat]]) [TMStep 0; TMStep 0; TMStep 1; TMStep 1; TMStep 1]%nat.

