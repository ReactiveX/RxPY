(* C34 (and C31): the due time of an accepted item is EXACTLY what the call that made it computed
   -- clock reading of the call's first step (+ max(0, d) for schedule_relative; the argument for
   schedule_absolute) -- and the composed statement for NewThreadScheduler / ThreadPoolScheduler, whose
   schedule_absolute(t) turns t into the delay t - now1 and hands it to schedule_relative of a fresh
   EventLoopScheduler(exit_if_empty=True), created afterwards, whose clock therefore starts at some
   now2 >= now1: the action never starts before t, and never after a dispose() that returned before t. *)
From RxVerif Require Import Base.Prelude Core.EventLoop Core.EventLoopFacts Core.EventLoopFacts2 Core.RealTimeFacts.
Local Open Scope Z_scope.

(* the due time of a call is fixed by its first step, from the clock (with the fresh uid); the item is enqueued,
   with that due time, by its last step *)
Lemma opstep_due : forall ntid s cur todo s' cur' todo' out sp,
  opstep ntid s cur todo s' cur' todo' out sp ->
  (forall o, In o todo' -> In o todo) /\
  (forall u a due, cur_is cur' u a due ->
     cur_is cur u a due \/
     (In (ECall u a) out /\ u = nuid s /\
      ((In (SchedNow a) todo /\ due = clock s) \/ (exists d, In (SchedRel d a) todo /\ due = clock s + Z.max 0 d) \/
       In (SchedAbs due a) todo))) /\
  (forall i, In (EAcc i) out -> cur = Some (PS2 (it_uid i) (it_lbl i) (it_due i))).
Proof.
  (* as in [opstep_uids]: every constructor gives [out] and [todo] as literal lists *)
  unfold cur_is. destruct 1; cbn; repeat split; intros; in_literal;
    try discriminate; auto;
    match goal with X : _ = _ |- _ => injection X as <- <- <- || injection X as <- end; eauto 12.
Qed.

(* one step: either a call step of a scheduling thread / of a loop thread inside an action, or a step
   that emits no call event and leaves no call in progress.  Either way what [opstep_due] says of a call step
   holds, once the calls still to make may also be the body of the action that starts *)
Lemma cstep_cases : forall eie body c tid c', cstep eie body c tid c' ->
  exists st st' s' out (sp : bool),
    nth_error (c_ths c) tid = Some st /\
    c' = Config s' (upd tid st' (c_ths c) ++ (if sp then [TLoop LNew] else [])) (c_log c ++ stamp tid (clock (c_sh c)) out) /\
    (opstep (length (c_ths c)) (c_sh c) (tcur st) (ttodo st) s' (tcur st') (ttodo st') out sp \/
     ((exists ph, st = TLoop ph) /\ sp = false /\ (forall e, In e out -> callish e = false) /\ tcur st' = None /\
      (ttodo st' = [] \/ exists a, ttodo st' = body a))) /\
    (forall o, In o (ttodo st') -> In o (ttodo st) \/ exists a, In o (body a)) /\
    (forall u a due, cur_is (tcur st') u a due ->
       cur_is (tcur st) u a due \/
       (In (ECall u a) out /\ u = nuid (c_sh c) /\
        ((In (SchedNow a) (ttodo st) /\ due = clock (c_sh c)) \/
         (exists d, In (SchedRel d a) (ttodo st) /\ due = clock (c_sh c) + Z.max 0 d) \/
         In (SchedAbs due a) (ttodo st)))) /\
    (forall i, In (EAcc i) out -> tcur st = Some (PS2 (it_uid i) (it_lbl i) (it_due i))).
Proof.
  intros eie body c tid c' S.
  destruct (cstep_call_or_loop _ _ _ _ _ S) as (st & st' & s' & out & sp & N & E & H).
  exists st, st', s', out, sp. rewrite !tcur_tcall, !ttodo_tcall. split; [exact N|]. split; [exact E|].
  destruct H as [O|(P & SP & CE & _ & _ & TC & [T|[a T]])].
  - split; [left; exact O|]. destruct (opstep_due _ _ _ _ _ _ _ _ _ O) as (D1 & D2 & D3). auto.
  - rewrite T, TC. cbn [fst snd]. split; [right; repeat split; auto|]. repeat split.
    + intros o [].
    + intros u a0 due [C|C]; discriminate C.
    + intros i I. discriminate (CE _ I).
  - rewrite T, TC. cbn [fst snd]. split; [right; repeat split; eauto|]. repeat split.
    + eauto.
    + intros u a0 due [C|C]; discriminate C.
    + intros i I. discriminate (CE _ I).
Qed.

Lemma cstep_nuid : forall eie body c tid c', cstep eie body c tid c' -> (nuid (c_sh c) <= nuid (c_sh c'))%nat.
Proof.
  intros eie body c tid c' S. destruct (cstep_uids _ _ _ _ _ S) as (st & st' & s' & out & sp & _ & -> & NN & _). exact NN.
Qed.

Section Exact.
Variable eie : bool.
Variable body : nat -> list op.
Variable progs : list (list op).
Variable t0 : Z.
Notation cstep := (cstep eie body).
Notation run := (run eie body).
Notation src := (src body progs).

(* the call (uid u, action a) is in the log, was made at a clock reading tc >= t0, and due is what that
   call computes from tc *)
Definition linkedX (c : config) (u a : nat) (due : Z) : Prop :=
  exists tid tc, In (tid, tc, ECall u a) (c_log c) /\ t0 <= tc /\
    ((src (SchedNow a) /\ due = tc) \/ (exists d, src (SchedRel d a) /\ due = tc + Z.max 0 d) \/
     src (SchedAbs due a)).

Definition invKX (c : config) : Prop :=
  t0 <= clock (c_sh c) /\
  (forall t st o, nth_error (c_ths c) t = Some st -> In o (ttodo st) -> src o) /\
  (forall t st u a due, nth_error (c_ths c) t = Some st -> cur_is (tcur st) u a due -> linkedX c u a due) /\
  (forall i, In (EAcc i) (L c) -> linkedX c (it_uid i) (it_lbl i) (it_due i)).

Lemma invKX_init : invKX (init t0 progs).
Proof.
  unfold invKX, init, L. cbn [c_ths c_log c_sh sh0 clock evs map]. split; [lia|]. repeat split.
  - intros t st o N I. apply nth_error_In, in_map_iff in N. destruct N as [p [<- Hp]]. left. exists p. auto.
  - intros t st u a due N C. apply nth_error_In, in_map_iff in N. destruct N as [p [<- Hp]].
    destruct C as [C|C]; discriminate C.
  - intros i [].
Qed.

Lemma linkedX_mono : forall c s' ths' tid out u a due,
  linkedX c u a due -> linkedX (Config s' ths' (c_log c ++ stamp tid (clock (c_sh c)) out)) u a due.
Proof.
  intros c s' ths' tid out u a due (t1 & tc & I & H). exists t1, tc. split; [|exact H].
  cbn [c_log]. apply in_or_app. left. exact I.
Qed.

Lemma invKX_step : forall c tid c', invA c -> invKX c -> cstep c tid c' -> invKX c'.
Proof.
  intros c tid c' A (K0 & K1 & K2 & K3) S. pose proof (cstep_clock eie body _ _ _ A S) as CK.
  destruct (cstep_cases _ _ _ _ _ S) as (st & st' & s' & out & sp & N & -> & _ & D1 & D2 & D3).
  assert (NEW : forall u a due, cur_is (tcur st') u a due ->
            linkedX (Config s' (upd tid st' (c_ths c) ++ (if sp then [TLoop LNew] else []))
                            (c_log c ++ stamp tid (clock (c_sh c)) out)) u a due).
  { intros u a due C. destruct (D2 u a due C) as [C0|(I & _ & HH)].
    - apply linkedX_mono. eapply K2; [exact N|exact C0].
    - exists tid, (clock (c_sh c)). split; [|split; [exact K0|]].
      + cbn [c_log]. apply in_or_app. right. apply in_stamp. auto.
      + destruct HH as [[HH ->]|[(d & HH & ->)|HH]].
        * left. split; [|reflexivity]. eapply K1; eassumption.
        * right. left. exists d. split; [|reflexivity]. eapply K1; eassumption.
        * right. right. eapply K1; eassumption. }
  unfold invKX. rewrite L_step. cbn [c_ths c_sh] in *. split; [lia|]. repeat split.
  - intros t x o E I. destruct (nth_after _ _ _ _ _ _ _ N E) as [[-> ->]|[[NE E']|(_ & _ & ->)]].
    + destruct (D1 o I) as [X|[a X]]; [eapply K1; [exact N|exact X]|right; eauto].
    + eapply K1; eassumption.
    + destruct I.
  - intros t x u a due E C. destruct (nth_after _ _ _ _ _ _ _ N E) as [[-> ->]|[[NE E']|(_ & _ & ->)]].
    + apply NEW, C.
    + apply linkedX_mono. eapply K2; eassumption.
    + destruct C as [C|C]; discriminate C.
  - intros i I. apply in_app_or in I. destruct I as [I|I]; [apply linkedX_mono, K3, I|].
    apply linkedX_mono. eapply K2; [exact N|]. right. apply D3, I.
Qed.

Lemma invKX_tick : forall c d, invKX c -> invKX (tick c d).
Proof.
  intros c d (K0 & K). split; [|exact K]. cbn [tick c_sh clock]. lia.
Qed.

Lemma invKX_run : forall sched, invKX (run (init t0 progs) sched).
Proof.
  intros sched. apply (run_invariant2 eie body invKX (invAll eie)).
  - intros. apply invAll_run. assumption.
  - intros c tid c' (A & _) K S. eapply invKX_step; eassumption.
  - intros. apply invKX_tick. assumption.
  - apply invAll_init.
  - apply invKX_init.
Qed.

(* an accepted item: the call that made it is in the log (same uid, same action), it was made at a clock
   reading tc >= t0 and the item's due time is EXACTLY what that call computes: tc for schedule, tc + max(0, d)
   for a schedule_relative(d) of that action occurring in the programs / bodies, the argument for
   schedule_absolute *)
Theorem el_accepted_due_exact : forall sched i,
  let c := run (init t0 progs) sched in
  In (EAcc i) (L c) ->
  exists tid tc, In (tid, tc, ECall (it_uid i) (it_lbl i)) (c_log c) /\ t0 <= tc /\
    ((src (SchedNow (it_lbl i)) /\ it_due i = tc) \/
     (exists d, src (SchedRel d (it_lbl i)) /\ it_due i = tc + Z.max 0 d) \/
     src (SchedAbs (it_due i) (it_lbl i))).
Proof. intros sched i c I. exact (proj2 (proj2 (proj2 (invKX_run sched))) i I). Qed.
End Exact.

(* weaker, without the arithmetic: the first step of the call -- the one that read the clock -- happened at
   or before the item's due time, unless the due time is the argument of a schedule_absolute call for that
   action in some program or action body *)
Corollary el_accepted_due_linked : forall eie body progs t0 sched i,
  let c := run eie body (init t0 progs) sched in
  In (EAcc i) (L c) ->
  exists tid tc, In (tid, tc, ECall (it_uid i) (it_lbl i)) (c_log c) /\
                 (tc <= it_due i \/ src body progs (SchedAbs (it_due i) (it_lbl i))).
Proof.
  intros eie body progs t0 sched i c I.
  destruct (el_accepted_due_exact eie body progs t0 sched i I) as (tid & tc & IC & _ & [[_ E]|[(d & _ & E)|H]]);
    exists tid, tc; (split; [exact IC|]); [left; lia|left; lia|right; exact H].
Qed.

(* NewThreadScheduler / ThreadPoolScheduler: schedule_absolute(t, a) composed with the inner loop.
   Outer call at clock reading now1: delay t - now1.  Inner EventLoopScheduler created afterwards: its clock
   reads t0 = now2 >= now1 at the earliest.  [only_rel a d o]: the only scheduling call for action a anywhere
   (programs of all threads, action bodies) is schedule_relative(d, a); other threads and bodies may do
   anything else, in particular dispose a's disposable and schedule other actions. *)
Definition only_rel (a : nat) (d : Z) (o : op) : Prop :=
  match o with
  | SchedNow b => b <> a
  | SchedRel d' b => b = a -> d' = d
  | SchedAbs _ b => b <> a
  | _ => True
  end.

Theorem newthread_absolute_composed : forall eie body progs t now1 now2 a sched,
  now1 <= now2 ->
  (forall o, src body progs o -> only_rel a (t - now1) o) ->
  let c := run eie body (init now2 progs) sched in
  forall tid ts i, In (tid, ts, EStart i) (c_log c) -> it_lbl i = a ->
    t <= it_due i /\ t <= ts /\ forall tid' t', In (tid', t', ECancelRet a) (c_log c) -> t <= t'.
Proof.
  intros eie body progs t now1 now2 a sched Hn Ho c tid ts i IS <-.
  pose proof (el_started_was_accepted eie body now2 progs sched i (log_in_L _ _ _ _ IS)) as [IA _].
  destruct (el_accepted_due_exact eie body progs now2 sched i IA) as (tid0 & tc & _ & Htc & H).
  assert (D : t <= it_due i).
  { destruct H as [[H _]|[(d & H & ->)|H]]; apply Ho in H; cbn [only_rel] in H.
    - exfalso. apply H. reflexivity.
    - rewrite (H eq_refl). lia.
    - exfalso. apply H. reflexivity. }
  split; [exact D|]. split.
  - pose proof (el_not_early eie body now2 progs sched tid ts i IS). lia.
  - intros tid' t' IC. pose proof (el_not_after_cancel_before_due eie body now2 progs sched tid ts i tid' t' IS IC). lia.
Qed.

(* the same for the one-call program, by uid: the scheduler is fresh, the only outside call is
   schedule_relative(t - now1, a) (uid 0); the action body is ARBITRARY (it may schedule a again, cancel,
   dispose the scheduler) *)
Section OneCall.
Variable eie : bool.
Variable body : nat -> list op.
Variables (d : Z) (a : nat) (t now2 : Z).
Hypothesis Ht : forall clk, now2 <= clk -> t <= clk + Z.max 0 d.
Notation cstep := (cstep eie body).
Notation run := (run eie body).

(* second conjunct: until the first uid is allocated nothing has happened, so the call that gets uid 0 is the
   outside schedule_relative(d, a); the other two speak of uid 0 only *)
Definition invZ (c : config) : Prop :=
  now2 <= clock (c_sh c) /\
  (nuid (c_sh c) = 0%nat -> c_ths c = [TSched None [SchedRel d a]]) /\
  (forall tt st a' due, nth_error (c_ths c) tt = Some st -> cur_is (tcur st) 0%nat a' due -> a' = a /\ t <= due) /\
  (forall i, In (EAcc i) (L c) -> it_uid i = 0%nat -> it_lbl i = a /\ t <= it_due i).

Lemma invZ_init : invZ (init now2 [[SchedRel d a]]).
Proof.
  unfold invZ, init, L. cbn [c_ths c_log c_sh sh0 clock nuid evs map]. split; [lia|]. split; [intros _; reflexivity|]. split.
  - intros tt st a' due N C. destruct tt as [|[|tt]]; cbn in N; inv N. destruct C as [C|C]; discriminate C.
  - intros i [].
Qed.

Lemma only_thread : forall tid st, nth_error [TSched None [SchedRel d a]] tid = Some st ->
  tid = 0%nat /\ st = TSched None [SchedRel d a].
Proof. intros [|[|tid]] st H; cbn in H; inv H. split; reflexivity. Qed.

Lemma invZ_step : forall c tid c', invA c -> invZ c -> cstep c tid c' -> invZ c'.
Proof.
  intros c tid c' A (Z0 & Z1 & Z2 & Z3) S. pose proof (cstep_clock eie body _ _ _ A S) as CK.
  pose proof (cstep_nuid _ _ _ _ _ S) as NU.
  destruct (cstep_cases _ _ _ _ _ S) as (st & st' & s' & out & sp & N & -> & H & _ & D2 & D3).
  unfold invZ. rewrite L_step. cbn [c_ths c_sh] in *. split; [lia|]. split; [|split].
  - (* the outside call is the first step of all, and allocates uid 0 *)
    intros E. exfalso. assert (E0 : nuid (c_sh c) = 0%nat) by lia. rewrite (Z1 E0) in N.
    destruct (only_thread _ _ N) as [-> ->]. destruct H as [O|((ph & X) & _)]; [|discriminate X].
    cbn [tcur ttodo] in O. inv O. cbn [bump nuid] in E. discriminate E.
  - intros tt x a' due E C. destruct (nth_after _ _ _ _ _ _ _ N E) as [[-> ->]|[[NE E']|(_ & _ & ->)]].
    + destruct (D2 _ _ _ C) as [C0|(_ & U & HH)]; [eapply Z2; [exact N|exact C0]|].
      rewrite (Z1 (eq_sym U)) in N. destruct (only_thread _ _ N) as [-> ->]. cbn [ttodo] in HH.
      destruct HH as [[[HH|[]] _]|[(d' & [HH|[]] & ->)|[HH|[]]]]; inv HH. split; [reflexivity|]. apply Ht, Z0.
    + eapply Z2; eassumption.
    + destruct C as [C|C]; discriminate C.
  - intros i I U. apply in_app_or in I. destruct I as [I|I]; [apply Z3; assumption|].
    pose proof (D3 i I) as C. rewrite U in C. eapply Z2; [exact N|]. right. exact C.
Qed.

Lemma invZ_run : forall sched, invZ (run (init now2 [[SchedRel d a]]) sched).
Proof.
  intros sched. apply (run_invariant2 eie body invZ (invAll eie)).
  - intros. apply invAll_run. assumption.
  - intros c tid c' (A & _) K S. eapply invZ_step; eassumption.
  - intros c k _ (Z0 & Z). split; [|exact Z]. cbn [tick c_sh clock]. lia.
  - apply invAll_init.
  - apply invZ_init.
Qed.
End OneCall.

Theorem newthread_absolute_one_call : forall eie body t now1 now2 a sched,
  now1 <= now2 ->
  let c := run eie body (init now2 [[SchedRel (t - now1) a]]) sched in
  forall tid ts i, In (tid, ts, EStart i) (c_log c) -> it_uid i = 0%nat ->
    it_lbl i = a /\ t <= ts /\ forall tid' t', In (tid', t', ECancelRet a) (c_log c) -> t <= t'.
Proof.
  intros eie body t now1 now2 a sched Hn c tid ts i IS U.
  pose proof (el_started_was_accepted eie body now2 _ sched i (log_in_L _ _ _ _ IS)) as [IA _].
  assert (Ht : forall clk, now2 <= clk -> t <= clk + Z.max 0 (t - now1)) by (intros; lia).
  destruct (invZ_run eie body (t - now1) a t now2 Ht sched) as (_ & _ & _ & Z3).
  destruct (Z3 i IA U) as [EL D]. split; [exact EL|]. split.
  - pose proof (el_not_early eie body now2 _ sched tid ts i IS). lia.
  - intros tid' t' IC. rewrite <- EL in IC.
    pose proof (el_not_after_cancel_before_due eie body now2 _ sched tid ts i tid' t' IS IC). lia.
Qed.
