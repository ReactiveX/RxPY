(* C35 / C42: in EVERY history a call of a periodic action that does not return a next state
   (it raised -- with or without a CatchScheduler handler -- or disposed its own subscription)
   is the LAST call of that subscription.

   The step lemma [periodic_stop_disposes] (such a call disposes the subscription) and the whole-run
   invariant [no_tick_after_dispose_run] (no call after a dispose) are glued here.  The glue is not an
   invariant of the primitive transitions [prim] of Core/VTimeFacts.v (the tick and the dispose are two
   separate primitive steps and [prim] allows anything between them), so it is proved on the functions
   of the model themselves ([run_walk] of Core/VTimeFacts.v): everything except the [periodic]
   closure extends the log without ticks ([tick_free]); the closure logs its tick and disposes before
   it returns ([tick_block]). *)
From RxVerif Require Import Base.Prelude Core.VTime Core.VTimeFacts Core.Periodic Core.PeriodicFacts.

Local Open Scope Z_scope.

Definition no_next_state (r : pres) : Prop := match r with PNext _ _ _ => False | _ => True end.

(* ticks name existing subscriptions *)
Definition Inv11 (s : st) : Prop :=
  forall pid stt k, In (ETick pid stt k) (log s) -> (pid < length (pers s))%nat.

Lemma set_nth_length {A} (x : A) : forall l n, length (set_nth n x l) = length l.
Proof. induction l as [|y t IH]; intros [|n]; simpl; auto. Qed.

Lemma inv11_prim s s' : Inv11 s -> prim s s' -> Inv11 s'.
Proof.
  intros H HP. destruct HP as [s due p|s r|s b|s c Hc|s pnew|s pid pi pi' Hn Hper Hfn Hdis|s e Hq|s it q' newclk bumped Hq Hc]; unfold Inv11 in *; try exact H.
  - (* P_cancel *)
    unfold cancel_id. destruct (r <? next_id s)%nat; [|exact H]. simpl. intros pid stt k [X|Hin]; [discriminate | eauto].
  - (* P_per_add *) simpl. intros pid stt k Hin. rewrite app_length. specialize (H pid stt k Hin). lia.
  - (* P_per_upd *) simpl. intros pid0 stt k Hin. rewrite set_nth_length. eauto.
  - (* P_log: [quiet] asks that a logged tick names a subscription *)
    simpl. intros pid stt k [X|Hin]; [|eauto]. subst e. simpl in Hq. destruct Hq as (_ & pi & N & _).
    apply nth_error_Some. congruence.
  - (* P_pop *) simpl. intros pid stt k [X|Hin]; [discriminate | eauto].
Qed.

(* the action table of a subscription never changes *)
Lemma prim_pfn s s' : prim s s' -> forall pid pi, nth_error (pers s) pid = Some pi ->
  exists pi', nth_error (pers s') pid = Some pi' /\ p_fn pi' = p_fn pi.
Proof.
  intros HP pid pi Hn. destruct HP as [s due p|s r|s b|s c Hc|s pnew|s pid0 pi1 pi' Hn1 Hper Hfn Hdis|s e Hq|s it q' newclk bumped Hq Hc];
    simpl; try (exists pi; split; [assumption | reflexivity]).
  - destruct (cancel_id_fields s r) as (_ & _ & _ & _ & _ & F & _). rewrite F. exists pi. split; [assumption | reflexivity].
  - exists pi. split; [|reflexivity]. rewrite nth_error_app1; [assumption|]. apply nth_error_Some. congruence.
  - destruct (Nat.eq_dec pid0 pid) as [->|Hne].
    + exists pi'. split; [eapply nth_error_set_nth; eassumption|]. congruence.
    + exists pi. split; [|reflexivity]. rewrite nth_error_set_nth_other; assumption.
Qed.

Lemma steps_pfn s s' : steps s s' -> forall pid pi, nth_error (pers s) pid = Some pi ->
  exists pi', nth_error (pers s') pid = Some pi' /\ p_fn pi' = p_fn pi.
Proof.
  intro H. induction H as [|s1 s2 _ IH P]; intros pid pi Hn; [exists pi; split; [assumption | reflexivity]|].
  destruct (IH pid pi Hn) as (pi1 & N1 & F1). destruct (prim_pfn _ _ P pid pi1 N1) as (pi2 & N2 & F2).
  exists pi2. split; [assumption | congruence].
Qed.

Lemma ticks_of_app pid a b : ticks_of pid (a ++ b) = ticks_of pid a ++ ticks_of pid b.
Proof.
  induction a as [|e t IH]; [reflexivity|]. destruct e; simpl; try exact IH.
  destruct (Nat.eqb pid0 pid); simpl; [rewrite IH; reflexivity | exact IH].
Qed.

Lemma ticks_nil_notin pid l : ticks_of pid l = [] -> forall stt k, ~ In (ETick pid stt k) l.
Proof.
  induction l as [|e t IH]; intros H stt k []; [subst e; simpl in H; rewrite Nat.eqb_refl in H; discriminate H|].
  apply (IH) with (stt := stt) (k := k); [|assumption].
  destruct e; simpl in H; try exact H. destruct (Nat.eqb pid0 pid); [discriminate H | exact H].
Qed.

Lemma app_self_nil {A} (a b : list A) : a ++ b = b -> a = [].
Proof. intro H. apply (app_inv_tail b a []). exact H. Qed.

Lemma split_after {A} (x : A) : forall more L l1 l0, ~ In x more -> more ++ L = l1 ++ x :: l0 ->
  exists l1', l1 = more ++ l1' /\ L = l1' ++ x :: l0.
Proof.
  induction more as [|m ms IH]; intros L l1 l0 Hn E; [exists l1; split; [reflexivity | exact E]|].
  destruct l1 as [|y l1t]; simpl in E.
  - inversion E; subst. exfalso. apply Hn. left. reflexivity.
  - inversion E; subst. destruct (IH L l1t l0) as (l1' & E1 & E2); [intro; apply Hn; right; assumption | assumption|].
    exists l1'. split; [simpl; rewrite E1; reflexivity | exact E2].
Qed.

(* log newest first: l1 is what happened AFTER the call *)
Definition failed_last (s : st) : Prop :=
  forall l1 pid stt k l0 pi, log s = l1 ++ ETick pid stt k :: l0 -> nth_error (pers s) pid = Some pi ->
    no_next_state (plookup (p_fn pi) stt) -> ticks_of pid l1 = [] /\ In (EPDispose pid) l1.

(* what [run_walk] carries: the two invariants of [prim] and the glue *)
Definition I3 (s : st) : Prop := Inv10 s /\ Inv11 s /\ failed_last s.

(* from s to s' by primitive transitions, none of them a tick ([TF_*], [*_TF]: lemmas about it) *)
Definition tick_free (s s' : st) : Prop := steps s s' /\ forall pid, ticks_of pid (log s') = ticks_of pid (log s).

Lemma TF_refl s : tick_free s s.
Proof. split; [apply steps_refl | reflexivity]. Qed.

Lemma TF_trans s s' s'' : tick_free s s' -> tick_free s' s'' -> tick_free s s''.
Proof. intros [A1 B1] [A2 B2]. split; [eapply steps_trans; eassumption|]. intro pid. rewrite B2, B1. reflexivity. Qed.

Lemma TF_more s s' : tick_free s s' -> exists more, log s' = more ++ log s /\ forall pid, ticks_of pid more = [].
Proof.
  intros [A B]. destruct (steps_log_grows _ _ A) as [more E]. exists more. split; [exact E|].
  intro pid. specialize (B pid). rewrite E, ticks_of_app in B. eapply app_self_nil. exact B.
Qed.

Lemma back_pfn s s' pid pi' : steps s s' -> (pid < length (pers s))%nat -> nth_error (pers s') pid = Some pi' ->
  exists pi, nth_error (pers s) pid = Some pi /\ p_fn pi' = p_fn pi.
Proof.
  intros St Hl Hn. destruct (nth_error (pers s) pid) as [pi|] eqn:E; [|apply nth_error_None in E; lia].
  exists pi. split; [reflexivity|]. destruct (steps_pfn _ _ St pid pi E) as (pi2 & N2 & F2). congruence.
Qed.

(* a call recorded in s is judged the same by the table of any later state *)
Lemma failed_last_steps s s' l1 pid stt k l0 pi' : steps s s' -> Inv11 s -> failed_last s ->
  log s = l1 ++ ETick pid stt k :: l0 -> nth_error (pers s') pid = Some pi' ->
  no_next_state (plookup (p_fn pi') stt) -> ticks_of pid l1 = [] /\ In (EPDispose pid) l1.
Proof.
  intros St H11 Hf E Hn Hb.
  assert (Hlt : (pid < length (pers s))%nat) by (apply (H11 pid stt k); rewrite E; apply in_or_app; right; left; reflexivity).
  destruct (back_pfn s s' pid pi' St Hlt Hn) as (pi & N & F). rewrite F in Hb. exact (Hf l1 pid stt k l0 pi E N Hb).
Qed.

Lemma TF_I3 s s' : I3 s -> tick_free s s' -> I3 s'.
Proof.
  intros (H10 & H11 & Hf) T. pose proof T as [St _].
  split; [exact (steps_inv Inv10 inv10_prim _ _ St H10)|]. split; [exact (steps_inv Inv11 inv11_prim _ _ St H11)|].
  destruct (TF_more _ _ T) as (more & E & Hm).
  intros l1 pid stt k l0 pi' El Hn Hb. rewrite E in El.
  destruct (split_after (ETick pid stt k) more (log s) l1 l0 (ticks_nil_notin pid more (Hm pid) stt k) El) as (l1' & E1 & E2).
  destruct (failed_last_steps s s' l1' pid stt k l0 pi' St H11 Hf E2 Hn Hb) as [T1 T2]. subst l1. split.
  - rewrite ticks_of_app, (Hm pid), T1. reflexivity.
  - apply in_or_app. right. exact T2.
Qed.

(* the [periodic] closure: its tick, then tick-free work that disposes the subscription if the
   call does not return a next state *)
Lemma tick_block s s' pid pi stt : I3 s -> nth_error (pers s) pid = Some pi -> p_disposed pi = false ->
  tick_free (add_log s (ETick pid stt (clock s))) s' ->
  (no_next_state (plookup (p_fn pi) stt) -> In (EPDispose pid) (log s')) -> I3 s'.
Proof.
  intros (H10 & H11 & Hf) Hn Hd T Hdis.
  assert (S1 : steps s (add_log s (ETick pid stt (clock s)))).
  { apply add_log_steps. simpl. split; [reflexivity|]. exists pi. split; assumption. }
  pose proof T as [St1 _]. assert (St : steps s s') by (eapply steps_trans; eassumption).
  split; [exact (steps_inv Inv10 inv10_prim _ _ St H10)|]. split; [exact (steps_inv Inv11 inv11_prim _ _ St H11)|].
  destruct (TF_more _ _ T) as (more & E & Hm). simpl in E.
  assert (Hnd : ~ In (EPDispose pid) (log s)).
  { intro Hin. destruct H10 as [A _]. destruct (A pid Hin) as (pi0 & N0 & D0). congruence. }
  intros l1 q stq k l0 pi' El Hq Hb. rewrite E in El.
  destruct (split_after (ETick q stq k) more _ l1 l0 (ticks_nil_notin q more (Hm q) stq k) El) as (l1' & E1 & E2).
  subst l1. destruct l1' as [|x l1'']; simpl in E2.
  - (* the call just made *)
    inversion E2; subst. rewrite app_nil_r. split; [apply Hm|].
    destruct (steps_pfn _ _ St q pi Hn) as (pi2 & N2 & F2). assert (pi2 = pi') by congruence. subst pi2.
    rewrite F2 in Hb. specialize (Hdis Hb). rewrite E in Hdis. apply in_app_or in Hdis.
    destruct Hdis as [Hin|[X|Hin]]; [exact Hin | discriminate X | contradiction].
  - (* an earlier call *)
    injection E2 as <- E2.
    destruct (failed_last_steps s s' l1'' q stq k l0 pi' St H11 Hf E2 Hq Hb) as [T1 T2].
    assert (Hne : q <> pid).
    { intros ->. apply Hnd. rewrite E2. apply in_or_app. left. exact T2. }
    split.
    + rewrite ticks_of_app, (Hm q). simpl. destruct (Nat.eqb pid q) eqn:Eq; [apply Nat.eqb_eq in Eq; congruence | exact T1].
    + apply in_or_app. right. right. exact T2.
Qed.

(* everything but the periodic closure is tick-free *)
Lemma exec_cmd_TF s c : tick_free s (bstate (exec_cmd s c)).
Proof.
  split; [apply exec_cmd_steps|]. intro q. destruct c; simpl; try reflexivity.
  - apply ticks_cancel_id.
  - destruct (d <? 0); reflexivity.
  - destruct v; reflexivity.
  - apply ticks_dispose_per.
Qed.

Lemma exec_body_TF b s : tick_free s (bstate (exec_body s b)).
Proof. apply (exec_body_compose tick_free TF_refl TF_trans exec_cmd_TF). Qed.

Lemma log_event_TF s e : quiet s e -> (forall pid stt k, e <> ETick pid stt k) -> tick_free s (add_log s e).
Proof.
  intros Q Hne. split; [apply add_log_steps, Q|]. intro q. destruct e; simpl; try reflexivity.
  exfalso. eapply Hne. reflexivity.
Qed.

Lemma invoke_I3 s p : I3 s -> I3 (bstate (invoke s p)).
Proof.
  intro H. destruct p as [l b|pid stt]; [simpl; eapply TF_I3; [exact H | apply exec_body_TF]|].
  pose proof (periodic_stop_disposes s pid stt) as Hdis. pose proof (invoke_live_steps s pid stt) as St. simpl in *.
  destruct (nth_error (pers s) pid) as [pi|] eqn:Hn; [|exact H].
  destruct (p_disposed pi) eqn:Hd; [exact H|].
  apply (tick_block s _ pid pi stt H Hn Hd); [|exact (Hdis pi eq_refl Hd)].
  split; [exact (St pi eq_refl Hd)|]. intro q.
  destruct (plookup (p_fn pi) stt) as [ns sl st'|ns|ns e|ns e [|]]; cbn [bstate];
    rewrite ?ticks_resched_disposed, ?ticks_dispose_per; simpl; apply ticks_add_notes.
Qed.

Lemma run_item_I3 s it q' newclk bumped :
  queue s = it :: q' -> pop_clock_ok s it newclk bumped -> I3 s -> I3 (bstate (run_item s it q' newclk bumped)).
Proof.
  intros Hq Hc H. unfold run_item.
  assert (T : tick_free s (pop_state s it q' newclk bumped)).
  { split; [apply steps_one, P_pop; assumption | intro; reflexivity]. }
  pose proof (TF_I3 _ _ H T) as H1. unfold pop_state in H1.
  destruct (negb (memb (i_id it) (cancelled s))); simpl; [|exact H1]. apply invoke_I3, H1.
Qed.

Lemma run_I3 c fuel cs s : I3 s -> I3 (state_of (run c fuel s cs)).
Proof.
  assert (P : forall s s', prim s s' -> (forall pid, ticks_of pid (log s') = ticks_of pid (log s)) -> I3 s -> I3 s').
  { intros s0 s' HP Ht H. eapply TF_I3; [exact H|]. split; [apply steps_one, HP | exact Ht]. }
  assert (L : forall s e, quiet s e -> (forall pid stt k, e <> ETick pid stt k) -> I3 s -> I3 (add_log s e)).
  { intros s0 e Q Hne H. eapply TF_I3; [exact H | apply log_event_TF; assumption]. }
  apply (run_walk I3 (fun _ _ => True) (fun _ => True)).
  - (* I_enabled *) intros s0 b. apply P; [apply P_enabled | reflexivity].
  - (* I_clock *) intros s0 k Hk. apply P; [apply P_clock, Hk | reflexivity].
  - (* I_run_item *)
    intros s0 it q' newclk bumped Hq Hc H. pose proof (run_item_I3 s0 it q' newclk bumped Hq Hc H) as H1.
    destruct (run_item s0 it q' newclk bumped); simpl in *; auto.
  - (* I_exec *) intros s0 k _ H. pose proof (exec_cmd_TF s0 k) as T.
    destruct (exec_cmd s0 k); simpl in *; [|split; [|exact I]]; eapply TF_I3; eassumption.
  - (* I_silent *) intros s0 t. apply P; [apply P_enq | reflexivity].
  - (* I_clock_log *) intros s0. apply L; [reflexivity | discriminate].
  - (* I_exc_log *) intros s0 e H _. apply L; [exact I | discriminate | exact H].
  - apply Forall_forall. intros; exact I.
Qed.

Lemma I3_init c0 : I3 (init c0).
Proof.
  split; [split; simpl; [tauto | exact I]|]. split; [intros pid stt k []|].
  intros l1 pid stt k l0 pi E. simpl in E. destruct l1; discriminate E.
Qed.

(* In EVERY history (any other work, any interleaving of start / advance_to / dispose, any fuel):
   after a call of a periodic action that did not return a next state, that subscription is
   disposed and its action is never called again *)
Theorem failed_call_is_last c fuel c0 hs l1 l0 pid stt k pi :
  let s := state_of (run c fuel (init c0) hs) in
  log s = l1 ++ ETick pid stt k :: l0 -> nth_error (pers s) pid = Some pi ->
  match plookup (p_fn pi) stt with PNext _ _ _ => False | _ => True end ->
  ticks_of pid l1 = [] /\ In (EPDispose pid) l1.
Proof.
  intros s E Hn Hb. destruct (run_I3 c fuel hs (init c0) (I3_init c0)) as (_ & _ & Hf).
  exact (Hf l1 pid stt k l0 pi E Hn Hb).
Qed.
