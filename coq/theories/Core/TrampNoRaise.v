(* C30: when no action can raise, every enqueued action is started, or skipped because it
   was cancelled; code of the working tree ([Cfg false]). *)
From RxVerif Require Import Base.Prelude Core.Trampoline Core.TrampolineFacts Core.TrampolineSeq.

(* hereditarily no [raise] *)
Fixpoint noraise (c : cmd) : bool :=
  match c with
  | CSched _ _ _ b => forallb noraise b
  | CEnsure _ _ b => forallb noraise b
  | CRaise _ => false
  | _ => true
  end.

Definition nr_item (x : item) : Prop := forallb noraise (i_body x) = true.

Definition nr_frame (f : frame) : Prop :=
  match f with
  | FBody _ cs => forallb noraise cs = true
  | FEnq _ it => nr_item it
  | FRun _ r ph => Forall nr_item r /\ ph <> PFin
  | _ => True
  end.

(* no item is ever dropped, and an item is skipped only after its disposable was disposed *)
Fixpoint log_nd (lg : list event) : Prop :=
  match lg with
  | [] => True
  | e :: t => match e with
              | EDrop _ _ _ => False
              | ESkip _ id => In (ECancel id) t
              | _ => True
              end /\ log_nd t
  end.

Definition cancel_logged (w : world) : Prop :=
  forall id, memb id (cancelled w) = true -> In (ECancel id) (log w).
Definition queues_nr (w : world) : Prop := forall k, Forall nr_item (t_queue (tramps w k)).

Lemma nr_local : forall th w t w' t',
  mstep (Cfg false) th w t = Some (w', t') ->
  exc t = None -> Forall nr_frame (stk t) -> queues_nr w -> cancel_logged w -> log_nd (log w) ->
  exc t' = None /\ Forall nr_frame (stk t') /\ queues_nr w' /\ cancel_logged w' /\ log_nd (log w').
Proof.
  intros th w t w' t' H Hex F Q K L. cbn [stk exc] in *. unfold queues_nr in *.
  (* the queue of one trampoline changes *)
  assert (QU : forall k tr, Forall nr_item (t_queue tr) ->
                            forall k0, Forall nr_item (t_queue (upd k tr (tramps w) k0)))
    by (intros k tr Htr k0; unfold upd; destruct (key_eqb k0 k); [exact Htr | apply Q]).
  assert (SP : forall k moved q', split_due (clock w) (t_queue (tramps w k)) = (moved, q') ->
                                  Forall nr_item moved /\ Forall nr_item q').
  { intros k moved q' E. destruct (split_due_spec _ _ _ _ E) as (S1 & _). apply Forall_app.
    rewrite <- S1. apply Q. }
  mstep_inv H; try discriminate Hex; try subst ex; wsimpl; cbn [exc stk]; fa;
    cbn [nr_frame forallb noraise] in *;
    repeat match goal with
           | H : _ && _ = true |- _ => apply andb_true_iff in H; destruct H
           | H : _ /\ _ |- _ => destruct H
           | H : split_due _ _ = _ |- _ => apply SP in H
           end;
    try discriminate; try (cbn in Erace; discriminate);
    (* the exit path without an exception is the [finally] of [exit_race = true] *)
    try (specialize (Hph eq_refl); contradiction).
  all: refine (conj eq_refl (conj _ (conj _ (conj _ _))));
    [ (* the frames *)
      try (solve [repeat (constructor; cbn [nr_frame]; auto); try (split; [auto | congruence]); auto; try congruence])
    | (* the queues *) try (solve [exact Q | apply QU; cbn [t_queue set_active]; auto using insert_Forall])
    | (* the cancellations *) try (solve [intros id0 Hm; wsimpl; cbn [In]; auto])
    | (* the log *) try (solve [wsimpl; cbn [log_nd]; auto]) ].
  - (* cancel: the cancellation is logged *)
    intros id0 Hm. cbn [cancelled log] in *. unfold memb in Hm. cbn [existsb] in Hm.
    apply orb_true_iff in Hm. destruct Hm as [Hm|Hm];
      [apply Nat.eqb_eq in Hm; subst; left; reflexivity | right; apply K; exact Hm].
  - (* first locked block: the frame of the loop, with the items that became due *)
    constructor; [|assumption]. cbn [nr_frame]. split; [apply Forall_app; split; assumption | congruence].
  - (* skip, start: the frame of the loop without its first ready item *)
    fa. constructor; [|assumption]. cbn [nr_frame]. split; [assumption | congruence].
  - fa. repeat (constructor; cbn [nr_frame]; auto).
  - (* the runner starts to wait: the queue is the one it looked at *)
    apply QU. cbn [t_queue]. rewrite <- Eq. apply Q.
Qed.

Definition NInv (cf : config) : Prop :=
  (forall t, In t (snd cf) -> exc t = None /\ Forall nr_frame (stk t)) /\
  queues_nr (fst cf) /\ cancel_logged (fst cf) /\ log_nd (log (fst cf)).

Lemma NInv_init c0 hs : Forall (fun h => forallb noraise h = true) hs -> NInv (start_config c0 hs).
Proof.
  intro H. unfold NInv, start_config. cbn [fst snd init_world log]. split; [|split; [|split]].
  - intros t Ht. apply in_map_iff in Ht. destruct Ht as (h & <- & Hh). cbn [start_thread exc stk].
    split; [reflexivity|]. constructor; [|constructor]. cbn [nr_frame].
    rewrite Forall_forall in H. apply H. exact Hh.
  - intro k. constructor.
  - intros id Hm. discriminate Hm.
  - exact I.
Qed.

Lemma log_nd_no_drop : forall lg k ids exn, log_nd lg -> ~ In (EDrop k ids exn) lg.
Proof.
  induction lg as [|e lg IH]; intros k ids exn L H; [exact H|].
  cbn [log_nd] in L. destruct L as [Le L]. destruct H as [->|H]; [exact Le | exact (IH _ _ _ L H)].
Qed.

Lemma log_nd_skip : forall lg k id, log_nd lg -> In (ESkip k id) lg -> In (ECancel id) lg.
Proof.
  induction lg as [|e lg IH]; intros k id L H; [destruct H|].
  cbn [log_nd] in L. destruct L as [Le L]. destruct H as [->|H]; right; [exact Le | exact (IH _ _ L H)].
Qed.

(* whole runs without raising actions log no drop; a skip is always of a cancelled item *)
Theorem noraise_log c0 hs sch : Forall (fun h => forallb noraise h = true) hs ->
  log_nd (log (fst (crun (Cfg false) (start_config c0 hs) sch))).
Proof.
  intro H. apply (crun_ind (Cfg false) NInv); [auto | | exact (NInv_init c0 hs H)].
  intros w ts th t w' t' (T & Q & K & L) N M. cbn [fst snd] in *.
  destruct (T t (nth_error_In _ _ N)) as [Ex F].
  destruct (nr_local th w t w' t' M Ex F Q K L) as (Ex' & F' & Q' & K' & L').
  split; [|split; [|split]]; cbn [fst snd]; auto.
  intros u Hu. apply In_set_nth in Hu. destruct Hu as [->|Hu]; [split; assumption | apply T; exact Hu].
Qed.

Lemma log_nd_enqueued : forall lg k id, log_nd lg -> enqueued k id lg -> ~ pending k id lg ->
  started k id lg \/ (skipped k id lg /\ In (ECancel id) lg).
Proof.
  intros lg k id L E NP.
  destruct (existsb (ev_is_start k id) lg) eqn:S; [left; apply ev_is_start_spec; exact S|].
  destruct (existsb (ev_is_skip k id) lg) eqn:K.
  - apply ev_is_skip_spec in K. right. split; [exact K | exact (log_nd_skip _ _ _ L K)].
  - exfalso. apply NP. unfold pending. rewrite <- ev_is_start_spec, <- ev_is_skip_spec.
    repeat split; auto; try congruence.
    intros (ids & exn & Hin & _). exact (log_nd_no_drop _ _ _ _ L Hin).
Qed.

(* an action is skipped only if its disposable was disposed before (all runs without raise) *)
Theorem skipped_only_if_cancelled : forall c0 hs sch k id,
  Forall (fun h => forallb noraise h = true) hs ->
  let lg := log (fst (crun (Cfg false) (start_config c0 hs) sch)) in
  In (ESkip k id) lg -> In (ECancel id) lg.
Proof. intros c0 hs sch k id H lg. apply log_nd_skip. apply noraise_log. exact H. Qed.
