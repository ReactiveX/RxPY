(* Facts about Core/SyncSources.v.  A run under the default scheduler has two phases: a
   warm-up of a few dispatches that is computed ([steps], [run_steps]), and the producer loop
   of the never-ending source against a net that passes its elements on to the consumer
   ([iter_loop], [step_loop]; the loop of repeat is in Ops/SyncRepFacts.v).  [enters] says what
   the warm-up has to reach; [iter_shape] and [step_shape] put the two together, and the shape
   theorems of Props/C14.v are instances.
   Starvation of the trampoline by the from_iterable action: [iter_starves].
   Longer walks (Core/SyncShapes.v, Ops/SyncRepNested.v) go dispatch by dispatch with [run_step]
   and the step equations of section Steps, one per kind of task; [inner_pass] and [inner_stop]
   are the two dispatches of an inner of(v).
   Also here: where a consumer completes on an element stream ([stops_at], [feed], [never_stops],
   and at the end of the file the listed consumers, [stops_map], [stops_filter_all]);
   range / generate against a net that wraps every element into an inner of(v) ([wraps],
   [nested_step_loop]). *)
From RxVerif Require Import Base.Prelude Core.SyncSources.

Section Facts.
Variable gen : nat -> Z.

Arguments St {N C}.

Section Run.
Variable K : kind.
Variable N : net.
Variable C : cons.

Lemma run_step [f s s'] : step gen K N C s = Some s' -> run gen K N C (S f) s = run gen K N C f s'.
Proof. intros. cbn [run]. rewrite H. reflexivity. Qed.

Lemma run_end : forall f s, step gen K N C s = None ->
  run gen K N C f s = Returned (s_pulls N C s) (s_out N C s) (s_done N C s).
Proof. intros. destruct f; cbn [run]; rewrite H; reflexivity. Qed.

(* after the root completed every remaining task is skipped, one dispatch (one unit of fuel) each *)
Lemma run_done : forall q f ns cs live i p o,
  (length q <= f)%nat ->
  run gen K N C f (St ns cs true live q i p o) = Returned p o true.
Proof.
  induction q as [|t q IH]; intros f ns cs live i p o L.
  - apply run_end. reflexivity.
  - destruct f; [cbn in L; lia|]. rewrite (run_step (s' := St ns cs true live q i p o)) by reflexivity.
    apply IH. cbn in L. lia.
Qed.

Lemma run_mono : forall f f' s a b c, (f <= f')%nat ->
  run gen K N C f s = Returned a b c -> run gen K N C f' s = Returned a b c.
Proof.
  induction f as [|f IH]; intros f' s a b c Hle H; cbn [run] in H;
    destruct (step gen K N C s) as [s'|] eqn:Es; try discriminate H; try (rewrite run_end by exact Es; exact H).
  destruct f' as [|f']; [lia|]. rewrite (run_step Es). apply (IH f' s'); [lia|exact H].
Qed.

(* [w] dispatches of the trampoline *)
Fixpoint steps (w : nat) (s : st N C) : option (st N C) :=
  match w with
  | O => Some s
  | S w' => match step gen K N C s with Some s' => steps w' s' | None => None end
  end.

Lemma run_steps : forall w f s s', steps w s = Some s' -> run gen K N C (w + f) s = run gen K N C f s'.
Proof.
  induction w as [|w IH]; intros f s s' H; cbn [steps] in H.
  - injection H as <-. reflexivity.
  - destruct (step gen K N C s) as [s1|] eqn:E; [|discriminate H].
    cbn [Nat.add]. rewrite (run_step E). apply IH, H.
Qed.

Lemma finite_shape : forall w ns cs live q i p o fuel,
  steps w (init K N C) = Some (St ns cs true live q i p o) -> (w + length q <= fuel)%nat ->
  run_default gen K N C fuel = Returned p o true.
Proof.
  intros w ns cs live q i p o fuel H Hf. unfold run_default.
  replace fuel with (w + (fuel - w))%nat by lia. rewrite (run_steps _ _ _ _ H). apply run_done. lia.
Qed.
End Run.

Lemma memn_here : forall p l, memn p (p :: l) = true.
Proof. intros. unfold memn. cbn [existsb]. rewrite Nat.eqb_refl. reflexivity. Qed.

Lemma memn_later : forall p x l, memn p l = true -> memn p (x :: l) = true.
Proof. intros p x l H. unfold memn in *. cbn [existsb]. rewrite H. apply orb_true_r. Qed.

Lemma memn_removen : forall p q l, p <> q -> memn p (removen q l) = memn p l.
Proof.
  unfold memn. induction l as [|x l IH]; intros Hn; cbn [removen existsb]; auto.
  destruct (Nat.eqb q x) eqn:E.
  - apply Nat.eqb_eq in E. subst x. rewrite IH by auto.
    destruct (Nat.eqb p q) eqn:E2; auto. apply Nat.eqb_eq in E2. congruence.
  - cbn [existsb]. rewrite IH by auto. reflexivity.
Qed.

Section Steps.
Variable K : kind.
Variable N : net.
Variable C : cons.

Lemma deliver_eq [ns ns' cmds p e] : n_on N ns p e = (ns', cmds) -> forall cs d live q i pu o,
  deliver K N C p e (St ns cs d live q i pu o) = apply K N C cmds (St ns' cs d live q i pu o).
Proof. intros E cs d live q i pu o. unfold deliver, set_net. cbn [s_net s_cons s_done s_live s_q s_idx s_pulls s_out]. rewrite E. reflexivity. Qed.

(* from_iterable: the action delivers one element and goes on *)
Lemma step_titer [ns cs live q i p o] : memn 0 live = true ->
  step gen K N C (St ns cs false live (TIter 0 :: q) i p o)
  = Some (deliver K N C 0 (Next (gen i)) (St ns cs false live (TIter 0 :: q) (S i) (S p) o)).
Proof. intros H. cbn [step s_q s_done s_live]. rewrite H. reflexivity. Qed.

(* range / generate: the action delivers one element and schedules itself again *)
Lemma step_tstep [ns cs live q i p o] : memn 0 live = true ->
  step gen K N C (St ns cs false live (TStep 0 :: q) i p o)
  = Some (let s1 := deliver K N C 0 (Next (gen i)) (St ns cs false live q (S i) (S p) o) in
          set_q N C s1 (s_q N C s1 ++ [TStep 0])).
Proof. intros H. cbn [step s_q s_done s_live]. rewrite H. reflexivity. Qed.

(* the inner list loop of repeat *)
Lemma step_pull [ns cs live v r q i p o] : memn 0 live = true ->
  step gen K N C (St ns cs false live (TList 0 (v :: r) true :: q) i p o)
  = Some (deliver K N C 0 (Next v) (St ns cs false live (TList 0 r true :: q) (S i) (S p) o)).
Proof. intros H. cbn [step s_q s_done s_live]. rewrite H. reflexivity. Qed.

Lemma step_round_end [ns cs live q i p o] : memn 0 live = true ->
  step gen K N C (St ns cs false live (TList 0 [] true :: q) i p o)
  = Some (St ns cs false live (q ++ [TConc 0]) i p o).
Proof. intros H. cbn [step s_q s_done s_live]. rewrite H. reflexivity. Qed.

(* the action of an inner of(v) on port m: the element, then the completion *)
Lemma step_inner_next [ns cs live m v q i p o] : memn m live = true ->
  step gen K N C (St ns cs false live (TList m [v] false :: q) i p o)
  = Some (deliver K N C m (Next v) (St ns cs false live (TList m [] false :: q) i p o)).
Proof. intros H. cbn [step s_q s_done s_live]. rewrite H. reflexivity. Qed.

Lemma step_inner_done [ns cs live m q i p o] : memn m live = true ->
  step gen K N C (St ns cs false live (TList m [] false :: q) i p o)
  = Some (deliver K N C m Done (St ns cs false live q i p o)).
Proof. intros H. cbn [step s_q s_done s_live]. rewrite H. reflexivity. Qed.

Lemma step_inner_dead [ns cs live m vs q i p o] : memn m live = false ->
  step gen K N C (St ns cs false live (TList m vs false :: q) i p o)
  = Some (St ns cs false live q i p o).
Proof. intros H. cbn [step s_q s_done s_live]. destruct vs; rewrite H; reflexivity. Qed.

(* an inner of(v) whose element the net passes on and whose completion it absorbs: two
   dispatches when the consumer goes on; when it completes, the rest of the queue is skipped *)
Lemma inner_pass [ns ns1 ns2 m v cs cs' k live q i p o f] :
  n_on N ns m (Next v) = (ns1, [NEmit v]) -> n_on N ns1 m Done = (ns2, []) ->
  memn m live = true -> c_step C cs v = (cs', k, false) ->
  run gen K N C (S (S f)) (St ns cs false live (TList m [v] false :: q) i p o)
  = run gen K N C f (St ns2 cs' false live q i p (o + k)).
Proof.
  intros on_next on_done Hm Ec. rewrite (run_step K N C (step_inner_next Hm)), (deliver_eq on_next).
  cbn [apply s_done apply1 s_net s_cons s_live s_q s_idx s_pulls s_out]. rewrite Ec. cbn [apply].
  rewrite (run_step K N C (step_inner_done Hm)), (deliver_eq on_done). reflexivity.
Qed.

Lemma inner_stop [ns ns1 m v cs cs' k live q i p o f] :
  n_on N ns m (Next v) = (ns1, [NEmit v]) -> memn m live = true -> c_step C cs v = (cs', k, true) ->
  (length q <= f)%nat ->
  run gen K N C (S (S f)) (St ns cs false live (TList m [v] false :: q) i p o) = Returned p (o + k) true.
Proof.
  intros on_next Hm Ec Hf. rewrite (run_step K N C (step_inner_next Hm)), (deliver_eq on_next).
  cbn [apply s_done apply1 s_net s_cons s_live s_q s_idx s_pulls s_out]. rewrite Ec. cbn [apply].
  apply run_done. cbn [length]. lia.
Qed.
End Steps.

(* repeat: the concat action subscribes the list again *)
Lemma step_conc L N C [ns cs live q i p o] : memn 0 live = true ->
  step gen (KRep L) N C (St ns cs false live (TConc 0 :: q) i p o)
  = Some (St ns cs false live (q ++ [TList 0 L true]) i p o).
Proof. intros H. cbn [step s_q s_done s_live]. rewrite H. reflexivity. Qed.

Section Streams.
Variable C : cons.

(* the consumer, fed elems i, elems (i+1), ..., completes exactly at the k-th of them *)
Fixpoint stops_at (elems : nat -> Z) (s : c_st C) (i : nat) (k : nat) : Prop :=
  match k with
  | O => False
  | S k' => let '(s', n, stop) := c_step C s (elems i) in
            if stop then k' = 0%nat else stops_at elems s' (S i) k'
  end.

(* the consumer's state after elems i, ..., elems (i+k-1); None if it completes on one of them *)
Fixpoint feed (elems : nat -> Z) (s : c_st C) (i : nat) (k : nat) : option (c_st C) :=
  match k with
  | O => Some s
  | S k' => let '(s', n, stop) := c_step C s (elems i) in
            if stop then None else feed elems s' (S i) k'
  end.
Definition never_stops (elems : nat -> Z) (s : c_st C) (i : nat) : Prop :=
  forall k, feed elems s i k <> None.

Lemma feed_ext : forall e1 e2 k s i j,
  (forall d, (d < k)%nat -> e1 (i + d)%nat = e2 (j + d)%nat) -> feed e1 s i k = feed e2 s j k.
Proof.
  intros e1 e2. induction k as [|k IH]; intros s i j E; [reflexivity|].
  cbn [feed]. pose proof (E 0%nat ltac:(lia)) as E0. rewrite !Nat.add_0_r in E0. rewrite <- E0.
  destruct (c_step C s (e1 i)) as [[s' n] stop]. destruct stop; [reflexivity|].
  apply IH. intros d Hd. rewrite !Nat.add_succ_comm. apply E. lia.
Qed.

Lemma stops_at_ext : forall e1 e2 k s i j,
  (forall d, (d < k)%nat -> e1 (i + d)%nat = e2 (j + d)%nat) ->
  stops_at e1 s i k -> stops_at e2 s j k.
Proof.
  intros e1 e2. induction k as [|k IH]; intros s i j E H; [exact H|].
  cbn [stops_at] in *. pose proof (E 0%nat ltac:(lia)) as E0. rewrite !Nat.add_0_r in E0. rewrite <- E0.
  destruct (c_step C s (e1 i)) as [[s' n] stop]. destruct stop; auto.
  eapply IH; [|exact H]. intros d Hd. rewrite !Nat.add_succ_comm. apply E. lia.
Qed.
End Streams.

Section Loops.
Variable N : net.
Variable C : cons.

Definition unsubs (ps : list nat) : list ncmd := map NUnsub ps.

(* the net passes every element of the never-ending source on, at most disposing other ports:
   the hypothesis of the producer loops, by name for the nets of Core/SyncShapes.v *)
Definition passes_on (N : net) (P : n_st N -> Prop) : Prop :=
  forall ns, P ns -> forall v, exists ns' ps,
    n_on N ns 0 (Next v) = (ns', unsubs ps ++ [NEmit v]) /\ ~ In 0%nat ps /\ P ns'.

Lemma apply_unsubs : forall K ps rest ns cs live q i p o,
  ~ In 0%nat ps ->
  exists live', memn 0 live' = memn 0 live /\
    apply K N C (unsubs ps ++ rest) (St (N:=N) (C:=C) ns cs false live q i p o) =
    apply K N C rest (St (N:=N) (C:=C) ns cs false live' q i p o).
Proof.
  induction ps as [|x ps IH]; intros rest ns cs live q i p o Hn.
  - exists live. split; auto.
  - cbn [unsubs map app apply s_done apply1 s_net s_cons s_live s_q s_idx s_pulls s_out].
    destruct (IH rest ns cs (removen x live) q i p o) as (live' & M & E).
    { intro; apply Hn; right; auto. }
    exists live'. split; [|exact E]. rewrite M. apply memn_removen. intro; apply Hn; left; auto.
Qed.

Variable P : n_st N -> Prop.
Hypothesis emits : forall ns, P ns -> forall v, exists ns' ps,
  n_on N ns 0 (Next v) = (ns', unsubs ps ++ [NEmit v]) /\ ~ In 0%nat ps /\ P ns'.

Lemma deliver_emits : forall K ns cs live q i p o v, P ns ->
  exists ns' live', P ns' /\ memn 0 live' = memn 0 live /\
    deliver K N C 0 (Next v) (St (N:=N) (C:=C) ns cs false live q i p o) =
    let '(cs', n, stop) := c_step C cs v in
    St (N:=N) (C:=C) ns' cs' stop (if stop then [] else live') q i p (o + n).
Proof.
  intros K ns cs live q i p o v HP. destruct (emits ns HP v) as (ns' & ps & En & Hps & HP').
  destruct (apply_unsubs K ps [NEmit v] ns' cs live q i p o Hps) as (live' & M & EA).
  exists ns', live'. split; [exact HP'|]. split; [exact M|].
  rewrite (deliver_eq K N C En), EA. cbn [apply s_done apply1 s_net s_cons s_live s_q s_idx s_pulls s_out].
  destruct (c_step C cs v) as [[cs' n] [|]]; reflexivity.
Qed.

(* from_iterable: the loop is one action; nothing else runs until the consumer completes *)
Lemma iter_loop : forall k s ns live q i p o f,
  P ns -> memn 0 live = true -> stops_at C gen s i k -> (k + 1 + length q <= f)%nat ->
  exists o', run gen KIter N C f (St (N:=N) (C:=C) ns s false live (TIter 0 :: q) i p o)
             = Returned (p + k)%nat o' true.
Proof.
  induction k as [|k IH]; intros s ns live q i p o f HP HL H L; [destruct H|].
  cbn [stops_at] in H. destruct f; [lia|].
  destruct (deliver_emits KIter ns s live (TIter 0 :: q) (S i) (S p) o (gen i) HP) as (ns' & live' & HP' & M & D).
  rewrite (run_step _ _ _ (step_titer KIter N C HL)), D. destruct (c_step C s (gen i)) as [[s' n] [|]].
  - subst k. eexists. rewrite run_done by (cbn; lia). f_equal. lia.
  - (* port 0 is still live: [M] *)
    destruct (IH s' ns' live' q (S i) (S p) (o + n)%nat f HP' ltac:(congruence) H ltac:(lia)) as (o' & R).
    exists o'. rewrite R. f_equal. lia.
Qed.

(* range / generate: one element per action; the action is alone in the queue *)
Lemma step_loop : forall k s ns live i p o f,
  P ns -> memn 0 live = true -> stops_at C gen s i k -> (k + 1 <= f)%nat ->
  exists o', run gen KStep N C f (St (N:=N) (C:=C) ns s false live [TStep 0] i p o)
             = Returned (p + k)%nat o' true.
Proof.
  induction k as [|k IH]; intros s ns live i p o f HP HL H L; [destruct H|].
  cbn [stops_at] in H. destruct f; [lia|].
  destruct (deliver_emits KStep ns s live [] (S i) (S p) o (gen i) HP) as (ns' & live' & HP' & M & D).
  rewrite (run_step _ _ _ (step_tstep KStep N C HL)), D. destruct (c_step C s (gen i)) as [[s' n] [|]]; unfold set_q; cbn.
  - subst k. eexists. rewrite run_done by (cbn; lia). f_equal. lia.
  - destruct (IH s' ns' live' (S i) (S p) (o + n)%nat f HP' ltac:(congruence) H ltac:(lia)) as (o' & R).
    exists o'. rewrite R. f_equal. lia.
Qed.

(* the warm-up: after [w] dispatches, [p] elements pulled, the producer's task [hd] heads the queue,
   the root and port 0 are live and the net is in a state of P.  For a concrete net and [w] it is
   computed: [econstructor; [cbv; reflexivity|auto]] *)
Inductive enters (K : kind) (w p : nat) (hd : task) (q : list task) (cs : c_st C) (i : nat) : Prop :=
  enters_intro (ns : n_st N) (live : list nat) (o : nat) :
    steps K N C w (init K N C) = Some (St (N:=N) (C:=C) ns cs false live (hd :: q) i p o) ->
    P ns /\ memn 0 live = true -> enters K w p hd q cs i.

Lemma enters_run [K w p hd q cs i] fuel : enters K w p hd q cs i -> (w <= fuel)%nat ->
  exists ns live o, P ns /\ memn 0 live = true /\
    run_default gen K N C fuel = run gen K N C (fuel - w) (St (N:=N) (C:=C) ns cs false live (hd :: q) i p o).
Proof.
  intros [ns live o W [HP HL]] Hf. exists ns, live, o. split; [exact HP|]. split; [exact HL|].
  unfold run_default. replace fuel with (w + (fuel - w))%nat at 1 by lia. apply run_steps, W.
Qed.

Theorem iter_shape : forall w p q cs i k fuel,
  enters KIter w p (TIter 0) q cs i -> stops_at C gen cs i k -> (w + (k + 1 + length q) <= fuel)%nat ->
  exists out, run_default gen KIter N C fuel = Returned (p + k) out true.
Proof.
  intros w p q cs i k fuel E H Hf.
  destruct (enters_run fuel E ltac:(lia)) as (ns & live & o & HP & HL & ->).
  apply iter_loop; auto. lia.
Qed.

Theorem step_shape : forall w p cs i k fuel,
  enters KStep w p (TStep 0) [] cs i -> stops_at C gen cs i k -> (w + (k + 1) <= fuel)%nat ->
  exists out, run_default gen KStep N C fuel = Returned (p + k) out true.
Proof.
  intros w p cs i k fuel E H Hf.
  destruct (enters_run fuel E ltac:(lia)) as (ns & live & o & HP & HL & ->).
  apply step_loop; auto. lia.
Qed.
End Loops.

(* range / generate against a net that wraps every element into an inner of(x) (flat_map(of),
   switch_map(of)): the source's element subscribes an inner on a fresh port and queues its action;
   the net passes the inner's element on and absorbs its completion *)
Definition wraps (N : net) (C : cons) (P : n_st N -> Prop) : Prop :=
  forall ns, P ns -> forall v cs live q i p o, memn 0 live = true ->
  exists nx ns1 ns2 live', memn 0 live' = true /\ memn nx live' = true
    /\ deliver KStep N C 0 (Next v) (St ns cs false live q i p o)
       = St ns1 cs false live' (q ++ [TList nx [v] false]) i p o
    /\ n_on N ns1 nx (Next v) = (ns1, [NEmit v]) /\ n_on N ns1 nx Done = (ns2, []) /\ P ns2.

Section NestedStep.
Variable N : net.
Variable C : cons.
Variable P : n_st N -> Prop.
Hypothesis turn : wraps N C P.

(* three dispatches per element: the source's action, the inner's action (element, completion) *)
Theorem nested_step_loop : forall k cs ns live i p o f,
  P ns -> memn 0 live = true -> stops_at C gen cs i k -> (3 * k + 2 <= f)%nat ->
  exists o', run gen KStep N C f (St ns cs false live [TStep 0] i p o) = Returned (p + k)%nat o' true.
Proof.
  induction k as [|k IH]; intros cs ns live i p o f HP HL H Hf; [destruct H|]. cbn [stops_at] in H.
  destruct (turn ns HP (gen i) cs live [] (S i) (S p) o HL) as (nx & ns1 & ns2 & live' & HL' & Hm & D & E1 & E2 & HP').
  destruct f as [|[|[|f]]]; [lia|lia|lia|].
  rewrite (run_step _ _ _ (step_tstep KStep N C HL)), D. unfold set_q.
  cbn [s_net s_cons s_done s_live s_q s_idx s_pulls s_out app].
  destruct (c_step C cs (gen i)) as [[cs' n] [|]] eqn:Ec.
  - subst k. eexists. rewrite (inner_stop KStep N C E1 Hm Ec) by (cbn [length]; lia).
    f_equal. lia.
  - rewrite (inner_pass KStep N C E1 E2 Hm Ec).
    destruct (IH cs' ns2 live' (S i) (S p) (o + n)%nat f HP' HL' H ltac:(lia)) as (o' & R).
    exists o'. rewrite R. f_equal. lia.
Qed.
End NestedStep.

(* starvation: the loop of from_iterable never yields *)
Section Starve.
Variable N : net.
Variable C : cons.

(* commands that neither complete the root nor touch port 0; emitting is harmless when the
   consumer never completes *)
Definition quiet (allow_emit : bool) (c : ncmd) : Prop :=
  match c with
  | NSub p _ => p <> 0%nat
  | NUnsub p => p <> 0%nat
  | NSched _ => True
  | NEmit _ => allow_emit = true
  | NFin => False
  end.

(* the hypothesis of [iter_starves], by name for the nets of Core/SyncShapes.v *)
Definition keeps_quiet (allow_emit : bool) (Q : n_st N -> Prop) : Prop :=
  forall ns, Q ns -> forall v, exists ns' cmds,
    n_on N ns 0 (Next v) = (ns', cmds) /\ Forall (quiet allow_emit) cmds /\ Q ns'.

Hypothesis ae : bool.
Hypothesis never_completes : ae = true -> forall s v, snd (c_step C s v) = false.

Lemma apply_quiet : forall K cmds ns cs live q i p o,
  Forall (quiet ae) cmds -> memn 0 live = true ->
  exists cs' live' q' o',
    apply K N C cmds (St (N:=N) (C:=C) ns cs false live (TIter 0 :: q) i p o) =
    St (N:=N) (C:=C) ns cs' false live' (TIter 0 :: q') i p o' /\ memn 0 live' = true.
Proof.
  induction cmds as [|c cmds IH]; intros ns cs live q i p o F HL.
  - exists cs, live, q, o. split; auto.
  - apply Forall_cons_iff in F. destruct F as [H1 H2]. cbn [apply s_done].
    destruct c as [v| |p0 s|p0|tag]; cbn [quiet] in H1; cbn [apply1 s_net s_cons s_done s_live s_q s_idx s_pulls s_out].
    + pose proof (never_completes H1 cs v) as NC.
      destruct (c_step C cs v) as [[c' n] stop]. cbn in NC. subst stop.
      apply IH; auto.
    + contradiction.
    + cbn [app]. destruct (IH ns cs (p0 :: live) (q ++ first_task K p0 s) i p o H2) as (a & b & c & d & E & M).
      { apply memn_later, HL. }
      exists a, b, c, d. split; auto.
    + apply IH; auto. rewrite memn_removen; auto.
    + cbn [app]. apply IH; auto.
Qed.

Variable Q : n_st N -> Prop.
Hypothesis quietly : forall ns, Q ns -> forall v, exists ns' cmds,
  n_on N ns 0 (Next v) = (ns', cmds) /\ Forall (quiet ae) cmds /\ Q ns'.

Lemma iter_starves : forall f ns cs live q i p o,
  Q ns -> memn 0 live = true ->
  run gen KIter N C f (St (N:=N) (C:=C) ns cs false live (TIter 0 :: q) i p o) = OutOfFuel.
Proof.
  induction f as [|f IH]; intros ns cs live q i p o HQ HL;
  destruct (quietly ns HQ (gen i)) as (ns' & cmds & En & Fq & HQ');
  destruct (apply_quiet KIter cmds ns' cs live q (S i) (S p) o Fq HL) as (cs' & live' & q' & o' & EA & M);
  assert (ST : step gen KIter N C (St (N:=N) (C:=C) ns cs false live (TIter 0 :: q) i p o) =
               Some (St (N:=N) (C:=C) ns' cs' false live' (TIter 0 :: q') (S i) (S p) o'))
    by (rewrite (step_titer KIter N C HL), (deliver_eq KIter N C En), EA; reflexivity).
  - cbn [run]. rewrite ST. reflexivity.
  - rewrite (run_step _ _ _ ST). apply IH; auto.
Qed.
End Starve.

Lemma take_stops : forall n r i, stops_at (c_take n) gen (S r) i (S r).
Proof.
  intros n. induction r as [|r IH]; intros i; cbn [stops_at c_take c_step].
  - reflexivity.
  - cbn [Nat.eqb]. apply IH.
Qed.

Lemma first_stops : forall i, stops_at c_first gen tt i 1.
Proof. intros; cbn. reflexivity. Qed.

Lemma element_at_stops : forall n r i, stops_at (c_element_at n) gen r i (S r).
Proof.
  intros n. induction r as [|r IH]; intros i; cbn [stops_at c_element_at c_step].
  - reflexivity.
  - apply IH.
Qed.

Lemma take_while_stops : forall pr incl k i,
  (forall j, (j < k)%nat -> pr (gen (i + j)%nat) = true) -> pr (gen (i + k)%nat) = false ->
  stops_at (c_take_while pr incl) gen tt i (S k).
Proof.
  intros pr incl. induction k as [|k IH]; intros i Ht Hf; cbn [stops_at c_take_while c_step].
  - rewrite Nat.add_0_r in Hf. rewrite Hf. reflexivity.
  - assert (E : pr (gen i) = true) by (specialize (Ht 0%nat ltac:(lia)); rewrite Nat.add_0_r in Ht; exact Ht).
    rewrite E. apply IH.
    + intros j Hj. replace (S i + j)%nat with (i + S j)%nat by lia. apply Ht. lia.
    + replace (S i + k)%nat with (i + S k)%nat by lia. exact Hf.
Qed.
End Facts.
Arguments iter_shape gen [N C P] emits w p.
Arguments step_shape gen [N C P] emits w p.

(* element-wise stages: map moves into the element stream *)
Lemma stops_map : forall gen f C s i k,
  stops_at (c_map f C) gen s i k <-> stops_at C (fun j => f (gen j)) s i k.
Proof.
  intros gen f C. intros s i k. revert s i. induction k as [|k IH]; intros s i; cbn [stops_at]; [tauto|].
  cbn [c_map c_step]. destruct (c_step C s (f (gen i))) as [[s' n] stop]. destruct stop; [tauto|]. apply IH.
Qed.

(* filter(p) in front of a consumer when every element passes p; elements that fail p are pulled
   and dropped: the general case is [stops_filter_iff] in Ops/SyncRepFacts.v *)
Lemma stops_filter_all : forall gen pr C s i k,
  (forall j, pr (gen j) = true) -> stops_at C gen s i k -> stops_at (c_filter pr C) gen s i k.
Proof.
  intros gen pr C s i k Hp. revert s i. induction k as [|k IH]; intros s i H; [exact H|].
  cbn [stops_at] in *. cbn [c_filter c_step]. rewrite Hp.
  destruct (c_step C s (gen i)) as [[s' n] stop]. destruct stop; auto.
Qed.
