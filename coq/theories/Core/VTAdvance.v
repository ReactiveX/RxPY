(* C28/C29: what advance_to dequeues, in any state; the exact effect of start and advance_to on
   calm work; the enabled flag between top-level calls; calm histories; completeness of advance_to. *)
From RxVerif Require Import Base.Prelude Core.VTime Core.VTimeFacts Core.VTimeNested.

Local Open Scope Z_scope.

Lemma resched_disposed_pops s pid p : nopop s (bstate (resched_disposed s pid p)).
Proof.
  unfold resched_disposed. cbn [bstate].
  eapply nopop_trans; [apply nopop_dispose_per|]. eapply nopop_trans; [|apply nopop_cancel]. split; reflexivity.
Qed.

Lemma invoke_pops s p : nopop s (bstate (invoke s p)).
Proof.
  destruct p as [l b|pid stt]; cbn [invoke]; [apply exec_body_pops|].
  destruct (nth_error (pers s) pid) as [pi|]; [|apply nopop_refl].
  destruct (p_disposed pi); [apply nopop_refl|].
  assert (H1 : forall ns, nopop s (add_notes (add_log s (ETick pid stt (clock s))) ns)).
  { intro ns. eapply nopop_trans; [|apply nopop_add_notes]. split; reflexivity. }
  destruct (plookup (p_fn pi) stt) as [ns sl st'|ns|ns e|ns e [|]]; cbn [bstate];
    (eapply nopop_trans; [apply (H1 ns)|]).
  - split; reflexivity.
  - apply resched_disposed_pops.
  - eapply nopop_trans; [|apply nopop_dispose_per]. split; reflexivity.
  - eapply nopop_trans; [|apply resched_disposed_pops]. split; reflexivity.
  - eapply nopop_trans; [|apply nopop_dispose_per]. split; reflexivity.
Qed.

Lemma run_item_pops s it q' newclk bumped :
  pops (log (bstate (run_item s it q' newclk bumped)))
  = PopRec (i_id it) (label_of (i_pay it)) (i_due it) (i_sclk it) (clock s) newclk
           (i_born it) (npops s) bumped (negb (memb (i_id it) (cancelled s))) :: pops (log s) /\
  npops (bstate (run_item s it q' newclk bumped)) = S (npops s).
Proof.
  unfold run_item. destruct (negb (memb (i_id it) (cancelled s))) eqn:Er.
  - match goal with |- context [invoke ?s0 ?p] => destruct (invoke_pops s0 p) as [A B]; rewrite A, B end.
    cbn. split; reflexivity.
  - cbn. split; reflexivity.
Qed.

Lemma new_pops_ok_refl s t : new_pops_ok s s t.
Proof. intros r Hr. left. exact Hr. Qed.

Lemma advance_loop_only_due t fuel s o : advance_looped t fuel s o -> new_pops_ok s (ostate o) t.
Proof.
  induction 1 as [fuel s o _ ->|s it q' Hq|fuel s Hd|fuel s it q' newclk bumped e s1 Hq (Hd & -> & _) E
                  |fuel s it q' newclk bumped s1 o Hq (Hd & -> & _) E _ IH]; try apply new_pops_ok_refl.
  - destruct (finish_adv_spec s t) as (s' & -> & _ & _ & _ & L). cbn [ostate]. unfold new_pops_ok. rewrite L. auto.
  - destruct (run_item_pops s it q' newclk false) as [P _]. rewrite E in P. cbn [bstate ostate] in *.
    intros r Hr. rewrite P in Hr. destruct Hr as [<-|Hold]; [|left; exact Hold].
    right. cbn. repeat split; auto.
  - destruct (run_item_pops s it q' newclk false) as [P N]. rewrite E in P, N. cbn [bstate] in P, N.
    intros r Hr. destruct (IH r Hr) as [Hold|(X & Y & Z)].
    + rewrite P in Hold. destruct Hold as [<-|Hold]; [|left; exact Hold].
      right. cbn. repeat split; auto.
    + right. repeat split; auto; lia.
Qed.

(* In any state (reachable or not, any queue content: stopping, raising, periodic
   items), any target and fuel, whatever the outcome (Finished, Raised, OutOfFuel):
   every record advance_to adds to the log is of an item due at or before the target,
   and is never a spin bump. *)
Theorem advance_to_only_due fuel s t : new_pops_ok s (ostate (advance_to fuel s t)) t.
Proof.
  unfold advance_to. destruct (t <? clock s); [apply new_pops_ok_refl|].
  destruct ((clock s =? t) || enabled s); [apply new_pops_ok_refl|].
  intros r Hr. apply (advance_loop_only_due t fuel (set_enabled s true) _ (advance_loop_looped t fuel _)). exact Hr.
Qed.

Lemma exec_cmd_calm sl s c :
  calm_cmd sl c = true -> calm_q sl (queue s) ->
  exists s', exec_cmd s c = BOk s' /\ enabled s' = enabled s /\ clock s <= clock s' /\
             (sl = false -> clock s' = clock s) /\ calm_q sl (queue s').
Proof.
  intros Hc Hq. destruct c; simpl in *; try discriminate.
  - eexists. split; [reflexivity|]. simpl. repeat split; try lia. apply Forall_insert; assumption.
  - eexists. split; [reflexivity|]. destruct (cancel_id_fields s r) as (A & B & C & D & _).
    rewrite A, B, D. repeat split; try lia; try assumption.
  - apply andb_true_iff in Hc. destruct Hc as [-> Hd]. apply Z.leb_le in Hd.
    assert (E : d <? 0 = false) by (apply Z.ltb_ge; lia). rewrite E.
    eexists. split; [reflexivity|]. simpl. repeat split; try lia; try assumption; try discriminate.
  - subst v. eexists. split; [reflexivity|]. simpl. repeat split; try lia; try assumption.
  - eexists. split; [reflexivity|]. simpl. repeat split; try lia; try assumption.
  - eexists. split; [reflexivity|]. destruct (dispose_per_fields s pid) as (A & B & C & _).
    rewrite A, B, C. repeat split; try lia; try assumption.
Qed.

Lemma exec_body_calm sl b : forall s,
  forallb (calm_cmd sl) b = true -> calm_q sl (queue s) ->
  exists s', exec_body s b = BOk s' /\ enabled s' = enabled s /\ clock s <= clock s' /\
             (sl = false -> clock s' = clock s) /\ calm_q sl (queue s').
Proof.
  induction b as [|c t IH]; intros s Hb Hq; simpl in *.
  - exists s. repeat split; auto; lia.
  - apply andb_true_iff in Hb. destruct Hb as [Hc Ht].
    destruct (exec_cmd_calm sl s c Hc Hq) as (s1 & E1 & A1 & B1 & C1 & D1). rewrite E1.
    destruct (IH s1 Ht D1) as (s2 & E2 & A2 & B2 & C2 & D2). exists s2.
    repeat split; auto; try congruence; try lia. intro Hs. rewrite (C2 Hs). auto.
Qed.

Lemma run_item_calm sl s it q' newclk bumped :
  queue s = it :: q' -> calm_q sl (queue s) ->
  exists s', run_item s it q' newclk bumped = BOk s' /\ enabled s' = enabled s /\ newclk <= clock s' /\
             (sl = false -> clock s' = newclk) /\ calm_q sl (queue s').
Proof.
  intros Hq Hc. rewrite Hq in Hc. inversion Hc as [|? ? Hit Hc']; subst.
  unfold run_item. destruct (negb (memb (i_id it) (cancelled s))).
  - destruct (i_pay it) as [l b|pid stt]; simpl in Hit; [|discriminate]. simpl.
    match goal with |- context [exec_body ?s0 b] =>
      destruct (exec_body_calm sl b s0 Hit) as (s' & E & A & B & C & D); [simpl; assumption|] end.
    exists s'. repeat split; auto.
  - eexists. split; [reflexivity|]. simpl. repeat split; auto; lia.
Qed.

(* A loop that cannot deadlock, on calm work: it leaves through its normal exit, from a state
   [s0] where the exit condition holds; no action changed the flag; without sleeps the clock
   stays under any bound [B] that the dequeues respect. *)
Lemma looped_calm sl {fin stop} {popok : st -> item -> Z -> bool -> Prop} B {fuel} s {o} :
  (forall s it n b, popok s it n b -> pop_clock_ok s it n b) ->
  looped fin stop popok false fuel s o ->
  calm_q sl (queue s) -> (qsize (queue s) <= fuel)%nat ->
  exists s0, o = fin s0 /\ steps s s0 /\ enabled s0 = enabled s /\ calm_q sl (queue s0) /\
             (enabled s0 = false \/ match queue s0 with [] => True | it :: _ => stop it = true end) /\
             (sl = false -> (forall s it n b, popok s it n b -> clock s <= B -> n <= B) ->
              clock s <= B -> clock s0 <= B).
Proof.
  intro Hpop.
  induction 1 as [fuel s o X ->|s it q' Hq|fuel s Hd|fuel s it q' newclk bumped e s1 Hq Hp E
                  |fuel s it q' newclk bumped s1 o Hq Hp E _ IH]; intros Hc Hf.
  - exists s. repeat split; auto. apply steps_refl.
  - exfalso. rewrite Hq, qsize_cons in Hf. destruct (i_pay it); simpl in Hf; lia.
  - discriminate.
  - destruct (run_item_calm sl s it q' newclk bumped Hq Hc) as (s' & E' & _). congruence.
  - destruct (run_item_calm sl s it q' newclk bumped Hq Hc) as (s' & E' & A & _ & C & D).
    destruct (run_item_noper s it q' newclk bumped Hq (calm_q_noper _ _ Hc)) as [_ G].
    pose proof (run_item_steps s it q' newclk bumped Hq (Hpop _ _ _ _ Hp)) as T.
    rewrite E in E', G, T. inversion E'; subst s'. cbn [bstate] in G, T.
    destruct (IH D) as (s0 & -> & T0 & A0 & D0 & X0 & K0); [lia|].
    exists s0. repeat split; auto; [exact (steps_trans _ _ _ T T0) | congruence|].
    intros Hsl HB Hle. apply (K0 Hsl HB). rewrite (C Hsl). exact (HB _ _ _ _ Hp Hle).
Qed.

(* start() on calm work returns normally with an empty queue *)
Theorem start_calm sl c fuel s : c_prop_bump c = false ->
  enabled s = false -> calm_q sl (queue s) -> (qsize (queue s) <= fuel)%nat ->
  exists s', start c fuel s = Finished s' /\ enabled s' = false /\ queue s' = [].
Proof.
  intros Hc He Hn Hf. unfold start. rewrite He.
  pose proof (start_loop_looped c fuel (set_enabled s true) 0%nat) as L. unfold start_looped in L. rewrite Hc in L.
  (* no clock bound is asked for: [B] is a dummy 0 and the last conjunct is dropped *)
  destruct (looped_calm sl 0 (set_enabled s true) (fun _ _ _ _ H => H) L Hn Hf)
    as (s0 & -> & _ & A & _ & [X|X] & _).
  - rewrite A in X. discriminate.
  - exists (set_enabled s0 false). repeat split. cbn. destruct (queue s0); [reflexivity | discriminate].
Qed.

(* advance_to(t) with t later than the clock, on a stopped scheduler with calm
   work: returns; everything left in the queue is due after t; everything it
   dequeued was due at or before t; the clock ends at t (or later if an action
   slept past t). *)
Theorem advance_to_calm sl fuel s t :
  Inv1 s -> enabled s = false -> clock s < t -> calm_q sl (queue s) -> (qsize (queue s) <= fuel)%nat ->
  exists s', advance_to fuel s t = Finished s' /\ enabled s' = false /\
             Forall (fun it => t < i_due it) (queue s') /\
             t <= clock s' /\ (sl = false -> clock s' = t) /\
             calm_q sl (queue s') /\ new_pops_ok s s' t.
Proof.
  intros HI He Hlt Hc Hf. pose proof (advance_to_only_due fuel s t) as NP. revert NP. unfold advance_to.
  assert (E1 : t <? clock s = false) by (apply Z.ltb_ge; lia).
  assert (E2 : clock s =? t = false) by (apply Z.eqb_neq; lia).
  rewrite E1, E2, He. cbn [orb].
  destruct (looped_calm sl t (set_enabled s true) (adv_popok_clock t)
                        (advance_loop_looped t fuel (set_enabled s true)) Hc Hf)
    as (s0 & -> & T & A & D & X & K).
  destruct (finish_adv_spec s0 t) as (s' & -> & E & Q & C & _). cbn [ostate].
  intro NP. exists s'. rewrite Q, C. repeat split; auto; try lia.
  - (* the loop left [s0] with its head due after [t]; the queue is sorted, Inv1 having survived the steps *)
    destruct X as [X|X]; [rewrite A in X; discriminate|].
    destruct (steps_inv Inv1 inv1_prim _ _ T HI) as [HS _].
    destruct (queue s0) as [|it q]; [constructor|]. apply Z.ltb_lt in X.
    inversion HS as [|? ? _ Hhd]; subst. constructor; [exact X|].
    eapply Forall_impl; [|exact Hhd]. unfold klt. intros; lia.
  - intro Hsl. assert (clock s0 <= t); [|lia]. apply (K Hsl); [|cbn; lia].
    intros s1 it n b (Hd & _ & ->) Hle. lia.
Qed.

(* start() on calm work, from a state with [Inv]: every action ever scheduled has been dequeued *)
Theorem start_drains sl c fuel s : Inv s -> c_prop_bump c = false ->
  enabled s = false -> calm_q sl (queue s) -> (qsize (queue s) <= fuel)%nat ->
  exists s', start c fuel s = Finished s' /\ enabled s' = false /\ queue s' = [] /\
             forall id, (id < next_id s')%nat -> In id (map r_id (pops (log s'))).
Proof.
  intros HI Hc He Hq Hf.
  destruct (start_calm sl c fuel s Hc He Hq Hf) as (s' & E & A & B).
  exists s'. repeat split; auto.
  pose proof (start_steps c fuel s) as T. rewrite E in T. cbn [ostate] in T.
  destruct (inv_ids _ (inv_steps _ _ T HI)) as [_ H2].
  intros id Hid. apply (proj2 (H2 id)) in Hid. unfold ids in Hid. rewrite B in Hid. exact Hid.
Qed.

Lemma exec_cmd_enabled s c : enabled s = false -> enabled (bstate (exec_cmd s c)) = false.
Proof.
  intro He. destruct (is_stop c) eqn:Es; [destruct c; try discriminate; reflexivity|].
  rewrite <- He. exact (exec_cmd_keeps_enabled s c Es).
Qed.

Lemma looped_finished fin stop popok dead fuel s o s' :
  (forall s0 s1, fin s0 = Finished s1 -> enabled s1 = false) ->
  looped fin stop popok dead fuel s o -> o = Finished s' -> enabled s' = false.
Proof.
  intro Hfin. induction 1 as [fuel s o _ ->| | | |]; try discriminate; [apply Hfin | assumption].
Qed.

Lemma start_finished c fuel s s' : enabled s = false -> start c fuel s = Finished s' -> enabled s' = false.
Proof.
  intros He E. unfold start in E. rewrite He in E.
  eapply looped_finished; [|apply (start_loop_looped c fuel (set_enabled s true) 0%nat)|exact E].
  intros s0 s1 [= <-]. reflexivity.
Qed.

Lemma advance_to_finished fuel s t s' :
  enabled s = false -> advance_to fuel s t = Finished s' -> enabled s' = false.
Proof.
  intro He. unfold advance_to. destruct (t <? clock s); [discriminate|].
  destruct ((clock s =? t) || enabled s); [intros [= <-]; exact He|]. intro E.
  eapply looped_finished; [|apply (advance_loop_looped t fuel (set_enabled s true))|exact E].
  intros s0 s1 [= <-]. reflexivity.
Qed.

(* A top-level call made on a stopped scheduler that returns normally leaves it
   stopped (start and advance_to reset _is_enabled on their normal exits only). *)
Theorem step_t_stays_stopped c fuel s cmd s' :
  enabled s = false -> step_t c fuel s cmd = Finished s' -> enabled s' = false.
Proof.
  intros He. destruct cmd as [k| | |t|d]; cbn [step_t].
  - pose proof (exec_cmd_enabled s k He) as H. destruct (exec_cmd s k); cbn [of_bres bstate] in *;
      [intro E; inversion E; subst; exact H | discriminate].
  - apply start_finished, He.
  - apply start_finished, He.
  - apply advance_to_finished, He.
  - apply advance_to_finished, He.
Qed.

(* along a history that started stopped: stopped, or some call raised (the log only grows) *)
Lemma run_stopped_or_raised c fuel : forall h s s', run c fuel s h = RDone s' ->
  enabled s = false \/ (exists e, In (EExc e) (log s)) ->
  enabled s' = false \/ exists e, In (EExc e) (log s').
Proof.
  induction h as [|cmd h IH]; intros s s'; cbn [run]; [intros E H; inversion E; subst; exact H|].
  pose proof (steps_log_in _ _ (step_t_steps c fuel s cmd)) as Hin.
  destruct (step_t c fuel s cmd) as [s1|e s1|s1|s1] eqn:Es; try discriminate;
    intros R H; apply (IH _ _ R); cbn [ostate] in Hin; cbn [add_log log enabled].
  - destruct H as [He|[e He]]; [left; exact (step_t_stays_stopped c fuel s cmd s1 He Es)|].
    right. exists e. right. apply Hin, He.
  - right. exists e. right. left. reflexivity.
Qed.

(* Between top-level calls the scheduler is stopped, unless a call raised: if a history
   ran to its end and logged no escaping exception, _is_enabled is False. *)
Theorem hist_stopped c fuel c0 h s' : run c fuel (init c0) h = RDone s' ->
  (forall e, ~ In (EExc e) (log s')) -> enabled s' = false.
Proof.
  intros R N. destruct (run_stopped_or_raised c fuel h (init c0) s' R (or_introl eq_refl)) as [H|[e H]];
    [exact H | destruct (N e H)].
Qed.

(* top-level calls of a calm history: schedule / cancel / sleep forward / note with calm
   bodies, and any start, TestScheduler.start, advance_to, advance_by *)
Definition calm_top (sl : bool) (c : tcmd) : Prop :=
  match c with TDo k => calm_cmd sl k = true | _ => True end.

Lemma run_app c fuel : forall a b s,
  run c fuel s (a ++ b) = match run c fuel s a with RDone s' => run c fuel s' b | r => r end.
Proof.
  induction a as [|cmd a IH]; intros b s; cbn [app run]; [reflexivity|].
  destruct (step_t c fuel s cmd); try reflexivity; apply IH.
Qed.

Lemma calm_q_silent sl s t : calm_q sl (queue s) -> calm_q sl (queue (silent s t)).
Proof. intro H. unfold silent. cbn [enqueue queue]. apply Forall_insert; [reflexivity | exact H]. Qed.

Lemma qsize_silent s t : qsize (queue (silent s t)) = S (qsize (queue s)).
Proof. unfold silent. cbn [enqueue queue]. rewrite qsize_insert. reflexivity. Qed.

Lemma step_t_calm sl c fuel s cmd : c_prop_bump c = false ->
  Inv1 s -> enabled s = false -> calm_q sl (queue s) -> calm_top sl cmd ->
  (qsize (queue s) + tsize cmd <= fuel)%nat ->
  exists s', returned (step_t c fuel s cmd) s' /\
             enabled s' = false /\ calm_q sl (queue s') /\
             (qsize (queue s') <= qsize (queue s) + tsize cmd)%nat.
Proof.
  intros Hc HI He Hq Ht Hf.
  assert (Hadv : forall t, exists s', returned (advance_to fuel s t) s' /\
             enabled s' = false /\ calm_q sl (queue s') /\ (qsize (queue s') <= qsize (queue s) + 0)%nat).
  { intro t. destruct (Z.compare_spec t (clock s)) as [->|Hlt|Hgt].
    - rewrite advance_to_now_noop. exists s. split; [left; reflexivity|]. repeat split; auto; lia.
    - rewrite (advance_to_past_raises fuel s t Hlt). exists s. split; [right; eexists; reflexivity|].
      repeat split; auto; lia.
    - (* [advance_to_calm] does not bound the qsize of what is left: that comes from [advance_to_returns] *)
      destruct (advance_to_returns fuel s t (calm_q_noper _ _ Hq)) as (s1 & R & _ & L); [lia|].
      destruct (advance_to_calm sl fuel s t HI He Hgt Hq) as (s' & E & A & _ & _ & _ & Cq & _); [lia|].
      exists s'. split; [left; exact E|]. repeat split; auto.
      destruct R as [R|[e R]]; rewrite R in E; inversion E; subst; lia. }
  assert (Hst : forall s3 n, enabled s3 = false -> calm_q sl (queue s3) -> (qsize (queue s3) <= fuel)%nat ->
            exists s', returned (start c fuel s3) s' /\ enabled s' = false /\ calm_q sl (queue s') /\
                       (qsize (queue s') <= n)%nat).
  { intros s3 n E3 C3 F3. destruct (start_calm sl c fuel s3 Hc E3 C3 F3) as (s' & E & A & B).
    exists s'. split; [left; exact E|]. rewrite B. repeat split; auto. constructor. cbn. lia. }
  destruct cmd as [k| | |t|d]; cbn [step_t tsize calm_top] in *.
  - destruct (exec_cmd_calm sl s k Ht Hq) as (s' & E & A & _ & _ & Cq).
    destruct (exec_cmd_noper s k (calm_noper _ _ Ht) (calm_q_noper _ _ Hq)) as [_ G].
    rewrite E in *. cbn [of_bres bstate] in *. exists s'. split; [left; reflexivity|].
    repeat split; auto; congruence.
  - apply Hst; auto. lia.
  - apply Hst; [exact He | repeat apply calm_q_silent; exact Hq | rewrite !qsize_silent; lia].
  - apply Hadv.
  - apply Hadv.
Qed.

(* [run] after a top-level call that returned: the logging it adds is quiet *)
Lemma run_returned c fuel s cmd h s1 : returned (step_t c fuel s cmd) s1 ->
  exists s2, run c fuel s (cmd :: h) = run c fuel s2 h /\ steps s s2 /\
             queue s2 = queue s1 /\ enabled s2 = enabled s1.
Proof.
  intro R. pose proof (step_t_steps c fuel s cmd) as T.
  destruct R as [E|[e E]]; cbn [run]; rewrite E in *; cbn [ostate] in T;
    eexists; (split; [reflexivity|]); (split; [|split; reflexivity]).
  - apply steps_log; [exact T | reflexivity].
  - apply steps_log; [apply steps_log; [exact T | exact I] | reflexivity].
Qed.

Lemma run_calm sl c fuel : c_prop_bump c = false -> forall h s,
  Inv s -> enabled s = false -> calm_q sl (queue s) -> Forall (calm_top sl) h ->
  (qsize (queue s) + hsize h <= fuel)%nat ->
  exists s', run c fuel s h = RDone s' /\ Inv s' /\ enabled s' = false /\ calm_q sl (queue s') /\
             (qsize (queue s') <= qsize (queue s) + hsize h)%nat.
Proof.
  intro Hc. induction h as [|cmd h IH]; intros s HI He Hq Hh Hf.
  - exists s. split; [reflexivity|]. split; [exact HI|]. split; [exact He|]. split; [exact Hq|]. lia.
  - inversion Hh as [|? ? Hcmd Hh']; subst.
    change (hsize (cmd :: h)) with (tsize cmd + hsize h)%nat in *.
    destruct (step_t_calm sl c fuel s cmd Hc (inv_queue _ HI) He Hq Hcmd) as (s1 & R & A & Cq & L); [lia|].
    destruct (run_returned c fuel s cmd h s1 R) as (s2 & -> & T & Q & En).
    rewrite <- Q in Cq, L. rewrite <- En in A.
    destruct (IH s2 (inv_steps _ _ T HI) A Cq Hh') as (s' & R' & I' & A' & C' & L'); [lia|].
    exists s'. split; [exact R'|]. split; [exact I'|]. split; [exact A'|]. split; [exact C'|]. lia.
Qed.

(* Any calm history -- any number of earlier start()/advance_to() calls that drained the
   queue included -- followed by start(): the run completes, the queue is empty, the
   scheduler is stopped, and EVERY action ever scheduled has been dequeued. *)
Theorem calm_history_start_drains k fuel c0 h sl :
  Forall (calm_top sl) h -> (hsize h <= fuel)%nat ->
  exists s', run (Cfg k false) fuel (init c0) (h ++ [TStart]) = RDone s' /\
             queue s' = [] /\ enabled s' = false /\
             forall id, (id < next_id s')%nat -> In id (map r_id (pops (log s'))).
Proof.
  intros Hh Hf.
  destruct (run_calm sl (Cfg k false) fuel eq_refl h (init c0) (inv_init c0) eq_refl) as (s1 & R & I1 & A & Cq & L);
    [constructor | exact Hh | cbn; lia|].
  rewrite run_app, R. cbn [run step_t].
  destruct (start_drains sl (Cfg k false) fuel s1 I1 eq_refl A Cq) as (s2 & E & A2 & B2 & H2); [cbn in L; lia|].
  rewrite E. eexists. split; [reflexivity|]. cbn [add_log queue enabled next_id log pops]. auto.
Qed.

(* along any sequence of primitive steps from s0, an item of the queue is an item of
   s0's queue or was created afterwards *)
Definition from_q (s0 s : st) : Prop :=
  (next_id s0 <= next_id s)%nat /\
  forall x, In x (queue s) -> In x (queue s0) \/ (next_id s0 <= i_id x)%nat.

Lemma from_q_prim s0 s s' : from_q s0 s -> prim s s' -> from_q s0 s'.
Proof.
  intros [Hn Hq] HP. unfold from_q.
  destruct (prim_view _ _ HP) as [(Q & _ & N & _)|[(due & p & ->)|(it & q' & n & b & Hq' & _ & ->)]].
  - rewrite Q, N. split; assumption.
  - split; [cbn; lia|]. cbn [enqueue queue]. intros x Hx. apply In_insert in Hx.
    destruct Hx as [->|Hx]; [right; cbn; exact Hn | apply Hq; exact Hx].
  - split; [exact Hn|]. cbn. intros x Hx. apply Hq. rewrite Hq'. right. exact Hx.
Qed.

Lemma from_q_steps s0 s : steps s0 s -> from_q s0 s.
Proof.
  intro H. apply (steps_inv (from_q s0) (from_q_prim s0) s0 s H).
  split; [lia | intros x Hx; left; exact Hx].
Qed.

Lemma NoDup_map_inj {A B} (f : A -> B) : forall l x y,
  NoDup (map f l) -> In x l -> In y l -> f x = f y -> x = y.
Proof.
  induction l as [|a l IH]; intros x y Hnd Hx Hy E; [destruct Hx|].
  cbn in Hnd. inversion Hnd as [|? ? Hna Hnd']; subst.
  destruct Hx as [->|Hx], Hy as [->|Hy]; auto.
  - exfalso. apply Hna. rewrite E. apply in_map. exact Hy.
  - exfalso. apply Hna. rewrite <- E. apply in_map. exact Hx.
Qed.

Lemma NoDup_app_l {A} : forall (l l' : list A), NoDup (l ++ l') -> NoDup l.
Proof.
  induction l as [|a l IH]; intros l' H; [constructor|].
  cbn in H. inversion H as [|? ? Hna Hnd]; subst. constructor; [|eapply IH; exact Hnd].
  intro Hin. apply Hna. apply in_or_app. left. exact Hin.
Qed.

(* advance_to(t) from a state with invariant Inv (every reachable state), stopped, clock
   before t, calm pending work: it returns normally and EVERY pending item due at or
   before t has been dequeued (together with advance_to_only_due: exactly those, plus
   what they scheduled themselves for <= t) *)
Theorem advance_to_complete sl fuel s t :
  Inv s -> enabled s = false -> clock s < t -> calm_q sl (queue s) -> (qsize (queue s) <= fuel)%nat ->
  exists s', advance_to fuel s t = Finished s' /\
             forall it, In it (queue s) -> i_due it <= t -> In (i_id it) (map r_id (pops (log s'))).
Proof.
  intros HI He Hlt Hq Hf.
  destruct (advance_to_calm sl fuel s t (inv_queue _ HI) He Hlt Hq Hf) as (s' & E & _ & Hall & _).
  exists s'. split; [exact E|]. intros it Hin Hdue.
  pose proof (advance_to_steps fuel s t) as Hst. rewrite E in Hst. cbn [ostate] in Hst.
  pose proof (inv_steps _ _ Hst HI) as HI'.
  destruct (from_q_steps _ _ Hst) as [Hn Hfq].
  destruct (inv_ids _ HI) as [ND Hids]. destruct (inv_ids _ HI') as [_ Hids'].
  assert (Hid : (i_id it < next_id s)%nat).
  { apply Hids. unfold ids. apply in_or_app. left. apply in_map. exact Hin. }
  assert (Hid' : In (i_id it) (ids s')) by (apply Hids'; lia).
  unfold ids in Hid'. apply in_app_or in Hid'. destruct Hid' as [Hq'|Hp]; [exfalso | exact Hp].
  apply in_map_iff in Hq'. destruct Hq' as (it' & Eid & Hin').
  rewrite Forall_forall in Hall. pose proof (Hall it' Hin') as Hlate.
  destruct (Hfq it' Hin') as [Hold|Hnew]; [|lia].
  unfold ids in ND. apply NoDup_app_l in ND.
  assert (it' = it) by (eapply NoDup_map_inj; eauto). subst it'. lia.
Qed.
