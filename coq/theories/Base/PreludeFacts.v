(* The Z-indexed [ztake] / [zskip] of Base/Prelude.v as [firstn] / [skipn]; [list_eqb] decides equality. *)
From RxVerif Require Import Base.Prelude.

Lemma ztake_firstn {A} (l : list A) : forall n, ztake n l = firstn (Z.to_nat n) l.
Proof.
  induction l as [|x t IH]; intros n; cbn [ztake].
  - now rewrite firstn_nil.
  - destruct (Z.leb_spec n 0) as [H|H].
    + replace (Z.to_nat n) with 0%nat by lia. reflexivity.
    + replace (Z.to_nat n) with (S (Z.to_nat (n - 1))) by lia.
      cbn [firstn]. now rewrite IH.
Qed.

Lemma ztake_all {A} (l : list A) n : zlen l <= n -> ztake n l = l.
Proof. intros H. rewrite ztake_firstn. apply firstn_all2. unfold zlen in H. lia. Qed.

Lemma zskip_skipn {A} (l : list A) : forall n, zskip n l = skipn (Z.to_nat n) l.
Proof.
  induction l as [|x t IH]; intros n; cbn [zskip].
  - now rewrite skipn_nil.
  - destruct (Z.leb_spec n 0) as [H|H].
    + replace (Z.to_nat n) with 0%nat by lia. reflexivity.
    + replace (Z.to_nat n) with (S (Z.to_nat (n - 1))) by lia.
      cbn [skipn]. now rewrite IH.
Qed.

Lemma list_eqb_spec {A} (eqb : A -> A -> bool) :
  (forall x y, eqb x y = true <-> x = y) ->
  forall l1 l2, list_eqb eqb l1 l2 = true <-> l1 = l2.
Proof.
  intros He l1; induction l1 as [|x t IH]; intros [|y t2]; cbn [list_eqb];
    try (split; discriminate); try tauto.
  rewrite andb_true_iff, He, IH. split.
  - intros [-> ->]; reflexivity.
  - intros H; injection H as -> ->; auto.
Qed.
