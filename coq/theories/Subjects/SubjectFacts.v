(* Facts about the execution engine of Subjects/Subject.v that hold for EVERY
   method table [C], EVERY reaction function [react] (arbitrary call trees,
   re-entrant emissions included) and every amount of fuel: they only depend on
   the AutoDetachObserver wrapper that Observable.subscribe puts around each
   subscriber. *)
From RxVerif Require Import Base.Prelude Ops.Machine Subjects.Subject Subjects.Family.

Definition has_term {A} (l : list (ev A)) : bool := existsb is_terminal l.

Lemma wellformed_snoc {A} (l : list (ev A)) (n : ev A) :
  wellformed (l ++ [n]) = wellformed l && negb (has_term l).
Proof.
  induction l as [|x t IH]; cbn [app wellformed has_term existsb].
  - destruct n; reflexivity.
  - destruct x as [a| |]; cbn [is_terminal orb].
    + exact IH.
    + destruct t; cbn; reflexivity.
    + destruct t; cbn; reflexivity.
Qed.

Lemma has_term_app {A} (l1 l2 : list (ev A)) : has_term (l1 ++ l2) = has_term l1 || has_term l2.
Proof. apply existsb_app. Qed.

Section Facts.
Context {A : Type} (C : @cls A) (react : nat -> nat -> list (@op A)).

Notation step := (step C react).
Notation run := (run C react).

Definition noGot (evs : list (@event A)) : Prop := forall o n, ~ In (EGot o n) evs.

Lemma view_app o (l1 l2 : list (@event A)) : view o (l1 ++ l2) = view o l1 ++ view o l2.
Proof.
  induction l1 as [|e t IH]; cbn [app view]; [reflexivity|].
  destruct e as [p|o' n|e]; [exact IH| |exact IH].
  destruct (Nat.eqb o' o); [cbn; now rewrite IH|exact IH].
Qed.

Lemma view_noGot o (l : list (@event A)) : noGot l -> view o l = [].
Proof.
  induction l as [|e t IH]; intros H; cbn [view]; [reflexivity|].
  assert (Ht : noGot t) by (intros o' n Hin; apply (H o' n); now right).
  destruct e as [p|o' n|e]; [now apply IH| |now apply IH].
  exfalso. apply (H o' n). now left.
Qed.

Lemma noGot_rev (l : list (@event A)) : noGot l -> noGot (rev l).
Proof. intros H o n Hin. apply (H o n). now apply in_rev. Qed.

(* across a step the observer table only grows and stopped wrappers stay stopped *)
Definition mono (m m' : omap) : Prop :=
  forall o os, m o = Some os -> exists os', m' o = Some os' /\ (a_stopped os = true -> a_stopped os' = true).

Lemma mono_refl m : mono m m.
Proof. intros o os H. eauto. Qed.

Lemma mono_trans m1 m2 m3 : mono m1 m2 -> mono m2 m3 -> mono m1 m3.
Proof.
  intros H12 H23 o os H. destruct (H12 o os H) as [os2 [H2 Hs2]].
  destruct (H23 o os2 H2) as [os3 [H3 Hs3]]. eauto.
Qed.

Lemma mono_upd m o os os' :
  m o = Some os -> (a_stopped os = true -> a_stopped os' = true) -> mono m (upd m o os').
Proof.
  intros Hm Hs o2 os2 H2. unfold upd. destruct (Nat.eqb o2 o) eqn:E.
  - apply Nat.eqb_eq in E. subst o2. rewrite Hm in H2. injection H2 as <-. eauto.
  - eauto.
Qed.

Lemma mono_upd_new m o x : m o = None -> mono m (upd m o x).
Proof.
  intros Hm o2 os2 H2. unfold upd. destruct (Nat.eqb o2 o) eqn:E.
  - apply Nat.eqb_eq in E. subst o2. congruence.
  - eauto.
Qed.

Lemma mono_unstopped m m' o os os' :
  mono m m' -> m o = Some os -> m' o = Some os' -> a_stopped os' = false -> a_stopped os = false.
Proof.
  intros Hmono Hm Hm' Hs'. destruct (Hmono o os Hm) as [os2 [E Hs]]. rewrite Hm' in E. injection E as <-.
  destruct (a_stopped os); [rewrite Hs in Hs' by reflexivity; discriminate|reflexivity].
Qed.

Lemma upd_same (m : omap) o x : upd m o x o = Some x.
Proof. unfold upd. now rewrite Nat.eqb_refl. Qed.

Lemma inner_dispose_stopped (s : @sstate A) os o :
  a_stopped (snd (inner_dispose s os o)) = a_stopped os.
Proof. unfold inner_dispose. destruct (negb (is_disposed s) && inner_obs os); reflexivity. Qed.

Lemma sub_dispose_stopped sub (s : @sstate A) os o : a_stopped (snd (sub_dispose sub s os o)) = a_stopped os.
Proof. destruct sub; cbn [sub_dispose]; [apply inner_dispose_stopped|reflexivity]. Qed.

Lemma ado_dispose_stopped (s : @sstate A) os o : a_stopped (snd (ado_dispose s os o)) = true.
Proof.
  unfold ado_dispose. cbn [sad_disposed sad_cur a_stopped inner_obs handle calls].
  destruct (sad_disposed os); [reflexivity|].
  destruct (sad_cur os) as [sub|]; [|reflexivity]. now rewrite sub_dispose_stopped.
Qed.

Lemma sad_set_stopped sub (s : @sstate A) os o : a_stopped (snd (sad_set sub s os o)) = a_stopped os.
Proof.
  unfold sad_set. destruct (sad_disposed os); [apply sub_dispose_stopped|reflexivity].
Qed.

(* every disposal path touches the subject at most by `self.observers.remove(observer)` *)
Definition detached (o : nat) (s s' : @sstate A) : Prop :=
  s' = s \/ s' = set_observers (remove1 o (observers s)) s.

Lemma detached_stopped o (s s' : @sstate A) : detached o s s' -> is_stopped s' = is_stopped s.
Proof. now intros [->| ->]. Qed.
Lemma detached_disposed o (s s' : @sstate A) : detached o s s' -> is_disposed s' = is_disposed s.
Proof. now intros [->| ->]. Qed.

Lemma inner_dispose_detached (s : @sstate A) os o : detached o s (fst (inner_dispose s os o)).
Proof.
  unfold inner_dispose. destruct (negb (is_disposed s) && inner_obs os); [|now left].
  destruct (mem o (observers s)); [now right|now left].
Qed.

Lemma sub_dispose_detached sub (s : @sstate A) os o : detached o s (fst (sub_dispose sub s os o)).
Proof. destruct sub; [apply inner_dispose_detached|now left]. Qed.

Lemma ado_dispose_detached (s : @sstate A) os o : detached o s (fst (ado_dispose s os o)).
Proof.
  unfold ado_dispose. cbn [sad_disposed sad_cur a_stopped inner_obs handle calls].
  destruct (sad_disposed os); [now left|].
  destruct (sad_cur os); [apply sub_dispose_detached|now left].
Qed.

Lemma sad_set_detached sub (s : @sstate A) os o : detached o s (fst (sad_set sub s os o)).
Proof. unfold sad_set. destruct (sad_disposed os); [apply sub_dispose_detached|now left]. Qed.

(* One step, case by case.  The invariants over arbitrary call trees (here, in the *TreeFacts files and in
   FamilyFacts, sections Disposed and Registered) are proved by cases on [step_to], which [step_cases] relates to
   [step]; only the flat simulation of FamilyFacts (Section Flat) executes [step] itself. *)

(* the subject-side effect of an accepted on_next / on_error / on_completed *)
Definition emission (s : @sstate A) (p : @op A) : sstate * list instr :=
  match p with
  | ONext v => c_next C s v
  | OErr e => c_error C (set_stopped true s) e
  | ODone => c_completed C (set_stopped true s)
  | _ => (s, [])
  end.

(* `auto_detach_observer.subscription = sub`; nothing to assign when _subscribe_core raised *)
Definition sub_set (sub : option subscription) (s : @sstate A) (os : ostate) (o : nat) : sstate * ostate :=
  match sub with Some sb => sad_set sb s os o | None => (s, os) end.

(* instructions that change neither state, table nor continuation; the index is what they log *)
Inductive skips (s : @sstate A) (m : omap) : @instr A -> list (@event A) -> Prop :=
| sk_sub o os : m o = Some os -> skips s m (IOp (OSub o)) [EOp (OSub o)]
| sk_unsub o : (forall os, m o = Some os -> handle os = false) -> skips s m (IOp (OUnsub o)) [EOp (OUnsub o)]
| sk_disposed p : is_emission p = true -> is_disposed s = true ->
    skips s m (IOp p) [ERaised disposed_exn; EOp p]
| sk_stopped p : is_emission p = true -> is_disposed s = false -> is_stopped s = true -> skips s m (IOp p) [EOp p]
| sk_deliver o n : (forall os, m o = Some os -> a_stopped os = true) -> skips s m (IDeliver o n) []
| sk_fin o : m o = None -> skips s m (IAdoFin o) []
| sk_ret o sub : m o = None -> skips s m (ISubRet o sub) [].

Inductive step_to : @cfg A -> @cfg A -> Prop :=
| st_idle s m l : step_to (Cfg s m [] l) (Cfg s m [] l)
| st_skip s m i k l pre : skips s m i pre -> step_to (Cfg s m (i :: k) l) (Cfg s m k (pre ++ l))
| st_sub s m k l o s' is sub : m o = None -> c_subscribe C s o = Some (s', is, sub) ->
    step_to (Cfg s m (IOp (OSub o) :: k) l)
            (Cfg s' (upd m o fresh_ostate) (is ++ ISubRet o (Some sub) :: k) (EOp (OSub o) :: l))
| st_sub_fail s m k l o : m o = None -> c_subscribe C s o = None ->
    step_to (Cfg s m (IOp (OSub o) :: k) l)
            (Cfg s (upd m o (called true fresh_ostate)) (map IOp (react o 0) ++ ISubRet o None :: k)
                 (EGot o (Err disposed_exn) :: EOp (OSub o) :: l))
| st_unsub s m k l o os : m o = Some os -> handle os = true ->
    step_to (Cfg s m (IOp (OUnsub o) :: k) l)
            (Cfg (fst (ado_dispose s os o)) (upd m o (snd (ado_dispose s os o))) k (EOp (OUnsub o) :: l))
| st_emit s m k l p : is_emission p = true -> is_disposed s = false -> is_stopped s = false ->
    step_to (Cfg s m (IOp p :: k) l) (Cfg (fst (emission s p)) m (snd (emission s p) ++ k) (EOp p :: l))
| st_dispose s m k l :
    step_to (Cfg s m (IOp ODispose :: k) l) (Cfg (c_dispose C s) m k (EOp ODispose :: l))
| st_deliver s m k l o n os : m o = Some os -> a_stopped os = false ->
    step_to (Cfg s m (IDeliver o n :: k) l)
            (Cfg s (upd m o (called (is_terminal n) os))
                 (map IOp (react o (calls os)) ++ (if is_terminal n then [IAdoFin o] else []) ++ k)
                 (EGot o n :: l))
| st_fin s m k l o os : m o = Some os ->
    step_to (Cfg s m (IAdoFin o :: k) l)
            (Cfg (fst (ado_dispose s os o)) (upd m o (snd (ado_dispose s os o))) k l)
| st_ret s m k l o sub os : m o = Some os ->
    step_to (Cfg s m (ISubRet o sub :: k) l)
            (Cfg (fst (sub_set sub s os o)) (upd m o (with_handle (snd (sub_set sub s os o)))) k l).

Lemma step_op_emission p s m k l : is_emission p = true ->
  step_op C react p s m k l =
  if is_disposed s then Cfg s m k (ERaised disposed_exn :: EOp p :: l)
  else if is_stopped s then Cfg s m k (EOp p :: l)
  else Cfg (fst (emission s p)) m (snd (emission s p) ++ k) (EOp p :: l).
Proof.
  destruct p; try discriminate; intros _; cbn [step_op emission];
    destruct (is_disposed s), (is_stopped s); try reflexivity.
  - now destruct (c_next C s v).
  - now destruct (c_error C (set_stopped true s) e).
  - now destruct (c_completed C (set_stopped true s)).
Qed.

Lemma step_cases c : step_to c (step c).
Proof.
  destruct c as [s m [|i k] l]; [apply st_idle|].
  destruct i as [p|o n|o|o sub]; cbn [Subject.step c_k c_st c_obs c_rlog].
  - destruct (is_emission p) eqn:Hp.
    { rewrite (step_op_emission p s m k l Hp).
      destruct (is_disposed s) eqn:Hd; [exact (st_skip s m _ k l _ (sk_disposed s m p Hp Hd))|].
      destruct (is_stopped s) eqn:Hs; [exact (st_skip s m _ k l _ (sk_stopped s m p Hp Hd Hs))|].
      now apply st_emit. }
    destruct p as [o|o| | | |]; try discriminate Hp; cbn [step_op].
    + destruct (m o) as [os|] eqn:Hm; [exact (st_skip s m _ k l _ (sk_sub s m o os Hm))|].
      destruct (c_subscribe C s o) as [[[s' is] sub]|] eqn:Hs; [now apply st_sub|now apply st_sub_fail].
    + destruct (m o) as [os|] eqn:Hm.
      * destruct (handle os) eqn:Hh.
        -- pose proof (st_unsub s m k l o os Hm Hh) as H. now destruct (ado_dispose s os o).
        -- apply (st_skip s m _ k l [_]), sk_unsub. intros os' H. congruence.
      * apply (st_skip s m _ k l [_]), sk_unsub. intros os' H. congruence.
    + apply st_dispose.
  - destruct (m o) as [os|] eqn:Hm.
    + destruct (a_stopped os) eqn:Hs.
      * apply (st_skip s m _ k l []), sk_deliver. intros os' H. congruence.
      * pose proof (st_deliver s m k l o n os Hm Hs) as H. now destruct n.
    + apply (st_skip s m _ k l []), sk_deliver. intros os' H. congruence.
  - destruct (m o) as [os|] eqn:Hm; [|exact (st_skip s m _ k l [] (sk_fin s m o Hm))].
    pose proof (st_fin s m k l o os Hm) as H. now destruct (ado_dispose s os o).
  - destruct (m o) as [os|] eqn:Hm; [|exact (st_skip s m _ k l [] (sk_ret s m o sub Hm))].
    pose proof (st_ret s m k l o sub os Hm) as H. destruct sub as [sb|]; [|exact H].
    cbn [sub_set] in H. now destruct (sad_set sb s os o).
Qed.

Lemma sub_set_stopped sub (s : @sstate A) os o : a_stopped (snd (sub_set sub s os o)) = a_stopped os.
Proof. destruct sub; [apply sad_set_stopped|reflexivity]. Qed.

Lemma sub_set_detached sub (s : @sstate A) os o : detached o s (fst (sub_set sub s os o)).
Proof. destruct sub; [apply sad_set_detached|now left]. Qed.

(* what one step does to log and table: at most one delivery, to a wrapper that was not stopped (or is new) *)
Definition step_shape (c c' : @cfg A) : Prop :=
  mono (c_obs c) (c_obs c') /\
  ((exists evs, c_rlog c' = evs ++ c_rlog c /\ noGot evs) \/
   (exists pre o n os', c_rlog c' = EGot o n :: pre ++ c_rlog c /\ noGot pre /\
      (forall os, c_obs c o = Some os -> a_stopped os = false) /\
      c_obs c' o = Some os' /\ (is_terminal n = true -> a_stopped os' = true))).

Lemma noGot_nil : noGot [].
Proof. intros o n []. Qed.
Lemma noGot_op p : noGot [EOp p].
Proof. intros o n [H|[]]. discriminate. Qed.
Lemma noGot_raised e p : noGot [ERaised e; EOp p].
Proof. intros o n [H|[H|[]]]; discriminate. Qed.

Lemma skips_noGot s m i pre : skips s m i pre -> noGot pre.
Proof. destruct 1; first [apply noGot_nil|apply noGot_op|apply noGot_raised]. Qed.

Lemma shape_quiet pre s m k l s' (m' : omap) k' :
  mono m m' -> noGot pre -> step_shape (Cfg s m k l) (Cfg s' m' k' (pre ++ l)).
Proof. intros Hm Hn. split; [exact Hm|]. left. now exists pre. Qed.

Lemma step_shape_holds c : step_shape c (step c).
Proof.
  destruct (step_cases c) as [s m l|s m i k l pre Hsk|s m k l o s' is sub Hm Hs|s m k l o Hm Hs
    |s m k l o os Hm Hh|s m k l p Hp Hd Hs|s m k l|s m k l o n os Hm Hs|s m k l o os Hm|s m k l o sub os Hm].
  (* the constructors of [step_to] in order: idle, skip, sub, sub_fail, unsub, emit, dispose, deliver, fin, ret;
     only sub_fail and deliver log a delivery *)
  - apply (shape_quiet []); [apply mono_refl|apply noGot_nil].
  - apply shape_quiet; [apply mono_refl|exact (skips_noGot _ _ _ _ Hsk)].
  - apply (shape_quiet [_]); [now apply mono_upd_new|apply noGot_op].
  - split; [now apply mono_upd_new|]. right. cbn [c_obs c_rlog].
    exists [EOp (OSub o)], o, (Err disposed_exn), (called true fresh_ostate).
    split; [reflexivity|]. split; [apply noGot_op|]. split; [intros os H; congruence|].
    split; [apply upd_same|reflexivity].
  - apply (shape_quiet [_]); [|apply noGot_op].
    apply (mono_upd m o os _ Hm). intros _. apply ado_dispose_stopped.
  - apply (shape_quiet [_]); [apply mono_refl|apply noGot_op].
  - apply (shape_quiet [_]); [apply mono_refl|apply noGot_op].
  - split; [apply (mono_upd m o os _ Hm); intros; congruence|]. right. cbn [c_obs c_rlog].
    exists [], o, n, (called (is_terminal n) os).
    split; [reflexivity|]. split; [apply noGot_nil|]. split; [intros os2 H2; congruence|].
    split; [apply upd_same|]. intros ->. apply orb_true_r.
  - apply (shape_quiet []); [|apply noGot_nil].
    apply (mono_upd m o os _ Hm). intros _. apply ado_dispose_stopped.
  - apply (shape_quiet []); [|apply noGot_nil].
    apply (mono_upd m o os _ Hm). cbn [with_handle a_stopped]. now rewrite sub_set_stopped.
Qed.

Lemma run_done n c : c_k c = [] -> run n c = c.
Proof. intros H. destruct n; cbn; [reflexivity|now rewrite H]. Qed.

Lemma step_done c : c_k c = [] -> step c = c.
Proof. intros H. unfold Subject.step. now rewrite H. Qed.

Lemma run_S n c : run (S n) c = run n (step c).
Proof.
  cbn. destruct (c_k c) eqn:E; [|reflexivity].
  rewrite (step_done c E). symmetry. now apply run_done.
Qed.

Lemma run_add n m c : run (n + m) c = run m (run n c).
Proof.
  revert c; induction n as [|n IH]; intros c; [reflexivity|].
  change (S n + m)%nat with (S (n + m)). rewrite !run_S. apply IH.
Qed.

Lemma run_ind (P : @cfg A -> Prop) :
  (forall c, P c -> P (step c)) -> forall n c, P c -> P (run n c).
Proof.
  intros Hs n; induction n as [|n IH]; intros c Hc; [exact Hc|].
  rewrite run_S. apply IH. now apply Hs.
Qed.

(* the grammar (C20_/C21_views_wellformed): every observer's received sequence is wellformed; the second clause
   makes the invariant inductive *)
Definition wf_inv (c : @cfg A) : Prop :=
  forall o, wellformed (view o (log_of c)) = true /\
            (has_term (view o (log_of c)) = true ->
             exists os, c_obs c o = Some os /\ a_stopped os = true).

Lemma view_step c o :
  view o (log_of (step c)) = view o (log_of c) \/
  exists n os', view o (log_of (step c)) = view o (log_of c) ++ [n] /\
    (forall os, c_obs c o = Some os -> a_stopped os = false) /\
    c_obs (step c) o = Some os' /\ (is_terminal n = true -> a_stopped os' = true).
Proof.
  destruct (step_shape_holds c) as [_ [[evs [Hl Hng]]|[pre [o2 [n [os' [Hl [Hng [Hlive [Hos' Hterm]]]]]]]]]];
    unfold log_of; rewrite Hl.
  - left. rewrite rev_app_distr, view_app, (view_noGot o (rev evs)) by now apply noGot_rev. apply app_nil_r.
  - cbn [rev]. rewrite rev_app_distr, !view_app, (view_noGot o (rev pre)) by now apply noGot_rev.
    cbn [view app]. destruct (Nat.eqb o2 o) eqn:E.
    + apply Nat.eqb_eq in E. subst o2. right. exists n, os'. now rewrite app_nil_r.
    + left. now rewrite !app_nil_r.
Qed.

(* [mono] of the step, read at one observer *)
Lemma step_mono c o os : c_obs c o = Some os -> a_stopped os = true ->
  exists os', c_obs (step c) o = Some os' /\ a_stopped os' = true.
Proof.
  intros Ho Hs. destruct (step_shape_holds c) as [Hmono _]. destruct (Hmono o os Ho) as [os' [Ho' Hs']]. eauto.
Qed.

Lemma wf_inv_step c : wf_inv c -> wf_inv (step c).
Proof.
  intros I o. destruct (I o) as [Hw Ht].
  destruct (view_step c o) as [->|(n & os' & -> & Hlive & Hos' & Hterm)].
  - split; [exact Hw|]. intros H. destruct (Ht H) as [os [Ho Hs]]. exact (step_mono c o os Ho Hs).
  - assert (Hnt : has_term (view o (log_of c)) = false).
    { destruct (has_term (view o (log_of c))) eqn:Hh; [|reflexivity].
      destruct (Ht eq_refl) as [os [Ho Hs]]. rewrite (Hlive os Ho) in Hs. discriminate. }
    split.
    + rewrite wellformed_snoc, Hw, Hnt. reflexivity.
    + rewrite has_term_app, Hnt. cbn. rewrite orb_false_r. intros Hn. eauto.
Qed.

Lemma wf_inv_init v0 top : wf_inv (init_cfg v0 top).
Proof. intros o. cbn. split; [reflexivity|discriminate]. Qed.

Theorem views_wellformed v0 top fuel o :
  wellformed (view o (log_of (run fuel (init_cfg v0 top)))) = true.
Proof.
  apply (run_ind wf_inv wf_inv_step fuel (init_cfg v0 top) (wf_inv_init v0 top) o).
Qed.

Lemma stopped_final_step c o os :
  c_obs c o = Some os -> a_stopped os = true ->
  view o (log_of (step c)) = view o (log_of c) /\
  exists os', c_obs (step c) o = Some os' /\ a_stopped os' = true.
Proof.
  intros Ho Hs. split; [|exact (step_mono c o os Ho Hs)].
  destruct (view_step c o) as [E|(n & os' & _ & Hlive & _)]; [exact E|].
  rewrite (Hlive os Ho) in Hs. discriminate.
Qed.

Theorem stopped_final n : forall c o os,
  c_obs c o = Some os -> a_stopped os = true ->
  view o (log_of (run n c)) = view o (log_of c).
Proof.
  induction n as [|n IH]; intros c o os Ho Hs; [reflexivity|].
  rewrite run_S. destruct (stopped_final_step c o os Ho Hs) as [Hv [os' [Ho' Hs']]].
  rewrite (IH (step c) o os' Ho' Hs'). exact Hv.
Qed.

(* unsubscribing (the driver holds the handle) stops the wrapper at once, also
   from inside a callback and also in the middle of a delivery loop *)
Lemma unsub_stops s m k l o os :
  m o = Some os -> handle os = true ->
  exists os', c_obs (step (Cfg s m (IOp (OUnsub o) :: k) l)) o = Some os' /\ a_stopped os' = true.
Proof.
  intros Hm Hh. cbn [Subject.step c_k c_st c_obs c_rlog step_op]. rewrite Hm, Hh.
  destruct (ado_dispose s os o) as [s' os'] eqn:E. cbn [c_obs]. exists os'. split; [apply upd_same|].
  change os' with (snd (s', os')). rewrite <- E. apply ado_dispose_stopped.
Qed.

Theorem unsubscribed_gets_nothing_more s m k l o os n :
  m o = Some os -> handle os = true ->
  let c := Cfg s m (IOp (OUnsub o) :: k) l in
  view o (log_of (run n c)) = view o (rev l).
Proof.
  intros Hm Hh c. subst c. destruct n as [|n]; [reflexivity|].
  rewrite run_S. destruct (unsub_stops s m k l o os Hm Hh) as [os' [Ho' Hs']].
  rewrite (stopped_final n _ o os' Ho' Hs').
  cbn [Subject.step c_k c_st c_obs c_rlog step_op]. rewrite Hm, Hh.
  destruct (ado_dispose s os o) as [s' os2]. unfold log_of. cbn [c_rlog rev].
  rewrite view_app. cbn. now rewrite app_nil_r.
Qed.

Theorem after_terminal_nothing c o :
  wf_inv c -> has_term (view o (log_of c)) = true ->
  forall n, view o (log_of (run n c)) = view o (log_of c).
Proof.
  intros I H n. destruct (I o) as [_ Ht]. destruct (Ht H) as [os [Ho Hs]].
  exact (stopped_final n c o os Ho Hs).
Qed.

End Facts.
