(* C22, the completeness half on ARBITRARY call trees: no lost wake-up.
   ScheduledObserver.ensure_active / run and the scheduler never leave a
   notification sitting in a queue: whenever an observer whose wrapper is not
   stopped has something queued, a `run` action for it is scheduled (and not
   cancelled) or about to be re-scheduled ([J]), its queue is owned or about to be
   looked at ([Qs]), and a drain loop stands behind whatever may schedule ([Ms]).
   Hence at the end of every finished run its queue is empty and -- with the
   invariant of Subjects/ReplayTreeFacts.v -- it has received EXACTLY what the
   specification entitles it to.  [K2] is the invariant for both scheduler modes of
   Subjects/ReplaySched.v (Props/C22.v cites it through ReplayDrainFacts.v); [K], for the engine
   of Subjects/Replay.v, follows from it and is what the connectable layer builds on
   (ConnectableReplayFacts.v, C24). *)
From RxVerif Require Import Base.Prelude Ops.Machine Subjects.Subject Subjects.Replay
  Subjects.ReplaySpec Subjects.ReplaySched Subjects.SubjectFacts Subjects.FamilyFacts Subjects.ReplayFacts
  Subjects.ReplaySchedFacts Subjects.ReplayTreeFacts.

Section Live.
Context {A : Type}.

Definition ids (q : list (nat * nat * bool)) : list nat := map (fun it => fst (fst it)) q.

Definition L1 (s : @rstate A) : Prop :=
  NoDup (ids (r_sched s)) /\ forall i, In i (ids (r_sched s)) -> (i < r_fresh s)%nat.

(* a `run` of o's ScheduledObserver is going to happen *)
Definition runner (o : nat) (s : @rstate A) (k : list (@rinstr A)) : Prop :=
  (exists i, In (i, o, false) (r_sched s)) \/ In (RIResched o) k.

Definition so_J (o : nat) (os : @rostate A) (s : @rstate A) (k : list (@rinstr A)) : Prop :=
  so_faulted (r_so os) = false /\
  (forall i, ser_cur (r_so os) = Some i ->
     (i < r_fresh s)%nat /\ forall o2 c, In (i, o2, c) (r_sched s) -> o2 = o) /\
  (ra_stopped os = false ->
     ser_disposed (r_so os) = false /\ (so_acquired (r_so os) = true -> runner o s k)).

Definition J (s : @rstate A) (m : @romap A) (k : list (@rinstr A)) : Prop :=
  L1 s /\ forall o os, m o = Some os -> so_J o os s k.

(* nothing queued without the queue being owned *)
Definition Qq (m : @romap A) : Prop :=
  forall o os, m o = Some os -> ra_stopped os = false ->
    so_acquired (r_so os) = false -> so_queue (r_so os) = [].

Lemma ids_cancel i q : ids (cancel_item i q) = ids q.
Proof.
  unfold ids, cancel_item. rewrite map_map. apply map_ext. intros [[i' o] c]. cbn.
  destruct (Nat.eqb i' i); reflexivity.
Qed.

Lemma in_cancel_owner i q i' o c :
  In (i', o, c) (cancel_item i q) -> exists c0, In (i', o, c0) q.
Proof.
  unfold cancel_item. rewrite in_map_iff. intros [[[i2 o2] c2] [E Hin]].
  destruct (Nat.eqb i2 i); injection E as <- <- <-; eauto.
Qed.

Lemma in_cancel_live i q i' o :
  In (i', o, false) q -> i' <> i -> In (i', o, false) (cancel_item i q).
Proof.
  intros Hin Hne. unfold cancel_item. apply in_map_iff. exists (i', o, false). split; [|exact Hin].
  destruct (Nat.eqb i' i) eqn:E; [apply Nat.eqb_eq in E; contradiction|reflexivity].
Qed.

Lemma in_ids i o c q : In (i, o, c) q -> In i (ids q).
Proof. intros H. unfold ids. apply in_map_iff. exists (i, o, c). auto. Qed.

Lemma runner_mono o (s s' : @rstate A) k k' :
  (forall i, In (i, o, false) (r_sched s) -> In (i, o, false) (r_sched s')) ->
  (In (RIResched o) k -> In (RIResched o) k') ->
  runner o s k -> runner o s' k'.
Proof. intros H1 H2 [[i Hi]|Hk]; [left; eauto|right; auto]. Qed.

Lemma J_same_sched (s s' : @rstate A) m k :
  r_sched s' = r_sched s -> r_fresh s' = r_fresh s -> J s m k -> J s' m k.
Proof.
  intros E1 E2 [[H1 H2] H3]. split; [split; rewrite E1, ?E2; assumption|].
  intros o os Hm. destruct (H3 o os Hm) as (F & C & Lv). split; [exact F|]. split.
  - intros i Hi. destruct (C i Hi) as [C1 C2]. rewrite E1, E2. auto.
  - intros Hs. destruct (Lv Hs) as [D R]. split; [exact D|]. intros Ha.
    eapply runner_mono; [| |exact (R Ha)]; [rewrite E1; auto|auto].
Qed.

Lemma J_k_mono (s : @rstate A) m k k' :
  (forall o, In (RIResched o) k -> In (RIResched o) k') -> J s m k -> J s m k'.
Proof.
  intros Hk [H1 H3]. split; [exact H1|]. intros o os Hm.
  destruct (H3 o os Hm) as (F & C & Lv). split; [exact F|]. split; [exact C|].
  intros Hs. destruct (Lv Hs) as [D R]. split; [exact D|]. intros Ha.
  eapply runner_mono; [| |exact (R Ha)]; auto.
Qed.

Lemma J_upd_ado (s : @rstate A) m k o os os' :
  m o = Some os -> r_so os' = r_so os -> (ra_stopped os' = false -> ra_stopped os = false) ->
  J s m k -> J s (rupd m o os') k.
Proof.
  intros Hm Hso Hst [H1 H3]. split; [exact H1|]. intros o2 os2. unfold rupd.
  destruct (Nat.eqb o2 o) eqn:E; [|apply H3].
  apply Nat.eqb_eq in E. subst o2. intros [= <-]. destruct (H3 o os Hm) as (F & C & Lv).
  unfold so_J. rewrite Hso. split; [exact F|]. split; [exact C|]. intros Hs. exact (Lv (Hst Hs)).
Qed.

Lemma J_new_stopped (s : @rstate A) m k o os' :
  m o = None -> ra_stopped os' = true -> r_so os' = fresh_so -> J s m k -> J s (rupd m o os') k.
Proof.
  intros Hm Hst Hso [H1 H3]. split; [exact H1|]. intros o2 os2. unfold rupd.
  destruct (Nat.eqb o2 o) eqn:E; [|apply H3].
  apply Nat.eqb_eq in E; subst o2. intros [= <-]. unfold so_J. rewrite Hso, Hst. cbn. split; [reflexivity|]. split; [discriminate|discriminate].
Qed.

Lemma cancel_opt_sched x (s : @rstate A) :
  ids (r_sched (cancel_opt x s)) = ids (r_sched s) /\ r_fresh (cancel_opt x s) = r_fresh s /\
  (forall i o c, In (i, o, c) (r_sched (cancel_opt x s)) -> exists c0, In (i, o, c0) (r_sched s)) /\
  (forall i o, In (i, o, false) (r_sched s) -> x <> Some i -> In (i, o, false) (r_sched (cancel_opt x s))).
Proof.
  destruct x as [j|]; cbn [cancel_opt]; [|repeat split; eauto].
  cbn [r_sched r_fresh with_sched]. split; [apply ids_cancel|]. split; [reflexivity|]. split.
  - intros i o c. apply in_cancel_owner.
  - intros i o Hin Hne. apply in_cancel_live; [exact Hin|]. intros ->. now apply Hne.
Qed.

(* ScheduledObserver.dispose *)
Lemma J_so_dispose (s : @rstate A) m k o os os' :
  J s m k -> m o = Some os -> ra_stopped os' = true -> r_so os' = snd (so_dispose s (r_so os)) ->
  J (fst (so_dispose s (r_so os))) (rupd m o os') k.
Proof.
  intros [[N1 N2] H3] Hm Hst Hso.
  destruct (H3 o os Hm) as (Fo & Co & _).
  unfold so_dispose in *. destruct (ser_disposed (r_so os)) eqn:Ed; cbn [fst snd] in *.
  - (* already disposed: nothing is cancelled *)
    split; [split; assumption|]. intros o2 os2. unfold rupd. destruct (Nat.eqb o2 o) eqn:E; [|apply H3].
    apply Nat.eqb_eq in E; subst o2. intros [= <-]. unfold so_J. rewrite Hso, Hst. cbn. split; [exact Fo|]. split; [exact Co|discriminate].
  - destruct (cancel_opt_sched (ser_cur (r_so os)) s) as (Ci & Cf & Cin & Ckeep). split.
    + unfold L1. rewrite Ci, Cf. split; assumption.
    + intros o2 os2. unfold rupd. destruct (Nat.eqb o2 o) eqn:E.
      * apply Nat.eqb_eq in E; subst o2. intros [= <-]. unfold so_J. rewrite Hso, Hst. cbn.
        split; [exact Fo|]. split; discriminate.
      * apply Nat.eqb_neq in E. intros Hm2. destruct (H3 o2 os2 Hm2) as (F & C & Lv). split; [exact F|]. split.
        -- intros i2 Hi2. destruct (C i2 Hi2) as [C1 C2]. rewrite Cf. split; [exact C1|].
           intros o3 c Hin. destruct (Cin _ _ _ Hin) as [c0 Hin0]. eauto.
        -- intros Hs. destruct (Lv Hs) as [D R]. split; [exact D|]. intros Ha.
           eapply runner_mono; [| |exact (R Ha)]; [|auto]. intros i' Hin. apply Ckeep; [exact Hin|].
           (* the cancelled item belongs to o *)
           intros Ec. apply E. exact (proj2 (Co i' Ec) o2 false Hin).
Qed.

(* ScheduledObserver.ensure_active *)
Lemma J_ensure_active (s : @rstate A) m k o so os' :
  J s m k ->
  so_faulted so = false ->
  (forall i, ser_cur so = Some i ->
     (i < r_fresh s)%nat /\ forall o2 c, In (i, o2, c) (r_sched s) -> o2 = o) ->
  (ra_stopped os' = false -> ser_disposed so = false /\ (so_acquired so = true -> runner o s k)) ->
  r_so os' = snd (ensure_active o s so) ->
  J (fst (ensure_active o s so)) (rupd m o os') k.
Proof.
  intros [[N1 N2] H3] Fo Co Lo Hso.
  unfold ensure_active in *.
  destruct (negb (so_faulted so) && negb match so_queue so with [] => true | _ => false end) eqn:Eq;
    cbn [fst snd] in *.
  2:{ (* nothing to do *)
      split; [split; assumption|]. intros o2 os2. unfold rupd. destruct (Nat.eqb o2 o) eqn:E; [|apply H3].
      apply Nat.eqb_eq in E; subst o2. intros [= <-]. unfold so_J. rewrite Hso. auto. }
  destruct (so_acquired so) eqn:Ea; cbn [fst snd] in *.
  { split; [split; assumption|]. intros o2 os2. unfold rupd. destruct (Nat.eqb o2 o) eqn:E; [|apply H3].
    apply Nat.eqb_eq in E; subst o2. intros [= <-]. unfold so_J. rewrite Hso, Ea. auto. }
  (* is_owner: schedule(self.run) appends a fresh item for o; then ONE item x is cancelled: the new one
     if the SerialDisposable was disposed, else the previous disposable (an item that already ran) *)
  set (id := r_fresh s) in *.
  set (s1 := with_sched (r_sched s ++ [(id, o, false)]) (S id) s) in *.
  cbn [ser_disposed ser_cur so_stopped so_queue so_faulted so_acquired] in *.
  assert (Hgen : forall x, (forall i o2, In (i, o2, false) (r_sched s) -> o2 <> o -> x <> Some i) ->
            so_J o os' (cancel_opt x s1) k -> J (cancel_opt x s1) (rupd m o os') k).
  { intros x Hx HJo. destruct (cancel_opt_sched x s1) as (Ci & Cf & Cin & Ckeep). split.
    - unfold L1. rewrite Ci, Cf. unfold s1, ids. cbn [r_sched r_fresh with_sched]. rewrite map_app. cbn [map fst].
      fold (ids (r_sched s)). split.
      + apply NoDup_app_single; [exact N1|]. intros Hin. specialize (N2 _ Hin). unfold id in N2. lia.
      + intros i Hin. apply in_app_or in Hin. destruct Hin as [Hin|[<-|[]]]; [specialize (N2 _ Hin); unfold id; lia|lia].
    - intros o2 os2. unfold rupd. destruct (Nat.eqb o2 o) eqn:E.
      + apply Nat.eqb_eq in E; subst o2. intros [= <-]. exact HJo.
      + apply Nat.eqb_neq in E. intros Hm2. destruct (H3 o2 os2 Hm2) as (F & C & Lv). split; [exact F|]. split.
        * intros i2 Hi2. destruct (C i2 Hi2) as [C1 C2]. split; [rewrite Cf; cbn; unfold id; lia|].
          intros o3 c H. destruct (Cin _ _ _ H) as [c0 H0]. cbn in H0. apply in_app_or in H0.
          destruct H0 as [H0|[[= <- <- _]|[]]]; [eauto|]. unfold id in C1. lia.
        * intros Hs. destruct (Lv Hs) as [D R]. split; [exact D|]. intros Ha.
          destruct (R Ha) as [[i Hi]|Hk]; [left; exists i|now right].
          apply Ckeep; [cbn; apply in_or_app; now left|exact (Hx i o2 Hi E)]. }
  destruct (ser_disposed so) eqn:Ed; cbn [fst snd] in *.
  - (* the new item is cancelled at once (the wrapper is stopped) *)
    apply (Hgen (Some id)).
    + intros i o2 Hin _ [= ->]. specialize (N2 _ (in_ids _ _ _ _ Hin)). unfold id in N2. lia.
    + unfold so_J. rewrite Hso. cbn. split; [exact Fo|]. split.
      * intros i Hi. destruct (Co i Hi) as [C1 C2]. split; [unfold id; lia|].
        intros o3 c Hin. destruct (in_cancel_owner _ _ _ _ _ Hin) as [c0 Hin0]. apply in_app_or in Hin0.
        destruct Hin0 as [Hin0|[[= <- <- _]|[]]]; [eauto|reflexivity].
      * intros Hs. destruct (Lo Hs) as [D _]. discriminate.
  - destruct (cancel_opt_sched (ser_cur so) s1) as (_ & Cf & Cin & Ckeep).
    apply (Hgen (ser_cur so)).
    + intros i o2 Hin Hne E. apply Hne. exact (proj2 (Co i E) o2 false Hin).
    + unfold so_J. rewrite Hso. cbn [r_so so_faulted ser_cur ser_disposed so_acquired]. split; [exact Fo|]. split.
      * intros i [= <-]. rewrite Cf. split; [cbn; lia|]. intros o3 c Hin. destruct (Cin _ _ _ Hin) as [c0 Hin0].
        cbn in Hin0. apply in_app_or in Hin0. destruct Hin0 as [Hin0|[[= <- _]|[]]]; [|reflexivity].
        specialize (N2 _ (in_ids _ _ _ _ Hin0)). unfold id in N2. lia.
      * intros Hs. split; [reflexivity|]. intros _. left. exists id.
        apply Ckeep; [cbn; apply in_or_app; right; now left|].
        intros E. destruct (Co id E) as [C1 _]. unfold id in C1. lia.
Qed.

Lemma so_on_fields (n : ev A) so :
  so_faulted (so_on n so) = so_faulted so /\ so_acquired (so_on n so) = so_acquired so /\
  ser_disposed (so_on n so) = ser_disposed so /\ ser_cur (so_on n so) = ser_cur so.
Proof. unfold so_on. destruct (so_stopped so); repeat split. Qed.

Lemma J_upd_so (s : @rstate A) m k o os so' :
  m o = Some os ->
  so_faulted so' = so_faulted (r_so os) -> so_acquired so' = so_acquired (r_so os) ->
  ser_disposed so' = ser_disposed (r_so os) -> ser_cur so' = ser_cur (r_so os) ->
  J s m k -> J s (rupd m o (set_so os so')) k.
Proof.
  intros Hm E1 E2 E3 E4 [H1 H3]. split; [exact H1|]. intros o2 os2. unfold rupd.
  destruct (Nat.eqb o2 o) eqn:E; [|apply H3].
  apply Nat.eqb_eq in E. subst o2. intros [= <-]. destruct (H3 o os Hm) as (F & C & Lv).
  unfold so_J. cbn [set_so r_so ra_stopped]. rewrite E1, E2, E3, E4. auto.
Qed.

(* the first loop of _on_next_core: every ScheduledObserver of the snapshot is handed n, nothing is scheduled *)
Lemma J_so_on_pass n k : forall snap (s : @rstate A) m, J s m k ->
  J (fst (so_each (fun _ s so => (s, so_on n so)) snap s m))
    (snd (so_each (fun _ s so => (s, so_on n so)) snap s m)) k.
Proof.
  unfold so_each. induction snap as [|o snap IH]; intros s m HJ; [exact HJ|].
  cbn [fold_left]. destruct (m o) as [os|] eqn:Hm; apply IH; [|exact HJ].
  destruct (so_on_fields n (r_so os)) as (E1 & E2 & E3 & E4). now apply J_upd_so.
Qed.

(* AutoDetachObserver.dispose *)
Lemma J_rado_dispose (s : @rstate A) m k o os :
  J s m k -> m o = Some os ->
  J (fst (rado_dispose s os o)) (rupd m o (snd (rado_dispose s os o))) k.
Proof.
  intros HJ Hm. unfold rado_dispose. cbn [rsad_disposed rsad_cur r_so].
  destruct (rsad_disposed os); cbn [fst snd].
  { apply (J_upd_ado s m k o os); [exact Hm|reflexivity|discriminate|exact HJ]. }
  destruct (rsad_cur os); cbn [fst snd];
    [|apply (J_upd_ado s m k o os); [exact Hm|reflexivity|discriminate|exact HJ]].
  unfold removable_dispose. cbn [r_so].
  pose proof (J_so_dispose s m k o os) as Hd.
  destruct (so_dispose s (r_so os)) as [s1 so1] eqn:Esd. cbn [fst snd] in *.
  set (os' := set_so (ROState true true false (r_handle os) (r_calls os) (r_so os)) so1).
  specialize (Hd os' HJ Hm eq_refl eq_refl).
  destruct (negb (r_disposed s1) && mem o (r_observers s1)); cbn [fst snd]; [|exact Hd].
  eapply J_same_sched; [| |exact Hd]; reflexivity.
Qed.

Lemma ensure_active_owned o (s : @rstate A) so :
  so_faulted so = false -> so_acquired (snd (ensure_active o s so)) = false ->
  so_queue (snd (ensure_active o s so)) = [].
Proof.
  intros F. unfold ensure_active. rewrite F. cbn [negb andb].
  destruct (so_queue so) eqn:Eq; cbn [negb]; [intros _; exact Eq|].
  destruct (so_acquired so) eqn:Ea; cbn [snd]; [congruence|].
  cbn [ser_disposed]. destruct (ser_disposed so); cbn; discriminate.
Qed.

(* RIResched: scheduler.schedule(self.run) *)
Lemma J_resched (s : @rstate A) m k o :
  J s m (RIResched o :: k) ->
  J (with_sched (r_sched s ++ [(r_fresh s, o, false)]) (S (r_fresh s)) s) m k.
Proof.
  intros [[N1 N2] H3]. split.
  - split; cbn; unfold ids; rewrite map_app; cbn.
    + apply NoDup_app_single; [exact N1|]. intros Hin. specialize (N2 _ Hin). lia.
    + intros i Hin. apply in_app_or in Hin. destruct Hin as [Hin|[<-|[]]]; [specialize (N2 _ Hin); lia|lia].
  - intros o2 os2 Hm. destruct (H3 o2 os2 Hm) as (F & C & Lv). split; [exact F|]. split.
    + intros i Hi. destruct (C i Hi) as [C1 C2]. split; [cbn; lia|]. cbn. intros o3 c Hin.
      apply in_app_or in Hin. destruct Hin as [Hin|[[= <- _]|[]]]; [eauto|lia].
    + intros Hs. destruct (Lv Hs) as [D R]. split; [exact D|]. intros Ha.
      destruct (R Ha) as [[i Hi]|Hk].
      * left. exists i. cbn. apply in_or_app. now left.
      * destruct Hk as [[= <-]|Hk]; [|now right]. left. exists (r_fresh s). cbn. apply in_or_app. right. now left.
Qed.

(* the drain loop takes an item off the scheduler queue *)
Lemma J_pop (s : @rstate A) m k it o c rest k' :
  r_sched s = (it, o, c) :: rest ->
  J s m k ->
  (forall o2, In (RIResched o2) k -> In (RIResched o2) k') ->
  (c = false -> forall os, m o = Some os -> ra_stopped os = false -> so_acquired (r_so os) = true ->
                In (RIResched o) k') ->
  J (with_sched rest (r_fresh s) s) m k'.
Proof.
  intros Es [[N1 N2] H3] Hk Hown. rewrite Es in N1, N2. cbn in N1, N2. split.
  - split; cbn; [now inversion N1|]. intros i Hin. apply N2. now right.
  - intros o2 os2 Hm. destruct (H3 o2 os2 Hm) as (F & C & Lv). split; [exact F|]. split.
    + intros i Hi. destruct (C i Hi) as [C1 C2]. split; [exact C1|]. cbn. intros o3 c3 Hin.
      apply (C2 o3 c3). rewrite Es. now right.
    + intros Hs. destruct (Lv Hs) as [D R]. split; [exact D|]. intros Ha.
      destruct (R Ha) as [[i Hi]|Hk2]; [|right; now apply Hk].
      rewrite Es in Hi. destruct Hi as [[= E1 E2 E3]|Hi]; [|left; exists i; exact Hi].
      subst. right. apply (Hown eq_refl os2 Hm Hs Ha).
Qed.

Lemma fold_so_on_fields : forall (q : list (Z * A)) (so : @sostate A),
  let so' := fold_left (fun so it => so_on (Next (snd it)) so) q so in
  so_faulted so' = so_faulted so /\ so_acquired so' = so_acquired so /\
  ser_disposed so' = ser_disposed so /\ ser_cur so' = ser_cur so.
Proof.
  induction q as [|x q IH]; intros so; cbn [fold_left]; [repeat split|].
  destruct (IH (so_on (Next (snd x)) so)) as (E1 & E2 & E3 & E4).
  destruct (so_on_fields (Next (snd x)) so) as (F1 & F2 & F3 & F4). cbv zeta in *.
  repeat split; congruence.
Qed.

Lemma greet_so_fields (s : @rstate A) :
  so_faulted (greet_so s) = false /\ so_acquired (greet_so s) = false /\
  ser_disposed (greet_so s) = false /\ ser_cur (greet_so s) = None.
Proof.
  destruct (fold_so_on_fields (r_queue s) fresh_so) as (E1 & E2 & E3 & E4).
  cbn [fresh_so so_faulted so_acquired ser_disposed ser_cur] in E1, E2, E3, E4. unfold greet_so.
  set (so1 := fold_left (fun so it => so_on (Next (snd it)) so) (r_queue s) fresh_so) in *.
  destruct (r_exception s) as [e|]; [|destruct (r_stopped s); [|repeat split; assumption]];
    match goal with |- context [so_on ?t so1] => destruct (so_on_fields t so1) as (F1 & F2 & F3 & F4) end;
    repeat split; congruence.
Qed.

End Live.

(* the entitlement has at most one terminal notification, at its very end *)
Section Shape.
Context {A : Type} (b : Z) (w : option Z).

Lemma rg_step_dead_stays (g : @rg A) p : rg_live g = false -> rg_live (rg_step g p) = false.
Proof.
  intros H. destruct p; cbn [rg_step]; rewrite ?H; try exact H; try reflexivity.
  destruct (d <? 0); exact H.
Qed.

Lemma xview_dead o : forall ops (g : @rg A), rg_live g = false -> xview b w o true g ops = [].
Proof.
  induction ops as [|p t IH]; intros g H; [reflexivity|]. cbn [xview].
  unfold rnote. rewrite H. cbn [app]. apply IH. now apply rg_step_dead_stays.
Qed.

Lemma has_term_nexts {X} (f : X -> A) (l : list X) : has_term (map (fun x => Next (f x)) l) = false.
Proof. induction l; [reflexivity|exact IHl]. Qed.

Lemma xview_shape o : forall ops ph (g : @rg A),
  exists l t, xview b w o ph g ops = l ++ t /\ has_term l = false /\ (t = [] \/ exists x, t = [x]).
Proof.
  induction ops as [|p ops IH]; intros ph g.
  - exists [], []. repeat split. now left.
  - cbn [xview]. destruct ph.
    + unfold rnote. destruct (rg_live g) eqn:Hl.
      * destruct p as [o'|o'|v|e| | |d];
          try (match goal with |- context [xview b w o true ?g' ops] =>
                 destruct (IH true g') as (l & t & E & Hn & Ht) end; rewrite E; exists l, t;
               repeat split; assumption).
        -- destruct (IH true (rg_step g (RNext v))) as (l & t & E & Hn & Ht). rewrite E.
           exists (Next v :: l), t. repeat split; assumption.
        -- rewrite xview_dead by (cbn [rg_step]; now rewrite Hl). exists [], [Err e]. repeat split. right. eauto.
        -- rewrite xview_dead by (cbn [rg_step]; now rewrite Hl). exists [], [Done]. repeat split. right. eauto.
      * rewrite xview_dead by now apply rg_step_dead_stays. exists [], []. repeat split. now left.
    + destruct p as [o'|o'|v|e| | |d]; try apply IH.
      destruct (Nat.eqb o' o); [|apply IH]. cbn [rg_step]. unfold rgreet, replayed.
      destruct (rg_status g) as [|t0|] eqn:Hs.
      * destruct (IH true g) as (l & t & E & Hn & Ht). rewrite E.
        exists (map (fun x => Next (snd x)) (retained b w (rg_clock g) (rg_all g)) ++ l), t.
        split; [now rewrite app_assoc|]. split; [|exact Ht].
        rewrite has_term_app, has_term_nexts, Hn. reflexivity.
      * rewrite xview_dead by (unfold rg_live; now rewrite Hs).
        exists (map (fun x => Next (snd x)) (retained b w (rg_clock g) (rg_all g))), [t0].
        split; [now rewrite app_nil_r|]. split; [apply has_term_nexts|right; eauto].
      * rewrite xview_dead by (unfold rg_live; now rewrite Hs).
        exists [], [Err disposed_exn]. repeat split. right. eauto.
Qed.

Lemma prefix_snoc {X} (p l : list X) x : prefix p (l ++ [x]) -> p = l ++ [x] \/ prefix p l.
Proof.
  revert p; induction l as [|y l IH]; intros p [r Hr]; cbn [app] in *.
  - destruct p as [|z p]; [right; apply prefix_nil|]. cbn in Hr. injection Hr as -> Hp.
    destruct p; [now left|discriminate].
  - destruct p as [|z p]; [right; apply prefix_nil|]. cbn in Hr. injection Hr as -> Hp.
    destruct (IH p (ex_intro _ r Hp)) as [->|[r2 ->]]; [now left|right]. now exists r2.
Qed.

Lemma has_term_prefix (p l : list (ev A)) : prefix p l -> has_term l = false -> has_term p = false.
Proof. intros [r ->]. rewrite has_term_app. intros H. apply orb_false_iff in H. tauto. Qed.

Lemma prefix_with_terminal_is_all o ops ph (g : @rg A) (v : list (ev A)) :
  prefix v (xview b w o ph g ops) -> has_term v = true -> v = xview b w o ph g ops.
Proof.
  destruct (xview_shape o ops ph g) as (l & t & -> & Hn & Ht). intros Hp Hv.
  destruct Ht as [->|[x ->]].
  - rewrite app_nil_r in Hp. rewrite (has_term_prefix v l Hp Hn) in Hv. discriminate.
  - destruct (prefix_snoc v l x Hp) as [->|Hp2]; [reflexivity|].
    rewrite (has_term_prefix v l Hp2 Hn) in Hv. discriminate.
Qed.
End Shape.

Lemma wellformed_no_term {A} (l : list (ev A)) : has_term l = false -> wellformed l = true.
Proof.
  induction l as [|x l IH]; [reflexivity|]. unfold has_term. cbn [existsb]. intros H.
  apply orb_false_iff in H. destruct H as [Hx Hl]. destruct x; [exact (IH Hl)|discriminate|discriminate].
Qed.

Lemma wellformed_prefix {A} (p r : list (ev A)) : wellformed (p ++ r) = true -> wellformed p = true.
Proof.
  induction p as [|x p IH]; intros H; [reflexivity|]. destruct x as [a|e|]; cbn [app wellformed] in *.
  - now apply IH.
  - destruct p; [reflexivity|discriminate].
  - destruct p; [reflexivity|discriminate].
Qed.

Lemma entitlement_prefix_wellformed {A} (b : Z) (w : option Z) (o : nat) (ops : list (@rop A)) (v : list (ev A)) :
  prefix v (xview b w o false rg_init ops) -> wellformed v = true.
Proof.
  intros [r Hr]. destruct (xview_shape b w o ops false rg_init) as (l & t & E & Hn & Ht).
  apply (wellformed_prefix _ r). rewrite <- Hr, E.
  destruct Ht as [->|[x ->]]; [rewrite app_nil_r; now apply wellformed_no_term|].
  rewrite wellformed_snoc, Hn, (wellformed_no_term l Hn). reflexivity.
Qed.

Section Wakeup.
Context {A : Type} (sync : bool) (react : nat -> nat -> list (@rop A)) (b : Z) (w : option Z).

Notation sstep := (sstep sync react).

Definition K2 (c : @scfg A) : Prop :=
  SInv b w c /\ J (sc_st c) (sc_obs c) (emb (sc_k c)) /\ Qs (sc_obs c) (sc_k c) /\ Ms sync (sc_st c) (sc_k c).

(* what no-lost-wake-up needs of the scheduler queue and of the ScheduledObserver queues *)
Definition JQs (c : @scfg A) : Prop :=
  J (sc_st c) (sc_obs c) (emb (sc_k c)) /\ Qs (sc_obs c) (sc_k c).

(* [JQs] is opened once the case analysis has reached a configuration: opened earlier, every case
   distinction would be made in five copies of the step *)
Local Ltac leaf :=
  lazymatch goal with |- JQs (SCfg _ _ _ _) => unfold JQs; cbn [sc_st sc_obs sc_k] | |- _ => idtac end.

Lemma J_drop (s : @rstate A) m i k pre :
  (forall o, i <> SIResched o) -> J s m (emb (i :: k)) -> J s m (emb (pre ++ k)).
Proof.
  intros Hi. apply J_k_mono, emb_mono. intros o H. apply in_push.
  apply (in_tail_ne _ i); [exact H|]. intros E. exact (Hi o (eq_sym E)).
Qed.

Lemma Qs_drop (m : @romap A) i k pre :
  (forall top o, i <> SIEnsure top o) -> Qs m (i :: k) -> Qs m (pre ++ k).
Proof.
  intros Hi. apply Qs_mono. intros top o H. apply in_push.
  apply (in_tail_ne _ i); [exact H|]. intros E. exact (Hi top o (eq_sym E)).
Qed.

Lemma JQs_op top p s m k l :
  SInv b w (SCfg s m (SIOp top p :: k) l) -> JQs (SCfg s m (SIOp top p :: k) l) ->
  JQs (sstep_op sync react top p s m k l).
Proof.
  intros I [HJ0 HQ0]. cbn [sc_st sc_obs sc_k] in HJ0, HQ0.
  assert (HJ : forall pre, J s m (emb (pre ++ k))) by (intros pre; refine (J_drop s m _ k pre _ HJ0); discriminate).
  assert (HQ : forall pre, Qs m (pre ++ k)) by (intros pre; refine (Qs_drop m _ k pre _ HQ0); discriminate).
  assert (Hsame : forall s' pre, r_sched s' = r_sched s -> r_fresh s' = r_fresh s ->
                  J s' m (emb (pre ++ k)) /\ Qs m (pre ++ k)).
  { intros s' pre E1 E2. split; [eapply J_same_sched; [exact E1|exact E2|apply HJ]|apply HQ]. }
  (* only RSub (a new ScheduledObserver goes through ensure_active), RUnsub (dispose) and a live RNext (the
     so_on pass, one SIEnsure pushed per observer) touch what J and Qs look at *)
  destruct p as [o|o|v|e| | |d]; cbn [sstep_op].
  + destruct (m o) as [os|] eqn:Hm; leaf; [now apply (Hsame s [])|].
    destruct (r_disposed s); leaf.
    * replace (map (SIOp false) (react o 0) ++ drain_if sync top (SIHandle o :: k))
        with ((map (SIOp false) (react o 0) ++ (if inl sync top then [SIDrain; SIHandle o] else [SIHandle o])) ++ k)
        by (unfold drain_if; destruct (inl sync top); rewrite <- app_assoc; reflexivity).
      split.
      -- apply (J_new_stopped s m _ o _ Hm); [reflexivity|reflexivity|apply HJ].
      -- apply Qs_upd_stopped; [reflexivity|apply HQ].
    * set (s2 := with_observers (r_observers (trim s) ++ [o]) (trim s)).
      fold (greet_so s2).
      destruct (greet_so_fields s2) as (F1 & F2 & F3 & F4).
      assert (Hgen : forall hd pre,
                J (fst (ensure_active o s2 (greet_so s2))) (rupd m o (ROState false false true hd 0 (snd (ensure_active o s2 (greet_so s2)))))
                  (emb (pre ++ k)) /\
                Qs (rupd m o (ROState false false true hd 0 (snd (ensure_active o s2 (greet_so s2))))) (pre ++ k)).
      { intros hd pre. split.
        - apply J_ensure_active; [eapply J_same_sched; [| |apply (HJ pre)]; reflexivity|exact F1|
            rewrite F4; discriminate| |reflexivity].
          intros _. split; [exact F3|]. rewrite F2. discriminate.
        - apply Qs_upd_owned; [|apply HQ]. cbn [r_so]. now apply ensure_active_owned. }
      destruct (ensure_active o s2 (greet_so s2)) as [s3 so3]. cbn [fst snd] in Hgen.
      destruct (inl sync top); leaf.
      -- exact (Hgen false [SIDrain; SIHandle o]).
      -- exact (Hgen true []).
  + destruct (m o) as [os|] eqn:Hm; leaf; [|now apply (Hsame s [])].
    destruct (r_handle os); leaf; [|now apply (Hsame s [])].
    pose proof (J_rado_dispose s m _ o os (HJ []) Hm) as HJ2. pose proof (rado_dispose_stopped s os o) as Hst.
    destruct (rado_dispose s os o) as [s' os']. cbn [fst snd] in *; leaf.
    split; [exact HJ2|]. apply Qs_upd_stopped; [exact Hst|apply (HQ [])].
  + destruct (r_disposed s); leaf; [now apply (Hsame s [])|].
    destruct (r_stopped s); leaf; [now apply (Hsame s [])|].
    set (s1 := trim (with_queue (r_queue s ++ [(r_clock s, v)]) s)).
    set (pre := map (SIEnsure top) (r_observers s)).
    assert (HJ1 : J s1 m (emb (pre ++ k))) by (eapply J_same_sched; [| |apply HJ]; reflexivity).
    assert (Hdom : forall o, In o (r_observers s) -> m o <> None) by exact (sinv_dom _ _ _ I).
    pose proof (J_so_on_pass (Next v) _ (r_observers s) s1 m HJ1) as HJ2.
    destruct (so_each_spec (fun _ s so => (s, so_on (Next v) so)) (fun so so' => so' = so_on (Next v) so)
                (fun _ s _ => same_core_refl s) (fun _ _ _ => eq_refl)
                (r_observers s) s1 m (sinv_nodup _ _ _ I) Hdom) as (_ & A2 & A3).
    destruct (so_each (fun _ s so => (s, so_on (Next v) so)) (r_observers s) s1 m) as [s2 m2].
    cbn [fst snd] in *; leaf. split; [exact HJ2|].
    intros o os2 Hm2 Hs Ha. destruct (in_dec Nat.eq_dec o (r_observers s)) as [Hi|Hni].
    * right. exists top. apply in_or_app. left. unfold pre. now apply in_map.
    * rewrite (A2 o Hni) in Hm2. exact (HQ pre o os2 Hm2 Hs Ha).
  + destruct (r_disposed s); leaf; [now apply (Hsame s [])|].
    destruct (r_stopped s); leaf; [now apply (Hsame s [])|].
    apply Hsame; reflexivity.
  + destruct (r_disposed s); leaf; [now apply (Hsame s [])|].
    destruct (r_stopped s); leaf; [now apply (Hsame s [])|].
    apply Hsame; reflexivity.
  + leaf. now apply (Hsame _ []).
  + destruct (d <? 0); leaf; now apply (Hsame _ []).
Qed.

Lemma JQs_step c : SInv b w c -> JQs c -> JQs (sstep c).
Proof.
  intros I [HJ0 HQ0]. destruct c as [s m k l]. cbn [sc_st sc_obs sc_k] in *.
  destruct k as [|i k]; [cbn; split; assumption|].
  (* every instruction but a re-scheduling keeps J, every one but an ensure keeps Qs, under what is pushed *)
  destruct i as [top p|top o|top o t|o n|o|o|o|]; cbn [ReplaySched.sstep sc_k sc_st sc_obs sc_rlog];
    try (assert (HJ : forall pre, J s m (emb (pre ++ k))) by (intros pre; refine (J_drop s m _ k pre _ HJ0); discriminate));
    try (assert (HQ : forall pre, Qs m (pre ++ k)) by (intros pre; refine (Qs_drop m _ k pre _ HQ0); discriminate)).
  - apply JQs_op; [exact I|split; assumption].
  - (* SIEnsure *)
    destruct (m o) as [os|] eqn:Hm; leaf.
    2:{ split; [apply (HJ [])|]. intros o2 os2 Hm2 Hs Ha. destruct (HQ0 o2 os2 Hm2 Hs Ha) as [H|[t2 H]]; [now left|].
        right. exists t2. apply (in_tail_ne _ _ _ H). intros [= _ ->]. congruence. }
    destruct (proj2 (HJ (if inl sync top then [SIDrain] else [])) o os Hm) as (F & C & Lv).
    rewrite (drain_if_app sync top k).
    pose proof (J_ensure_active s m _ o (r_so os) (set_so os (snd (ensure_active o s (r_so os))))
                  (HJ (if inl sync top then [SIDrain] else [])) F C Lv eq_refl) as HJ2.
    pose proof (ensure_active_owned o s (r_so os) F) as Hown.
    destruct (ensure_active o s (r_so os)) as [s' so']. cbn [fst snd] in *; leaf.
    split; [exact HJ2|]. apply (Qs_upd_owned_mono m (SIEnsure top o :: k)); [exact Hown|exact HQ0|].
    intros t2 o2 Hne H. apply in_push. apply (in_tail_ne _ _ _ H). intros [= _ E]. congruence.
  - (* SIOnEnsure *)
    destruct (m o) as [os|] eqn:Hm; leaf; [|split; [apply (HJ [])|apply (HQ [])]].
    destruct (proj2 (HJ (if inl sync top then [SIDrain] else [])) o os Hm) as (F & C & Lv).
    destruct (so_on_fields t (r_so os)) as (E1 & E2 & E3 & E4).
    rewrite (drain_if_app sync top k).
    assert (F' : so_faulted (so_on t (r_so os)) = false) by now rewrite E1.
    pose proof (J_ensure_active s m _ o (so_on t (r_so os)) (set_so os (snd (ensure_active o s (so_on t (r_so os)))))
                  (HJ (if inl sync top then [SIDrain] else [])) F') as HJ2.
    pose proof (ensure_active_owned o s (so_on t (r_so os)) F') as Hown.
    destruct (ensure_active o s (so_on t (r_so os))) as [s' so']. cbn [fst snd] in *; leaf.
    split; [apply HJ2; [now rewrite E4|now rewrite E3, E2|reflexivity]|].
    apply Qs_upd_owned; [exact Hown|apply HQ].
  - (* SIDeliver *)
    destruct (m o) as [os|] eqn:Hm; leaf; [|split; [apply (HJ [])|apply (HQ [])]].
    destruct (ra_stopped os) eqn:Hst; leaf; [split; [apply (HJ [])|apply (HQ [])]|].
    assert (Hgen : forall stop pre, J s (rupd m o (rcalled stop os)) (emb (pre ++ k)) /\
                                    Qs (rupd m o (rcalled stop os)) (pre ++ k)).
    { intros stop pre. split.
      - apply (J_upd_ado s m _ o os); [exact Hm|reflexivity| |apply HJ].
        cbn. intros H. apply orb_false_iff in H. tauto.
      - apply (Qs_upd_same m _ o os); [exact Hm|reflexivity|reflexivity| |apply HQ].
        cbn. intros H. apply orb_false_iff in H. tauto. }
    destruct n as [v|e|]; leaf.
    + apply Hgen.
    + change (SIAdoFin o :: k) with ([SIAdoFin o] ++ k). rewrite app_assoc. apply Hgen.
    + change (SIAdoFin o :: k) with ([SIAdoFin o] ++ k). rewrite app_assoc. apply Hgen.
  - (* SIAdoFin *)
    destruct (m o) as [os|] eqn:Hm; leaf; [|split; [apply (HJ [])|apply (HQ [])]].
    pose proof (J_rado_dispose s m _ o os (HJ []) Hm) as HJ2. pose proof (rado_dispose_stopped s os o) as Hst.
    destruct (rado_dispose s os o) as [s' os']. cbn [fst snd] in *; leaf.
    split; [exact HJ2|]. apply Qs_upd_stopped; [exact Hst|apply (HQ [])].
  - (* SIResched *)
    leaf. split; [apply J_resched; exact HJ0|apply (HQ [])].
  - (* SIHandle *)
    destruct (m o) as [os|] eqn:Hm; leaf; [|split; [apply (HJ [])|apply (HQ [])]].
    split.
    + apply (J_upd_ado s m _ o os); [exact Hm|reflexivity|cbn; tauto|apply (HJ [])].
    + apply (Qs_upd_same m _ o os); [exact Hm|reflexivity|reflexivity|cbn; tauto|apply (HQ [])].
  - (* SIDrain *)
    destruct (r_sched s) as [|[[it o] cancelled] rest] eqn:Es; leaf.
    { split; [apply (HJ [])|apply (HQ [])]. }
    destruct cancelled; leaf.
    { split; [|apply (HQ [SIDrain])]. apply (J_pop s m _ it o true rest _ Es HJ0); [auto|discriminate]. }
    destruct (m o) as [os|] eqn:Hm; leaf.
    2:{ split; [|apply (HQ [SIDrain])]. apply (J_pop s m _ it o false rest _ Es HJ0); [auto|].
        intros _ os Hm'. congruence. }
    destruct (so_queue (r_so os)) as [|n q] eqn:Hq; leaf.
    + set (so' := SoState (so_stopped (r_so os)) [] false (so_faulted (r_so os))
                          (ser_disposed (r_so os)) (ser_cur (r_so os))).
      split.
      * assert (HJm : J s (rupd m o (set_so os so')) (emb (SIDrain :: k))).
        { destruct HJ0 as [H1 H3]. split; [exact H1|]. intros o2 os2. unfold rupd.
          destruct (Nat.eqb o2 o) eqn:E; [|apply H3].
          apply Nat.eqb_eq in E. subst o2. intros [= <-]. destruct (H3 o os Hm) as (F & C & Lv).
          unfold so_J. cbn. split; [exact F|]. split; [exact C|]. intros Hs.
          destruct (Lv Hs) as [D _]. split; [exact D|discriminate]. }
        apply (J_pop s _ _ it o false rest _ Es HJm); [auto|].
        intros _ os2. rewrite rupd_same. intros [= <-] _ Ha. discriminate.
      * apply Qs_upd_owned; [reflexivity|apply (HQ [SIDrain])].
    + set (so' := SoState (so_stopped (r_so os)) q (so_acquired (r_so os)) (so_faulted (r_so os))
                          (ser_disposed (r_so os)) (ser_cur (r_so os))).
      split.
      * assert (HJm : J s (rupd m o (set_so os so')) (emb (SIDrain :: k))).
        { apply (J_upd_so s m _ o os so' Hm); try reflexivity. exact HJ0. }
        apply (J_pop s _ _ it o false rest _ Es HJm).
        -- intros o2 H. cbn. right. exact H.
        -- intros _ _ _ _ _. cbn. now left.
      * intros o2 os2. unfold rupd. destruct (Nat.eqb o2 o) eqn:E.
        -- apply Nat.eqb_eq in E. subst o2. intros [= <-] Hs Ha. cbn in Ha |- *.
           destruct (HQ0 o os Hm Hs Ha) as [H|[t2 H]]; [rewrite H in Hq; discriminate|].
           right. exists t2. right. right. right. apply (in_tail_ne _ _ _ H). discriminate.
        -- intros Hm2 Hs Ha. destruct (HQ0 o2 os2 Hm2 Hs Ha) as [H|[t2 H]]; [now left|].
           right. exists t2. right. right. right. apply (in_tail_ne _ _ _ H). discriminate.
Qed.

Lemma JQs_run n c : SInv b w c -> JQs c -> JQs (srun sync react n c).
Proof.
  intros I H.
  apply (srun_ind sync react (fun c => SInv b w c /\ JQs c)); [|auto].
  intros c' (I' & H'). split; [now apply sstep_inv|now apply JQs_step].
Qed.

Theorem K2_step c : K2 c -> K2 (sstep c).
Proof.
  intros (I & HJ & HQ & HM).
  split; [now apply sstep_inv|]. destruct (JQs_step c I (conj HJ HQ)) as [HJ' HQ'].
  split; [exact HJ'|]. split; [exact HQ'|now apply Ms_step].
Qed.

Lemma K2_run n c : K2 c -> K2 (srun sync react n c).
Proof. apply srun_ind. exact K2_step. Qed.

(* no lost wake-up, read off the invariant: when nothing is pending an observer that has not
   unsubscribed holds exactly its entitlement *)
Lemma K2_complete c o os :
  K2 c -> sc_k c = [] -> sc_obs c o = Some os ->
  (ra_stopped os = false \/ has_term (rview o (slog_of c)) = true) ->
  rview o (slog_of c) = xview b w o false rg_init (ops_of (slog_of c)).
Proof.
  intros (I & HJ & HQ & [_ HM]) Hk Hm Hcase.
  destruct (ra_stopped os) eqn:Hs.
  - destruct Hcase as [|Ht]; [discriminate|].
    apply prefix_with_terminal_is_all; [|exact Ht].
    exact (SInv_prefix b w c o I).
  - rewrite <- (SInv_nothing_lost b w c o os I Hm Hs), Hk. cbn [sinflight spend app].
    assert (Hq : so_queue (r_so os) = []).
    { destruct (so_acquired (r_so os)) eqn:Ha.
      - exfalso. destruct (proj2 HJ o os Hm) as (_ & _ & Lv). destruct (Lv Hs) as [_ R].
        destruct (R Ha) as [[i Hi]|Hin].
        + assert (Hne : r_sched (sc_st c) <> []) by (intros E; rewrite E in Hi; destruct Hi).
          specialize (HM Hne). rewrite Hk in HM. destruct HM.
        + rewrite Hk in Hin. destruct Hin.
      - destruct (HQ o os Hm Hs Ha) as [H|[t H]]; [exact H|]. rewrite Hk in H. destruct H. }
    now rewrite Hq, !app_nil_r.
Qed.

End Wakeup.

Section Engine.
Context {A : Type} (react : nat -> nat -> list (@rop A)) (b : Z) (w : option Z).
Notation rstep := (rstep react).

(* the combined invariant of the engine of Subjects/Replay.v *)
Definition K (c : @rcfg A) : Prop :=
  Inv b w c /\ J (rc_st c) (rc_obs c) (rc_k c) /\ Qq (rc_obs c).

(* [K c] is the invariant of both modes on the configuration c stands for: nothing is waiting for an
   ensure_active there, and [emb] keeps the re-schedulings *)
Theorem K_step c : K c -> K (rstep c).
Proof.
  intros (I & HJ & HQ). split; [now apply step_inv|].
  destruct (rstep_sim react c) as [n E].
  destruct (JQs_run false react b w n (upc c)) as [HJ' HQ'].
  - now apply Inv_SInv.
  - split; [eapply J_k_mono; [|exact HJ]; intros o H; exact (proj2 (in_emb_up o _) H)|].
    intros o os Hm Hs Ha. left. exact (HQ o os Hm Hs Ha).
  - rewrite <- E in HJ', HQ'. split.
    + eapply J_k_mono; [|exact HJ']. intros o H. exact (proj1 (in_emb_up o _) H).
    + intros o os Hm Hs Ha. destruct (HQ' o os Hm Hs Ha) as [H|[top H]]; [exact H|].
      apply in_map_iff in H. destruct H as [i [Hi _]]. destruct i; discriminate.
Qed.

End Engine.

Lemma K2_start {A} (sync : bool) (bs w : option Z) (k : list (@sinstr A)) :
  (forall o, sinflight o k = [] /\ spend o k = []) -> guarded sync k ->
  K2 sync (bufsize_of bs) w (SCfg (rinit_state bs w) (fun _ => None) k []).
Proof.
  intros Hk Hg. split; [now apply SInv_start|]. split; [|split].
  - split; [split; cbn; [constructor|intros i []]|]. intros o os H. discriminate.
  - intros o os H. discriminate.
  - split; [exact Hg|]. cbn. intros H. now contradiction H.
Qed.

(* the driver of Subjects/Replay.v drains after every call *)
Lemma K2_rinit {A} (bs w : option Z) (top : list (@rop A)) :
  K2 false (bufsize_of bs) w (upc (rinit_cfg bs w top)).
Proof.
  apply K2_start; cbn [rinit_cfg rc_k].
  - intros o. rewrite sinflight_up, spend_up. split; [|reflexivity]. induction top as [|p t IH]; [reflexivity|exact IH].
  - induction top as [|p t IH]; [exact I|].
    cbn [flat_map app map up guarded]. split; [intros _; now left|]. split; [discriminate|exact IH].
Qed.

(* C22, completeness, arbitrary call trees: when a run has finished (every
   top-level call made and the scheduler drained after each), an observer that
   has not unsubscribed -- its wrapper is still live, or it was stopped by a
   terminal notification -- has received EXACTLY its entitlement: the retained
   values at its subscription, the terminal if any, and every later notification *)
Theorem replay_complete {A} (react : nat -> nat -> list (@rop A)) (bs w : option Z) (top : list (@rop A))
        (fuel o : nat) os :
  let c := rrun react fuel (rinit_cfg bs w top) in
  rc_k c = [] -> rc_obs c o = Some os ->
  (ra_stopped os = false \/ has_term (rview o (rlog_of c)) = true) ->
  rview o (rlog_of c) = xview (bufsize_of bs) w o false rg_init (ops_of (rlog_of c)).
Proof.
  cbv zeta. intros Hk Hm Hcase.
  destruct (rrun_sim react fuel (rinit_cfg bs w top)) as [n E].
  apply (K2_complete false (bufsize_of bs) w (upc (rrun react fuel (rinit_cfg bs w top))) o os);
    [|cbn [upc sc_k]; now rewrite Hk|exact Hm|exact Hcase].
  rewrite E. apply K2_run, K2_rinit.
Qed.
