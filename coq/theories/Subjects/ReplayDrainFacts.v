(* C22 with the scheduler drained EXPLICITLY (Subjects/ReplaySched.v, [xinit_cfg]): the
   top level is a program of calls and drains, so calls can be made while replay
   items are still queued on the scheduler.  The invariants [SInv] (ReplayTreeFacts.v) and [K2] (ReplayLiveFacts.v) are
   invariants of the ENGINE (preserved by every [sstep]); here they are established for
   the initial configuration of an arbitrary program, which gives the statements that
   Props/C22.v cites: [xsched_prefix], [xsched_nothing_lost], [xsched_complete],
   [xsched_wellformed].  The two fixed disciplines of [sinit_cfg] are instances
   ([sinit_cfg_is_xinit]). *)
From RxVerif Require Import Base.Prelude Ops.Machine Subjects.Replay
  Subjects.ReplaySpec Subjects.ReplaySched Subjects.SubjectFacts Subjects.ReplayFacts
  Subjects.ReplayTreeFacts Subjects.ReplayLiveFacts Subjects.ReplaySchedFacts.

(* the two fixed drain disciplines of sinit_cfg are programs with explicit drains *)
Definition xprog_of {A} (sync : bool) (top : list (@rop A)) : list (xtop A) :=
  if sync then map XOp top else flat_map (fun p => [XOp p; XDrain]) top.

Lemma sinit_cfg_is_xinit {A} (sync : bool) (bs w : option Z) (top : list (@rop A)) :
  sinit_cfg sync bs w top = xinit_cfg bs w (xprog_of sync top).
Proof.
  unfold sinit_cfg, xinit_cfg, xprog_of. f_equal. destruct sync.
  - rewrite map_map. reflexivity.
  - induction top as [|p t IH]; [reflexivity|]. cbn [flat_map app map xinstr]. now rewrite IH.
Qed.

Lemma xprog_quiet {A} (prog : list (xtop A)) o :
  sinflight o (map xinstr prog) = [] /\ spend o (map xinstr prog) = [].
Proof. induction prog as [|x t IH]; [split; reflexivity|]. destruct x; cbn; exact IH. Qed.

Lemma SInv_xinit {A} (bs w : option Z) (prog : list (xtop A)) :
  SInv (bufsize_of bs) w (xinit_cfg bs w prog).
Proof. apply SInv_start, xprog_quiet. Qed.

Lemma SInv_xrun {A} (sync : bool) (react : nat -> nat -> list (@rop A)) (bs w : option Z)
      (prog : list (xtop A)) (fuel : nat) :
  SInv (bufsize_of bs) w (srun sync react fuel (xinit_cfg bs w prog)).
Proof. apply SInv_run. apply SInv_xinit. Qed.

Theorem xsched_prefix {A} (sync : bool) (react : nat -> nat -> list (@rop A)) (bs w : option Z)
        (prog : list (xtop A)) (fuel o : nat) :
  let c := srun sync react fuel (xinit_cfg bs w prog) in
  prefix (rview o (slog_of c)) (xview (bufsize_of bs) w o false rg_init (ops_of (slog_of c))).
Proof. exact (SInv_prefix (bufsize_of bs) w _ o (SInv_xrun sync react bs w prog fuel)). Qed.

Theorem xsched_nothing_lost {A} (sync : bool) (react : nat -> nat -> list (@rop A)) (bs w : option Z)
        (prog : list (xtop A)) (fuel o : nat) os :
  let c := srun sync react fuel (xinit_cfg bs w prog) in
  sc_obs c o = Some os -> ra_stopped os = false ->
  rview o (slog_of c) ++ sinflight o (sc_k c) ++ so_queue (r_so os) ++ spend o (sc_k c)
  = xview (bufsize_of bs) w o false rg_init (ops_of (slog_of c)).
Proof. exact (SInv_nothing_lost (bufsize_of bs) w _ o os (SInv_xrun sync react bs w prog fuel)). Qed.

(* every call of the program has a drain somewhere behind it *)
Definition is_xdrain {A} (x : xtop A) : bool := match x with XDrain => true | _ => false end.
Fixpoint xclosed {A} (prog : list (xtop A)) : bool :=
  match prog with
  | [] => true
  | XOp _ :: r => existsb is_xdrain r && xclosed r
  | XDrain :: r => xclosed r
  end.

Lemma xdrain_in {A} (r : list (xtop A)) : existsb is_xdrain r = true -> In SIDrain (map xinstr r).
Proof.
  intros H. apply existsb_exists in H. destruct H as [x [Hin Hx]]. destruct x; [discriminate|].
  apply in_map_iff. exists XDrain. split; [reflexivity|exact Hin].
Qed.

Lemma K2_xinit {A} (sync : bool) (bs w : option Z) (prog : list (xtop A)) :
  (sync = false -> xclosed prog = true) ->
  K2 sync (bufsize_of bs) w (xinit_cfg bs w prog).
Proof.
  intros Hc. apply K2_start; [apply xprog_quiet|]. destruct sync.
  - clear Hc. induction prog as [|x t IH]; cbn; [exact I|]. split; [|exact IH]. destruct x; discriminate.
  - specialize (Hc eq_refl). induction prog as [|x t IH]; cbn; [exact I|]. destruct x as [p|].
    + cbn [xclosed] in Hc. apply andb_prop in Hc. destruct Hc as [Hd Hc]. split; [|exact (IH Hc)].
      intros _. now apply xdrain_in.
    + split; [discriminate|exact (IH Hc)].
Qed.

(* the virtual-time discipline of [sinit_cfg] drains after every call *)
Lemma xclosed_xprog_of {A} (top : list (@rop A)) : xclosed (xprog_of false top) = true.
Proof. induction top as [|p t IH]; [reflexivity|]. cbn. exact IH. Qed.

Theorem xsched_complete {A} (sync : bool) (react : nat -> nat -> list (@rop A)) (bs w : option Z)
        (prog : list (xtop A)) (fuel o : nat) os :
  (sync = false -> xclosed prog = true) ->
  let c := srun sync react fuel (xinit_cfg bs w prog) in
  sc_k c = [] -> sc_obs c o = Some os ->
  (ra_stopped os = false \/ has_term (rview o (slog_of c)) = true) ->
  rview o (slog_of c) = xview (bufsize_of bs) w o false rg_init (ops_of (slog_of c)).
Proof. intros Hcl. apply (K2_complete sync). apply K2_run. now apply K2_xinit. Qed.

Theorem xsched_wellformed {A} (sync : bool) (react : nat -> nat -> list (@rop A)) (bs w : option Z)
        (prog : list (xtop A)) (fuel o : nat) :
  wellformed (rview o (slog_of (srun sync react fuel (xinit_cfg bs w prog)))) = true.
Proof. exact (entitlement_prefix_wellformed _ _ _ _ _ (xsched_prefix sync react bs w prog fuel o)). Qed.
