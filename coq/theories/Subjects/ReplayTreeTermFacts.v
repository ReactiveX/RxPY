(* C22: runs of call TREES terminate.  An observer's reaction to its k-th callback is
   [react o k]; the wrapper's call counter [r_calls] grows at every delivery and an
   observer is never re-created, so every entry (o, k) of the reaction function is used
   at most once in a run.  Hence, when the reaction function has FINITE SUPPORT
   (react o k = [] for k >= K, subscriptions made by reactions stay below B -- true of
   every reaction TABLE, [rreact_tbl]) the run of every program finishes.
   Measure: the measure of ReplayTermFacts (weighted pending instructions + queued
   ScheduledObserver items + scheduler queue) + (weight of a call) * remaining reaction
   budget, where the budget is the number of operations in the entries not yet used.
   For an arbitrary reaction FUNCTION termination fails: [echo_diverges]. *)
From RxVerif Require Import Base.Prelude Ops.Machine Subjects.Replay
  Subjects.ReplaySpec Subjects.ReplaySched Subjects.SubjectFacts Subjects.ReplayFacts Subjects.ReplayTreeFacts
  Subjects.ReplayDrainFacts Subjects.ReplayTermFacts.
Require Import Lia.
Local Open Scope nat_scope.

Section TreeTerm.
Context {A : Type} (sync : bool) (react : nat -> nat -> list (@rop A)) (B K : nat).
Notation step := (sstep sync react).
Notation sinstr := (@sinstr A).

Definition finite_support : Prop :=
  (forall o k, o < B -> K <= k -> react o k = []) /\
  (forall o k o', o < B -> In (RSub o') (react o k) -> o' < B).

Context (HS : finite_support).

(* the remaining reaction budget: the operations in the entries (o, k) with k >= the call counter of o *)
Definition calls (m : @romap A) (o : nat) : nat :=
  match m o with Some os => r_calls os | None => 0 end.
Fixpoint bud (o c n : nat) : nat :=
  match n with O => 0 | S k => (if c <=? k then length (react o k) else 0) + bud o c k end.
Fixpoint rem (m : @romap A) (n : nat) : nat :=
  match n with O => 0 | S b => bud b (calls m b) K + rem m b end.

Lemma bud_zero o c : forall n, n <= c -> bud o c n = 0.
Proof.
  induction n as [|k IH]; intros H; [reflexivity|]. cbn [bud].
  destruct (c <=? k) eqn:E; [apply Nat.leb_le in E; lia|]. rewrite IH by lia. reflexivity.
Qed.
Lemma bud_next o c : forall n, c < n -> bud o c n = length (react o c) + bud o (S c) n.
Proof.
  induction n as [|k IH]; intros H; [lia|]. cbn [bud].
  destruct (Nat.eq_dec c k) as [->|N].
  - rewrite Nat.leb_refl. destruct (S k <=? k) eqn:E; [apply Nat.leb_le in E; lia|].
    rewrite !bud_zero by lia. lia.
  - rewrite IH by lia.
    destruct (c <=? k) eqn:E1; [|apply Nat.leb_gt in E1; lia].
    destruct (S c <=? k) eqn:E2; [|apply Nat.leb_gt in E2; lia]. lia.
Qed.
Lemma bud_step o c : o < B -> bud o c K = length (react o c) + bud o (S c) K.
Proof.
  intros Ho. destruct (Nat.lt_ge_cases c K) as [H|H]; [apply bud_next; exact H|].
  rewrite !bud_zero by lia. rewrite (proj1 HS o c Ho H). reflexivity.
Qed.

Lemma calls_upd_same m o x : calls (rupd m o x) o = r_calls x.
Proof. unfold calls, rupd. now rewrite Nat.eqb_refl. Qed.
Lemma calls_upd_other m o x o' : o' <> o -> calls (rupd m o x) o' = calls m o'.
Proof. intros H. unfold calls, rupd. destruct (Nat.eqb o' o) eqn:E; [apply Nat.eqb_eq in E; contradiction|reflexivity]. Qed.

Lemma rem_ext m m' : forall n, (forall o, o < n -> calls m' o = calls m o) -> rem m' n = rem m n.
Proof.
  induction n as [|b IH]; intros H; [reflexivity|]. cbn [rem]. rewrite H by lia. rewrite IH; [reflexivity|].
  intros o Ho. apply H. lia.
Qed.
Lemma rem_upd_same m o os x n : m o = Some os -> r_calls x = r_calls os -> rem (rupd m o x) n = rem m n.
Proof.
  intros Em E. apply rem_ext. intros o' _. destruct (Nat.eq_dec o' o) as [->|N].
  - rewrite calls_upd_same. unfold calls. rewrite Em. exact E.
  - apply calls_upd_other. exact N.
Qed.
Lemma rem_upd_ge m o x : forall n, n <= o -> rem (rupd m o x) n = rem m n.
Proof. intros n H. apply rem_ext. intros o' Ho. apply calls_upd_other. lia. Qed.
Lemma rem_upd_lt m o x : forall n, o < n ->
  rem (rupd m o x) n + bud o (calls m o) K = rem m n + bud o (r_calls x) K.
Proof.
  induction n as [|b IH]; intros H; [lia|]. cbn [rem].
  destruct (Nat.eq_dec o b) as [->|N].
  - rewrite calls_upd_same, rem_upd_ge by lia. lia.
  - rewrite calls_upd_other by congruence. specialize (IH ltac:(lia)). lia.
Qed.

(* one more callback of observer o uses up the entry (o, r_calls) *)
Lemma rem_called m o os stop : m o = Some os -> o < B ->
  rem m B = length (react o (r_calls os)) + rem (rupd m o (rcalled stop os)) B.
Proof.
  intros Em Ho. pose proof (rem_upd_lt m o (rcalled stop os) B Ho) as H.
  unfold calls at 1 in H. rewrite Em in H. cbn [rcalled r_calls] in H.
  rewrite (bud_step o (r_calls os) Ho) in H. lia.
Qed.
Lemma rem_first m o : m o = None -> o < B ->
  rem m B = length (react o 0) + rem (rupd m o (rcalled true fresh_rostate)) B.
Proof.
  intros Em Ho. pose proof (rem_upd_lt m o (rcalled true fresh_rostate) B Ho) as H.
  unfold calls at 1 in H. rewrite Em in H. cbn [rcalled fresh_rostate r_calls] in H.
  rewrite (bud_step o 0 Ho) in H. lia.
Qed.
Lemma rem_new m o x : m o = None -> r_calls x = 0 -> rem (rupd m o x) B = rem m B.
Proof.
  intros Em E. apply rem_ext. intros o' _. destruct (Nat.eq_dec o' o) as [->|N].
  - rewrite calls_upd_same. unfold calls. rewrite Em. exact E.
  - apply calls_upd_other. exact N.
Qed.

Lemma so_each_calls (n : ev A) : forall snap (s : @rstate A) m o,
  calls (snd (so_each (fun _ s so => (s, so_on n so)) snap s m)) o = calls m o.
Proof.
  unfold so_each. induction snap as [|x snap IH]; intros s m o; cbn [fold_left snd]; [reflexivity|].
  destruct (m x) as [os|] eqn:Em; [|apply IH].
  rewrite IH. destruct (Nat.eq_dec o x) as [->|N].
  - rewrite calls_upd_same. unfold calls. rewrite Em. reflexivity.
  - apply calls_upd_other. exact N.
Qed.

Lemma rado_dispose_calls (s : @rstate A) os o : r_calls (snd (rado_dispose s os o)) = r_calls os.
Proof.
  unfold rado_dispose. cbn [rsad_disposed rsad_cur r_so r_handle r_calls].
  destruct (rsad_disposed os); [reflexivity|]. destruct (rsad_cur os); [|reflexivity].
  unfold removable_dispose. cbn [r_so]. destruct (so_dispose s (r_so os)) as [s1 so1]. reflexivity.
Qed.

Lemma kw_ops L top (r : list (@rop A)) : kw L (map (SIOp top) r) = (7 * L + 9) * length r.
Proof. induction r as [|x r IH]; cbn [map kw length wi]; [lia|]. rewrite IH. lia. Qed.
Lemma nops_ops top (r : list (@rop A)) : nops (map (SIOp top) r) = length r.
Proof. induction r as [|x r IH]; cbn [map nops length isop]; [reflexivity|]. rewrite IH. reflexivity. Qed.
Lemma in_ops_sub top (r : list (@rop A)) t o : In (SIOp t (RSub o)) (map (SIOp top) r) -> In (RSub o) r.
Proof. intros H. apply in_map_iff in H. destruct H as [x [E H]]. inversion E; subst. exact H. Qed.

(* the replay handed to a new subscriber: at most the retained values and one terminal *)
Lemma greet_so_len (s : @rstate A) : length (so_queue (greet_so s)) <= S (length (r_queue s)).
Proof.
  pose proof (replay_fold_len (r_queue s) fresh_so) as Hf. cbn [fresh_so so_queue length] in Hf. unfold greet_so.
  set (so1 := fold_left (fun so it => so_on (Next (snd it)) so) (r_queue s) fresh_so) in *.
  pose proof (so_on_len Done so1). pose proof (fun e => so_on_len (Err e) so1) as He.
  destruct (r_exception s) as [e|]; [specialize (He e)|destruct (r_stopped s)]; lia.
Qed.

Definition tmu (L : nat) (c : @scfg A) : nat := mu L B c + (7 * L + 9) * rem (sc_obs c) B.

(* L bounds what one call can put on the continuation: one instruction per registered observer,
   one queued notification per retained value; calls still to come (pending or in the unused part
   of the reaction function) each add at most one observer and one retained value *)
Record TInv (L : nat) (c : @scfg A) : Prop := {
  t_obs : length (r_observers (sc_st c)) + nops (sc_k c) + rem (sc_obs c) B <= L;
  t_que : length (r_queue (sc_st c)) + nops (sc_k c) + rem (sc_obs c) B <= L;
  t_dom : forall o, sc_obs c o <> None -> o < B;
  t_sub : forall top o, In (SIOp top (RSub o)) (sc_k c) -> o < B }.

Lemma finish2 L s m i k l s' (m' : @romap A) k' l' :
  TInv L (SCfg s m (i :: k) l) ->
  length (r_observers s') + nops k' + rem m' B <= length (r_observers s) + nops (i :: k) + rem m B ->
  length (r_queue s') + nops k' + rem m' B <= length (r_queue s) + nops (i :: k) + rem m B ->
  (forall o, m' o <> None -> o < B) ->
  (forall t o, In (SIOp t (RSub o)) k' -> o < B) ->
  kw L k' + 4 * tsum m' B + length (r_sched s') + (7 * L + 9) * rem m' B
    < kw L (i :: k) + 4 * tsum m B + length (r_sched s) + (7 * L + 9) * rem m B ->
  TInv L (SCfg s' m' k' l') /\ tmu L (SCfg s' m' k' l') < tmu L (SCfg s m (i :: k) l).
Proof.
  intros [Iobs Ique Idom Isub] G1 G2 G3 G4 G5. cbn [sc_st sc_k sc_obs] in *. split.
  - constructor; cbn [sc_st sc_k sc_obs]; [lia|lia|exact G3|exact G4].
  - unfold tmu, mu. cbn [sc_st sc_k sc_obs]. lia.
Qed.

(* a callback: the reaction [r] of an entry not used so far leaves the budget and is injected in front of [tl] *)
Lemma finish_react L s m i k l (m' : @romap A) (r : list (@rop A)) tl l' :
  TInv L (SCfg s m (i :: k) l) ->
  rem m B = length r + rem m' B ->
  nops tl <= nops (i :: k) ->
  kw L tl + 4 * tsum m' B < kw L (i :: k) + 4 * tsum m B ->
  (forall o, m' o <> None -> o < B) ->
  (forall o, In (RSub o) r -> o < B) ->
  (forall t o, In (SIOp t (RSub o)) tl -> In (SIOp t (RSub o)) (i :: k)) ->
  TInv L (SCfg s m' (map (SIOp false) r ++ tl) l') /\
  tmu L (SCfg s m' (map (SIOp false) r ++ tl) l') < tmu L (SCfg s m (i :: k) l).
Proof.
  intros HI Hr Hn Hk Hd Hsr Hst.
  apply (finish2 L _ _ _ _ _ _ _ _ _ HI); rewrite ?nops_app, ?kw_app, ?nops_ops, ?kw_ops, ?Hr; try lia; [exact Hd|].
  intros t o Hin. apply in_app_or in Hin. destruct Hin as [Hin|Hin].
  - apply in_ops_sub in Hin. exact (Hsr o Hin).
  - exact (t_sub _ _ HI t o (Hst t o Hin)).
Qed.

(* the budget is untouched *)
Lemma finish_same L s m i k l s' (m' : @romap A) k' l' :
  TInv L (SCfg s m (i :: k) l) ->
  rem m' B = rem m B ->
  length (r_observers s') + nops k' <= length (r_observers s) + nops (i :: k) ->
  length (r_queue s') + nops k' <= length (r_queue s) + nops (i :: k) ->
  (forall o, m' o <> None -> o < B) ->
  (forall t o, In (SIOp t (RSub o)) k' -> In (SIOp t (RSub o)) (i :: k)) ->
  kw L k' + 4 * tsum m' B + length (r_sched s') < kw L (i :: k) + 4 * tsum m B + length (r_sched s) ->
  TInv L (SCfg s' m' k' l') /\ tmu L (SCfg s' m' k' l') < tmu L (SCfg s m (i :: k) l).
Proof.
  intros HI E G1 G2 G3 G4 G5. apply (finish2 L _ _ _ _ _ _ _ _ _ HI); rewrite ?E; try lia; [exact G3|].
  intros t o Hin. destruct HI as [_ _ _ H4]. exact (H4 t o (G4 t o Hin)).
Qed.

(* the instruction is consumed and only the subject state moves, nothing in it growing *)
Lemma finish_pop L s m i k l s' l' :
  TInv L (SCfg s m (i :: k) l) ->
  length (r_observers s') <= length (r_observers s) -> length (r_queue s') <= length (r_queue s) ->
  length (r_sched s') <= length (r_sched s) ->
  TInv L (SCfg s' m k l') /\ tmu L (SCfg s' m k l') < tmu L (SCfg s m (i :: k) l).
Proof.
  intros HI G1 G2 G3. pose proof (wi_pos L i).
  apply (finish_same L _ _ _ _ _ _ _ _ _ HI eq_refl); cbn [nops kw]; try lia; [exact (t_dom _ _ HI)|apply in_tail_sub].
Qed.

Lemma finish_skip L s m i k l l' :
  TInv L (SCfg s m (i :: k) l) ->
  TInv L (SCfg s m k l') /\ tmu L (SCfg s m k l') < tmu L (SCfg s m (i :: k) l).
Proof. intros HI. now apply finish_pop. Qed.

(* ... and the entry of observer o is replaced by one with the same call count and no longer queue *)
Lemma finish_upd L s m i k l s' l' o os os' :
  TInv L (SCfg s m (i :: k) l) -> m o = Some os ->
  r_calls os' = r_calls os -> length (so_queue (r_so os')) = length (so_queue (r_so os)) ->
  length (r_observers s') <= length (r_observers s) -> length (r_queue s') <= length (r_queue s) ->
  length (r_sched s') <= length (r_sched s) ->
  TInv L (SCfg s' (rupd m o os') k l') /\ tmu L (SCfg s' (rupd m o os') k l') < tmu L (SCfg s m (i :: k) l).
Proof.
  intros HI Em Ec Eq G1 G2 G3. pose proof (wi_pos L i).
  pose proof (tsum_upd_same_len m o os os' B Em Eq).
  apply (finish_same L _ _ _ _ _ _ _ _ _ HI (rem_upd_same m o os os' B Em Ec)); cbn [nops kw]; try lia;
    [apply (dom_upd_some m o os); [exact (t_dom _ _ HI)|exact Em]|apply in_tail_sub].
Qed.

Lemma step_op_decreases L top p s m k l :
  TInv L (SCfg s m (SIOp top p :: k) l) ->
  TInv L (sstep_op sync react top p s m k l) /\
  tmu L (sstep_op sync react top p s m k l) < tmu L (SCfg s m (SIOp top p :: k) l).
Proof.
  intros HI. pose proof HI as [Iobs Ique Idom Isub]. cbn [sc_st sc_k sc_obs nops isop] in Iobs, Ique, Idom, Isub.
  (* on_error / on_completed of a live subject: one SIOnEnsure per registered observer *)
  assert (Hterm : forall s1 t l', length (r_queue s1) <= length (r_queue s) -> r_observers s1 = [] ->
            r_sched s1 = r_sched s ->
            let c' := SCfg s1 m (map (fun o => SIOnEnsure top o t) (r_observers s) ++ k) l' in
            TInv L c' /\ tmu L c' < tmu L (SCfg s m (SIOp top p :: k) l)).
  { intros s1 t l' T1 T2 T3. apply (finish_same L _ _ _ _ _ _ _ _ _ HI eq_refl);
      rewrite ?nops_app, ?kw_app, ?nops_onensures, ?kw_onensures, ?T2, ?T3; cbn [nops isop kw wi length];
      try lia; [exact Idom|].
    apply in_pre_sub. intros j Hj. apply in_map_iff in Hj. destruct Hj as [x [<- _]]. reflexivity. }
  destruct p as [o|o|v|e| | |d]; cbn [sstep_op].
  - (* RSub *)
    destruct (m o) as [os|] eqn:Em; [now apply finish_skip|].
    assert (Ho : o < B) by (apply (Isub top o); left; reflexivity).
    assert (Hq0 : qlen m o = 0) by (unfold qlen; now rewrite Em).
    destruct (r_disposed s).
    { (* fail(): the first callback of o, its reaction is injected *)
      pose proof (tsum_upd_lt m o (rcalled true fresh_rostate) B Ho) as Ht. cbn in Ht.
      pose proof (kw_drain_if sync L top (SIHandle o :: k)) as Hk. cbn [kw wi] in Hk.
      apply (finish_react L _ _ _ _ _ _ _ _ _ HI (rem_first m o Em Ho));
        rewrite ?nops_drain_if; cbn [nops isop kw wi]; try lia;
        [apply dom_upd; assumption|exact (fun o' => proj2 HS o 0 o' Ho)|].
      intros t o0 Hin. apply in_drain_if in Hin. destruct Hin as [Hin|[Hin|Hin]]; try discriminate Hin.
      right. exact Hin. }
    destruct (trim_facts s) as [T1 [T2 T3]]. cbv zeta.
    set (s2 := with_observers (r_observers (trim s) ++ [o]) (trim s)).
    fold (greet_so s2).
    pose proof (greet_so_len s2) as Hso2.
    assert (Hq2 : length (r_queue s2) <= length (r_queue s)) by exact T1.
    destruct (ensure_active_facts o s2 (greet_so s2)) as [E1 [E2 [E3 E4]]].
    destruct (ensure_active o s2 (greet_so s2)) as [s3 so3]. cbn [fst snd] in *. rewrite <- E1 in Hso2.
    assert (Hob : length (r_observers s3) = S (length (r_observers s))).
    { rewrite E3. unfold s2. cbn [with_observers r_observers]. rewrite app_length, T2. cbn [length]. lia. }
    assert (Hqu : length (r_queue s3) <= length (r_queue s)) by (rewrite E4; exact T1).
    assert (Hsc : length (r_sched s3) <= S (length (r_sched s))).
    { etransitivity; [exact E2|]. unfold s2. cbn [with_observers r_sched]. rewrite T3. lia. }
    assert (Hnew : forall hd k', kw L k' <= 2 + kw L k -> nops k' = nops k ->
              (forall t o0, In (SIOp t (RSub o0)) k' -> In (SIOp t (RSub (A:=A) o0)) k) ->
              let c' := SCfg s3 (rupd m o (ROState false false true hd 0 so3)) k' (REOp (RSub o) :: l) in
              TInv L c' /\ tmu L c' < tmu L (SCfg s m (SIOp top (RSub o) :: k) l)).
    { intros hd k' Hkw Hno Hin.
      pose proof (tsum_upd_lt m o (ROState false false true hd 0 so3) B Ho) as Ht. cbn [r_so] in Ht.
      apply (finish_same L _ _ _ _ _ _ _ _ _ HI (rem_new m o (ROState false false true hd 0 so3) Em eq_refl)); cbn [nops isop kw wi]; try lia;
        [apply dom_upd; assumption|]. intros t o0 Hi. right. exact (Hin t o0 Hi). }
    destruct (inl sync top).
    + apply Hnew; [cbn [kw wi]; lia|reflexivity|]. intros t o0 [Hin|[Hin|Hin]]; try discriminate Hin. exact Hin.
    + apply Hnew; [lia|reflexivity|auto].
  - (* RUnsub *)
    destruct (m o) as [os|] eqn:Em; [|now apply finish_skip].
    destruct (r_handle os); [|now apply finish_skip].
    destruct (rado_dispose_facts s os o) as [R1 [R2 [R3 R4]]].
    pose proof (rado_dispose_calls s os o) as Rc.
    destruct (rado_dispose s os o) as [s' os']. cbn [fst snd] in *.
    apply (finish_upd L s m _ k l s' _ o os os' HI Em Rc); [congruence|exact R3|rewrite R4|rewrite R2]; reflexivity.
  - (* RNext *)
    destruct (r_disposed s); [now apply finish_skip|]. destruct (r_stopped s); [now apply finish_skip|].
    cbv zeta. set (s1 := trim (with_queue (r_queue s ++ [(r_clock s, v)]) s)).
    destruct (trim_facts (with_queue (r_queue s ++ [(r_clock s, v)]) s)) as [T1 [T2 T3]]. fold s1 in T1, T2, T3.
    cbn [with_queue r_queue r_observers r_sched] in T1, T2, T3. rewrite app_length in T1. cbn [length] in T1.
    destruct (so_each_on_facts (Next v) B (r_observers s) s1 m Idom) as [F1 [F2 F3]].
    pose proof (rem_ext m _ B (fun o _ => so_each_calls (Next v) (r_observers s) s1 m o)) as Fr.
    destruct (so_each (fun _ s0 so => (s0, so_on (Next v) so)) (r_observers s) s1 m) as [s2 m2]. cbn [fst snd] in *. subst s2.
    apply (finish_same L _ _ _ _ _ _ _ _ _ HI Fr);
      rewrite ?nops_app, ?kw_app, ?nops_ensures, ?kw_ensures, ?T2, ?T3; cbn [nops isop kw wi]; try lia; [exact F3|].
    apply in_pre_sub. intros j Hj. apply in_map_iff in Hj. destruct Hj as [x [<- _]]. reflexivity.
  - (* RErr *)
    destruct (r_disposed s); [now apply finish_skip|]. destruct (r_stopped s); [now apply finish_skip|].
    apply Hterm; apply (trim_facts (with_exception (Some e) (with_observers [] (with_stopped true s)))).
  - (* RDone *)
    destruct (r_disposed s); [now apply finish_skip|]. destruct (r_stopped s); [now apply finish_skip|].
    apply Hterm; apply (trim_facts (with_observers [] (with_stopped true s))).
  - (* RDispose *)
    apply (finish_pop L _ _ _ _ _ _ _ HI); cbn; lia.
  - (* RAdvance *)
    destruct (d <? 0)%Z; [now apply finish_skip|]. apply (finish_pop L _ _ _ _ _ _ _ HI); reflexivity.
Qed.

Theorem step_decreases L c : TInv L c -> sc_k c <> [] ->
  TInv L (step c) /\ tmu L (step c) < tmu L c.
Proof.
  destruct c as [s m k l]. intros HI Hk. destruct k as [|i k]; [contradiction|]. clear Hk.
  pose proof HI as [Iobs Ique Idom Isub]. cbn [sc_st sc_k sc_obs] in Iobs, Ique, Idom, Isub.
  destruct i as [top p|top o|top o t|o n|o|o|o|]; cbn [sstep sc_k sc_st sc_obs sc_rlog].
  - apply step_op_decreases. exact HI.
  - (* SIEnsure *)
    destruct (m o) as [os|] eqn:Em; [|now apply finish_skip].
    destruct (ensure_active_facts o s (r_so os)) as [E1 [E2 [E3 E4]]].
    destruct (ensure_active o s (r_so os)) as [s' so']. cbn [fst snd] in *.
    pose proof (tsum_upd_same_len m o os (set_so os so') B Em ltac:(cbn [set_so r_so]; congruence)) as Ht.
    pose proof (kw_drain_if sync L top k) as Hd.
    apply (finish_same L _ _ _ _ _ _ _ _ _ HI (rem_upd_same m o os (set_so os so') B Em eq_refl));
      rewrite ?nops_drain_if, ?E3, ?E4; cbn [nops isop kw wi]; try lia;
      [apply (dom_upd_some m o os); assumption|apply in_drain_sub].
  - (* SIOnEnsure *)
    destruct (m o) as [os|] eqn:Em; [|now apply finish_skip].
    destruct (ensure_active_facts o s (so_on t (r_so os))) as [E1 [E2 [E3 E4]]].
    destruct (ensure_active o s (so_on t (r_so os))) as [s' so']. cbn [fst snd] in *.
    assert (Ho : o < B) by (apply Idom; congruence).
    pose proof (tsum_upd_lt m o (set_so os so') B Ho) as Ht. cbn [set_so r_so] in Ht.
    assert (Hq : qlen m o = length (so_queue (r_so os))) by (unfold qlen; now rewrite Em).
    pose proof (so_on_len t (r_so os)) as Hl. rewrite <- E1 in Hl.
    pose proof (kw_drain_if sync L top k) as Hd.
    apply (finish_same L _ _ _ _ _ _ _ _ _ HI (rem_upd_same m o os (set_so os so') B Em eq_refl));
      rewrite ?nops_drain_if, ?E3, ?E4; cbn [nops isop kw wi]; try lia;
      [apply dom_upd; assumption|apply in_drain_sub].
  - (* SIDeliver: the callback uses up the entry (o, r_calls) of the reaction function *)
    destruct (m o) as [os|] eqn:Em; [|now apply finish_skip].
    destruct (ra_stopped os); [now apply finish_skip|].
    assert (Ho : o < B) by (apply Idom; congruence).
    assert (Hcb : forall stop tl, kw L tl <= 1 + kw L k -> nops tl = nops k ->
              (forall t1 o1, In (SIOp t1 (RSub o1)) tl -> In (SIOp t1 (RSub (A:=A) o1)) k) ->
              let c' := SCfg s (rupd m o (rcalled stop os)) (map (SIOp false) (react o (r_calls os)) ++ tl)
                             (REGot o n :: l) in
              TInv L c' /\ tmu L c' < tmu L (SCfg s m (SIDeliver o n :: k) l)).
    { intros stop tl Hkw Hno Hin.
      pose proof (tsum_upd_same_len m o os (rcalled stop os) B Em eq_refl) as Ht.
      apply (finish_react L _ _ _ _ _ _ _ _ _ HI (rem_called m o os stop Em Ho)); cbn [nops isop kw wi]; try lia;
        [apply (dom_upd_some m o os); assumption|exact (fun o' => proj2 HS o (r_calls os) o' Ho)|].
      intros t0 o0 Hi. right. exact (Hin t0 o0 Hi). }
    destruct n as [v|e|]; apply Hcb; cbn [kw wi nops isop]; try lia; auto;
      (intros t1 o1 [H|H]; [discriminate H|exact H]).
  - (* SIAdoFin *)
    destruct (m o) as [os|] eqn:Em; [|now apply finish_skip].
    destruct (rado_dispose_facts s os o) as [R1 [R2 [R3 R4]]].
    pose proof (rado_dispose_calls s os o) as Rc.
    destruct (rado_dispose s os o) as [s' os']. cbn [fst snd] in *.
    apply (finish_upd L s m _ k l s' _ o os os' HI Em Rc); [congruence|exact R3|rewrite R4|rewrite R2]; reflexivity.
  - (* SIResched *)
    apply (finish_same L _ _ _ _ _ _ _ _ _ HI eq_refl); cbn [nops isop kw wi with_sched r_observers r_queue r_sched];
      rewrite ?app_length; cbn [length]; try lia; [exact Idom|apply in_tail_sub].
  - (* SIHandle *)
    destruct (m o) as [os|] eqn:Em; [|now apply finish_skip].
    now apply (finish_upd L s m _ k l s _ o os (rwith_handle os) HI Em).
  - (* SIDrain *)
    destruct (r_sched s) as [|[[id o] cancelled] rest] eqn:Es; [now apply finish_skip|].
    (* an item leaves the scheduler queue; the loop stays *)
    assert (Hitem : TInv L (SCfg (with_sched rest (r_fresh s) s) m (SIDrain :: k) l) /\
                    tmu L (SCfg (with_sched rest (r_fresh s) s) m (SIDrain :: k) l) < tmu L (SCfg s m (SIDrain :: k) l)).
    { apply (finish_same L _ _ _ _ _ _ _ _ _ HI eq_refl); cbn [with_sched r_observers r_queue r_sched]; rewrite ?Es;
        cbn [length]; try lia; [exact Idom|auto]. }
    destruct cancelled; [exact Hitem|]. destruct (m o) as [os|] eqn:Em; [|exact Hitem].
    assert (Ho : o < B) by (apply Idom; congruence).
    assert (Hq : qlen m o = length (so_queue (r_so os))) by (unfold qlen; now rewrite Em).
    destruct (so_queue (r_so os)) as [|n q] eqn:Eq;
      match goal with |- context [rupd m o ?x] => pose proof (tsum_upd_lt m o x B Ho) as Ht;
        pose proof (rem_upd_same m o os x B Em eq_refl) as Hr end;
      cbn [set_so r_so so_queue length] in Ht, Hq;
      apply (finish_same L _ _ _ _ _ _ _ _ _ HI Hr); cbn [nops isop kw wi with_sched r_observers r_queue r_sched length];
        rewrite ?Es; cbn [length]; try lia; try (apply dom_upd; assumption); [auto|].
    intros t0 o0 [Hin|[Hin|Hin]]; try discriminate Hin. exact Hin.
Qed.

Lemma srun_terminates L : forall n c, TInv L c -> tmu L c <= n -> sc_k (srun sync react n c) = [].
Proof.
  induction n as [|n IH]; intros c HI Hm.
  - cbn [srun]. apply (kw_zero L). unfold tmu, mu in Hm. lia.
  - cbn [srun]. destruct (sc_k c) as [|i k] eqn:Ek; [exact Ek|].
    destruct (step_decreases L c HI) as [HI' Hlt]; [rewrite Ek; discriminate|].
    apply IH; [exact HI'|lia].
Qed.

(* every program (list of pending instructions) whose subscriptions stay below B *)
Theorem tree_program_terminates (bs w : option Z) (k0 : list sinstr) :
  sub_bound k0 <= B ->
  exists fuel0, forall fuel, fuel0 <= fuel ->
    sc_k (srun sync react fuel (SCfg (rinit_state bs w) (fun _ => None) k0 [])) = [].
Proof.
  intros Hb. set (c0 := SCfg (rinit_state bs w) (fun _ => None) k0 []).
  set (L := nops k0 + rem (fun _ => None) B).
  assert (HI : TInv L c0).
  { constructor; cbn [c0 sc_st sc_k sc_obs rinit_state r_observers r_queue length]; unfold L; try lia.
    - intros o H. contradiction H. reflexivity.
    - intros t o H. pose proof (sub_bound_in k0 t o H). lia. }
  exists (tmu L c0). intros fuel Hf. exact (srun_terminates L fuel c0 HI Hf).
Qed.
End TreeTerm.

Section Tables.
Context {A : Type}.
Notation table := (list (nat * list (list (@rop A)))).

Fixpoint ops_sub_bound (r : list (@rop A)) : nat :=
  match r with
  | [] => 0
  | RSub o :: r' => Nat.max (S o) (ops_sub_bound r')
  | _ :: r' => ops_sub_bound r'
  end.
Fixpoint script_sub_bound (sc : list (list (@rop A))) : nat :=
  match sc with [] => 0 | r :: sc' => Nat.max (ops_sub_bound r) (script_sub_bound sc') end.
(* every observer named by the table: as a key or as the target of a subscribe in an entry *)
Fixpoint tbl_B (t : table) : nat :=
  match t with [] => 0 | (o, sc) :: r => Nat.max (Nat.max (S o) (script_sub_bound sc)) (tbl_B r) end.
Fixpoint tbl_K (t : table) : nat :=
  match t with [] => 0 | (_, sc) :: r => Nat.max (length sc) (tbl_K r) end.

Lemma ops_sub_bound_in r : forall o, In (RSub o) r -> o < ops_sub_bound r.
Proof.
  induction r as [|p r IH]; intros o H; [destruct H|].
  destruct H as [->|H]; [cbn [ops_sub_bound]; lia|].
  specialize (IH o H). destruct p; cbn [ops_sub_bound]; lia.
Qed.
Lemma script_sub_bound_nth sc : forall k o, In (RSub o) (nth k sc []) -> o < script_sub_bound sc.
Proof.
  induction sc as [|r sc IH]; intros k o H; [destruct k; destruct H|].
  cbn [script_sub_bound]. destruct k as [|k]; cbn [nth] in H.
  - pose proof (ops_sub_bound_in r o H). lia.
  - specialize (IH k o H). lia.
Qed.

Lemma tbl_k_support (t : table) : forall o k, tbl_K t <= k -> rreact_tbl t o k = [].
Proof.
  induction t as [|[o' sc] t IH]; intros o k H; [reflexivity|]. cbn [rreact_tbl tbl_K] in *.
  destruct (Nat.eqb o' o); [apply nth_overflow; lia|apply IH; lia].
Qed.
Lemma tbl_sub_support (t : table) : forall o k o', In (RSub o') (rreact_tbl t o k) -> o' < tbl_B t.
Proof.
  induction t as [|[o1 sc] t IH]; intros o k o' H; [destruct H|]. cbn [rreact_tbl tbl_B] in *.
  destruct (Nat.eqb o1 o).
  - pose proof (script_sub_bound_nth sc k o' H). lia.
  - specialize (IH o k o' H). lia.
Qed.

Lemma tbl_finite_support (t : table) B : tbl_B t <= B -> finite_support (rreact_tbl t) B (tbl_K t).
Proof.
  intros H. split.
  - intros o k _ Hk. apply tbl_k_support. exact Hk.
  - intros o k o' _ Hin. pose proof (tbl_sub_support t o k o' Hin). lia.
Qed.
End Tables.

(* every call TREE, both scheduler modes, every program of calls and explicit drains *)
Theorem tree_programs_terminate {A} (sync : bool) (bs w : option Z) (prog : list (xtop A))
  (tbl : list (nat * list (list (@rop A)))) :
  exists fuel0, forall fuel, (fuel0 <= fuel)%nat ->
    sc_k (srun sync (rreact_tbl tbl) fuel (xinit_cfg bs w prog)) = [].
Proof.
  set (B := Nat.max (tbl_B tbl) (sub_bound (map xinstr prog))).
  apply (tree_program_terminates sync (rreact_tbl tbl) B (tbl_K tbl)).
  - apply tbl_finite_support. unfold B. lia.
  - unfold B. lia.
Qed.

Theorem trees_terminate {A} (sync : bool) (bs w : option Z) (top : list (@rop A))
  (tbl : list (nat * list (list (@rop A)))) :
  exists fuel0, forall fuel, (fuel0 <= fuel)%nat ->
    sc_k (srun sync (rreact_tbl tbl) fuel (sinit_cfg sync bs w top)) = [].
Proof. rewrite sinit_cfg_is_xinit. apply tree_programs_terminate. Qed.

(* run level: run_shistory / run_xhistory report `finished` *)
Theorem run_shistory_finishes {A} (sync : bool) (bs w : option Z) (h : rhistory A) :
  exists fuel0, forall fuel, (fuel0 <= fuel)%nat -> snd (run_shistory sync bs w fuel h) = true.
Proof.
  destruct (trees_terminate sync bs w (fst h) (snd h)) as [f0 H]. exists f0. intros fuel Hf.
  unfold run_shistory, sfinished. cbn [snd]. rewrite (H fuel Hf). reflexivity.
Qed.
Theorem run_xhistory_finishes {A} (sync : bool) (bs w : option Z) (h : xhistory A) :
  exists fuel0, forall fuel, (fuel0 <= fuel)%nat -> snd (run_xhistory sync bs w fuel h) = true.
Proof.
  destruct (tree_programs_terminate sync bs w (fst h) (snd h)) as [f0 H]. exists f0. intros fuel Hf.
  unfold run_xhistory, sfinished. cbn [snd]. rewrite (H fuel Hf). reflexivity.
Qed.

(* termination + completeness on TREES: every run with enough fuel is finished, and then every
   observer that has not unsubscribed has received EXACTLY its entitlement *)
Theorem tree_programs_deliver_everything {A} (sync : bool) (bs w : option Z) (prog : list (xtop A))
  (tbl : list (nat * list (list (@rop A)))) :
  (sync = false -> xclosed prog = true) ->
  exists fuel0, forall fuel, (fuel0 <= fuel)%nat ->
    let c := srun sync (rreact_tbl tbl) fuel (xinit_cfg bs w prog) in
    sc_k c = [] /\
    forall o os, sc_obs c o = Some os ->
      (ra_stopped os = false \/ has_term (rview o (slog_of c)) = true) ->
      rview o (slog_of c) = xview (bufsize_of bs) w o false rg_init (ops_of (slog_of c)).
Proof.
  intros Hc. destruct (tree_programs_terminate sync bs w prog tbl) as [f0 H]. exists f0. intros fuel Hf c.
  pose proof (H fuel Hf) as Hk. fold c in Hk. split; [exact Hk|].
  intros o os Ho Hs. exact (xsched_complete sync (rreact_tbl tbl) bs w prog fuel o os Hc Hk Ho Hs).
Qed.

Theorem trees_deliver_everything {A} (sync : bool) (bs w : option Z) (top : list (@rop A))
  (tbl : list (nat * list (list (@rop A)))) :
  exists fuel0, forall fuel, (fuel0 <= fuel)%nat ->
    let c := srun sync (rreact_tbl tbl) fuel (sinit_cfg sync bs w top) in
    sc_k c = [] /\
    forall o os, sc_obs c o = Some os ->
      (ra_stopped os = false \/ has_term (rview o (slog_of c)) = true) ->
      rview o (slog_of c) = xview (bufsize_of bs) w o false rg_init (ops_of (slog_of c)).
Proof.
  rewrite sinit_cfg_is_xinit. apply tree_programs_deliver_everything.
  intros ->. apply xclosed_xprog_of.
Qed.

(* an observer that answers EVERY callback with one more emission (a reaction function without
   finite support): the run never finishes, in either scheduler mode *)
Section Echo.
Context {A : Type} (v : A) (sync : bool).
Definition echo : nat -> nat -> list (@rop A) := fun _ _ => [RNext v].
Notation step := (sstep sync echo).

Definition is_next (n : ev A) : bool := match n with Next _ => true | _ => false end.

Inductive shape : list (@sinstr A) -> list (nat * nat * bool) -> list (ev A) -> Prop :=
| ShDrain k id n q : shape (SIDrain :: k) [(id, 0, false)] (n :: q)
| ShDeliver k x q : shape (SIDeliver 0 (Next x) :: SIResched 0 :: SIDrain :: k) [] q
| ShOp k q : shape (SIOp false (RNext v) :: SIResched 0 :: SIDrain :: k) [] q
| ShEnsure k n q : shape (SIEnsure false 0 :: SIResched 0 :: SIDrain :: k) [] (n :: q)
| ShResched k n q : shape (SIResched 0 :: SIDrain :: k) [] (n :: q).

Record Loop (c : @scfg A) : Prop := {
  l_disp : r_disposed (sc_st c) = false;
  l_stop : r_stopped (sc_st c) = false;
  l_obs : r_observers (sc_st c) = [0];
  l_os : exists os, sc_obs c 0 = Some os /\ ra_stopped os = false /\
           so_acquired (r_so os) = true /\ so_faulted (r_so os) = false /\ so_stopped (r_so os) = false /\
           forallb is_next (so_queue (r_so os)) = true /\
           shape (sc_k c) (r_sched (sc_st c)) (so_queue (r_so os)) }.

Lemma loop_step c : Loop c -> Loop (step c).
Proof.
  destruct c as [s m k l]. intros [H1 H2 H3 [os [Em [Hs [Ha [Hf [Hst [Hn Hsh]]]]]]]].
  cbn [sc_st sc_obs sc_k] in *. destruct os as [ast sd sc h calls so]. destruct so as [sst q acq fl sdp scur].
  cbn [ra_stopped r_so so_acquired so_faulted so_stopped so_queue] in *. subst ast acq fl sst.
  inversion Hsh as [k0 id n q0 Ek Es Eq|k0 x q0 Ek Es Eq|k0 q0 Ek Es Eq|k0 n q0 Ek Es Eq|k0 n q0 Ek Es Eq];
    clear Hsh; cbn [sstep sc_k sc_st sc_obs sc_rlog].
  - (* drain *)
    rewrite <- Es, Em. cbn [r_so so_queue]. rewrite <- Eq in *.
    cbn [forallb] in Hn. apply andb_prop in Hn. destruct Hn as [Hn0 Hn].
    destruct n as [x| |]; try discriminate Hn0.
    constructor; cbn [sc_st sc_obs sc_k with_sched r_disposed r_stopped r_observers r_sched]; try assumption.
    eexists. split; [unfold rupd; cbn; reflexivity|]. cbn. repeat split; try assumption. constructor.
  - (* deliver *)
    rewrite Em. cbn [ra_stopped echo map app].
    constructor; cbn [sc_st sc_obs sc_k]; try assumption.
    eexists. split; [unfold rupd; cbn; reflexivity|]. cbn. repeat split; try assumption.
    rewrite <- Es. constructor.
  - (* op *)
    cbn [sstep_op]. rewrite H1, H2, H3. unfold so_each. cbn [fold_left]. rewrite Em.
    cbn [r_so set_so map app]. unfold so_on at 1. cbn [so_stopped so_queue].
    constructor; cbn [sc_st sc_obs sc_k]; try (unfold trim; cbn; assumption).
    eexists. split; [unfold rupd; cbn; reflexivity|]. cbn [set_so ra_stopped r_so so_acquired so_faulted so_stopped so_queue].
    repeat split; try assumption.
    + rewrite forallb_app, Hn. reflexivity.
    + unfold trim. cbn [r_sched with_queue]. rewrite <- Es.
      destruct q; constructor.
  - (* ensure *)
    rewrite Em. cbn [r_so]. rewrite <- Eq in *.
    unfold ensure_active. cbn [so_faulted so_queue so_acquired negb andb].
    unfold drain_if, inl. rewrite Bool.andb_false_r.
    constructor; cbn [sc_st sc_obs sc_k]; try assumption.
    eexists. split; [unfold rupd; cbn; reflexivity|]. cbn [ra_stopped r_so set_so so_acquired so_faulted so_stopped so_queue].
    repeat split; try assumption.
    rewrite <- Es. constructor.
  - (* resched *)
    constructor; cbn [sc_st sc_obs sc_k with_sched r_disposed r_stopped r_observers]; try assumption.
    exists (ROState false sd sc h calls (SoState false q true false sdp scur)). split; [exact Em|].
    cbn [ra_stopped r_so so_acquired so_faulted so_stopped so_queue]. repeat split; try assumption.
    cbn [with_sched r_sched]. rewrite <- Es, <- Eq. cbn [app]. constructor.
Qed.

Lemma loop_busy c : Loop c -> sc_k c <> [].
Proof. intros [_ _ _ [os [_ [_ [_ [_ [_ [_ H]]]]]]]]. inversion H; discriminate. Qed.

Lemma loop_forever : forall n c, Loop c -> Loop (srun sync echo n c).
Proof. exact (srun_ind sync echo Loop loop_step). Qed.
End Echo.

Lemma echo_reaches_loop {A} (v : A) (sync : bool) (bs w : option Z) :
  Loop v (srun sync (echo v) 5 (sinit_cfg sync bs w [RSub 0; RNext v])).
Proof.
  (* [bs] and [w] are variables, so the trimmed queue of the subject is a stuck term; with the
     comparisons left folded it stays a few symbols long instead of the normal form of [Z.gtb] *)
  destruct sync; lazy -[Z.gtb too_old]; (constructor; [reflexivity|reflexivity|reflexivity|]);
    (eexists; split; [reflexivity|]); cbn; repeat split; constructor.
Qed.

Theorem echo_diverges {A} (v : A) (sync : bool) (bs w : option Z) : forall fuel,
  sc_k (srun sync (echo v) fuel (sinit_cfg sync bs w [RSub 0; RNext v])) <> [].
Proof.
  intros fuel E.
  assert (H : sc_k (srun sync (echo v) (5 + fuel) (sinit_cfg sync bs w [RSub 0; RNext v])) = [])
    by (apply (srun_mono_finished sync (echo v) fuel); [lia|exact E]).
  rewrite srun_add in H.
  exact (loop_busy v _ (loop_forever v sync fuel _ (echo_reaches_loop v sync bs w)) H).
Qed.

(* so the finite-support hypothesis of [tree_program_terminates] cannot be dropped: for reaction
   FUNCTIONS in general (not tables) termination is false *)
Theorem termination_for_arbitrary_reaction_functions_refuted :
  ~ (forall (sync : bool) (react : nat -> nat -> list (@rop Z)) (bs w : option Z) (top : list (@rop Z)),
       exists fuel, sc_k (srun sync react fuel (sinit_cfg sync bs w top)) = []).
Proof.
  intros H. destruct (H true (echo 0%Z) None None [RSub 0; RNext 0%Z]) as [fuel E].
  exact (echo_diverges 0%Z true None None fuel E).
Qed.
