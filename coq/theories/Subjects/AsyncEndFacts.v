(* C23 -- end-to-end statements for the AsyncSubject on histories of top-level
   calls: what ONE observer receives from the real small-step machine
   ([run_history (async_cls ..)]), stated directly in terms of the calls made,
   without mentioning the abstract specification.  Built on
   [class_observer_view] (FamilyFacts) and the per-observer reading lemmas. *)
From RxVerif Require Import Base.Prelude Ops.Machine Subjects.Subject Subjects.Async Subjects.Family
  Subjects.FamilyFacts.

Section AsyncEnd.
Context {A : Type}.

(* the value of the last on_next call of a history, if any *)
Fixpoint last_value (h : list (@op A)) : option A :=
  match h with
  | [] => None
  | ONext x :: t => match last_value t with Some y => Some y | None => Some x end
  | _ :: t => last_value t
  end.

(* what the property promises at completion *)
Definition final_of (h : list (@op A)) : list (ev A) :=
  match last_value h with Some v => [Next v; Done] | None => [Done] end.

Definition no_unsub (o : nat) (h : list (@op A)) : Prop := forall p, In p h -> p <> OUnsub o.
Definition no_dispose (h : list (@op A)) : Prop := forall p, In p h -> p <> ODispose.

Lemma g_run_app : forall (h1 h2 : list (@op A)) g, g_run g (h1 ++ h2) = g_run (g_run g h1) h2.
Proof. induction h1; intros; cbn; [reflexivity|apply IHh1]. Qed.

Lemma no_end_app_l (h1 h2 : list (@op A)) : no_end (h1 ++ h2) -> no_end h1.
Proof. intros H q Hq; apply H; apply in_or_app; left; exact Hq. Qed.
Lemma no_end_app_r (h1 h2 : list (@op A)) : no_end (h1 ++ h2) -> no_end h2.
Proof. intros H q Hq; apply H; apply in_or_app; right; exact Hq. Qed.

(* an Active observer of a live AsyncSubject receives nothing from calls that
   neither end the subject nor unsubscribe it, and stays Active *)
Lemma async_active_skip o : forall (pre : list (@op A)) g rest,
  no_end pre -> live g = true -> no_unsub o pre ->
  oview KAsync o Active g (pre ++ rest) = oview KAsync o Active (g_run g pre) rest.
Proof.
  induction pre as [|p pre IH]; intros g rest Hne Hl Hnu; [reflexivity|].
  destruct (no_end_cons p pre g Hne Hl) as [Hne' Hl'].
  assert (Hnu' : no_unsub o pre) by (intros q Hq; apply Hnu; right; exact Hq).
  pose proof (Hne p (or_introl eq_refl)) as Hp.
  pose proof (Hnu p (or_introl eq_refl)) as Hu.
  cbn [app g_run]. cbn [oview]. rewrite Hl'.
  destruct p; try (destruct Hp; fail).
  - unfold bcast; rewrite Hl; cbn [app]. apply IH; assumption.
  - destruct (Nat.eqb o0 o) eqn:E; [apply Nat.eqb_eq in E; subst; exfalso; apply Hu; reflexivity|apply IH; assumption].
  - unfold bcast; rewrite Hl; cbn [app]. apply IH; assumption.
Qed.

(* the abstract "last value" IS the value of the last on_next call *)
Lemma final_g_run : forall (h : list (@op A)) g, no_end h -> live g = true ->
  final (g_run g h) = match last_value h with Some v => [Next v; Done] | None => final g end.
Proof.
  induction h as [|p h IH]; intros g Hne Hl; [reflexivity|].
  destruct (no_end_cons p h g Hne Hl) as [Hne' _]. pose proof (Hne p (or_introl eq_refl)) as Hp.
  cbn [g_run last_value].
  destruct p as [o|o|v|e| |]; try (destruct Hp; fail); cbn [g_step].
  - apply IH; assumption.
  - apply IH; assumption.
  - rewrite Hl. rewrite IH; [|exact Hne'|reflexivity].
    destruct (last_value h); reflexivity.
Qed.

Lemma final_init_run v0 (h : list (@op A)) : no_end h -> final (g_run (g_init v0) h) = final_of h.
Proof. intros H. unfold final_of. rewrite final_g_run by (exact H || reflexivity). reflexivity. Qed.

Lemma g_run_dead : forall (h : list (@op A)) g, live g = false -> no_dispose h -> g_run g h = g.
Proof.
  induction h as [|p h IH]; intros g Hl Hd; [reflexivity|].
  cbn [g_run]. rewrite g_step_dead; [|exact Hl|apply Hd; left; reflexivity].
  apply IH; [exact Hl|intros q Hq; apply Hd; right; exact Hq].
Qed.

(* [o] subscribes (for the first time) after [pre1], is not unsubscribed during [pre2], and the first
   terminal call [p] follows.  Completion: exactly [last on_next value; completion], or [completion]
   alone; error: exactly the error, whatever was emitted before *)
Lemma async_view_until_end (pynone v0 : A) o pre1 pre2 p post :
  no_end (pre1 ++ pre2) -> no_sub o pre1 -> no_unsub o pre2 ->
  (match p with OErr _ | ODone => True | _ => False end) ->
  exists fuel0, forall fuel, (fuel0 <= fuel)%nat ->
    snd (run_history (async_cls pynone) v0 fuel (pre1 ++ OSub o :: pre2 ++ p :: post, [])) = true /\
    view o (fst (run_history (async_cls pynone) v0 fuel (pre1 ++ OSub o :: pre2 ++ p :: post, []))) =
    match p with OErr e => [Err e] | _ => final_of (pre1 ++ pre2) end.
Proof.
  intros Hne Hns Hnu Hp.
  destruct (class_observer_view pynone KAsync v0 (pre1 ++ OSub o :: pre2 ++ p :: post)) as [f0 Hf].
  exists f0. intros fuel Hle. destruct (Hf fuel Hle) as [Hfin Hv].
  change (cls_of pynone KAsync) with (async_cls pynone) in *.
  split; [exact Hfin|]. rewrite Hv.
  pose proof (no_end_app_l _ _ Hne) as Hne1. pose proof (no_end_app_r _ _ Hne) as Hne2.
  rewrite oview_before_skip by exact Hns.
  assert (L1 : live (g_run (g_init v0) pre1) = true) by (apply g_run_no_end; [exact Hne1|reflexivity]).
  rewrite oview_subscribe. rewrite L1. pose proof (proj1 (live_of_status _) L1) as S1.
  unfold greet. rewrite S1. cbn [app].
  rewrite async_active_skip; try assumption.
  rewrite oview_active_end; [|apply g_run_no_end; assumption|exact Hp].
  rewrite <- g_run_app. unfold bcast. rewrite g_run_no_end by (exact Hne || reflexivity).
  destruct p; try contradiction; [reflexivity|exact (final_init_run v0 _ Hne)].
Qed.

Lemma async_view_late (pynone v0 : A) o pre post :
  no_sub o pre -> live (g_run (g_init v0) pre) = false ->
  exists fuel0, forall fuel, (fuel0 <= fuel)%nat ->
    snd (run_history (async_cls pynone) v0 fuel (pre ++ OSub o :: post, [])) = true /\
    view o (fst (run_history (async_cls pynone) v0 fuel (pre ++ OSub o :: post, []))) =
    greet KAsync (g_run (g_init v0) pre).
Proof.
  intros Hns Hd.
  destruct (class_observer_view pynone KAsync v0 (pre ++ OSub o :: post)) as [f0 Hf].
  exists f0. intros fuel Hle. destruct (Hf fuel Hle) as [Hfin Hv].
  change (cls_of pynone KAsync) with (async_cls pynone) in *.
  split; [exact Hfin|]. rewrite Hv.
  rewrite oview_before_skip by exact Hns. now apply late_subscriber.
Qed.

(* a subscriber arriving after the terminal call [p] (subject not disposed in between) gets what the
   subscribers present at [p] got, immediately, and nothing else whatever is called afterwards *)
Lemma async_view_after_end (pynone v0 : A) o pre1 p pre2 post :
  no_end pre1 -> no_dispose pre2 -> no_sub o (pre1 ++ p :: pre2) ->
  (match p with OErr _ | ODone => True | _ => False end) ->
  exists fuel0, forall fuel, (fuel0 <= fuel)%nat ->
    snd (run_history (async_cls pynone) v0 fuel ((pre1 ++ p :: pre2) ++ OSub o :: post, [])) = true /\
    view o (fst (run_history (async_cls pynone) v0 fuel ((pre1 ++ p :: pre2) ++ OSub o :: post, []))) =
    match p with OErr e => [Err e] | _ => final_of pre1 end.
Proof.
  intros Hne Hnd Hns Hp.
  assert (L1 : live (g_run (g_init v0) pre1) = true) by (apply g_run_no_end; [exact Hne|reflexivity]).
  assert (E : g_run (g_init v0) (pre1 ++ p :: pre2) =
              G (Ended (match p with OErr e => Err e | _ => Done end))
                (g_cur (g_run (g_init v0) pre1)) (g_has (g_run (g_init v0) pre1))).
  { rewrite g_run_app. cbn [g_run].
    replace (g_step (g_run (g_init v0) pre1) p) with
      (G (Ended (match p with OErr e => Err e | _ => Done end)) (g_cur (g_run (g_init v0) pre1)) (g_has (g_run (g_init v0) pre1)))
      by (destruct p; try contradiction; cbn [g_step]; now rewrite L1).
    apply g_run_dead; [reflexivity|exact Hnd]. }
  replace (match p with OErr e => [Err e] | _ => final_of pre1 end)
    with (greet KAsync (g_run (g_init v0) (pre1 ++ p :: pre2))).
  - apply async_view_late; [exact Hns|]. now rewrite E.
  - rewrite E, <- (final_init_run v0 pre1 Hne). destruct p; try contradiction; reflexivity.
Qed.
End AsyncEnd.
