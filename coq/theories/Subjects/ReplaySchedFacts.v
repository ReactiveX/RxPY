(* What is pending in a continuation of the engine of Subjects/ReplaySched.v: deliveries in flight,
   terminals about to be queued, re-schedulings, observers waiting for ensure_active, and the drain
   loops that look after whatever gets scheduled ([Ms], preserved by every step). *)
From RxVerif Require Import Base.Prelude Ops.Machine Subjects.Subject Subjects.Replay
  Subjects.ReplaySched Subjects.FamilyFacts Subjects.ReplayFacts Subjects.ReplayTermFacts.

Section Pending.
Context {A : Type} (sync : bool) (react : nat -> nat -> list (@rop A)).

Notation sstep := (sstep sync react).

(* deliveries to o / terminals about to be queued for o that are pending in the continuation *)
Fixpoint sinflight (o : nat) (k : list (@sinstr A)) : list (ev A) :=
  match k with
  | [] => []
  | SIDeliver o' n :: r => if Nat.eqb o' o then n :: sinflight o r else sinflight o r
  | _ :: r => sinflight o r
  end.

Fixpoint spend (o : nat) (k : list (@sinstr A)) : list (ev A) :=
  match k with
  | [] => []
  | SIOnEnsure _ o' t :: r => if Nat.eqb o' o then t :: spend o r else spend o r
  | _ :: r => spend o r
  end.

Definition snodeliver (k : list (@sinstr A)) : Prop := forall o, sinflight o k = [].

(* instructions that execute while no drain loop is running *)
Definition is_top (i : @sinstr A) : bool :=
  match i with
  | SIDrain => true
  | SIOp top _ | SIEnsure top _ | SIOnEnsure top _ _ => top
  | _ => false
  end.

(* nothing is being delivered behind an instruction of the top level *)
Fixpoint sclean (k : list (@sinstr A)) : Prop :=
  match k with
  | [] => True
  | i :: r => (is_top i = true -> snodeliver r) /\ sclean r
  end.

Lemma sinflight_app o (k1 k2 : list (@sinstr A)) : sinflight o (k1 ++ k2) = sinflight o k1 ++ sinflight o k2.
Proof.
  induction k1 as [|i r IH]; [reflexivity|]. destruct i; cbn [app sinflight]; try exact IH.
  destruct (Nat.eqb o0 o); [cbn; now rewrite IH|exact IH].
Qed.

Lemma spend_app o (k1 k2 : list (@sinstr A)) : spend o (k1 ++ k2) = spend o k1 ++ spend o k2.
Proof.
  induction k1 as [|i r IH]; [reflexivity|]. destruct i; cbn [app spend]; try exact IH.
  destruct (Nat.eqb o0 o); [cbn; now rewrite IH|exact IH].
Qed.

Lemma sinflight_ops o top (l : list (@rop A)) : sinflight o (map (SIOp top) l) = [].
Proof. induction l; [reflexivity|exact IHl]. Qed.
Lemma spend_ops o top (l : list (@rop A)) : spend o (map (SIOp top) l) = [].
Proof. induction l; [reflexivity|exact IHl]. Qed.
Lemma sinflight_ensures o top (l : list nat) : sinflight o (map (SIEnsure top) l) = [].
Proof. induction l; [reflexivity|exact IHl]. Qed.
Lemma spend_ensures o top (l : list nat) : spend o (map (SIEnsure top) l) = [].
Proof. induction l; [reflexivity|exact IHl]. Qed.
Lemma sinflight_onensures o top t (l : list nat) : sinflight o (map (fun x => SIOnEnsure top x t) l) = [].
Proof. induction l; [reflexivity|exact IHl]. Qed.

Lemma spend_onensures o top t : forall (l : list nat), NoDup l ->
  spend o (map (fun x => SIOnEnsure top x t) l) = if mem o l then [t] else [].
Proof.
  induction l as [|x l IH]; intros Hnd; [reflexivity|]. inversion Hnd as [|? ? Hx Hl]; subst.
  cbn [map spend]. unfold mem. cbn [existsb]. rewrite (Nat.eqb_sym o x). destruct (Nat.eqb x o) eqn:E.
  - apply Nat.eqb_eq in E. subst x. rewrite (IH Hl). cbn [orb].
    replace (mem o l) with false; [reflexivity|]. symmetry. now apply mem_false.
  - cbn [orb]. apply IH. exact Hl.
Qed.

Lemma snodeliver_clean k : snodeliver k -> sclean k.
Proof.
  induction k as [|i r IH]; intros H; [exact I|].
  assert (Hr : snodeliver r).
  { intros o. specialize (H o). destruct i; cbn [sinflight] in H; try exact H.
    destruct (Nat.eqb o0 o); [discriminate|exact H]. }
  split; [intros _; exact Hr|apply IH; exact Hr].
Qed.

Lemma sclean_tail i k : sclean (i :: k) -> sclean k.
Proof. intros [_ H]. exact H. Qed.

Lemma sclean_top i k : sclean (i :: k) -> is_top i = true -> snodeliver k.
Proof. intros [H _]. exact H. Qed.

Lemma sclean_push (pre k : list (@sinstr A)) :
  (forall o, sinflight o pre = []) -> sclean k ->
  ((exists i, In i pre /\ is_top i = true) -> snodeliver k) -> sclean (pre ++ k).
Proof.
  induction pre as [|i r IH]; intros Hn Hk Htop; [exact Hk|].
  assert (Hr : forall o, sinflight o r = []).
  { intros o. specialize (Hn o). destruct i; cbn [sinflight] in Hn; try exact Hn.
    destruct (Nat.eqb o0 o); [discriminate|exact Hn]. }
  cbn [app]. split.
  - intros Hi o. rewrite sinflight_app, Hr. apply Htop. exists i. split; [now left|exact Hi].
  - apply IH; [exact Hr|exact Hk|]. intros [j [Hj Hjt]]. apply Htop. exists j. split; [now right|exact Hjt].
Qed.

(* a terminal notification about to be queued: at most one, and the ScheduledObserver of a wrapper
   that is not stopped still accepts it *)
Definition pend_ok (os : @rostate A) (pd : list (ev A)) : Prop :=
  (length pd <= 1)%nat /\ (pd <> [] -> ra_stopped os = false -> so_stopped (r_so os) = false).

Definition ksame (k k' : list (@sinstr A)) : Prop :=
  forall o, sinflight o k' = sinflight o k /\ spend o k' = spend o k.

Lemma ksame_refl k : ksame k k.
Proof. intros o. split; reflexivity. Qed.

Lemma drain_if_app top (k : list (@sinstr A)) : drain_if sync top k = (if inl sync top then [SIDrain] else []) ++ k.
Proof. unfold drain_if. destruct (inl sync top); reflexivity. Qed.

Lemma ksame_drain_if top k : ksame k (drain_if sync top k).
Proof. unfold drain_if. destruct (inl sync top); [|apply ksame_refl]. intros o. split; reflexivity. Qed.

Lemma pend_ok_ext (os os' : @rostate A) pd :
  (ra_stopped os' = false -> ra_stopped os = false) ->
  (so_stopped (r_so os) = false -> so_stopped (r_so os') = false) ->
  pend_ok os pd -> pend_ok os' pd.
Proof. intros Ha Hs [H1 H2]. split; [exact H1|]. auto. Qed.

Lemma pend_ok_stopped (os : @rostate A) pd : (length pd <= 1)%nat -> ra_stopped os = true -> pend_ok os pd.
Proof. intros H Hs. split; [exact H|]. intros _ E. congruence. Qed.

Lemma pend_ok_nil (os : @rostate A) : pend_ok os [].
Proof. split; [cbn; lia|]. intros H. congruence. Qed.

Lemma inl_top top : inl sync top = true -> top = true.
Proof. unfold inl. destruct sync, top; cbn; congruence. Qed.

Lemma sclean_drain_handle top p o k :
  sclean (SIOp top p :: k) -> sclean (drain_if sync top (SIHandle o :: k)).
Proof.
  intros Hc. unfold drain_if. destruct (inl sync top) eqn:E.
  - apply inl_top in E. subst top. pose proof (sclean_top _ _ Hc eq_refl) as Hn.
    split; [intros _ o2; exact (Hn o2)|]. split; [discriminate|exact (sclean_tail _ _ Hc)].
  - split; [discriminate|exact (sclean_tail _ _ Hc)].
Qed.

Lemma sclean_push_top top p (pre k : list (@sinstr A)) :
  sclean (SIOp top p :: k) -> (forall o, sinflight o pre = []) ->
  (forall i, In i pre -> is_top i = top) -> sclean (pre ++ k).
Proof.
  intros Hc Hn Ht. apply sclean_push; [exact Hn|exact (sclean_tail _ _ Hc)|].
  intros [i [Hin Hi]]. rewrite (Ht i Hin) in Hi. subst top. exact (sclean_top _ _ Hc eq_refl).
Qed.

Lemma sclean_drain_if top (i : @sinstr A) k :
  sclean (i :: k) -> is_top i = top -> sclean (drain_if sync top k).
Proof.
  intros Hc Hi. unfold drain_if. destruct (inl sync top) eqn:E; [|exact (sclean_tail _ _ Hc)].
  apply inl_top in E. rewrite E in Hi. split; [intros _; exact (sclean_top _ _ Hc Hi)|exact (sclean_tail _ _ Hc)].
Qed.

Lemma spend_onensure_same top o t k : spend o (SIOnEnsure top o t :: k) = t :: spend o k.
Proof. cbn [spend]. now rewrite Nat.eqb_refl. Qed.
Lemma spend_onensure_other top o o2 t k : o2 <> o -> spend o2 (SIOnEnsure top o t :: k) = spend o2 k.
Proof. intros H. cbn [spend]. destruct (Nat.eqb o o2) eqn:E; [apply Nat.eqb_eq in E; congruence|reflexivity]. Qed.

Lemma sinflight_deliver_same o n k : sinflight o (SIDeliver o n :: k) = n :: sinflight o k.
Proof. cbn [sinflight]. now rewrite Nat.eqb_refl. Qed.
Lemma sinflight_deliver_other o o2 n k : o2 <> o -> sinflight o2 (SIDeliver o n :: k) = sinflight o2 k.
Proof. intros H. cbn [sinflight]. destruct (Nat.eqb o o2) eqn:E; [apply Nat.eqb_eq in E; congruence|reflexivity]. Qed.

(* the re-schedulings pending in the continuation, as instructions of Subjects/Replay.v: what
   [ReplayLiveFacts.J] looks for *)
Definition emb (k : list (@sinstr A)) : list (@rinstr A) :=
  flat_map (fun i => match i with SIResched o => [RIResched o] | _ => [] end) k.

Lemma emb_in o k : In (RIResched o) (emb k) <-> In (SIResched o) k.
Proof.
  unfold emb. rewrite in_flat_map. split.
  - intros [i [Hin Hi]]. destruct i; try (destruct Hi; fail). destruct Hi as [[= <-]|[]]. exact Hin.
  - intros H. exists (SIResched o). split; [exact H|now left].
Qed.

Lemma emb_app k1 k2 : emb (k1 ++ k2) = emb k1 ++ emb k2.
Proof. unfold emb. apply flat_map_app. Qed.

Lemma emb_mono k k' :
  (forall o, In (SIResched o) k -> In (SIResched o) k') ->
  forall o, In (RIResched o) (emb k) -> In (RIResched o) (emb k').
Proof. intros H o Hin. apply emb_in. apply H. now apply emb_in. Qed.

Lemma in_emb_up o k : In (RIResched o) (emb (map up k)) <-> In (RIResched o) k.
Proof.
  rewrite emb_in, in_map_iff. split.
  - intros [i [Hi Hin]]. destruct i; try discriminate. injection Hi as ->. exact Hin.
  - intros H. exists (RIResched o). split; [reflexivity|exact H].
Qed.

(* ScheduledObserver queues are owned or about to be looked at *)
Definition Qs (m : @romap A) (k : list (@sinstr A)) : Prop :=
  forall o os, m o = Some os -> ra_stopped os = false -> so_acquired (r_so os) = false ->
    so_queue (r_so os) = [] \/ exists top, In (SIEnsure top o) k.

(* whatever may schedule outside an inline-draining context has a drain loop behind it *)
Definition needs_drain (i : @sinstr A) : bool :=
  match i with
  | SIOp top _ | SIEnsure top _ | SIOnEnsure top _ _ => negb (inl sync top)
  | SIResched _ | SIDeliver _ _ => true
  | _ => false
  end.

Fixpoint guarded (k : list (@sinstr A)) : Prop :=
  match k with
  | [] => True
  | i :: r => (needs_drain i = true -> In SIDrain r) /\ guarded r
  end.

Definition Ms (s : @rstate A) (k : list (@sinstr A)) : Prop :=
  guarded k /\ (r_sched s <> [] -> In SIDrain k).

Lemma guarded_push_in pre r : In SIDrain r -> guarded r -> guarded (pre ++ r).
Proof.
  intros Hin Hg. induction pre as [|i pre IH]; [exact Hg|]. cbn [app]. split; [|exact IH].
  intros _. apply in_or_app. now right.
Qed.

Lemma guarded_push_free pre r : (forall j, In j pre -> needs_drain j = false) -> guarded r -> guarded (pre ++ r).
Proof.
  intros Hf Hg. induction pre as [|i pre IH]; [exact Hg|]. cbn [app]. split.
  - intros Hn. rewrite (Hf i (or_introl eq_refl)) in Hn. discriminate.
  - apply IH. intros j Hj. apply Hf. now right.
Qed.

Lemma Qs_mono (m : @romap A) k k' :
  (forall top o, In (SIEnsure top o) k -> In (SIEnsure top o) k') -> Qs m k -> Qs m k'.
Proof.
  intros Hk HQ o os Hm Hs Ha. destruct (HQ o os Hm Hs Ha) as [H|[top H]]; [now left|right; eauto].
Qed.

Lemma Qs_upd_stopped (m : @romap A) k o os' : ra_stopped os' = true -> Qs m k -> Qs (rupd m o os') k.
Proof.
  intros Hs HQ o2 os2. unfold rupd. destruct (Nat.eqb o2 o); [|apply HQ]. intros [= <-]. congruence.
Qed.

Lemma Qs_upd_same (m : @romap A) k o os os' :
  m o = Some os -> so_acquired (r_so os') = so_acquired (r_so os) -> so_queue (r_so os') = so_queue (r_so os) ->
  (ra_stopped os' = false -> ra_stopped os = false) -> Qs m k -> Qs (rupd m o os') k.
Proof.
  intros Hm E1 E2 Hst HQ o2 os2. unfold rupd. destruct (Nat.eqb o2 o) eqn:E; [|apply HQ].
  apply Nat.eqb_eq in E. subst o2. intros [= <-] Hs Ha. rewrite E2. apply (HQ o os Hm (Hst Hs)). congruence.
Qed.

Lemma Qs_upd_owned_mono (m : @romap A) k k' o os' :
  (so_acquired (r_so os') = false -> so_queue (r_so os') = []) -> Qs m k ->
  (forall top o2, o2 <> o -> In (SIEnsure top o2) k -> In (SIEnsure top o2) k') ->
  Qs (rupd m o os') k'.
Proof.
  intros Ho HQ Hk o2 os2. unfold rupd. destruct (Nat.eqb o2 o) eqn:E.
  - intros [= <-] _ Ha. left. now apply Ho.
  - apply Nat.eqb_neq in E. intros Hm Hs Ha. destruct (HQ o2 os2 Hm Hs Ha) as [H|[top H]]; [now left|].
    right. exists top. now apply Hk.
Qed.

Lemma Qs_upd_owned (m : @romap A) k o os' :
  (so_acquired (r_so os') = false -> so_queue (r_so os') = []) -> Qs m k -> Qs (rupd m o os') k.
Proof. intros Ho HQ. apply (Qs_upd_owned_mono m k k o os' Ho HQ). auto. Qed.

Lemma in_tail_ne {X} (x i : X) k : In x (i :: k) -> x <> i -> In x k.
Proof. intros [->|H] Hne; [congruence|exact H]. Qed.

Lemma in_push {X} (x : X) pre r : In x r -> In x (pre ++ r).
Proof. intros H. apply in_or_app. now right. Qed.

Lemma so_each_keeps_state (g : nat -> @sostate A -> @sostate A) : forall snap (s : @rstate A) m,
  fst (so_each (fun o s so => (s, g o so)) snap s m) = s.
Proof.
  unfold so_each. induction snap as [|o snap IH]; intros s m; [reflexivity|]. cbn [fold_left].
  destruct (m o); apply IH.
Qed.

Lemma nonnil_len {X} (l l' : list X) : length l' = length l -> l' <> [] -> l <> [].
Proof. intros H Hn ->. destruct l'; [congruence|discriminate]. Qed.

Lemma sstep_k_shape c i r : sc_k c = i :: r -> exists pre, sc_k (sstep c) = pre ++ r.
Proof.
  destruct c as [s m k l]. cbn [sc_k]. intros ->.
  destruct i as [top p|top o|top o t|o n|o|o|o|]; cbn [ReplaySched.sstep sc_k sc_st sc_obs sc_rlog].
  - destruct p as [o|o|v|e| | |d]; cbn [sstep_op].
    + destruct (m o); [exists []; reflexivity|]. destruct (r_disposed s).
      * exists (map (SIOp false) (react o 0) ++ (if inl sync top then [SIDrain; SIHandle o] else [SIHandle o])).
        cbn [sc_k]. unfold drain_if. destruct (inl sync top); rewrite <- app_assoc; reflexivity.
      * destruct (ensure_active _ _ _). destruct (inl sync top); [exists [SIDrain; SIHandle o]|exists []]; reflexivity.
    + destruct (m o) as [os|]; [|exists []; reflexivity]. destruct (r_handle os); [|exists []; reflexivity].
      destruct (rado_dispose s os o). exists []. reflexivity.
    + destruct (r_disposed s); [exists []; reflexivity|]. destruct (r_stopped s); [exists []; reflexivity|].
      destruct (so_each _ _ _ _). eexists. reflexivity.
    + destruct (r_disposed s); [exists []; reflexivity|]. destruct (r_stopped s); [exists []; reflexivity|].
      eexists. reflexivity.
    + destruct (r_disposed s); [exists []; reflexivity|]. destruct (r_stopped s); [exists []; reflexivity|].
      eexists. reflexivity.
    + exists []. reflexivity.
    + destruct (d <? 0); exists []; reflexivity.
  - destruct (m o) as [os|]; [|exists []; reflexivity]. destruct (ensure_active _ _ _).
    cbn [sc_k]. rewrite drain_if_app. eexists. reflexivity.
  - destruct (m o) as [os|]; [|exists []; reflexivity]. destruct (ensure_active _ _ _).
    cbn [sc_k]. rewrite drain_if_app. eexists. reflexivity.
  - destruct (m o) as [os|]; [|exists []; reflexivity]. destruct (ra_stopped os); [exists []; reflexivity|].
    destruct n; [eexists; reflexivity| |];
      exists (map (SIOp false) (react o (r_calls os)) ++ [SIAdoFin o]); cbn [sc_k]; now rewrite <- app_assoc.
  - destruct (m o) as [os|]; [|exists []; reflexivity]. destruct (rado_dispose s os o). exists []. reflexivity.
  - exists []. reflexivity.
  - destruct (m o); exists []; reflexivity.
  - destruct (r_sched s) as [|[[it o] c] rest]; [exists []; reflexivity|].
    destruct c; [exists [SIDrain]; reflexivity|]. destruct (m o) as [os|]; [|exists [SIDrain]; reflexivity].
    destruct (so_queue (r_so os)); [exists [SIDrain]; reflexivity|].
    exists [SIDeliver o e; SIResched o; SIDrain]. reflexivity.
Qed.

Lemma Ms_step c : Ms (sc_st c) (sc_k c) -> Ms (sc_st (sstep c)) (sc_k (sstep c)).
Proof.
  destruct c as [s m k l]. cbn [sc_st sc_k]. intros [Hg Hs]. destruct k as [|i r].
  { cbn. split; assumption. }
  destruct Hg as [Hn Hgr].
  (* with a drain loop behind, whatever the step schedules or pushes is looked after *)
  destruct (needs_drain i) eqn:Ei.
  { destruct (sstep_k_shape (SCfg s m (i :: r) l) i r eq_refl) as [pre ->]. specialize (Hn eq_refl).
    split; [now apply guarded_push_in|]. intros _. apply in_or_app. now right. }
  clear Hn.
  (* otherwise the step does not touch the scheduler queue and pushes instructions that need no drain,
     or runs at top level on the trampoline, where what it pushes carries the same flag *)
  assert (Hquiet : forall s' pre, (r_sched s' <> [] -> r_sched s <> []) -> i <> SIDrain ->
            (forall j, In j pre -> needs_drain j = false) -> Ms s' (pre ++ r)).
  { intros s' pre Hsch Hi Hf. split; [now apply guarded_push_free|].
    intros H. apply in_or_app. right. apply (in_tail_ne _ i); [apply Hs; now apply Hsch|congruence]. }
  assert (Hnop : i <> SIDrain -> Ms s r) by (intros Hi; apply (Hquiet s []); [tauto|exact Hi|intros j []]).
  destruct i as [top p|top o|top o t|o n|o|o|o|]; try discriminate Ei; cbn [ReplaySched.sstep sc_k sc_st sc_obs sc_rlog].
  - (* SIOp *)
    cbn [needs_drain] in Ei. apply Bool.negb_false_iff in Ei.
    (* an emission pushes one instruction per registered observer, with the flag of the call *)
    assert (Hrow : forall s' (ins : nat -> @sinstr A) snap, (r_sched s' <> [] -> r_sched s <> []) ->
              (forall x, needs_drain (ins x) = false) -> Ms s' (map ins snap ++ r)).
    { intros s' ins snap Hsch Hf. apply Hquiet; [exact Hsch|discriminate|].
      intros j Hj. apply in_map_iff in Hj. destruct Hj as [x [<- _]]. apply Hf. }
    destruct p as [o|o|v|e| | |d]; cbn [sstep_op].
    + destruct (m o); cbn [sc_st sc_k]; [now apply Hnop|].
      destruct (r_disposed s); cbn [sc_st sc_k].
      * unfold drain_if. rewrite Ei. split.
        -- apply guarded_push_in; [now left|]. split; [discriminate|]. split; [discriminate|exact Hgr].
        -- intros _. apply in_or_app. right. now left.
      * destruct (ensure_active _ _ _) as [s3 so3]. rewrite Ei. cbn [sc_st sc_k]. split.
        -- split; [discriminate|]. split; [discriminate|exact Hgr].
        -- intros _. now left.
    + destruct (m o) as [os|]; cbn [sc_st sc_k]; [|now apply Hnop].
      destruct (r_handle os); [|now apply Hnop].
      destruct (rado_dispose_facts s os o) as (_ & Hl & _ & _). destruct (rado_dispose s os o) as [s' os']. cbn [fst sc_st sc_k] in *.
      apply (Hquiet s' []); [apply nonnil_len; exact Hl|discriminate|intros j []].
    + destruct (r_disposed s); cbn [sc_st sc_k]; [now apply Hnop|].
      destruct (r_stopped s); cbn [sc_st sc_k]; [now apply Hnop|].
      match goal with |- context [so_each ?f ?a ?bb ?c] =>
        pose proof (so_each_keeps_state (fun _ so => so_on (Next v) so) a bb c) as Hk;
        destruct (so_each f a bb c) as [s2 m2] end.
      cbn [fst sc_st sc_k] in *. subst s2.
      apply Hrow; [cbn; tauto|]. intros x. cbn. now rewrite Ei.
    + destruct (r_disposed s); cbn [sc_st sc_k]; [now apply Hnop|].
      destruct (r_stopped s); cbn [sc_st sc_k]; [now apply Hnop|].
      apply Hrow; [cbn; tauto|]. intros x. cbn. now rewrite Ei.
    + destruct (r_disposed s); cbn [sc_st sc_k]; [now apply Hnop|].
      destruct (r_stopped s); cbn [sc_st sc_k]; [now apply Hnop|].
      apply Hrow; [cbn; tauto|]. intros x. cbn. now rewrite Ei.
    + cbn [sc_st sc_k]. apply (Hquiet _ []); [cbn; tauto|discriminate|intros j []].
    + destruct (d <? 0); cbn [sc_st sc_k]; apply (Hquiet _ []); try (cbn; tauto); try discriminate; intros j [].
  - (* SIEnsure *)
    cbn [needs_drain] in Ei. apply Bool.negb_false_iff in Ei.
    destruct (m o) as [os|]; cbn [sc_st sc_k]; [|now apply Hnop].
    destruct (ensure_active o s (r_so os)) as [s' so']. cbn [sc_st sc_k]. unfold drain_if. rewrite Ei.
    split; [split; [discriminate|exact Hgr]|intros _; now left].
  - (* SIOnEnsure *)
    cbn [needs_drain] in Ei. apply Bool.negb_false_iff in Ei.
    destruct (m o) as [os|]; cbn [sc_st sc_k]; [|now apply Hnop].
    destruct (ensure_active o s (so_on t (r_so os))) as [s' so']. cbn [sc_st sc_k]. unfold drain_if. rewrite Ei.
    split; [split; [discriminate|exact Hgr]|intros _; now left].
  - (* SIAdoFin *)
    destruct (m o) as [os|]; cbn [sc_st sc_k]; [|now apply Hnop].
    destruct (rado_dispose_facts s os o) as (_ & Hl & _ & _). destruct (rado_dispose s os o) as [s' os']. cbn [fst sc_st sc_k] in *.
    apply (Hquiet s' []); [apply nonnil_len; exact Hl|discriminate|intros j []].
  - (* SIHandle *)
    destruct (m o) as [os|]; cbn [sc_st sc_k]; now apply Hnop.
  - (* SIDrain *)
    destruct (r_sched s) as [|[[it o] c] rest] eqn:Es; cbn [sc_st sc_k].
    + split; [exact Hgr|]. intros H. congruence.
    + destruct c; cbn [sc_st sc_k]; [split; [split; [discriminate|exact Hgr]|intros _; now left]|].
      destruct (m o) as [os|]; cbn [sc_st sc_k]; [|split; [split; [discriminate|exact Hgr]|intros _; now left]].
      destruct (so_queue (r_so os)); cbn [sc_st sc_k].
      * split; [split; [discriminate|exact Hgr]|intros _; now left].
      * split.
        -- split; [intros _; right; now left|]. split; [intros _; now left|]. split; [discriminate|exact Hgr].
        -- intros _. right. right. now left.
Qed.

End Pending.
