(* C24, replay(): what a subscriber of a multicast observable built on a ReplaySubject receives.
   The subject's side of a run of Subjects/Connectable.v's machine (engine state, the engine
   instructions pending on the continuation stack, the calls and callbacks of the log) is a
   configuration of the ReplaySubject engine of Subjects/Replay.v that satisfies the C22 invariant
   K = Inv /\ J /\ Qq of ReplayTreeFacts / ReplayLiveFacts: a [KS] instruction is one [rstep], and a
   call made by the connectable layer pushes one [RIOp] in FRONT of whatever is pending -- which K
   tolerates at any moment, because K is the invariant of arbitrary call trees.  Hence
   [reachable_P], and with it the view of a finished run ([finished_view]) and the prefix property
   (C24_replay_* in Props/C24.v), hold for EVERY call tree of the connectable machine (subscribers
   that subscribe, unsubscribe, connect, disconnect, emit from inside their callbacks), every mode,
   cold prefix, buffer size and window. *)
From RxVerif Require Import Base.Prelude Ops.Machine Subjects.Subject Subjects.Behavior Subjects.Async
  Subjects.Family Subjects.Replay Subjects.ReplaySpec Subjects.Connectable Subjects.ConnectableFacts
  Subjects.SubjectFacts Subjects.ReplayFacts Subjects.ReplayTreeFacts Subjects.ReplayLiveFacts.
Require Import Lia.
Local Open Scope nat_scope.

Section Frame.
Context {A : Type}.
Notation sil := (fun (_ _ : nat) => @nil (@rop A)).

(* one instruction of the ReplaySubject engine looks neither at the rest of the continuation nor
   at the log *)
Lemma rstep_frame (i : @rinstr A) s m k l :
  rstep sil (RCfg s m (i :: k) l) =
  let c := rstep sil (RCfg s m [i] []) in RCfg (rc_st c) (rc_obs c) (rc_k c ++ k) (rc_rlog c ++ l).
Proof.
  destruct i as [p|o n|o|o|o|]; cbn [rstep rc_k rc_st rc_obs rc_rlog].
  - destruct p as [o|o|v|e| | |d]; cbn [rstep_op].
    (* a notification: the passes over the observers *)
    3-5: destruct (r_disposed s); [reflexivity|]; destruct (r_stopped s); [reflexivity|]; cbv zeta;
      repeat match goal with |- context [so_each ?f ?a ?bb ?c] => destruct (so_each f a bb c) end; reflexivity.
    + destruct (m o); [reflexivity|]. destruct (r_disposed s); [reflexivity|].
      cbv zeta. destruct (ensure_active _ _ _). reflexivity.
    + destruct (m o) as [os|]; [|reflexivity]. destruct (r_handle os); [|reflexivity].
      destruct (rado_dispose s os o). reflexivity.
    + reflexivity.
    + destruct (d <? 0)%Z; reflexivity.
  - destruct (m o) as [os|]; [|reflexivity]. destruct (ra_stopped os); [reflexivity|]. destruct n; reflexivity.
  - destruct (m o) as [os|]; [|reflexivity]. destruct (rado_dispose s os o). reflexivity.
  - reflexivity.
  - destruct (m o); reflexivity.
  - destruct (r_sched s) as [|[[it o] c] rest]; [reflexivity|]. destruct c; [reflexivity|].
    destruct (m o) as [os|]; [|reflexivity]. destruct (so_queue (r_so os)); reflexivity.
Qed.

(* one turn of the scheduler's loop calls nobody; it ends the loop only on an empty queue, and
   otherwise comes back to the loop *)
Lemma drain_step (s : @rstate A) m :
  let c := rstep sil (RCfg s m [RIDrain] []) in
  rc_rlog c = [] /\ (r_sched s = [] /\ c = RCfg s m [] [] \/ exists pre, rc_k c = pre ++ [RIDrain]).
Proof.
  cbn [rstep rc_k rc_st rc_obs rc_rlog]. cbv zeta.
  destruct (r_sched s) as [|[[it o] cc] rest]; [auto|].
  destruct cc; [|destruct (m o) as [os|]; [destruct (so_queue (r_so os)) as [|e q]|]];
    (split; [reflexivity|right]); try (exists []; reflexivity).
  exists [RIDeliver o e; RIResched o]. reflexivity.
Qed.
End Frame.

Section ReplayView.
Context {A : Type} (b : Z) (w : option Z).
Context (md : mode) (reach : bool) (cold : list (ev A)) (react : nat -> nat -> list (@cop A)).
Notation sil := (fun (_ _ : nat) => @nil (@rop A)).
Notation kinstr := (@kinstr A (@rinstr A)).
Notation kcfg := (@kcfg A (@replay_st A) (@rinstr A) (@rop A)).
Notation cevent := (@cevent A (@rop A)).
Notation stepk := (kstep replay_exec replay_call md reach cold react).
Notation runk := (krun replay_exec replay_call md reach cold react).

(* ---- the subject's side of a configuration ([kspart], [plog] of ConnectableFacts) ---- *)
Notation pk := (@kspart A (@rinstr A)).
Notation pl := (@plog A (@rop A) (@revent A) (@REOp A) (@REGot A)).
Definition proj (c : kcfg) : @rcfg A :=
  RCfg (fst (k_eng c)) (snd (k_eng c)) (pk (k_k c)) (pl (k_log c)).

(* every method of the subject is one engine instruction *)
Definition rop_of (p : @sop A) : @rop A :=
  match p with
  | SSub o => RSub o | SUnsub o => RUnsub o | SNext v => RNext v | SErr e => RErr e
  | SDone => RDone | SAdv d => RAdvance d
  end.
Lemma replay_call_one p : replay_call p = [RIOp (rop_of p)].
Proof. destruct p; reflexivity. Qed.

(* the log of the engine, as the connectable machine records it *)
Definition noraise (l : list (@revent A)) : list (@revent A) :=
  filter (fun e => match e with RERaised _ => false | _ => true end) l.
Lemma pl_engine (r : list (@revent A)) :
  pl (rev (map (fun e => match e with
                         | VOp p => CECall p | VGot o n => CEGot o n | VRaised x => CERaised x
                         end) (map replay_ev (rev r)))) = noraise r.
Proof. apply plog_engine. intros []; reflexivity. Qed.

Lemma ops_of_noraise (l : list (@revent A)) : ops_of (noraise l) = ops_of l.
Proof. unfold ops_of, noraise. induction l as [|e l IH]; [reflexivity|]. destruct e; cbn; rewrite ?IH; reflexivity. Qed.
Lemma rview_noraise o (l : list (@revent A)) : rview o (noraise l) = rview o l.
Proof. unfold noraise. induction l as [|e l IH]; [reflexivity|]. destruct e; cbn; rewrite ?IH; reflexivity. Qed.
Lemma noraise_app l1 l2 : noraise (l1 ++ l2) = noraise l1 ++ noraise l2.
Proof. apply filter_app. Qed.
Lemma noraise_rev (l : list (@revent A)) : noraise (rev l) = rev (noraise l).
Proof. apply filter_rev. Qed.

(* ---- K does not look at the exceptions of the log, and tolerates a call at any moment ---- *)
Lemma K_log (s : @rstate A) m k l l' :
  K b w (RCfg s m k l) -> ops_of (rev l') = ops_of (rev l) ->
  (forall o, rview o (rev l') = rview o (rev l)) -> K b w (RCfg s m k l').
Proof.
  intros [HI [HJ HQ]] Ho Hv. split; [|split; assumption].
  destruct HI as [Vst Vnodup Vdom Vnone Vsome Vclean].
  unfold cg, cx, cops, rlog_of in *. cbn [rc_st rc_obs rc_k rc_rlog] in *.
  constructor; unfold cg, cx, cops, rlog_of; cbn [rc_st rc_obs rc_k rc_rlog]; rewrite ?Ho; try assumption.
  - intros o Hn. rewrite Hv. apply Vnone. exact Hn.
  - intros o os Hs. rewrite Hv. apply Vsome. exact Hs.
Qed.

Lemma K_call (s : @rstate A) m k l p : K b w (RCfg s m k l) -> K b w (RCfg s m (RIOp p :: k) l).
Proof.
  intros [HI [HJ HQ]]. split; [|split; [|exact HQ]].
  - destruct HI as [Vst Vnodup Vdom Vnone Vsome Vclean]. constructor; assumption.
  - cbn [rc_st rc_obs rc_k] in *. eapply J_k_mono; [|exact HJ]. intros o H. right. exact H.
Qed.

Definition P (c : kcfg) : Prop := K b w (proj c).

(* a step that runs no engine instruction: nothing, or one call pushed in front *)
Lemma P_other may (c c' : kcfg) k :
  side_other replay_call (@REOp A) (@REGot A) may c c' k ->
  K b w (RCfg (fst (k_eng c)) (snd (k_eng c)) (pk k) (pl (k_log c))) -> P c'.
Proof.
  intros (E1 & E2 & [E3|[_ [p E3]]]) H; unfold P, proj; rewrite E1, E2, E3;
    [exact H|rewrite replay_call_one; apply K_call; exact H].
Qed.

(* ... and one that does is one [rstep] of the engine *)
Theorem P_step c : P c -> P (stepk c).
Proof.
  intros H. destruct (k_k c) as [|i k] eqn:Ek; [rewrite kstep_done; assumption|].
  pose proof (kstep_subject replay_exec replay_call md reach cold react (@REOp A) (@REGot A) c i k Ek) as G.
  unfold P, proj in H. rewrite Ek in H.
  destruct i as [p|ei|o|o|o|o u| |x|cid x|cid n|cid]; try exact (P_other _ c _ k G H).
  unfold P, proj. rewrite kspart_cons in H. cbn [app] in H.
  pose proof (K_step sil b w _ H) as G'. rewrite rstep_frame in G'. cbv zeta in G'.
  unfold side_KS in G. destruct (replay_exec ei (k_eng c)) as [[st' pushed] evs] eqn:Ex. destruct G as (-> & -> & ->).
  unfold replay_exec in Ex. cbv zeta in Ex. injection Ex as <- <- <-.
  rewrite pl_engine. cbn [fst snd rc_st rc_obs rc_k rc_rlog] in *.
  apply (K_log _ _ _ _ _ G').
  - rewrite !rev_app_distr, !ops_of_app, <- noraise_rev, ops_of_noraise. reflexivity.
  - intros o. rewrite !rev_app_distr, !rview_app, <- noraise_rev, rview_noraise. reflexivity.
Qed.

(* ---- the driver's program ends with a drain, and when it is exhausted the scheduler is empty ---- *)
Definition Md (c : kcfg) : Prop :=
  (k_k c = [] -> r_sched (fst (k_eng c)) = []) /\
  (k_k c <> [] -> exists pre, k_k c = pre ++ [KS RIDrain]).

Lemma kstep_k_shape c i tail : k_k c = i :: tail -> exists pre, k_k (stepk c) = pre ++ tail.
Proof.
  intros H. destruct (kstep_pushes replay_exec replay_call md reach cold react c i tail H) as (ops & es & rest & -> & _).
  exists (map KOp ops ++ map KS es ++ rest). now rewrite <- !app_assoc.
Qed.

Lemma Md_step c : Md c -> Md (stepk c).
Proof.
  intros [M1 M2]. destruct (k_k c) as [|i tail] eqn:Ek.
  - rewrite (kstep_done _ _ _ _ _ _ c Ek). unfold Md. rewrite Ek. split; [intros _; exact (M1 eq_refl)|intros H; contradiction].
  - destruct (M2 ltac:(discriminate)) as [pre Hpre].
    destruct tail as [|j tail'].
    + (* the last instruction is the drain loop *)
      assert (i = KS RIDrain).
      { destruct pre as [|x pre']; cbn in Hpre; [now injection Hpre|].
        injection Hpre as _ H. destruct pre'; discriminate. }
      subst i. destruct c as [st bk m k l]. cbn [k_k k_eng] in *. subst k.
      cbn [kstep k_k k_bk k_log k_out k_eng]. unfold replay_exec. cbv beta iota zeta.
      destruct (drain_step (fst st) (snd st)) as [-> [[Es ->]|[pre' ->]]];
        cbn [rc_k rc_st rev map fold_left k_k k_eng fst app].
      * split; [intros _; exact Es|intros H; exfalso; apply H; reflexivity].
      * rewrite map_app, app_nil_r. split; [intros H|intros _; exists (map KS pre'); reflexivity].
        apply app_eq_nil in H. destruct H as [_ H]. discriminate.
    + destruct (kstep_k_shape c i (j :: tail') Ek) as [pre2 Hk2].
      assert (Htail : exists pre3, j :: tail' = pre3 ++ [KS RIDrain]).
      { destruct pre as [|x pre']; cbn in Hpre; [discriminate|]. injection Hpre as _ H. eauto. }
      destruct Htail as [pre3 Hp3]. split.
      * rewrite Hk2. intros H. apply app_eq_nil in H. destruct H as [_ H]. discriminate.
      * intros _. exists (pre2 ++ pre3). rewrite Hk2, Hp3. now rewrite app_assoc.
Qed.

Lemma cview_pl o (l : list cevent) : rview o (pl l) = cview o l.
Proof.
  induction l as [|e l IH]; [reflexivity|]. destruct e; cbn [plog flat_map app rview cview]; try exact IH.
  fold (pl l). rewrite IH. reflexivity.
Qed.
Lemma calls_pl (l : list cevent) : ops_of (pl l) = calls_of l.
Proof.
  unfold ops_of, calls_of, plog. induction l as [|e l IH]; [reflexivity|].
  cbn [flat_map]. rewrite flat_map_app, IH. destruct e; reflexivity.
Qed.

Lemma proj_view c o : rview o (rlog_of (proj c)) = cview o (klog_of c).
Proof. unfold rlog_of, proj, klog_of. cbn [rc_rlog]. rewrite <- plog_rev. apply cview_pl. Qed.
Lemma proj_calls c : ops_of (rlog_of (proj c)) = calls_of (klog_of c).
Proof. unfold rlog_of, proj, klog_of. cbn [rc_rlog]. rewrite <- plog_rev. apply calls_pl. Qed.

Lemma finished_view c o os :
  P c -> Md c -> k_k c = [] -> snd (k_eng c) o = Some os ->
  (ra_stopped os = false \/ has_term (cview o (klog_of c)) = true) ->
  cview o (klog_of c) = xview b w o false rg_init (calls_of (klog_of c)).
Proof.
  (* stopped by a terminal notification: a prefix that holds a terminal is the whole entitlement; still live:
     [obs_ok] gives view ++ queue = entitlement, and the queue is empty because the scheduler is ([Md]) *)
  intros HP [M1 _] Hk Hm Hcase. rewrite <- proj_view, <- proj_calls. rewrite <- proj_view in Hcase.
  set (c' := proj c) in *.
  assert (Hk' : rc_k c' = []) by (unfold c', proj; cbn [rc_k]; now rewrite Hk).
  assert (Hm' : rc_obs c' o = Some os) by exact Hm.
  destruct HP as (I & HJ & HQ). fold c' in I, HJ, HQ.
  destruct (ra_stopped os) eqn:Hs.
  - destruct Hcase as [|Ht]; [discriminate|].
    apply prefix_with_terminal_is_all; [|exact Ht].
    exact (Inv_prefix sil b w c' o I).
  - destruct (inv_some _ _ _ I o os Hm') as [_ Hok]. unfold obs_ok in Hok. rewrite Hs in Hok.
    destruct Hok as [Heq _]. rewrite Hk' in Heq. cbn [inflight app] in Heq.
    assert (Hq : so_queue (r_so os) = []).
    { apply (HQ o os Hm' Hs). destruct (so_acquired (r_so os)) eqn:Ha; [|reflexivity]. exfalso.
      destruct (proj2 HJ o os Hm') as (_ & _ & Lv). destruct (Lv Hs) as [_ R].
      destruct (R Ha) as [[i Hi]|Hin].
      - unfold c', proj in Hi. cbn [rc_st] in Hi. rewrite (M1 Hk) in Hi. destruct Hi.
      - rewrite Hk' in Hin. destruct Hin. }
    rewrite Hq, app_nil_r in Heq. exact Heq.
Qed.

Context (bs : option Z) (Hb : b = bufsize_of bs).

Lemma pk_prog top : exists n, pk (prog [RIDrain] md top) = repeat (@RIDrain A) n.
Proof.
  unfold prog.
  assert (E : pk (match md with MAuto 0 => [@KConnect A (@rinstr A) ByAuto] | _ => [] end) = []).
  { destruct md as [| |[|n]]; reflexivity. }
  rewrite kspart_app, E, kspart_app, kspart_KS. cbn [app].
  assert (G : exists n, pk (flat_map (fun p : @cop A => KOp p :: map (@KS A (@rinstr A)) [RIDrain]) top)
                        = repeat (@RIDrain A) n).
  { induction top as [|p t [n IH]]; [exists 0; reflexivity|]. exists (S n).
    cbn [flat_map app]. rewrite kspart_cons, kspart_app, kspart_KS, IH. reflexivity. }
  destruct G as [n ->]. exists (S n). reflexivity.
Qed.

Lemma K_drains : forall n, K b w (RCfg (rinit_state bs w) (fun _ => None) (repeat (@RIDrain A) n) []).
Proof.
  intros n. subst b.
  split; [|split].
  - constructor; cbn [rc_st rc_obs rc_k rc_rlog rinit_state r_observers].
    + pose proof (inv_st _ _ _ (Inv_init bs w (@nil (@rop A)))) as H. exact H.
    + constructor.
    + intros o [].
    + intros o _. repeat split. induction n; [reflexivity|exact IHn].
    + intros o os H. discriminate.
    + destruct n; [exact I|]. cbn [repeat clean]. intros o. induction n; [reflexivity|exact IHn].
  - split; [split; cbn; [constructor|intros i []]|]. intros o os H. discriminate.
  - intros o os H. discriminate.
Qed.

Lemma P_init top : P (kinit [RIDrain] md (replay_init bs w) top).
Proof.
  unfold P, proj, kinit, replay_init. cbn [k_eng k_k k_log fst snd plog flat_map].
  destruct (pk_prog top) as [n ->]. apply K_drains.
Qed.

Lemma Md_init top : Md (kinit [RIDrain] md (replay_init bs w) top : kcfg).
Proof.
  unfold kinit. split; cbn [k_k k_eng].
  - unfold prog. intros H. apply app_eq_nil in H. destruct H as [_ H]. discriminate.
  - intros _. unfold prog. cbn [map].
    assert (G : exists pre, [@KS A (@rinstr A) RIDrain] ++
                  flat_map (fun p : @cop A => [KOp p; KS RIDrain]) top = pre ++ [KS RIDrain]).
    { induction top as [|p t [pre IH]]; [exists []; reflexivity|].
      exists ([KS RIDrain; KOp p] ++ pre). cbn [flat_map app] in *. rewrite IH. reflexivity. }
    destruct G as [pre G].
    exists (match md with MAuto 0 => [@KConnect A (@rinstr A) ByAuto] | _ => [] end ++ pre).
    rewrite G. now rewrite app_assoc.
Qed.

Theorem reachable_P top fuel : P (runk fuel (kinit [RIDrain] md (replay_init bs w) top)).
Proof. apply krun_ind; [apply P_step|apply P_init]. Qed.
Theorem reachable_Md top fuel : Md (runk fuel (kinit [RIDrain] md (replay_init bs w) top)).
Proof. apply krun_ind; [apply Md_step|apply Md_init]. Qed.
End ReplayView.
