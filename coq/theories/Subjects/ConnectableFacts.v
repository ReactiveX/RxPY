(* C24: the connection of a ConnectableObservable.  Invariant [CI] of Subjects/Connectable.v's machine,
   for EVERY subject engine, every call tree (arbitrary [react]) and every fuel: the source's
   subscription log alternates, nothing is subscribed while disconnected, only connect() subscribes.
   Also what the other Connectable*Facts files share: what one step puts in the place of the head
   of the continuation ([kstep_pushes]) and appends to the log ([kstep_logs]), hence what it does to
   the subject's side of the machine ([kstep_subject]); and how a property of one per-subscriber
   instance of the mapper form becomes a property of every instance of a run ([mrun_inv]). *)
From RxVerif Require Import Base.Prelude Ops.Machine Subjects.Connectable.
Require Import Lia.
Local Open Scope nat_scope.

(* the source's subscription log as a two-state automaton: [Some None] closed, [Some (Some c)]
   subscription [c] open, [None] a second subscribe or an unsubscribe of something not open *)
Definition src_trans (st : option (option nat)) (e : bool * nat) : option (option nat) :=
  match st with
  | None => None
  | Some None => if fst e then Some (Some (snd e)) else None
  | Some (Some c) => if fst e then None else if Nat.eqb (snd e) c then Some None else None
  end.
Definition src_state (l : list (bool * nat)) : option (option nat) := fold_left src_trans l (Some None).

Lemma src_state_app l1 l2 : src_state (l1 ++ l2) = fold_left src_trans l2 (src_state l1).
Proof. unfold src_state. now rewrite fold_left_app. Qed.

Lemma set_nth_length {X} (n : nat) (x : X) l : length (set_nth n x l) = length l.
Proof. revert n. induction l; intros [|n]; cbn; auto. Qed.

Lemma nth_set_nth {X} (n m : nat) (x d : X) l :
  nth m (set_nth n x l) d = if Nat.eqb m n && (n <? length l) then x else nth m l d.
Proof.
  revert n m. induction l as [|y l IH]; intros n m.
  - cbn. destruct n, m; cbn; try reflexivity; now rewrite Bool.andb_false_r.
  - destruct n as [|n], m as [|m]; cbn [set_nth nth length]; try reflexivity.
    rewrite IH. change (Nat.eqb (S m) (S n)) with (Nat.eqb m n).
    change (S n <? S (length l)) with (n <? length l). reflexivity.
Qed.

Lemma filter_rev {X} (f : X -> bool) l : filter f (rev l) = rev (filter f l).
Proof.
  induction l as [|x l IH]; [reflexivity|]. cbn [rev filter]. rewrite filter_app, IH. cbn [filter].
  destruct (f x); [reflexivity|apply app_nil_r].
Qed.

(* the hints for the side conditions of [kstep_pushes], declared with that theorem *)
Create HintDb kpush.

Section Facts.
Context {A E_st E_in E_op : Type}.
Context (e_exec : E_in -> E_st -> E_st * list E_in * list (@sev A E_op)).
Context (e_call : @sop A -> list E_in).
Context (md : mode) (reach : bool) (cold : list (ev A)) (react : nat -> nat -> list (@cop A)).

Notation kinstr := (@kinstr A E_in).
Notation kcfg := (@kcfg A E_st E_in E_op).
Notation cevent := (@cevent A E_op).
Notation stepk := (kstep e_exec e_call md reach cold react).
Notation runk := (krun e_exec e_call md reach cold react).
(* the three names below are notations in this section: a script that unfolds one says [Connectable.sado_dispose] *)
Notation sado_dispose := (@sado_dispose A E_op).
Notation src_dispose := (@src_dispose A E_op).
Notation comp_dispose := (@comp_dispose A E_op).

Definition blen (b : book) : nat := length (conns b).

Lemma get_put b cid c cid' :
  get_conn (put_conn cid c b) cid' = if Nat.eqb cid' cid && (cid <? blen b) then c else get_conn b cid'.
Proof. unfold get_conn, put_conn, blen. cbn. apply nth_set_nth. Qed.

Lemma blen_put b cid c : blen (put_conn cid c b) = blen b.
Proof. unfold blen, put_conn. cbn. apply set_nth_length. Qed.

(* connection ids mentioned by the pending instructions; pending returns of source.subscribe *)
Definition icids (i : kinstr) : list nat :=
  match i with KConnRet c _ | KSrc c _ | KSrcFin c => [c] | _ => [] end.
Definition ipend (i : kinstr) : list nat := match i with KConnRet c _ => [c] | _ => [] end.
Definition kcids (k : list kinstr) : list nat := flat_map icids k.
Definition pend (k : list kinstr) : list nat := flat_map ipend k.

Lemma kcids_app k1 k2 : kcids (k1 ++ k2) = kcids k1 ++ kcids k2.
Proof. apply flat_map_app. Qed.
Lemma pend_app k1 k2 : pend (k1 ++ k2) = pend k1 ++ pend k2.
Proof. apply flat_map_app. Qed.
Lemma kcids_KS l : kcids (map (@KS A E_in) l) = [].
Proof. induction l; cbn; auto. Qed.
Lemma pend_KS l : pend (map (@KS A E_in) l) = [].
Proof. induction l; cbn; auto. Qed.
Lemma kcids_KOp l : kcids (map (@KOp A E_in) l) = [].
Proof. induction l; cbn; auto. Qed.
Lemma pend_KOp l : pend (map (@KOp A E_in) l) = [].
Proof. induction l; cbn; auto. Qed.
Lemma pend_KSrc cid l : pend (map (@KSrc A E_in cid) l) = [].
Proof. induction l; cbn; auto. Qed.
Lemma kcids_KSrc cid l x : In x (kcids (map (@KSrc A E_in cid) l)) -> x = cid.
Proof. induction l; cbn; [tauto|]. intros [H|H]; auto. Qed.

(* the chronological source log of a newest-first log *)
Definition slog (l : list cevent) : list (bool * nat) := src_log (rev l).

Lemma slog_app l1 l2 : slog (l1 ++ l2) = slog l2 ++ slog l1.
Proof. unfold slog, src_log. now rewrite rev_app_distr, flat_map_app. Qed.

Definition last_live (b : book) : bool :=
  match blen b with O => false | S n => s_live (get_conn b n) end.

Record CI (b : book) (kc pd : list nat) (l : list cevent) : Prop := {
  ci_len : forall x, In x kc -> x < blen b;
  ci_pend : pd = [] \/ (exists n, blen b = S n /\ pd = [n] /\ has_sub b = true);
  ci_refs : forall cid, (In (Some cid) (handles b) \/ rc_sub b = Some cid \/ cur b = Some cid) ->
                        cid < blen b /\ ~ In cid pd;
  ci_old : forall cid, S cid < blen b -> comp_disposed (get_conn b cid) = true;
  ci_off : has_sub b = false -> forall cid, cid < blen b -> comp_disposed (get_conn b cid) = true;
  ci_set : forall cid, cid < blen b -> s_sad_set (get_conn b cid) = true ->
                       s_sad_disposed (get_conn b cid) = false /\ s_live (get_conn b cid) = true;
  ci_pending : forall cid, cid < blen b -> In cid pd ->
                 s_sad_set (get_conn b cid) = false /\ comp_disposed (get_conn b cid) = false /\
                 s_live (get_conn b cid) = true;
  ci_dead : forall cid, cid < blen b -> ~ In cid pd -> s_sad_disposed (get_conn b cid) = true ->
                        s_live (get_conn b cid) = false;
  ci_held : forall cid, cid < blen b -> ~ In cid pd -> s_sad_disposed (get_conn b cid) = false ->
                        s_sad_set (get_conn b cid) = true;
  ci_comp : forall cid, cid < blen b -> comp_disposed (get_conn b cid) = true -> s_live (get_conn b cid) = false;
  ci_log : src_state (slog l) = Some (if last_live b then Some (pred (blen b)) else None) }.

Definition CIc (c : kcfg) : Prop := CI (k_bk c) (kcids (k_k c)) (pend (k_k c)) (k_log c).

Lemma CI_kc b kc kc' pd l : CI b kc pd l -> (forall x, In x kc' -> x < blen b) -> CI b kc' pd l.
Proof. intros H Hs. destruct H as [Ilen Ipend Irefs Iold Ioff Iset Ipending Idead Iheld Icomp Ilog]. constructor; auto. Qed.

Lemma CI_book b b' kc pd l :
  CI b kc pd l -> conns b' = conns b -> has_sub b' = has_sub b ->
  (forall cid, (In (Some cid) (handles b') \/ rc_sub b' = Some cid \/ cur b' = Some cid) ->
               (In (Some cid) (handles b) \/ rc_sub b = Some cid \/ cur b = Some cid) \/
               (cid < blen b /\ ~ In cid pd)) ->
  CI b' kc pd l.
Proof.
  (* once the two books share [conns] and [has_sub], every field but [ci_refs] is the same
     statement up to unfolding *)
  intros H Hc Hh Hr. destruct b as [h c cs n r a hs], b' as [h' c' cs' n' r' a' hs']. cbn in Hc, Hh. subst.
  destruct H as [Ilen Ipend Irefs Iold Ioff Iset Ipending Idead Iheld Icomp Ilog]. constructor; try assumption.
  intros cid G. destruct (Hr cid G) as [G'|G']; [exact (Irefs cid G')|exact G'].
Qed.

Definition same4 (c c' : sconn) : Prop :=
  s_sad_disposed c' = s_sad_disposed c /\ s_sad_set c' = s_sad_set c /\ s_live c' = s_live c /\
  comp_disposed c' = comp_disposed c.

Lemma slog_cons x l : slog (x :: l) = slog l ++ slog [x].
Proof. change (x :: l) with ([x] ++ l). apply slog_app. Qed.

Lemma CI_last b kc pd l cid :
  CI b kc pd l -> cid < blen b -> comp_disposed (get_conn b cid) = false -> blen b = S cid.
Proof.
  intros H Hlt Hc. destruct (Nat.lt_ge_cases (S cid) (blen b)) as [G|G]; [|lia].
  rewrite (ci_old _ _ _ _ H cid G) in Hc. discriminate.
Qed.

Lemma CI_live_last b kc pd l cid :
  CI b kc pd l -> cid < blen b -> s_live (get_conn b cid) = true -> blen b = S cid.
Proof.
  intros H Hlt Hc. apply (CI_last b kc pd l cid H Hlt).
  destruct (comp_disposed (get_conn b cid)) eqn:E; [|reflexivity].
  rewrite (ci_comp _ _ _ _ H cid Hlt E) in Hc. discriminate.
Qed.

Lemma CI_disconnected (c : kcfg) :
  CIc c -> has_sub (k_bk c) = false -> src_state (src_log (klog_of c)) = Some None.
Proof.
  intros H Hh. pose proof (ci_log _ _ _ _ H) as Hl. unfold slog in Hl. unfold klog_of. rewrite Hl.
  assert (E : last_live (k_bk c) = false).
  { unfold last_live. destruct (blen (k_bk c)) as [|n] eqn:En; [reflexivity|].
    destruct (s_live (get_conn (k_bk c) n)) eqn:G; [|reflexivity].
    rewrite (ci_comp _ _ _ _ H n) in G; [discriminate|lia|apply (ci_off _ _ _ _ H Hh); lia]. }
  now rewrite E.
Qed.

Lemma log_unsub l b cid :
  src_state (slog l) = Some (if last_live b then Some (pred (blen b)) else None) ->
  blen b = S cid -> s_live (get_conn b cid) = true ->
  src_state (slog (CESUnsub cid :: l)) = Some None.
Proof.
  intros H Hb Hl. rewrite slog_cons, src_state_app, H. unfold last_live. rewrite Hb. cbn [pred]. rewrite Hl.
  cbn. now rewrite Nat.eqb_refl.
Qed.

Definition refs (b : book) (cid : nat) : Prop :=
  In (Some cid) (handles b) \/ rc_sub b = Some cid \/ cur b = Some cid.

Lemma CI_put_gen b kc pd pd' l l' cid c' :
  CI b kc pd l -> cid < blen b ->
  (forall x, x <> cid -> (In x pd' <-> In x pd)) ->
  (pd' = [] \/ (exists n, blen b = S n /\ pd' = [n] /\ has_sub b = true)) ->
  (forall x, refs b x -> ~ In x pd') ->
  (s_sad_set c' = true -> s_sad_disposed c' = false /\ s_live c' = true) ->
  (In cid pd' -> s_sad_set c' = false /\ comp_disposed c' = false /\ s_live c' = true) ->
  (~ In cid pd' -> s_sad_disposed c' = true -> s_live c' = false) ->
  (~ In cid pd' -> s_sad_disposed c' = false -> s_sad_set c' = true) ->
  (comp_disposed c' = true -> s_live c' = false) ->
  (comp_disposed (get_conn b cid) = true -> comp_disposed c' = true) ->
  src_state (slog l') = Some (if last_live (put_conn cid c' b) then Some (pred (blen b)) else None) ->
  CI (put_conn cid c' b) kc pd' l'.
Proof.
  intros H Hlt Q1 Q2 Q3 P1 P2 P3 P4 P5 P6 P7.
  assert (Hl : blen (put_conn cid c' b) = blen b) by apply blen_put.
  assert (Hg : forall x, x <> cid -> get_conn (put_conn cid c' b) x = get_conn b x).
  { intros x Hx. rewrite get_put. destruct (Nat.eqb x cid) eqn:E; [apply Nat.eqb_eq in E; contradiction|reflexivity]. }
  assert (Hs : get_conn (put_conn cid c' b) cid = c').
  { rewrite get_put, Nat.eqb_refl. assert (E : (cid <? blen b) = true) by (apply Nat.ltb_lt; lia). now rewrite E. }
  destruct H as [Ilen Ipend Irefs Iold Ioff Iset Ipending Idead Iheld Icomp Ilog].
  constructor; rewrite ?Hl; auto.
  - intros x Hx. split; [exact (proj1 (Irefs x Hx))|exact (Q3 x Hx)].
  - intros x Hx. destruct (Nat.eq_dec x cid) as [->|N]; [rewrite Hs; apply P6; apply Iold; auto|rewrite Hg; auto].
  - intros Hh x Hx. destruct (Nat.eq_dec x cid) as [->|N];
      [rewrite Hs; apply P6; exact (Ioff Hh cid Hx)|rewrite Hg; auto; exact (Ioff Hh x Hx)].
  - intros x Hx. destruct (Nat.eq_dec x cid) as [->|N]; [rewrite Hs; auto|rewrite Hg; auto].
  - intros x Hx Hi. destruct (Nat.eq_dec x cid) as [->|N]; [rewrite Hs; auto|rewrite Hg; auto].
    apply Ipending; auto. now apply Q1.
  - intros x Hx Hi. destruct (Nat.eq_dec x cid) as [->|N]; [rewrite Hs; auto|rewrite Hg; auto].
    apply Idead; auto. intro G. apply Hi. now apply Q1.
  - intros x Hx Hi. destruct (Nat.eq_dec x cid) as [->|N]; [rewrite Hs; auto|rewrite Hg; auto].
    apply Iheld; auto. intro G. apply Hi. now apply Q1.
  - intros x Hx. destruct (Nat.eq_dec x cid) as [->|N]; [rewrite Hs; auto|rewrite Hg; auto].
Qed.

(* At the uses of [CI_put] / [CI_put_gen] below [c'] is an explicit record: [cbn; auto; try discriminate; ...]
   settles the premises that only compare its literal fields; what is left, bulleted, is at most one premise
   that needs a field of the invariant (in [CI_connret]: the one that relates [pd'] to [pd]), and the log. *)
Lemma CI_put b kc pd l l' cid c' :
  CI b kc pd l -> cid < blen b ->
  (s_sad_set c' = true -> s_sad_disposed c' = false /\ s_live c' = true) ->
  (In cid pd -> s_sad_set c' = false /\ comp_disposed c' = false /\ s_live c' = true) ->
  (~ In cid pd -> s_sad_disposed c' = true -> s_live c' = false) ->
  (~ In cid pd -> s_sad_disposed c' = false -> s_sad_set c' = true) ->
  (comp_disposed c' = true -> s_live c' = false) ->
  (comp_disposed (get_conn b cid) = true -> comp_disposed c' = true) ->
  src_state (slog l') = Some (if last_live (put_conn cid c' b) then Some (pred (blen b)) else None) ->
  CI (put_conn cid c' b) kc pd l'.
Proof.
  intros H Hlt. apply (CI_put_gen b kc pd pd l l' cid c' H Hlt).
  - tauto.
  - exact (ci_pend _ _ _ _ H).
  - intros x Hx. exact (proj2 (ci_refs _ _ _ _ H x Hx)).
Qed.

Lemma last_live_put_same b cid c' :
  s_live c' = s_live (get_conn b cid) -> last_live (put_conn cid c' b) = last_live b.
Proof.
  intros H. unfold last_live. rewrite blen_put. destruct (blen b) as [|n] eqn:E; [reflexivity|].
  rewrite get_put. destruct (Nat.eqb n cid && (cid <? blen b)) eqn:G; [|reflexivity].
  apply andb_prop in G. destruct G as [G _]. apply Nat.eqb_eq in G. now subst.
Qed.

Lemma last_live_put_last b cid c' : blen b = S cid -> last_live (put_conn cid c' b) = s_live c'.
Proof.
  intros H. unfold last_live. rewrite blen_put, H, get_put, Nat.eqb_refl, H.
  assert (E : (cid <? S cid) = true) by (apply Nat.ltb_lt; lia). now rewrite E.
Qed.

(* a record whose four connection fields are unchanged (only [s_stopped] differs) *)
Lemma CI_put_same b kc pd l cid c' :
  CI b kc pd l -> cid < blen b -> same4 (get_conn b cid) c' -> CI (put_conn cid c' b) kc pd l.
Proof.
  intros H Hlt (E1 & E2 & E3 & E4). apply (CI_put b kc pd l); [exact H|exact Hlt|..]; rewrite ?E1, ?E2, ?E3, ?E4.
  - exact (ci_set _ _ _ _ H cid Hlt).
  - exact (ci_pending _ _ _ _ H cid Hlt).
  - exact (ci_dead _ _ _ _ H cid Hlt).
  - exact (ci_held _ _ _ _ H cid Hlt).
  - exact (ci_comp _ _ _ _ H cid Hlt).
  - auto.
  - rewrite last_live_put_same by exact E3. exact (ci_log _ _ _ _ H).
Qed.

(* `finally: self.dispose()` / the composite's first member: AutoDetachObserver.dispose of connection cid *)
Lemma CI_sado b kc pd l cid :
  CI b kc pd l -> cid < blen b ->
  CI (put_conn cid (fst (sado_dispose cid (get_conn b cid))) b) kc pd
     (rev (snd (sado_dispose cid (get_conn b cid))) ++ l).
Proof.
  intros H Hlt. unfold sado_dispose. cbn [s_sad_disposed s_sad_set s_live comp_disposed].
  destruct (s_sad_disposed (get_conn b cid)) eqn:Ed.
  - cbn [fst snd rev app]. apply CI_put_same; [exact H|exact Hlt|]. unfold same4. cbn. rewrite Ed. tauto.
  - destruct (s_sad_set (get_conn b cid)) eqn:Es.
    + destruct (ci_set _ _ _ _ H cid Hlt Es) as [_ Hlive].
      unfold src_dispose. cbn [s_live]. rewrite Hlive. cbn [fst snd rev app].
      pose proof (CI_live_last b kc pd l cid H Hlt Hlive) as Hb.
      apply (CI_put b kc pd l); cbn; auto; try discriminate.
      * intros Hi. destruct (ci_pending _ _ _ _ H cid Hlt Hi) as [G _]. congruence.
      * rewrite last_live_put_last by exact Hb. cbn.
        apply (log_unsub l b cid (ci_log _ _ _ _ H) Hb Hlive).
    + cbn [fst snd rev app].
      assert (Hi : In cid pd).
      { destruct (in_dec Nat.eq_dec cid pd) as [G|G]; [exact G|].
        rewrite (ci_held _ _ _ _ H cid Hlt G Ed) in Es. discriminate. }
      destruct (ci_pending _ _ _ _ H cid Hlt Hi) as [_ [Hc Hlive]].
      apply (CI_put b kc pd l); cbn; auto; try discriminate; try tauto.
      * congruence.
      * rewrite last_live_put_same by reflexivity. exact (ci_log _ _ _ _ H).
Qed.

Lemma CI_has_false b kc pd l :
  CI b kc pd l -> pd = [] -> (forall cid, cid < blen b -> comp_disposed (get_conn b cid) = true) ->
  CI (set_has false b) kc pd l.
Proof.
  intros H Hp Hall. destruct H as [Ilen Ipend Irefs Iold Ioff Iset Ipending Idead Iheld Icomp Ilog].
  constructor; auto.
Qed.

(* CompositeDisposable.dispose of connection cid (a handle somebody holds) *)
Lemma CI_comp_dispose b kc pd l cid :
  CI b kc pd l -> cid < blen b -> ~ In cid pd ->
  CI (fst (comp_dispose cid b)) kc pd (rev (snd (comp_dispose cid b)) ++ l).
Proof.
  intros H Hlt Hn. unfold comp_dispose.
  destruct (comp_disposed (get_conn b cid)) eqn:Ec; [exact H|].
  (* a composite not yet disposed is the last connection's and nothing is pending: after it every record
     is disposed, which is what lets [has_sub] drop ([CI_has_false]) *)
  pose proof (CI_last b kc pd l cid H Hlt Ec) as Hb.
  assert (Hp : pd = []).
  { destruct (ci_pend _ _ _ _ H) as [G|[n [G1 [G2 _]]]]; [exact G|].
    exfalso. apply Hn. rewrite G2. left. lia. }
  set (c1 := SConn (s_stopped (get_conn b cid)) (s_sad_disposed (get_conn b cid)) (s_sad_set (get_conn b cid))
                   (s_live (get_conn b cid)) true).
  destruct (Connectable.sado_dispose cid c1) as [c2 evs] eqn:Es. cbn [fst snd].
  assert (Hall : forall c2', comp_disposed c2' = true ->
            forall x, x < blen (put_conn cid c2' b) -> comp_disposed (get_conn (put_conn cid c2' b) x) = true).
  { intros c2' Hc x Hx. rewrite blen_put in Hx. rewrite get_put.
    destruct (Nat.eqb x cid && (cid <? blen b)) eqn:G; [exact Hc|].
    apply (ci_old _ _ _ _ H). destruct (Nat.eq_dec x cid) as [->|N]; [|lia].
    rewrite Nat.eqb_refl in G. cbn in G. apply Nat.ltb_ge in G. lia. }
  unfold Connectable.sado_dispose, c1 in Es. cbn [s_sad_disposed s_sad_set s_live comp_disposed s_stopped] in Es.
  destruct (s_sad_disposed (get_conn b cid)) eqn:Ed.
  - inversion Es; subst c2 evs; clear Es. cbn [rev app].
    pose proof (ci_dead _ _ _ _ H cid Hlt Hn Ed) as Hlive.
    apply CI_has_false; [|exact Hp|apply Hall; reflexivity].
    apply (CI_put b kc pd l); cbn; auto; try discriminate; try tauto.
    + intros G. destruct (ci_set _ _ _ _ H cid Hlt G). congruence.
    + rewrite last_live_put_same by reflexivity. exact (ci_log _ _ _ _ H).
  - pose proof (ci_held _ _ _ _ H cid Hlt Hn Ed) as Hset. rewrite Hset in Es.
    destruct (ci_set _ _ _ _ H cid Hlt Hset) as [_ Hlive].
    unfold Connectable.src_dispose in Es. cbn [s_live] in Es. rewrite Hlive in Es.
    inversion Es; subst c2 evs; clear Es. cbn [rev app].
    apply CI_has_false; [|exact Hp|apply Hall; reflexivity].
    apply (CI_put b kc pd l); cbn; auto; try discriminate; try tauto.
    rewrite last_live_put_last by exact Hb. cbn.
    apply (log_unsub l b cid (ci_log _ _ _ _ H) Hb Hlive).
Qed.

Lemma refs_conn_return w r b cid :
  refs (conn_return w r b) cid -> refs b cid \/ r = Some cid.
Proof.
  unfold refs. destruct w; cbn.
  - intros [G|G]; [|tauto]. apply in_app_or in G. destruct G as [G|[G|[]]]; [tauto|right; exact G].
  - intros [G|[G|G]]; tauto.
  - tauto.
Qed.

Lemma CI_conn_return b kc pd l w r :
  CI b kc pd l -> (forall cid, r = Some cid -> refs b cid \/ (cid < blen b /\ ~ In cid pd)) ->
  CI (conn_return w r b) kc pd l.
Proof.
  intros H Hr. apply (CI_book b); [exact H|destruct w; reflexivity|destruct w; reflexivity|].
  intros cid G. apply refs_conn_return in G. destruct G as [G|G]; [left; exact G|exact (Hr cid G)].
Qed.

(* source.subscribe(self.subject) returned: the disposable is stored, the composite built *)
Lemma CI_connret b kc pd0 l cid w :
  CI b kc (cid :: pd0) l -> cid < blen b ->
  let c := get_conn b cid in
  let r := if s_sad_disposed c then src_dispose cid c
           else (SConn (s_stopped c) false true (s_live c) (comp_disposed c), []) in
  CI (conn_return w (Some cid) (set_cur (Some cid) (put_conn cid (fst r) b))) kc pd0 (rev (snd r) ++ l).
Proof.
  (* the pending id is the last connection's and the only one pending; its record changes with [pd' = []],
     then [cur] and the slot of the caller point at [cid], which is no longer pending *)
  intros H Hlt c r.
  assert (Hp : pd0 = [] /\ blen b = S cid).
  { destruct (ci_pend _ _ _ _ H) as [G|[n [G1 [G2 _]]]]; [discriminate|]. inversion G2. subst. auto. }
  destruct Hp as [-> Hb].
  destruct (ci_pending _ _ _ _ H cid Hlt (or_introl eq_refl)) as [Hset [Hcomp Hlive]]. fold c in Hset, Hcomp, Hlive.
  assert (G : CI (put_conn cid (fst r) b) kc [] (rev (snd r) ++ l)).
  { unfold r. destruct (s_sad_disposed c) eqn:Ed.
    - unfold Connectable.src_dispose. rewrite Hlive. cbn [fst snd rev app].
      apply (CI_put_gen b kc [cid] [] l); cbn [s_sad_set s_sad_disposed s_live comp_disposed s_stopped In];
        auto; try discriminate; try tauto; try congruence.
      + intros x Hx. split; [tauto|intros [G|[]]; congruence].
      + rewrite last_live_put_last by exact Hb. cbn.
        apply (log_unsub l b cid (ci_log _ _ _ _ H) Hb Hlive).
    - cbn [fst snd rev app].
      apply (CI_put_gen b kc [cid] [] l); cbn [s_sad_set s_sad_disposed s_live comp_disposed s_stopped In];
        auto; try discriminate; try tauto; try congruence.
      + intros x Hx. split; [tauto|intros [G|[]]; congruence].
      + rewrite last_live_put_same by reflexivity. exact (ci_log _ _ _ _ H). }
  apply CI_conn_return.
  - apply (CI_book (put_conn cid (fst r) b)); [exact G|reflexivity|reflexivity|].
    intros x [Hx|[Hx|Hx]]; [left; left; exact Hx|left; right; left; exact Hx|].
    cbn in Hx. inversion Hx. subst x. right. rewrite blen_put. split; [exact Hlt|intros []].
  - intros x Hx. inversion Hx. subst x. left. right. right. reflexivity.
Qed.

Lemma get_conn_app_old b c x : x < blen b -> get_conn (set_conns (conns b ++ [c]) b) x = get_conn b x.
Proof. intros H. unfold get_conn. cbn. now rewrite app_nth1. Qed.
Lemma get_conn_app_new b c : get_conn (set_conns (conns b ++ [c]) b) (blen b) = c.
Proof. unfold get_conn, blen. cbn. now rewrite app_nth2, Nat.sub_diag by lia. Qed.

(* connect() while disconnected: the source is subscribed *)
Lemma CI_connect b kc l :
  CI b kc [] l -> has_sub b = false ->
  CI (set_conns (conns b ++ [fresh_sconn]) (set_has true b)) (blen b :: kc) [blen b] (CESSub (blen b) :: l).
Proof.
  (* the new record sits at index [n]; the old ones are read through [Ho] and are all disposed ([ci_off]) *)
  intros H Hh. set (n := blen b).
  assert (Hl : blen (set_conns (conns b ++ [fresh_sconn]) (set_has true b)) = S n).
  { unfold blen. cbn. rewrite app_length. cbn. unfold n, blen. lia. }
  assert (Ho : forall x, x < n -> get_conn (set_conns (conns b ++ [fresh_sconn]) (set_has true b)) x = get_conn b x).
  { intros x Hx. apply (get_conn_app_old (set_has true b)). exact Hx. }
  assert (Hn : get_conn (set_conns (conns b ++ [fresh_sconn]) (set_has true b)) n = fresh_sconn).
  { apply (get_conn_app_new (set_has true b)). }
  pose proof (ci_off _ _ _ _ H Hh) as Hall.
  destruct H as [Ilen Ipend Irefs Iold Ioff Iset Ipending Idead Iheld Icomp Ilog].
  constructor; rewrite ?Hl.
  - intros x [<-|Hx]; [lia|]. specialize (Ilen x Hx). fold n in Ilen. lia.
  - right. exists n. auto.
  - intros x Hx. destruct (Irefs x Hx) as [G _]. fold n in G. split; [lia|]. intros [E|[]]. lia.
  - intros x Hx. rewrite Ho by lia. apply Hall. fold n. lia.
  - discriminate.
  - intros x Hx. destruct (Nat.eq_dec x n) as [->|N]; [rewrite Hn; discriminate|]. rewrite Ho by lia. apply Iset. fold n. lia.
  - intros x Hx [<-|[]]. rewrite Hn. auto.
  - intros x Hx Hi. destruct (Nat.eq_dec x n) as [->|N]; [exfalso; apply Hi; left; reflexivity|].
    rewrite Ho by lia. apply Idead; [fold n; lia|tauto].
  - intros x Hx Hi. destruct (Nat.eq_dec x n) as [->|N]; [exfalso; apply Hi; left; reflexivity|].
    rewrite Ho by lia. apply Iheld; [fold n; lia|tauto].
  - intros x Hx. destruct (Nat.eq_dec x n) as [->|N]; [rewrite Hn; discriminate|]. rewrite Ho by lia.
    apply Icomp. fold n. lia.
  - rewrite slog_cons, src_state_app, Ilog.
    assert (E : last_live b = false).
    { unfold last_live. destruct (blen b) as [|m] eqn:Em; [reflexivity|].
      destruct (s_live (get_conn b m)) eqn:G; [|reflexivity].
      rewrite (Icomp m) in G; [discriminate|lia|apply Hall; lia]. }
    rewrite E. unfold last_live. rewrite Hl, Hn. reflexivity.
Qed.

Lemma CI_log b kc pd l l' : CI b kc pd l -> slog l' = slog l -> CI b kc pd l'.
Proof. intros H E. destruct H as [Ilen Ipend Irefs Iold Ioff Iset Ipending Idead Iheld Icomp Ilog]. constructor; auto. now rewrite E. Qed.

Definition nosrc (e : cevent) : Prop := match e with CESSub _ | CESUnsub _ => False | _ => True end.

Lemma slog_nosrc l1 l : Forall nosrc l1 -> slog (l1 ++ l) = slog l.
Proof.
  intros H. rewrite slog_app. replace (slog l1) with (@nil (bool * nat)); [now rewrite app_nil_r|].
  unfold slog, src_log. induction H as [|e l1 He _ IH]; [reflexivity|].
  cbn [rev]. rewrite flat_map_app, <- IH. cbn. destruct e; cbn in *; tauto.
Qed.

Lemma kcids_cons i k : kcids (i :: k) = icids i ++ kcids k.
Proof. reflexivity. Qed.
Lemma pend_cons i k : pend (i :: k) = ipend i ++ pend k.
Proof. reflexivity. Qed.

Lemma kcids_srcs n (len : nat) x :
  In x (kcids (map (fun cid => @KSrc A E_in cid n) (seq 0 len))) -> x < len.
Proof.
  unfold kcids. rewrite flat_map_concat_map, map_map. cbn [icids]. rewrite <- flat_map_concat_map.
  intros H. apply in_flat_map in H. destruct H as [y [Hy [<-|[]]]]. apply in_seq in Hy. lia.
Qed.
Lemma pend_srcs n (len : nat) : pend (map (fun cid => @KSrc A E_in cid n) (seq 0 len)) = [].
Proof. induction (seq 0 len); cbn; auto. Qed.

Lemma CI_push_srcs b kc pd l n :
  CI b kc pd l -> CI b (kcids (map (fun cid => @KSrc A E_in cid n) (seq 0 (length (conns b)))) ++ kc) pd l.
Proof.
  intros H. apply (CI_kc _ _ _ _ _ H). intros x Hx. apply in_app_or in Hx.
  destruct Hx as [Hx|Hx]; [exact (kcids_srcs _ _ _ Hx)|exact (ci_len _ _ _ _ H x Hx)].
Qed.

(* [kcids] and [pend] of a continuation written with [++], [::] and maps of KS / KOp / KSrc *)
Ltac cids_census := rewrite ?kcids_app, ?pend_app, ?kcids_cons, ?pend_cons, ?kcids_KS, ?pend_KS, ?kcids_KOp, ?pend_KOp,
                   ?pend_srcs, ?pend_KSrc;
           cbn [icids ipend app].

Theorem CI_step c : CIc c -> CIc (stepk c).
Proof.
  destruct c as [st b m k l]. unfold CIc. destruct k as [|i k]; [exact (fun H => H)|].
  intros H. cbn [k_k k_bk k_log] in H.
  destruct i as [p|ei|o|o|o|o u| |w|cid w|cid n|cid]; cbn [kstep k_k k_bk k_log k_out k_eng].
  - (* KOp *)
    assert (H0 : CI b (kcids k) (pend k) (CEOp p :: l)).
    { apply (CI_log _ _ _ l); [exact H|]. apply (slog_nosrc [CEOp p]). repeat constructor. }
    destruct p as [o|o| |j|v|e| |d].
    (* the source emits (CNext, CErr, CDone): the KSrc pushed mention existing connections only *)
    5-7: cbn [k_k k_bk k_log]; cids_census; apply CI_push_srcs; exact H0.
    + destruct (m o); [exact H0|]. destruct md; cbn [k_k k_bk k_log]; cids_census; exact H0.
    + destruct (m o) as [u|]; [|exact H0]. destruct (u_handle u); [|exact H0].
      destruct (is_outer_mode md); cbn [k_k k_bk k_log]; cids_census; exact H0.
    + destruct reach; cbn [k_k k_bk k_log]; cids_census; exact H0.
    + destruct (nth_error (handles b) j) as [[cid|]|] eqn:E; cbn [k_k k_bk k_log]; try exact H0.
      * destruct (ci_refs _ _ _ _ H0 cid (or_introl (nth_error_In _ _ E))) as [G1 G2].
        pose proof (CI_comp_dispose b _ _ _ cid H0 G1 G2) as G.
        destruct (Connectable.comp_dispose cid b) as [b' evs]. exact G.
      * apply (CI_log _ _ _ (CEOp (CDisc j) :: l)); [exact H0|].
        apply (slog_nosrc [CERaised attribute_exn]). repeat constructor.
    + cbn [k_k k_bk k_log]. cids_census. exact H0.

  - (* KS *)
    destruct (e_exec ei st) as [[st' pushed] evs].
    set (l' := rev (map (fun e => match e with
                                  | VOp p => CECall p | VGot o n => CEGot o n | VRaised x => CERaised x
                                  end) evs) ++ l).
    assert (H0 : CI b (kcids k) (pend k) l').
    { apply (CI_log _ _ _ l); [exact H|]. apply slog_nosrc. apply Forall_rev. apply Forall_forall.
      intros e He. apply in_map_iff in He. destruct He as [x [<- _]]. destruct x; exact I. }
    destruct (fold_left _ evs None) as [[o n]|]; cbn [k_k k_bk k_log]; cids_census; [|exact H0].
    destruct (is_terminal n && is_outer_mode md); cids_census; exact H0.
  - (* KInc *)
    cbn [k_k k_bk k_log]. cids_census.
    assert (H0 : CI (set_count (count b + 1)%Z b) (kcids k) (pend k) l).
    { apply (CI_book b); [exact H|reflexivity|reflexivity|]. intros cid G. left. exact G. }
    match goal with |- context [if ?c then [KConnect ?w] else []] => destruct c end; cids_census; exact H0.
  - (* KRet *)
    destruct (m o) as [u|]; [|exact H]. destruct (u_sad_disposed u); cbn [k_k k_bk k_log]; cids_census; exact H.
  - (* KHandle *)
    destruct (m o) as [u|]; exact H.
  - (* KOuter *)
    destruct (m o) as [x|]; [|exact H]. destruct (u_sad_disposed x); [exact H|].
    destruct (u_sad_set x); [|exact H]. destruct u; cbn [k_k k_bk k_log]; cids_census; exact H.
  - (* KDec *)
    destruct md as [| |n]; [exact H| |].
    + assert (H0 : CI (set_count (count b - 1)%Z b) (kcids k) (pend k) l).
      { apply (CI_book b); [exact H|reflexivity|reflexivity|]. intros cid G. left. exact G. }
      match goal with |- context [if ?c then _ else _] => destruct c end; [|exact H0].
      destruct (rc_sub (set_count (count b - 1)%Z b)) as [cid|] eqn:E; [|exact H0].
      destruct (ci_refs _ _ _ _ H0 cid (or_intror (or_introl E))) as [G1 G2].
      pose proof (CI_comp_dispose _ _ _ _ cid H0 G1 G2) as G.
      destruct (Connectable.comp_dispose cid _) as [b' evs]. exact G.
    + apply (CI_book b); [exact H|reflexivity|reflexivity|]. intros cid G. left. exact G.
  - (* KConnect *)
    destruct (has_sub b) eqn:Eh; cbn [k_k k_bk k_log].
    + apply CI_conn_return; [exact H|]. intros cid G. left. right. right. exact G.
    + assert (Hp : pend k = []).
      { destruct (ci_pend _ _ _ _ H) as [G|[n [_ [_ G]]]]; [exact G|congruence]. }
      cids_census. rewrite Hp. cbn [app].
      assert (H' : CI b (kcids k) [] l) by (rewrite <- Hp; exact H).
      pose proof (CI_connect b _ l H' Eh) as G. fold (blen b).
      apply (CI_kc _ _ _ _ _ G). intros x Hx. apply in_app_or in Hx.
      destruct Hx as [Hx|Hx]; [apply kcids_KSrc in Hx; subst x|apply (ci_len _ _ _ _ G); exact Hx].
      apply (ci_len _ _ _ _ G). left. reflexivity.
  - (* KConnRet *)
    cbn [k_k k_bk k_log]. rewrite kcids_cons, pend_cons in H. cbn [icids ipend app] in H.
    assert (Hlt : cid < blen b) by (apply (ci_len _ _ _ _ H); left; reflexivity).
    pose proof (CI_connret b _ _ l cid w H Hlt) as G. cbn zeta in G.
    destruct (if s_sad_disposed (get_conn b cid) then _ else _) as [c1 evs]. cbn [fst snd] in G.
    apply (CI_kc _ _ _ _ _ G). intros x Hx.
    assert (E : forall w r b0, blen (conn_return w r b0) = blen b0) by (intros [] ? ?; reflexivity).
    rewrite E. change (blen (set_cur (Some cid) (put_conn cid c1 b))) with (blen (put_conn cid c1 b)).
    rewrite blen_put. apply (ci_len _ _ _ _ H). right. exact Hx.
  - (* KSrc *)
    rewrite kcids_cons, pend_cons in H. cbn [icids ipend app] in H.
    assert (Hlt : cid < blen b) by (apply (ci_len _ _ _ _ H); left; reflexivity).
    assert (H0 : CI b (kcids k) (pend k) l).
    { apply (CI_kc _ _ _ _ _ H). intros x Hx. apply (ci_len _ _ _ _ H). right. exact Hx. }
    destruct (negb (s_live (get_conn b cid))); [exact H0|].
    destruct (s_stopped (get_conn b cid)); [exact H0|].
    destruct n as [v|e|]; cbn [k_k k_bk k_log]; cids_census.
    + exact H0.
    + apply CI_put_same; [exact H|exact Hlt|]. unfold same4. cbn. tauto.
    + apply CI_put_same; [exact H|exact Hlt|]. unfold same4. cbn. tauto.
  - (* KSrcFin *)
    rewrite kcids_cons, pend_cons in H. cbn [icids ipend app] in H.
    assert (Hlt : cid < blen b) by (apply (ci_len _ _ _ _ H); left; reflexivity).
    pose proof (CI_sado b _ _ l cid H Hlt) as G.
    destruct (Connectable.sado_dispose cid (get_conn b cid)) as [c1 evs]. cbn [fst snd k_k k_bk k_log] in *.
    apply (CI_kc _ _ _ _ _ G). intros x Hx. rewrite blen_put. apply (ci_len _ _ _ _ H). right. exact Hx.
Qed.

Lemma krun_ind (P : kcfg -> Prop) :
  (forall c, P c -> P (stepk c)) -> forall n c, P c -> P (runk n c).
Proof.
  intros Hs. induction n as [|n IH]; intros c Hc; [exact Hc|].
  cbn [krun]. destruct (k_k c); [exact Hc|]. apply IH. apply Hs. exact Hc.
Qed.

Lemma kstep_done c : k_k c = [] -> stepk c = c.
Proof. destruct c as [st b m k l]. cbn [k_k]. intros ->. reflexivity. Qed.

(* ---- what a step puts in the place of the head of the continuation: the script of a callback
        (only a subscriber's reaction pushes driver operations), then engine instructions, then
        instructions of the connectable layer, each of which follows certain heads only ---- *)
Definition follows (i j : kinstr) : Prop :=
  match i with
  | KOp (CSub o) => j = KHandle o \/ j = KInc o
  | KOp (CUnsub o) => j = KOuter o true
  | KOp CConnect => j = KConnect ByDriver
  | KOp (CNext _ | CErr _ | CDone) => exists cid n, j = KSrc cid n
  | KS _ => exists o, j = KOuter o false
  | KInc o => j = KRet o \/ exists w, j = KConnect w
  | KRet _ | KOuter _ _ => j = KDec
  | KConnect w => (exists cid n, j = KSrc cid n) \/ exists cid, j = KConnRet cid w
  | KSrc cid _ => j = KSrcFin cid
  | _ => False
  end.

Lemma Forall_map_all {X Y} (P : Y -> Prop) (f : X -> Y) l : (forall x, P (f x)) -> Forall P (map f l).
Proof. intros H. induction l; constructor; auto. Qed.

(* the heads at which the connectable layer calls a method of the subject *)
Definition calls (i : kinstr) : bool :=
  match i with KOp _ | KInc _ | KOuter _ true | KSrc _ _ => true | _ => false end.

(* the engine instructions a step at head [i] pushes: the engine's own, or at most one call *)
Definition pushes_engine (i : kinstr) (st : E_st) (es : list E_in) : Prop :=
  match i with
  | KS ei => es = snd (fst (e_exec ei st))
  | _ => es = [] \/ calls i = true /\ exists p, es = e_call p
  end.

(* the side conditions of [kstep_pushes] on explicit lists: [cbn] reduces [follows i j] / [pushes_engine i st es]
   to the disjunction for the head [i] at hand, [eauto] picks the disjunct and its witnesses *)
Local Hint Constructors Forall : kpush.
Local Hint Extern 1 (follows _ _) => cbn; eauto : kpush.
Local Hint Extern 1 (pushes_engine _ _ _) => cbn; eauto : kpush.

Theorem kstep_pushes c i k :
  k_k c = i :: k ->
  exists ops es rest,
    k_k (stepk c) = map KOp ops ++ map KS es ++ rest ++ k /\
    (ops = [] \/ exists o n, ops = react o n) /\ Forall (follows i) rest /\ pushes_engine i (k_eng c) es.
Proof.
  destruct c as [st b m k0 l]. cbn [k_k k_eng]. intros ->.
  assert (P : forall es rest,
            Forall (follows i) rest -> pushes_engine i st es ->
            exists ops es' rest',
              map KS es ++ rest ++ k = map KOp ops ++ map KS es' ++ rest' ++ k /\
              (ops = [] \/ exists o n, ops = react o n) /\ Forall (follows i) rest' /\ pushes_engine i st es')
    by (intros es rest H H'; exists [], es, rest; auto).
  destruct i as [p|ei|o|o|o|o u| |w|cid w|cid n|cid]; cbn [kstep k_k k_bk k_log k_out k_eng];
    try pose proof (P [] [] (Forall_nil _) (or_introl eq_refl)) as P0.
  - destruct p as [o|o| |j|v|e| |d].
    (* the source emits: one KSrc for every subscription ever made *)
    5-7: refine (P [] _ _ (or_introl eq_refl)); apply Forall_map_all; cbn; eauto.
    + destruct (m o); [apply P0|].
      destruct md; [apply (P (e_call (SSub o)) [KHandle o])|apply (P [] [KInc o])..]; auto with kpush.
    + destruct (m o) as [u|]; [|apply P0]. destruct (u_handle u); [|apply P0].
      destruct (is_outer_mode md); [apply (P [] [KOuter o true])|apply (P (e_call (SUnsub o)) [])]; auto with kpush.
    + destruct reach; [apply (P [] [KConnect ByDriver]); auto with kpush|apply P0].
    + destruct (nth_error (handles b) j) as [[cid|]|]; try apply P0. destruct (comp_dispose cid b). apply P0.
    + apply (P (e_call (SAdv d)) []); auto with kpush.
  - destruct (e_exec ei st) as [[st' pushed] evs] eqn:Ex.
    assert (Hes : pushes_engine (KS ei) st pushed) by (cbn; now rewrite Ex).
    destruct (fold_left _ evs None) as [[o n]|]; [|apply (P pushed []); [auto with kpush|exact Hes]].
    eexists _, pushed, _. split; [reflexivity|]. split; [right; eauto|]. split; [|exact Hes].
    destruct (is_terminal n && is_outer_mode md); auto with kpush.
  - match goal with |- context [if ?c then [KConnect ?w] else []] =>
      destruct c; [apply (P (e_call (SSub o)) [KConnect w; KRet o])|apply (P (e_call (SSub o)) [KRet o])] end; auto with kpush.
  - destruct (m o) as [u|]; [|apply P0]. destruct (u_sad_disposed u); [|apply P0].
    apply (P [] [KDec]); auto with kpush.
  - destruct (m o); apply P0.
  - destruct (m o) as [x|]; [|apply P0]. destruct (u_sad_disposed x); [apply P0|]. destruct (u_sad_set x); [|apply P0].
    destruct u; [apply (P (e_call (SUnsub o)) [KDec])|apply (P [] [KDec])]; auto with kpush.
  - destruct md as [| |n]; try apply P0. destruct (_ && _); [|apply P0].
    destruct (rc_sub _) as [cid|]; [|apply P0]. destruct (comp_dispose cid _). apply P0.
  - destruct (has_sub b); [apply P0|].
    exists [], [], (map (KSrc (length (conns b))) cold ++ [KConnRet (length (conns b)) w]).
    split; [cbn [k_k map app]; now rewrite <- app_assoc|]. split; [now left|]. split; [|now left].
    apply Forall_app. split; [apply Forall_map_all; cbn; eauto|auto with kpush].
  - destruct (if s_sad_disposed (get_conn b cid) then _ else _). apply P0.
  - destruct (negb (s_live (get_conn b cid))); [apply P0|]. destruct (s_stopped (get_conn b cid)); [apply P0|].
    destruct n as [v|e|];
      [apply (P (e_call (SNext v)) [])|apply (P (e_call (SErr e)) [KSrcFin cid])
      |apply (P (e_call SDone) [KSrcFin cid])]; auto with kpush.
  - destruct (sado_dispose cid (get_conn b cid)). apply P0.
Qed.

Lemma follows_not_KS i e : ~ follows i (KS e).
Proof. destruct i as [[]| | | | | | | | | |]; cbn; intros H; decompose [or ex] H; try discriminate; assumption. Qed.

Context (e_drain : list E_in).

Lemma kcids_ops ops :
  kcids (flat_map (fun p : @cop A => KOp p :: map (@KS A E_in) e_drain) ops) = [].
Proof. induction ops as [|p t IH]; [reflexivity|]. cbn [flat_map]. cids_census. exact IH. Qed.
Lemma pend_ops ops :
  pend (flat_map (fun p : @cop A => KOp p :: map (@KS A E_in) e_drain) ops) = [].
Proof. induction ops as [|p t IH]; [reflexivity|]. cbn [flat_map]. cids_census. exact IH. Qed.

Lemma kcids_prog top : kcids (prog e_drain md top) = [].
Proof. unfold prog. cids_census. rewrite kcids_ops. destruct md as [| |[|n]]; reflexivity. Qed.
Lemma pend_prog top : pend (prog e_drain md top) = [].
Proof. unfold prog. cids_census. rewrite pend_ops. destruct md as [| |[|n]]; reflexivity. Qed.

Lemma CI_fresh_book : CI fresh_book [] [] [].
Proof.
  clear. constructor; cbn; try tauto; try lia; try discriminate.
  intros cid [[]|[G|G]]; discriminate.
Qed.

Lemma CI_init st0 top : CIc (kinit e_drain md st0 top).
Proof. unfold CIc, kinit. cbn [k_bk k_k k_log]. rewrite kcids_prog, pend_prog. exact CI_fresh_book. Qed.

Theorem reachable_CI st0 top fuel : CIc (runk fuel (kinit e_drain md st0 top)).
Proof. apply krun_ind; [apply CI_step|apply CI_init]. Qed.

Definition is_ssub (e : cevent) : bool := match e with CESSub _ => true | _ => false end.
Definition nssub (l : list cevent) : nat := length (filter is_ssub l).

Lemma nssub_app l1 l2 : nssub (l1 ++ l2) = nssub l1 + nssub l2.
Proof. unfold nssub. now rewrite filter_app, app_length. Qed.

Lemma sado_events cid c :
  snd (sado_dispose cid c) = [] \/ snd (sado_dispose cid c) = [CESUnsub cid].
Proof.
  unfold Connectable.sado_dispose, Connectable.src_dispose. cbn [s_sad_disposed s_sad_set s_live].
  destruct (s_sad_disposed c); [now left|]. destruct (s_sad_set c); [|now left].
  destruct (s_live c); [now right|now left].
Qed.

Lemma comp_events cid b :
  snd (comp_dispose cid b) = [] \/ snd (comp_dispose cid b) = [CESUnsub cid].
Proof.
  unfold Connectable.comp_dispose. destruct (comp_disposed (get_conn b cid)); [now left|].
  match goal with |- context [Connectable.sado_dispose cid ?c] => pose proof (sado_events cid c) as H;
    destruct (Connectable.sado_dispose cid c) as [c2 evs] end. exact H.
Qed.

(* ---- what a step appends to the log, and what it does to the engine: an engine instruction logs
        the engine's events, a connect() made while disconnected the source's subscription, every
        other step only events that neither subscribe the source nor belong to the subject ---- *)
Definition aside (e : cevent) : Prop :=
  match e with CEOp _ | CERaised _ | CESUnsub _ => True | _ => False end.

Lemma aside_sado cid c : Forall aside (rev (snd (sado_dispose cid c))).
Proof. destruct (sado_events cid c) as [->| ->]; repeat constructor. Qed.
Lemma aside_comp cid b : Forall aside (rev (snd (comp_dispose cid b))).
Proof. destruct (comp_events cid b) as [->| ->]; repeat constructor. Qed.

Theorem kstep_logs c i k :
  k_k c = i :: k ->
  exists news, k_log (stepk c) = news ++ k_log c /\
    match i with
    | KS ei => k_eng (stepk c) = fst (fst (e_exec ei (k_eng c))) /\
               news = rev (map (fun e => match e with
                                         | VOp p => CECall p | VGot o n => CEGot o n | VRaised x => CERaised x
                                         end) (snd (e_exec ei (k_eng c))))
    | KConnect _ => k_eng (stepk c) = k_eng c /\
                    news = if has_sub (k_bk c) then [] else [CESSub (blen (k_bk c))]
    | _ => k_eng (stepk c) = k_eng c /\ Forall aside news
    end.
Proof.
  destruct c as [st b m k0 l]. cbn [k_k k_log k_eng k_bk]. intros ->.
  (* the shape of the goal at every head but [KS] and [KConnect] once the step is reduced: the engine
     component is [st] again and the log [news ++ l] for explicit [news] *)
  assert (Q : forall news, Forall aside news ->
            exists news', news ++ l = news' ++ l /\ st = st /\ Forall aside news')
    by (intros news H; exists news; auto).
  pose proof (Q [] (Forall_nil _)) as Q0.
  destruct i as [p|ei|o|o|o|o u| |w|cid w|cid n|cid]; cbn [kstep k_k k_bk k_log k_out k_eng].
  - assert (Qp := Q [CEOp p] (Forall_cons (CEOp p) I (Forall_nil _))).
    destruct p as [o|o| |j|v|e| |d]; try apply Qp.
    + destruct (m o); [apply Qp|]. destruct md; apply Qp.
    + destruct (m o) as [u|]; [|apply Qp]. destruct (u_handle u); [|apply Qp]. destruct (is_outer_mode md); apply Qp.
    + destruct reach; apply Qp.
    + destruct (nth_error (handles b) j) as [[cid|]|]; [|apply (Q [CERaised attribute_exn; CEOp (CDisc j)]); repeat constructor|apply Qp].
      pose proof (aside_comp cid b) as G. destruct (comp_dispose cid b) as [b' evs].
      exists (rev evs ++ [CEOp (CDisc j)]). cbn [k_log k_eng snd] in *. rewrite <- app_assoc.
      split; [reflexivity|]. split; [reflexivity|]. apply Forall_app. split; [exact G|repeat constructor].
  - destruct (e_exec ei st) as [[st' pushed] evs].
    destruct (fold_left _ evs None) as [[o n]|]; eexists; cbn [k_log k_eng fst snd]; auto.
  - apply Q0.
  - destruct (m o) as [u|]; [|apply Q0]. destruct (u_sad_disposed u); apply Q0.
  - destruct (m o); apply Q0.
  - destruct (m o) as [x|]; [|apply Q0]. destruct (u_sad_disposed x); [apply Q0|]. destruct (u_sad_set x); apply Q0.
  - destruct md as [| |n]; try apply Q0. destruct (_ && _); [|apply Q0]. destruct (rc_sub _) as [cid|]; [|apply Q0].
    match goal with |- context [comp_dispose cid ?b1] => pose proof (aside_comp cid b1) as G;
      destruct (comp_dispose cid b1) as [b' evs] end. apply Q. exact G.
  - destruct (has_sub b); eexists; cbn [k_log k_eng]; [split; [exact (eq_refl ([] ++ l))|auto]|].
    split; [exact (eq_refl ([CESSub (blen b)] ++ l))|auto].
  - destruct (s_sad_disposed (get_conn b cid)); [|apply Q0].
    unfold src_dispose. destruct (s_live (get_conn b cid)); [apply (Q [CESUnsub cid]); repeat constructor|apply Q0].
  - destruct (negb (s_live (get_conn b cid))); [apply Q0|]. destruct (s_stopped (get_conn b cid)); [apply Q0|].
    destruct n; apply Q0.
  - pose proof (aside_sado cid (get_conn b cid)) as G.
    destruct (sado_dispose cid (get_conn b cid)) as [c1 evs]. apply Q. exact G.
Qed.

Lemma nssub_aside news : Forall aside news -> nssub news = 0.
Proof. induction 1 as [|e news He _ IH]; [reflexivity|]. destruct e; try contradiction; exact IH. Qed.

Lemma nssub_map_ev (evs : list (@sev A E_op)) :
  nssub (rev (map (fun e => match e with
                            | VOp p => CECall p | VGot o n => CEGot o n | VRaised x => CERaised x
                            end) evs)) = 0.
Proof.
  induction evs as [|e evs IH]; [reflexivity|]. cbn [map rev]. rewrite nssub_app, IH. destruct e; reflexivity.
Qed.

(* nothing else ever subscribes the source: the number of subscriptions grows by one exactly at a
   connect() made while disconnected *)
Theorem only_connect_subscribes c :
  nssub (k_log (stepk c)) =
  nssub (k_log c) + match k_k c with
                    | KConnect _ :: _ => if has_sub (k_bk c) then 0 else 1
                    | _ => 0
                    end.
Proof.
  destruct (k_k c) as [|i k] eqn:Ek; [rewrite kstep_done by exact Ek; lia|].
  destruct (kstep_logs c i k Ek) as (news & -> & H). rewrite nssub_app.
  destruct i; try (rewrite (nssub_aside news (proj2 H)); lia); destruct H as [_ ->].
  - rewrite nssub_map_ev. lia.
  - destruct (has_sub (k_bk c)); cbn; lia.
Qed.

(* a notification of the source reaches the subject through a subscription that is alive and whose
   observer has not seen a terminal notification *)
Theorem source_notification_forwarded st b m cid v k l :
  s_live (get_conn b cid) = true -> s_stopped (get_conn b cid) = false ->
  stepk (KCfg st b m (KSrc cid (Next v) :: k) l) = KCfg st b m (map KS (e_call (SNext v)) ++ k) l.
Proof. intros H1 H2. cbn. now rewrite H1, H2. Qed.
End Facts.

(* ---- the subject's side of the machine: the engine's state, the engine instructions pending on
        the continuation, the calls and callbacks of the log.  A step either runs one engine
        instruction or leaves the engine alone and at most pushes one call in front of what is
        pending. ---- *)
Section SubjectSide.
Context {A E_st E_in E_op Ev : Type}.
Context (e_exec : E_in -> E_st -> E_st * list E_in * list (@sev A E_op)).
Context (e_call : @sop A -> list E_in).
Context (md : mode) (reach : bool) (cold : list (ev A)) (react : nat -> nat -> list (@cop A)).
Context (fop : E_op -> Ev) (fgot : nat -> ev A -> Ev).
Notation kinstr := (@kinstr A E_in).
Notation kcfg := (@kcfg A E_st E_in E_op).
Notation cevent := (@cevent A E_op).
Notation stepk := (kstep e_exec e_call md reach cold react).

Definition kspart (k : list kinstr) : list E_in :=
  flat_map (fun i => match i with KS ei => [ei] | _ => [] end) k.
(* the log as the engine would have written it ([fop], [fgot]: its constructors) *)
Definition plog (l : list cevent) : list Ev :=
  flat_map (fun e => match e with CECall p => [fop p] | CEGot o n => [fgot o n] | _ => [] end) l.

Lemma kspart_app k1 k2 : kspart (k1 ++ k2) = kspart k1 ++ kspart k2.
Proof. apply flat_map_app. Qed.
Lemma plog_app l1 l2 : plog (l1 ++ l2) = plog l1 ++ plog l2.
Proof. apply flat_map_app. Qed.
Lemma kspart_cons i k : kspart (i :: k) = (match i with KS ei => [ei] | _ => [] end) ++ kspart k.
Proof. reflexivity. Qed.
Lemma kspart_KS l : kspart (map (@KS A _) l) = l.
Proof. induction l; cbn; [reflexivity|]. now f_equal. Qed.
Lemma kspart_KOp l : kspart (map (@KOp A E_in) l) = [].
Proof. induction l; cbn; auto. Qed.
Lemma plog_rev (l : list cevent) : plog (rev l) = rev (plog l).
Proof.
  induction l as [|e l IH]; [reflexivity|]. cbn [rev]. rewrite plog_app, IH.
  change (e :: l) with ([e] ++ l). rewrite plog_app, rev_app_distr. f_equal. destruct e; reflexivity.
Qed.
(* the log of one engine instruction, whose events [x] reach the machine as [tosev x]: the calls and
   callbacks are kept *)
Lemma plog_engine (tosev : Ev -> @sev A E_op) (keep : Ev -> bool) :
  (forall x, plog [match tosev x with
                   | VOp p => CECall p | VGot o n => CEGot o n | VRaised e => CERaised e
                   end] = if keep x then [x] else []) ->
  forall r, plog (rev (map (fun e => match e with
                                     | VOp p => CECall p | VGot o n => CEGot o n | VRaised x => CERaised x
                                     end) (map tosev (rev r)))) = filter keep r.
Proof.
  intros H r. rewrite map_map, <- map_rev, rev_involutive.
  induction r as [|e r IH]; [reflexivity|]. cbn [map filter]. change (?x :: ?l) with ([x] ++ l) at 1.
  rewrite plog_app, IH, H. destruct (keep e); reflexivity.
Qed.
Lemma plog_aside news : Forall (@aside A E_op) news -> plog news = [].
Proof. induction 1 as [|e news He _ IH]; [reflexivity|]. destruct e; try contradiction; exact IH. Qed.

Lemma kspart_follows i rest : Forall (follows i) rest -> kspart rest = [].
Proof.
  induction 1 as [|j rest Hj _ IH]; [reflexivity|]. rewrite kspart_cons, IH.
  destruct j; try reflexivity. destruct (follows_not_KS _ _ Hj).
Qed.

(* [c'] after a step of [c] that ran no engine instruction, [k] the continuation below the head *)
Definition side_other (may_call : bool) (c c' : kcfg) (k : list kinstr) : Prop :=
  k_eng c' = k_eng c /\ plog (k_log c') = plog (k_log c) /\
  (kspart (k_k c') = kspart k \/ may_call = true /\ exists p, kspart (k_k c') = e_call p ++ kspart k).

(* ... and after the engine instruction [ei] *)
Definition side_KS (ei : E_in) (c c' : kcfg) (k : list kinstr) : Prop :=
  let '(st', pushed, evs) := e_exec ei (k_eng c) in
  k_eng c' = st' /\ kspart (k_k c') = pushed ++ kspart k /\
  plog (k_log c') =
  plog (rev (map (fun e => match e with
                           | VOp p => CECall p | VGot o n => CEGot o n | VRaised x => CERaised x
                           end) evs)) ++ plog (k_log c).

Theorem kstep_subject c i k :
  k_k c = i :: k ->
  match i with KS ei => side_KS ei c (stepk c) k | _ => side_other (calls i) c (stepk c) k end.
Proof.
  intros Ek.
  destruct (kstep_pushes e_exec e_call md reach cold react c i k Ek) as (ops & es & rest & Ek' & _ & Hr & Hes).
  destruct (kstep_logs e_exec e_call md reach cold react c i k Ek) as (news & El & Hn).
  assert (Hk : kspart (k_k (stepk c)) = es ++ kspart k).
  { rewrite Ek', !kspart_app, kspart_KOp, kspart_KS. cbn [app]. f_equal.
    now rewrite (kspart_follows i rest Hr). }
  assert (Hq : forall may, k_eng (stepk c) = k_eng c -> plog news = [] ->
                           es = [] \/ may = true /\ (exists p, es = e_call p) -> side_other may c (stepk c) k).
  { intros may He Hl Hc. split; [exact He|]. rewrite El, plog_app, Hl, Hk. split; [reflexivity|].
    destruct Hc as [->|[Hc [p ->]]]; [left; reflexivity|right; split; [exact Hc|exists p; reflexivity]]. }
  destruct i as [|ei| | | | | | | | |]; try (apply Hq; [exact (proj1 Hn)|exact (plog_aside _ (proj2 Hn))|exact Hes]).
  - unfold side_KS. cbn [pushes_engine] in Hes. destruct (e_exec ei (k_eng c)) as [[st' pushed] evs].
    cbn [fst snd] in *. destruct Hn as [He ->]. subst es. rewrite El, plog_app. auto.
  - destruct Hn as [He ->]. apply Hq; [exact He|destruct (has_sub (k_bk c)); reflexivity|exact Hes].
Qed.
End SubjectSide.

(* ---- multicast(subject_factory, mapper): every subscription is its own connection ---- *)
Section MapperFacts.
Context {A E_st E_in E_op : Type}.
Context (e_exec : E_in -> E_st -> E_st * list E_in * list (@sev A E_op)).
Context (e_call : @sop A -> list E_in).
Context (e_drain : list E_in).
Context (cold : list (ev A)) (st0 : E_st) (fuel : nat).
Notation kc := (@kcfg A E_st E_in E_op).
Notation csil := (fun (_ _ : nat) => @nil (@cop A)).
Notation CIi := (@CIc A E_st E_in E_op).

Lemma CI_feed (c : kc) ops : CIi c -> CIi (feed e_exec e_call e_drain cold fuel c ops).
Proof.
  intros H. unfold feed. apply krun_ind; [apply CI_step|].
  unfold CIc in *. cbn [k_bk k_k k_log]. now rewrite kcids_app, pend_app, kcids_ops, pend_ops, !app_nil_r.
Qed.


(* An instance of [mrun] is created by feeding [CSub o; CConnect] to a fresh plain connectable and is
   afterwards fed only operations other than connect(): a property with these two closure
   conditions holds of every instance of every run. *)
Section Instances.
Variable I : kc -> Prop.
Hypothesis I_create :
  forall o, I (feed e_exec e_call e_drain cold fuel (KCfg st0 fresh_book (fun _ => None) [] []) [CSub o; CConnect]).
Hypothesis I_feed :
  forall c ops, I c -> ~ In CConnect ops -> I (feed e_exec e_call e_drain cold fuel c ops).
Let all_I (insts : list (nat * kc)) : Prop := Forall (fun x => I (snd x)) insts.

Lemma mall_inv sel : (forall o, ~ In CConnect (sel o)) -> forall insts rank,
  all_I insts -> all_I (fst (mall e_exec e_call e_drain cold fuel sel rank insts)).
Proof.
  intros Hsel. induction insts as [|[o c] t IH]; intros rank H; [constructor|].
  inversion H as [|? ? Hc Ht]; subst. cbn [mall].
  specialize (IH (S rank) Ht). destruct (mall e_exec e_call e_drain cold fuel sel (S rank) t) as [t' evs].
  cbn [fst] in *. constructor; [|exact IH]. cbn [snd] in *.
  pose proof (Hsel o) as Ho. destruct (sel o); [exact Hc|apply I_feed; assumption].
Qed.

Lemma mstep_inv insts p :
  all_I insts -> all_I (fst (mstep e_exec e_call e_drain cold st0 fuel insts p)).
Proof.
  intros H. destruct p as [o|o| |j|v|e| |d]; cbn [mstep]; try exact H;
    try (apply mall_inv; [intros o' [G|[]]; discriminate|exact H]).
  - destruct (existsb _ insts); [exact H|]. cbn [fst]. apply Forall_app. split; [exact H|].
    constructor; [|constructor]. apply I_create.
  - apply mall_inv; [|exact H]. intros o'. destruct (Nat.eqb o' o); [intros [G|[G|[]]]; discriminate|intros []].
Qed.

Theorem mrun_inv top o c : In (o, c) (fst (mrun e_exec e_call e_drain cold st0 fuel [] top)) -> I c.
Proof.
  assert (G : forall insts, all_I insts -> all_I (fst (mrun e_exec e_call e_drain cold st0 fuel insts top))).
  { induction top as [|p t IH]; intros insts H; [exact H|]. cbn [mrun].
    pose proof (mstep_inv insts p H) as G.
    destruct (mstep e_exec e_call e_drain cold st0 fuel insts p) as [i1 e1]. cbn [fst] in G.
    specialize (IH i1 G). destruct (mrun e_exec e_call e_drain cold st0 fuel i1 t) as [i2 e2]. exact IH. }
  intros Hin. exact (proj1 (Forall_forall _ _) (G [] (Forall_nil _)) (o, c) Hin).
Qed.
End Instances.

Theorem mapper_CI top o c : In (o, c) (fst (mrun e_exec e_call e_drain cold st0 fuel [] top)) -> CIi c.
Proof.
  intros Hin. apply (mrun_inv CIi) with (top := top) (o := o); [intros o'|intros c' ops Hc _|exact Hin];
    apply CI_feed; [exact CI_fresh_book|exact Hc].
Qed.
End MapperFacts.
