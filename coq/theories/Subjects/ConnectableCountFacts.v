(* C24: ref_count / share and auto_connect.  What the counting invariants of Subjects/Connectable.v's
   machine are stated in: the armed subscribers of the outer map, the census of the continuation
   (pending connect(), returns of subscribe(), bodies of dispose()), which steps leave the counters
   and the armed flags alone ([kstep_keeps]), and the shape [flat] of the continuation on histories
   of top-level calls (subscribers do not call back).  Then auto_connect(n) on such histories, for
   EVERY subject engine; ref_count is in ConnectableRefCountTreeFacts. *)
From RxVerif Require Import Base.Prelude Ops.Machine Subjects.Connectable Subjects.ConnectableFacts.
Require Import Lia.
Local Open Scope nat_scope.

(* the subscribers whose Disposable(dispose) is armed, counted over a list of ids *)
Definition oflag (m : outmap) (o : nat) : bool :=
  match m o with Some u => u_sad_set u | None => false end.
Definition nact (m : outmap) (L : list nat) : nat := length (filter (oflag m) L).

Lemma oflag_upd_same m o u : oflag (oupd m o u) o = u_sad_set u.
Proof. unfold oflag, oupd. now rewrite Nat.eqb_refl. Qed.
Lemma oflag_upd_other m o u x : x <> o -> oflag (oupd m o u) x = oflag m x.
Proof. intros H. unfold oflag, oupd. destruct (Nat.eqb x o) eqn:E; [apply Nat.eqb_eq in E; contradiction|reflexivity]. Qed.

Lemma nact_notin m o u L : ~ In o L -> nact (oupd m o u) L = nact m L.
Proof.
  unfold nact. induction L as [|x L IH]; intros H; [reflexivity|]. cbn [filter].
  rewrite oflag_upd_other by (intro; subst; apply H; left; reflexivity).
  assert (G : ~ In o L) by (intro; apply H; right; assumption).
  destruct (oflag m x); cbn [length]; rewrite (IH G); reflexivity.
Qed.

Lemma nact_upd m o u L :
  NoDup L -> In o L ->
  nact (oupd m o u) L + (if oflag m o then 1 else 0) = nact m L + (if u_sad_set u then 1 else 0).
Proof.
  unfold nact. induction L as [|x L IH]; intros Hn Hi; [destruct Hi|].
  inversion Hn as [|? ? Hx Hn']; subst. cbn [filter].
  destruct (Nat.eq_dec x o) as [->|N].
  - rewrite oflag_upd_same. pose proof (nact_notin m o u L Hx) as E. unfold nact in E.
    destruct (u_sad_set u), (oflag m o); cbn [length]; lia.
  - rewrite oflag_upd_other by exact N. destruct Hi as [Hi|Hi]; [contradiction|].
    specialize (IH Hn' Hi). destruct (oflag m x); cbn [length]; lia.
Qed.

Lemma nact_app m L o : nact m (L ++ [o]) = nact m L + (if oflag m o then 1 else 0).
Proof. unfold nact. rewrite filter_app, app_length. cbn. destruct (oflag m o); reflexivity. Qed.

Lemma nact_pos m L o : In o L -> oflag m o = true -> 0 < nact m L.
Proof.
  unfold nact. induction L as [|x L IH]; intros Hi Hf; [destruct Hi|]. cbn.
  destruct Hi as [->|Hi]; [rewrite Hf; cbn; lia|]. destruct (oflag m x); cbn; [lia|auto].
Qed.

Section Census.
Context {A E_st E_in E_op : Type}.
Notation kinstr := (@kinstr A E_in).

Definition nomanual (p : @cop A) : Prop := match p with CConnect | CDisc _ => False | _ => True end.

Definition ndec (k : list kinstr) : nat := length (filter (fun i => match i with KDec => true | _ => false end) k).
Definition nconnect (k : list kinstr) : nat :=
  length (filter (fun i => match i with KConnect _ => true | _ => false end) k).
Definition nret (k : list kinstr) : nat :=
  length (filter (fun i => match i with KRet _ => true | _ => false end) k).
Definition connrets (k : list kinstr) : list nat :=
  flat_map (fun i => match i with KConnRet cid _ => [cid] | _ => [] end) k.
Definition pendsubs (k : list kinstr) : list nat :=
  flat_map (fun i => match i with KInc o | KRet o => [o] | _ => [] end) k.

Lemma count_app (f : kinstr -> bool) k1 k2 :
  length (filter f (k1 ++ k2)) = length (filter f k1) + length (filter f k2).
Proof. now rewrite filter_app, app_length. Qed.

Lemma connrets_app k1 k2 : connrets (k1 ++ k2) = connrets k1 ++ connrets k2.
Proof. apply flat_map_app. Qed.
Lemma pendsubs_app k1 k2 : pendsubs (k1 ++ k2) = pendsubs k1 ++ pendsubs k2.
Proof. apply flat_map_app. Qed.
Lemma nret_app (k1 k2 : list kinstr) : nret (k1 ++ k2) = nret k1 + nret k2.
Proof. apply count_app. Qed.
Lemma ndec_app (k1 k2 : list kinstr) : ndec (k1 ++ k2) = ndec k1 + ndec k2.
Proof. apply count_app. Qed.
Lemma nconnect_app (k1 k2 : list kinstr) : nconnect (k1 ++ k2) = nconnect k1 + nconnect k2.
Proof. apply count_app. Qed.
Lemma nret_cons i (k : list kinstr) : nret (i :: k) = (match i with KRet _ => 1 | _ => 0 end) + nret k.
Proof. unfold nret. cbn [filter]. destruct i; reflexivity. Qed.
Lemma ndec_cons i (k : list kinstr) : ndec (i :: k) = (match i with KDec => 1 | _ => 0 end) + ndec k.
Proof. unfold ndec. cbn [filter]. destruct i; reflexivity. Qed.
Lemma nconnect_cons i (k : list kinstr) : nconnect (i :: k) = (match i with KConnect _ => 1 | _ => 0 end) + nconnect k.
Proof. unfold nconnect. cbn [filter]. destruct i; reflexivity. Qed.
Lemma connrets_cons i (k : list kinstr) :
  connrets (i :: k) = (match i with KConnRet cid _ => [cid] | _ => [] end) ++ connrets k.
Proof. reflexivity. Qed.
Lemma nret_nil : nret (@nil kinstr) = 0. Proof. reflexivity. Qed.
Lemma ndec_nil : ndec (@nil kinstr) = 0. Proof. reflexivity. Qed.
Lemma nconnect_nil : nconnect (@nil kinstr) = 0. Proof. reflexivity. Qed.

Definition dom (m : outmap) (L : list nat) : Prop := forall o, In o L -> m o <> None.

Lemma dom_upd m L o u : dom m L -> dom (oupd m o u) L.
Proof.
  intros H x Hx. unfold oupd. destruct (Nat.eqb x o); [discriminate|apply H; exact Hx].
Qed.
Lemma dom_upd_new m L o u : dom m L -> dom (oupd m o u) (L ++ [o]).
Proof.
  intros H x Hx. unfold oupd. destruct (Nat.eqb x o) eqn:E; [discriminate|].
  apply in_app_or in Hx. destruct Hx as [Hx|[Hx|[]]]; [apply H; exact Hx|].
  subst. rewrite Nat.eqb_refl in E. discriminate.
Qed.

Lemma oflag_calls m o u :
  (match m o with Some u0 => u0 | None => fresh_outer end) = u ->
  forall x, oflag (oupd m o (Outer (u_sad_disposed u) (u_sad_set u) (u_handle u) (S (u_calls u)))) x = oflag m x.
Proof.
  intros E x. destruct (Nat.eq_dec x o) as [->|N]; [|now apply oflag_upd_other].
  rewrite oflag_upd_same. cbn. unfold oflag. destruct (m o); subst; reflexivity.
Qed.

(* books that differ only in what the counting invariants do not look at *)
Definition bsame (b b' : book) : Prop :=
  count b' = count b /\ has_sub b' = has_sub b /\ rc_sub b' = rc_sub b /\ ac_conn b' = ac_conn b /\
  forall cid, comp_disposed (get_conn b' cid) = comp_disposed (get_conn b cid).

Lemma bsame_refl b : bsame b b.
Proof. unfold bsame. tauto. Qed.

Lemma bsame_put b cid c' :
  comp_disposed c' = comp_disposed (get_conn b cid) -> bsame b (put_conn cid c' b).
Proof.
  intros H. unfold bsame. repeat split; try reflexivity. intros x.
  rewrite (get_put b cid c' x). destruct (Nat.eqb x cid && (cid <? blen b)) eqn:E; [|reflexivity].
  apply andb_prop in E. destruct E as [E _]. apply Nat.eqb_eq in E. now subst.
Qed.

Lemma comp_sado cid (c : sconn) :
  comp_disposed (fst (@sado_dispose A E_op cid c)) = comp_disposed c.
Proof.
  unfold sado_dispose, src_dispose. cbn [s_sad_disposed s_sad_set s_live comp_disposed].
  destruct (s_sad_disposed c); [reflexivity|]. destruct (s_sad_set c); [|reflexivity].
  destruct (s_live c); reflexivity.
Qed.

Lemma comp_dispose_fields cid (b : book) :
  comp_disposed (get_conn b cid) = false ->
  has_sub (fst (@comp_dispose A E_op cid b)) = false /\
  count (fst (@comp_dispose A E_op cid b)) = count b /\
  rc_sub (fst (@comp_dispose A E_op cid b)) = rc_sub b.
Proof.
  intros H. unfold comp_dispose. rewrite H.
  match goal with |- context [sado_dispose cid ?c] => destruct (sado_dispose cid c) as [c2 evs] end.
  cbn. auto.
Qed.

(* ---- histories of top-level calls ----
   Without call-backs an operation of the driver ([KOp]) is started, and a subscribe() entered
   ([KInc]), only when everything above the driver's program has returned: no connect() is pending
   beneath either.  [flat] says just that; it is what makes the count seen by a pending connect()
   the count that pushed it. *)
Fixpoint flat (k : list kinstr) : Prop :=
  match k with
  | [] => True
  | (KOp _ | KInc _) :: r => nconnect r = 0
  | _ :: r => flat r
  end.

(* what a step of such a history pushes, the start of a subscribe() and connect() apart *)
Definition isbody (i : kinstr) : Prop :=
  match i with KS _ | KOuter _ _ | KDec | KSrc _ _ | KSrcFin _ | KHandle _ => True | _ => False end.

Lemma flat_quiet k : nconnect k = 0 -> flat k.
Proof.
  induction k as [|i k IH]; [exact (fun _ => I)|]. rewrite nconnect_cons.
  destruct i; cbn [flat]; intros H; try (apply IH); lia.
Qed.
Lemma flat_tail i k : flat (i :: k) -> flat k.
Proof. destruct i; cbn [flat]; auto using flat_quiet. Qed.
Lemma flat_body p k : Forall isbody p -> flat k -> flat (p ++ k).
Proof. induction 1 as [|i p Hi _ IH]; [auto|]. destruct i; try contradiction; cbn [app flat]; exact IH. Qed.

Lemma body_census p : Forall isbody p -> nconnect p = 0 /\ nret p = 0 /\ connrets p = [].
Proof.
  induction 1 as [|i p Hi _ (I1 & I2 & I3)]; [repeat split|].
  rewrite nconnect_cons, nret_cons, connrets_cons, I1, I2, I3. destruct i; try contradiction; repeat split.
Qed.

Lemma body_KS l : Forall isbody (map (@KS A E_in) l).
Proof. induction l; constructor; cbn; auto. Qed.
Lemma body_KSrc cid l : Forall isbody (map (@KSrc A E_in cid) l).
Proof. induction l; constructor; cbn; auto. Qed.

Context (e_exec : E_in -> E_st -> E_st * list E_in * list (@sev A E_op)).
Context (e_call : @sop A -> list E_in).
Context (md : mode) (reach : bool) (cold : list (ev A)) (react : nat -> nat -> list (@cop A)).
Notation kcfg := (@kcfg A E_st E_in E_op).
Notation stepk := (kstep e_exec e_call md reach cold react).

(* ---- what a step leaves alone: the counters of the book except at connect(), at a manual
        disconnect and in the bodies of subscribe() / dispose(); the armed flags except where a
        subscribe() returns or a wrapper is disposed; it never forgets a subscriber ---- *)
Definition keeps_book (i : kinstr) : Prop :=
  match i with KOp (CDisc _) | KInc _ | KDec | KConnect _ | KConnRet _ _ => False | _ => True end.
Definition keeps_flags (i : kinstr) : Prop := match i with KRet _ | KOuter _ _ => False | _ => True end.
Definition keeps (i : kinstr) (b : book) (m : outmap) (c' : kcfg) : Prop :=
  (keeps_book i -> bsame b (k_bk c')) /\ (keeps_flags i -> forall o, oflag (k_out c') o = oflag m o) /\
  (forall L, dom m L -> dom (k_out c') L).

Lemma kstep_keeps st b m i k l : keeps i b m (stepk (KCfg st b m (i :: k) l)).
Proof.
  assert (S : forall st' b' k' l', (keeps_book i -> bsame b b') -> keeps i b m (KCfg st' b' m k' l'))
    by (intros; split; [assumption|split; [reflexivity|auto]]).
  assert (U : forall st' k' l' o u, (keeps_flags i -> oflag (oupd m o u) o = oflag m o) ->
                                    keeps i b m (KCfg st' b (oupd m o u) k' l')).
  { intros st' k' l' o u H. split; [intros _; apply bsame_refl|]. split; [|intros L; apply dom_upd].
    intros Hi x. destruct (Nat.eq_dec x o) as [->|N]; [exact (H Hi)|apply oflag_upd_other; exact N]. }
  pose proof (fun st' k' l' => S st' b k' l' (fun _ => bsame_refl b)) as S0.
  destruct i as [p|ei|o|o|o|o u| |w|cid w|cid n|cid]; cbn [kstep k_k k_bk k_log k_out k_eng]; try (apply S; intros []).
  - destruct p as [o|o| |j|v|e| |d]; try apply S0.
    + destruct (m o) eqn:Em; [apply S0|]. destruct md; apply U; intros _; rewrite oflag_upd_same; unfold oflag; now rewrite Em.
    + destruct (m o) as [u|]; [|apply S0]. destruct (u_handle u); [|apply S0]. destruct (is_outer_mode md); apply S0.
    + destruct reach; apply S0.
    + destruct (nth_error (handles b) j) as [[cid|]|]; try apply S0. destruct (comp_dispose cid b). apply S. intros [].
  - destruct (e_exec ei st) as [[st' pushed] evs]. destruct (fold_left _ evs None) as [[o n]|]; [|apply S0].
    apply U. intros _. apply oflag_calls. reflexivity.
  - destruct (m o) as [u|] eqn:Em; [|apply S0]. destruct (u_sad_disposed u); apply U; intros [].
  - destruct (m o) as [u|] eqn:Em; [|apply S0]. apply U. intros _. rewrite oflag_upd_same. unfold oflag. now rewrite Em.
  - destruct (m o) as [x|]; [|apply S0]. destruct (u_sad_disposed x); [apply S0|]. destruct (u_sad_set x); apply U; intros [].
  - destruct md as [| |n]; try (apply S; intros []). destruct (_ && _); [|apply S; intros []].
    destruct (rc_sub _) as [cid|]; [|apply S; intros []]. destruct (comp_dispose cid _). apply S. intros [].
  - destruct (has_sub b); apply S; intros [].
  - destruct (if s_sad_disposed (get_conn b cid) then _ else _). apply S. intros [].
  - destruct (negb (s_live (get_conn b cid))); [apply S0|]. destruct (s_stopped (get_conn b cid)); [apply S0|].
    destruct n; [apply S0|apply S; intros _; apply bsame_put; reflexivity..].
  - pose proof (comp_sado cid (get_conn b cid)) as G.
    destruct (sado_dispose cid (get_conn b cid)) as [c1 evs]. apply S. intros _. apply bsame_put. exact G.
Qed.

(* the heads at which a step only pushes body instructions (below the script of a callback) and
   leaves the counters alone *)
Definition calm_head (m : outmap) (i : kinstr) : Prop :=
  match i with
  | KS _ | KHandle _ | KSrc _ _ | KSrcFin _ | KRet _ | KOuter _ _ => True
  | KOp p => nomanual p /\ match p with CSub o => m o <> None | _ => True end
  | _ => False
  end.

Lemma follows_body m i j : calm_head m i -> (forall o, i <> KOp (CSub o)) -> follows i j -> isbody j.
Proof.
  destruct i as [[o| | | | | | |]| | | | | | | | | |]; cbn; try tauto; intros _ Hs H;
    try (destruct (Hs o eq_refl)); decompose [ex] H; subst j; exact I.
Qed.

Lemma kstep_calm st b m i k l :
  calm_head m i ->
  exists ops pushed, k_k (stepk (KCfg st b m (i :: k) l)) = map KOp ops ++ pushed ++ k /\
                     (ops = [] \/ exists o n, ops = react o n) /\ Forall isbody pushed /\
                     bsame b (k_bk (stepk (KCfg st b m (i :: k) l))).
Proof.
  intros Hi.
  assert (Hb : bsame b (k_bk (stepk (KCfg st b m (i :: k) l)))).
  { apply (kstep_keeps st b m i k l). destruct i as [[]| | | | | | | | | |]; try exact I; cbn in Hi; tauto. }
  assert (Hd : (exists o, i = KOp (CSub o)) \/ forall o, i <> KOp (CSub o))
    by (destruct i as [[o| | | | | | |]| | | | | | | | | |]; try (right; discriminate); left; eauto).
  destruct Hd as [[o ->]|Hs].
  - (* an id used before: the driver skips the operation *)
    exists [], []. split; [|split; [now left|split; [constructor|exact Hb]]].
    destruct Hi as [_ Hm]. cbn [kstep k_k k_out]. destruct (m o); [reflexivity|contradiction].
  - destruct (kstep_pushes e_exec e_call md reach cold react (KCfg st b m (i :: k) l) i k eq_refl)
      as (ops & es & rest & Ek & Hops & Hr & _).
    exists ops, (map KS es ++ rest). rewrite <- app_assoc. split; [exact Ek|]. split; [exact Hops|]. split; [|exact Hb].
    apply Forall_app. split; [apply body_KS|]. eapply Forall_impl; [|exact Hr]. intros j. apply (follows_body m i j Hi Hs).
Qed.

Context (e_drain : list E_in).

(* the driver's operations, each followed by a drain *)
Lemma ops_census top :
  nconnect (flat_map (fun p : @cop A => KOp p :: map (@KS A E_in) e_drain) top) = 0 /\
  connrets (flat_map (fun p : @cop A => KOp p :: map (@KS A E_in) e_drain) top) = [].
Proof.
  induction top as [|p t [I1 I2]]; [split; reflexivity|]. cbn [flat_map app].
  rewrite nconnect_cons, connrets_cons, nconnect_app, connrets_app, I1, I2.
  destruct (body_census _ (body_KS e_drain)) as (-> & _ & ->). split; reflexivity.
Qed.
Lemma drains_census top :
  nconnect (map (@KS A E_in) e_drain ++ flat_map (fun p : @cop A => KOp p :: map (@KS A E_in) e_drain) top) = 0 /\
  connrets (map (@KS A E_in) e_drain ++ flat_map (fun p : @cop A => KOp p :: map (@KS A E_in) e_drain) top) = [].
Proof.
  rewrite nconnect_app, connrets_app. destruct (ops_census top) as [-> ->].
  destruct (body_census _ (body_KS e_drain)) as (-> & _ & ->). split; reflexivity.
Qed.
End Census.

(* The census of [i :: k], [i] a constructor, by computation: everywhere ([census_all]) or in the
   goal ([census]), folding back what is left of [k].  (Rewriting with the [_cons] lemmas in every
   hypothesis costs fifteen times as much.) *)
Ltac census k :=
  cbn [nret ndec nconnect connrets pendsubs filter flat_map length app plus];
  fold (nret k) (ndec k) (nconnect k) (connrets k) (pendsubs k).
Ltac census_all k :=
  cbn [nret ndec nconnect connrets pendsubs filter flat_map length app plus] in *;
  fold (nret k) (ndec k) (nconnect k) (connrets k) (pendsubs k) in *.

Section AutoConnect.
Context {A E_st E_in E_op : Type}.
Context (e_exec : E_in -> E_st -> E_st * list E_in * list (@sev A E_op)).
Context (e_call : @sop A -> list E_in).
Context (n : nat) (reach : bool) (cold : list (ev A)).
Notation kinstr := (@kinstr A E_in).
Notation kcfg := (@kcfg A E_st E_in E_op).
Notation cevent := (@cevent A E_op).
Notation csil := (fun (_ _ : nat) => @nil (@cop A)).
Notation stepk := (kstep e_exec e_call (MAuto n) reach cold csil).
Notation runk := (krun e_exec e_call (MAuto n) reach cold csil).

(* the driver never connects or disconnects by hand; every connect() is auto_connect's *)
Definition auto_ok (i : kinstr) : Prop :=
  match i with KOp p => nomanual p | KConnect w | KConnRet _ w => w = ByAuto | _ => True end.

Lemma body_auto_ok p : Forall isbody p -> Forall auto_ok p.
Proof. apply Forall_impl. intros i Hi. destruct i; try contradiction; exact I. Qed.

(* [count] only grows, the one connect() is pushed when it reaches n ([ac_at]) and finds the
   connectable disconnected ([ac_has]); nothing disconnects afterwards *)
Record ACI (b : book) (k : list kinstr) (l : list cevent) : Prop := {
  ac_ok : Forall auto_ok k;
  ac_flat : flat k;
  ac_one : nconnect k <= 1;
  ac_at : 1 <= nconnect k -> count b = Z.of_nat n;
  ac_has : has_sub b = (Z.of_nat n <=? count b - Z.of_nat (nconnect k))%Z;
  ac_ret : connrets k <> [] -> has_sub b = true;
  ac_flag : ac_conn b = true -> (Z.of_nat n <= count b - Z.of_nat (nconnect k))%Z;
  ac_once : nssub l = if has_sub b then 1 else 0 }.

Definition ACc (c : kcfg) : Prop := ACI (k_bk c) (k_k c) (k_log c).

Lemma AC_calm st b m i k l :
  calm_head m i -> ACI b (i :: k) l -> ACc (stepk (KCfg st b m (i :: k) l)).
Proof.
  intros Hi [Aok Aflat Aone Aat Ahas Aret Aflag Aonce].
  destruct (kstep_calm e_exec e_call (MAuto n) reach cold csil st b m i k l Hi)
    as (ops & pushed & Ek & Hops & Hb & B1 & B2 & _ & B4 & _).
  assert (ops = []) as -> by (destruct Hops as [E|(o & nn & E)]; exact E). cbn [map app] in Ek.
  destruct (body_census _ Hb) as (C1 & _ & C3).
  assert (Es : nssub (k_log (stepk (KCfg st b m (i :: k) l))) = nssub l).
  { rewrite only_connect_subscribes. cbn [k_k k_log]. destruct i; try contradiction; apply Nat.add_0_r. }
  assert (Ei : nconnect (i :: k) = nconnect k /\ connrets (i :: k) = connrets k).
  { rewrite nconnect_cons, connrets_cons. destruct i; try contradiction; split; reflexivity. }
  destruct Ei as [E1 E2]. rewrite E1 in *. rewrite E2 in *.
  unfold ACc. rewrite Ek.
  constructor; rewrite ?nconnect_app, ?connrets_app, ?C1, ?C3, ?B1, ?B2, ?B4, ?Es; cbn [app plus]; try assumption.
  - apply Forall_app. split; [apply body_auto_ok; exact Hb|exact (Forall_inv_tail Aok)].
  - apply flat_body; [exact Hb|exact (flat_tail _ _ Aflat)].
Qed.

Theorem AC_step c : ACc c -> ACc (stepk c).
Proof.
  destruct c as [st b m k l]. unfold ACc at 1. cbn [k_k k_bk k_log]. intros H.
  destruct k as [|i k]; [exact H|].
  pose proof (Forall_inv (ac_ok _ _ _ H)) as Hok. pose proof (Forall_inv_tail (ac_ok _ _ _ H)) as Hok'.
  pose proof (only_connect_subscribes e_exec e_call (MAuto n) reach cold csil (KCfg st b m (i :: k) l)) as Hs.
  destruct i as [p|ei|o|o|o|o u| |w|cid w|cid nn|cid]; try (apply AC_calm; [exact I|exact H]); cbn [auto_ok] in Hok.
  (* an operation of the driver is calm, unless it is the subscribe() of a new subscriber *)
  1: destruct p as [o|o| |j|v|e| |d]; try contradiction; try (apply AC_calm; [exact (conj Hok I)|exact H]);
     destruct (m o) eqn:Em; [apply AC_calm; [split; [exact I|congruence]|exact H]|].
  (* the five heads that are not calm: the step and the fields of the invariant, exposed *)
  all: unfold ACc; cbn [kstep k_k k_bk k_log k_out k_eng] in Hs |- *;
       destruct H as [_ Aflat Aone Aat Ahas Aret Aflag Aonce]; census_all k.
  - rewrite Em in Hs |- *. cbn [k_k k_bk k_log] in Hs |- *. constructor; rewrite ?Hs, ?Nat.add_0_r; census k; auto.
  - (* subscribe(): count += 1, and the connect() if that makes n *)
    cbn [count set_count ac_conn] in Hs |- *. cbn [flat] in Aflat.
    destruct (body_census _ (body_KS (A:=A) (e_call (SSub o)))) as (C1 & _ & C3).
    rewrite Aflat in *. cbn [Z.of_nat] in *. rewrite Z.sub_0_r in Ahas, Aflag.
    destruct ((count b + 1 =? Z.of_nat n)%Z && negb (ac_conn b)) eqn:Esh; cbn [k_k k_bk k_log app] in Hs |- *;
      (constructor; rewrite ?nconnect_app, ?connrets_app, ?C1, ?C3; census k; rewrite ?Aflat; cbn [count set_count has_sub ac_conn Z.of_nat plus]; auto).
    + (* the n-th arrival, not yet connected: the connect() is pushed; the fields left are [ac_ok], [ac_flat],
         [ac_at], [ac_has], [ac_flag], here and for any other arrival *)
      apply Forall_app. split; [apply body_auto_ok, body_KS|]. repeat constructor; assumption.
    + apply flat_body; [apply body_KS|]. cbn [flat]. apply flat_quiet. exact Aflat.
    + intros _. apply andb_prop in Esh. destruct Esh as [E _]. apply Z.eqb_eq in E. exact E.
    + rewrite Ahas. f_equal. lia.
    + apply andb_prop in Esh. destruct Esh as [_ E]. intros G. rewrite G in E. discriminate.
    + (* any other arrival *)
      apply Forall_app. split; [apply body_auto_ok, body_KS|]. constructor; [exact I|assumption].
    + apply flat_body; [apply body_KS|]. cbn [flat]. apply flat_quiet. exact Aflat.
    + lia.
    + rewrite Ahas, Z.sub_0_r. apply Bool.andb_false_iff in Esh.
      destruct (Z.leb_spec (Z.of_nat n) (count b)), (Z.leb_spec (Z.of_nat n) (count b + 1)); try reflexivity; try lia.
      destruct Esh as [E|E]; [apply Z.eqb_neq in E; lia|]. apply Bool.negb_false_iff in E. specialize (Aflag E). lia.
    + intros G. specialize (Aflag G). lia.
  - (* the body of dispose(): is_connected[0] = False, which is [ac_flag] *)
    constructor; auto. discriminate.
  - (* connect(): count = n, disconnected; left are [ac_ok], [ac_flat], [ac_has], [ac_flag] *)
    assert (Hq : nconnect k = 0) by lia. rewrite Hq in *. cbn [plus Z.of_nat] in *.
    assert (Hc : count b = Z.of_nat n) by (apply Aat; lia).
    assert (Hf : has_sub b = false) by (rewrite Ahas, Hc; apply Z.leb_gt; lia).
    rewrite Hf in *. cbn [k_k k_bk k_log] in Hs |- *.
    destruct (body_census _ (body_KSrc (E_in:=E_in) (length (conns b)) cold)) as (C1 & _ & C3).
    constructor; rewrite ?Hs, ?Aonce, ?nconnect_app, ?connrets_app, ?C1, ?C3; census k; rewrite ?Hq;
      cbn [count has_sub ac_conn set_conns set_has Z.of_nat plus]; auto.
    + apply Forall_app. split; [apply body_auto_ok, body_KSrc|]. constructor; assumption.
    + apply flat_body; [apply body_KSrc|]. exact (flat_quiet _ Hq).
    + rewrite Hc, Z.sub_0_r. symmetry. apply Z.leb_le. lia.
    + intros G. specialize (Aflag G). lia.
  - (* source.subscribe returned: is_connected[0] = True, and [ac_flag] is left *)
    subst w. assert (Hh : has_sub b = true) by (apply Aret; discriminate).
    destruct (if s_sad_disposed (get_conn b cid) then _ else _) as [c1 evs]. cbn [k_k k_bk k_log conn_return] in Hs |- *.
    constructor; rewrite ?Hs, ?Nat.add_0_r; cbn [count has_sub ac_conn set_ac set_cur put_conn set_conns]; auto.
    intros _. rewrite Hh in Ahas. symmetry in Ahas. apply Z.leb_le in Ahas. exact Ahas.
Qed.

Context (e_drain : list E_in).

Lemma AC_init st0 top : Forall nomanual top -> ACc (kinit e_drain (MAuto n) st0 top).
Proof.
  intros H. unfold ACc, kinit, prog. cbn [k_bk k_k k_log].
  assert (Hok : Forall auto_ok (map (@KS A E_in) e_drain ++ flat_map (fun p => KOp p :: map (@KS A E_in) e_drain) top)).
  { apply Forall_app. split; [apply body_auto_ok, body_KS|].
    induction H as [|p t Hp _ IH]; [constructor|]. cbn [flat_map]. constructor; [exact Hp|].
    apply Forall_app. split; [apply body_auto_ok, body_KS|exact IH]. }
  destruct (drains_census e_drain top) as [Hq Hr].
  destruct n as [|n'] eqn:En; cbn [app]; constructor; rewrite ?nconnect_cons, ?connrets_cons, ?Hq, ?Hr; cbn; auto using flat_quiet; try discriminate; try lia;
    try (intros G; exfalso; apply G; reflexivity).
  constructor; [reflexivity|exact Hok].
Qed.

Theorem AC_reachable st0 top fuel :
  Forall nomanual top -> ACc (runk fuel (kinit e_drain (MAuto n) st0 top)).
Proof. intros H. apply krun_ind; [apply AC_step|apply AC_init; exact H]. Qed.

(* `count` counts arrivals: it grows by one at every subscribe() and never shrinks *)
Theorem auto_count_counts_arrivals c :
  count (k_bk (stepk c)) =
  (count (k_bk c) + match k_k c with KInc _ :: _ => 1 | _ => 0 end)%Z.
Proof.
  destruct c as [st b m k l]. destruct k as [|i k]; [cbn; lia|].
  destruct (kstep_keeps e_exec e_call (MAuto n) reach cold csil st b m i k l) as (Kb & _). cbn [k_k k_bk].
  destruct i as [[o|o| |j|v|e| |d]|ei|o|o|o|o u| |w|cid w|cid nn|cid]; try (destruct (Kb I) as [-> _]; lia);
    clear Kb; cbn [kstep k_k k_bk k_log k_out k_eng].
  - destruct (nth_error (handles b) j) as [[cid|]|]; try (cbn; lia).
    unfold comp_dispose. destruct (comp_disposed (get_conn b cid)); [cbn; lia|].
    match goal with |- context [sado_dispose cid ?c] => destruct (sado_dispose cid c) as [c2 evs] end. cbn. lia.
  - cbn. lia.
  - cbn. lia.
  - destruct (has_sub b); [destruct w|]; cbn; lia.
  - destruct (if s_sad_disposed (get_conn b cid) then _ else _) as [c1 evs]. destruct w; cbn; lia.
Qed.
End AutoConnect.
