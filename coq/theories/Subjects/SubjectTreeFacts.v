(* C20 on ARBITRARY call trees: the vocabulary in which "who receives which values" is stated, read
   off the log of calls (made by the driver or from inside any callback):
     entitled o log = the values v of the on_next(v) calls in the log that were made AFTER o's
                      subscribe call and BEFORE any on_error / on_completed / dispose call
                      (i.e. the calls made while o was subscribed to a live subject);
     pendn o k      = the values the machine is about to hand to o's wrapper.
   The theorems (received ++ pending ++ dropped is a permutation of the entitlement, for Subject
   and BehaviorSubject at once) are in Subjects/BroadcastTreeFacts.v; here are the definitions, what
   [entitled] means declaratively ([entitled_in]), and the one invariant that holds for every
   class: an observer id is in the table iff its subscribe call is in the log. *)
From RxVerif Require Import Base.Prelude Ops.Machine Subjects.Subject Subjects.SubjectFacts.

Section SubjectTree.
Context {A : Type}.
Notation event := (@event A).

(* ---- the specification, on the chronological log ---- *)
Definition is_sub_of (o : nat) (p : @op A) : bool := match p with OSub o' => Nat.eqb o' o | _ => false end.
Definition is_end_op (p : @op A) : bool := match p with OErr _ | ODone | ODispose => true | _ => false end.

Fixpoint ent_from (o : nat) (seen dead : bool) (log : list event) : list A :=
  match log with
  | [] => []
  | EOp p :: t =>
      (match p with ONext v => if seen && negb dead then [v] else [] | _ => [] end) ++
      ent_from o (seen || is_sub_of o p) (dead || is_end_op p) t
  | _ :: t => ent_from o seen dead t
  end.
Definition entitled (o : nat) (log : list event) : list A := ent_from o false false log.

Definition vals (l : list (ev A)) : list A := flat_map (fun n => match n with Next v => [v] | _ => [] end) l.

Definition end_ev (e : event) : bool := match e with EOp p => is_end_op p | _ => false end.
Definition sub_ev (o : nat) (e : event) : bool := match e with EOp p => is_sub_of o p | _ => false end.
Definition seen (o : nat) (l : list event) : bool := existsb (sub_ev o) l.

Definition pdc (o : nat) (i : @instr A) : list A :=
  match i with IDeliver o' (Next v) => if Nat.eqb o' o then [v] else [] | _ => [] end.
Definition pendn (o : nat) (k : list (@instr A)) : list A := flat_map (pdc o) k.

Lemma existsb_rev {X} (f : X -> bool) l : existsb f (rev l) = existsb f l.
Proof.
  induction l as [|x l IH]; [reflexivity|]. cbn [rev existsb]. rewrite existsb_app, IH. cbn. rewrite orb_false_r. apply orb_comm.
Qed.

Lemma ent_from_snoc o : forall a sn dd e,
  ent_from o sn dd (a ++ [e]) =
  ent_from o sn dd a ++
  match e with
  | EOp (ONext v) => if (sn || existsb (sub_ev o) a) && negb (dd || existsb end_ev a) then [v] else []
  | _ => []
  end.
Proof.
  induction a as [|x a IH]; intros sn dd e.
  - cbn [app ent_from existsb]. rewrite !orb_false_r. destruct e as [p| |]; try reflexivity.
    destruct p; cbn; rewrite ?app_nil_r; reflexivity.
  - cbn [app ent_from]. destruct x as [p|o' n|x]; cbn [existsb sub_ev end_ev].
    + rewrite IH, app_assoc. f_equal. destruct e as [q| |]; try reflexivity. destruct q; try reflexivity.
      now rewrite !orb_assoc.
    + rewrite IH. reflexivity.
    + rewrite IH. reflexivity.
Qed.

Lemma vals_app l1 l2 : vals (l1 ++ l2) = vals l1 ++ vals l2.
Proof. unfold vals. apply flat_map_app. Qed.

Lemma vals_in l v : In (Next v) l -> In v (vals l).
Proof. intros H. unfold vals. apply in_flat_map. exists (Next v). split; [exact H|now left]. Qed.

Lemma pendn_app o k1 k2 : pendn o (k1 ++ k2) = pendn o k1 ++ pendn o k2.
Proof. unfold pendn. apply flat_map_app. Qed.
Lemma pendn_ops o (l : list (@op A)) : pendn o (map IOp l) = [].
Proof. induction l; cbn; auto. Qed.

Lemma pendn_snapshot_out o v : forall L, ~ In o L -> pendn o (map (fun o' => IDeliver o' (Next v)) L) = [].
Proof.
  induction L as [|x L IH]; intros Hi; [reflexivity|]. cbn [map pendn flat_map pdc].
  destruct (Nat.eqb x o) eqn:E; [apply Nat.eqb_eq in E; subst; exfalso; apply Hi; left; reflexivity|].
  cbn [app]. apply IH. intros H. apply Hi. right. exact H.
Qed.
Lemma pendn_snapshot_in o v : forall L, NoDup L -> In o L ->
  pendn o (map (fun o' => IDeliver o' (Next v)) L) = [v].
Proof.
  induction L as [|x L IH]; intros Hn Hi; [destruct Hi|]. inversion Hn as [|? ? Hx Hn']; subst.
  cbn [map pendn flat_map pdc]. fold (pendn o (map (fun o' => IDeliver o' (Next v)) L)).
  destruct Hi as [->|Hi].
  - now rewrite Nat.eqb_refl, (pendn_snapshot_out o v L Hx).
  - destruct (Nat.eqb x o) eqn:E; [apply Nat.eqb_eq in E; subst; contradiction|]. cbn [app]. apply IH; assumption.
Qed.
Lemma pendn_terminals o (n : ev A) L : is_terminal n = true -> pendn o (map (fun o' => IDeliver o' n) L) = [].
Proof. intros H. induction L as [|x L IH]; [reflexivity|]. cbn [map pendn flat_map pdc]. destruct n; try discriminate H; exact IH. Qed.

(* ---- an observer id is in the table iff its subscribe call is in the log (every class) ---- *)
Definition DomInv (c : @cfg A) : Prop := forall o, c_obs c o = None <-> seen o (c_rlog c) = false.

Lemma upd_none_iff (m : @omap) o x o' : m o <> None -> (upd m o x o' = None <-> m o' = None).
Proof.
  intros H. unfold upd. destruct (Nat.eqb o' o) eqn:E; [|tauto]. apply Nat.eqb_eq in E. subst o'.
  split; [discriminate|intros G; contradiction].
Qed.

(* the table gains exactly the ids whose subscribe call is logged by the step *)
Lemma dom_frame c s' (m' : @omap) k' pre :
  DomInv c -> (forall o, m' o = None <-> c_obs c o = None /\ existsb (sub_ev o) pre = false) ->
  DomInv (Cfg s' m' k' (pre ++ c_rlog c)).
Proof.
  intros HD Hm o. cbn [c_obs c_rlog]. unfold seen. rewrite existsb_app, orb_false_iff, Hm.
  pose proof (HD o) as H. unfold seen in H. tauto.
Qed.

Lemma dom_same c s' (m' : @omap) k' pre :
  DomInv c -> (forall o, m' o = None <-> c_obs c o = None) -> (forall o, existsb (sub_ev o) pre = false) ->
  DomInv (Cfg s' m' k' (pre ++ c_rlog c)).
Proof. intros HD Hm Hp. apply dom_frame; [exact HD|]. intros o. rewrite Hp, Hm. tauto. Qed.

Lemma dom_step (C : @cls A) react c : DomInv c -> DomInv (step C react c).
Proof.
  destruct (step_cases C react c) as [s m l|s m i k l pre Hsk|s m k l o s' is sub Hm Hs|s m k l o Hm Hs
    |s m k l o os Hm Hh|s m k l p Hp Hd Hs|s m k l|s m k l o n os Hm Hs|s m k l o os Hm|s m k l o sub os Hm];
    intros HD; [exact HD|..].
  - apply (dom_frame (Cfg s m (i :: k) l)); [exact HD|]. intros o'. cbn [c_obs].
    assert (Hp : existsb (sub_ev o') pre = true -> m o' <> None).
    { destruct Hsk as [o os Hm| |p Hp _|p Hp _ _| | |]; cbn [existsb sub_ev is_sub_of orb]; try discriminate.
      - rewrite orb_false_r. intros E. apply Nat.eqb_eq in E. subst o'. congruence.
      - destruct p; discriminate.
      - destruct p; discriminate. }
    destruct (existsb (sub_ev o') pre); [specialize (Hp eq_refl)|]; intuition congruence.
  - apply (dom_frame (Cfg s m (IOp (OSub o) :: k) l) _ _ _ [_]); [exact HD|]. intros o'. cbn [c_obs existsb sub_ev is_sub_of].
    unfold upd. rewrite orb_false_r, (Nat.eqb_sym o' o). destruct (Nat.eqb o o'); intuition congruence.
  - apply (dom_frame (Cfg s m (IOp (OSub o) :: k) l) _ _ _ [_; _]); [exact HD|]. intros o'. cbn [c_obs existsb sub_ev is_sub_of orb].
    unfold upd. rewrite orb_false_r, (Nat.eqb_sym o' o). destruct (Nat.eqb o o'); intuition congruence.
  - apply (dom_same (Cfg s m (IOp (OUnsub o) :: k) l) _ _ _ [_] HD); [|reflexivity]. intros o'. apply upd_none_iff. cbn [c_obs]. congruence.
  - apply (dom_same (Cfg s m (IOp p :: k) l) _ _ _ [_] HD); [reflexivity|]. intros o'. destruct p; try discriminate Hp; reflexivity.
  - apply (dom_same (Cfg s m (IOp ODispose :: k) l) _ _ _ [_] HD); reflexivity.
  - apply (dom_same (Cfg s m (IDeliver o n :: k) l) _ _ _ [_] HD); [|reflexivity]. intros o'. apply upd_none_iff. cbn [c_obs]. congruence.
  - apply (dom_same (Cfg s m (IAdoFin o :: k) l) _ _ _ [] HD); [|reflexivity]. intros o'. apply upd_none_iff. cbn [c_obs]. congruence.
  - apply (dom_same (Cfg s m (ISubRet o sub :: k) l) _ _ _ [] HD); [|reflexivity]. intros o'. apply upd_none_iff. cbn [c_obs]. congruence.
Qed.

(* what [entitled] means, declaratively: v was the argument of an on_next call made after o's
   subscribe call, and no on_error / on_completed / dispose call was made before it *)
Lemma ent_from_in o v : forall log sn dd, In v (ent_from o sn dd log) ->
  exists a b, log = a ++ EOp (ONext v) :: b /\
              sn || existsb (sub_ev o) a = true /\ dd = false /\ existsb end_ev a = false.
Proof.
  induction log as [|e t IH]; intros sn dd Hin; [destruct Hin|].
  cbn [ent_from] in Hin. destruct e as [p|o' n|x];
    [|destruct (IH _ _ Hin) as (a & b & -> & Hs & Hd & He); eexists (_ :: a), b; repeat split; assumption..].
  apply in_app_or in Hin. destruct Hin as [Hin|Hin].
  - destruct p as [o'|o'|w|x| |]; try (destruct Hin; fail).
    destruct sn, dd; cbn in Hin; try (destruct Hin; fail). destruct Hin as [->|[]].
    exists [], t. repeat split.
  - destruct (IH _ _ Hin) as (a & b & -> & Hs & Hd & He). apply orb_false_iff in Hd. destruct Hd as [-> Hp].
    exists (EOp p :: a), b. cbn [app existsb sub_ev end_ev]. rewrite orb_assoc, Hp. repeat split; assumption.
Qed.

Lemma entitled_in o v log : In v (entitled o log) ->
  exists p1 p2 p3, log = p1 ++ EOp (OSub o) :: p2 ++ EOp (ONext v) :: p3 /\
                   existsb end_ev (p1 ++ EOp (OSub o) :: p2) = false.
Proof.
  intros H. destruct (ent_from_in o v log false false H) as (a & b & -> & Hs & _ & He).
  apply existsb_exists in Hs. destruct Hs as (x & Hx & Sx). destruct (in_split x a Hx) as (p1 & p2 & ->).
  destruct x as [[o'| | | | |]| |]; try discriminate Sx. apply Nat.eqb_eq in Sx. subst o'.
  exists p1, p2, b. split; [|exact He]. now rewrite <- app_assoc.
Qed.

End SubjectTree.
