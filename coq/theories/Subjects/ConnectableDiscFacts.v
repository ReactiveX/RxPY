(* C24: disposing the handle returned by connect() releases the source -- on every
   reachable configuration of every call tree (arbitrary [react]), every subject
   engine, every mode.  Uses the connection invariant [CI] of ConnectableFacts. *)
From RxVerif Require Import Base.Prelude Ops.Machine Subjects.Connectable Subjects.ConnectableFacts.
Require Import Lia.
Local Open Scope nat_scope.

Section Disc.
Context {A E_st E_in E_op : Type}.
Context (e_exec : E_in -> E_st -> E_st * list E_in * list (@sev A E_op)).
Context (e_call : @sop A -> list E_in).
Context (md : mode) (reach : bool) (cold : list (ev A)) (react : nat -> nat -> list (@cop A)).
Context (e_drain : list E_in).

Notation kcfg := (@kcfg A E_st E_in E_op).
Notation stepk := (kstep e_exec e_call md reach cold react).
Notation runk := (krun e_exec e_call md reach cold react).

(* what CompositeDisposable.dispose of a not yet disposed connection logs, under the invariant *)
Lemma comp_dispose_events b kc pd (l : list (@cevent A E_op)) cid :
  CI b kc pd l -> cid < blen b -> ~ In cid pd -> comp_disposed (get_conn b cid) = false ->
  has_sub (fst (@comp_dispose A E_op cid b)) = false /\
  snd (@comp_dispose A E_op cid b) = if s_live (get_conn b cid) then [CESUnsub cid] else [].
Proof.
  intros H Hlt Hn Ec. unfold comp_dispose. rewrite Ec.
  unfold sado_dispose. cbn [s_sad_disposed s_sad_set s_live comp_disposed s_stopped].
  destruct (s_sad_disposed (get_conn b cid)) eqn:Ed.
  - rewrite (ci_dead _ _ _ _ H cid Hlt Hn Ed). cbn. split; reflexivity.
  - pose proof (ci_held _ _ _ _ H cid Hlt Hn Ed) as Hset. rewrite Hset.
    destruct (ci_set _ _ _ _ H cid Hlt Hset) as [_ Hlive].
    unfold src_dispose. cbn [s_live]. rewrite Hlive. cbn. split; reflexivity.
Qed.

Theorem disconnect_releases st0 top fuel j k cid :
  let c := runk fuel (kinit e_drain md st0 top) in
  k_k c = KOp (CDisc j) :: k ->
  nth_error (handles (k_bk c)) j = Some (Some cid) ->
  comp_disposed (get_conn (k_bk c) cid) = false ->
  has_sub (k_bk (stepk c)) = false /\
  src_state (src_log (klog_of (stepk c))) = Some None /\
  klog_of (stepk c) =
    klog_of c ++ CEOp (CDisc j) :: (if s_live (get_conn (k_bk c) cid) then [CESUnsub cid] else []).
Proof.
  intros c Hk Hn Ec.
  pose proof (reachable_CI e_exec e_call md reach cold react e_drain st0 top fuel) as H. fold c in H.
  pose proof (CI_step e_exec e_call md reach cold react c H) as H'.
  assert (Hr : cid < blen (k_bk c) /\ ~ In cid (pend (k_k c))).
  { apply (ci_refs _ _ _ _ H). left. eapply nth_error_In. exact Hn. }
  destruct Hr as [Hlt Hnp].
  assert (HCI : CI (k_bk c) (kcids (k_k c)) (pend (k_k c)) (CEOp (CDisc j) :: k_log c)).
  { eapply CI_log; [exact H|]. rewrite slog_cons. cbn. now rewrite app_nil_r. }
  destruct (comp_dispose_events _ _ _ _ cid HCI Hlt Hnp Ec) as [Hh Hev].
  assert (Es : stepk c = KCfg (k_eng c) (fst (@comp_dispose A E_op cid (k_bk c))) (k_out c) k
                            (rev (snd (@comp_dispose A E_op cid (k_bk c))) ++ CEOp (CDisc j) :: k_log c)).
  { unfold kstep. rewrite Hk, Hn. destruct (comp_dispose cid (k_bk c)) as [b' evs]. reflexivity. }
  assert (G1 : has_sub (k_bk (stepk c)) = false) by (rewrite Es; exact Hh).
  split; [exact G1|]. split; [apply CI_disconnected; assumption|].
  rewrite Es. unfold klog_of. cbn [k_log]. rewrite rev_app_distr, rev_involutive. cbn [rev].
  rewrite <- app_assoc. cbn [app]. now rewrite Hev.
Qed.
End Disc.
