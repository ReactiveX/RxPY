(* C24: ref_count / share on CALL TREES.  The subscribers may call back into ref_count from inside
   their callbacks (subscribe, unsubscribe, make the source emit -- re-entrantly, while a subscribe()
   or a connect() further down the stack is still in progress); only manual connect() / dispose of
   the connection next to the operator are excluded.  The continuation is an arbitrary stack of
   suspended frames; what is kept is
     - structure: every pending connect() (and every pending return of source.subscribe) is
       immediately followed by the pending return of the subscribe() that made it ([wf]);
     - counting: count = armed subscribers + subscribe() in progress + dispose() in progress;
     - connection: connected  <=>  count > 0 and no connect() is pending.
   Histories of top-level calls (last section) are the trees without reactions: there the pending
   connect() sits in the one subscribe() in progress, whose count is 1, which gives the closed
   formula connected <=> count - pending connects > 0; on trees the count may already be larger. *)
From RxVerif Require Import Base.Prelude Ops.Machine Subjects.Connectable Subjects.ConnectableFacts Subjects.ConnectableCountFacts
  Subjects.FamilyFacts.
Require Import Lia.
Local Open Scope nat_scope.

Lemma pos_ltb_same (x y : Z) : (0 < x)%Z -> (0 < y)%Z -> (0 <? x)%Z = (0 <? y)%Z.
Proof. intros Hx Hy. apply Z.ltb_lt in Hx, Hy. congruence. Qed.

Section RcTree.
Context {A E_st E_in E_op : Type}.
Context (e_exec : E_in -> E_st -> E_st * list E_in * list (@sev A E_op)).
Context (e_call : @sop A -> list E_in).
Context (reach : bool) (cold : list (ev A)) (react : nat -> nat -> list (@cop A)).
Context (Hreact : forall o k, Forall nomanual (react o k)).
Notation kinstr := (@kinstr A E_in).
Notation kcfg := (@kcfg A E_st E_in E_op).
Notation stepk := (kstep e_exec e_call MRefCount reach cold react).
Notation runk := (krun e_exec e_call MRefCount reach cold react).

(* instructions that are neither a subscribe()/dispose()/connect() in progress nor a manual operation *)
Definition neutral (i : kinstr) : Prop :=
  match i with
  | KS _ | KSrc _ _ | KSrcFin _ | KHandle _ | KOuter _ _ => True
  | KOp p => nomanual p
  | _ => False
  end.

Lemma neutral_census p : Forall neutral p ->
  nret p = 0 /\ ndec p = 0 /\ nconnect p = 0 /\ connrets p = [] /\ pendsubs p = [].
Proof.
  induction 1 as [|i p Hi _ IH]; [repeat split|].
  destruct IH as (I1 & I2 & I3 & I4 & I5).
  destruct i; try contradiction; cbn in *; repeat split; assumption.
Qed.

Lemma neutral_KS l : Forall neutral (map (@KS A E_in) l).
Proof. induction l; constructor; cbn; auto. Qed.
Lemma neutral_KSrc cid l : Forall neutral (map (@KSrc A E_in cid) l).
Proof. induction l; constructor; cbn; auto. Qed.
Lemma neutral_KOp l : Forall nomanual l -> Forall neutral (map (@KOp A E_in) l).
Proof. induction 1; constructor; cbn; auto. Qed.

Fixpoint wf (k : list kinstr) : Prop :=
  match k with
  | [] => True
  | KConnect w :: r => w = ByRefCount /\ (exists o r', r = KRet o :: r') /\ wf r
  | KConnRet _ w :: r => w = ByRefCount /\ (exists o r', r = KRet o :: r') /\ wf r
  | KOp p :: r => nomanual p /\ wf r
  | _ :: r => wf r
  end.

Lemma wf_tail i k : wf (i :: k) -> wf k.
Proof. destruct i; cbn; tauto. Qed.
Lemma wf_neutral_app p k : Forall neutral p -> wf k -> wf (p ++ k).
Proof.
  induction 1 as [|i p Hi _ IH]; intros Hk; [exact Hk|].
  destruct i; try contradiction; cbn [app wf]; auto.
Qed.

(* every pending connect / return of source.subscribe has its own pending KRet behind it *)
Lemma wf_census k : wf k ->
  nconnect k + length (connrets k) <= nret k /\
  match k with KRet _ :: _ => nconnect k + length (connrets k) + 1 <= nret k | _ => True end.
Proof.
  induction k as [|i k IH]; intros H; [cbn; auto|].
  pose proof (IH (wf_tail i k H)) as [I1 I2].
  destruct i; cbn [wf] in H; cbn [nconnect nret connrets flat_map filter length app] in *;
    fold (nconnect k) (nret k) (connrets k) in *; try (split; [lia|exact I]).
  - split; lia.
  - destruct H as (_ & (o & r' & ->) & _). cbn [length] in *. split; [lia|exact I].
  - destruct H as (_ & (o & r' & ->) & _). cbn [length] in *. split; [lia|exact I].
Qed.

Record TI (b : book) (m : outmap) (k : list kinstr) (L : list nat) : Prop := {
  t_wf : wf k;
  t_nodup : NoDup L;
  t_dom : dom m L;
  t_flag : forall o, oflag m o = true -> In o L;
  t_count : count b = Z.of_nat (nact m L + nret k + ndec k);
  t_one : nconnect k + length (connrets k) <= 1;
  t_has : has_sub b = (0 <? count b)%Z && (nconnect k =? 0);
  t_truthy : has_sub b = true -> connrets k = [] ->
             exists cid, rc_sub b = Some cid /\ comp_disposed (get_conn b cid) = false;
  t_pend : forall cid, In cid (connrets k) -> comp_disposed (get_conn b cid) = false;
  t_psnd : NoDup (pendsubs k);
  t_ps : forall o, In o (pendsubs k) -> In o L /\ oflag m o = false }.

Definition TIc (c : kcfg) : Prop := exists L, TI (k_bk c) (k_out c) (k_k c) L.

Lemma TI_drop b m i k L : TI b m (i :: k) L -> neutral i -> TI b m k L.
Proof.
  intros [Twf Tnodup Tdom Tflag Tcount Tone Thas Ttruthy Tpend Tpsnd Tps] Hi.
  assert (E : nret (i :: k) = nret k /\ ndec (i :: k) = ndec k /\ nconnect (i :: k) = nconnect k /\
              connrets (i :: k) = connrets k /\ pendsubs (i :: k) = pendsubs k)
    by (destruct i; try contradiction; repeat split; reflexivity).
  destruct E as (E1 & E2 & E3 & E4 & E5).
  rewrite E1, E2 in Tcount. rewrite E3, E4 in Tone. rewrite E3 in Thas. rewrite E4 in Ttruthy, Tpend. rewrite E5 in Tpsnd, Tps.
  constructor; try assumption. exact (wf_tail i k Twf).
Qed.

Lemma TI_push b m k L b' m' pushed :
  TI b m k L -> Forall neutral pushed -> bsame b b' ->
  (forall o, oflag m' o = oflag m o) -> dom m' L -> TI b' m' (pushed ++ k) L.
Proof.
  intros [Twf Tnodup Tdom Tflag Tcount Tone Thas Ttruthy Tpend Tpsnd Tps] Hp [B1 [B2 [B3 [B4 B5]]]] Hf Hdom.
  destruct (neutral_census pushed Hp) as (D1 & D2 & D3 & D4 & D5).
  assert (Hn : nact m' L = nact m L) by (unfold nact; f_equal; apply filter_ext; exact Hf).
  constructor; rewrite ?nret_app, ?ndec_app, ?nconnect_app, ?connrets_app, ?pendsubs_app; rewrite ?D1, ?D2, ?D3, ?D4, ?D5;
    cbn [app plus]; rewrite ?B1, ?B2, ?B3, ?Hn; try assumption.
  - apply wf_neutral_app; assumption.
  - intros o Ho. apply Tflag. now rewrite <- Hf.
  - intros G1 G2. destruct (Ttruthy G1 G2) as [cid [G3 G4]]. exists cid. now rewrite B5.
  - intros cid Hc. rewrite B5. apply Tpend. exact Hc.
  - intros o Ho. rewrite Hf. apply Tps. exact Ho.
Qed.

Lemma TI_prefix b m k L pushed : Forall neutral pushed -> TI b m k L -> TI b m (pushed ++ k) L.
Proof. intros Hp H. exact (TI_push b m k L b m pushed H Hp (bsame_refl b) (fun _ => eq_refl) (t_dom _ _ _ _ H)). Qed.

Lemma TI_frame b m i k L b' m' pushed :
  TI b m (i :: k) L -> neutral i -> Forall neutral pushed -> bsame b b' ->
  (forall o, oflag m' o = oflag m o) -> dom m' L -> TI b' m' (pushed ++ k) L.
Proof. intros H Hi. apply TI_push. exact (TI_drop b m i k L H Hi). Qed.

(* the wrapper of subscriber [o] changes: its armed flag moves together with the census of the
   continuation (a return of subscribe() arms it or runs the body of dispose() at once, a dispose()
   disarms it and runs the body) *)
Lemma TI_wrapper b m k k' L o u :
  TI b m k L -> In o L -> wf k' -> nconnect k' = nconnect k -> connrets k' = connrets k ->
  (if oflag m o then 1 else 0) + nret k + ndec k = (if u_sad_set u then 1 else 0) + nret k' + ndec k' ->
  NoDup (pendsubs k') -> incl (pendsubs k') (pendsubs k) -> (u_sad_set u = true -> ~ In o (pendsubs k')) ->
  TI b (oupd m o u) k' L.
Proof.
  intros [Twf Tnodup Tdom Tflag Tcount Tone Thas Ttruthy Tpend Tpsnd Tps] Ho Hwf En Ec Ecount Hnd Hincl Harm.
  pose proof (nact_upd m o u L Tnodup Ho) as Hn.
  constructor; rewrite ?En, ?Ec; try assumption.
  - apply dom_upd. exact Tdom.
  - intros x Hx. destruct (Nat.eq_dec x o) as [->|N]; [exact Ho|]. rewrite oflag_upd_other in Hx by exact N. auto.
  - rewrite Tcount. f_equal. lia.
  - intros x Hx. destruct (Tps x (Hincl x Hx)) as [G1 G2]. split; [exact G1|].
    destruct (Nat.eq_dec x o) as [->|N]; [|now rewrite oflag_upd_other].
    rewrite oflag_upd_same. destruct (u_sad_set u); [destruct (Harm eq_refl Hx)|reflexivity].
Qed.

Lemma follows_neutral i j :
  neutral i -> keeps_flags i -> (forall o, i <> KOp (CSub o)) -> follows i j -> neutral j.
Proof.
  destruct i as [[o| | | | | | |]| | | | | | | | | |]; cbn; try tauto; intros _ _ Hs H;
    try (destruct (Hs o eq_refl)); decompose [ex] H; subst j; exact I.
Qed.

Lemma TI_calm st b m i k l L :
  TI b m (i :: k) L -> neutral i -> keeps_flags i -> (forall o, i <> KOp (CSub o)) ->
  TI (k_bk (stepk (KCfg st b m (i :: k) l))) (k_out (stepk (KCfg st b m (i :: k) l)))
     (k_k (stepk (KCfg st b m (i :: k) l))) L.
Proof.
  intros H Hi Hf Hs.
  destruct (kstep_keeps e_exec e_call MRefCount reach cold react st b m i k l) as (Kb & Kf & Kd).
  destruct (kstep_pushes e_exec e_call MRefCount reach cold react (KCfg st b m (i :: k) l) i k eq_refl)
    as (ops & es & rest & -> & Hops & Hr & _).
  rewrite !app_assoc.
  apply (TI_frame b m i k L); [exact H|exact Hi| | |exact (Kf Hf)|exact (Kd L (t_dom _ _ _ _ H))].
  - apply Forall_app. split; [apply Forall_app; split; [apply neutral_KOp|apply neutral_KS]|].
    + destruct Hops as [->|(o & n & ->)]; [constructor|apply Hreact].
    + eapply Forall_impl; [|exact Hr]. intros j. exact (follows_neutral i j Hi Hf Hs).
  - apply Kb. destruct i as [[]| | | | | | | | | |]; first [exact I|destruct Hi].
Qed.

Theorem TI_step c : TIc c -> TIc (stepk c).
Proof.
  destruct c as [st b m k l]. intros [L H]. cbn [k_k k_bk k_out] in H.
  destruct k as [|i k]; [exists L; exact H|].
  assert (Hcalm : neutral i -> keeps_flags i -> (forall o, i <> KOp (CSub o)) -> TIc (stepk (KCfg st b m (i :: k) l)))
    by (intros; exists L; apply TI_calm; assumption).
  destruct i as [p|ei|o|o|o|o u| |w|cid w|cid n|cid]; try (apply Hcalm; [exact I|exact I|discriminate]); clear Hcalm.
  - (* KOp: a new subscriber *)
    pose proof (t_wf _ _ _ _ H) as Hwf. cbn [wf] in Hwf. destruct Hwf as [Hnm Hwf].
    destruct p as [o|o| |j|v|e| |d]; try contradiction;
      try (exists L; apply TI_calm; [exact H|exact Hnm|exact I|discriminate]).
    unfold TIc. cbn [kstep k_k k_bk k_log k_out k_eng].
    destruct (m o) as [u0|] eqn:Em; cbn [k_k k_bk k_out].
    { exists L. exact (TI_drop _ _ _ _ _ H I). }
    exists (L ++ [o]).
    destruct H as [Twf Tnodup Tdom Tflag Tcount Tone Thas Ttruthy Tpend Tpsnd Tps].
    assert (Hno : ~ In o L) by (intros G; apply (Tdom o G); exact Em).
    assert (Hf0 : oflag (oupd m o fresh_outer) o = false) by (rewrite oflag_upd_same; reflexivity).
    census_all k.
    constructor; census k; cbn [wf]; try assumption.
    + apply NoDup_app_single; assumption.
    + apply dom_upd_new. exact Tdom.
    + intros x Hx. destruct (Nat.eq_dec x o) as [->|N]; [congruence|].
      rewrite oflag_upd_other in Hx by exact N. apply in_or_app. left. auto.
    + rewrite nact_app, Hf0, nact_notin by exact Hno. rewrite Tcount. f_equal. lia.
    + constructor; [|exact Tpsnd]. intros G. apply Hno. apply (Tps o G).
    + intros x [<-|Hx]; [split; [apply in_or_app; right; left; reflexivity|exact Hf0]|].
      destruct (Tps x Hx) as [G1 G2]. split; [apply in_or_app; left; exact G1|].
      rewrite oflag_upd_other; [exact G2|]. intros ->. contradiction.
  - (* KInc *)
    unfold TIc. cbn [kstep k_k k_bk k_log k_out k_eng count set_count].
    exists L. apply TI_prefix; [apply neutral_KS|].
    destruct H as [Twf Tnodup Tdom Tflag Tcount Tone Thas Ttruthy Tpend Tpsnd Tps].
    census_all k. cbn [wf] in *.
    destruct (wf_census k Twf) as [W1 _].
    destruct (Z.eqb_spec (count b + 1) 1) as [E|E]; cbn [app].
    + (* 0 -> 1: the connect is pushed *)
      assert (E0 : count b = 0%Z) by lia.
      assert (Z0 : nact m L = 0 /\ nret k = 0 /\ ndec k = 0) by lia. destruct Z0 as (Z1 & Z2 & Z3).
      assert (Z4 : nconnect k = 0) by lia. assert (Z5 : connrets k = []) by (apply length_zero_iff_nil; lia).
      constructor; cbn [has_sub count rc_sub set_count]; census k; cbn [wf]; try assumption.
      * split; [reflexivity|]. split; [eauto|exact Twf].
      * lia.
      * rewrite Z4, Z5. cbn. lia.
      * rewrite Thas, E0. cbn. reflexivity.
    + assert (Hpos : (0 < count b)%Z) by lia.
      constructor; cbn [has_sub count rc_sub set_count]; census k; cbn [wf]; try assumption.
      * rewrite Tcount. lia.
      * rewrite Thas. f_equal. apply pos_ltb_same; lia.
  - (* KRet: disposed before subscribe() returned, the body of dispose() runs at once; else armed *)
    unfold TIc. cbn [kstep k_k k_bk k_log k_out k_eng].
    destruct (t_ps _ _ _ _ H o (or_introl eq_refl)) as [HoL Hof].
    pose proof (t_psnd _ _ _ _ H) as Hnd. cbn [pendsubs flat_map app] in Hnd. fold (pendsubs k) in Hnd.
    apply NoDup_cons_iff in Hnd. destruct Hnd as [Hno Hnd].
    pose proof (wf_tail _ _ (t_wf _ _ _ _ H)) as Hwf.
    destruct (m o) as [u0|] eqn:Em; [|exfalso; exact (t_dom _ _ _ _ H o HoL Em)].
    destruct (u_sad_disposed u0); cbn [k_k k_bk k_out]; exists L;
      apply (TI_wrapper b m (KRet o :: k)); try assumption; try reflexivity; census k; rewrite ?Hof; cbn [u_sad_set];
      try lia; try (apply incl_tl, incl_refl).
    intros _. exact Hno.
  - (* KOuter *)
    unfold TIc. cbn [kstep k_k k_bk k_log k_out k_eng].
    pose proof (TI_drop _ _ _ _ _ H I) as Hsame.
    destruct (m o) as [u0|] eqn:Em; [|exists L; exact Hsame].
    destruct (u_sad_disposed u0) eqn:Ed; [exists L; exact Hsame|].
    destruct (u_sad_set u0) eqn:Es; cbn [k_k k_bk k_out]; exists L.
    + (* armed: the body of dispose() will run *)
      assert (Hf : oflag m o = true) by (unfold oflag; now rewrite Em).
      apply TI_prefix; [destruct u; [apply neutral_KS|constructor]|].
      apply (TI_wrapper b m k); try assumption; try reflexivity; census k; rewrite ?Hf; cbn [u_sad_set wf]; try lia.
      * exact (t_flag _ _ _ _ H o Hf).
      * exact (t_wf _ _ _ _ Hsame).
      * exact (t_psnd _ _ _ _ Hsame).
      * apply incl_refl.
    + (* not armed yet (subscribe() has not returned): only marked *)
      change k with ([] ++ k). eapply TI_frame; [exact H|exact I|constructor|apply bsame_refl| |apply dom_upd; exact (t_dom _ _ _ _ H)].
      intros y. destruct (Nat.eq_dec y o) as [->|N]; [|now apply oflag_upd_other].
      rewrite oflag_upd_same. cbn. unfold oflag. now rewrite Em, Es.
  - (* KDec *)
    unfold TIc. cbn [kstep k_k k_bk k_log k_out k_eng].
    exists L. destruct H as [Twf Tnodup Tdom Tflag Tcount Tone Thas Ttruthy Tpend Tpsnd Tps].
    census_all k. cbn [wf] in *.
    destruct (wf_census k Twf) as [W1 _].
    cbn [count rc_sub set_count].
    destruct (Z.eqb_spec (count b - 1) 0) as [E0|E0].
    + (* the last subscriber leaves *)
      assert (Z0 : nact m L = 0 /\ nret k = 0 /\ ndec k = 0) by lia. destruct Z0 as (Z1 & Z2 & Z3).
      assert (Z4 : nconnect k = 0) by lia. assert (Z5 : connrets k = []) by (apply length_zero_iff_nil; lia).
      assert (Hht : has_sub b = true).
      { rewrite Thas, Z4. replace (count b) with 1%Z by lia. reflexivity. }
      destruct (Ttruthy Hht Z5) as [cid [Hr Hcd]].
      unfold truthy. rewrite Hr.
      change (get_conn (set_count (count b - 1) b) cid) with (get_conn b cid). rewrite Hcd. cbn [negb andb].
      assert (Hcd' : comp_disposed (get_conn (set_count (count b - 1) b) cid) = false) by exact Hcd.
      destruct (comp_dispose_fields (A:=A) (E_op:=E_op) cid (set_count (count b - 1) b) Hcd') as [F1 [F2 F3]].
      destruct (Connectable.comp_dispose cid (set_count (count b - 1) b)) as [b2 evs]. cbn [fst] in F1, F2, F3.
      cbn [k_k k_bk k_out].
      constructor; try assumption.
      * rewrite F2. cbn [count set_count]. lia.
      * rewrite F1, F2. cbn [count set_count]. rewrite E0. reflexivity.
      * rewrite F1. discriminate.
      * rewrite Z5. intros x [].
    + assert (Hpos : (0 < count b - 1)%Z) by lia.
      cbn [andb k_k k_bk k_out].
      constructor; cbn [has_sub count rc_sub set_count]; try assumption.
      * rewrite Tcount. lia.
      * rewrite Thas. f_equal. apply pos_ltb_same; lia.
  - (* KConnect *)
    unfold TIc. cbn [kstep k_k k_bk k_log k_out k_eng].
    exists L. destruct H as [Twf Tnodup Tdom Tflag Tcount Tone Thas Ttruthy Tpend Tpsnd Tps].
    census_all k. cbn [wf] in *.
    destruct Twf as (Hw & (o & r' & Hk) & Twf).
    assert (Hhs : has_sub b = false) by (rewrite Thas; cbn; apply Bool.andb_false_r).
    rewrite Hhs. cbn [k_k k_bk k_out]. apply TI_prefix; [apply neutral_KSrc|].
    assert (Z4 : nconnect k = 0) by lia. assert (Z5 : connrets k = []) by (apply length_zero_iff_nil; lia).
    assert (Hpos : (0 < count b)%Z) by (rewrite Tcount, Hk; cbn [nret filter length]; lia).
    constructor; cbn [has_sub count rc_sub set_conns set_has]; census k; cbn [wf]; try assumption.
    + split; [exact Hw|]. split; [eauto|exact Twf].
    + rewrite Z4, Z5. cbn. lia.
    + rewrite Z4. destruct (Z.ltb_spec 0 (count b)); [reflexivity|lia].
    + discriminate.
    + rewrite Z5. intros x [<-|[]].
      change (length (conns b)) with (blen b).
      change (get_conn (set_conns (conns b ++ [fresh_sconn]) (set_has true b)) (blen b))
        with (get_conn (set_conns (conns (set_has true b) ++ [fresh_sconn]) (set_has true b)) (blen (set_has true b))).
      rewrite get_conn_app_new. reflexivity.
  - (* KConnRet *)
    unfold TIc. cbn [kstep k_k k_bk k_log k_out k_eng].
    exists L. destruct H as [Twf Tnodup Tdom Tflag Tcount Tone Thas Ttruthy Tpend Tpsnd Tps].
    census_all k. cbn [wf] in *.
    destruct Twf as (Hw & (o & r' & Hk) & Twf). subst w.
    assert (Z4 : nconnect k = 0) by lia. assert (Z5 : connrets k = []) by (apply length_zero_iff_nil; lia).
    pose proof (Tpend cid (or_introl eq_refl)) as Hcd.
    set (c0 := get_conn b cid) in *.
    assert (Hc1 : comp_disposed (fst (if s_sad_disposed c0 then src_dispose (A:=A) (E_op:=E_op) cid c0
                                      else (SConn (s_stopped c0) false true (s_live c0) (comp_disposed c0), []))) = false).
    { destruct (s_sad_disposed c0); [|exact Hcd]. unfold src_dispose. destruct (s_live c0); exact Hcd. }
    destruct (if s_sad_disposed c0 then src_dispose cid c0
              else (SConn (s_stopped c0) false true (s_live c0) (comp_disposed c0), [])) as [c1 evs].
    cbn [fst] in Hc1. cbn [k_k k_bk k_out conn_return].
    assert (Hg : forall x, comp_disposed (get_conn (put_conn cid c1 b) x) = comp_disposed (get_conn b x)).
    { intros x. rewrite get_put. destruct (Nat.eqb x cid && (cid <? blen b)) eqn:E; [|reflexivity].
      apply andb_prop in E. destruct E as [E _]. apply Nat.eqb_eq in E. subst x. fold c0. congruence. }
    constructor; cbn [has_sub count rc_sub set_rc set_cur put_conn set_conns]; try assumption.
    + lia.
    + intros _ _. exists cid. split; [reflexivity|].
      change (get_conn (set_rc (Some cid) (set_cur (Some cid) (put_conn cid c1 b))) cid)
        with (get_conn (put_conn cid c1 b) cid). rewrite Hg. exact Hcd.
    + rewrite Z5. intros x [].
Qed.

Context (e_drain : list E_in).

Lemma neutral_prog top : Forall nomanual top -> Forall neutral (prog e_drain MRefCount top).
Proof.
  intros H. unfold prog. cbn [app]. apply Forall_app. split; [apply neutral_KS|].
  induction H as [|p t Hp _ IH]; [constructor|]. cbn [flat_map]. constructor; [exact Hp|].
  apply Forall_app. split; [apply neutral_KS|exact IH].
Qed.

Lemma TI_init st0 top : Forall nomanual top -> TIc (kinit e_drain MRefCount st0 top : kcfg).
Proof.
  intros H. exists []. unfold kinit. cbn [k_bk k_out k_k].
  pose proof (neutral_prog top H) as Hn.
  destruct (neutral_census _ Hn) as (C1 & C2 & C3 & C4 & C5).
  assert (Hwf : wf (prog e_drain MRefCount top)).
  { rewrite <- (app_nil_r (prog e_drain MRefCount top)). apply wf_neutral_app; [exact Hn|exact I]. }
  constructor; rewrite ?C1, ?C2, ?C3, ?C4, ?C5; try exact Hwf.
  - constructor.
  - intros o [].
  - intros o Ho. unfold oflag in Ho. discriminate.
  - reflexivity.
  - cbn. lia.
  - reflexivity.
  - intros G. discriminate.
  - intros cid [].
  - constructor.
  - intros o [].
Qed.

Theorem TI_reachable st0 top fuel :
  Forall nomanual top -> TIc (runk fuel (kinit e_drain MRefCount st0 top)).
Proof. intros H. apply krun_ind; [apply TI_step|apply TI_init; exact H]. Qed.

(* connected  <=>  the subscriber count is positive and no connect() is pending *)
Theorem rc_tree_connected_iff st0 top fuel :
  Forall nomanual top ->
  let c := runk fuel (kinit e_drain MRefCount st0 top) in
  has_sub (k_bk c) = (0 <? count (k_bk c))%Z && (nconnect (k_k c) =? 0).
Proof. intros H c. destruct (TI_reachable st0 top fuel H) as [L HT]. exact (t_has _ _ _ _ HT). Qed.

(* the count is the number of subscribers whose dispose has not run yet *)
Theorem rc_tree_count_is_subscribers st0 top fuel :
  Forall nomanual top ->
  let c := runk fuel (kinit e_drain MRefCount st0 top) in
  exists L, NoDup L /\ (forall o, oflag (k_out c) o = true -> In o L) /\
            count (k_bk c) = Z.of_nat (nact (k_out c) L + nret (k_k c) + ndec (k_k c)).
Proof.
  intros H c. destruct (TI_reachable st0 top fuel H) as [L HT]. exists L.
  split; [exact (t_nodup _ _ _ _ HT)|]. split; [exact (t_flag _ _ _ _ HT)|exact (t_count _ _ _ _ HT)].
Qed.

(* at most one connect() is in progress at any time; it belongs to the subscribe() that found the
   count at 0, finds the connectable disconnected (so it subscribes the source), and the count it
   sees is at least 1 (exactly 1 on a history of top-level calls) *)
Theorem rc_tree_connect_at_first_subscriber st0 top fuel w k :
  Forall nomanual top ->
  let c := runk fuel (kinit e_drain MRefCount st0 top) in
  k_k c = KConnect w :: k ->
  w = ByRefCount /\ has_sub (k_bk c) = false /\ (1 <= count (k_bk c))%Z /\ nconnect k = 0.
Proof.
  intros H c Hk. destruct (TI_reachable st0 top fuel H) as [L HT]. fold c in HT. rewrite Hk in HT.
  destruct HT as [Twf Tnodup Tdom Tflag Tcount Tone Thas Ttruthy Tpend Tpsnd Tps].
  census_all k. cbn [wf] in *.
  destruct Twf as (Hw & (o & r' & Hr) & _). split; [exact Hw|]. split; [rewrite Thas; apply Bool.andb_false_r|].
  split; [rewrite Tcount, Hr; cbn [nret filter length]; lia|lia].
Qed.

(* the subscribe() that pushes the connect is the one that moves the count from 0 to 1, and
   there the connectable is disconnected with no connect pending: "connects on the first" *)
Theorem rc_tree_first_subscriber_connects st0 top fuel o k :
  Forall nomanual top ->
  let c := runk fuel (kinit e_drain MRefCount st0 top) in
  k_k c = KInc o :: k ->
  (count (k_bk c) = 0%Z <-> has_sub (k_bk c) = false /\ nconnect k = 0) /\
  (count (k_bk c) = 0%Z -> nconnect (k_k (stepk c)) = 1 /\ count (k_bk (stepk c)) = 1%Z) /\
  (count (k_bk c) <> 0%Z -> nconnect (k_k (stepk c)) = nconnect k).
Proof.
  intros H c Hk. destruct (TI_reachable st0 top fuel H) as [L HT]. fold c in HT.
  destruct c as [st b m k0 l]. cbn [k_k k_bk] in *. subst k0.
  destruct HT as [Twf Tnodup Tdom Tflag Tcount Tone Thas Ttruthy Tpend Tpsnd Tps].
  census_all k. cbn [wf] in *.
  destruct (wf_census k Twf) as [W1 _].
  destruct (neutral_census _ (neutral_KS (e_call (SSub o)))) as (C1 & C2 & C3 & C4 & C5).
  split; [|split].
  - split.
    + intros E. rewrite Thas, E. split; [reflexivity|lia].
    + intros [G1 G2]. rewrite Thas, G2 in G1. cbn in G1. rewrite Bool.andb_true_r in G1.
      destruct (Z.ltb_spec 0 (count b)); [discriminate|lia].
  - intros E. cbn [kstep k_k k_bk k_log k_out k_eng count set_count]. rewrite E. cbn [Z.add Z.eqb Pos.eqb].
    rewrite nconnect_app, C3. cbn [app nconnect filter length]. fold (nconnect k). split; [lia|reflexivity].
  - intros E. cbn [kstep k_k k_bk k_log k_out k_eng count set_count].
    destruct (Z.eqb_spec (count b + 1) 1); [lia|]. rewrite nconnect_app, C3. reflexivity.
Qed.

(* "disconnects on the last": when dispose() moves the count from 1 to 0 the connection is
   disposed in that very step *)
Theorem rc_tree_last_subscriber_disconnects st0 top fuel k :
  Forall nomanual top ->
  let c := runk fuel (kinit e_drain MRefCount st0 top) in
  k_k c = KDec :: k ->
  (count (k_bk c) = 1%Z ->
     has_sub (k_bk c) = true /\ has_sub (k_bk (stepk c)) = false /\ count (k_bk (stepk c)) = 0%Z) /\
  (count (k_bk c) <> 1%Z ->
     has_sub (k_bk (stepk c)) = has_sub (k_bk c) /\ (0 < count (k_bk (stepk c)))%Z).
Proof.
  intros H c Hk. pose proof (TI_reachable st0 top fuel H) as HT. fold c in HT.
  pose proof (TI_step c HT) as [L' HT'].
  destruct HT as [L HT]. rewrite Hk in HT.
  pose proof (t_has _ _ _ _ HT') as Hh'.
  destruct HT as [Twf Tnodup Tdom Tflag Tcount Tone Thas Ttruthy Tpend Tpsnd Tps].
  census_all k. cbn [wf] in *.
  destruct (wf_census k Twf) as [W1 _].
  assert (Hstep : count (k_bk (stepk c)) = (count (k_bk c) - 1)%Z /\ nconnect (k_k (stepk c)) = nconnect k).
  { destruct c as [st b m k0 l]. cbn [k_k k_bk] in *. subst k0. cbn [kstep k_k k_bk k_log k_out k_eng].
    destruct ((count (set_count (count b - 1) b) =? 0)%Z && truthy (set_count (count b - 1) b) (rc_sub (set_count (count b - 1) b))) eqn:E;
      [|split; reflexivity].
    destruct (rc_sub (set_count (count b - 1) b)) as [cid|] eqn:Er; [|split; reflexivity].
    unfold truthy in E. apply andb_prop in E. destruct E as [_ E]. apply Bool.negb_true_iff in E.
    destruct (comp_dispose_fields (A:=A) (E_op:=E_op) cid _ E) as [_ [F2 _]].
    destruct (Connectable.comp_dispose cid (set_count (count b - 1) b)) as [b2 evs]. split; [exact F2|reflexivity]. }
  destruct Hstep as [Hcnt Hnc].
  assert (Hpos : (1 <= count (k_bk c))%Z) by lia.
  split.
  - intros E. assert (Hn0 : nconnect k = 0) by lia.
    split; [rewrite Thas, Hn0, E; reflexivity|]. rewrite Hh', Hcnt, E. split; reflexivity.
  - intros E. rewrite Hh', Hcnt, Hnc, Thas. split; [|lia]. f_equal.
    apply pos_ltb_same; lia.
Qed.

Theorem rc_tree_no_subscriber_no_source_subscription st0 top fuel :
  Forall nomanual top ->
  let c := runk fuel (kinit e_drain MRefCount st0 top) in
  count (k_bk c) = 0%Z -> src_state (src_log (klog_of c)) = Some None.
Proof.
  intros H c E. pose proof (rc_tree_connected_iff st0 top fuel H) as G. cbv zeta in G. fold c in G.
  apply CI_disconnected; [apply reachable_CI|]. fold c. rewrite G, E. reflexivity.
Qed.
End RcTree.

(* ---- ref_count / share on histories of top-level calls (subscribers do not call back) ----
   The invariant above, and on top of it: the continuation is [flat], so a subscribe() is never
   entered above a pending connect(), and the count that pushed the connect() -- 1 -- is still
   there when it runs.  This turns "count > 0 and no connect() pending" into the closed formula
   count - pending connects > 0. *)
Section RcFlat.
Context {A E_st E_in E_op : Type}.
Context (e_exec : E_in -> E_st -> E_st * list E_in * list (@sev A E_op)).
Context (e_call : @sop A -> list E_in).
Context (reach : bool) (cold : list (ev A)).
Notation kinstr := (@kinstr A E_in).
Notation kcfg := (@kcfg A E_st E_in E_op).
Notation csil := (fun (_ _ : nat) => @nil (@cop A)).
Notation stepk := (kstep e_exec e_call MRefCount reach cold csil).
Notation runk := (krun e_exec e_call MRefCount reach cold csil).

Let Hsil : forall o k : nat, Forall (@nomanual A) (csil o k) := fun _ _ => Forall_nil _.

Definition FL (c : kcfg) : Prop :=
  flat (k_k c) /\ (1 <= nconnect (k_k c) -> count (k_bk c) = 1%Z).

Lemma FL_step c : TIc c -> FL c -> FL (stepk c).
Proof.
  destruct c as [st b m k l]. intros [L HT] [Hf Hc]. cbn [k_k k_bk k_out] in *.
  destruct k as [|i k]; [split; assumption|].
  assert (Hcalm : calm_head m i -> FL (stepk (KCfg st b m (i :: k) l))).
  { intros Hi. destruct (kstep_calm e_exec e_call MRefCount reach cold csil st b m i k l Hi)
      as (ops & pushed & Ek & Hops & Hb & B1 & _).
    assert (ops = []) as -> by (destruct Hops as [E|(o & n & E)]; exact E). cbn [map app] in Ek.
    destruct (body_census _ Hb) as (C1 & _ & _). unfold FL. rewrite Ek, B1, nconnect_app, C1. split.
    - apply flat_body; [exact Hb|exact (flat_tail _ _ Hf)].
    - intros G. apply Hc. rewrite nconnect_cons. lia. }
  destruct i as [p|ei|o|o|o|o u| |w|cid w|cid n|cid]; try (apply Hcalm; exact I).
  - destruct (t_wf _ _ _ _ HT) as [Hp _].
    destruct p as [o|o| |j|v|e| |d]; try contradiction; try (apply Hcalm; exact (conj Hp I)).
    destruct (m o) eqn:Em; [apply Hcalm; split; [exact I|congruence]|].
    unfold FL. cbn [kstep k_k k_bk k_log k_out k_eng]. rewrite Em. split; [exact Hf|exact Hc].
  - (* subscribe(): nothing is pending beneath, and the connect() is pushed at count 1 *)
    clear Hcalm. cbn [flat] in Hf. unfold FL. cbn [kstep k_k k_bk k_log k_out k_eng count set_count].
    destruct (body_census _ (body_KS (A:=A) (e_call (SSub o)))) as (C1 & _ & _).
    destruct (Z.eqb_spec (count b + 1) 1) as [E|E]; cbn [app]; rewrite nconnect_app, C1; (split; [apply flat_body; [apply body_KS|cbn [flat]; apply flat_quiet; exact Hf]|]).
    + intros _. exact E.
    + census k. rewrite Hf. lia.
  - (* the body of dispose() cannot run above a pending connect(): the count would be at least 2 *)
    clear Hcalm. assert (Hn : nconnect k = 0).
    { pose proof (t_count _ _ _ _ HT) as Hcnt. destruct (wf_census e_exec k (wf_tail e_exec _ _ (t_wf _ _ _ _ HT))) as [W _].
      census_all k. destruct (nconnect k); [reflexivity|]. rewrite Hc in Hcnt by lia. lia. }
    unfold FL. cbn [kstep k_k k_bk k_log k_out k_eng].
    destruct (_ && _); [destruct (rc_sub _) as [cid|]; [destruct (comp_dispose cid _) as [b2 evs]|]|];
      cbn [k_k k_bk]; rewrite Hn; (split; [exact (flat_quiet _ Hn)|lia]).
  - clear Hcalm. unfold FL. cbn [kstep k_k k_bk k_log k_out k_eng]. census_all k.
    destruct (has_sub b); cbn [k_k k_bk].
    + split; [exact Hf|]. intros G. destruct w; apply Hc; lia.
    + destruct (body_census _ (body_KSrc (E_in:=E_in) (length (conns b)) cold)) as (C1 & _ & _).
      rewrite nconnect_app, C1. split; [apply flat_body; [apply body_KSrc|exact Hf]|]. intros _. apply Hc. lia.
  - unfold FL. cbn [kstep k_k k_bk k_log k_out k_eng].
    destruct (if s_sad_disposed (get_conn b cid) then _ else _) as [c1 evs]. cbn [k_k k_bk].
    split; [exact Hf|]. intros G. destruct w; exact (Hc G).
Qed.

Context (e_drain : list E_in).

Lemma FL_reachable st0 top fuel :
  Forall nomanual top ->
  TIc (runk fuel (kinit e_drain MRefCount st0 top)) /\ FL (runk fuel (kinit e_drain MRefCount st0 top)).
Proof.
  intros H. apply (krun_ind e_exec e_call MRefCount reach cold csil (fun c => TIc c /\ FL c)).
  - intros c [HT HF]. split; [exact (TI_step e_exec e_call reach cold csil Hsil c HT)|exact (FL_step c HT HF)].
  - split; [exact (TI_init e_drain st0 top H)|].
    destruct (drains_census e_drain top) as [Hq _]. unfold FL, kinit, prog. cbn [k_k k_bk app].
    rewrite Hq. split; [exact (flat_quiet _ Hq)|lia].
Qed.
End RcFlat.
