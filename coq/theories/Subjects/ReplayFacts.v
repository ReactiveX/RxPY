(* Facts about the two ReplaySubject engines (Subjects/Replay.v, Subjects/ReplaySched.v).
   Part 1: for EVERY reaction function (arbitrary call trees), every
   configuration (buffer size, window) and every fuel: per-observer grammar,
   "a stopped wrapper never delivers again", unsubscription.  Proved for the engine of
   ReplaySched.v in both scheduler modes; the engine of Replay.v is its virtual-time mode
   with the per-observer ensure_active steps of one emission run together ([rstep_sim]).
   Props/C22.v states its theorems over ReplaySched.v.  Section RFacts repeats them for Replay.v,
   the engine that the connectable model runs (Subjects/Connectable.v, C24); other files use only
   the simulation ([rstep_sim], [rrun_sim]) of it.
   Part 2: the retention policy: trimming incrementally (as the code does, at
   every on_next / subscribe / terminal) retains exactly the last buffer_size
   values whose age is within the window. *)
From Coq Require Import Sorting.Sorted.
From RxVerif Require Import Base.Prelude Ops.Machine Subjects.Subject Subjects.Replay
  Subjects.ReplaySpec Subjects.ReplaySched Subjects.SubjectFacts.

Section Logs.
Context {A : Type}.

Definition rnoGot (evs : list (@revent A)) : Prop := forall o n, ~ In (REGot o n) evs.

Lemma rview_app o (l1 l2 : list (@revent A)) : rview o (l1 ++ l2) = rview o l1 ++ rview o l2.
Proof.
  induction l1 as [|e t IH]; cbn [app rview]; [reflexivity|].
  destruct e as [p|o' n|e]; [exact IH| |exact IH].
  destruct (Nat.eqb o' o); [cbn; now rewrite IH|exact IH].
Qed.

Lemma rview_noGot o (l : list (@revent A)) : rnoGot l -> rview o l = [].
Proof.
  induction l as [|e t IH]; intros H; cbn [rview]; [reflexivity|].
  assert (Ht : rnoGot t) by (intros o' n Hin; apply (H o' n); now right).
  destruct e as [p|o' n|e]; [now apply IH| |now apply IH].
  exfalso. apply (H o' n). now left.
Qed.

Lemma rnoGot_rev (l : list (@revent A)) : rnoGot l -> rnoGot (rev l).
Proof. intros H o n Hin. apply (H o n). now apply in_rev. Qed.

Definition rmono (m m' : @romap A) : Prop :=
  forall o os, m o = Some os -> exists os', m' o = Some os' /\ (ra_stopped os = true -> ra_stopped os' = true).

Lemma rmono_refl m : rmono m m.
Proof. intros o os H. eauto. Qed.

Lemma rmono_trans m1 m2 m3 : rmono m1 m2 -> rmono m2 m3 -> rmono m1 m3.
Proof.
  intros H12 H23 o os H. destruct (H12 o os H) as [os2 [H2 Hs2]].
  destruct (H23 o os2 H2) as [os3 [H3 Hs3]]. eauto.
Qed.

Lemma rmono_upd (m : @romap A) o os os' :
  m o = Some os -> (ra_stopped os = true -> ra_stopped os' = true) -> rmono m (rupd m o os').
Proof.
  intros Hm Hs o2 os2 H2. unfold rupd. destruct (Nat.eqb o2 o) eqn:E.
  - apply Nat.eqb_eq in E. subst o2. rewrite Hm in H2. injection H2 as <-. eauto.
  - eauto.
Qed.

Lemma rmono_upd_new (m : @romap A) o x : m o = None -> rmono m (rupd m o x).
Proof.
  intros Hm o2 os2 H2. unfold rupd. destruct (Nat.eqb o2 o) eqn:E.
  - apply Nat.eqb_eq in E. subst o2. congruence.
  - eauto.
Qed.

Lemma rupd_same (m : @romap A) o x : rupd m o x o = Some x.
Proof. unfold rupd. now rewrite Nat.eqb_refl. Qed.

Lemma so_each_mono f : forall snap (s : @rstate A) m, rmono m (snd (so_each f snap s m)).
Proof.
  unfold so_each. induction snap as [|o snap IH]; intros s m; cbn [fold_left snd]; [apply rmono_refl|].
  destruct (m o) as [os|] eqn:Hm.
  - destruct (f o s (r_so os)) as [s' so'].
    eapply rmono_trans; [|apply IH]. eapply rmono_upd; [exact Hm|]. intros H. exact H.
  - apply IH.
Qed.

Lemma removable_dispose_stopped (s : @rstate A) os o :
  ra_stopped (snd (removable_dispose s os o)) = ra_stopped os.
Proof. unfold removable_dispose. destruct (so_dispose s (r_so os)) as [s1 so1]. reflexivity. Qed.

Lemma rado_dispose_stopped (s : @rstate A) os o : ra_stopped (snd (rado_dispose s os o)) = true.
Proof.
  unfold rado_dispose. cbn [rsad_disposed rsad_cur]. destruct (rsad_disposed os); [reflexivity|].
  destruct (rsad_cur os); [|reflexivity]. now rewrite removable_dispose_stopped.
Qed.

(* what one step of an engine does to the observer table and the log: stopped wrappers stay stopped, and
   either nothing is delivered or exactly one notification, to an observer whose wrapper was not stopped,
   which a terminal notification stops *)
Definition lshape (m : @romap A) (l : list (@revent A)) (m' : @romap A) (l' : list (@revent A)) : Prop :=
  rmono m m' /\
  ((exists evs, l' = evs ++ l /\ rnoGot evs) \/
   (exists pre o n os', l' = REGot o n :: pre ++ l /\ rnoGot pre /\
      (forall os, m o = Some os -> ra_stopped os = false) /\
      m' o = Some os' /\ (is_terminal n = true -> ra_stopped os' = true))).

Lemma lshape_stopped m l m' l' o os :
  lshape m l m' l' -> m o = Some os -> ra_stopped os = true ->
  rview o (rev l') = rview o (rev l) /\ exists os', m' o = Some os' /\ ra_stopped os' = true.
Proof.
  intros [Hmono Hl] Ho Hs. split; [|destruct (Hmono o os Ho) as [os2 [H2 Hs2]]; eauto].
  destruct Hl as [[evs [-> Hng]]|[pre [o2 [n [os' [-> [Hng [Hlive _]]]]]]]].
  - rewrite rev_app_distr, rview_app, (rview_noGot o (rev evs)) by now apply rnoGot_rev. apply app_nil_r.
  - cbn [rev]. rewrite rev_app_distr, !rview_app, (rview_noGot o (rev pre)) by now apply rnoGot_rev. cbn [rview].
    destruct (Nat.eqb o2 o) eqn:E; [|now rewrite !app_nil_r].
    apply Nat.eqb_eq in E. subst o2. rewrite (Hlive os Ho) in Hs. discriminate.
Qed.

Definition lwf (m : @romap A) (l : list (@revent A)) : Prop :=
  forall o, wellformed (rview o (rev l)) = true /\
            (has_term (rview o (rev l)) = true -> exists os, m o = Some os /\ ra_stopped os = true).

Lemma lshape_wf m l m' l' : lshape m l m' l' -> lwf m l -> lwf m' l'.
Proof.
  intros [Hmono [[evs [Hl Hng]]|[pre [o [n [os' [Hl [Hng [Hlive [Hos' Hterm]]]]]]]]]] I.
  - intros o2. rewrite Hl, rev_app_distr, rview_app.
    rewrite (rview_noGot o2 (rev evs)) by now apply rnoGot_rev.
    rewrite app_nil_r. destruct (I o2) as [Hw Ht]. split; [exact Hw|].
    intros H. destruct (Ht H) as [os [Ho Hs]]. destruct (Hmono o2 os Ho) as [os2 [Ho2 Hs2]]. eauto.
  - intros o2. rewrite Hl. cbn [rev]. rewrite rev_app_distr, !rview_app.
    rewrite (rview_noGot o2 (rev pre)) by now apply rnoGot_rev. rewrite app_nil_r.
    destruct (I o2) as [Hw Ht]. cbn [rview].
    destruct (Nat.eqb o o2) eqn:E.
    + apply Nat.eqb_eq in E. subst o2.
      assert (Hnt : has_term (rview o (rev l)) = false).
      { destruct (has_term (rview o (rev l))) eqn:Hh; [|reflexivity].
        destruct (Ht eq_refl) as [os [Ho Hs]]. rewrite (Hlive os Ho) in Hs. discriminate. }
      split.
      * rewrite wellformed_snoc, Hw, Hnt. reflexivity.
      * rewrite has_term_app, Hnt. cbn. rewrite orb_false_r. intros Hn. eauto.
    + rewrite app_nil_r. split; [exact Hw|].
      intros H. destruct (Ht H) as [os [Ho Hs]]. destruct (Hmono o2 os Ho) as [os2 [Ho2 Hs2]]. eauto.
Qed.

Lemma rnoGot_nil : rnoGot [].
Proof. intros o n []. Qed.
Lemma rnoGot_op p : rnoGot [REOp p].
Proof. intros o n [H|[]]. discriminate. Qed.
Lemma rnoGot_raised e p : rnoGot [RERaised e; REOp p].
Proof. intros o n [H|[H|[]]]; discriminate. Qed.

End Logs.

Lemma srun_ind {A} (sync : bool) (react : nat -> nat -> list (@rop A)) (P : @scfg A -> Prop) :
  (forall c, P c -> P (sstep sync react c)) -> forall n c, P c -> P (srun sync react n c).
Proof.
  intros Hs n; induction n as [|n IH]; intros c Hc; [exact Hc|].
  cbn [srun]. destruct (sc_k c) eqn:Ek; [exact Hc|]. apply IH. now apply Hs.
Qed.

Section Sched.
Context {A : Type} (sync : bool) (react : nat -> nat -> list (@rop A)).
Notation sstep := (sstep sync react).
Notation srun := (srun sync react).

Definition sstep_shape (c c' : @scfg A) : Prop := lshape (sc_obs c) (sc_rlog c) (sc_obs c') (sc_rlog c').

(* the step delivers nothing: the first disjunct of [lshape], with the zero, one or two events it logged *)
Local Ltac quiet := left;
  first [ exists (@nil (@revent A)); split; [reflexivity|apply rnoGot_nil]
        | eexists [_]; split; [reflexivity|apply rnoGot_op]
        | eexists [_; _]; split; [reflexivity|apply rnoGot_raised] ].

(* [sstep_shape] is opened once the case analysis has reached a configuration: opened earlier, every case
   distinction would be made in four copies of the step *)
Local Ltac leaf :=
  lazymatch goal with
  | |- sstep_shape _ (SCfg _ _ _ _) => unfold sstep_shape, lshape; cbn [sc_obs sc_rlog]
  | |- _ => idtac
  end.

Lemma sstep_op_shape top p s m k l : sstep_shape (SCfg s m (SIOp top p :: k) l) (sstep_op sync react top p s m k l).
Proof.
  destruct p as [o|o|v|e| | |d]; cbn [sstep_op]; leaf.
  - destruct (m o) as [os|] eqn:Hm; leaf.
    + split; [apply rmono_refl|quiet].
    + destruct (r_disposed s); leaf.
      * split; [now apply rmono_upd_new|]. right.
        exists [REOp (RSub o)], o, (Err disposed_exn), (rcalled true fresh_rostate).
        split; [reflexivity|]. split; [apply rnoGot_op|]. split; [intros os H; congruence|].
        split; [apply rupd_same|reflexivity].
      * match goal with |- context [ensure_active ?a ?b ?c] => destruct (ensure_active a b c) as [s3 so3] end.
        destruct (inl sync top); leaf; (split; [now apply rmono_upd_new|quiet]).
  - destruct (m o) as [os|] eqn:Hm; leaf.
    + destruct (r_handle os).
      * destruct (rado_dispose s os o) as [s' os'] eqn:E. leaf.
        split; [|quiet]. eapply rmono_upd; [exact Hm|]. intros _.
        change os' with (snd (s', os')). rewrite <- E. apply rado_dispose_stopped.
      * split; [apply rmono_refl|quiet].
    + split; [apply rmono_refl|quiet].
  - destruct (r_disposed s); leaf; [split; [apply rmono_refl|quiet]|].
    destruct (r_stopped s); leaf; [split; [apply rmono_refl|quiet]|].
    match goal with |- context [so_each ?f ?sn ?st m] =>
      pose proof (so_each_mono f sn st m) as M1; destruct (so_each f sn st m) as [s2 m2] end.
    cbn [snd] in *. leaf. split; [assumption|quiet].
  - destruct (r_disposed s); leaf; [split; [apply rmono_refl|quiet]|].
    destruct (r_stopped s); leaf; split; try apply rmono_refl; quiet.
  - destruct (r_disposed s); leaf; [split; [apply rmono_refl|quiet]|].
    destruct (r_stopped s); leaf; split; try apply rmono_refl; quiet.
  - split; [apply rmono_refl|quiet].
  - destruct (d <? 0); leaf; split; try apply rmono_refl; quiet.
Qed.

Lemma sstep_shape_holds c : sstep_shape c (sstep c).
Proof.
  destruct c as [s m k l]. destruct k as [|i k].
  - split; [apply rmono_refl|quiet].
  - destruct i as [top p|top o|top o t|o n|o|o|o|]; cbn [ReplaySched.sstep sc_k sc_st sc_obs sc_rlog].
    + apply sstep_op_shape.
    + destruct (m o) as [os|] eqn:Hm; leaf; [|split; [apply rmono_refl|quiet]].
      destruct (ensure_active o s (r_so os)) as [s' so']. leaf.
      split; [|quiet]. eapply rmono_upd; [exact Hm|]. intros H. exact H.
    + destruct (m o) as [os|] eqn:Hm; leaf; [|split; [apply rmono_refl|quiet]].
      destruct (ensure_active o s (so_on t (r_so os))) as [s' so']. leaf.
      split; [|quiet]. eapply rmono_upd; [exact Hm|]. intros H. exact H.
    + destruct (m o) as [os|] eqn:Hm; leaf; [|split; [apply rmono_refl|quiet]].
      destruct (ra_stopped os) eqn:Hst; leaf; [split; [apply rmono_refl|quiet]|].
      assert (Hgot : forall stop kk, (is_terminal n = true -> stop = true) ->
                sstep_shape (SCfg s m (SIDeliver o n :: k) l) (SCfg s (rupd m o (rcalled stop os)) kk (REGot o n :: l))).
      { intros stop kk Ht. split; cbn [sc_obs sc_rlog]; [eapply rmono_upd; [exact Hm|]; intros; congruence|].
        right. exists [], o, n, (rcalled stop os).
        split; [reflexivity|]. split; [apply rnoGot_nil|].
        split; [intros os2 H2; congruence|]. split; [apply rupd_same|].
        intros Hn. cbn. rewrite (Ht Hn). apply orb_true_r. }
      destruct n as [v|e|]; apply Hgot; [discriminate|reflexivity|reflexivity].
    + destruct (m o) as [os|] eqn:Hm; leaf; [|split; [apply rmono_refl|quiet]].
      destruct (rado_dispose s os o) as [s' os'] eqn:E. leaf.
      split; [|quiet]. eapply rmono_upd; [exact Hm|]. intros _.
      change os' with (snd (s', os')). rewrite <- E. apply rado_dispose_stopped.
    + leaf. split; [apply rmono_refl|quiet].
    + destruct (m o) as [os|] eqn:Hm; leaf; [|split; [apply rmono_refl|quiet]].
      split; [|quiet]. eapply rmono_upd; [exact Hm|]. intros H. exact H.
    + destruct (r_sched s) as [|[[i o] cancelled] rest]; leaf; [split; [apply rmono_refl|quiet]|].
      destruct cancelled; leaf; [split; [apply rmono_refl|quiet]|].
      destruct (m o) as [os|] eqn:Hm; leaf; [|split; [apply rmono_refl|quiet]].
      destruct (so_queue (r_so os)) as [|n q]; leaf.
      * split; [|quiet]. eapply rmono_upd; [exact Hm|]. intros H. exact H.
      * split; [|quiet]. eapply rmono_upd; [exact Hm|]. intros H. exact H.
Qed.

Lemma srun_S n c : srun (S n) c = srun n (sstep c).
Proof.
  cbn. destruct (sc_k c) eqn:E; [|reflexivity].
  assert (Hs : sstep c = c) by (unfold ReplaySched.sstep; now rewrite E). rewrite Hs.
  destruct n; cbn; [reflexivity|now rewrite E].
Qed.

Lemma srun_add a b c : srun (a + b) c = srun b (srun a c).
Proof.
  revert c; induction a as [|a IH]; intros c; [reflexivity|].
  change (S a + b)%nat with (S (a + b)). rewrite !srun_S. apply IH.
Qed.

Lemma srun_mono_finished a b c : (a <= b)%nat -> sc_k (srun a c) = [] -> sc_k (srun b c) = [].
Proof.
  intros H E. replace b with (a + (b - a))%nat by lia. rewrite srun_add.
  destruct (b - a)%nat; cbn [ReplaySched.srun]; [exact E|]. rewrite E. exact E.
Qed.

(* a stopped wrapper never delivers again, whatever is queued or scheduled *)
Theorem sstopped_final n : forall c o os,
  sc_obs c o = Some os -> ra_stopped os = true ->
  rview o (slog_of (srun n c)) = rview o (slog_of c).
Proof.
  induction n as [|n IH]; intros c o os Ho Hs; [reflexivity|].
  rewrite srun_S. destruct (lshape_stopped _ _ _ _ o os (sstep_shape_holds c) Ho Hs) as [Hv [os' [Ho' Hs']]].
  rewrite (IH (sstep c) o os' Ho' Hs'). exact Hv.
Qed.

(* unsubscribing takes effect at once, also from inside a callback *)
Theorem sunsubscribed_gets_nothing_more top s m k l o os n :
  m o = Some os -> r_handle os = true ->
  rview o (slog_of (srun n (SCfg s m (SIOp top (RUnsub o) :: k) l))) = rview o (rev l).
Proof.
  intros Hm Hh. destruct n as [|n]; [reflexivity|]. rewrite srun_S.
  assert (Hst : exists os', sc_obs (sstep (SCfg s m (SIOp top (RUnsub o) :: k) l)) o = Some os' /\ ra_stopped os' = true).
  { cbn [ReplaySched.sstep sc_k sc_st sc_obs sc_rlog sstep_op]. rewrite Hm, Hh.
    destruct (rado_dispose s os o) as [s' os'] eqn:E. cbn [sc_obs]. exists os'. split; [apply rupd_same|].
    change os' with (snd (s', os')). rewrite <- E. apply rado_dispose_stopped. }
  destruct Hst as [os' [Ho' Hs']]. rewrite (sstopped_final n _ o os' Ho' Hs').
  cbn [ReplaySched.sstep sc_k sc_st sc_obs sc_rlog sstep_op]. rewrite Hm, Hh.
  destruct (rado_dispose s os o) as [s' os2]. unfold slog_of. cbn [sc_rlog rev].
  rewrite rview_app. cbn. now rewrite app_nil_r.
Qed.
End Sched.

Section Sim.
Context {A : Type} (react : nat -> nat -> list (@rop A)).
Notation sstep := (sstep false react).
Notation srun := (srun false react).

(* calls made by [rstep] carry top = false: a virtual-time scheduler never drains inline, and nothing is
   demanded of what stands behind such a call *)
Definition up (i : @rinstr A) : @sinstr A :=
  match i with
  | RIOp p => SIOp false p
  | RIDeliver o n => SIDeliver o n
  | RIAdoFin o => SIAdoFin o
  | RIResched o => SIResched o
  | RIHandle o => SIHandle o
  | RIDrain => SIDrain
  end.

Definition upc (c : @rcfg A) : @scfg A := SCfg (rc_st c) (rc_obs c) (map up (rc_k c)) (rc_rlog c).

Lemma up_ops (l : list (@rop A)) : map up (map RIOp l) = map (SIOp false) l.
Proof. apply map_map. Qed.

(* a row of per-observer instructions, each applying f to its observer's ScheduledObserver, is [so_each f] *)
Lemma so_each_run (f : nat -> @rstate A -> @sostate A -> @rstate A * @sostate A) (ins : nat -> @sinstr A) :
  (forall o s m k l, sstep (SCfg s m (ins o :: k) l) =
     match m o with
     | Some os => let '(s', so') := f o s (r_so os) in SCfg s' (rupd m o (set_so os so')) k l
     | None => SCfg s m k l
     end) ->
  forall snap s m k l,
    srun (length snap) (SCfg s m (map ins snap ++ k) l) =
    SCfg (fst (so_each f snap s m)) (snd (so_each f snap s m)) k l.
Proof.
  intros Hins. unfold so_each. induction snap as [|o snap IH]; intros s m k l; [reflexivity|].
  cbn [length map app fold_left]. rewrite srun_S, Hins.
  destruct (m o) as [os|]; [destruct (f o s (r_so os)) as [s' so']|]; apply IH.
Qed.

Lemma srun_1 c : srun 1 c = sstep c.
Proof. apply (srun_S false react 0). Qed.

(* the second loop of on_error / on_completed *)
Lemma onensures_run top t snap s m k l :
  srun (length snap) (SCfg s m (map (fun o => SIOnEnsure top o t) snap ++ k) l) =
  SCfg (fst (so_each (fun o s so => ensure_active o s (so_on t so)) snap s m))
       (snd (so_each (fun o s so => ensure_active o s (so_on t so)) snap s m)) k l.
Proof.
  apply so_each_run. intros o s0 m0 k0 l0. cbn [ReplaySched.sstep sc_k sc_st sc_obs sc_rlog].
  destruct (m0 o); reflexivity.
Qed.

Lemma ensures_run top snap s m k l :
  srun (length snap) (SCfg s m (map (SIEnsure top) snap ++ k) l) =
  SCfg (fst (so_each ensure_active snap s m)) (snd (so_each ensure_active snap s m)) k l.
Proof.
  apply so_each_run. intros o s0 m0 k0 l0. cbn [ReplaySched.sstep sc_k sc_st sc_obs sc_rlog].
  destruct (m0 o); reflexivity.
Qed.

Lemma upc_cons s m i k l : upc (RCfg s m (i :: k) l) = SCfg s m (up i :: map up k) l.
Proof. reflexivity. Qed.

(* both engines reduced on a configuration whose head instruction is known; [upc] stays folded around the
   result of [rstep] until the case analysis is over: unfolded it would carry four copies of it *)
Local Ltac unfold_steps :=
  rewrite upc_cons; cbn [rstep rstep_op ReplaySched.sstep sstep_op rc_k rc_st rc_obs rc_rlog sc_k sc_st sc_obs sc_rlog up].
Local Ltac one_step := exists 1%nat; rewrite srun_1; unfold_steps.

(* one step of Subjects/Replay.v is a run of Subjects/ReplaySched.v in virtual-time mode *)
Lemma rstep_sim c : exists n, upc (rstep react c) = srun n (upc c).
Proof.
  destruct c as [s m k l]. destruct k as [|i k]; [exists 0%nat; reflexivity|].
  destruct i as [p|o n|o|o|o|].
  - destruct p as [o|o|v|e| | |d].
    + one_step. destruct (m o); [reflexivity|]. destruct (r_disposed s).
      * unfold upc. cbn [rc_k rc_st rc_obs rc_rlog]. rewrite map_app, up_ops. reflexivity.
      * destruct (ensure_active _ _ _). reflexivity.
    + one_step. destruct (m o) as [os|]; [|reflexivity]. destruct (r_handle os); [|reflexivity].
      destruct (rado_dispose s os o). reflexivity.
    + (* an emission that takes effect needs one step more per registered observer *)
      destruct (r_disposed s) eqn:Hd; [one_step; now rewrite Hd|].
      destruct (r_stopped s) eqn:Hs; [one_step; now rewrite Hd, Hs|].
      exists (S (length (r_observers s))). rewrite srun_S. unfold_steps. rewrite Hd, Hs.
      destruct (so_each _ (r_observers s) _ m) as [s2 m2]. rewrite ensures_run.
      destruct (so_each ensure_active (r_observers s) s2 m2). reflexivity.
    + destruct (r_disposed s) eqn:Hd; [one_step; now rewrite Hd|].
      destruct (r_stopped s) eqn:Hs; [one_step; now rewrite Hd, Hs|].
      exists (S (length (r_observers s))). rewrite srun_S. unfold_steps. rewrite Hd, Hs, onensures_run.
      destruct (so_each _ _ _ m). reflexivity.
    + destruct (r_disposed s) eqn:Hd; [one_step; now rewrite Hd|].
      destruct (r_stopped s) eqn:Hs; [one_step; now rewrite Hd, Hs|].
      exists (S (length (r_observers s))). rewrite srun_S. unfold_steps. rewrite Hd, Hs, onensures_run.
      destruct (so_each _ _ _ m). reflexivity.
    + one_step. reflexivity.
    + one_step. destruct (d <? 0); reflexivity.
  - one_step. destruct (m o) as [os|]; [|reflexivity]. destruct (ra_stopped os); [reflexivity|].
    destruct n; unfold upc; cbn [rc_k rc_st rc_obs rc_rlog]; rewrite map_app, up_ops; reflexivity.
  - one_step. destruct (m o) as [os|]; [|reflexivity]. destruct (rado_dispose s os o). reflexivity.
  - one_step. reflexivity.
  - one_step. destruct (m o); reflexivity.
  - one_step. destruct (r_sched s) as [|[[it o] c] rest]; [reflexivity|]. destruct c; [reflexivity|].
    destruct (m o) as [os|]; [|reflexivity]. destruct (so_queue (r_so os)); reflexivity.
Qed.
End Sim.

(* the statements about [rstep], read off those about [sstep] through [rrun_sim] *)
Section RFacts.
Context {A : Type} (react : nat -> nat -> list (@rop A)).

Notation rstep := (rstep react).
Notation rrun := (rrun react).

Lemma rrun_S n c : rrun (S n) c = rrun n (rstep c).
Proof.
  cbn. destruct (rc_k c) eqn:E; [|reflexivity].
  assert (Hs : rstep c = c) by (unfold Replay.rstep; now rewrite E). rewrite Hs.
  destruct n; cbn; [reflexivity|now rewrite E].
Qed.

Lemma rrun_add n m c : rrun (n + m) c = rrun m (rrun n c).
Proof.
  revert c; induction n as [|n IH]; intros c; [reflexivity|].
  change (S n + m)%nat with (S (n + m)). rewrite !rrun_S. apply IH.
Qed.

Lemma rrun_ind (P : @rcfg A -> Prop) :
  (forall c, P c -> P (rstep c)) -> forall n c, P c -> P (rrun n c).
Proof.
  intros Hs n; induction n as [|n IH]; intros c Hc; [exact Hc|].
  rewrite rrun_S. apply IH. now apply Hs.
Qed.

Lemma rrun_sim n : forall c, exists n', upc (rrun n c) = srun false react n' (upc c).
Proof.
  induction n as [|n IH]; intros c; [exists 0%nat; reflexivity|]. rewrite rrun_S.
  destruct (rstep_sim react c) as [a Ea]. destruct (IH (rstep c)) as [a' Ea'].
  exists (a + a')%nat. rewrite srun_add, <- Ea. exact Ea'.
Qed.

Definition rwf_inv (c : @rcfg A) : Prop :=
  forall o, wellformed (rview o (rlog_of c)) = true /\
            (has_term (rview o (rlog_of c)) = true ->
             exists os, rc_obs c o = Some os /\ ra_stopped os = true).

(* every observer's received sequence obeys the grammar, for every call tree,
   configuration and fuel *)
Theorem rviews_wellformed bs w top fuel o :
  wellformed (rview o (rlog_of (rrun fuel (rinit_cfg bs w top)))) = true.
Proof.
  destruct (rrun_sim fuel (rinit_cfg bs w top)) as [n E].
  assert (H : lwf (sc_obs (srun false react n (upc (rinit_cfg bs w top))))
                  (sc_rlog (srun false react n (upc (rinit_cfg bs w top))))).
  { apply (srun_ind false react (fun c => lwf (sc_obs c) (sc_rlog c))).
    - intros c. apply lshape_wf, sstep_shape_holds.
    - intros o'. cbn. split; [reflexivity|discriminate]. }
  rewrite <- E in H. exact (proj1 (H o)).
Qed.

(* a stopped wrapper never delivers again: whatever is still queued in the
   ScheduledObserver or scheduled on the scheduler is dropped *)
Theorem rstopped_final n c o os :
  rc_obs c o = Some os -> ra_stopped os = true ->
  rview o (rlog_of (rrun n c)) = rview o (rlog_of c).
Proof.
  intros Ho Hs. destruct (rrun_sim n c) as [n' E].
  change (rview o (slog_of (upc (rrun n c))) = rview o (slog_of (upc c))). rewrite E.
  exact (sstopped_final false react n' (upc c) o os Ho Hs).
Qed.

Theorem runsubscribed_gets_nothing_more s m k l o os n :
  m o = Some os -> r_handle os = true ->
  rview o (rlog_of (rrun n (RCfg s m (RIOp (RUnsub o) :: k) l))) = rview o (rev l).
Proof.
  intros Hm Hh. destruct (rrun_sim n (RCfg s m (RIOp (RUnsub o) :: k) l)) as [n' E].
  change (rview o (slog_of (upc (rrun n (RCfg s m (RIOp (RUnsub o) :: k) l)))) = rview o (rev l)). rewrite E.
  exact (sunsubscribed_gets_nothing_more false react false s m (map up k) l o os n' Hm Hh).
Qed.

Theorem rafter_terminal_nothing c o :
  rwf_inv c -> has_term (rview o (rlog_of c)) = true ->
  forall n, rview o (rlog_of (rrun n c)) = rview o (rlog_of c).
Proof.
  intros I H n. destruct (I o) as [_ Ht]. destruct (Ht H) as [os [Ho Hs]].
  exact (rstopped_final n c o os Ho Hs).
Qed.

End RFacts.

(* Part 2: the retention policy.  [all] = every (time, value) accepted so far (timestamps never
   decrease); the code keeps a suffix [q] of it and trims it at every on_next, subscribe and
   terminal.  Whatever the interleaving of these, trimming [q] at time [now] gives the last [b]
   values of [all] whose age is <= the window. *)
Section Policy.
Context {A : Type} (b : Z) (w : option Z).

Definition otrim (now : Z) (q : list (Z * A)) : list (Z * A) := trim_age now w (trim_count b q).

Notation fresh_enough := (fresh_enough w).
Notation retained := (retained b w).

Fixpoint old_prefix (now : Z) (l : list (Z * A)) : nat :=
  match l with
  | [] => 0
  | (t, _) :: r => if too_old now w t then S (old_prefix now r) else 0
  end.

Definition sorted (l : list (Z * A)) : Prop := StronglySorted Z.le (map fst l).

Lemma trim_count_skipn (l : list (Z * A)) : trim_count b l = skipn (length l - Z.to_nat b) l.
Proof.
  induction l as [|x t IH]; [reflexivity|].
  cbn [trim_count]. unfold zlen. destruct (Z.of_nat (length (x :: t)) >? b) eqn:E.
  - rewrite IH. cbn [length] in *. apply Z.gtb_lt in E.
    replace (S (length t) - Z.to_nat b)%nat with (S (length t - Z.to_nat b)) by lia. reflexivity.
  - assert (length (x :: t) - Z.to_nat b = 0)%nat as -> ; [|reflexivity].
    rewrite Z.gtb_ltb in E. apply Z.ltb_ge in E. cbn [length] in *. lia.
Qed.

Lemma trim_age_skipn now (l : list (Z * A)) : trim_age now w l = skipn (old_prefix now l) l.
Proof.
  induction l as [|[t v] r IH]; [reflexivity|]. cbn [trim_age old_prefix].
  destruct (too_old now w t); [exact IH|reflexivity].
Qed.

Lemma too_old_mono now now' t : now <= now' -> too_old now w t = true -> too_old now' w t = true.
Proof. unfold too_old. destruct w as [ww|]; [|discriminate]. intros H E. apply Z.gtb_lt in E. apply Z.gtb_lt. lia. Qed.

Lemma too_old_anti now t t' : t' <= t -> too_old now w t = true -> too_old now w t' = true.
Proof. unfold too_old. destruct w as [ww|]; [|discriminate]. intros H E. apply Z.gtb_lt in E. apply Z.gtb_lt. lia. Qed.

Lemma old_prefix_mono now now' (l : list (Z * A)) : now <= now' -> (old_prefix now l <= old_prefix now' l)%nat.
Proof.
  intros H. induction l as [|[t v] r IH]; [reflexivity|]. cbn [old_prefix].
  destruct (too_old now w t) eqn:E; [|lia]. rewrite (too_old_mono now now' t H E). lia.
Qed.

Lemma old_prefix_le now (l : list (Z * A)) : (old_prefix now l <= length l)%nat.
Proof. induction l as [|[t v] r IH]; cbn [old_prefix length]; [lia|]. destruct (too_old now w t); lia. Qed.

Lemma old_prefix_app_le now (l l2 : list (Z * A)) : (old_prefix now l <= old_prefix now (l ++ l2))%nat.
Proof.
  induction l as [|[t v] r IH]; cbn [old_prefix app]; [lia|]. destruct (too_old now w t); lia.
Qed.

Lemma sorted_tail x (l : list (Z * A)) : sorted (x :: l) -> sorted l.
Proof. unfold sorted. cbn [map]. intros H. now inversion H. Qed.

Lemma sorted_head_le x (l : list (Z * A)) y : sorted (x :: l) -> In y l -> fst x <= fst y.
Proof.
  unfold sorted. cbn [map]. intros H Hin. inversion H as [|? ? _ Hall]; subst.
  rewrite Forall_forall in Hall. apply Hall. now apply in_map.
Qed.

Lemma old_prefix_fresh_head now x (l : list (Z * A)) :
  sorted (x :: l) -> too_old now w (fst x) = false -> old_prefix now l = 0%nat.
Proof.
  intros Hs Hx. destruct l as [|[t v] r]; [reflexivity|]. cbn [old_prefix].
  destruct (too_old now w t) eqn:E; [|reflexivity].
  assert (Hle : fst x <= t) by (apply (sorted_head_le x ((t, v) :: r) (t, v) Hs); now left).
  rewrite (too_old_anti now t (fst x) Hle E) in Hx. discriminate.
Qed.

Lemma old_prefix_skipn now : forall (l : list (Z * A)) k, sorted l ->
  old_prefix now (skipn k l) = (old_prefix now l - k)%nat.
Proof.
  induction l as [|[t v] r IH]; intros k Hs; [destruct k; reflexivity|].
  destruct k as [|k]; [cbn [skipn]; lia|]. cbn [skipn old_prefix].
  rewrite (IH k (sorted_tail _ _ Hs)).
  destruct (too_old now w t) eqn:E; [lia|].
  rewrite (old_prefix_fresh_head now (t, v) r Hs E). reflexivity.
Qed.

Lemma filter_fresh_skipn now : forall (l : list (Z * A)), sorted l ->
  filter (fresh_enough now) l = skipn (old_prefix now l) l.
Proof.
  induction l as [|[t v] r IH]; intros Hs; [reflexivity|].
  cbn [filter old_prefix]. unfold fresh_enough at 1. cbn [fst].
  destruct (too_old now w t) eqn:E; cbn [negb].
  - apply IH. exact (sorted_tail _ _ Hs).
  - cbn [skipn]. f_equal. rewrite (IH (sorted_tail _ _ Hs)).
    rewrite (old_prefix_fresh_head now (t, v) r Hs E). reflexivity.
Qed.

Lemma sorted_skipn k : forall (l : list (Z * A)), sorted l -> sorted (skipn k l).
Proof.
  induction k as [|k IH]; intros l Hs; [exact Hs|]. destruct l as [|x r]; [exact Hs|].
  cbn [skipn]. apply IH. exact (sorted_tail _ _ Hs).
Qed.

Lemma skipn_skipn {X} (a k : nat) (l : list X) : skipn a (skipn k l) = skipn (k + a) l.
Proof.
  revert l; induction k as [|k IH]; intros l; [reflexivity|].
  destruct l as [|x r]; [now rewrite !skipn_nil|]. cbn [skipn plus]. apply IH.
Qed.

Lemma otrim_suffix now (all : list (Z * A)) k :
  sorted all -> (k <= length all)%nat ->
  otrim now (skipn k all) = skipn (Nat.max k (Nat.max (length all - Z.to_nat b) (old_prefix now all))) all.
Proof.
  intros Hs Hk. unfold otrim. rewrite trim_count_skipn, skipn_skipn, skipn_length.
  (* two small arithmetic steps: one [lia] on the whole equation splits on every [-] and [max] at once *)
  replace (k + (length all - k - Z.to_nat b))%nat with (Nat.max k (length all - Z.to_nat b)) by lia.
  rewrite trim_age_skipn, skipn_skipn, old_prefix_skipn by exact Hs.
  rewrite Nat.max_assoc. f_equal. generalize (Nat.max k (length all - Z.to_nat b)). intros a. lia.
Qed.

Lemma retained_skipn now (all : list (Z * A)) :
  sorted all ->
  retained now all = skipn (Nat.max (length all - Z.to_nat b) (old_prefix now all)) all.
Proof.
  intros Hs. unfold retained, lastn.
  rewrite filter_fresh_skipn by (apply sorted_skipn; exact Hs).
  rewrite skipn_skipn, old_prefix_skipn by exact Hs. f_equal. lia.
Qed.

(* the invariant tying the code's queue [q] at time [clock] to the full history [all] *)
Definition qinv (clock : Z) (q all : list (Z * A)) : Prop :=
  sorted all /\ (forall x, In x all -> fst x <= clock) /\
  exists k, q = skipn k all /\ (k <= length all)%nat /\
            (k <= Nat.max (length all - Z.to_nat b) (old_prefix clock all))%nat.

Lemma qinv_init clock : qinv clock [] [].
Proof.
  split; [constructor|]. split; [intros x []|]. exists 0%nat. split; [reflexivity|]. cbn. lia.
Qed.

(* what a subscriber at any later time [now] is handed *)
Theorem qinv_replay clock q all now :
  qinv clock q all -> clock <= now -> otrim now q = retained now all.
Proof.
  intros (Hs & _ & k & -> & Hk & Hb) Hn. rewrite otrim_suffix, retained_skipn by assumption.
  f_equal. pose proof (old_prefix_mono clock now all Hn). lia.
Qed.

(* the clock moves forward (scheduler.sleep) *)
Lemma qinv_advance clock clock' q all : qinv clock q all -> clock <= clock' -> qinv clock' q all.
Proof.
  intros (Hs & Hle & k & Hq & Hk & Hb) Hn. split; [exact Hs|]. split.
  - intros x Hx. specialize (Hle x Hx). lia.
  - exists k. split; [exact Hq|]. split; [exact Hk|].
    pose proof (old_prefix_mono clock clock' all Hn). lia.
Qed.

(* the code trims (subscribe, on_error, on_completed) *)
Lemma qinv_trim clock q all : qinv clock q all -> qinv clock (otrim clock q) all.
Proof.
  intros (Hs & Hle & k & -> & Hk & Hb). split; [exact Hs|]. split; [exact Hle|].
  rewrite otrim_suffix by assumption.
  exists (Nat.max k (Nat.max (length all - Z.to_nat b) (old_prefix clock all))).
  split; [reflexivity|]. pose proof (old_prefix_le clock all). split; lia.
Qed.

Lemma sorted_snoc (all : list (Z * A)) x :
  sorted all -> (forall y, In y all -> fst y <= fst x) -> sorted (all ++ [x]).
Proof.
  unfold sorted. induction all as [|y r IH]; intros Hs Hle; cbn [map app].
  - constructor; [constructor|constructor].
  - inversion Hs as [|? ? Hr Hall]; subst. constructor.
    + apply IH; [exact Hr|]. intros z Hz. apply Hle. now right.
    + rewrite map_app. apply Forall_app. split; [exact Hall|].
      constructor; [|constructor]. apply Hle. now left.
Qed.

(* on_next: append at the current clock (then the code trims: [qinv_trim]) *)
Lemma qinv_append clock q all v : qinv clock q all -> qinv clock (q ++ [(clock, v)]) (all ++ [(clock, v)]).
Proof.
  intros (Hs & Hle & k & -> & Hk & Hb). split; [apply sorted_snoc; [exact Hs|exact Hle]|]. split.
  - intros x Hx. apply in_app_or in Hx. destruct Hx as [Hx|[<-|[]]]; [now apply Hle|cbn; lia].
  - exists k. split; [|split].
    + rewrite skipn_app. replace (k - length all)%nat with 0%nat by lia. reflexivity.
    + rewrite app_length. cbn. lia.
    + rewrite app_length. cbn [length].
      pose proof (old_prefix_app_le clock all [(clock, v)]). lia.
Qed.
End Policy.
