(* C23 on ARBITRARY call trees (observers that subscribe, unsubscribe, emit, complete, dispose from
   inside their callbacks), every fuel: while the AsyncSubject has neither terminated nor been
   disposed, NOBODY has received anything ([quiet], async_tree_nothing_before_termination).  The second
   invariant, [unstopped], ties the subject's flag to the log: no terminating call logged, flag still
   false; Props/C23.v (C23_tree_silent_until_an_end_call) runs it and composes the two. *)
From RxVerif Require Import Base.Prelude Subjects.Subject Subjects.Async Subjects.Family
  Subjects.SubjectFacts Subjects.FamilyFacts.

Section AsyncTree.
Context {A : Type} (pynone : A) (react : nat -> nat -> list (@op A)).
Notation C := (async_cls pynone).

Definition is_deliver (i : @instr A) : bool := match i with IDeliver _ _ => true | _ => false end.
Definition nodeliver (k : list (@instr A)) : bool := forallb (fun i => negb (is_deliver i)) k.

(* disposed implies stopped; and while not stopped: nothing was delivered, nothing is about to be *)
Definition quiet (c : @cfg A) : Prop :=
  (is_disposed (c_st c) = true -> is_stopped (c_st c) = true) /\
  (is_stopped (c_st c) = false -> noGot (c_rlog c) /\ nodeliver (c_k c) = true).

Lemma nodeliver_ops (l : list (@op A)) k : nodeliver (map IOp l ++ k) = nodeliver k.
Proof. induction l; cbn; auto. Qed.

Lemma noGot_cons_op p (l : list (@event A)) : noGot l -> noGot (EOp p :: l).
Proof. intros H o n [E|E]; [discriminate|exact (H o n E)]. Qed.
Lemma noGot_cons_raised e (l : list (@event A)) : noGot l -> noGot (ERaised e :: l).
Proof. intros H o n [E|E]; [discriminate|exact (H o n E)]. Qed.

Lemma quiet_same s m k l s' (m' : @omap) k' pre i :
  quiet (Cfg s m (i :: k) l) -> is_deliver i = false ->
  is_stopped s' = is_stopped s -> is_disposed s' = is_disposed s ->
  nodeliver k' = nodeliver k -> noGot pre ->
  quiet (Cfg s' m' k' (pre ++ l)).
Proof.
  intros [Q1 Q2] Hi Hs Hd Hk Hp. unfold quiet in *. cbn [c_st c_k c_rlog] in *. rewrite Hs, Hd. split; [exact Q1|].
  intros Hn. destruct (Q2 Hn) as [G1 G2]. split.
  - intros o n Hin. apply in_app_or in Hin. destruct Hin as [Hin|Hin]; [exact (Hp o n Hin)|exact (G1 o n Hin)].
  - rewrite Hk. cbn [nodeliver forallb] in G2. rewrite Hi in G2. exact G2.
Qed.

Lemma quiet_stopped s m k l : is_stopped s = true -> quiet (@Cfg A s m k l).
Proof. intros H. split; cbn [c_st]; [intros _; exact H|rewrite H; discriminate]. Qed.

Lemma quiet_step c : quiet c -> quiet (step C react c).
Proof.
  destruct (step_cases C react c) as [s m l|s m i k l pre Hsk|s m k l o s' is sub Hm Hs|s m k l o Hm Hs
    |s m k l o os Hm Hh|s m k l p Hp Hd Hs|s m k l|s m k l o n os Hm Hs|s m k l o os Hm|s m k l o sub os Hm];
    intros HQ; [exact HQ|..]; pose proof HQ as [Q1 Q2]; cbn [c_st c_k c_rlog] in Q1, Q2.
  - destruct (is_deliver i) eqn:Hi.
    + (* a pending delivery: the subject is stopped already *)
      apply quiet_stopped. destruct (is_stopped s) eqn:St; [reflexivity|].
      destruct (Q2 eq_refl) as [_ G]. cbn [nodeliver forallb] in G. rewrite Hi in G. discriminate G.
    + apply (quiet_same s m k l s m k pre i HQ Hi); auto. exact (skips_noGot _ _ _ _ Hsk).
  - cbn [c_subscribe async_cls] in Hs. unfold async_subscribe in Hs.
    destruct (is_disposed s); [discriminate|]. destruct (is_stopped s) eqn:St; cbn [negb] in Hs.
    + destruct (exception s); [|destruct (has_value s)]; injection Hs as <- _ _; apply quiet_stopped; exact St.
    + injection Hs as <- <- _. apply (quiet_same s m k l _ _ _ [EOp (OSub o)] _ HQ); auto. apply noGot_op.
  - apply quiet_stopped, Q1, (subscribe_none pynone KAsync s o), Hs.
  - apply (quiet_same s m k l _ _ k [EOp (OUnsub o)] _ HQ); auto; [| |apply noGot_op].
    + exact (detached_stopped o _ _ (ado_dispose_detached s os o)).
    + exact (detached_disposed o _ _ (ado_dispose_detached s os o)).
  - destruct p; try discriminate Hp; cbn [emission c_next c_error c_completed async_cls].
    + apply (quiet_same s m k l _ m k [EOp (ONext v)] _ HQ); auto. apply noGot_op.
    + apply quiet_stopped. reflexivity.
    + apply quiet_stopped. reflexivity.
  - apply quiet_stopped. reflexivity.
  - (* a delivery: the subject is stopped already *)
    apply quiet_stopped. destruct (is_stopped s) eqn:St; [reflexivity|]. destruct (Q2 eq_refl) as [_ G]. discriminate G.
  - apply (quiet_same s m k l _ _ k [] _ HQ); auto; [| |apply noGot_nil].
    + exact (detached_stopped o _ _ (ado_dispose_detached s os o)).
    + exact (detached_disposed o _ _ (ado_dispose_detached s os o)).
  - apply (quiet_same s m k l _ _ k [] _ HQ); auto; [| |apply noGot_nil].
    + exact (detached_stopped o _ _ (sub_set_detached sub s os o)).
    + exact (detached_disposed o _ _ (sub_set_detached sub s os o)).
Qed.

Lemma quiet_init v0 top : quiet (init_cfg v0 top).
Proof.
  split; cbn; [discriminate|]. intros _. split; [apply noGot_nil|].
  induction top; cbn; auto.
Qed.

(* nothing before termination, on every call tree: while the subject is neither terminated nor
   disposed ([is_stopped] is set by on_error, on_completed and dispose), no observer has received
   anything and no delivery is pending *)
Theorem async_tree_nothing_before_termination v0 top fuel o :
  let c := run C react fuel (init_cfg v0 top) in
  is_stopped (c_st c) = false -> view o (log_of c) = [].
Proof.
  intros c Hs.
  assert (HQ : quiet c) by (apply (run_ind C react quiet); [apply quiet_step|apply quiet_init]).
  destruct HQ as [_ Q2]. destruct (Q2 Hs) as [G _].
  unfold log_of. apply view_noGot. apply noGot_rev. exact G.
Qed.

(* the subject's is_stopped flag is set exactly by a terminating call that took effect: if the
   logged calls contain no on_error / on_completed / dispose, the flag is still false *)
Definition is_end_op (p : @op A) : bool := match p with OErr _ | ODone | ODispose => true | _ => false end.
Definition no_end_event (e : @event A) : bool := match e with EOp p => negb (is_end_op p) | _ => true end.

Definition unstopped (c : @cfg A) : Prop :=
  forallb no_end_event (c_rlog c) = true -> is_stopped (c_st c) = false.

Lemma unstopped_step c : unstopped c -> unstopped (step C react c).
Proof.
  unfold unstopped.
  destruct (step_cases C react c) as [s m l|s m i k l pre Hsk|s m k l o s' is sub Hm Hs|s m k l o Hm Hs
    |s m k l o os Hm Hh|s m k l p Hp Hd Hs|s m k l|s m k l o n os Hm Hs|s m k l o os Hm|s m k l o sub os Hm];
    cbn [c_st c_rlog forallb no_end_event is_end_op negb andb]; intros HU; try exact HU.
  - rewrite forallb_app. intros H. apply andb_true_iff in H. exact (HU (proj2 H)).
  - destruct (subscribe_cases pynone KAsync s o s' is sub Hs) as [[-> _]|[-> _]]; exact HU.
  - now rewrite (detached_stopped o _ _ (ado_dispose_detached s os o)).
  - destruct p; try discriminate Hp; cbn [no_end_event is_end_op negb andb]; [intros _; exact Hs|discriminate|discriminate].
  - discriminate.
  - now rewrite (detached_stopped o _ _ (ado_dispose_detached s os o)).
  - now rewrite (detached_stopped o _ _ (sub_set_detached sub s os o)).
Qed.

End AsyncTree.
