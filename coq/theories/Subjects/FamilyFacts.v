(* The three synchronous subject classes against the abstract broadcast
   specification of Subjects/Family.v.  [Mirror] relates a subject's state to the
   specification's status; under it the class methods compute [greet], [bcast]
   and [g_step].  On that rest the refinement theorem for ALL histories of
   top-level calls (observers that do not call back into the subject, Section Flat)
   with the per-observer reading of the specification (Section View; Section
   Readings spells out the clauses of [oview] that C20, C21 and C23 cite), and the
   facts about arbitrary call trees that need no more than the flags (Section
   Disposed: after dispose(); Section Registered: who is on the observer list). *)
From RxVerif Require Import Base.Prelude Ops.Machine Subjects.Subject Subjects.Behavior Subjects.Async
  Subjects.Family Subjects.SubjectFacts.

Lemma flat_map_single {X Y} (f : X -> Y) (L : list X) : flat_map (fun o => [f o]) L = map f L.
Proof. induction L; cbn; [reflexivity|now f_equal]. Qed.

Lemma flat_map_empty {X Y} (L : list X) : flat_map (fun _ => @nil Y) L = [].
Proof. induction L; cbn; [reflexivity|assumption]. Qed.

Section SpecFacts.
Context {A : Type} (K : kind).

Lemma live_of_status (g : @gstate A) : live g = true <-> g_status g = Live.
Proof. unfold live. destruct (g_status g); split; intros; congruence. Qed.

Lemma bcast_dead (g : @gstate A) p : live g = false -> bcast K g p = [].
Proof. intros H. unfold bcast. now rewrite H. Qed.

Lemma g_step_dead (g : @gstate A) p : live g = false -> p <> ODispose -> g_step g p = g.
Proof. intros H Hp. destruct p; cbn; rewrite ?H; try reflexivity. congruence. Qed.

Lemma bcast_nonemission (g : @gstate A) p : is_emission p = false -> bcast K g p = [].
Proof. intros H. unfold bcast. destruct (live g); [|reflexivity]. destruct p; try discriminate; reflexivity. Qed.

(* on_next / on_error / on_completed share one clause of [spec_op] and of [oview] *)
Lemma spec_op_emission (a : @abs A) p : is_emission p = true ->
  spec_op K a p =
  (Abs (if live (g_step (ab_g a) p) then ab_subs a else []) (ab_used a) (g_step (ab_g a) p),
   (match g_status (ab_g a) with Disposed => [ERaised disposed_exn] | _ => [] end) ++
   flat_map (fun o => map (EGot o) (bcast K (ab_g a) p)) (ab_subs a)).
Proof. destruct p; try discriminate; reflexivity. Qed.

End SpecFacts.

(* ---- the subject's flags, exception and stored value mirror the abstract status; under this
        relation the methods of the three classes compute [greet], [bcast] and [g_step].  It is an
        invariant of every run, flat or re-entrant (Subjects/BroadcastTreeFacts.v: AbsInv). ---- *)
Section Mirror.
Context {A : Type} (pynone : A) (K : kind).
Notation C := (cls_of pynone K).

Definition Mirror (s : @sstate A) (g : @gstate A) : Prop :=
  match g_status g with
  | Live => is_stopped s = false /\ is_disposed s = false /\ exception s = None
  | Ended t => is_stopped s = true /\ is_disposed s = false /\ is_terminal t = true /\
               exception s = match t with Err e => Some e | _ => None end
  | Disposed => is_stopped s = true /\ is_disposed s = true
  end /\
  (g_status g <> Disposed ->
   match K with
   | KSubject => True
   | KBehavior => value s = g_cur g
   | KAsync => value s = g_cur g /\ has_value s = g_has g
   end).

Lemma mirror_init v0 : Mirror (init_state v0) (g_init v0).
Proof. split; cbn; [repeat split|intros _; destruct K; repeat split]. Qed.

Lemma mirror_stopped s g : Mirror s g -> is_stopped s = negb (live g).
Proof. unfold Mirror, live. destruct (g_status g); intros [H _]; cbn; tauto. Qed.

Lemma mirror_disposed s g : Mirror s g -> is_disposed s = match g_status g with Disposed => true | _ => false end.
Proof. unfold Mirror. destruct (g_status g); intros [H _]; tauto. Qed.

Lemma mirror_disposed_dead s g : Mirror s g -> is_disposed s = true -> live g = false.
Proof. intros H D. rewrite (mirror_disposed s g H) in D. unfold live. now destruct (g_status g). Qed.

(* the disposal paths touch the observer list only *)
Lemma mirror_detached o s s' g : detached o s s' -> Mirror s g -> Mirror s' g.
Proof. intros [->| ->] H; exact H. Qed.

(* _subscribe_core raises exactly on a disposed subject (`check_disposed`) *)
Lemma subscribe_none (s : @sstate A) o : c_subscribe C s o = None <-> is_disposed s = true.
Proof.
  destruct K; cbn [cls_of c_subscribe subject_cls behavior_cls async_cls];
    unfold subj_subscribe, beh_subscribe, async_subscribe;
    (destruct (is_disposed s); [split; reflexivity|split; [|discriminate]]);
    destruct (negb (is_stopped s)); try discriminate; destruct (exception s); try discriminate.
  destruct (has_value s); discriminate.
Qed.

(* _subscribe_core hands the new observer the specification's greeting; it registers the observer
   iff the subject is live, and raises iff it is disposed *)
Lemma mirror_subscribe s g o : Mirror s g ->
  c_subscribe C s o =
  match g_status g with
  | Disposed => None
  | _ => Some (if live g then set_observers (observers s ++ [o]) s else s,
               map (IDeliver o) (greet K g), if live g then SInner else SPlain)
  end.
Proof.
  unfold Mirror, greet, live, final. destruct (g_status g) as [|t|]; intros [Hf Hv].
  - destruct Hf as (H1 & H2 & _). specialize (Hv ltac:(discriminate)).
    destruct K; cbn [cls_of c_subscribe subject_cls behavior_cls async_cls];
      unfold subj_subscribe, beh_subscribe, async_subscribe; rewrite H1, H2; cbn [negb]; try reflexivity.
    now rewrite Hv.
  - destruct Hf as (H1 & H2 & Ht & H3). specialize (Hv ltac:(discriminate)).
    destruct t as [x|e|]; [discriminate Ht| |];
      destruct K; cbn [cls_of c_subscribe subject_cls behavior_cls async_cls];
      unfold subj_subscribe, beh_subscribe, async_subscribe; rewrite H1, H2, H3; cbn [negb]; try reflexivity.
    destruct Hv as [-> ->]. now destruct (g_has g).
  - apply subscribe_none, Hf.
Qed.

(* an emission accepted by a live subject: every observer of the snapshot is handed [bcast], the
   status moves by [g_step], and a terminating emission clears the observer list *)
Lemma mirror_emit s g p : Mirror s g -> live g = true -> is_emission p = true ->
  snd (emission C s p) = flat_map (fun o => map (IDeliver o) (bcast K g p)) (observers s) /\
  Mirror (fst (emission C s p)) (g_step g p) /\
  observers (fst (emission C s p)) = if live (g_step g p) then observers s else [].
Proof.
  intros [Hf Hv] L Hp. unfold bcast, final. rewrite L. pose proof L as Hg. apply live_of_status in Hg.
  rewrite Hg in Hf, Hv. destruct Hf as (H1 & H2 & H3). specialize (Hv ltac:(discriminate)).
  destruct p; try discriminate Hp; cbn [g_step emission]; rewrite L; unfold Mirror; cbn [live g_status g_cur g_has].
  - destruct K; cbn [cls_of c_next subject_cls behavior_cls async_cls]; unfold subj_next, beh_next, async_next;
      cbn [fst snd map]; rewrite ?flat_map_single, ?flat_map_empty; repeat split; intros; first [assumption|reflexivity].
  - destruct K; cbn [cls_of c_error subject_cls behavior_cls async_cls]; unfold subj_error;
      cbn [fst snd map]; rewrite ?flat_map_single; repeat split; intros; first [assumption|apply Hv].
  - destruct K; cbn [cls_of c_completed subject_cls behavior_cls async_cls]; unfold subj_completed, async_completed;
      cbn [fst snd map observers set_stopped has_value value]; rewrite ?flat_map_single; repeat split; intros; try first [assumption|apply Hv].
    destruct Hv as [-> ->]. destruct (g_has g); cbn [map]; [reflexivity|now rewrite flat_map_single].
Qed.

Lemma mirror_dispose s g : Mirror (c_dispose C s) (g_step g ODispose).
Proof. split; cbn [g_step g_status]; [destruct K; split; reflexivity|intros H; now destruct H]. Qed.
End Mirror.

Section Flat.
Context {A : Type} (pynone : A) (K : kind).

Definition silent : nat -> nat -> list (@op A) := fun _ _ => [].
Notation C := (cls_of pynone K).
Notation stepf := (step C silent).
Notation runf := (run C silent).

Definition reaches (c c' : @cfg A) : Prop := exists n, runf n c = c'.

Lemma reaches_refl c : reaches c c.
Proof. now exists 0%nat. Qed.

Lemma reaches_trans c1 c2 c3 : reaches c1 c2 -> reaches c2 c3 -> reaches c1 c3.
Proof. intros [n H1] [k H2]. exists (n + k)%nat. now rewrite run_add, H1. Qed.

Lemma reaches_step_eq c c' : stepf c = c' -> reaches c c'.
Proof. intros <-. exists 1%nat. now rewrite run_S. Qed.

(* ---- observer tables up to the call counters ---- *)
Definition same_but_calls (a b : ostate) : Prop :=
  a_stopped a = a_stopped b /\ sad_disposed a = sad_disposed b /\ sad_cur a = sad_cur b /\
  inner_obs a = inner_obs b /\ handle a = handle b.

Definition meqv (m m' : omap) : Prop :=
  forall o, match m o, m' o with
            | None, None => True
            | Some a, Some b => same_but_calls a b
            | _, _ => False
            end.

Lemma meqv_refl m : meqv m m.
Proof. intros o. destruct (m o); [repeat split|exact I]. Qed.

Lemma meqv_trans m1 m2 m3 : meqv m1 m2 -> meqv m2 m3 -> meqv m1 m3.
Proof.
  intros H12 H23 o. specialize (H12 o). specialize (H23 o).
  destruct (m1 o), (m2 o), (m3 o); try contradiction; try exact I.
  destruct H12 as (?&?&?&?&?), H23 as (?&?&?&?&?). repeat split; congruence.
Qed.

Lemma meqv_upd m o os os' : m o = Some os -> same_but_calls os os' -> meqv m (upd m o os').
Proof.
  intros Hm Hs o2. unfold upd. destruct (Nat.eqb o2 o) eqn:E.
  - apply Nat.eqb_eq in E. subst o2. now rewrite Hm.
  - destruct (m o2); [repeat split|exact I].
Qed.

Definition mdom (m m' : omap) : Prop :=
  forall o, match m o, m' o with
            | None, None => True
            | Some a, Some b => handle a = handle b
            | _, _ => False
            end.

Lemma mdom_refl m : mdom m m.
Proof. intros o. now destruct (m o). Qed.

Lemma mdom_trans m1 m2 m3 : mdom m1 m2 -> mdom m2 m3 -> mdom m1 m3.
Proof.
  intros H12 H23 o. specialize (H12 o). specialize (H23 o).
  destruct (m1 o), (m2 o), (m3 o); try contradiction; try exact I. congruence.
Qed.

Lemma mdom_upd m o os os' : m o = Some os -> handle os = handle os' -> mdom m (upd m o os').
Proof.
  intros Hm Hs o2. unfold upd. destruct (Nat.eqb o2 o) eqn:E.
  - apply Nat.eqb_eq in E. subst o2. now rewrite Hm.
  - now destruct (m o2).
Qed.

Lemma upd_other (m : omap) o x o2 : o2 <> o -> upd m o x o2 = m o2.
Proof. intros H. unfold upd. destruct (Nat.eqb o2 o) eqn:E; [apply Nat.eqb_eq in E; contradiction|reflexivity]. Qed.

Lemma meqv_unstopped m m' o :
  meqv m m' -> (exists os, m o = Some os /\ a_stopped os = false) ->
  exists os', m' o = Some os' /\ a_stopped os' = false.
Proof.
  intros H [os [Hm Hs]]. specialize (H o). rewrite Hm in H.
  destruct (m' o) as [os'|]; [|contradiction]. destruct H as (H&_). exists os'. split; [reflexivity|congruence].
Qed.

Lemma deliver_nexts_one (vs : list A) : forall o s m k l,
  (exists os, m o = Some os /\ a_stopped os = false) ->
  exists m', reaches (Cfg s m (map (IDeliver o) (map Next vs) ++ k) l)
                     (Cfg s m' k (rev (map (EGot o) (map Next vs)) ++ l))
             /\ meqv m m'.
Proof.
  induction vs as [|v vs IH]; intros o s m k l [os [Hm Hs]].
  - exists m. split; [apply reaches_refl|apply meqv_refl].
  - set (m1 := upd m o (called false os)).
    assert (H1 : meqv m m1).
    { apply (meqv_upd m o os); [exact Hm|]. repeat split. cbn. now rewrite orb_false_r. }
    destruct (IH o s m1 k (EGot o (Next v) :: l)) as [m' [Hr He]].
    { exists (called false os). split; [apply upd_same|]. cbn. now rewrite Hs. }
    exists m'. split; [|eapply meqv_trans; eassumption].
    eapply reaches_trans; [apply reaches_step_eq|].
    + cbn [Subject.step map app c_k c_st c_obs c_rlog]. rewrite Hm, Hs. reflexivity.
    + cbn [map rev]. rewrite <- app_assoc. cbn [app]. exact Hr.
Qed.

Lemma deliver_all_nexts (vs : list A) : forall L s m k l,
  (forall o, In o L -> exists os, m o = Some os /\ a_stopped os = false) ->
  exists m', reaches (Cfg s m (flat_map (fun o => map (IDeliver o) (map Next vs)) L ++ k) l)
                     (Cfg s m' k (rev (flat_map (fun o => map (EGot o) (map Next vs)) L) ++ l))
             /\ meqv m m'.
Proof.
  induction L as [|o L IH]; intros s m k l H.
  - exists m. split; [apply reaches_refl|apply meqv_refl].
  - cbn [flat_map]. rewrite <- app_assoc.
    destruct (deliver_nexts_one vs o s m (flat_map (fun o => map (IDeliver o) (map Next vs)) L ++ k) l)
      as [m1 [Hr1 He1]]; [apply H; now left|].
    destruct (IH s m1 k (rev (map (EGot o) (map Next vs)) ++ l)) as [m2 [Hr2 He2]].
    { intros o2 Hin. apply (meqv_unstopped m m1 o2 He1). apply H. now right. }
    exists m2. split; [|eapply meqv_trans; eassumption].
    eapply reaches_trans; [exact Hr1|]. rewrite rev_app_distr, <- app_assoc. exact Hr2.
Qed.

(* ---- delivering [elements; terminal] to an observer and running the wrapper's
        `finally: self.dispose()` ---- *)
Lemma inner_dispose_noobs (s : @sstate A) os o :
  observers s = [] -> fst (inner_dispose s os o) = s.
Proof.
  intros H. unfold inner_dispose. destruct (negb (is_disposed s) && inner_obs os); [|reflexivity].
  rewrite H. reflexivity.
Qed.

Lemma ado_dispose_handle (s : @sstate A) os o : handle (snd (ado_dispose s os o)) = handle os.
Proof.
  unfold ado_dispose. cbn [sad_disposed sad_cur a_stopped inner_obs handle calls].
  destruct (sad_disposed os); [reflexivity|]. destruct (sad_cur os) as [[|]|]; cbn [sub_dispose]; try reflexivity.
  unfold inner_dispose. now destruct (negb (is_disposed s) && _).
Qed.

Lemma ado_dispose_keeps (s : @sstate A) os o :
  sad_cur os = None \/ observers s = [] -> fst (ado_dispose s os o) = s.
Proof.
  intros H. unfold ado_dispose. cbn [sad_disposed sad_cur a_stopped inner_obs handle calls].
  destruct (sad_disposed os); [reflexivity|].
  destruct (sad_cur os) as [[|]|] eqn:Hc; cbn [sub_dispose]; try reflexivity.
  destruct H as [H|H]; [discriminate|]. now apply inner_dispose_noobs.
Qed.

Lemma ado_dispose_disposed (s : @sstate A) os o : sad_disposed (snd (ado_dispose s os o)) = true.
Proof.
  unfold ado_dispose. cbn [sad_disposed sad_cur a_stopped inner_obs handle calls].
  destruct (sad_disposed os) eqn:Hd; [reflexivity|].
  destruct (sad_cur os) as [[|]|]; cbn [sub_dispose snd sad_disposed]; try reflexivity.
  unfold inner_dispose. destruct (negb (is_disposed s) && _); reflexivity.
Qed.

Lemma deliver_final_one (vs : list A) (t : ev A) : forall o s m k l,
  is_terminal t = true ->
  (exists os, m o = Some os /\ a_stopped os = false /\ (sad_cur os = None \/ observers s = [])) ->
  exists m', reaches (Cfg s m (map (IDeliver o) (map Next vs ++ [t]) ++ k) l)
                     (Cfg s m' k (rev (map (EGot o) (map Next vs ++ [t])) ++ l))
             /\ mdom m m' /\ (forall o2, o2 <> o -> m' o2 = m o2)
             /\ exists os', m' o = Some os' /\ a_stopped os' = true /\ sad_disposed os' = true.
Proof.
  induction vs as [|v vs IH]; intros o s m k l Ht [os [Hm [Hs Hc]]].
  - cbn [map app].
    set (os1 := called true os).
    pose proof (ado_dispose_keeps s os1 o Hc) as Hk1. pose proof (ado_dispose_handle s os1 o) as Hk2.
    exists (upd (upd m o os1) o (snd (ado_dispose s os1 o))).
    split; [|split; [|split]].
    + eapply reaches_trans; [apply reaches_step_eq|apply reaches_step_eq].
      * cbn [Subject.step c_k c_st c_obs c_rlog]. rewrite Hm, Hs.
        instantiate (1 := Cfg s (upd m o os1) (IAdoFin o :: k) (EGot o t :: l)).
        destruct t; [discriminate|reflexivity|reflexivity].
      * cbn [Subject.step c_k c_st c_obs c_rlog]. rewrite upd_same.
        destruct (ado_dispose s os1 o) as [s' os'] eqn:E. cbn [fst snd] in *. subst s'. reflexivity.
    + eapply mdom_trans; [apply (mdom_upd m o os os1 Hm); reflexivity|].
      apply (mdom_upd _ o os1); [apply upd_same|]. now rewrite Hk2.
    + intros o2 Hne. now rewrite !upd_other.
    + eexists. split; [apply upd_same|]. split; [apply ado_dispose_stopped|apply ado_dispose_disposed].
  - set (m1 := upd m o (called false os)).
    destruct (IH o s m1 k (EGot o (Next v) :: l) Ht) as [m' [Hr [Hd [Ho [os' Hos']]]]].
    { exists (called false os). split; [apply upd_same|]. cbn. rewrite Hs. split; [reflexivity|exact Hc]. }
    exists m'. split; [|split; [|split]].
    + eapply reaches_trans; [apply reaches_step_eq|].
      * cbn [Subject.step map app c_k c_st c_obs c_rlog]. rewrite Hm, Hs. reflexivity.
      * cbn [map rev app]. rewrite <- app_assoc. cbn [app]. exact Hr.
    + eapply mdom_trans; [|exact Hd]. apply (mdom_upd m o os); [exact Hm|reflexivity].
    + intros o2 Hne. rewrite (Ho o2 Hne). unfold m1. now rewrite upd_other.
    + exists os'. exact Hos'.
Qed.

Definition live_obs (os : ostate) : Prop :=
  a_stopped os = false /\ sad_disposed os = false /\ sad_cur os = Some SInner /\ inner_obs os = true.

Lemma deliver_all_final (vs : list A) (t : ev A) : forall L s m k l,
  is_terminal t = true -> observers s = [] -> NoDup L ->
  (forall o, In o L -> exists os, m o = Some os /\ a_stopped os = false) ->
  exists m', reaches (Cfg s m (flat_map (fun o => map (IDeliver o) (map Next vs ++ [t])) L ++ k) l)
                     (Cfg s m' k (rev (flat_map (fun o => map (EGot o) (map Next vs ++ [t])) L) ++ l))
             /\ mdom m m'.
Proof.
  induction L as [|o L IH]; intros s m k l Ht Hobs Hnd H.
  - exists m. split; [apply reaches_refl|apply mdom_refl].
  - cbn [flat_map]. rewrite <- app_assoc. inversion Hnd as [|? ? Hnin Hnd']; subst.
    destruct (deliver_final_one vs t o s m
                (flat_map (fun o => map (IDeliver o) (map Next vs ++ [t])) L ++ k) l Ht)
      as [m1 [Hr1 [Hd1 [Ho1 _]]]].
    { destruct (H o (or_introl eq_refl)) as [os [Hm Hs]]. exists os. auto. }
    destruct (IH s m1 k (rev (map (EGot o) (map Next vs ++ [t])) ++ l) Ht Hobs Hnd') as [m2 [Hr2 Hd2]].
    { intros o2 Hin. rewrite Ho1; [apply H; now right|]. intros ->. contradiction. }
    exists m2. split; [|eapply mdom_trans; eassumption].
    eapply reaches_trans; [exact Hr1|]. rewrite rev_app_distr, <- app_assoc. exact Hr2.
Qed.

(* membership, and `self.observers.remove(observer)` ([remove1]) on a duplicate-free list *)
Lemma mem_In o l : mem o l = true <-> In o l.
Proof.
  unfold mem. rewrite existsb_exists. split.
  - intros [x [Hin E]]. apply Nat.eqb_eq in E. now subst.
  - intros H. exists o. split; [exact H|apply Nat.eqb_refl].
Qed.

Lemma mem_false o l : mem o l = false <-> ~ In o l.
Proof. rewrite <- mem_In. destruct (mem o l); split; intros; congruence. Qed.

Lemma remove1_notin o l : ~ In o l -> remove1 o l = l.
Proof.
  induction l as [|x t IH]; intros H; cbn; [reflexivity|].
  destruct (Nat.eqb x o) eqn:E.
  - apply Nat.eqb_eq in E. subst. exfalso. apply H. now left.
  - f_equal. apply IH. intros Hin. apply H. now right.
Qed.

Lemma In_remove1 o l x : NoDup l -> (In x (remove1 o l) <-> In x l /\ x <> o).
Proof.
  induction l as [|y t IH]; intros Hnd; cbn; [tauto|].
  inversion Hnd as [|? ? Hnin Hnd']; subst.
  destruct (Nat.eqb y o) eqn:E.
  - apply Nat.eqb_eq in E. subst y. split.
    + intros Hin. split; [now right|]. intros ->. contradiction.
    + intros [[->|Hin] Hne]; [contradiction|exact Hin].
  - apply Nat.eqb_neq in E. cbn. rewrite (IH Hnd'). split.
    + intros [->|[Hin Hne]]; [split; [now left|exact E]|split; [now right|exact Hne]].
    + intros [[->|Hin] Hne]; [now left|right; split; assumption].
Qed.

Lemma NoDup_remove1 o l : NoDup l -> NoDup (remove1 o l).
Proof.
  induction l as [|y t IH]; intros Hnd; cbn; [constructor|].
  inversion Hnd as [|? ? Hnin Hnd']; subst.
  destruct (Nat.eqb y o); [exact Hnd'|]. constructor; [|now apply IH].
  rewrite (In_remove1 o t y Hnd'). tauto.
Qed.

Lemma NoDup_app_single (l : list nat) o : NoDup l -> ~ In o l -> NoDup (l ++ [o]).
Proof.
  induction l as [|x t IH]; intros Hnd Hnin; cbn; [constructor; [intros []|constructor]|].
  inversion Hnd as [|? ? Hx Ht]; subst. constructor.
  - intros Hin. apply in_app_or in Hin. destruct Hin as [Hin|[<-|[]]]; [contradiction|]. apply Hnin. now left.
  - apply IH; [exact Ht|]. intros Hin. apply Hnin. now right.
Qed.

(* the simulation relation between two top-level calls: the observer list is the specification's list
   of subscribers; the table knows exactly the ids used so far, each entry holds the driver's handle,
   and the entry of a subscriber is a live inner subscription; nobody is subscribed to a subject that
   is not live *)
Record R (s : @sstate A) (m : omap) (a : @abs A) : Prop := {
  R_obs : observers s = ab_subs a;
  R_nodup : NoDup (ab_subs a);
  R_used : forall o, m o = None <-> mem o (ab_used a) = false;
  R_handle : forall o os, m o = Some os -> handle os = true;
  R_live : forall o, In o (ab_subs a) -> exists os, m o = Some os /\ live_obs os;
  R_abs : Mirror K s (ab_g a);
  R_dead : live (ab_g a) = false -> ab_subs a = [] }.

Lemma meqv_live_obs (m m' : omap) o :
  meqv m m' -> (exists os, m o = Some os /\ live_obs os) -> exists os', m' o = Some os' /\ live_obs os'.
Proof.
  intros H [os [Hm (H1&H2&H3&H4)]]. specialize (H o). rewrite Hm in H.
  destruct (m' o) as [os'|]; [|contradiction]. destruct H as (E1&E2&E3&E4&E5).
  exists os'. split; [reflexivity|]. unfold live_obs. repeat split; congruence.
Qed.

Lemma R_meqv s m m' a : R s m a -> meqv m m' -> R s m' a.
Proof.
  intros HR He. destruct HR as [Robs Rnd Rused Rhdl Rlive Rabs Rdead]. constructor; try assumption.
  - intros o. rewrite <- Rused. specialize (He o). destruct (m o), (m' o); try contradiction; split; congruence.
  - intros o os' Hm'. specialize (He o). rewrite Hm' in He. destruct (m o) as [os|] eqn:Hm; [|contradiction].
    destruct He as (_&_&_&_&E). rewrite <- E. eapply Rhdl; eassumption.
  - intros o Hin. apply (meqv_live_obs m m' o He). now apply Rlive.
Qed.

(* when nobody is subscribed only domain and handles of the table matter *)
Lemma R_mdom s m m' a : R s m a -> ab_subs a = [] -> mdom m m' -> R s m' a.
Proof.
  intros HR Hnil Hd. destruct HR as [Robs Rnd Rused Rhdl Rlive Rabs Rdead]. constructor; try assumption.
  - intros o. rewrite <- Rused. specialize (Hd o). destruct (m o), (m' o); try contradiction; split; congruence.
  - intros o os' Hm'. specialize (Hd o). rewrite Hm' in Hd. destruct (m o) as [os|] eqn:Hm; [|contradiction].
    rewrite <- Hd. eapply Rhdl; eassumption.
  - rewrite Hnil. intros o [].
Qed.

Lemma R_subs_used s m a o : R s m a -> In o (ab_subs a) -> m o <> None.
Proof. intros HR Hin. destruct (R_live _ _ _ HR o Hin) as [os [Hm _]]. congruence. Qed.

Lemma greet_ended_shape (g : @gstate A) t :
  g_status g = Ended t -> is_terminal t = true ->
  exists vs t', greet K g = map Next vs ++ [t'] /\ is_terminal t' = true.
Proof.
  intros Hg Ht. unfold greet, final. rewrite Hg. destruct t as [x|e|]; [discriminate Ht| |].
  - exists [], (Err e). split; reflexivity.
  - destruct K; try (exists [], Done; split; reflexivity).
    destruct (g_has g); [exists [g_cur g], Done|exists [], Done]; split; reflexivity.
Qed.

Lemma greet_live_shape (g : @gstate A) : g_status g = Live -> exists vs, greet K g = map Next vs.
Proof.
  intros Hg. unfold greet. rewrite Hg. destruct K; [exists []|exists [g_cur g]|exists []]; reflexivity.
Qed.

(* one top-level call, run to the end of the deliveries it causes, logs what the specification says
   and re-establishes [R] *)
Definition sim_goal s m a p k l : Prop :=
  exists s' m', reaches (Cfg s m (IOp p :: k) l)
                        (Cfg s' m' k (rev (snd (spec_op K a p)) ++ EOp p :: l))
                /\ R s' m' (fst (spec_op K a p)).

Lemma mem_cons_other o o2 l : o2 <> o -> mem o2 (o :: l) = mem o2 l.
Proof. intros H. unfold mem. cbn. destruct (Nat.eqb o2 o) eqn:E; [apply Nat.eqb_eq in E; contradiction|reflexivity]. Qed.

Lemma mem_cons_same o l : mem o (o :: l) = true.
Proof. unfold mem. cbn. now rewrite Nat.eqb_refl. Qed.

Lemma meqv_upd_both (m m' : omap) o x :
  (forall o2, o2 <> o -> match m o2, m' o2 with
                         | None, None => True | Some a, Some b => same_but_calls a b | _, _ => False end) ->
  meqv (upd m o x) (upd m' o x).
Proof.
  intros H o2. unfold upd. destruct (Nat.eqb o2 o) eqn:E; [repeat split|]. apply H. now apply Nat.eqb_neq.
Qed.

Lemma R_subscribed s m a o osn m' :
  R s m a -> mem o (ab_used a) = false -> handle osn = true -> (live (ab_g a) = true -> live_obs osn) ->
  meqv (upd m o osn) m' ->
  R (if live (ab_g a) then set_observers (observers s ++ [o]) s else s) m'
    (Abs (if live (ab_g a) then ab_subs a ++ [o] else ab_subs a) (o :: ab_used a) (ab_g a)).
Proof.
  intros HR Hu Hh Hlv He. apply (R_meqv _ (upd m o osn)); [|exact He].
  assert (Hm : m o = None) by now apply (R_used _ _ _ HR).
  assert (Hnew : forall o2, In o2 (ab_subs a) -> o2 <> o).
  { intros o2 Hin ->. exact (R_subs_used _ _ _ _ HR Hin Hm). }
  destruct HR as [Robs Rnd Rused Rhdl Rlive Rabs Rdead]. constructor; cbn [ab_subs ab_used ab_g].
  - destruct (live (ab_g a)); cbn; now rewrite Robs.
  - destruct (live (ab_g a)); [|exact Rnd]. apply NoDup_app_single; [exact Rnd|]. intros Hin. now apply (Hnew o Hin).
  - intros o2. destruct (Nat.eq_dec o2 o) as [->|Hne].
    + rewrite upd_same, mem_cons_same. split; discriminate.
    + rewrite upd_other, mem_cons_other by exact Hne. apply Rused.
  - intros o2 os2. destruct (Nat.eq_dec o2 o) as [->|Hne].
    + rewrite upd_same. intros [= <-]. exact Hh.
    + rewrite upd_other by exact Hne. apply Rhdl.
  - intros o2 Hin. destruct (live (ab_g a)) eqn:L; [|rewrite (Rdead eq_refl) in Hin; destruct Hin].
    apply in_app_or in Hin. destruct Hin as [Hin|[<-|[]]].
    + rewrite upd_other by exact (Hnew o2 Hin). now apply Rlive.
    + rewrite upd_same. exists osn. split; [reflexivity|now apply Hlv].
  - destruct (live (ab_g a)); exact Rabs.
  - intros Hd. rewrite Hd. exact (Rdead Hd).
Qed.

Lemma sim_sub s m a o k l : R s m a -> sim_goal s m a (OSub o) k l.
Proof.
  intros HR. unfold sim_goal, spec_op. cbn [fst snd].
  destruct (mem o (ab_used a)) eqn:Hu.
  - (* id used before: the driver skips *)
    cbn [fst snd rev app]. exists s, m. split; [|exact HR].
    apply reaches_step_eq. cbn [Subject.step step_op c_k c_st c_obs c_rlog].
    destruct (m o) eqn:Hm; [reflexivity|]. apply (R_used _ _ _ HR) in Hm. congruence.
  - assert (Hm : m o = None) by now apply (R_used _ _ _ HR).
    cbn [fst snd]. pose proof (R_subscribed s m a o) as HR'.
    destruct (g_status (ab_g a)) as [|t|] eqn:Hg.
    + (* live *)
      assert (Hl : live (ab_g a) = true) by (unfold live; now rewrite Hg). rewrite Hl in *.
      destruct (greet_live_shape (ab_g a) Hg) as [vs Hvs].
      set (s1 := set_observers (observers s ++ [o]) s) in *.
      destruct (deliver_nexts_one vs o s1 (upd m o fresh_ostate) (ISubRet o (Some SInner) :: k)
                  (EOp (OSub o) :: l)) as [m1 [Hr1 He1]].
      { exists fresh_ostate. split; [apply upd_same|reflexivity]. }
      pose proof (He1 o) as Ho. rewrite upd_same in Ho. destruct (m1 o) as [os1|] eqn:Hm1; [|contradiction].
      destruct Ho as (E1&E2&E3&E4&E5). cbn in E1, E2, E3, E4, E5.
      set (osf := with_handle (OState (a_stopped os1) false (Some SInner) (inner_obs os1) (handle os1) (calls os1))).
      exists s1, (upd m1 o osf). split.
      * eapply reaches_trans; [apply reaches_step_eq|eapply reaches_trans; [|apply reaches_step_eq]].
        -- cbn [Subject.step step_op c_k c_st c_obs c_rlog]. rewrite Hm.
           rewrite (mirror_subscribe pynone K s _ o (R_abs _ _ _ HR)), Hg, Hl, Hvs. reflexivity.
        -- exact Hr1.
        -- rewrite Hvs. cbn [Subject.step c_k c_st c_obs c_rlog]. rewrite Hm1.
           unfold sad_set. rewrite <- E2. reflexivity.
      * apply (HR' osf _ HR Hu eq_refl).
        -- intros _. unfold osf, live_obs. cbn. repeat split; congruence.
        -- apply meqv_upd_both. intros o2 Hne. specialize (He1 o2). now rewrite upd_other in He1.
    + (* ended *)
      assert (Hl : live (ab_g a) = false) by (unfold live; now rewrite Hg). rewrite Hl in *.
      assert (Htt : is_terminal t = true).
      { pose proof (proj1 (R_abs _ _ _ HR)) as Hs. rewrite Hg in Hs. exact (proj1 (proj2 (proj2 Hs))). }
      destruct (greet_ended_shape (ab_g a) t Hg Htt) as [vs [t' [Hvs Ht']]].
      destruct (deliver_final_one vs t' o s (upd m o fresh_ostate) (ISubRet o (Some SPlain) :: k)
                  (EOp (OSub o) :: l) Ht') as [m1 [Hr1 [Hd1 [Ho1 [os1 [Hm1 [Hs1 Hsd1]]]]]]].
      { exists fresh_ostate. split; [apply upd_same|]. split; [reflexivity|now left]. }
      exists s, (upd m1 o (with_handle os1)). split.
      * eapply reaches_trans; [apply reaches_step_eq|eapply reaches_trans; [|apply reaches_step_eq]].
        -- cbn [Subject.step step_op c_k c_st c_obs c_rlog]. rewrite Hm.
           rewrite (mirror_subscribe pynone K s _ o (R_abs _ _ _ HR)), Hg, Hl, Hvs. reflexivity.
        -- exact Hr1.
        -- rewrite Hvs. cbn [Subject.step c_k c_st c_obs c_rlog]. rewrite Hm1.
           unfold sad_set. rewrite Hsd1. reflexivity.
      * apply (HR' (with_handle os1) _ HR Hu eq_refl); [discriminate|].
        apply meqv_upd_both. intros o2 Hne. rewrite (Ho1 o2 Hne), upd_other by exact Hne. apply meqv_refl.
    + (* disposed: _subscribe_core raises, fail() hands the exception to the observer *)
      assert (Hl : live (ab_g a) = false) by (unfold live; now rewrite Hg). rewrite Hl in *.
      set (os0 := called true fresh_ostate).
      exists s, (upd (upd m o os0) o (with_handle os0)). split.
      * eapply reaches_trans; [apply reaches_step_eq|apply reaches_step_eq].
        -- cbn [Subject.step step_op c_k c_st c_obs c_rlog]. rewrite Hm.
           rewrite (mirror_subscribe pynone K s _ o (R_abs _ _ _ HR)), Hg. reflexivity.
        -- cbn [Subject.step silent c_k c_st c_obs c_rlog map app]. rewrite upd_same.
           unfold greet. rewrite Hg. reflexivity.
      * apply (HR' (with_handle os0) _ HR Hu eq_refl); [discriminate|].
        apply meqv_upd_both. intros o2 Hne. rewrite upd_other by exact Hne. apply meqv_refl.
Qed.

Lemma R_unsubscribed s m a o os' s' :
  R s m a -> m o <> None -> handle os' = true -> detached o s s' -> observers s' = remove1 o (observers s) ->
  R s' (upd m o os') (Abs (remove1 o (ab_subs a)) (ab_used a) (ab_g a)).
Proof.
  intros [Robs Rnd Rused Rhdl Rlive Rabs Rdead] Hm Hh Hdet Hobs. constructor; cbn [ab_subs ab_used ab_g].
  - now rewrite Hobs, Robs.
  - now apply NoDup_remove1.
  - intros o2. rewrite <- Rused. unfold upd. destruct (Nat.eqb o2 o) eqn:E; [|tauto].
    apply Nat.eqb_eq in E. subst o2. split; [discriminate|intros; contradiction].
  - intros o2 os2. unfold upd. destruct (Nat.eqb o2 o); [intros [= <-]; exact Hh|apply Rhdl].
  - intros o2 Hin2. apply (In_remove1 o _ o2 Rnd) in Hin2. destruct Hin2 as [Hin2 Hne].
    rewrite upd_other by exact Hne. now apply Rlive.
  - destruct Hdet as [->| ->]; exact Rabs.
  - intros Hd. now rewrite (Rdead Hd).
Qed.

Lemma sim_unsub s m a o k l : R s m a -> sim_goal s m a (OUnsub o) k l.
Proof.
  intros HR. unfold sim_goal, spec_op. cbn [fst snd rev app].
  destruct (m o) as [os|] eqn:Hm.
  - assert (Hh : handle os = true) by (eapply R_handle; eassumption).
    exists (fst (ado_dispose s os o)), (upd m o (snd (ado_dispose s os o))). split.
    { apply reaches_step_eq. cbn [Subject.step step_op c_k c_st c_obs c_rlog]. rewrite Hm, Hh.
      now destruct (ado_dispose s os o). }
    apply (R_unsubscribed s m a o _ _ HR); [congruence|now rewrite ado_dispose_handle|apply ado_dispose_detached|].
    destruct (in_dec Nat.eq_dec o (ab_subs a)) as [Hin|Hnin].
    + (* currently subscribed: InnerSubscription.dispose removes it *)
      destruct (R_live _ _ _ HR o Hin) as [os' [Hm' (L1&L2&L3&L4)]]. rewrite Hm in Hm'. injection Hm' as <-.
      assert (Hlive : live (ab_g a) = true).
      { destruct (live (ab_g a)) eqn:E; [reflexivity|]. rewrite (R_dead _ _ _ HR E) in Hin. destruct Hin. }
      pose proof (mirror_disposed K s _ (R_abs _ _ _ HR)) as S2. apply live_of_status in Hlive. rewrite Hlive in S2.
      unfold ado_dispose. cbn [sad_disposed sad_cur a_stopped inner_obs handle calls]. rewrite L2, L3.
      cbn [sub_dispose]. unfold inner_dispose. cbn [inner_obs]. rewrite S2, L4. cbn [negb andb].
      replace (mem o (observers s)) with true; [reflexivity|].
      symmetry. apply mem_In. now rewrite (R_obs _ _ _ HR).
    + (* not (or no longer) subscribed: only the wrapper is stopped *)
      rewrite <- (R_obs _ _ _ HR) in Hnin.
      destruct (ado_dispose_detached s os o) as [->| ->]; cbn [observers set_observers];
        [now rewrite (remove1_notin o _ Hnin)|reflexivity].
  - (* unknown id: no handle *)
    assert (Hnin : ~ In o (ab_subs a)) by (intros Hin; exact (R_subs_used _ _ _ _ HR Hin Hm)).
    rewrite (remove1_notin o _ Hnin). exists s, m. split; [|destruct a; exact HR].
    apply reaches_step_eq. cbn [Subject.step step_op c_k c_st c_obs c_rlog]. now rewrite Hm.
Qed.

Lemma sim_dispose s m a k l : R s m a -> sim_goal s m a ODispose k l.
Proof.
  intros HR. unfold sim_goal, spec_op. cbn [fst snd rev app g_step].
  exists (c_dispose C s), m. split.
  - apply reaches_step_eq. reflexivity.
  - destruct HR as [Robs Rnd Rused Rhdl Rlive Rabs Rdead]. constructor; cbn [ab_subs ab_used ab_g]; try assumption.
    + destruct K; reflexivity.
    + constructor.
    + intros o [].
    + apply mirror_dispose.
    + reflexivity.
Qed.

Lemma bcast_shape (g : @gstate A) p : is_emission p = true -> live g = true ->
  exists vs, (bcast K g p = map Next vs /\ live (g_step g p) = true) \/
             (exists t, bcast K g p = map Next vs ++ [t] /\ is_terminal t = true /\ live (g_step g p) = false).
Proof.
  intros Hp L. unfold bcast, final. destruct p; try discriminate Hp; cbn [g_step]; rewrite L.
  - exists (match K with KAsync => [] | _ => [v] end). left. split; [now destruct K|reflexivity].
  - exists []. right. exists (Err e). repeat split.
  - exists (match K with KAsync => if g_has g then [g_cur g] else [] | _ => [] end). right. exists Done.
    split; [|split; reflexivity]. destruct K; try reflexivity. now destruct (g_has g).
Qed.

Lemma R_unstopped s m a o :
  R s m a -> In o (ab_subs a) -> exists os, m o = Some os /\ a_stopped os = false.
Proof. intros HR Hin. destruct (R_live _ _ _ HR o Hin) as [os [Hm [Hs _]]]. eauto. Qed.

Lemma sim_emit_dead s m a p k l :
  R s m a -> is_emission p = true -> live (ab_g a) = false -> sim_goal s m a p k l.
Proof.
  intros HR Hp Hl. unfold sim_goal.
  assert (Hsub : ab_subs a = []) by now apply (R_dead _ _ _ HR).
  assert (Hspec : spec_op K a p =
          (a, match g_status (ab_g a) with Disposed => [ERaised disposed_exn] | _ => [] end)).
  { destruct a as [subs used g]. cbn [ab_subs ab_used ab_g] in *. subst subs.
    rewrite (spec_op_emission K _ p Hp). cbn [ab_subs ab_used ab_g flat_map].
    rewrite g_step_dead by (exact Hl || (intros ->; discriminate Hp)). now rewrite Hl, app_nil_r. }
  rewrite Hspec. cbn [fst snd]. exists s, m. split; [|exact HR].
  apply reaches_step_eq. cbn [Subject.step c_k c_st c_obs c_rlog].
  rewrite (step_op_emission C silent p s m k l Hp), (mirror_disposed K s _ (R_abs _ _ _ HR)),
    (mirror_stopped K s _ (R_abs _ _ _ HR)), Hl.
  now destruct (g_status (ab_g a)).
Qed.

(* an emission accepted by a live subject: one step pushes the deliveries ([mirror_emit]), which then
   run to the end; element notifications leave the wrappers as they are, a terminal one stops them *)
Lemma sim_emit_live s m a p k l :
  R s m a -> is_emission p = true -> live (ab_g a) = true -> sim_goal s m a p k l.
Proof.
  intros HR Hp Hl. pose proof (R_abs _ _ _ HR) as HM.
  destruct (mirror_emit pynone K s _ p HM Hl Hp) as (Hk & HM' & Hobs).
  pose proof (mirror_stopped K s _ HM) as S1. pose proof (mirror_disposed K s _ HM) as S2.
  rewrite Hl in S1. rewrite (proj1 (live_of_status _) Hl) in S2. cbn [negb] in S1.
  unfold sim_goal. rewrite (spec_op_emission K a p Hp), (proj1 (live_of_status _) Hl). cbn [fst snd app].
  assert (Hstep : stepf (Cfg s m (IOp p :: k) l) =
                  Cfg (fst (emission C s p)) m
                      (flat_map (fun o => map (IDeliver o) (bcast K (ab_g a) p)) (ab_subs a) ++ k) (EOp p :: l)).
  { cbn [Subject.step c_k c_st c_obs c_rlog].
    rewrite (step_op_emission C silent p s m k l Hp), S1, S2, Hk, (R_obs _ _ _ HR). reflexivity. }
  assert (HR1 : R (fst (emission C s p)) m
                  (Abs (if live (g_step (ab_g a) p) then ab_subs a else []) (ab_used a) (g_step (ab_g a) p))).
  { destruct HR as [Robs Rnd Rused Rhdl Rlive Rabs Rdead]. constructor; cbn [ab_subs ab_used ab_g]; try assumption.
    - now rewrite Hobs, Robs.
    - destruct (live (g_step (ab_g a) p)); [exact Rnd|constructor].
    - destruct (live (g_step (ab_g a) p)); [exact Rlive|intros o []].
    - intros ->. reflexivity. }
  assert (Hun : forall o, In o (ab_subs a) -> exists os, m o = Some os /\ a_stopped os = false)
    by (intros o; apply (R_unstopped s m a o HR)).
  destruct (bcast_shape (ab_g a) p Hp Hl) as [vs [[HN Hl']|(t & HN & Ht & Hl')]]; rewrite HN, Hl' in *.
  - destruct (deliver_all_nexts vs (ab_subs a) (fst (emission C s p)) m k (EOp p :: l) Hun) as [m' [Hr He]].
    exists (fst (emission C s p)), m'.
    split; [exact (reaches_trans _ _ _ (reaches_step_eq _ _ Hstep) Hr)|exact (R_meqv _ m m' _ HR1 He)].
  - destruct (deliver_all_final vs t (ab_subs a) (fst (emission C s p)) m k (EOp p :: l) Ht Hobs
                (R_nodup _ _ _ HR) Hun) as [m' [Hr Hd]].
    exists (fst (emission C s p)), m'.
    split; [exact (reaches_trans _ _ _ (reaches_step_eq _ _ Hstep) Hr)|exact (R_mdom _ m m' _ HR1 eq_refl Hd)].
Qed.

Theorem sim_op s m a p k l : R s m a -> sim_goal s m a p k l.
Proof.
  intros HR. destruct (is_emission p) eqn:Hp.
  { destruct (live (ab_g a)) eqn:Hl; [now apply sim_emit_live|now apply sim_emit_dead]. }
  destruct p as [o|o| | | |]; try discriminate Hp; [now apply sim_sub|now apply sim_unsub|now apply sim_dispose].
Qed.

Lemma sim_history : forall h s m a l,
  R s m a ->
  exists s' m', reaches (Cfg s m (map IOp h) l) (Cfg s' m' [] (rev (spec_from K a h) ++ l)).
Proof.
  induction h as [|p h IH]; intros s m a l HR.
  - exists s, m. apply reaches_refl.
  - cbn [map spec_from]. destruct (sim_op s m a p (map IOp h) l HR) as [s1 [m1 [Hr1 HR1]]].
    destruct (spec_op K a p) as [a' out]. cbn [fst snd] in *.
    destruct (IH s1 m1 a' (rev out ++ EOp p :: l) HR1) as [s2 [m2 Hr2]].
    exists s2, m2. eapply reaches_trans; [exact Hr1|].
    replace (rev (EOp p :: out ++ spec_from K a' h) ++ l)
      with (rev (spec_from K a' h) ++ rev out ++ EOp p :: l); [exact Hr2|].
    cbn [rev]. rewrite rev_app_distr, <- !app_assoc. reflexivity.
Qed.

Lemma R_init v0 : R (init_state v0) (fun _ => None) (Abs [] [] (g_init v0)).
Proof.
  constructor; cbn [ab_subs ab_used ab_g];
    [reflexivity|constructor|intros o; cbn; tauto|intros o os H; discriminate|intros o []|apply mirror_init|reflexivity].
Qed.

(* C20/C21/C23, refinement: on every history of top-level calls the class
   produces exactly the log of the abstract broadcast specification, and the run
   terminates (for all sufficiently large fuel) *)
Theorem refines_spec (v0 : A) (h : list (@op A)) :
  exists fuel0, forall fuel, (fuel0 <= fuel)%nat ->
    run_history C v0 fuel (h, []) = (spec K v0 h, true).
Proof.
  destruct (sim_history h (init_state v0) (fun _ => None) (Abs [] [] (g_init v0)) [] (R_init v0))
    as [s' [m' [n Hn]]].
  exists n. intros fuel Hle. unfold run_history. cbn [fst snd].
  change (run C (react_tbl []) fuel (init_cfg v0 h)) with (runf fuel (init_cfg v0 h)).
  replace fuel with (n + (fuel - n))%nat by lia. rewrite run_add.
  unfold init_cfg. rewrite Hn. rewrite run_done by reflexivity.
  unfold log_of, finished, spec. cbn [c_rlog c_k]. now rewrite app_nil_r, rev_involutive.
Qed.

End Flat.

Section View.
Context {A : Type} (K : kind).

Definition phase_of (a : @abs A) (o : nat) : phase :=
  if mem o (ab_subs a) then Active else if mem o (ab_used a) then Gone else Before.

Record WF (a : @abs A) : Prop := {
  WF_nodup : NoDup (ab_subs a);
  WF_used : forall o, In o (ab_subs a) -> mem o (ab_used a) = true;
  WF_dead : live (ab_g a) = false -> ab_subs a = [] }.

Lemma view_map_same o (l : list (ev A)) : view o (map (EGot o) l) = l.
Proof. induction l as [|n t IH]; cbn; [reflexivity|]. now rewrite Nat.eqb_refl, IH. Qed.

Lemma view_map_other o o' (l : list (ev A)) : o' <> o -> view o (map (EGot o') l) = [].
Proof.
  intros H. induction l as [|n t IH]; cbn; [reflexivity|].
  destruct (Nat.eqb o' o) eqn:E; [apply Nat.eqb_eq in E; contradiction|exact IH].
Qed.

Lemma view_flat_map o (N : list (ev A)) : forall L, NoDup L ->
  view o (flat_map (fun o2 => map (EGot o2) N) L) = if mem o L then N else [].
Proof.
  induction L as [|x L IH]; intros Hnd; [reflexivity|].
  inversion Hnd as [|? ? Hnin Hnd']; subst. cbn [flat_map]. rewrite view_app, (IH Hnd').
  unfold mem. cbn [existsb]. destruct (Nat.eqb o x) eqn:E.
  - apply Nat.eqb_eq in E. subst x. rewrite view_map_same.
    replace (existsb (Nat.eqb o) L) with false; [now rewrite app_nil_r|].
    symmetry. apply (mem_false o L). exact Hnin.
  - apply Nat.eqb_neq in E. rewrite view_map_other by congruence. reflexivity.
Qed.

Lemma oview_gone o (g : @gstate A) h : oview K o Gone g h = [].
Proof. destruct h; reflexivity. Qed.

Lemma mem_app o l1 l2 : mem o (l1 ++ l2) = mem o l1 || mem o l2.
Proof. unfold mem. apply existsb_app. Qed.

Lemma mem_remove1_same o l : NoDup l -> mem o (remove1 o l) = false.
Proof. intros H. apply mem_false. rewrite (In_remove1 o l o H). tauto. Qed.

Lemma mem_remove1_other o o' l : NoDup l -> o <> o' -> mem o (remove1 o' l) = mem o l.
Proof.
  intros H Hne. destruct (mem o l) eqn:E.
  - apply mem_In. apply mem_In in E. apply (In_remove1 o' l o H). tauto.
  - apply mem_false. apply mem_false in E. rewrite (In_remove1 o' l o H). tauto.
Qed.

Lemma spec_op_g (a : @abs A) p : ab_g (fst (spec_op K a p)) = g_step (ab_g a) p.
Proof.
  unfold spec_op. destruct p; cbn [fst ab_g g_step]; try reflexivity.
  destruct (mem o (ab_used a)); reflexivity.
Qed.

Lemma oview_emission o ph (g : @gstate A) p h : is_emission p = true ->
  oview K o ph g (p :: h) =
  match ph with
  | Before => oview K o Before (g_step g p) h
  | Active => bcast K g p ++ (if live (g_step g p) then oview K o Active (g_step g p) h else [])
  | Gone => []
  end.
Proof. destruct p; try discriminate; destruct ph; reflexivity. Qed.

Lemma WF_step (a : @abs A) p : WF a -> WF (fst (spec_op K a p)).
Proof.
  intros [H1 H2 H3]. destruct (is_emission p) eqn:Hp.
  { rewrite (spec_op_emission K a p Hp). cbn [fst]. destruct (live (g_step (ab_g a) p)) eqn:L; constructor; cbn [ab_subs ab_used ab_g].
    - exact H1.
    - exact H2.
    - congruence.
    - constructor.
    - intros o2 [].
    - reflexivity. }
  unfold spec_op. destruct p as [o|o| | | |]; try discriminate Hp; cbn [fst].
  - destruct (mem o (ab_used a)) eqn:Hu; cbn [fst]; [constructor; assumption|].
    constructor; cbn [ab_subs ab_used ab_g].
    + destruct (live (ab_g a)); [|exact H1]. apply NoDup_app_single; [exact H1|].
      intros Hin. rewrite (H2 o Hin) in Hu. discriminate.
    + intros o2 Hin. destruct (Nat.eq_dec o2 o) as [->|Hne]; [apply mem_cons_same|].
      rewrite mem_cons_other by exact Hne. apply H2.
      destruct (live (ab_g a)); [|exact Hin]. apply in_app_or in Hin. destruct Hin as [Hin|[<-|[]]]; [exact Hin|congruence].
    + intros Hl. rewrite Hl. now apply H3.
  - constructor; cbn [ab_subs ab_used ab_g].
    + now apply NoDup_remove1.
    + intros o2 Hin. apply (In_remove1 o _ o2 H1) in Hin. apply H2. tauto.
    + intros Hl. rewrite (H3 Hl). reflexivity.
  - constructor; cbn [ab_subs ab_used ab_g]; [constructor|intros o2 []|reflexivity].
Qed.

Lemma view_raised o (g : @gstate A) :
  view o (match g_status g with Disposed => [@ERaised A disposed_exn] | _ => [] end) = [].
Proof. destruct (g_status g); reflexivity. Qed.

Lemma observer_view_from o : forall h (a : @abs A), WF a ->
  view o (spec_from K a h) = oview K o (phase_of a o) (ab_g a) h.
Proof.
  induction h as [|p h IH]; intros a Hwf; [reflexivity|].
  cbn [spec_from]. pose proof (IH (fst (spec_op K a p)) (WF_step a p Hwf)) as IHp.
  rewrite spec_op_g in IHp. destruct (spec_op K a p) as [a' out] eqn:Hs. cbn [fst] in IHp.
  cbn [view]. rewrite view_app, IHp. clear IHp IH.
  destruct Hwf as [H1 H2 H3].
  assert (Hact : mem o (ab_subs a) = true -> live (ab_g a) = true).
  { intros Hm. destruct (live (ab_g a)) eqn:E; [reflexivity|]. rewrite (H3 eq_refl) in Hm. discriminate. }
  assert (Hsu : mem o (ab_subs a) = true -> mem o (ab_used a) = true).
  { intros Hm. apply H2. now apply mem_In. }
  destruct (is_emission p) eqn:Hp.
  { rewrite (spec_op_emission K a p Hp) in Hs. injection Hs as <- <-.
    rewrite view_app, view_raised, (view_flat_map o _ _ H1). cbn [app].
    unfold phase_of. cbn [ab_subs ab_used ab_g]. rewrite (oview_emission o _ _ p h Hp).
    destruct (mem o (ab_subs a)) eqn:Ms.
    - destruct (live (g_step (ab_g a) p)); [now rewrite Ms|].
      change (mem o []) with false. cbv iota. now rewrite (Hsu eq_refl), oview_gone.
    - replace (mem o (if live (g_step (ab_g a) p) then ab_subs a else [])) with false
        by (destruct (live (g_step (ab_g a) p)); [symmetry; exact Ms|reflexivity]).
      destruct (mem o (ab_used a)); [now rewrite oview_gone|reflexivity]. }
  unfold spec_op in Hs. destruct p as [o'|o'| | | |]; try discriminate Hp.
  - (* OSub *)
    destruct (mem o' (ab_used a)) eqn:Hu; injection Hs as <- <-.
    + cbn [view app oview]. unfold phase_of at 2. unfold phase_of.
      destruct (mem o (ab_subs a)) eqn:Ms.
      * rewrite bcast_nonemission by reflexivity. cbn [g_step app]. now rewrite (Hact eq_refl).
      * destruct (mem o (ab_used a)) eqn:Mu; [now rewrite oview_gone|].
        destruct (Nat.eqb o' o) eqn:E; [apply Nat.eqb_eq in E; subst; congruence|reflexivity].
    + cbn [oview g_step]. unfold phase_of. cbn [ab_subs ab_used ab_g].
      destruct (Nat.eqb o' o) eqn:E.
      * apply Nat.eqb_eq in E. subst o'. rewrite view_map_same.
        assert (Ms : mem o (ab_subs a) = false).
        { destruct (mem o (ab_subs a)) eqn:Ms; [|reflexivity]. rewrite (Hsu eq_refl) in Hu. discriminate. }
        rewrite Ms, Hu. f_equal. destruct (live (ab_g a)).
        -- now rewrite mem_app, Ms, mem_cons_same.
        -- now rewrite Ms, mem_cons_same.
      * apply Nat.eqb_neq in E. rewrite view_map_other by exact E. cbn [app].
        assert (Ms : mem o (if live (ab_g a) then ab_subs a ++ [o'] else ab_subs a) = mem o (ab_subs a)).
        { destruct (live (ab_g a)); [|reflexivity]. rewrite mem_app. unfold mem at 2. cbn.
          destruct (Nat.eqb o o') eqn:E2; [apply Nat.eqb_eq in E2; congruence|]. now rewrite !orb_false_r. }
        rewrite Ms, mem_cons_other by congruence.
        destruct (mem o (ab_subs a)) eqn:Ms2.
        -- rewrite bcast_nonemission by reflexivity. cbn [app]. now rewrite (Hact eq_refl).
        -- destruct (mem o (ab_used a)); [now rewrite oview_gone|reflexivity].
  - (* OUnsub *)
    injection Hs as <- <-. cbn [view app oview g_step]. unfold phase_of. cbn [ab_subs ab_used ab_g].
    destruct (Nat.eqb o' o) eqn:E.
    + apply Nat.eqb_eq in E. subst o'. rewrite (mem_remove1_same o _ H1).
      destruct (mem o (ab_subs a)) eqn:Ms.
      * rewrite (Hsu eq_refl). now rewrite oview_gone.
      * destruct (mem o (ab_used a)); [now rewrite oview_gone|reflexivity].
    + apply Nat.eqb_neq in E. rewrite (mem_remove1_other o o' _ H1) by congruence.
      destruct (mem o (ab_subs a)); [reflexivity|].
      destruct (mem o (ab_used a)); [now rewrite oview_gone|reflexivity].
  - (* ODispose *)
    injection Hs as <- <-. cbn [view app oview]. unfold phase_of. cbn [ab_subs ab_used ab_g].
    change (mem o []) with false. cbv iota.
    destruct (mem o (ab_subs a)) eqn:Ms.
    + rewrite (Hsu eq_refl), oview_gone. rewrite bcast_nonemission by reflexivity. reflexivity.
    + destruct (mem o (ab_used a)); [now rewrite oview_gone|reflexivity].
Qed.

(* what observer o receives according to the specification is exactly:
   nothing before its subscribe call, the greeting, then every call made while
   it is subscribed, until it unsubscribes / the subject ends or is disposed *)
Theorem observer_view (v0 : A) (h : list (@op A)) (o : nat) :
  view o (spec K v0 h) = oview K o Before (g_init v0) h.
Proof.
  unfold spec. rewrite observer_view_from; [reflexivity|].
  constructor; cbn; [constructor|intros o2 []|reflexivity].
Qed.
End View.

(* both steps together: the class itself, seen by one observer *)
Theorem class_observer_view {A} (pynone : A) (K : kind) (v0 : A) (h : list (@op A)) :
  exists fuel0, forall fuel, (fuel0 <= fuel)%nat ->
    snd (run_history (cls_of pynone K) v0 fuel (h, [])) = true /\
    forall o, view o (fst (run_history (cls_of pynone K) v0 fuel (h, []))) = oview K o Before (g_init v0) h.
Proof.
  destruct (refines_spec pynone K v0 h) as [f0 H]. exists f0. intros fuel Hle.
  rewrite (H fuel Hle). cbn [fst snd]. split; [reflexivity|]. intros o. apply observer_view.
Qed.

(* ---- after dispose(): arbitrary call trees, arbitrary reactions ---- *)
Section Disposed.
Context {A : Type} (pynone : A) (K : kind) (react : nat -> nat -> list (@op A)).
Notation C := (cls_of pynone K).

(* emitting raises DisposedException and reaches nobody (any class: the check is Subject.on_next/on_error/on_completed) *)
Theorem disposed_emit_raises (s : @sstate A) m k l p :
  is_disposed s = true -> is_emission p = true ->
  step C react (Cfg s m (IOp p :: k) l) = Cfg s m k (ERaised disposed_exn :: EOp p :: l).
Proof.
  intros Hd Hp. cbn [step c_k c_st c_obs c_rlog]. now rewrite (step_op_emission C react p s m k l Hp), Hd.
Qed.

(* subscribing is answered with DisposedException (handed to the subscriber's
   on_error by Observable.subscribe) and registers nobody *)
Theorem disposed_subscribe_fails (s : @sstate A) m k l o :
  is_disposed s = true -> m o = None ->
  step C react (Cfg s m (IOp (OSub o) :: k) l) =
  Cfg s (upd m o (called true fresh_ostate)) (map IOp (react o 0) ++ ISubRet o None :: k)
      (EGot o (Err disposed_exn) :: EOp (OSub o) :: l).
Proof.
  intros Hd Hm. cbn [step step_op c_k c_st c_obs c_rlog].
  now rewrite Hm, (proj2 (subscribe_none pynone K s o) Hd).
Qed.

Lemma disposed_step c : is_disposed (c_st c) = true -> is_disposed (c_st (step C react c)) = true.
Proof.
  destruct (step_cases C react c) as [s m l|s m i k l pre Hsk|s m k l o s' is sub Hm Hs|s m k l o Hm Hs
    |s m k l o os Hm Hh|s m k l p Hp Hd Hs|s m k l|s m k l o n os Hm Hs|s m k l o os Hm|s m k l o sub os Hm];
    cbn [c_st]; intros D; try exact D.
  - rewrite (proj2 (subscribe_none pynone K s o) D) in Hs. discriminate Hs.
  - now rewrite (detached_disposed o _ _ (ado_dispose_detached s os o)).
  - congruence.
  - destruct K; reflexivity.
  - now rewrite (detached_disposed o _ _ (ado_dispose_detached s os o)).
  - now rewrite (detached_disposed o _ _ (sub_set_detached sub s os o)).
Qed.

Theorem disposed_forever n c :
  is_disposed (c_st c) = true -> is_disposed (c_st (run C react n c)) = true.
Proof. intros H. apply (run_ind C react (fun c => is_disposed (c_st c) = true)); [apply disposed_step|exact H]. Qed.

Theorem dispose_disposes (s : @sstate A) m k l :
  let c' := step C react (Cfg s m (IOp ODispose :: k) l) in
  is_disposed (c_st c') = true /\ observers (c_st c') = [].
Proof. cbn. destruct K; split; reflexivity. Qed.
End Disposed.

(* ---- reading the per-observer specification: the clauses of C20, C21, C23 ---- *)
Section Readings.
Context {A : Type}.

Fixpoint g_run (g : @gstate A) (h : list (@op A)) : gstate :=
  match h with [] => g | p :: t => g_run (g_step g p) t end.

Definition no_sub (o : nat) (h : list (@op A)) : Prop := forall p, In p h -> p <> OSub o.

(* before its subscribe call an observer receives nothing *)
Lemma oview_before_skip K o : forall pre (g : @gstate A) rest,
  no_sub o pre -> oview K o Before g (pre ++ rest) = oview K o Before (g_run g pre) rest.
Proof.
  induction pre as [|p pre IH]; intros g rest H; [reflexivity|].
  cbn [app oview g_run].
  assert (Hpre : no_sub o pre) by (intros q Hq; apply H; now right).
  destruct p as [o'| | | | |]; try (apply IH; exact Hpre).
  destruct (Nat.eqb o' o) eqn:E; [|apply IH; exact Hpre].
  apply Nat.eqb_eq in E. subst o'. exfalso. apply (H (OSub o)); [now left|reflexivity].
Qed.

(* subscribing to a live subject: the greeting, then the observer is Active;
   to an ended or disposed subject: the greeting and nothing else, ever *)
Lemma oview_subscribe K o (g : @gstate A) h :
  oview K o Before g (OSub o :: h) =
  greet K g ++ (if live g then oview K o Active g h else []).
Proof.
  cbn [oview g_step]. rewrite Nat.eqb_refl. destruct (live g); [reflexivity|]. now rewrite oview_gone.
Qed.

Lemma late_subscriber K o (g : @gstate A) h :
  live g = false -> oview K o Before g (OSub o :: h) = greet K g.
Proof. intros H. rewrite oview_subscribe, H. apply app_nil_r. Qed.

Lemma greet_ended K (g : @gstate A) t :
  g_status g = Ended t ->
  greet K g = match K, t with KAsync, Done => final g | _, _ => [t] end.
Proof. intros H. unfold greet. rewrite H. destruct t, K; reflexivity. Qed.

Lemma greet_disposed K (g : @gstate A) : g_status g = Disposed -> greet K g = [Err disposed_exn].
Proof. intros H. unfold greet. now rewrite H. Qed.

(* the value a BehaviorSubject holds: the last on_next value, or the initial one *)
Fixpoint last_next (v : A) (h : list (@op A)) : A :=
  match h with
  | [] => v
  | ONext x :: t => last_next x t
  | _ :: t => last_next v t
  end.

Lemma g_run_live_cur : forall h (g : @gstate A),
  live (g_run g h) = true -> live g = true /\ g_cur (g_run g h) = last_next (g_cur g) h.
Proof.
  induction h as [|p h IH]; intros g H; [split; [exact H|reflexivity]|].
  cbn [g_run] in *. destruct (IH _ H) as [Hl Hc]. rewrite Hc.
  destruct p as [o|o|v|e| |]; cbn [g_step last_next] in *.
  - split; [exact Hl|reflexivity].
  - split; [exact Hl|reflexivity].
  - destruct (live g) eqn:E; [split; reflexivity|]. rewrite E in Hl. discriminate.
  - destruct (live g) eqn:E; [discriminate|congruence].
  - destruct (live g) eqn:E; [discriminate|congruence].
  - discriminate.
Qed.

(* C23: while the AsyncSubject is live nothing is delivered *)
Definition no_end (h : list (@op A)) : Prop :=
  forall p, In p h -> match p with OErr _ | ODone | ODispose => False | _ => True end.

Lemma no_end_cons p h (g : @gstate A) :
  no_end (p :: h) -> live g = true -> no_end h /\ live (g_step g p) = true.
Proof.
  intros H Hl. split; [intros q Hq; apply H; now right|].
  specialize (H p (or_introl eq_refl)). destruct p; cbn [g_step]; try exact Hl; try contradiction.
  now rewrite Hl.
Qed.

Lemma g_run_no_end : forall h (g : @gstate A), no_end h -> live g = true -> live (g_run g h) = true.
Proof.
  induction h as [|p h IH]; intros g H Hl; [exact Hl|].
  destruct (no_end_cons p h g H Hl) as [Hh Hl']. cbn [g_run]. now apply IH.
Qed.

Theorem async_silent_until_end o : forall h (g : @gstate A) ph,
  no_end h -> live g = true -> oview KAsync o ph g h = [].
Proof.
  induction h as [|p h IH]; intros g ph H Hl; [reflexivity|].
  destruct (no_end_cons p h g H Hl) as [Hh Hl']. specialize (H p (or_introl eq_refl)).
  cbn [oview]. destruct ph.
  - destruct p as [o'| | | | |]; try (apply IH; assumption).
    destruct (Nat.eqb o' o); [|apply IH; assumption].
    unfold greet. rewrite Hl. apply live_of_status in Hl. rewrite Hl. cbn [app]. apply IH; assumption.
  - destruct p as [o'|o'|v|e| |]; try contradiction.
    + rewrite bcast_nonemission by reflexivity. rewrite Hl'. apply IH; assumption.
    + destruct (Nat.eqb o' o); [reflexivity|apply IH; assumption].
    + unfold bcast. rewrite Hl, Hl'. apply IH; assumption.
  - reflexivity.
Qed.

(* C23: on completion a current subscriber gets the last value (if any) then
   completion, on error only the error; afterwards nothing *)
Lemma oview_active_end K o (g : @gstate A) p h :
  live g = true -> (match p with OErr _ | ODone => True | _ => False end) ->
  oview K o Active g (p :: h) = bcast K g p.
Proof.
  intros Hl Hp. cbn [oview]. destruct p; try contradiction; cbn [g_step]; rewrite Hl; cbn [live g_status];
    now rewrite app_nil_r.
Qed.
End Readings.

(* ---- arbitrary call trees: a subscribed observer stays registered ---- *)
Section Registered.
Context {A : Type} (pynone : A) (K : kind) (react : nat -> nat -> list (@op A)).
Notation C := (cls_of pynone K).

Definition subject_live (s : @sstate A) : Prop := is_stopped s = false /\ is_disposed s = false.

(* the observer list has no duplicates and holds known ids only; an unstopped wrapper of a live subject
   is on it; a wrapper whose SingleAssignmentDisposable is disposed is stopped *)
Record Reg (c : @cfg A) : Prop := {
  reg_nodup : NoDup (observers (c_st c));
  reg_dom : forall o, In o (observers (c_st c)) -> c_obs c o <> None;
  reg_in : forall o os, c_obs c o = Some os -> a_stopped os = false -> subject_live (c_st c) ->
           In o (observers (c_st c));
  reg_sad : forall o os, c_obs c o = Some os -> sad_disposed os = true -> a_stopped os = true }.

(* _subscribe_core either registers the observer on a subject that is not stopped, or leaves the
   state of a stopped one alone *)
Lemma subscribe_cases (s : @sstate A) o s' is sub :
  c_subscribe C s o = Some (s', is, sub) ->
  (s' = set_observers (observers s ++ [o]) s /\ is_stopped s = false) \/ (s' = s /\ is_stopped s = true).
Proof.
  destruct K; cbn [cls_of c_subscribe subject_cls behavior_cls async_cls];
    unfold subj_subscribe, beh_subscribe, async_subscribe;
    destruct (is_disposed s); try discriminate; destruct (is_stopped s); cbn [negb].
  all: first [ intros [= <- _ _]; left; split; reflexivity
             | destruct (exception s); try destruct (has_value s); intros [= <- _ _]; right; split; reflexivity ].
Qed.

(* what an accepted emission does to the observer list and the flags: on_next keeps them,
   on_error / on_completed clear the list of the (already stopped) subject *)
Lemma emit_state (s : @sstate A) p : is_emission p = true ->
  let s' := fst (emission C s p) in
  (observers s' = observers s /\ is_stopped s' = is_stopped s /\ is_disposed s' = is_disposed s) \/
  (observers s' = [] /\ is_stopped s' = true).
Proof.
  destruct p; try discriminate; intros _; cbn [emission]; [left|right|right]; destruct K; repeat split.
Qed.

Lemma dispose_stops (s : @sstate A) : observers (c_dispose C s) = [] /\ is_disposed (c_dispose C s) = true.
Proof. destruct K; cbn; split; reflexivity. Qed.

Lemma Reg_remove s m k l s' os' k' l' o :
  Reg (Cfg s m k l) -> detached o s s' -> a_stopped os' = true ->
  Reg (Cfg s' (upd m o os') k' l').
Proof.
  intros [R1 R2 R3 R4] Hs Hst. cbn [c_st c_obs] in *.
  assert (Hfl : is_stopped s' = is_stopped s /\ is_disposed s' = is_disposed s).
  { destruct Hs as [->| ->]; split; reflexivity. }
  assert (Hin : forall x, x <> o -> In x (observers s) -> In x (observers s')).
  { intros x Hne Hx. destruct Hs as [->| ->]; [exact Hx|]. cbn. apply (In_remove1 o _ x R1). tauto. }
  assert (Hsub : forall x, In x (observers s') -> In x (observers s)).
  { intros x. destruct Hs as [->| ->]; [tauto|]. cbn. intros H. apply (In_remove1 o _ x R1) in H. tauto. }
  constructor; cbn [c_st c_obs].
  - destruct Hs as [->| ->]; [exact R1|cbn; now apply NoDup_remove1].
  - intros x Hx. unfold upd. destruct (Nat.eqb x o); [discriminate|]. apply R2. now apply Hsub.
  - intros x osx. unfold upd. destruct (Nat.eqb x o) eqn:E.
    + intros [= <-]. congruence.
    + apply Nat.eqb_neq in E. intros Hm Ha [L1 L2]. apply (Hin x E). apply (R3 x osx Hm Ha).
      destruct Hfl as [F1 F2]. split; congruence.
  - intros x osx. unfold upd. destruct (Nat.eqb x o); [intros [= <-] _; exact Hst|apply R4].
Qed.

Lemma Reg_upd_keep s m k l os os' k' l' o :
  Reg (Cfg s m k l) -> m o = Some os ->
  (a_stopped os' = false -> a_stopped os = false) -> (sad_disposed os' = true -> a_stopped os' = true) ->
  Reg (Cfg s (upd m o os') k' l').
Proof.
  intros [R1 R2 R3 R4] Hm Ha Hd. cbn [c_st c_obs] in *. constructor; cbn [c_st c_obs].
  - exact R1.
  - intros x Hx. unfold upd. destruct (Nat.eqb x o); [discriminate|]. now apply R2.
  - intros x osx. unfold upd. destruct (Nat.eqb x o) eqn:E; [|apply R3].
    apply Nat.eqb_eq in E. subst x. intros [= <-] Hs. apply (R3 o os Hm). now apply Ha.
  - intros x osx. unfold upd. destruct (Nat.eqb x o); [intros [= <-]; exact Hd|apply R4].
Qed.

Lemma Reg_new s m k l o x k' l' :
  Reg (Cfg s m k l) -> (a_stopped x = false -> ~ subject_live s) -> sad_disposed x = false ->
  Reg (Cfg s (upd m o x) k' l').
Proof.
  intros [R1 R2 R3 R4] Ha Hd. cbn [c_st c_obs] in *. constructor; cbn [c_st c_obs].
  - exact R1.
  - intros y Hy. unfold upd. destruct (Nat.eqb y o); [discriminate|]. now apply R2.
  - intros y osy. unfold upd. destruct (Nat.eqb y o); [|apply R3]. intros [= <-] Hs L. now destruct (Ha Hs).
  - intros y osy. unfold upd. destruct (Nat.eqb y o); [|apply R4]. intros [= <-]. congruence.
Qed.

Lemma Reg_state s m k l s' k' l' :
  Reg (Cfg s m k l) -> NoDup (observers s') -> (forall x, In x (observers s') -> In x (observers s)) ->
  (subject_live s' -> subject_live s /\ forall x, In x (observers s) -> In x (observers s')) ->
  Reg (Cfg s' m k' l').
Proof.
  intros [R1 R2 R3 R4] Hnd Hsub Hl. cbn [c_st c_obs] in *. constructor; cbn [c_st c_obs].
  - exact Hnd.
  - intros x Hx. apply R2. now apply Hsub.
  - intros x osx Hm Ha Hlive. destruct (Hl Hlive) as [L Hin]. apply Hin. now apply (R3 x osx Hm Ha).
  - exact R4.
Qed.

Lemma sub_set_live sub (s : @sstate A) os o : sad_disposed os = false ->
  fst (sub_set sub s os o) = s /\ sad_disposed (snd (sub_set sub s os o)) = false.
Proof. intros H. destruct sub; cbn [sub_set]; [unfold sad_set; rewrite H|]; now split. Qed.

Theorem Reg_step c : Reg c -> Reg (step C react c).
Proof.
  destruct (step_cases C react c) as [s m l|s m i k l pre Hsk|s m k l o s' is sub Hm Hs|s m k l o Hm Hs
    |s m k l o os Hm Hh|s m k l p Hp Hd Hs|s m k l|s m k l o n os Hm Hs|s m k l o os Hm|s m k l o sub os Hm];
    intros R; [exact R|..].
  (* the constructors of [step_to] after idle: skip, sub, sub_fail, unsub, emit, dispose, deliver, fin, ret *)
  - apply (Reg_state s m _ l s _ _ R); [exact (reg_nodup _ R)|tauto|tauto].
  - destruct (subscribe_cases s o s' is sub Hs) as [[-> Hst]|[-> Hst]];
      [|apply (Reg_new s m _ l o _ _ _ R); [intros _ [L _]; congruence|reflexivity]].
    destruct R as [R1 R2 R3 R4]. cbn [c_st c_obs] in *. constructor; cbn [c_st c_obs set_observers observers].
    + apply NoDup_app_single; [exact R1|]. intros Hin. exact (R2 o Hin Hm).
    + intros x Hx. unfold upd. destruct (Nat.eqb x o) eqn:E; [discriminate|].
      apply in_app_or in Hx. destruct Hx as [Hx|[<-|[]]]; [now apply R2|].
      rewrite Nat.eqb_refl in E. discriminate.
    + intros x osx. unfold upd. destruct (Nat.eqb x o) eqn:E.
      * apply Nat.eqb_eq in E. subst x. intros _ _ _. apply in_or_app. right. now left.
      * intros Hx Ha L. apply in_or_app. left. exact (R3 x osx Hx Ha L).
    + intros x osx. unfold upd. destruct (Nat.eqb x o); [intros [= <-]; discriminate|apply R4].
  - apply (Reg_new s m _ l o _ _ _ R); [discriminate|reflexivity].
  - eapply Reg_remove; [exact R|apply ado_dispose_detached|apply ado_dispose_stopped].
  - pose proof (reg_nodup _ R) as Hnd. cbn [c_st] in Hnd.
    destruct (emit_state s p Hp) as [(N1 & N2 & N3)|(N1 & N2)]; apply (Reg_state s m _ l _ _ _ R); rewrite ?N1.
    + (* on_next *) exact Hnd.
    + tauto.
    + intros [L1 L2]. split; [split; congruence|tauto].
    + (* on_error / on_completed *) constructor.
    + intros x [].
    + intros [L1 _]. congruence.
  - destruct (dispose_stops s) as (N1 & N2).
    apply (Reg_state s m _ l _ _ _ R); rewrite N1; [constructor|intros x []|]. intros [_ L2]. congruence.
  - eapply Reg_upd_keep; [exact R|exact Hm| |]; cbn [called a_stopped sad_disposed].
    + rewrite Hs. tauto.
    + intros H. rewrite (reg_sad _ R o os Hm H) in Hs. discriminate.
  - eapply Reg_remove; [exact R|apply ado_dispose_detached|apply ado_dispose_stopped].
  - destruct (sad_disposed os) eqn:Hd.
    + eapply Reg_remove; [exact R|apply sub_set_detached|].
      cbn [with_handle a_stopped]. rewrite sub_set_stopped. exact (reg_sad _ R o os Hm Hd).
    + destruct (sub_set_live sub s os o Hd) as [E1 E2]. rewrite E1.
      eapply Reg_upd_keep; [exact R|exact Hm| |]; cbn [with_handle a_stopped sad_disposed].
      * rewrite sub_set_stopped. tauto.
      * congruence.
Qed.

Lemma Reg_init v0 top : Reg (init_cfg v0 top).
Proof.
  constructor; cbn; [constructor|intros o []|intros o os H; discriminate|intros o os H; discriminate].
Qed.

(* for every call tree and fuel: an observer whose wrapper is not stopped (it
   subscribed, has not unsubscribed, has received no terminal) is in the
   observer list of a live subject -- hence in the snapshot of the next emission *)
Theorem live_observer_registered v0 top fuel o os :
  let c := run C react fuel (init_cfg v0 top) in
  c_obs c o = Some os -> a_stopped os = false -> subject_live (c_st c) -> In o (observers (c_st c)).
Proof.
  cbv zeta. intros Hm Ha Hl.
  assert (R : Reg (run C react fuel (init_cfg v0 top))).
  { apply (run_ind C react Reg); [apply Reg_step|apply Reg_init]. }
  exact (reg_in _ R o os Hm Ha Hl).
Qed.

(* an emission on a live Subject / BehaviorSubject hands the notification to
   exactly the observers registered at that moment, in order (the snapshot) ... *)
Lemma next_reaches_snapshot (s : @sstate A) v :
  K <> KAsync -> snd (c_next C s v) = map (fun o => IDeliver o (Next v)) (observers s).
Proof. destruct K; intros H; [reflexivity|reflexivity|congruence]. Qed.

(* ... and a delivery to a wrapper that is not stopped reaches the observer *)
Lemma deliver_reaches_live s m k l o n os :
  m o = Some os -> a_stopped os = false ->
  exists c', step C react (Cfg s m (IDeliver o n :: k) l) = c' /\ c_rlog c' = EGot o n :: l.
Proof.
  intros Hm Ha. eexists. split; [reflexivity|]. cbn [step c_k c_st c_obs c_rlog]. rewrite Hm, Ha.
  destruct n; reflexivity.
Qed.
End Registered.

