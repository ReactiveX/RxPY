(* C22 on ARBITRARY call trees: whatever the observers do from inside their
   callbacks (subscribe, unsubscribe, emit, dispose, also re-entrantly while
   other observers still have notifications queued), for every buffer size and
   window and every fuel, what an observer has received is a PREFIX of what the
   specification [xview] entitles it to: the retained values at its subscription,
   in order, then the terminal notification if any, then every later
   notification in call order -- nothing duplicated, reordered or invented.
   And nothing is lost: as long as the observer's wrapper is not stopped
   (unsubscribed / terminated), received ++ handed to the wrapper ++ still queued
   in its ScheduledObserver ++ terminal about to be queued  IS  the whole entitlement.

   The invariant [SInv] is kept by every step of the engine of Subjects/ReplaySched.v in
   BOTH scheduler modes (virtual-time scheduler drained by the driver / the default
   CurrentThreadScheduler trampoline, which drains inline at top level and queues when
   called from inside a callback).  [Inv], the invariant of the engine of Subjects/Replay.v,
   is [SInv] on the virtual-time configuration it stands for ([Inv_SInv]), so [step_inv]
   follows from [sstep_inv] through [ReplayFacts.rstep_sim].
   Section Tree holds the vocabulary of [Inv] and the facts about the subject's helpers that
   both invariants use; the proof by cases on the step is in Section SchedInv.  Props/C22.v
   cites [SInv] through ReplayDrainFacts.v; [Inv] ([step_inv], [Inv_prefix]) is what the
   connectable layer, whose model runs [rstep], builds on (ConnectableReplayFacts.v, C24); the
   [replay_*] theorems at the end state the same for the driver of Subjects/Replay.v itself. *)
From RxVerif Require Import Base.Prelude Ops.Machine Subjects.Subject Subjects.Family Subjects.Replay
  Subjects.ReplaySpec Subjects.ReplaySched Subjects.FamilyFacts Subjects.ReplayFacts
  Subjects.ReplaySchedFacts.

Section Tree.
Context {A : Type} (b : Z) (w : option Z).

Lemma prefix_refl {X} (l : list X) : prefix l l.
Proof. exists []. now rewrite app_nil_r. Qed.

Lemma prefix_app_r {X} (l1 l2 r : list X) : prefix l1 l2 -> prefix l1 (l2 ++ r).
Proof. intros [x ->]. exists (x ++ r). now rewrite app_assoc. Qed.

Lemma prefix_of_app {X} (l1 r l2 : list X) : prefix (l1 ++ r) l2 -> prefix l1 l2.
Proof. intros [x ->]. exists (r ++ x). now rewrite app_assoc. Qed.

Lemma prefix_nil {X} (l : list X) : prefix [] l.
Proof. now exists l. Qed.

(* notifications handed to o's wrapper but not yet processed *)
Fixpoint inflight (o : nat) (k : list (@rinstr A)) : list (ev A) :=
  match k with
  | [] => []
  | RIDeliver o' n :: r => if Nat.eqb o' o then n :: inflight o r else inflight o r
  | _ :: r => inflight o r
  end.

Definition nodeliver (k : list (@rinstr A)) : Prop := forall o, inflight o k = [].

(* no delivery is pending behind a drain loop *)
Fixpoint clean (k : list (@rinstr A)) : Prop :=
  match k with
  | [] => True
  | RIDrain :: r => nodeliver r
  | _ :: r => clean r
  end.

Lemma inflight_app o (k1 k2 : list (@rinstr A)) : inflight o (k1 ++ k2) = inflight o k1 ++ inflight o k2.
Proof.
  induction k1 as [|i r IH]; [reflexivity|]. destruct i; cbn [app inflight]; try exact IH.
  destruct (Nat.eqb o0 o); [cbn; now rewrite IH|exact IH].
Qed.

Lemma inflight_ops o (l : list (@rop A)) : inflight o (map RIOp l) = [].
Proof. induction l; [reflexivity|exact IHl]. Qed.

Lemma inflight_deliver_same o n k : inflight o (RIDeliver o n :: k) = n :: inflight o k.
Proof. cbn [inflight]. now rewrite Nat.eqb_refl. Qed.
Lemma inflight_deliver_other o o2 n k : o2 <> o -> inflight o2 (RIDeliver o n :: k) = inflight o2 k.
Proof. intros H. cbn [inflight]. destruct (Nat.eqb o o2) eqn:E; [apply Nat.eqb_eq in E; congruence|reflexivity]. Qed.

Definition is_sub (o : nat) (p : @rop A) : bool := match p with RSub o' => Nat.eqb o' o | _ => false end.
Definition subbed (o : nat) (ops : list (@rop A)) : bool := existsb (is_sub o) ops.

Lemma rg_run_snoc : forall ops (g : @rg A) p, rg_run g (ops ++ [p]) = rg_step (rg_run g ops) p.
Proof. induction ops as [|q t IH]; intros g p; [reflexivity|]. cbn [app rg_run]. apply IH. Qed.

Lemma xview_snoc o : forall ops ph (g : @rg A) p,
  xview b w o ph g (ops ++ [p]) =
  xview b w o ph g ops ++
  (if ph || subbed o ops then rnote (rg_run g ops) p
   else if is_sub o p then rgreet b w (rg_run g ops) else []).
Proof.
  induction ops as [|q t IH]; intros ph g p.
  - cbn [app xview subbed existsb rg_run]. rewrite orb_false_r. destruct ph; [now rewrite app_nil_r|].
    destruct p; cbn [is_sub]; try reflexivity. destruct (Nat.eqb o0 o); [now rewrite app_nil_r|reflexivity].
  - cbn [app xview rg_run]. unfold subbed. cbn [existsb]. destruct ph.
    + rewrite IH. cbn [orb]. now rewrite app_assoc.
    + cbn [orb]. destruct q; cbn [is_sub]; try (rewrite IH; reflexivity).
      destruct (Nat.eqb o0 o); [|rewrite IH; reflexivity].
      rewrite IH. cbn [orb]. now rewrite app_assoc.
Qed.

Lemma xview_unsubbed o : forall ops (g : @rg A), subbed o ops = false -> xview b w o false g ops = [].
Proof.
  induction ops as [|q t IH]; intros g H; [reflexivity|].
  unfold subbed in H. cbn [existsb] in H. apply orb_false_iff in H. destruct H as [H1 H2].
  cbn [xview]. destruct q; cbn [is_sub] in H1; try (apply IH; exact H2). rewrite H1. apply IH. exact H2.
Qed.

Lemma ops_of_app (l1 l2 : list (@revent A)) : ops_of (l1 ++ l2) = ops_of l1 ++ ops_of l2.
Proof. unfold ops_of. apply flat_map_app. Qed.

Definition cops (c : @rcfg A) : list (@rop A) := ops_of (rlog_of c).
Definition cg (c : @rcfg A) : @rg A := rg_run rg_init (cops c).
Definition cx (c : @rcfg A) (o : nat) : list (ev A) := xview b w o false rg_init (cops c).

Definition st_agree (s : @rstate A) (g : @rg A) : Prop :=
  r_bufsize s = b /\ r_window s = w /\ r_clock s = rg_clock g /\
  match rg_status g with
  | Live => r_stopped s = false /\ r_disposed s = false /\ r_exception s = None
  | Ended (Err e) => r_stopped s = true /\ r_disposed s = false /\ r_exception s = Some e
  | Ended Done => r_stopped s = true /\ r_disposed s = false /\ r_exception s = None
  | Ended (Next _) => False
  | Disposed => r_disposed s = true
  end /\
  (rg_status g <> Disposed -> qinv b w (r_clock s) (r_queue s) (rg_all g)).

Definition obs_ok (live : bool) (obsl : list nat) (view infl : list (ev A)) (os : @rostate A) (o : nat)
  (X : list (ev A)) : Prop :=
  if ra_stopped os then prefix view X
  else view ++ infl ++ so_queue (r_so os) = X /\
       (live = true -> In o obsl /\ so_stopped (r_so os) = false).

Record Inv (c : @rcfg A) : Prop := {
  inv_st : st_agree (rc_st c) (cg c);
  inv_nodup : NoDup (r_observers (rc_st c));
  inv_dom : forall o, In o (r_observers (rc_st c)) -> rc_obs c o <> None;
  inv_none : forall o, rc_obs c o = None ->
             subbed o (cops c) = false /\ rview o (rlog_of c) = [] /\ inflight o (rc_k c) = [];
  inv_some : forall o os, rc_obs c o = Some os ->
             subbed o (cops c) = true /\
             obs_ok (rg_live (cg c)) (r_observers (rc_st c)) (rview o (rlog_of c)) (inflight o (rc_k c)) os o (cx c o);
  inv_clean : clean (rc_k c) }.

Lemma obs_ok_prefix live obsl view infl os o X : obs_ok live obsl view infl os o X -> prefix view X.
Proof.
  unfold obs_ok. destruct (ra_stopped os); [tauto|]. intros [H _]. rewrite <- H. now eexists.
Qed.

(* state functions that only touch the scheduler *)
Definition same_but_obs (s s' : @rstate A) : Prop :=
  r_stopped s' = r_stopped s /\ r_disposed s' = r_disposed s /\ r_exception s' = r_exception s /\
  r_queue s' = r_queue s /\ r_bufsize s' = r_bufsize s /\ r_window s' = r_window s /\ r_clock s' = r_clock s.
Definition same_core (s s' : @rstate A) : Prop := r_observers s' = r_observers s /\ same_but_obs s s'.

Lemma same_but_obs_refl s : same_but_obs s s.
Proof. repeat split. Qed.
Lemma same_core_refl s : same_core s s.
Proof. split; [reflexivity|apply same_but_obs_refl]. Qed.
Lemma same_but_obs_trans s1 s2 s3 : same_but_obs s1 s2 -> same_but_obs s2 s3 -> same_but_obs s1 s3.
Proof. intros (a1&a2&a3&a4&a5&a6&a7) (b1&b2&b3&b4&b5&b6&b7). repeat split; congruence. Qed.
Lemma same_core_trans s1 s2 s3 : same_core s1 s2 -> same_core s2 s3 -> same_core s1 s3.
Proof. intros [a A1] [c C1]. split; [congruence|eapply same_but_obs_trans; eassumption]. Qed.

Lemma st_agree_same s s' g : same_but_obs s s' -> st_agree s g -> st_agree s' g.
Proof.
  intros (a1&a2&a3&a4&a5&a6&a7) (H1&H2&H3&H4&H5). unfold st_agree.
  rewrite a1, a2, a3, a4, a5, a6, a7. tauto.
Qed.

(* the code trims at the subject's own clock *)
Lemma st_agree_trim s g : st_agree s g -> st_agree (trim s) g.
Proof.
  intros (Hb & Hw & Hc & Hstat & Hq). unfold st_agree, trim.
  cbn [with_queue r_bufsize r_window r_clock r_stopped r_disposed r_exception r_queue].
  split; [exact Hb|]. split; [exact Hw|]. split; [exact Hc|]. split; [exact Hstat|].
  intros H. rewrite Hb, Hw. apply qinv_trim. exact (Hq H).
Qed.

Lemma cancel_opt_core id (s : @rstate A) : same_core s (cancel_opt id s).
Proof. destruct id; [repeat split|apply same_core_refl]. Qed.

Lemma ensure_active_core o (s : @rstate A) so : same_core s (fst (ensure_active o s so)).
Proof.
  unfold ensure_active.
  destruct (negb (so_faulted so) && negb match so_queue so with [] => true | _ => false end); [|apply same_core_refl].
  destruct (so_acquired so); [apply same_core_refl|].
  cbn [ser_disposed ser_cur]. destruct (ser_disposed so); cbn [fst].
  - eapply same_core_trans; [|apply cancel_opt_core]. repeat split.
  - eapply same_core_trans; [|apply cancel_opt_core]. repeat split.
Qed.

Lemma ensure_active_so o (s : @rstate A) so :
  so_queue (snd (ensure_active o s so)) = so_queue so /\ so_stopped (snd (ensure_active o s so)) = so_stopped so.
Proof.
  unfold ensure_active.
  destruct (negb (so_faulted so) && negb match so_queue so with [] => true | _ => false end); [|split; reflexivity].
  destruct (so_acquired so); [split; reflexivity|].
  cbn [ser_disposed ser_cur]. destruct (ser_disposed so); split; reflexivity.
Qed.

Lemma so_dispose_core (s : @rstate A) so : same_core s (fst (so_dispose s so)).
Proof. unfold so_dispose. destruct (ser_disposed so); [apply same_core_refl|apply cancel_opt_core]. Qed.

Lemma so_dispose_so (s : @rstate A) so :
  so_queue (snd (so_dispose s so)) = so_queue so /\ so_stopped (snd (so_dispose s so)) = true.
Proof. unfold so_dispose. destruct (ser_disposed so); split; reflexivity. Qed.

Lemma so_on_queue (n : ev A) so :
  so_stopped so = false -> so_queue (so_on n so) = so_queue so ++ [n] /\ so_stopped (so_on n so) = is_terminal n.
Proof. intros H. unfold so_on. rewrite H. split; [reflexivity|]. destruct n; reflexivity. Qed.

Lemma so_on_stopped (n : ev A) so : so_stopped so = true -> so_on n so = so.
Proof. intros H. unfold so_on. now rewrite H. Qed.

(* so_each: every observer of a duplicate-free snapshot gets f applied once to its own
   ScheduledObserver; the others are untouched; the subject state only changes as f changes it *)
Lemma so_each_spec (f : nat -> @rstate A -> @sostate A -> @rstate A * @sostate A)
      (Q : @sostate A -> @sostate A -> Prop) :
  (forall o s so, same_core s (fst (f o s so))) -> (forall o s so, Q so (snd (f o s so))) ->
  forall snap s (m : @romap A), NoDup snap -> (forall o, In o snap -> m o <> None) ->
    same_core s (fst (so_each f snap s m)) /\
    (forall o, ~ In o snap -> snd (so_each f snap s m) o = m o) /\
    (forall o os, In o snap -> m o = Some os ->
       exists so', snd (so_each f snap s m) o = Some (set_so os so') /\ Q (r_so os) so').
Proof.
  intros Hcore HQ. unfold so_each. induction snap as [|x snap IH]; intros s m Hnd Hdom.
  - cbn. split; [apply same_core_refl|]. split; [reflexivity|intros o os []].
  - inversion Hnd as [|? ? Hx Hnd']; subst. cbn [fold_left].
    destruct (m x) as [osx|] eqn:Hmx; [|exfalso; apply (Hdom x); [now left|exact Hmx]].
    destruct (f x s (r_so osx)) as [s1 so1] eqn:Hf.
    assert (Hdom1 : forall o, In o snap -> rupd m x (set_so osx so1) o <> None).
    { intros o Hin. unfold rupd. destruct (Nat.eqb o x); [discriminate|]. apply Hdom. now right. }
    destruct (IH s1 (rupd m x (set_so osx so1)) Hnd' Hdom1) as (I1 & I2 & I3).
    split; [|split].
    + eapply same_core_trans; [|exact I1]. change s1 with (fst (s1, so1)). rewrite <- Hf. apply Hcore.
    + intros o Hnin. rewrite I2 by (intros Hin; apply Hnin; now right).
      unfold rupd. destruct (Nat.eqb o x) eqn:E; [|reflexivity].
      apply Nat.eqb_eq in E. subst. exfalso. apply Hnin. now left.
    + intros o os [<-|Hin] Hm.
      * rewrite I2 by exact Hx. rewrite rupd_same. rewrite Hmx in Hm. injection Hm as <-.
        exists so1. split; [reflexivity|]. change so1 with (snd (s1, so1)). rewrite <- Hf. apply HQ.
      * assert (Hne : o <> x) by (intros ->; contradiction).
        apply (I3 o os Hin). unfold rupd. destruct (Nat.eqb o x) eqn:E; [apply Nat.eqb_eq in E; contradiction|exact Hm].
Qed.

Lemma obs_ok_weaken live live' obsl obsl' v i os o X :
  (live' = true -> live = true /\ (In o obsl -> In o obsl')) ->
  obs_ok live obsl v i os o X -> obs_ok live' obsl' v i os o X.
Proof.
  unfold obs_ok. intros Hl. destruct (ra_stopped os); [tauto|]. intros [H1 H2]. split; [exact H1|].
  intros E. destruct (Hl E) as [E1 Hin]. destruct (H2 E1) as [H3 H4]. auto.
Qed.

Lemma obs_ok_ext live obsl v i (os os' : @rostate A) o X :
  ra_stopped os' = ra_stopped os -> so_queue (r_so os') = so_queue (r_so os) ->
  so_stopped (r_so os') = so_stopped (r_so os) ->
  obs_ok live obsl v i os o X -> obs_ok live obsl v i os' o X.
Proof. unfold obs_ok. intros -> -> ->. tauto. Qed.

Lemma obs_ok_stop live live' obsl obsl' v i i' (os os' : @rostate A) o X :
  ra_stopped os' = true -> obs_ok live obsl v i os o X -> obs_ok live' obsl' v i' os' o X.
Proof. intros H Hok. unfold obs_ok. rewrite H. eapply obs_ok_prefix. exact Hok. Qed.

Lemma obs_ok_stopped_infl live obsl v i i' (os : @rostate A) o X :
  ra_stopped os = true -> obs_ok live obsl v i os o X -> obs_ok live obsl v i' os o X.
Proof. unfold obs_ok. intros ->. tauto. Qed.

(* the same vocabulary on a log in the order the engines keep it (latest event first) *)
Definition lops (l : list (@revent A)) : list (@rop A) := ops_of (rev l).
Definition lg (l : list (@revent A)) : @rg A := rg_run rg_init (lops l).
Definition lx (l : list (@revent A)) (o : nat) : list (ev A) := xview b w o false rg_init (lops l).
Definition lview (o : nat) (l : list (@revent A)) : list (ev A) := rview o (rev l).

Lemma lops_op p l : lops (REOp p :: l) = lops l ++ [p].
Proof. unfold lops. cbn [rev]. rewrite ops_of_app. cbn. reflexivity. Qed.
Lemma lops_got o n l : lops (REGot o n :: l) = lops l.
Proof. unfold lops. cbn [rev]. rewrite ops_of_app. cbn. now rewrite app_nil_r. Qed.
Lemma lops_raised e l : lops (RERaised e :: l) = lops l.
Proof. unfold lops. cbn [rev]. rewrite ops_of_app. cbn. now rewrite app_nil_r. Qed.
Lemma lview_op o p l : lview o (REOp p :: l) = lview o l.
Proof. unfold lview. cbn [rev]. rewrite rview_app. cbn. now rewrite app_nil_r. Qed.
Lemma lview_raised o e l : lview o (RERaised e :: l) = lview o l.
Proof. unfold lview. cbn [rev]. rewrite rview_app. cbn. now rewrite app_nil_r. Qed.
Lemma lview_got o o' n l : lview o (REGot o' n :: l) = lview o l ++ (if Nat.eqb o' o then [n] else []).
Proof. unfold lview. cbn [rev]. rewrite rview_app. cbn. destruct (Nat.eqb o' o); reflexivity. Qed.

Lemma lg_op p l : lg (REOp p :: l) = rg_step (lg l) p.
Proof. unfold lg. rewrite lops_op. apply rg_run_snoc. Qed.

Lemma subbed_snoc o ops p : subbed o (ops ++ [p]) = subbed o ops || is_sub o p.
Proof. unfold subbed. rewrite existsb_app. cbn. now rewrite orb_false_r. Qed.

Lemma lx_op o p l :
  lx (REOp p :: l) o = lx l o ++ (if subbed o (lops l) then rnote (lg l) p
                                  else if is_sub o p then rgreet b w (lg l) else []).
Proof. unfold lx. rewrite lops_op, xview_snoc. reflexivity. Qed.

Lemma obs_ok_emit live' obsl obsl' v i (os os3 : @rostate A) o X n :
  obs_ok true obsl v i os o X ->
  ra_stopped os3 = ra_stopped os ->
  (In o obsl -> so_queue (r_so os3) = so_queue (so_on n (r_so os)) /\
                so_stopped (r_so os3) = so_stopped (so_on n (r_so os))) ->
  (live' = true -> is_terminal n = false /\ (In o obsl -> In o obsl')) ->
  obs_ok live' obsl' v i os3 o (X ++ [n]).
Proof.
  unfold obs_ok. intros Hok Hra Hin Hl. rewrite Hra. destruct (ra_stopped os).
  - now apply prefix_app_r.
  - destruct Hok as [H1 H2]. destruct (H2 eq_refl) as [Hi Hs]. destruct (Hin Hi) as [Hq Hst].
    destruct (so_on_queue n _ Hs) as [Hq2 Hst2]. rewrite Hq, Hq2, Hst, Hst2. split.
    + rewrite !app_assoc. rewrite <- (app_assoc v i), H1. reflexivity.
    + intros E. destruct (Hl E) as [Ht Hsub]. split; [now apply Hsub|exact Ht].
Qed.

Lemma In_remove1_weak o x (l : list nat) : In x (remove1 o l) -> In x l.
Proof.
  induction l as [|y t IH]; cbn; [tauto|]. destruct (Nat.eqb y o); [now right|].
  intros [->|H]; [now left|right; now apply IH].
Qed.

(* AutoDetachObserver.dispose *)
Lemma rado_dispose_spec (s : @rstate A) os o :
  ra_stopped (snd (rado_dispose s os o)) = true /\
  same_but_obs s (fst (rado_dispose s os o)) /\
  (r_observers (fst (rado_dispose s os o)) = r_observers s \/
   r_observers (fst (rado_dispose s os o)) = remove1 o (r_observers s)).
Proof.
  split; [apply rado_dispose_stopped|].
  unfold rado_dispose. cbn [rsad_disposed rsad_cur]. destruct (rsad_disposed os); cbn [fst].
  { split; [apply same_but_obs_refl|now left]. }
  destruct (rsad_cur os); cbn [fst]; [|split; [apply same_but_obs_refl|now left]].
  unfold removable_dispose. cbn [r_so].
  pose proof (so_dispose_core s (r_so os)) as [Hc1 Hc2].
  destruct (so_dispose s (r_so os)) as [s1 so1]. cbn [fst] in *.
  destruct (negb (r_disposed s1) && mem o (r_observers s1)); cbn [fst].
  - split; [exact Hc2|]. right. cbn. now rewrite Hc1.
  - split; [exact Hc2|now left].
Qed.

Lemma rnote_dead (g : @rg A) p : rg_live g = false -> rnote g p = [].
Proof. intros H. unfold rnote. now rewrite H. Qed.

Lemma rg_step_dead (g : @rg A) p :
  rg_live g = false -> (match p with RNext _ | RErr _ | RDone => True | _ => False end) -> rg_step g p = g.
Proof. intros H Hp. destruct p; try contradiction; cbn; now rewrite H. Qed.

Lemma status_live (s : @rstate A) (g : @rg A) :
  st_agree s g -> r_disposed s = false -> r_stopped s = false -> rg_status g = Live.
Proof.
  intros (_&_&_&H&_) Hd Hs. destruct (rg_status g) as [|t|]; [reflexivity| |].
  - destruct t; [contradiction| |]; destruct H as (H1&_); congruence.
  - congruence.
Qed.

Lemma live_status (g : @rg A) : rg_status g = Live -> rg_live g = true.
Proof. intros H. unfold rg_live. now rewrite H. Qed.

Lemma status_not_live_stopped (s : @rstate A) (g : @rg A) :
  st_agree s g -> r_disposed s = false -> r_stopped s = true -> rg_live g = false /\ rg_status g <> Disposed.
Proof.
  intros (_&_&_&H&_) Hd Hs. unfold rg_live. destruct (rg_status g) as [|t|].
  - destruct H as (H1&_). congruence.
  - split; [reflexivity|discriminate].
  - congruence.
Qed.

Lemma status_disposed (s : @rstate A) (g : @rg A) :
  st_agree s g -> r_disposed s = true -> rg_status g = Disposed.
Proof.
  intros (_&_&_&H&_) Hd. destruct (rg_status g) as [|t|]; [| |reflexivity].
  - destruct H as (_&H2&_). congruence.
  - destruct t; [contradiction| |]; destruct H as (_&H2&_); congruence.
Qed.

Lemma rnote_sub (g : @rg A) o : rnote g (RSub o) = [].
Proof. unfold rnote. destruct (rg_live g); reflexivity. Qed.
Lemma rnote_unsub (g : @rg A) o : rnote g (RUnsub o) = [].
Proof. unfold rnote. destruct (rg_live g); reflexivity. Qed.
Lemma rnote_dispose (g : @rg A) : rnote g RDispose = [].
Proof. unfold rnote. destruct (rg_live g); reflexivity. Qed.
Lemma rnote_advance (g : @rg A) d : rnote g (RAdvance d) = [].
Proof. unfold rnote. destruct (rg_live g); reflexivity. Qed.

Lemma fold_so_on_nexts : forall (q : list (Z * A)) (so : @sostate A),
  so_stopped so = false ->
  so_queue (fold_left (fun so it => so_on (Next (snd it)) so) q so)
    = so_queue so ++ map (fun it => Next (snd it)) q /\
  so_stopped (fold_left (fun so it => so_on (Next (snd it)) so) q so) = false.
Proof.
  induction q as [|x q IH]; intros so Hs; cbn [fold_left map].
  - now rewrite app_nil_r.
  - destruct (so_on_queue (Next (snd x)) so Hs) as [Hq Hst]. cbn in Hst.
    destruct (IH _ Hst) as [I1 I2]. rewrite I1, Hq, <- app_assoc. split; [reflexivity|exact I2].
Qed.

(* the ScheduledObserver that _subscribe_core hands a new subscriber: the queue replayed, then the terminal if any *)
Definition greet_so (s : @rstate A) : @sostate A :=
  match r_exception s with
  | Some e => so_on (Err e) (fold_left (fun so it => so_on (Next (snd it)) so) (r_queue s) fresh_so)
  | None => if r_stopped s then so_on Done (fold_left (fun so it => so_on (Next (snd it)) so) (r_queue s) fresh_so)
            else fold_left (fun so it => so_on (Next (snd it)) so) (r_queue s) fresh_so
  end.

(* subscribing to a subject that is not disposed: the queue is trimmed, the observer registered and greeted
   with exactly what the specification says *)
Lemma greet_so_spec (s : @rstate A) (g : @rg A) o :
  st_agree s g -> r_disposed s = false ->
  let s2 := with_observers (r_observers (trim s) ++ [o]) (trim s) in
  st_agree s2 g /\ so_queue (greet_so s2) = rgreet b w g /\
  (rg_live g = true -> so_stopped (greet_so s2) = false).
Proof.
  intros (Hb & Hw & Hc & Hstat & Hq) Hd s2.
  assert (Hnd : rg_status g <> Disposed) by (intros E; rewrite E in Hstat; congruence).
  specialize (Hq Hnd).
  assert (Hq1 : r_queue s2 = retained b w (rg_clock g) (rg_all g)).
  { unfold s2, trim. cbn [r_queue with_queue with_observers]. rewrite Hb, Hw, Hc.
    rewrite Hc in Hq. apply (qinv_replay b w _ _ _ _ Hq). lia. }
  unfold greet_so. change (r_exception s2) with (r_exception s). change (r_stopped s2) with (r_stopped s).
  destruct (fold_so_on_nexts (r_queue s2) fresh_so eq_refl) as [F1 F2].
  set (so1 := fold_left (fun so it => so_on (Next (snd it)) so) (r_queue s2) fresh_so) in *.
  cbn [fresh_so so_queue app] in F1. rewrite Hq1 in F1.
  split; [|split].
  - apply (st_agree_same (trim s)); [repeat split|]. apply st_agree_trim. unfold st_agree. auto.
  - unfold rgreet, replayed. destruct (rg_status g) as [|t|]; [| |congruence].
    + destruct Hstat as (S1&S2&S3). rewrite S3, S1. exact F1.
    + destruct t as [x|e|]; [contradiction| |]; destruct Hstat as (S1&S2&S3); rewrite S3.
      * destruct (so_on_queue (Err e) so1 F2) as [Q _]. now rewrite Q, F1.
      * rewrite S1. destruct (so_on_queue Done so1 F2) as [Q _]. now rewrite Q, F1.
  - unfold rg_live. destruct (rg_status g); try discriminate.
    destruct Hstat as (S1&S2&S3). rewrite S3, S1. intros _. exact F2.
Qed.

Lemma rupd_other (m : @romap A) o x o2 : o2 <> o -> rupd m o x o2 = m o2.
Proof. intros H. unfold rupd. destruct (Nat.eqb o2 o) eqn:E; [apply Nat.eqb_eq in E; contradiction|reflexivity]. Qed.

End Tree.

Section SchedInv.
Context {A : Type} (sync : bool) (react : nat -> nat -> list (@rop A)) (b : Z) (w : option Z).

Notation sstep := (sstep sync react).
Notation lx := (lx b w).
Notation st_agree := (st_agree b w).

Record SInv (c : @scfg A) : Prop := {
  sinv_st : st_agree (sc_st c) (lg (sc_rlog c));
  sinv_nodup : NoDup (r_observers (sc_st c));
  sinv_dom : forall o, In o (r_observers (sc_st c)) -> sc_obs c o <> None;
  sinv_none : forall o, sc_obs c o = None ->
              subbed o (lops (sc_rlog c)) = false /\ lview o (sc_rlog c) = [] /\
              sinflight o (sc_k c) = [] /\ spend o (sc_k c) = [];
  sinv_some : forall o os, sc_obs c o = Some os ->
              subbed o (lops (sc_rlog c)) = true /\
              exists X', lx (sc_rlog c) o = X' ++ spend o (sc_k c) /\
                         obs_ok (rg_live (lg (sc_rlog c))) (r_observers (sc_st c)) (lview o (sc_rlog c))
                                (sinflight o (sc_k c)) os o X' /\
                         pend_ok os (spend o (sc_k c));
  sinv_clean : sclean (sc_k c);
  sinv_nopend : rg_live (lg (sc_rlog c)) = true -> forall o, spend o (sc_k c) = [] }.

(* the clauses at a configuration that is written out: the projections leave [sc_obs (SCfg ...)] etc. unreduced *)
Lemma sinv_some_l s m k l o os :
  SInv (SCfg s m k l) -> m o = Some os ->
  subbed o (lops l) = true /\
  exists X', lx l o = X' ++ spend o k /\
             obs_ok (rg_live (lg l)) (r_observers s) (lview o l) (sinflight o k) os o X' /\
             pend_ok os (spend o k).
Proof. intros I Hm. exact (sinv_some _ I o os Hm). Qed.

Lemma sinv_none_l s m k l o :
  SInv (SCfg s m k l) -> m o = None ->
  subbed o (lops l) = false /\ lview o l = [] /\ sinflight o k = [] /\ spend o k = [].
Proof. intros I Hm. exact (sinv_none _ I o Hm). Qed.

Lemma sinv_st_l s m k l : SInv (SCfg s m k l) -> st_agree s (lg l).
Proof. intros I. exact (sinv_st _ I). Qed.

(* an operation whose step delivers nothing: what remains to be shown, in terms of the old configuration *)
Lemma sinv_op_generic top p s m k l s' (m' : @romap A) k' (extra : list (@revent A)) :
  SInv (SCfg s m (SIOp top p :: k) l) ->
  (extra = [] \/ exists e, extra = [RERaised e]) ->
  st_agree s' (rg_step (lg l) p) ->
  NoDup (r_observers s') ->
  (forall o, In o (r_observers s') -> m' o <> None) ->
  (forall o, m' o = None -> m o = None /\ is_sub o p = false /\ sinflight o k' = [] /\ spend o k' = []) ->
  (forall o os', m' o = Some os' ->
     (exists os, m o = Some os /\ exists X',
        lx l o ++ rnote (lg l) p = X' ++ spend o k' /\
        obs_ok (rg_live (rg_step (lg l) p)) (r_observers s') (lview o l) (sinflight o k') os' o X' /\
        pend_ok os' (spend o k')) \/
     (m o = None /\ is_sub o p = true /\ exists X',
        rgreet b w (lg l) = X' ++ spend o k' /\
        obs_ok (rg_live (rg_step (lg l) p)) (r_observers s') (lview o l) (sinflight o k') os' o X' /\
        pend_ok os' (spend o k'))) ->
  sclean k' ->
  (rg_live (rg_step (lg l) p) = true -> forall o, spend o k' = []) ->
  SInv (SCfg s' m' k' (extra ++ REOp p :: l)).
Proof.
  intros I Hex Hst Hnd Hdom Hnone Hsome Hclean Hnp.
  assert (Hops : lops (extra ++ REOp p :: l) = lops l ++ [p]).
  { destruct Hex as [->|[e ->]]; cbn [app]; [apply lops_op|rewrite lops_raised; apply lops_op]. }
  assert (Hview : forall o, lview o (extra ++ REOp p :: l) = lview o l).
  { intros o. destruct Hex as [->|[e ->]]; cbn [app]; [apply lview_op|rewrite lview_raised; apply lview_op]. }
  assert (Hlg : lg (extra ++ REOp p :: l) = rg_step (lg l) p).
  { unfold lg. rewrite Hops. apply rg_run_snoc. }
  assert (Hx : forall o, lx (extra ++ REOp p :: l) o =
                         lx l o ++ (if subbed o (lops l) then rnote (lg l) p
                                    else if is_sub o p then rgreet b w (lg l) else [])).
  { intros o. unfold ReplayTreeFacts.lx. rewrite Hops, xview_snoc. reflexivity. }
  constructor; cbn [sc_st sc_obs sc_k sc_rlog].
  - rewrite Hlg. exact Hst.
  - exact Hnd.
  - exact Hdom.
  - intros o Hm. destruct (Hnone o Hm) as (Hm0 & Hsub & Hi & Hp).
    destruct (sinv_none_l _ _ _ _ o I Hm0) as (H1 & H2 & _ & _).
    rewrite Hops, subbed_snoc, H1, Hsub, Hview. auto.
  - intros o os' Hm. rewrite Hview, Hx, Hops, subbed_snoc, Hlg.
    destruct (Hsome o os' Hm) as [[os [Hm0 [X' (E & Hok & Hp)]]]|[Hm0 [Hsub [X' (E & Hok & Hp)]]]].
    + destruct (sinv_some_l _ _ _ _ o os I Hm0) as [H1 _]. rewrite H1. split; [reflexivity|].
      exists X'. auto.
    + destruct (sinv_none_l _ _ _ _ o I Hm0) as (H1 & _ & _ & _). rewrite H1, Hsub. split; [reflexivity|].
      unfold ReplayTreeFacts.lx. rewrite (xview_unsubbed b w o _ _ H1). exists X'. auto.
  - exact Hclean.
  - rewrite Hlg. exact Hnp.
Qed.

(* an operation that changes neither entitlements nor queues, only (possibly) state s and table entries
   in ways the per-observer clause tolerates *)
Lemma sinv_op_simple top p s m k l s' (m' : @romap A) k' extra :
  SInv (SCfg s m (SIOp top p :: k) l) ->
  (extra = [] \/ exists e, extra = [RERaised e]) ->
  ksame k k' -> sclean k' ->
  st_agree s' (rg_step (lg l) p) -> rnote (lg l) p = [] ->
  (forall o, m o = None -> is_sub o p = false) ->
  NoDup (r_observers s') -> (forall o, In o (r_observers s') -> In o (r_observers s)) ->
  (forall o, m' o = None <-> m o = None) ->
  (forall o os os', m o = Some os -> m' o = Some os' ->
     forall X', obs_ok (rg_live (lg l)) (r_observers s) (lview o l) (sinflight o k) os o X' ->
                pend_ok os (spend o k) ->
                obs_ok (rg_live (rg_step (lg l) p)) (r_observers s') (lview o l) (sinflight o k) os' o X' /\
                pend_ok os' (spend o k)) ->
  (rg_live (rg_step (lg l) p) = true -> rg_live (lg l) = true) ->
  SInv (SCfg s' m' k' (extra ++ REOp p :: l)).
Proof.
  intros I Hex Hk Hclean Hst Hn Hsubf Hnd Hsub Hdomeq Hobs Hlive.
  apply (sinv_op_generic top p s m k l s' m' k' extra I Hex Hst Hnd).
  - intros o Hi. intros E. apply Hdomeq in E. exact (sinv_dom _ I o (Hsub o Hi) E).
  - intros o E. apply Hdomeq in E. destruct (sinv_none_l _ _ _ _ o I E) as (_ & _ & Hi & Hp).
    cbn [sinflight spend] in Hi, Hp. destruct (Hk o) as [K1 K2]. rewrite K1, K2. auto.
  - intros o os' Hm'. left. destruct (m o) as [os|] eqn:Hm; [|apply Hdomeq in Hm; congruence].
    exists os. split; [reflexivity|]. destruct (sinv_some_l _ _ _ _ o os I Hm) as [_ [X' (E & Hok & Hp)]].
    cbn [sinflight spend] in E, Hok, Hp. destruct (Hk o) as [K1 K2]. rewrite K1, K2, Hn, app_nil_r.
    exists X'. split; [exact E|]. exact (Hobs o os os' Hm Hm' X' Hok Hp).
  - exact Hclean.
  - intros El o. destruct (Hk o) as [_ K2]. rewrite K2.
    pose proof (sinv_nopend _ I (Hlive El) o) as Hp. cbn [sc_k spend] in Hp. exact Hp.
Qed.

Lemma sinv_op_noop top p s m k l extra :
  SInv (SCfg s m (SIOp top p :: k) l) ->
  (extra = [] \/ exists e, extra = [RERaised e]) ->
  rg_step (lg l) p = lg l -> rnote (lg l) p = [] ->
  (forall o, m o = None -> is_sub o p = false) ->
  SInv (SCfg s m k (extra ++ REOp p :: l)).
Proof.
  intros I Hex Hg Hn Hs.
  apply (sinv_op_simple top p s m k l s m k extra I Hex (ksame_refl k) (sclean_tail _ _ (sinv_clean _ I))).
  - rewrite Hg. exact (sinv_st_l _ _ _ _ I).
  - exact Hn.
  - exact Hs.
  - exact (sinv_nodup _ I).
  - auto.
  - intros o. reflexivity.
  - intros o os os' Hm Hm' X' Hok Hp. rewrite Hm in Hm'. injection Hm' as <-. rewrite Hg. auto.
  - now rewrite Hg.
Qed.

Lemma sinv_unsub top o s m k l :
  SInv (SCfg s m (SIOp top (RUnsub o) :: k) l) -> SInv (sstep_op sync react top (RUnsub o) s m k l).
Proof.
  intros I. cbn [sstep_op].
  assert (Hnoop : SInv (SCfg s m k ([] ++ REOp (RUnsub o) :: l))).
  { apply (sinv_op_noop top); [exact I|now left|reflexivity|apply rnote_unsub|reflexivity]. }
  destruct (m o) as [os|] eqn:Hm; [|exact Hnoop]. destruct (r_handle os); [|exact Hnoop].
  destruct (rado_dispose_spec s os o) as (Hs & Hcore & Hobs).
  destruct (rado_dispose s os o) as [s' os']. cbn [fst snd] in *.
  change (REOp (RUnsub o) :: l) with ([] ++ REOp (RUnsub o) :: l).
  assert (Hsub : forall x, In x (r_observers s') -> In x (r_observers s)).
  { intros x. destruct Hobs as [->| ->]; [tauto|apply In_remove1_weak]. }
  (* o's wrapper stops, so its view only has to stay a prefix, and o may leave the observer list;
     nobody's entitlement or queue moves *)
  apply (sinv_op_simple top (RUnsub o) s m k l s' _ k [] I); [now left|apply ksame_refl|
    exact (sclean_tail _ _ (sinv_clean _ I))| | | | | | | |].
  - cbn [rg_step]. exact (st_agree_same b w s s' _ Hcore (sinv_st_l _ _ _ _ I)).
  - apply rnote_unsub.
  - reflexivity.
  - destruct Hobs as [->| ->]; [exact (sinv_nodup _ I)|apply NoDup_remove1; exact (sinv_nodup _ I)].
  - exact Hsub.
  - intros o2. unfold rupd. destruct (Nat.eqb o2 o) eqn:E; [|tauto].
    apply Nat.eqb_eq in E. subst. split; congruence.
  - intros o2 os2 os2'. unfold rupd. destruct (Nat.eqb o2 o) eqn:E.
    + apply Nat.eqb_eq in E. subst o2. intros Hm2 [= <-] X' Hok Hp. split.
      * eapply obs_ok_stop; [exact Hs|exact Hok].
      * apply pend_ok_stopped; [exact (proj1 Hp)|exact Hs].
    + apply Nat.eqb_neq in E. intros Hm2 Hm2' X' Hok Hp. rewrite Hm2 in Hm2'. injection Hm2' as <-.
      split; [|exact Hp]. eapply obs_ok_weaken; [|exact Hok]. cbn [rg_step]. intros El. split; [exact El|].
      intros Hin. destruct Hobs as [->| ->]; [exact Hin|].
      apply (In_remove1 o _ o2 (sinv_nodup _ I)). split; assumption.
  - cbn [rg_step]. tauto.
Qed.

Lemma sinv_dispose top s m k l :
  SInv (SCfg s m (SIOp top RDispose :: k) l) -> SInv (sstep_op sync react top RDispose s m k l).
Proof.
  intros I. cbn [sstep_op]. change (REOp RDispose :: l) with ([] ++ REOp (@RDispose A) :: l).
  pose proof (sinv_st_l _ _ _ _ I) as (Hb & Hw & Hc & _ & _).
  apply (sinv_op_simple top RDispose s m k l _ m k [] I); [now left|apply ksame_refl|
    exact (sclean_tail _ _ (sinv_clean _ I))| | | | | | | |].
  - cbn [rg_step]. unfold ReplayTreeFacts.st_agree. cbn. split; [exact Hb|]. split; [exact Hw|]. split; [exact Hc|].
    split; [reflexivity|]. intros Hx. congruence.
  - apply rnote_dispose.
  - reflexivity.
  - cbn. constructor.
  - cbn. intros o [].
  - tauto.
  - intros o os os' Hm Hm' X' Hok Hp. rewrite Hm in Hm'. injection Hm' as <-. split; [|exact Hp].
    eapply obs_ok_weaken; [|exact Hok]. cbn. discriminate.
  - cbn. discriminate.
Qed.

Lemma sinv_advance top d s m k l :
  SInv (SCfg s m (SIOp top (RAdvance d) :: k) l) -> SInv (sstep_op sync react top (RAdvance d) s m k l).
Proof.
  intros I. cbn [sstep_op]. destruct (d <? 0) eqn:Ed.
  - change (RERaised out_of_range_exn :: REOp (RAdvance d) :: l)
      with ([RERaised out_of_range_exn] ++ REOp (@RAdvance A d) :: l).
    apply (sinv_op_noop top); [exact I|right; eauto|cbn; now rewrite Ed|apply rnote_advance|reflexivity].
  - change (REOp (RAdvance d) :: l) with ([] ++ REOp (@RAdvance A d) :: l).
    pose proof (sinv_st_l _ _ _ _ I) as (Hb & Hw & Hc & Hstat & Hq).
    assert (Hlive : rg_live (rg_step (lg l) (RAdvance d)) = rg_live (lg l)) by (cbn [rg_step]; now rewrite Ed).
    apply Z.ltb_ge in Ed.
    apply (sinv_op_simple top (RAdvance d) s m k l _ m k [] I); [now left|apply ksame_refl|
      exact (sclean_tail _ _ (sinv_clean _ I))| | | | | | | |].
    + cbn [rg_step]. replace (d <? 0) with false by (symmetry; now apply Z.ltb_ge).
      unfold ReplayTreeFacts.st_agree. cbn. split; [exact Hb|]. split; [exact Hw|]. split; [now rewrite Hc|].
      split; [exact Hstat|]. intros H. apply (qinv_advance b w (r_clock s)); [now apply Hq|lia].
    + apply rnote_advance.
    + reflexivity.
    + exact (sinv_nodup _ I).
    + cbn. tauto.
    + tauto.
    + intros o os os' Hm Hm' X' Hok Hp. rewrite Hm in Hm'. injection Hm' as <-. rewrite Hlive. auto.
    + now rewrite Hlive.
Qed.

Lemma sinv_emit_dead top p s m k l :
  SInv (SCfg s m (SIOp top p :: k) l) ->
  (match p with RNext _ | RErr _ | RDone => True | _ => False end) ->
  (r_disposed s = true \/ r_stopped s = true) ->
  SInv (sstep_op sync react top p s m k l).
Proof.
  intros I Hp Hdead. pose proof (sinv_st_l _ _ _ _ I) as Hst.
  assert (Hl : rg_live (lg l) = false).
  { destruct (r_disposed s) eqn:Hd.
    - unfold rg_live. now rewrite (status_disposed b w _ _ Hst Hd).
    - destruct Hdead as [|Hs]; [discriminate|]. exact (proj1 (status_not_live_stopped b w _ _ Hst Hd Hs)). }
  assert (Hno : forall extra, (extra = [] \/ exists e, extra = [@RERaised A e]) ->
                SInv (SCfg s m k (extra ++ REOp p :: l))).
  { intros extra Hex. apply (sinv_op_noop top); [exact I|exact Hex|now apply rg_step_dead|now apply rnote_dead|].
    intros o _. destruct p; try contradiction; reflexivity. }
  (* the three emissions test the same two flags *)
  destruct p; try contradiction; cbn [sstep_op];
    (destruct (r_disposed s); [apply (Hno [RERaised disposed_exn]); right; eauto|]);
    destruct Hdead as [|Hs]; try discriminate; rewrite Hs; apply (Hno []); now left.
Qed.

Lemma sinv_sub_fresh top o s m k l :
  SInv (SCfg s m (SIOp top (RSub o) :: k) l) -> m o = None -> r_disposed s = false ->
  SInv (sstep_op sync react top (RSub o) s m k l).
Proof.
  intros I Hm Hd. cbn [sstep_op]. rewrite Hm, Hd.
  destruct (greet_so_spec b w s (lg l) o (sinv_st_l _ _ _ _ I) Hd) as (Hst2 & Hso2 & Hlive2).
  set (s2 := with_observers (r_observers (trim s) ++ [o]) (trim s)) in *.
  fold (greet_so s2).
  pose proof (ensure_active_core o s2 (greet_so s2)) as Hcore.
  pose proof (ensure_active_so o s2 (greet_so s2)) as [Hq3 Hs3].
  destruct (ensure_active o s2 (greet_so s2)) as [s3 so3]. cbn [fst snd] in *.
  destruct Hcore as [Hobs3 Hcore3].
  assert (Hobs : r_observers s3 = r_observers s ++ [o]) by (rewrite Hobs3; reflexivity).
  destruct (sinv_none_l _ _ _ _ o I Hm) as (_ & Hv & Hi & Hpd). cbn [sinflight spend] in Hi, Hpd.
  (* o's entitlement starts as [rgreet], which is the queue of [greet_so]; the continuations of the two
     scheduler modes differ by instructions that carry nothing *)
  assert (Hgen : forall hd k', ksame k k' -> sclean k' ->
            SInv (SCfg s3 (rupd m o (ROState false false true hd 0 so3)) k' ([] ++ REOp (RSub o) :: l))).
  { intros hd k' Hk Hclean.
    apply (sinv_op_generic top (RSub o) s m k l s3 _ k' [] I); [now left| | | | | |exact Hclean|].
    - cbn [rg_step]. exact (st_agree_same b w s2 s3 _ Hcore3 Hst2).
    - rewrite Hobs. apply NoDup_app_single; [exact (sinv_nodup _ I)|].
      intros Hin. exact (sinv_dom _ I o Hin Hm).
    - intros o2. rewrite Hobs. intros Hin. unfold rupd. destruct (Nat.eqb o2 o) eqn:E; [discriminate|].
      apply in_app_or in Hin. destruct Hin as [Hin|[<-|[]]]; [exact (sinv_dom _ I o2 Hin)|].
      rewrite Nat.eqb_refl in E. discriminate.
    - intros o2. unfold rupd. destruct (Nat.eqb o2 o) eqn:E; [discriminate|]. intros H2.
      destruct (sinv_none_l _ _ _ _ o2 I H2) as (_ & _ & Hi2 & Hp2). cbn [sinflight spend] in Hi2, Hp2.
      destruct (Hk o2) as [K1 K2]. rewrite K1, K2. split; [exact H2|]. split; [|auto].
      cbn [is_sub]. now rewrite Nat.eqb_sym.
    - intros o2 os'. destruct (Hk o2) as [K1 K2]. rewrite K1, K2. unfold rupd. destruct (Nat.eqb o2 o) eqn:E.
      + apply Nat.eqb_eq in E. subst o2. intros [= <-]. right. split; [exact Hm|]. split; [cbn; apply Nat.eqb_refl|].
        exists (rgreet b w (lg l)). rewrite Hpd, app_nil_r, Hv, Hi. split; [reflexivity|]. split.
        * unfold obs_ok. cbn [ra_stopped r_so app rg_step]. rewrite Hq3, Hso2. split; [reflexivity|].
          intros El. split; [rewrite Hobs; apply in_or_app; right; now left|]. rewrite Hs3. now apply Hlive2.
        * split; [cbn; lia|]. intros H. congruence.
      + intros H2. left. exists os'. split; [exact H2|]. rewrite rnote_sub, app_nil_r.
        destruct (sinv_some_l _ _ _ _ o2 os' I H2) as [_ [X' (EX & Hok & Hp)]]. cbn [sinflight spend] in EX, Hok, Hp.
        exists X'. split; [exact EX|]. split; [|exact Hp].
        eapply obs_ok_weaken; [|exact Hok]. cbn [rg_step]. intros El. split; [exact El|].
        rewrite Hobs. intros Hin. apply in_or_app. now left.
    - cbn [rg_step]. intros El o2. destruct (Hk o2) as [_ K2]. rewrite K2.
      pose proof (sinv_nopend _ I El o2) as Hp. cbn [sc_k spend] in Hp. exact Hp. }
  destruct (inl sync top) eqn:Ei.
  - apply (Hgen false (SIDrain :: SIHandle o :: k)); [intros o2; split; reflexivity|].
    pose proof (sclean_drain_handle sync top (RSub o) o k (sinv_clean _ I)) as Hc2.
    unfold drain_if in Hc2. rewrite Ei in Hc2. exact Hc2.
  - apply (Hgen true k); [apply ksame_refl|exact (sclean_tail _ _ (sinv_clean _ I))].
Qed.

Lemma sinv_sub_disposed top o s m k l :
  SInv (SCfg s m (SIOp top (RSub o) :: k) l) -> m o = None -> r_disposed s = true ->
  SInv (sstep_op sync react top (RSub o) s m k l).
Proof.
  intros I Hm Hd. cbn [sstep_op]. rewrite Hm, Hd.
  pose proof (sinv_st_l _ _ _ _ I) as Hst. pose proof (status_disposed b w _ _ Hst Hd) as Hg.
  destruct (sinv_none_l _ _ _ _ o I Hm) as (Hsb & Hv & Hi & Hpd). cbn [sinflight spend] in Hi, Hpd.
  assert (Hk : ksame k (map (SIOp false) (react o 0) ++ drain_if sync top (SIHandle o :: k))).
  { intros o2. rewrite sinflight_app, spend_app, sinflight_ops, spend_ops. cbn [app].
    unfold drain_if. destruct (inl sync top); split; reflexivity. }
  assert (Hlg : lg (REGot o (Err disposed_exn) :: REOp (RSub o) :: l) = lg l).
  { unfold lg. rewrite lops_got, lops_op, rg_run_snoc. reflexivity. }
  (* the subscriber is told Err disposed_exn at once by a wrapper that is born stopped: that one
     notification is its whole entitlement *)
  constructor; cbn [sc_st sc_obs sc_k sc_rlog].
  - rewrite Hlg. exact Hst.
  - exact (sinv_nodup _ I).
  - intros o2 Hin. unfold rupd. destruct (Nat.eqb o2 o); [discriminate|]. exact (sinv_dom _ I o2 Hin).
  - intros o2. unfold rupd. destruct (Nat.eqb o2 o) eqn:E; [discriminate|]. intros H2.
    destruct (sinv_none_l _ _ _ _ o2 I H2) as (H1 & H3 & H4 & H5). cbn [sinflight spend] in H4, H5.
    destruct (Hk o2) as [K1 K2]. rewrite K1, K2.
    rewrite lops_got, lops_op, subbed_snoc, H1, lview_got, lview_op, H3. cbn [is_sub].
    rewrite (Nat.eqb_sym o o2), E. auto.
  - intros o2 os'. destruct (Hk o2) as [K1 K2]. rewrite K1, K2, Hlg.
    unfold ReplayTreeFacts.lx. rewrite lops_got, lops_op, subbed_snoc, lview_got, lview_op, xview_snoc.
    cbn [orb is_sub]. fold (lg l). fold (lx l o2).
    unfold rupd. destruct (Nat.eqb o2 o) eqn:E.
    + apply Nat.eqb_eq in E. subst o2. intros [= <-]. rewrite Hsb, Nat.eqb_refl. split; [reflexivity|].
      exists [Err disposed_exn]. rewrite Hpd, app_nil_r. unfold ReplayTreeFacts.lx. rewrite (xview_unsubbed b w o _ _ Hsb).
      unfold rgreet. rewrite Hg. split; [reflexivity|]. split.
      * unfold obs_ok. cbn [ra_stopped rcalled fresh_rostate orb]. rewrite Hv. apply prefix_refl.
      * apply pend_ok_stopped; [cbn; lia|reflexivity].
    + intros H2. destruct (sinv_some_l _ _ _ _ o2 os' I H2) as [H1 [X' (EX & Hok & Hp)]].
      cbn [sinflight spend] in EX, Hok, Hp. rewrite H1. cbn [orb]. split; [reflexivity|].
      rewrite rnote_sub, !app_nil_r. rewrite (Nat.eqb_sym o o2), E, app_nil_r. exists X'. auto.
  - apply sclean_push.
    + intros o2. apply sinflight_ops.
    + exact (sclean_drain_handle sync top (RSub o) o k (sinv_clean _ I)).
    + intros [i [Hin Ht]]. apply in_map_iff in Hin. destruct Hin as [x [<- _]]. discriminate.
  - rewrite Hlg. intros El. unfold rg_live in El. rewrite Hg in El. discriminate.
Qed.

Lemma sinv_sub top o s m k l :
  SInv (SCfg s m (SIOp top (RSub o) :: k) l) -> SInv (sstep_op sync react top (RSub o) s m k l).
Proof.
  intros I. destruct (m o) as [os|] eqn:Hm.
  - cbn [sstep_op]. rewrite Hm.
    change (REOp (RSub o) :: l) with ([] ++ REOp (RSub o) :: l).
    apply (sinv_op_noop top); [exact I|now left|reflexivity|apply rnote_sub|].
    intros o2 H2. cbn [is_sub]. destruct (Nat.eqb o o2) eqn:E; [|reflexivity].
    apply Nat.eqb_eq in E. subst. congruence.
  - destruct (r_disposed s) eqn:Hd; [now apply sinv_sub_disposed|now apply sinv_sub_fresh].
Qed.

Lemma sinv_next_live top v s m k l :
  SInv (SCfg s m (SIOp top (RNext v) :: k) l) -> r_disposed s = false -> r_stopped s = false ->
  SInv (sstep_op sync react top (RNext v) s m k l).
Proof.
  intros I Hd Hs. cbn [sstep_op]. rewrite Hd, Hs.
  pose proof (sinv_st_l _ _ _ _ I) as Hst. pose proof (status_live b w _ _ Hst Hd Hs) as Hg.
  pose proof (live_status _ Hg) as Hl.
  destruct Hst as (Hb & Hw & Hc & Hstat & Hq). rewrite Hg in Hstat. specialize (Hq ltac:(congruence)).
  set (s1 := trim (with_queue (r_queue s ++ [(r_clock s, v)]) s)).
  assert (Hdom : forall o, In o (r_observers s) -> m o <> None) by exact (sinv_dom _ I).
  destruct (so_each_spec (fun _ s so => (s, so_on (Next v) so)) (fun so so' => so' = so_on (Next v) so)
              (fun _ s _ => same_core_refl s) (fun _ _ _ => eq_refl)
              (r_observers s) s1 m (sinv_nodup _ I) Hdom) as (A1 & A2 & A3).
  destruct (so_each (fun _ s so => (s, so_on (Next v) so)) (r_observers s) s1 m) as [s2 m2]. cbn [fst snd] in *.
  destruct A1 as [Hobs Hcore].
  assert (Hnp : forall o, spend o k = []).
  { intros o. pose proof (sinv_nopend _ I Hl o) as Hp. cbn [sc_k spend] in Hp. exact Hp. }
  assert (Hk : ksame k (map (SIEnsure top) (r_observers s) ++ k)).
  { intros o. rewrite sinflight_app, spend_app, sinflight_ensures, spend_ensures. split; reflexivity. }
  assert (Hlive' : rg_live (rg_step (lg l) (RNext v)) = true) by (cbn [rg_step]; rewrite Hl; reflexivity).
  change (REOp (RNext v) :: l) with ([] ++ REOp (RNext v) :: l).
  (* queue and entitlement of every registered observer grow by the same [Next v]; a live subject has no
     terminal pending ([sinv_nopend]) that the value could overtake *)
  apply (sinv_op_generic top (RNext v) s m k l s2 m2 _ [] I); [now left| | | | | | |].
  - cbn [rg_step]. rewrite Hl. apply (st_agree_same b w s1 s2 _ Hcore).
    apply st_agree_trim. unfold ReplayTreeFacts.st_agree. cbn.
    split; [exact Hb|]. split; [exact Hw|]. split; [exact Hc|]. split; [exact Hstat|].
    intros _. rewrite <- Hc. apply qinv_append. exact Hq.
  - rewrite Hobs. exact (sinv_nodup _ I).
  - rewrite Hobs. cbn. intros o Hi. destruct (m o) as [os|] eqn:E; [|exfalso; exact (Hdom o Hi E)].
    destruct (A3 o os Hi E) as [so' [-> _]]. discriminate.
  - intros o Hm2. destruct (in_dec Nat.eq_dec o (r_observers s)) as [Hi|Hni].
    + destruct (m o) as [os|] eqn:E; [|exfalso; exact (Hdom o Hi E)].
      destruct (A3 o os Hi E) as [so' [E2 _]]. congruence.
    + rewrite (A2 o Hni) in Hm2. destruct (sinv_none_l _ _ _ _ o I Hm2) as (_ & _ & Hi2 & Hp2).
      cbn [sinflight spend] in Hi2, Hp2. destruct (Hk o) as [K1 K2]. rewrite K1, K2. auto.
  - intros o os2 Hm2. left. destruct (Hk o) as [K1 K2]. rewrite K1, K2, (Hnp o).
    assert (Hrn : rnote (lg l) (RNext v) = [Next v]) by (unfold rnote; now rewrite Hl). rewrite Hrn.
    assert (Hold : forall os, m o = Some os ->
              obs_ok true (r_observers s) (lview o l) (sinflight o k) os o (lx l o)).
    { intros os Hm. destruct (sinv_some_l _ _ _ _ o os I Hm) as [_ [X' (EX & Hok & _)]].
      cbn [sinflight spend] in EX, Hok. rewrite (Hnp o), app_nil_r in EX. rewrite EX, <- Hl. exact Hok. }
    destruct (in_dec Nat.eq_dec o (r_observers s)) as [Hi|Hni].
    + destruct (m o) as [os|] eqn:Hm; [|exfalso; exact (Hdom o Hi Hm)].
      destruct (A3 o os Hi Hm) as [so' [E2 ->]]. rewrite E2 in Hm2. injection Hm2 as <-.
      exists os. split; [reflexivity|]. exists (lx l o ++ [Next v]). split; [now rewrite app_nil_r|]. split; [|apply pend_ok_nil].
      apply (obs_ok_emit _ (r_observers s) (r_observers s2) _ _ os _ o _ (Next v) (Hold os eq_refl));
        cbn [set_so ra_stopped r_so].
      * reflexivity.
      * intros _. split; reflexivity.
      * intros _. split; [reflexivity|]. rewrite Hobs. cbn. tauto.
    + rewrite (A2 o Hni) in Hm2. exists os2. split; [exact Hm2|]. exists (lx l o ++ [Next v]).
      split; [now rewrite app_nil_r|]. split; [|apply pend_ok_nil].
      apply (obs_ok_emit _ (r_observers s) (r_observers s2) _ _ os2 os2 o _ (Next v) (Hold os2 Hm2)).
      * reflexivity.
      * intros Hi. contradiction.
      * intros _. split; [reflexivity|]. rewrite Hobs. cbn. tauto.
  - apply (sclean_push_top top (RNext v)); [exact (sinv_clean _ I)|intros o; apply sinflight_ensures|].
    intros i Hin. apply in_map_iff in Hin. destruct Hin as [x [<- _]]. reflexivity.
  - intros _ o. destruct (Hk o) as [_ K2]. rewrite K2. apply Hnp.
Qed.

Lemma sinv_final_live top p (t : ev A) s m k l :
  SInv (SCfg s m (SIOp top p :: k) l) -> r_disposed s = false -> r_stopped s = false ->
  ((exists e, p = RErr e /\ t = Err e) \/ (p = RDone /\ t = Done)) ->
  SInv (sstep_op sync react top p s m k l).
Proof.
  intros I Hd Hs Hp.
  pose proof (sinv_st_l _ _ _ _ I) as Hst. pose proof (status_live b w _ _ Hst Hd Hs) as Hg.
  pose proof (live_status _ Hg) as Hl.
  destruct Hst as (Hb & Hw & Hc & Hstat & Hq). rewrite Hg in Hstat. specialize (Hq ltac:(congruence)).
  destruct Hstat as (_ & _ & Hex).
  assert (Hdom : forall o, In o (r_observers s) -> m o <> None) by exact (sinv_dom _ I).
  set (s1 := match t with
             | Err e => trim (with_exception (Some e) (with_observers [] (with_stopped true s)))
             | _ => trim (with_observers [] (with_stopped true s)) end).
  set (k' := map (fun o => SIOnEnsure top o t) (r_observers s) ++ k).
  assert (Hstep : sstep_op sync react top p s m k l = SCfg s1 m k' ([] ++ REOp p :: l)).
  { unfold s1, k'. destruct Hp as [[e [-> ->]]|[-> ->]]; cbn [sstep_op]; rewrite Hd, Hs; reflexivity. }
  rewrite Hstep. clear Hstep.
  assert (Hnp : forall o, spend o k = []).
  { intros o. pose proof (sinv_nopend _ I Hl o) as Hpp. cbn [sc_k spend] in Hpp. exact Hpp. }
  assert (Hinf : forall o, sinflight o k' = sinflight o k).
  { intros o. unfold k'. now rewrite sinflight_app, sinflight_onensures. }
  assert (Hpd : forall o, spend o k' = if mem o (r_observers s) then [t] else []).
  { intros o. unfold k'. rewrite spend_app, (spend_onensures o top t (r_observers s) (sinv_nodup _ I)), (Hnp o). apply app_nil_r. }
  assert (Hobs1 : r_observers s1 = []) by (unfold s1; destruct t; reflexivity).
  assert (Hdead : rg_live (rg_step (lg l) p) = false).
  { destruct Hp as [[e [-> _]]|[-> _]]; cbn [rg_step]; rewrite Hl; reflexivity. }
  assert (Hrn : rnote (lg l) p = [t]).
  { unfold rnote. rewrite Hl. destruct Hp as [[e [-> ->]]|[-> ->]]; reflexivity. }
  (* the terminal is not queued yet: it is pending in the SIOnEnsure row ([spend]) for every registered
     observer, whose entitlement splits as lx ++ [t]; an observer that is not registered has a stopped wrapper *)
  apply (sinv_op_generic top p s m k l s1 m k' [] I); [now left| | | | | | |].
  - (* on_error and on_completed leave the same state but for the exception *)
    destruct Hp as [[e [-> ->]]|[-> ->]]; cbn [rg_step]; rewrite Hl; apply st_agree_trim;
      unfold ReplayTreeFacts.st_agree; cbn;
      (split; [exact Hb|]); (split; [exact Hw|]); (split; [exact Hc|]); (split; [repeat split; assumption|]);
      intros _; exact Hq.
  - rewrite Hobs1. constructor.
  - rewrite Hobs1. intros o [].
  - intros o Hm. destruct (sinv_none_l _ _ _ _ o I Hm) as (_ & _ & Hi2 & _). cbn [sinflight] in Hi2.
    rewrite Hinf, Hpd. split; [exact Hm|]. split; [destruct Hp as [[e [-> _]]|[-> _]]; reflexivity|].
    split; [exact Hi2|]. replace (mem o (r_observers s)) with false; [reflexivity|].
    symmetry. apply mem_false. intros Hin. exact (Hdom o Hin Hm).
  - intros o os Hm. left. exists os. split; [exact Hm|]. rewrite Hinf, Hpd, Hrn, Hdead.
    destruct (sinv_some_l _ _ _ _ o os I Hm) as [_ [X' (EX & Hok & _)]].
    cbn [sinflight spend] in EX, Hok. rewrite (Hnp o), app_nil_r in EX. subst X'. rewrite Hl in Hok.
    destruct (mem o (r_observers s)) eqn:Em.
    + exists (lx l o). split; [reflexivity|]. split.
      * eapply obs_ok_weaken; [|exact Hok]. discriminate.
      * split; [cbn; lia|]. intros _ Hra. unfold obs_ok in Hok. rewrite Hra in Hok.
        destruct Hok as [_ H2]. exact (proj2 (H2 eq_refl)).
    + exists (lx l o ++ [t]). split; [now rewrite app_nil_r|]. split; [|apply pend_ok_nil].
      unfold obs_ok in *. destruct (ra_stopped os); [now apply prefix_app_r|].
      destruct Hok as [_ H2]. destruct (H2 eq_refl) as [Hin _]. apply mem_In in Hin. congruence.
  - unfold k'. apply (sclean_push_top top p); [exact (sinv_clean _ I)|intros o; apply sinflight_onensures|].
    intros i Hin. apply in_map_iff in Hin. destruct Hin as [x [<- _]]. reflexivity.
  - rewrite Hdead. discriminate.
Qed.

Theorem sstep_op_inv top p s m k l :
  SInv (SCfg s m (SIOp top p :: k) l) -> SInv (sstep_op sync react top p s m k l).
Proof.
  intros I. destruct p as [o|o|v|e| | |d].
  - now apply sinv_sub.
  - now apply sinv_unsub.
  - destruct (r_disposed s) eqn:Hd; [apply sinv_emit_dead; [exact I|constructor|now left]|].
    destruct (r_stopped s) eqn:Hs; [apply sinv_emit_dead; [exact I|constructor|now right]|].
    now apply sinv_next_live.
  - destruct (r_disposed s) eqn:Hd; [apply sinv_emit_dead; [exact I|constructor|now left]|].
    destruct (r_stopped s) eqn:Hs; [apply sinv_emit_dead; [exact I|constructor|now right]|].
    apply (sinv_final_live top (RErr e) (Err e)); try assumption. left. eauto.
  - destruct (r_disposed s) eqn:Hd; [apply sinv_emit_dead; [exact I|constructor|now left]|].
    destruct (r_stopped s) eqn:Hs; [apply sinv_emit_dead; [exact I|constructor|now right]|].
    apply (sinv_final_live top RDone Done); try assumption. right. split; reflexivity.
  - now apply sinv_dispose.
  - now apply sinv_advance.
Qed.

(* the same for an instruction that does not start an operation: calls and entitlements stay *)
Lemma sinv_instr_generic s m i k l s' (m' : @romap A) k' (extra : list (@revent A)) :
  SInv (SCfg s m (i :: k) l) ->
  lops (extra ++ l) = lops l ->
  same_but_obs s s' -> NoDup (r_observers s') ->
  (forall o, In o (r_observers s') -> m' o <> None) ->
  (forall o, m' o = None ->
     m o = None /\ lview o (extra ++ l) = lview o l /\
     sinflight o k' = sinflight o (i :: k) /\ spend o k' = spend o (i :: k)) ->
  (forall o os', m' o = Some os' -> exists os, m o = Some os /\
     forall X', lx l o = X' ++ spend o (i :: k) ->
       obs_ok (rg_live (lg l)) (r_observers s) (lview o l) (sinflight o (i :: k)) os o X' ->
       pend_ok os (spend o (i :: k)) ->
       exists X'', lx l o = X'' ++ spend o k' /\
         obs_ok (rg_live (lg l)) (r_observers s') (lview o (extra ++ l)) (sinflight o k') os' o X'' /\
         pend_ok os' (spend o k')) ->
  sclean k' ->
  (rg_live (lg l) = true -> forall o, spend o k' = []) ->
  SInv (SCfg s' m' k' (extra ++ l)).
Proof.
  intros I Hops Hcore Hnd Hdom Hnone Hsome Hclean Hnp.
  assert (Hlg : lg (extra ++ l) = lg l) by (unfold lg; now rewrite Hops).
  assert (Hx : forall o, lx (extra ++ l) o = lx l o) by (intros o; unfold ReplayTreeFacts.lx; now rewrite Hops).
  constructor; cbn [sc_st sc_obs sc_k sc_rlog].
  - rewrite Hlg. exact (st_agree_same b w s s' _ Hcore (sinv_st_l _ _ _ _ I)).
  - exact Hnd.
  - exact Hdom.
  - intros o Hm. destruct (Hnone o Hm) as (Hm0 & Hv & Hi & Hp).
    destruct (sinv_none_l _ _ _ _ o I Hm0) as (H1 & H2 & H3 & H4).
    rewrite Hops, Hv, Hi, Hp. auto.
  - intros o os' Hm. destruct (Hsome o os' Hm) as [os [Hm0 Himp]].
    destruct (sinv_some_l _ _ _ _ o os I Hm0) as [H1 [X' (EX & Hok & Hp)]].
    rewrite Hops, Hx, Hlg. split; [exact H1|]. exact (Himp X' EX Hok Hp).
  - exact Hclean.
  - rewrite Hlg. exact Hnp.
Qed.

(* the common case: only observer o's table entry changes, the continuation keeps
   its pending deliveries and terminals *)
Lemma sinv_instr_one s m i k l s' k' o os os' :
  SInv (SCfg s m (i :: k) l) ->
  ksame (i :: k) k' -> sclean k' ->
  same_but_obs s s' -> NoDup (r_observers s') ->
  (forall x, In x (r_observers s') -> In x (r_observers s)) ->
  m o = Some os ->
  (forall X', obs_ok (rg_live (lg l)) (r_observers s) (lview o l) (sinflight o (i :: k)) os o X' ->
              pend_ok os (spend o (i :: k)) ->
              obs_ok (rg_live (lg l)) (r_observers s') (lview o l) (sinflight o (i :: k)) os' o X' /\
              pend_ok os' (spend o (i :: k))) ->
  (forall o2 os2 X', o2 <> o -> m o2 = Some os2 ->
     obs_ok (rg_live (lg l)) (r_observers s) (lview o2 l) (sinflight o2 (i :: k)) os2 o2 X' ->
     obs_ok (rg_live (lg l)) (r_observers s') (lview o2 l) (sinflight o2 (i :: k)) os2 o2 X') ->
  SInv (SCfg s' (rupd m o os') k' l).
Proof.
  intros I Hk Hclean Hcore Hnd Hsub Hm Hself Hother.
  apply (sinv_instr_generic s m i k l s' _ k' [] I); try reflexivity; try assumption.
  - intros x Hi. unfold rupd. destruct (Nat.eqb x o); [discriminate|]. exact (sinv_dom _ I x (Hsub x Hi)).
  - intros x. unfold rupd. destruct (Nat.eqb x o); [discriminate|]. intros Hx.
    destruct (Hk x) as [K1 K2]. auto.
  - intros x osx. destruct (Hk x) as [K1 K2]. rewrite K1, K2. cbn [app]. unfold rupd.
    destruct (Nat.eqb x o) eqn:E.
    + apply Nat.eqb_eq in E. subst x. intros [= <-]. exists os. split; [exact Hm|].
      intros X' EX Hok Hp. exists X'. split; [exact EX|]. exact (Hself X' Hok Hp).
    + apply Nat.eqb_neq in E. intros Hx. exists osx. split; [exact Hx|].
      intros X' EX Hok Hp. exists X'. split; [exact EX|]. split; [|exact Hp]. exact (Hother x osx X' E Hx Hok).
  - intros El x. destruct (Hk x) as [_ K2]. rewrite K2. exact (sinv_nopend _ I El x).
Qed.

(* nothing changes but the continuation *)
Lemma sinv_instr_skip s m i k l s' k' :
  SInv (SCfg s m (i :: k) l) -> ksame (i :: k) k' -> sclean k' ->
  same_but_obs s s' -> r_observers s' = r_observers s ->
  SInv (SCfg s' m k' l).
Proof.
  intros I Hk Hclean Hcore Hobs.
  apply (sinv_instr_generic s m i k l s' m k' [] I); try reflexivity; try assumption.
  - rewrite Hobs. exact (sinv_nodup _ I).
  - rewrite Hobs. exact (sinv_dom _ I).
  - intros x Hx. destruct (Hk x) as [K1 K2]. auto.
  - intros x osx Hx. destruct (Hk x) as [K1 K2]. rewrite K1, K2, Hobs. cbn [app]. exists osx. split; [exact Hx|].
    intros X' EX Hok Hp. exists X'. auto.
  - intros El x. destruct (Hk x) as [_ K2]. rewrite K2. exact (sinv_nopend _ I El x).
Qed.

Lemma sinv_resched o s m k l :
  SInv (SCfg s m (SIResched o :: k) l) -> SInv (sstep (SCfg s m (SIResched o :: k) l)).
Proof.
  intros I. cbn [ReplaySched.sstep sc_k sc_st sc_obs sc_rlog].
  apply (sinv_instr_skip s m (SIResched o) k l); [exact I|intros x; split; reflexivity|
    exact (sclean_tail _ _ (sinv_clean _ I))|repeat split|reflexivity].
Qed.

Lemma sinv_handle o s m k l :
  SInv (SCfg s m (SIHandle o :: k) l) -> SInv (sstep (SCfg s m (SIHandle o :: k) l)).
Proof.
  intros I. cbn [ReplaySched.sstep sc_k sc_st sc_obs sc_rlog].
  destruct (m o) as [os|] eqn:Hm.
  - apply (sinv_instr_one s m (SIHandle o) k l s k o os); [exact I|intros x; split; reflexivity|
      exact (sclean_tail _ _ (sinv_clean _ I))|apply same_but_obs_refl|exact (sinv_nodup _ I)|tauto|exact Hm| |tauto].
    intros X' Hok Hp. split; [eapply obs_ok_ext; [| | |exact Hok]; reflexivity|].
    eapply pend_ok_ext; [| |exact Hp]; cbn; tauto.
  - apply (sinv_instr_skip s m (SIHandle o) k l); [exact I|intros x; split; reflexivity|
      exact (sclean_tail _ _ (sinv_clean _ I))|apply same_but_obs_refl|reflexivity].
Qed.

Lemma sinv_adofin o s m k l :
  SInv (SCfg s m (SIAdoFin o :: k) l) -> SInv (sstep (SCfg s m (SIAdoFin o :: k) l)).
Proof.
  intros I. cbn [ReplaySched.sstep sc_k sc_st sc_obs sc_rlog].
  destruct (m o) as [os|] eqn:Hm.
  - destruct (rado_dispose_spec s os o) as (Hs & Hcore & Hobs).
    destruct (rado_dispose s os o) as [s' os']. cbn [fst snd] in *.
    assert (Hsub : forall x, In x (r_observers s') -> In x (r_observers s)).
    { intros x. destruct Hobs as [->| ->]; [tauto|apply In_remove1_weak]. }
    apply (sinv_instr_one s m (SIAdoFin o) k l s' k o os); [exact I|intros x; split; reflexivity|
      exact (sclean_tail _ _ (sinv_clean _ I))|exact Hcore| |exact Hsub|exact Hm| |].
    + destruct Hobs as [->| ->]; [exact (sinv_nodup _ I)|apply NoDup_remove1; exact (sinv_nodup _ I)].
    + intros X' Hok Hp. split; [eapply obs_ok_stop; [exact Hs|exact Hok]|].
      apply pend_ok_stopped; [exact (proj1 Hp)|exact Hs].
    + intros o2 os2 X' Hne Hm2 Hok. eapply obs_ok_weaken; [|exact Hok]. intros El. split; [exact El|].
      intros Hin. destruct Hobs as [->| ->]; [exact Hin|].
      apply (In_remove1 o _ o2 (sinv_nodup _ I)). split; assumption.
  - apply (sinv_instr_skip s m (SIAdoFin o) k l); [exact I|intros x; split; reflexivity|
      exact (sclean_tail _ _ (sinv_clean _ I))|apply same_but_obs_refl|reflexivity].
Qed.

Lemma sinv_ensure top o s m k l :
  SInv (SCfg s m (SIEnsure top o :: k) l) -> SInv (sstep (SCfg s m (SIEnsure top o :: k) l)).
Proof.
  intros I. cbn [ReplaySched.sstep sc_k sc_st sc_obs sc_rlog].
  destruct (m o) as [os|] eqn:Hm.
  - pose proof (ensure_active_core o s (r_so os)) as [Hobs Hcore].
    pose proof (ensure_active_so o s (r_so os)) as [Hq Hst].
    destruct (ensure_active o s (r_so os)) as [s' so']. cbn [fst snd] in *.
    apply (sinv_instr_one s m (SIEnsure top o) k l s' _ o os); [exact I| | |exact Hcore| | |exact Hm| |].
    + intros x. destruct (ksame_drain_if sync top k x) as [K1 K2]. split; assumption.
    + apply (sclean_drain_if sync top (SIEnsure top o)); [exact (sinv_clean _ I)|reflexivity].
    + rewrite Hobs. exact (sinv_nodup _ I).
    + rewrite Hobs. tauto.
    + intros X' Hok Hp. rewrite Hobs. split.
      * eapply obs_ok_ext; [| | |exact Hok]; cbn [set_so ra_stopped r_so]; [reflexivity|exact Hq|exact Hst].
      * eapply pend_ok_ext; [| |exact Hp]; cbn [set_so ra_stopped r_so]; [tauto|congruence].
    + intros o2 os2 X' _ _ Hok. rewrite Hobs. exact Hok.
  - apply (sinv_instr_skip s m (SIEnsure top o) k l); [exact I|intros x; split; reflexivity|
      exact (sclean_tail _ _ (sinv_clean _ I))|apply same_but_obs_refl|reflexivity].
Qed.

Lemma sinv_onensure top o t s m k l :
  SInv (SCfg s m (SIOnEnsure top o t :: k) l) -> SInv (sstep (SCfg s m (SIOnEnsure top o t :: k) l)).
Proof.
  intros I. cbn [ReplaySched.sstep sc_k sc_st sc_obs sc_rlog].
  destruct (m o) as [os|] eqn:Hm;
    [|exfalso; destruct (sinv_none_l _ _ _ _ o I Hm) as (_ & _ & _ & Hp);
      rewrite spend_onensure_same in Hp; discriminate].
  pose proof (ensure_active_core o s (so_on t (r_so os))) as [Hobs Hcore].
  pose proof (ensure_active_so o s (so_on t (r_so os))) as [Hq Hst].
  destruct (ensure_active o s (so_on t (r_so os))) as [s' so']. cbn [fst snd] in *.
  assert (Hk : forall x, sinflight x (drain_if sync top k) = sinflight x k /\
                         spend x (drain_if sync top k) = spend x k).
  { intros x. exact (ksame_drain_if sync top k x). }
  assert (Hdead : rg_live (lg l) = false).
  { destruct (rg_live (lg l)) eqn:El; [|reflexivity]. pose proof (sinv_nopend _ I El o) as Hp.
    cbn [sc_k] in Hp. rewrite spend_onensure_same in Hp. discriminate. }
  (* the pending terminal moves from [spend] to the end of o's queue, which still accepts it ([pend_ok]) *)
  apply (sinv_instr_generic s m (SIOnEnsure top o t) k l s' _ _ [] I); try reflexivity.
  - exact Hcore.
  - rewrite Hobs. exact (sinv_nodup _ I).
  - rewrite Hobs. intros x Hi. unfold rupd. destruct (Nat.eqb x o); [discriminate|]. exact (sinv_dom _ I x Hi).
  - intros x. unfold rupd. destruct (Nat.eqb x o) eqn:E; [discriminate|]. apply Nat.eqb_neq in E. intros Hx.
    destruct (Hk x) as [K1 K2]. rewrite K1, K2, (spend_onensure_other top o x t k E). auto.
  - intros x osx. destruct (Hk x) as [K1 K2]. rewrite K1, K2, Hobs. cbn [app sinflight]. unfold rupd.
    destruct (Nat.eqb x o) eqn:E.
    + apply Nat.eqb_eq in E. subst x. intros [= <-]. exists os. split; [exact Hm|].
      rewrite spend_onensure_same. intros X' EX Hok [Hlen Hps].
      assert (Hnil : spend o k = []) by (destruct (spend o k); [reflexivity|cbn in Hlen; lia]).
      exists (X' ++ [t]). split; [rewrite EX, <- app_assoc; reflexivity|]. split; [|rewrite Hnil; apply pend_ok_nil].
      unfold obs_ok in *. cbn [set_so ra_stopped r_so]. destruct (ra_stopped os) eqn:Era; [now apply prefix_app_r|].
      destruct Hok as [H1 _]. specialize (Hps ltac:(discriminate) eq_refl).
      destruct (so_on_queue t _ Hps) as [Q1 _]. rewrite Hq, Q1, Hdead.
      split; [|discriminate]. rewrite <- H1, <- !app_assoc. reflexivity.
    + apply Nat.eqb_neq in E. rewrite (spend_onensure_other top o x t k E). intros Hx. exists osx.
      split; [exact Hx|]. intros X' EX Hok Hp. exists X'. auto.
  - apply (sclean_drain_if sync top (SIOnEnsure top o t)); [exact (sinv_clean _ I)|reflexivity].
  - rewrite Hdead. discriminate.
Qed.

Lemma sinv_deliver o n s m k l :
  SInv (SCfg s m (SIDeliver o n :: k) l) -> SInv (sstep (SCfg s m (SIDeliver o n :: k) l)).
Proof.
  intros I. cbn [ReplaySched.sstep sc_k sc_st sc_obs sc_rlog].
  assert (Hck : sclean k) by exact (sclean_tail _ _ (sinv_clean _ I)).
  destruct (m o) as [os|] eqn:Hm;
    [|exfalso; destruct (sinv_none_l _ _ _ _ o I Hm) as (_ & _ & Hi & _);
      rewrite sinflight_deliver_same in Hi; discriminate].
  destruct (ra_stopped os) eqn:Hst.
  - (* AutoDetachObserver.on_xxx: `if self.is_stopped: return` *)
    apply (sinv_instr_generic s m (SIDeliver o n) k l s m k [] I); try reflexivity.
    + apply same_but_obs_refl.
    + exact (sinv_nodup _ I).
    + exact (sinv_dom _ I).
    + intros o2 H2. split; [exact H2|]. split; [reflexivity|].
      destruct (Nat.eq_dec o2 o) as [->|Hne]; [congruence|]. rewrite sinflight_deliver_other by exact Hne. auto.
    + intros o2 os2 H2. exists os2. split; [exact H2|]. cbn [app spend]. intros X' EX Hok Hp. exists X'.
      split; [exact EX|]. split; [|exact Hp].
      destruct (Nat.eq_dec o2 o) as [->|Hne].
      * rewrite Hm in H2. injection H2 as <-. now apply (obs_ok_stopped_infl _ _ _ (sinflight o (SIDeliver o n :: k))).
      * rewrite sinflight_deliver_other in Hok by exact Hne. exact Hok.
    + exact Hck.
    + intros El x. exact (sinv_nopend _ I El x).
  - assert (Hgen : forall stop kk, sclean kk -> (forall o2, sinflight o2 kk = sinflight o2 k /\ spend o2 kk = spend o2 k) ->
                   (is_terminal n = true -> stop = true) ->
                   SInv (SCfg s (rupd m o (rcalled stop os)) kk ([REGot o n] ++ l))).
    { intros stop kk Hckk Hinf Hterm.
      apply (sinv_instr_generic s m (SIDeliver o n) k l s _ kk [REGot o n] I).
      - cbn [app]. apply lops_got.
      - apply same_but_obs_refl.
      - exact (sinv_nodup _ I).
      - intros o2 Hi. unfold rupd. destruct (Nat.eqb o2 o); [discriminate|]. exact (sinv_dom _ I o2 Hi).
      - intros o2. unfold rupd. destruct (Nat.eqb o2 o) eqn:E; [discriminate|]. intros H2.
        apply Nat.eqb_neq in E. split; [exact H2|]. cbn [app]. rewrite lview_got.
        destruct (Nat.eqb o o2) eqn:E2; [apply Nat.eqb_eq in E2; congruence|]. rewrite app_nil_r.
        destruct (Hinf o2) as [K1 K2]. rewrite K1, K2, sinflight_deliver_other by exact E. auto.
      - intros o2 os2. destruct (Hinf o2) as [K1 K2]. rewrite K1, K2. cbn [spend]. unfold rupd.
        destruct (Nat.eqb o2 o) eqn:E.
        + apply Nat.eqb_eq in E. subst o2. intros [= <-]. exists os. split; [exact Hm|].
          cbn [app]. rewrite lview_got, Nat.eqb_refl, sinflight_deliver_same.
          intros X' EX Hok Hp. exists X'. split; [exact EX|].
          unfold obs_ok in *. cbn [rcalled ra_stopped r_so]. rewrite Hst in *. cbn [orb].
          destruct Hok as [H1 H2]. destruct stop.
          * split; [|apply pend_ok_stopped; [exact (proj1 Hp)|cbn; apply orb_true_r]].
            rewrite <- H1. exists (sinflight o k ++ so_queue (r_so os)). rewrite <- app_assoc. reflexivity.
          * split; [|eapply pend_ok_ext; [| |exact Hp]; cbn; [rewrite orb_false_r; tauto|tauto]].
            rewrite <- app_assoc. cbn [app]. split; [exact H1|exact H2].
        + apply Nat.eqb_neq in E. intros H2. exists os2. split; [exact H2|]. cbn [app].
          rewrite lview_got. destruct (Nat.eqb o o2) eqn:E2; [apply Nat.eqb_eq in E2; congruence|].
          rewrite app_nil_r, sinflight_deliver_other by exact E. intros X' EX Hok Hp. exists X'. auto.
      - exact Hckk.
      - intros El x. destruct (Hinf x) as [_ K2]. rewrite K2. exact (sinv_nopend _ I El x). }
    assert (Hpush : forall pre, (forall x, sinflight x pre = [] /\ spend x pre = []) ->
                    (forall i, In i pre -> is_top i = false) -> sclean (pre ++ k) /\
                    forall o2, sinflight o2 (pre ++ k) = sinflight o2 k /\ spend o2 (pre ++ k) = spend o2 k).
    { intros pre Hn Ht. split.
      - apply sclean_push; [intros x; exact (proj1 (Hn x))|exact Hck|].
        intros [i [Hin Hi]]. rewrite (Ht i Hin) in Hi. discriminate.
      - intros o2. rewrite sinflight_app, spend_app. destruct (Hn o2) as [-> ->]. split; reflexivity. }
    assert (Hops : forall x, sinflight x (map (SIOp false) (react o (r_calls os))) = [] /\
                             spend x (map (SIOp false) (react o (r_calls os))) = []).
    { intros x. split; [apply sinflight_ops|apply spend_ops]. }
    assert (Hopt : forall i, In i (map (SIOp false) (react o (r_calls os))) -> is_top i = false).
    { intros i Hin. apply in_map_iff in Hin. destruct Hin as [x [<- _]]. reflexivity. }
    (* on_error / on_completed: the wrapper stops, `finally: self.dispose()` follows the reaction *)
    assert (Hfin : SInv (SCfg s (rupd m o (rcalled true os))
                              (map (SIOp false) (react o (r_calls os)) ++ SIAdoFin o :: k) ([REGot o n] ++ l))).
    { destruct (Hpush (map (SIOp false) (react o (r_calls os)) ++ [SIAdoFin o])) as [P1 P2].
      - intros x. rewrite sinflight_app, spend_app. destruct (Hops x) as [-> ->]. split; reflexivity.
      - intros i Hin. apply in_app_or in Hin. destruct Hin as [Hin|[<-|[]]]; [now apply Hopt|reflexivity].
      - rewrite <- app_assoc in P1, P2. apply (Hgen true); [exact P1|exact P2|reflexivity]. }
    destruct n as [v|e|]; [|exact Hfin|exact Hfin].
    destruct (Hpush _ Hops Hopt) as [P1 P2]. apply (Hgen false); [exact P1|exact P2|discriminate].
Qed.

Lemma sinv_drain s m k l :
  SInv (SCfg s m (SIDrain :: k) l) -> SInv (sstep (SCfg s m (SIDrain :: k) l)).
Proof.
  intros I. cbn [ReplaySched.sstep sc_k sc_st sc_obs sc_rlog].
  assert (Hnod : snodeliver k) by exact (sclean_top _ _ (sinv_clean _ I) eq_refl).
  assert (Hck : sclean k) by exact (sclean_tail _ _ (sinv_clean _ I)).
  assert (Hcd : sclean (SIDrain :: k)) by exact (sinv_clean _ I).
  destruct (r_sched s) as [|[[it o] cancelled] rest].
  - apply (sinv_instr_skip s m SIDrain k l); [exact I|intros x; split; reflexivity|exact Hck|
      apply same_but_obs_refl|reflexivity].
  - set (s1 := with_sched rest (r_fresh s) s).
    assert (Hsame : SInv (SCfg s1 m (SIDrain :: k) l)).
    { apply (sinv_instr_skip s m SIDrain k l); [exact I|intros x; split; reflexivity|exact Hcd|
        repeat split|reflexivity]. }
    destruct cancelled; [exact Hsame|].
    destruct (m o) as [os|] eqn:Hm; [|exact Hsame].
    destruct (so_queue (r_so os)) as [|n q] eqn:Hq.
    + (* nothing queued: is_acquired = False *)
      apply (sinv_instr_one s m SIDrain k l s1 _ o os); [exact I|intros x; split; reflexivity|exact Hcd|
        repeat split|exact (sinv_nodup _ I)|cbn; tauto|exact Hm| |cbn; tauto].
      intros X' Hok Hp. split.
      * eapply obs_ok_ext; [| | |exact Hok]; cbn [set_so ra_stopped r_so so_queue so_stopped];
          [reflexivity|now rewrite Hq|reflexivity].
      * eapply pend_ok_ext; [| |exact Hp]; cbn; tauto.
    + (* work = queue.pop(0) *)
      apply (sinv_instr_generic s m SIDrain k l s1 _ (SIDeliver o n :: SIResched o :: SIDrain :: k) [] I);
        try reflexivity.
      * repeat split.
      * exact (sinv_nodup _ I).
      * intros o2 Hi. unfold rupd. destruct (Nat.eqb o2 o); [discriminate|]. exact (sinv_dom _ I o2 Hi).
      * intros o2. unfold rupd. destruct (Nat.eqb o2 o) eqn:E; [discriminate|]. intros H2.
        apply Nat.eqb_neq in E. rewrite sinflight_deliver_other by exact E. auto.
      * intros o2 os2. unfold rupd. destruct (Nat.eqb o2 o) eqn:E.
        -- apply Nat.eqb_eq in E. subst o2. intros [= <-]. exists os. split; [exact Hm|]. cbn [app spend].
           rewrite sinflight_deliver_same. cbn [sinflight]. rewrite (Hnod o).
           intros X' EX Hok Hp. exists X'. split; [exact EX|]. split.
           ++ unfold obs_ok in *. cbn [set_so ra_stopped r_so so_queue so_stopped]. rewrite Hq in Hok. cbn [app] in *. exact Hok.
           ++ eapply pend_ok_ext; [| |exact Hp]; cbn; tauto.
        -- apply Nat.eqb_neq in E. intros H2. exists os2. split; [exact H2|]. cbn [app spend].
           rewrite sinflight_deliver_other by exact E. cbn [sinflight]. intros X' EX Hok Hp. exists X'. auto.
      * split; [discriminate|]. split; [discriminate|]. exact Hcd.
      * intros El x. cbn [spend]. exact (sinv_nopend _ I El x).
Qed.

Theorem sstep_inv c : SInv c -> SInv (sstep c).
Proof.
  destruct c as [s m k l]. intros I. destruct k as [|i k].
  - exact I.
  - destruct i as [top p|top o|top o t|o n|o|o|o|].
    + now apply sstep_op_inv.
    + now apply sinv_ensure.
    + now apply sinv_onensure.
    + now apply sinv_deliver.
    + now apply sinv_adofin.
    + now apply sinv_resched.
    + now apply sinv_handle.
    + now apply sinv_drain.
Qed.

Lemma SInv_run n c : SInv c -> SInv (srun sync react n c).
Proof. apply srun_ind. exact sstep_inv. Qed.

Lemma SInv_prefix c o : SInv c -> prefix (lview o (sc_rlog c)) (lx (sc_rlog c) o).
Proof.
  intros I. destruct (sc_obs c o) as [os|] eqn:E.
  - destruct (sinv_some c I o os E) as [_ [X' [-> [Hok _]]]]. apply prefix_app_r. eapply obs_ok_prefix. exact Hok.
  - destruct (sinv_none c I o E) as (_ & -> & _). apply prefix_nil.
Qed.

Lemma SInv_nothing_lost c o os :
  SInv c -> sc_obs c o = Some os -> ra_stopped os = false ->
  rview o (slog_of c) ++ sinflight o (sc_k c) ++ so_queue (r_so os) ++ spend o (sc_k c)
  = xview b w o false rg_init (ops_of (slog_of c)).
Proof.
  intros I Hm Hs.
  destruct (sinv_some _ I o os Hm) as [_ [X' (EX & Hok & _)]]. unfold obs_ok in Hok. rewrite Hs in Hok.
  destruct Hok as [H1 _]. change (xview b w o false rg_init (ops_of (slog_of c))) with (lx (sc_rlog c) o).
  rewrite EX, <- H1, <- !app_assoc. reflexivity.
Qed.

End SchedInv.

(* the engine of Subjects/Replay.v: [Inv] is [SInv] on the virtual-time configuration it stands for *)
Section TreeSim.
Context {A : Type} (react : nat -> nat -> list (@rop A)) (b : Z) (w : option Z).

Lemma sinflight_up o (k : list (@rinstr A)) : sinflight o (map up k) = inflight o k.
Proof. induction k as [|i k IH]; [reflexivity|]. destruct i; cbn [map up sinflight inflight]; now rewrite IH. Qed.

Lemma spend_up o (k : list (@rinstr A)) : spend o (map up k) = [].
Proof. induction k as [|i k IH]; [reflexivity|]. destruct i; exact IH. Qed.

(* [clean] looks at the first drain loop only: what stands behind a later one stands behind the first;
   [sclean] asks the same of every drain loop *)
Lemma sclean_up (k : list (@rinstr A)) : sclean (map up k) <-> clean k.
Proof.
  induction k as [|i k IH]; [cbn; tauto|].
  assert (Hn : snodeliver (map up k) <-> nodeliver k).
  { split; intros H o; [rewrite <- sinflight_up|rewrite sinflight_up]; apply H. }
  destruct i; cbn [map up sclean clean is_top]; try (split; [intros [_ H]; now apply IH|intros H; split; [discriminate|now apply IH]]).
  split; [intros [H _]; apply Hn, H; reflexivity|].
  intros H. split; [intros _; now apply Hn|]. apply snodeliver_clean. now apply Hn.
Qed.

Lemma Inv_SInv (c : @rcfg A) : Inv b w c <-> SInv b w (upc c).
Proof.
  split; intros I.
  - constructor; cbn [upc sc_st sc_obs sc_k sc_rlog].
    + exact (inv_st _ _ _ I).
    + exact (inv_nodup _ _ _ I).
    + exact (inv_dom _ _ _ I).
    + intros o Hm. rewrite sinflight_up, spend_up. destruct (inv_none _ _ _ I o Hm) as (H1 & H2 & H3). auto.
    + intros o os Hm. rewrite sinflight_up, spend_up. destruct (inv_some _ _ _ I o os Hm) as [H1 H2].
      split; [exact H1|]. exists (cx b w c o). rewrite app_nil_r. split; [reflexivity|]. split; [exact H2|apply pend_ok_nil].
    + apply sclean_up. exact (inv_clean _ _ _ I).
    + intros _ o. apply spend_up.
  - constructor.
    + exact (sinv_st _ _ _ I).
    + exact (sinv_nodup _ _ _ I).
    + exact (sinv_dom _ _ _ I).
    + intros o Hm. destruct (sinv_none _ _ _ I o Hm) as (H1 & H2 & H3 & _).
      cbn [upc sc_k] in H3. rewrite sinflight_up in H3. auto.
    + intros o os Hm. destruct (sinv_some _ _ _ I o os Hm) as [H1 [X' (EX & Hok & _)]].
      cbn [upc sc_k sc_st sc_rlog] in EX, Hok. rewrite spend_up, app_nil_r in EX. rewrite sinflight_up, <- EX in Hok.
      split; [exact H1|exact Hok].
    + apply sclean_up. exact (sinv_clean _ _ _ I).
Qed.

(* [react] is an argument although the proof does not need it: callers name the engine whose
   configuration c is *)
Lemma Inv_prefix (c : @rcfg A) o : Inv b w c -> prefix (rview o (rlog_of c)) (cx b w c o).
Proof using react. intros I. apply (SInv_prefix b w (upc c) o). now apply Inv_SInv. Qed.

Theorem step_inv (c : @rcfg A) : Inv b w c -> Inv b w (rstep react c).
Proof.
  intros I. destruct (rstep_sim react c) as [n E]. apply Inv_SInv. rewrite E.
  apply SInv_run. now apply Inv_SInv.
Qed.
End TreeSim.

Lemma SInv_start {A} (bs w : option Z) (k : list (@sinstr A)) :
  (forall o, sinflight o k = [] /\ spend o k = []) ->
  SInv (bufsize_of bs) w (SCfg (rinit_state bs w) (fun _ => None) k []).
Proof.
  intros Hk. constructor; cbn [sc_st sc_obs sc_rlog sc_k].
  - unfold st_agree. cbn. split; [destruct bs; reflexivity|]. split; [reflexivity|]. split; [reflexivity|].
    split; [repeat split|]. intros _. apply qinv_init.
  - constructor.
  - intros o [].
  - intros o _. split; [reflexivity|]. split; [reflexivity|]. exact (Hk o).
  - intros o os H. discriminate.
  - apply snodeliver_clean. intros o. exact (proj1 (Hk o)).
  - intros _ o. exact (proj2 (Hk o)).
Qed.

Lemma Inv_init {A} (bs w : option Z) (top : list (@rop A)) : Inv (bufsize_of bs) w (rinit_cfg bs w top).
Proof.
  apply Inv_SInv, SInv_start. intros o. cbn [rinit_cfg rc_k]. rewrite sinflight_up, spend_up. split; [|reflexivity].
  induction top as [|p t IH]; [reflexivity|exact IH].
Qed.

Lemma Inv_run {A} (react : nat -> nat -> list (@rop A)) (bs w : option Z) (top : list (@rop A)) (fuel : nat) :
  Inv (bufsize_of bs) w (rrun react fuel (rinit_cfg bs w top)).
Proof. apply (rrun_ind react (Inv (bufsize_of bs) w)); [apply step_inv|apply Inv_init]. Qed.

(* C22, arbitrary call trees: what observer o has received at any point of any
   run is a prefix of  (retained values at its subscription, terminal if any)
   ++ (every later notification, in call order)  *)
Theorem replay_prefix {A} (react : nat -> nat -> list (@rop A)) (bs w : option Z) (top : list (@rop A))
        (fuel o : nat) :
  let c := rrun react fuel (rinit_cfg bs w top) in
  prefix (rview o (rlog_of c)) (xview (bufsize_of bs) w o false rg_init (ops_of (rlog_of c))).
Proof.
  cbv zeta. apply (Inv_prefix react (bufsize_of bs) w), Inv_run.
Qed.

(* nothing is lost: as long as o's wrapper is not stopped (o has neither
   unsubscribed nor received a terminal notification), what it received, plus
   what has been handed to its wrapper but not processed yet, plus what is still
   queued in its ScheduledObserver, is ALL it is entitled to *)
Theorem replay_nothing_lost {A} (react : nat -> nat -> list (@rop A)) (bs w : option Z) (top : list (@rop A))
        (fuel o : nat) os :
  let c := rrun react fuel (rinit_cfg bs w top) in
  rc_obs c o = Some os -> ra_stopped os = false ->
  rview o (rlog_of c) ++ inflight o (rc_k c) ++ so_queue (r_so os)
  = xview (bufsize_of bs) w o false rg_init (ops_of (rlog_of c)).
Proof.
  cbv zeta. intros Hm Hs.
  destruct (inv_some _ _ _ (Inv_run react bs w top fuel) o os Hm) as [_ Hok]. unfold obs_ok in Hok. rewrite Hs in Hok.
  exact (proj1 Hok).
Qed.

(* ... and while the subject is live such an observer is registered and its
   ScheduledObserver accepts notifications: the next emission will reach its queue *)
Theorem replay_live_registered {A} (react : nat -> nat -> list (@rop A)) (bs w : option Z) (top : list (@rop A))
        (fuel o : nat) os :
  let c := rrun react fuel (rinit_cfg bs w top) in
  rc_obs c o = Some os -> ra_stopped os = false ->
  rg_live (rg_run rg_init (ops_of (rlog_of c))) = true ->
  In o (r_observers (rc_st c)) /\ so_stopped (r_so os) = false.
Proof.
  cbv zeta. intros Hm Hs Hl.
  destruct (inv_some _ _ _ (Inv_run react bs w top fuel) o os Hm) as [_ Hok]. unfold obs_ok in Hok. rewrite Hs in Hok.
  exact (proj2 Hok Hl).
Qed.
