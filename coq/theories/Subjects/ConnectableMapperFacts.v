(* C24, multicast(subject_factory, mapper): every subscribe() makes EXACTLY ONE source
   subscription.  Each per-subscriber instance of Subjects/Connectable.v's [mrun] is a plain
   connectable fed with [CSub o; CConnect] once and afterwards only with operations that do
   not connect; the invariant  `source subscriptions logged + connects still pending = 1, and
   while a connect is pending the connectable is disconnected`  holds from its creation on.
   Second section: what the subscriber of such an instance receives ([V], [mapper_V]). *)
From RxVerif Require Import Base.Prelude Ops.Machine Subjects.Subject Subjects.Behavior Subjects.Async
  Subjects.Family Subjects.Replay Subjects.Connectable Subjects.ConnectableFacts Subjects.ConnectableCountFacts
  Subjects.SubjectFacts Subjects.FamilyFacts Subjects.ConnectableViewFacts.
Require Import Lia.
Local Open Scope nat_scope.

Section OneSub.
Context {A E_st E_in E_op : Type}.
Context (e_exec : E_in -> E_st -> E_st * list E_in * list (@sev A E_op)).
Context (e_call : @sop A -> list E_in).
Context (e_drain : list E_in).
Context (cold : list (ev A)) (st0 : E_st) (fuel : nat).
Notation kc := (@kcfg A E_st E_in E_op).
Notation kinstr := (@kinstr A E_in).
Notation csil := (fun (_ _ : nat) => @nil (@cop A)).
Notation stepk := (kstep e_exec e_call MPlain true cold csil).
Notation runk := (krun e_exec e_call MPlain true cold csil).

(* pending connects: the driver's operation or the call itself *)
Definition isconn (i : kinstr) : bool :=
  match i with KConnect _ | KOp CConnect => true | _ => false end.
Definition nconn (k : list kinstr) : nat := length (filter isconn k).

Lemma nconn_app k1 k2 : nconn (k1 ++ k2) = nconn k1 + nconn k2.
Proof. unfold nconn. now rewrite filter_app, app_length. Qed.
Lemma nconn_KS l : nconn (map (@KS A E_in) l) = 0.
Proof. induction l; cbn; auto. Qed.
Lemma nconn_KSrc cid l : nconn (map (@KSrc A E_in cid) l) = 0.
Proof. induction l; cbn; auto. Qed.
Lemma nconn_cons i k : nconn (i :: k) = (if isconn i then 1 else 0) + nconn k.
Proof. unfold nconn. cbn [filter]. destruct (isconn i); reflexivity. Qed.

Lemma nconn_ops ops : ~ In CConnect ops ->
  nconn (flat_map (fun p : @cop A => KOp p :: map (@KS A E_in) e_drain) ops) = 0.
Proof.
  induction ops as [|p t IH]; [reflexivity|]. cbn [flat_map]. intros H.
  rewrite nconn_app, nconn_cons, nconn_KS, IH by (intros G; apply H; right; exact G).
  destruct p; try reflexivity. exfalso. apply H. left. reflexivity.
Qed.

Definition J (c : kc) : Prop :=
  nssub (k_log c) + nconn (k_k c) = 1 /\ (0 < nconn (k_k c) -> has_sub (k_bk c) = false).

Lemma has_comp_dispose cid (b : book) :
  has_sub (fst (@comp_dispose A E_op cid b)) = true -> has_sub b = true.
Proof.
  unfold comp_dispose. destruct (comp_disposed (get_conn b cid)); [auto|].
  match goal with |- context [sado_dispose cid ?c] => destruct (sado_dispose cid c) as [c2 evs] end.
  cbn. discriminate.
Qed.

(* only the driver's connect(), a subscribe() of ref_count / auto_connect and connect() itself push
   something that counts as a pending connect *)
Definition noconnect_head (i : kinstr) : Prop :=
  match i with KOp CConnect | KInc _ | KConnect _ => False | _ => True end.

Lemma nconn_follows i rest : noconnect_head i -> Forall (follows i) rest -> nconn rest = 0.
Proof.
  intros Hi. induction 1 as [|j rest Hj _ IH]; [reflexivity|]. rewrite nconn_cons, IH.
  destruct i as [[]| | | | | | | | | |]; cbn in Hi, Hj; try contradiction; decompose [or ex] Hj; subst j; reflexivity.
Qed.

(* apart from connect() itself no step connects: the flag does not become true, and nothing
   pushes a connect *)
Lemma step_other (c : kc) :
  match k_k c with KConnect _ :: _ => False | _ => True end ->
  nconn (k_k (stepk c)) = nconn (k_k c) /\ (has_sub (k_bk (stepk c)) = true -> has_sub (k_bk c) = true).
Proof.
  destruct c as [st b m k l]. destruct k as [|i k]; [auto|]. cbn [k_k k_bk]. intros Hh.
  destruct (kstep_keeps e_exec e_call MPlain true cold csil st b m i k l) as (Kb & _).
  assert (Hgen : noconnect_head i -> nconn (k_k (stepk (KCfg st b m (i :: k) l))) = nconn (i :: k)).
  { intros Hi. destruct (kstep_pushes e_exec e_call MPlain true cold csil (KCfg st b m (i :: k) l) i k eq_refl)
      as (ops & es & rest & -> & Hops & Hr & _).
    assert (ops = []) as -> by (destruct Hops as [E|(o & n & E)]; exact E).
    rewrite !nconn_app, nconn_KS, (nconn_follows i rest Hi Hr), nconn_cons.
    destruct i as [[]| | | | | | | | | |]; try contradiction; reflexivity. }
  assert (Hb : keeps_book i -> has_sub (k_bk (stepk (KCfg st b m (i :: k) l))) = true -> has_sub b = true)
    by (intros Hi; destruct (Kb Hi) as (_ & -> & _); auto).
  destruct i as [[o|o| |j|v|e| |d]|ei|o|o|o|o u| |w|cid w|cid n|cid]; try contradiction;
    try (split; [apply Hgen; exact I|apply Hb; exact I]); clear Kb Hb;
    try (split; [apply Hgen; exact I|]); cbn [kstep k_k k_bk k_log k_out k_eng].
  - rewrite !nconn_cons. cbn. auto.
  - destruct (nth_error (handles b) j) as [[cid|]|]; cbn [k_bk]; auto.
    pose proof (has_comp_dispose cid b) as G. destruct (comp_dispose cid b) as [b' evs]. exact G.
  - rewrite nconn_app, nconn_KS, !nconn_cons. cbn. auto.
  - auto.
  - destruct (if s_sad_disposed (get_conn b cid) then _ else _) as [c1 evs]. destruct w; cbn; auto.
Qed.

Lemma step_connect st b m w k l :
  nconn (k_k (stepk (KCfg st b m (KConnect w :: k) l))) = nconn k.
Proof.
  cbn [kstep k_k k_bk k_log k_out k_eng]. destruct (has_sub b); cbn [k_k]; [reflexivity|].
  rewrite nconn_app, nconn_KSrc, nconn_cons. reflexivity.
Qed.

Theorem J_step c : J c -> J (stepk c).
Proof.
  intros [H1 H2]. pose proof (only_connect_subscribes e_exec e_call MPlain true cold csil c) as Hn.
  pose proof (step_other c) as Ho.
  destruct c as [st b m k l]. cbn [k_k k_bk k_log] in H1, H2, Hn, Ho.
  destruct k as [|i k].
  { unfold J. cbn [kstep k_k k_bk k_log]. split; assumption. }
  assert (Hgen : (match i with KConnect _ => False | _ => True end) -> J (stepk (KCfg st b m (i :: k) l))).
  { intros Hi. destruct Ho as [G1 G2]; [destruct i; try exact I; contradiction|].
    assert (E0 : nssub (k_log (stepk (KCfg st b m (i :: k) l))) = nssub l)
      by (rewrite Hn; destruct i; try lia; contradiction).
    split; [rewrite E0, G1; exact H1|]. rewrite G1. intros G. specialize (H2 G).
    destruct (has_sub (k_bk (stepk (KCfg st b m (i :: k) l)))); [|reflexivity].
    rewrite G2 in H2 by reflexivity. discriminate. }
  destruct i as [p|ei|o|o|o|o u| |w|cid w|cid n|cid]; try (apply Hgen; exact I).
  (* connect() *)
  clear Hgen Ho. rewrite nconn_cons in H1, H2. cbn [isconn] in H1, H2.
  rewrite (H2 ltac:(lia)) in Hn. split.
  - rewrite Hn, step_connect. lia.
  - rewrite step_connect. intros G. lia.
Qed.

Lemma J_run n : forall c, J c -> J (runk n c).
Proof. apply krun_ind. exact J_step. Qed.

Lemma J_feed (c : kc) ops : J c -> ~ In CConnect ops -> J (feed e_exec e_call e_drain cold fuel c ops).
Proof.
  intros [H1 H2] Ho. unfold feed. apply J_run. unfold J. cbn [k_k k_bk k_log].
  rewrite nconn_app, (nconn_ops ops Ho), Nat.add_0_r. split; assumption.
Qed.

(* the instance just created by `subscribe o`: one connect pending, disconnected *)
Lemma J_create o :
  J (feed e_exec e_call e_drain cold fuel (KCfg st0 fresh_book (fun _ => None) [] []) [CSub o; CConnect]).
Proof.
  unfold feed. apply J_run. unfold J. cbn [k_k k_bk k_log app].
  assert (E : nconn (flat_map (fun p : @cop A => KOp p :: map (@KS A E_in) e_drain) [CSub o; CConnect]) = 1).
  { cbn [flat_map]. rewrite !nconn_app. rewrite !nconn_cons, !nconn_KS. reflexivity. }
  rewrite E. split; reflexivity.
Qed.

(* one source subscription per subscription of the mapper form *)
Theorem mapper_J top o c : In (o, c) (fst (mrun e_exec e_call e_drain cold st0 fuel [] top)) -> J c.
Proof. exact (mrun_inv e_exec e_call e_drain cold st0 fuel J J_create J_feed top o c). Qed.
End OneSub.

(* ---- what the subscriber of the mapper form receives (Subject / BehaviorSubject / AsyncSubject
        factories, identity mapper): its own subject's family specification on the calls made on
        that subject -- the generalisation of ConnectableViewFacts.multicast_view from [kinit] to
        an instance fed operation by operation ---- *)
Section MapperView.
Context {A : Type} (pynone : A) (K : kind) (v0 : A).
Context (cold : list (ev A)) (fuel : nat).
Notation C := (cls_of pynone K).
Notation csil := (fun (_ _ : nat) => @nil (@cop A)).
Notation kcfg := (@kcfg A (@sync_st A) (@instr A) (@op A)).
Notation runk := (krun (sync_exec C) sync_call MPlain true cold csil).

(* the instance is in step with a lazy run of its own subject *)
Definition V (c : kcfg) : Prop :=
  shape (k_k c) = true /\ exists sc hs, Q c sc /\ lazy_run pynone K v0 hs sc.

Lemma shape_run n : forall c : kcfg, shape (k_k c) = true -> shape (k_k (runk n c)) = true.
Proof.
  apply (krun_ind (sync_exec C) sync_call MPlain true cold csil (fun c => shape (k_k c) = true)).
  intros c. apply shape_step.
Qed.

Lemma noKS_ops (ops : list (@cop A)) :
  noKS (flat_map (fun p : @cop A => KOp p :: map (@KS A (@instr A)) []) ops) = true.
Proof. induction ops as [|p t IH]; [reflexivity|]. cbn. exact IH. Qed.

Lemma V_feed (c : kcfg) ops : V c -> V (feed (sync_exec C) sync_call [] cold fuel c ops).
Proof.
  intros [Hs [sc [hs [HQ Hl]]]]. unfold feed.
  set (c1 := KCfg (k_eng c) (k_bk c) (k_out c)
                  (k_k c ++ flat_map (fun p : @cop A => KOp p :: map (@KS A (@instr A)) []) ops) (k_log c)).
  assert (Hs1 : shape (k_k c1) = true) by (apply shape_app; [exact Hs|apply noKS_ops]).
  assert (HQ1 : Q c1 sc).
  { destruct HQ as [Qst Qobs Qk Ql]. constructor; cbn [c1 k_eng k_k k_log]; try assumption.
    rewrite kspart_app, (noKS_subj_k _ (noKS_ops ops)), app_nil_r. exact Qk. }
  split; [apply shape_run; exact Hs1|].
  destruct (run_sim pynone K v0 MPlain true cold fuel c1 sc hs HQ1 Hs1 Hl) as [sc' [hs' [G1 G2]]].
  exists sc', hs'. split; assumption.
Qed.

Lemma V_fresh : V (KCfg (sync_init v0) fresh_book (fun _ => None) [] []).
Proof.
  split; [reflexivity|]. exists (Cfg (init_state v0) (fun _ => None) [] []), [].
  split; [constructor; reflexivity|apply lr_init].
Qed.

Lemma V_view (c : kcfg) : V c -> k_k c = [] ->
  forall o, cview o (klog_of c) = oview K o Before (g_init v0) (calls_of (klog_of c)).
Proof.
  intros [_ [sc [hs [HQ Hl]]]]. exact (Q_view pynone K v0 c sc hs HQ Hl).
Qed.

Theorem mapper_V top o c :
  In (o, c) (fst (mrun (sync_exec C) sync_call [] cold (sync_init v0) fuel [] top)) -> V c.
Proof.
  intros Hin. apply (mrun_inv (sync_exec C) sync_call [] cold (sync_init v0) fuel V) with (top := top) (o := o);
    [intros o1|intros c1 ops Hc _|exact Hin]; apply V_feed; [apply V_fresh|exact Hc].
Qed.
End MapperView.
