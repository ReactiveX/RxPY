(* C24: what a subscriber of a multicast observable receives.  For Subject / BehaviorSubject /
   AsyncSubject and histories of top-level calls (subscribers do not call back), the subject's side
   of a run of Subjects/Connectable.v's machine is a run of the engine of Subjects/Subject.v on the
   flat history of the calls made on the subject, hence (C20/C21/C23 refinement) every subscriber's
   view is the family's [oview] of that history. *)
From RxVerif Require Import Base.Prelude Ops.Machine Subjects.Subject Subjects.Behavior Subjects.Async
  Subjects.Family Subjects.SubjectFacts Subjects.FamilyFacts Subjects.Replay Subjects.Connectable
  Subjects.ConnectableFacts.
Require Import Lia.
Local Open Scope nat_scope.

Section Frame.
Context {A : Type} (C : @cls A).
Notation sil := (fun (_ _ : nat) => @nil (@op A)).

(* one instruction of the subject engine does not look at the rest of the continuation nor at the log *)
Lemma step_frame i s m k l :
  step C sil (Cfg s m (i :: k) l) =
  let c := step C sil (Cfg s m [i] []) in Cfg (c_st c) (c_obs c) (c_k c ++ k) (c_rlog c ++ l).
Proof.
  destruct i as [p|o n|o|o sub]; cbn [step c_k c_st c_obs c_rlog].
  - destruct p as [o|o|v|e| |]; cbn [step_op].
    + destruct (m o); [reflexivity|]. destruct (c_subscribe C s o) as [[[s' is] sub]|]; cbn.
      * now rewrite <- app_assoc.
      * reflexivity.
    + destruct (m o) as [os|]; [|reflexivity]. destruct (handle os); [|reflexivity].
      destruct (ado_dispose s os o). reflexivity.
    + destruct (is_disposed s); [reflexivity|]. destruct (is_stopped s); [reflexivity|].
      destruct (c_next C s v). cbn. rewrite ?app_nil_r. reflexivity.
    + destruct (is_disposed s); [reflexivity|]. destruct (is_stopped s); [reflexivity|].
      destruct (c_error C (set_stopped true s) e). cbn. rewrite ?app_nil_r. reflexivity.
    + destruct (is_disposed s); [reflexivity|]. destruct (is_stopped s); [reflexivity|].
      destruct (c_completed C (set_stopped true s)). cbn. rewrite ?app_nil_r. reflexivity.
    + reflexivity.
  - destruct (m o) as [os|]; [|reflexivity]. destruct (a_stopped os); [reflexivity|]. destruct n; reflexivity.
  - destruct (m o) as [os|]; [|reflexivity]. destruct (ado_dispose s os o). reflexivity.
  - destruct (m o) as [os|]; [|reflexivity]. destruct sub as [sb|]; [|reflexivity].
    destruct (sad_set sb s os o). reflexivity.
Qed.
End Frame.

Section View.
Context {A : Type} (pynone : A) (K : kind) (v0 : A).
Notation C := (cls_of pynone K).
Notation sil := (fun (_ _ : nat) => @nil (@op A)).
Notation stepf := (step C sil).
Notation runf := (run C sil).
Notation scfg := (@Subject.cfg A).

(* the subject's side of a run of the connectable machine: the engine is stepped, and a new call is
   made only when the previous one has returned *)
Inductive lazy_run : list (@op A) -> scfg -> Prop :=
| lr_init : lazy_run [] (Cfg (init_state v0) (fun _ => None) [] [])
| lr_step hs sc : lazy_run hs sc -> c_k sc <> [] -> lazy_run hs (stepf sc)
| lr_call hs sc p : lazy_run hs sc -> c_k sc = [] ->
                    lazy_run (hs ++ [p]) (Cfg (c_st sc) (c_obs sc) [IOp p] (c_rlog sc)).

Lemma lazy_run_flat hs sc : lazy_run hs sc -> forall rest,
  reaches pynone K (init_cfg v0 (hs ++ rest))
          (Cfg (c_st sc) (c_obs sc) (c_k sc ++ map IOp rest) (c_rlog sc)).
Proof.
  induction 1 as [|hs sc H IH Hk|hs sc p H IH Hk]; intros rest.
  - apply reaches_refl.
  - eapply reaches_trans; [apply IH|]. destruct sc as [s m k l]. cbn [c_k c_st c_obs c_rlog] in *.
    destruct k as [|i k]; [contradiction|].
    apply reaches_step_eq. change (silent) with sil.
    cbn [app]. rewrite (step_frame C i s m (k ++ map IOp rest) l).
    rewrite (step_frame C i s m k l). cbn [c_k c_st c_obs c_rlog]. now rewrite app_assoc.
  - rewrite <- app_assoc. cbn [app c_k c_st c_obs c_rlog].
    specialize (IH (p :: rest)). rewrite Hk in IH. exact IH.
Qed.

Lemma reaches_final_unique c c1 c2 :
  reaches pynone K c c1 -> reaches pynone K c c2 -> c_k c1 = [] -> c_k c2 = [] -> c1 = c2.
Proof.
  intros [n1 H1] [n2 H2] K1 K2.
  destruct (Nat.le_ge_cases n1 n2) as [L|L].
  - replace n2 with (n1 + (n2 - n1)) in H2 by lia. rewrite run_add, H1, run_done in H2 by exact K1. exact H2.
  - replace n1 with (n2 + (n1 - n2)) in H1 by lia. rewrite run_add, H2, run_done in H1 by exact K2. now symmetry.
Qed.

(* a finished lazy run is the run of the flat history of its calls: its log is the specification's *)
Lemma lazy_run_spec hs sc : lazy_run hs sc -> c_k sc = [] -> rev (c_rlog sc) = spec K v0 hs.
Proof.
  intros H Hk. pose proof (lazy_run_flat hs sc H []) as G. rewrite Hk, app_nil_r in G. cbn [map app] in G.
  destruct (sim_history pynone K hs (init_state v0) (fun _ => None) (Abs [] [] (g_init v0)) [] (R_init K v0))
    as [s' [m' G']].
  pose proof (reaches_final_unique _ _ _ G G' eq_refl eq_refl) as E.
  inversion E as [[E1 E2 E3]]. rewrite E3, app_nil_r, rev_involutive. reflexivity.
Qed.
End View.

(* the continuation when subscribers do not call back (any engine): no engine instruction is pending
   below an instruction that may call the subject ([shape]) *)
Section Shape.
Context {A E_st E_in E_op : Type}.
Context (e_exec : E_in -> E_st -> E_st * list E_in * list (@sev A E_op)).
Context (e_call : @sop A -> list E_in).
Context (md : mode) (reach : bool) (cold : list (ev A)).
Notation kinstr := (@kinstr A E_in).
Notation csil := (fun (_ _ : nat) => @nil (@cop A)).
Notation stepk := (kstep e_exec e_call md reach cold csil).

Definition is_KS (i : kinstr) : bool := match i with KS _ => true | _ => false end.
(* instructions that never make a call on the subject *)
Definition quiet (i : kinstr) : bool :=
  match i with
  | KOuter _ false | KDec | KSrcFin _ | KHandle _ | KRet _ | KConnRet _ _ => true
  | _ => false
  end.
Definition noKS (k : list kinstr) : bool := forallb (fun i => negb (is_KS i)) k.
Fixpoint shape (k : list kinstr) : bool :=
  match k with
  | [] => true
  | i :: k' => if is_KS i || quiet i then shape k' else noKS k'
  end.

Lemma noKS_app k1 k2 : noKS (k1 ++ k2) = noKS k1 && noKS k2.
Proof. apply forallb_app. Qed.
Lemma noKS_shape k : noKS k = true -> shape k = true.
Proof.
  induction k as [|i k IH]; [reflexivity|]. cbn. intros H. apply andb_prop in H. destruct H as [H1 H2].
  destruct (is_KS i || quiet i); auto.
Qed.
Lemma shape_app k1 k2 : shape k1 = true -> noKS k2 = true -> shape (k1 ++ k2) = true.
Proof.
  induction k1 as [|i k1 IH]; intros H1 H2; [now apply noKS_shape|].
  cbn in *. destruct (is_KS i || quiet i); [auto|]. rewrite noKS_app, H1, H2. reflexivity.
Qed.
Lemma shape_pre k1 k2 : forallb (fun i => is_KS i || quiet i) k1 = true -> shape k2 = true -> shape (k1 ++ k2) = true.
Proof.
  induction k1 as [|i k1 IH]; intros H1 H2; [exact H2|]. cbn in *. apply andb_prop in H1. destruct H1 as [H1 H3].
  rewrite H1. auto.
Qed.
Lemma pre_KS (l : list E_in) : forallb (fun i : kinstr => is_KS i || quiet i) (map (@KS A E_in) l) = true.
Proof. induction l; cbn; auto. Qed.
Lemma noKS_KOp l : noKS (map (@KOp A E_in) l) = true.
Proof. induction l; cbn; auto. Qed.

Lemma follows_quiet i j : is_KS i || quiet i = true -> follows i j -> quiet j = true.
Proof.
  destruct i as [[]| | | | |? []| | | | |]; cbn; try discriminate; intros _ H; try contradiction;
    try destruct H as [o H]; subst j; reflexivity.
Qed.

Theorem shape_step c : shape (k_k c) = true -> shape (k_k (stepk c)) = true.
Proof.
  destruct (k_k c) as [|i k] eqn:Ek; [now rewrite kstep_done, Ek|]. cbn [shape]. intros H.
  destruct (kstep_pushes e_exec e_call md reach cold csil c i k Ek) as (ops & es & rest & -> & Hops & Hr & _).
  assert (ops = []) as -> by (destruct Hops as [E|(o & n & E)]; exact E).
  apply (shape_pre (map KS es)); [apply pre_KS|].
  destruct (is_KS i || quiet i) eqn:Ei.
  - apply shape_pre; [|exact H]. apply forallb_forall. intros j Hj.
    rewrite (follows_quiet i j Ei (proj1 (Forall_forall _ _) Hr j Hj)). apply Bool.orb_true_r.
  - apply noKS_shape. rewrite noKS_app, H, Bool.andb_true_r. apply forallb_forall. intros j Hj.
    pose proof (proj1 (Forall_forall _ _) Hr j Hj) as Hf. destruct j; try reflexivity.
    destruct (follows_not_KS _ _ Hf).
Qed.
End Shape.

Section Sim.
Context {A : Type} (pynone : A) (K : kind) (v0 : A).
Context (md : mode) (reach : bool) (cold : list (ev A)).
Notation C := (cls_of pynone K).
Notation sil := (fun (_ _ : nat) => @nil (@op A)).
Notation csil := (fun (_ _ : nat) => @nil (@cop A)).
Notation stepf := (step C sil).
Notation kinstr := (@kinstr A (@instr A)).
Notation kcfg := (@kcfg A (@sync_st A) (@instr A) (@op A)).
Notation cevent := (@cevent A (@op A)).
Notation stepk := (kstep (sync_exec C) sync_call md reach cold csil).
Notation runk := (krun (sync_exec C) sync_call md reach cold csil).

(* the subject's side of a configuration: [kspart], [plog] of ConnectableFacts *)
Notation subj_k := (@kspart A (@instr A)).
Notation subj_l := (@plog A (@op A) (@event A) (@EOp A) (@EGot A)).
Definition noraise (l : list (@event A)) : list (@event A) :=
  filter (fun e => match e with ERaised _ => false | _ => true end) l.

Lemma noKS_subj_k k : noKS k = true -> subj_k k = [].
Proof.
  induction k as [|i k IH]; [reflexivity|]. cbn. intros H. apply andb_prop in H. destruct H as [H1 H2].
  destruct i; cbn in *; try discriminate; auto.
Qed.
Lemma noraise_app l1 l2 : noraise (l1 ++ l2) = noraise l1 ++ noraise l2.
Proof. apply filter_app. Qed.

Lemma subj_l_engine (r : list (@event A)) :
  subj_l (rev (map (fun e => match e with
                             | VOp p => CECall p | VGot o n => CEGot o n | VRaised x => CERaised x
                             end) (map sync_ev (rev r)))) = noraise r.
Proof. apply plog_engine. intros []; reflexivity. Qed.

Record Q (c : kcfg) (sc : @Subject.cfg A) : Prop := {
  q_st : c_st sc = fst (k_eng c);
  q_obs : c_obs sc = snd (k_eng c);
  q_k : c_k sc = subj_k (k_k c);
  q_l : noraise (c_rlog sc) = subj_l (k_log c) }.

Definition lazy_step (sc sc' : @Subject.cfg A) : Prop :=
  sc' = sc \/ (c_k sc <> [] /\ sc' = stepf sc) \/
  (c_k sc = [] /\ exists p, sc' = Cfg (c_st sc) (c_obs sc) [IOp p] (c_rlog sc)).

Lemma Q_same c c' sc :
  Q c sc -> k_eng c' = k_eng c -> subj_k (k_k c') = subj_k (k_k c) -> subj_l (k_log c') = subj_l (k_log c) ->
  exists sc', Q c' sc' /\ lazy_step sc sc'.
Proof.
  intros [Qst Qobs Qk Ql] He Hk Hl. exists sc. split; [|left; reflexivity]. constructor; congruence.
Qed.

(* a method of the subject is called when the previous call has returned *)
Lemma Q_call c c' sc p :
  Q c sc -> k_eng c' = k_eng c -> subj_k (k_k c) = [] -> subj_k (k_k c') = sync_call p ->
  subj_l (k_log c') = subj_l (k_log c) -> exists sc', Q c' sc' /\ lazy_step sc sc'.
Proof.
  intros HQ He H0 Hk Hl.
  assert (Hp : sync_call p = [] \/ exists q, sync_call p = [IOp q]) by (destruct p; cbn; eauto).
  destruct Hp as [Ep|[q Ep]]; rewrite Ep in Hk; [apply (Q_same c); congruence|].
  destruct HQ as [Qst Qobs Qk Ql].
  exists (Cfg (c_st sc) (c_obs sc) [IOp q] (c_rlog sc)). split.
  - constructor; cbn [c_st c_obs c_k c_rlog]; congruence.
  - right. right. split; [congruence|]. exists q. reflexivity.
Qed.

(* a step that runs no engine instruction leaves the subject's side alone, or makes a call -- which
   only a head with no engine instruction pending below it does *)
Lemma sim_other may c c' sc k :
  side_other sync_call (@EOp A) (@EGot A) may c c' k -> Q c sc -> subj_k (k_k c) = subj_k k ->
  (may = true -> noKS k = true) -> exists sc', Q c' sc' /\ lazy_step sc sc'.
Proof.
  intros (E1 & E2 & [E3|[Hm [p E3]]]) HQ Ek Hs.
  - apply (Q_same c); [exact HQ|exact E1|now rewrite Ek|exact E2].
  - pose proof (noKS_subj_k _ (Hs Hm)) as Hk. rewrite Hk in Ek, E3.
    apply (Q_call c _ _ p); [exact HQ|exact E1|exact Ek|rewrite E3; apply app_nil_r|exact E2].
Qed.

Theorem sim_step c sc :
  Q c sc -> shape (k_k c) = true -> exists sc', Q (stepk c) sc' /\ lazy_step sc sc'.
Proof.
  intros HQ Hs. destruct (k_k c) as [|i k] eqn:Ek.
  { exists sc. split; [now rewrite kstep_done|left; reflexivity]. }
  pose proof (kstep_subject (sync_exec C) sync_call md reach cold csil (@EOp A) (@EGot A) c i k Ek) as G.
  destruct i as [p|ei|o|o|o|o [|]| |w|cid w|cid n|cid]; cbn [shape is_KS quiet orb] in Hs;
    try (apply (sim_other _ c _ sc k G HQ); [rewrite Ek; reflexivity|intros Hc; first [discriminate Hc|exact Hs]]).
  (* one instruction of the engine *)
  destruct HQ as [Qst Qobs Qk Ql]. rewrite Ek, kspart_cons in Qk. cbn [app] in Qk.
  unfold side_KS in G. destruct (sync_exec C ei (k_eng c)) as [[st' pushed] evs] eqn:Ex. destruct G as (E1 & E2 & E3).
  unfold sync_exec in Ex. cbv zeta in Ex. injection Ex as <- <- <-.
  exists (stepf sc). split; [|right; left; split; [rewrite Qk; discriminate|reflexivity]].
  destruct sc as [s mo ks ls]. cbn [c_st c_obs c_k c_rlog] in *. subst s mo ks.
  rewrite (step_frame C ei (fst (k_eng c)) (snd (k_eng c)) (subj_k k) ls). cbv zeta.
  constructor; cbn [c_st c_obs c_k c_rlog]; rewrite ?E1, ?E2, ?E3; try reflexivity.
  now rewrite subj_l_engine, noraise_app, Ql.
Qed.
End Sim.

Section ViewTheorem.
Context {A : Type} (pynone : A) (K : kind) (v0 : A).
Context (md : mode) (reach : bool) (cold : list (ev A)).
Notation C := (cls_of pynone K).
Notation csil := (fun (_ _ : nat) => @nil (@cop A)).
Notation kcfg := (@kcfg A (@sync_st A) (@instr A) (@op A)).
Notation cevent := (@cevent A (@op A)).
Notation stepk := (kstep (sync_exec C) sync_call md reach cold csil).
Notation runk := (krun (sync_exec C) sync_call md reach cold csil).
Notation subj_k := (@kspart A (@instr A)).
Notation subj_l := (@plog A (@op A) (@event A) (@EOp A) (@EGot A)).

Lemma lazy_step_run hs sc sc' :
  lazy_run pynone K v0 hs sc -> lazy_step pynone K sc sc' -> exists hs', lazy_run pynone K v0 hs' sc'.
Proof.
  intros H [->|[[Hk ->]|[Hk [p ->]]]].
  - exists hs. exact H.
  - exists hs. now apply lr_step.
  - exists (hs ++ [p]). now apply lr_call.
Qed.

Lemma run_sim n : forall (c : kcfg) sc hs,
  Q c sc -> shape (k_k c) = true -> lazy_run pynone K v0 hs sc ->
  exists sc' hs', Q (runk n c) sc' /\ lazy_run pynone K v0 hs' sc'.
Proof.
  induction n as [|n IH]; intros c sc hs HQ Hs Hl; [exists sc, hs; auto|].
  cbn [krun]. destruct (k_k c) eqn:E; [exists sc, hs; auto|]. rewrite <- E in Hs.
  destruct (sim_step pynone K md reach cold c sc HQ Hs) as [sc1 [HQ1 Hst]].
  destruct (lazy_step_run hs sc sc1 Hl Hst) as [hs1 Hl1].
  apply (IH _ sc1 hs1 HQ1); [|exact Hl1].
  apply shape_step. exact Hs.
Qed.

Lemma cview_subj o (l : list cevent) : cview o l = view o (subj_l l).
Proof.
  induction l as [|e l IH]; [reflexivity|]. change (e :: l) with ([e] ++ l). rewrite plog_app, view_app.
  destruct e; cbn; rewrite IH; try reflexivity. destruct (Nat.eqb o0 o); reflexivity.
Qed.

Lemma view_noraise o (l : list (@event A)) : view o (noraise l) = view o l.
Proof.
  unfold noraise. induction l as [|e l IH]; [reflexivity|]. destruct e; cbn; rewrite ?IH; reflexivity.
Qed.

Lemma noraise_rev (l : list (@event A)) : noraise (rev l) = rev (noraise l).
Proof. apply filter_rev. Qed.

Definition ops_of_events (l : list (@event A)) : list (@op A) :=
  flat_map (fun e => match e with EOp p => [p] | _ => [] end) l.

Lemma ops_app (l1 l2 : list (@event A)) : ops_of_events (l1 ++ l2) = ops_of_events l1 ++ ops_of_events l2.
Proof. apply flat_map_app. Qed.

Lemma calls_subj (l : list cevent) : calls_of l = ops_of_events (subj_l l).
Proof.
  induction l as [|e l IH]; [reflexivity|].
  change (e :: l) with ([e] ++ l). rewrite plog_app, ops_app, <- IH. destruct e; reflexivity.
Qed.

Lemma ops_noraise (l : list (@event A)) : ops_of_events (noraise l) = ops_of_events l.
Proof.
  unfold ops_of_events, noraise. induction l as [|e l IH]; [reflexivity|]. destruct e; cbn; rewrite ?IH; reflexivity.
Qed.

Lemma ops_got (o : nat) (N : list (ev A)) : ops_of_events (map (@EGot A o) N) = [].
Proof. induction N; cbn; auto. Qed.
Lemma ops_got_all (N : list (ev A)) (L : list nat) :
  ops_of_events (flat_map (fun o => map (@EGot A o) N) L) = [].
Proof. induction L as [|x L IH]; [reflexivity|]. cbn [flat_map]. now rewrite ops_app, IH, ops_got. Qed.

Lemma ops_spec_op (a : @abs A) p : ops_of_events (snd (spec_op K a p)) = [].
Proof.
  unfold spec_op. destruct p as [o|o|v|e| |]; cbn [snd]; try reflexivity;
    try (rewrite ops_app, ops_got_all; destruct (g_status (ab_g a)); reflexivity).
  destruct (mem o (ab_used a)); cbn [snd]; [reflexivity|apply ops_got].
Qed.

Lemma ops_spec_from : forall (h : list (@op A)) a, ops_of_events (spec_from K a h) = h.
Proof.
  induction h as [|p h IH]; intros a; [reflexivity|]. cbn [spec_from].
  pose proof (ops_spec_op a p) as G.
  destruct (spec_op K a p) as [a' out]. cbn [snd] in G.
  change (EOp p :: out ++ spec_from K a' h) with ([EOp p] ++ out ++ spec_from K a' h).
  now rewrite !ops_app, G, IH.
Qed.

(* the subject needs no drain: the driver's program holds no engine instruction *)
Lemma noKS_prog (top : list (@cop A)) : noKS (prog (@nil (@instr A)) md top) = true.
Proof.
  unfold prog. cbn [map app]. rewrite noKS_app.
  assert (E : noKS (match md with MAuto 0 => [@KConnect A (@instr A) ByAuto] | _ => [] end) = true)
    by (destruct md as [| |[|n]]; reflexivity).
  rewrite E. cbn. induction top; cbn; auto.
Qed.

Lemma Q_init top : Q (kinit [] md (sync_init v0) top) (Cfg (init_state v0) (fun _ => None) [] []).
Proof.
  constructor; cbn [k_eng k_k k_log kinit c_st c_obs c_k c_rlog sync_init fst snd]; try reflexivity.
  symmetry. apply noKS_subj_k, noKS_prog.
Qed.

Lemma shape_init top : shape (k_k (kinit [] md (sync_init v0) top : kcfg)) = true.
Proof. apply noKS_shape, noKS_prog. Qed.

Lemma Q_view (c : kcfg) sc hs : Q c sc -> lazy_run pynone K v0 hs sc -> k_k c = [] ->
  forall o, cview o (klog_of c) = oview K o Before (g_init v0) (calls_of (klog_of c)).
Proof.
  intros [Qst Qobs Qk Ql] Hl Hk o. rewrite Hk in Qk. cbn in Qk.
  pose proof (lazy_run_spec pynone K v0 hs sc Hl Qk) as Hspec.
  assert (E : subj_l (klog_of c) = noraise (spec K v0 hs)).
  { unfold klog_of. rewrite plog_rev, <- Ql, <- noraise_rev, Hspec. reflexivity. }
  rewrite cview_subj, calls_subj, E, view_noraise, ops_noraise.
  unfold spec at 2. rewrite ops_spec_from. apply observer_view.
Qed.

(* C24, the multicast view: when a history of top-level calls has been executed, every subscriber
   has received exactly what the subject family's specification [oview] gives it on the sequence of
   calls made on the shared subject (its own subscribe / unsubscribe calls and the source's
   notifications that arrived through the connection) *)
Theorem multicast_view top fuel :
  let c := runk fuel (kinit [] md (sync_init v0) top) in
  k_k c = [] ->
  forall o, cview o (klog_of c) = oview K o Before (g_init v0) (calls_of (klog_of c)).
Proof.
  intros c Hk.
  destruct (run_sim fuel _ _ [] (Q_init top) (shape_init top) (lr_init pynone K v0)) as [sc [hs [HQ Hl]]].
  exact (Q_view c sc hs HQ Hl Hk).
Qed.
End ViewTheorem.
