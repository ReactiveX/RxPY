(* C20 / C21 on ARBITRARY call trees: who receives WHICH NOTIFICATIONS (values, the greeting of a
   BehaviorSubject, terminal notifications), for Subject and BehaviorSubject at once.

   [tree_entitled K v0 o log] interprets the chronological log of calls (made by the driver or from
   inside any callback) with the functions of the abstract specification Subjects/Family.v:
     - the FIRST subscribe call of o is answered with [greet K g] where g is the subject's status
       after the calls logged before it (BehaviorSubject, live: the latest value; ended: the
       terminal notification; disposed: DisposedException);
     - every later call p is answered with [bcast K g p] (on_next v: [Next v] while live; the first
       on_error / on_completed on a live subject: the terminal; everything else: nothing).
   Unsubscription is deliberately NOT part of the entitlement.  At every moment of every run
        received ++ about to be handed to o's wrapper ++ dropped
   is a PERMUTATION of the entitlement; nothing is dropped while o's wrapper is live, and no
   TERMINAL notification is ever dropped unless an unsubscribe call for o was made.
   Every invariant is proved by cases on [step_to] (Subjects/SubjectFacts.v).  The statements about
   VALUES only (C20: [entitled]; C21: [greeting ++ entitled]) are read off the notification theorem at
   the end of the file. *)
From RxVerif Require Import Base.Prelude Ops.Machine Subjects.Subject Subjects.Behavior Subjects.Family
  Subjects.SubjectFacts Subjects.FamilyFacts Subjects.SubjectTreeFacts.
Require Import Permutation Lia.

Section BroadcastTree.
Context {A : Type} (pynone : A) (K : kind) (HK : K <> KAsync).
Context (react : nat -> nat -> list (@op A)) (v0 : A).
Notation C := (cls_of pynone K).
Notation event := (@event A).
Notation is_sub_of := (@SubjectTreeFacts.is_sub_of A).
Notation is_end_op := (@SubjectTreeFacts.is_end_op A).

(* ---- the subject's abstract status after the calls of a log ---- *)
Fixpoint gev (g : @gstate A) (log : list event) : gstate :=      (* chronological *)
  match log with
  | [] => g
  | EOp p :: t => gev (g_step g p) t
  | _ :: t => gev g t
  end.

Fixpoint gof (l : list event) : @gstate A :=                     (* newest first *)
  match l with
  | [] => g_init v0
  | EOp p :: t => g_step (gof t) p
  | _ :: t => gof t
  end.

(* ---- the specification, on the chronological log ---- *)
Definition answer (o : nat) (sn : bool) (g : @gstate A) (p : @op A) : list (ev A) :=
  match p with
  | OSub o' => if Nat.eqb o' o && negb sn then greet K g else []
  | _ => if sn then bcast K g p else []
  end.

Fixpoint tent_from (o : nat) (sn : bool) (g : @gstate A) (log : list event) : list (ev A) :=
  match log with
  | [] => []
  | EOp p :: t => answer o sn g p ++ tent_from o (sn || is_sub_of o p) (g_step g p) t
  | _ :: t => tent_from o sn g t
  end.
Definition tree_entitled (o : nat) (log : list event) : list (ev A) := tent_from o false (g_init v0) log.

(* ---- the same on the machine's newest-first log ---- *)
Definition tentc (o : nat) (e : event) (t : list event) : list (ev A) :=
  match e with EOp p => answer o (seen o t) (gof t) p | _ => [] end.
Fixpoint tentl (o : nat) (l : list event) : list (ev A) :=
  match l with [] => [] | e :: t => tentl o t ++ tentc o e t end.

Definition rcvc (o : nat) (e : event) : list (ev A) :=
  match e with EGot o' n => if Nat.eqb o' o then [n] else [] | _ => [] end.
Fixpoint rcv (o : nat) (l : list event) : list (ev A) :=
  match l with [] => [] | e :: t => rcv o t ++ rcvc o e end.

Definition pdv (o : nat) (i : @instr A) : list (ev A) :=
  match i with IDeliver o' n => if Nat.eqb o' o then [n] else [] | _ => [] end.
Definition pend (o : nat) (k : list (@instr A)) : list (ev A) := flat_map (pdv o) k.

Definition unsub_ev (o : nat) (e : event) : bool := match e with EOp (OUnsub o') => Nat.eqb o' o | _ => false end.
Definition unsubbed (o : nat) (l : list event) : bool := existsb (unsub_ev o) l.

Lemma gev_app : forall a g b, gev g (a ++ b) = gev (gev g a) b.
Proof. induction a as [|x a IH]; intros g b; [reflexivity|]. destruct x; cbn [app gev]; apply IH. Qed.

Lemma gof_gev l : gof l = gev (g_init v0) (rev l).
Proof.
  induction l as [|e t IH]; [reflexivity|]. cbn [rev]. rewrite gev_app, <- IH.
  destruct e; reflexivity.
Qed.

Lemma tent_from_app o : forall a sn g b,
  tent_from o sn g (a ++ b) = tent_from o sn g a ++ tent_from o (sn || existsb (sub_ev o) a) (gev g a) b.
Proof.
  induction a as [|x a IH]; intros sn g b.
  - cbn [app tent_from existsb gev]. now rewrite orb_false_r.
  - cbn [app tent_from]. destruct x as [p|o' n|x]; cbn [existsb sub_ev gev orb].
    + rewrite IH, app_assoc, orb_assoc. reflexivity.
    + apply IH.
    + apply IH.
Qed.

Lemma tent_from_snoc o a sn g e :
  tent_from o sn g (a ++ [e]) =
  tent_from o sn g a ++
  match e with EOp p => answer o (sn || existsb (sub_ev o) a) (gev g a) p | _ => [] end.
Proof. rewrite tent_from_app. destruct e; cbn [tent_from]; now rewrite ?app_nil_r. Qed.

Lemma tentl_entitled o l : tentl o l = tree_entitled o (rev l).
Proof.
  unfold tree_entitled. induction l as [|e t IH]; [reflexivity|].
  cbn [tentl rev]. rewrite tent_from_snoc, <- IH. f_equal. unfold tentc, seen.
  rewrite existsb_rev, <- gof_gev. destruct e; reflexivity.
Qed.

Lemma rcv_view o l : rcv o l = view o (rev l).
Proof.
  induction l as [|e t IH]; [reflexivity|]. cbn [rcv rev]. rewrite view_app, <- IH. f_equal.
Qed.

Lemma pend_app o k1 k2 : pend o (k1 ++ k2) = pend o k1 ++ pend o k2.
Proof. unfold pend. apply flat_map_app. Qed.
Lemma pend_ops o (l : list (@op A)) : pend o (map IOp l) = [].
Proof. induction l; cbn; auto. Qed.

Lemma pend_snapshot_out o (n : ev A) : forall L, ~ In o L -> pend o (map (fun o' => IDeliver o' n) L) = [].
Proof.
  induction L as [|x L IH]; intros Hi; [reflexivity|]. cbn [map pend flat_map pdv].
  destruct (Nat.eqb x o) eqn:E; [apply Nat.eqb_eq in E; subst; exfalso; apply Hi; left; reflexivity|].
  cbn [app]. apply IH. intros H. apply Hi. right. exact H.
Qed.
Lemma pend_snapshot_in o (n : ev A) : forall L, NoDup L -> In o L ->
  pend o (map (fun o' => IDeliver o' n) L) = [n].
Proof.
  induction L as [|x L IH]; intros Hn Hi; [destruct Hi|]. inversion Hn as [|? ? Hx Hn']; subst.
  cbn [map pend flat_map pdv]. fold (pend o (map (fun o' => IDeliver o' n) L)).
  destruct Hi as [->|Hi].
  - now rewrite Nat.eqb_refl, (pend_snapshot_out o n L Hx).
  - destruct (Nat.eqb x o) eqn:E; [apply Nat.eqb_eq in E; subst; contradiction|]. cbn [app]. apply IH; assumption.
Qed.
Lemma pend_greet_same o (G : list (ev A)) : pend o (map (IDeliver o) G) = G.
Proof. induction G as [|n G IH]; [reflexivity|]. cbn [map pend flat_map pdv]. rewrite Nat.eqb_refl. cbn [app]. f_equal. exact IH. Qed.
Lemma pend_greet_other o o' (G : list (ev A)) : o' <> o -> pend o (map (IDeliver o') G) = [].
Proof.
  intros H. induction G as [|n G IH]; [reflexivity|]. cbn [map pend flat_map pdv].
  destruct (Nat.eqb o' o) eqn:E; [apply Nat.eqb_eq in E; contradiction|exact IH].
Qed.

Lemma seen_false_tentl o l : seen o l = false -> tentl o l = [].
Proof.
  induction l as [|e t IH]; intros H; [reflexivity|]. cbn [seen existsb] in H. apply orb_false_iff in H.
  destruct H as [He H]. cbn [tentl]. rewrite (IH H). fold (seen o t) in H. unfold tentc.
  destruct e as [p| |]; try reflexivity. rewrite H. destruct p; cbn [answer]; try reflexivity.
  cbn [sub_ev SubjectTreeFacts.is_sub_of] in He. now rewrite He.
Qed.

Lemma live_status (g : @gstate A) : live g = match g_status g with Live => true | _ => false end.
Proof. reflexivity. Qed.

Lemma g_step_live (g : @gstate A) p : live (g_step g p) = live g && negb (is_end_op p).
Proof. destruct g as [st cu ha]. destruct st, p; reflexivity. Qed.

Lemma gev_live : forall a (g : @gstate A), live (gev g a) = live g && negb (existsb end_ev a).
Proof.
  induction a as [|x a IH]; intros g; [cbn; now rewrite andb_true_r|].
  destruct x as [p|o' n|x]; cbn [gev existsb end_ev orb]; try apply IH.
  rewrite IH, g_step_live, negb_orb, andb_assoc. reflexivity.
Qed.

(* the notification a call hands out when the subject accepts it *)
Definition note_of (p : @op A) : ev A := match p with ONext v => Next v | OErr e => Err e | _ => Done end.

Lemma bcast_live (g : @gstate A) p : is_emission p = true -> live g = true -> bcast K g p = [note_of p].
Proof. unfold bcast. intros Hp ->. destruct p; try discriminate Hp; destruct K; try reflexivity; congruence. Qed.

Lemma answer_nil o sn (g : @gstate A) p :
  (p = OSub o -> sn = true) -> (is_emission p = true -> live g = false) -> answer o sn g p = [].
Proof.
  intros Hs He. destruct p as [o'|o'|v|e| |]; cbn [answer].
  - destruct (Nat.eqb o' o) eqn:E; [|reflexivity]. apply Nat.eqb_eq in E. subst o'. now rewrite (Hs eq_refl).
  - rewrite (bcast_nonemission K g (OUnsub o') eq_refl). now destruct sn.
  - rewrite (bcast_dead K g (ONext v) (He eq_refl)). now destruct sn.
  - rewrite (bcast_dead K g (OErr e) (He eq_refl)). now destruct sn.
  - rewrite (bcast_dead K g ODone (He eq_refl)). now destruct sn.
  - rewrite (bcast_nonemission K g ODispose eq_refl). now destruct sn.
Qed.

Lemma tentc_emit o p l : is_emission p = true -> live (gof l) = true ->
  tentc o (EOp p) l = if seen o l then [note_of p] else [].
Proof. intros Hp Hl. cbn [tentc]. rewrite <- (bcast_live _ p Hp Hl). destruct p; try discriminate Hp; reflexivity. Qed.

(* ---- invariant 1: the subject's flags, exception and value mirror ([Mirror], Subjects/FamilyFacts.v)
        the abstract status of the log ---- *)
Definition AbsInv (c : @cfg A) : Prop := Mirror K (c_st c) (gof (c_rlog c)).

Definition same4 (s s' : @sstate A) : Prop :=
  is_stopped s' = is_stopped s /\ is_disposed s' = is_disposed s /\ exception s' = exception s /\ value s' = value s.

Lemma same4_refl s : same4 s s.
Proof. repeat split. Qed.

Lemma subscribe_greets (s : @sstate A) g o :
  Mirror K s g ->
  match c_subscribe C s o with
  | Some (s', is, _) => g_status g <> Disposed /\ is = map (IDeliver o) (greet K g) /\ Mirror K s' g
  | None => g_status g = Disposed
  end.
Proof.
  intros H. rewrite (mirror_subscribe pynone K s g o H).
  destruct (g_status g); [| |reflexivity]; (split; [discriminate|split; [reflexivity|]]); destruct (live g); exact H.
Qed.

Lemma abs_live (s : @sstate A) g : Mirror K s g -> live g = negb (is_stopped s).
Proof. intros H. rewrite (mirror_stopped K s g H). symmetry. apply negb_involutive. Qed.

Lemma emit_instrs (s : @sstate A) p : is_emission p = true ->
  snd (emission C s p) = map (fun o => IDeliver o (note_of p)) (observers s).
Proof. destruct p; try discriminate; intros _; destruct K; try reflexivity; congruence. Qed.

Lemma skips_gof s m i pre l : skips s m i pre -> Mirror K s (gof l) -> gof (pre ++ l) = gof l.
Proof.
  intros Hsk H. destruct Hsk as [| |p Hp Hd|p Hp Hd Hs| | |]; cbn [app gof g_step]; try reflexivity.
  - apply g_step_dead; [exact (mirror_disposed_dead K _ _ H Hd)|intros ->; discriminate Hp].
  - apply g_step_dead; [now rewrite (abs_live _ _ H), Hs|intros ->; discriminate Hp].
Qed.

Lemma abs_step c : AbsInv c -> AbsInv (step C react c).
Proof.
  unfold AbsInv.
  destruct (step_cases C react c) as [s m l|s m i k l pre Hsk|s m k l o s' is sub Hm Hs|s m k l o Hm Hs
    |s m k l o os Hm Hh|s m k l p Hp Hd Hs|s m k l|s m k l o n os Hm Hs|s m k l o os Hm|s m k l o sub os Hm];
    cbn [c_st c_rlog]; intros H.
  - exact H.
  - now rewrite (skips_gof s m i pre l Hsk H).
  - pose proof (subscribe_greets s _ o H) as HG. rewrite Hs in HG. apply HG.
  - exact H.
  - exact (mirror_detached K o _ _ _ (ado_dispose_detached s os o) H).
  - apply (mirror_emit pynone K s (gof l) p H); [now rewrite (abs_live _ _ H), Hs|exact Hp].
  - apply mirror_dispose.
  - exact H.
  - exact (mirror_detached K o _ _ _ (ado_dispose_detached s os o) H).
  - exact (mirror_detached K o _ _ _ (sub_set_detached sub s os o) H).
Qed.

Lemma abs_init top : AbsInv (init_cfg v0 top).
Proof. apply mirror_init. Qed.

(* ---- invariant 2: a wrapper is stopped only by a terminal notification or by an unsubscribe call ---- *)
Definition noFin (k : list (@instr A)) (o : nat) : Prop := ~ In (IAdoFin o) k.

Definition CauseInv (c : @cfg A) : Prop :=
  (forall o os, c_obs c o = Some os -> a_stopped os = true ->
     has_term (rcv o (c_rlog c)) = true \/ unsubbed o (c_rlog c) = true) /\
  (forall o, In (IAdoFin o) (c_k c) -> has_term (rcv o (c_rlog c)) = true).

Lemma in_fin_map {X} o (f : X -> @instr A) L k :
  (forall x, f x <> IAdoFin o) -> In (IAdoFin o) (map f L ++ k) -> In (IAdoFin o) k.
Proof.
  intros Hf H. apply in_app_or in H. destruct H as [H|H]; [|exact H].
  apply in_map_iff in H. destruct H as [x [E _]]. now destruct (Hf x).
Qed.

Lemma has_term_rcv_mono o pre l : has_term (rcv o l) = true -> has_term (rcv o (pre ++ l)) = true.
Proof.
  intros H. induction pre as [|e pre IH]; [exact H|]. cbn [app rcv]. rewrite has_term_app, IH. reflexivity.
Qed.
Lemma unsubbed_mono o pre l : unsubbed o l = true -> unsubbed o (pre ++ l) = true.
Proof. intros H. unfold unsubbed in *. rewrite existsb_app, H. apply orb_true_r. Qed.

Lemma rcv_got_term o n l : is_terminal n = true -> has_term (rcv o (EGot o n :: l)) = true.
Proof. intros H. cbn [rcv rcvc]. rewrite Nat.eqb_refl, has_term_app. cbn. rewrite H. apply orb_true_r. Qed.

Lemma cause_frame s m k l s' (m' : @omap) k' pre :
  CauseInv (Cfg s m k l) ->
  (forall o os', m' o = Some os' -> a_stopped os' = true ->
     (exists os, m o = Some os /\ a_stopped os = true) \/
     has_term (rcv o (pre ++ l)) = true \/ unsubbed o (pre ++ l) = true) ->
  (forall o, In (IAdoFin o) k' -> In (IAdoFin o) k \/ has_term (rcv o (pre ++ l)) = true) ->
  CauseInv (Cfg s' m' k' (pre ++ l)).
Proof.
  intros [H1 H2] Hm Hk. cbn [c_obs c_k c_rlog] in *. split; cbn [c_obs c_k c_rlog].
  - intros o os' Ho Hs. destruct (Hm o os' Ho Hs) as [[os [E1 E2]]|G]; [|exact G].
    destruct (H1 o os E1 E2) as [G|G]; [left; now apply has_term_rcv_mono|right; now apply unsubbed_mono].
  - intros o Hi. destruct (Hk o Hi) as [G|G]; [|exact G]. apply has_term_rcv_mono. now apply H2.
Qed.

Lemma upd_cases (m : @omap) o x o2 os2 : upd m o x o2 = Some os2 -> (o2 = o /\ os2 = x) \/ (o2 <> o /\ m o2 = Some os2).
Proof.
  unfold upd. destruct (Nat.eqb o2 o) eqn:E.
  - apply Nat.eqb_eq in E. intros [= <-]. now left.
  - apply Nat.eqb_neq in E. intros H. now right.
Qed.

Lemma cause_upd s m i k l s' o x k' pre :
  CauseInv (Cfg s m (i :: k) l) ->
  (a_stopped x = true -> (exists os, m o = Some os /\ a_stopped os = true) \/
     has_term (rcv o (pre ++ l)) = true \/ unsubbed o (pre ++ l) = true) ->
  (forall o', In (IAdoFin o') k' -> In (IAdoFin o') k \/ has_term (rcv o' (pre ++ l)) = true) ->
  CauseInv (Cfg s' (upd m o x) k' (pre ++ l)).
Proof.
  intros HC Hx Hk. apply (cause_frame s m (i :: k) l); [exact HC| |].
  - intros o2 os2 Ho Hs. destruct (upd_cases _ _ _ _ _ Ho) as [[-> ->]|[_ E]]; [exact (Hx Hs)|left; eauto].
  - intros o' Hi. destruct (Hk o' Hi) as [G|G]; [left; now right|now right].
Qed.

Lemma cause_step c : AbsInv c -> CauseInv c -> CauseInv (step C react c).
Proof.
  unfold AbsInv.
  destruct (step_cases C react c) as [s m l|s m i k l pre Hsk|s m k l o s' is sub Hm Hs|s m k l o Hm Hs
    |s m k l o os Hm Hh|s m k l p Hp Hd Hs|s m k l|s m k l o n os Hm Hs|s m k l o os Hm|s m k l o sub os Hm];
    cbn [c_st c_rlog]; intros HA HC; [exact HC|..].
  - apply (cause_frame s m (i :: k) l _ _ _ pre HC); [intros o os' Ho Hs; left; eauto|intros o Hi; left; now right].
  - pose proof (subscribe_greets s _ o HA) as HG. rewrite Hs in HG. destruct HG as (_ & -> & _).
    apply (cause_upd s m _ k l s' o _ _ [EOp (OSub o)] HC); [discriminate|].
    intros o' Hi. left. apply in_fin_map in Hi; [|discriminate]. destruct Hi as [Hi|Hi]; [discriminate|exact Hi].
  - apply (cause_upd s m _ k l s o _ _ [EGot o (Err disposed_exn); EOp (OSub o)] HC).
    + intros _. right. left. now apply rcv_got_term.
    + intros o' Hi. left. apply in_fin_map in Hi; [|discriminate]. destruct Hi as [Hi|Hi]; [discriminate|exact Hi].
  - apply (cause_upd s m _ k l _ o _ k [EOp (OUnsub o)] HC); [|auto].
    intros _. right. right. cbn. now rewrite Nat.eqb_refl.
  - rewrite (emit_instrs s p Hp). apply (cause_frame s m (IOp p :: k) l _ _ _ [EOp p] HC); [intros o os' Ho Hs'; left; eauto|].
    intros o Hi. left. right. apply in_fin_map in Hi; [exact Hi|discriminate].
  - apply (cause_frame s m (IOp ODispose :: k) l _ _ _ [EOp ODispose] HC); [intros o os' Ho Hs; left; eauto|intros o Hi; left; now right].
  - apply (cause_upd s m _ k l s o _ _ [EGot o n] HC).
    + cbn [called a_stopped]. rewrite Hs. cbn [orb]. intros Hn. right. left. now apply rcv_got_term.
    + intros o' Hi. apply in_fin_map in Hi; [|discriminate]. apply in_app_or in Hi. destruct Hi as [Hi|Hi]; [|now left].
      destruct (is_terminal n) eqn:Hn; [|destruct Hi]. destruct Hi as [[= <-]|[]]. right. now apply rcv_got_term.
  - apply (cause_upd s m _ k l _ o _ k [] HC); [|auto].
    intros _. right. left. apply (proj2 HC). now left.
  - apply (cause_upd s m _ k l _ o _ k [] HC); [|auto].
    cbn [with_handle a_stopped]. rewrite sub_set_stopped. intros Hx. left. eauto.
Qed.

Lemma cause_init top : CauseInv (init_cfg v0 top).
Proof.
  split; cbn [init_cfg c_obs c_k c_rlog]; [discriminate|]. intros o Hi. apply in_map_iff in Hi. destruct Hi as [x [E _]]. discriminate.
Qed.

(* ---- an observer is entitled to AT MOST ONE terminal notification ---- *)
Definition tms (l : list (ev A)) : list (ev A) := flat_map (fun n => if is_terminal n then [n] else []) l.
Definition nterm (l : list (ev A)) : nat := length (tms l).

Lemma nterm_app l1 l2 : nterm (l1 ++ l2) = (nterm l1 + nterm l2)%nat.
Proof. unfold nterm, tms. now rewrite flat_map_app, app_length. Qed.
Lemma nterm_perm l1 l2 : Permutation l1 l2 -> nterm l1 = nterm l2.
Proof. intros H. unfold nterm, tms. apply Permutation_length. now apply Permutation_flat_map. Qed.
Lemma nterm_has_term l : has_term l = true -> (1 <= nterm l)%nat.
Proof.
  induction l as [|n l IH]; [discriminate|]. cbn [has_term existsb]. change (n :: l) with ([n] ++ l). rewrite nterm_app.
  destruct (is_terminal n) eqn:E; [intros _; unfold nterm, tms; cbn; rewrite E; cbn; lia|].
  cbn [orb]. intros H. specialize (IH H). lia.
Qed.
Lemma nterm_le1 (n : ev A) : (nterm [n] <= 1)%nat.
Proof. unfold nterm, tms. cbn. destruct (is_terminal n); cbn; lia. Qed.

Lemma greet_live_nterm (g : @gstate A) : live g = true -> nterm (greet K g) = 0%nat.
Proof.
  unfold live, greet. destruct (g_status g); try discriminate. intros _. destruct K; [reflexivity|reflexivity|congruence].
Qed.
Lemma greet_nterm_le (g : @gstate A) : (nterm (greet K g) <= 1)%nat.
Proof.
  unfold greet. destruct (g_status g) as [|t|]; [destruct K; cbn; lia| |apply nterm_le1].
  destruct t; try apply nterm_le1. destruct K; [apply nterm_le1|apply nterm_le1|congruence].
Qed.
(* one call against the budget of terminal notifications: one while the subject is live or o has not
   subscribed yet, none afterwards *)
Lemma answer_term_budget o sn (g : @gstate A) p :
  (nterm (answer o sn g p) + (if live (g_step g p) then 1 else if sn || is_sub_of o p then 0 else 1)
   <= (if live g then 1 else if sn then 0 else 1))%nat.
Proof.
  rewrite g_step_live.
  destruct p as [o'|o'|v|e| |]; cbn [answer SubjectTreeFacts.is_sub_of SubjectTreeFacts.is_end_op negb]; rewrite ?orb_false_r, ?andb_true_r, ?andb_false_r.
  - destruct (Nat.eqb o' o && negb sn) eqn:E.
    + apply andb_true_iff in E. destruct E as [-> E]. apply negb_true_iff in E. subst sn. cbn [orb].
      pose proof (greet_nterm_le g) as HG. destruct (live g) eqn:L; [rewrite (greet_live_nterm g L)|]; lia.
    + destruct (live g), sn, (Nat.eqb o' o); cbn; try lia; discriminate E.
  - rewrite (bcast_nonemission K g (OUnsub o')) by reflexivity. destruct sn, (live g); cbn; lia.
  - unfold bcast. destruct (live g), sn, K; cbn; lia.
  - unfold bcast. destruct (live g), sn; cbn; lia.
  - unfold bcast, final. destruct (live g), sn, K; cbn; try lia; destruct (g_has g); cbn; lia.
  - rewrite (bcast_nonemission K g ODispose) by reflexivity. destruct sn, (live g); cbn; lia.
Qed.

Lemma term_once o : forall log sn g,
  (nterm (tent_from o sn g log) <= (if live g then 1 else if sn then 0 else 1))%nat.
Proof.
  induction log as [|x log IH]; intros sn g; [cbn; destruct (live g), sn; lia|].
  destruct x as [p|o' n|x]; cbn [tent_from]; [|apply IH|apply IH].
  rewrite nterm_app. pose proof (answer_term_budget o sn g p) as Hp.
  specialize (IH (sn || is_sub_of o p) (g_step g p)). lia.
Qed.

Lemma tentl_term_once o l : (nterm (tentl o l) <= 1)%nat.
Proof. rewrite tentl_entitled. exact (term_once o (rev l) false (g_init v0)). Qed.

Lemma two_terms o l (rc pe : list (ev A)) :
  Permutation (rc ++ pe) (tentl o l) -> has_term rc = true -> has_term pe = true -> False.
Proof.
  intros HP H1 H2. pose proof (nterm_perm _ _ HP) as E. rewrite nterm_app in E.
  pose proof (tentl_term_once o l). apply nterm_has_term in H1. apply nterm_has_term in H2. lia.
Qed.

(* ---- invariant 3: received ++ pending ++ dropped is a permutation of the entitlement ---- *)
Definition PermAt (m : @omap) (k : list (@instr A)) (l : list event) (o : nat) : Prop :=
  exists dr, Permutation (rcv o l ++ pend o k ++ dr) (tentl o l) /\
             (forall os, m o = Some os -> a_stopped os = false -> dr = []) /\
             (unsubbed o l = false -> has_term dr = false).
Definition PermInv (c : @cfg A) : Prop := forall o, PermAt (c_obs c) (c_k c) (c_rlog c) o.

Lemma none_all_nil s m k l o (a b dr : list (ev A)) :
  DomInv (Cfg s m k l) -> m o = None -> Permutation (a ++ b ++ dr) (tentl o l) -> a = [] /\ b = [] /\ dr = [].
Proof.
  intros HD Hm HP. rewrite (seen_false_tentl o l) in HP by (apply (HD o); exact Hm).
  apply Permutation_sym, Permutation_nil in HP. apply app_eq_nil in HP. destruct HP as [-> HP].
  apply app_eq_nil in HP. tauto.
Qed.

Lemma dr_close s m k l (m' : @omap) o (a b dr : list (ev A)) :
  DomInv (Cfg s m k l) -> mono m m' -> Permutation (a ++ b ++ dr) (tentl o l) ->
  (forall os, m o = Some os -> a_stopped os = false -> dr = []) ->
  forall os', m' o = Some os' -> a_stopped os' = false -> dr = [].
Proof.
  intros HD Hmono HP Hd os' Hm' Hs'. destruct (m o) as [os|] eqn:Em; [|exact (proj2 (proj2 (none_all_nil s m k l o a b dr HD Em HP)))].
  exact (Hd os eq_refl (mono_unstopped m m' o os os' Hmono Em Hm' Hs')).
Qed.

(* ---- one step, seen from observer o: its received / pending / entitled lists either do not
        change, or change in one of four ways.  PermInv and OrdInv below only look at these. ---- *)
Inductive obs_step (o : nat) : @cfg A -> @cfg A -> Prop :=
| ob_same c c' :
    rcv o (c_rlog c') = rcv o (c_rlog c) -> tentl o (c_rlog c') = tentl o (c_rlog c) ->
    pend o (c_k c') = pend o (c_k c) -> (unsubbed o (c_rlog c') = false -> unsubbed o (c_rlog c) = false) ->
    obs_step o c c'
| ob_greet s m k l s' m' k' l' r p :    (* o's first subscribe call: received r, pending p *)
    m o = None -> rcv o l' = rcv o l ++ r -> pend o k' = p ++ pend o k -> r ++ p = greet K (gof l) ->
    tentl o l' = tentl o l ++ greet K (gof l) ->
    obs_step o (Cfg s m (IOp (OSub o) :: k) l) (Cfg s' m' k' l')
| ob_emit s m k l p s' : is_emission p = true -> subject_live s -> live (gof l) = true ->
    obs_step o (Cfg s m (IOp p :: k) l)
             (Cfg s' m (map (fun o' => IDeliver o' (note_of p)) (observers s) ++ k) (EOp p :: l))
| ob_drop s m k l n : (forall os, m o = Some os -> a_stopped os = true) ->
    obs_step o (Cfg s m (IDeliver o n :: k) l) (Cfg s m k l)
| ob_recv s m k l n os s' m' k' : m o = Some os -> a_stopped os = false -> pend o k' = pend o k ->
    obs_step o (Cfg s m (IDeliver o n :: k) l) (Cfg s' m' k' (EGot o n :: l)).

(* the step logs one call that owes o nothing *)
Lemma ob_quiet o c s' m' k' p :
  answer o (seen o (c_rlog c)) (gof (c_rlog c)) p = [] -> pend o k' = pend o (c_k c) ->
  obs_step o c (Cfg s' m' k' (EOp p :: c_rlog c)).
Proof.
  intros Ha Hk. apply ob_same; cbn [c_rlog c_k rcv rcvc tentl tentc]; [apply app_nil_r|rewrite Ha; apply app_nil_r|exact Hk|].
  cbn [unsubbed existsb]. intros H. apply orb_false_iff in H. apply H.
Qed.

Lemma obs_step_cases o c : AbsInv c -> DomInv c -> obs_step o c (step C react c).
Proof.
  unfold AbsInv.
  destruct (step_cases C react c) as [s m l|s m i k l pre Hsk|s m k l o0 s' is sub Hm Hs|s m k l o0 Hm Hs
    |s m k l o0 os Hm Hh|s m k l p Hp Hd Hs|s m k l|s m k l o0 n os Hm Hs|s m k l o0 os Hm|s m k l o0 sub os Hm];
    cbn [c_st c_rlog]; intros HA HD.
  (* the constructors of [step_to] in order: idle, skip, sub, sub_fail, unsub, emit, dispose, deliver, fin, ret;
     a step about another observer o0 <> o is [ob_same] or [ob_quiet] for o *)
  - apply ob_same; auto.
  - destruct Hsk as [o0 os Hm|o0 Hh|p Hp Hd|p Hp Hd Hs|o0 n Hst|o0 Hm|o0 sub Hm]; cbn [app].
    + apply (ob_quiet o (Cfg s m _ l)); [|reflexivity]. apply answer_nil; [|discriminate].
      intros [= ->]. cbn [c_rlog]. destruct (seen o l) eqn:Sn; [reflexivity|]. apply (HD o) in Sn. cbn [c_obs] in Sn. congruence.
    + apply (ob_quiet o (Cfg s m _ l)); [|reflexivity]. apply answer_nil; discriminate.
    + apply ob_same; cbn [c_rlog c_k rcv rcvc tentl tentc pend flat_map pdv unsubbed existsb unsub_ev orb];
        rewrite ?app_nil_r.
      * reflexivity.
      * rewrite answer_nil; [apply app_nil_r|intros ->; discriminate Hp|]. intros _. exact (mirror_disposed_dead K _ _ HA Hd).
      * reflexivity.
      * intros H. apply orb_false_iff in H. apply H.
    + apply (ob_quiet o (Cfg s m _ l)); [|reflexivity]. apply answer_nil; [intros ->; discriminate Hp|]. intros _. cbn [c_rlog].
      now rewrite (abs_live _ _ HA), Hs.
    + destruct (Nat.eqb o0 o) eqn:E.
      * apply Nat.eqb_eq in E. subst o0. now apply ob_drop.
      * apply ob_same; cbn [c_k c_rlog pend flat_map pdv]; rewrite ?E; auto.
    + apply ob_same; auto.
    + apply ob_same; auto.
  - pose proof (subscribe_greets s _ o0 HA) as HG. rewrite Hs in HG. destruct HG as (_ & -> & _).
    destruct (Nat.eqb o0 o) eqn:E.
    + apply Nat.eqb_eq in E. subst o0. apply (ob_greet o s m k l _ _ _ _ [] (greet K (gof l)) Hm).
      * reflexivity.
      * now rewrite pend_app, pend_greet_same.
      * reflexivity.
      * cbn [tentl tentc answer]. rewrite Nat.eqb_refl.
        now replace (seen o l) with false by (symmetry; exact (proj1 (HD o) Hm)).
    + apply (ob_quiet o (Cfg s m _ l)); cbn [c_rlog c_k answer]; [now rewrite E|].
      rewrite pend_app, pend_greet_other; [reflexivity|now apply Nat.eqb_neq].
  - pose proof (subscribe_greets s _ o0 HA) as HG. rewrite Hs in HG.
    destruct (Nat.eqb o0 o) eqn:E.
    + apply Nat.eqb_eq in E. subst o0. apply (ob_greet o s m k l _ _ _ _ [Err disposed_exn] [] Hm).
      * cbn [rcv rcvc]. now rewrite Nat.eqb_refl, app_nil_r.
      * now rewrite pend_app, pend_ops.
      * unfold greet. now rewrite HG.
      * cbn [tentl tentc answer]. rewrite Nat.eqb_refl.
        replace (seen o l) with false by (symmetry; exact (proj1 (HD o) Hm)). apply app_nil_r.
    + apply ob_same; cbn [c_rlog c_k rcv rcvc tentl tentc answer unsubbed existsb unsub_ev orb]; rewrite ?E, ?app_nil_r; auto.
      now rewrite pend_app, pend_ops.
  - apply (ob_quiet o (Cfg s m _ l)); [apply answer_nil; discriminate|reflexivity].
  - rewrite (emit_instrs s p Hp). apply ob_emit; [exact Hp|split; assumption|now rewrite (abs_live _ _ HA), Hs].
  - apply (ob_quiet o (Cfg s m _ l)); [apply answer_nil; discriminate|reflexivity].
  - assert (Hk : pend o (map IOp (react o0 (calls os)) ++ (if is_terminal n then [IAdoFin o0] else []) ++ k) = pend o k).
    { rewrite pend_app, pend_ops, pend_app. now destruct (is_terminal n). }
    destruct (Nat.eqb o0 o) eqn:E.
    + apply Nat.eqb_eq in E. subst o0. now apply (ob_recv o s m k l n os).
    + apply ob_same; cbn [c_rlog c_k rcv rcvc tentl tentc pend flat_map pdv unsubbed existsb unsub_ev orb]; rewrite ?E, ?app_nil_r; auto.
  - apply ob_same; auto.
  - apply ob_same; auto.
Qed.

Lemma perm_keep c c' o :
  DomInv c -> mono (c_obs c) (c_obs c') -> PermAt (c_obs c) (c_k c) (c_rlog c) o ->
  rcv o (c_rlog c') = rcv o (c_rlog c) -> tentl o (c_rlog c') = tentl o (c_rlog c) -> pend o (c_k c') = pend o (c_k c) ->
  (unsubbed o (c_rlog c') = false -> unsubbed o (c_rlog c) = false) ->
  PermAt (c_obs c') (c_k c') (c_rlog c') o.
Proof.
  destruct c as [s m k l]. cbn [c_obs c_k c_rlog].
  intros HD Hmono [dr [HP [Hd Ht]]] E1 E2 E3 E4. exists dr. rewrite E1, E2, E3. split; [exact HP|]. split.
  - exact (dr_close s m k l _ o _ _ dr HD Hmono HP Hd).
  - intros H. apply Ht, E4, H.
Qed.

Lemma perm_drop s m n k l o :
  DomInv (Cfg s m (IDeliver o n :: k) l) -> CauseInv (Cfg s m (IDeliver o n :: k) l) ->
  PermAt m (IDeliver o n :: k) l o -> (forall os, m o = Some os -> a_stopped os = true) ->
  PermAt m k l o.
Proof.
  intros HD [HC _] [dr [HP [Hd Ht]]] Hst. cbn [c_obs c_rlog] in HC.
  cbn [pend flat_map pdv] in HP. rewrite Nat.eqb_refl in HP. fold (pend o k) in HP. cbn [app] in HP.
  exists (n :: dr). split; [|split].
  - eapply Permutation_trans; [|exact HP]. apply Permutation_app_head. apply Permutation_sym, Permutation_middle.
  - intros os Hm Hs. rewrite (Hst os Hm) in Hs. discriminate.
  - intros Hu. cbn [has_term existsb]. fold (has_term dr). rewrite (Ht Hu), orb_false_r.
    destruct (is_terminal n) eqn:Tn; [exfalso|reflexivity].
    destruct (m o) as [os|] eqn:Em.
    + destruct (HC o os Em (Hst os eq_refl)) as [G|G]; [|congruence].
      apply (two_terms o l (rcv o l) (n :: pend o k ++ dr) HP G). cbn [app has_term existsb]. now rewrite Tn.
    + destruct (none_all_nil s m _ l o (rcv o l) (n :: pend o k) dr HD Em HP) as (_ & G & _). discriminate G.
Qed.

(* who is in the snapshot `self.observers.copy()` of an emission on a live subject: an observer that
   subscribed is, unless its wrapper is stopped; one that did not is not *)
Lemma snapshot_cases (s : @sstate A) m k (l : list event) o (n : ev A) :
  Reg (Cfg s m k l) -> DomInv (Cfg s m k l) -> subject_live s ->
  (seen o l = true /\ pend o (map (fun o' => IDeliver o' n) (observers s)) = [n]) \/
  (pend o (map (fun o' => IDeliver o' n) (observers s)) = [] /\
   ((seen o l = true /\ exists os, m o = Some os /\ a_stopped os = true) \/ (seen o l = false /\ m o = None))).
Proof.
  intros HR HD Hlive. pose proof (reg_nodup _ HR) as Hnd. cbn [c_st] in Hnd.
  destruct (in_dec Nat.eq_dec o (observers s)) as [Hi|Hi].
  - left. split; [|exact (pend_snapshot_in o n _ Hnd Hi)].
    destruct (seen o l) eqn:Sn; [reflexivity|]. destruct (reg_dom _ HR o Hi). apply (HD o). exact Sn.
  - right. split; [exact (pend_snapshot_out o n _ Hi)|]. destruct (seen o l) eqn:Sn.
    + left. split; [reflexivity|]. destruct (m o) as [os|] eqn:Em; [|apply (HD o) in Em; cbn [c_rlog] in Em; congruence].
      exists os. split; [reflexivity|]. destruct (a_stopped os) eqn:St; [reflexivity|].
      destruct Hi. exact (reg_in _ HR o os Em St Hlive).
    + right. split; [reflexivity|]. apply (HD o). exact Sn.
Qed.

(* an emission on a live subject: every observer of the snapshot gets a pending delivery *)
Lemma perm_emit s m p k l o :
  Reg (Cfg s m (IOp p :: k) l) -> DomInv (Cfg s m (IOp p :: k) l) -> CauseInv (Cfg s m (IOp p :: k) l) ->
  PermAt m (IOp p :: k) l o -> subject_live s -> is_emission p = true -> live (gof l) = true ->
  PermAt m (map (fun o' => IDeliver o' (note_of p)) (observers s) ++ k) (EOp p :: l) o.
Proof.
  intros HR HD [HC _] [dr [HPm [Hd Ht]]] Hlive Hp Hl. cbn [c_obs c_rlog] in HC. set (n := note_of p).
  assert (Hun : unsub_ev o (EOp p) = false) by (destruct p; try discriminate Hp; reflexivity).
  cbn [pend flat_map pdv app] in HPm. fold (pend o k) in HPm.
  unfold PermAt. cbn [rcv rcvc tentl unsubbed existsb]. rewrite (tentc_emit o p l Hp Hl), Hun, app_nil_r, pend_app.
  cbn [orb]. fold (unsubbed o l). fold n.
  destruct (snapshot_cases s m _ l o n HR HD Hlive) as [[-> ->]|[-> [(Sn & os & Em & Hst)|[-> _]]]]; cbn [app].
  - (* in the snapshot: one more pending delivery *)
    exists dr. split; [|split; assumption].
    eapply Permutation_trans; [apply Permutation_sym, Permutation_middle|].
    eapply Permutation_trans; [|apply Permutation_cons_append]. apply perm_skip. exact HPm.
  - (* subscribed but not in the snapshot: the wrapper is stopped, n is dropped *)
    rewrite Sn.
    assert (HP' : Permutation (rcv o l ++ pend o k ++ n :: dr) (tentl o l ++ [n])).
    { rewrite app_assoc. eapply Permutation_trans; [apply Permutation_sym, Permutation_middle|].
      eapply Permutation_trans; [|apply Permutation_cons_append]. apply perm_skip.
      rewrite <- app_assoc. exact HPm. }
    exists (n :: dr). split; [exact HP'|]. split.
    + intros os' Hos' Hs'. congruence.
    + intros Hu. cbn [has_term existsb]. fold (has_term dr). rewrite (Ht Hu), orb_false_r.
      destruct (is_terminal n) eqn:Tn; [exfalso|reflexivity].
      destruct (HC o os Em Hst) as [G|G]; [|congruence].
      assert (E : tentl o l ++ [n] = tentl o (EOp p :: l)) by (cbn [tentl]; now rewrite (tentc_emit o p l Hp Hl), Sn).
      rewrite E in HP'. apply (two_terms o _ _ _ HP' G).
      rewrite has_term_app. cbn [has_term existsb]. rewrite Tn. apply orb_true_r.
  - rewrite app_nil_r. exists dr. split; [exact HPm|]. split; assumption.
Qed.

Lemma perm_step c : Reg c -> AbsInv c -> DomInv c -> CauseInv c -> PermInv c -> PermInv (step C react c).
Proof.
  intros HR HA HD HC HP o. specialize (HP o).
  pose proof (step_shape_holds C react c) as [Hmono _]. pose proof (obs_step_cases o c HA HD) as Hob.
  revert HR HD HC HP Hmono. clear HA.
  destruct Hob as [c c' E1 E2 E3 E4|s m k l s' m' k' l' r p Hm Er Ep Eg Et|s m k l p s' Hp Hlive Hl|s m k l n Hst
                  |s m k l n os s' m' k' Hm Hs Ek]; cbn [c_obs c_k c_rlog]; intros HR HD HC HP Hmono.
  - exact (perm_keep c c' o HD Hmono HP E1 E2 E3 E4).
  - destruct HP as [dr [HPm _]].
    destruct (none_all_nil s m _ l o _ _ _ HD Hm HPm) as (R1 & R2 & ->).
    cbn [pend flat_map pdv app] in R2. fold (pend o k) in R2.
    exists []. split; [|split; reflexivity].
    rewrite Er, Ep, Et, R1, R2, (seen_false_tentl o l (proj1 (HD o) Hm)), !app_nil_r, <- Eg.
    apply Permutation_refl.
  - exact (perm_emit s m p k l o HR HD HC HP Hlive Hp Hl).
  - exact (perm_drop s m n k l o HD HC HP Hst).
  - destruct HP as [dr [HPm [Hd Ht]]].
    cbn [pend flat_map pdv] in HPm. rewrite Nat.eqb_refl in HPm. fold (pend o k) in HPm. cbn [app] in HPm.
    exists dr. cbn [rcv rcvc tentl tentc unsubbed existsb unsub_ev orb]. rewrite Nat.eqb_refl, app_nil_r, Ek. split; [|split].
    + rewrite <- app_assoc. exact HPm.
    + exact (dr_close s m (IDeliver o n :: k) l m' o (rcv o l) (n :: pend o k) dr HD Hmono HPm Hd).
    + exact Ht.
Qed.

(* ---- invariant 4: a first subscribe call is answered AT ONCE -- the greeting is the very next
        entry of the log (nothing, not even a re-entrant call, comes in between) ---- *)
Definition LogInv (c : @cfg A) : Prop :=
  forall p2 p1 o n, c_rlog c = p2 ++ EOp (OSub o) :: p1 -> seen o p1 = false -> greet K (gof p1) = [n] ->
    (exists p2', p2 = p2' ++ [EGot o n]) \/
    (p2 = [] /\ exists k' os, c_k c = IDeliver o n :: k' /\ c_obs c o = Some os /\ a_stopped os = false).

Lemma app_split {X} (x : X) p1 l : forall pre p2, pre ++ l = p2 ++ x :: p1 ->
  (exists q, p2 = pre ++ q /\ l = q ++ x :: p1) \/ (exists q1 q2, pre = q1 ++ x :: q2 /\ p2 = q1 /\ p1 = q2 ++ l).
Proof.
  induction pre as [|a pre IH]; intros p2 E.
  - left. exists p2. split; [reflexivity|exact E].
  - destruct p2 as [|b p2]; cbn [app] in E.
    + injection E as -> E. right. exists [], pre. repeat split. now symmetry.
    + injection E as -> E. destruct (IH p2 E) as [[q [-> El]]|(q1 & q2 & -> & -> & ->)].
      * left. exists q. split; [reflexivity|exact El].
      * right. exists (b :: q1), q2. repeat split.
Qed.

Lemma log_old s m i k l (pre : list event) :
  LogInv (Cfg s m (i :: k) l) -> (forall o n, i <> IDeliver o n) ->
  forall q p1 o n, l = q ++ EOp (OSub o) :: p1 -> seen o p1 = false -> greet K (gof p1) = [n] ->
    exists p2', pre ++ q = p2' ++ [EGot o n].
Proof.
  intros HL Hi q p1 o n El Sn Hg. destruct (HL q p1 o n El Sn Hg) as [[p2' ->]|[-> (k' & os & Ek & _)]].
  - exists (pre ++ p2'). now rewrite app_assoc.
  - cbn [c_k] in Ek. injection Ek as -> _. now destruct (Hi o n).
Qed.

Lemma log_frame s m i k l s' (m' : @omap) k' pre :
  LogInv (Cfg s m (i :: k) l) -> (forall o n, i <> IDeliver o n) -> (forall o, ~ In (EOp (OSub o)) pre) ->
  LogInv (Cfg s' m' k' (pre ++ l)).
Proof.
  intros HL Hi Hp p2 p1 o n E Sn Hg. cbn [c_rlog] in E.
  destruct (app_split (EOp (OSub o)) p1 l _ p2 E) as [[q [-> El]]|(q1 & q2 & Ep & _)].
  - left. exact (log_old s m i k l pre HL Hi q p1 o n El Sn Hg).
  - exfalso. apply (Hp o). rewrite Ep. apply in_or_app. right. left. reflexivity.
Qed.

Lemma log_step c : AbsInv c -> DomInv c -> LogInv c -> LogInv (step C react c).
Proof.
  unfold AbsInv.
  destruct (step_cases C react c) as [s m l|s m i k l pre Hsk|s m k l o0 s' is sub Hm Hs|s m k l o0 Hm Hs
    |s m k l o0 os Hm Hh|s m k l p Hp Hd Hs|s m k l|s m k l o0 n0 os Hm Hs|s m k l o0 os Hm|s m k l o0 sub os Hm];
    cbn [c_st c_rlog]; intros HA HD HL; [exact HL|..].
  - destruct Hsk as [o0 os Hm|o0 Hh|p Hp Hd|p Hp Hd Hs|o0 n0 Hst|o0 Hm|o0 sub Hm].
    + (* the id was used before: this is not o0's first subscribe call *)
      intros [|b p2] p1 o n E Sn Hg; cbn [c_rlog app] in E.
      * exfalso. injection E as -> ->. apply (HD o) in Sn. cbn [c_obs] in Sn. congruence.
      * injection E as <- E. left. exact (log_old s m (IOp (OSub o0)) k l [_] HL ltac:(intros; discriminate) p2 p1 o n E Sn Hg).
    + apply (log_frame s m _ k l _ _ _ _ HL); [discriminate|intros o [H|[]]; discriminate].
    + apply (log_frame s m _ k l _ _ _ _ HL); [discriminate|]. intros o [H|[H|[]]]; [discriminate|]. injection H as ->. discriminate Hp.
    + apply (log_frame s m _ k l _ _ _ _ HL); [discriminate|]. intros o [H|[]]. injection H as ->. discriminate Hp.
    + intros p2 p1 o n E Sn Hg. destruct (HL p2 p1 o n E Sn Hg) as [G|[-> (k' & os & Ek & Eo & Es)]]; [left; exact G|].
      exfalso. cbn [c_k c_obs] in Ek, Eo. injection Ek as -> -> _. rewrite (Hst os Eo) in Es. discriminate.
    + apply (log_frame s m _ k l _ _ _ [] HL); [discriminate|intros o []].
    + apply (log_frame s m _ k l _ _ _ [] HL); [discriminate|intros o []].
  - (* o0's first subscribe call: its greeting is the next instruction *)
    pose proof (subscribe_greets s _ o0 HA) as HG. rewrite Hs in HG. destruct HG as (_ & -> & _).
    intros [|b p2] p1 o n E Sn Hg; cbn [c_rlog app] in E.
    + right. injection E as -> ->. split; [reflexivity|]. rewrite Hg. cbn [map app c_k c_obs].
      do 2 eexists. split; [reflexivity|]. split; [apply upd_same|reflexivity].
    + injection E as <- E. left. exact (log_old s m (IOp (OSub o0)) k l [_] HL ltac:(intros; discriminate) p2 p1 o n E Sn Hg).
  - (* _subscribe_core raised: DisposedException has been handed over already *)
    pose proof (subscribe_greets s _ o0 HA) as HG. rewrite Hs in HG.
    intros [|b [|b' p2]] p1 o n E Sn Hg; cbn [c_rlog app] in E.
    + discriminate E.
    + left. injection E as <- -> ->. unfold greet in Hg. rewrite HG in Hg. injection Hg as <-. now exists [].
    + injection E as <- <- E. left.
      exact (log_old s m (IOp (OSub o0)) k l [_; _] HL ltac:(intros; discriminate) p2 p1 o n E Sn Hg).
  - apply (log_frame s m _ k l _ _ _ [_] HL); [discriminate|intros o [H|[]]; discriminate].
  - apply (log_frame s m _ k l _ _ _ [_] HL); [discriminate|]. intros o [H|[]]. injection H as ->. discriminate Hp.
  - apply (log_frame s m _ k l _ _ _ [_] HL); [discriminate|intros o [H|[]]; discriminate].
  - (* a delivery: it answers the subscribe call on top of the log, if there is one *)
    intros [|b p2] p1 o n E Sn Hg; cbn [c_rlog app] in E; [discriminate E|]. injection E as <- E. left.
    destruct (HL p2 p1 o n E Sn Hg) as [[p2' ->]|[-> (k'' & os' & Ek & _)]].
    + now exists (EGot o0 n0 :: p2').
    + cbn [c_k] in Ek. injection Ek as -> -> _. now exists [].
  - apply (log_frame s m _ k l _ _ _ [] HL); [discriminate|intros o []].
  - apply (log_frame s m _ k l _ _ _ [] HL); [discriminate|intros o []].
Qed.

Lemma log_init top : LogInv (init_cfg v0 top).
Proof. intros p2 p1 o n E. cbn [init_cfg c_rlog] in E. destruct p2; discriminate E. Qed.

(* the invariants above, carried along a run together; K for the section's [K : kind] (Subject or Behavior) *)
Record TreeInvK (c : @cfg A) : Prop := {
  tk_reg : Reg c; tk_abs : AbsInv c; tk_dom : DomInv c; tk_cause : CauseInv c; tk_perm : PermInv c; tk_log : LogInv c }.

Lemma tree_invK_step c : TreeInvK c -> TreeInvK (step C react c).
Proof.
  intros [H1 H2 H3 H4 H5 H6]. constructor.
  - exact (Reg_step pynone K react c H1).
  - apply abs_step, H2.
  - apply dom_step, H3.
  - apply cause_step; assumption.
  - apply perm_step; assumption.
  - apply log_step; assumption.
Qed.

Lemma tree_invK_init top : TreeInvK (init_cfg v0 top).
Proof.
  constructor.
  - apply Reg_init.
  - apply abs_init.
  - intros o. cbn. tauto.
  - apply cause_init.
  - intros o. exists []. cbn [init_cfg c_obs c_k c_rlog rcv tentl]. rewrite pend_ops. split; [constructor|split; reflexivity].
  - apply log_init.
Qed.

Lemma tree_invK_run top fuel : TreeInvK (run C react fuel (init_cfg v0 top)).
Proof. apply (run_ind C react TreeInvK); [apply tree_invK_step|apply tree_invK_init]. Qed.

(* received ++ pending ++ dropped is the entitlement; nothing is dropped for a live wrapper;
   no terminal notification is dropped unless an unsubscribe call for o was made *)
Theorem tree_notifications top fuel o :
  let c := run C react fuel (init_cfg v0 top) in
  exists dropped,
    Permutation (view o (log_of c) ++ pend o (c_k c) ++ dropped) (tree_entitled o (log_of c)) /\
    (forall os, c_obs c o = Some os -> a_stopped os = false -> dropped = []) /\
    (existsb (unsub_ev o) (log_of c) = false -> has_term dropped = false).
Proof.
  intros c. destruct (tk_perm _ (tree_invK_run top fuel) o) as [dr [HP [Hd Ht]]]. fold c in HP, Hd, Ht.
  exists dr. unfold log_of. rewrite <- rcv_view, <- tentl_entitled, existsb_rev. split; [exact HP|]. split; assumption.
Qed.

Corollary tree_finished_live top fuel o os :
  let c := run C react fuel (init_cfg v0 top) in
  c_k c = [] -> c_obs c o = Some os -> a_stopped os = false ->
  Permutation (view o (log_of c)) (tree_entitled o (log_of c)).
Proof.
  intros c Hk Hm Hs. destruct (tree_notifications top fuel o) as [dr [HP [Hd _]]]. fold c in HP, Hd.
  rewrite (Hd os Hm Hs), Hk in HP. cbn [pend flat_map] in HP. now rewrite !app_nil_r in HP.
Qed.

Corollary tree_sound top fuel o n :
  let c := run C react fuel (init_cfg v0 top) in
  In n (view o (log_of c)) -> In n (tree_entitled o (log_of c)).
Proof.
  intros c Hin. destruct (tree_notifications top fuel o) as [dr [HP _]]. fold c in HP.
  apply (Permutation_in n HP). apply in_or_app. left. exact Hin.
Qed.

Lemma has_term_in (l : list (ev A)) t : In t l -> is_terminal t = true -> has_term l = true.
Proof. intros Hi Ht. apply existsb_exists. exists t. split; assumption. Qed.

Lemma wellformed_term_last (l : list (ev A)) t :
  wellformed l = true -> In t l -> is_terminal t = true -> exists vs, l = map Next vs ++ [t].
Proof.
  induction l as [|x l IH]; intros Hw Hi Ht; [destruct Hi|].
  destruct x as [a|e|].
  - destruct Hi as [<-|Hi]; [discriminate Ht|]. destruct (IH Hw Hi Ht) as [vs ->]. exists (a :: vs). reflexivity.
  - cbn [wellformed] in Hw. destruct l; [|discriminate Hw]. destruct Hi as [<-|[]]. exists []. reflexivity.
  - cbn [wellformed] in Hw. destruct l; [|discriminate Hw]. destruct Hi as [<-|[]]. exists []. reflexivity.
Qed.

(* a terminal notification o is entitled to is never lost unless o was unsubscribed: it has been
   received or is about to be handed to o's wrapper *)
Theorem tree_terminal_not_lost top fuel o t :
  let c := run C react fuel (init_cfg v0 top) in
  existsb (unsub_ev o) (log_of c) = false ->
  In t (tree_entitled o (log_of c)) -> is_terminal t = true ->
  In t (view o (log_of c)) \/ In t (pend o (c_k c)).
Proof.
  intros c Hu Hi Ht. destruct (tree_notifications top fuel o) as [dr [HP [_ Hd]]]. fold c in HP, Hd.
  apply (Permutation_in t (Permutation_sym HP)) in Hi. apply in_app_or in Hi. destruct Hi as [Hi|Hi]; [now left|].
  apply in_app_or in Hi. destruct Hi as [Hi|Hi]; [now right|].
  rewrite (has_term_in dr t Hi Ht) in Hd. discriminate (Hd Hu).
Qed.

(* ... so when the run has finished it HAS been received: exactly once, and nothing after it *)
Theorem tree_terminal_received top fuel o t :
  let c := run C react fuel (init_cfg v0 top) in
  c_k c = [] -> existsb (unsub_ev o) (log_of c) = false ->
  In t (tree_entitled o (log_of c)) -> is_terminal t = true ->
  exists vs, view o (log_of c) = map Next vs ++ [t].
Proof.
  intros c Hk Hu Hi Ht. destruct (tree_terminal_not_lost top fuel o t Hu Hi Ht) as [G|G]; fold c in G.
  - exact (wellformed_term_last _ t (views_wellformed C react v0 top fuel o) G Ht).
  - rewrite Hk in G. destruct G.
Qed.

(* the first subscribe call of o is answered at once: the greeting is the next entry of the log, or
   the very next instruction *)
Lemma answered_at_once top fuel o p1 rest n :
  let c := run C react fuel (init_cfg v0 top) in
  log_of c = p1 ++ EOp (OSub o) :: rest -> existsb (sub_ev o) p1 = false ->
  greet K (gev (g_init v0) p1) = [n] ->
  (rest = [] /\ exists k', c_k c = IDeliver o n :: k') \/ exists rest', rest = EGot o n :: rest'.
Proof.
  intros c E Sn Hg. pose proof (tk_log _ (tree_invK_run top fuel)) as HL. fold c in HL.
  assert (E' : c_rlog c = rev rest ++ EOp (OSub o) :: rev p1).
  { unfold log_of in E. apply (f_equal (@rev _)) in E. rewrite rev_involutive in E. rewrite E, rev_app_distr. cbn [rev].
    now rewrite <- app_assoc. }
  destruct (HL (rev rest) (rev p1) o n E') as [[p2' Ep]|[Ep (k' & os & Ek & _)]].
  - unfold seen. now rewrite existsb_rev.
  - now rewrite gof_gev, rev_involutive.
  - right. exists (rev p2'). apply (f_equal (@rev _)) in Ep. rewrite rev_involutive, rev_app_distr in Ep. exact Ep.
  - left. split; [|now exists k']. apply (f_equal (@rev _)) in Ep. now rewrite rev_involutive in Ep.
Qed.

Theorem tree_answered_at_once top fuel o p1 rest n :
  let c := run C react fuel (init_cfg v0 top) in
  log_of c = p1 ++ EOp (OSub o) :: rest -> existsb (sub_ev o) p1 = false ->
  greet K (gev (g_init v0) p1) = [n] ->
  (rest = [] /\ c_k c <> []) \/ exists rest', rest = EGot o n :: rest'.
Proof.
  intros c E Sn Hg. destruct (answered_at_once top fuel o p1 rest n E Sn Hg) as [[-> [k' Ek]]|H]; [left|now right].
  fold c in Ek. split; [reflexivity|]. rewrite Ek. discriminate.
Qed.

Lemma tree_entitled_term_once o log : (nterm (tree_entitled o log) <= 1)%nat.
Proof. exact (term_once o log false (g_init v0)). Qed.

Lemma tent_not_seen o : forall a g, existsb (sub_ev o) a = false -> tent_from o false g a = [].
Proof.
  induction a as [|x a IH]; intros g H; [reflexivity|]. cbn [existsb] in H. apply orb_false_iff in H. destruct H as [Hx H].
  destruct x as [p|o' n|x]; cbn [tent_from]; try (apply IH; exact H).
  cbn [sub_ev] in Hx. rewrite Hx. cbn [orb]. rewrite (IH _ H), app_nil_r.
  destruct p; cbn [answer]; try reflexivity. cbn [SubjectTreeFacts.is_sub_of] in Hx. now rewrite Hx.
Qed.

Lemma tent_dead_seen o : forall a g, live g = false -> tent_from o true g a = [].
Proof.
  induction a as [|x a IH]; intros g L; [reflexivity|]. destruct x as [p|o' n|x]; cbn [tent_from orb]; try (apply IH; exact L).
  rewrite IH by (rewrite g_step_live, L; reflexivity). rewrite app_nil_r.
  destruct p; cbn [answer]; rewrite ?andb_false_r; try reflexivity; apply (bcast_dead K g _ L).
Qed.

(* [Ended] (Family.v) takes any [ev A]; the status of a run never holds a non-terminal one *)
Definition gok (g : @gstate A) : Prop := forall v, g_status g <> Ended (Next v).
Lemma gok_step g p : gok g -> gok (g_step g p).
Proof. intros H v. destruct p; cbn [g_step]; try apply H; try (destruct (live g); cbn; [discriminate|apply H]). discriminate. Qed.
Lemma gok_gev : forall a g, gok g -> gok (gev g a).
Proof. induction a as [|x a IH]; intros g H; [exact H|]. destruct x; cbn [gev]; try (apply IH; exact H). apply IH, gok_step, H. Qed.
Lemma gok_init : gok (g_init v0).
Proof. intros v. discriminate. Qed.

Lemma greet_dead (g : @gstate A) : gok g -> live g = false -> exists n, greet K g = [n] /\ is_terminal n = true.
Proof.
  unfold gok, live, greet. intros Hk L. destruct (g_status g) as [|t|]; [discriminate| |eexists; split; reflexivity].
  destruct t as [v|e|]; [now destruct (Hk v)|eexists; split; reflexivity|].
  destruct K; [eexists; split; reflexivity|eexists; split; reflexivity|congruence].
Qed.

Definition is_term_call (p : @op A) (t : ev A) : Prop :=
  match p, t with OErr e, Err e' => e = e' | ODone, Done => True | _, _ => False end.

(* o subscribed, then -- before any terminating call -- on_error / on_completed is called (by the
   driver or from inside a callback): o is entitled to that terminal notification *)
Lemma entitled_terminal_call o p1 p2 p3 p t :
  existsb end_ev (p1 ++ EOp (OSub o) :: p2) = false -> is_term_call p t ->
  In t (tree_entitled o (p1 ++ EOp (OSub o) :: p2 ++ EOp p :: p3)).
Proof.
  intros He Hp. unfold tree_entitled.
  replace (p1 ++ EOp (OSub o) :: p2 ++ EOp p :: p3) with ((p1 ++ EOp (OSub o) :: p2) ++ EOp p :: p3)
    by (rewrite <- app_assoc; reflexivity).
  rewrite tent_from_app. apply in_or_app. right.
  assert (Hs : existsb (sub_ev o) (p1 ++ EOp (OSub o) :: p2) = true).
  { rewrite existsb_app. cbn [existsb sub_ev SubjectTreeFacts.is_sub_of]. rewrite Nat.eqb_refl. cbn. apply orb_true_r. }
  rewrite Hs. cbn [orb tent_from]. apply in_or_app. left.
  assert (L : live (gev (g_init v0) (p1 ++ EOp (OSub o) :: p2)) = true) by (rewrite gev_live, He; reflexivity).
  destruct p, t; cbn [is_term_call] in Hp; try destruct Hp; cbn [answer].
  - rewrite (bcast_live _ (OErr _) eq_refl L). now left.
  - rewrite (bcast_live _ ODone eq_refl L). now left.
Qed.

Lemma is_term_call_terminal (p : @op A) t : is_term_call p t -> is_terminal t = true.
Proof. destruct p, t; cbn; try tauto; reflexivity. Qed.

(* an observer subscribed when on_error / on_completed is called -- by the driver or from inside a
   callback -- and for which no unsubscribe call is ever made has, when the run has finished,
   received that terminal notification: exactly once, as the last thing it received *)
Theorem tree_terminal_call_reaches top fuel o p1 p2 p3 p t :
  let c := run C react fuel (init_cfg v0 top) in
  c_k c = [] ->
  log_of c = p1 ++ EOp (OSub o) :: p2 ++ EOp p :: p3 ->
  existsb end_ev (p1 ++ EOp (OSub o) :: p2) = false -> is_term_call p t ->
  existsb (unsub_ev o) (log_of c) = false ->
  exists vs, view o (log_of c) = map Next vs ++ [t].
Proof.
  intros c Hk E He Hp Hu. apply (tree_terminal_received top fuel o t Hk Hu); [|exact (is_term_call_terminal p t Hp)].
  fold c. rewrite E. exact (entitled_terminal_call o p1 p2 p3 p t He Hp).
Qed.

(* the same while the run is still going on: received, or about to be handed to o's wrapper *)
Theorem tree_terminal_call_not_lost top fuel o p1 p2 p3 p t :
  let c := run C react fuel (init_cfg v0 top) in
  log_of c = p1 ++ EOp (OSub o) :: p2 ++ EOp p :: p3 ->
  existsb end_ev (p1 ++ EOp (OSub o) :: p2) = false -> is_term_call p t ->
  existsb (unsub_ev o) (log_of c) = false ->
  In t (view o (log_of c)) \/ In t (pend o (c_k c)).
Proof.
  intros c E He Hp Hu. apply (tree_terminal_not_lost top fuel o t Hu); [|exact (is_term_call_terminal p t Hp)].
  fold c. rewrite E. exact (entitled_terminal_call o p1 p2 p3 p t He Hp).
Qed.

(* o subscribes (first time) to a subject that is no longer live: its whole entitlement is the greeting *)
Lemma entitled_late o p1 rest :
  existsb (sub_ev o) p1 = false -> live (gev (g_init v0) p1) = false ->
  tree_entitled o (p1 ++ EOp (OSub o) :: rest) = greet K (gev (g_init v0) p1).
Proof.
  intros Hs L. unfold tree_entitled. rewrite tent_from_app, (tent_not_seen o p1 _ Hs), Hs. cbn [app orb tent_from answer].
  rewrite Nat.eqb_refl. cbn [andb negb orb SubjectTreeFacts.is_sub_of]. rewrite Nat.eqb_refl, tent_dead_seen, app_nil_r; [reflexivity|exact L].
Qed.

(* an observer arriving after termination / disposal receives the terminal notification (resp.
   DisposedException), at once, and nothing else -- ever *)
Theorem tree_late_subscriber top fuel o p1 rest :
  let c := run C react fuel (init_cfg v0 top) in
  log_of c = p1 ++ EOp (OSub o) :: rest -> existsb (sub_ev o) p1 = false ->
  live (gev (g_init v0) p1) = false ->
  exists n, greet K (gev (g_init v0) p1) = [n] /\ is_terminal n = true /\
    ((rest = [] /\ c_k c <> [] /\ view o (log_of c) = []) \/
     ((exists rest', rest = EGot o n :: rest') /\ view o (log_of c) = [n])).
Proof.
  intros c E Hs L. destruct (greet_dead _ (gok_gev p1 _ gok_init) L) as [n [Hg Ht]]. exists n. split; [exact Hg|]. split; [exact Ht|].
  destruct (tree_notifications top fuel o) as [dr [HP _]]. fold c in HP.
  rewrite E, (entitled_late o p1 rest Hs L), Hg in HP. rewrite <- E in HP.
  (* received ++ pending ++ dropped has one element: whatever is pending or in the log after the call is all of it *)
  apply Permutation_length in HP. rewrite !app_length in HP. cbn [length] in HP.
  destruct (answered_at_once top fuel o p1 rest n E Hs Hg) as [[-> [k' Ek]]|[rest' ->]].
  - fold c in Ek. left. split; [reflexivity|]. split; [rewrite Ek; discriminate|].
    rewrite Ek in HP. cbn [pend flat_map pdv] in HP. rewrite Nat.eqb_refl in HP. cbn [app length] in HP.
    destruct (view o (log_of c)); [reflexivity|cbn [length] in HP; lia].
  - right. split; [eexists; reflexivity|]. rewrite E, view_app in HP |- *. cbn [view] in HP |- *. rewrite Nat.eqb_refl in HP |- *.
    rewrite app_length in HP. cbn [length] in HP. destruct (view o p1); [|cbn [length] in HP; lia].
    destruct (view o rest'); [reflexivity|cbn [length] in HP; lia].
Qed.

(* ---- ORDER, when callbacks do not emit ----
   On arbitrary call trees deliveries are depth first and an observer may receive values in another
   order than the calls were made (C20_witness_tree_order).  If the observers' callbacks only
   subscribe, unsubscribe and dispose (themselves or others) -- the re-entrancy C20 / C21 quantify
   over -- every emission is made at the top level, and then ORDER holds: what o received, followed by
   what is about to be handed to it, is an ordered SUBSEQUENCE of its entitlement (the missing
   notifications are the dropped ones), and for a live wrapper it IS the entitlement, in call order. *)
Inductive subseq {X : Type} : list X -> list X -> Prop :=
| subseq_nil : subseq [] []
| subseq_skip x l1 l2 : subseq l1 l2 -> subseq l1 (x :: l2)
| subseq_keep x l1 l2 : subseq l1 l2 -> subseq (x :: l1) (x :: l2).

Lemma subseq_refl {X} (l : list X) : subseq l l.
Proof. induction l; constructor; assumption. Qed.
Lemma subseq_nil_l {X} (l : list X) : subseq [] l.
Proof. induction l; constructor; assumption. Qed.
Lemma subseq_nil_r {X} (l : list X) : subseq l [] -> l = [].
Proof. intros H. inversion H. reflexivity. Qed.
Lemma subseq_app_tail {X} (l1 l2 r : list X) : subseq l1 l2 -> subseq (l1 ++ r) (l2 ++ r).
Proof. induction 1; cbn [app]; [apply subseq_refl|now apply subseq_skip|now apply subseq_keep]. Qed.
Lemma subseq_snoc_skip {X} (l1 l2 : list X) x : subseq l1 l2 -> subseq l1 (l2 ++ [x]).
Proof. induction 1; cbn [app]; [apply subseq_skip, subseq_nil|now apply subseq_skip|now apply subseq_keep]. Qed.
Lemma subseq_trans {X} (l2 l3 : list X) : subseq l2 l3 -> forall l1, subseq l1 l2 -> subseq l1 l3.
Proof.
  induction 1 as [|x l2 l3 H IH|x l2 l3 H IH]; intros l1 H1; [exact H1|apply subseq_skip, IH, H1|].
  inversion H1; subst; [apply subseq_skip, IH; assumption|apply subseq_keep, IH; assumption].
Qed.
Lemma subseq_drop_mid {X} (a b l : list X) x : subseq (a ++ x :: b) l -> subseq (a ++ b) l.
Proof.
  intros H. apply (subseq_trans _ _ H). clear H. induction a as [|y a IH]; cbn [app]; [apply subseq_skip, subseq_refl|apply subseq_keep, IH].
Qed.

Section Ordered.
Context (Hq : forall o j p, In p (react o j) -> is_emission p = false).

Definition NoDel (k : list (@instr A)) : Prop := forall o n, ~ In (IDeliver o n) k.
Definition EmitClean (k : list (@instr A)) : Prop :=
  forall k1 p k2, k = k1 ++ IOp p :: k2 -> is_emission p = true -> NoDel k2.

Lemma nodel_pend o k : NoDel k -> pend o k = [].
Proof.
  induction k as [|i k IH]; intros H; [reflexivity|]. cbn [pend flat_map]. fold (pend o k).
  rewrite IH by (intros o' n Hi; apply (H o' n); now right). rewrite app_nil_r.
  destruct i as [p|o' n| |]; try reflexivity. exfalso. apply (H o' n). now left.
Qed.

Lemma clean_push i k new :
  EmitClean (i :: k) -> (forall p, In (IOp p) new -> is_emission p = false) -> EmitClean (new ++ k).
Proof.
  intros H Hn k1 p k2 E Hp.
  destruct (app_split (IOp p) k2 k new k1 E) as [[q [-> Ek]]|(q1 & q2 & En & _)].
  - apply (H (i :: q) p k2); [now rewrite Ek|exact Hp].
  - rewrite (Hn p) in Hp; [discriminate|]. rewrite En. apply in_or_app. right. now left.
Qed.

(* what a callback pushes: its reaction, which does not emit, then instructions that are no calls *)
Lemma new_ops_quiet o j (extra : list (@instr A)) :
  (forall p, ~ In (IOp p) extra) -> forall p, In (IOp p) (map IOp (react o j) ++ extra) -> is_emission p = false.
Proof.
  intros He p Hi. apply in_app_or in Hi. destruct Hi as [Hi|Hi]; [|now destruct (He p)].
  apply in_map_iff in Hi. destruct Hi as [x [[= ->] Hx]]. exact (Hq o j p Hx).
Qed.

Lemma clean_step c : AbsInv c -> EmitClean (c_k c) -> EmitClean (c_k (step C react c)).
Proof.
  unfold AbsInv.
  destruct (step_cases C react c) as [s m l|s m i k l pre Hsk|s m k l o s' is sub Hm Hs|s m k l o Hm Hs
    |s m k l o os Hm Hh|s m k l p Hp Hd Hs|s m k l|s m k l o n os Hm Hs|s m k l o os Hm|s m k l o sub os Hm];
    cbn [c_st c_rlog c_k]; intros HA HE; [exact HE|..];
    try exact (clean_push _ k [] HE ltac:(intros p0 [])).
  - pose proof (subscribe_greets s _ o HA) as HG. rewrite Hs in HG. destruct HG as (_ & -> & _).
    change (map (IDeliver o) (greet K (gof l)) ++ ISubRet o (Some sub) :: k)
      with (map (IDeliver o) (greet K (gof l)) ++ [ISubRet o (Some sub)] ++ k). rewrite app_assoc.
    apply (clean_push _ k _ HE). intros p Hi. apply in_app_or in Hi. destruct Hi as [Hi|[Hi|[]]]; [|discriminate Hi].
    apply in_map_iff in Hi. destruct Hi as [x [E _]]. discriminate E.
  - change (map IOp (react o 0) ++ ISubRet o None :: k) with (map IOp (react o 0) ++ [ISubRet o None] ++ k). rewrite app_assoc.
    apply (clean_push _ k _ HE), new_ops_quiet. intros p [Hi|[]]. discriminate Hi.
  - rewrite (emit_instrs s p Hp). apply (clean_push _ k _ HE). intros p0 Hi.
    apply in_map_iff in Hi. destruct Hi as [x [E _]]. discriminate E.
  - rewrite app_assoc. apply (clean_push _ k _ HE), new_ops_quiet. intros p Hi.
    destruct (is_terminal n); [destruct Hi as [Hi|[]]; discriminate Hi|destruct Hi].
Qed.

Lemma clean_init top : EmitClean (c_k (init_cfg v0 top)).
Proof.
  intros k1 p k2 E _ o n Hi. cbn [init_cfg c_k] in E.
  assert (H : In (IDeliver o n) (map IOp top)) by (rewrite E; apply in_or_app; right; right; exact Hi).
  apply in_map_iff in H. destruct H as [x [Ex _]]. discriminate Ex.
Qed.

Definition OrdAt (m : @omap) (k : list (@instr A)) (l : list event) (o : nat) : Prop :=
  subseq (rcv o l ++ pend o k) (tentl o l) /\
  (forall os, m o = Some os -> a_stopped os = false -> rcv o l ++ pend o k = tentl o l).
Definition OrdInv (c : @cfg A) : Prop := forall o, OrdAt (c_obs c) (c_k c) (c_rlog c) o.

Lemma ord_close s m k l (m' : @omap) o (X : list (ev A)) :
  DomInv (Cfg s m k l) -> mono m m' -> subseq X (tentl o l) ->
  (forall os, m o = Some os -> a_stopped os = false -> X = tentl o l) ->
  forall os', m' o = Some os' -> a_stopped os' = false -> X = tentl o l.
Proof.
  intros HD Hmono Hs Hd os' Hm' Hs'. destruct (m o) as [os|] eqn:Em.
  - exact (Hd os eq_refl (mono_unstopped m m' o os os' Hmono Em Hm' Hs')).
  - rewrite (seen_false_tentl o l) in * by (apply (HD o); exact Em). now apply subseq_nil_r.
Qed.

Lemma ord_keep c c' o :
  DomInv c -> mono (c_obs c) (c_obs c') -> OrdAt (c_obs c) (c_k c) (c_rlog c) o ->
  rcv o (c_rlog c') = rcv o (c_rlog c) -> tentl o (c_rlog c') = tentl o (c_rlog c) -> pend o (c_k c') = pend o (c_k c) ->
  OrdAt (c_obs c') (c_k c') (c_rlog c') o.
Proof.
  destruct c as [s m k l]. cbn [c_obs c_k c_rlog].
  intros HD Hmono [Hs Hd] E1 E2 E3. unfold OrdAt. rewrite E1, E2, E3. split; [exact Hs|].
  exact (ord_close s m k l _ o _ HD Hmono Hs Hd).
Qed.

(* an emission is made at the top level: nothing is pending, the new deliveries come last *)
Lemma ord_emit s m p k l o :
  Reg (Cfg s m (IOp p :: k) l) -> DomInv (Cfg s m (IOp p :: k) l) -> EmitClean (IOp p :: k) ->
  OrdAt m (IOp p :: k) l o -> subject_live s -> is_emission p = true -> live (gof l) = true ->
  OrdAt m (map (fun o' => IDeliver o' (note_of p)) (observers s) ++ k) (EOp p :: l) o.
Proof.
  intros HR HD HE [Hs Hd] Hlive Hp Hl. set (n := note_of p).
  assert (Pk : pend o k = []) by (apply nodel_pend; exact (HE [] p k eq_refl Hp)).
  cbn [pend flat_map pdv app] in Hs, Hd. fold (pend o k) in Hs, Hd. rewrite Pk, app_nil_r in Hs, Hd.
  unfold OrdAt. cbn [rcv rcvc tentl]. rewrite (tentc_emit o p l Hp Hl), app_nil_r, pend_app, Pk, app_nil_r. fold n.
  destruct (snapshot_cases s m _ l o n HR HD Hlive) as [[-> ->]|[-> [(-> & os & Em & Hst)|[-> Em]]]]; rewrite ?app_nil_r.
  - split; [now apply subseq_app_tail|]. intros os' Hos' Hs'. now rewrite (Hd os' Hos' Hs').
  - split; [now apply subseq_snoc_skip|]. intros os' Hos' Hs'. congruence.
  - split; [exact Hs|]. intros os' Hos'. congruence.
Qed.

Lemma ord_step c : Reg c -> AbsInv c -> DomInv c -> EmitClean (c_k c) -> OrdInv c -> OrdInv (step C react c).
Proof.
  intros HR HA HD HE HP o. specialize (HP o).
  pose proof (step_shape_holds C react c) as [Hmono _]. pose proof (obs_step_cases o c HA HD) as Hob.
  revert HR HD HE HP Hmono. clear HA.
  destruct Hob as [c c' E1 E2 E3 E4|s m k l s' m' k' l' r p Hm Er Ep Eg Et|s m k l p s' Hp Hlive Hl|s m k l n Hst
                  |s m k l n os s' m' k' Hm Hs Ek]; cbn [c_obs c_k c_rlog]; intros HR HD HE HP Hmono.
  - exact (ord_keep c c' o HD Hmono HP E1 E2 E3).
  - destruct HP as [Hs _]. pose proof (seen_false_tentl o l (proj1 (HD o) Hm)) as Te.
    rewrite Te in Hs. apply subseq_nil_r in Hs. apply app_eq_nil in Hs. destruct Hs as [R1 R2].
    cbn [pend flat_map pdv app] in R2. fold (pend o k) in R2.
    unfold OrdAt. rewrite Er, Ep, Et, R1, R2, Te, !app_nil_r. cbn [app]. rewrite <- Eg. split; [apply subseq_refl|reflexivity].
  - exact (ord_emit s m p k l o HR HD HE HP Hlive Hp Hl).
  - destruct HP as [Hs Hd]. cbn [pend flat_map pdv] in Hs, Hd. rewrite Nat.eqb_refl in Hs, Hd. fold (pend o k) in Hs, Hd.
    cbn [app] in Hs, Hd. split; [exact (subseq_drop_mid _ _ _ _ Hs)|].
    intros os Hm Hst'. rewrite (Hst os Hm) in Hst'. discriminate.
  - destruct HP as [Hs' Hd].
    cbn [pend flat_map pdv] in Hs', Hd. rewrite Nat.eqb_refl in Hs', Hd. fold (pend o k) in Hs', Hd. cbn [app] in Hs', Hd.
    unfold OrdAt. cbn [rcv rcvc tentl tentc]. rewrite Nat.eqb_refl, app_nil_r, Ek, <- app_assoc. cbn [app].
    split; [exact Hs'|]. exact (ord_close s m (IDeliver o n :: k) l m' o _ HD Hmono Hs' Hd).
Qed.

Lemma ord_run top fuel :
  let c := run C react fuel (init_cfg v0 top) in EmitClean (c_k c) /\ OrdInv c.
Proof.
  cbv zeta.
  assert (H : (fun c => TreeInvK c /\ EmitClean (c_k c) /\ OrdInv c) (run C react fuel (init_cfg v0 top))).
  { apply (run_ind C react (fun c => TreeInvK c /\ EmitClean (c_k c) /\ OrdInv c)).
    - intros c (HT & HE & HO). split; [apply tree_invK_step, HT|]. split.
      + apply clean_step; [exact (tk_abs _ HT)|exact HE].
      + apply ord_step; [exact (tk_reg _ HT)|exact (tk_abs _ HT)|exact (tk_dom _ HT)|exact HE|exact HO].
    - split; [apply tree_invK_init|]. split; [apply clean_init|].
      intros o. unfold OrdAt. cbn [init_cfg c_obs c_k c_rlog rcv tentl]. rewrite pend_ops. split; [constructor|discriminate]. }
  exact (proj2 H).
Qed.

(* ORDER: callbacks that do not emit.  Received then pending is an ordered subsequence of the
   entitlement (call order); for a live wrapper it IS the entitlement *)
Theorem tree_ordered top fuel o :
  let c := run C react fuel (init_cfg v0 top) in
  subseq (view o (log_of c) ++ pend o (c_k c)) (tree_entitled o (log_of c)) /\
  (forall os, c_obs c o = Some os -> a_stopped os = false ->
     view o (log_of c) ++ pend o (c_k c) = tree_entitled o (log_of c)).
Proof.
  intros c. destruct (ord_run top fuel) as [_ HO]. destruct (HO o) as [Hs Hd]. fold c in Hs, Hd.
  unfold log_of. rewrite <- rcv_view, <- tentl_entitled. split; assumption.
Qed.

Corollary tree_ordered_finished top fuel o os :
  let c := run C react fuel (init_cfg v0 top) in
  c_k c = [] -> c_obs c o = Some os -> a_stopped os = false ->
  view o (log_of c) = tree_entitled o (log_of c).
Proof.
  intros c Hk Hm Hs. destruct (tree_ordered top fuel o) as [_ Hd]. fold c in Hd.
  rewrite <- (Hd os Hm Hs), Hk. cbn [pend flat_map]. now rewrite app_nil_r.
Qed.
End Ordered.
End BroadcastTree.

Lemma subject_not_async : KSubject <> KAsync. Proof. discriminate. Qed.
Lemma behavior_not_async : KBehavior <> KAsync. Proof. discriminate. Qed.

(* ---- the VALUES in an entitlement: C20's [entitled], and for a BehaviorSubject the greeting as well ---- *)
Section Values.
Context {A : Type}.
Notation event := (@event A).
Notation is_sub_of := (@SubjectTreeFacts.is_sub_of A).
Notation is_end_op := (@SubjectTreeFacts.is_end_op A).

(* the greeting: the subject's current value at o's first subscribe call, if the subject is live *)
Fixpoint greet_from (o : nat) (sn : bool) (g : @gstate A) (log : list event) : list A :=
  match log with
  | [] => []
  | EOp p :: t =>
      (match p with OSub o' => if Nat.eqb o' o && negb sn && live g then [g_cur g] else [] | _ => [] end) ++
      greet_from o (sn || is_sub_of o p) (g_step g p) t
  | _ :: t => greet_from o sn g t
  end.
Definition greeting (v0 : A) (o : nat) (log : list event) : list A := greet_from o false (g_init v0) log.

Definition calls_of (log : list event) : list (@op A) := flat_map (fun e => match e with EOp p => [p] | _ => [] end) log.

Lemma gev_g_run : forall log (g : @gstate A), gev g log = g_run g (calls_of log).
Proof. induction log as [|x log IH]; intros g; [reflexivity|]. destruct x; cbn [gev calls_of flat_map app g_run]; apply IH. Qed.

(* the values in what one call owes o: the greeting of a live BehaviorSubject, and the argument of
   an on_next call made while o is subscribed to a live subject *)
Lemma vals_answer K o sn (g : @gstate A) dead p : K <> KAsync -> gok g -> live g = negb dead ->
  vals (answer K o sn g p) =
  (match K, p with
   | KBehavior, OSub o' => if Nat.eqb o' o && negb sn && live g then [g_cur g] else []
   | _, _ => []
   end) ++
  (match p with ONext v => if sn && negb dead then [v] else [] | _ => [] end).
Proof.
  intros HK Hk Hl. destruct p as [o'|o'|v|e| |]; cbn [answer]; rewrite ?app_nil_r.
  - destruct (Nat.eqb o' o && negb sn); cbn [andb]; [|now destruct K].
    unfold gok, greet, live in *. destruct (g_status g) as [|t|]; [now destruct K|destruct t as [v| |]|]; try (now destruct K).
    now destruct (Hk v).
  - rewrite (bcast_nonemission K g (OUnsub o')) by reflexivity. now destruct sn, K.
  - unfold bcast. rewrite Hl. destruct sn, dead, K; try reflexivity; congruence.
  - unfold bcast. now destruct sn, (live g), K.
  - unfold bcast. destruct sn, (live g), K; try reflexivity; congruence.
  - rewrite (bcast_nonemission K g ODispose) by reflexivity. now destruct sn, K.
Qed.

Lemma vals_tent_split o : forall log sn (g : @gstate A) dead, gok g -> live g = negb dead ->
  Permutation (vals (tent_from KBehavior o sn g log)) (greet_from o sn g log ++ ent_from o sn dead log).
Proof.
  induction log as [|x log IH]; intros sn g dead Hk Hl; [constructor|].
  destruct x as [p|o' n|x]; cbn [tent_from greet_from ent_from]; [|apply IH; assumption|apply IH; assumption].
  assert (IH' := IH (sn || is_sub_of o p) (g_step g p) (dead || is_end_op p) (gok_step g p Hk)).
  rewrite g_step_live, Hl, negb_orb in IH'. specialize (IH' eq_refl).
  rewrite vals_app, (vals_answer KBehavior o sn g dead p behavior_not_async Hk Hl), <- !app_assoc.
  apply Permutation_app_head.
  eapply Permutation_trans; [apply Permutation_app_head; exact IH'|apply Permutation_app_swap_app].
Qed.

Lemma vals_entitled_behavior v0 o log :
  Permutation (vals (tree_entitled KBehavior v0 o log)) (greeting v0 o log ++ entitled o log).
Proof. apply vals_tent_split; [apply gok_init|reflexivity]. Qed.

(* for a Subject the values of the entitlement are exactly C20's [entitled] (same order) *)
Lemma vals_tent_subject o : forall log sn (g : @gstate A) dead, gok g -> live g = negb dead ->
  vals (tent_from KSubject o sn g log) = ent_from o sn dead log.
Proof.
  induction log as [|x log IH]; intros sn g dead Hk Hl; [reflexivity|].
  destruct x as [p|o' n|x]; cbn [tent_from ent_from]; [|apply IH; assumption|apply IH; assumption].
  assert (IH' := IH (sn || is_sub_of o p) (g_step g p) (dead || is_end_op p) (gok_step g p Hk)).
  rewrite g_step_live, Hl, negb_orb in IH'.
  now rewrite vals_app, (vals_answer KSubject o sn g dead p subject_not_async Hk Hl), (IH' eq_refl).
Qed.

Lemma vals_entitled_subject (v0 : A) o log : vals (tree_entitled KSubject v0 o log) = entitled o log.
Proof. apply vals_tent_subject; [apply gok_init|reflexivity]. Qed.

Lemma vals_pend o (k : list (@instr A)) : vals (pend o k) = pendn o k.
Proof.
  induction k as [|i k IH]; [reflexivity|]. cbn [pend flat_map pendn]. fold (pend o k). fold (pendn o k).
  rewrite vals_app, IH. f_equal. destruct i as [p|o' n| |]; try reflexivity. cbn [pdv pdc].
  destruct (Nat.eqb o' o); destruct n; reflexivity.
Qed.

Lemma greet_from_in o v : forall log sn (g : @gstate A), In v (greet_from o sn g log) ->
  sn = false /\ exists p1 p3, log = p1 ++ EOp (OSub o) :: p3 /\ existsb (sub_ev o) p1 = false /\
                              live (gev g p1) = true /\ v = g_cur (gev g p1).
Proof.
  induction log as [|x log IH]; intros sn g Hin; [destruct Hin|].
  destruct x as [p|o' n|x]; cbn [greet_from] in Hin.
  - apply in_app_or in Hin. destruct Hin as [Hin|Hin].
    + destruct p as [o'|o'|w|e| |]; try (destruct Hin; fail).
      destruct (Nat.eqb o' o) eqn:E, sn, (live g) eqn:L; cbn in Hin; try (destruct Hin; fail). destruct Hin as [<-|[]].
      apply Nat.eqb_eq in E. subst o'. split; [reflexivity|]. exists [], log. repeat split. exact L.
    + destruct (IH _ _ Hin) as [Hs (p1 & p3 & -> & H1 & H2 & H3)]. apply orb_false_iff in Hs. destruct Hs as [-> Hs].
      split; [reflexivity|]. exists (EOp p :: p1), p3. repeat split; [|exact H2|exact H3].
      cbn [existsb sub_ev]. now rewrite Hs, H1.
  - destruct (IH _ _ Hin) as [Hs (p1 & p3 & -> & H1 & H2 & H3)]. split; [exact Hs|]. exists (EGot o' n :: p1), p3. repeat split; assumption.
  - destruct (IH _ _ Hin) as [Hs (p1 & p3 & -> & H1 & H2 & H3)]. split; [exact Hs|]. exists (ERaised x :: p1), p3. repeat split; assumption.
Qed.

Lemma greeting_in v0 o v log : In v (greeting v0 o log) ->
  exists p1 p3, log = p1 ++ EOp (OSub o) :: p3 /\ existsb (sub_ev o) p1 = false /\ existsb end_ev p1 = false /\
                v = last_next v0 (calls_of p1).
Proof.
  intros H. destruct (greet_from_in o v log false (g_init v0) H) as [_ (p1 & p3 & -> & H1 & H2 & ->)].
  exists p1, p3. repeat split; [exact H1| |].
  - rewrite gev_live in H2. cbn in H2. now destruct (existsb end_ev p1).
  - rewrite gev_g_run in H2 |- *. exact (proj2 (g_run_live_cur _ _ H2)).
Qed.
End Values.

Section BehaviorClass.
Context {A : Type} (pynone : A) (react : nat -> nat -> list (@op A)) (v0 : A).
Notation C := (behavior_cls pynone).

Theorem behavior_tree_values top fuel o :
  let c := run C react fuel (init_cfg v0 top) in
  exists dropped,
    Permutation (vals (view o (log_of c)) ++ pendn o (c_k c) ++ dropped) (greeting v0 o (log_of c) ++ entitled o (log_of c)) /\
    (forall os, c_obs c o = Some os -> a_stopped os = false -> dropped = []).
Proof.
  intros c. destruct (tree_notifications pynone KBehavior behavior_not_async react v0 top fuel o) as [dr [HP [Hd _]]].
  fold c in HP, Hd. exists (vals dr). split.
  - eapply Permutation_trans; [|apply vals_entitled_behavior].
    rewrite <- vals_pend, <- !vals_app. unfold vals. apply Permutation_flat_map. exact HP.
  - intros os Hm Hs. now rewrite (Hd os Hm Hs).
Qed.

(* the greeting comes AT ONCE: the entry of the log right after o's first subscribe call on a live
   BehaviorSubject is the delivery of the latest value to o *)
Theorem behavior_tree_greeting_at_once top fuel o p1 rest :
  let c := run C react fuel (init_cfg v0 top) in
  log_of c = p1 ++ EOp (OSub o) :: rest -> existsb (sub_ev o) p1 = false -> existsb end_ev p1 = false ->
  (rest = [] /\ c_k c <> []) \/ exists rest', rest = EGot o (Next (last_next v0 (calls_of p1))) :: rest'.
Proof.
  intros c E Hs He.
  assert (L : live (gev (g_init v0) p1) = true) by (rewrite gev_live, He; reflexivity).
  apply (tree_answered_at_once pynone KBehavior behavior_not_async react v0 top fuel o p1 rest _ E Hs).
  unfold greet. unfold live in L. destruct (g_status (gev (g_init v0) p1)) eqn:Eg; try discriminate L.
  rewrite gev_g_run in *. f_equal. f_equal.
  apply (proj2 (g_run_live_cur (calls_of p1) (g_init v0) ltac:(unfold live; now rewrite Eg))).
Qed.
End BehaviorClass.

Section SubjectClass.
Context {A : Type} (react : nat -> nat -> list (@op A)) (v0 : A).
Notation C := (@subject_cls A).

(* C20, values only: received ++ about to be delivered ++ dropped is a permutation of [entitled],
   and nothing was dropped unless o's wrapper is stopped *)
Theorem subject_tree_values top fuel o :
  let c := run C react fuel (init_cfg v0 top) in
  exists dropped,
    Permutation (vals (view o (log_of c)) ++ pendn o (c_k c) ++ dropped) (entitled o (log_of c)) /\
    (forall os, c_obs c o = Some os -> a_stopped os = false -> dropped = []).
Proof.
  (* [cls_of _ KSubject] ignores its first argument: any value of A serves as pynone *)
  intros c. destruct (tree_notifications v0 KSubject subject_not_async react v0 top fuel o) as [dr [HP [Hd _]]].
  change (run (cls_of v0 KSubject) react fuel (init_cfg v0 top)) with c in HP, Hd. exists (vals dr). split.
  - rewrite <- (vals_entitled_subject v0), <- vals_pend, <- !vals_app. unfold vals. apply Permutation_flat_map. exact HP.
  - intros os Hm Hs. now rewrite (Hd os Hm Hs).
Qed.

End SubjectClass.

(* a finite reaction table whose callbacks never emit *)
Definition quiet_tbl {A} (t : list (nat * list (list (@op A)))) : bool :=
  forallb (fun x => forallb (forallb (fun p => negb (is_emission p))) (snd x)) t.

Lemma quiet_tbl_sound {A} (t : list (nat * list (list (@op A)))) :
  quiet_tbl t = true -> forall o j p, In p (react_tbl t o j) -> is_emission p = false.
Proof.
  induction t as [|[o' sc] t IH]; intros H o j p Hi; [destruct Hi|].
  cbn [quiet_tbl forallb snd] in H. apply andb_true_iff in H. destruct H as [H1 H2].
  cbn [react_tbl] in Hi. destruct (Nat.eqb o' o); [|exact (IH H2 o j p Hi)].
  destruct (nth_in_or_default j sc []) as [Hn|Hn]; [|rewrite Hn in Hi; destruct Hi].
  rewrite forallb_forall in H1. specialize (H1 _ Hn). rewrite forallb_forall in H1. specialize (H1 _ Hi).
  now destruct (is_emission p).
Qed.
