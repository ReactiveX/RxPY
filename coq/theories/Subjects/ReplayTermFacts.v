(* C22: the termination measure of runs in both scheduler modes: weighted pending instructions +
   4 * queued ScheduledObserver items + length of the scheduler queue, and how the subject's
   helpers move its pieces.  Subjects/ReplayTreeTermFacts.v adds the reaction budget of a call
   tree and proves that every step decreases the sum. *)
From RxVerif Require Import Base.Prelude Ops.Machine Subjects.Subject Subjects.Replay Subjects.ReplaySched.
Require Import Lia.
Local Open Scope nat_scope.

Section Term.
Context {A : Type} (sync : bool).
Notation sinstr := (@sinstr A).

Definition qlen (m : @romap A) (o : nat) : nat :=
  match m o with Some os => length (so_queue (r_so os)) | None => 0 end.
Fixpoint tsum (m : @romap A) (B : nat) : nat :=
  match B with O => 0 | S b => qlen m b + tsum m b end.

(* Each weight exceeds what the step of the instruction can add.  A queued notification counts 4:
   SIDrain (1) turns it into SIDeliver + SIResched (2 + 2) while an item leaves the scheduler queue (1).
   SIResched schedules one item; SIEnsure may schedule one and push one SIDrain; SIOnEnsure queues one
   notification first.  A call pushes at most L SIOnEnsure (7 L), or queues on at most L observers and pushes
   their SIEnsure (4 L + 3 L), or queues at most L + 1 replayed notifications, schedules once and pushes
   SIDrain and SIHandle (4 L + 7). *)
Definition wi (L : nat) (i : sinstr) : nat :=
  match i with
  | SIOp _ _ => 7 * L + 9
  | SIEnsure _ _ => 3
  | SIOnEnsure _ _ _ => 7
  | SIDeliver _ _ => 2
  | SIAdoFin _ => 1
  | SIResched _ => 2
  | SIHandle _ => 1
  | SIDrain => 1
  end.
Fixpoint kw (L : nat) (k : list sinstr) : nat :=
  match k with [] => 0 | i :: r => wi L i + kw L r end.
Definition isop (i : sinstr) : nat := match i with SIOp _ _ => 1 | _ => 0 end.
Fixpoint nops (k : list sinstr) : nat :=
  match k with [] => 0 | i :: r => isop i + nops r end.

Definition mu (L B : nat) (c : @scfg A) : nat :=
  kw L (sc_k c) + 4 * tsum (sc_obs c) B + length (r_sched (sc_st c)).

Lemma kw_app L a b : kw L (a ++ b) = kw L a + kw L b.
Proof. induction a as [|i a IH]; cbn [app kw]; [reflexivity|]. rewrite IH. lia. Qed.
Lemma nops_app a b : nops (a ++ b) = nops a + nops b.
Proof. induction a as [|i a IH]; cbn [app nops]; [reflexivity|]. rewrite IH. lia. Qed.
Lemma kw_ensures L top l : kw L (map (SIEnsure top) l) = 3 * length l.
Proof. induction l as [|x l IH]; cbn [map kw length wi]; [reflexivity|]. rewrite IH. lia. Qed.
Lemma kw_onensures L top t l : kw L (map (fun o => SIOnEnsure top o t) l) = 7 * length l.
Proof. induction l as [|x l IH]; cbn [map kw length wi]; [reflexivity|]. rewrite IH. lia. Qed.
Lemma nops_ensures top l : nops (map (SIEnsure top) l) = 0.
Proof. induction l as [|x l IH]; cbn [map nops isop]; [reflexivity|]. rewrite IH. reflexivity. Qed.
Lemma nops_onensures top t l : nops (map (fun o => SIOnEnsure (A:=A) top o t) l) = 0.
Proof. induction l as [|x l IH]; cbn [map nops isop]; [reflexivity|]. rewrite IH. reflexivity. Qed.
Lemma kw_drain_if L top k : kw L (drain_if sync top k) <= 1 + kw L k.
Proof. unfold drain_if. destruct (inl sync top); cbn [kw wi]; lia. Qed.
Lemma nops_drain_if top k : nops (drain_if sync top k) = nops k.
Proof. unfold drain_if. destruct (inl sync top); reflexivity. Qed.
Lemma in_drain_if top (i : sinstr) k : In i (drain_if sync top k) -> i = SIDrain \/ In i k.
Proof. unfold drain_if. destruct (inl sync top); [intros [H|H]; [left; symmetry; exact H|right; exact H]|intros H; right; exact H]. Qed.
Lemma wi_pos L i : 0 < wi L i.
Proof. destruct i; cbn [wi]; lia. Qed.

Lemma qlen_upd_same m o x : qlen (rupd m o x) o = length (so_queue (r_so x)).
Proof. unfold qlen, rupd. now rewrite Nat.eqb_refl. Qed.
Lemma qlen_upd_other m o x o' : o' <> o -> qlen (rupd m o x) o' = qlen m o'.
Proof. intros H. unfold qlen, rupd. destruct (Nat.eqb o' o) eqn:E; [apply Nat.eqb_eq in E; contradiction|reflexivity]. Qed.

Lemma tsum_upd_ge m o x : forall B, B <= o -> tsum (rupd m o x) B = tsum m B.
Proof.
  induction B as [|b IH]; intros H; [reflexivity|]. cbn [tsum]. rewrite IH by lia.
  rewrite qlen_upd_other by lia. reflexivity.
Qed.
Lemma tsum_upd_lt m o x : forall B, o < B ->
  tsum (rupd m o x) B + qlen m o = tsum m B + length (so_queue (r_so x)).
Proof.
  induction B as [|b IH]; intros H; [lia|]. cbn [tsum].
  destruct (Nat.eq_dec o b) as [->|N].
  - rewrite qlen_upd_same, tsum_upd_ge by lia. lia.
  - rewrite qlen_upd_other by congruence. specialize (IH ltac:(lia)). lia.
Qed.

Lemma dom_upd (m : @romap A) o x B : (forall o', m o' <> None -> o' < B) -> o < B ->
  forall o', rupd m o x o' <> None -> o' < B.
Proof.
  intros H Ho o' Hn. unfold rupd in Hn. destruct (Nat.eqb o' o) eqn:E; [apply Nat.eqb_eq in E; lia|exact (H o' Hn)].
Qed.

Lemma remove1_len o l : length (remove1 o l) <= length l.
Proof. induction l as [|x l IH]; cbn; [lia|]. destruct (Nat.eqb x o); cbn; lia. Qed.

Lemma trim_count_len b (q : list (Z * A)) : length (trim_count b q) <= length q.
Proof. induction q as [|x q IH]; [cbn; lia|]. cbn [trim_count]. destruct (zlen (x :: q) >? b)%Z; cbn in *; lia. Qed.
Lemma trim_age_len now w (q : list (Z * A)) : length (trim_age now w q) <= length q.
Proof. induction q as [|[t0 x] q IH]; [cbn; lia|]. cbn [trim_age]. destruct (too_old now w t0); cbn in *; lia. Qed.
Lemma trim_facts (s : @rstate A) :
  length (r_queue (trim s)) <= length (r_queue s) /\ r_observers (trim s) = r_observers s /\
  r_sched (trim s) = r_sched s.
Proof.
  unfold trim. cbn. split; [|split; reflexivity].
  etransitivity; [apply trim_age_len|apply trim_count_len].
Qed.

Lemma cancel_opt_facts id (s : @rstate A) :
  length (r_sched (cancel_opt id s)) = length (r_sched s) /\ r_observers (cancel_opt id s) = r_observers s /\
  r_queue (cancel_opt id s) = r_queue s /\ r_disposed (cancel_opt id s) = r_disposed s.
Proof. destruct id; cbn; [unfold cancel_item; rewrite map_length|]; auto. Qed.

Lemma ensure_active_facts o (s : @rstate A) so :
  so_queue (snd (ensure_active o s so)) = so_queue so /\
  length (r_sched (fst (ensure_active o s so))) <= S (length (r_sched s)) /\
  r_observers (fst (ensure_active o s so)) = r_observers s /\
  r_queue (fst (ensure_active o s so)) = r_queue s.
Proof.
  unfold ensure_active.
  destruct (negb (so_faulted so) && negb match so_queue so with [] => true | _ => false end); [|cbn; auto].
  destruct (so_acquired so); [cbn; auto|]. cbn [ser_disposed].
  destruct (ser_disposed so); cbn [fst snd so_queue];
    match goal with |- context [cancel_opt ?i ?s1] => destruct (cancel_opt_facts i s1) as [H1 [H2 [H3 _]]] end;
    rewrite H1, H2, H3; cbn; rewrite app_length; cbn; repeat split; lia.
Qed.

Lemma so_on_len (n : ev A) so : length (so_queue (so_on n so)) <= S (length (so_queue so)).
Proof. unfold so_on. destruct (so_stopped so); cbn; [lia|]. rewrite app_length. cbn. lia. Qed.

Lemma so_dispose_facts (s : @rstate A) so :
  so_queue (snd (so_dispose s so)) = so_queue so /\
  length (r_sched (fst (so_dispose s so))) = length (r_sched s) /\
  r_observers (fst (so_dispose s so)) = r_observers s /\ r_queue (fst (so_dispose s so)) = r_queue s.
Proof.
  unfold so_dispose. destruct (ser_disposed so); cbn [fst snd so_queue]; [auto|].
  destruct (cancel_opt_facts (ser_cur so) s) as [H1 [H2 [H3 _]]]. auto.
Qed.

Lemma rado_dispose_facts (s : @rstate A) os o :
  so_queue (r_so (snd (rado_dispose s os o))) = so_queue (r_so os) /\
  length (r_sched (fst (rado_dispose s os o))) = length (r_sched s) /\
  length (r_observers (fst (rado_dispose s os o))) <= length (r_observers s) /\
  r_queue (fst (rado_dispose s os o)) = r_queue s.
Proof.
  unfold rado_dispose. cbn [rsad_disposed rsad_cur r_so r_handle r_calls].
  destruct (rsad_disposed os); [cbn; auto|]. destruct (rsad_cur os); [|cbn; auto].
  unfold removable_dispose. cbn [r_so].
  destruct (so_dispose_facts s (r_so os)) as [H1 [H2 [H3 H4]]].
  destruct (so_dispose s (r_so os)) as [s1 so1]. cbn [fst snd] in *.
  destruct (negb (r_disposed s1) && Subject.mem o (r_observers s1)); cbn [fst snd r_so set_so];
    repeat split; cbn; try assumption; try lia.
  - rewrite <- H3. apply remove1_len.
  - rewrite H3. lia.
Qed.

(* queueing one notification on every observer of a snapshot *)
Lemma so_each_on_facts (n : ev A) B : forall snap (s : @rstate A) m,
  (forall o, m o <> None -> o < B) ->
  let r := so_each (fun _ s so => (s, so_on n so)) snap s m in
  fst r = s /\ tsum (snd r) B <= tsum m B + length snap /\ (forall o, snd r o <> None -> o < B).
Proof.
  unfold so_each. induction snap as [|o snap IH]; intros s m Hd; cbn [fold_left fst snd length]; [repeat split; auto; lia|].
  destruct (m o) as [os|] eqn:Em.
  - assert (Ho : o < B) by (apply Hd; congruence).
    pose proof (tsum_upd_lt m o (set_so os (so_on n (r_so os))) B Ho) as Ht.
    assert (Hq : qlen m o = length (so_queue (r_so os))) by (unfold qlen; now rewrite Em).
    pose proof (so_on_len n (r_so os)) as Hl. cbn [set_so r_so] in Ht.
    destruct (IH s (rupd m o (set_so os (so_on n (r_so os)))) (dom_upd m o _ B Hd Ho)) as [I1 [I2 I3]].
    cbv zeta in *. repeat split; [exact I1| |exact I3]. lia.
  - destruct (IH s m Hd) as [I1 [I2 I3]]. cbv zeta in *. repeat split; [exact I1|lia|exact I3].
Qed.

Lemma replay_fold_len (q : list (Z * A)) : forall so,
  length (so_queue (fold_left (fun so it => so_on (Next (snd it)) so) q so)) <= length (so_queue so) + length q.
Proof.
  induction q as [|it q IH]; intros so; cbn [fold_left length]; [lia|].
  specialize (IH (so_on (Next (snd it)) so)). pose proof (so_on_len (Next (snd it)) so). lia.
Qed.

Lemma in_tail_sub (i : sinstr) k : forall t o, In (SIOp t (RSub o)) k -> In (SIOp t (RSub (A:=A) o)) (i :: k).
Proof. intros t o H. right. exact H. Qed.

Lemma in_pre_sub (i : sinstr) pre k : (forall j, In j pre -> isop j = 0) ->
  forall t o, In (SIOp t (RSub o)) (pre ++ k) -> In (SIOp t (RSub (A:=A) o)) (i :: k).
Proof.
  intros Hp t o H. apply in_app_or in H. destruct H as [H|H]; [|right; exact H].
  specialize (Hp _ H). discriminate Hp.
Qed.

Lemma in_drain_sub (i : sinstr) top k :
  forall t o, In (SIOp t (RSub o)) (drain_if sync top k) -> In (SIOp t (RSub (A:=A) o)) (i :: k).
Proof. intros t o H. apply in_drain_if in H. destruct H as [H|H]; [discriminate H|right; exact H]. Qed.

Lemma tsum_upd_same_len m o os os' B : m o = Some os ->
  length (so_queue (r_so os')) = length (so_queue (r_so os)) -> tsum (rupd m o os') B = tsum m B.
Proof.
  intros Em E. destruct (Nat.lt_ge_cases o B) as [H|H]; [|apply tsum_upd_ge; exact H].
  pose proof (tsum_upd_lt m o os' B H) as Ht. unfold qlen in Ht. rewrite Em in Ht. lia.
Qed.

Lemma dom_upd_some (m : @romap A) o os x B : (forall o', m o' <> None -> o' < B) -> m o = Some os ->
  forall o', rupd m o x o' <> None -> o' < B.
Proof. intros H Em. apply dom_upd; [exact H|]. apply H. congruence. Qed.

Lemma kw_zero L k : kw L k = 0 -> k = [].
Proof. destruct k as [|i k]; [reflexivity|]. cbn [kw]. pose proof (wi_pos L i). lia. Qed.

(* the observers that the calls of a continuation subscribe lie below [sub_bound] *)
Fixpoint sub_bound (k : list sinstr) : nat :=
  match k with
  | [] => 0
  | SIOp _ (RSub o) :: r => Nat.max (S o) (sub_bound r)
  | _ :: r => sub_bound r
  end.
Lemma sub_bound_in k : forall t o, In (SIOp t (RSub o)) k -> o < sub_bound k.
Proof.
  induction k as [|i k IH]; intros t o H; [destruct H|].
  destruct H as [->|H]; [cbn [sub_bound]; apply Nat.lt_le_trans with (S o); [lia|apply Nat.le_max_l]|].
  specialize (IH t o H).
  destruct i as [t' []| | | | | | |]; cbn [sub_bound]; try exact IH.
  apply Nat.lt_le_trans with (sub_bound k); [exact IH|apply Nat.le_max_r].
Qed.

End Term.
