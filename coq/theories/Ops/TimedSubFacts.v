(* C15/C16: sample (observable sampler: all interleavings of the two
   ports; periodic sampler: closed world) and delay_subscription (subscription
   instant, then the source mirrored).  The file begins with [ext2_of], the inputs of a multi-port
   timeline, which the *MapperRun files and TimedWindowFacts2.v use as well. *)
From RxVerif Require Import Base.Prelude Ops.Machine Ops.Multi Ops.MultiFacts Ops.Timed Ops.TimedSim
  Ops.TimedFacts Ops.SimPortSteps Ops.TimedWindowFacts Ops.TimedDelayFacts.

(* notifications of several ports at their instants *)
Definition ext2_of {A} (ins : list (Z * nat * ev A)) : list (Z * inp A) :=
  map (fun x => (fst (fst x), ISrc (snd (fst x)) (snd x))) ins.
Lemma ext2_of_cons {A} t k (e : ev A) ins : ext2_of ((t, k, e) :: ins) = (t, ISrc k e) :: ext2_of ins.
Proof. reflexivity. Qed.
Lemma ext2_of_nil {A} : @ext2_of A [] = [].
Proof. reflexivity. Qed.
Arguments ext2_of : simpl never.

Section Sample.
Context {A : Type}.

(* port 0 = source, port 1 = sampler.  [l0]/[l1]: the port is still subscribed
   (a port that terminated is not listened to any more); [pend] = the latest
   element not sampled yet *)
Fixpoint smp_spec (l0 l1 at_end : bool) (pend : option A) (ins : list (Z * nat * ev A)) : list (Z * ev A) :=
  match ins with
  | [] => []
  | (t, O, e) :: rest =>
      if l0 then
        match e with
        | Next x => smp_spec l0 l1 at_end (Some x) rest
        | Err c => [(t, Err c)]
        | Done => smp_spec false l1 true pend rest
        end
      else smp_spec l0 l1 at_end pend rest
  | (t, S O, e) :: rest =>
      if l1 then
        match e with
        | Err c => [(t, Err c)]
        | _ =>                                          (* a sampler tick: its on_next AND its on_completed *)
            match pend with Some v => [(t, Next v)] | None => [] end ++
            if at_end then [(t, Done)]
            else smp_spec l0 (match e with Done => false | _ => l1 end) at_end None rest
        end
      else smp_spec l0 l1 at_end pend rest
  | _ :: rest => smp_spec l0 l1 at_end pend rest
  end.

Definition lv2 (l0 l1 : bool) : list nat := (if l0 then [0%nat] else @nil nat) ++ (if l1 then [1%nat] else []).
Definition pend_of (s : @smp_st A) : option A := if sm_has s then sm_value s else None.

(* sample_subscribe: the element not sampled yet, if any, is emitted *)
Lemma smp_tick_cmds (s : @smp_st A) r :
  apply_cmds r (if sm_has s then emit_opt (sm_value s) else [])
  = (r, match pend_of s with Some v => [OEmit (Next v)] | None => [] end).
Proof. unfold pend_of. destruct (sm_has s); [destruct (sm_value s)|]; reflexivity. Qed.

Lemma smp_sim : forall ins fuel s l0 l1, (length ins <= fuel)%nat ->
  sim_emits (sim x_sample_observable fuel s (RState (lv2 l0 l1) [] false) [] (ext2_of ins))
  = smp_spec l0 l1 (sm_at_end s) (pend_of s) ins.
Proof.
  induction ins as [|[[t k] e] rest IH]; intros fuel s l0 l1 Hf.
  - now rewrite ext2_of_nil, sim_nil.
  - destruct fuel as [|f]; [cbn in Hf; lia|]. cbn [length] in Hf. rewrite ext2_of_cons. cbn [smp_spec].
    destruct k as [|[|k]].
    + (* the source *)
      destruct l0; [|rewrite sim_port_dead by (destruct l1; reflexivity); apply IH; lia].
      assert (Hm : mem 0 (lv2 true l1) = true) by (destruct l1; reflexivity).
      destruct e as [x|c|].
      * etransitivity; [eapply sim_port_cont; [exact Hm|reflexivity|reflexivity|reflexivity]|].
        apply (IH f (SmpSt (sm_at_end s) true (Some x) (sm_ntag s)) true l1). lia.
      * eapply sim_port_fail; [exact Hm|reflexivity].
      * etransitivity; [eapply sim_port_cont; [exact Hm|reflexivity|reflexivity|reflexivity]|].
        replace (detach 0 Done (RState (lv2 true l1) [] false)) with (RState (lv2 false l1) [] false)
          by (destruct l1; reflexivity).
        apply (IH f (SmpSt true (sm_has s) (sm_value s) (sm_ntag s)) false l1). lia.
    + (* the sampler: its on_next and its on_completed are the same tick *)
      destruct l1; [|rewrite sim_port_dead by (destruct l0; reflexivity); apply IH; lia].
      assert (Hm : mem 1 (lv2 l0 true) = true) by (destruct l0; reflexivity).
      assert (Htick : forall e', (forall c, e' <> Err c) ->
                sim_emits (sim x_sample_observable (S f) s (RState (lv2 l0 true) [] false) [] ((t, ISrc 1%nat e') :: ext2_of rest))
                = match pend_of s with Some v => [(t, Next v)] | None => [] end ++
                  if sm_at_end s then [(t, Done)]
                  else smp_spec l0 (negb (is_terminal e')) (sm_at_end s) None rest).
      { intros e' He'.
        assert (Hstep : x_step x_sample_observable s t (ISrc 1%nat e') = sample_tick s)
          by (destruct e' as [y|c|]; [reflexivity|destruct (He' c eq_refl)|reflexivity]).
        unfold sample_tick in Hstep. destruct (sm_at_end s) eqn:Ea.
        - etransitivity; [eapply sim_port_end; [exact Hm|exact Hstep|discriminate|apply smp_tick_cmds]|].
          destruct (pend_of s); reflexivity.
        - etransitivity; [eapply sim_port_cont; [exact Hm|exact Hstep|apply smp_tick_cmds|reflexivity]|].
          f_equal; [destruct (pend_of s); reflexivity|].
          replace (detach 1 e' (RState (lv2 l0 true) [] false)) with (RState (lv2 l0 (negb (is_terminal e'))) [] false)
            by (destruct l0, e'; reflexivity).
          apply (IH f (SmpSt false false (sm_value s) (sm_ntag s)) l0 (negb (is_terminal e'))). lia. }
      destruct e as [y|c|].
      * apply Htick. discriminate.
      * eapply sim_port_fail; [exact Hm|reflexivity].
      * apply Htick. discriminate.
    + rewrite sim_port_dead by (destruct l0, l1; reflexivity). apply IH. lia.
Qed.

Theorem sample_observable_spec t0 (ins : list (Z * nat * ev A)) :
  timed_emits t0 (simulate x_sample_observable t0 (ext2_of ins)) = smp_spec true true false None ins.
Proof.
  rewrite (timed_emits_start x_sample_observable _ _ _ _ t0 _ eq_refl eq_refl eq_refl eq_refl).
  apply (smp_sim ins _ (SmpSt false false None 0) true true). unfold ext2_of. rewrite map_length. lia.
Qed.

(* sample(period): the sampler is the periodic action (interval): it fires at
   due, due + p, due + 2p, ...; a notification of the source arriving up to and
   AT a firing instant is seen by that firing.  The periodic timer never stops
   by itself, so the statement is for every horizon [fuel] (number of inputs
   delivered). *)
Fixpoint smpt_spec (fuel : nat) (p due : Z) (l0 at_end : bool) (pend : option A) (es : list (Z * ev A))
  : list (Z * ev A) :=
  match fuel with
  | O => []
  | S f =>
      let tick := match pend with Some v => [(due, Next v)] | None => [] end ++
                  if at_end then [(due, Done)] else smpt_spec f p (due + p) l0 at_end None es in
      match es with
      | [] => tick
      | (t, e) :: rest =>
          if t <=? due then
            if l0 then
              match e with
              | Next x => smpt_spec f p due l0 at_end (Some x) rest
              | Err c => [(t, Err c)]
              | Done => smpt_spec f p due false true pend rest
              end
            else smpt_spec f p due l0 at_end pend rest
          else tick
      end
  end.

Lemma smpt_sim p : forall fuel s tg due (l0 : bool) (es : list (Z * ev A)), sm_ntag s = S tg ->
  sim_emits (sim (x_sample_time p) fuel s (RState (if l0 then [0%nat] else @nil nat) [tg] false) [(tg, due)] (ext_of es))
  = smpt_spec fuel (clamp p) due l0 (sm_at_end s) (pend_of s) es.
Proof.
  induction fuel as [|f IH]; intros s tg due l0 es Hn; [reflexivity|].
  assert (Tick : later due (ext_of es) ->
            sim_emits (sim (x_sample_time p) (S f) s (RState (if l0 then [0%nat] else @nil nat) [tg] false) [(tg, due)] (ext_of es))
            = match pend_of s with Some v => [(due, Next v)] | None => [] end ++
              if sm_at_end s then [(due, Done)]
              else smpt_spec f (clamp p) (due + clamp p) l0 (sm_at_end s) None es).
  { intros Hnext%(next_tick_late [(tg, due)] tg due _ eq_refl). rewrite sim_S, Hnext. cbn [rstep r_stopped r_timers mem existsb]. nat_eqb.
    cbn [orb remove]. nat_eqb. cbn [x_step x_sample_time sample_tick]. rewrite Hn, apply_cmds_app, smp_tick_cmds.
    cbn [apply_cmds r_live r_timers r_stopped app sm_at_end].
    destruct (sm_at_end s) eqn:Ea.
    - (* the sampling completes the sequence *)
      cbn [finish release r_live r_timers]. rewrite sim_emits_cons, sim_stopped by reflexivity.
      destruct (pend_of s), l0; reflexivity.
    - (* the periodic action re-schedules itself *)
      cbn [finish sm_has sm_value]. rewrite sim_emits_cons.
      destruct (pend_of s) as [v|]; unfold upd; cbn; nat_eqb; cbn; nat_eqb;
        [f_equal|]; exact (IH (SmpSt false false (sm_value s) (S (S tg))) (S tg) (due + clamp p) l0 es eq_refl). }
  destruct es as [|[t e] rest].
  - rewrite (Tick I). reflexivity.
  - cbn [smpt_spec]. destruct (t <=? due) eqn:E.
    + rewrite ext_of_cons, sim_S. cbn [next_event earliest fst snd]. rewrite E.
      destruct l0.
      * destruct e as [x|c|]; cbn; nat_eqb; cbn; nat_eqb; rewrite sim_emits_cons; cbn;
          try (rewrite sim_stopped by reflexivity; reflexivity).
        -- etransitivity; [apply (IH _ tg due true rest); exact Hn|unfold pend_of; cbn; reflexivity].
        -- etransitivity; [apply (IH _ tg due false rest); exact Hn|unfold pend_of; cbn; reflexivity].
      * destruct e as [x|c|]; cbn; nat_eqb; cbn; rewrite sim_emits_cons; cbn;
          (etransitivity; [apply (IH s tg due false rest); exact Hn|reflexivity]).
    + rewrite Tick; [reflexivity|]. rewrite ext_of_cons. cbn [later]. lia.
Qed.
End Sample.

Section DelaySubscription.
Context {A : Type}.

Definition due_all (now : Z) (tags : list nat) : pend := map (fun tg => (tg, now)) tags.

Lemma earliest_due_all now tg tags : earliest (due_all now (tg :: tags)) = Some (tg, now).
Proof.
  revert tg. induction tags as [|t2 tags IH]; intros tg; [reflexivity|].
  change (due_all now (tg :: t2 :: tags)) with ((tg, now) :: due_all now (t2 :: tags)).
  cbn [earliest]. rewrite IH. rewrite Z.ltb_irrefl. reflexivity.
Qed.

Lemma filter_due_incl now tags l : incl tags l ->
  filter (fun td : nat * Z => mem (fst td) l) (due_all now tags) = due_all now tags.
Proof.
  intros Hi. apply filter_all. unfold due_all. rewrite Forall_forall. intros td Hin. apply in_map_iff in Hin.
  destruct Hin as [tg [<- Hin]]. cbn [fst]. apply mem_In, Hi, Hin.
Qed.

Lemma filter_due_all now tags extra :
  filter (fun td : nat * Z => mem (fst td) (tags ++ extra)) (due_all now tags) = due_all now tags.
Proof. apply filter_due_incl, incl_appl, incl_refl. Qed.

(* after the subscription the operator is delay(0): every element waits for a zero-delay completion;
   the walk is [dspec 0] (Ops/TimedDelayFacts.v) with the elements of the current instant [now] queued *)
Definition at_now (now : Z) (pl : list A) : list (Z * ev A) := map (fun x => (now, Next x)) pl.

Lemma at_now_app now a b : at_now now (a ++ b) = at_now now a ++ at_now now b.
Proof. apply map_app. Qed.
Lemma filter_at_now_lt now t pl :
  filter (fun n : Z * ev A => fst n <? t) (at_now now pl) = if now <? t then at_now now pl else [].
Proof. unfold at_now. induction pl as [|x pl IH]; cbn [map filter fst]; [|rewrite IH]; now destruct (now <? t). Qed.
Lemma filter_at_now_ge now t pl :
  filter (fun n : Z * ev A => t <=? fst n) (at_now now pl) = if t <=? now then at_now now pl else [].
Proof. unfold at_now. induction pl as [|x pl IH]; cbn [map filter fst]; [|rewrite IH]; now destruct (t <=? now). Qed.
Local Arguments at_now : simpl never.

(* the pending zero-delay completions [plt] carry distinct tags, all issued already ([n] = the next tag)
   and none of them 0, the tag of the subscription timer *)
Definition tags_ok (plt : list (nat * A)) (n : nat) : Prop :=
  NoDup (map fst plt) /\ Forall (fun e => (0 < fst e < n)%nat) plt.

Lemma tags_ok_tail tg x plt n : tags_ok ((tg, x) :: plt) n -> tags_ok plt n /\ ~ In tg (map fst plt) /\ (0 < tg)%nat.
Proof.
  intros [Hnd Hall]. cbn in Hnd. inversion Hnd; subst. inversion Hall; subst. cbn in *. repeat split; auto; lia.
Qed.

Lemma tags_ok_snoc plt n x : (0 < n)%nat -> tags_ok plt n -> tags_ok (plt ++ [(n, x)]) (S n).
Proof.
  intros Hpos [Hnd Hall]. split.
  - rewrite map_app. cbn. apply NoDup_app_snoc; [exact Hnd|].
    intros Hin. apply in_map_iff in Hin. destruct Hin as [[tg y] [Heq Hin]]. cbn in Heq. subst.
    rewrite Forall_forall in Hall. specialize (Hall _ Hin). cbn in Hall. lia.
  - apply Forall_app. split.
    + eapply Forall_impl; [|exact Hall]. intros e He. cbn beta in *. lia.
    + repeat constructor; cbn; lia.
Qed.

Lemma release_no_emits (lv tms : list nat) :
  flat_map (fun x : obs A => match x with OEmit e => [e] | _ => [] end) (map OUnsub lv ++ map OCancel tms) = [].
Proof.
  rewrite flat_map_app.
  assert (H1 : forall l, flat_map (fun x : obs A => match x with OEmit e => [e] | _ => [] end) (map OUnsub l) = []) by (induction l; auto).
  assert (H2 : forall l, flat_map (fun x : obs A => match x with OEmit e => [e] | _ => [] end) (map OCancel l) = []) by (induction l; auto).
  now rewrite H1, H2.
Qed.

Local Arguments upd : simpl never.
Local Arguments due_all : simpl never.

Lemma cancels_no_emits (tms : list nat) :
  flat_map (fun x : obs A => match x with OEmit e => [e] | _ => [] end) (map OCancel tms) = [].
Proof. exact (release_no_emits [] tms). Qed.

Lemma next_src now tg tags t k (e : ev A) ext : (t <=? now) = true ->
  next_event (due_all now (tg :: tags)) ((t, ISrc k e) :: ext) = Some (t, ISrc k e, ext).
Proof. intros H. unfold next_event. rewrite earliest_due_all. now rewrite H. Qed.

(* one zero-delay completion runs: its element is delivered *)
Lemma dsub_tick ts t0 fuel ae tg x plt n now (es : list (Z * ev A)) :
  tags_ok ((tg, x) :: plt) n -> later now (ext_of es) ->
  forall lv,
  sim_emits (sim (x_delay_subscription ts t0) (S fuel) (DSubSt ae ((tg, x) :: plt) n)
                 (RState lv (map fst ((tg, x) :: plt)) false) (due_all now (map fst ((tg, x) :: plt))) (ext_of es))
  = (now, Next x) ::
    if ae && Nat.eqb (length plt) 0 then [(now, Done)]
    else sim_emits (sim (x_delay_subscription ts t0) fuel (DSubSt ae plt n)
                        (RState lv (map fst plt) false) (due_all now (map fst plt)) (ext_of es)).
Proof.
  intros Hok Hnext%(next_tick_late _ tg now _ (earliest_due_all now tg (map fst plt))) lv. destruct (tags_ok_tail _ _ _ _ Hok) as (Hok' & Hnin & Hpos).
  destruct tg as [|tg]; [lia|]. (* tag 0 is the subscription timer *)
  rewrite sim_S. cbn [map fst]. rewrite Hnext. cbn [rstep r_stopped r_timers mem existsb]. nat_eqb. cbn [orb remove]. nat_eqb.
  cbn [x_step x_delay_subscription ds_delays ds_at_end ds_ntag lookup remove_key]. nat_eqb.
  destruct (ae && Nat.eqb (length plt) 0) eqn:E.
  - cbn. rewrite sim_emits_cons. cbn. rewrite sim_stopped by reflexivity. rewrite release_no_emits. reflexivity.
  - cbn. rewrite sim_emits_cons. cbn. f_equal.
    unfold upd. cbn [new_timers flat_map app r_timers]. rewrite app_nil_r.
    change (due_all now (S tg :: map fst plt)) with ((S tg, now) :: due_all now (map fst plt)).
    cbn [filter fst]. rewrite (proj2 (mem_false _ _) Hnin).
    rewrite filter_due_incl by apply incl_refl. reflexivity.
Qed.

(* the source completed while completions were still pending: they run (all at
   the same instant), then the sequence completes *)
Lemma dsub_flush ts t0 : forall fuel (es : list (Z * ev A)) plt n now,
  (length es + length plt + 1 <= fuel)%nat -> plt <> [] -> tags_ok plt n ->
  sim_emits (sim (x_delay_subscription ts t0) fuel (DSubSt true plt n)
                 (RState [] (map fst plt) false) (due_all now (map fst plt)) (ext_of es))
  = map (fun e => (now, Next (snd e))) plt ++ [(now, Done)].
Proof.
  induction fuel as [|f IH]; intros es plt n now Hf Hne Hok; [lia|].
  destruct plt as [|[tg x] plt]; [contradiction|]. cbn [length] in Hf.
  destruct (later_or_src now es) as [Etf|(t & e & rest & -> & Etf)].
  - rewrite (dsub_tick ts t0 f true tg x plt n now es Hok Etf []).
    cbn [map snd app andb]. f_equal. destruct plt as [|e2 plt2]; [reflexivity|].
    cbn [length Nat.eqb]. apply (IH es (e2 :: plt2) n now); [cbn [length] in *; lia|discriminate|].
    exact (proj1 (tags_ok_tail _ _ _ _ Hok)).
  - rewrite ext_of_cons, sim_S. cbn [map fst]. rewrite next_src by exact Etf.
    cbn [rstep r_stopped r_live mem existsb]. rewrite sim_emits_cons. cbn [emits flat_map map app].
    unfold upd. cbn [new_timers flat_map r_timers]. rewrite app_nil_r.
    change (tg :: map fst plt) with (map fst ((tg, x) :: plt)). rewrite filter_due_incl by apply incl_refl.
    apply (IH rest ((tg, x) :: plt) n now); [cbn [length] in *; lia|discriminate|exact Hok].
Qed.

Lemma due_all_snoc now tags n : due_all now (tags ++ [n]) = due_all now tags ++ [(n, now)].
Proof. unfold due_all. now rewrite map_app. Qed.

(* subscribed, source not completed.  Fuel: an element costs its own step and the tick of its zero-delay
   completion (2 each), a completion already pending only its tick. *)
Lemma dsub_live ts t0 : forall fuel (es : list (Z * ev A)) plt n now,
  (2 * length es + length plt + 1 <= fuel)%nat ->
  (0 < n)%nat -> tags_ok plt n -> tsorted es -> (plt <> [] -> Forall (fun e => now <= fst e) es) ->
  sim_emits (sim (x_delay_subscription ts t0) fuel (DSubSt false plt n)
                 (RState [0%nat] (map fst plt) false) (due_all now (map fst plt)) (ext_of es))
  = dspec 0 (at_now now (map snd plt)) es.
Proof.
  induction fuel as [|f IH]; intros es plt n now Hf Hpos Hok Hs Hlo; [lia|].
  destruct plt as [|[tg x] plt].
  - (* nothing pending *)
    cbn [map]. change (due_all now []) with (@nil (nat * Z)). change (at_now now []) with (@nil (Z * ev A)).
    destruct es as [|[t e] rest]; [now rewrite ext_of_nil, sim_nil|].
    rewrite ext_of_cons, sim_S. cbn [map due_all next_event earliest fst snd]. cbn [length] in Hf.
    destruct Hs as [Hall Hs]. cbn [dspec filter app]. rewrite Z.add_0_r.
    destruct e as [y|c|]; cbn; rewrite sim_emits_cons; cbn.
    + unfold upd. cbn [new_timers flat_map app filter fst r_timers mem existsb]. nat_eqb. cbn [orb].
      rewrite Z.add_0_r.
      apply (IH rest [(n, y)] (S n) t); [cbn [length]; lia|lia| | |].
      * apply (tags_ok_snoc [] n y Hpos). split; constructor.
      * exact Hs.
      * intros _. exact Hall.
    + rewrite sim_stopped by reflexivity. reflexivity.
    + rewrite sim_stopped by reflexivity. reflexivity.
  - (* completions pending at [now] *)
    specialize (Hlo ltac:(discriminate)).
    destruct (later_or_src now es) as [Etf|(t & e & rest & -> & Etf)].
    + rewrite (dsub_tick ts t0 f false tg x plt n now es Hok Etf [0%nat]). cbn [andb].
      change (at_now now (map snd ((tg, x) :: plt))) with ([(now, Next x)] ++ at_now now (map snd plt)).
      rewrite (dspec_pop 0 [(now, Next x)] _ now es) by (repeat constructor || exact Etf). cbn [app]. f_equal.
      apply (IH es plt n now); [cbn [length] in Hf; lia|assumption| |assumption|].
      * exact (proj1 (tags_ok_tail _ _ _ _ Hok)).
      * intros _. exact Hlo.
    + rename Etf into E. destruct Hs as [Hall Hs]. inversion Hlo as [|? ? Hlt _]; subst. cbn [fst] in Hlt.
      assert (t = now) by lia. subst t.
      rewrite ext_of_cons, sim_S. cbn [map fst]. rewrite next_src by exact E.
      cbn [dspec]. rewrite filter_at_now_lt, filter_at_now_ge, Z.ltb_irrefl, Z.leb_refl, Z.add_0_r. cbn [app length] in Hf |- *.
      destruct e as [y|c|]; cbn [rstep r_stopped r_live mem existsb Nat.eqb orb];
        cbn [x_step x_delay_subscription ds_delays ds_at_end ds_ntag].
      * cbn [apply_cmds r_live r_timers r_stopped is_terminal andb finish app].
         rewrite sim_emits_cons. cbn [emits flat_map app]. cbn [map].
         unfold upd. cbn [new_timers flat_map app r_timers]. rewrite Z.add_0_r.
         change (tg :: map fst plt) with (map fst ((tg, x) :: plt)).
         rewrite <- due_all_snoc.
         replace (map fst ((tg, x) :: plt) ++ [n]) with (map fst (((tg, x) :: plt) ++ [(n, y)])) by (rewrite map_app; reflexivity).
         assert (Ht : tg :: map fst plt ++ [n] = map fst (((tg, x) :: plt) ++ [(n, y)])) by (rewrite map_app; reflexivity).
         rewrite !Ht. rewrite filter_due_incl by apply incl_refl.
         change (snd (tg, x) :: map snd plt) with (map snd ((tg, x) :: plt)).
         change [(now, Next y)] with (at_now now (map snd [(n, y)])). rewrite <- at_now_app, <- map_app.
         apply (IH rest (((tg, x) :: plt) ++ [(n, y)]) (S n) now); [rewrite app_length; cbn [length]; lia|lia| | |].
         -- apply (tags_ok_snoc ((tg, x) :: plt) n y); assumption.
         -- exact Hs.
         -- intros _. exact Hall.
      * cbn. rewrite sim_emits_cons. cbn. rewrite cancels_no_emits.
         rewrite sim_stopped by reflexivity. reflexivity.
      * cbn [length Nat.eqb apply_cmds mem existsb Nat.eqb orb remove r_live r_timers r_stopped is_terminal andb finish app].
         rewrite sim_emits_cons. cbn [emits flat_map app]. cbn [map].
         unfold upd. cbn [new_timers flat_map app r_timers]. rewrite app_nil_r.
         change (tg :: map fst plt) with (map fst ((tg, x) :: plt)). rewrite filter_due_incl by apply incl_refl.
         rewrite (dsub_flush ts t0 f rest ((tg, x) :: plt) n now); [|cbn [length]; lia|discriminate|exact Hok].
         change (snd (tg, x) :: map snd plt) with (map snd ((tg, x) :: plt)). unfold at_now. rewrite map_map. reflexivity.
Qed.

(* the timeline up to and at the subscription instant [D], and after it *)
Fixpoint take_upto (D : Z) (es : list (Z * ev A)) : list (Z * ev A) :=
  match es with (t, e) :: rest => if t <=? D then (t, e) :: take_upto D rest else [] | [] => [] end.
Fixpoint drop_upto (D : Z) (es : list (Z * ev A)) : list (Z * ev A) :=
  match es with (t, e) :: rest => if t <=? D then drop_upto D rest else es | [] => [] end.

Lemma drop_upto_length D es : (length (take_upto D es) + length (drop_upto D es) = length es)%nat.
Proof. induction es as [|[t e] rest IH]; [reflexivity|]. cbn. destruct (t <=? D); cbn; lia. Qed.

(* the source is subscribed exactly when the timer fires at D; whatever it sent
   up to and AT that instant is lost, nothing is observed before *)
Lemma dsub_phase1 ts t0 D : forall es fuel',
  sim (x_delay_subscription ts t0) (length (take_upto D es) + S fuel') (DSubSt false [] 1)
      (RState [] [0%nat] false) [(0%nat, D)] (ext_of es)
  = map (fun te => (fst te, ISrc 0%nat (snd te), @nil (obs A))) (take_upto D es)
    ++ (D, ITick 0%nat, [@OSub A 0%nat])
       :: sim (x_delay_subscription ts t0) fuel' (DSubSt false [] 1) (RState [0%nat] [] false) []
              (ext_of (drop_upto D es)).
Proof.
  assert (Tick : forall ext fuel', next_event [(0%nat, D)] ext = Some (D, ITick 0%nat, ext) ->
            sim (x_delay_subscription ts t0) (S fuel') (DSubSt false [] 1) (RState [] [0%nat] false) [(0%nat, D)] ext
            = (D, ITick 0%nat, [@OSub A 0%nat])
              :: sim (x_delay_subscription ts t0) fuel' (DSubSt false [] 1) (RState [0%nat] [] false) [] ext).
  { intros ext fuel' Hnext. rewrite sim_S, Hnext. cbn. unfold upd. cbn. reflexivity. }
  induction es as [|[t e] rest IH]; intros fuel'.
  - cbn [take_upto drop_upto length map app plus]. rewrite ext_of_nil. apply Tick. reflexivity.
  - cbn [take_upto drop_upto]. destruct (t <=? D) eqn:E.
    + cbn [length map app plus fst snd]. rewrite ext_of_cons, sim_S. cbn [next_event earliest fst snd].
      destruct e; rewrite E; cbn; unfold upd; cbn; f_equal; apply IH.
    + cbn [length map app plus]. rewrite ext_of_cons. apply Tick.
      cbn [next_event earliest fst snd]. destruct e; rewrite E; reflexivity.
Qed.

(* the whole simulation up to and including the subscription *)
Lemma dsub_start ts t0 (es : list (Z * ev A)) : let D := due_at ts t0 in
  simulate (x_delay_subscription ts t0) t0 (ext_of es)
  = ([OTimer 0%nat (clamp (tdelay ts t0))],
     map (fun te => (fst te, ISrc 0%nat (snd te), @nil (obs A))) (take_upto D es)
     ++ (D, ITick 0%nat, [@OSub A 0%nat])
        :: sim (x_delay_subscription ts t0) (3 * length es + 3 - length (take_upto D es)) (DSubSt false [] 1)
               (RState [0%nat] [] false) [] (ext_of (drop_upto D es))).
Proof.
  intros D. rewrite simulate_unfold, (simulate_fuel_start (x_delay_subscription ts t0) _ _ _ _ _ t0 _ eq_refl eq_refl). f_equal.
  unfold upd. cbn [new_timers flat_map app filter fst r_timers mem existsb Nat.eqb orb]. fold (due_at ts t0). fold D.
  pose proof (drop_upto_length D es) as Hlen. rewrite ext_of_length.
  replace (3 * length es + 4)%nat
    with (length (take_upto D es) + S (3 * length es + 3 - length (take_upto D es)))%nat by lia.
  apply dsub_phase1.
Qed.

Lemma sim_emits_app (l1 l2 : list (Z * inp A * list (obs A))) : sim_emits (l1 ++ l2) = sim_emits l1 ++ sim_emits l2.
Proof. unfold sim_emits. apply flat_map_app. Qed.

Lemma tsorted_drop_upto D : forall es : list (Z * ev A), tsorted es -> tsorted (drop_upto D es).
Proof.
  induction es as [|[t e] rest IH]; intros Hs; [exact I|]. cbn [drop_upto].
  destruct (t <=? D); [apply IH; exact (proj2 Hs)|exact Hs].
Qed.

Theorem delay_subscription_sim_spec ts t0 (es : list (Z * ev A)) : tsorted es ->
  timed_emits t0 (simulate (x_delay_subscription ts t0) t0 (ext_of es))
  = dspec 0 [] (drop_upto (due_at ts t0) es).
Proof.
  intros Hs. unfold timed_emits. rewrite dsub_start. set (D := due_at ts t0).
  pose proof (drop_upto_length D es) as Hlen. cbn [fst snd emits flat_map map app].
  rewrite sim_emits_app, sim_emits_cons.
  assert (Hnil : sim_emits (map (fun te : Z * ev A => (fst te, @ISrc A 0%nat (snd te), @nil (obs A))) (take_upto D es)) = []).
  { clear Hlen. induction (take_upto D es) as [|x l IHl]; [reflexivity|]. cbn [map]. rewrite sim_emits_cons. exact IHl. }
  rewrite Hnil. cbn [emits flat_map map app].
  change (@nil (nat * Z)) with (due_all D (map fst (@nil (nat * A)))).
  change (@nil nat) with (map fst (@nil (nat * A))) at 2.
  apply (dsub_live ts t0 _ (drop_upto D es) [] 1 D); [cbn [length]; lia|lia| | |].
  - split; constructor.
  - apply tsorted_drop_upto. exact Hs.
  - intros H. contradiction.
Qed.

Definition own (tl : list (Z * A)) : list (Z * ev A) := map (fun tx => (fst tx, Next (snd tx))) tl.

Definition ds_outq (l : list (Z * ev A)) (tm : tterm) : list (Z * ev A) :=
  match tm with
  | TTDone T => l ++ [(T, Done)]
  | TTErr T c => filter (fun n => fst n <? T) l ++ [(T, Err c)]
  | TTNever => l
  end.

Lemma ds_outq_delay0 (tl : list (Z * A)) tm : delay_outq 0 (shift 0 tl) tm = ds_outq (own tl) tm.
Proof.
  assert (E : shift 0 tl = own tl) by (apply map_ext; intros [t x]; cbn; now rewrite Z.add_0_r).
  rewrite E. destruct tm; cbn [delay_outq ds_outq]; now rewrite ?Z.add_0_r.
Qed.

(* what the (hot) source sent before the subscription is lost, terminal included *)
Definition after (D : Z) (tl : list (Z * A)) : list (Z * A) := filter (fun tx => D <? fst tx) tl.
Definition term_after (D : Z) (tm : tterm) : tterm :=
  match tm with
  | TTDone T => if D <? T then tm else TTNever
  | TTErr T _ => if D <? T then tm else TTNever
  | TTNever => TTNever
  end.

Lemma drop_upto_sorted D : forall es : list (Z * ev A), tsorted es ->
  drop_upto D es = filter (fun te => D <? fst te) es.
Proof.
  induction es as [|[t e] rest IH]; intros Hs; [reflexivity|]. destruct Hs as [Hall Hs]. cbn [drop_upto filter fst].
  destruct (t <=? D) eqn:E.
  - replace (D <? t) with false by lia. exact (IH Hs).
  - replace (D <? t) with true by lia. rewrite filter_all; [reflexivity|].
    eapply Forall_impl; [|exact Hall]. intros te Hte. cbn beta in *. lia.
Qed.

Lemma drop_upto_tevents D (tl : list (Z * A)) tm : tsorted (tevents tl tm) ->
  drop_upto D (tevents tl tm) = tevents (after D tl) (term_after D tm).
Proof.
  intros Hs. rewrite (drop_upto_sorted D _ Hs). unfold tevents, after. rewrite filter_app. f_equal.
  - clear Hs. induction tl as [|[t x] rest IH]; [reflexivity|]. cbn [map filter fst snd]. destruct (D <? t); cbn [map fst snd]; now rewrite IH.
  - destruct tm as [T|T c|]; cbn [filter fst term_after]; [| |reflexivity]; destruct (D <? T); reflexivity.
Qed.

Lemma tsorted_lo (es : list (Z * ev A)) : tsorted es ->
  match es with [] => True | (t, _) :: _ => Forall (fun e => t <= fst e) es end.
Proof. destruct es as [|[t e] rest]; [auto|]. intros [H _]. constructor; [cbn; lia|exact H]. Qed.

(* the elements after the subscription instant, each at its own instant, then
   the source's terminal; elements arriving at the very instant of an error are dropped *)
Theorem delay_subscription_spec ts t0 (tl : list (Z * A)) tm : tsorted (tevents tl tm) ->
  timed_emits t0 (simulate (x_delay_subscription ts t0) t0 (ext_of (tevents tl tm)))
  = ds_outq (own (after (due_at ts t0) tl)) (term_after (due_at ts t0) tm).
Proof.
  intros Hs. rewrite delay_subscription_sim_spec by exact Hs. set (D := due_at ts t0).
  rewrite drop_upto_tevents by exact Hs.
  assert (Hs2 : tsorted (tevents (after D tl) (term_after D tm))).
  { rewrite <- drop_upto_tevents by exact Hs. apply tsorted_drop_upto. exact Hs. }
  pose proof (tsorted_lo _ Hs2) as Hlo. rewrite <- ds_outq_delay0.
  destruct (tevents (after D tl) (term_after D tm)) as [|[t e] rest] eqn:Ee.
  - (* nothing after the subscription *)
    destruct (after D tl) as [|[t x] r]; [|discriminate]. destruct (term_after D tm); try discriminate. reflexivity.
  - rewrite <- Ee in *. exact (dspec_closed 0 _ _ [] t I (Forall_nil _) Hs2 Hlo).
Qed.
End DelaySubscription.
