(* C19: partition, run-level closed form (operators/_partition.py as modelled in
   Ops/Groups.v).  With a total predicate, an output that has n live
   subscriptions while a conforming source runs shows n copies of every element of
   its side of the predicate, in order, then n copies of the source's terminal
   (n = 1: exactly its side and the terminal; n = 0: nothing); an output
   subscribed later misses what the (shared, hot) source delivered before. *)
From RxVerif Require Import Base.Prelude Ops.Machine Ops.MultiWin Ops.MultiWinFacts Ops.Groups
  Ops.GroupFacts Ops.WindowCountFacts.

Local Arguments Multi.mem : simpl never.
Local Arguments Multi.remove : simpl never.

Section PartitionRun.
Context {A : Type}.
Variable pf : A -> bool.
Definition tpred : A -> res bool := fun x => Ok (pf x).
(* the side of the predicate output g receives: 0 = holds, 1 (and above) = does not *)
Definition side (g : nat) (x : A) : bool := goes_to (pf x) g.

Lemma pt_run_from_app (pred : A -> res bool) (a : list (Z * inp A)) : forall s k b,
  pt_run_from pred s k (a ++ b)
  = pt_run_from pred s k a ++ pt_run_from pred (pt_after pred s a) (k + length a) b.
Proof.
  induction a as [|[now i] t IH]; intros s k b; cbn [app pt_run_from pt_after length].
  - now rewrite Nat.add_0_r.
  - destruct (pt_step pred s i) as [s' o] eqn:E. cbn [fst]. rewrite IH, <- app_assoc.
    now rewrite Nat.add_succ_r.
Qed.

Lemma wobs_map_side g (x : A) (l : list nat) :
  wobs (B:=unit) g (map (fun j => OWin j (Next x)) l) = repeat (Next x) (count_of g l).
Proof.
  unfold count_of. induction l as [|j t IH]; [reflexivity|]. cbn [map wobs flat_map filter].
  fold (wobs (B:=unit) g (map (fun j => OWin j (Next x)) t)). rewrite IH.
  destruct (Nat.eqb g j); reflexivity.
Qed.

Lemma count_of_filter_side g b (l : list nat) :
  count_of g (filter (goes_to b) l) = if goes_to b g then count_of g l else 0%nat.
Proof.
  unfold count_of. induction l as [|j t IH]; [now destruct (goes_to b g)|]. cbn [filter].
  destruct (Nat.eqb_spec g j) as [E|Hne].
  - subst j. destruct (goes_to b g) eqn:Eg; cbn [filter]; [rewrite Nat.eqb_refl|]; cbn [length]; now rewrite IH.
  - destruct (goes_to b j); cbn [filter]; [destruct (Nat.eqb_spec g j); [congruence|]|]; exact IH.
Qed.

(* elements, from a connected, unstopped state: the state does not change *)
Lemma pt_elements subs g (xs : list A) : forall k rest,
  wevents g (pt_run_from tpred (PtSt subs true None) k (map (fun x => (0, ISrc 0%nat (Next x))) xs ++ rest))
  = flat_map (fun x => repeat (Next x) (count_of g subs)) (filter (side g) xs)
    ++ wevents g (pt_run_from tpred (PtSt subs true None) (k + length xs) rest).
Proof.
  induction xs as [|x t IH]; intros k rest; cbn [map app length flat_map filter].
  - now rewrite Nat.add_0_r.
  - cbn [pt_run_from pt_step pt_conn pt_stopped pt_subs].
    rewrite (partition_deliver tpred x (pf x) eq_refl).
    rewrite wevents_app, wevents_tag, wobs_map_side, count_of_filter_side, IH, Nat.add_succ_r. unfold side.
    destruct (goes_to (pf x) g); [cbn [flat_map]; rewrite <- app_assoc|]; reflexivity.
Qed.

Lemma wevents_cons g k (o : obs A unit) t : wevents g ((k, o) :: t) = wobs g [o] ++ wevents g t.
Proof. unfold wevents, wobs. cbn [flat_map snd]. now rewrite app_nil_r. Qed.

Lemma wobs_leave g subs conn : wobs g (snd (pt_leave (A:=A) subs conn)) = [].
Proof. unfold pt_leave. destruct subs; [destruct conn|]; reflexivity. Qed.

Lemma pt_terminate_wobs g (e : ev A) : forall todo subs conn,
  wobs g (snd (pt_terminate e todo subs conn)) = repeat e (count_of g todo).
Proof.
  unfold count_of. induction todo as [|j t IH]; intros subs conn; [reflexivity|]. cbn [pt_terminate].
  pose proof (wobs_leave g (remove j subs) conn) as HL.
  destruct (pt_leave (A:=A) (remove j subs) conn) as [c1 o1]. cbn [snd] in HL.
  specialize (IH (remove j subs) c1).
  destruct (pt_terminate e t (remove j subs) c1) as [[s' c'] o]. cbn [snd] in *.
  change (OWin j e :: o1 ++ o) with ([OWin (B:=unit) j e] ++ o1 ++ o).
  rewrite !wobs_app, HL, IH. cbn [wobs flat_map filter app].
  destruct (Nat.eqb g j); reflexivity.
Qed.

Lemma pt_step_terminal_wobs (pred : A -> res bool) s g (e : ev A) :
  is_terminal e = true -> pt_conn s = true -> pt_stopped s = None ->
  wobs g (snd (pt_step pred s (ISrc 0%nat e))) = repeat e (count_of g (pt_subs s)).
Proof.
  intros He Hc Hs. cbn [pt_step]. rewrite Hc, Hs.
  pose proof (pt_terminate_wobs g e (pt_subs s) (pt_subs s) true) as HT.
  destruct e as [x|z|]; [discriminate| |];
    destruct (pt_terminate _ (pt_subs s) (pt_subs s) true) as [[s' c'] o]; cbn [snd] in *;
    rewrite wobs_app, HT; destruct c'; cbn; now rewrite app_nil_r.
Qed.

Lemma pt_terminal subs g (e : ev A) k : is_terminal e = true ->
  wevents g (pt_run_from tpred (PtSt subs true None) k [(0, ISrc 0%nat e)]) = repeat e (count_of g subs).
Proof.
  intros He. pose proof (pt_step_terminal_wobs tpred (PtSt subs true None) g e He eq_refl eq_refl) as H.
  cbn [pt_run_from]. destruct (pt_step tpred (PtSt subs true None) (ISrc 0%nat e)) as [s' o].
  rewrite app_nil_r, wevents_tag. exact H.
Qed.

(* n simultaneous subscriptions of output g while a conforming source runs, from the state "connected, not
   stopped, observers [subs]": every element of g's side and the terminal are delivered n times -- one copy
   per subscription *)
Theorem partition_from_connected_n subs g k (xs : list A) tm :
  wevents g (pt_run_from tpred (PtSt subs true None) k (src_events xs tm))
  = flat_map (fun x => repeat (Next x) (count_of g subs)) (filter (side g) xs)
    ++ flat_map (fun e => repeat e (count_of g subs)) (term_ev tm).
Proof.
  unfold src_events. rewrite pt_elements. f_equal.
  destruct tm as [|z|]; cbn [term_ev map flat_map]; [| |reflexivity]; rewrite pt_terminal, app_nil_r; reflexivity.
Qed.

Lemma flat_map_single {X Y} (f : X -> Y) (l : list X) : flat_map (fun x => [f x]) l = map f l.
Proof. induction l as [|x t IH]; [reflexivity|]. cbn [flat_map map app]. now rewrite IH. Qed.
Lemma flat_map_none {X Y} (l : list X) : flat_map (fun _ => @nil Y) l = [].
Proof. induction l as [|x t IH]; [reflexivity|exact IH]. Qed.

(* an output with exactly one live subscription *)
Theorem partition_from_connected subs g k (xs : list A) tm : count_of g subs = 1%nat ->
  wevents g (pt_run_from tpred (PtSt subs true None) k (src_events xs tm))
  = map Next (filter (side g) xs) ++ term_ev tm.
Proof.
  intros Hc. rewrite partition_from_connected_n, Hc. cbn [repeat]. rewrite flat_map_single. now destruct tm.
Qed.

(* no subscription of g: g sees nothing at all *)
Theorem partition_unsubscribed_silent subs g k (xs : list A) tm : count_of g subs = 0%nat ->
  wevents g (pt_run_from tpred (PtSt subs true None) k (src_events xs tm)) = [].
Proof. intros Hc. rewrite partition_from_connected_n, Hc. cbn [repeat]. now rewrite !flat_map_none. Qed.

(* both outputs subscribed before the source emits *)
Theorem partition_closed_form (xs : list A) tm :
  let tr := pt_run tpred ((0, ISubWin 0%nat) :: (0, ISubWin 1%nat) :: src_events xs tm) in
  wevents 0 tr = map Next (filter pf xs) ++ term_ev tm
  /\ wevents 1 tr = map Next (filter (fun x => negb (pf x)) xs) ++ term_ev tm.
Proof.
  cbn zeta. unfold pt_run. cbn [pt_run_from pt_step pt_subs pt_conn pt_stopped andb negb app map].
  rewrite !wevents_cons. cbn [wobs flat_map app].
  split; rewrite partition_from_connected by reflexivity; reflexivity.
Qed.

(* the source is shared and hot: output 1 subscribed after a prefix of the
   source misses that prefix; output 0 sees everything *)
Theorem partition_late_subscriber (xs1 xs2 : list A) tm :
  let tr := pt_run tpred ((0, ISubWin 0%nat) :: src_events xs1 TNever
                          ++ (0, ISubWin 1%nat) :: src_events xs2 tm) in
  wevents 0 tr = map Next (filter pf (xs1 ++ xs2)) ++ term_ev tm
  /\ wevents 1 tr = map Next (filter (fun x => negb (pf x)) xs2) ++ term_ev tm.
Proof.
  cbn zeta. unfold pt_run. cbn [pt_run_from pt_step pt_subs pt_conn pt_stopped andb negb app map].
  unfold src_events at 1 3. cbn [term_ev map]. rewrite !app_nil_r.
  rewrite !wevents_cons. cbn [wobs flat_map app].
  rewrite !pt_elements.
  cbn [pt_run_from pt_step pt_subs pt_conn pt_stopped andb negb app map].
  rewrite !partition_from_connected by reflexivity.
  change (count_of 0 [0%nat]) with 1%nat. change (count_of 1 [0%nat]) with 0%nat. cbn [repeat].
  rewrite flat_map_single, flat_map_none, filter_app, map_app, <- app_assoc. split; reflexivity.
Qed.
End PartitionRun.
