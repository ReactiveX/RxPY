(* C11 / C10: merge(max_concurrent = mc) and concat_map (mc = 1) -- dynamic inner
   sequences with a waiting queue -- against an abstract specification over the
   interleaved input sequence, for EVERY mapper, EVERY mc and EVERY input sequence. *)
From RxVerif Require Import Base.Prelude Ops.Machine Ops.MachineFacts Ops.Multi Ops.MultiFacts
  Ops.RunLemmas Ops.Combinators Ops.MergeFacts Ops.FlatMapFacts.

Local Arguments Nat.ltb : simpl never.
Local Arguments Nat.leb : simpl never.

Section MergeConc.
Context {A : Type}.

(* SPEC: the outer's elements create inner sequences (numbered 1, 2, .. in creation
   order).  At most mc of them run; the others wait in a FIFO queue and the head of
   the queue starts exactly when a running inner completes.  Elements of running
   inners pass at their own instant; the first error ends everything; completion
   when the outer has completed and nothing is running. *)
Fixpoint mc_spec (mapper : A -> nat -> res unit) (mc : nat) (outer_live : bool) (cnt : nat)
  (running queue : list nat) (pos : nat) (ins : list (Z * inp A)) : list (nat * ev A) :=
  match ins with
  | [] => []
  | (_, ISrc O e) :: t =>
      if outer_live then
        match e with
        | Next x => match mapper x cnt with
                    | Ok _ => if Nat.ltb (length running) mc
                              then mc_spec mapper mc true (S cnt) (running ++ [S cnt]) queue (S pos) t
                              else mc_spec mapper mc true (S cnt) running (queue ++ [S cnt]) (S pos) t
                    | Raise err => [(pos, Err err)]
                    end
        | Err err => [(pos, Err err)]
        | Done => match running with
                  | [] => [(pos, Done)]
                  | _ => mc_spec mapper mc false cnt running queue (S pos) t
                  end
        end
      else mc_spec mapper mc outer_live cnt running queue (S pos) t
  | (_, ISrc (S j) e) :: t =>
      if mem (S j) running then
        match e with
        | Next x => (pos, Next x) :: mc_spec mapper mc outer_live cnt running queue (S pos) t
        | Err err => [(pos, Err err)]
        | Done => match queue with
                  | q :: rest => mc_spec mapper mc outer_live cnt (remove (S j) running ++ [q]) rest (S pos) t
                  | [] => match remove (S j) running, outer_live with
                          | [], false => [(pos, Done)]
                          | rest', _ => mc_spec mapper mc outer_live cnt rest' [] (S pos) t
                          end
                  end
        end
      else mc_spec mapper mc outer_live cnt running queue (S pos) t
  | (_, ITick _) :: t => mc_spec mapper mc outer_live cnt running queue (S pos) t
  | (_, IDispose) :: _ => []
  end.

(* well-formed: running and waiting inners are distinct ids in 1..cnt *)
Definition mc_ok (cnt : nat) (running queue : list nat) : Prop := fm_ok cnt (running ++ queue).

Lemma mc_ok_running cnt running queue : mc_ok cnt running queue -> fm_ok cnt running.
Proof.
  intros [Hnd Hr]. split.
  - eapply NoDup_app_l. exact Hnd.
  - intros k Hk. apply Hr. apply in_or_app. left. exact Hk.
Qed.

Lemma mc_ok_run_new cnt running queue :
  mc_ok cnt running queue -> mc_ok (S cnt) (running ++ [S cnt]) queue.
Proof.
  intros [Hnd Hr]. unfold mc_ok. rewrite <- app_assoc. cbn [app]. split.
  - apply (NoDup_Add (Add_app (S cnt) running queue)). split; [exact Hnd|].
    intros Hin. specialize (Hr _ Hin). lia.
  - intros k Hk. apply in_elt_inv in Hk. destruct Hk as [E|Hk]; [|specialize (Hr _ Hk)]; lia.
Qed.

Lemma mc_ok_queue_new cnt running queue :
  mc_ok cnt running queue -> mc_ok (S cnt) running (queue ++ [S cnt]).
Proof.
  intros H. unfold mc_ok. rewrite app_assoc. apply fm_ok_new. exact H.
Qed.

Lemma remove_app_in k (a b : list nat) : mem k a = true -> remove k (a ++ b) = remove k a ++ b.
Proof.
  unfold mem. induction a as [|x t IH]; [discriminate|]. cbn [existsb remove app].
  destruct (Nat.eqb k x); [reflexivity|]. intros H. cbn [app]. f_equal. exact (IH H).
Qed.

(* a running inner completes while q waits: q takes its place.  Both halves say that the one
   occurrence of k in running ++ q :: rest has been removed *)
Lemma mc_ok_promote cnt running q rest k :
  mc_ok cnt running (q :: rest) -> mem k running = true ->
  mc_ok cnt (remove k running ++ [q]) rest /\ mem k (remove k running ++ [q]) = false.
Proof.
  intros Hok Hk. pose proof (mem_removed _ k (proj1 Hok)) as Hgone.
  unfold mc_ok. rewrite <- app_assoc. cbn [app]. rewrite remove_app_in in Hgone by exact Hk.
  rewrite <- (remove_app_in k running (q :: rest) Hk). split; [apply fm_ok_remove; exact Hok|].
  rewrite mem_app in *. apply orb_false_iff in Hgone. destruct Hgone as [-> Hq].
  unfold mem in *. cbn [existsb] in *. apply orb_false_iff in Hq. now rewrite (proj1 Hq).
Qed.

Lemma mc_ok_drop cnt running k : mc_ok cnt running [] -> mc_ok cnt (remove k running) [].
Proof. unfold mc_ok. rewrite !app_nil_r. apply fm_ok_remove. Qed.

Lemma fm_live_snoc ol running q : fm_live ol running ++ [q] = fm_live ol (running ++ [q]).
Proof. unfold fm_live. now rewrite app_assoc. Qed.

Lemma mc_from mapper mc (ins : list (Z * inp A)) : forall ol cnt running queue pos,
  mc_ok cnt running queue -> (ol = true \/ running <> []) ->
  temitted (fst (run_from (x_merge_concurrent mc mapper) (cnt, length running, queue, negb ol)
                   (RState (fm_live ol running) [] false) pos ins))
  = mc_spec mapper mc ol cnt running queue pos ins.
Proof.
  induction ins as [|[now i] rest IH]; intros ol cnt running queue pos Hok Hsome; [reflexivity|].
  rewrite temitted_run_cons. cbn [mc_spec].
  pose proof (mc_ok_running _ _ _ Hok) as Hokr.
  set (m := x_merge_concurrent mc mapper).
  destruct i as [k e|tag|].
  - destruct k as [|j].
    + (* the outer source *)
      destruct ol.
      * destruct e as [x|err|].
        -- destruct (mapper x cnt) as [[]|err] eqn:Hmap.
           ++ destruct (Nat.ltb (length running) mc) eqn:Hlt.
              ** assert (E : rstep m (cnt, length running, queue, negb true) (RState (fm_live true running) [] false)
                               now (ISrc 0%nat (Next x))
                             = ((S cnt, length (running ++ [S cnt]), queue, negb true),
                                RState (fm_live true (running ++ [S cnt])) [] false, [OSub (S cnt)])).
                 { unfold rstep, fm_live, m. cbn. rewrite Hmap, Hlt. cbn.
                   rewrite app_length. cbn [length]. rewrite Nat.add_1_r. reflexivity. }
                 rewrite E. cbn [fst snd]. rewrite IH by (auto using mc_ok_run_new). reflexivity.
              ** assert (E : rstep m (cnt, length running, queue, negb true) (RState (fm_live true running) [] false)
                               now (ISrc 0%nat (Next x))
                             = ((S cnt, length running, queue ++ [S cnt], negb true),
                                RState (fm_live true running) [] false, [])).
                 { unfold rstep, fm_live, m. cbn. rewrite Hmap, Hlt. cbn. reflexivity. }
                 rewrite E. cbn [fst snd]. rewrite IH by (auto using mc_ok_queue_new). reflexivity.
           ++ rewrite temitted_fin;
                [unfold m; cbn; rewrite Hmap; reflexivity|reflexivity|reflexivity|unfold m; cbn; rewrite Hmap; discriminate].
        -- rewrite temitted_fin; [reflexivity|reflexivity|reflexivity|cbn; discriminate].
        -- destruct running as [|r0 rs].
           ++ rewrite temitted_fin; [reflexivity|reflexivity|reflexivity|cbn; discriminate].
           ++ assert (E : rstep m (cnt, length (r0 :: rs), queue, negb true)
                            (RState (fm_live true (r0 :: rs)) [] false) now (ISrc 0%nat Done)
                          = ((cnt, length (r0 :: rs), queue, negb false),
                             RState (fm_live false (r0 :: rs)) [] false, [OUnsub 0%nat])).
              { unfold rstep, fm_live, m. cbn. reflexivity. }
              rewrite E. cbn [fst snd]. rewrite IH by (auto; right; discriminate). reflexivity.
      * rewrite temitted_dropped by (exact (mem_0_fm_live cnt false running Hokr) || discriminate). now apply IH.
    + (* an inner source *)
      destruct (mem (S j) running) eqn:Hmem.
      * destruct e as [x|err|].
        -- assert (E : rstep m (cnt, length running, queue, negb ol) (RState (fm_live ol running) [] false)
                         now (ISrc (S j) (Next x))
                       = ((cnt, length running, queue, negb ol), RState (fm_live ol running) [] false, [OEmit (Next x)])).
           { unfold rstep. cbn [r_stopped r_live]. rewrite mem_fm_live_S, Hmem. cbn. reflexivity. }
           rewrite E. cbn [fst snd]. rewrite IH by auto. reflexivity.
        -- rewrite temitted_fin;
             [reflexivity|reflexivity|cbn [delivered r_live]; now rewrite mem_fm_live_S|cbn; discriminate].
        -- destruct queue as [|q qs].
           ++ (* nothing waits: one running inner less; the last one after the outer completes *)
              pose proof (mem_removed running (S j) (proj1 Hokr)) as Hgone.
              pose proof (length_remove (S j) running Hmem) as Hlen.
              destruct (negb ol && Nat.eqb (length (remove (S j) running)) 0) eqn:Hend.
              ** apply andb_prop in Hend. destruct Hend as [Hol Hz].
                 destruct ol; [discriminate Hol|]. destruct (remove (S j) running); [|discriminate Hz].
                 rewrite temitted_fin;
                   [unfold m; cbn [x_merge_concurrent x_step negb fst snd andb]; rewrite <- Hlen; reflexivity
                   |reflexivity|cbn [delivered r_live]; now rewrite mem_fm_live_S
                   |unfold m; cbn [x_merge_concurrent x_step negb snd andb]; rewrite <- Hlen; cbn; discriminate].
              ** assert (E : rstep m (cnt, length running, [], negb ol) (RState (fm_live ol running) [] false)
                               now (ISrc (S j) Done)
                             = ((cnt, length (remove (S j) running), [], negb ol),
                                RState (fm_live ol (remove (S j) running)) [] false, [OUnsub (S j)])).
                 { unfold rstep. cbn [r_stopped r_live]. rewrite mem_fm_live_S, Hmem.
                   unfold m. cbn [x_merge_concurrent x_step]. rewrite <- Hlen, Hend.
                   cbn [apply_cmds r_live r_timers r_stopped].
                   rewrite mem_fm_live_S, Hmem, remove_fm_live_S.
                   cbn [fst snd app is_terminal andb r_live]. rewrite mem_fm_live_S, Hgone. reflexivity. }
                 rewrite E. cbn [fst snd]. rewrite IH.
                 --- destruct (remove (S j) running), ol; cbn in Hend; (reflexivity || discriminate Hend).
                 --- apply mc_ok_drop. exact Hok.
                 --- destruct ol; [left; reflexivity|right]. intros Hnil. rewrite Hnil in Hend. discriminate Hend.
           ++ (* the head of the queue takes the place of the completed inner *)
              destruct (mc_ok_promote cnt running q qs (S j) Hok Hmem) as [Hok2 Hgone].
              pose proof (length_remove (S j) running Hmem) as Hlen.
              assert (Hlen2 : length (remove (S j) running ++ [q]) = length running).
              { rewrite app_length, Hlen. cbn [length]. apply mem_In in Hmem. destruct running; [contradiction|cbn; lia]. }
              assert (E : rstep m (cnt, length running, q :: qs, negb ol) (RState (fm_live ol running) [] false)
                            now (ISrc (S j) Done)
                          = ((cnt, length (remove (S j) running ++ [q]), qs, negb ol),
                             RState (fm_live ol (remove (S j) running ++ [q])) [] false, [OUnsub (S j); OSub q])).
              { unfold rstep. cbn [r_stopped r_live]. rewrite mem_fm_live_S, Hmem.
                unfold m. cbn [x_merge_concurrent x_step].
                cbn [apply_cmds r_live r_timers r_stopped].
                rewrite mem_fm_live_S, Hmem, remove_fm_live_S.
                cbn [r_live r_timers r_stopped fst snd app]. rewrite fm_live_snoc.
                cbn [is_terminal andb]. rewrite mem_fm_live_S, Hgone.
                cbn [finish fst snd app]. rewrite Hlen2. reflexivity. }
              rewrite E. cbn [fst snd]. rewrite IH; [reflexivity|exact Hok2|].
              right. intros Hnil. apply (f_equal (@length nat)) in Hnil. rewrite app_length in Hnil. cbn in Hnil. lia.
      * rewrite temitted_dropped by ((cbn [delivered r_live]; now rewrite mem_fm_live_S) || discriminate). now apply IH.
  - rewrite temitted_dropped by (reflexivity || discriminate). now apply IH.
  - unfold rstep. cbn [r_stopped]. unfold m. cbn [x_merge_concurrent x_step apply_cmds fst snd].
    rewrite run_from_stopped by reflexivity. cbn [fst]. rewrite app_nil_r.
    cbn [filter app]. apply release_temitted.
Qed.

(* for EVERY mapper (also raising), EVERY max_concurrent and EVERY input sequence;
   concat_map is the instance mc = 1 *)
Theorem merge_concurrent_refines_spec mc mapper (ins : list (Z * inp A)) :
  temitted (fst (run (x_merge_concurrent mc mapper) ins)) = mc_spec mapper mc true 0 [] [] 1 ins.
Proof.
  rewrite run_unfold. cbn [fst]. rewrite temitted_app.
  unfold start_state, start_obs. cbn -[run_from mc_spec temitted].
  change (RState [0%nat] [] false) with (RState (fm_live true []) [] false).
  change (0%nat, 0%nat, @nil nat, false) with (0%nat, length (@nil nat), @nil nat, negb true).
  rewrite mc_from; [reflexivity|split; [constructor|intros k []]|auto].
Qed.
End MergeConc.

Section Bounded.
Context {A : Type}.

Fixpoint ninner (l : list nat) : nat :=
  match l with [] => 0%nat | O :: t => ninner t | S _ :: t => S (ninner t) end.

Lemma ninner_app a b : ninner (a ++ b) = (ninner a + ninner b)%nat.
Proof. induction a as [|[|j] t IH]; cbn; [reflexivity|exact IH|now rewrite IH]. Qed.

Lemma ninner_remove_le k l : (ninner (remove k l) <= ninner l)%nat.
Proof.
  induction l as [|j t IH]; cbn [remove]; [lia|]. destruct (Nat.eqb k j).
  - destruct j; cbn; lia.
  - destruct j; cbn; lia.
Qed.

Lemma ninner_remove_S j l : mem (S j) l = true -> S (ninner (remove (S j) l)) = ninner l.
Proof.
  unfold mem. induction l as [|i t IH]; intros H; [discriminate|].
  cbn [remove existsb] in *. destruct (Nat.eqb (S j) i) eqn:E.
  - apply Nat.eqb_eq in E. subst i. reflexivity.
  - cbn [orb] in H. destruct i; cbn [ninner]; rewrite <- (IH H); reflexivity.
Qed.

Lemma ninner_single q : (ninner [q] <= 1)%nat.
Proof. destruct q; cbn; lia. Qed.

Definition mc_inv (mc : nat) (s : nat * nat * list nat * bool) (r : rstate) : Prop :=
  let '(_, active, _, _) := s in (ninner (r_live r) <= active <= mc)%nat.

Lemma mc_inv_settled mc s (i : inp A) r1 f :
  mc_inv mc s r1 -> mc_inv mc s (fst (finish (B:=A) (fst (auto_detach (B:=A) i r1)) f)).
Proof.
  destruct s as [[[cnt active] queue] stopped]. unfold mc_inv. intros H.
  destruct (settled_live (B:=A) i r1 f) as [E|[E|[k E]]]; rewrite E; [cbn; lia|exact H|].
  pose proof (ninner_remove_le k (r_live r1)). lia.
Qed.

Lemma mc_inv_step mc mapper (s : nat * nat * list nat * bool) r now (i : inp A) :
  mc_inv mc s r ->
  mc_inv mc (fst (fst (rstep (x_merge_concurrent mc mapper) s r now i)))
            (snd (fst (rstep (x_merge_concurrent mc mapper) s r now i))).
Proof.
  intros H. destruct (handled_or_dropped r i) as [[Hst Hd]|Hd]; [|now rewrite rstep_dropped].
  rewrite (rstep_handled_eq (x_merge_concurrent mc mapper) s r now i Hst Hd). unfold handled_step.
  destruct s as [[[cnt active] queue] stopped].
  destruct i as [k e|tag|]; cbn [fst snd]; [apply mc_inv_settled..|].
  - (* what the handler's commands do to the live list *)
    destruct Hd as [Hd|Hd]; [cbn [delivered] in Hd|discriminate Hd].
    unfold mc_inv in *. destruct k as [|j], e as [x|err|]; cbn [x_merge_concurrent x_step]; try (cbn; lia).
    + destruct (mapper x cnt) as [[]|err]; [destruct (Nat.ltb_spec active mc)|];
        cbn; rewrite ?ninner_app; cbn; lia.
    + pose proof (ninner_remove_S j _ Hd). destruct queue as [|q qs]; [|pose proof (ninner_single q)];
        cbn [fst snd apply_cmds]; rewrite Hd; cbn; rewrite ?ninner_app; lia.
  - exact H.
  - unfold mc_inv in *. cbn. lia.
Qed.

(* after every input at most max_concurrent inner sequences are subscribed *)
Theorem merge_concurrent_bounded mc mapper (ins : list (Z * inp A)) :
  (ninner (r_live (snd (run (x_merge_concurrent mc mapper) ins))) <= mc)%nat.
Proof.
  rewrite run_final.
  set (m := x_merge_concurrent mc mapper).
  assert (H0 : mc_inv mc (fst (start_state m)) (snd (start_state m))).
  { unfold start_state, m, mc_inv. cbn. lia. }
  pose proof (run_from_invariant m (fun s r _ => mc_inv mc s r)
                (fun s r acc now i H => mc_inv_step mc mapper s r now i H) ins _ _ 1 [] H0) as H.
  cbn beta in H. unfold mc_inv in H.
  destruct (fst (after m (fst (start_state m)) (snd (start_state m)) ins)) as [[[c a] q] st]. lia.
Qed.
End Bounded.
