(* C17:
   (1) timeout with a fallback over a TWO-port closed world (port 0 the source,
       port 1 the fallback observable): walk for every interleaving, and on a
       time-sorted timeline the closed form "before the switch the source's
       notifications, after it exactly the fallback's";
   (2) skip_last_with_time with the instants of the emissions, for every
       terminal (completion / error / none);
   (3) timeout with an ABSOLUTE due time in closed form.
   The first section also holds what TimeoutMapperRun.v uses of the two-port world: [port] (one port of a
   timeline) and [sim_mirror] (a machine that only passes a port on). *)
From RxVerif Require Import Base.Prelude Ops.Machine Ops.Multi Ops.MultiFacts Ops.Timed Ops.TimedSim
  Ops.TimedFacts Ops.SimPortSteps Ops.TimedWindowFacts Ops.TimedSubFacts.

Section TimeoutFallback.
Context {A : Type}.
Notation tin := (Z * nat * ev A)%type.

(* the notifications of port [k], at their instants *)
Definition port (k : nat) (ins : list tin) : list (Z * ev A) :=
  flat_map (fun x => if Nat.eqb (snd (fst x)) k then [(fst (fst x), snd x)] else []) ins.

Lemma port_cons k t j e ins :
  port k ((t, j, e) :: ins) = (if Nat.eqb j k then [(t, e)] else []) ++ port k ins.
Proof. reflexivity. Qed.

Fixpoint timeout2_spec (ts : tspec) (due : Z) (ins : list tin) : list (Z * ev A) :=
  match ins with
  | [] => []
  | (t, k, e) :: rest =>
      if t <=? due then
        match k with
        | O => match e with
               | Next x => (t, Next x) :: timeout2_spec ts (t + clamp (tdelay ts t)) rest
               | _ => [(t, e)]
               end
        | _ => timeout2_spec ts due rest
        end
      else upto_term (port 1 ins)
  end.

(* a machine that, in state [s], passes port [k] on and stays in [s], while only [k] is subscribed *)
Lemma sim_mirror (m : machine A A) k (s : x_state m) :
  (forall t x, x_step m s t (ISrc k (Next x)) = (s, [CEmit x], Cont)) ->
  (forall t c, x_step m s t (ISrc k (Err c)) = (s, [], Fail c)) ->
  (forall t, x_step m s t (ISrc k Done) = (s, [], Complete)) ->
  forall (ins : list tin) fuel, (length ins <= fuel)%nat ->
  sim_emits (sim m fuel s (RState [k] [] false) [] (ext2_of ins)) = upto_term (port k ins).
Proof.
  intros Hn He Hd. induction ins as [|[[t j] e] rest IH]; intros fuel Hf.
  - now rewrite ext2_of_nil, sim_nil.
  - destruct fuel as [|f]; [cbn in Hf; lia|]. cbn [length] in Hf. rewrite ext2_of_cons, port_cons.
    destruct (Nat.eqb j k) eqn:Ej.
    + apply Nat.eqb_eq in Ej. subst j. cbn [app upto_term].
      assert (Hm : mem k [k] = true) by (unfold mem; cbn; now rewrite Nat.eqb_refl).
      destruct e as [x|c|].
      * etransitivity; [eapply sim_port_cont; [exact Hm|apply Hn|reflexivity|reflexivity]|].
        cbn [emits flat_map map app]. f_equal. apply IH. lia.
      * eapply sim_port_fail; [exact Hm|apply He].
      * eapply sim_port_done; [exact Hm|apply Hd].
    + cbn [app]. rewrite sim_port_dead by (unfold mem; cbn [existsb]; now rewrite Ej). apply IH. lia.
Qed.

Lemma timeout2_switched_sim ts t0 (ins : list tin) fuel s : (length ins <= fuel)%nat ->
  sim_emits (sim (x_timeout ts true t0) fuel s (RState [1%nat] [] false) [] (ext2_of ins))
  = upto_term (port 1 ins).
Proof. apply sim_mirror; reflexivity. Qed.

Lemma timeout2_sim ts t0 : forall (ins : list tin) fuel id tg tms due, (length ins + 1 <= fuel)%nat ->
  sim_emits (to_sim ts t0 true fuel id tg tms due (ext2_of ins)) = timeout2_spec ts due ins.
Proof.
  assert (Fire : forall f id tg tms due (ins : list tin), (length ins <= f)%nat -> later due (ext2_of ins) ->
            sim_emits (to_sim ts t0 true (S f) id tg tms due (ext2_of ins)) = upto_term (port 1 ins)).
  { intros f id tg tms due ins Hf H. rewrite (timeout_fire ts t0 true _ _ _ _ _ _ H). cbv iota. rewrite sim_emits_cons.
    apply timeout2_switched_sim, Hf. }
  induction ins as [|[[t k] e] rest IH]; intros fuel id tg tms due Hf.
  - destruct fuel as [|f]; [cbn in Hf; lia|]. apply (Fire f id tg tms due []); [cbn; lia|exact I].
  - destruct fuel as [|f]; [cbn in Hf; lia|]. cbn [length] in Hf. cbn [timeout2_spec].
    destruct (t <=? due) eqn:E; [|apply Fire; [cbn [length]; lia|rewrite ext2_of_cons; cbn; lia]].
    rewrite ext2_of_cons. destruct k as [|k]; [destruct e as [x|c|]|].
    + rewrite timeout_src_next, sim_emits_cons by exact E. cbn [emits flat_map map app]. f_equal. apply IH. lia.
    + apply timeout_src_term; [exact E|reflexivity].
    + apply timeout_src_term; [exact E|reflexivity].
    + (* the fallback is not subscribed yet *)
      unfold to_sim. rewrite sim_S. cbn [next_event earliest]. rewrite E. cbn. nat_eqb.
      rewrite sim_emits_cons. apply IH. lia.
Qed.

Theorem timeout_fallback_walk ts t0 (ins : list tin) :
  timed_emits t0 (simulate (x_timeout ts true t0) t0 (ext2_of ins)) = timeout2_spec ts (due_at ts t0) ins.
Proof.
  unfold timed_emits. rewrite (simulate_timer_sub0 (x_timeout ts true t0) _ _ t0 _ eq_refl).
  apply (timeout2_sim ts t0 ins _ 0 0 []). unfold ext2_of. rewrite map_length. lia.
Qed.

(* both ports on one time-sorted timeline *)
Fixpoint tsorted2 (ins : list tin) : Prop :=
  match ins with
  | [] => True
  | (t, _, _) :: r => Forall (fun y => t <= fst (fst y)) r /\ tsorted2 r
  end.

Lemma port_Forall (P : Z -> Prop) k : forall ins : list tin,
  Forall (fun y => P (fst (fst y))) ins -> Forall (fun te => P (fst te)) (port k ins).
Proof.
  induction ins as [|[[t j] e] r IH]; intros H; [constructor|].
  inversion H as [|? ? Hh Hr]; subst. rewrite port_cons.
  destruct (Nat.eqb j k); cbn [app]; [constructor; [exact Hh|]|]; apply IH, Hr.
Qed.

Lemma timeout_spec_late ts due (es : list (Z * ev A)) :
  Forall (fun te => due < fst te) es -> timeout_spec ts due es = ([], Some due).
Proof.
  destruct es as [|[t e] r]; [reflexivity|]. intros H. inversion H as [|? ? Hh _]; subst. cbn [fst] in Hh.
  cbn [timeout_spec]. destruct (t <=? due) eqn:E; [lia|reflexivity].
Qed.

(* the switch instant is not before anything the timer was compared with *)
Lemma timeout_spec_switch_lb ts : forall (es : list (Z * ev A)) due lo d,
  lo <= due -> Forall (fun te => lo <= fst te) es -> snd (timeout_spec ts due es) = Some d -> lo <= d.
Proof.
  induction es as [|[t e] r IH]; intros due lo d Hlo Hall Hs.
  - cbn in Hs. injection Hs as <-. exact Hlo.
  - cbn [timeout_spec] in Hs. inversion Hall as [|? ? Hh Hr]; subst. cbn [fst] in Hh.
    destruct (t <=? due) eqn:E.
    + destruct e as [x|c|]; [|discriminate Hs|discriminate Hs].
      destruct (timeout_spec ts (t + clamp (tdelay ts t)) r) as [o sw] eqn:Er. cbn [snd] in Hs.
      apply (IH (t + clamp (tdelay ts t)) lo d); [unfold clamp; lia|exact Hr|rewrite Er; exact Hs].
    + cbn in Hs. injection Hs as <-. exact Hlo.
Qed.

Definition fallback_after (d : Z) (ins : list tin) : list (Z * ev A) :=
  filter (fun te => d <? fst te) (port 1 ins).

Lemma timeout2_spec_sorted ts : forall (ins : list tin) due, tsorted2 ins ->
  timeout2_spec ts due ins
  = fst (timeout_spec ts due (port 0 ins))
    ++ match snd (timeout_spec ts due (port 0 ins)) with
       | Some d => upto_term (fallback_after d ins)
       | None => []
       end.
Proof.
  induction ins as [|[[t k] e] r IH]; intros due Hs; [reflexivity|].
  destruct Hs as [Hall Hs]. cbn [timeout2_spec]. destruct (t <=? due) eqn:E.
  - destruct k as [|k].
    + rewrite port_cons. cbn [Nat.eqb app timeout_spec]. rewrite E.
      destruct e as [x|c|]; [|reflexivity|reflexivity].
      rewrite (IH _ Hs). unfold fallback_after. rewrite port_cons. cbn [Nat.eqb app].
      destruct (timeout_spec ts (t + clamp (tdelay ts t)) (port 0 r)) as [o sw]. reflexivity.
    + rewrite (IH _ Hs). rewrite (port_cons 0). cbn [Nat.eqb app]. f_equal.
      destruct (snd (timeout_spec ts due (port 0 r))) as [d|] eqn:Esw; [|reflexivity].
      unfold fallback_after. rewrite port_cons. destruct (Nat.eqb (S k) 1); [|reflexivity].
      cbn [app filter fst].
      assert (Hd : t <= d).
      { apply (timeout_spec_switch_lb ts (port 0 r) due t d); [lia| |exact Esw].
        apply (port_Forall (fun u => t <= u)), Hall. }
      destruct (d <? t) eqn:E2; [lia|reflexivity].
  - assert (Hlate : Forall (fun y : tin => due < fst (fst y)) ((t, k, e) :: r)).
    { constructor; [cbn; lia|]. eapply Forall_impl; [|exact Hall]. cbn beta. intros y Hy. lia. }
    rewrite timeout_spec_late by (apply (port_Forall (fun u => due < u)), Hlate).
    cbn [fst snd app]. unfold fallback_after. rewrite filter_all; [reflexivity|].
    eapply Forall_impl; [|apply (port_Forall (fun u => due < u) 1), Hlate].
    cbn beta. intros te Hte. destruct (due <? fst te) eqn:E2; [reflexivity|lia].
Qed.

Theorem timeout_mirrors_fallback ts t0 (ins : list tin) : tsorted2 ins ->
  timed_emits t0 (simulate (x_timeout ts true t0) t0 (ext2_of ins))
  = fst (timeout_spec ts (due_at ts t0) (port 0 ins))
    ++ match snd (timeout_spec ts (due_at ts t0) (port 0 ins)) with
       | Some d => upto_term (fallback_after d ins)
       | None => []
       end.
Proof. intros Hs. rewrite timeout_fallback_walk. apply timeout2_spec_sorted, Hs. Qed.

Lemma port_tsorted k : forall ins : list tin, tsorted2 ins -> tsorted (port k ins).
Proof.
  induction ins as [|[[t j] e] r IH]; intros Hs; [exact I|]. destruct Hs as [Hall Hs].
  rewrite port_cons. destruct (Nat.eqb j k); cbn [app]; [|exact (IH Hs)].
  split; [|exact (IH Hs)]. apply (port_Forall (fun u => t <= u)), Hall.
Qed.
End TimeoutFallback.

Section SkipLastInstants.
Context {A : Type}.

(* an element that arrived at [fst tx] leaves the queue at the first of the
   notification instants [us] at which its age reached d *)
Definition sl_emit (d : Z) (us : list Z) (tx : Z * A) : list (Z * ev A) :=
  match find (fun u => d <=? u - fst tx) us with
  | Some u => [(u, Next (snd tx))]
  | None => []
  end.
Definition sl_q (d : Z) (us : list Z) (q : list (Z * A)) : list (Z * ev A) := flat_map (sl_emit d us) q.

(* the instant of the completion: the only terminal that flushes *)
Definition done_time (tm : tterm) : list Z := match tm with TTDone T => [T] | _ => [] end.

Fixpoint sl_out (d : Z) (tl : list (Z * A)) (tm : tterm) : list (Z * ev A) :=
  match tl with
  | [] => []
  | (t, x) :: rest => sl_emit d (t :: map fst rest ++ done_time tm) (t, x) ++ sl_out d rest tm
  end.

Lemma sl_q_nil d q : sl_q d [] q = [].
Proof. induction q as [|tx q IH]; [reflexivity|]. exact IH. Qed.

Lemma sl_q_app d us p s : sl_q d us (p ++ s) = sl_q d us p ++ sl_q d us s.
Proof. apply flat_map_app. Qed.

Lemma sl_q_aged d u us p : Forall (fun tx => aged u d tx = true) p ->
  sl_q d (u :: us) p = at_time u p.
Proof.
  induction 1 as [|tx p Hx _ IH]; [reflexivity|].
  cbn [sl_q flat_map at_time map]. unfold sl_emit at 1. cbn [find]. unfold aged in Hx. rewrite Hx.
  cbn [app]. f_equal. exact IH.
Qed.

Lemma sl_q_young d u us s : Forall (fun tx => aged u d tx = false) s ->
  sl_q d (u :: us) s = sl_q d us s.
Proof.
  induction 1 as [|tx s Hx _ IH]; [reflexivity|].
  cbn [sl_q flat_map]. unfold sl_emit at 1 3. cbn [find]. unfold aged in Hx. rewrite Hx.
  f_equal. exact IH.
Qed.

Lemma tsorted_app_l {X} (p s : list (Z * X)) : tsorted (p ++ s) -> tsorted p.
Proof.
  induction p as [|[t x] p IH]; [intros; exact I|]. cbn. intros [H1 H2]. split; [|auto].
  apply Forall_app in H1. apply H1.
Qed.

Lemma young_suffix T d (s : list (Z * A)) : tsorted s ->
  match s with [] => True | tx :: _ => aged T d tx = false end ->
  Forall (fun y => aged T d y = false) s.
Proof.
  destruct s as [|[t y] s']; [constructor|]. intros [Hs _] Hy. constructor; [exact Hy|].
  exact (young_tail T d t y s' Hy Hs).
Qed.

(* from any queue: what is queued leaves at the coming notification instants like the elements to come
   ([sl_q] is [sl_emit] over the queue); every pop splits the queue into its aged prefix and a young rest *)
Lemma skip_last_inst_sim d : forall (tl : list (Z * A)) tm fuel q,
  (length tl + 1 <= fuel)%nat -> tsorted (q ++ tl) ->
  sim_emits (sim (x_skip_last_with_time d) fuel q R0 [] (ext_of (tevents tl tm)))
  = sl_q d (map fst tl ++ done_time tm) q ++ sl_out d tl tm ++ term_ev tm.
Proof.
  induction tl as [|[u x] rest IH]; intros tm fuel q Hf Hs.
  - destruct fuel as [|f]; [cbn in Hf; lia|]. rewrite app_nil_r in Hs.
    cbn [map app sl_out]. destruct tm as [T|t e|]; cbn [tevents map app done_time term_ev].
    + rewrite sim_S, ext_of_cons. cbn.
      destruct (pop_aged_split T d q) as [p [s [Hq [Hp [Ha Hy]]]]]. rewrite Hp.
      rewrite apply_cmds_emit_only. sim_fin. rewrite sim_stopped by reflexivity. rewrite app_nil_r.
      subst q. rewrite sl_q_app, (sl_q_aged d T [] p Ha).
      rewrite (sl_q_young d T [] s), sl_q_nil, app_nil_r
        by (apply young_suffix; [exact (tsorted_app_r _ _ Hs)|exact Hy]).
      rewrite emits_app, emits_emit_only, map_app, !map_map. unfold at_time. reflexivity.
    + sim_step. rewrite sim_stopped by reflexivity. rewrite sl_q_nil. reflexivity.
    + rewrite ext_of_nil, sim_nil, sl_q_nil. reflexivity.
  - destruct fuel as [|f]; [cbn in Hf; lia|]. cbn [length] in Hf.
    rewrite tevents_cons, sim_S, ext_of_cons. cbn.
    destruct (pop_aged_split u d (q ++ [(u, x)])) as [p [s [Hq [Hp [Ha Hy]]]]]. rewrite Hp.
    rewrite apply_cmds_emit_only. sim_fin. rewrite app_nil_r.
    assert (Hs' : tsorted ((q ++ [(u, x)]) ++ rest)) by (rewrite <- app_assoc; exact Hs).
    rewrite Hq, <- app_assoc in Hs'.
    rewrite filter_false. rewrite IH; [|lia|exact (tsorted_app_r _ _ Hs')].
    cbn [sl_out map fst app].
    set (us := map fst rest ++ done_time tm).
    assert (E1 : sl_emit d (u :: us) (u, x) = sl_q d (u :: us) [(u, x)])
      by (unfold sl_q; cbn [flat_map]; now rewrite app_nil_r).
    rewrite E1, !app_assoc. f_equal. f_equal. rewrite <- sl_q_app, Hq, sl_q_app.
    rewrite (sl_q_aged d u us p Ha).
    rewrite (sl_q_young d u us s)
      by (apply young_suffix; [exact (tsorted_app_l _ _ (tsorted_app_r _ _ Hs'))|exact Hy]).
    f_equal. rewrite emits_emit_only, !map_map. unfold at_time. reflexivity.
Qed.

Theorem skip_last_with_time_instants t0 d (tl : list (Z * A)) tm : tsorted tl ->
  timed_emits t0 (simulate (x_skip_last_with_time d) t0 (ext_of (tevents tl tm)))
  = sl_out d tl tm ++ term_ev tm.
Proof.
  intros Hs. rewrite (timed_emits_sub0 (x_skip_last_with_time d) []) by reflexivity.
  rewrite (skip_last_inst_sim d tl tm _ []); [reflexivity| |exact Hs].
  rewrite ext_of_length. unfold tevents. rewrite app_length, map_length. lia.
Qed.

(* an error (or no terminal) flushes nothing: only element instants count *)
Lemma sl_out_err_never d (tl : list (Z * A)) t e : sl_out d tl (TTErr t e) = sl_out d tl TTNever.
Proof. induction tl as [|[u x] r IH]; [reflexivity|]. cbn [sl_out done_time]. now rewrite IH. Qed.

Lemma sl_out_in d : forall (tl : list (Z * A)) tm u x, In (u, Next x) (sl_out d tl tm) ->
  exists t, In (t, x) tl /\ d <= u - t /\ In u (map fst tl ++ done_time tm).
Proof.
  induction tl as [|[t y] rest IH]; intros tm u x Hin; [destruct Hin|].
  cbn [sl_out] in Hin. apply in_app_or in Hin. destruct Hin as [Hin|Hin].
  - unfold sl_emit in Hin. cbn [fst snd] in Hin.
    destruct (find (fun u0 => d <=? u0 - t) (t :: map fst rest ++ done_time tm)) as [u0|] eqn:Ef; [|destruct Hin].
    destruct Hin as [Hin|[]]. injection Hin as -> ->. apply find_some in Ef. destruct Ef as [Hu Hd].
    exists t. split; [left; reflexivity|]. split; [lia|exact Hu].
  - destruct (IH tm u x Hin) as [t' [H1 [H2 H3]]]. exists t'. split; [right; exact H1|].
    split; [exact H2|]. cbn [map fst app]. right. exact H3.
Qed.

End SkipLastInstants.

Section TimeoutAbs.
Context {A : Type}.

Lemma clamp_abs t D : t + clamp (tdelay (Abs D) t) = Z.max t D.
Proof. cbn [tdelay]. unfold clamp. lia. Qed.

Lemma due_at_abs D t0 : due_at (Abs D) t0 = Z.max t0 D.
Proof. unfold due_at. apply clamp_abs. Qed.

(* absolute due time D, time-sorted notifications not before [lo]: the timer is
   re-armed for the same instant max lo D every time, so the operator is
   take_until_with_time with a switch in place of the completion *)
Lemma timeout_spec_abs D : forall (es : list (Z * ev A)) lo, tsorted es ->
  Forall (fun te => lo <= fst te) es ->
  timeout_spec (Abs D) (Z.max lo D) es =
  let k := filter (fun te => fst te <=? Z.max lo D) es in
  (upto_term k, if has_term k then None else Some (Z.max lo D)).
Proof.
  induction es as [|[t e] rest IH]; intros lo Hs Hlo; [reflexivity|].
  destruct Hs as [Hall Hs]. inversion Hlo as [|? ? Hh Hr]; subst. cbn [fst] in Hh.
  cbn [timeout_spec filter fst]. destruct (t <=? Z.max lo D) eqn:E.
  - destruct e as [x|c|]; [|reflexivity|reflexivity].
    rewrite clamp_abs. replace (Z.max t D) with (Z.max lo D) by lia.
    rewrite (IH lo Hs Hr). cbn [upto_term has_term existsb snd is_terminal orb]. reflexivity.
  - rewrite filter_none; [reflexivity|].
    eapply Forall_impl; [|exact Hall]. intros te Hte. cbn beta in *.
    destruct (fst te <=? Z.max lo D) eqn:E2; [lia|reflexivity].
Qed.

Theorem timeout_abs_closed_form D t0 (es : list (Z * ev A)) : tsorted es ->
  Forall (fun te => t0 <= fst te) es ->
  timeout_spec (Abs D) (due_at (Abs D) t0) es =
  let k := filter (fun te => fst te <=? Z.max t0 D) es in
  (upto_term k, if has_term k then None else Some (Z.max t0 D)).
Proof. intros Hs Hlo. rewrite due_at_abs. exact (timeout_spec_abs D es t0 Hs Hlo). Qed.

Corollary timeout_abs_is_take_until D t0 (es : list (Z * ev A)) : tsorted es ->
  Forall (fun te => t0 <= fst te) es ->
  fst (timeout_spec (Abs D) (due_at (Abs D) t0) es)
  ++ match snd (timeout_spec (Abs D) (due_at (Abs D) t0) es) with Some due => [(due, Done)] | None => [] end
  = take_spec (Z.max t0 D) es.
Proof.
  intros Hs Hlo. rewrite (timeout_abs_closed_form D t0 es Hs Hlo), (take_spec_sorted _ es Hs). cbn [fst snd].
  destruct (has_term (filter (fun te => fst te <=? Z.max t0 D) es)); reflexivity.
Qed.

End TimeoutAbs.
