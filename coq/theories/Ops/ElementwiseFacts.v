(* C05: each element-wise machine computes the equivalent list computation,
   every output tagged with the input that determines it. *)
From RxVerif Require Import Base.Prelude Ops.Machine Ops.MachineFacts Ops.Elementwise Ops.Slice.

(* the scripts below run [cbn] over machine steps whose counters are Z expressions in variables: these stay
   folded, so that [lia] and the [Z.*_spec] lemmas find them as written *)
Local Arguments Z.of_nat : simpl never.
Local Arguments Z.to_nat : simpl never.
Local Arguments Z.sub : simpl never.
Local Arguments Z.leb : simpl never.
Local Arguments Z.gtb : simpl never.
Local Arguments Z.eqb : simpl never.
Local Arguments Z.add : simpl never.

(* [term_case t]: the base case of the [_from] lemmas (no element left), by cases on the terminal [t]; the error of
   [TErr] is named [e].  [step_cons]: one element enters the machine, the step is computed, the rest stays folded. *)
Ltac term_case t := destruct t as [|e|]; cbn; rewrite ?Nat.add_0_r; try reflexivity.
Ltac step_cons := rewrite events_cons, exec_from_cons; cbn -[exec_from].

Fixpoint mapi_from {A B} (i : nat) (f : A -> nat -> B) (xs : list A) : list B :=
  match xs with [] => [] | x :: t => f x i :: mapi_from (S i) f t end.

(* keep the (tag, element) pairs whose element passes, the predicate seeing
   the element's index *)
Fixpoint filteri_from {A} (i : nat) (p : A -> nat -> bool) (l : list (nat * A)) : list (nat * A) :=
  match l with
  | [] => []
  | (k, x) :: t => if p x i then (k, x) :: filteri_from (S i) p t else filteri_from (S i) p t
  end.

(* the output trace of one stage as the input stream of the next one *)
Definition untag_next {B} (l : list (nat * ev B)) : list (ev B) := map snd l.

(* an operator that only collects (take_last, to_list, ...): all it does happens at the terminal, in the folded state *)
Lemma collect_run {A B} (m : mealy A B) (step : m_state m -> A -> m_state m) :
  (forall s x, m_next m s x = (step s x, [], Cont)) ->
  forall xs s k tl, exec_from m s k (map Next xs ++ tl) = exec_from m (fold_left step xs s) (k + length xs) tl.
Proof.
  intros H. induction xs as [|x r IH]; intros s k tl; cbn [map app fold_left length].
  - now rewrite Nat.add_0_r.
  - rewrite exec_from_cons, H. cbn [emit live map app]. now rewrite IH, <- plus_n_Sm.
Qed.

(* an operator that, in state s, forwards every element and stays in s, and passes the terminal on *)
Lemma mirror_run {A} (m : mealy A A) (s : m_state m) :
  (forall x, m_next m s x = (s, [x], Cont)) ->
  (forall e, m_err m s e = ([], Fail e)) -> m_done m s = ([], Complete) ->
  forall xs t k, exec_from m s k (events xs t) = nexts (indexed k xs) ++ tterm (k + length xs) t.
Proof.
  intros Hn He Hd. induction xs as [|x r IH]; intros t k.
  - cbn. rewrite ?He, ?Hd, Nat.add_0_r. destruct t; cbn; now rewrite ?He, ?Hd.
  - rewrite events_cons, exec_from_cons, Hn. cbn -[exec_from]. now rewrite IH, <- plus_n_Sm.
Qed.

Section Map.
Context {A B : Type}.

Lemma map_from (f : A -> B) xs t s k :
  exec_from (op_map (pure f)) s k (events xs t)
  = nexts (indexed k (map f xs)) ++ tterm (k + length xs) t.
Proof.
  revert k; induction xs as [|x r IH]; intros k.
  - term_case t.
  - step_cons. rewrite IH. now rewrite Nat.add_succ_comm.
Qed.

Theorem map_spec (f : A -> B) xs t :
  exec (op_map (pure f)) (events xs t)
  = nexts (indexed 1 (map f xs)) ++ tterm (S (length xs)) t.
Proof. unfold exec. cbn -[exec_from]. apply map_from. Qed.

Lemma map_indexed_from (f : A -> nat -> B) xs t i k :
  exec_from (op_map_indexed (pure2 f)) i k (events xs t)
  = nexts (indexed k (mapi_from i f xs)) ++ tterm (k + length xs) t.
Proof.
  revert i k; induction xs as [|x r IH]; intros i k.
  - term_case t.
  - step_cons. rewrite IH. now rewrite Nat.add_succ_comm.
Qed.

Theorem map_indexed_spec (f : A -> nat -> B) xs t :
  exec (op_map_indexed (pure2 f)) (events xs t)
  = nexts (indexed 1 (mapi_from 0 f xs)) ++ tterm (S (length xs)) t.
Proof. unfold exec. cbn -[exec_from]. apply map_indexed_from. Qed.
End Map.

Section SameType.
Context {A : Type}.

Lemma filter_from (p : A -> bool) xs t s k :
  exec_from (op_filter (pure p)) s k (events xs t)
  = nexts (filter (fun kx => p (snd kx)) (indexed k xs)) ++ tterm (k + length xs) t.
Proof.
  revert k; induction xs as [|x r IH]; intros k.
  - term_case t.
  - step_cons. unfold pure. destruct (p x); cbn -[exec_from]; rewrite IH;
      now rewrite Nat.add_succ_comm.
Qed.

Theorem filter_spec (p : A -> bool) xs t :
  exec (op_filter (pure p)) (events xs t)
  = nexts (filter (fun kx => p (snd kx)) (indexed 1 xs)) ++ tterm (S (length xs)) t.
Proof. unfold exec. cbn -[exec_from]. apply filter_from. Qed.

Lemma filter_indexed_from (p : A -> nat -> bool) (xs : list A) t i k :
  exec_from (op_filter_indexed (pure2 p)) i k (events xs t)
  = nexts (filteri_from i p (indexed k xs)) ++ tterm (k + length xs) t.
Proof.
  revert i k; induction xs as [|x r IH]; intros i k.
  - term_case t.
  - step_cons. unfold pure2. destruct (p x i); cbn -[exec_from]; rewrite IH;
      now rewrite Nat.add_succ_comm.
Qed.

Theorem filter_indexed_spec (p : A -> nat -> bool) (xs : list A) t :
  exec (op_filter_indexed (pure2 p)) (events xs t)
  = nexts (filteri_from 0 p (indexed 1 xs)) ++ tterm (S (length xs)) t.
Proof. unfold exec. cbn -[exec_from]. apply filter_indexed_from. Qed.

(* the counter is positive while the machine runs: S n elements are still wanted *)
Lemma take_from (xs : list A) t (c0 : Z) : forall (n k : nat),
  exec_from (op_take c0) (Z.of_nat (S n)) k (events xs t)
  = if (n <? length xs)%nat
    then nexts (indexed k (firstn (S n) xs)) ++ [((k + n)%nat, Done)]
    else nexts (indexed k xs) ++ tterm (k + length xs) t.
Proof.
  induction xs as [|x r IH]; intros n k.
  - term_case t.
  - rewrite events_cons, exec_from_cons. cbn [m_next op_take].
    destruct (Z.gtb_spec (Z.of_nat (S n)) 0) as [_|?]; [|lia].
    replace (Z.of_nat (S n) - 1) with (Z.of_nat n) by lia.
    destruct n as [|n].
    + cbn. now rewrite Nat.add_0_r.
    + change (Z.of_nat (S n) =? 0) with false. cbn -[exec_from Nat.ltb firstn Z.of_nat]. rewrite IH.
      change (S n <? S (length r))%nat with (n <? length r)%nat.
      destruct (n <? length r)%nat; cbn; now rewrite <- ?plus_n_Sm.
Qed.

Theorem take_spec (xs : list A) t (c : Z) : 0 <= c ->
  exec (op_take c) (events xs t)
  = if c =? 0 then [(0%nat, Done)]
    else if c <=? zlen xs
    then nexts (indexed 1 (firstn (Z.to_nat c) xs)) ++ [(Z.to_nat c, Done)]
    else nexts (indexed 1 xs) ++ tterm (S (length xs)) t.
Proof.
  intros Hc. rewrite <- (Z2Nat.id c Hc), Nat2Z.id. unfold exec.
  destruct (Z.to_nat c) as [|n]; [reflexivity|]. cbn -[exec_from Z.of_nat].
  rewrite take_from. unfold zlen.
  destruct (Nat.ltb_spec n (length xs)), (Z.leb_spec (Z.of_nat (S n)) (Z.of_nat (length xs))); (reflexivity || lia).
Qed.

Lemma skip_from (xs : list A) t (c0 c : Z) k :
  exec_from (op_skip c0) c k (events xs t)
  = nexts (skipn (Z.to_nat c) (indexed k xs)) ++ tterm (k + length xs) t.
Proof.
  revert c k; induction xs as [|x r IH]; intros c k.
  - rewrite skipn_nil. term_case t.
  - step_cons. destruct (Z.leb_spec c 0) as [H|H]; cbn -[exec_from]; rewrite IH.
    + replace (Z.to_nat c) with 0%nat by lia.
      replace (Z.to_nat (c - 0)) with 0%nat by lia. cbn. now rewrite <- ?plus_n_Sm.
    + replace (Z.to_nat c) with (S (Z.to_nat (c - 1))) by lia. cbn.
      now rewrite <- ?plus_n_Sm.
Qed.

Theorem skip_spec (xs : list A) t (c : Z) :
  exec (op_skip c) (events xs t)
  = nexts (skipn (Z.to_nat c) (indexed 1 xs)) ++ tterm (S (length xs)) t.
Proof. unfold exec. cbn -[exec_from]. apply skip_from. Qed.

Fixpoint takewhile (p : A -> bool) (l : list (nat * A)) : list (nat * A) :=
  match l with [] => [] | kx :: t => if p (snd kx) then kx :: takewhile p t else [] end.
Fixpoint dropwhile (p : A -> bool) (l : list (nat * A)) : list (nat * A) :=
  match l with [] => [] | kx :: t => if p (snd kx) then dropwhile p t else l end.
(* the first element failing the predicate, with its tag *)
Fixpoint first_failing (p : A -> bool) (l : list (nat * A)) : option (nat * A) :=
  match l with [] => None | kx :: t => if p (snd kx) then first_failing p t else Some kx end.

Lemma take_while_from (p : A -> bool) inclusive (xs : list A) t k :
  exec_from (op_take_while (pure p) inclusive) true k (events xs t)
  = nexts (takewhile p (indexed k xs)) ++
    match first_failing p (indexed k xs) with
    | Some (j, x) => (if inclusive then [(j, Next x)] else []) ++ [(j, Done)]
    | None => tterm (k + length xs) t
    end.
Proof.
  revert k; induction xs as [|x r IH]; intros k.
  - term_case t.
  - step_cons. unfold pure. destruct (p x); cbn -[exec_from].
    + rewrite IH. now rewrite <- ?plus_n_Sm.
    + destruct inclusive; reflexivity.
Qed.

Lemma skip_while_from (p : A -> bool) (xs : list A) t k :
  exec_from (op_skip_while (pure p)) false k (events xs t)
  = nexts (dropwhile p (indexed k xs)) ++ tterm (k + length xs) t.
Proof.
  revert k; induction xs as [|x r IH]; intros k.
  - term_case t.
  - step_cons. unfold pure. destruct (p x); cbn -[exec_from].
    + rewrite IH. now rewrite <- ?plus_n_Sm.
    + rewrite (mirror_run (op_skip_while (pure p)) true) by reflexivity. now rewrite <- ?plus_n_Sm.
Qed.

Theorem skip_while_spec (p : A -> bool) (xs : list A) t :
  exec (op_skip_while (pure p)) (events xs t)
  = nexts (dropwhile p (indexed 1 xs)) ++ tterm (S (length xs)) t.
Proof. unfold exec. cbn -[exec_from]. apply skip_while_from. Qed.

Fixpoint pairs_from (prev : A) (k : nat) (xs : list A) : list (nat * (A * A)) :=
  match xs with [] => [] | x :: t => (k, (prev, x)) :: pairs_from x (S k) t end.

Lemma pairwise_from (xs : list A) t prev k :
  exec_from op_pairwise (Some prev) k (events xs t)
  = nexts (pairs_from prev k xs) ++ tterm (k + length xs) t.
Proof.
  revert prev k; induction xs as [|x r IH]; intros prev k.
  - term_case t.
  - step_cons. rewrite IH. now rewrite <- ?plus_n_Sm.
Qed.

Lemma q_push_is_take_last_push c q (x : A) : q_push c q x = take_last_push c q x.
Proof. reflexivity. Qed.

Lemma take_last_from c (xs : list A) t q k :
  exec_from (op_take_last c) q k (events xs t)
  = match t with
    | TDone => nexts (map (fun a => ((k + length xs)%nat, a)) (fold_left (take_last_push c) xs q))
               ++ [((k + length xs)%nat, Done)]
    | _ => tterm (k + length xs) t
    end.
Proof.
  unfold events. rewrite (collect_run (op_take_last c) (take_last_push c)) by reflexivity.
  destruct t; [|reflexivity..]. cbn. unfold emit, nexts. now rewrite map_map.
Qed.

Lemma element_at_from i d exn (xs : list A) t i0 k : 0 <= i ->
  exec_from (op_element_at i0 d exn) i k (events xs t)
  = match nth_error xs (Z.to_nat i) with
    | Some x => [((k + Z.to_nat i)%nat, Next x); ((k + Z.to_nat i)%nat, Done)]
    | None => match t with
              | TDone => match d with
                         | Some dv => [((k + length xs)%nat, Next dv); ((k + length xs)%nat, Done)]
                         | None => [((k + length xs)%nat, Err exn)]
                         end
              | _ => tterm (k + length xs) t
              end
    end.
Proof.
  revert i k; induction xs as [|x r IH]; intros i k Hi.
  - destruct (Z.to_nat i); cbn [nth_error]; destruct t as [|e|]; cbn; rewrite ?Nat.add_0_r;
      try reflexivity; destruct d; reflexivity.
  - step_cons. destruct (Z.eqb_spec i 0) as [->|Hne]; cbn -[exec_from].
    + change (Z.to_nat 0) with 0%nat. cbn. now rewrite Nat.add_0_r.
    + rewrite IH by lia.
      replace (Z.to_nat i) with (S (Z.to_nat (i - 1))) by lia. cbn [nth_error].
      rewrite <- ?plus_n_Sm. reflexivity.
Qed.

Lemma materialize_from (xs : list A) t k :
  exec_from op_materialize tt k (events xs t)
  = nexts (indexed k (map Next xs)) ++
    match t with
    | TDone => [((k + length xs)%nat, Next Done); ((k + length xs)%nat, Done)]
    | TErr e => [((k + length xs)%nat, Next (Err e)); ((k + length xs)%nat, Done)]
    | TNever => []
    end.
Proof.
  revert k; induction xs as [|x r IH]; intros k.
  - term_case t.
  - step_cons. rewrite IH. now rewrite <- ?plus_n_Sm.
Qed.

Theorem materialize_spec (xs : list A) t :
  exec op_materialize (events xs t)
  = nexts (indexed 1 (map Next xs)) ++
    match t with
    | TDone => [(S (length xs), Next Done); (S (length xs), Done)]
    | TErr e => [(S (length xs), Next (Err e)); (S (length xs), Done)]
    | TNever => []
    end.
Proof. unfold exec. cbn -[exec_from]. apply materialize_from. Qed.

Lemma untag_next_nexts {B} (l : list (nat * B)) : untag_next (nexts l) = map Next (map snd l).
Proof. unfold untag_next, nexts. rewrite !map_map. reflexivity. Qed.

(* dematerialize forwards a prefix of OnNext elements: what makes it undo materialize *)
Lemma demat_from (xs : list A) (tl : list (ev (ev A))) k :
  map snd (exec_from op_dematerialize tt k (map Next (map Next xs) ++ tl))
  = map Next xs ++ map snd (exec_from op_dematerialize tt (k + length xs) tl).
Proof.
  revert k; induction xs as [|x r IH]; intros k.
  - cbn. now rewrite Nat.add_0_r.
  - cbn [map app]. rewrite exec_from_cons. cbn -[exec_from].
    rewrite IH. now rewrite <- ?plus_n_Sm.
Qed.
End SameType.

Lemma untag_nexts_tterm {B} (l : list (nat * B)) k t :
  untag (nexts l ++ tterm k t) = events (map snd l) t.
Proof.
  rewrite untag_app. unfold untag, nexts, events. rewrite !map_map. cbn [fst snd].
  f_equal. destruct t; reflexivity.
Qed.

Lemma untag_std {B} (l : list B) k n t :
  untag (nexts (indexed k l) ++ tterm n t) = events l t.
Proof. now rewrite untag_nexts_tterm, map_snd_indexed. Qed.

Lemma map_untag {A B} (f : A -> B) (xs : list A) t :
  untag (exec (op_map (pure f)) (events xs t)) = events (map f xs) t.
Proof. rewrite map_spec. apply untag_std. Qed.

Lemma map_indexed_untag {A B} (f : A -> nat -> B) (xs : list A) t :
  untag (exec (op_map_indexed (pure2 f)) (events xs t)) = events (mapi_from 0 f xs) t.
Proof. rewrite map_indexed_spec. apply untag_std. Qed.

Lemma filter_untag {A} (p : A -> bool) (xs : list A) t :
  untag (exec (op_filter (pure p)) (events xs t)) = events (filter p xs) t.
Proof.
  rewrite filter_spec, untag_nexts_tterm. f_equal.
  generalize 1%nat. induction xs as [|x r IH]; intros k; cbn; [reflexivity|].
  destruct (p x); cbn; now rewrite IH.
Qed.

Section Keyed.
Context {A K : Type}.

Definition pure_cmp (eqk : K -> K -> bool) : K -> K -> res bool := fun a b => Ok (eqk a b).

(* keep an element iff its key differs from the key of the previously KEPT
   element (the code compares with current_key, updated only on emission) *)
Fixpoint duc_list (key : A -> K) (eqk : K -> K -> bool) (cur : option K) (l : list (nat * A)) : list (nat * A) :=
  match l with
  | [] => []
  | (k, x) :: t =>
      match cur with
      | Some c => if eqk c (key x) then duc_list key eqk cur t
                  else (k, x) :: duc_list key eqk (Some (key x)) t
      | None => (k, x) :: duc_list key eqk (Some (key x)) t
      end
  end.

Lemma duc_from (key : A -> K) (eqk : K -> K -> bool) (xs : list A) t cur k :
  exec_from (op_distinct_until_changed (pure key) (pure_cmp eqk)) cur k (events xs t)
  = nexts (duc_list key eqk cur (indexed k xs)) ++ tterm (k + length xs) t.
Proof.
  revert cur k; induction xs as [|x r IH]; intros cur k.
  - term_case t.
  - step_cons. unfold pure, pure_cmp. destruct cur as [c|]; cbn -[exec_from].
    + destruct (eqk c (key x)); cbn -[exec_from]; rewrite IH; now rewrite <- ?plus_n_Sm.
    + rewrite IH. now rewrite <- ?plus_n_Sm.
Qed.

(* distinct: keep an element iff its key equals no key kept so far (comparer
   called as comparer(stored, new), first match wins) *)
Fixpoint distinct_list (key : A -> K) (eqk : K -> K -> bool) (seen : list K) (l : list (nat * A)) : list (nat * A) :=
  match l with
  | [] => []
  | (k, x) :: t =>
      if existsb (fun s => eqk s (key x)) seen then distinct_list key eqk seen t
      else (k, x) :: distinct_list key eqk (seen ++ [key x]) t
  end.

Lemma hs_find_pure (eqk : K -> K -> bool) (seen : list K) (item : K) :
  hs_find (pure_cmp eqk) seen item = Ok (existsb (fun s => eqk s item) seen).
Proof.
  induction seen as [|a t IH]; [reflexivity|]. cbn [hs_find existsb]. unfold pure_cmp at 1.
  destruct (eqk a item); [reflexivity|exact IH].
Qed.

Lemma distinct_from (key : A -> K) (eqk : K -> K -> bool) (xs : list A) t seen k :
  exec_from (op_distinct (pure key) (pure_cmp eqk)) seen k (events xs t)
  = nexts (distinct_list key eqk seen (indexed k xs)) ++ tterm (k + length xs) t.
Proof.
  revert seen k; induction xs as [|x r IH]; intros seen k.
  - term_case t.
  - step_cons. unfold pure at 1. rewrite hs_find_pure.
    destruct (existsb (fun s => eqk s (key x)) seen); cbn -[exec_from]; rewrite IH;
      now rewrite <- ?plus_n_Sm.
Qed.

End Keyed.

Section FindSkipLast.
Context {A : Type}.

(* find / find_index: the first element (with its index) satisfying the
   predicate, emitted when it arrives; at completion RxPY's "not found": None for find, -1 for find_index *)
Fixpoint first_match (p : A -> nat -> bool) (i : nat) (l : list (nat * A)) : option (nat * nat * A) :=
  match l with
  | [] => None
  | (k, x) :: t => if p x i then Some (k, i, x) else first_match p (S i) t
  end.

Lemma find_from (p : A -> nat -> bool) yi (xs : list A) t i k :
  exec_from (op_find (pure2 p) yi) i k (events xs t)
  = match first_match p i (indexed k xs) with
    | Some (j, idx, x) =>
        [(j, Next (if yi then inr (Z.of_nat idx) else inl (Some x))); (j, Done)]
    | None => match t with
              | TDone => [((k + length xs)%nat, Next (if yi then inr (-1) else inl None));
                          ((k + length xs)%nat, Done)]
              | _ => tterm (k + length xs) t
              end
    end.
Proof.
  revert i k; induction xs as [|x r IH]; intros i k.
  - destruct t; cbn; rewrite ?Nat.add_0_r; reflexivity.
  - step_cons. unfold pure2. destruct (p x i); cbn -[exec_from].
    + reflexivity.
    + rewrite IH. rewrite <- ?plus_n_Sm. reflexivity.
Qed.

(* skip_last from any queue of at most c elements: the elements of q ++ xs but the last c, the one at
   position j of q ++ xs released when the one at position j + c arrives *)
Lemma skip_last_from (c : nat) (xs : list A) t : forall (q : list A) k,
  (length q <= c)%nat ->
  exec_from (op_skip_last (Z.of_nat c)) q k (events xs t)
  = nexts (combine (seq (k + (c - length q)) (length q + length xs - c))
                   (firstn (length q + length xs - c) (q ++ xs)))
    ++ tterm (k + length xs) t.
Proof.
  induction xs as [|x r IH]; intros q k Hq.
  - replace (length q + length (@nil A) - c)%nat with 0%nat by (cbn; lia). term_case t.
  - step_cons. unfold zlen. rewrite app_length. cbn [length].
    destruct (Z.gtb_spec (Z.of_nat (length q + 1)) (Z.of_nat c)) as [H|H]; cbn -[exec_from].
    + (* the queue is full: its front element is released *)
      assert (Hc : length q = c) by lia.
      assert (Ht : length (tl (q ++ [x])) = c) by (destruct q; cbn in *; rewrite ?app_length; cbn; lia).
      rewrite IH by lia. rewrite Ht, Hc.
      replace (c + S (length r) - c)%nat with (S (length r)) by lia.
      replace (c + length r - c)%nat with (length r) by lia.
      rewrite Nat.sub_diag, !Nat.add_0_r, <- plus_n_Sm.
      destruct q as [|y q']; cbn [app tl firstn length seq combine nexts map fst snd]; [reflexivity|].
      now rewrite <- app_assoc.
    + (* the queue is still filling *)
      rewrite IH by (rewrite app_length; cbn; lia). rewrite app_length, <- app_assoc. cbn [length app].
      f_equal; [do 2 f_equal; f_equal; lia|f_equal; lia].
Qed.

Theorem skip_last_spec_m (c : nat) (xs : list A) t :
  exec (op_skip_last (Z.of_nat c)) (events xs t)
  = nexts (combine (seq (1 + c) (length xs - c)) (firstn (length xs - c) xs))
    ++ tterm (S (length xs)) t.
Proof.
  unfold exec. cbn -[exec_from]. rewrite skip_last_from by (cbn; lia). cbn [length app Nat.add]. now rewrite Nat.sub_0_r.
Qed.
End FindSkipLast.
