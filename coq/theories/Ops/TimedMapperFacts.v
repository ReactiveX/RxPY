(* C15-C17, the operators driven by observables a mapper makes (delay_with_mapper, timeout_with_mapper,
   throttle_with_mapper): what one step emits, read off its commands, and the handlers of the first two in
   closed form by class of port.  The step-level theorems of these properties are stated in this vocabulary. *)
From RxVerif Require Import Base.Prelude Ops.Machine Ops.Multi Ops.Timed.

Section MapperSteps.
Context {A : Type}.

Definition emitted_cmds (cs : list (cmd A)) : list A :=
  flat_map (fun c => match c with CEmit b => [b] | _ => [] end) cs.
Definition opt_list (v : option A) : list A := match v with Some x => [x] | None => [] end.
Definition not_err (e : ev A) : Prop := forall c, e <> Err c.

Lemma emitted_emit_opt v : emitted_cmds (emit_opt v) = opt_list v.
Proof. destruct v; reflexivity. Qed.
Lemma emitted_app a b : emitted_cmds (a ++ b) = emitted_cmds a ++ emitted_cmds b.
Proof. unfold emitted_cmds. apply flat_map_app. Qed.
Lemma emitted_unsub_prev n : emitted_cmds (unsub_prev n) = [].
Proof. destruct n; reflexivity. Qed.
Lemma emitted_unsub_cur c : emitted_cmds (unsub_cur c) = [].
Proof. destruct c; reflexivity. Qed.

(* ports of delay_with_mapper that are not delay observables: the source, the subscription delay *)
Definition dwm_special (has_sub : bool) (k : nat) : bool := Nat.eqb k 0 || (has_sub && Nat.eqb k 1).

(* delay_with_mapper, a delay observable's port: its on_next or on_completed delivers the element pending
   under that port, if there is one *)
Lemma dwm_step_delay has_sub (mapper : A -> nat -> res unit) (s : dwm_st) now k e : dwm_special has_sub k = false ->
  x_step (x_delay_with_mapper has_sub mapper) s now (ISrc k e)
  = match e with
    | Err c => (s, [], Fail c)
    | _ => match lookup k (dw_delays s) with
           | Some x => (DwmSt (dw_cnt s) (dw_at_end s) (remove_key k (dw_delays s)), [CEmit x; CUnsub k],
                        if dw_at_end s && Nat.eqb (length (remove_key k (dw_delays s))) 0 then Complete else Cont)
           | None => (s, [], Cont)
           end
    end.
Proof. destruct k as [|[|k]], has_sub; try discriminate; intros _; destruct e; reflexivity. Qed.

Lemma dwm_step_special has_sub (mapper : A -> nat -> res unit) (s : dwm_st) now k e : dwm_special has_sub k = true ->
  emitted_cmds (snd (fst (x_step (x_delay_with_mapper has_sub mapper) s now (ISrc k e)))) = [].
Proof.
  destruct k as [|[|k]], has_sub; try discriminate; intros _; destruct e as [x|c|]; try reflexivity;
    cbn; destruct (mapper x (dw_cnt s)); reflexivity.
Qed.

(* timeout_with_mapper, a timeout observable's port (any port but the source and the fallback);
   [twm_wins]: the observable is the one set by the latest element (observer_wins with its own id) *)
Definition twm_wins (s : twm_st) (k : nat) : bool :=
  match lookup k (tw_timers s) with Some my => Nat.eqb (tw_id s) my | None => false end.

Lemma twm_step_timeout hf ho (mapper : option (A -> nat -> res unit)) (s : twm_st) now k e : k <> 0%nat -> k <> 2%nat ->
  x_step (x_timeout_with_mapper hf ho mapper) s now (ISrc k e)
  = match e with
    | Next _ =>
        if twm_wins s k then
          if ho then (s, [CSub 2%nat; CUnsub 0%nat; CUnsub k], Cont)
          else (TwmSt (tw_id s) (tw_timers s) (tw_cnt s) (tw_cur s) (Some 0%nat), [CTimer 0%nat 0; CUnsub 0%nat; CUnsub k], Cont)
        else (s, [CUnsub k], Cont)
    | Err x => if twm_wins s k then (s, [], Fail x) else (s, [], Cont)
    | Done =>
        if twm_wins s k then if ho then (s, [CSub 2%nat; CUnsub 0%nat], Cont) else (s, [], Fail TIMEOUT_ERR)
        else (s, [], Cont)
    end.
Proof. destruct k as [|[|[|k]]]; try contradiction; reflexivity. Qed.
End MapperSteps.
