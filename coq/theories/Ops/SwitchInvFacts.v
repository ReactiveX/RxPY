(* C12: the operator under the runner simulates the specification.  One step lemma ([sw_step]):
   from a state that stands for a state of the specification ([sw_at]), every input leads to
   the state that stands for the specification's next state ([sw_after]) and makes the
   subscriber receive what [switch_spec] emits at that input.  The refinement, the shape of
   every reachable state and the subscriptions held after any inputs are inductions over it. *)
From RxVerif Require Import Base.Prelude Ops.Machine Ops.Multi Ops.MultiFacts
  Ops.RunLemmas Ops.Combinators Ops.MergeFacts Ops.SwitchSpecFacts.

Lemma rstep_fin_quiet {A B} (m : machine A B) s live ts now (i : inp A) pos s' f :
  delivered (RState live ts false) i = true -> x_step m s now i = (s', [], f) -> f <> Cont ->
  let '(_, r1, o) := rstep m s (RState live ts false) now i in
  released r1
  /\ temitted (map (fun x => (pos, x)) o)
     = match f with Cont => [] | Complete => [(pos, Done)] | Fail e => [(pos, Err e)] end.
Proof.
  intros Hd Ex Hf. pose proof (rstep_rinv m s (RState live ts false) now i) as Hr.
  destruct (rstep_fin m s (RState live ts false) now i pos eq_refl Hd) as [E1 E2]; rewrite Ex in *; [exact Hf|].
  destruct (rstep m s (RState live ts false) now i) as [[s1 r1] o]. split; [|exact E1].
  apply Hr; [discriminate|exact E2].
Qed.

Section SwitchInv.
Context {A : Type}.

(* the shape of every reachable (operator state, runner state): stopped, or exactly the
   outer (while it runs) and the latest inner (while it runs) are subscribed *)
Definition sw_inv (s : nat * bool * bool) (r : rstate) : Prop :=
  r_stopped r = true \/
  exists ol latest has,
    s = (latest, has, negb ol) /\ r = RState (switch_live ol latest has) [] false
    /\ (has = true -> latest <> 0%nat) /\ (ol = true \/ has = true).

(* (s, r) stands for the state o of the specification; None = the output has terminated,
   and then everything is released *)
Definition sw_at (o : option (bool * nat * bool)) (s : nat * bool * bool) (r : rstate) : Prop :=
  match o with
  | Some (ol, latest, has) =>
      s = (latest, has, negb ol) /\ r = RState (switch_live ol latest has) [] false
      /\ (has = true -> latest <> 0%nat) /\ (ol = true \/ has = true)
  | None => released r
  end.

Lemma sw_at_inv o s r : sw_at o s r -> sw_inv s r.
Proof.
  intros H. destruct o as [[[ol latest] has]|]; [right; exists ol, latest, has; exact H|left].
  exact (f_equal r_stopped H).
Qed.

Lemma sw_step mapper ol latest has s r now (i : inp A) pos :
  sw_at (Some (ol, latest, has)) s r ->
  let '(s', r', o) := rstep (x_switch_map mapper) s r now i in
  sw_at (sw_after mapper ol latest has [(now, i)]) s' r'
  /\ temitted (map (fun x => (pos, x)) o) = switch_spec mapper ol latest has pos [(now, i)].
Proof.
  intros (-> & -> & Hl & Hsome).
  pose proof (fun s live i => rstep_fin_quiet (x_switch_map mapper) s live [] now i pos) as Hfin.
  destruct i as [[|j] e|tag|]; cbn [sw_after switch_spec sw_at].
  - destruct ol.
    + destruct e as [x|er|].
      * destruct (mapper x latest) as [[]|er] eqn:Hmap.
        -- (* a new inner: the running one, if any, is unsubscribed *)
           cbn. rewrite Hmap.
           destruct has; [destruct latest as [|l0]; [now elim Hl|]|destruct latest as [|l0]];
             cbn; rewrite ?Nat.eqb_refl; cbn; repeat split; auto; discriminate.
        -- apply (Hfin _ _ _ (latest, has, false) (Fail er)); [reflexivity| |discriminate].
           cbn. now rewrite Hmap.
      * apply (Hfin _ _ _ (latest, has, false) (Fail er)); [reflexivity..|discriminate].
      * destruct has.
        -- cbn. repeat split; auto.
        -- apply (Hfin _ _ _ (latest, false, true) Complete); [reflexivity..|discriminate].
    + (* the outer has completed: 0 is not subscribed *)
      destruct Hsome as [H| ->]; [discriminate|]. destruct latest as [|l0]; [now elim Hl|].
      cbn. repeat split; auto.
  - destruct (has && Nat.eqb (S j) latest) eqn:Hcur.
    + apply andb_true_iff in Hcur. destruct Hcur as [-> Heq]. apply Nat.eqb_eq in Heq. subst latest.
      assert (Hd : mem (S j) (switch_live ol (S j) true) = true)
        by (destruct ol; cbn; now rewrite Nat.eqb_refl).
      destruct e as [x|er|].
      * cbn [rstep r_stopped r_live]. rewrite Hd. cbn. rewrite Nat.eqb_refl. cbn. repeat split; auto.
      * apply (Hfin _ _ _ (S j, true, negb ol) (Fail er)); [exact Hd| |discriminate].
        cbn. now rewrite Nat.eqb_refl.
      * destruct ol.
        -- cbn. rewrite !Nat.eqb_refl. cbn. rewrite Nat.eqb_refl.
           repeat split; auto; discriminate.
        -- apply (Hfin _ _ _ (S j, false, true) Complete); [exact Hd| |discriminate].
           cbn. now rewrite Nat.eqb_refl.
    + (* an inner that is not the latest is not subscribed *)
      assert (Hmem : mem (S j) (switch_live ol latest has) = false).
      { unfold switch_live, mem. destruct ol, has; cbn [app existsb orb andb] in *;
          rewrite ?Hcur; reflexivity. }
      cbn [rstep r_stopped r_live]. rewrite Hmem. cbn. repeat split; auto.
  - cbn. repeat split; auto.
  - cbn [rstep r_stopped x_switch_map x_step apply_cmds filter app release fst snd].
    split; [reflexivity|apply release_temitted].
Qed.

Theorem switch_state_from mapper (ins : list (Z * inp A)) : forall ol latest has s r,
  sw_at (Some (ol, latest, has)) s r ->
  sw_at (sw_after mapper ol latest has ins)
        (fst (after (x_switch_map mapper) s r ins)) (snd (after (x_switch_map mapper) s r ins)).
Proof.
  induction ins as [|[now i] rest IH]; intros ol latest has s r H; [exact H|].
  rewrite sw_after_cons. cbn [after]. apply (sw_step mapper _ _ _ _ _ now i 0) in H.
  destruct (rstep (x_switch_map mapper) s r now i) as [[s' r'] o]. destruct H as [H _].
  destruct (sw_after mapper ol latest has [(now, i)]) as [[[ol' latest'] has']|]; [now apply IH|].
  cbv [sw_at released] in *. subst r'. now rewrite (after_snd _ rest s' _ 0), run_from_stopped.
Qed.

Theorem switch_trace_from mapper (ins : list (Z * inp A)) : forall ol latest has s r pos,
  sw_at (Some (ol, latest, has)) s r ->
  temitted (fst (run_from (x_switch_map mapper) s r pos ins)) = switch_spec mapper ol latest has pos ins.
Proof.
  induction ins as [|[now i] rest IH]; intros ol latest has s r pos H; [reflexivity|].
  rewrite temitted_run_cons, switch_spec_cons. apply (sw_step mapper _ _ _ _ _ now i pos) in H.
  destruct (rstep (x_switch_map mapper) s r now i) as [[s' r'] o]. cbn [fst snd].
  destruct H as [H ->]. f_equal.
  destruct (sw_after mapper ol latest has [(now, i)]) as [[[ol' latest'] has']|]; [now apply IH|].
  cbv [sw_at released] in H. subst r'. now rewrite run_from_stopped.
Qed.

Lemma sw_at_start (mapper : A -> nat -> res unit) :
  sw_at (Some (true, 0%nat, false))
        (fst (start_state (x_switch_map mapper))) (snd (start_state (x_switch_map mapper))).
Proof. cbn. repeat split; auto; discriminate. Qed.

Theorem switch_state_is_spec mapper (ins : list (Z * inp A)) :
  sw_at (sw_after mapper true 0 false ins)
        (fst (after (x_switch_map mapper) (fst (start_state (x_switch_map mapper)))
                    (snd (start_state (x_switch_map mapper))) ins))
        (snd (run (x_switch_map mapper) ins)).
Proof. rewrite run_final. apply switch_state_from, sw_at_start. Qed.

End SwitchInv.
