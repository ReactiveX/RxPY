(* C09: lifting a failing step to the whole run.
   [state_after m s xs] is the state the machine is in after the elements xs when none of the steps ended
   the subscription ([None] as soon as a step left with Complete / Fail).  A step that fails after such a
   prefix puts  outs ++ [Err e]  at that input's position, everything delivered before is unchanged and
   NOTHING follows, whatever the source does afterwards. *)
From RxVerif Require Import Base.Prelude Ops.Machine Ops.MachineFacts Ops.Elementwise Ops.Aggregates
  Ops.RaiseFacts.

Section Generic.
Context {A B : Type} (m : mealy A B).

Fixpoint state_after (s : m_state m) (xs : list A) : option (m_state m) :=
  match xs with
  | [] => Some s
  | x :: r => let '(s', _, f) := m_next m s x in if live f then state_after s' r else None
  end.

Definition no_terminal (l : list (nat * ev B)) : bool := forallb (fun p => negb (is_terminal (snd p))) l.

Lemma no_terminal_app l1 l2 : no_terminal (l1 ++ l2) = no_terminal l1 && no_terminal l2.
Proof. apply forallb_app. Qed.

Lemma no_terminal_nexts k (outs : list B) : no_terminal (map (fun b => (k, Next b)) outs) = true.
Proof. induction outs as [|b t IH]; [reflexivity|exact IH]. Qed.

Lemma no_terminal_emit k (outs : list B) f : no_terminal (emit k outs f) = live f.
Proof.
  unfold emit. rewrite no_terminal_app, no_terminal_nexts. destruct f; reflexivity.
Qed.

Lemma state_after_iff_no_terminal xs : forall s k,
  no_terminal (exec_from m s k (map Next xs)) = true <-> exists s', state_after s xs = Some s'.
Proof.
  induction xs as [|x r IH]; intros s k; cbn [map exec_from state_after].
  - split; [eauto|reflexivity].
  - destruct (m_next m s x) as [[s1 outs] f]. rewrite no_terminal_app, no_terminal_emit.
    destruct f; cbn [live andb].
    + apply IH.
    + split; [discriminate|intros [? ?]; discriminate].
    + split; [discriminate|intros [? ?]; discriminate].
Qed.

Lemma exec_from_app_nexts pre : forall s k s' tl,
  state_after s pre = Some s' ->
  exec_from m s k (map Next pre ++ tl)
  = exec_from m s k (map Next pre) ++ exec_from m s' (k + length pre)%nat tl.
Proof.
  induction pre as [|x r IH]; intros s k s' tl H; cbn [map app exec_from state_after length] in *.
  - injection H as <-. now rewrite Nat.add_0_r.
  - destruct (m_next m s x) as [[s1 outs] f]. destruct f; cbn [live] in *; try discriminate.
    rewrite (IH _ (S k) _ tl H), <- app_assoc, <- plus_n_Sm. reflexivity.
Qed.

Theorem first_raise_from pre x post tl s k s' s'' outs e :
  state_after s pre = Some s' ->
  m_next m s' x = (s'', outs, Fail e) ->
  exec_from m s k (map Next (pre ++ x :: post) ++ tl)
  = exec_from m s k (map Next pre)
    ++ map (fun b => ((k + length pre)%nat, Next b)) outs ++ [((k + length pre)%nat, Err e)].
Proof.
  intros Hs Hx. rewrite map_app, <- app_assoc. rewrite (exec_from_app_nexts pre s k s' _ Hs).
  f_equal. cbn [map app]. exact (fail_stops m s' _ x _ s'' outs e Hx).
Qed.

(* the same for a whole subscription (machines that do not end inside subscribe()) *)
Theorem first_raise_exec pre x post tl s' s'' outs e :
  live (snd (m_pre m)) = true ->
  state_after (m_init m) pre = Some s' ->
  m_next m s' x = (s'', outs, Fail e) ->
  exec m (map Next (pre ++ x :: post) ++ tl)
  = exec m (map Next pre)
    ++ map (fun b => (S (length pre), Next b)) outs ++ [(S (length pre), Err e)].
Proof.
  intros Hl Hs Hx. unfold exec. destruct (m_pre m) as [o f]. cbn [snd] in Hl. rewrite Hl.
  rewrite (first_raise_from pre x post tl _ 1 s' s'' outs e Hs Hx). now rewrite app_assoc.
Qed.

Corollary first_raise_exec0 pre x post tl s' s'' e :
  live (snd (m_pre m)) = true ->
  state_after (m_init m) pre = Some s' ->
  m_next m s' x = (s'', [], Fail e) ->
  exec m (map Next (pre ++ x :: post) ++ tl) = exec m (map Next pre) ++ [(S (length pre), Err e)].
Proof. intros Hl Hs Hx. exact (first_raise_exec pre x post tl s' s'' [] e Hl Hs Hx). Qed.

Corollary first_raise_closed pre x post tl s' s'' e out :
  m_pre m = ([], Cont) ->
  state_after (m_init m) pre = Some s' /\ exec_from m (m_init m) 1 (map Next pre) = out ->
  m_next m s' x = (s'', [], Fail e) ->
  exec m (map Next (pre ++ x :: post) ++ tl) = out ++ [(S (length pre), Err e)].
Proof.
  intros Hp [Hs Ho] Hx. rewrite (first_raise_exec0 pre x post tl s' s'' e) by (rewrite ?Hp; auto).
  unfold exec. rewrite Hp. cbn [emit live map app]. now rewrite Ho.
Qed.

(* a machine whose continuing steps emit nothing (the collecting and searching operators) has delivered
   nothing as long as it is subscribed *)
Lemma quiet_prefix pre :
  (forall s y, snd (m_next m s y) = Cont -> snd (fst (m_next m s y)) = []) ->
  forall s k s', state_after s pre = Some s' -> exec_from m s k (map Next pre) = [].
Proof.
  intros Hq. induction pre as [|y r IH]; intros s k s' H; [reflexivity|].
  cbn [map exec_from state_after] in *. specialize (Hq s y).
  destruct (m_next m s y) as [[s1 o] f]. destruct f; try discriminate.
  cbn [fst snd] in Hq. rewrite (Hq eq_refl). exact (IH _ _ _ H).
Qed.

Corollary first_raise_quiet pre x post tl s' s'' e :
  (forall s y, snd (m_next m s y) = Cont -> snd (fst (m_next m s y)) = []) ->
  m_pre m = ([], Cont) ->
  state_after (m_init m) pre = Some s' ->
  m_next m s' x = (s'', [], Fail e) ->
  exec m (map Next (pre ++ x :: post) ++ tl) = [(S (length pre), Err e)].
Proof.
  intros Hq Hp Hs Hx. apply (first_raise_closed pre x post tl s' s'' e [] Hp); [|exact Hx].
  split; [exact Hs|exact (quiet_prefix pre Hq _ _ _ Hs)].
Qed.
End Generic.

(* What the prefix leaves behind, operator by operator:
   [state_after] of each callback operator once the callback returned on every element of [pre] (the
   hypothesis of Props/C09.v's run-level theorems), and what it delivered where that has a closed form. *)
Section Prefixes.
Context {A B K : Type}.

(* map_indexed / filter_indexed: the callback sees the running index *)
Fixpoint oks_i {R} (f : A -> nat -> res R) (i : nat) (pre : list A) : Prop :=
  match pre with [] => True | y :: r => (exists b, f y i = Ok b) /\ oks_i f (S i) r end.

Lemma state_after_map_indexed (f : A -> nat -> res B) pre : forall i,
  oks_i f i pre -> state_after (op_map_indexed f) i pre = Some (i + length pre)%nat.
Proof.
  induction pre as [|y r IH]; intros i H; cbn [state_after length oks_i] in *.
  - now rewrite Nat.add_0_r.
  - destruct H as [[b Hb] Hr]. cbn [op_map_indexed m_next]. rewrite Hb. cbn [live].
    rewrite (IH _ Hr). now rewrite <- plus_n_Sm.
Qed.

Lemma state_after_filter_indexed (p : A -> nat -> res bool) pre : forall i,
  oks_i p i pre -> state_after (op_filter_indexed p) i pre = Some (i + length pre)%nat.
Proof.
  induction pre as [|y r IH]; intros i H; cbn [state_after length oks_i] in *.
  - now rewrite Nat.add_0_r.
  - destruct H as [[b Hb] Hr]. cbn [op_filter_indexed m_next]. rewrite Hb.
    destruct b; cbn [live]; rewrite (IH _ Hr); now rewrite <- plus_n_Sm.
Qed.

Lemma take_while_accepting (p : A -> res bool) inc pre : forall k,
  Forall (fun y => p y = Ok true) pre ->
  state_after (op_take_while p inc) true pre = Some true
  /\ exec_from (op_take_while p inc) true k (map Next pre) = nexts (indexed k pre).
Proof.
  induction pre as [|y r IH]; intros k H; [split; reflexivity|].
  inversion H as [|? ? Hy Hr]; subst. cbn [map exec_from state_after op_take_while m_next negb indexed].
  rewrite Hy. cbn [emit live map app]. destruct (IH (S k) Hr) as [-> ->]. split; reflexivity.
Qed.

Lemma skip_while_skipping (p : A -> res bool) pre : forall k,
  Forall (fun y => p y = Ok true) pre ->
  state_after (op_skip_while p) false pre = Some false
  /\ exec_from (op_skip_while p) false k (map Next pre) = [].
Proof.
  induction pre as [|y r IH]; intros k H; [split; reflexivity|].
  inversion H as [|? ? Hy Hr]; subst. cbn [map exec_from state_after op_skip_while m_next].
  rewrite Hy. cbn [emit live map app]. exact (IH (S k) Hr).
Qed.

(* scan: the accumulator folded over [pre] without raising *)
Fixpoint fold_ok {T} (f : T -> A -> res T) (a : T) (pre : list A) : option T :=
  match pre with
  | [] => Some a
  | y :: r => match f a y with Ok a' => fold_ok f a' r | Raise _ => None end
  end.

Lemma state_after_scan_seed {T} (f : T -> A -> res T) seed pre : forall acc a,
  fold_ok f (match acc with Some v => v | None => seed end) pre = Some a ->
  exists acc', state_after (op_scan_seed f seed) acc pre = Some acc'
               /\ match acc' with Some v => v | None => seed end = a.
Proof.
  induction pre as [|y r IH]; intros acc a H; cbn [fold_ok state_after] in *.
  - injection H as <-. eauto.
  - cbn [op_scan_seed m_next].
    destruct (f match acc with Some v => v | None => seed end y) as [a'|e]; [|discriminate].
    cbn [live]. apply (IH (Some a')). exact H.
Qed.

(* scan without a seed: the first element is the accumulator, the callback runs from the second on *)
Lemma state_after_scan (f : A -> A -> res A) pre : forall v a,
  fold_ok f v pre = Some a -> state_after (op_scan f) (Some v) pre = Some (Some a).
Proof.
  induction pre as [|y r IH]; intros v a H; cbn [fold_ok state_after] in *.
  - now injection H as <-.
  - cbn [op_scan m_next]. destruct (f v y) as [a'|e]; [|discriminate]. cbn [live]. now apply IH.
Qed.

(* distinct with callbacks that never raise stays subscribed: the hypothesis of the run-level theorem
   about distinct can be met *)
Lemma state_after_distinct_pure (key : A -> K) (eqk : K -> K -> bool) pre : forall set,
  exists set', state_after (op_distinct (fun x => Ok (key x)) (fun a b => Ok (eqk a b))) set pre = Some set'.
Proof.
  induction pre as [|y r IH]; intros set; cbn [state_after]; [eauto|].
  cbn [op_distinct m_next].
  assert (H : exists b, hs_find (fun a b => Ok (eqk a b)) set (key y) = Ok b).
  { clear. induction set as [|a t IHt]; cbn [hs_find]; [eauto|]. destruct (eqk a (key y)); eauto. }
  destruct H as [b ->]. destruct b; cbn [live]; apply IH.
Qed.
End Prefixes.
