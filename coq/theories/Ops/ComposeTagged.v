(* Sequential composition WITH the positions: what a two-stage pipeline emits, and during WHICH input, is
   what stage 2 emits when it is fed stage 1's output, each reaction of stage 2 carrying the position of
   the stage-1 notification that caused it (stage 2 runs synchronously inside stage 1's on_next). *)
From RxVerif Require Import Base.Prelude Ops.Machine Ops.MachineFacts Ops.ComposeFacts.

Section Tagged.
Context {B C : Type} (m2 : mealy B C).

(* m2 driven by a TAGGED stream: outputs inherit the tag of the notification being processed *)
Fixpoint exec_tagged_from (s2 : m_state m2) (ins : list (nat * ev B)) : list (nat * ev C) :=
  match ins with
  | [] => []
  | (k, Next x) :: rest =>
      let '(s', outs, f) := m_next m2 s2 x in
      emit k outs f ++ (if live f then exec_tagged_from s' rest else [])
  | (k, Err e) :: _ => let '(outs, f) := m_err m2 s2 e in emit k outs f
  | (k, Done) :: _ => let '(outs, f) := m_done m2 s2 in emit k outs f
  end.

Definition exec_tagged (ins : list (nat * ev B)) : list (nat * ev C) :=
  let '(outs, f) := m_pre m2 in
  emit 0 outs f ++ (if live f then exec_tagged_from (m_init m2) ins else []).

Lemma exec_tagged_from_untag ins : forall s2 k,
  untag (exec_tagged_from s2 ins) = untag (exec_from m2 s2 k (untag ins)).
Proof.
  induction ins as [|[j i] rest IH]; intros s2 k; [reflexivity|].
  change (untag ((j, i) :: rest)) with (i :: untag rest).
  destruct i as [x|e|]; cbn [exec_tagged_from exec_from].
  - destruct (m_next m2 s2 x) as [[s' outs] f]. rewrite !untag_app, !untag_emit.
    destruct (live f); [|reflexivity]. f_equal. apply IH.
  - destruct (m_err m2 s2 e) as [outs f]. now rewrite !untag_emit.
  - destruct (m_done m2 s2) as [outs f]. now rewrite !untag_emit.
Qed.

Lemma exec_tagged_untag ins : untag (exec_tagged ins) = untag (exec m2 (untag ins)).
Proof.
  unfold exec_tagged, exec. destruct (m_pre m2) as [outs f]. rewrite !untag_app, !untag_emit.
  destruct (live f); [|reflexivity]. f_equal. apply exec_tagged_from_untag.
Qed.

Lemma emit_app k (o o' : list C) f : emit k (o ++ o') f = map (fun c => (k, Next c)) o ++ emit k o' f.
Proof. unfold emit. now rewrite map_app, <- app_assoc. Qed.

Lemma emit_split k (o : list C) f : emit k o f = map (fun c => (k, Next c)) o ++ emit k [] f.
Proof. reflexivity. Qed.

Lemma tagged_feed k (outs : list B) : forall s2 tail,
  exec_tagged_from s2 (map (fun b => (k, Next b)) outs ++ tail)
  = map (fun c => (k, Next c)) (snd (fst (feed m2 s2 outs))) ++
    (if live (snd (feed m2 s2 outs))
     then exec_tagged_from (fst (fst (feed m2 s2 outs))) tail
     else emit k [] (snd (feed m2 s2 outs))).
Proof.
  induction outs as [|b t IH]; intros s2 tail.
  - reflexivity.
  - cbn [map app feed exec_tagged_from].
    destruct (m_next m2 s2 b) as [[s2' o] f].
    destruct f; cbn [live].
    + rewrite IH. destruct (feed m2 s2' t) as [[s2'' o'] f']. cbn [fst snd].
      rewrite emit_cont, map_app, <- app_assoc. reflexivity.
    + cbn [fst snd live]. rewrite app_nil_r. apply (emit_split k o).
    + cbn [fst snd live]. rewrite app_nil_r. apply (emit_split k o).
Qed.

Lemma tagged_feed_fin k (outs : list B) (f1 : fin) s2 :
  exec_tagged_from s2 (emit k outs f1)
  = emit k (snd (fst (feed_fin m2 s2 outs f1))) (snd (feed_fin m2 s2 outs f1)).
Proof.
  unfold emit at 1. rewrite tagged_feed. unfold feed_fin.
  destruct (feed m2 s2 outs) as [[s2' o] f]. cbn [fst snd].
  destruct f; cbn [live].
  - destruct f1; cbn [exec_tagged_from fst snd].
    + now rewrite emit_cont, app_nil_r.
    + destruct (m_done m2 s2') as [o' f']. cbn [fst snd]. now rewrite emit_app.
    + destruct (m_err m2 s2' e) as [o' f']. cbn [fst snd]. now rewrite emit_app.
  - cbn [fst snd]. symmetry. apply (emit_split k o).
  - cbn [fst snd]. symmetry. apply (emit_split k o).
Qed.

(* stage 1's answer -- a batch, then how it left -- in front of what stage 1 emits later (nothing, once
   it has left) *)
Lemma tagged_answer k (o1 : list B) (f1 : fin) s2 tail : (live f1 = false -> tail = []) ->
  exec_tagged_from s2 (emit k o1 f1 ++ tail)
  = emit k (snd (fst (feed_fin m2 s2 o1 f1))) (snd (feed_fin m2 s2 o1 f1))
    ++ (if live (snd (feed_fin m2 s2 o1 f1))
        then exec_tagged_from (fst (fst (feed_fin m2 s2 o1 f1))) tail else []).
Proof.
  intros Ht. destruct (live f1) eqn:Hl.
  - destruct f1; try discriminate. unfold emit at 1. rewrite <- app_assoc. cbn [app]. rewrite tagged_feed.
    unfold feed_fin. destruct (feed m2 s2 o1) as [[s2' o] f]. cbn [fst snd].
    destruct f; cbn [live fst snd]; [now rewrite emit_cont|now rewrite app_nil_r..].
  - rewrite (Ht eq_refl), app_nil_r, tagged_feed_fin.
    destruct (live (snd (feed_fin m2 s2 o1 f1))); cbn [exec_tagged_from]; now rewrite app_nil_r.
Qed.
End Tagged.

Section Compose.
Context {A B C : Type} (m1 : mealy A B) (m2 : mealy B C).

Lemma compose_from_tagged ins : forall s1 s2 k,
  exec_from (compose m1 m2) (s1, s2, true) k ins
  = exec_tagged_from m2 s2 (exec_from m1 s1 k ins).
Proof.
  induction ins as [|e rest IH]; intros s1 s2 k; [reflexivity|].
  rewrite !exec_from_handle. destruct (compose_handle m1 m2 s1 s2 e) as (Ho & Hf & Hs). rewrite Ho, Hf.
  rewrite tagged_answer by (now intros ->). f_equal.
  destruct (live (snd (feed_fin m2 s2 _ _))); [|reflexivity].
  destruct (is_terminal e); cbn [andb negb]; [now rewrite andb_false_r|].
  rewrite (Hs eq_refl), andb_true_r. destruct (live (snd (handle m1 s1 e))); [apply IH|apply compose_off].
Qed.

(* The TAGGED composition theorem, for ARBITRARY input streams. *)
Theorem compose_exec_tagged ins :
  exec (compose m1 m2) ins = exec_tagged m2 (exec m1 ins).
Proof.
  unfold exec at 1, exec_tagged. cbn [compose m_pre m_init].
  destruct (m_pre m2) as [o2 f2]. cbn [fst snd]. destruct f2; cbn [live]; [|reflexivity..].
  unfold compose_start, exec. destruct (m_pre m1) as [o1 f1]. cbn [fst snd].
  rewrite tagged_answer by (destruct (live f1); [discriminate|reflexivity]).
  rewrite emit_app, emit_cont, <- app_assoc. do 2 f_equal.
  destruct (live (snd (feed_fin m2 (m_init m2) o1 f1))); [|reflexivity].
  destruct (live f1); [apply compose_from_tagged|apply compose_off].
Qed.
End Compose.
