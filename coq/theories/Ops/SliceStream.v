(* C07 at STREAM level: the plan the translator regenerates from _slice.py, read as the pipeline of Mealy
   machines the code builds (ops.take / skip / take_last / skip_last / filter_indexed / map_indexed /
   filter / map of Ops/Elementwise.v, composed left to right as pipe() does), applied to an event stream.
   On a completing source it emits the list slice AND THEN COMPLETES; on a failing source the error passes
   through -- unless a take(n) stage had already completed the pipeline, in which case the output is the
   one of the completing source. *)
From RxVerif Require Import Base.Prelude Base.PreludeFacts Ops.Machine Ops.MachineFacts
  Ops.ComposeFacts Ops.Elementwise Ops.ElementwiseFacts Ops.Slice Ops.SliceFacts Gen.SliceGen
  Ops.SliceProof.

Local Arguments Z.of_nat : simpl never.
Local Arguments Z.to_nat : simpl never.

Section Stream.
Context {A : Type}.
Notation E := (Z * A)%type.

(* pipe() of no operator: the source itself *)
Definition op_ident : mealy E E :=
  Mealy tt ([], Cont) (fun s x => (s, [x], Cont)) (fun _ e => ([], Fail e)) (fun _ => ([], Complete)).

(* one pipeline.append(ops.X(..)) of _slice.py as the machine of that operator *)
Definition pop_mealy (p : pop) : mealy E E :=
  match p with
  | PTake n => op_take n
  | PSkip n => op_skip n
  | PTakeLast n => op_take_last n
  | PSkipLast n => op_skip_last n
  | PEveryNth n => op_filter_indexed (pure2 (fun (_ : E) i => Z.of_nat i mod n =? 0))
  | PTagIndex => op_map_indexed (pure2 (fun (x : E) i => (Z.of_nat i, snd x)))
  | PFilterTagLt n => op_filter (pure (fun ix : E => fst ix <? n))
  | PUntag => op_map (pure (fun ix : E => (0, snd ix)))
  end.

Fixpoint plan_mealy (plan : list pop) : mealy E E :=
  match plan with
  | [] => op_ident
  | p :: r => compose (pop_mealy p) (plan_mealy r)
  end.

(* the whole operator on untagged elements (the tag 0 of an untagged element is the model's encoding) *)
Definition slice_mealy (plan : list pop) : mealy A A :=
  compose (op_map (pure (fun x : A => (0, x))))
          (compose (plan_mealy plan) (op_map (pure (fun ix : E => snd ix)))).

(* counts the machines are built with: take / skip raise on a negative count; the queue operators are
   only ever built with positive ones *)
Definition pop_sok (p : pop) : bool :=
  match p with PTake n | PSkip n | PTakeLast n | PSkipLast n => 0 <=? n | _ => true end.

(* one stage on (elements, termination): take(n) completes at its n-th element whatever the source does
   later; take_last holds everything back until completion, so a failing source loses it *)
Definition run_pop_ev (p : pop) (lt : list E * term) : list E * term :=
  let '(l, t) := lt in
  match p with
  | PTake n => if n <=? zlen l then (run_pop p l, TDone) else (l, t)
  | PTakeLast n => match t with TDone => (run_pop p l, TDone) | _ => ([], t) end
  | _ => (run_pop p l, t)
  end.
Definition run_plan_ev (plan : list pop) (lt : list E * term) : list E * term :=
  fold_left (fun acc p => run_pop_ev p acc) plan lt.

Lemma ident_stream (l : list E) t : untag (exec op_ident (events l t)) = events l t.
Proof.
  unfold exec. cbn -[exec_from]. rewrite (mirror_run op_ident tt) by reflexivity. apply untag_std.
Qed.

Lemma every_nth_filteri n (l : list E) : forall (i k : nat),
  map snd (filteri_from i (fun (_ : E) j => Z.of_nat j mod n =? 0) (indexed k l))
  = every_nth_from (Z.of_nat i) n l.
Proof.
  induction l as [|x r IH]; intros i k; cbn [indexed filteri_from every_nth_from map]; [reflexivity|].
  replace (Z.of_nat i + 1) with (Z.of_nat (S i)) by lia.
  destruct (Z.of_nat i mod n =? 0); cbn [map snd]; now rewrite IH.
Qed.

Lemma tag_from_mapi (l : list E) : forall i : nat,
  mapi_from i (fun (x : E) j => (Z.of_nat j, snd x)) l = tag_from (Z.of_nat i) l.
Proof.
  induction l as [|[z x] r IH]; intros i; cbn [mapi_from tag_from snd]; [reflexivity|].
  replace (Z.of_nat i + 1) with (Z.of_nat (S i)) by lia. now rewrite IH.
Qed.

Lemma untag_skipn_indexed (l : list E) c k n t :
  untag (nexts (skipn c (indexed k l)) ++ tterm n t) = events (skipn c l) t.
Proof.
  rewrite untag_nexts_tterm. f_equal. rewrite <- skipn_map, map_snd_indexed. reflexivity.
Qed.

Lemma map_snd_combine_seq (l : list E) : forall k n, (n <= length l)%nat ->
  map snd (combine (seq k n) (firstn n l)) = firstn n l.
Proof.
  induction l as [|x r IH]; intros k n Hn.
  - cbn in Hn. assert (n = 0%nat) by lia. subst. reflexivity.
  - destruct n as [|n]; [reflexivity|]. cbn [seq firstn combine map snd]. rewrite IH by (cbn in Hn; lia).
    reflexivity.
Qed.

(* each stage, on a stream with ANY termination *)
Theorem pop_stream (p : pop) (l : list E) t : pop_sok p = true ->
  untag (exec (pop_mealy p) (events l t))
  = events (fst (run_pop_ev p (l, t))) (snd (run_pop_ev p (l, t))).
Proof.
  intros Hok. destruct p as [n|n|n|n|n| |n| ]; cbn [pop_mealy run_pop_ev pop_sok] in *.
  - (* take *)
    apply Z.leb_le in Hok. rewrite take_spec by exact Hok.
    destruct (Z.eqb_spec n 0) as [->|Hn].
    + assert (H0 : (0 <=? zlen l) = true) by (apply Z.leb_le; unfold zlen; lia). rewrite H0.
      cbn [fst snd run_pop]. destruct l; reflexivity.
    + destruct (n <=? zlen l); cbn [fst snd run_pop].
      * rewrite ztake_firstn.
        change [(Z.to_nat n, @Done E)] with (@tterm E (Z.to_nat n) TDone). apply untag_std.
      * apply untag_std.
  - (* skip *)
    rewrite skip_spec. cbn [fst snd run_pop]. rewrite zskip_skipn. apply untag_skipn_indexed.
  - (* take_last *)
    unfold exec. cbn -[exec_from]. rewrite take_last_from.
    destruct t as [|e|]; cbn [fst snd run_pop]; try reflexivity.
    rewrite map_app. unfold nexts. rewrite !map_map. cbn [fst snd map]. reflexivity.
  - (* skip_last *)
    apply Z.leb_le in Hok. cbn [fst snd run_pop].
    rewrite <- (Z2Nat.id n) at 1 by exact Hok. rewrite skip_last_spec_m, untag_nexts_tterm.
    rewrite skip_last_spec by exact Hok. f_equal. apply map_snd_combine_seq. lia.
  - (* filter_indexed(i % step == 0) *)
    rewrite filter_indexed_spec, untag_nexts_tterm. cbn [fst snd run_pop]. f_equal.
    apply (every_nth_filteri n l 0 1).
  - (* map_indexed((i, x)) *)
    rewrite map_indexed_untag. cbn [fst snd run_pop]. f_equal. apply (tag_from_mapi l 0).
  - (* filter(ix[0] < n) *)
    rewrite filter_untag. reflexivity.
  - (* map(ix[1]) *)
    rewrite map_untag. reflexivity.
Qed.

Theorem plan_stream (plan : list pop) : forall (l : list E) t, forallb pop_sok plan = true ->
  untag (exec (plan_mealy plan) (events l t))
  = events (fst (run_plan_ev plan (l, t))) (snd (run_plan_ev plan (l, t))).
Proof.
  induction plan as [|p r IH]; intros l t Hok.
  - apply ident_stream.
  - cbn [forallb] in Hok. apply andb_prop in Hok. destruct Hok as [Hp Hr].
    cbn [plan_mealy]. rewrite compose_exec, (pop_stream p l t Hp).
    unfold run_plan_ev. cbn [fold_left].
    destruct (run_pop_ev p (l, t)) as [l' t']. cbn [fst snd]. apply (IH l' t' Hr).
Qed.

Lemma run_plan_ev_done (plan : list pop) : forall l : list E,
  run_plan_ev plan (l, TDone) = (run_tagged plan l, TDone).
Proof.
  induction plan as [|p r IH]; intros l; [reflexivity|].
  unfold run_plan_ev, run_tagged in *. cbn [fold_left].
  assert (H : run_pop_ev p (l, TDone) = (run_pop p l, TDone)).
  { destruct p; cbn [run_pop_ev]; try reflexivity.
    destruct (Z.leb_spec n (zlen l)) as [H|H]; [reflexivity|].
    cbn [run_pop]. now rewrite ztake_all by lia. }
  rewrite H. apply IH.
Qed.

Definition is_take (p : pop) : bool := match p with PTake _ => true | _ => false end.
Definition no_take (r : list pop) : bool := forallb (fun p => negb (is_take p)) r.

Lemma run_pop_nil (p : pop) : run_pop p (@nil E) = [].
Proof. destruct p; reflexivity. Qed.

Lemma no_take_nil_error (r : list pop) e : no_take r = true ->
  run_plan_ev r ([], TErr e) = ([], TErr e).
Proof.
  induction r as [|p r IH]; intros H; [reflexivity|].
  cbn [no_take forallb] in H. apply andb_prop in H. destruct H as [Hp Hr].
  unfold run_plan_ev in *. cbn [fold_left].
  replace (run_pop_ev p ([], TErr e)) with (@nil E, TErr e); [exact (IH Hr)|].
  destruct p; try discriminate; reflexivity.
Qed.

(* without a take stage the error always comes out; in front of it the list result, or nothing at all
   when a take_last stage was holding the elements back *)
Lemma no_take_error (r : list pop) e : no_take r = true -> forall l : list E,
  run_plan_ev r (l, TErr e) = (run_tagged r l, TErr e)
  \/ (run_plan_ev r (l, TErr e) = ([], TErr e) /\ exists n, In (PTakeLast n) r).
Proof.
  induction r as [|p r IH]; intros H l; [left; reflexivity|].
  cbn [no_take forallb] in H. apply andb_prop in H. destruct H as [Hp Hr].
  unfold run_plan_ev, run_tagged in *. cbn [fold_left].
  destruct p as [n|n|n|n|n| |n| ]; try discriminate; cbn [run_pop_ev];
    match goal with
    | |- context [fold_left _ _ (run_pop ?p ?l0, _)] =>
        destruct (IH Hr (run_pop p l0)) as [H|[H [k Hk]]];
        [left; exact H|right; split; [exact H|exists k; now right]]
    | _ => (* take_last: the stage hands on ([], TErr e) *)
        right; split; [exact (no_take_nil_error r e Hr)|exists n; now left]
    end.
Qed.

Lemma take_first_error n (r : list pop) e (l : list E) : no_take r = true ->
  (n <= zlen l /\ run_plan_ev (PTake n :: r) (l, TErr e) = (run_tagged (PTake n :: r) l, TDone))
  \/ (zlen l < n /\ run_tagged (PTake n :: r) l = run_tagged r l
      /\ run_plan_ev (PTake n :: r) (l, TErr e) = run_plan_ev r (l, TErr e)).
Proof.
  intros Hr. unfold run_plan_ev, run_tagged. cbn [fold_left run_pop_ev].
  destruct (Z.leb_spec n (zlen l)) as [H|H].
  - left. split; [exact H|]. fold (run_plan_ev r (run_pop (PTake n) l, TDone)).
    now rewrite run_plan_ev_done.
  - right. split; [exact H|]. split; [|reflexivity].
    cbn [run_pop]. now rewrite ztake_all by lia.
Qed.
End Stream.

Lemma start_stage_shape s : forallb pop_sok (start_stage s) = true /\ no_take (start_stage s) = true.
Proof.
  unfold start_stage. destruct (Z.gtb_spec s 0) as [H|H]; [|destruct (Z.ltb_spec s 0) as [H'|H']];
    cbn [forallb pop_sok]; rewrite ?(proj2 (Z.leb_le 0 _)) by lia; split; reflexivity.
Qed.

Lemma window_plan_sok s e : forallb pop_sok (window_plan s e) = true.
Proof.
  unfold window_plan. destruct (start_stage_shape s) as [Hs _]. destruct (Z.ltb_spec e 0) as [He|He].
  - rewrite forallb_app, Hs. cbn [forallb pop_sok]. now rewrite (proj2 (Z.leb_le 0 (- e))) by lia.
  - destruct (Z.ltb_spec s 0) as [Hs0|Hs0]; [destruct (e >? 0)|]; cbn [andb forallb pop_sok];
      rewrite ?Hs, ?(proj2 (Z.leb_le 0 _)) by lia; reflexivity.
Qed.

(* the generated plan takes at most once, in front *)
Lemma window_plan_take s e :
  no_take (window_plan s e) = true \/ window_plan s e = PTake e :: start_stage s.
Proof.
  destruct (start_stage_shape s) as [_ Hn]. unfold window_plan, no_take in *.
  destruct (e <? 0); [left; now rewrite forallb_app, Hn|].
  destruct ((s <? 0) && (e >? 0)); [left|right]; reflexivity.
Qed.

Lemma slice_plan_shape (start stop step : option Z) plan :
  slice_plan start stop step = Some plan ->
  forallb pop_sok plan = true
  /\ (no_take plan = true \/ exists n r, plan = PTake n :: r /\ no_take r = true).
Proof.
  rewrite slice_plan_eq. cbv zeta.
  set (s := match start with None => 0 | Some v => v end).
  set (e := match stop with None => maxsize | Some v => v end).
  intros H.
  assert (Hplan : exists r, plan = window_plan s e ++ r /\ forallb pop_sok r = true /\ no_take r = true).
  { destruct (_ >? 1); [|destruct (_ <? 0); [discriminate|]]; injection H as <-.
    - eexists. repeat split.
    - exists []. now rewrite app_nil_r. }
  destruct Hplan as (r & -> & Hr & Hnt). split; [now rewrite forallb_app, window_plan_sok|].
  destruct (start_stage_shape s) as [_ Hs]. destruct (window_plan_take s e) as [Hn| ->]; unfold no_take in *.
  - left. now rewrite forallb_app, Hn.
  - right. exists e, (start_stage s ++ r). now rewrite forallb_app, Hs.
Qed.

Section Top.
Context {A : Type}.

Lemma slice_mealy_stream (plan : list pop) (l : list A) t : forallb pop_sok plan = true ->
  untag (exec (slice_mealy plan) (events l t))
  = events (map snd (fst (run_plan_ev plan (map (fun x => (0, x)) l, t))))
           (snd (run_plan_ev plan (map (fun x => (0, x)) l, t))).
Proof.
  intros Hok. unfold slice_mealy. rewrite compose_exec, map_untag, compose_exec.
  rewrite (plan_stream plan _ t Hok). apply map_untag.
Qed.

(* completing source: the list slice, then completion *)
Theorem slice_stream_done (l : list A) (start stop step : option Z) :
  zlen l <= maxsize -> step_ok step ->
  exists plan, slice_plan start stop step = Some plan
    /\ untag (exec (slice_mealy plan) (events l TDone)) = events (py_slice l start stop step) TDone.
Proof.
  intros Hl Hs. destruct (slice_plan_correct l start stop step Hl Hs) as [plan [Hp [_ Hrun]]].
  exists plan. split; [exact Hp|].
  destruct (slice_plan_shape _ _ _ _ Hp) as [Hok _].
  rewrite (slice_mealy_stream plan l TDone Hok), run_plan_ev_done. cbn [fst snd].
  rewrite <- Hrun. reflexivity.
Qed.

(* failing source: the error passes through -- after the slice, or after nothing when a take_last stage
   (negative start) was holding the elements back -- unless the leading take(stop) had already completed
   the pipeline, and then the run is the one of the completing source *)
Theorem slice_stream_error (l : list A) (start stop step : option Z) e :
  zlen l <= maxsize -> step_ok step ->
  exists plan, slice_plan start stop step = Some plan
    /\ let out := untag (exec (slice_mealy plan) (events l (TErr e))) in
       out = events (py_slice l start stop step) (TErr e)
       \/ (out = [Err e] /\ exists n, In (PTakeLast n) plan)
       \/ (out = events (py_slice l start stop step) TDone
           /\ exists n r, plan = PTake n :: r /\ n <= zlen l).
Proof.
  intros Hl Hs. destruct (slice_plan_correct l start stop step Hl Hs) as [plan [Hp [_ Hrun]]].
  exists plan. split; [exact Hp|]. cbv zeta.
  destruct (slice_plan_shape _ _ _ _ Hp) as [Hok Hshape].
  rewrite (slice_mealy_stream plan l (TErr e) Hok). rewrite <- Hrun, run_plan_tagged.
  set (l0 := map (fun x : A => (0, x)) l).
  assert (Hz : zlen l0 = zlen l) by (unfold zlen, l0; now rewrite map_length).
  destruct Hshape as [Hnt|[n [r [-> Hnt]]]].
  - destruct (no_take_error plan e Hnt l0) as [->|[-> Hin]]; cbn [fst snd map]; auto.
  - destruct (take_first_error n r e l0 Hnt) as [[Hn ->]|[Hn [Heq ->]]]; cbn [fst snd].
    + right. right. split; [reflexivity|]. exists n, r. split; [reflexivity|lia].
    + rewrite Heq. destruct (no_take_error r e Hnt l0) as [->|[-> [k Hin]]]; cbn [fst snd map]; auto.
      right. left. split; [reflexivity|]. exists k. now right.
Qed.
End Top.
