(* The producer loop of repeat(of(v :: l)) (repeat_value v = the list [v]) in Core/SyncSources.v --
   the concat action subscribes the list, the inner list loop pulls it, its completion schedules
   the concat action again: three dispatches per element at most -- in front of ANY consumer that
   completes on the cyclic stream [cyc v l] ([rep_loop], [rep_shape]); and a filter stage in
   front of any consumer, characterised by the consumer on the filtered stream
   ([stops_filter_iff]). *)
From RxVerif Require Import Base.Prelude Core.SyncSources Core.SyncSourcesFacts Core.SyncShapes.

(* the element stream of repeat(of(v :: l)) *)
Definition cyc (v : Z) (l : list Z) (i : nat) : Z := nth (i mod length (v :: l)) (v :: l) v.

Lemma cyc_small : forall v l j, (j < length (v :: l))%nat -> cyc v l j = nth j (v :: l) v.
Proof. intros v l j H. unfold cyc. rewrite Nat.mod_small by exact H. reflexivity. Qed.

Section RepLoop.
Variable gen : nat -> Z.
Variable N : net.
Variable C : cons.
Variable P : n_st N -> Prop.
Hypothesis emits : passes_on N P.
Variable v0 : Z.
Variable l0 : list Z.
Notation K := (KRep (v0 :: l0)).

(* the stream still to come when [r] is the rest of the inner list *)
Definition rest_stream (r : list Z) (j : nat) : Z :=
  if (j <? length r)%nat then nth j r v0 else cyc v0 l0 (j - length r).

Lemma rest_stream_nil : forall j, rest_stream [] j = cyc v0 l0 j.
Proof. intros j. unfold rest_stream. cbn [length Nat.ltb Nat.leb]. rewrite Nat.sub_0_r. reflexivity. Qed.

Lemma rest_stream_full : forall j, rest_stream (v0 :: l0) j = cyc v0 l0 j.
Proof.
  intros j. unfold rest_stream, cyc. set (L := v0 :: l0). assert (HL : length L <> 0%nat) by (subst L; cbn; lia).
  destruct (j <? length L)%nat eqn:E.
  - apply Nat.ltb_lt in E. rewrite Nat.mod_small by exact E. reflexivity.
  - apply Nat.ltb_ge in E. f_equal.
    replace j with ((j - length L) + 1 * length L)%nat at 2 by lia.
    rewrite Nat.mod_add by exact HL. reflexivity.
Qed.

Lemma rest_stream_cons : forall v r j, rest_stream (v :: r) (S j) = rest_stream r j.
Proof.
  intros v r j. unfold rest_stream. cbn [length]. change (S j <? S (length r))%nat with (j <? length r)%nat.
  destruct (j <? length r)%nat; reflexivity.
Qed.

Lemma rep_loop : forall k r0 s ns live i p o f,
  P ns -> memn 0 live = true -> stops_at C (rest_stream r0) s 0 k -> (3 * k + 3 <= f)%nat ->
  exists o', run gen K N C f (St N C ns s false live [TList 0 r0 true] i p o)
             = Returned (p + k)%nat o' true.
Proof.
  induction k as [|k IH]; intros r0 s ns live i p o f HP HL H Hf; [destruct H|].
  (* one pull from a non-empty inner list; the exhausted list comes back to this case after the
     two dispatches of the round's end *)
  assert (CONS : forall v r1 f1, stops_at C (rest_stream (v :: r1)) s 0 (S k) -> (3 * k + 4 <= f1)%nat ->
            exists o', run gen K N C f1 (St N C ns s false live [TList 0 (v :: r1) true] i p o)
                       = Returned (p + S k)%nat o' true).
  { intros v r1 f1 H1 Hf1. cbn [stops_at] in H1. change (rest_stream (v :: r1) 0) with v in H1.
    destruct f1 as [|f1]; [lia|].
    destruct (deliver_emits N C P emits K ns s live [TList 0 r1 true] (S i) (S p) o v HP)
      as (ns' & live' & HP' & M & D).
    rewrite (run_step gen _ _ _ (step_pull gen K N C HL)), D. destruct (c_step C s v) as [[s' n] [|]].
    - subst k. eexists. rewrite run_done by (cbn; lia). f_equal. lia.
    - destruct (IH r1 s' ns' live' (S i) (S p) (o + n)%nat f1 HP') as (o' & R).
      + congruence.
      + eapply stops_at_ext; [|exact H1]. intros d _. cbn [Nat.add]. apply rest_stream_cons.
      + lia.
      + exists o'. rewrite R. f_equal. lia. }
  destruct r0 as [|v r1].
  - (* the inner list is exhausted: schedule the concat action, which subscribes the list again *)
    destruct f as [|[|f]]; [lia|lia|].
    rewrite (run_step gen _ _ _ (step_round_end gen K N C HL)). cbn [app].
    rewrite (run_step gen _ _ _ (step_conc gen _ N C HL)). cbn [app].
    apply CONS; [|lia]. eapply stops_at_ext; [|exact H]. intros d _. cbn [Nat.add].
    rewrite rest_stream_nil, rest_stream_full. reflexivity.
  - apply CONS; [exact H|lia].
Qed.

(* warm-up until the inner list of repeat has just been subscribed, then the loop *)
Theorem rep_shape : forall w p cs i k fuel,
  enters gen N C P K w p (TList 0 (v0 :: l0) true) [] cs i -> stops_at C (cyc v0 l0) cs 0 k ->
  (w + (3 * k + 3) <= fuel)%nat ->
  exists out, run_default gen K N C fuel = Returned (p + k) out true.
Proof.
  intros w p cs i k fuel E H Hf.
  destruct (enters_run gen N C P fuel E ltac:(lia)) as (ns & live & o & HP & HL & ->).
  apply rep_loop; auto; [|lia].
  eapply stops_at_ext; [|exact H]. intros d _. symmetry. apply rest_stream_full.
Qed.
End RepLoop.
Arguments rep_shape gen [N C P] emits v0 l0 w p.

(* linear pipelines over repeat (also what the model has for share()) *)
Theorem lin_rep_any : forall gen C v l k fuel,
  stops_at C (cyc v l) (c_init C) 0 k -> (3 * k + 5 <= fuel)%nat ->
  exists out, run_default gen (KRep (v :: l)) n_lin C fuel = Returned k out true.
Proof.
  intros gen C v l k fuel H Hf.
  eapply (rep_shape gen lin_emits v l 1 0); [econstructor; [cbv; reflexivity|auto]|exact H|lia].
Qed.

(* the elements among the n elements gen i .. gen (i + n - 1) that pass pr; [lgen l]: a stream that
   begins with l *)
Definition filtered (pr : Z -> bool) (gen : nat -> Z) (i n : nat) : list Z :=
  filter pr (map gen (seq i n)).
Definition lgen (l : list Z) (j : nat) : Z := nth j l 0.

Lemma filtered_last_nonempty : forall pr gen n i, pr (gen (i + n)%nat) = true -> filtered pr gen i (S n) <> [].
Proof.
  intros pr gen. induction n as [|n IH]; intros i H; unfold filtered in *; cbn [seq map filter].
  - rewrite Nat.add_0_r in H. rewrite H. discriminate.
  - destruct (pr (gen i)); [discriminate|]. apply (IH (S i)). replace (S i + n)%nat with (i + S n)%nat by lia. exact H.
Qed.

Lemma stops_filter_S : forall gen pr C k s i,
  stops_at (c_filter pr C) gen s i (S k) <->
  if pr (gen i)
  then (let '(s', m, stop) := c_step C s (gen i) in
        if stop then k = 0%nat else stops_at (c_filter pr C) gen s' (S i) k)
  else stops_at (c_filter pr C) gen s (S i) k.
Proof.
  intros. cbn [stops_at]. set (F := c_filter pr C) at 2 3 4.
  cbn [c_filter c_step]. destruct (pr (gen i)); [|tauto].
  destruct (c_step C s (gen i)) as [[s' m] stop]. tauto.
Qed.

(* source.filter(pr)...consumer pulls exactly S n elements  iff  the last of them passes pr and the
   consumer completes exactly at the last element of the filtered stream of those S n elements *)
Theorem stops_filter_iff : forall gen pr C n s i,
  stops_at (c_filter pr C) gen s i (S n) <->
  pr (gen (i + n)%nat) = true /\
  stops_at C (lgen (filtered pr gen i (S n))) s 0 (length (filtered pr gen i (S n))).
Proof.
  intros gen pr C. induction n as [|n IH]; intros s i.
  - unfold filtered. cbn [seq map filter stops_at c_filter c_step]. rewrite Nat.add_0_r.
    destruct (pr (gen i)) eqn:E.
    + cbn [length stops_at lgen nth]. destruct (c_step C s (gen i)) as [[s' m] stop].
      destruct stop; cbn [stops_at]; tauto.
    + cbn [length stops_at]. split; [intros []|intros [H _]; discriminate].
  - assert (U : filtered pr gen i (S (S n)) =
                if pr (gen i) then gen i :: filtered pr gen (S i) (S n) else filtered pr gen (S i) (S n)).
    { unfold filtered. cbn [seq map filter]. reflexivity. }
    rewrite U. clear U.
    replace (i + S n)%nat with (S i + n)%nat by lia.
    rewrite stops_filter_S. destruct (pr (gen i)) eqn:E.
    + destruct (c_step C s (gen i)) as [[s' m] stop] eqn:EC. cbn [length].
      set (fl := filtered pr gen (S i) (S n)).
      assert (R : stops_at C (lgen (gen i :: fl)) s 0 (S (length fl)) <->
                  if stop then length fl = 0%nat else stops_at C (lgen fl) s' 0 (length fl)).
      { cbn [stops_at]. change (lgen (gen i :: fl) 0) with (gen i). rewrite EC. destruct stop; [tauto|].
        split; apply stops_at_ext; intros d _; reflexivity. }
      rewrite R. clear R. destruct stop.
      * split; [intros H; discriminate|]. intros [Hp Hl]. exfalso.
        apply (filtered_last_nonempty pr gen n (S i) Hp). apply length_zero_iff_nil. exact Hl.
      * subst fl. apply IH.
    + apply IH.
Qed.

(* the direction used to discharge [stops_at] for the linear theorems *)
Corollary stops_filter_any : forall gen pr C n s i,
  pr (gen (i + n)%nat) = true ->
  stops_at C (lgen (filtered pr gen i (S n))) s 0 (length (filtered pr gen i (S n))) ->
  stops_at (c_filter pr C) gen s i (S n).
Proof. intros. apply stops_filter_iff. auto. Qed.
