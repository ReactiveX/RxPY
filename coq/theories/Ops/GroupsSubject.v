(* C19: the subject_mapper argument of group_by / group_by_until (4th argument of
   group_by_until, 3rd of group_by), operators/_groupbyuntil.py on_next:

       writer = writers.get(key)
       if writer is None:
           try:    writer = subject_mapper_()
           except Exception as e:
               for wrt in list(writers.values()): wrt.on_error(e)
               observer.on_error(e); return
           writers[key] = writer; fire_new_map_entry = True

   The factory is consulted exactly when the key has no live writer, right BEFORE the
   duration mapper; a raising factory errors every open group and the outer, and no
   group is created (the writers table and the counters are left alone).  Whatever
   subject a non-raising factory returns plays the role of the default Subject().
   [subj j] = outcome of the j-th call of the factory.  A raising factory ends
   everything (all groups and the outer are errored, the runner releases), so while
   the operator still receives input the number of earlier factory calls equals the
   number of earlier duration-mapper calls [gb_calls]. *)
From RxVerif Require Import Base.Prelude Ops.Machine Ops.MultiWin Ops.MultiWinFacts Ops.Groups Ops.GroupFacts.

Section GroupsSubject.
Context {A W B : Type}.
Variables (key : A -> res Z) (elem : A -> res W) (dur : nat -> res bool) (subj : nat -> res unit).

(* the key of x has no live writer *)
Definition gb_miss (s : gb_st) (x : A) : bool :=
  match key x with
  | Ok k => match gb_lookup k (gb_writers s) with None => true | Some _ => false end
  | Raise _ => false
  end.

Definition gbs_step (s : gb_st) (now : Z) (i : inp A) : gb_st * list (cmd W B) * fin :=
  match i with
  | ISrc O (Next x) =>
      if gb_miss s x then
        match subj (gb_calls s) with
        | Raise e => (s, gb_all (gb_writers s) (Err e), Fail e)
        | Ok _ => x_step (x_group_by_until (B:=B) key elem dur) s now i
        end
      else x_step (x_group_by_until (B:=B) key elem dur) s now i
  | _ => x_step (x_group_by_until (B:=B) key elem dur) s now i
  end.

Definition x_group_by_until_sm : machine A W B :=
  Machine (GbSt [] 0 0, [CSub 0%nat], Cont) gbs_step.
End GroupsSubject.

Section GroupsSubjectFacts.
Context {A W B : Type}.
Variables (key : A -> res Z) (elem : A -> res W) (dur : nat -> res bool) (subj : nat -> res unit).
Notation M := (x_group_by_until (B:=B) key elem dur).
Notation MS := (x_group_by_until_sm (B:=B) key elem dur subj).

(* the key has a live writer: the factory is not consulted at all *)
Theorem group_sm_existing s now (x : A) k g :
  key x = Ok k -> gb_lookup k (gb_writers s) = Some g ->
  x_step MS s now (ISrc 0%nat (Next x)) = x_step M s now (ISrc 0%nat (Next x)).
Proof. intros Hk Hl. cbn [x_step x_group_by_until_sm]. unfold gbs_step, gb_miss. now rewrite Hk, Hl. Qed.

(* the key has no live writer and the factory raises: every open group and the outer get the
   error; no group is handed, nothing is subscribed, the state is unchanged *)
Theorem group_sm_raises s now (x : A) k e :
  key x = Ok k -> gb_lookup k (gb_writers s) = None -> subj (gb_calls s) = Raise e ->
  x_step MS s now (ISrc 0%nat (Next x)) = (s, gb_all (gb_writers s) (Err e), Fail e).
Proof. intros Hk Hl Hs. cbn [x_step x_group_by_until_sm]. unfold gbs_step, gb_miss. now rewrite Hk, Hl, Hs. Qed.

Theorem group_sm_raises_no_hand s now (x : A) k e :
  key x = Ok k -> gb_lookup k (gb_writers s) = None -> subj (gb_calls s) = Raise e ->
  ghands (snd (fst (x_step MS s now (ISrc 0%nat (Next x))))) = []
  /\ gwin_nexts (snd (fst (x_step MS s now (ISrc 0%nat (Next x))))) = [].
Proof.
  intros Hk Hl Hs. rewrite (group_sm_raises s now x k e Hk Hl Hs). cbn [fst snd].
  split; [apply ghands_all|]. unfold gb_all. induction (gb_groups (gb_writers s)); auto.
Qed.

(* the key has no live writer and the factory returns a subject: the step of the default factory *)
Theorem group_sm_new s now (x : A) u :
  subj (gb_calls s) = Ok u ->
  x_step MS s now (ISrc 0%nat (Next x)) = x_step M s now (ISrc 0%nat (Next x)).
Proof.
  intros Hs. cbn [x_step x_group_by_until_sm]. unfold gbs_step. rewrite Hs. destruct (gb_miss key s x); reflexivity.
Qed.

(* every other input: the factory plays no role *)
Theorem group_sm_other s now (i : inp A) :
  (forall x, i <> ISrc 0%nat (Next x)) -> x_step MS s now i = x_step M s now i.
Proof.
  intros H. cbn [x_step x_group_by_until_sm]. unfold gbs_step.
  destruct i as [[|d] [x|z|]|tag| | |]; try reflexivity. exfalso. apply (H x). reflexivity.
Qed.

(* a factory that never raises: the machine IS the machine of the default factory, step by step *)
Theorem group_sm_total_step : (forall j, exists u, subj j = Ok u) ->
  forall s now i, x_step MS s now i = x_step M s now i.
Proof.
  intros Ht s now i. destruct i as [[|d] [x|z|]|tag| | |]; try reflexivity.
  destruct (Ht (gb_calls s)) as [u Hu]. exact (group_sm_new s now x u Hu).
Qed.

Lemma group_sm_total_run_from (imm : nat -> bool) : (forall j, exists u, subj j = Ok u) ->
  forall ins s r k, run_from imm MS s r k ins = run_from imm M s r k ins.
Proof.
  intros Ht. induction ins as [|[now i] rest IH]; intros s r k; [reflexivity|].
  cbn [run_from].
  assert (E : rstep imm MS s r now i = rstep imm M s r now i).
  { unfold rstep, deliver. rewrite (group_sm_total_step Ht s now i). reflexivity. }
  rewrite E. destruct (rstep imm M s r now i) as [[s' r'] o]. rewrite IH. reflexivity.
Qed.

(* ... hence every run-level statement about the default factory holds for any non-raising one *)
Theorem group_sm_total_run (imm : nat -> bool) : (forall j, exists u, subj j = Ok u) ->
  forall ins, run imm MS ins = run imm M ins.
Proof.
  intros Ht ins. unfold run.
  change (start_state imm MS) with (start_state imm M). change (start_obs imm MS) with (start_obs imm M).
  rewrite (group_sm_total_run_from imm Ht). reflexivity.
Qed.

Lemma gbs_step_cases s now i :
  x_step MS s now i = x_step M s now i
  \/ exists e, x_step MS s now i = (s, gb_all (gb_writers s) (Err e), Fail e).
Proof.
  cbn [x_step x_group_by_until_sm]. unfold gbs_step.
  destruct i as [[|d] [x|z|]|tag| | |]; try (left; reflexivity).
  destruct (gb_miss key s x); [|left; reflexivity].
  destruct (subj (gb_calls s)) as [u|e]; [left; reflexivity|right; exists e; reflexivity].
Qed.

Theorem gbs_inv_step s now i : gb_inv s -> gb_inv (fst (fst (x_step MS s now i))).
Proof.
  intros Hinv. destruct (gbs_step_cases s now i) as [->|[e ->]]; [apply gb_inv_step, Hinv|exact Hinv].
Qed.

Theorem group_sm_never_unsubs_source : never_unsubs MS 0%nat.
Proof.
  intros s now i.
  destruct (gbs_step_cases s now i) as [->|[e ->]]; [apply group_never_unsubs_source|apply gb_all_keeps].
Qed.
End GroupsSubjectFacts.
