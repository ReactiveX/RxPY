(* C06 / C05 with the positions: the short-circuiting aggregates emit at the element that decides them.
   Derived operators are handled through the TAGGED composition theorem (Ops/ComposeTagged.v): the
   reaction of the second stage carries the position of the first stage's notification that caused it. *)
From RxVerif Require Import Base.Prelude Ops.Machine Ops.MachineFacts Ops.ComposeTagged
  Ops.Elementwise Ops.ElementwiseFacts Ops.ElementwiseMore Ops.Aggregates Ops.AggregatesFacts
  Ops.AggregatesMore.

Local Arguments Z.of_nat : simpl never.

Section Generic.
Context {B C : Type}.

(* when stage 1 forwards element j at position j (a pass-through shape), the tagged run IS the run *)
Lemma exec_tagged_from_std (m : mealy B C) (ys : list B) t : forall s k,
  exec_tagged_from m s (nexts (indexed k ys) ++ tterm (k + length ys) t) = exec_from m s k (events ys t).
Proof.
  induction ys as [|y r IH]; intros s k.
  - cbn [indexed nexts map app length]. rewrite Nat.add_0_r. destruct t; reflexivity.
  - cbn [indexed nexts map app length fst snd]. rewrite events_cons. cbn [exec_tagged_from exec_from].
    destruct (m_next m s y) as [[s' o] f]. destruct (live f); [|reflexivity]. f_equal.
    rewrite <- plus_n_Sm. apply (IH s' (S k)).
Qed.

Lemma exec_tagged_std (m : mealy B C) (ys : list B) t :
  exec_tagged m (nexts (indexed 1 ys) ++ tterm (S (length ys)) t) = exec m (events ys t).
Proof.
  unfold exec_tagged, exec. destruct (m_pre m) as [o f]. destruct (live f); [|reflexivity]. f_equal.
  apply (exec_tagged_from_std m ys t (m_init m) 1).
Qed.

Lemma exec_tagged_map (f : B -> C) (l : list (nat * B)) n t :
  exec_tagged (op_map (pure f)) (nexts l ++ tterm n t)
  = nexts (map (fun kx => (fst kx, f (snd kx))) l) ++ tterm n t.
Proof.
  unfold exec_tagged. cbn [op_map m_pre m_init emit live map app].
  induction l as [|[k x] r IH]; cbn [nexts map app fst snd].
  - destruct t; reflexivity.
  - cbn [exec_tagged_from op_map m_next pure emit live map app]. f_equal. exact IH.
Qed.
End Generic.

Section Decide.
Context {A : Type}.

Definition at_end {X} (n : nat) (t : term) (v : X) : list (nat * ev X) :=
  match t with TDone => [(n, Next v); (n, Done)] | TErr e => [(n, Err e)] | TNever => [] end.

Lemma exec_tagged_map_at_end {X Y} (h : X -> Y) n t v :
  exec_tagged (op_map (pure h)) (at_end n t v) = at_end n t (h v).
Proof.
  destruct t as [|e|]; [apply (exec_tagged_map h [(n, v)] n TDone)|apply (exec_tagged_map h [] n (TErr e))|reflexivity].
Qed.

(* some / first as second stages: decided by the first notification they see *)
Lemma exec_tagged_some (l : list (nat * A)) n t :
  exec_tagged op_some (nexts l ++ tterm n t)
  = match l with (j, _) :: _ => [(j, Next true); (j, Done)] | [] => at_end n t false end.
Proof. destruct l as [|[j x] r]; [destruct t|]; reflexivity. Qed.

Lemma exec_tagged_first default (l : list (nat * A)) n t :
  exec_tagged (op_first default) (nexts l ++ tterm n t)
  = match l with
    | (j, x) :: _ => [(j, Next x); (j, Done)]
    | [] => match t with
            | TDone => match default with Some d => [(n, Next d); (n, Done)] | None => [(n, Err EXN_NO_ELEMENTS)] end
            | TErr e => [(n, Err e)]
            | TNever => []
            end
    end.
Proof. destruct l as [|[j x] r]; [destruct t; [destruct default| |]|]; reflexivity. Qed.

Lemma find_filter {X} (q : X -> bool) (l : list X) :
  find q l = match filter q l with [] => None | y :: _ => Some y end.
Proof. induction l as [|x r IH]; [reflexivity|]. cbn [find filter]. destruct (q x); [reflexivity|exact IH]. Qed.

Lemma first_failing_find (p : A -> bool) (l : list (nat * A)) :
  first_failing p l = find (fun kx => negb (p (snd kx))) l.
Proof. induction l as [|x r IH]; [reflexivity|]. cbn [first_failing find]. destruct (p (snd x)); [exact IH|reflexivity]. Qed.

Lemma existsb_find_indexed (p : A -> bool) (xs : list A) : forall k,
  existsb p xs = match find (fun kx => p (snd kx)) (indexed k xs) with Some _ => true | None => false end.
Proof.
  induction xs as [|x r IH]; intros k; cbn [existsb indexed find snd]; [reflexivity|].
  destruct (p x); [reflexivity|apply IH].
Qed.

Lemma forallb_first_failing (p : A -> bool) (xs : list A) : forall k,
  forallb p xs = match first_failing p (indexed k xs) with Some _ => false | None => true end.
Proof.
  induction xs as [|x r IH]; intros k; cbn [forallb indexed first_failing snd]; [reflexivity|].
  destruct (p x); [apply IH|reflexivity].
Qed.

(* some(predicate): true at the first element satisfying it, otherwise false at completion *)
Theorem some_pred_tagged (p : A -> bool) (xs : list A) t :
  exec (op_some_pred (pure p)) (events xs t)
  = match find (fun kx => p (snd kx)) (indexed 1 xs) with
    | Some (j, _) => [(j, Next true); (j, Done)]
    | None => at_end (S (length xs)) t false
    end.
Proof.
  unfold op_some_pred. rewrite compose_exec_tagged, filter_spec, exec_tagged_some, find_filter.
  destruct (filter (fun kx => p (snd kx)) (indexed 1 xs)) as [|[j x] r]; reflexivity.
Qed.

(* contains(v, comparer): true at the first element equal to v *)
Theorem contains_tagged (eqb : A -> A -> bool) (v : A) (xs : list A) t :
  exec (op_contains (pure2 eqb) v) (events xs t)
  = match find (fun kx => eqb (snd kx) v) (indexed 1 xs) with
    | Some (j, _) => [(j, Next true); (j, Done)]
    | None => at_end (S (length xs)) t false
    end.
Proof.
  unfold op_contains.
  change (fun x : A => pure2 eqb x v) with (pure (fun x : A => eqb x v)).
  fold (op_some_pred (pure (fun x : A => eqb x v))). apply some_pred_tagged.
Qed.

(* all(predicate): false at the first element FAILING it, otherwise true at completion *)
Theorem all_tagged (p : A -> bool) (xs : list A) t :
  exec (op_all (pure p)) (events xs t)
  = match first_failing p (indexed 1 xs) with
    | Some (j, _) => [(j, Next false); (j, Done)]
    | None => at_end (S (length xs)) t true
    end.
Proof.
  unfold op_all. rewrite compose_exec_tagged.
  change (fun x : A => res_negb (pure p x)) with (pure (fun x : A => negb (p x))).
  fold (op_some_pred (pure (fun x : A => negb (p x)))). rewrite some_pred_tagged, first_failing_find.
  change (fun b : bool => Ok (negb b)) with (pure negb).
  destruct (find (fun kx : nat * A => negb (p (snd kx))) (indexed 1 xs)) as [[j x]|].
  - apply (exec_tagged_map_at_end negb j TDone true).
  - apply exec_tagged_map_at_end.
Qed.

(* is_empty: false at the FIRST element, true at completion of an empty source *)
Theorem is_empty_tagged (xs : list A) t :
  exec op_is_empty (events xs t)
  = match xs with
    | _ :: _ => [(1%nat, Next false); (1%nat, Done)]
    | [] => at_end 1 t true
    end.
Proof.
  unfold op_is_empty. rewrite compose_exec_tagged, some_spec.
  change (fun b : bool => Ok (negb b)) with (pure negb).
  destruct xs as [|x r]; [apply exec_tagged_map_at_end|apply (exec_tagged_map_at_end negb 1 TDone true)].
Qed.

(* sequence_equal(iterable): false at the first mismatching or surplus element *)
Fixpoint se_mismatch_at (eqb : A -> A -> bool) (qr xs : list A) (k : nat) : option nat :=
  match xs with
  | [] => None
  | x :: r => match qr with
              | v :: q => if eqb v x then se_mismatch_at eqb q r (S k) else Some k
              | [] => Some k
              end
  end.

Lemma se_mismatch_run eqb (xs : list A) : forall qr k,
  match se_mismatch_at eqb qr xs k with Some _ => se_run eqb qr xs = None | None => se_run eqb qr xs <> None end.
Proof.
  induction xs as [|x r IH]; intros [|v q] k; cbn [se_mismatch_at se_run]; try easy.
  destruct (eqb v x); [apply IH|reflexivity].
Qed.

Lemma sequence_equal_from_tagged eqb (second xs : list A) t : forall qr k,
  exec_from (op_sequence_equal_iter (pure2 eqb) second) qr k (events xs t)
  = match se_mismatch_at eqb qr xs k with
    | Some j => [(j, Next false); (j, Done)]
    | None => at_end (k + length xs) t (match se_run eqb qr xs with Some [] => true | _ => false end)
    end.
Proof.
  induction xs as [|x r IH]; intros qr k.
  - cbn [se_mismatch_at se_run length]. rewrite Nat.add_0_r. destruct t, qr; reflexivity.
  - rewrite events_cons, exec_from_cons. cbn -[exec_from].
    destruct qr as [|v q]; [reflexivity|]. unfold pure2. cbn [se_mismatch_at se_run length].
    destruct (eqb v x); [|reflexivity].
    cbn -[exec_from]. fold (pure2 eqb). rewrite IH, <- plus_n_Sm. reflexivity.
Qed.

End Decide.

Section SkipWhileIndexedTagged.
Context {A : Type}.

Fixpoint dropwhile_it (p : A -> nat -> bool) (i : nat) (l : list (nat * A)) : list (nat * A) :=
  match l with [] => [] | kx :: t => if p (snd kx) i then dropwhile_it p (S i) t else l end.

Lemma dropwhile_it_pairs (p : A -> nat -> bool) (xs : list A) : forall i k,
  map (fun kx : nat * (A * nat) => (fst kx, fst (snd kx)))
      (dropwhile (fun xi : A * nat => p (fst xi) (snd xi)) (indexed k (mapi_from i (fun x j => (x, j)) xs)))
  = dropwhile_it p i (indexed k xs).
Proof.
  induction xs as [|x r IH]; intros i k; cbn [mapi_from indexed dropwhile dropwhile_it fst snd]; [reflexivity|].
  destruct (p x i); [apply IH|]. cbn [map fst snd]. f_equal.
  clear. generalize (S i) (S k). induction r as [|y r IH]; intros j k0; cbn; [reflexivity|now rewrite IH].
Qed.

Lemma dropwhile_it_untag (p : A -> nat -> bool) (xs : list A) : forall i k,
  map snd (dropwhile_it p i (indexed k xs)) = dropwhile_i p i xs.
Proof.
  induction xs as [|x r IH]; intros i k; cbn [indexed dropwhile_it dropwhile_i snd]; [reflexivity|].
  destruct (p x i); [apply IH|]. cbn [map snd]. now rewrite map_snd_indexed.
Qed.

Lemma mapi_from_length {B} (f : A -> nat -> B) (xs : list A) : forall i, length (mapi_from i f xs) = length xs.
Proof. induction xs as [|x r IH]; intros i; cbn; [reflexivity|now rewrite IH]. Qed.

(* every surviving element is emitted at its own position; the terminal at the source's *)
Theorem skip_while_indexed_tagged (p : A -> nat -> bool) (xs : list A) t :
  exec (op_skip_while_indexed (pure2 p)) (events xs t)
  = nexts (dropwhile_it p 0 (indexed 1 xs)) ++ tterm (S (length xs)) t.
Proof.
  unfold op_skip_while_indexed. rewrite !compose_exec_tagged.
  change (fun (x : A) (i : nat) => Ok (x, i)) with (pure2 (fun (x : A) (i : nat) => (x, i))).
  rewrite map_indexed_spec.
  rewrite <- (mapi_from_length (fun (x : A) (i : nat) => (x, i)) xs 0), exec_tagged_std.
  change (fun xi : A * nat => pure2 p (fst xi) (snd xi)) with (pure (fun xi : A * nat => p (fst xi) (snd xi))).
  rewrite skip_while_spec.
  change (fun xi : A * nat => Ok (fst xi)) with (pure (fun xi : A * nat => fst xi)).
  rewrite exec_tagged_map, dropwhile_it_pairs, mapi_from_length. reflexivity.
Qed.
End SkipWhileIndexedTagged.

Section ToDict.
Context {A K V : Type}.

(* { key(x): elem(x) for x in xs } built by successive d[key(x)] = elem(x) *)
Definition to_dict_list (keq : K -> K -> bool) (key : A -> K) (el : A -> V) (xs : list A) : list (K * V) :=
  fold_left (fun d x => dict_set keq d (key x) (el x)) xs [].

Lemma to_dict_from keq (key : A -> K) (el : A -> V) (xs : list A) t : forall d k,
  exec_from (op_to_dict keq (pure key) (pure el)) d k (events xs t)
  = at_end (k + length xs) t (fold_left (fun d x => dict_set keq d (key x) (el x)) xs d).
Proof.
  intros d k. unfold events.
  rewrite (collect_run (op_to_dict keq (pure key) (pure el)) (fun d x => dict_set keq d (key x) (el x))) by reflexivity.
  destruct t; reflexivity.
Qed.

(* nothing before the source completes; then the dictionary once, and completion; an error passes *)
Theorem to_dict_tagged keq (key : A -> K) (el : A -> V) (xs : list A) t :
  exec (op_to_dict keq (pure key) (pure el)) (events xs t)
  = at_end (S (length xs)) t (to_dict_list keq key el xs).
Proof. unfold exec. cbn -[exec_from]. apply to_dict_from. Qed.

(* what the dictionary holds: looking a key up gives the value of the LAST element with that key *)
Fixpoint dict_get (keq : K -> K -> bool) (d : list (K * V)) (q : K) : option V :=
  match d with
  | [] => None
  | (k', v') :: t => if keq k' q then Some v' else dict_get keq t q
  end.

Section Equiv.
Context (keq : K -> K -> bool)
        (keq_sym : forall a b, keq a b = keq b a)
        (keq_trans : forall a b c, keq a b = true -> keq b c = true -> keq a c = true).

Lemma dict_get_set (d : list (K * V)) k v q :
  dict_get keq (dict_set keq d k v) q = if keq k q then Some v else dict_get keq d q.
Proof.
  induction d as [|[k' v'] t IH]; cbn [dict_set dict_get]; [reflexivity|].
  destruct (keq k' k) eqn:Hk; cbn [dict_get].
  - assert (Heq : keq k' q = keq k q).
    { destruct (keq k q) eqn:H1.
      - exact (keq_trans _ _ _ Hk H1).
      - destruct (keq k' q) eqn:H2; [|reflexivity].
        rewrite keq_sym in Hk. rewrite <- H1. symmetry. exact (keq_trans _ _ _ Hk H2). }
    rewrite Heq. destruct (keq k q); reflexivity.
  - rewrite IH. destruct (keq k' q) eqn:H2; [|reflexivity].
    destruct (keq k q) eqn:H1; [|reflexivity].
    rewrite keq_sym in H1. rewrite (keq_trans _ _ _ H2 H1) in Hk. discriminate.
Qed.

Lemma find_app {X} (f : X -> bool) (l1 l2 : list X) :
  find f (l1 ++ l2) = match find f l1 with Some y => Some y | None => find f l2 end.
Proof. induction l1 as [|x r IH]; [reflexivity|]. cbn [app find]. destruct (f x); [reflexivity|exact IH]. Qed.

Lemma dict_get_fold (key : A -> K) (el : A -> V) (xs : list A) q : forall d,
  dict_get keq (fold_left (fun d x => dict_set keq d (key x) (el x)) xs d) q
  = match find (fun x => keq (key x) q) (rev xs) with
    | Some x => Some (el x)
    | None => dict_get keq d q
    end.
Proof.
  induction xs as [|x r IH]; intros d; [reflexivity|].
  cbn [fold_left rev]. rewrite IH, find_app, dict_get_set.
  destruct (find (fun x0 => keq (key x0) q) (rev r)); [reflexivity|].
  cbn [find]. destruct (keq (key x) q); reflexivity.
Qed.

End Equiv.
End ToDict.

Section TakeLastBuffer.
Context {A : Type}.

Lemma take_last_buffer_from c (xs : list A) t : forall q k,
  exec_from (op_take_last_buffer c) q k (events xs t)
  = at_end (k + length xs) t (fold_left (Slice.take_last_push c) xs q).
Proof.
  intros q k. unfold events. rewrite (collect_run (op_take_last_buffer c) (Slice.take_last_push c)) by reflexivity.
  destruct t; reflexivity.
Qed.

End TakeLastBuffer.
