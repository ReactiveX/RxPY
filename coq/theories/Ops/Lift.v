(* Single-source Mealy operators are machines of the multi-source runner; the
   runner's emissions are exactly [exec]'s.  So the generic C01/C02/C03 runner
   theorems cover every operator of the C05/C06 catalogues too. *)
From RxVerif Require Import Base.Prelude Ops.Machine Ops.MachineFacts Ops.Multi Ops.MultiFacts.

Section Lift.
Context {A B : Type} (m : mealy A B).

Definition lift : machine A B :=
  Machine (m_init m,
           map CEmit (fst (m_pre m)) ++ (if live (snd (m_pre m)) then [CSub 0%nat] else []),
           snd (m_pre m))
    (fun s _ i =>
       match i with
       | ISrc _ (Next x) => (fst (fst (m_next m s x)), map CEmit (snd (fst (m_next m s x))), snd (m_next m s x))
       | ISrc _ (Err e) => (s, map CEmit (fst (m_err m s e)), snd (m_err m s e))
       | ISrc _ Done => (s, map CEmit (fst (m_done m s)), snd (m_done m s))
       | _ => (s, [], Cont)
       end).

Definition feed0 (ins : list (ev A)) : list (Z * inp A) := map (fun e => (0, ISrc 0%nat e)) ins.

Lemma lift_dead ins : forall s k ts st,
  fst (run_from lift s (RState [] ts st) k (feed0 ins)) = [].
Proof.
  induction ins as [|e rest IH]; intros s k ts st; [reflexivity|].
  cbn [feed0 map]. fold (feed0 rest).
  rewrite run_from_cons, rstep_dropped by (right; split; [reflexivity|discriminate]). apply IH.
Qed.

(* the source subscription is live: one input emits what the handler answers;
   afterwards the subscription is still live exactly if exec goes on *)
Lemma lift_step s k now e :
  let st := rstep lift s (RState [0%nat] [] false) now (ISrc 0%nat e) in
  fst (fst st) = fst (fst (handle m s e))
  /\ temitted (map (fun x => (k, x)) (snd st)) = emit k (snd (fst (handle m s e))) (snd (handle m s e))
  /\ (if live (snd (handle m s e)) && negb (is_terminal e)
      then snd (fst st) = RState [0%nat] [] false else r_live (snd (fst st)) = []).
Proof.
  rewrite rstep_handled_eq by (auto; left; reflexivity).
  replace (x_step lift s now (ISrc 0%nat e))
    with (fst (fst (handle m s e)), map (@CEmit B) (snd (fst (handle m s e))), snd (handle m s e))
    by (destruct e; reflexivity).
  destruct (handle m s e) as [[s' outs] f]. unfold handled_step. cbn [fst snd]. rewrite apply_cmds_emit_only. cbn [fst snd].
  assert (D : auto_detach (ISrc 0%nat e) (RState [0%nat] [] false)
              = if is_terminal e then (RState [] [] false, [@OUnsub B 0%nat]) else (RState [0%nat] [] false, []))
    by (destruct e; reflexivity).
  rewrite D.
  (* a terminal input detaches the subscription, a terminal answer releases everything *)
  destruct (is_terminal e), f; cbn [finish release fst snd negb andb live r_live];
    rewrite !map_app, !temitted_app, temitted_emit_only; unfold emit; cbn [map app temitted flat_map snd];
    auto.
Qed.

Lemma lift_from ins : forall s k,
  temitted (fst (run_from lift s (RState [0%nat] [] false) k (feed0 ins))) = exec_from m s k ins.
Proof.
  induction ins as [|e rest IH]; intros s k; [reflexivity|].
  rewrite exec_from_handle. cbn [feed0 map run_from]. fold (feed0 rest).
  destruct (lift_step s k 0 e) as (Hs & Ho & Hr).
  destruct (rstep lift s (RState [0%nat] [] false) 0 (ISrc 0%nat e)) as [[s' r'] o]. cbn [fst snd] in *.
  subst s'. specialize (IH (fst (fst (handle m s e))) (S k)).
  destruct (live (snd (handle m s e)) && negb (is_terminal e)).
  - subst r'. destruct (run_from lift (fst (fst (handle m s e))) (RState [0%nat] [] false) (S k) (feed0 rest)) as [tr rf].
    cbn [fst] in *.
    now rewrite temitted_app, Ho, IH.
  - destruct r' as [lv ts st]. cbn [r_live] in Hr. subst lv.
    pose proof (lift_dead rest (fst (fst (handle m s e))) (S k) ts st) as HD.
    destruct (run_from lift (fst (fst (handle m s e))) (RState [] ts st) (S k) (feed0 rest)) as [tr rf].
    cbn [fst] in *. subst tr. now rewrite app_nil_r, Ho, app_nil_r.
Qed.

Theorem lift_exec ins : temitted (fst (run lift (feed0 ins))) = exec m ins.
Proof.
  unfold run, exec. cbn [lift x_start]. destruct (m_pre m) as [outs f]. cbn [fst snd].
  rewrite apply_cmds_app, apply_cmds_emit_only. cbn [fst snd].
  destruct f; cbn [live apply_cmds fst snd app r_live r_timers r_stopped finish].
  { pose proof (lift_from ins (m_init m) 1) as H.
       destruct (run_from lift (m_init m) (RState [0%nat] [] false) 1 (feed0 ins)) as [tr rf]. cbn [fst] in *.
       rewrite !app_nil_r, temitted_app, map_app, temitted_app, temitted_emit_only, H.
       unfold emit. cbn. now rewrite app_nil_r. }
  (* the operator ended inside subscribe(): no source subscription is made *)
  all: unfold release; cbn [fst snd r_live r_timers sort_nat fold_right map app];
    pose proof (lift_dead ins (m_init m) 1 [] true) as HD;
    destruct (run_from lift (m_init m) (RState [] [] true) 1 (feed0 ins)) as [tr rf]; cbn [fst] in *; subst tr;
    rewrite !app_nil_r, map_app, temitted_app, temitted_emit_only; reflexivity.
Qed.
End Lift.
