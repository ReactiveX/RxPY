(* C39 -- facts about the call-binding model of Ops/Fluent.v.

   Main result [forward_sound]: the finite check [entry_ok] of a table entry
   implies, for EVERY call (any number of positional values, any keywords, any
   values), that if the method's own signature accepts the call then the
   method ends up applying the operator function that the same-named operator
   called directly with the same arguments would apply, with identical bound
   arguments ([forwards]).

   Why a finite check suffices:
   - binding never inspects values ([bind_map]: it commutes with any map on
     values that fixes constants), and a method body inspects them only
     through `P is C` for the guard constants K ([eval_method_map]);
   - so a call behaves like its abstraction [abs_call] (every value that is
     not a guard constant replaced by a distinct opaque token; [abs_sound]), and
     the abstraction of an accepted call is one of the finitely many calls the
     check enumerates ([abs_call_build], [in_lists_upto], [flags_in_opts]);
   - positionals beyond the positional parameters of a *args method travel
     together to the end of the operator's *args ([bind_extra], [varpos_sound]).

   The enumerating part of the check is also complete: [entry_fin_ok_on names] (keywords
   drawn from [names]; so every [_on] below) holds wherever every accepted call of its
   family forwards ([fin_complete_on]).  So that part of [entry_ok] of a table row can be
   had without evaluating it, from anything that gives [forwards] on those calls.
   Ops/FluentProof.v (table_rows) does so row by row, along one of two routes:
     a row of pass-through form: [passthrough] (a test on the text of the row)
        -> [passthrough_sound]: forwards -> [passthrough_ok]: entry_ok;
     any other row: [entry_ok_thin] (evaluated)
        -> [fin_thin_sound]: forwards -> [entry_ok_thin_full]: entry_ok.
   [entry_ok_thin] is the same check over fewer calls: keyword lists in signature
   order only (binding reads the keywords as a finite map, [bind_kws_ext]) and, for
   a method that does not delegate, guard constants only at the arguments one of its
   guards looks at ([thin_row]). *)
From Coq Require Import List String Bool Arith Lia.
From RxVerif Require Import Ops.Fluent.
Import ListNotations.
Open Scope string_scope.
Open Scope list_scope.

Lemma mem_In : forall k l, mem k l = true <-> In k l.
Proof.
  intros k l. unfold mem. rewrite existsb_exists. split.
  - intros [x [H1 H2]]. apply String.eqb_eq in H2. subst. exact H1.
  - intros H. exists k. split; [exact H | apply String.eqb_refl].
Qed.

Lemma mem_false_not_In : forall k l, mem k l = false -> ~ In k l.
Proof. intros k l H HI. apply mem_In in HI. congruence. Qed.

Lemma nodupb_NoDup : forall l, nodupb l = true -> NoDup l.
Proof.
  induction l as [|x r IH]; simpl; intros H; [constructor|].
  apply andb_true_iff in H. destruct H as [H1 H2]. constructor; [|auto].
  apply negb_true_iff in H1. apply mem_false_not_In. exact H1.
Qed.

Lemma lookup_kmap : forall f k l, lookup k (kmap f l) = option_map f (lookup k l).
Proof.
  intros f k l. induction l as [|[k' v] r IH]; simpl; [reflexivity|].
  destruct (String.eqb k k'); [reflexivity | exact IH].
Qed.

Lemma map_fst_kmap : forall f l, map fst (kmap f l) = map fst l.
Proof. intros f l. unfold kmap. rewrite map_map. reflexivity. Qed.

Definition fixes_consts (f : value -> value) : Prop := forall c, f (VConst c) = VConst c.
Definition respects (K : list const) (f : value -> value) : Prop :=
  fixes_consts f /\ forall i C, In C K -> value_is (f (VOpaque i)) C = false.

Lemma from_kw_map : forall f p kws, fixes_consts f ->
  from_kw p (kmap f kws) = option_map f (from_kw p kws).
Proof.
  intros f p kws Hf. unfold from_kw. rewrite lookup_kmap.
  destruct (lookup (pname p) kws); simpl; [reflexivity|].
  destruct (pdef p); simpl; [rewrite Hf|]; reflexivity.
Qed.

Definition tmap (f : value -> value) (t : list (string * value) * list value * list value) :=
  let '(n, va, lo) := t in (kmap f n, map f va, map f lo).

Lemma bind_go_map : forall f ps, fixes_consts f -> forall pos kws,
  bind_go ps (map f pos) (kmap f kws) = option_map (tmap f) (bind_go ps pos kws).
Proof.
  intros f ps Hf. induction ps as [|p ps IH]; intros pos kws; simpl; [reflexivity|].
  destruct (pkind p).
  - destruct pos as [|v pos']; simpl.
    + rewrite from_kw_map by exact Hf. destruct (from_kw p kws); simpl; [|reflexivity].
      specialize (IH [] kws). simpl in IH. rewrite IH.
      destruct (bind_go ps [] kws) as [[[n va] lo]|]; reflexivity.
    + rewrite map_fst_kmap. destruct (mem (pname p) (map fst kws)); [reflexivity|].
      rewrite (IH pos' kws). destruct (bind_go ps pos' kws) as [[[n va] lo]|]; reflexivity.
  - specialize (IH [] kws). simpl in IH. rewrite IH.
    destruct (bind_go ps [] kws) as [[[n va] lo]|]; reflexivity.
  - rewrite from_kw_map by exact Hf. destruct (from_kw p kws); simpl; [|reflexivity].
    rewrite (IH pos kws). destruct (bind_go ps pos kws) as [[[n va] lo]|]; reflexivity.
Qed.

Lemma bind_map : forall f s c, fixes_consts f ->
  bind s (cmap f c) = option_map (emap f) (bind s c).
Proof.
  intros f s c Hf. unfold bind, cmap. simpl. rewrite map_fst_kmap.
  destruct (nodupb (map fst (ckws c)) && forallb (fun k => mem k (kwnames s)) (map fst (ckws c)));
    [|reflexivity].
  rewrite bind_go_map by exact Hf.
  destruct (bind_go s (cpos c) (ckws c)) as [[[n va] lo]|]; simpl; [|reflexivity].
  destruct lo; reflexivity.
Qed.

Lemma mem_fst_lookup : forall (A : Type) k (l : list (string * A)),
  mem k (map fst l) = match lookup k l with Some _ => true | None => false end.
Proof.
  intros A k l. unfold mem. induction l as [|[k' v] r IH]; simpl; [reflexivity|].
  destruct (String.eqb k k'); [reflexivity | exact IH].
Qed.

Lemma keys_lookup : forall (A : Type) k (l : list (string * A)), In k (map fst l) <-> lookup k l <> None.
Proof.
  intros A k l. rewrite <- mem_In, mem_fst_lookup. destruct (lookup k l); split; congruence.
Qed.

Lemma bind_go_kws_ext : forall kws kws', (forall k, lookup k kws = lookup k kws') ->
  forall ps pos, bind_go ps pos kws = bind_go ps pos kws'.
Proof.
  intros kws kws' H. induction ps as [|p ps IH]; intros pos; simpl; [reflexivity|].
  unfold from_kw. destruct (pkind p); [destruct pos| |]; rewrite ?mem_fst_lookup, ?H, ?IH; reflexivity.
Qed.

Lemma bind_kws_ext : forall s pos kws kws',
  nodupb (map fst kws) = nodupb (map fst kws') -> (forall k, lookup k kws = lookup k kws') ->
  bind s (mkcall pos kws) = bind s (mkcall pos kws').
Proof.
  intros s pos kws kws' Hnd H. unfold bind. simpl. rewrite Hnd, (bind_go_kws_ext _ _ H).
  replace (forallb (fun k => mem k (kwnames s)) (map fst kws'))
    with (forallb (fun k => mem k (kwnames s)) (map fst kws)); [reflexivity|].
  apply eq_iff_eq_true. rewrite !forallb_forall.
  split; intros G k Hk; apply G; apply keys_lookup; apply keys_lookup in Hk;
    [rewrite H | rewrite <- H]; exact Hk.
Qed.

Lemma eval_src_map : forall f b s, fixes_consts f ->
  eval_src (emap f b) s = option_map f (eval_src b s).
Proof.
  intros f b s Hf. destruct s; simpl; [apply lookup_kmap | rewrite Hf; reflexivity].
Qed.

Lemma eval_args_map : forall f ms b args, fixes_consts f ->
  eval_args ms (emap f b) args = option_map (cmap f) (eval_args ms b args).
Proof.
  intros f ms b args Hf. induction args as [|a r IH]; simpl; [reflexivity|].
  rewrite IH. destruct (eval_args ms b r) as [c|]; simpl; [|reflexivity].
  destruct a as [s|p|k s].
  - rewrite eval_src_map by exact Hf. destruct (eval_src b s); reflexivity.
  - destruct (is_varpos_name ms p); [|reflexivity].
    unfold cmap. simpl. rewrite map_app. reflexivity.
  - rewrite eval_src_map by exact Hf. destruct (eval_src b s); reflexivity.
Qed.

Lemma guard_holds_emap : forall f b g,
  (forall v, lookup (fst g) (bnamed b) = Some v -> value_is (f v) (snd g) = value_is v (snd g)) ->
  guard_holds (emap f b) g = guard_holds b g.
Proof.
  intros f b g H. unfold guard_holds. simpl. rewrite lookup_kmap.
  destruct (lookup (fst g) (bnamed b)) as [v|]; simpl; [exact (H v eq_refl) | reflexivity].
Qed.

Lemma forallb_eq_in : forall (A : Type) (f g : A -> bool) l,
  (forall x, In x l -> f x = g x) -> forallb f l = forallb g l.
Proof.
  intros A f g l. induction l as [|x r IH]; simpl; intros H; [reflexivity|].
  rewrite (H x) by auto. rewrite IH by auto. reflexivity.
Qed.

Lemma select_In : forall brs b br, select brs b = Some br -> In br brs.
Proof. intros brs b br H. unfold select in H. apply find_some in H. tauto. Qed.

Lemma select_ext : forall brs b b',
  (forall br g, In br brs -> In g (bguards br) -> guard_holds b' g = guard_holds b g) ->
  select brs b' = select brs b.
Proof.
  intros brs b b'. unfold select. induction brs as [|br r IH]; simpl; intros H; [reflexivity|].
  assert (E : forallb (guard_holds b') (bguards br) = forallb (guard_holds b) (bguards br)).
  { apply forallb_eq_in. intros g Hg. apply (H br); simpl; auto. }
  rewrite E. destruct (forallb (guard_holds b) (bguards br)); [reflexivity|].
  apply IH. intros br' g Hbr Hg. apply (H br'); simpl; auto.
Qed.

Lemma select_map : forall K f brs b, respects K f ->
  forallb (fun br => forallb (fun g => mem (snd g) K) (bguards br)) brs = true ->
  select brs (emap f b) = select brs b.
Proof.
  intros K f brs b [Hf Ho] H. apply select_ext. intros br g Hbr Hg.
  apply guard_holds_emap. intros [c|i] _; [rewrite Hf; reflexivity|]. simpl. apply Ho, mem_In.
  rewrite forallb_forall in H. specialize (H br Hbr). rewrite forallb_forall in H. exact (H g Hg).
Qed.

Lemma direct_map : forall f ops n c, fixes_consts f ->
  direct ops n (cmap f c) = option_map (rmap f) (direct ops n c).
Proof.
  intros f ops n c Hf. unfold direct. destruct (find_op ops n) as [o|]; [|reflexivity].
  rewrite bind_map by exact Hf. destruct (bind (osig o) c); reflexivity.
Qed.

(* [eval_method] is a fix on the fuel and does not unfold at a variable fuel; both cases have this form *)
Lemma eval_method_unfold : forall tbl ops fuel e c,
  eval_method tbl ops fuel e c =
  match bind (esig e) c with
  | None => None
  | Some b =>
    match select (ebranches e) b with
    | None => None
    | Some br =>
      match bform br with
      | FOp n args =>
        match eval_args (esig e) b args with
        | Some c' => direct ops n c'
        | None => None
        end
      | FSelf m args =>
        match fuel with
        | O => None
        | S fuel' =>
          match find_entry tbl m, eval_args (esig e) b args with
          | Some e', Some c' => eval_method tbl ops fuel' e' c'
          | _, _ => None
          end
        end
      end
    end
  end.
Proof. intros. destruct fuel; reflexivity. Qed.

(* method and operator see a call only through [bind] *)
Lemma forward_bind_ext : forall tbl ops fuel e c c', (forall s, bind s c = bind s c') ->
  eval_method tbl ops fuel e c = eval_method tbl ops fuel e c' /\
  forall n, direct ops n c = direct ops n c'.
Proof.
  intros tbl ops fuel e c c' H. split; [rewrite !eval_method_unfold, H; reflexivity|].
  intros n. unfold direct. destruct (find_op ops n); [rewrite H|]; reflexivity.
Qed.

Definition is_fop (br : branch) : bool := match bform br with FOp _ _ => true | FSelf _ _ => false end.

(* one unfolding of [eval_method] commutes with a map on values, given that the map does
   not change which branch is taken and that the delegate (if any) commutes with it *)
Lemma eval_method_map_step : forall f tbl ops fuel e c, fixes_consts f ->
  (forall b, bind (esig e) c = Some b -> select (ebranches e) (emap f b) = select (ebranches e) b) ->
  (forall br fuel' e' c', In br (ebranches e) -> is_fop br = false -> fuel = S fuel' -> In e' tbl ->
     eval_method tbl ops fuel' e' (cmap f c') = option_map (rmap f) (eval_method tbl ops fuel' e' c')) ->
  eval_method tbl ops fuel e (cmap f c) = option_map (rmap f) (eval_method tbl ops fuel e c).
Proof.
  intros f tbl ops fuel e c Hf Hsel Hrec.
  rewrite !eval_method_unfold, bind_map by exact Hf.
  destruct (bind (esig e) c) as [b|]; simpl; [|reflexivity].
  rewrite (Hsel b eq_refl).
  destruct (select (ebranches e) b) as [br|] eqn:Es; [|reflexivity].
  apply select_In in Es. specialize (Hrec br). unfold is_fop in Hrec.
  destruct (bform br) as [n args|m args].
  - rewrite eval_args_map by exact Hf.
    destruct (eval_args (esig e) b args) as [c'|]; simpl; [apply direct_map; exact Hf | reflexivity].
  - destruct fuel as [|fuel']; [reflexivity|].
    destruct (find_entry tbl m) as [e'|] eqn:Hfe; [|reflexivity].
    rewrite eval_args_map by exact Hf.
    destruct (eval_args (esig e) b args) as [c'|]; simpl; [|reflexivity].
    apply Hrec; auto. exact (proj1 (find_some _ _ Hfe)).
Qed.

Lemma eval_method_map : forall K f tbl ops, respects K f ->
  forallb (guards_in K) tbl = true ->
  forall fuel e c, guards_in K e = true ->
  eval_method tbl ops fuel e (cmap f c) = option_map (rmap f) (eval_method tbl ops fuel e c).
Proof.
  intros K f tbl ops Hr Htbl. rewrite forallb_forall in Htbl.
  (* the first two premises of the step lemma are the same at either fuel; what is left is the delegate's *)
  induction fuel as [|fuel IH]; intros e c He; apply eval_method_map_step; try exact (proj1 Hr);
    try (intros b _; apply (select_map K); [exact Hr | exact He]).
  - intros br fuel' e' c' _ _ Hfuel. discriminate Hfuel.
  - intros br fuel' e' c' _ _ [= <-] He'. apply IH. apply Htbl. exact He'.
Qed.

Definition absv (K : list const) (i : nat) (v : value) : value :=
  match v with
  | VConst c => if mem c K then VConst c else VOpaque i
  | VOpaque _ => VOpaque i
  end.
Fixpoint abs_vals (K : list const) (i : nat) (vs : list value) : list value :=
  match vs with [] => [] | v :: r => absv K i v :: abs_vals K (S i) r end.
Definition call_vals (c : call) : list value := cpos c ++ map snd (ckws c).
Definition abs_call (K : list const) (c : call) : call :=
  mkcall (abs_vals K 0 (cpos c))
         (combine (map fst (ckws c)) (abs_vals K (List.length (cpos c)) (map snd (ckws c)))).

(* concretisation: token i -> the i-th supplied value.  [absv] makes token i only where that value is not a
   guard constant; the VOpaque 0 of the other case is there for [respects K] alone *)
Definition conc (K : list const) (all : list value) (v : value) : value :=
  match v with
  | VConst c => VConst c
  | VOpaque i =>
    match nth i all (VOpaque 0) with
    | VConst c => if mem c K then VOpaque 0 else VConst c
    | w => w
    end
  end.

Lemma conc_respects : forall K all, respects K (conc K all).
Proof.
  intros K all. split; [intros c; reflexivity|].
  intros i C HC. simpl. destruct (nth i all (VOpaque 0)) as [c|j]; [|reflexivity].
  destruct (mem c K) eqn:Hm; [reflexivity|]. simpl.
  apply String.eqb_neq. intros ->. apply mem_false_not_In in Hm. contradiction.
Qed.

(* over the values [pre] already passed: token numbers are positions in the whole list *)
Lemma conc_abs_vals : forall K pre vs suf,
  map (conc K (pre ++ vs ++ suf)) (abs_vals K (List.length pre) vs) = vs.
Proof.
  intros K pre vs suf. revert pre. induction vs as [|v r IH]; intros pre; simpl; [reflexivity|].
  f_equal.
  - destruct v as [c|j]; simpl.
    + destruct (mem c K) eqn:Hm; simpl; [reflexivity|].
      rewrite app_nth2 by lia. rewrite Nat.sub_diag. simpl. rewrite Hm. reflexivity.
    + rewrite app_nth2 by lia. rewrite Nat.sub_diag. reflexivity.
  - specialize (IH (pre ++ [v])). rewrite app_length in IH. simpl in IH.
    rewrite Nat.add_1_r in IH. rewrite <- app_assoc in IH. simpl in IH. exact IH.
Qed.

Lemma kmap_combine : forall f ks vs, kmap f (combine ks vs) = combine ks (map f vs).
Proof.
  intros f ks. induction ks as [|k r IH]; intros vs; simpl; [reflexivity|].
  destruct vs; simpl; [reflexivity|]. rewrite IH. reflexivity.
Qed.

Lemma combine_fst_snd : forall (l : list (string * value)), combine (map fst l) (map snd l) = l.
Proof. induction l as [|[k v] r IH]; simpl; [reflexivity | rewrite IH; reflexivity]. Qed.

Lemma conc_abs_call : forall K c, cmap (conc K (call_vals c)) (abs_call K c) = c.
Proof.
  intros K [pos kws]. unfold cmap, abs_call, call_vals. simpl. f_equal.
  - exact (conc_abs_vals K [] pos (map snd kws)).
  - pose proof (conc_abs_vals K pos (map snd kws) []) as H. rewrite app_nil_r in H.
    rewrite kmap_combine, H. apply combine_fst_snd.
Qed.

Definition flag_of (K : list const) (v : value) : option const :=
  match v with VConst c => if mem c K then Some c else None | VOpaque _ => None end.

Lemma abs_vals_build : forall K i vs, abs_vals K i vs = build_vals i (map (flag_of K) vs).
Proof.
  intros K i vs. revert i. induction vs as [|v r IH]; intros i; simpl; [reflexivity|].
  rewrite IH. f_equal. destruct v as [c|j]; simpl; [|reflexivity]. destruct (mem c K); reflexivity.
Qed.

Lemma abs_call_build : forall K c,
  abs_call K c = build_call (List.length (cpos c)) (map fst (ckws c)) (map (flag_of K) (call_vals c)).
Proof.
  intros K c. unfold abs_call, build_call, call_vals. rewrite map_app.
  rewrite firstn_app, skipn_app. rewrite map_length. rewrite Nat.sub_diag. simpl.
  rewrite firstn_all2 by (rewrite map_length; lia).
  rewrite skipn_all2 by (rewrite map_length; lia).
  rewrite app_nil_r. simpl. rewrite !abs_vals_build. reflexivity.
Qed.

Lemma flag_of_nil : forall vs, map (flag_of []) vs = repeat None (List.length vs).
Proof. induction vs as [|v r IH]; simpl; [reflexivity|]. rewrite IH. destruct v; reflexivity. Qed.

Lemma in_all_lists : forall (A : Type) (xs : list A) (l : list A),
  (forall x, In x l -> In x xs) -> In l (all_lists xs (List.length l)).
Proof.
  intros A xs l. induction l as [|x r IH]; intros H; simpl; [left; reflexivity|].
  apply in_flat_map. exists x. split; [apply H; left; reflexivity|].
  apply in_map. apply IH. intros y Hy. apply H. right. exact Hy.
Qed.

Lemma in_lists_upto : forall (A : Type) (xs l : list A) k,
  (forall x, In x l -> In x xs) -> List.length l <= k -> In l (lists_upto xs k).
Proof.
  intros A xs l k H Hk. unfold lists_upto. apply in_flat_map. exists (List.length l). split.
  - apply in_seq. lia.
  - apply in_all_lists. exact H.
Qed.

Lemma npos_cons : forall p ps, npos (p :: ps) = (if is_poskw p then 1 else 0) + npos ps.
Proof. intros p ps. unfold npos. simpl. destruct (is_poskw p); reflexivity. Qed.

Lemma has_varpos_cons : forall p ps, has_varpos (p :: ps) = is_varpos p || has_varpos ps.
Proof. reflexivity. Qed.

Lemma bind_go_leftover : forall ps pos kws n va lo,
  bind_go ps pos kws = Some (n, va, lo) -> has_varpos ps = false ->
  lo = [] -> List.length pos <= npos ps.
Proof.
  induction ps as [|p ps IH]; intros pos kws n va lo H Hv Hlo.
  - simpl in H. inversion H; subst. simpl. lia.
  - rewrite has_varpos_cons in Hv. apply orb_false_iff in Hv. destruct Hv as [Hp Hv].
    rewrite npos_cons. simpl in H. unfold is_varpos in Hp. unfold is_poskw.
    destruct (pkind p); try discriminate.
    + destruct pos as [|v pos']; [simpl; lia|].
      destruct (mem (pname p) (map fst kws)); [discriminate|].
      destruct (bind_go ps pos' kws) as [[[n' va'] lo']|] eqn:E; [|discriminate].
      inversion H; subst. pose proof (IH _ _ _ _ _ E Hv eq_refl). simpl. lia.
    + destruct (from_kw p kws); [|discriminate].
      destruct (bind_go ps pos kws) as [[[n' va'] lo']|] eqn:E; [|discriminate].
      inversion H; subst. pose proof (IH _ _ _ _ _ E Hv eq_refl). simpl. lia.
Qed.

Lemma bind_some_shape : forall s c b, bind s c = Some b ->
  NoDup (map fst (ckws c)) /\ (forall k, In k (map fst (ckws c)) -> In k (kwnames s)) /\
  (has_varpos s = false -> List.length (cpos c) <= npos s).
Proof.
  intros s c b H. unfold bind in H.
  destruct (nodupb (map fst (ckws c)) && forallb (fun k => mem k (kwnames s)) (map fst (ckws c))) eqn:E;
    [|discriminate].
  apply andb_true_iff in E. destruct E as [E1 E2]. split; [apply nodupb_NoDup; exact E1|]. split.
  - intros k Hk. rewrite forallb_forall in E2. apply mem_In. apply E2. exact Hk.
  - intros Hv. destruct (bind_go s (cpos c) (ckws c)) as [[[n va] lo]|] eqn:G; [|discriminate].
    destruct lo; [|discriminate].
    exact (bind_go_leftover _ _ _ _ _ _ G Hv eq_refl).
Qed.

Lemma value_eqb_eq : forall a b, value_eqb a b = true -> a = b.
Proof.
  intros [x|i] [y|j]; simpl; intros H; try discriminate.
  - apply String.eqb_eq in H. subst. reflexivity.
  - apply Nat.eqb_eq in H. subst. reflexivity.
Qed.

Lemma leqb_eq : forall (A : Type) (eqb : A -> A -> bool),
  (forall a b, eqb a b = true -> a = b) -> forall l1 l2, leqb eqb l1 l2 = true -> l1 = l2.
Proof.
  intros A eqb He. induction l1 as [|x r IH]; intros [|y s]; simpl; intros H; try discriminate;
    [reflexivity|].
  apply andb_true_iff in H. destruct H as [H1 H2]. f_equal; [apply He; exact H1 | apply IH; exact H2].
Qed.

Lemma kv_eqb_eq : forall a b, kv_eqb a b = true -> a = b.
Proof.
  intros [k v] [k' v']. unfold kv_eqb. simpl. intros H. apply andb_true_iff in H. destruct H as [H1 H2].
  apply String.eqb_eq in H1. apply value_eqb_eq in H2. subst. reflexivity.
Qed.

Lemma result_eqb_eq : forall a b, result_eqb a b = true -> a = b.
Proof.
  intros [o [n v]] [o' [n' v']]. unfold result_eqb, benv_eqb. simpl. intros H.
  apply andb_true_iff in H. destruct H as [H1 H]. apply andb_true_iff in H. destruct H as [H2 H3].
  apply String.eqb_eq in H1. apply (leqb_eq _ _ kv_eqb_eq) in H2. apply (leqb_eq _ _ value_eqb_eq) in H3.
  subst. reflexivity.
Qed.

Lemma result_eqb_refl : forall r, result_eqb r r = true.
Proof.
  assert (V : forall v, value_eqb v v = true) by (intros [c|i]; simpl; [apply String.eqb_refl | apply Nat.eqb_refl]).
  assert (L : forall (A : Type) (eqb : A -> A -> bool), (forall a, eqb a a = true) -> forall l, leqb eqb l l = true).
  { intros A eqb He. induction l as [|a l IH]; simpl; [reflexivity | rewrite He; exact IH]. }
  intros [o [n v]]. unfold result_eqb, benv_eqb. simpl. rewrite String.eqb_refl, !L; auto.
  intros [k w]. unfold kv_eqb. simpl. rewrite String.eqb_refl. apply V.
Qed.

(* the method applies, for the call c, the operator application a direct call makes *)
Definition forwards (tbl : list entry) (ops : list opsig) (fuel : nat) (e : entry) (c : call) : Prop :=
  exists r, eval_method tbl ops fuel e c = Some r /\ direct ops (ename e) c = Some r.

Lemma shape_ok_forward : forall tbl ops fuel e c b,
  shape_ok tbl ops fuel e c = true -> bind (esig e) c = Some b ->
  forwards tbl ops fuel e c.
Proof.
  intros tbl ops fuel e c b H Hb. unfold forwards. unfold shape_ok in H. rewrite Hb in H.
  destruct (eval_method tbl ops fuel e c) as [r|]; [|discriminate].
  destruct (direct ops (ename e) c) as [r'|]; [|discriminate].
  apply result_eqb_eq in H. subst r'. exists r. split; reflexivity.
Qed.

Lemma shape_ok_map : forall f tbl ops fuel e c, fixes_consts f ->
  eval_method tbl ops fuel e (cmap f c) = option_map (rmap f) (eval_method tbl ops fuel e c) ->
  shape_ok tbl ops fuel e c = true -> shape_ok tbl ops fuel e (cmap f c) = true.
Proof.
  intros f tbl ops fuel e c Hf Hm. unfold shape_ok. rewrite bind_map, Hm, direct_map by exact Hf.
  destruct (bind (esig e) c); simpl; [|reflexivity].
  destruct (eval_method tbl ops fuel e c) as [r|]; [|discriminate].
  destruct (direct ops (ename e) c) as [r'|]; [|discriminate]. simpl.
  intros H. apply result_eqb_eq in H. subst r'. apply result_eqb_refl.
Qed.

Lemma call_vals_length : forall c,
  List.length (call_vals c) = List.length (cpos c) + List.length (map fst (ckws c)).
Proof. intros c. unfold call_vals. rewrite app_length, !map_length. reflexivity. Qed.

(* an accepted call forwards if its abstraction passes [shape_ok]; the all-opaque call of the
   same shape is then accepted too *)
Lemma abs_sound : forall tbl ops fuel K e c b,
  forallb (guards_in K) tbl = true -> guards_in K e = true -> bind (esig e) c = Some b ->
  let n := List.length (cpos c) in let l := map fst (ckws c) in
  (forall b0, bind (esig e) (build_call n l (repeat None (n + List.length l))) = Some b0 ->
     shape_ok tbl ops fuel e (build_call n l (map (flag_of K) (call_vals c))) = true) ->
  forwards tbl ops fuel e c.
Proof.
  intros tbl ops fuel K e c b Htbl He Hb n l H.
  pose proof (conc_abs_call [] c) as Hc0.
  rewrite abs_call_build, flag_of_nil, call_vals_length in Hc0. fold n l in Hc0.
  destruct (bind (esig e) (build_call n l (repeat None (n + List.length l)))) as [b0|] eqn:Hb0;
    [|rewrite <- Hc0, bind_map, Hb0 in Hb by exact (proj1 (conc_respects [] _)); discriminate].
  specialize (H b0 eq_refl).
  pose proof (conc_abs_call K c) as Hc. rewrite abs_call_build in Hc. fold n l in Hc.
  apply (shape_ok_forward _ _ _ _ _ b); [|exact Hb]. rewrite <- Hc.
  apply shape_ok_map; [exact (proj1 (conc_respects K _)) | | exact H].
  apply (eval_method_map K); auto using conc_respects.
Qed.

Lemma flags_in_opts : forall K c o, In o (map (flag_of K) (call_vals c)) -> In o (opts K).
Proof.
  intros K c o H. apply in_map_iff in H. destruct H as [[x|i] [<- _]]; simpl; [|left; reflexivity].
  destruct (mem x K) eqn:Hm; [|left; reflexivity]. right. apply in_map, mem_In. exact Hm.
Qed.

Lemma fin_sound_on : forall names tbl ops fuel K e,
  forallb (guards_in K) tbl = true -> guards_in K e = true ->
  entry_fin_ok_on names tbl ops fuel K e = true ->
  forall c b, bind (esig e) c = Some b -> List.length (cpos c) <= npos (esig e) ->
  (forall k, In k (map fst (ckws c)) -> In k names) ->
  forwards tbl ops fuel e c.
Proof.
  intros names tbl ops fuel K e Htbl He Hok c b Hb Hn Hin.
  apply (abs_sound tbl ops fuel K e c b Htbl He Hb). intros b0 Hb0.
  destruct (bind_some_shape _ _ _ Hb) as [Hnd _].
  unfold entry_fin_ok_on in Hok. rewrite forallb_forall in Hok.
  specialize (Hok (List.length (cpos c)) ltac:(apply in_seq; lia)). rewrite forallb_forall in Hok.
  assert (Hl : In (map fst (ckws c)) (lists_upto names (List.length names))).
  { (* distinct keywords drawn from names: no more of them than names *)
    apply in_lists_upto; [exact Hin|]. apply NoDup_incl_length; [exact Hnd | exact Hin]. }
  specialize (Hok _ Hl). rewrite Hb0, forallb_forall in Hok.
  apply Hok. rewrite <- call_vals_length, <- (map_length (flag_of K)). apply in_all_lists.
  apply flags_in_opts.
Qed.

Lemma fin_sound : forall tbl ops fuel K e,
  forallb (guards_in K) tbl = true -> guards_in K e = true ->
  entry_fin_ok tbl ops fuel K e = true ->
  forall c b, bind (esig e) c = Some b -> List.length (cpos c) <= npos (esig e) ->
  forwards tbl ops fuel e c.
Proof.
  intros tbl ops fuel K e Htbl He Hok c b Hb Hn.
  eapply fin_sound_on; eauto. exact (proj1 (proj2 (bind_some_shape _ _ _ Hb))).
Qed.

(* a thinner family for methods that do not delegate.
   A method whose branches all apply an operator looks at a supplied value only through its
   own guards.  For a given number of positionals and keyword list, the all-opaque call shows
   which supplied argument (token) each guarded parameter receives; only those arguments need
   to range over the guard constants, the others can stay opaque. *)

(* fills token i with the i-th entry of fl: [build_call n l fl] is the image of a less filled
   call under it ([build_call_fill]) *)
Definition fillv (fl : list (option const)) (v : value) : value :=
  match v with
  | VOpaque i => match nth i fl None with Some c => VConst c | None => v end
  | VConst _ => v
  end.

(* fl with the entries outside I (absolute positions, starting at i) blanked *)
Fixpoint keep (I : nat -> bool) (i : nat) (fl : list (option const)) : list (option const) :=
  match fl with [] => [] | o :: r => (if I i then o else None) :: keep I (S i) r end.

Fixpoint fills (K : list const) (I : nat -> bool) (i m : nat) : list (list (option const)) :=
  match m with
  | O => [[]]
  | S m' => flat_map (fun o => map (cons o) (fills K I (S i) m')) (if I i then opts K else [None])
  end.

(* token i sits, in the environment b bound from the all-opaque call, in a parameter that a
   guard of e tests *)
Definition inspected (e : entry) (b : benv) (i : nat) : bool :=
  existsb (fun br => existsb (fun g => match lookup (fst g) (bnamed b) with
                                       | Some (VOpaque j) => Nat.eqb j i
                                       | _ => false
                                       end) (bguards br)) (ebranches e).

Fixpoint subseqs {A : Type} (l : list A) : list (list A) :=
  match l with [] => [[]] | x :: r => map (cons x) (subseqs r) ++ subseqs r end.

(* [shape_ok] with the row's operator looked up beforehand: [shape_ok] is the instance
   [od := find_op ops (ename e)], by computation *)
Definition shape_at (tbl : list entry) (ops : list opsig) (fuel : nat) (e : entry) (od : option opsig)
           (c : call) : bool :=
  match bind (esig e) c with
  | None => true
  | Some _ =>
    match eval_method tbl ops fuel e c,
          match od with Some o => option_map (mkres (ocanon o)) (bind (osig o) c) | None => None end with
    | Some r, Some r' => result_eqb r r'
    | _, _ => false
    end
  end.

(* keyword lists in the order of [names] only ([subseqs]; [bind_kws_ext]), guard constants at inspected tokens only *)
Definition entry_fin_thin_on (names : list string) (tbl : list entry) (ops : list opsig) (fuel : nat)
           (K : list const) (e : entry) : bool :=
  let od := find_op ops (ename e) in
  forallb (fun n =>
    forallb (fun l =>
      match bind (esig e) (build_call n l (repeat None (n + List.length l))) with
      | None => true
      | Some b => forallb (fun fl => shape_at tbl ops fuel e od (build_call n l fl))
                          (fills K (inspected e b) 0 (n + List.length l))
      end)
      (subseqs names))
    (seq 0 (S (npos (esig e)))).

Lemma keep_none : forall i fl, keep (fun _ => false) i fl = repeat None (List.length fl).
Proof. intros i fl. revert i. induction fl as [|o r IH]; intros i; simpl; [|rewrite IH]; reflexivity. Qed.

Lemma keep_length : forall I i fl, List.length (keep I i fl) = List.length fl.
Proof. intros I i fl. revert i. induction fl as [|o r IH]; intros i; simpl; [|rewrite IH]; reflexivity. Qed.

Lemma nth_keep : forall I fl i j, I (i + j) = true -> nth j (keep I i fl) None = nth j fl None.
Proof.
  intros I. induction fl as [|o r IH]; intros i j H; [reflexivity|]. destruct j as [|j]; simpl.
  - rewrite Nat.add_0_r in H. rewrite H. reflexivity.
  - apply IH. rewrite Nat.add_succ_comm. exact H.
Qed.

Lemma keep_in_fills : forall K I fl i, (forall o, In o fl -> In o (opts K)) ->
  In (keep I i fl) (fills K I i (List.length fl)).
Proof.
  intros K I. induction fl as [|o r IH]; intros i H; simpl; [left; reflexivity|].
  apply in_flat_map. exists (if I i then o else None). split.
  - destruct (I i); [apply H | ]; left; reflexivity.
  - apply in_map. apply IH. intros o' Ho'. apply H. right. exact Ho'.
Qed.

Lemma all_lists_inv : forall (A : Type) (xs : list A) n l, In l (all_lists xs n) ->
  List.length l = n /\ forall x, In x l -> In x xs.
Proof.
  intros A xs. induction n as [|n IH]; simpl; intros l H.
  - destruct H as [<-|[]]. split; [reflexivity | intros x []].
  - apply in_flat_map in H. destruct H as [x [Hx H]]. apply in_map_iff in H. destruct H as [r [<- Hr]].
    destruct (IH _ Hr) as [Hl Hin]. split; [simpl; rewrite Hl; reflexivity|].
    intros y [<-|Hy]; [exact Hx | exact (Hin y Hy)].
Qed.

Lemma build_vals_fill : forall I fl pre,
  build_vals (List.length pre) fl
  = map (fillv (pre ++ fl)) (build_vals (List.length pre) (keep I (List.length pre) fl)).
Proof.
  intros I. induction fl as [|o r IH]; intros pre; simpl; [reflexivity|]. f_equal.
  - assert (N : nth (List.length pre) (pre ++ o :: r) None = o)
      by (rewrite app_nth2, Nat.sub_diag by lia; reflexivity).
    destruct (I (List.length pre)), o as [c|]; simpl; rewrite ?N; reflexivity.
  - specialize (IH (pre ++ [o])). rewrite app_length, Nat.add_1_r, <- app_assoc in IH. exact IH.
Qed.

Lemma build_vals_firstn : forall n i fl, build_vals i (firstn n fl) = firstn n (build_vals i fl).
Proof.
  induction n as [|n IH]; intros i [|o r]; simpl; try reflexivity. rewrite IH. reflexivity.
Qed.

Lemma build_vals_skipn : forall n i fl, build_vals (n + i) (skipn n fl) = skipn n (build_vals i fl).
Proof.
  induction n as [|n IH]; intros i [|o r]; simpl; try reflexivity.
  rewrite <- IH, Nat.add_succ_r. reflexivity.
Qed.

Lemma build_call_vals : forall n l fl,
  build_call n l fl = mkcall (firstn n (build_vals 0 fl)) (combine l (skipn n (build_vals 0 fl))).
Proof.
  intros n l fl. unfold build_call. rewrite build_vals_firstn, <- build_vals_skipn, Nat.add_0_r. reflexivity.
Qed.

Lemma build_call_fill : forall I n l fl,
  build_call n l fl = cmap (fillv fl) (build_call n l (keep I 0 fl)).
Proof.
  intros I n l fl. rewrite !build_call_vals. unfold cmap. simpl.
  rewrite kmap_combine, <- firstn_map, <- skipn_map. rewrite (build_vals_fill I fl []) at 1 2. reflexivity.
Qed.

Lemma thin_row : forall tbl ops fuel K e n l m b0 fl,
  forallb is_fop (ebranches e) = true ->
  bind (esig e) (build_call n l (repeat None m)) = Some b0 ->
  forallb (fun fl => shape_ok tbl ops fuel e (build_call n l fl)) (fills K (inspected e b0) 0 m) = true ->
  List.length fl = m -> (forall o, In o fl -> In o (opts K)) ->
  shape_ok tbl ops fuel e (build_call n l fl) = true.
Proof.
  intros tbl ops fuel K e n l m b0 fl Hfop Hb0 H Hlen Hopts. rewrite forallb_forall in H.
  set (I := inspected e b0) in *. set (fl' := keep I 0 fl).
  assert (Hb : bind (esig e) (build_call n l fl') = Some (emap (fillv fl') b0)).
  { rewrite (build_call_fill (fun _ => false)), keep_none. unfold fl'. rewrite keep_length, Hlen.
    rewrite bind_map, Hb0 by (intros c; reflexivity). reflexivity. }
  rewrite (build_call_fill I). fold fl'. apply shape_ok_map; [intros c; reflexivity | |].
  - apply eval_method_map_step; [intros c; reflexivity | |].
    + (* a guarded parameter holds a constant or a token that fl' has filled like fl *)
      intros b Hb'. rewrite Hb in Hb'. injection Hb' as <-.
      apply select_ext. intros br g Hbr Hg. apply guard_holds_emap. simpl. intros v.
      rewrite lookup_kmap. destruct (lookup (fst g) (bnamed b0)) as [[c|j]|] eqn:Hlk; simpl; try discriminate.
      * intros [= <-]. reflexivity.
      * intros [= <-]. assert (HI : I j = true).
        { unfold I, inspected. apply existsb_exists. exists br. split; [exact Hbr|].
          apply existsb_exists. exists g. split; [exact Hg|]. rewrite Hlk. apply Nat.eqb_refl. }
        simpl. unfold fl'. rewrite (nth_keep I fl 0 j HI). destruct (nth j fl None) eqn:Hj; simpl; [|rewrite Hj]; reflexivity.
    + intros br fuel' e' c' Hbr Hf. rewrite forallb_forall in Hfop. rewrite (Hfop br Hbr) in Hf. discriminate.
  - apply H. unfold fl'. rewrite <- Hlen. apply keep_in_fills. exact Hopts.
Qed.

Definition sort_kws (names : list string) (kws : list (string * value)) : list (string * value) :=
  flat_map (fun k => match lookup k kws with Some v => [(k, v)] | None => [] end) names.

Lemma sort_kws_keys : forall names kws,
  map fst (sort_kws names kws) = filter (fun k => mem k (map fst kws)) names.
Proof.
  intros names kws. induction names as [|x r IH]; simpl; [reflexivity|].
  rewrite mem_fst_lookup. destruct (lookup x kws); simpl; rewrite IH; reflexivity.
Qed.

Lemma lookup_sort_kws : forall names kws k,
  lookup k (sort_kws names kws) = if mem k names then lookup k kws else None.
Proof.
  intros names kws k. unfold mem. induction names as [|x r IH]; simpl; [reflexivity|].
  destruct (String.eqb k x) eqn:E; simpl.
  - apply String.eqb_eq in E. subst x. destruct (lookup k kws) as [v|] eqn:L; simpl.
    + rewrite String.eqb_refl. reflexivity.
    + rewrite IH. destruct (existsb (String.eqb k) r); reflexivity.
  - destruct (lookup x kws); simpl; [rewrite E|]; exact IH.
Qed.

Lemma filter_in_subseqs : forall (A : Type) (p : A -> bool) l, In (filter p l) (subseqs l).
Proof.
  intros A p l. induction l as [|x r IH]; simpl; [left; reflexivity|]. apply in_or_app.
  destruct (p x); [left; apply in_map; exact IH | right; exact IH].
Qed.

Lemma nodupb_filter : forall p l, nodupb l = true -> nodupb (filter p l) = true.
Proof.
  intros p. induction l as [|x r IH]; simpl; intros H; [reflexivity|].
  apply andb_true_iff in H. destruct H as [H1 H2]. destruct (p x); simpl; [|auto].
  rewrite (IH H2), andb_true_r. apply negb_true_iff in H1. apply negb_true_iff.
  destruct (mem x (filter p r)) eqn:M; [|reflexivity].
  apply mem_In, filter_In in M. destruct M as [M _]. apply mem_In in M. congruence.
Qed.

Lemma fin_thin_sound : forall names tbl ops fuel K e,
  forallb (guards_in K) tbl = true -> guards_in K e = true ->
  forallb is_fop (ebranches e) = true -> nodupb names = true ->
  entry_fin_thin_on names tbl ops fuel K e = true ->
  forall c b, bind (esig e) c = Some b -> List.length (cpos c) <= npos (esig e) ->
  (forall k, In k (map fst (ckws c)) -> In k names) ->
  forwards tbl ops fuel e c.
Proof.
  intros names tbl ops fuel K e Htbl He Hfop Hnd Hok [pos kws] b Hb Hn Hin. simpl in Hn, Hin.
  (* the same call with its keywords in the order of [names] binds alike under every signature (Hext), and
     its abstraction is in the thinner family *)
  set (kws' := sort_kws names kws).
  assert (Hkeys : map fst kws' = filter (fun k => mem k (map fst kws)) names) by apply sort_kws_keys.
  assert (Hext : forall s, bind s (mkcall pos kws) = bind s (mkcall pos kws')).
  { intros s. apply bind_kws_ext.
    - rewrite Hkeys, (nodupb_filter _ _ Hnd). unfold bind in Hb. simpl in Hb.
      destruct (nodupb (map fst kws)); [reflexivity | discriminate].
    - intros k. unfold kws'. rewrite lookup_sort_kws. destruct (mem k names) eqn:M; [reflexivity|].
      destruct (lookup k kws) eqn:L; [|reflexivity]. exfalso.
      apply mem_false_not_In in M. apply M, Hin, keys_lookup. congruence. }
  destruct (forward_bind_ext tbl ops fuel e _ _ Hext) as [Em Ed]. unfold forwards. rewrite Em, Ed.
  rewrite Hext in Hb.
  apply (abs_sound tbl ops fuel K e _ b Htbl He Hb). simpl. intros b0 Hb0.
  unfold entry_fin_thin_on in Hok. cbv zeta in Hok. rewrite forallb_forall in Hok.
  specialize (Hok (List.length pos) ltac:(apply in_seq; lia)). rewrite forallb_forall in Hok.
  assert (Hl : In (map fst kws') (subseqs names)) by (rewrite Hkeys; apply filter_in_subseqs).
  specialize (Hok _ Hl). rewrite Hb0 in Hok.
  (* Hok is over [shape_at] at the operator looked up: convertible to the [shape_ok] that thin_row asks for *)
  apply (thin_row _ _ _ K _ _ _ _ b0 _ Hfop Hb0 Hok); [|apply flags_in_opts].
  rewrite map_length. apply (call_vals_length (mkcall pos kws')).
Qed.

Lemma fin_complete_on : forall names tbl ops fuel K e,
  (forall c b, bind (esig e) c = Some b -> List.length (cpos c) <= npos (esig e) ->
     (forall k, In k (map fst (ckws c)) -> In k names) ->
     forwards tbl ops fuel e c) ->
  entry_fin_ok_on names tbl ops fuel K e = true.
Proof.
  intros names tbl ops fuel K e H. unfold entry_fin_ok_on.
  apply forallb_forall. intros n Hn. apply in_seq in Hn.
  apply forallb_forall. intros l Hl.
  destruct (bind (esig e) (build_call n l (repeat None (n + List.length l)))) as [b0|]; [|reflexivity].
  apply forallb_forall. intros fl _. unfold shape_ok.
  destruct (bind (esig e) (build_call n l fl)) as [b|] eqn:Hb; [|reflexivity].
  destruct (H _ _ Hb) as [r [Em Ed]].
  - rewrite build_call_vals. simpl. rewrite firstn_length. lia.
  - intros k Hk. apply in_map_iff in Hk. destruct Hk as [[k' v] [<- Hk]]. apply in_combine_l in Hk.
    unfold lists_upto in Hl. apply in_flat_map in Hl. destruct Hl as [j [_ Hl]].
    exact (proj2 (all_lists_inv _ _ _ _ Hl) _ Hk).
  - rewrite Em, Ed. apply result_eqb_refl.
Qed.

(* [entry_ok] with the thinner family wherever it applies *)
Definition entry_ok_thin (tbl : list entry) (ops : list opsig) (fuel : nat) (K : list const) (e : entry) : bool :=
  guards_in K e
  && (if forallb is_fop (ebranches e)
      then nodupb (kwnames (esig e)) && entry_fin_thin_on (kwnames (esig e)) tbl ops fuel K e
      else entry_fin_ok tbl ops fuel K e)
  && (if has_varpos (esig e) then varpos_ok ops e else true).

Lemma entry_ok_thin_full : forall tbl ops fuel K e, forallb (guards_in K) tbl = true ->
  entry_ok_thin tbl ops fuel K e = true -> entry_ok tbl ops fuel K e = true.
Proof.
  intros tbl ops fuel K e Htbl. unfold entry_ok_thin, entry_ok, entry_fin_ok.
  destruct (forallb is_fop (ebranches e)) eqn:Hfop; [|exact (fun H => H)].
  intros H. apply andb_true_iff in H. destruct H as [H Hvp]. apply andb_true_iff in H. destruct H as [Hg H].
  apply andb_true_iff in H. destruct H as [Hnd H]. rewrite Hg, Hvp, andb_true_r. simpl.
  apply fin_complete_on. intros c b Hb Hn Hin.
  exact (fin_thin_sound _ _ _ _ _ _ Htbl Hg Hfop Hnd H c b Hb Hn Hin).
Qed.

Theorem positional_sound : forall tbl ops fuel K e,
  forallb (guards_in K) tbl = true -> entry_pos_ok tbl ops fuel K e = true ->
  has_varpos (esig e) = false ->
  forall c b, ckws c = [] -> bind (esig e) c = Some b ->
  forwards tbl ops fuel e c.
Proof.
  intros tbl ops fuel K e Htbl Hok Hv c b Hk Hb.
  unfold entry_pos_ok in Hok. apply andb_true_iff in Hok. destruct Hok as [Hg Hfin].
  eapply fin_sound_on; eauto.
  - exact (proj2 (proj2 (bind_some_shape _ _ _ Hb)) Hv).
  - rewrite Hk. simpl. tauto.
Qed.

Lemma bind_go_extra : forall ps pos kws extra,
  has_varpos ps = true -> npos ps <= List.length pos ->
  bind_go ps (pos ++ extra) kws =
  option_map (fun t => let '(n, va, lo) := t in (n, va ++ extra, lo)) (bind_go ps pos kws).
Proof.
  induction ps as [|p ps IH]; intros pos kws extra Hv Hn; [discriminate|].
  rewrite has_varpos_cons in Hv. rewrite npos_cons in Hn. simpl.
  unfold is_varpos in Hv. unfold is_poskw in Hn.
  destruct (pkind p); simpl in *.
  - destruct pos as [|v pos']; simpl in *; [lia|].
    destruct (mem (pname p) (map fst kws)); [reflexivity|].
    rewrite IH by (auto; lia). destruct (bind_go ps pos' kws) as [[[n va] lo]|]; reflexivity.
  - destruct (bind_go ps [] kws) as [[[n va] lo]|]; reflexivity.
  - destruct (from_kw p kws); [|reflexivity].
    rewrite IH by (auto; lia). destruct (bind_go ps pos kws) as [[[n va] lo]|]; reflexivity.
Qed.

Lemma bind_extra : forall s pos kws extra,
  has_varpos s = true -> npos s <= List.length pos ->
  bind s (mkcall (pos ++ extra) kws) = option_map (add_extra extra) (bind s (mkcall pos kws)).
Proof.
  intros s pos kws extra Hv Hn. unfold bind. simpl.
  destruct (nodupb (map fst kws) && forallb (fun k => mem k (kwnames s)) (map fst kws)); [|reflexivity].
  rewrite bind_go_extra by assumption.
  destruct (bind_go s pos kws) as [[[n va] lo]|]; simpl; [|reflexivity].
  destruct lo; reflexivity.
Qed.

Lemma eval_src_extra : forall extra b s, eval_src (add_extra extra b) s = eval_src b s.
Proof. intros extra b [k|c]; reflexivity. Qed.

Lemma eval_args_akw : forall ms b extra r c0,
  forallb is_akw r = true -> eval_args ms b r = Some c0 ->
  cpos c0 = [] /\ eval_args ms (add_extra extra b) r = Some c0.
Proof.
  intros ms b extra. induction r as [|a r IH]; intros c0 Hk H; simpl in *.
  - inversion H; subst. split; reflexivity.
  - apply andb_true_iff in Hk. destruct Hk as [Ha Hk].
    destruct a as [s|p|k s]; try discriminate.
    destruct (eval_args ms b r) as [c1|] eqn:E; [|discriminate].
    destruct (IH c1 Hk eq_refl) as [P Q]. rewrite Q.
    rewrite eval_src_extra. destruct (eval_src b s); [|discriminate]. inversion H; subst. simpl. split; [exact P | reflexivity].
Qed.

Lemma eval_args_extra : forall ms b extra args k c',
  star_ok ms k args = true -> eval_args ms b args = Some c' ->
  eval_args ms (add_extra extra b) args = Some (mkcall (cpos c' ++ extra) (ckws c'))
  /\ k <= List.length (cpos c').
Proof.
  intros ms b extra. induction args as [|a r IH]; intros k c' Hs H; [discriminate|].
  simpl in Hs. destruct a as [s|p|kk s]; [| |discriminate].
  - simpl in H. destruct (eval_args ms b r) as [c0|] eqn:E; [|discriminate].
    destruct (IH _ _ Hs eq_refl) as [P Q]. simpl. rewrite P.
    rewrite eval_src_extra. destruct (eval_src b s); [|discriminate]. inversion H; subst. simpl. split; [reflexivity | lia].
  - apply andb_true_iff in Hs. destruct Hs as [Hs Hk]. apply andb_true_iff in Hs. destruct Hs as [Hz Hp].
    apply Nat.eqb_eq in Hz. subst k. simpl in H. simpl.
    destruct (eval_args ms b r) as [c0|] eqn:E; [|discriminate].
    destruct (eval_args_akw ms b extra r c0 Hk E) as [P Q]. rewrite Q. rewrite Hp in *.
    inversion H; subst. simpl. rewrite P. rewrite !app_nil_r. split; [reflexivity | lia].
Qed.

Lemma direct_extra : forall ops n o pos kws extra,
  find_op ops n = Some o -> has_varpos (osig o) = true -> npos (osig o) <= List.length pos ->
  direct ops n (mkcall (pos ++ extra) kws) = option_map (radd_extra extra) (direct ops n (mkcall pos kws)).
Proof.
  intros ops n o pos kws extra Hf Hv Hn. unfold direct. rewrite Hf.
  rewrite bind_extra by assumption. destruct (bind (osig o) (mkcall pos kws)); reflexivity.
Qed.

Lemma varpos_sound : forall tbl ops fuel e pos kws extra r0,
  varpos_ok ops e = true -> has_varpos (esig e) = true -> npos (esig e) <= List.length pos ->
  eval_method tbl ops fuel e (mkcall pos kws) = Some r0 ->
  direct ops (ename e) (mkcall pos kws) = Some r0 ->
  eval_method tbl ops fuel e (mkcall (pos ++ extra) kws) = Some (radd_extra extra r0)
  /\ direct ops (ename e) (mkcall (pos ++ extra) kws) = Some (radd_extra extra r0).
Proof.
  intros tbl ops fuel e pos kws extra r0 Hok Hv Hn Em Ed.
  unfold varpos_ok in Hok. apply andb_true_iff in Hok. destruct Hok as [Hd Hbr].
  split.
  - rewrite eval_method_unfold in Em |- *. rewrite bind_extra by assumption.
    destruct (bind (esig e) (mkcall pos kws)) as [b0|]; [|discriminate]. simpl.
    (* guards read named parameters only: the extras do not change the branch *)
    change (select (ebranches e) (add_extra extra b0)) with (select (ebranches e) b0).
    destruct (select (ebranches e) b0) as [br|] eqn:Es; [|discriminate].
    apply select_In in Es. rewrite forallb_forall in Hbr. specialize (Hbr _ Es).
    destruct (bform br) as [n args|m args]; [|discriminate].
    destruct (find_op ops n) as [o'|] eqn:Fo; [|discriminate].
    apply andb_true_iff in Hbr. destruct Hbr as [Hv' Hs].
    destruct (eval_args (esig e) b0 args) as [c'|] eqn:Ea; [|discriminate].
    destruct (eval_args_extra _ _ extra _ _ _ Hs Ea) as [P Q]. rewrite P.
    destruct c' as [p' k']. simpl in *.
    rewrite (direct_extra ops n o') by assumption. rewrite Em. reflexivity.
  - destruct (find_op ops (ename e)) as [o|] eqn:Fo; [|discriminate].
    apply andb_true_iff in Hd. destruct Hd as [Hv' Hle]. apply Nat.leb_le in Hle.
    rewrite (direct_extra ops (ename e) o) by (auto; lia). rewrite Ed. reflexivity.
Qed.

Theorem forward_sound : forall tbl ops fuel K e,
  forallb (guards_in K) tbl = true ->
  entry_ok tbl ops fuel K e = true ->
  forall c b, bind (esig e) c = Some b ->
  exists r, eval_method tbl ops fuel e c = Some r /\ direct ops (ename e) c = Some r.
Proof.
  intros tbl ops fuel K e Htbl Hok c b Hb.
  unfold entry_ok in Hok. apply andb_true_iff in Hok. destruct Hok as [Hok Hvp].
  apply andb_true_iff in Hok. destruct Hok as [Hg Hfin].
  destruct (le_lt_dec (List.length (cpos c)) (npos (esig e))) as [Hle|Hgt].
  - eapply fin_sound; eauto.
  - destruct (has_varpos (esig e)) eqn:Hv.
    + (* the first npos positionals by the finite check, the rest carried along by varpos_sound *)
      destruct c as [pos kws]. simpl in Hgt.
      set (k := npos (esig e)) in *.
      rewrite <- (firstn_skipn k pos) in Hb |- *.
      assert (Hk : List.length (firstn k pos) = k) by (rewrite firstn_length; lia).
      rewrite bind_extra in Hb by (auto; fold k; lia).
      destruct (bind (esig e) (mkcall (firstn k pos) kws)) as [b0|] eqn:Hb0; [|discriminate].
      destruct (fin_sound tbl ops fuel K e Htbl Hg Hfin _ _ Hb0) as [r0 [Em Ed]]; [simpl; fold k; lia|].
      exists (radd_extra (skipn k pos) r0).
      apply varpos_sound; auto. fold k. lia.
    + destruct (bind_some_shape _ _ _ Hb) as [_ [_ Hn]]. specialize (Hn Hv). lia.
Qed.

(* exactness: identical signatures reject the same calls *)
Lemma sig_same_kwnames : forall s t, sig_same s t = true -> kwnames s = kwnames t.
Proof.
  unfold sig_same. induction s as [|p s IH]; intros [|q t] H; simpl in H; try discriminate; [reflexivity|].
  apply andb_true_iff in H. destruct H as [Hp H]. specialize (IH _ H).
  unfold kwnames in *. simpl. unfold param_same in Hp.
  apply andb_true_iff in Hp. destruct Hp as [Hp Hn]. apply andb_true_iff in Hp. destruct Hp as [Hk Hd].
  unfold is_varpos in *. destruct (pkind p), (pkind q); simpl in *; try discriminate;
    try (apply String.eqb_eq in Hn; rewrite Hn); rewrite IH; reflexivity.
Qed.

Lemma sig_same_bind_go : forall s t, sig_same s t = true ->
  forall pos kws, bind_go s pos kws = bind_go t pos kws.
Proof.
  unfold sig_same. induction s as [|p s IH]; intros [|q t] H pos kws; simpl in H; try discriminate;
    [reflexivity|].
  apply andb_true_iff in H. destruct H as [Hp H]. specialize (IH _ H).
  unfold param_same in Hp.
  apply andb_true_iff in Hp. destruct Hp as [Hp Hn]. apply andb_true_iff in Hp. destruct Hp as [Hk Hd].
  simpl. unfold is_varpos in Hn.
  assert (Hdef : pdef p = pdef q).
  { destruct (pdef p), (pdef q); simpl in Hd; try discriminate; [apply String.eqb_eq in Hd; subst|]; reflexivity. }
  destruct (pkind p), (pkind q); simpl in *; try discriminate.
  - apply String.eqb_eq in Hn. unfold from_kw. rewrite Hn, Hdef.
    destruct pos; rewrite !IH; reflexivity.
  - rewrite !IH. reflexivity.
  - apply String.eqb_eq in Hn. unfold from_kw. rewrite Hn, Hdef. rewrite !IH. reflexivity.
Qed.

Lemma sig_same_bind : forall s t c, sig_same s t = true -> bind s c = bind t c.
Proof.
  intros s t c H. unfold bind. rewrite (sig_same_kwnames _ _ H). rewrite (sig_same_bind_go _ _ H). reflexivity.
Qed.

Theorem exact_sound : forall tbl ops fuel K e,
  forallb (guards_in K) tbl = true ->
  entry_ok tbl ops fuel K e = true -> entry_sig_same ops e = true ->
  forall c, eval_method tbl ops fuel e c = direct ops (ename e) c.
Proof.
  intros tbl ops fuel K e Htbl Hok Hs c.
  destruct (bind (esig e) c) as [b|] eqn:Hb.
  - destruct (forward_sound _ _ _ _ _ Htbl Hok _ _ Hb) as [r [A B]]. congruence.
  - rewrite eval_method_unfold. rewrite Hb.
    unfold entry_sig_same in Hs. unfold direct.
    destruct (find_op ops (ename e)) as [o|]; [|reflexivity].
    rewrite <- (sig_same_bind _ _ c Hs). rewrite Hb. reflexivity.
Qed.

(* pass-through methods.
   Most methods have positional-or-keyword parameters only and one unguarded branch that hands
   them, in order, to the operator of the method's own name, whose signature is the method's.
   Such a method forwards every call, whatever the tables: its bound arguments, passed
   positionally, bind to themselves. *)
Fixpoint pass_args (args : list aexpr) (s : sig) : bool :=
  match args, s with
  | [], [] => true
  | APos (SParam k) :: r, p :: s' => String.eqb k (pname p) && is_poskw p && pass_args r s'
  | _, _ => false
  end.

Definition passthrough (ops : list opsig) (e : entry) : bool :=
  match ebranches e, find_op ops (ename e) with
  | [mkbr [] (FOp n args)], Some o =>
    String.eqb n (ename e) && sig_same (esig e) (osig o) && nodupb (map pname (esig e))
    && pass_args args (esig e)
  | _, _ => false
  end.

Lemma pass_args_spec : forall args s, pass_args args s = true ->
  args = map (fun p => APos (SParam (pname p))) s /\ forallb is_poskw s = true.
Proof.
  induction args as [|a r IH]; intros [|p s] H; simpl in H; try discriminate; [split; reflexivity| |].
  - destruct a as [[k|]| |]; discriminate.
  - destruct a as [[k|c]|k|k x]; try discriminate.
    apply andb_true_iff in H. destruct H as [H Hr]. apply andb_true_iff in H. destruct H as [Hk Hp].
    apply String.eqb_eq in Hk. subst k. destruct (IH _ Hr) as [-> Hs]. simpl. rewrite Hp, Hs. split; reflexivity.
Qed.

Lemma poskw_no_varpos : forall s, forallb is_poskw s = true -> has_varpos s = false.
Proof.
  induction s as [|p s IH]; simpl; intros H; [reflexivity|]. apply andb_true_iff in H. destruct H as [Hp Hs].
  rewrite (IH Hs). unfold is_poskw in Hp. unfold is_varpos. destruct (pkind p); try discriminate. reflexivity.
Qed.

(* positional-or-keyword parameters only: every parameter is bound by name, in order *)
Lemma bind_go_poskw : forall s pos kws n va lo, forallb is_poskw s = true ->
  bind_go s pos kws = Some (n, va, lo) -> map fst n = map pname s /\ va = [].
Proof.
  induction s as [|p s IH]; intros pos kws n va lo Hs H; simpl in *.
  - injection H as <- <- _. split; reflexivity.
  - apply andb_true_iff in Hs. destruct Hs as [Hp Hs]. unfold is_poskw in Hp.
    destruct (pkind p); try discriminate.
    destruct pos as [|v pos'];
      [destruct (from_kw p kws) as [v|]; [|discriminate]
      |destruct (mem (pname p) (map fst kws)); [discriminate|]];
      (destruct (bind_go s _ kws) as [[[n0 va0] lo0]|] eqn:E; [|discriminate]; injection H as <- <- _;
       destruct (IH _ _ _ _ _ Hs E) as [E1 ->]; simpl; rewrite E1; split; reflexivity).
Qed.

(* the values so bound, passed positionally, bind to the same environment *)
Lemma bind_go_vals : forall s n, forallb is_poskw s = true -> map fst n = map pname s ->
  bind_go s (map snd n) [] = Some (n, [], []).
Proof.
  induction s as [|p s IH]; intros [|[k v] n] Hs Hn; try discriminate; [reflexivity|].
  simpl in *. apply andb_true_iff in Hs. destruct Hs as [Hp Hs]. injection Hn as -> Hn.
  unfold is_poskw in Hp. destruct (pkind p); try discriminate. rewrite (IH n Hs Hn). reflexivity.
Qed.

Lemma lookup_nodup : forall (l : list (string * value)) k v, NoDup (map fst l) -> In (k, v) l -> lookup k l = Some v.
Proof.
  induction l as [|[k' v'] l IH]; intros k v Hnd Hin; simpl in *; [contradiction|]. destruct Hin as [E|Hin].
  - injection E as -> ->. rewrite String.eqb_refl. reflexivity.
  - inversion Hnd as [|? ? Hk Hnd']; subst. destruct (String.eqb k k') eqn:E; [|exact (IH _ _ Hnd' Hin)].
    apply String.eqb_eq in E. subst k'. exfalso. apply Hk. exact (in_map fst _ _ Hin).
Qed.

Lemma eval_args_names : forall ms b ks vs, map (fun k => lookup k (bnamed b)) ks = map Some vs ->
  eval_args ms b (map (fun k => APos (SParam k)) ks) = Some (mkcall vs []).
Proof.
  induction ks as [|k ks IH]; intros [|v vs] H; try discriminate; [reflexivity|].
  simpl in *. injection H as Hk H. rewrite (IH vs H), Hk. reflexivity.
Qed.

Theorem passthrough_sound : forall tbl ops fuel e, passthrough ops e = true ->
  forall c b, bind (esig e) c = Some b ->
  forwards tbl ops fuel e c.
Proof.
  intros tbl ops fuel e H c b Hb. unfold passthrough in H.
  destruct (ebranches e) as [|[[|] [n args|]] [|]] eqn:Hbr; try discriminate.
  destruct (find_op ops (ename e)) as [o|] eqn:Ho; [|discriminate].
  apply andb_true_iff in H. destruct H as [H Hpa]. apply andb_true_iff in H. destruct H as [H Hnd].
  apply andb_true_iff in H. destruct H as [Hn Hs]. apply String.eqb_eq in Hn. subst n.
  apply pass_args_spec in Hpa. destruct Hpa as [-> Hpk]. apply nodupb_NoDup in Hnd.
  (* the operator's side: its signature binds like the method's *)
  unfold forwards. rewrite eval_method_unfold, Hb, Hbr. unfold direct. rewrite Ho, <- !(sig_same_bind _ _ _ Hs), Hb. simpl.
  (* the method's side: the arguments it passes are the bound values in signature order *)
  unfold bind in Hb. destruct (_ && _); [|discriminate].
  destruct (bind_go (esig e) (cpos c) (ckws c)) as [[[nm va] [|]]|] eqn:G; try discriminate. injection Hb as <-.
  destruct (bind_go_poskw _ _ _ _ _ _ Hpk G) as [Hnm ->]. rewrite <- Hnm in Hnd.
  rewrite <- (map_map pname (fun k => APos (SParam k))), <- Hnm, (eval_args_names _ _ _ (map snd nm)).
  - rewrite Ho, <- (sig_same_bind _ _ _ Hs). unfold bind. simpl. rewrite (bind_go_vals _ _ Hpk Hnm).
    eexists. split; reflexivity.
  - rewrite !map_map. apply map_ext_in. intros [k v] Hin. exact (lookup_nodup _ _ _ Hnd Hin).
Qed.

Lemma passthrough_ok : forall tbl ops fuel K e, passthrough ops e = true -> entry_ok tbl ops fuel K e = true.
Proof.
  intros tbl ops fuel K e H. pose proof (passthrough_sound tbl ops fuel e H) as Hf. unfold passthrough in H.
  destruct (ebranches e) as [|[[|] [n args|]] [|]] eqn:Hbr; try discriminate.
  destruct (find_op ops (ename e)) as [o|]; [|discriminate].
  apply andb_true_iff in H. destruct H as [_ Hpa]. apply pass_args_spec in Hpa.
  unfold entry_ok, guards_in, entry_fin_ok. rewrite Hbr, (poskw_no_varpos _ (proj2 Hpa)), andb_true_r. simpl.
  apply fin_complete_on. intros c b Hb _ _. exact (Hf c b Hb).
Qed.
