(* C10: catch over a list of sources, closed form in the sequential environment
   (source k+1 is consumed only after source k failed): the output is the
   elements of the consumed sources up to the first one that completes
   (completion passed on), never terminates, or is the last one (its error is
   passed on). *)
From RxVerif Require Import Base.Prelude Ops.Machine Ops.MachineFacts Ops.Multi Ops.MultiFacts
  Ops.RunLemmas Ops.Combinators Ops.SequentialFacts.

Local Arguments Nat.ltb : simpl never.
Local Arguments Nat.leb : simpl never.

Section Catch.
Context {A : Type}.

Fixpoint catch_spec (srcs : list (list A * term)) : list (ev A) :=
  match srcs with
  | [] => [Done]
  | (xs, t) :: rest =>
      map Next xs ++ match t with
                     | TDone => [Done]
                     | TErr e => match rest with [] => [Err e] | _ :: _ => catch_spec rest end
                     | TNever => []
                     end
  end.

Lemma catch_from n (srcs : list (list A * term)) : forall cur last k,
  (cur + length srcs = n)%nat -> srcs <> [] ->
  emitted (fst (run_from (x_catch n) (cur, last) (RState [cur] [] false) k (seq_env_from cur srcs)))
  = catch_spec srcs.
Proof.
  induction srcs as [|[xs t] rest IH]; intros cur last k Hn Hne; [congruence|].
  cbn [seq_env_from catch_spec]. rewrite emitted_block by (intros now x; reflexivity). f_equal.
  destruct t as [|e|]; cbn [events map app]; rewrite ?emitted_run_cons.
  - (* completes: passed on, everything after is ignored *)
    rs. rewrite run_from_stopped by reflexivity. reflexivity.
  - (* fails: move on to the next source, or pass the error of the last one on *)
    rs.
    destruct (Nat.ltb_spec (S cur) n) as [Hlt|Hge]; rs.
    + destruct rest as [|s2 rest2]; [cbn in Hn; lia|].
      rewrite IH; [reflexivity|cbn in *; lia|discriminate].
    + destruct rest as [|s2 rest2]; [|cbn in Hn; lia].
      cbn. reflexivity.
  - rewrite seq_env_dropped by lia. reflexivity.
Qed.

Theorem catch_closed_form (srcs : list (list A * term)) :
  emitted (fst (run (x_catch (length srcs)) (seq_env_from 0 srcs))) = catch_spec srcs.
Proof.
  rewrite run_unfold. cbn [fst]. rewrite emitted_app.
  destruct srcs as [|s rest].
  - cbn. reflexivity.
  - unfold start_state, start_obs. cbn -[run_from seq_env_from catch_spec emitted].
    rewrite (catch_from (S (length rest)) (s :: rest) 0 None 1); [reflexivity|reflexivity|discriminate].
Qed.
End Catch.

(* on_error_resume_next continues on completion AND on error *)
Section Oern.
Context {A : Type}.

Fixpoint oern_spec (srcs : list (list A * term)) : list (ev A) :=
  match srcs with
  | [] => [Done]
  | (xs, t) :: rest =>
      map Next xs ++ match t with TNever => [] | _ => oern_spec rest end
  end.

Lemma oern_from n (srcs : list (list A * term)) : forall cur k,
  (cur + length srcs = n)%nat -> srcs <> [] ->
  emitted (fst (run_from (x_oern n) cur (RState [cur] [] false) k (seq_env_from cur srcs)))
  = oern_spec srcs.
Proof.
  induction srcs as [|[xs t] rest IH]; intros cur k Hn Hne; [congruence|].
  cbn [seq_env_from oern_spec]. rewrite emitted_block by (intros now x; reflexivity). f_equal.
  (* whichever way the source terminates: move on, or finish *)
  assert (T : forall e, is_terminal e = true ->
    emitted (fst (run_from (x_oern n) cur (RState [cur] [] false) (k + length xs)
                    ((0, ISrc cur e) :: seq_env_from (S cur) rest))) = oern_spec rest).
  { intros e He. rewrite emitted_run_cons.
    destruct e; [discriminate He| |]; rs; (destruct (Nat.ltb_spec (S cur) n) as [Hlt|Hge]; rs;
      [destruct rest as [|s2 rest2]; [cbn in Hn; lia|]; rewrite IH; [reflexivity|cbn in *; lia|discriminate]
      |destruct rest as [|s2 rest2]; [reflexivity|cbn in Hn; lia]]). }
  destruct t as [|e|]; cbn [events map app].
  - now apply T.
  - now apply T.
  - rewrite seq_env_dropped by lia. reflexivity.
Qed.

Theorem oern_closed_form (srcs : list (list A * term)) :
  emitted (fst (run (x_oern (length srcs)) (seq_env_from 0 srcs))) = oern_spec srcs.
Proof.
  rewrite run_unfold. cbn [fst]. rewrite emitted_app.
  destruct srcs as [|s rest].
  - cbn. reflexivity.
  - unfold start_state, start_obs. cbn -[run_from seq_env_from oern_spec emitted].
    rewrite (oern_from (S (length rest)) (s :: rest) 0 1); [reflexivity|reflexivity|discriminate].
Qed.
End Oern.
