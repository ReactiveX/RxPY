(* C18: buffer_with_time in the closed world of Ops/WinSim.v (exact timers; at equal instants the
   source goes first).  (a) the simulation equals a walk over the timeline that carries the edge
   counters and the open buffers, for EVERY event sequence on the source port and every horizon;
   (b) on sorted conforming timelines that terminate: buffer k is the list of the elements whose
   instant t satisfies  k*shift < t - t0 <= k*shift + span  (buffer 0: 0 <= t - t0 <= span);
   buffers are emitted in the order of k, buffer k at its closing edge t0 + k*shift + span if that
   is strictly before the source's completion, the still open ones at the completion (empty ones
   included), then Done; a failing source emits only the buffers closed before, then the error. *)
From RxVerif Require Import Base.Prelude Ops.Machine Ops.MultiFacts Ops.MultiWin Ops.Windows Ops.WindowCountFacts
  Ops.WindowFacts Ops.BufferFacts Ops.BufferCountFacts Ops.WinSim Ops.WindowTimeSim.
From RxVerif Require Ops.TimedSim.

Local Arguments Z.of_nat : simpl never.
Local Arguments Z.mul : simpl never.
Local Arguments Z.add : simpl never.
Local Arguments Z.sub : simpl never.
Local Arguments Z.min : simpl never.
Local Arguments Z.div : simpl never.
Local Arguments Multi.mem : simpl never.
Local Arguments Multi.remove : simpl never.

Section BufferTime.
Context {A : Type}.
Variables span shift t0 : Z.
Hypothesis Hspan : 0 < span.
Hypothesis Hshift : 0 < shift.
Notation MW := (x_window_time (A:=A) (B:=unit) span shift).
Notation MB := (x_buffer_time (A:=A) span shift).
Notation due := (e_due span shift).
Notation a' := (e_a' span shift).
Notation b' := (e_b' span shift).
Notation bc := (buf_cmds (A:=A) (B0:=unit)).

Definition bt_rstate (tg : nat) : rstate A := RState [0%nat] [tg] true [] [] [] false.
Definition bt_dead_rstate : rstate A := RState [] [] false [] [] [] true.

(* the open buffers after the timer fired: a shift edge opens buffer a+1, a span edge closes (and
   emits) the oldest *)
Definition bt_open1 (a b : nat) (open : list (nat * list A)) : list (nat * list A) :=
  if e_shift span shift a b then open ++ [(S a, [])] else open.
Definition bt_open' (a b : nat) (open : list (nat * list A)) : list (nat * list A) :=
  if e_span span shift a b then tl (bt_open1 a b open) else bt_open1 a b open.
Definition bt_tick_obs (a b tg : nat) (open : list (nat * list A)) : list (obs A (list A)) :=
  (if e_span span shift a b
   then match bt_open1 a b open with (_, c) :: _ => [OEmit (Next c)] | [] => [] end else [])
  ++ [OTimer (S tg) (due (a' a b) (b' a b) - due a b)].

Definition bt_dead (es : list (Z * ev A)) : list (Z * inp A * list (obs A (list A))) :=
  map (fun te => (fst te, ISrc 0%nat (snd te), [])) es.

Fixpoint bt_walk (fuel : nat) (a b tg : nat) (open : list (nat * list A)) (es : list (Z * ev A))
  : list (Z * inp A * list (obs A (list A))) :=
  match fuel with
  | O => []
  | S f =>
      let tick := (t0 + due a b, ITick tg, bt_tick_obs a b tg open)
                  :: bt_walk f (a' a b) (b' a b) (S tg) (bt_open' a b open) es in
      match es with
      | [] => tick
      | (t, e) :: rest =>
          if t <=? t0 + due a b then
            match e with
            | Next x => (t, ISrc 0%nat (Next x), [])
                        :: bt_walk f a b tg (map (fun kb => (fst kb, snd kb ++ [x])) open) rest
            | Done => (t, ISrc 0%nat Done,
                       map (fun kb => OEmit (Next (snd kb))) open ++ [OEmit Done; OUnsub 0%nat; OCancel tg])
                      :: bt_dead (firstn f rest)
            | Err z => (t, ISrc 0%nat (Err z), [OEmit (Err z); OUnsub 0%nat; OCancel tg]) :: bt_dead (firstn f rest)
            end
          else tick
      end
  end.

Lemma okeys_cons_inv (open : list (nat * list A)) b len : okeys open = seq b (S len) ->
  exists c rest, open = (b, c) :: rest /\ okeys rest = seq (S b) len.
Proof.
  destruct open as [|[g c] rest]; [discriminate|]. cbn [okeys map fst seq]. intros H. injection H as -> H.
  exists c, rest. auto.
Qed.

(* flat_map(to_list) at an edge *)
Lemma bt_tick_cmds a b open tg d : (b <= S a)%nat -> okeys open = seq b (S a - b) ->
  bc true open false ((if e_shift span shift a b then [CHand (S a) 0] else [])
                      ++ (if e_span span shift a b then [CWin b Done] else []) ++ [CTimer tg d])
  = (bt_open' a b open,
     (if e_span span shift a b
      then match bt_open1 a b open with (_, c) :: _ => [CEmit c] | [] => [] end else []) ++ [CTimer tg d], Cont)
  /\ okeys (bt_open' a b open) = seq (b' a b) (S (a' a b) - b' a b).
Proof.
  intros Hba Hk. pose proof (e_span_true span shift Hspan Hshift a b) as Hsp_b.
  unfold bt_open', bt_open1, e_a', e_b'.
  destruct (e_shift span shift a b) eqn:Es; destruct (e_span span shift a b) eqn:Ep.
  - specialize (Hsp_b eq_refl). destruct (S a - b)%nat as [|len] eqn:El; [lia|].
    destruct (okeys_cons_inv open b len Hk) as (c & rest & -> & Hr).
    cbn [app buf_cmds buf_get buf_del]. rewrite Nat.eqb_refl. split; [reflexivity|]. cbn [tl].
    rewrite okeys_app, Hr. cbn [okeys map fst]. change [S a] with (seq (S a) 1).
    replace (S a) with (S b + len)%nat at 1 by lia. rewrite <- seq_app. f_equal. lia.
  - split; [reflexivity|].
    rewrite okeys_app, Hk. cbn [okeys map fst]. change [S a] with (seq (S a) 1).
    replace (S a) with (b + (S a - b))%nat at 2 by lia. rewrite <- seq_app. f_equal. lia.
  - specialize (Hsp_b eq_refl). destruct (S a - b)%nat as [|len] eqn:El; [lia|].
    destruct (okeys_cons_inv open b len Hk) as (c & rest & -> & Hr).
    cbn [app buf_cmds buf_get buf_del]. rewrite Nat.eqb_refl. split; [reflexivity|]. cbn [tl].
    rewrite Hr. f_equal. lia.
  - destruct (e_some_edge span shift a b Es Ep).
Qed.

Lemma bt_tick_step s a b tg now open : wt_inv span shift s a b -> wt_ntag s = S tg ->
  okeys open = seq b (S a - b) ->
  rstep all_imm MB (BufSt s open false) (bt_rstate tg) now (ITick tg)
  = (BufSt (fst (wt_action (A:=A) (B:=unit) shift s)) (bt_open' a b open) false, bt_rstate (S tg),
     bt_tick_obs a b tg open)
  /\ okeys (bt_open' a b open) = seq (b' a b) (S (a' a b) - b' a b).
Proof.
  intros I Ht Hk. destruct (inv_flags span shift s a b I) as (Esh & Esp & Etot).
  destruct (wt_tick span shift Hspan Hshift (A:=A) (B:=unit) s a b I) as [_ Hcs]. cbn zeta in Hcs.
  rewrite Esh, Esp, Ht, Etot in Hcs.
  pose proof (fun d => bt_tick_cmds a b open (S tg) d (ti_ba _ _ _ _ _ I) Hk) as Hbc.
  split; [|exact (proj2 (Hbc 0))].  (* the second conjunct does not depend on the delay *)
  unfold rstep, bt_rstate. cbn [r_timers]. rewrite mem_self, remove_head. cbn iota.
  unfold deliver, x_buffer_time. rewrite x_step_buffered. cbn [b_inner b_open b_outer_done x_step x_window_time].
  destruct (wt_action (A:=A) (B:=unit) shift s) as [s' cs]. cbn [fst snd] in *. subst cs.
  rewrite (proj1 (Hbc _)). cbn [buf_finish]. unfold bt_tick_obs, e_a', e_b'.
  destruct (e_span span shift a b); [destruct (bt_open1 a b open) as [|[g c] r]|]; reflexivity.
Qed.

Lemma bt_next_step s a b tg now open (x : A) : wt_inv span shift s a b -> okeys open = seq b (S a - b) ->
  rstep all_imm MB (BufSt s open false) (bt_rstate tg) now (ISrc 0%nat (Next x))
  = (BufSt s (map (fun kb => (fst kb, snd kb ++ [x])) open) false, bt_rstate tg, []).
Proof.
  intros I Hk. unfold rstep, bt_rstate. cbn [r_live]. rewrite mem_self. cbn iota.
  unfold deliver, x_buffer_time. rewrite x_step_buffered. cbn [b_inner b_open b_outer_done x_step x_window_time].
  rewrite (ti_q _ _ _ _ _ I), <- Hk.
  rewrite bc_wins_next_all by (rewrite Hk; apply seq_NoDup). reflexivity.
Qed.

Lemma bt_done_step s a b tg now open : wt_inv span shift s a b -> okeys open = seq b (S a - b) ->
  rstep all_imm MB (BufSt s open false) (bt_rstate tg) now (ISrc 0%nat Done)
  = (BufSt s [] true, bt_dead_rstate,
     map (fun kb => OEmit (Next (snd kb))) open ++ [OEmit Done; OUnsub 0%nat; OCancel tg]).
Proof.
  intros I Hk. unfold rstep, bt_rstate. cbn [r_live]. rewrite mem_self. cbn iota.
  unfold deliver, x_buffer_time. rewrite x_step_buffered. cbn [b_inner b_open b_outer_done x_step x_window_time].
  rewrite (ti_q _ _ _ _ _ I), <- Hk, bc_wins_done by (rewrite Hk; apply seq_NoDup). cbn [orb andb]. rewrite filter_true.
  cbn [buf_finish]. rewrite apply_emits by reflexivity. rs.
  unfold end_outer, maybe_release. rs. rewrite mem_nil'. cbn [andb]. rewrite app_nil_r, map_map. reflexivity.
Qed.

Lemma bt_err_step s a b tg now open z : wt_inv span shift s a b -> okeys open = seq b (S a - b) ->
  exists st', rstep all_imm MB (BufSt s open false) (bt_rstate tg) now (ISrc 0%nat (Err z))
  = (st', bt_dead_rstate, [OEmit (Err z); OUnsub 0%nat; OCancel tg]).
Proof.
  intros I Hk. unfold rstep, bt_rstate. cbn [r_live]. rewrite mem_self. cbn iota.
  unfold deliver, x_buffer_time. rewrite x_step_buffered. cbn [b_inner b_open b_outer_done x_step x_window_time].
  rewrite (ti_q _ _ _ _ _ I), <- Hk.
  destruct open as [|[g c] t]; cbn [okeys map fst wins_all buf_cmds buf_get]; rewrite ?Nat.eqb_refl; cbn [buf_finish]; rs;
    unfold end_outer, maybe_release; rs; rewrite mem_nil'; cbn [andb app]; eexists; reflexivity.
Qed.

Lemma bt_sim : forall fuel s a b tg open (es : list (Z * ev A)), wt_inv span shift s a b -> wt_ntag s = S tg ->
  okeys open = seq b (S a - b) ->
  wsim all_imm MB fuel (BufSt s open false) (bt_rstate tg) [(tg, t0 + due a b)] (wext_of es)
  = bt_walk fuel a b tg open es.
Proof.
  induction fuel as [|f IH]; intros s a b tg open es I Ht Hk; [reflexivity|].
  rewrite wsim_one_timer. cbn [bt_walk].
  destruct (bt_tick_step s a b tg (t0 + due a b) open I Ht Hk) as (-> & Hk').
  destruct (wt_tick_step (A:=A) (B:=unit) span shift Hspan Hshift s a b tg (t0 + due a b) I Ht) as (_ & I' & Ht').
  rewrite (wupd_rearm tg _ (S tg) (t0 + due (a' a b) (b' a b))), (IH _ _ _ _ _ es I' Ht' Hk');
    [|unfold bt_tick_obs; destruct (e_span span shift a b); [destruct (bt_open1 a b open) as [|[g c] r]|];
      cbn [app wnew_timers flat_map]; f_equal; f_equal; lia|reflexivity|lia].
  destruct es as [|[t e] rest]; [reflexivity|]. destruct (t <=? t0 + due a b); [|reflexivity].
  destruct e as [x|z|].
  - rewrite (bt_next_step s a b tg t open x I Hk), wupd_keep by reflexivity. f_equal.
    apply IH; [assumption|assumption|]. unfold okeys in *. rewrite map_map. exact Hk.
  - destruct (bt_err_step s a b tg t open z I Hk) as [st' ->]. rewrite wupd_no_timers by reflexivity.
    f_equal. now apply wsim_deaf.
  - rewrite (bt_done_step s a b tg t open I Hk), wupd_no_timers by reflexivity. f_equal. now apply wsim_deaf.
Qed.

(* inside subscribe(): buffer 0 is open, the first timer scheduled, the source subscribed *)
Lemma bt_start : exists s0, wt_inv span shift s0 0 0 /\ wt_ntag s0 = 1%nat
  /\ x_start MB = (BufSt s0 [(0%nat, [])] false, [CTimer 0%nat (Z.min shift span); CSub 0%nat], Cont).
Proof.
  destruct (wt_start_inv span shift Hspan Hshift (A:=A) (B:=unit)) as [I0 Hc].
  assert (Hf : snd (x_start MW) = Cont) by reflexivity.
  assert (Hn : wt_ntag (fst (fst (x_start MW))) = 1%nat) by reflexivity.
  unfold x_buffer_time. rewrite x_start_buffered.
  destruct (x_start MW) as [[s0 cs] f]. cbn [fst snd] in *. subst cs f. now exists s0.
Qed.

(* C18 (a): the simulation is the walk, for every event sequence and every horizon *)
Theorem buffer_time_walk fuel (es : list (Z * ev A)) :
  wsimulate all_imm MB fuel t0 (wext_of es)
  = ([OTimer 0%nat (Z.min shift span); OSub 0%nat], bt_walk fuel 0 0 0 [(0%nat, [])] es).
Proof.
  destruct bt_start as (s0 & I0 & Hn & E). unfold wsimulate, start_obs, start_state. rewrite E.
  cbn [apply_cmds apply_cmd rstate0 r_outer r_live r_timers r_wsubs r_wterm r_handed r_released all_imm
       finish fst snd app].
  f_equal.
  assert (Eu : wupd (W:=A) (B:=list A) [] t0 [OTimer 0%nat (Z.min shift span); OSub 0%nat]
                 (RState [0%nat] [0%nat] true [] [] [] false) = [(0%nat, t0 + due 0 0)]).
  { unfold wupd. cbn [r_timers app wnew_timers flat_map filter fst]. rewrite mem_self. unfold e_due.
    repeat f_equal; lia. }
  rewrite Eu. apply (bt_sim fuel s0 0 0 0 [(0%nat, [])] es I0 Hn). reflexivity.
Qed.

Notation n_open := (WindowTimeSim.n_open shift).
Notation n_closed := (WindowTimeSim.n_closed span shift).

(* buffer k: the elements whose instant lies in k's interval, in order *)
Definition bt_buffer (k : nat) (tl : list (Z * A)) : list A := map snd (wt_contents span shift t0 k tl).

(* what is emitted from a state in which b span edges have fired, [pre k] being what buffer k holds already:
   a failing source (at T) emits the buffers closed before T; a completing one every buffer opened before T,
   each at its closing edge or at T *)
Definition bt_exp (e : ev A) (T : Z) (b : nat) (pre : nat -> list A) (tl : list (Z * A)) : list (Z * ev (list A)) :=
  match e with
  | Err z => map (fun k => (t0 + (span + Z.of_nat k * shift), Next (pre k ++ bt_buffer k tl)))
                 (seq b (n_closed (T - t0) - b)) ++ [(T, Err z)]
  | _ => map (fun k => (Z.min (t0 + (span + Z.of_nat k * shift)) T, Next (pre k ++ bt_buffer k tl)))
             (seq b (n_open (T - t0) - b)) ++ [(T, Done)]
  end.

Lemma wsim_emitted_cons t (i : inp A) (o : list (obs A (list A))) l :
  wsim_emitted ((t, i, o) :: l)
  = flat_map (fun x => match x with OEmit e => [(t, e)] | _ => [] end) o ++ wsim_emitted l.
Proof. reflexivity. Qed.

Lemma wsim_emitted_dead (es : list (Z * ev A)) : wsim_emitted (bt_dead es) = [].
Proof. induction es as [|[t e] r IH]; [reflexivity|]. cbn [bt_dead map]. rewrite wsim_emitted_cons. exact IH. Qed.

(* the open buffers b .. a with the contents [pre]; [forall k, a < k -> pre k = []] in the lemmas below: a buffer
   not yet opened holds nothing, so that a shift edge appends (a+1, pre (a+1)) = (a+1, []) *)
Definition popen (pre : nat -> list A) (a b : nat) : list (nat * list A) := map (fun k => (k, pre k)) (seq b (S a - b)).

Lemma bt_open'_pre pre a b : (b <= S a)%nat -> (forall k, (a < k)%nat -> pre k = []) ->
  bt_open' a b (popen pre a b) = popen pre (a' a b) (b' a b)
  /\ (e_span span shift a b = true ->
      match bt_open1 a b (popen pre a b) with (_, c) :: _ => c = pre b | [] => False end).
Proof.
  intros Hba Hpre. pose proof (e_span_true span shift Hspan Hshift a b) as Hsp_b.
  assert (E1 : bt_open1 a b (popen pre a b) = popen pre (a' a b) b).
  { unfold bt_open1, popen, e_a'. destruct (e_shift span shift a b); [|reflexivity].
    replace (S (S a) - b)%nat with ((S a - b) + 1)%nat by lia. rewrite seq_app, map_app. cbn [seq map].
    replace (b + (S a - b))%nat with (S a) by lia. rewrite (Hpre (S a)) by lia. reflexivity. }
  unfold bt_open'. rewrite E1. unfold e_b'. split.
  - destruct (e_span span shift a b) eqn:Ep; [|reflexivity]. specialize (Hsp_b eq_refl).
    unfold popen. assert (Ha' : (a <= a' a b)%nat) by (unfold e_a'; destruct (e_shift span shift a b); lia).
    destruct (S (a' a b) - b)%nat as [|len] eqn:El; [lia|]. cbn [seq map tl].
    replace (S (a' a b) - S b)%nat with len by lia. reflexivity.
  - intros Ep. specialize (Hsp_b Ep). unfold popen.
    assert (Ha' : (a <= a' a b)%nat) by (unfold e_a'; destruct (e_shift span shift a b); lia).
    destruct (S (a' a b) - b)%nat as [|len] eqn:El; [lia|]. cbn [seq map]. reflexivity.
Qed.

Lemma bt_buffer_cons k t x (tl : list (Z * A)) :
  bt_buffer k ((t, x) :: tl) = (if in_win span shift k (t - t0) then [x] else []) ++ bt_buffer k tl.
Proof.
  unfold bt_buffer, wt_contents. cbn [filter fst]. destruct (in_win span shift k (t - t0)); reflexivity.
Qed.

Notation sorted_from := TimedSim.sorted_from.

Lemma emitted_opens (T : Z) (open : list (nat * list A)) :
  flat_map (fun x : obs A (list A) => match x with OEmit e => [(T, e)] | _ => [] end)
           (map (fun kb => OEmit (Next (snd kb))) open)
  = map (fun kb => (T, Next (snd kb))) open.
Proof. induction open as [|kb l IH]; [reflexivity|]. cbn [map flat_map app]. now rewrite IH. Qed.

(* as [wt_outer_from]; at an element, [pre1] is [pre] with the element appended to the buffers whose interval
   contains its instant *)
Lemma bt_emitted_from tm T e : tm_ev tm = [(T, e)] -> forall fuel a b tg (tl : list (Z * A)) lb (pre : nat -> list A),
  (b <= S a)%nat -> fired span shift a b (lb - t0) -> sorted_from lb (wsrc tl tm) ->
  (forall k, (a < k)%nat -> pre k = []) ->
  (length tl + 1 + Z.to_nat (T - t0 + 1 - due a b) <= fuel)%nat ->
  wsim_emitted (bt_walk fuel a b tg (popen pre a b) (wsrc tl tm)) = bt_exp e T b pre tl.
Proof.
  intros Htm.
  assert (Het : is_terminal e = true) by (destruct tm; cbn in Htm; inversion Htm; reflexivity).
  induction fuel as [|f IH]; intros a b tg tl lb pre Hba Hfi Hso Hpre Hfu; [lia|].
  destruct (e_tick_progress span shift Hspan Hshift a b Hba) as (Hdue & Hba' & Ha' & Hb').
  destruct (bt_open'_pre pre a b Hba Hpre) as [Eop Ehd].
  (* the timer fires before every remaining event *)
  assert (Tick : Forall (fun te => t0 + due a b < fst te) (wsrc tl tm) ->
            wsim_emitted ((t0 + due a b, ITick tg, bt_tick_obs a b tg (popen pre a b))
                          :: bt_walk f (a' a b) (b' a b) (S tg) (bt_open' a b (popen pre a b)) (wsrc tl tm))
            = bt_exp e T b pre tl).
  { intros Hall. rewrite wsim_emitted_cons, Eop.
    destruct (tick_advance span shift t0 Hspan Hshift a b lb _ Hfi Hso Hall) as [Hfi' Hso'].
    destruct (wsrc_Forall (fun t => t0 + due a b < t) tl tm Hall) as [Htl HtT]. rewrite Htm in HtT.
    inversion HtT as [|? ? HT _]; subst. cbn [fst] in HT.
    assert (Hpre' : forall k, (a' a b < k)%nat -> pre k = []) by (intros k Hk; apply Hpre; lia).
    rewrite (IH (a' a b) (b' a b) (S tg) tl _ pre Hba' Hfi' Hso' Hpre') by lia.
    unfold bt_tick_obs, e_b'. destruct (e_span span shift a b) eqn:Ep; [|reflexivity].
    (* the closing edge of buffer b: nothing later belongs to it *)
    destruct (e_span_true span shift Hspan Hshift a b Ep) as [_ Ed]. rewrite Ed in Htl, HT. specialize (Ehd eq_refl).
    destruct (bt_open1 a b (popen pre a b)) as [|[g c] r]; [destruct Ehd|]. subst c.
    cbn [flat_map app].
    assert (Ebuf : bt_buffer b tl = []) by (unfold bt_buffer; now rewrite (wt_contents_after span shift t0 b tl Htl)).
    unfold bt_exp. destruct e as [y|z|]; [discriminate Het| |].
    - assert (Hbc : (b < n_closed (T - t0))%nat) by (apply (n_closed_spec span shift Hshift); lia).
      replace (n_closed (T - t0) - b)%nat with (S (n_closed (T - t0) - S b)) by lia. cbn [seq map app].
      rewrite Ebuf, app_nil_r, Ed. reflexivity.
    - assert (Hbo : (b < n_open (T - t0))%nat) by (apply (n_open_spec shift Hshift); right; lia).
      replace (n_open (T - t0) - b)%nat with (S (n_open (T - t0) - S b)) by lia. cbn [seq map app].
      rewrite Ebuf, app_nil_r, Ed. rewrite Z.min_l by lia. reflexivity. }
  cbn [bt_walk]. destruct tl as [|[t x] rest].
  - (* the terminal *)
    unfold wsrc at 1. cbn [map app]. rewrite Htm.
    assert (HlbT : lb <= T) by (unfold wsrc in Hso; rewrite Htm in Hso; cbn in Hso; tauto).
    destruct (T <=? t0 + due a b) eqn:El.
    + apply Z.leb_le in El.
      assert (Hf2 : fired span shift a b (T - t0)) by (eapply fired_mono; [exact Hfi|lia]).
      unfold bt_exp. destruct e as [y|z|]; [discriminate Het| |]; rewrite wsim_emitted_cons, wsim_emitted_dead, app_nil_r.
      * rewrite (n_closed_now span shift Hshift a b (T - t0) Hf2), Nat.sub_diag by lia. reflexivity.
      * rewrite (n_open_now span shift Hshift a b (T - t0) Hf2) by lia.
        rewrite flat_map_app, emitted_opens. cbn [flat_map app]. f_equal.
        unfold popen. rewrite !map_map. cbn [snd]. apply map_ext_in. intros k Hk. apply in_seq in Hk.
        unfold bt_buffer, wt_contents. cbn [filter map]. rewrite app_nil_r, Z.min_r; [reflexivity|].
        unfold e_due in El. nia.
    + apply Z.leb_gt in El. replace [(T, e)] with (wsrc (@nil (Z * A)) tm) by (unfold wsrc; now rewrite Htm).
      apply Tick. unfold wsrc. rewrite Htm. constructor; [cbn; lia|constructor].
  - (* an element *)
    change (wsrc ((t, x) :: rest) tm) with ((t, Next x) :: wsrc rest tm) in *.
    destruct Hso as [Hlt Hso].
    destruct (t <=? t0 + due a b) eqn:El.
    + apply Z.leb_le in El. rewrite wsim_emitted_cons. cbn [flat_map app].
      assert (Hf2 : fired span shift a b (t - t0)) by (eapply fired_mono; [exact Hfi|lia]).
      pose proof (fun k => in_win_iff span shift Hspan Hshift a b (t - t0) k Hba Hf2 ltac:(lia)) as Hiff.
      set (pre1 := fun k => if in_win span shift k (t - t0) then pre k ++ [x] else pre k).
      assert (Eo : map (fun kb : nat * list A => (fst kb, snd kb ++ [x])) (popen pre a b) = popen pre1 a b).
      { unfold popen. rewrite map_map. cbn [fst snd]. apply map_ext_in. intros k Hk.
        unfold pre1. rewrite (proj1 (Hiff k) Hk). reflexivity. }
      assert (Hpre1 : forall k, (a < k)%nat -> pre1 k = []).
      { intros k Hk. unfold pre1. destruct (in_win span shift k (t - t0)) eqn:Ei; [|apply Hpre; exact Hk].
        apply (Hiff k) in Ei. apply in_seq in Ei. lia. }
      rewrite Eo, (IH a b tg rest t pre1 Hba Hf2 Hso Hpre1) by (cbn [length] in Hfu; lia).
      unfold bt_exp. destruct e as [y|z|]; [discriminate Het| |]; f_equal; apply map_ext; intros k;
        rewrite bt_buffer_cons; unfold pre1; destruct (in_win span shift k (t - t0));
        cbn [app]; rewrite <- ?app_assoc; reflexivity.
    + apply Z.leb_gt in El. apply Tick.
      apply sorted_from_after; [lia|exact Hso].
Qed.

(* C18 (b): all buffers of a sorted conforming timeline that terminates *)
Theorem buffer_time_closed_form (tl : list (Z * A)) tm T e fuel : tm_ev tm = [(T, e)] ->
  sorted_from t0 (wsrc tl tm) -> (length tl + 1 + Z.to_nat (T - t0) <= fuel)%nat ->
  wsim_emitted (snd (wsimulate all_imm MB fuel t0 (wext_of (wsrc tl tm)))) = bt_exp e T 0 (fun _ => []) tl.
Proof.
  intros Htm Hso Hfu. rewrite buffer_time_walk. cbn [snd].
  change [(0%nat, @nil A)] with (popen (fun _ => @nil A) 0 0).
  apply (bt_emitted_from tm T e Htm fuel 0 0 0 tl t0 (fun _ => [])); [lia|apply fired0|exact Hso|reflexivity|].
  pose proof (e_due_pos span shift Hspan Hshift 0 0). lia.
Qed.
End BufferTime.
