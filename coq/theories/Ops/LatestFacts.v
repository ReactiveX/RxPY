(* C13: combine_latest, with_latest_from and (last section) fork_join against closed forms over whole
   delivery sequences; for the first two: every emitted tuple is the snapshot of the latest element
   of every source at that moment, and a tuple is emitted exactly at the
   deliveries at which every source has delivered something. *)
From RxVerif Require Import Base.Prelude Ops.Machine Ops.Multi Ops.RunLemmas Ops.Combinators Ops.CombineFacts.

Section Latest.
Context {A : Type}.

(* the last element source k delivered in `seen` *)
Definition latest (k : nat) (seen : list (nat * A)) : option A :=
  fold_left (fun acc p => if Nat.eqb (fst p) k then Some (snd p) else acc) seen None.

Definition snapshot (n : nat) (seen : list (nat * A)) : list (option A) :=
  map (fun j => latest j seen) (seq 0 n).

Definition is_some (v : option A) : bool := match v with Some _ => true | None => false end.
Definition full (vs : list (option A)) : bool := forallb is_some vs.
Definition strip (vs : list (option A)) : list A :=
  flat_map (fun v => match v with Some y => [y] | None => [] end) vs.

Lemma latest_snoc k seen k' x :
  latest k (seen ++ [(k', x)]) = if Nat.eqb k' k then Some x else latest k seen.
Proof. unfold latest. rewrite fold_left_app. reflexivity. Qed.

(* the latest elements of the sources f 0 .. f (n-1); [snapshot] is f = the identity,
   [child_snapshot] is f = S *)
Definition latests (f : nat -> nat) (n : nat) (seen : list (nat * A)) : list (option A) :=
  map (fun j => latest (f j) seen) (seq 0 n).

Lemma latests_length f n seen : length (latests f n seen) = n.
Proof. unfold latests. now rewrite map_length, seq_length. Qed.

Lemma latests_nth f n seen j : (j < n)%nat -> nth j (latests f n seen) None = latest (f j) seen.
Proof.
  intros Hj. rewrite (nth_indep _ None (latest (f 0%nat) seen)) by (rewrite latests_length; exact Hj).
  unfold latests. rewrite (map_nth (fun j => latest (f j) seen) (seq 0 n) 0%nat j). now rewrite seq_nth.
Qed.

Lemma latests_snoc f n seen k x : (forall i, f k = f i -> k = i) -> (k < n)%nat ->
  nth_set k (Some x) (latests f n seen) = latests f n (seen ++ [(f k, x)]).
Proof.
  intros Hinj Hk. apply (nth_ext _ _ None None).
  - now rewrite nth_set_length, !latests_length.
  - intros j Hj. rewrite nth_set_length, latests_length in Hj.
    rewrite nth_nth_set_cases by (now rewrite latests_length).
    rewrite !latests_nth by exact Hj. rewrite latest_snoc, (Nat.eqb_sym j k).
    destruct (Nat.eqb_spec k j) as [->|Hne]; [now rewrite Nat.eqb_refl|].
    destruct (Nat.eqb_spec (f k) (f j)) as [E|_]; [now apply Hinj in E|reflexivity].
Qed.

Lemma latests_nil f n : latests f n [] = repeat None n.
Proof. unfold latests. generalize 0%nat. induction n as [|m IH]; intros s; cbn; [reflexivity|]. f_equal. apply IH. Qed.

Lemma snapshot_length n seen : length (snapshot n seen) = n.
Proof. apply (latests_length (fun j => j)). Qed.

Lemma snapshot_nth n seen j : (j < n)%nat -> nth j (snapshot n seen) None = latest j seen.
Proof. apply (latests_nth (fun j => j)). Qed.

Lemma snapshot_snoc n seen k x : (k < n)%nat ->
  nth_set k (Some x) (snapshot n seen) = snapshot n (seen ++ [(k, x)]).
Proof. apply (latests_snoc (fun j => j)). auto. Qed.

Lemma snapshot_nil n : snapshot n [] = repeat None n.
Proof. apply (latests_nil (fun j => j)). Qed.

Lemma latest_some_mono k seen p : is_some (latest k seen) = true -> is_some (latest k (seen ++ [p])) = true.
Proof. destruct p as [k' x]. rewrite latest_snoc. destruct (Nat.eqb k' k); auto. Qed.

Lemma full_mono n seen p : full (snapshot n seen) = true -> full (snapshot n (seen ++ [p])) = true.
Proof.
  unfold full, snapshot. rewrite !forallb_forall. intros H v Hv.
  apply in_map_iff in Hv. destruct Hv as [j [<- Hj]].
  apply latest_some_mono. apply H. apply in_map_iff. now exists j.
Qed.

Lemma full_or_snoc n seen p :
  full (snapshot n seen) || full (snapshot n (seen ++ [p])) = full (snapshot n (seen ++ [p])).
Proof.
  destruct (full (snapshot n seen)) eqn:E; [|reflexivity]. cbn. symmetry. now apply full_mono.
Qed.

Fixpoint cl_spec (n : nat) (seen ins : list (nat * A)) : list (list A) :=
  match ins with
  | [] => []
  | p :: t =>
      let seen' := seen ++ [p] in
      (if full (snapshot n seen') then [strip (snapshot n seen')] else []) ++ cl_spec n seen' t
  end.

Fixpoint cl_feed (n : nat) (st : list (option A) * bool * list bool) (ins : list (nat * A))
    (outs : list (list A)) : (list (option A) * bool * list bool) * list (list A) :=
  match ins with
  | [] => (st, outs)
  | (k, x) :: t =>
      let '(st', cs, _) := x_step (x_combine_latest n) st 0 (ISrc k (Next x)) in
      cl_feed n st' t (outs ++ cemits cs)
  end.

(* the handler on an element of source k, in terms of the deliveries seen so far *)
Lemma cl_step_next n seen done now k x : (k < n)%nat ->
  x_step (x_combine_latest n) (snapshot n seen, full (snapshot n seen), done) now (ISrc k (Next x))
  = let vs := snapshot n (seen ++ [(k, x)]) in
    ((vs, full vs, done), if full vs then [CEmit (strip vs)] else [],
     if full vs then Cont
     else if forallb (fun jd : nat * bool => Nat.eqb (fst jd) k || snd jd) (combine (seq 0 n) done)
          then Complete else Cont).
Proof.
  intros Hk. cbn [x_combine_latest x_step]. rewrite (snapshot_snoc n seen k x Hk).
  fold is_some. fold (full (snapshot n (seen ++ [(k, x)]))). rewrite full_or_snoc. cbv zeta.
  destruct (full (snapshot n (seen ++ [(k, x)]))); reflexivity.
Qed.

Lemma cl_feed_from n (ins : list (nat * A)) : forall seen done outs,
  Forall (fun p => (fst p < n)%nat) ins ->
  cl_feed n (snapshot n seen, full (snapshot n seen), done) ins outs
  = ((snapshot n (seen ++ ins), full (snapshot n (seen ++ ins)), done), outs ++ cl_spec n seen ins).
Proof.
  induction ins as [|[k x] t IH]; intros seen done outs Hf.
  - cbn. now rewrite !app_nil_r.
  - inversion Hf as [|? ? Hk Ht]; subst. cbn [fst] in Hk.
    cbn [cl_feed cl_spec]. rewrite (cl_step_next n seen done 0 k x Hk). cbv beta iota zeta.
    rewrite (IH (seen ++ [(k, x)]) done _ Ht), <- !app_assoc.
    destruct (full (snapshot n (seen ++ [(k, x)]))); reflexivity.
Qed.

(* n >= 1 sources, ANY sequence of deliveries: the emitted tuples are exactly the
   full snapshots, one per delivery from the first moment every source has a value *)
Theorem combine_latest_closed_form n (ins : list (nat * A)) done :
  (0 < n)%nat -> Forall (fun p => (fst p < n)%nat) ins ->
  snd (cl_feed n (repeat None n, false, done) ins []) = cl_spec n [] ins.
Proof.
  intros Hn Hf.
  assert (H0 : full (snapshot n []) = false).
  { rewrite snapshot_nil. destruct n; [lia|reflexivity]. }
  pose proof (cl_feed_from n ins [] done [] Hf) as H.
  rewrite H0, snapshot_nil in H. rewrite H. reflexivity.
Qed.

(* every emitted tuple has one component per source *)
Lemma strip_full_length vs : full vs = true -> length (strip vs) = length vs.
Proof.
  induction vs as [|[y|] t IH]; cbn; intros H; [reflexivity| |discriminate].
  f_equal. apply IH. exact H.
Qed.

Lemma strip_full_nth vs j (d : A) : full vs = true -> (j < length vs)%nat ->
  nth j vs None = Some (nth j (strip vs) d).
Proof.
  revert j. induction vs as [|[y|] t IH]; cbn; intros j H Hj; [lia| |discriminate].
  destruct j; [reflexivity|]. apply IH; [exact H|lia].
Qed.

Lemma strip_snapshot_latest n seen : full (snapshot n seen) = true ->
  length (strip (snapshot n seen)) = n
  /\ forall j d, (j < n)%nat -> latest j seen = Some (nth j (strip (snapshot n seen)) d).
Proof.
  intros Hfull. split; [rewrite strip_full_length by exact Hfull; apply snapshot_length|].
  intros j d Hj. rewrite <- (snapshot_nth n seen j Hj).
  apply strip_full_nth; [exact Hfull|now rewrite snapshot_length].
Qed.

Theorem combine_latest_tuples_are_latest n (seen ins : list (nat * A)) tuple :
  In tuple (cl_spec n seen ins) ->
  exists pre post, ins = pre ++ post /\ pre <> [] /\ length tuple = n /\
    forall j d, (j < n)%nat -> latest j (seen ++ pre) = Some (nth j tuple d).
Proof.
  revert seen. induction ins as [|p t IH]; intros seen Hin; [contradiction|].
  cbn [cl_spec] in Hin. apply in_app_or in Hin. destruct Hin as [Hin|Hin].
  - destruct (full (snapshot n (seen ++ [p]))) eqn:Hfull; [|contradiction].
    destruct Hin as [<-|[]]. exists [p], t.
    repeat split; [discriminate|apply strip_snapshot_latest; exact Hfull..].
  - destruct (IH (seen ++ [p]) Hin) as [pre [post [E [Hne [Hlen Hl]]]]].
    exists (p :: pre), post. repeat split; [now rewrite E|discriminate|exact Hlen|].
    intros j d Hj. specialize (Hl j d Hj). now rewrite <- app_assoc in Hl.
Qed.

(* with_latest_from: parent = source 0, children = sources 1..n *)

Definition child_snapshot (n : nat) (seen : list (nat * A)) : list (option A) :=
  map (fun j => latest (S j) seen) (seq 0 n).

Fixpoint wlf_spec (n : nat) (seen ins : list (nat * A)) : list (list A) :=
  match ins with
  | [] => []
  | (k, x) :: t =>
      (match k with
       | O => if full (child_snapshot n seen) then [x :: strip (child_snapshot n seen)] else []
       | S _ => []
       end) ++ wlf_spec n (seen ++ [(k, x)]) t
  end.

Fixpoint wlf_feed (n : nat) (st : list (option A)) (ins : list (nat * A)) (outs : list (list A))
    : list (option A) * list (list A) :=
  match ins with
  | [] => (st, outs)
  | (k, x) :: t =>
      let '(st', cs, _) := x_step (x_with_latest_from n) st 0 (ISrc k (Next x)) in
      wlf_feed n st' t (outs ++ cemits cs)
  end.

Lemma child_snapshot_length n seen : length (child_snapshot n seen) = n.
Proof. apply (latests_length S). Qed.

Lemma child_snapshot_nth n seen j : (j < n)%nat -> nth j (child_snapshot n seen) None = latest (S j) seen.
Proof. apply (latests_nth S). Qed.

Lemma child_snapshot_parent n seen x : child_snapshot n (seen ++ [(0%nat, x)]) = child_snapshot n seen.
Proof. unfold child_snapshot. apply map_ext. intros j. now rewrite latest_snoc. Qed.

Lemma child_snapshot_child n seen j x : (j < n)%nat ->
  nth_set j (Some x) (child_snapshot n seen) = child_snapshot n (seen ++ [(S j, x)]).
Proof. apply (latests_snoc S). auto. Qed.

Lemma wlf_step_next n seen now k x : (k <= n)%nat ->
  x_step (x_with_latest_from n) (child_snapshot n seen) now (ISrc k (Next x))
  = (child_snapshot n (seen ++ [(k, x)]),
     match k with
     | O => if full (child_snapshot n seen) then [CEmit (x :: strip (child_snapshot n seen))] else []
     | S _ => []
     end, Cont).
Proof.
  intros Hk. destruct k as [|j]; cbn [x_with_latest_from x_step].
  - now rewrite child_snapshot_parent.
  - now rewrite child_snapshot_child by lia.
Qed.

Lemma wlf_feed_from n (ins : list (nat * A)) : forall seen outs,
  Forall (fun p => (fst p <= n)%nat) ins ->
  wlf_feed n (child_snapshot n seen) ins outs
  = (child_snapshot n (seen ++ ins), outs ++ wlf_spec n seen ins).
Proof.
  induction ins as [|[k x] t IH]; intros seen outs Hf.
  - cbn. now rewrite !app_nil_r.
  - inversion Hf as [|? ? Hk Ht]; subst. cbn [fst] in Hk.
    cbn [wlf_feed wlf_spec]. rewrite (wlf_step_next n seen 0 k x Hk). cbv beta iota.
    rewrite (IH (seen ++ [(k, x)]) _ Ht), <- !app_assoc.
    destruct k; [destruct (full (child_snapshot n seen))|]; reflexivity.
Qed.

Lemma child_snapshot_nil n : child_snapshot n [] = repeat None n.
Proof. apply (latests_nil S). Qed.

(* ANY sequence of deliveries: exactly the parent's elements that arrive once every
   child has delivered something are emitted, each with the children's latest elements *)
Theorem with_latest_from_closed_form n (ins : list (nat * A)) :
  Forall (fun p => (fst p <= n)%nat) ins ->
  snd (wlf_feed n (repeat None n) ins []) = wlf_spec n [] ins.
Proof.
  intros Hf. pose proof (wlf_feed_from n ins [] [] Hf) as H.
  rewrite child_snapshot_nil in H. rewrite H. reflexivity.
Qed.
End Latest.

(* fork_join: the tuple of LAST elements, once, when every source has completed *)
Section ForkJoin.
Context {A : Type}.

(* deliveries: (source, Some x) = element, (source, None) = completion *)
Fixpoint fj_spec (n : nat) (seen : list (nat * A)) (done : list bool) (ins : list (nat * option A))
  : list (list A) * bool :=
  match ins with
  | [] => ([], false)
  | (k, Some x) :: t => fj_spec n (seen ++ [(k, x)]) done t
  | (k, None) :: t =>
      let done1 := nth_set k true done in
      match latest k seen with
      | None => ([], true)                       (* a source completing empty completes the output at once *)
      | Some _ => if forallb (fun d => d) done1
                  then ([strip (snapshot n seen)], true)
                  else fj_spec n seen done1 t
      end
  end.

Fixpoint fj_feed (n : nat) (st : list (option A) * list bool) (ins : list (nat * option A))
  (outs : list (list A)) : list (list A) * bool :=
  match ins with
  | [] => (outs, false)
  | (k, o) :: t =>
      let '(st', cs, f) := x_step (x_fork_join n) st 0
                             (ISrc k (match o with Some x => Next x | None => Done end)) in
      match f with
      | Cont => fj_feed n st' t (outs ++ cemits cs)
      | _ => (outs ++ cemits cs, true)
      end
  end.

Lemma fj_feed_from n (ins : list (nat * option A)) : forall seen done outs,
  Forall (fun p => (fst p < n)%nat) ins ->
  fj_feed n (snapshot n seen, done) ins outs
  = (outs ++ fst (fj_spec n seen done ins), snd (fj_spec n seen done ins)).
Proof.
  induction ins as [|[k [x|]] t IH]; intros seen done outs Hf.
  - cbn. now rewrite app_nil_r.
  - inversion Hf as [|? ? Hk Ht]; subst. cbn [fst] in Hk.
    cbn [fj_feed fj_spec x_fork_join x_step]. rewrite (snapshot_snoc n seen k x Hk).
    cbn [cemits flat_map app]. rewrite app_nil_r. apply IH. exact Ht.
  - inversion Hf as [|? ? Hk Ht]; subst. cbn [fst] in Hk.
    cbn [fj_feed fj_spec x_fork_join x_step]. rewrite (snapshot_nth n seen k Hk).
    destruct (latest k seen) as [y|].
    + change (flat_map (fun v : option A => match v with Some y => [y] | None => [] end)) with (@strip A).
      destruct (forallb (fun d : bool => d) (nth_set k true done)).
      * cbn [cemits flat_map app fst snd]. reflexivity.
      * cbn [cemits flat_map app]. rewrite app_nil_r. apply IH. exact Ht.
    + cbn [cemits flat_map app fst snd]. now rewrite app_nil_r.
Qed.

(* n sources, ANY sequence of deliveries and completions: the machine's output up to its
   termination is [fj_spec]: nothing until every source has completed, then ONE tuple made of
   the last element of every source -- or an immediate, empty completion as soon as a source
   completes without having delivered anything *)
Theorem fork_join_closed_form n (ins : list (nat * option A)) :
  Forall (fun p => (fst p < n)%nat) ins ->
  fj_feed n (repeat None n, repeat false n) ins [] = fj_spec n [] (repeat false n) ins.
Proof.
  intros Hf. rewrite <- snapshot_nil. rewrite (fj_feed_from n ins [] (repeat false n) [] Hf).
  cbn [app]. destruct (fj_spec n [] (repeat false n) ins). reflexivity.
Qed.

End ForkJoin.
