(* C11.  Section Errors: the first error wins for flat_map and merge(max_concurrent)
   (flat_map_spec_error_iff / mc_spec_error_iff: an error is emitted at input position q iff
   the output has not ended before q and input q is the error of the live outer, a raising
   mapper call on an element of the live outer, or the error of a running inner; it is the
   last event).
   Sections ConcatMap, ConcatMapClosed: concat_map (= merge(max_concurrent = 1) after map)
   emits the ORDERED concatenation of its inner sequences.  Two statements.
   - concat_map_ordered (every mapper, EVERY schedule): for every input sequence during
     which the output has not ended and in which every inner notification arrives while
     that inner is subscribed ("cold" inners: an inner produces only while subscribed),
     the elements emitted are exactly  elements of inner 1 ++ ... ++ elements of inner cnt
     (cnt = inners created), whatever the interleaving with the outer's notifications.
   - concat_map_closed_form (one concrete environment, terminal included): the outer
     delivers all its elements and completes, then the inners run one after the other:
     the output is concat_spec of the inners -- the same closed form as concat (C10). *)
From RxVerif Require Import Base.Prelude Ops.Machine Ops.MachineFacts Ops.Multi Ops.MultiFacts
  Ops.RunLemmas Ops.Combinators Ops.SequentialFacts Ops.MergeFacts Ops.FlatMapFacts Ops.MergeConcFacts
  Ops.MergeSpecFacts.

Local Arguments Nat.ltb : simpl never.
Local Arguments Nat.leb : simpl never.

Section Errors.
Context {A : Type}.

Definition error_source (mapper : A -> nat -> res unit) (ol : bool) (cnt : nat) (running : list nat)
  (i : inp A) (err : Z) : Prop :=
  (ol = true /\ i = ISrc 0%nat (Err err))
  \/ (ol = true /\ exists x, i = ISrc 0%nat (Next x) /\ mapper x cnt = Raise err)
  \/ (exists j, i = ISrc (S j) (Err err) /\ In (S j) running).

Lemma mc_step_err_iff mapper mc ol cnt r qu (i : inp A) err :
  snd (mc_step mapper mc (ol, cnt, r, qu) i) = Some (Err err) <-> error_source mapper ol cnt r i err.
Proof.
  unfold error_source. split; [exact (mc_step_emits mapper mc ol cnt r qu i (Err err))|].
  intros [(-> & ->)|[(-> & x & -> & Hm)|(j & -> & Hj)]]; cbn [mc_step].
  - reflexivity.
  - now rewrite Hm.
  - now rewrite (proj2 (mem_In _ _) Hj).
Qed.

Lemma fm_step_err_iff mapper ol cnt r (i : inp A) err :
  snd (fm_step mapper (ol, cnt, r) i) = Some (Err err) <-> error_source mapper ol cnt r i err.
Proof. rewrite (proj1 (fm_step_mc mapper ol cnt r i)). apply mc_step_err_iff. Qed.

Lemma mc_step_err_ends mapper mc (st : mc_state) (i : inp A) err :
  snd (mc_step mapper mc st i) = Some (Err err) -> fst (mc_step mapper mc st i) = None.
Proof.
  destruct st as [[[ol cnt] r] qu]. intros H. apply mc_step_err_iff in H.
  destruct H as [(-> & ->)|[(-> & x & -> & Hm)|(j & -> & Hj)]]; cbn [mc_step];
    [|rewrite Hm|rewrite (proj2 (mem_In _ _) Hj)]; reflexivity.
Qed.

(* flat_map: an error is emitted at input position q iff the output has not ended before q
   (the state exists) and input q is: the error of the still-live outer, an element of the
   still-live outer on which the mapper raises, or the error of a running inner *)
Theorem flat_map_spec_error_iff mapper ol cnt running pos (ins : list (Z * inp A)) q err :
  In ((pos + q)%nat, Err err) (flat_map_spec mapper ol cnt running pos ins) <->
  exists now i ol' cnt' r', nth_error ins q = Some (now, i)
     /\ fm_after mapper (ol, cnt, running) (firstn q ins) = Some (ol', cnt', r')
     /\ error_source mapper ol' cnt' r' i err.
Proof.
  rewrite flat_map_spec_fold, fold_spec_in_iff. unfold fm_after. split.
  - intros (now & i & [[ol' cnt'] r'] & Hn & Ha & Hs). apply fm_step_err_iff in Hs.
    exists now, i, ol', cnt', r'. auto.
  - intros (now & i & ol' & cnt' & r' & Hn & Ha & Hs). apply fm_step_err_iff in Hs.
    exists now, i, (ol', cnt', r'). auto.
Qed.

Theorem mc_spec_error_iff mapper mc ol cnt running queue pos (ins : list (Z * inp A)) q err :
  In ((pos + q)%nat, Err err) (mc_spec mapper mc ol cnt running queue pos ins) <->
  exists now i ol' cnt' r' q', nth_error ins q = Some (now, i)
     /\ mc_after mapper mc (ol, cnt, running, queue) (firstn q ins) = Some (ol', cnt', r', q')
     /\ error_source mapper ol' cnt' r' i err.
Proof.
  rewrite mc_spec_fold, fold_spec_in_iff. unfold mc_after. split.
  - intros (now & i & [[[ol' cnt'] r'] q'] & Hn & Ha & Hs). apply mc_step_err_iff in Hs.
    exists now, i, ol', cnt', r', q'. auto.
  - intros (now & i & ol' & cnt' & r' & q' & Hn & Ha & Hs).
    exists now, i, (ol', cnt', r', q'). split; [exact Hn|]. split; [exact Ha|]. apply mc_step_err_iff. exact Hs.
Qed.

(* for any step-function specification whose error steps end the output *)
Lemma fold_spec_error_last {St} (step : St -> inp A -> option St * option (ev A))
  (Hend : forall st i err, snd (step st i) = Some (Err err) -> fst (step st i) = None)
  (ins : list (Z * inp A)) : forall st pos p err,
  In (p, Err err) (fold_spec step st pos ins) ->
  exists pre, fold_spec step st pos ins = pre ++ [(p, Err err)].
Proof.
  induction ins as [|[now i] t IH]; intros st pos p err H; [destruct H|].
  cbn [fold_spec] in *. apply in_app_or in H. destruct H as [H|H].
  - destruct (snd (step st i)) as [e0|] eqn:E; [|destruct H]. destruct H as [H|[]]. injection H as -> ->.
    rewrite (Hend _ _ _ E). exists []. reflexivity.
  - destruct (fst (step st i)) as [st1|]; [|destruct H].
    destruct (IH _ _ _ _ H) as (pre & ->). eexists. rewrite app_assoc. reflexivity.
Qed.

Theorem flat_map_error_is_last mapper ol cnt running pos (ins : list (Z * inp A)) p err :
  In (p, Err err) (flat_map_spec mapper ol cnt running pos ins) ->
  exists pre, flat_map_spec mapper ol cnt running pos ins = pre ++ [(p, Err err)].
Proof.
  rewrite flat_map_spec_fold. apply fold_spec_error_last.
  intros [[ol' cnt'] r'] i e H. rewrite (proj1 (fm_step_mc mapper ol' cnt' r' i)) in H.
  apply mc_step_err_ends in H. rewrite mc_step_roomy in H by lia. cbn [fst] in H.
  now destruct (fst (fm_step mapper (ol', cnt', r') i)) as [[[? ?] ?]|].
Qed.

Theorem mc_error_is_last mapper mc ol cnt running queue pos (ins : list (Z * inp A)) p err :
  In (p, Err err) (mc_spec mapper mc ol cnt running queue pos ins) ->
  exists pre, mc_spec mapper mc ol cnt running queue pos ins = pre ++ [(p, Err err)].
Proof. rewrite mc_spec_fold. apply fold_spec_error_last. apply mc_step_err_ends. Qed.
End Errors.

Section ConcatMap.
Context {A : Type}.

(* the elements inner j delivers in the input sequence, in order *)
Definition head_elems (j : nat) (i : inp A) : list A :=
  match i with ISrc k (Next x) => if Nat.eqb k j then [x] else [] | _ => [] end.
Definition inner_elems (j : nat) (ins : list (Z * inp A)) : list A :=
  flat_map (fun ni => head_elems j (snd ni)) ins.

Definition out_elems (l : list (nat * ev A)) : list A :=
  flat_map (fun pe => match snd pe with Next x => [x] | _ => [] end) l.

Lemma out_elems_app a b : out_elems (a ++ b) = out_elems a ++ out_elems b.
Proof. apply flat_map_app. Qed.

(* COLD inners: every notification of an inner arrives while that inner is subscribed
   (is among the running inners of the specification's state at that moment) *)
Definition cold (mapper : A -> nat -> res unit) (mc : nat) (st : mc_state) (ins : list (Z * inp A)) : Prop :=
  forall q now j e st', nth_error ins q = Some (now, ISrc (S j) e) ->
    mc_after mapper mc st (firstn q ins) = Some st' -> In (S j) (snd (fst st')).

Lemma cold_tail mapper mc st now i t st1 :
  cold mapper mc st ((now, i) :: t) -> fst (mc_step mapper mc st i) = Some st1 -> cold mapper mc st1 t.
Proof.
  intros H E q n j e st' Hn Ha. apply (H (S q) n j e st'); [exact Hn|].
  unfold mc_after in *. cbn [firstn fold_after]. rewrite E. exact Ha.
Qed.

(* an executable test for coldness *)
Fixpoint coldb (mapper : A -> nat -> res unit) (mc : nat) (st : mc_state) (ins : list (Z * inp A)) : bool :=
  match ins with
  | [] => true
  | (_, i) :: t =>
      (match i with ISrc (S j) _ => mem (S j) (snd (fst st)) | _ => true end) &&
      match fst (mc_step mapper mc st i) with Some st1 => coldb mapper mc st1 t | None => true end
  end.

Lemma coldb_cold mapper mc (ins : list (Z * inp A)) : forall st, coldb mapper mc st ins = true -> cold mapper mc st ins.
Proof.
  induction ins as [|[now i] t IH]; intros st H q n j e st' Hn Ha; [destruct q; discriminate Hn|].
  cbn [coldb] in H. apply andb_prop in H. destruct H as [H1 H2].
  unfold mc_after in Ha. destruct q as [|q].
  - cbn [nth_error firstn fold_after] in *. injection Hn as <- ->. injection Ha as <-. now apply mem_In.
  - cbn [nth_error firstn fold_after] in *.
    destruct (fst (mc_step mapper mc st i)) as [st1|]; [|discriminate Ha].
    exact (IH st1 H2 q n j e st' Hn Ha).
Qed.

(* state of concat_map: nothing runs and nothing waits (the next inner to start is c =
   cnt+1), or inner c runs and c+1 .. cnt wait, in this order *)
Definition cm_inv (c : nat) (st : mc_state) : Prop :=
  let '(ol, cnt, running, queue) := st in
  (running = [] /\ queue = [] /\ c = S cnt) \/
  (running = [c] /\ queue = seq (S c) (cnt - c) /\ (1 <= c <= cnt)%nat).

Definition st_cnt (st : mc_state) : nat := snd (fst (fst st)).

(* one step: the current inner stays or moves to the next one; an element is emitted
   exactly for an element of the current inner *)
Lemma cm_step mapper (st : mc_state) (i : inp A) st1 c :
  cm_inv c st -> fst (mc_step mapper 1 st i) = Some st1 ->
  (forall j e, i = ISrc (S j) e -> In (S j) (snd (fst st))) ->
  exists c1, cm_inv c1 st1 /\ (st_cnt st <= st_cnt st1)%nat /\
    (c1 = c \/ (c1 = S c /\ (1 <= c <= st_cnt st)%nat)) /\
    match snd (mc_step mapper 1 st i) with
    | Some (Next x) => i = ISrc c (Next x) /\ c1 = c /\ (1 <= c <= st_cnt st)%nat
    | Some _ => False
    | None => forall k x, i = ISrc k (Next x) -> k = 0%nat
    end.
Proof.
  destruct st as [[[ol cnt] running] queue]. unfold st_cnt. cbn [fst snd]. intros Hinv E Hcold.
  destruct i as [[|j] e|tag|].
  - (* the outer *)
    cbn [mc_step] in *. destruct ol.
    + destruct e as [x|err|].
      * destruct (mapper x cnt) as [u|err]; [|discriminate E].
        destruct Hinv as [(-> & -> & ->)|(-> & -> & Hc)].
        -- cbn [length] in *. change (Nat.ltb 0 1) with true in *. cbn [fst snd] in *. injection E as <-.
           exists (S cnt). split; [|split; [cbn; lia|split; [auto|intros k y H; now injection H]]].
           right. cbn [app]. split; [reflexivity|]. rewrite Nat.sub_diag. split; [reflexivity|lia].
        -- cbn [length] in *. change (Nat.ltb 1 1) with false in *. cbn [fst snd] in *. injection E as <-.
           exists c. split; [|split; [cbn; lia|split; [auto|intros k y H; now injection H]]].
           right. split; [reflexivity|]. split; [|lia].
           replace (S cnt - c)%nat with (S (cnt - c)) by lia. rewrite seq_S. f_equal. f_equal. lia.
      * discriminate E.
      * destruct Hinv as [(-> & -> & ->)|(-> & -> & Hc)]; [discriminate E|].
        cbn [fst snd] in *. injection E as <-.
        exists c. split; [right; auto|]. split; [cbn; lia|]. split; [auto|intros k y H; discriminate H].
    + cbn [fst snd] in *. injection E as <-. exists c. split; [exact Hinv|]. split; [cbn; lia|].
      split; [auto|]. intros k y H. now injection H.
  - (* an inner: it is the current one *)
    pose proof (Hcold j e eq_refl) as Hrun.
    destruct Hinv as [(-> & -> & ->)|(-> & -> & Hc)]; [destruct Hrun|].
    destruct Hrun as [->|[]].
    cbn [mc_step mem existsb remove] in *. rewrite Nat.eqb_refl in *. cbn [orb] in *.
    destruct e as [x|err|].
    + cbn [fst snd] in *. injection E as <-. exists (S j). split; [right; auto|]. split; [cbn; lia|]. auto.
    + discriminate E.
    + destruct (cnt - S j)%nat as [|d] eqn:Hd; cbn [seq] in *.
      * destruct ol; [|discriminate E]. cbn [fst snd] in *. injection E as <-.
        exists (S (S j)). split; [left; repeat split; lia|]. split; [cbn; lia|]. split; [right; split; lia|].
        intros k y H. discriminate H.
      * cbn [fst snd app] in *. injection E as <-.
        exists (S (S j)). split; [|split; [cbn; lia|split; [right; split; lia|intros k y H; discriminate H]]].
        right. split; [reflexivity|]. split; [|lia]. f_equal. lia.
  - cbn [mc_step fst snd] in *. injection E as <-. exists c. split; [exact Hinv|]. split; [cbn; lia|].
    split; [auto|]. intros k y H. discriminate H.
  - discriminate E.
Qed.

Lemma concat_map_nil {X Y} (l : list X) : concat (map (fun _ => @nil Y) l) = [].
Proof. induction l; auto. Qed.

Lemma inner_elems_cons j now (i : inp A) t :
  inner_elems j ((now, i) :: t) = head_elems j i ++ inner_elems j t.
Proof. reflexivity. Qed.

(* concat_map_ordered from any state with cm_inv.  The second conjunct is what the induction
   needs: the inners before the current one deliver no further element *)
Lemma cm_ordered mapper (ins : list (Z * inp A)) : forall st c pos st',
  cm_inv c st -> mc_after mapper 1 st ins = Some st' -> cold mapper 1 st ins ->
  (st_cnt st <= st_cnt st')%nat
  /\ (forall j, (1 <= j < c)%nat -> inner_elems j ins = [])
  /\ out_elems (fold_spec (mc_step mapper 1) st pos ins)
     = concat (map (fun j => inner_elems j ins) (seq c (S (st_cnt st') - c))).
Proof.
  induction ins as [|[now i] t IH]; intros st c pos st' Hinv Ha Hcold.
  - unfold mc_after in Ha. cbn [fold_after] in Ha. injection Ha as <-.
    split; [lia|]. split; [reflexivity|]. cbn [fold_spec out_elems flat_map].
    symmetry. apply (concat_map_nil (seq c (S (st_cnt st) - c))).
  - unfold mc_after in Ha. cbn [fold_after] in Ha.
    destruct (fst (mc_step mapper 1 st i)) as [st1|] eqn:E; [|discriminate Ha].
    assert (Hhead : forall j e, i = ISrc (S j) e -> In (S j) (snd (fst st))).
    { intros j e ->. apply (Hcold 0%nat now j e st); reflexivity. }
    destruct (cm_step mapper st i st1 c Hinv E Hhead) as (c1 & Hinv1 & Hcnt & Hc1 & Hem).
    destruct (IH st1 c1 (S pos) st' Hinv1 Ha (cold_tail _ _ _ _ _ _ _ Hcold E)) as (IH1 & IH2 & IH3).
    split; [lia|].
    cbn [fold_spec]. rewrite E, out_elems_app, IH3.
    destruct (snd (mc_step mapper 1 st i)) as [[x|err|]|] eqn:Es; try contradiction.
    + (* an element of the current inner *)
      destruct Hem as (-> & -> & Hc). split.
      * intros j Hj. rewrite inner_elems_cons, (IH2 j Hj). cbn [head_elems].
        destruct (Nat.eqb_spec c j); [lia|reflexivity].
      * replace (S (st_cnt st') - c)%nat with (S (st_cnt st' - c)) by lia. cbn [seq map concat].
        rewrite inner_elems_cons. cbn [head_elems]. rewrite Nat.eqb_refl.
        cbn [out_elems flat_map snd app]. do 3 f_equal.
        apply map_ext_in. intros j Hj. apply in_seq in Hj.
        rewrite inner_elems_cons. cbn [head_elems]. destruct (Nat.eqb_spec c j); [lia|reflexivity].
    + (* nothing emitted: not an element of an inner *)
      assert (Hno : forall j, (1 <= j)%nat -> head_elems j i = []).
      { intros j Hj. destruct i as [k [y|y|]|tag|]; try reflexivity. cbn [head_elems].
        rewrite (Hem k y eq_refl). destruct (Nat.eqb_spec 0 j); [lia|reflexivity]. }
      split.
      * intros j Hj. rewrite inner_elems_cons, Hno by lia. cbn [app]. apply IH2.
        destruct Hc1 as [->|[-> _]]; lia.
      * cbn [out_elems flat_map app].
        assert (Hext : forall l, (forall j, In j l -> (1 <= j)%nat) ->
                  map (fun j => inner_elems j ((now, i) :: t)) l = map (fun j => inner_elems j t) l).
        { intros l Hl. apply map_ext_in. intros j Hj. now rewrite inner_elems_cons, Hno by (apply Hl; exact Hj). }
        destruct Hc1 as [->|[-> Hc]].
        -- rewrite Hext; [reflexivity|]. intros j Hj. apply in_seq in Hj.
           assert (1 <= c)%nat; [|lia].
           destruct st as [[[ol cnt] running] queue]. cbn in Hinv. destruct Hinv as [(_ & _ & ->)|(_ & _ & ?)]; lia.
        -- replace (S (st_cnt st') - c)%nat with (S (S (st_cnt st') - S c)) by lia. cbn [seq].
           rewrite Hext by (intros j Hj; destruct Hj as [<-|Hj]; [lia|apply in_seq in Hj; lia]).
           cbn [map concat]. rewrite (IH2 c) by lia. reflexivity.
Qed.

(* CONCAT_MAP EMITS THE ORDERED CONCATENATION: for every mapper and every input sequence --
   whatever the interleaving of the outer's notifications with the inners' -- during which
   the output has not ended and in which the inners are cold, the elements emitted are the
   elements of inner 1, then those of inner 2, ... up to the last inner created *)
Theorem concat_map_ordered mapper (ins : list (Z * inp A)) ol cnt running queue :
  mc_after mapper 1 (true, 0%nat, [], []) ins = Some (ol, cnt, running, queue) ->
  cold mapper 1 (true, 0%nat, [], []) ins ->
  out_elems (temitted (fst (run (x_merge_concurrent 1 mapper) ins)))
  = concat (map (fun j => inner_elems j ins) (seq 1 cnt)).
Proof.
  intros Ha Hcold. rewrite merge_concurrent_refines_spec, mc_spec_fold.
  destruct (cm_ordered mapper ins (true, 0%nat, [], []) 1 1 _ (or_introl (conj eq_refl (conj eq_refl eq_refl))) Ha Hcold)
    as (_ & _ & H).
  rewrite H. unfold st_cnt. cbn [fst snd]. replace (S cnt - 1)%nat with cnt by lia. reflexivity.
Qed.
End ConcatMap.

Section ConcatMapClosed.
Context {A : Type}.

(* the outer delivers its elements and completes (a synchronous outer such as of(..)),
   then the inners created for them (numbered 1, 2, ..) run one after the other, each
   producing only once it is subscribed *)
Definition cm_env (xs : list A) (srcs : list (list A * term)) : list (Z * inp A) :=
  map (fun x => (0, ISrc 0%nat (Next x))) xs ++ (0, ISrc 0%nat Done) :: seq_env_from 1 srcs.

Variable mapper : A -> nat -> res unit.
Hypothesis Hm : forall x k, mapper x k = Ok tt.

Let stp := mc_step mapper 1.

(* further outer elements while inner c runs: they queue up behind it *)
Lemma cm_outer_running (xs : list A) : forall cnt c pos, (1 <= c <= cnt)%nat ->
  fold_spec stp (true, cnt, [c], seq (S c) (cnt - c)) pos (map (fun x => (0, ISrc 0%nat (Next x))) xs) = []
  /\ fold_after stp (true, cnt, [c], seq (S c) (cnt - c)) (map (fun x => (0, ISrc 0%nat (Next x))) xs)
     = Some (true, (cnt + length xs)%nat, [c], seq (S c) (cnt + length xs - c)).
Proof.
  induction xs as [|x t IH]; intros cnt c pos Hc.
  - cbn. rewrite Nat.add_0_r. auto.
  - cbn [map fold_spec fold_after length]. unfold stp at 1 2 3 4. cbn [mc_step]. rewrite Hm.
    cbn [length]. change (Nat.ltb 1 1) with false. cbn [fst snd app].
    assert (E : seq (S c) (cnt - c) ++ [S cnt] = seq (S c) (S cnt - c)).
    { replace (S cnt - c)%nat with (S (cnt - c)) by lia. rewrite seq_S. f_equal. f_equal. lia. }
    rewrite E. destruct (IH (S cnt) c (S pos)) as [H1 H2]; [lia|].
    fold stp. rewrite H1, H2. split; [reflexivity|]. replace (cnt + S (length t))%nat with (S cnt + length t)%nat by lia. reflexivity.
Qed.

Lemma cm_inner_elems ol cnt c queue (ys : list A) : forall pos,
  map snd (fold_spec stp (ol, cnt, [S c], queue) pos (map (fun e => (0, ISrc (S c) e)) (map Next ys))) = map Next ys
  /\ fold_after stp (ol, cnt, [S c], queue) (map (fun e => (0, ISrc (S c) e)) (map Next ys))
     = Some (ol, cnt, [S c], queue).
Proof.
  induction ys as [|y t IH]; intros pos; [split; reflexivity|].
  cbn [map fold_spec fold_after]. unfold stp at 1 2 3 4.
  cbn [mc_step mem existsb]. rewrite Nat.eqb_refl. cbn [orb fst snd app map].
  fold stp. destruct (IH (S pos)) as [H1 H2]. rewrite H1, H2. split; reflexivity.
Qed.

Lemma cm_not_running (st : mc_state) (ins : list (Z * inp A)) : forall pos,
  (forall now i, In (now, i) ins -> exists j e, i = ISrc (S j) e /\ mem (S j) (snd (fst st)) = false) ->
  fold_spec stp st pos ins = [].
Proof.
  induction ins as [|[now i] t IH]; intros pos H; [reflexivity|].
  destruct (H now i (or_introl eq_refl)) as (j & e & -> & Hmem).
  destruct st as [[[ol cnt] running] queue]. cbn [fst snd] in Hmem.
  cbn [fold_spec]. unfold stp at 1 2. cbn [mc_step]. rewrite Hmem. cbn [fst snd app].
  apply IH. intros n0 i0 Hin. apply (H n0 i0). right. exact Hin.
Qed.

(* the inners one after the other, the outer having completed; srcs are the inners S c .. n
   (n created in all), S c running and the others waiting *)
Lemma cm_inners (srcs : list (list A * term)) : forall c n pos,
  (S c + length srcs = S n)%nat -> srcs <> [] ->
  map snd (fold_spec stp (false, n, [S c], seq (S (S c)) (n - S c)) pos (seq_env_from (S c) srcs))
  = concat_spec srcs.
Proof.
  induction srcs as [|[ys t] rest IH]; intros c n pos Hn Hne; [congruence|].
  cbn [seq_env_from concat_spec length] in *. unfold block, events. cbn [fst snd].
  rewrite map_app, <- app_assoc, fold_spec_app, map_app.
  destruct (cm_inner_elems false n c (seq (S (S c)) (n - S c)) ys pos) as [H1 H2].
  rewrite H1, H2. f_equal.
  destruct t as [|e|].
  - (* the inner completes: the next one starts, or the output completes *)
    cbn [map app fold_spec]. unfold stp at 1 2. cbn [mc_step mem existsb remove]. rewrite Nat.eqb_refl. cbn [orb].
    destruct rest as [|s2 rest2].
    + assert (n - S c = 0)%nat as -> by (cbn in Hn; lia). cbn. reflexivity.
    + destruct (n - S c)%nat as [|d] eqn:Hd; [cbn in Hn; lia|].
      cbn [seq fst snd app]. fold stp.
      replace d with (n - S (S c))%nat by lia.
      rewrite IH; [reflexivity|cbn in *; lia|discriminate].
  - cbn [map app fold_spec]. unfold stp at 1 2. cbn [mc_step mem existsb]. rewrite Nat.eqb_refl. reflexivity.
  - cbn [map app]. rewrite cm_not_running; [reflexivity|].
    intros now i Hin. destruct (in_seq_env _ _ _ _ Hin) as (j' & e & -> & Hle).
    destruct j' as [|j]; [now apply Nat.nle_succ_0 in Hle|]. exists j, e. split; [reflexivity|].
    cbn [fst snd mem existsb]. destruct (Nat.eqb_spec (S j) (S c)); [lia|reflexivity].
Qed.

(* CLOSED FORM: concat_map over a synchronous outer = concat of the inner sequences *)
Theorem concat_map_closed_form (xs : list A) (srcs : list (list A * term)) :
  length srcs = length xs ->
  emitted (fst (run (x_merge_concurrent 1 mapper) (cm_env xs srcs))) = concat_spec srcs.
Proof.
  intros Hlen. rewrite emitted_temitted, merge_concurrent_refines_spec, mc_spec_fold. fold stp.
  unfold cm_env. rewrite fold_spec_app.
  destruct xs as [|x xs'].
  - destruct srcs; [|discriminate Hlen]. cbn. reflexivity.
  - (* the first element starts inner 1, the others queue up *)
    cbn [map fold_spec fold_after]. unfold stp at 1 2 3 4. cbn [mc_step]. rewrite Hm.
    cbn [length]. change (Nat.ltb 0 1) with true. cbn [fst snd app]. fold stp.
    destruct (cm_outer_running xs' 1 1 2) as [H1 H2]; [lia|].
    change (seq 2 (1 - 1)) with (@nil nat) in H1, H2. rewrite H1, H2. cbn [app map].
    (* the outer completes while inner 1 runs *)
    unfold stp at 1 2. cbn [mc_step fst snd app]. fold stp.
    destruct srcs as [|s rest]; [discriminate Hlen|].
    apply cm_inners; [cbn [length] in *; lia|discriminate].
Qed.
End ConcatMapClosed.
