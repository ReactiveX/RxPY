(* Sequential composition of operators: the composite machine emits exactly
   what the second machine emits when fed the first machine's output. *)
From RxVerif Require Import Base.Prelude Ops.Machine Ops.MachineFacts.

Section Compose.
Context {A B C : Type} (m1 : mealy A B) (m2 : mealy B C).

(* feeding a batch of elements into m2, as exec sees it *)
Lemma exec_from_feed (outs : list B) : forall s2 k2 tail,
  untag (exec_from m2 s2 k2 (map Next outs ++ tail))
  = map Next (snd (fst (feed m2 s2 outs))) ++
    (if live (snd (feed m2 s2 outs))
     then untag (exec_from m2 (fst (fst (feed m2 s2 outs))) (k2 + length outs) tail)
     else fin_ev (snd (feed m2 s2 outs))).
Proof.
  induction outs as [|b t IH]; intros s2 k2 tail.
  - cbn [map app feed live length fst snd]. now rewrite Nat.add_0_r.
  - cbn [map app feed length]. rewrite exec_from_cons.
    destruct (m_next m2 s2 b) as [[s2' o] f].
    rewrite untag_app, untag_emit.
    destruct f; cbn [live fin_ev].
    + rewrite IH. destruct (feed m2 s2' t) as [[s2'' o'] f'].
      cbn [fst snd]. rewrite map_app, app_nil_r, <- app_assoc. rewrite <- plus_n_Sm. reflexivity.
    + cbn [untag map fst snd]. now rewrite app_nil_r.
    + cbn [untag map fst snd]. now rewrite app_nil_r.
Qed.

(* m1's answer -- a batch, then how m1 left -- in front of what m1 emits later,
   against feed_fin; behind m1's terminal m2 looks at nothing *)
Lemma exec_from_answer (o1 : list B) (f1 : fin) s2 k2 tail :
  untag (exec_from m2 s2 k2 (map Next o1 ++ fin_ev f1 ++ tail))
  = map Next (snd (fst (feed_fin m2 s2 o1 f1))) ++
    (if live (snd (feed_fin m2 s2 o1 f1)) && live f1
     then untag (exec_from m2 (fst (fst (feed_fin m2 s2 o1 f1))) (k2 + length o1) tail)
     else fin_ev (snd (feed_fin m2 s2 o1 f1))).
Proof.
  rewrite exec_from_feed. unfold feed_fin.
  destruct (feed m2 s2 o1) as [[s2' o] f]. cbn [fst snd].
  destruct f; cbn [live]; [|reflexivity|reflexivity].
  destruct f1 as [| |z]; cbn [fin_ev app exec_from live fst snd]; [reflexivity| |].
  - destruct (m_done m2 s2') as [o' f']. cbn [fst snd].
    now rewrite andb_false_r, untag_emit, map_app, app_assoc.
  - destruct (m_err m2 s2' z) as [o' f']. cbn [fst snd].
    now rewrite andb_false_r, untag_emit, map_app, app_assoc.
Qed.

Lemma compose_off ins : forall s1 s2 k, exec_from (compose m1 m2) (s1, s2, false) k ins = [].
Proof.
  induction ins as [|i rest IH]; intros s1 s2 k; [reflexivity|].
  destruct i as [x|e|]; cbn [exec_from compose m_next m_err m_done emit map app live]; try reflexivity.
  apply IH.
Qed.

(* a handler of the composite, while m1 is subscribed: m1's handler, its answer fed to m2 *)
Lemma compose_handle s1 s2 e :
  snd (fst (handle (compose m1 m2) (s1, s2, true) e))
  = snd (fst (feed_fin m2 s2 (snd (fst (handle m1 s1 e))) (snd (handle m1 s1 e))))
  /\ snd (handle (compose m1 m2) (s1, s2, true) e)
     = snd (feed_fin m2 s2 (snd (fst (handle m1 s1 e))) (snd (handle m1 s1 e)))
  /\ (is_terminal e = false ->
      fst (fst (handle (compose m1 m2) (s1, s2, true) e))
      = (fst (fst (handle m1 s1 e)),
         fst (fst (feed_fin m2 s2 (snd (fst (handle m1 s1 e))) (snd (handle m1 s1 e)))),
         live (snd (handle m1 s1 e)))).
Proof.
  destruct e as [x|z|]; cbn [handle compose m_next m_err m_done is_terminal].
  - destruct (m_next m1 s1 x) as [[s1' o1] f1]. cbn [fst snd]. destruct (feed_fin m2 s2 o1 f1) as [[s2' o] f]. auto.
  - destruct (m_err m1 s1 z) as [o1 f1]. cbn [fst snd]. destruct (feed_fin m2 s2 o1 f1) as [[s2' o] f].
    repeat split. discriminate.
  - destruct (m_done m1 s1) as [o1 f1]. cbn [fst snd]. destruct (feed_fin m2 s2 o1 f1) as [[s2' o] f].
    repeat split. discriminate.
Qed.

Lemma compose_from ins : forall s1 s2 k k2,
  untag (exec_from (compose m1 m2) (s1, s2, true) k ins)
  = untag (exec_from m2 s2 k2 (untag (exec_from m1 s1 k ins))).
Proof.
  induction ins as [|e rest IH]; intros s1 s2 k k2; [reflexivity|].
  rewrite !exec_from_handle. destruct (compose_handle s1 s2 e) as (Ho & Hf & Hs). rewrite Ho, Hf.
  rewrite !untag_app, !untag_emit, <- !app_assoc, exec_from_answer.
  destruct (handle m1 s1 e) as [[s1' o1] f1]. cbn [fst snd] in *.
  destruct (feed_fin m2 s2 o1 f1) as [[s2' o] f]. cbn [fst snd] in *.
  f_equal. destruct f; cbn [live andb fin_ev app]; [|reflexivity|reflexivity].
  destruct (is_terminal e); cbn [negb].
  - rewrite andb_false_r. destruct (live f1); reflexivity.
  - rewrite (Hs eq_refl), andb_true_r. destruct f1; cbn [live]; [apply IH|now rewrite compose_off..].
Qed.

(* The composition theorem, for ARBITRARY input streams (also non-conforming):
   what a two-stage pipeline delivers is what stage 2 delivers on stage 1's
   output. *)
Theorem compose_exec ins :
  untag (exec (compose m1 m2) ins) = untag (exec m2 (untag (exec m1 ins))).
Proof.
  unfold exec at 1 2. cbn [compose m_pre m_init].
  destruct (m_pre m2) as [o2 f2]. cbn [fst snd].
  destruct f2; cbn [live]; [|now rewrite !app_nil_r..].
  (* m2 subscribes to m1 *)
  unfold compose_start, exec. destruct (m_pre m1) as [o1 f1]. cbn [fst snd].
  rewrite !untag_app, !untag_emit, <- !app_assoc, exec_from_answer.
  destruct (feed_fin m2 (m_init m2) o1 f1) as [[s2' o] f]. cbn [fst snd fin_ev app].
  rewrite map_app, <- !app_assoc. do 2 f_equal.
  destruct f; cbn [live andb fin_ev app]; [|reflexivity|reflexivity].
  destruct f1; cbn [live]; [apply compose_from|now rewrite compose_off..].
Qed.
End Compose.
