(* C19: facts about group_by / group_by_until (machine of Ops/Groups.v) and
   partition, for EVERY state (hence every input history) and every callback:
   - a new group is handed exactly when the key has no live writer -- the first
     time it is seen, or again after its group expired;
   - an element goes to exactly one group: the group of its key;
   - the source's terminal ends every open group with its kind, and the outer;
   - a raising key / element / duration callback, and a failing duration
     observable, error every open group and the outer;
   - partition: an element is delivered to the subscribers of exactly one of the
     two outputs, chosen by the predicate; the source is subscribed iff some
     output subscriber is live. *)
From RxVerif Require Import Base.Prelude Ops.Machine Ops.MultiFacts Ops.MultiWin Ops.MultiWinFacts Ops.Groups.

Definition gb_keys (l : list (Z * nat * nat)) : list Z := map (fun w => fst (fst w)) l.

Lemma gb_lookup_none k l : gb_lookup k l = None <-> ~ In k (gb_keys l).
Proof.
  induction l as [|[[j g] c] t IH]; [cbn; tauto|]. cbn [gb_lookup gb_keys map fst In].
  destruct (Z.eqb_spec j k) as [->|Hne]; [split; [discriminate|intros H; exfalso; apply H; left; reflexivity]|].
  rewrite IH. unfold gb_keys. tauto.
Qed.

Lemma gb_keys_snoc l k g c : gb_keys (l ++ [(k, g, c)]) = gb_keys l ++ [k].
Proof. unfold gb_keys. now rewrite map_app. Qed.

Lemma gb_keys_fresh l k g c : NoDup (gb_keys l) -> gb_lookup k l = None -> NoDup (gb_keys (l ++ [(k, g, c)])).
Proof. intros Hnd Hl. rewrite gb_keys_snoc. apply NoDup_app_snoc; [exact Hnd|]. apply gb_lookup_none, Hl. Qed.

Lemma gb_del_in k l x : In x (gb_del k l) -> In x l.
Proof.
  induction l as [|[[j g] c] t IH]; [auto|]. cbn [gb_del]. destruct (j =? k); cbn [In]; intuition.
Qed.

Lemma gb_del_keys k l : NoDup (gb_keys l) -> NoDup (gb_keys (gb_del k l)) /\ ~ In k (gb_keys (gb_del k l)).
Proof.
  induction l as [|[[j g] c] t IH]; intros Hnd; [split; [constructor|auto]|].
  cbn [gb_keys map fst] in Hnd. apply NoDup_cons_iff in Hnd. destruct Hnd as [Hj Ht]. fold (gb_keys t) in *.
  cbn [gb_del]. destruct (Z.eqb_spec j k) as [->|Hne]; [split; assumption|].
  destruct (IH Ht) as [IH1 IH2]. cbn [gb_keys map fst]. fold (gb_keys (gb_del k t)). split.
  - constructor; [|exact IH1]. intros Hin. apply Hj.
    apply in_map_iff in Hin. destruct Hin as [w [<- Hw]]. exact (in_map _ _ _ (gb_del_in k t w Hw)).
  - intros [H|H]; [congruence|auto].
Qed.

Section Group.
Context {A W B : Type}.
Variables (key : A -> res Z) (elem : A -> res W) (dur : nat -> res bool).
Notation M := (x_group_by_until (B:=B) key elem dur).

Definition gwin_nexts (cs : list (cmd W B)) : list (nat * W) :=
  flat_map (fun c => match c with CWin g (Next x) => [(g, x)] | _ => [] end) cs.
Definition ghands (cs : list (cmd W B)) : list (nat * Z) :=
  flat_map (fun c => match c with CHand g k => [(g, k)] | _ => [] end) cs.

(* `for wrt in list(writers.values()): wrt.on_xxx()` hands nothing and unsubscribes nothing *)
Lemma ghands_all l (e : ev W) : ghands (gb_all l e) = [].
Proof. unfold gb_all. induction (gb_groups l); auto. Qed.
Lemma gb_all_keeps k l (e : ev W) : existsb (is_unsub (W:=W) (B:=B) k) (gb_all l e) = false.
Proof. unfold gb_all. induction (gb_groups l); auto. Qed.

(* the key has a live writer: the element goes there and nowhere else, no group is handed *)
Theorem group_existing s now (x : A) k g y :
  key x = Ok k -> gb_lookup k (gb_writers s) = Some g -> elem x = Ok y ->
  x_step M s now (ISrc 0%nat (Next x)) = (s, [CWin g (Next y)], Cont).
Proof. intros Hk Hl He. cbn [x_step x_group_by_until]. unfold gb_on_next. now rewrite Hk, Hl, He. Qed.

(* the key has no live writer: a new group (fresh id) is handed with that key,
   its duration is subscribed, and the element goes to the new group and nowhere else *)
Theorem group_new s now (x : A) k hot y :
  key x = Ok k -> gb_lookup k (gb_writers s) = None -> dur (gb_calls s) = Ok hot -> elem x = Ok y ->
  x_step M s now (ISrc 0%nat (Next x))
  = (GbSt (gb_writers s ++ [(k, gb_next s, if hot then S (gb_calls s) else 0%nat)]) (S (gb_next s)) (S (gb_calls s)),
     CHand (gb_next s) k :: (if hot then [CSub (S (gb_calls s))] else []) ++ [CWin (gb_next s) (Next y)], Cont).
Proof.
  intros Hk Hl Hd He. cbn [x_step x_group_by_until]. unfold gb_on_next. rewrite Hk, Hl, Hd, He. reflexivity.
Qed.

(* a group is handed iff the key has no live writer (and the duration mapper does not raise) *)
Theorem group_new_iff s now (x : A) k :
  key x = Ok k ->
  (ghands (snd (fst (x_step M s now (ISrc 0%nat (Next x))))) <> []
   <-> gb_lookup k (gb_writers s) = None /\ exists hot, dur (gb_calls s) = Ok hot).
Proof.
  intros Hk. cbn [x_step x_group_by_until]. unfold gb_on_next. rewrite Hk.
  destruct (gb_lookup k (gb_writers s)) as [g|] eqn:El.
  - split; [|intros [H _]; discriminate].
    destruct (elem x); cbn [fst snd].
    + intros H. contradiction.
    + intros H. destruct (H (ghands_all _ _)).
  - destruct (dur (gb_calls s)) as [hot|e] eqn:Ed.
    + split; [intros _; eauto|]. intros _. destruct (elem x); cbn; discriminate.
    + split; [|intros [_ [h Hh]]; discriminate].
      cbn [fst snd]. intros H. destruct (H (ghands_all _ _)).
Qed.

(* every element that is routed at all goes to exactly one group *)
Theorem group_route_one s now (x : A) :
  snd (x_step M s now (ISrc 0%nat (Next x))) = Cont ->
  exists g y, gwin_nexts (snd (fst (x_step M s now (ISrc 0%nat (Next x))))) = [(g, y)]
              /\ elem x = Ok y
              /\ exists k, key x = Ok k
                 /\ g = match gb_lookup k (gb_writers s) with Some g0 => g0 | None => gb_next s end.
Proof.
  cbn [x_step x_group_by_until]. unfold gb_on_next.
  destruct (key x) as [k|e] eqn:Hk; [|discriminate].
  destruct (gb_lookup k (gb_writers s)) as [g|] eqn:El.
  - destruct (elem x) as [y|e] eqn:He; [|discriminate]. intros _. exists g, y. cbn. repeat split. exists k. rewrite El. auto.
  - destruct (dur (gb_calls s)) as [hot|e] eqn:Ed; [|discriminate].
    destruct (elem x) as [y|e] eqn:He; [|discriminate]. intros _. exists (gb_next s), y.
    split; [destruct hot; reflexivity|]. split; [reflexivity|]. exists k. rewrite El. auto.
Qed.

(* the source's completion; an error on ANY port -- the source or a duration observable *)
Theorem group_source_done s now :
  x_step M s now (ISrc 0%nat Done) = (s, gb_all (gb_writers s) Done, Complete).
Proof. reflexivity. Qed.
Theorem group_source_error s now k e :
  x_step M s now (ISrc k (Err e)) = (s, gb_all (gb_writers s) (Err e), Fail e).
Proof. destruct k; reflexivity. Qed.

(* raising callbacks: every open group (the one just created included) and the outer get the error *)
Theorem group_key_raises s now (x : A) e :
  key x = Raise e -> x_step M s now (ISrc 0%nat (Next x)) = (s, gb_all (gb_writers s) (Err e), Fail e).
Proof. intros H. cbn [x_step x_group_by_until]. unfold gb_on_next. now rewrite H. Qed.

Theorem group_elem_raises_existing s now (x : A) k g e :
  key x = Ok k -> gb_lookup k (gb_writers s) = Some g -> elem x = Raise e ->
  x_step M s now (ISrc 0%nat (Next x)) = (s, gb_all (gb_writers s) (Err e), Fail e).
Proof. intros Hk Hl He. cbn [x_step x_group_by_until]. unfold gb_on_next. now rewrite Hk, Hl, He. Qed.

Theorem group_elem_raises_new s now (x : A) k hot e :
  key x = Ok k -> gb_lookup k (gb_writers s) = None -> dur (gb_calls s) = Ok hot -> elem x = Raise e ->
  let ws := gb_writers s ++ [(k, gb_next s, if hot then S (gb_calls s) else 0%nat)] in
  x_step M s now (ISrc 0%nat (Next x))
  = (GbSt ws (S (gb_next s)) (S (gb_calls s)),
     CHand (gb_next s) k :: (if hot then [CSub (S (gb_calls s))] else []) ++ gb_all ws (Err e), Fail e).
Proof.
  intros Hk Hl Hd He. cbn [x_step x_group_by_until]. unfold gb_on_next. rewrite Hk, Hl, Hd, He. reflexivity.
Qed.

Theorem group_dur_raises s now (x : A) k e :
  key x = Ok k -> gb_lookup k (gb_writers s) = None -> dur (gb_calls s) = Raise e ->
  x_step M s now (ISrc 0%nat (Next x))
  = (GbSt (gb_writers s ++ [(k, gb_next s, 0%nat)]) (S (gb_next s)) (S (gb_calls s)),
     gb_all (gb_writers s ++ [(k, gb_next s, 0%nat)]) (Err e), Fail e).
Proof. intros Hk Hl Hd. cbn [x_step x_group_by_until]. unfold gb_on_next. now rewrite Hk, Hl, Hd. Qed.

(* expiry: the first notification of a group's duration observable completes
   that group -- and only it -- and forgets its key *)
Theorem group_expire s now d (e : ev A) k g :
  (forall z, e <> Err z) -> gb_by_dur (S d) (gb_writers s) = Some (k, g) ->
  x_step M s now (ISrc (S d) e)
  = (GbSt (gb_del k (gb_writers s)) (gb_next s) (gb_calls s), [CWin g Done; CUnsub (S d)], Cont).
Proof.
  intros He Hd. cbn [x_step x_group_by_until].
  destruct e as [x|z|]; [| exfalso; eapply He; reflexivity |]; rewrite Hd; reflexivity.
Qed.

(* invariant of the writers table: keys are unique (it is a dict), group ids and
   duration sources are fresh *)
Definition gb_inv (s : gb_st) : Prop :=
  NoDup (gb_keys (gb_writers s))
  /\ (forall k g c, In (k, g, c) (gb_writers s) -> (g < gb_next s)%nat /\ (c <= gb_calls s)%nat).

(* seen again after its group expired: the key has no writer any more, so the
   next element with that key gets a NEW group *)
Theorem group_recreate_after_expiry s now d (e : ev A) k g :
  gb_inv s -> (forall z, e <> Err z) -> gb_by_dur (S d) (gb_writers s) = Some (k, g) ->
  gb_lookup k (gb_writers (fst (fst (x_step M s now (ISrc (S d) e))))) = None.
Proof.
  intros [Hnd _] He Hd. rewrite (group_expire s now d e k g He Hd). cbn [fst gb_writers].
  apply gb_lookup_none. apply gb_del_keys. exact Hnd.
Qed.

Theorem gb_inv_step s now i : gb_inv s -> gb_inv (fst (fst (x_step M s now i))).
Proof.
  intros [Hnd Hfr].
  assert (Hnew : forall k c, gb_lookup k (gb_writers s) = None -> (c <= S (gb_calls s))%nat ->
            gb_inv (GbSt (gb_writers s ++ [(k, gb_next s, c)]) (S (gb_next s)) (S (gb_calls s)))).
  { intros k c Hl Hc. split; cbn [gb_writers gb_next gb_calls].
    - apply gb_keys_fresh; assumption.
    - intros k' g' c' Hin. apply in_app_or in Hin. destruct Hin as [Hin|[Heq|[]]].
      + destruct (Hfr _ _ _ Hin). lia.
      + injection Heq as <- <- <-. lia. }
  assert (Hdel : forall k, gb_inv (GbSt (gb_del k (gb_writers s)) (gb_next s) (gb_calls s))).
  { intros k. split; cbn [gb_writers gb_next gb_calls]; [apply gb_del_keys, Hnd|].
    intros k' g' c' Hin. apply (Hfr k' g' c'), (gb_del_in k), Hin. }
  destruct i as [[|d] [x|z|]|tag| | |]; cbn [x_step x_group_by_until]; try (split; assumption).
  - unfold gb_on_next. destruct (key x) as [k|e]; [|split; assumption].
    destruct (gb_lookup k (gb_writers s)) as [g|] eqn:El; [destruct (elem x); split; assumption|].
    destruct (dur (gb_calls s)) as [hot|e]; [|apply Hnew; auto; lia].
    destruct (elem x); cbn [fst]; apply Hnew; auto; destruct hot; lia.
  - (* a duration port fires with an element *)
    destruct (gb_by_dur (S d) (gb_writers s)) as [[k g]|]; [apply Hdel|split; assumption].
  - (* ... or by completing *)
    destruct (gb_by_dur (S d) (gb_writers s)) as [[k g]|]; [apply Hdel|split; assumption].
Qed.

(* group_by_until never unsubscribes the main source itself (only duration observables) *)
Theorem group_never_unsubs_source : never_unsubs M 0%nat.
Proof.
  pose proof (gb_all_keeps 0) as Hall. intros s now i. destruct i as [[|d] [x|z|]|tag| | |]; cbn [x_step x_group_by_until fst snd]; try reflexivity;
    try apply Hall.
  - unfold gb_on_next. destruct (key x); [|apply Hall].
    destruct (gb_lookup _ _); [destruct (elem x); [reflexivity|apply Hall]|].
    destruct (dur (gb_calls s)) as [hot|e]; [|apply Hall].
    destruct (elem x); destruct hot; cbn [fst snd existsb is_unsub app orb]; try reflexivity; apply Hall.
  - destruct (gb_by_dur (S d) (gb_writers s)) as [[k g]|]; reflexivity.
  - destruct (gb_by_dur (S d) (gb_writers s)) as [[k g]|]; reflexivity.
Qed.

End Group.

Section PartitionFacts.
Context {A : Type}.
Variable pred : A -> res bool.

Definition goes_to (b : bool) (g : nat) : bool := match g with O => b | _ => negb b end.

(* a non-raising predicate: the element is delivered to the subscribers of output 0 if the
   predicate holds, of output 1 otherwise -- nobody else, nothing else changes *)
Theorem partition_deliver (x : A) b : pred x = Ok b -> forall todo subs conn,
  pt_deliver pred x todo subs conn
  = (subs, conn, map (fun g => OWin g (Next x)) (filter (goes_to b) todo)).
Proof.
  intros Hp. induction todo as [|g t IH]; intros subs conn; [reflexivity|]. cbn [pt_deliver filter].
  unfold pt_pred. rewrite Hp. destruct g as [|g]; cbn [goes_to].
  - destruct b; rewrite IH; reflexivity.
  - destruct b; cbn [negb]; rewrite IH; reflexivity.
Qed.

(* each element goes to exactly one of the two outputs: never to both *)
Theorem partition_exactly_one (x : A) b s : pred x = Ok b -> pt_conn s = true -> pt_stopped s = None ->
  let o := snd (pt_step pred s (ISrc 0%nat (Next x))) in
  (forall g, In (OWin g (Next x)) o <-> In g (pt_subs s) /\ goes_to b g = true)
  /\ ~ (In (OWin 0%nat (Next x)) o /\ In (OWin 1%nat (Next x)) o)
  /\ fst (pt_step pred s (ISrc 0%nat (Next x))) = s.
Proof.
  intros Hp Hc Hs. cbn zeta. cbn [pt_step]. rewrite Hc, Hs, (partition_deliver x b Hp). cbn [fst snd].
  assert (Hg : forall g, In (OWin (B:=unit) g (Next x)) (map (fun g => OWin g (Next x)) (filter (goes_to b) (pt_subs s)))
                         <-> In g (pt_subs s) /\ goes_to b g = true).
  { intros g. rewrite <- filter_In, in_map_iff. split; [intros [j [[= ->] H]]; exact H|intros H; exists g; auto]. }
  split; [exact Hg|split].
  - intros [H0 H1]. apply Hg in H0. apply Hg in H1. cbn [goes_to] in *. destruct H0 as [_ ->]. now destruct H1.
  - destruct s; cbn in *. subst. reflexivity.
Qed.

(* the source is subscribed iff some output subscriber is live; a terminated subject has none *)
Definition pt_inv (s : pt_st (A:=A)) : Prop :=
  (pt_conn s = true <-> pt_subs s <> []) /\ (pt_stopped s <> None -> pt_subs s = []).

Lemma pt_inv_empty st : pt_inv (PtSt [] false st).
Proof. split; cbn; [split; [discriminate|intros H; contradiction]|auto]. Qed.

Lemma pt_leave_inv subs conn : (conn = true <-> subs <> []) -> forall g,
  (fst (pt_leave (A:=A) (remove g subs) conn) = true <-> remove g subs <> []).
Proof.
  intros H g. unfold pt_leave. destruct (remove g subs) as [|j t] eqn:E.
  - destruct conn; cbn; split; intros H1; try discriminate; contradiction.
  - cbn [fst]. split; [intros _; discriminate|]. intros _. apply H. intros ->. discriminate.
Qed.

Lemma pt_deliver_inv (x : A) : forall todo subs conn, (conn = true <-> subs <> []) ->
  let '(s', c', _) := pt_deliver pred x todo subs conn in (c' = true <-> s' <> []).
Proof.
  induction todo as [|g t IH]; intros subs conn H; [exact H|]. cbn [pt_deliver].
  destruct (pt_pred pred g x) as [[|]|e].
  - specialize (IH subs conn H). destruct (pt_deliver pred x t subs conn) as [[s' c'] o]. exact IH.
  - apply IH. exact H.
  - pose proof (pt_leave_inv subs conn H g) as H1.
    destruct (pt_leave (A:=A) (remove g subs) conn) as [c1 o1]. cbn [fst] in H1.
    specialize (IH (remove g subs) c1 H1). destruct (pt_deliver pred x t (remove g subs) c1) as [[s' c'] o]. exact IH.
Qed.

Lemma pt_terminate_all (e : ev A) : forall l conn,
  fst (fst (pt_terminate e l l conn)) = [] /\ (l <> [] -> snd (fst (pt_terminate e l l conn)) = false).
Proof.
  induction l as [|g t IH]; intros conn; [split; [reflexivity|intros H; contradiction]|].
  cbn [pt_terminate]. rewrite remove_head.
  destruct (pt_leave (A:=A) t conn) as [c1 o1] eqn:El. specialize (IH c1).
  destruct (pt_terminate e t t c1) as [[s' c'] o] eqn:Et. cbn [fst snd] in *. destruct IH as [IH1 IH2].
  split; [exact IH1|]. intros _. destruct t as [|j t'].
  - cbn in Et. injection Et as <- <- <-. unfold pt_leave in El. destruct conn; injection El as <- <-; reflexivity.
  - apply IH2. discriminate.
Qed.

Lemma pt_step_terminal s (e : ev A) : is_terminal e = true -> pt_conn s = true -> pt_stopped s = None ->
  fst (pt_step pred s (ISrc 0%nat e)) = PtSt [] false (Some e).
Proof.
  intros He Hc Hs. cbn [pt_step]. rewrite Hc, Hs. destruct (pt_terminate_all e (pt_subs s) true) as [Ha _].
  destruct e as [x|z|]; [discriminate| |];
    destruct (pt_terminate _ (pt_subs s) (pt_subs s) true) as [[s' c'] o]; cbn [fst] in *; now subst s'.
Qed.

Theorem pt_step_inv s i : pt_inv s -> pt_inv (fst (pt_step pred s i)).
Proof.
  intros Hinv. pose proof Hinv as [H1 H2].
  destruct i as [[|k] e|tag| |g|g]; try exact Hinv.
  - (* the source: a terminal empties the subject; an element drops the subscribers whose predicate raises *)
    destruct (pt_conn s) eqn:Ec; [|cbn [pt_step]; rewrite Ec; exact Hinv].
    destruct (pt_stopped s) eqn:Es; [cbn [pt_step]; rewrite Ec, Es; exact Hinv|].
    destruct (is_terminal e) eqn:He.
    { rewrite (pt_step_terminal s e He Ec Es). apply pt_inv_empty. }
    destruct e as [x|z|]; try discriminate. cbn [pt_step]. rewrite Ec, Es.
    pose proof (pt_deliver_inv x (pt_subs s) (pt_subs s) true H1) as Hd.
    destruct (pt_deliver pred x (pt_subs s) (pt_subs s) true) as [[s' c'] o]. cbn [fst].
    split; cbn [pt_conn pt_subs pt_stopped]; [exact Hd|intros H; contradiction].
  - (* a subscription: connects when it is the first *)
    cbn [pt_step]. destruct (pt_stopped s) eqn:Es.
    + destruct (match pt_subs s with [] => true | _ => false end && negb (pt_conn s)); exact Hinv.
    + destruct (match pt_subs s with [] => true | _ => false end && negb (pt_conn s)) eqn:E; cbn [fst];
        split; cbn [pt_conn pt_subs pt_stopped]; try (intros H; contradiction).
      * split; [intros _; destruct (pt_subs s); discriminate|reflexivity].
      * split; [intros _; destruct (pt_subs s); discriminate|].
        intros _. destruct (pt_subs s) as [|j t] eqn:El.
        -- cbn in E. apply negb_false_iff in E. exact E.
        -- apply H1. discriminate.
  - (* a disposal: the connection goes with the last subscriber *)
    cbn [pt_step]. destruct (mem g (pt_subs s)); [|exact Hinv].
    pose proof (pt_leave_inv (pt_subs s) (pt_conn s) H1 g) as Hl.
    destruct (pt_leave (A:=A) (remove g (pt_subs s)) (pt_conn s)) as [c1 o1]. cbn [fst] in *.
    split; cbn [pt_conn pt_subs pt_stopped]; [exact Hl|].
    intros Hs. rewrite (H2 Hs). reflexivity.
Qed.

(* release: when the last output subscriber leaves, the source subscription is disposed
   at that very input; while another subscriber stays, it is kept *)
Theorem partition_last_leaves s g : pt_inv s -> pt_subs s = [g] ->
  pt_step pred s (IUnsubWin g) = (PtSt [] false (pt_stopped s), [OUnsub 0%nat]).
Proof.
  intros [H1 _] Hs. cbn [pt_step]. rewrite Hs. unfold Multi.mem. cbn [existsb]. rewrite Nat.eqb_refl. cbn [orb].
  rewrite remove_head. cbn [pt_leave].
  assert (pt_conn s = true) by (apply H1; rewrite Hs; discriminate). now rewrite H.
Qed.

Theorem partition_other_stays s g : mem g (pt_subs s) = true -> remove g (pt_subs s) <> [] ->
  pt_step pred s (IUnsubWin g) = (PtSt (remove g (pt_subs s)) (pt_conn s) (pt_stopped s), []).
Proof.
  intros Hm Hr. cbn [pt_step]. rewrite Hm. unfold pt_leave. destruct (remove g (pt_subs s)); [contradiction|reflexivity].
Qed.
End PartitionFacts.
