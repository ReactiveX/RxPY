(* C39 -- facts about the GENERATED tables (Gen/FluentTable.v, rewritten from
   reactivex/observable/mixins/*.py and reactivex/operators/__init__.py on every
   run).  The tables are finite, so these are closed computations (vm_compute);
   everything that quantifies over calls comes from Ops/FluentFacts.v.  The check
   [ok39] itself is never evaluated: [table_rows] recognises the pass-through methods,
   evaluates the thinner check on the others and the refuting witnesses, and
   [ok39_listed] concludes for [ok39]. *)
From Coq Require Import List String Bool.
From RxVerif Require Import Ops.Fluent Ops.FluentFacts Gen.FluentTable.
Import ListNotations.
Open Scope string_scope.

(* guard constants (`P is None`, `P is NotSet`) and delegation depth (self.m(...)) *)
Definition K39 : list const := ["None"; "NotSet"].
Definition fuel39 : nat := 2.

Definition ok39 (e : entry) : bool := entry_ok fluent_table op_table fuel39 K39 e.
Definition pos39 (e : entry) : bool := entry_pos_ok fluent_table op_table fuel39 K39 e.
Definition meth39 (e : entry) (c : call) : option result := eval_method fluent_table op_table fuel39 e c.
Definition dir39 (n : string) (c : call) : option result := direct op_table n c.

(* methods that do NOT forward every accepted call to the same-named operator
   (findings about /repo; witnesses below) *)
Definition known_mismatch : list string :=
  ["do"; "pluck_attr"; "skip_while_indexed"; "starmap_indexed"; "switch_map_indexed"; "take_while_indexed"].
(* of these, the ones whose only defect is the NAME of a parameter *)
Definition keyword_name_only : list string :=
  ["pluck_attr"; "skip_while_indexed"; "switch_map_indexed"; "take_while_indexed"].
(* methods that forward faithfully but accept fewer calls than the operator *)
Definition narrower_than_operator : list string := ["filter_indexed"; "map"; "multicast"; "switch_map"].

Definition listed (l : list string) (e : entry) : bool := mem (ename e) l.

Lemma table_guards : forallb (guards_in K39) fluent_table = true.
Proof. vm_cast_no_check (eq_refl true). Qed.

Lemma listed_false : forall l e, ~ In (ename e) l -> listed l e = false.
Proof.
  intros l e Hn. unfold listed. destruct (mem (ename e) l) eqn:Hm; [|reflexivity].
  apply mem_In in Hm. contradiction.
Qed.

(* refutations: a call the method accepts that a direct call of the same-named
   operator binds differently (or rejects) *)
Definition witness (n : string) : call :=
  if String.eqb n "do" then mkcall [VOpaque 0] []
  else if String.eqb n "pluck_attr" then mkcall [] [("attr", VOpaque 0)]
  else if String.eqb n "starmap_indexed" then mkcall [] []
  else if String.eqb n "switch_map_indexed" then mkcall [] [("mapper_indexed", VOpaque 0)]
  else mkcall [] [("predicate_indexed", VOpaque 0)].

Definition ores_eqb (a b : option result) : bool :=
  match a, b with Some x, Some y => result_eqb x y | None, None => true | _, _ => false end.

Lemma ores_eqb_refl : forall a, ores_eqb a a = true.
Proof. intros [r|]; [apply result_eqb_refl | reflexivity]. Qed.

Definition refutes_at (n : string) (e : entry) (c : call) : bool :=
  match bind (esig e) c with
  | Some _ => negb (ores_eqb (meth39 e c) (dir39 n c))
  | None => false
  end.

Lemma refutes_at_spec : forall n e c, refutes_at n e c = true ->
  exists b, bind (esig e) c = Some b /\ meth39 e c <> dir39 n c.
Proof.
  intros n e c H. unfold refutes_at in H. destruct (bind (esig e) c) as [b|]; [|discriminate].
  exists b. split; [reflexivity|]. intros Heq. rewrite Heq, ores_eqb_refl in H. discriminate.
Qed.

(* One sweep over the table.  A listed method is refuted by its witness, which by
   [forward_sound] also makes it fail the check; of the others, a pass-through method is
   recognised by its text, and the rest pass the check on the thinner family of
   Ops/FluentFacts.v; either is enough for the check itself. *)
Definition row_checked (e : entry) : bool :=
  if listed known_mismatch e then refutes_at (ename e) e (witness (ename e))
  else if passthrough op_table e then true
  else entry_ok_thin fluent_table op_table fuel39 K39 e.

Lemma table_rows : forallb row_checked fluent_table = true.
Proof. vm_compute. reflexivity. Qed.

Lemma ok39_listed : forall e, In e fluent_table -> ok39 e = negb (listed known_mismatch e).
Proof.
  intros e Hin. pose proof table_rows as H. rewrite forallb_forall in H. specialize (H e Hin).
  unfold row_checked in H. destruct (listed known_mismatch e); simpl.
  - destruct (ok39 e) eqn:Hok; [exfalso | reflexivity].
    destruct (refutes_at_spec _ _ _ H) as [b [Hb Hne]].
    destruct (forward_sound _ _ _ _ _ table_guards Hok _ _ Hb) as [r [A B]].
    apply Hne. unfold meth39, dir39. congruence.
  - destruct (passthrough op_table e) eqn:Hp; [exact (passthrough_ok _ _ _ _ _ Hp)|].
    exact (entry_ok_thin_full _ _ _ _ _ table_guards H).
Qed.

Lemma table_listed : map ename (filter (listed known_mismatch) fluent_table) = known_mismatch.
Proof. vm_compute. reflexivity. Qed.

Lemma table_ok : forall e, In e fluent_table -> ~ In (ename e) known_mismatch -> ok39 e = true.
Proof. intros e Hin Hn. rewrite (ok39_listed e Hin), (listed_false _ _ Hn). reflexivity. Qed.

Lemma table_positional : forallb (fun e => pos39 e && negb (has_varpos (esig e)))
                                 (filter (listed keyword_name_only) fluent_table) = true.
Proof. vm_cast_no_check (eq_refl true). Qed.

Lemma table_narrower :
  map ename (filter (fun e => negb (listed known_mismatch e) && negb (entry_sig_same op_table e)) fluent_table)
  = narrower_than_operator.
Proof. vm_cast_no_check (eq_refl narrower_than_operator). Qed.

Lemma table_names_unique : nodupb (map ename fluent_table) = true /\ nodupb (map oname op_table) = true.
Proof. split; vm_cast_no_check (eq_refl true). Qed.

Lemma table_every_method_has_operator :
  forallb (fun e => match find_op op_table (ename e) with Some _ => true | None => false end) fluent_table = true.
Proof. vm_cast_no_check (eq_refl true). Qed.

Lemma forwarding : forall e, In e fluent_table -> ~ In (ename e) known_mismatch ->
  forall c b, bind (esig e) c = Some b ->
  exists r, meth39 e c = Some r /\ dir39 (ename e) c = Some r.
Proof.
  intros e Hin Hn c b Hb.
  exact (forward_sound _ _ _ _ _ table_guards (table_ok e Hin Hn) c b Hb).
Qed.

Lemma forwarding_checked : forall e, In e fluent_table -> ok39 e = true ->
  forall c b, bind (esig e) c = Some b ->
  exists r, meth39 e c = Some r /\ dir39 (ename e) c = Some r.
Proof. intros e _ H c b Hb. exact (forward_sound _ _ _ _ _ table_guards H c b Hb). Qed.

Lemma exactness : forall e, In e fluent_table -> ~ In (ename e) known_mismatch ->
  ~ In (ename e) narrower_than_operator ->
  forall c, meth39 e c = dir39 (ename e) c.
Proof.
  intros e Hin Hn Hw c.
  apply (exact_sound _ _ _ _ _ table_guards (table_ok e Hin Hn)).
  destruct (entry_sig_same op_table e) eqn:Hs; [reflexivity|]. exfalso. apply Hw.
  rewrite <- table_narrower.
  apply (in_map ename (filter (fun e => negb (listed known_mismatch e) && negb (entry_sig_same op_table e))
                              fluent_table) e).
  apply (proj2 (filter_In (fun e => negb (listed known_mismatch e) && negb (entry_sig_same op_table e))
                          e fluent_table)).
  split; [exact Hin|]. rewrite Hs, (listed_false _ _ Hn). reflexivity.
Qed.

Lemma positional_forwarding : forall e, In e fluent_table -> In (ename e) keyword_name_only ->
  forall c b, ckws c = [] -> bind (esig e) c = Some b ->
  exists r, meth39 e c = Some r /\ dir39 (ename e) c = Some r.
Proof.
  intros e Hin Hl c b Hk Hb.
  pose proof table_positional as H. rewrite forallb_forall in H.
  assert (Hf : In e (filter (listed keyword_name_only) fluent_table)).
  { apply filter_In. split; [exact Hin|]. unfold listed. apply mem_In. exact Hl. }
  specialize (H e Hf). apply andb_true_iff in H. destruct H as [H1 H2]. apply negb_true_iff in H2.
  exact (positional_sound _ _ _ _ _ table_guards H1 H2 c b Hk Hb).
Qed.

Definition refutes (n : string) (c : call) : bool :=
  match find_entry fluent_table n with Some e => refutes_at n e c | None => false end.

Lemma table_refuted : forallb (fun n => refutes n (witness n)) known_mismatch = true.
Proof. vm_cast_no_check (eq_refl true). Qed.

(* the operator accepts the empty call (or, for multicast, a keyword) that the method rejects *)
Definition narrow_witness (n : string) : call :=
  if String.eqb n "multicast" then mkcall [] [("mapper", VOpaque 0)] else mkcall [] [].

Lemma table_narrower_witness :
  forallb (fun n => match find_entry fluent_table n with
                    | Some e => match meth39 e (narrow_witness n), dir39 n (narrow_witness n) with
                                | None, Some _ => true | _, _ => false end
                    | None => false end) narrower_than_operator = true.
Proof. vm_cast_no_check (eq_refl true). Qed.
