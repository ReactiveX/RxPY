(* C44 -- connections, and factory cells that are written but only read through a normalisation.

   Ops/Closure.v has three kinds of events (apply, subscribe, one handler run).  The property text
   also interleaves CONNECTIONS: `connect()` acts on an application (a connectable observable)
   without a subscription.  The model of Ops/Closure.v with that fourth kind of event:

     aprog     a levelled program [ap_base] plus the code of an action on an application:
               [act_f] / [act_a] -- it may read and write factory- and application-level cells
     aevent    AEv e (an event of Ops/Closure.v, same semantics) | AAct k x (action x on application k)
     exec_shared_act / exec_fresh_act
               the two semantics of Ops/Closure.v with the action added; on histories without
               actions they are those of Ops/Closure.v ([act_conservative]).

   The simulation is proved once, up to a normalisation [norm : F -> F] of the factory state:
     writes_upto   every write to F (apply, subscribe, handler, action) leaves [norm f] unchanged
     reads_upto    all other code reads F only through [norm]
   [act_upto_generic]: then shared = fresh in EVERY history.  Corollaries:
     act_generic           norm = identity: the generic theorem of C44 with connections
     benign_generic        the model of Ops/Closure.v, any norm (norm need not be idempotent, and
                           any code may write F as long as norm is kept);
                           at norm = identity it is C44_generic ([frame_F_is_upto_id])
   and the witness programs of Props/C44.v: a factory-level `connection` cell written by connect
   distinguishes shared from fresh; a normalised factory cell read RAW distinguishes them too
   (the hypothesis reads_upto is needed). *)
From Coq Require Import List ZArith.
From RxVerif Require Import Ops.Closure.
Import ListNotations.

Lemma map_upd : forall (X Y : Type) (g : X -> Y) (l : list X) k x,
  map g (upd l k x) = upd (map g l) k (g x).
Proof. induction l; destruct k; simpl; intros; auto. f_equal. auto. Qed.

Lemma Forall_upd : forall (X : Type) (P : X -> Prop) (l : list X) k x,
  Forall P l -> P x -> Forall P (upd l k x).
Proof.
  induction l as [|y r IH]; intros k x Hl Hx; destruct k; cbn; auto.
  - inversion Hl; subst. constructor; auto.
  - inversion Hl; subst. constructor; auto.
Qed.

Lemma Forall_nth_error : forall (X : Type) (P : X -> Prop) (l : list X) k x,
  Forall P l -> nth_error l k = Some x -> P x.
Proof.
  intros X P l k x Hl E. rewrite Forall_forall in Hl. apply Hl. eapply nth_error_In; eauto.
Qed.

Section ActModel.
  Variables Src In Act Out F A S : Type.

  Record aprog := mk_aprog {
    ap_base : lprog Src In Out F A S;
    act_f : F -> A -> Act -> F;           (* connect(): writes to factory-level cells *)
    act_a : F -> A -> Act -> A }.         (*            ... and to application-level cells *)

  Inductive aevent :=
  | AEv (e : event Src In)                (* apply / subscribe / handler run, as in Ops/Closure.v *)
  | AAct (k : nat) (x : Act).             (* action x (a connection) on application k *)

  Variable q : aprog.
  Local Notation p := (ap_base q).
  Local Notation sstate' := (sstate Src F A S).
  Local Notation fstate' := (fstate Src F A S).
  Local Notation obs' := (obs In Out).

  Definition step_shared_act (st : sstate') (e : aevent) : sstate' * list obs' :=
    match e with
    | AEv e => step_shared _ _ _ _ _ _ p st e
    | AAct k x =>
        match nth_error (s_apps _ _ _ _ st) k with
        | Some (src, a) =>
            (mk_ss _ _ _ _ (act_f q (s_f _ _ _ _ st) a x)
                   (upd (s_apps _ _ _ _ st) k (src, act_a q (s_f _ _ _ _ st) a x))
                   (s_subs _ _ _ _ st), [])
        | None => (st, [])
        end
    end.

  Fixpoint exec_shared_act (st : sstate') (h : list aevent) : sstate' * list obs' :=
    match h with
    | [] => (st, [])
    | e :: r => let '(st1, o) := step_shared_act st e in
                let '(st2, t) := exec_shared_act st1 r in (st2, o ++ t)
    end.
  Definition trace_shared_act (h : list aevent) : list obs' :=
    snd (exec_shared_act (init_shared _ _ _ _ _ _ p) h).

  Definition step_fresh_act (st : fstate') (e : aevent) : fstate' * list obs' :=
    match e with
    | AEv e => step_fresh _ _ _ _ _ _ p st e
    | AAct k x =>
        match nth_error (f_apps _ _ _ _ st) k with
        | Some (src, f, a) =>
            (mk_fs _ _ _ _ (upd (f_apps _ _ _ _ st) k (src, act_f q f a x, act_a q f a x))
                   (f_subs _ _ _ _ st), [])
        | None => (st, [])
        end
    end.

  Fixpoint exec_fresh_act (st : fstate') (h : list aevent) : fstate' * list obs' :=
    match h with
    | [] => (st, [])
    | e :: r => let '(st1, o) := step_fresh_act st e in
                let '(st2, t) := exec_fresh_act st1 r in (st2, o ++ t)
    end.
  Definition trace_fresh_act (h : list aevent) : list obs' :=
    snd (exec_fresh_act (init_fresh _ _ _ _) h).

  Lemma act_conservative_shared : forall h st,
    exec_shared_act st (map AEv h) = exec_shared _ _ _ _ _ _ p st h.
  Proof.
    induction h as [|e r IH]; intros; cbn [map exec_shared_act exec_shared step_shared_act]; [reflexivity|].
    destruct (step_shared _ _ _ _ _ _ p st e) as [st1 o]. rewrite IH. reflexivity.
  Qed.

  Lemma act_conservative_fresh : forall h st,
    exec_fresh_act st (map AEv h) = exec_fresh _ _ _ _ _ _ p st h.
  Proof.
    induction h as [|e r IH]; intros; cbn [map exec_fresh_act exec_fresh step_fresh_act]; [reflexivity|].
    destruct (step_fresh _ _ _ _ _ _ p st e) as [st1 o]. rewrite IH. reflexivity.
  Qed.

  Theorem act_conservative : forall h,
    trace_shared_act (map AEv h) = trace_shared _ _ _ _ _ _ p h
    /\ trace_fresh_act (map AEv h) = trace_fresh _ _ _ _ _ _ p h.
  Proof.
    intros. unfold trace_shared_act, trace_fresh_act, trace_shared, trace_fresh.
    rewrite act_conservative_shared, act_conservative_fresh. split; reflexivity.
  Qed.

  Variable norm : F -> F.

  Definition writes_upto : Prop :=
    (forall f src, norm (app_f _ _ _ _ _ _ p f src) = norm f)
    /\ (forall f a, norm (sub_f _ _ _ _ _ _ p f a) = norm f)
    /\ (forall f a s i, norm (run_f _ _ _ _ _ _ p f a s i) = norm f)
    /\ (forall f a x, norm (act_f q f a x) = norm f).

  Definition reads_upto : Prop :=
    (forall f src, app_a _ _ _ _ _ _ p f src = app_a _ _ _ _ _ _ p (norm f) src)
    /\ (forall f a, sub_a _ _ _ _ _ _ p f a = sub_a _ _ _ _ _ _ p (norm f) a)
    /\ (forall f a, sub_s _ _ _ _ _ _ p f a = sub_s _ _ _ _ _ _ p (norm f) a)
    /\ (forall f a s i, run_a _ _ _ _ _ _ p f a s i = run_a _ _ _ _ _ _ p (norm f) a s i)
    /\ (forall f a s i, run_s _ _ _ _ _ _ p f a s i = run_s _ _ _ _ _ _ p (norm f) a s i)
    /\ (forall f a s i, run_o _ _ _ _ _ _ p f a s i = run_o _ _ _ _ _ _ p (norm f) a s i)
    /\ (forall f a x, act_a q f a x = act_a q (norm f) a x).

  Local Notation new_f' := (new_f _ _ _ _ _ _ p).
  Definition erase (x : Src * F * A) : Src * A := (fst (fst x), snd x).
  Definition fok (x : Src * F * A) : Prop := norm (snd (fst x)) = norm new_f'.

  Definition simu (st : sstate') (ft : fstate') : Prop :=
    norm (s_f _ _ _ _ st) = norm new_f'
    /\ map erase (f_apps _ _ _ _ ft) = s_apps _ _ _ _ st
    /\ Forall fok (f_apps _ _ _ _ ft)
    /\ f_subs _ _ _ _ ft = s_subs _ _ _ _ st.

  (* the shape all events on an existing application share: the factory state and application k are
     replaced, on both sides, by values with the normal form of a fresh factory state *)
  Lemma simu_upd : forall fapps k src f1 f1' a1 subs,
    Forall fok fapps -> norm f1 = norm new_f' -> norm f1' = norm new_f' ->
    simu (mk_ss _ _ _ _ f1 (upd (map erase fapps) k (src, a1)) subs)
         (mk_fs _ _ _ _ (upd fapps k (src, f1', a1)) subs).
  Proof.
    intros fapps k src f1 f1' a1 subs Hok H1 H1'. repeat split; cbn; auto.
    - rewrite map_upd. reflexivity.
    - apply Forall_upd; [exact Hok | exact H1'].
  Qed.

  Lemma fok_nth : forall fapps k src f' a,
    Forall fok fapps -> nth_error fapps k = Some (src, f', a) -> norm f' = norm new_f'.
  Proof. intros fapps k src f' a Hok E. exact (Forall_nth_error _ _ _ _ _ Hok E). Qed.

  (* In each case the shared side reads its factory state f, the fresh side the state f' of the
     application concerned; both have the normal form of a fresh state, so what is read through
     norm is first rewritten from f to f'. *)
  Lemma step_simu : writes_upto -> reads_upto -> forall st ft e, simu st ft ->
    simu (fst (step_shared_act st e)) (fst (step_fresh_act ft e))
    /\ snd (step_shared_act st e) = snd (step_fresh_act ft e).
  Proof.
    intros [Wa [Ws [Wr Wx]]] [Ra [Rsa [Rss [Rra [Rrs [Rro Rx]]]]]]
           [f apps subs] [fapps fsubs] e [Hf [Ha [Hok Hs]]]; cbn in Hf, Ha, Hok, Hs; subst apps subs.
    (* an event that finds no such application or subscription leaves both states as they are *)
    assert (Hsame : simu (mk_ss _ _ _ _ f (map erase fapps) fsubs) (mk_fs _ _ _ _ fapps fsubs))
      by (repeat split; auto).
    destruct e as [[src | k | j i] | k x]; cbn.
    - (* apply *)
      split; [|reflexivity]. repeat split; cbn.
      + rewrite Wa. exact Hf.
      + rewrite map_app. cbn. unfold erase at 2. cbn. rewrite (Ra f), Hf, <- (Ra new_f'). reflexivity.
      + apply Forall_app. split; [exact Hok|]. constructor; [|constructor]. unfold fok. cbn. apply Wa.
    - (* subscribe *)
      rewrite nth_error_map. destruct (nth_error fapps k) as [[[src f'] a]|] eqn:E; cbn; [|exact (conj Hsame eq_refl)].
      pose proof (fok_nth _ _ _ _ _ Hok E) as Hk.
      rewrite (Rsa f), (Rss f), Hf, <- Hk, <- (Rsa f'), <- (Rss f').
      split; [|reflexivity]. apply simu_upd; [exact Hok | rewrite Ws; exact Hf | rewrite Ws; exact Hk].
    - (* one handler run *)
      destruct (nth_error fsubs j) as [[k s]|] eqn:Ej; cbn; [|exact (conj Hsame eq_refl)].
      rewrite nth_error_map. destruct (nth_error fapps k) as [[[src f'] a]|] eqn:E; cbn; [|exact (conj Hsame eq_refl)].
      pose proof (fok_nth _ _ _ _ _ Hok E) as Hk.
      rewrite (Rra f), (Rrs f), (Rro f), Hf, <- Hk, <- (Rra f'), <- (Rrs f'), <- (Rro f').
      split; [|reflexivity]. apply simu_upd; [exact Hok | rewrite Wr; exact Hf | rewrite Wr; exact Hk].
    - (* action on an application *)
      rewrite nth_error_map. destruct (nth_error fapps k) as [[[src f'] a]|] eqn:E; cbn; [|exact (conj Hsame eq_refl)].
      pose proof (fok_nth _ _ _ _ _ Hok E) as Hk.
      rewrite (Rx f), Hf, <- Hk, <- (Rx f').
      split; [|reflexivity]. apply simu_upd; [exact Hok | rewrite Wx; exact Hf | rewrite Wx; exact Hk].
  Qed.

  Lemma exec_simu : writes_upto -> reads_upto -> forall h st ft, simu st ft ->
    snd (exec_shared_act st h) = snd (exec_fresh_act ft h).
  Proof.
    intros HW HR. induction h as [|e r IH]; intros st ft Hs; cbn [exec_shared_act exec_fresh_act]; auto.
    destruct (step_simu HW HR st ft e Hs) as [Hs' Ho].
    destruct (step_shared_act st e) as [st1 o] eqn:E1. destruct (step_fresh_act ft e) as [ft1 o'] eqn:E2.
    cbn in *. subst o'. specialize (IH st1 ft1 Hs').
    destruct (exec_shared_act st1 r) as [st2 t]. destruct (exec_fresh_act ft1 r) as [ft2 t'].
    cbn in *. congruence.
  Qed.

  Theorem act_upto_generic : writes_upto -> reads_upto ->
    forall h, trace_shared_act h = trace_fresh_act h.
  Proof.
    intros HW HR h. unfold trace_shared_act, trace_fresh_act. apply exec_simu; auto.
    repeat split; cbn; auto.
  Qed.
End ActModel.

Arguments AEv {Src In Act}.
Arguments AAct {Src In Act}.

Section ActGeneric.
  Variables Src In Act Out F A S : Type.
  Variable q : aprog Src In Act Out F A S.

  (* no code below the factory, the action included, writes a factory-level cell *)
  Definition frame_F_act : Prop :=
    frame_F _ _ _ _ _ _ (ap_base _ _ _ _ _ _ _ q) /\ (forall f a x, act_f _ _ _ _ _ _ _ q f a x = f).

  Theorem act_generic : frame_F_act ->
    forall h, trace_shared_act _ _ _ _ _ _ _ q h = trace_fresh_act _ _ _ _ _ _ _ q h.
  Proof.
    intros [[Fa [Fs Fr]] Fx]. apply (act_upto_generic _ _ _ _ _ _ _ q (fun f => f)).
    - repeat split; intros; auto.
    - repeat split; intros; reflexivity.
  Qed.
End ActGeneric.

(* a normalisation in the model of Ops/Closure.v (no actions) *)
Section Benign.
  Variables Src In Out F A S : Type.
  Variable p : lprog Src In Out F A S.
  Variable norm : F -> F.

  (* the program with an action that does nothing (the action type is empty anyway) *)
  Definition no_act : aprog Src In Empty_set Out F A S :=
    mk_aprog _ _ _ _ _ _ _ p (fun f _ _ => f) (fun _ a _ => a).

  (* every write to F leaves its normal form unchanged *)
  Definition frame_F_upto : Prop :=
    (forall f src, norm (app_f _ _ _ _ _ _ p f src) = norm f)
    /\ (forall f a, norm (sub_f _ _ _ _ _ _ p f a) = norm f)
    /\ (forall f a s i, norm (run_f _ _ _ _ _ _ p f a s i) = norm f).

  (* all other code reads F only through norm *)
  Definition reads_F_through : Prop :=
    (forall f src, app_a _ _ _ _ _ _ p f src = app_a _ _ _ _ _ _ p (norm f) src)
    /\ (forall f a, sub_a _ _ _ _ _ _ p f a = sub_a _ _ _ _ _ _ p (norm f) a)
    /\ (forall f a, sub_s _ _ _ _ _ _ p f a = sub_s _ _ _ _ _ _ p (norm f) a)
    /\ (forall f a s i, run_a _ _ _ _ _ _ p f a s i = run_a _ _ _ _ _ _ p (norm f) a s i)
    /\ (forall f a s i, run_s _ _ _ _ _ _ p f a s i = run_s _ _ _ _ _ _ p (norm f) a s i)
    /\ (forall f a s i, run_o _ _ _ _ _ _ p f a s i = run_o _ _ _ _ _ _ p (norm f) a s i).

  Theorem benign_generic : frame_F_upto -> reads_F_through ->
    forall h, trace_shared _ _ _ _ _ _ p h = trace_fresh _ _ _ _ _ _ p h.
  Proof.
    intros [Wa [Ws Wr]] [Ra [Rsa [Rss [Rra [Rrs Rro]]]]] h.
    destruct (act_conservative _ _ _ _ _ _ _ no_act h) as [H1 H2]. cbn [no_act ap_base] in H1, H2.
    rewrite <- H1, <- H2.
    apply (act_upto_generic _ _ _ _ _ _ _ no_act norm).
    - repeat split; intros; cbn; auto.
    - repeat split; intros; cbn; auto.
  Qed.
End Benign.

(* frame_F is the special case norm = identity: C44_generic is an instance of benign_generic *)
Lemma frame_F_is_upto_id : forall Src In Out F A S (p : lprog Src In Out F A S),
  frame_F _ _ _ _ _ _ p -> frame_F_upto _ _ _ _ _ _ p (fun f => f) /\ reads_F_through _ _ _ _ _ _ p (fun f => f).
Proof.
  intros Src In Out F A S p [Fa [Fs Fr]]. split; repeat split; intros; auto.
Qed.

(* Witness programs.  ConnectableObservable / ref_count as repaired: the connection flag is an APPLICATION-level
   cell written by connect(); a factory-level argument (5) is read by the output.  Handler runs
   deliver only while connected. *)
Definition prog_connect_app : aprog unit Z unit (option Z) Z bool unit :=
  mk_aprog _ _ _ _ _ _ _
    (mk_lprog _ _ _ _ _ _ 5%Z
       (fun f _ => f) (fun _ _ => false)
       (fun f _ => f) (fun _ a => a) (fun _ _ => tt)
       (fun f _ _ _ => f) (fun _ a _ _ => a) (fun _ _ s _ => s)
       (fun f a _ i => if a then Some (f + i)%Z else None))
    (fun f _ _ => f) (fun _ _ _ => true).

(* the same connection flag kept in the FACTORY closure (the shape of ref_count_'s former
   `connection`): connecting the first application connects, in the shared semantics, the second
   too -- it delivers although it was never connected *)
Definition prog_connect_factory : aprog unit Z unit (option Z) bool unit unit :=
  mk_aprog _ _ _ _ _ _ _
    (mk_lprog _ _ _ _ _ _ false
       (fun f _ => f) (fun _ _ => tt)
       (fun f _ => f) (fun _ a => a) (fun _ _ => tt)
       (fun f _ _ _ => f) (fun _ a _ _ => a) (fun _ _ s _ => s)
       (fun f _ _ i => if f then Some i else None))
    (fun _ _ _ => true) (fun _ a _ => a).

(* skip_last_with_time_: `duration` is a factory-level cell, subscribe overwrites it with its
   normalisation (to_timedelta, idempotent; here Z.abs) and the handlers read it -- normalised.
   frame_F fails (subscribe writes F), the benign theorem applies. *)
Definition prog_norm_duration : lprog unit Z Z Z unit unit :=
  mk_lprog _ _ _ _ _ _ (-3)%Z
    (fun f _ => f) (fun _ _ => tt)
    (fun f _ => Z.abs f) (fun _ a => a) (fun _ _ => tt)
    (fun f _ _ _ => f) (fun _ a _ _ => a) (fun _ _ s _ => s) (fun f _ _ i => (Z.abs f + i)%Z).

(* the same written cell read RAW by subscribe (before it is normalised): the first subscription
   anywhere changes what a later subscription of ANOTHER application captures -- the hypothesis
   reads_F_through cannot be dropped *)
Definition prog_raw_duration : lprog unit Z Z Z unit Z :=
  mk_lprog _ _ _ _ _ _ (-3)%Z
    (fun f _ => f) (fun _ _ => tt)
    (fun f _ => Z.abs f) (fun _ a => a) (fun f _ => f)
    (fun f _ _ _ => f) (fun _ a _ _ => a) (fun _ _ s _ => s) (fun _ _ s i => (s + i)%Z).
