(* C09: what a prefix on which the callbacks returned leaves behind, for take_while_indexed (predicate with
   the running index) and to_dict (key mapper / element mapper). *)
From RxVerif Require Import Base.Prelude Ops.Machine Ops.MachineFacts Ops.Elementwise Ops.Aggregates
  Ops.FirstRaise.

Section TakeWhileIndexed.
Context {A : Type}.

(* the predicate returned True on every element of pre, called with the indices i, i+1, ... *)
Fixpoint trues_i (p : A -> nat -> res bool) (i : nat) (pre : list A) : Prop :=
  match pre with [] => True | y :: r => p y i = Ok true /\ trues_i p (S i) r end.

Lemma state_after_take_while_indexed (p : A -> nat -> res bool) inc pre : forall i,
  trues_i p i pre ->
  state_after (op_take_while_indexed p inc) (true, i) pre = Some (true, (i + length pre)%nat).
Proof.
  induction pre as [|y r IH]; intros i H; cbn [state_after length trues_i] in *.
  - now rewrite Nat.add_0_r.
  - destruct H as [Hy Hr]. cbn [op_take_while_indexed m_next negb]. rewrite Hy. cbn [live].
    rewrite (IH _ Hr). now rewrite <- plus_n_Sm.
Qed.

Lemma take_while_indexed_prefix (p : A -> nat -> res bool) inc pre : forall i k,
  trues_i p i pre ->
  exec_from (op_take_while_indexed p inc) (true, i) k (map Next pre) = nexts (indexed k pre).
Proof.
  induction pre as [|y r IH]; intros i k H; [reflexivity|].
  destruct H as [Hy Hr]. cbn [map exec_from op_take_while_indexed m_next negb indexed].
  rewrite Hy. cbn [emit live map app]. rewrite (IH _ _ Hr). reflexivity.
Qed.

End TakeWhileIndexed.

Section ToDict.
Context {A K V : Type}.

(* both mappers returned on every element of pre *)
Definition both_ok (key : A -> res K) (el : A -> res V) (pre : list A) : Prop :=
  Forall (fun y => (exists k, key y = Ok k) /\ exists v, el y = Ok v) pre.

Lemma state_after_to_dict keq (key : A -> res K) (el : A -> res V) pre : forall d,
  both_ok key el pre -> exists d', state_after (op_to_dict keq key el) d pre = Some d'.
Proof.
  induction pre as [|y r IH]; intros d H; cbn [state_after]; [eauto|].
  inversion H as [|? ? [[k Hk] [v Hv]] Hr]; subst. cbn [op_to_dict m_next]. rewrite Hk, Hv. cbn [live].
  apply IH. exact Hr.
Qed.

End ToDict.
