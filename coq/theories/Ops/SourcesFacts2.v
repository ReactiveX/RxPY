(* C37: the source machines (Ops/Sources.v) and the clock.
   - timer(d, p), d <> p: the VALUES 0, 1, 2, ... for ANY clock readings and any d, p (late
     firings, the catch-up branch, p <= 0 included);
   - [on_time]: every timer fires exactly when due.  Then generate_with_relative_time's firing i+1
     happens at the subscription instant plus the delays d(x_0) .. d(x_(i-1)). *)
From RxVerif Require Import Base.Prelude Ops.Machine Ops.MachineFacts Ops.Multi Ops.MultiFacts Ops.Sources Ops.SourcesFacts.

Local Open Scope nat_scope.

Lemma timer_period_values_trace d p : forall nows dt count tag k,
  temitted (chain_trace (x_timer_period d p) tdp_tag (dt, count, tag) k nows)
  = nexts (indexed k (map (fun j => (count + Z.of_nat j)%Z) (seq 0 (length nows)))).
Proof.
  induction nows as [|now rest IH]; intros dt count tag k; [reflexivity|].
  cbn [chain_trace x_timer_period x_step tdp_tag snd length].
  now rewrite temitted_app, temitted_group, IH, counter_cons.
Qed.

(* instant of firing k (0 = the subscription, at [t0]; firing k >= 1 happens at the k-th clock
   reading) *)
Definition firing_instant (t0 : Z) (nows : list Z) (k : nat) : Z :=
  match k with O => t0 | S j => nth j nows 0%Z end.

(* every timer fires exactly when due: the timer with tag t (fired by firing t+1) scheduled
   during firing k with delay dl fires at the instant of firing k plus max(dl, 0) *)
Definition on_time {B} (t0 : Z) (tr : list (nat * obs B)) (nows : list Z) : Prop :=
  Forall (fun x : nat * (nat * Z) =>
            firing_instant t0 nows (S (fst (snd x)))
            = (firing_instant t0 nows (fst x) + Z.max (snd (snd x)) 0)%Z) (ttimers tr).

Definition delays_sum (d : Z -> Z) (l : list Z) : Z := fold_right Z.add 0%Z (map (fun x => Z.max (d x) 0) l).

Lemma delays_sum_app d a b : delays_sum d (a ++ b) = (delays_sum d a + delays_sum d b)%Z.
Proof. unfold delays_sum. induction a as [|x t IH]; cbn [app map fold_right]; [lia|]. rewrite IH. lia. Qed.

Lemma firstn_snoc (ws : list Z) : forall i, i < length ws -> firstn (S i) ws = firstn i ws ++ [nth i ws 0%Z].
Proof.
  induction ws as [|x t IH]; intros i Hi; [cbn in Hi; lia|].
  destruct i as [|i]; [reflexivity|]. cbn [length] in Hi.
  change (firstn (S (S i)) (x :: t)) with (x :: firstn (S i) t). rewrite IH by lia. reflexivity.
Qed.

Lemma indexed_In {A} (ws : list A) (dflt : A) : forall k i, i < length ws -> In (k + i, nth i ws dflt) (indexed k ws).
Proof.
  induction ws as [|x t IH]; intros k i Hi; [cbn in Hi; lia|].
  destruct i as [|i]; cbn [indexed nth].
  - left. f_equal. lia.
  - right. replace (k + S i) with (S k + i) by lia. apply IH. cbn [length] in Hi. lia.
Qed.

Section GwrtTimes.
Context (c : Z -> bool) (f : Z -> Z) (d : Z -> Z).

Theorem gwrt_times init fuel nows t0 :
  let ws := while_states fuel c f init in
  length ws < fuel -> length nows = S (length ws) ->
  let tr := fst (run (x_gwrt init (fun x => Ok (c x)) (fun x => Ok (f x)) (fun x => Ok (d x))) (tick_ins 0 nows)) in
  on_time t0 tr nows ->
  forall i, i <= length ws -> firing_instant t0 nows (S i) = (t0 + delays_sum d (firstn i ws))%Z.
Proof.
  intros ws Hlt Hn tr Hot.
  destruct (gwrt_spec c f d init fuel nows Hlt Hn) as [_ T]. fold ws in T. fold tr in T.
  unfold on_time in Hot. rewrite T in Hot. rewrite Forall_forall in Hot.
  induction i as [|i IH]; intros Hi.
  - specialize (Hot (0, (0, 0%Z)) ltac:(left; reflexivity)). cbn [fst snd firing_instant] in Hot.
    cbn [firing_instant firstn]. rewrite Hot. unfold delays_sum. cbn. lia.
  - assert (Hi' : i < length ws) by lia.
    specialize (Hot (S i, (S i, d (nth i ws 0%Z)))).
    cbn [fst snd] in Hot. rewrite Hot.
    + rewrite IH by lia. rewrite (firstn_snoc ws i Hi'), delays_sum_app.
      unfold delays_sum at 3. cbn [map fold_right]. lia.
    + right. apply in_map_iff. exists (i, nth i ws 0%Z). split; [reflexivity|].
      apply (indexed_In ws 0%Z 0 i Hi').
Qed.

End GwrtTimes.
