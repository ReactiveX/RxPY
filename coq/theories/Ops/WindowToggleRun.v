(* C18: window_toggle at run level.  Over ALL interleavings of the notifications of the source
   (port 0), of the openings (port 1) and of the closing observables the closing mapper makes
   (port 2+g for the observable made for window g), what the subscribers of [x_window_toggle]
   (Ops/Windows.v, operators/_window.py over _groupjoin.py) see -- handed windows, window
   notifications, outer notifications; every window subscribed when handed -- equals a walk whose
   state is: is the source / are the openings still listened to, and the list [cls] of the windows
   whose closing observable is still subscribed, each flagged open or not (opening order):
     - a source element goes to exactly the open windows, in opening order;
     - an element of the openings hands a new window g and subscribes a NEW closing observable
       (port 2+g) made by the g-th call of the mapper; if that call raises, the new window is
       handed and then every open window, the new one included, and the outer end with the error;
     - the first notification of window g's closing observable, an element or its completion,
       completes exactly window g;
     - the source's completion completes every open window (the closing observables stay
       subscribed; what they send later closes nothing); windows opened later receive nothing;
     - the openings' completion completes the outer sequence; the open windows go on;
     - an error on any subscribed port goes to every open window and to the outer (if still live);
     - once the outer has ended and no window is open, everything is released: nothing is heard. *)
From RxVerif Require Import Base.Prelude Ops.Machine Ops.MultiFacts Ops.MultiWin Ops.MultiWinFacts Ops.Windows
  Ops.WindowCountFacts Ops.WindowFacts Ops.WinSim.

Local Arguments Multi.mem : simpl never.
Local Arguments Multi.remove : simpl never.

Definition is_vis {W B} (o : obs W B) : bool := match o with OHand _ _ | OWin _ _ | OEmit _ => true | _ => false end.
Definition visible {W B} (tr : list (nat * obs W B)) : list (nat * obs W B) := filter (fun x => is_vis (snd x)) tr.

Lemma visible_app {W B} (a b : list (nat * obs W B)) : visible (a ++ b) = visible a ++ visible b.
Proof. unfold visible. apply filter_app. Qed.
Lemma visible_tag {W B} k (o : list (obs W B)) : visible (map (fun x => (k, x)) o) = map (fun x => (k, x)) (filter is_vis o).
Proof. unfold visible. induction o as [|x t IH]; [reflexivity|]. cbn [map filter snd]. destruct (is_vis x); cbn [map]; now rewrite IH. Qed.
Lemma visible_step {A W B} imm (m : machine A W B) s r pos t i (rest : list (Z * inp A)) s' r' o :
  rstep imm m s r t i = (s', r', o) ->
  visible (fst (run_from imm m s r pos ((t, i) :: rest)))
  = map (fun x => (pos, x)) (filter is_vis o) ++ visible (fst (run_from imm m s' r' (S pos) rest)).
Proof. intros E. rewrite run_from_cons, E. cbn [fst snd]. now rewrite visible_app, visible_tag. Qed.

Lemma vis_release {W B} (l1 l2 : list nat) : filter is_vis (map (@OUnsub W B) l1 ++ map (@OCancel W B) l2) = [].
Proof.
  rewrite filter_app.
  assert (H1 : forall l, filter is_vis (map (@OUnsub W B) l) = []) by (induction l; auto).
  assert (H2 : forall l, filter is_vis (map (@OCancel W B) l) = []) by (induction l; auto).
  now rewrite H1, H2.
Qed.
Lemma vis_unsubs {W B} (l : list nat) : filter is_vis (map (@OUnsub W B) l) = [].
Proof. induction l; auto. Qed.
Lemma vis_wins {W B} (e : ev W) q : filter is_vis (map (fun j => @OWin W B j e) q) = map (fun j => OWin j e) q.
Proof. induction q as [|j t IH]; [reflexivity|]. cbn [map filter is_vis]. now rewrite IH. Qed.

Definition cl_ws (cls : list (nat * bool)) : list nat := map fst (filter snd cls).
Fixpoint cl_find (j : nat) (cls : list (nat * bool)) : option bool :=
  match cls with [] => None | (i, b) :: t => if Nat.eqb j i then Some b else cl_find j t end.
Fixpoint cl_del (j : nat) (cls : list (nat * bool)) : list (nat * bool) :=
  match cls with [] => [] | (i, b) :: t => if Nat.eqb j i then t else (i, b) :: cl_del j t end.
Definition cl_close (cls : list (nat * bool)) : list (nat * bool) := map (fun c => (fst c, false)) cls.

Lemma cl_ws_app a b : cl_ws (a ++ b) = cl_ws a ++ cl_ws b.
Proof. unfold cl_ws. now rewrite filter_app, map_app. Qed.
Lemma cl_ws_close cls : cl_ws (cl_close cls) = [].
Proof. induction cls as [|[i b] t IH]; [reflexivity|exact IH]. Qed.
Lemma cl_keys_close cls : map fst (cl_close cls) = map fst cls.
Proof. unfold cl_close. rewrite map_map. reflexivity. Qed.

Lemma cl_find_notin j cls : ~ In j (map fst cls) -> cl_find j cls = None.
Proof.
  induction cls as [|[i b] t IH]; intros H; [reflexivity|]. cbn [cl_find].
  destruct (Nat.eqb_spec j i) as [->|]; [exfalso; apply H; left; reflexivity|]. apply IH. intros Hi. apply H. right. exact Hi.
Qed.
Lemma cl_find_in j cls : cl_find j cls <> None -> In j (map fst cls).
Proof.
  induction cls as [|[i b] t IH]; [intros H; now contradiction H|]. cbn [cl_find map fst].
  destruct (Nat.eqb_spec j i) as [->|]; [left; reflexivity|]. intros H. right. auto.
Qed.
Lemma cl_del_keys_incl j cls i : In i (map fst (cl_del j cls)) -> In i (map fst cls).
Proof.
  induction cls as [|[i' b] t IH]; [auto|]. cbn [cl_del]. destruct (Nat.eqb j i'); cbn [map fst In]; [auto|].
  intros [H|H]; auto.
Qed.
Lemma cl_del_nodup j cls : NoDup (map fst cls) -> NoDup (map fst (cl_del j cls)).
Proof.
  induction cls as [|[i b] t IH]; [auto|]. cbn [map fst cl_del]. intros H. inversion H as [|? ? Hn Hd]; subst.
  destruct (Nat.eqb j i); [exact Hd|]. cbn [map fst]. constructor; [|auto].
  intros Hi. apply Hn. eapply cl_del_keys_incl; eauto.
Qed.
Lemma cl_ws_del j cls : NoDup (map fst cls) ->
  cl_ws (cl_del j cls) = filter (fun i => negb (Nat.eqb j i)) (cl_ws cls).
Proof.
  induction cls as [|[i b] t IH]; [reflexivity|]. cbn [map fst cl_del]. intros H. inversion H as [|? ? Hn Hd]; subst.
  destruct (Nat.eqb_spec j i) as [->|Hne].
  - unfold cl_ws. cbn [filter snd]. destruct b; cbn [map fst filter].
    + rewrite Nat.eqb_refl. cbn [negb]. symmetry. apply filter_notin.
      intros Hi. apply Hn. apply in_map_iff in Hi. destruct Hi as (c & <- & Hc). apply filter_In in Hc.
      apply in_map. tauto.
    + symmetry. apply filter_notin.
      intros Hi. apply Hn. apply in_map_iff in Hi. destruct Hi as (c & <- & Hc). apply filter_In in Hc.
      apply in_map. tauto.
  - unfold cl_ws in *. cbn [filter snd]. destruct b; cbn [map fst filter]; rewrite ?IH by exact Hd.
    + destruct (Nat.eqb_spec j i); [contradiction|]. reflexivity.
    + reflexivity.
Qed.
Lemma cl_ws_in j cls : In j (cl_ws cls) <-> In (j, true) cls.
Proof.
  unfold cl_ws. rewrite in_map_iff. split.
  - intros ([i b] & <- & Hc). apply filter_In in Hc. destruct Hc as [Hc Hb]. cbn in Hb. subst b. exact Hc.
  - intros H. exists (j, true). split; [reflexivity|]. apply filter_In. auto.
Qed.
Lemma cl_find_some j b cls : NoDup (map fst cls) -> (cl_find j cls = Some b <-> In (j, b) cls).
Proof.
  induction cls as [|[i b'] t IH]; intros H; [split; [discriminate|intros []]|].
  cbn [map fst] in H. inversion H as [|? ? Hn Hd]; subst. cbn [cl_find].
  destruct (Nat.eqb_spec j i) as [->|Hne]; split.
  - intros [= ->]. left. reflexivity.
  - intros [[= ->]|Hi]; [reflexivity|]. exfalso. apply Hn. apply in_map_iff. exists (i, b). auto.
  - intros Hf. right. apply IH; assumption.
  - intros [[= -> ->]|Hi]; [contradiction|]. apply IH; assumption.
Qed.
Lemma cl_ws_nodup cls : NoDup (map fst cls) -> NoDup (cl_ws cls).
Proof.
  induction cls as [|[i b] t IH]; [constructor|]. cbn [map fst]. intros H. inversion H as [|? ? Hn Hd]; subst.
  unfold cl_ws in *. cbn [filter snd]. destruct b; cbn [map fst]; [|auto]. constructor; [|auto].
  intros Hi. apply Hn. apply in_map_iff in Hi. destruct Hi as (c & <- & Hc). apply filter_In in Hc. apply in_map. tauto.
Qed.

Section WindowToggle.
Context {A B : Type}.
Variable mapper : nat -> res unit.
Notation M := (x_window_toggle (A:=A) (B:=B) mapper).
Notation tin := (Z * nat * ev A)%type.

Definition tg_errs (l1 : bool) (ws : list nat) (pos : nat) (z : Z) : list (nat * obs A B) :=
  map (fun j => (pos, OWin j (Err z))) ws ++ (if l1 then [(pos, OEmit (Err z))] else []).

Fixpoint tg_walk (l0 l1 : bool) (cls : list (nat * bool)) (g pos : nat) (ins : list tin) : list (nat * obs A B) :=
  match ins with
  | [] => []
  | (_, k, e) :: rest =>
      match k with
      | O =>
          if l0 then
            match e with
            | Next x => map (fun j => (pos, OWin j (Next x))) (cl_ws cls) ++ tg_walk l0 l1 cls g (S pos) rest
            | Err z => tg_errs l1 (cl_ws cls) pos z
            | Done => map (fun j => (pos, OWin j Done)) (cl_ws cls)
                      ++ (if l1 then tg_walk false l1 (cl_close cls) g (S pos) rest else [])
            end
          else tg_walk l0 l1 cls g (S pos) rest
      | S O =>
          if l1 then
            match e with
            | Next _ =>
                (pos, OHand g 0)
                :: match mapper g with
                   | Ok _ => tg_walk l0 l1 (cls ++ [(g, true)]) (S g) (S pos) rest
                   | Raise z => tg_errs true (cl_ws cls ++ [g]) pos z
                   end
            | Err z => tg_errs l1 (cl_ws cls) pos z
            | Done => (pos, OEmit Done)
                      :: match cl_ws cls with [] => [] | _ :: _ => tg_walk l0 false cls g (S pos) rest end
            end
          else tg_walk l0 l1 cls g (S pos) rest
      | S (S j) =>
          match cl_find j cls with
          | None => tg_walk l0 l1 cls g (S pos) rest
          | Some b =>
              match e with
              | Err z => tg_errs l1 (cl_ws cls) pos z
              | _ =>
                  if b then
                    (pos, OWin j Done)
                    :: (if negb l1 && match cl_ws (cl_del j cls) with [] => true | _ => false end then []
                        else tg_walk l0 l1 (cl_del j cls) g (S pos) rest)
                  else tg_walk l0 l1 (cl_del j cls) g (S pos) rest
              end
          end
      end
  end.

Definition tg_live (l0 l1 : bool) (cls : list (nat * bool)) : list nat :=
  (if l1 then [1%nat] else []) ++ (if l0 then [0%nat] else []) ++ map (fun c => S (S (fst c))) cls.
Definition tg_rstate (l0 l1 : bool) (cls : list (nat * bool)) (wt : list (nat * ev A)) (g : nat) : rstate A :=
  RState (tg_live l0 l1 cls) [] l1 (cl_ws cls) wt (seq 0 g) false.
Definition tg_mstate (cls : list (nat * bool)) (g : nat) : wg_st :=
  WgSt (map (fun j => (j, S (S j))) (cl_ws cls)) g g.

Record tg_inv (l1 : bool) (cls : list (nat * bool)) (wt : list (nat * ev A)) (g : nat) : Prop := {
  tv_nodup : NoDup (map fst cls);
  tv_lt : forall j, In j (map fst cls) -> (j < g)%nat;
  tv_wt : forall j, In j (cl_ws cls) \/ (g <= j)%nat -> wterm_of j wt = None;
  tv_alive : l1 = false -> cl_ws cls <> [] }.

Lemma mem_keys k cls : mem (S (S k)) (map (fun c : nat * bool => S (S (fst c))) cls)
  = match cl_find k cls with Some _ => true | None => false end.
Proof.
  induction cls as [|[i b] t IH]; [reflexivity|]. cbn [map fst cl_find]. rewrite mem_cons. cbn [Nat.eqb].
  destruct (Nat.eqb k i); [reflexivity|exact IH].
Qed.
Lemma mem_keys_low k cls : (k < 2)%nat -> mem k (map (fun c : nat * bool => S (S (fst c))) cls) = false.
Proof.
  intros Hk. induction cls as [|[i b] t IH]; [reflexivity|]. cbn [map fst]. rewrite mem_cons.
  destruct k as [|[|k]]; [exact IH|exact IH|lia].
Qed.

Lemma tg_live_mem0 l0 l1 cls : mem 0 (tg_live l0 l1 cls) = l0.
Proof. unfold tg_live. rewrite !mem_app, mem_keys_low by lia. destruct l0, l1; reflexivity. Qed.
Lemma tg_live_mem1 l0 l1 cls : mem 1 (tg_live l0 l1 cls) = l1.
Proof. unfold tg_live. rewrite !mem_app, mem_keys_low by lia. destruct l0, l1; reflexivity. Qed.
Lemma tg_live_memS l0 l1 cls k : mem (S (S k)) (tg_live l0 l1 cls) = match cl_find k cls with Some _ => true | None => false end.
Proof. unfold tg_live. rewrite !mem_app, mem_keys. destruct l0, l1; reflexivity. Qed.

Lemma remove_keys k cls : remove (S (S k)) (map (fun c : nat * bool => S (S (fst c))) cls)
  = map (fun c => S (S (fst c))) (cl_del k cls).
Proof.
  induction cls as [|[i b] t IH]; [reflexivity|]. cbn [map fst cl_del]. rewrite remove_cons. cbn [Nat.eqb].
  destruct (Nat.eqb k i); [reflexivity|]. cbn [map fst]. now rewrite IH.
Qed.
Lemma tg_live_remove0 l1 cls : remove 0 (tg_live true l1 cls) = tg_live false l1 cls.
Proof. unfold tg_live. destruct l1; reflexivity. Qed.
Lemma tg_live_remove1 l0 cls : remove 1 (tg_live l0 true cls) = tg_live l0 false cls.
Proof. reflexivity. Qed.
Lemma tg_live_removeS l0 l1 cls k : remove (S (S k)) (tg_live l0 l1 cls) = tg_live l0 l1 (cl_del k cls).
Proof. unfold tg_live. destruct l0, l1; cbn [app]; rewrite ?remove_cons; cbn [Nat.eqb]; now rewrite remove_keys. Qed.
Lemma tg_live_snoc l0 l1 cls g b : tg_live l0 l1 cls ++ [S (S g)] = tg_live l0 l1 (cls ++ [(g, b)]).
Proof. unfold tg_live. rewrite map_app, <- !app_assoc. reflexivity. Qed.
Lemma tg_live_close l0 l1 cls : tg_live l0 l1 (cl_close cls) = tg_live l0 l1 cls.
Proof. unfold tg_live, cl_close. rewrite map_map. reflexivity. Qed.

Lemma wg_find_ws k ws : wg_find (S (S k)) (map (fun j => (j, S (S j))) ws) = if mem k ws then Some k else None.
Proof.
  induction ws as [|i t IH]; [reflexivity|]. cbn [map wg_find]. rewrite mem_cons. cbn [Nat.eqb].
  destruct (Nat.eqb_spec k i) as [->|]; [reflexivity|exact IH].
Qed.
Lemma wg_windows_ms cls g : wg_windows (tg_mstate cls g) = cl_ws cls.
Proof. unfold wg_windows, tg_mstate. cbn [wg_open]. rewrite map_map. cbn [fst]. apply map_id. Qed.

(* the outcome of one boundary input: what the subscribers see and where the run goes on *)
Definition tg_next (res : wg_st * rstate A * list (obs A B)) (vis : list (obs A B))
  (nxt : option (bool * bool * list (nat * bool) * nat)) : Prop :=
  filter is_vis (snd res) = vis /\
  match nxt with
  | None => r_live (snd (fst res)) = []
  | Some (l0', l1', cls', g') =>
      exists wt', fst (fst res) = tg_mstate cls' g' /\ snd (fst res) = tg_rstate l0' l1' cls' wt' g' /\ tg_inv l1' cls' wt' g'
  end.

Lemma wterm_of_map_notin j (e : ev A) (l : list nat) : ~ In j l -> wterm_of j (map (fun i => (i, e)) l) = None.
Proof.
  induction l as [|i t IH]; intros H; [reflexivity|]. cbn [map wterm_of].
  destruct (Nat.eqb_spec j i) as [->|]; [exfalso; apply H; left; reflexivity|]. apply IH. intros Hi. apply H. right. exact Hi.
Qed.

Lemma tg_ws_lt l1 cls wt g j : tg_inv l1 cls wt g -> In j (cl_ws cls) -> (j < g)%nat.
Proof.
  intros I Hj. apply (tv_lt _ _ _ _ I). unfold cl_ws in Hj. apply in_map_iff in Hj. destruct Hj as (c & <- & Hc).
  apply filter_In in Hc. apply in_map. tauto.
Qed.

Lemma tg_fail l0 l1 cls wt g z : tg_inv l1 cls wt g ->
  let ac := apply_cmds (B:=B) all_imm (tg_rstate l0 l1 cls wt g) (wins_all (cl_ws cls) (Err z)) in
  let fi := finish (B:=B) (fst ac) (Fail z) in
  r_live (fst fi) = []
  /\ filter is_vis (snd ac ++ snd fi) = map (fun j => OWin j (Err z)) (cl_ws cls) ++ (if l1 then [OEmit (Err z)] else []).
Proof.
  intros I. cbn zeta. unfold tg_rstate, wins_all.
  rewrite (wins_term (B:=B) (Err z) eq_refl _ (cl_ws_nodup cls (tv_nodup _ _ _ _ I)))
    by (intros j Hj; apply (tv_wt _ _ _ _ I); left; exact Hj).
  destruct l1; cbn [orb].
  - cbn [fst snd finish r_outer]. unfold end_outer, maybe_release.
    cbn [r_outer r_released r_wsubs r_live r_timers r_wterm r_handed negb andb fst snd].
    rewrite filter_app, vis_wins. cbn [filter is_vis]. rewrite vis_release. split; reflexivity.
  - destruct (cl_ws cls) as [|j t] eqn:Ew; [exfalso; exact (tv_alive _ _ _ _ I eq_refl Ew)|].
    cbn [fst snd]. rewrite finish_dead by reflexivity. cbn [fst snd].
    rewrite app_nil_r, filter_app, vis_wins, vis_release, app_nil_r. split; reflexivity.
Qed.

Lemma tg_wins_ok l1 cls wt g : tg_inv l1 cls wt g ->
  forall j, In j (cl_ws cls) -> wterm_of j wt = None /\ count_of j (cl_ws cls) = 1%nat.
Proof.
  intros I j Hj. split; [apply (tv_wt _ _ _ _ I); left; exact Hj|].
  apply count_of_nodup; [apply cl_ws_nodup, (tv_nodup _ _ _ _ I)|exact Hj].
Qed.

Lemma tg_step_skip l0 l1 cls wt g t k e : tg_inv l1 cls wt g -> mem k (tg_live l0 l1 cls) = false ->
  tg_next (rstep all_imm M (tg_mstate cls g) (tg_rstate l0 l1 cls wt g) t (ISrc k e)) [] (Some (l0, l1, cls, g)).
Proof.
  intros I Hm. cbn [rstep tg_rstate r_live]. rewrite Hm. split; [reflexivity|]. exists wt. auto.
Qed.

Lemma tg_step_src_next l1 cls wt g t x : tg_inv l1 cls wt g ->
  tg_next (rstep all_imm M (tg_mstate cls g) (tg_rstate true l1 cls wt g) t (ISrc 0%nat (Next x)))
          (map (fun j => OWin j (Next x)) (cl_ws cls)) (Some (true, l1, cls, g)).
Proof.
  intros I. cbn [rstep tg_rstate r_live]. rewrite tg_live_mem0, deliver_eq.
  cbn [x_step x_window_toggle fst snd]. rewrite wg_windows_ms. unfold wins_all.
  rewrite apply_cmds_wins_next by (intros j Hj; cbn [r_wterm r_wsubs]; exact (tg_wins_ok l1 cls wt g I j Hj)).
  cbn [fst snd finish detach_src is_terminal andb]. rewrite !app_nil_r. split; [apply vis_wins|].
  exists wt. auto.
Qed.

Lemma tg_step_src_done l1 cls wt g t : tg_inv l1 cls wt g ->
  tg_next (rstep all_imm M (tg_mstate cls g) (tg_rstate true l1 cls wt g) t (ISrc 0%nat Done))
          (map (fun j => OWin j Done) (cl_ws cls))
          (if l1 then Some (false, l1, cl_close cls, g) else None).
Proof.
  intros I. cbn [rstep tg_rstate r_live]. rewrite tg_live_mem0, deliver_eq.
  cbn [x_step x_window_toggle fst snd wg_next wg_calls tg_mstate]. fold (tg_mstate cls g). rewrite wg_windows_ms.
  unfold wins_all, tg_rstate.
  rewrite (wins_term (B:=B) Done eq_refl _ (cl_ws_nodup cls (tv_nodup _ _ _ _ I)))
    by (intros j Hj; apply (tv_wt _ _ _ _ I); left; exact Hj).
  destruct l1; cbn [orb].
  - cbn [fst snd finish]. unfold detach_src. cbn [is_terminal andb r_live]. rewrite tg_live_mem0. cbn [fst snd].
    split; cbn [fst snd r_timers r_outer r_wsubs r_wterm r_handed r_released];
      [rewrite !filter_app, vis_wins; cbn [filter is_vis]; rewrite !app_nil_r; reflexivity|].
    exists (wt ++ map (fun j => (j, Done)) (cl_ws cls)). repeat split.
    + unfold tg_mstate. rewrite cl_ws_close. reflexivity.
    + unfold tg_rstate. cbn [r_timers r_outer r_wsubs r_wterm r_handed r_released].
      rewrite tg_live_remove0, tg_live_close, cl_ws_close. reflexivity.
    + rewrite cl_keys_close. apply (tv_nodup _ _ _ _ I).
    + rewrite cl_keys_close. apply (tv_lt _ _ _ _ I).
    + rewrite cl_ws_close. intros j [[]|Hj]. rewrite wterm_of_app, (tv_wt _ _ _ _ I j (or_intror Hj)).
      apply wterm_of_map_notin. intros Hi. pose proof (tg_ws_lt _ _ _ _ _ I Hi). lia.
    + discriminate.
  - destruct (cl_ws cls) as [|j t'] eqn:Ew; [exfalso; exact (tv_alive _ _ _ _ I eq_refl Ew)|].
    cbn [fst snd finish]. rewrite detach_dead by reflexivity. cbn [fst snd]. split; [|reflexivity].
    cbn [snd]. rewrite !app_nil_r, filter_app, vis_wins, vis_unsubs. apply app_nil_r.
Qed.

Lemma tg_step_err l0 l1 cls wt g t k z : tg_inv l1 cls wt g -> mem k (tg_live l0 l1 cls) = true ->
  tg_next (rstep all_imm M (tg_mstate cls g) (tg_rstate l0 l1 cls wt g) t (ISrc k (Err z)))
          (map (fun j => OWin j (Err z)) (cl_ws cls) ++ (if l1 then [OEmit (Err z)] else [])) None.
Proof.
  intros I Hm. cbn [rstep tg_rstate r_live]. rewrite Hm, deliver_eq.
  rewrite (window_toggle_error_fanout (A:=A) (B:=B) mapper (tg_mstate cls g) t k z). cbn [fst snd].
  rewrite wg_windows_ms. destruct (tg_fail l0 l1 cls wt g z I) as [D V]. cbn zeta in *.
  fold (tg_rstate l0 l1 cls wt g). rewrite (detach_dead _ _ D). cbn [fst snd]. rewrite app_nil_r. split; [exact V|exact D].
Qed.

Lemma mem_snoc_self k l : mem k (l ++ [k]) = true.
Proof. rewrite mem_app, mem_cons, Nat.eqb_refl. cbn [orb]. apply Bool.orb_true_r. Qed.

Lemma tg_inv_open cls wt g : tg_inv true cls wt g -> tg_inv true (cls ++ [(g, true)]) wt (S g).
Proof.
  intros I. constructor.
  - rewrite map_app. cbn [map fst]. apply NoDup_app_snoc; [apply (tv_nodup _ _ _ _ I)|].
    intros Hi. pose proof (tv_lt _ _ _ _ I g Hi). lia.
  - intros j Hj. rewrite map_app in Hj. apply in_app_or in Hj. destruct Hj as [Hj|[Hj|[]]]; [|cbn in Hj; lia].
    pose proof (tv_lt _ _ _ _ I j Hj). lia.
  - intros j Hj. apply (tv_wt _ _ _ _ I). rewrite cl_ws_app in Hj. cbn in Hj.
    destruct Hj as [Hj|Hj]; [|right; lia]. apply in_app_or in Hj. destruct Hj as [Hj|[<-|[]]]; [left; exact Hj|right; lia].
  - discriminate.
Qed.

Lemma tg_step_open_ok l0 cls wt g t v u : tg_inv true cls wt g -> mapper g = Ok u ->
  tg_next (rstep all_imm M (tg_mstate cls g) (tg_rstate l0 true cls wt g) t (ISrc 1%nat (Next v)))
          [OHand g 0] (Some (l0, true, cls ++ [(g, true)], S g)).
Proof.
  intros I Hm. cbn [rstep tg_rstate r_live]. rewrite tg_live_mem1, deliver_eq.
  cbn [x_step x_window_toggle fst snd wg_next wg_calls wg_open tg_mstate]. rewrite Hm. cbn [fst snd].
  unfold tg_rstate. rs. unfold sub_win. rs. rewrite (tv_wt _ _ _ _ I g (or_intror (le_n g))), mem_snoc_self. rs.
  unfold detach_src. rs. split; [reflexivity|].
  exists wt. split; [|split; [|exact (tg_inv_open cls wt g I)]].
  - unfold tg_mstate. rewrite cl_ws_app, map_app. reflexivity.
  - cbn [fst snd]. change (2 + g)%nat with (S (S g)). unfold tg_rstate. rewrite tg_live_snoc with (b := true), cl_ws_app, (seq_S g 0). reflexivity.
Qed.

(* the closing mapper raises: the new window is still handed, then everything ends with the error *)
Lemma tg_step_open_raise l0 cls wt g t v z : tg_inv true cls wt g -> mapper g = Raise z ->
  tg_next (rstep all_imm M (tg_mstate cls g) (tg_rstate l0 true cls wt g) t (ISrc 1%nat (Next v)))
          (OHand g 0 :: map (fun j => OWin j (Err z)) (cl_ws cls ++ [g]) ++ [OEmit (Err z)]) None.
Proof.
  intros I Hm. cbn [rstep tg_rstate r_live]. rewrite tg_live_mem1, deliver_eq.
  cbn [x_step x_window_toggle fst snd wg_next wg_calls wg_open tg_mstate]. rewrite Hm. cbn [fst snd].
  assert (Ew : wg_windows (WgSt (map (fun j => (j, S (S j))) (cl_ws cls) ++ [(g, 0%nat)]) (S g) (S g)) = cl_ws cls ++ [g]).
  { unfold wg_windows. cbn [wg_open]. rewrite map_app, map_map. cbn [map fst]. now rewrite map_id. }
  rewrite Ew. unfold tg_rstate. cbn [apply_cmds]. rs. unfold sub_win. rs.
  rewrite (tv_wt _ _ _ _ I g (or_intror (le_n g))), mem_snoc_self. rs.
  assert (Hnd : NoDup (cl_ws cls ++ [g])).
  { apply NoDup_app_snoc; [apply cl_ws_nodup, (tv_nodup _ _ _ _ I)|].
    intros Hi. pose proof (tg_ws_lt _ _ _ _ _ I Hi). lia. }
  unfold wins_all.
  rewrite (wins_term (B:=B) (Err z) eq_refl _ Hnd)
    by (intros j Hj; apply (tv_wt _ _ _ _ I); apply in_app_or in Hj; destruct Hj as [Hj|[<-|[]]]; [left; exact Hj|right; lia]).
  cbn [orb fst snd]. cbn [finish r_outer]. unfold end_outer, maybe_release.
  cbn [r_outer r_released r_wsubs r_live r_timers r_wterm r_handed negb andb fst snd].
  rewrite detach_dead by reflexivity. cbn [fst snd]. split; [|reflexivity].
  cbn [snd]. rewrite app_nil_r. cbn [app filter is_vis]. rewrite !filter_app, vis_wins. cbn [filter is_vis]. rewrite vis_release. reflexivity.
Qed.

(* the openings complete: the outer sequence completes; the open windows go on *)
Lemma tg_step_open_done l0 cls wt g t : tg_inv true cls wt g ->
  tg_next (rstep all_imm M (tg_mstate cls g) (tg_rstate l0 true cls wt g) t (ISrc 1%nat Done))
          [OEmit Done] (match cl_ws cls with [] => None | _ :: _ => Some (l0, false, cls, g) end).
Proof.
  intros I. cbn [rstep tg_rstate r_live]. rewrite tg_live_mem1, deliver_eq.
  cbn [x_step x_window_toggle fst snd]. unfold tg_rstate. rs. unfold end_outer, maybe_release.
  cbn [r_outer r_released r_wsubs r_live r_timers r_wterm r_handed negb andb fst snd].
  destruct (cl_ws cls) as [|j t'] eqn:Ew.
  - cbn [fst snd]. rewrite detach_dead by reflexivity. cbn [fst snd]. split; [|reflexivity].
    cbn [snd]. rewrite app_nil_r. cbn [app filter is_vis]. rewrite vis_release. reflexivity.
  - cbn [fst snd]. unfold detach_src. cbn [is_terminal andb r_live]. rewrite tg_live_mem1. cbn [fst snd].
    split; [reflexivity|]. exists wt. repeat split.
    + unfold tg_rstate. rewrite Ew. cbn [r_timers r_outer r_wsubs r_wterm r_handed r_released]. now rewrite tg_live_remove1.
    + apply (tv_nodup _ _ _ _ I).
    + apply (tv_lt _ _ _ _ I).
    + apply (tv_wt _ _ _ _ I).
    + intros _. rewrite Ew. discriminate.
Qed.

Lemma filter_map_close j (ws : list nat) :
  filter (fun gc : nat * nat => negb (Nat.eqb (S (S j)) (snd gc))) (map (fun i => (i, S (S i))) ws)
  = map (fun i => (i, S (S i))) (filter (fun i => negb (Nat.eqb j i)) ws).
Proof.
  induction ws as [|i t IH]; [reflexivity|]. cbn [map]. cbn [filter].
  change (snd (i, S (S i))) with (S (S i)). change (Nat.eqb (S (S j)) (S (S i))) with (Nat.eqb j i).
  destruct (Nat.eqb j i); cbn [negb map]; now rewrite IH.
Qed.

Lemma cl_find_del_self j cls : NoDup (map fst cls) -> cl_find j (cl_del j cls) = None.
Proof.
  induction cls as [|[i b] t IH]; [reflexivity|]. cbn [map fst cl_del]. intros H. inversion H as [|? ? Hn Hd]; subst.
  destruct (Nat.eqb_spec j i) as [->|Hne]; [apply cl_find_notin; exact Hn|].
  cbn [cl_find]. destruct (Nat.eqb_spec j i); [contradiction|]. apply IH. exact Hd.
Qed.

Lemma tg_inv_del l1 cls wt g j (e : ev A) : tg_inv l1 cls wt g -> In j (map fst cls) ->
  (l1 = false -> cl_ws (cl_del j cls) <> []) -> tg_inv l1 (cl_del j cls) (wt ++ [(j, e)]) g.
Proof.
  intros I Hj Ha. pose proof (tv_nodup _ _ _ _ I) as Hnd. pose proof (tv_lt _ _ _ _ I j Hj) as Hjg. constructor.
  - apply cl_del_nodup, Hnd.
  - intros i Hi. apply (tv_lt _ _ _ _ I). eapply cl_del_keys_incl; eauto.
  - intros i Hi. rewrite wterm_of_app.
    assert (Hw : wterm_of i wt = None).
    { apply (tv_wt _ _ _ _ I). destruct Hi as [Hi|Hi]; [left|right; exact Hi].
      rewrite cl_ws_del in Hi by exact Hnd. apply filter_In in Hi. tauto. }
    rewrite Hw. cbn [wterm_of]. destruct (Nat.eqb_spec i j) as [->|]; [|reflexivity]. exfalso.
    destruct Hi as [Hi|Hi]; [|lia].
    rewrite cl_ws_del in Hi by exact Hnd. apply filter_In in Hi. destruct Hi as [_ Hi]. rewrite Nat.eqb_refl in Hi. discriminate.
  - exact Ha.
Qed.

(* [tgx_*]: [x_step] alone, without the runner, at the first notification (an element or the completion)
   of a closing observable: of an open window -- that window completes; of a window the source's
   completion closed before -- the subscription goes, nothing else *)
Lemma tgx_close_open cls g t j (e : ev A) : NoDup (map fst cls) -> cl_find j cls = Some true -> (forall z, e <> Err z) ->
  x_step M (tg_mstate cls g) t (ISrc (S (S j)) e) = (tg_mstate (cl_del j cls) g, [CWin j Done; CUnsub (S (S j))], Cont).
Proof.
  intros Hnd Hf He.
  assert (Hin : In j (cl_ws cls)) by (apply cl_ws_in, (cl_find_some j true cls Hnd), Hf).
  assert (Efd : wg_find (S (S j)) (wg_open (tg_mstate cls g)) = Some j).
  { unfold tg_mstate. cbn [wg_open]. rewrite wg_find_ws, (proj2 (mem_In j (cl_ws cls)) Hin). reflexivity. }
  assert (Est : WgSt (filter (fun gc => negb (Nat.eqb (S (S j)) (snd gc))) (wg_open (tg_mstate cls g)))
                     (wg_next (tg_mstate cls g)) (wg_calls (tg_mstate cls g)) = tg_mstate (cl_del j cls) g).
  { unfold tg_mstate. cbn [wg_open wg_next wg_calls]. rewrite filter_map_close, <- cl_ws_del by exact Hnd. reflexivity. }
  destruct e as [x|z|]; [|exfalso; exact (He z eq_refl)|]; cbn [x_step x_window_toggle]; rewrite Efd, Est; reflexivity.
Qed.

Lemma tgx_close_orphan cls g t j (e : ev A) : NoDup (map fst cls) -> cl_find j cls = Some false -> (forall z, e <> Err z) ->
  x_step M (tg_mstate cls g) t (ISrc (S (S j)) e) = (tg_mstate cls g, [CUnsub (S (S j))], Cont)
  /\ cl_ws (cl_del j cls) = cl_ws cls.
Proof.
  intros Hnd Hf He.
  assert (Hnin : ~ In j (cl_ws cls)).
  { intros Hin. apply cl_ws_in, (cl_find_some j true cls Hnd) in Hin. congruence. }
  split; [|rewrite cl_ws_del by exact Hnd; apply filter_notin, Hnin].
  assert (Efd : wg_find (S (S j)) (wg_open (tg_mstate cls g)) = None).
  { unfold tg_mstate. cbn [wg_open]. rewrite wg_find_ws.
    destruct (mem j (cl_ws cls)) eqn:Em; [apply mem_In in Em; contradiction|reflexivity]. }
  destruct e as [x|z|]; [|exfalso; exact (He z eq_refl)|]; cbn [x_step x_window_toggle]; rewrite Efd; reflexivity.
Qed.

Lemma tg_step_close_open l0 l1 cls wt g t j e : tg_inv l1 cls wt g -> cl_find j cls = Some true ->
  (forall z, e <> Err z) ->
  tg_next (rstep all_imm M (tg_mstate cls g) (tg_rstate l0 l1 cls wt g) t (ISrc (S (S j)) e)) [OWin j Done]
          (if negb l1 && match cl_ws (cl_del j cls) with [] => true | _ => false end then None
           else Some (l0, l1, cl_del j cls, g)).
Proof.
  intros I Hf He. pose proof (tv_nodup _ _ _ _ I) as Hnd.
  assert (Hin : In j (cl_ws cls)) by (apply cl_ws_in, (cl_find_some j true cls Hnd), Hf).
  assert (Hkey : In j (map fst cls)) by (apply cl_find_in; rewrite Hf; discriminate).
  pose proof (tgx_close_open cls g t j e Hnd Hf He) as Ex.
  cbn [rstep tg_rstate r_live]. rewrite tg_live_memS, Hf, deliver_eq, Ex. cbn [fst snd].
  unfold tg_rstate. cbn [apply_cmds apply_cmd r_wterm r_wsubs r_live r_timers r_outer r_handed r_released].
  rewrite (tv_wt _ _ _ _ I j (or_introl Hin)), (proj2 (tg_wins_ok l1 cls wt g I j Hin)).
  cbn [is_terminal repeat app]. rewrite <- (cl_ws_del j cls Hnd).
  unfold maybe_release. cbn [r_outer r_released r_wsubs r_live r_timers r_wterm r_handed negb andb].
  rewrite Bool.andb_true_r.
  destruct (negb l1 && match cl_ws (cl_del j cls) with [] => true | _ => false end) eqn:Erel.
  - cbn [fst snd r_live]. rewrite mem_nil'. cbn [finish fst snd app]. rewrite detach_dead by reflexivity.
    cbn [fst snd]. split; [|reflexivity]. cbn [snd]. rewrite !app_nil_r. cbn [app filter is_vis]. rewrite ?vis_release, ?vis_unsubs. reflexivity.
  - cbn [fst snd r_live]. rewrite tg_live_memS, Hf. cbn [fst snd finish app r_live r_timers r_outer r_wsubs r_wterm r_handed r_released].
    unfold detach_src. cbn [r_live]. rewrite tg_live_removeS, tg_live_memS, (cl_find_del_self j cls Hnd), Bool.andb_false_r.
    cbn [fst snd]. split; [reflexivity|].
    exists (wt ++ [(j, Done)]). split; [reflexivity|]. split; [reflexivity|].
    apply tg_inv_del; [exact I|exact Hkey|]. intros ->. cbn [negb andb] in Erel.
    destruct (cl_ws (cl_del j cls)); [discriminate Erel|discriminate].
Qed.

Lemma tg_step_close_orphan l0 l1 cls wt g t j e : tg_inv l1 cls wt g -> cl_find j cls = Some false ->
  (forall z, e <> Err z) ->
  tg_next (rstep all_imm M (tg_mstate cls g) (tg_rstate l0 l1 cls wt g) t (ISrc (S (S j)) e)) []
          (Some (l0, l1, cl_del j cls, g)).
Proof.
  intros I Hf He. pose proof (tv_nodup _ _ _ _ I) as Hnd.
  assert (Hkey : In j (map fst cls)) by (apply cl_find_in; rewrite Hf; discriminate).
  destruct (tgx_close_orphan cls g t j e Hnd Hf He) as [Ex Ews].
  cbn [rstep tg_rstate r_live]. rewrite tg_live_memS, Hf, deliver_eq, Ex. cbn [fst snd].
  unfold tg_rstate. cbn [apply_cmds apply_cmd r_wterm r_wsubs r_live r_timers r_outer r_handed r_released].
  rewrite tg_live_memS, Hf. cbn [fst snd finish app r_live r_timers r_outer r_wsubs r_wterm r_handed r_released].
  unfold detach_src. cbn [r_live]. rewrite tg_live_removeS, tg_live_memS, (cl_find_del_self j cls Hnd), Bool.andb_false_r.
  cbn [fst snd]. split; [reflexivity|].
  exists wt. repeat split.
  - cbn [fst snd]. unfold tg_mstate. now rewrite Ews.
  - cbn [fst snd]. unfold tg_rstate. now rewrite Ews.
  - apply cl_del_nodup, Hnd.
  - intros i Hi. apply (tv_lt _ _ _ _ I). eapply cl_del_keys_incl; eauto.
  - intros i Hi. apply (tv_wt _ _ _ _ I). rewrite Ews in Hi. exact Hi.
  - rewrite Ews. apply (tv_alive _ _ _ _ I).
Qed.

(* [Use] turns a step lemma (stated with [tg_next]) into one unfolding of the walk; then one step lemma per
   branch of [tg_walk] *)
Lemma tg_run_from : forall (ins : list tin) l0 l1 cls wt g pos, tg_inv l1 cls wt g ->
  visible (fst (run_from all_imm M (tg_mstate cls g) (tg_rstate l0 l1 cls wt g) pos (wports ins)))
  = tg_walk l0 l1 cls g pos ins.
Proof.
  induction ins as [|[[t k] e] rest IH]; intros l0 l1 cls wt g pos I; [reflexivity|].
  rewrite wports_cons.
  assert (Use : forall vis nxt,
            tg_next (rstep all_imm M (tg_mstate cls g) (tg_rstate l0 l1 cls wt g) t (ISrc k e)) vis nxt ->
            visible (fst (run_from all_imm M (tg_mstate cls g) (tg_rstate l0 l1 cls wt g) pos ((t, ISrc k e) :: wports rest)))
            = map (fun x => (pos, x)) vis
              ++ match nxt with
                 | None => []
                 | Some (l0', l1', cls', g') => tg_walk l0' l1' cls' g' (S pos) rest
                 end).
  { intros vis nxt. destruct (rstep all_imm M (tg_mstate cls g) (tg_rstate l0 l1 cls wt g) t (ISrc k e)) as [[s' r'] o] eqn:E.
    intros [Hv Hn]. cbn [fst snd] in Hv, Hn. rewrite (visible_step _ _ _ _ _ _ _ _ _ _ _ E), Hv. f_equal.
    destruct nxt as [[[[l0' l1'] cls'] g']|].
    - destruct Hn as (wt' & -> & -> & I'). apply IH. exact I'.
    - rewrite run_from_deaf by exact Hn. reflexivity. }
  cbn [tg_walk]. destruct k as [|[|j]].
  - (* the source *)
    destruct l0; [|rewrite (Use [] _ (tg_step_skip false l1 cls wt g t 0 e I (tg_live_mem0 false l1 cls))); reflexivity].
    destruct e as [x|z|].
    + rewrite (Use _ _ (tg_step_src_next l1 cls wt g t x I)), map_map. reflexivity.
    + rewrite (Use _ _ (tg_step_err true l1 cls wt g t 0 z I (tg_live_mem0 true l1 cls))), app_nil_r.
      unfold tg_errs. rewrite map_app, map_map. destruct l1; reflexivity.
    + rewrite (Use _ _ (tg_step_src_done l1 cls wt g t I)), map_map. destruct l1; reflexivity.
  - (* the openings *)
    destruct l1; [|rewrite (Use [] _ (tg_step_skip l0 false cls wt g t 1 e I (tg_live_mem1 l0 false cls))); reflexivity].
    destruct e as [v|z|].
    + destruct (mapper g) as [u|z] eqn:Em.
      * rewrite (Use _ _ (tg_step_open_ok l0 cls wt g t v u I Em)). reflexivity.
      * rewrite (Use _ _ (tg_step_open_raise l0 cls wt g t v z I Em)), app_nil_r.
        cbn [map]. unfold tg_errs. rewrite map_app, map_map. reflexivity.
    + rewrite (Use _ _ (tg_step_err l0 true cls wt g t 1 z I (tg_live_mem1 l0 true cls))), app_nil_r.
      unfold tg_errs. rewrite map_app, map_map. reflexivity.
    + rewrite (Use _ _ (tg_step_open_done l0 cls wt g t I)). cbn [map app]. destruct (cl_ws cls); reflexivity.
  - (* a closing observable *)
    destruct (cl_find j cls) as [b|] eqn:Ef;
      [|assert (Hm : mem (S (S j)) (tg_live l0 l1 cls) = false) by (rewrite tg_live_memS, Ef; reflexivity);
        rewrite (Use [] _ (tg_step_skip l0 l1 cls wt g t (S (S j)) e I Hm)); reflexivity].
    assert (Hm : mem (S (S j)) (tg_live l0 l1 cls) = true) by (rewrite tg_live_memS, Ef; reflexivity).
    assert (Fire : (forall z, e <> Err z) ->
       visible (fst (run_from all_imm M (tg_mstate cls g) (tg_rstate l0 l1 cls wt g) pos ((t, ISrc (S (S j)) e) :: wports rest)))
       = if b then (pos, OWin j Done)
                   :: (if negb l1 && match cl_ws (cl_del j cls) with [] => true | _ => false end then []
                       else tg_walk l0 l1 (cl_del j cls) g (S pos) rest)
         else tg_walk l0 l1 (cl_del j cls) g (S pos) rest).
    { intros He. destruct b.
      - rewrite (Use _ _ (tg_step_close_open l0 l1 cls wt g t j e I Ef He)). cbn [map app].
        destruct (negb l1 && match cl_ws (cl_del j cls) with [] => true | _ => false end); reflexivity.
      - rewrite (Use _ _ (tg_step_close_orphan l0 l1 cls wt g t j e I Ef He)). reflexivity. }
    destruct e as [x|z|].
    + apply Fire. discriminate.
    + rewrite (Use _ _ (tg_step_err l0 l1 cls wt g t (S (S j)) z I Hm)), app_nil_r.
      unfold tg_errs. rewrite map_app, map_map. destruct l1; reflexivity.
    + apply Fire. discriminate.
Qed.

(* C18, window_toggle: what the subscribers see, for every interleaving of the ports *)
Theorem window_toggle_run (ins : list tin) :
  visible (fst (run all_imm M (wports ins))) = tg_walk true true [] 0 1 ins.
Proof.
  rewrite run_unfold. cbn [fst]. rewrite visible_app.
  assert (Es : start_state all_imm M = (tg_mstate [] 0, tg_rstate true true [] [] 0)) by reflexivity.
  assert (Eo : start_obs all_imm M = [OSub 1%nat; OSub 0%nat]) by reflexivity.
  rewrite Es, Eo. cbn [fst snd map visible filter is_vis app].
  apply tg_run_from. constructor; cbn; try (intros; contradiction); try constructor; try discriminate;
    try (intros; reflexivity).
Qed.
End WindowToggle.

(* a reading: every element a window receives is the source's element of that very input *)
Section ToggleReadings.
Context {A B : Type}.
Variable mapper : nat -> res unit.
Notation tin := (Z * nat * ev A)%type.

Lemma in_map_win_next (pos : nat) (e : ev A) ws (p : nat) j x :
  In (p, @OWin A B j (Next x)) (map (fun i => (pos, OWin i e)) ws) -> p = pos /\ e = Next x /\ In j ws.
Proof.
  intros H. apply in_map_iff in H. destruct H as (i & E & Hi). injection E as <- <- <-. auto.
Qed.

Lemma tg_errs_no_next l1 ws pos z (p : nat) j (x : A) : ~ In (p, @OWin A B j (Next x)) (tg_errs l1 ws pos z).
Proof.
  unfold tg_errs. intros H. apply in_app_or in H. destruct H as [H|H].
  - apply in_map_win_next in H. destruct H as (_ & E & _). discriminate E.
  - destruct l1; [destruct H as [H|[]]; discriminate H|destruct H].
Qed.

Lemma tg_walk_origin : forall (ins : list tin) l0 l1 cls g pos p j x,
  In (p, OWin j (Next x)) (tg_walk (B:=B) mapper l0 l1 cls g pos ins) ->
  (pos <= p)%nat /\ exists t, nth_error ins (p - pos) = Some (t, 0%nat, Next x).
Proof.
  induction ins as [|[[t k] e] rest IH]; intros l0 l1 cls g pos p j x Hin; [destruct Hin|].
  assert (Rec : forall l0' l1' cls' g', In (p, OWin j (Next x)) (tg_walk (B:=B) mapper l0' l1' cls' g' (S pos) rest) ->
            (pos <= p)%nat /\ exists t', nth_error ((t, k, e) :: rest) (p - pos) = Some (t', 0%nat, Next x)).
  { intros l0' l1' cls' g' H. destruct (IH _ _ _ _ _ _ _ _ H) as [Hle (t' & Hn)]. split; [lia|]. exists t'.
    replace (p - pos)%nat with (S (p - S pos)) by lia. exact Hn. }
  cbn [tg_walk] in Hin. destruct k as [|[|k]].
  - destruct l0; [|eapply Rec; exact Hin]. destruct e as [y|z|].
    + apply in_app_or in Hin. destruct Hin as [Hin|Hin]; [|eapply Rec; exact Hin].
      apply in_map_win_next in Hin. destruct Hin as (-> & E & _). injection E as ->.
      split; [lia|]. exists t. rewrite Nat.sub_diag. reflexivity.
    + exfalso. exact (tg_errs_no_next _ _ _ _ _ _ _ Hin).
    + apply in_app_or in Hin. destruct Hin as [Hin|Hin].
      * apply in_map_win_next in Hin. destruct Hin as (_ & E & _). discriminate E.
      * destruct l1; [eapply Rec; exact Hin|destruct Hin].
  - destruct l1; [|eapply Rec; exact Hin]. destruct e as [y|z|].
    + destruct Hin as [Hin|Hin]; [discriminate Hin|]. destruct (mapper g); [eapply Rec; exact Hin|].
      exfalso. exact (tg_errs_no_next _ _ _ _ _ _ _ Hin).
    + exfalso. exact (tg_errs_no_next _ _ _ _ _ _ _ Hin).
    + destruct Hin as [Hin|Hin]; [discriminate Hin|]. destruct (cl_ws cls); [destruct Hin|eapply Rec; exact Hin].
  - destruct (cl_find k cls) as [b|]; [|eapply Rec; exact Hin].
    assert (Fire : In (p, OWin j (Next x))
              (if b then (pos, OWin k Done)
                         :: (if negb l1 && match cl_ws (cl_del k cls) with [] => true | _ => false end then []
                             else tg_walk (B:=B) mapper l0 l1 (cl_del k cls) g (S pos) rest)
               else tg_walk (B:=B) mapper l0 l1 (cl_del k cls) g (S pos) rest) ->
            (pos <= p)%nat /\ exists t', nth_error ((t, S (S k), e) :: rest) (p - pos) = Some (t', 0%nat, Next x)).
    { intros H. destruct b; [|eapply Rec; exact H]. destruct H as [H|H]; [discriminate H|].
      destruct (negb l1 && match cl_ws (cl_del k cls) with [] => true | _ => false end); [destruct H|eapply Rec; exact H]. }
    destruct e as [y|z|]; [apply Fire; exact Hin|exfalso; exact (tg_errs_no_next _ _ _ _ _ _ _ Hin)|apply Fire; exact Hin].
Qed.

Theorem window_toggle_element_origin (ins : list tin) p j x :
  In (p, OWin j (Next x)) (fst (run all_imm (x_window_toggle (A:=A) (B:=B) mapper) (wports ins))) ->
  (1 <= p)%nat /\ exists t, nth_error ins (p - 1) = Some (t, 0%nat, Next x).
Proof.
  intros H. apply (tg_walk_origin ins true true [] 0 1 p j x). rewrite <- window_toggle_run.
  unfold visible. apply filter_In. split; [exact H|reflexivity].
Qed.
End ToggleReadings.
