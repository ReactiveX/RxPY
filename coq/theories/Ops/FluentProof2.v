(* C39 -- the trust base of "behaves exactly like" made explicit, and the converse gap.

   Ops/FluentProof.v proves that method and direct call reach the same canonical operator
   function with the same bound arguments.  Here this is lifted to behaviour under ONE explicit
   assumption, a Section variable: the observable an operator call produces is a function
   [op_sem] of (canonical operator name, bound arguments, source) only.  After the Section the
   theorems quantify over EVERY such function. *)
From Coq Require Import List String Bool.
From RxVerif Require Import Ops.Fluent Ops.FluentFacts Gen.FluentTable Ops.FluentProof.
Import ListNotations.
Open Scope string_scope.

Section Sem.
Variable O : Type.                                   (* observables *)
Variable op_sem : string -> benv -> O -> O.          (* ops.<canonical>(<bound args>)(source) *)

(* source.NAME(call): the translated method body applied to the source *)
Definition meth_sem (e : entry) (c : call) (x : O) : option O :=
  option_map (fun r => op_sem (rop r) (renv r) x) (meth39 e c).
(* source.pipe(ops.NAME(call)) = ops.NAME(call)(source) *)
Definition pipe_sem (n : string) (c : call) (x : O) : option O :=
  option_map (fun r => op_sem (rop r) (renv r) x) (dir39 n c).

(* the same operator application on both sides gives the same observable, and no TypeError *)
Lemma forwarded_sem : forall e n c x,
  (exists r, meth39 e c = Some r /\ dir39 n c = Some r) ->
  meth_sem e c x = pipe_sem n c x /\ meth_sem e c x <> None.
Proof.
  intros e n c x [r [H1 H2]]. unfold meth_sem, pipe_sem. rewrite H1, H2. split; [reflexivity | discriminate].
Qed.

Lemma behaves : forall e, In e fluent_table -> ~ In (ename e) known_mismatch ->
  forall c b x, bind (esig e) c = Some b ->
  meth_sem e c x = pipe_sem (ename e) c x /\ meth_sem e c x <> None.
Proof.
  intros e Hin Hn c b x Hb. exact (forwarded_sem _ _ _ _ (forwarding e Hin Hn c b Hb)).
Qed.

End Sem.

(* the converse gap: the operators of reactivex.operators that have NO fluent method (the
   property does not ask for one); closed computation on the generated tables *)
Definition operators_without_method : list string := ["tap"; "zip_with_list"].

Lemma table_no_method :
  map oname (filter (fun o => negb (mem (oname o) (map ename fluent_table))) op_table)
  = operators_without_method.
Proof. vm_cast_no_check (eq_refl operators_without_method). Qed.
