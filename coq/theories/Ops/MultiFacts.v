(* Generic facts about the runner, for EVERY machine and EVERY input sequence.
   One step: [rstep] either drops the input ([rstep_dropped]) or is [handled_step] of the handler's
   answer ([rstep_handled_eq]); subscribe() is a handled step too ([start_step_handled]).  Facts about
   a step are proved of [handled_step] with the answer a variable; [apply_cmds_fold] and
   [run_from_fold] carry them over command lists and input sequences.
   On top: grammar (C01), release at termination (C02), silence and release at dispose (C03).
   Statements in Props (C02, C03 and the operator properties) use [ended], [released], [rinv], [emits] defined here. *)
From RxVerif Require Import Base.Prelude Ops.Machine Ops.Multi.

(* rs: evaluate, deciding k =? k wherever it shows up; on a concrete input and runner state it
   computes the whole runner step (rstep need not be unfolded first).  The files over MultiWin.v's
   runner give the name to a [cbn] with a list of their own. *)
Ltac rs := repeat (cbn; rewrite ?Nat.eqb_refl).

(* List facts: [mem] read as membership, [remove], and what of NoDup and filter goes with them; shared by the
   files over Multi.v's and over MultiWin.v's runner (these import this file first, so that MultiWinFacts' names win). *)
Lemma mem_cons k j l : mem k (j :: l) = Nat.eqb k j || mem k l.
Proof. reflexivity. Qed.

Lemma mem_app k a b : mem k (a ++ b) = mem k a || mem k b.
Proof. apply existsb_app. Qed.

Lemma mem_self k : mem k [k] = true.
Proof. cbn. now rewrite Nat.eqb_refl. Qed.

Lemma mem_In k l : mem k l = true <-> In k l.
Proof.
  unfold mem. rewrite existsb_exists. split.
  - intros [x [Hx He]]. apply Nat.eqb_eq in He. now subst.
  - intros H. exists k. split; [exact H|apply Nat.eqb_refl].
Qed.

Lemma mem_false k l : mem k l = false <-> ~ In k l.
Proof. rewrite <- mem_In. destruct (mem k l); split; congruence. Qed.

Lemma remove_head g (t : list nat) : remove g (g :: t) = t.
Proof. cbn. now rewrite Nat.eqb_refl. Qed.

Lemma mem_seq g a n : mem g (seq a n) = ((a <=? g) && (g <? a + n))%nat.
Proof.
  apply Bool.eq_iff_eq_true. unfold mem. rewrite existsb_exists, andb_true_iff, Nat.leb_le, Nat.ltb_lt. split.
  - intros (x & Hx & E). apply Nat.eqb_eq in E. subst x. apply in_seq in Hx. exact Hx.
  - intros H. exists g. split; [apply in_seq; exact H|apply Nat.eqb_refl].
Qed.

Lemma incl_remove k (l : list nat) : incl (remove k l) l.
Proof.
  induction l as [|j t IH]; [apply incl_refl|]. cbn [remove].
  destruct (Nat.eqb k j); [apply incl_tl, incl_refl|apply incl_cons; [left; reflexivity|apply incl_tl, IH]].
Qed.

Lemma in_remove_other j k l : j <> k -> In k l -> In k (remove j l).
Proof.
  intros Hne. induction l as [|x t IHt]; intros Hk; [destruct Hk|].
  cbn [remove]. destruct (Nat.eqb_spec j x) as [->|Hx].
  - destruct Hk as [H|H]; [congruence|exact H].
  - destruct Hk as [H|H]; [left; exact H|right; auto].
Qed.

Lemma length_remove k l : mem k l = true -> length (remove k l) = pred (length l).
Proof.
  induction l as [|j t IH]; cbn; [discriminate|]. destruct (Nat.eqb k j); cbn; [reflexivity|].
  intros H. rewrite IH by exact H. destruct t; [discriminate H|reflexivity].
Qed.

Lemma filter_true {X} (l : list X) : filter (fun _ => true) l = l.
Proof. induction l as [|x t IH]; [reflexivity|]. cbn. now rewrite IH. Qed.

Lemma NoDup_app_l {X} (a b : list X) : NoDup (a ++ b) -> NoDup a.
Proof.
  induction b as [|x t IH]; intros H; [now rewrite app_nil_r in H|]. apply IH, (NoDup_remove_1 _ _ _ H).
Qed.

Lemma NoDup_app_snoc {X} (l : list X) x : NoDup l -> ~ In x l -> NoDup (l ++ [x]).
Proof.
  intros Hn Hx. apply NoDup_rev in Hn. rewrite <- (rev_involutive (l ++ [x])), rev_app_distr.
  apply NoDup_rev. cbn. constructor; [rewrite <- in_rev; exact Hx|exact Hn].
Qed.

Section Facts.
Context {A B : Type}.

Definition emits (o : list (obs B)) : list (ev B) :=
  flat_map (fun x => match x with OEmit e => [e] | _ => [] end) o.

Lemma emits_app (a b : list (obs B)) : emits (a ++ b) = emits a ++ emits b.
Proof. unfold emits. apply flat_map_app. Qed.

Definition all_next (l : list (ev B)) : Prop := Forall (fun e => is_terminal e = false) l.

Lemma all_next_wf l rest : all_next l -> wellformed (l ++ rest) = wellformed rest.
Proof.
  induction 1 as [|e t He Ht IH]; [reflexivity|].
  destruct e; cbn in *; try discriminate. exact IH.
Qed.

Lemma apply_cmds_app (a b : list (cmd B)) : forall r,
  apply_cmds r (a ++ b)
  = (fst (apply_cmds (fst (apply_cmds r a)) b), snd (apply_cmds r a) ++ snd (apply_cmds (fst (apply_cmds r a)) b)).
Proof.
  induction a as [|c t IH]; intros r.
  - cbn. destruct (apply_cmds r b); reflexivity.
  - (* whatever the first command does, it does the same on both sides *)
    cbn [app apply_cmds].
    match goal with |- (let '(r1, o1) := ?one in _) = _ => destruct one as [r1 o1] end.
    rewrite IH. destruct (apply_cmds r1 t). cbn [fst snd]. now rewrite app_assoc.
Qed.

Lemma apply_cmds_cons (r : rstate) (c : cmd B) t :
  apply_cmds r (c :: t)
  = (fst (apply_cmds (fst (apply_cmds r [c])) t),
     snd (apply_cmds r [c]) ++ snd (apply_cmds (fst (apply_cmds r [c])) t)).
Proof. exact (apply_cmds_app [c] t r). Qed.

(* [apply_cmds] command by command, as an induction principle over (state, observations, new state) *)
Lemma apply_cmds_fold (P : rstate -> list (obs B) -> rstate -> Prop) :
  (forall r, P r [] r) ->
  (forall r c o2 r2, P (fst (apply_cmds r [c])) o2 r2 -> P r (snd (apply_cmds r [c]) ++ o2) r2) ->
  forall cs r, P r (snd (apply_cmds r cs)) (fst (apply_cmds r cs)).
Proof.
  intros H0 H1. induction cs as [|c t IH]; intros r; [apply H0|]. rewrite apply_cmds_cons. apply H1, IH.
Qed.

Lemma apply_cmds_emits (cs : list (cmd B)) : forall r, all_next (emits (snd (apply_cmds r cs))).
Proof.
  apply (apply_cmds_fold (fun _ o _ => all_next (emits o))); [constructor|]. intros r c o2 _ H.
  rewrite emits_app. apply Forall_app. split; [|exact H].
  destruct c; cbn; try destruct (mem _ _); repeat constructor.
Qed.

Lemma apply_cmds_stopped (cs : list (cmd B)) : forall r,
  r_stopped (fst (apply_cmds r cs)) = r_stopped r.
Proof.
  apply (apply_cmds_fold (fun r _ r' => r_stopped r' = r_stopped r)); [reflexivity|]. intros r c _ r2 ->.
  destruct c; cbn; try destruct (mem _ _); reflexivity.
Qed.

Lemma apply_cmds_emit_only (bs : list B) (r : rstate) :
  apply_cmds r (map CEmit bs) = (r, map (fun b => OEmit (Next b)) bs).
Proof. induction bs as [|b t IH]; [reflexivity|]. cbn [map apply_cmds]. rewrite IH. reflexivity. Qed.

Lemma emits_emit_only (bs : list B) : emits (map (fun b => OEmit (Next b)) bs) = map Next bs.
Proof. induction bs as [|b t IH]; [reflexivity|]. cbn. f_equal. exact IH. Qed.

Definition relo (o : obs B) : Prop := exists j, o = OUnsub j \/ o = OCancel j.

Lemma emits_relo (l : list (obs B)) : Forall relo l -> emits l = [].
Proof. induction 1 as [|x t [j [->| ->]] _ IH]; [reflexivity|exact IH|exact IH]. Qed.

Lemma release_relo r : Forall relo (snd (@release B r)).
Proof.
  unfold release. cbn [snd]. apply Forall_app. split; apply Forall_forall; intros x Hx;
    apply in_map_iff in Hx; destruct Hx as [j [<- _]]; exists j; auto.
Qed.

Lemma release_emits r : emits (snd (@release B r)) = [].
Proof. apply emits_relo, release_relo. Qed.

Lemma filter_noemit (o : list (obs B)) :
  emits (filter (fun o => match o with OEmit _ => false | _ => true end) o) = [].
Proof. induction o as [|x t IH]; [reflexivity|]. destruct x; cbn; auto. Qed.

Definition released (r : rstate) : Prop := r = RState [] [] true.

Lemma finish_cases r f :
  (f = Cont /\ @finish B r f = (r, []))
  \/ (exists t, is_terminal t = true /\ @finish B r f = (RState [] [] true, OEmit t :: snd (@release B r))).
Proof. destruct f; [left; auto|right; exists Done; auto|right; exists (Err e); auto]. Qed.

(* what one boundary input (or the subscribe step) can do *)
Inductive step_kind (r r' : rstate) (o : list (obs B)) : Prop :=
| SK_dropped : o = [] -> r' = r -> step_kind r r' o
| SK_quiet : all_next (emits o) -> (r_stopped r' = true -> released r') -> step_kind r r' o
| SK_term : forall a t rel, o = a ++ OEmit t :: rel -> all_next (emits a) -> is_terminal t = true ->
            Forall relo rel -> released r' -> step_kind r r' o.

(* the operator's commands, some bookkeeping [o2] that emits nothing, then [finish] *)
Lemma cmds_finish_kind r r0 cs r2 o2 f :
  r_stopped r0 = false -> emits o2 = [] -> r_stopped r2 = r_stopped (fst (apply_cmds r0 cs)) ->
  step_kind r (fst (@finish B r2 f)) (snd (apply_cmds r0 cs) ++ o2 ++ snd (@finish B r2 f)).
Proof.
  intros H0 H2 Hs. pose proof (apply_cmds_emits cs r0) as He. rewrite apply_cmds_stopped, H0 in Hs.
  destruct (finish_cases r2 f) as [[_ ->]|(t & Ht & ->)]; cbn [fst snd].
  - apply SK_quiet; [|congruence]. now rewrite !emits_app, H2, !app_nil_r.
  - rewrite app_assoc. eapply SK_term; [reflexivity| |exact Ht|apply release_relo|reflexivity].
    now rewrite emits_app, H2, app_nil_r.
Qed.

(* an input reaches the handlers only through a live subscription or a pending timer *)
Definition delivered (r : rstate) (i : inp A) : bool :=
  match i with
  | ISrc k _ => mem k (r_live r)
  | ITick t => mem t (r_timers r)
  | IDispose => false
  end.

(* the auto-detach of a source subscription after its terminal was handled *)
Definition auto_detach (i : inp A) (r : rstate) : rstate * list (obs B) :=
  match i with
  | ISrc k e => if is_terminal e && mem k (r_live r)
                then (RState (remove k (r_live r)) (r_timers r) (r_stopped r), [OUnsub k])
                else (r, [])
  | _ => (r, [])
  end.

Definition noemit (o : obs B) : bool := match o with OEmit _ => false | _ => true end.

(* what the runner makes of the handler's answer a to an input that reaches the handler, or to the
   dispose: the fired timer is taken off the pending list, then the commands, the auto-detach, the
   end of the output.  The answer is a variable, so facts about the runner need not look into
   [x_step m s now i]. *)
Definition handled_step {S} (a : S * list (cmd B) * fin) (r : rstate) (i : inp A) : S * rstate * list (obs B) :=
  let ac := apply_cmds match i with
                       | ITick tag => RState (r_live r) (remove tag (r_timers r)) (r_stopped r)
                       | _ => r
                       end (snd (fst a)) in
  match i with
  | IDispose => (fst (fst a), fst (release (B:=B) (fst ac)), filter noemit (snd ac) ++ snd (release (B:=B) (fst ac)))
  | _ => (fst (fst a), fst (finish (B:=B) (fst (auto_detach i (fst ac))) (snd a)),
          snd ac ++ snd (auto_detach i (fst ac)) ++ snd (finish (fst (auto_detach i (fst ac))) (snd a)))
  end.

Lemma handled_state {S} (a : S * list (cmd B) * fin) r i : fst (fst (handled_step a r i)) = fst (fst a).
Proof. now destruct i. Qed.

Lemma auto_detach_quiet i r :
  emits (snd (auto_detach i r)) = [] /\ r_stopped (fst (auto_detach i r)) = r_stopped r.
Proof.
  destruct i as [k e| |]; cbn [auto_detach]; auto. destruct (is_terminal e && mem k (r_live r)); auto.
Qed.

Lemma settled_live (i : inp A) (r1 : rstate) f :
  let l := r_live (fst (finish (B:=B) (fst (auto_detach i r1)) f)) in
  l = [] \/ l = r_live r1 \/ exists k, l = remove k (r_live r1).
Proof.
  cbv zeta. destruct f; cbn [finish release fst r_live]; auto.
  destruct i as [k e| |]; cbn [auto_detach fst]; auto.
  destruct (is_terminal e && mem k (r_live r1)); cbn [fst r_live]; eauto.
Qed.

Lemma handled_kind {S} (a : S * list (cmd B) * fin) r i : r_stopped r = false ->
  step_kind r (snd (fst (handled_step a r i))) (snd (handled_step a r i)).
Proof.
  intros H0. unfold handled_step.
  set (r0 := match i with ITick tag => _ | _ => r end).
  assert (H0' : r_stopped r0 = false) by (destruct i; exact H0).
  destruct i as [k e|tag|]; cbn [fst snd].
  - apply cmds_finish_kind; [exact H0'|apply auto_detach_quiet..].
  - apply cmds_finish_kind; [exact H0'|apply auto_detach_quiet..].
  - apply SK_quiet; [|reflexivity]. rewrite emits_app, (filter_noemit _), release_emits. constructor.
Qed.

Lemma handled_or_dropped (r : rstate) (i : inp A) :
  (r_stopped r = false /\ (delivered r i = true \/ i = IDispose))
  \/ (r_stopped r = true \/ (delivered r i = false /\ i <> IDispose)).
Proof.
  destruct (r_stopped r); [auto|]. destruct i; cbn [delivered]; [destruct (mem _ _)..|]; auto; right; right; split; congruence.
Qed.

Context (m : machine A B).

Lemma rstep_handled_eq s r now i :
  r_stopped r = false -> delivered r i = true \/ i = IDispose ->
  rstep m s r now i = handled_step (x_step m s now i) r i.
Proof.
  intros Hst Hd. unfold rstep, handled_step. rewrite Hst.
  (* the input is split before the answer and the command results are named: the matches on [i] are gone by then *)
  destruct Hd as [Hd| ->]; [destruct i as [k e|tag|]; cbn [delivered] in Hd; [rewrite Hd..|discriminate]|];
    unfold auto_detach; destruct (x_step m s now _) as [[s' cs] f]; cbn [fst snd];
    destruct (apply_cmds _ cs) as [r1 o1]; cbn [fst snd].
  - destruct (is_terminal e && mem k (r_live r1)); cbn [fst snd]; now destruct (finish _ f).
  - now destruct (finish r1 f).
  - reflexivity.
Qed.

Lemma rstep_dropped s r now i :
  r_stopped r = true \/ (delivered r i = false /\ i <> IDispose) -> rstep m s r now i = (s, r, []).
Proof.
  unfold rstep. destruct (r_stopped r); [reflexivity|]. intros [H|[Hd Hi]]; [discriminate H|].
  destruct i; cbn [delivered] in Hd; rewrite ?Hd; congruence.
Qed.

Lemma rstep_stopped s r now i : r_stopped r = true -> rstep m s r now i = (s, r, []).
Proof. intros H. apply rstep_dropped. now left. Qed.

Lemma rstep_kind s r now i :
  step_kind r (snd (fst (rstep m s r now i))) (snd (rstep m s r now i)).
Proof.
  destruct (handled_or_dropped r i) as [[Hst Hd]|Hd].
  - rewrite (rstep_handled_eq s r now i Hst Hd). now apply handled_kind.
  - rewrite (rstep_dropped s r now i Hd). now apply SK_dropped.
Qed.

(* C03, one step: the subscriber's dispose emits nothing *)
Lemma rstep_dispose_emits s r now : emits (snd (rstep m s r now IDispose)) = [].
Proof.
  destruct (r_stopped r) eqn:Hst; [now rewrite rstep_stopped|]. rewrite rstep_handled_eq by auto.
  unfold handled_step. cbn [snd]. rewrite emits_app, (filter_noemit _). apply release_emits.
Qed.

Lemma rstep_dispose_stopped s r now : r_stopped (snd (fst (rstep m s r now IDispose))) = true.
Proof.
  destruct (r_stopped r) eqn:Hst; [now rewrite rstep_stopped|]. now rewrite rstep_handled_eq by auto.
Qed.

Lemma emitted_tag_app (k : nat) (o : list (obs B)) tr :
  emitted (map (fun x => (k, x)) o ++ tr) = emits o ++ emitted tr.
Proof.
  unfold emitted, emits. rewrite flat_map_app. f_equal.
  induction o as [|x t IH]; [reflexivity|]. cbn. rewrite IH. destruct x; reflexivity.
Qed.

Lemma temitted_tag (k : nat) (o : list (obs B)) :
  temitted (map (fun x => (k, x)) o) = map (pair k) (emits o).
Proof.
  unfold temitted, emits. induction o as [|x t IH]; [reflexivity|]. cbn. rewrite IH. destruct x; reflexivity.
Qed.

Lemma temitted_app (a b : list (nat * obs B)) : temitted (a ++ b) = temitted a ++ temitted b.
Proof. apply flat_map_app. Qed.

Lemma emitted_temitted (tr : list (nat * obs B)) : emitted tr = map snd (temitted tr).
Proof.
  unfold emitted, temitted. induction tr as [|[k o] t IH]; [reflexivity|].
  cbn [flat_map snd fst]. rewrite map_app, IH. destruct o; reflexivity.
Qed.

Lemma temitted_emit_only (k : nat) (bs : list B) :
  temitted (map (fun x => (k, x)) (map (fun b => OEmit (Next b)) bs)) = map (fun b => (k, Next b)) bs.
Proof. rewrite temitted_tag. unfold emits. induction bs as [|b t IH]; [reflexivity|]. cbn. now rewrite IH. Qed.

Lemma run_from_stopped ins : forall s r k, r_stopped r = true ->
  run_from m s r k ins = ([], r).
Proof.
  induction ins as [|[now i] rest IH]; intros s r k H; [reflexivity|].
  cbn [run_from]. rewrite rstep_stopped by exact H. rewrite IH by exact H. reflexivity.
Qed.

Lemma run_from_cons s r k now i rest :
  run_from m s r k ((now, i) :: rest)
  = (map (fun x => (k, x)) (snd (rstep m s r now i))
     ++ fst (run_from m (fst (fst (rstep m s r now i))) (snd (fst (rstep m s r now i))) (S k) rest),
     snd (run_from m (fst (fst (rstep m s r now i))) (snd (fst (rstep m s r now i))) (S k) rest)).
Proof.
  cbn [run_from]. destruct (rstep m s r now i) as [[s' r'] o]. cbn [fst snd]. now destruct (run_from m s' r' (S k) rest).
Qed.

(* [run_from] input by input, as an induction principle over (position, runner state, trace, final state);
   the step may use that the run behind a stopped runner is empty *)
Lemma run_from_fold (P : nat -> rstate -> list (nat * obs B) -> rstate -> Prop) :
  (forall k r, P k r [] r) ->
  (forall k s r now i tr rf,
     P (S k) (snd (fst (rstep m s r now i))) tr rf ->
     (r_stopped (snd (fst (rstep m s r now i))) = true -> (tr, rf) = ([], snd (fst (rstep m s r now i)))) ->
     P k r (map (fun x => (k, x)) (snd (rstep m s r now i)) ++ tr) rf) ->
  forall ins s r k, P k r (fst (run_from m s r k ins)) (snd (run_from m s r k ins)).
Proof.
  intros H0 H1. induction ins as [|[now i] rest IH]; intros s r k; cbn [run_from]; [apply H0|].
  specialize (H1 k s r now i). destruct (rstep m s r now i) as [[s' r'] o]. cbn [fst snd] in *.
  specialize (IH s' r' (S k)). pose proof (run_from_stopped rest s' r' (S k)) as Hs.
  destruct (run_from m s' r' (S k) rest) as [tr rf]. exact (H1 tr rf IH Hs).
Qed.

Definition ended (l : list (ev B)) : bool := existsb is_terminal l.

Lemma all_next_not_ended l : all_next l -> ended l = false.
Proof. induction 1 as [|e t He Ht IH]; [reflexivity|]. cbn. now rewrite He. Qed.

(* C01 + C02 for a trace with its final runner state *)
Definition good (p : list (nat * obs B) * rstate) : Prop :=
  wellformed (emitted (fst p)) = true /\ (ended (emitted (fst p)) = true -> released (snd p)).

Lemma good_cons k r r' o p :
  step_kind r r' o -> (r_stopped r' = true -> p = ([], r')) -> good p ->
  good (map (fun x => (k, x)) o ++ fst p, snd p).
Proof.
  intros K Hstop [G1 G2]. unfold good. cbn [fst snd]. rewrite emitted_tag_app.
  destruct K as [-> _ | Hn _ | a t rel -> Ha Ht Hrel Hr].
  - exact (conj G1 G2).
  - split; [now rewrite all_next_wf|].
    unfold ended. rewrite existsb_app. fold (ended (emits o)). now rewrite all_next_not_ended.
  - rewrite (Hstop (f_equal r_stopped Hr)). cbn [fst snd emitted flat_map].
    rewrite app_nil_r, emits_app. change (emits (OEmit t :: rel)) with (t :: emits rel).
    rewrite (emits_relo rel Hrel). split; [|intros _; exact Hr].
    rewrite all_next_wf by exact Ha. destruct t; [discriminate|reflexivity|reflexivity].
Qed.

Theorem run_from_good ins : forall s r k, good (run_from m s r k ins).
Proof.
  intros s r k. rewrite (surjective_pairing (run_from m s r k ins)). revert ins s r k.
  apply (run_from_fold (fun _ _ tr rf => good (tr, rf))); [split; [reflexivity|discriminate]|].
  intros k s r now i tr rf IH Hs. exact (good_cons k r _ _ (tr, rf) (rstep_kind s r now i) Hs IH).
Qed.

(* a stopped runner has released everything: invariant of reachable states *)
Definition rinv (r : rstate) : Prop := r_stopped r = true -> released r.

Lemma step_kind_rinv r r' o : step_kind r r' o -> rinv r -> rinv r'.
Proof. intros [_ -> | _ H | a t rel _ _ _ _ H] Hr; [exact Hr|exact H|intros _; exact H]. Qed.

Lemma rstep_rinv s r now i : rinv r -> rinv (snd (fst (rstep m s r now i))).
Proof. apply step_kind_rinv with (1 := rstep_kind s r now i). Qed.

(* C03: once the subscriber disposed, nothing at all is observed any more and
   everything is released, whatever the sources and timers do afterwards *)
Theorem run_from_after_dispose ins1 ins2 now : forall s r k, rinv r ->
  fst (run_from m s r k (ins1 ++ (now, IDispose) :: ins2))
  = fst (run_from m s r k (ins1 ++ [(now, IDispose)]))
  /\ released (snd (run_from m s r k (ins1 ++ (now, IDispose) :: ins2))).
Proof.
  induction ins1 as [|[n1 i1] rest IH]; intros s r k Hr; cbn [app run_from].
  - pose proof (rstep_dispose_stopped s r now) as Hst.
    pose proof (rstep_rinv s r now IDispose Hr) as Hinv.
    destruct (rstep m s r now IDispose) as [[s' r'] o]. cbn [fst snd] in *.
    rewrite !run_from_stopped by exact Hst. split; [reflexivity|exact (Hinv Hst)].
  - pose proof (rstep_rinv s r n1 i1 Hr) as H1.
    destruct (rstep m s r n1 i1) as [[s' r'] o]. cbn [fst snd] in H1.
    destruct (IH s' r' (S k) H1) as [IHa IHb].
    destruct (run_from m s' r' (S k) (rest ++ (now, IDispose) :: ins2)) as [tr rf].
    destruct (run_from m s' r' (S k) (rest ++ [(now, IDispose)])) as [tr2 rf2].
    cbn [fst snd] in *. subst tr2. split; [reflexivity|exact IHb].
Qed.

(* the subscribe step: operator state, runner state and observations at tag 0 *)
Definition start_step : x_state m * rstate * list (obs B) :=
  let '(s0, cs, f) := x_start m in
  let '(r1, o1) := apply_cmds (RState [] [] false) cs in
  let '(r2, o2) := finish r1 f in
  (s0, r2, o1 ++ o2).

Lemma run_start ins :
  run m ins
  = (map (fun x => (0%nat, x)) (snd start_step)
     ++ fst (run_from m (fst (fst start_step)) (snd (fst start_step)) 1 ins),
     snd (run_from m (fst (fst start_step)) (snd (fst start_step)) 1 ins)).
Proof.
  unfold run, start_step. destruct (x_start m) as [[s0 cs] f].
  destruct (apply_cmds (RState [] [] false) cs) as [r1 o1]. destruct (finish r1 f) as [r2 o2].
  cbn [fst snd]. destruct (run_from m s0 r2 1 ins). reflexivity.
Qed.

(* subscribe() is handled like the firing of a timer while none is pending: the commands, then [finish] *)
Lemma start_step_handled : start_step = handled_step (x_start m) (RState [] [] false) (ITick 0).
Proof.
  unfold start_step, handled_step. destruct (x_start m) as [[s0 cs] f].
  cbn [fst snd auto_detach r_live r_timers r_stopped remove].
  destruct (apply_cmds (RState [] [] false) cs) as [r1 o1]. cbn [fst snd app]. now destruct (finish r1 f).
Qed.

Lemma start_kind : step_kind (RState [] [] false) (snd (fst start_step)) (snd start_step).
Proof. rewrite start_step_handled. now apply handled_kind. Qed.

Lemma start_rinv : rinv (snd (fst start_step)).
Proof. apply step_kind_rinv with (1 := start_kind). discriminate. Qed.

Theorem run_good ins :
  wellformed (emitted (fst (run m ins))) = true
  /\ (ended (emitted (fst (run m ins))) = true -> released (snd (run m ins))).
Proof.
  rewrite run_start. apply good_cons with (1 := start_kind); [apply run_from_stopped|apply run_from_good].
Qed.
End Facts.
