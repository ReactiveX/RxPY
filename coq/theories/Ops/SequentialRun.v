(* C10: run-level statements about WHEN the next source is subscribed, and the
   closed form of catch(handler).

   - run_in_pos: the observations at trace position q+1 of a run are exactly those of
     the runner's step on input q from the state after the first q inputs (generic).
   - sequential_subscribes_at_live_termination: for ANY sequential machine and EVERY
     input sequence, a subscription opened after subscribe() is opened in the step of a
     terminal notification of THE source that is live at that moment (so: delivered).
   - chain machines (concat / catch / on_error_resume_next are the instances): source j is
     subscribed at position q+1 iff j = k+1 < n, input q is a terminal notification of
     source k on which the operator continues, and k is the subscribed source at that
     moment; and over EVERY run the subscriptions are to sources 0, 1, .., m-1 in this
     order, each once.
   - catch(handler): closed form in the sequential environment. *)
From RxVerif Require Import Base.Prelude Ops.Machine Ops.MachineFacts Ops.Multi Ops.MultiFacts
  Ops.RunLemmas Ops.Combinators Ops.SequentialFacts
  Ops.SequentialMore Ops.MergeOrderFacts.

Local Arguments Nat.ltb : simpl never.
Local Arguments Nat.leb : simpl never.

Section Pos.
Context {A B : Type} (m : machine A B).

Lemma run_from_in ins : forall s r k p o,
  In (p, o) (fst (run_from m s r k ins)) <->
  exists q now i, p = (k + q)%nat /\ nth_error ins q = Some (now, i) /\
    In o (snd (rstep m (fst (after m s r (firstn q ins))) (snd (after m s r (firstn q ins))) now i)).
Proof.
  induction ins as [|[now i] rest IH]; intros s r k p o.
  - cbn. split; [intros []|]. intros (q & n & i & _ & H & _). destruct q; discriminate.
  - cbn [run_from]. destruct (rstep m s r now i) as [[s' r'] o0] eqn:E.
    specialize (IH s' r' (S k) p o).
    destruct (run_from m s' r' (S k) rest) as [tr rf]. cbn [fst] in *.
    rewrite in_app_iff, IH. split.
    + intros [H|(q & n & i0 & Hp & Hn & Hin)].
      * apply in_map_iff in H. destruct H as (x & Hx & Hin). injection Hx as <- <-.
        exists 0%nat, now, i. rewrite Nat.add_0_r. cbn [nth_error firstn after fst snd]. rewrite E. cbn [fst snd]. auto.
      * exists (S q), n, i0. split; [lia|]. cbn [nth_error firstn after]. rewrite E. auto.
    + intros (q & n & i0 & Hp & Hn & Hin). destruct q as [|q].
      * left. cbn [nth_error firstn after fst snd] in *. injection Hn as <- <-. rewrite E in Hin. cbn [fst snd] in Hin.
        apply in_map_iff. exists o. split; [f_equal; lia|exact Hin].
      * right. cbn [nth_error firstn after] in *. rewrite E in Hin. exists q, n, i0. split; [lia|]. auto.
Qed.

(* operator state and runner state just before input q (0-based) of a run *)
Definition state_before (ins : list (Z * inp A)) (q : nat) : x_state m * rstate :=
  after m (fst (start_state m)) (snd (start_state m)) (firstn q ins).

Lemma state_before_run ins q : snd (state_before ins q) = snd (run m (firstn q ins)).
Proof. unfold state_before. now rewrite run_final. Qed.

(* trace position q+1 = the step on input q *)
Lemma run_in_pos ins q o :
  In (S q, o) (fst (run m ins)) <->
  exists now i, nth_error ins q = Some (now, i) /\
    In o (snd (rstep m (fst (state_before ins q)) (snd (state_before ins q)) now i)).
Proof.
  rewrite run_unfold. cbn [fst]. rewrite in_app_iff, run_from_in. unfold state_before. split.
  - intros [H|(q' & now & i & Hp & Hn & Hin)].
    + apply in_map_iff in H. destruct H as (x & Hx & _). discriminate.
    + assert (q' = q) by lia. subst q'. eauto.
  - intros (now & i & Hn & Hin). right. exists q, now, i. auto.
Qed.

(* trace position 0 = inside subscribe() *)
Lemma run_in_pos0 ins o : In (0%nat, o) (fst (run m ins)) <-> In o (start_obs m).
Proof.
  rewrite run_unfold. cbn [fst]. rewrite in_app_iff, run_from_in. split.
  - intros [H|(q' & now & i & Hp & _)]; [|lia].
    apply in_map_iff in H. destruct H as (x & Hx & Hin). now injection Hx as <-.
  - intros H. left. apply in_map_iff. eauto.
Qed.

(* SEQUENTIAL machines: a subscription after subscribe() is opened in the step of a
   terminal notification of the one source that is live at that moment -- never before
   that source terminated, never on behalf of a source that is not subscribed *)
Theorem sequential_subscribes_at_live_termination (Hseq : sequential m) ins q j :
  In (S q, OSub j) (fst (run m ins)) ->
  exists now k e, nth_error ins q = Some (now, ISrc k e) /\ is_terminal e = true /\
    r_stopped (snd (run m (firstn q ins))) = false /\ r_live (snd (run m (firstn q ins))) = [k].
Proof.
  intros Hin. apply run_in_pos in Hin. destruct Hin as (now & i & Hn & Hin).
  pose proof (sequential_one_at_a_time m Hseq (firstn q ins)) as Hone.
  rewrite <- !state_before_run.
  rewrite <- state_before_run in Hone.
  set (s := fst (state_before ins q)) in *. set (r := snd (state_before ins q)) in *.
  apply rstep_osub_iff in Hin. destruct Hin as (Hst & Hd & Hj).
  destruct Hseq as [Hstep _]. specialize (Hstep s now i).
  destruct Hstep as [E|[[b E]|(k & e & j' & -> & Ht & E)]]; rewrite E in Hj; cbn in Hj; try contradiction.
  exists now, k, e. split; [exact Hn|]. split; [exact Ht|]. split; [exact Hst|].
  destruct Hd as [Hd|Hd]; [exact (live_single k _ Hd Hone)|discriminate Hd].
Qed.
End Pos.

Section Chain.
Context {A : Type} (m : machine A A) (cur : x_state m -> nat) (n : nat) (go : ev A -> bool).

(* the three operators are chains over the sources 0 .. n-1: elements are forwarded; a terminal
   notification on which the operator continues ([go]) subscribes the next source if there is
   one; every other terminal notification, and such a one of the last source, ends the output *)
Definition chain : Prop :=
  snd (fst (x_start m)) = match n with O => [] | S _ => [CSub 0%nat] end
  /\ snd (x_start m) = match n with O => Complete | S _ => Cont end
  /\ cur (fst (fst (x_start m))) = 0%nat
  /\ forall s now i,
       let a := x_step m s now i in
       match i with
       | ISrc _ e =>
           if is_terminal e then
             if go e && Nat.ltb (S (cur s)) n
             then snd (fst a) = [CSub (S (cur s))] /\ snd a = Cont /\ cur (fst (fst a)) = S (cur s)
             else snd (fst a) = [] /\ snd a <> Cont /\ Nat.min (S (cur (fst (fst a)))) n = Nat.min (S (cur s)) n
           else (exists x, snd (fst a) = [CEmit x]) /\ snd a = Cont /\ cur (fst (fst a)) = cur s
       | _ => snd (fst a) = [] /\ cur (fst (fst a)) = cur s
       end.

Hypothesis H : chain.

Lemma chain_cur_step s r now i :
  cur_inv n (cur s) r ->
  cur_inv n (cur (fst (fst (rstep m s r now i)))) (snd (fst (rstep m s r now i))).
Proof.
  intros [->|[-> Hc]]; [left; reflexivity|].
  destruct H as (_ & _ & _ & Hs). specialize (Hs s now i). cbv zeta in Hs.
  unfold rstep. cbn [r_stopped]. destruct i as [k e|tag|].
  - cbn [r_live mem existsb]. destruct (Nat.eqb_spec k (cur s)) as [->|Hne]; cbn [orb]; [|right; auto].
    destruct (x_step m s now (ISrc (cur s) e)) as [[s' cs] f]. cbn [fst snd] in Hs.
    destruct (is_terminal e) eqn:He.
    + destruct (go e && Nat.ltb (S (cur s)) n) eqn:Hg.
      * destruct Hs as (-> & -> & Hc'). apply andb_prop in Hg. destruct Hg as [_ Hlt]. apply Nat.ltb_lt in Hlt.
        right. rs. rewrite Hc'. auto.
      * destruct Hs as (-> & Hf & _). left. rs. destruct f; [congruence| |]; reflexivity.
    + destruct Hs as ((x & ->) & -> & Hc'). right. rs. rewrite Hc'. auto.
  - right. cbn. auto.
  - destruct (x_step m s now IDispose) as [[s' cs] f]. cbn [fst snd] in Hs. destruct Hs as [-> _].
    left. reflexivity.
Qed.

Lemma chain_cur_reach (ins : list (Z * inp A)) q :
  cur_inv n (cur (fst (state_before m ins q))) (snd (state_before m ins q)).
Proof.
  unfold state_before.
  apply (run_from_invariant m (fun s r _ => cur_inv n (cur s) r)
           (fun s r acc now i Hi => chain_cur_step s r now i Hi) (firstn q ins) _ _ 1 []).
  destruct H as (H1 & H2 & H3 & _). unfold start_state.
  destruct (x_start m) as [[s0 cs] f]. cbn [fst snd] in *. subst cs f. rewrite H3.
  destruct n; cbn; [left; reflexivity|right; split; [reflexivity|lia]].
Qed.

(* the inputs on which the handler moves on to the next source *)
Definition continues (s : x_state m) (i : inp A) : bool :=
  match i with ISrc _ e => is_terminal e && (go e && Nat.ltb (S (cur s)) n) | _ => false end.

Lemma chain_csubs s now i :
  csub_ids (snd (fst (x_step m s now i))) = (if continues s i then [S (cur s)] else [])
  /\ Nat.min (S (cur (fst (fst (x_step m s now i))))) n
     = if continues s i then S (S (cur s)) else Nat.min (S (cur s)) n.
Proof.
  destruct H as (_ & _ & _ & Hs). specialize (Hs s now i). cbv zeta in Hs. unfold continues.
  destruct i as [k e|tag|]; [|destruct Hs as [-> ->]; auto..].
  destruct (is_terminal e); cbn [andb].
  - destruct (go e && Nat.ltb (S (cur s)) n) eqn:Hg.
    + destruct Hs as (-> & _ & ->). apply andb_prop in Hg. destruct Hg as [_ Hlt]. apply Nat.ltb_lt in Hlt.
      split; [reflexivity|lia].
    + destruct Hs as (-> & _ & ->). auto.
  - destruct Hs as ((x & ->) & _ & ->). auto.
Qed.

(* source k+1 is subscribed EXACTLY in the step of the delivered terminal notification of source
   k on which the operator continues (k being the subscribed source at that moment) -- not
   before, and always then *)
Theorem chain_subscribes_next_iff (ins : list (Z * inp A)) q j :
  In (S q, OSub j) (fst (run m ins)) <->
  exists now k e, j = S k /\ (S k < n)%nat /\ nth_error ins q = Some (now, ISrc k e)
                  /\ is_terminal e = true /\ go e = true
                  /\ r_live (snd (run m (firstn q ins))) = [k].
Proof.
  rewrite run_in_pos, <- state_before_run.
  (* the runner state before input q is stopped or has [cur s] live; what the step subscribes
     is read off chain_csubs *)
  pose proof (chain_cur_reach ins q) as Hinv.
  destruct (state_before m ins q) as [s r]. cbn [fst snd] in *.
  destruct Hinv as [->|[-> Hc]].
  - split.
    + intros (now & i & _ & Hin). destruct Hin.
    + intros (now & k & e & _ & _ & _ & _ & _ & Hl). discriminate Hl.
  - split.
    + intros (now & i & Hn & Hin). apply rstep_osub_iff in Hin. destruct Hin as (_ & Hd & Hj).
      rewrite (proj1 (chain_csubs s now i)) in Hj. unfold continues in Hj.
      destruct i as [k e|tag|]; [|destruct Hj..].
      destruct (is_terminal e) eqn:He, (go e) eqn:Hg, (Nat.ltb_spec (S (cur s)) n) as [Hlt|Hge];
        cbn [andb In] in Hj; try contradiction.
      destruct Hj as [<-|[]]. destruct Hd as [Hd|Hd]; [|discriminate Hd]. cbn [delivered r_live mem existsb] in Hd.
      rewrite Bool.orb_false_r in Hd. apply Nat.eqb_eq in Hd. subst k. exists now, (cur s), e. auto 7.
    + intros (now & k & e & -> & Hlt & Hn & He & Hg & Hl). injection Hl as <-.
      exists now, (ISrc (cur s) e). split; [exact Hn|]. apply rstep_osub_iff.
      split; [reflexivity|]. split; [left; cbn; now rewrite Nat.eqb_refl|].
      rewrite (proj1 (chain_csubs s now _)). unfold continues. apply Nat.ltb_lt in Hlt.
      rewrite He, Hg, Hlt. left. reflexivity.
Qed.

(* over EVERY run the subscriptions are to sources 0, 1, .., m-1 in this order, each once *)
Theorem chain_subscribes_in_order (ins : list (Z * inp A)) :
  exists mm, (mm <= n)%nat /\ sub_ids (map snd (fst (run m ins))) = seq 0 mm.
Proof.
  set (J := fun (s : x_state m) (l : list nat) => l = seq 0 (Nat.min (S (cur s)) n)).
  enough (G : J (fst (after m (fst (start_state m)) (snd (start_state m)) ins))
                (sub_ids (map snd (fst (run m ins))))) by (eexists; split; [|exact G]; lia).
  rewrite run_unfold. cbn [fst]. rewrite map_app, map_map. cbn [snd]. rewrite map_id.
  apply (sub_ids_invariant m J).
  - intros s l now i ->. unfold J. destruct (chain_csubs s now i) as [-> ->].
    destruct (continues s i) eqn:Hc; [|apply app_nil_r].
    assert (Hlt : (S (cur s) < n)%nat).
    { destruct i as [k e| |]; try discriminate Hc. cbn [continues] in Hc.
      apply andb_prop in Hc. destruct Hc as [_ Hc]. apply andb_prop in Hc. now apply Nat.ltb_lt. }
    rewrite Nat.min_l by lia. symmetry. apply seq_S.
  - destruct H as (H1 & H2 & H3 & _).
    unfold J, start_state, start_obs. destruct (x_start m) as [[s0 cs] f]. cbn [fst snd] in *. subst cs f.
    rewrite H3. destruct n; reflexivity.
Qed.
End Chain.

Section Exact.
Context {A : Type}.

Lemma concat_chain n : chain (x_concat (A:=A) n) (fun cur => cur) n (fun e => match e with Done => true | _ => false end).
Proof.
  split; [destruct n; reflexivity|]. split; [destruct n; reflexivity|]. split; [destruct n; reflexivity|].
  intros cur now [k [x|e|]|tag|]; cbn -[Nat.min]; eauto.
  - repeat split; discriminate.
  - destruct (Nat.ltb_spec (S cur) n); cbn -[Nat.min]; repeat split; try discriminate; lia.
Qed.

Lemma catch_chain n : chain (x_catch (A:=A) n) fst n (fun e => match e with Err _ => true | _ => false end).
Proof.
  split; [destruct n; reflexivity|]. split; [destruct n; reflexivity|]. split; [destruct n; reflexivity|].
  intros [cur last] now [k [x|e|]|tag|]; cbn -[Nat.min]; eauto.
  - destruct (Nat.ltb_spec (S cur) n); cbn -[Nat.min]; repeat split; try discriminate; lia.
  - repeat split; discriminate.
Qed.

Lemma oern_chain n : chain (x_oern (A:=A) n) (fun cur => cur) n is_terminal.
Proof.
  split; [destruct n; reflexivity|]. split; [destruct n; reflexivity|]. split; [destruct n; reflexivity|].
  intros cur now [k [x|e|]|tag|]; cbn -[Nat.min]; eauto;
    destruct (Nat.ltb_spec (S cur) n); cbn -[Nat.min]; repeat split; try discriminate; lia.
Qed.

End Exact.

Section CatchHandler.
Context {A : Type}.

(* source 0 is the caught source, source 1 the observable the handler returns.  The
   elements of source 0; its completion is passed on; on its error e the handler is
   called with e: if it raises e' that error is passed on, otherwise its source is
   mirrored to the end (elements, then completion or error) *)
Definition catch_handler_spec (h : Z -> res unit) (srcs : list (list A * term)) : list (ev A) :=
  match srcs with
  | [] => []
  | (xs, t) :: rest =>
      map Next xs ++
      match t with
      | TDone => [Done]
      | TNever => []
      | TErr e =>
          match h e with
          | Raise e' => [Err e']
          | Ok _ => match rest with
                    | [] => []
                    | (ys, t1) :: _ =>
                        map Next ys ++ match t1 with TDone => [Done] | TErr e1 => [Err e1] | TNever => [] end
                    end
          end
      end
  end.

Theorem catch_handler_closed_form h (srcs : list (list A * term)) :
  emitted (fst (run (x_catch_handler h) (seq_env_from 0 srcs))) = catch_handler_spec h srcs.
Proof.
  rewrite run_unfold. cbn [fst]. rewrite emitted_app.
  unfold start_state, start_obs. cbn -[run_from seq_env_from catch_handler_spec emitted].
  change (emitted [(0%nat, @OSub A 0%nat)]) with (@nil (ev A)). cbn [app].
  destruct srcs as [|[xs t] rest]; [reflexivity|].
  cbn [seq_env_from catch_handler_spec]. rewrite emitted_block by (intros now x; reflexivity). f_equal.
  destruct t as [|e|]; cbn [events map app]; rewrite ?emitted_run_cons.
  - rs. rewrite run_from_stopped by reflexivity. reflexivity.
  - rs.
    destruct (h e) as [[]|e'] eqn:Hh; rs.
    + (* the handler's source takes over *)
      destruct rest as [|[ys t1] rest2]; [reflexivity|].
      cbn [seq_env_from]. rewrite emitted_block by (intros now x; reflexivity). f_equal.
      destruct t1 as [|e1|]; cbn [events map app]; rewrite ?emitted_run_cons.
      * rs. rewrite run_from_stopped by reflexivity. reflexivity.
      * rs. rewrite run_from_stopped by reflexivity. reflexivity.
      * rewrite seq_env_dropped by lia. reflexivity.
    + rewrite run_from_stopped by reflexivity. reflexivity.
  - rewrite seq_env_dropped by lia. reflexivity.
Qed.
End CatchHandler.
