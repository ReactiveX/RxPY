(* C38 -- the lexer step by step (its fuel is never exhausted), and the well-formed
   diagrams cover exactly the "clean" strings.
   [lex_step]       : one step of the lexer; [lex_step_spec] says what a step consumes and
                      what [scan_clean] makes of it, and every induction below goes over
                      steps without a case analysis of its own.
   [lex_fuel]       : the fuel of [lex] (= the length of the string) is never
                      exhausted: any larger fuel gives the same tokens, and [lex]
                      satisfies the fuel-free recursive equation [lex_cons].
   [clean_str]      : a direct, lexer-free reading of "no comma outside a group,
                      every ( closed by a ) on the same line, no ) outside a group".
   [clean_iff_tokens]: that is exactly "the token list has no TComma and the tokens,
                      written back, give the string" (no character was skipped).
   [cover]          : every clean string without spaces is the rendering of a
                      well-formed diagram, whose items are the tokens of the string;
   [wf_render_clean]: conversely every rendering of a well-formed diagram is clean.
   [parse_tokens_comma]: a comma token always makes parse raise. *)
From Coq Require Import List Ascii String Bool Arith Lia.
From RxVerif Require Import Ops.Marbles Ops.MarblesFacts.
Import ListNotations.
Open Scope char_scope.
Open Scope list_scope.

Lemma span_spec : forall p s a b, span p s = (a, b) ->
  s = a ++ b /\ forallb p a = true /\ head_is p b.
Proof.
  intros p. induction s as [|c r IH]; intros a b H; simpl in H.
  - inversion H; subst. repeat split.
  - destruct (p c) eqn:Hc.
    + destruct (span p r) as [a' b'] eqn:E. inversion H; subst.
      destruct (IH _ _ eq_refl) as [E1 [E2 E3]]. rewrite E1 at 1.
      repeat split; [simpl; rewrite Hc, E2; reflexivity | exact E3].
    + inversion H; subst. repeat split. simpl. exact Hc.
Qed.

Lemma find_close_spec : forall s a b, find_close s = Some (a, b) ->
  s = a ++ ")" :: b /\ forallb close_free a = true.
Proof.
  induction s as [|c r IH]; intros a b H; simpl in H; [discriminate|].
  destruct (ch_eqb c ")") eqn:E1.
  - inversion H; subst. apply ch_eqb_eq in E1. subst. split; reflexivity.
  - destruct (ch_eqb c newline) eqn:E2; [discriminate|].
    destruct (find_close r) as [[a' b']|] eqn:E; [|discriminate]. inversion H; subst.
    destruct (IH _ _ eq_refl) as [E3 E4]. rewrite E3 at 1. split; [reflexivity|].
    simpl. unfold close_free at 1. rewrite E1, E2, E4. reflexivity.
Qed.

(* direct reading, no tokens: outside a group a "," or a ")" is an error and "("
   opens a group; inside a group ")" closes it and a newline (which the regular
   expression's "." does not cross) or the end of the string is an error *)
Fixpoint scan_clean (inside : bool) (s : str) : bool :=
  match s with
  | [] => negb inside
  | c :: r =>
    if inside then
      if ch_eqb c ")" then scan_clean false r
      else if ch_eqb c newline then false
      else scan_clean true r
    else
      if ch_eqb c "(" then scan_clean true r
      else if ch_eqb c ")" || ch_eqb c "," then false
      else scan_clean false r
  end.
Definition clean_str (s : str) : bool := scan_clean false s.

(* token reading: no comma token, and the tokens written back give the string *)
Definition tok_str (t : token) : str :=
  match t with
  | TGroup c => "(" :: c ++ [")"]
  | TTicks n => repeat "-" n
  | TComma => [","]
  | TElem e => e
  end.
Definition untok (toks : list token) : str := flat_map tok_str toks.
Definition no_comma (toks : list token) : bool :=
  forallb (fun t => match t with TComma => false | _ => true end) toks.
Definition clean (s : str) (toks : list token) : bool := no_comma toks && str_eqb (untok toks) s.

Definition nospace (s : str) : bool := forallb (fun c => negb (ch_eqb c " ")) s.
Definition plain (c : ascii) : bool := negb (ch_eqb c "(" || ch_eqb c ")" || ch_eqb c ",").

Lemma scan_skip : forall a b, forallb plain a = true -> scan_clean false (a ++ b) = scan_clean false b.
Proof.
  induction a as [|c r IH]; intros b H; [reflexivity|].
  simpl in H. apply andb_true_iff in H. destruct H as [Hc Hr].
  unfold plain in Hc. apply negb_true_iff in Hc.
  apply orb_false_iff in Hc. destruct Hc as [Hc H3]. apply orb_false_iff in Hc. destruct Hc as [H1 H2].
  simpl. rewrite H1, H2, H3. simpl. apply IH. exact Hr.
Qed.

Lemma scan_inside_app : forall a b, forallb close_free a = true ->
  scan_clean true (a ++ ")" :: b) = scan_clean false b.
Proof.
  induction a as [|c r IH]; intros b H; [reflexivity|].
  simpl in H. apply andb_true_iff in H. destruct H as [Hc Hr].
  unfold close_free in Hc. apply andb_true_iff in Hc. destruct Hc as [H1 H2].
  apply negb_true_iff in H1. apply negb_true_iff in H2.
  simpl. rewrite H1, H2. apply IH. exact Hr.
Qed.

Lemma scan_inside : forall r, scan_clean true r = true ->
  exists a b, find_close r = Some (a, b) /\ scan_clean false b = true.
Proof.
  induction r as [|c r IH]; intros H; simpl in H; [discriminate|].
  simpl. destruct (ch_eqb c ")").
  - exists [], r. split; [reflexivity | exact H].
  - destruct (ch_eqb c newline); [discriminate|].
    destruct (IH H) as [a [b [E1 E2]]]. rewrite E1. exists (c :: a), b. split; [reflexivity | exact E2].
Qed.

Lemma is_dash_plain : forall c, is_dash c = true -> plain c = true.
Proof. intros c H. unfold is_dash in H. apply ch_eqb_eq in H. subst. reflexivity. Qed.

Lemma elem_char_plain : forall c, elem_char c = true -> plain c = true.
Proof.
  intros c H. destruct (elem_char_inv _ H) as [_ [E2 [E3 [E4 _]]]].
  unfold plain. rewrite E2, E3, E4. reflexivity.
Qed.

Lemma dashes_repeat : forall a, forallb is_dash a = true -> a = repeat "-" (List.length a).
Proof.
  induction a as [|c r IH]; intros H; [reflexivity|].
  simpl in H. apply andb_true_iff in H. destruct H as [Hc Hr].
  unfold is_dash in Hc. apply ch_eqb_eq in Hc. subst. simpl. f_equal. apply IH. exact Hr.
Qed.

(* at c :: r: the token produced, if any, and where the lexer goes on *)
Definition lex_step (c : ascii) (r : str) : option token * str :=
  if ch_eqb c "(" then
    match find_close r with
    | Some (content, rest) => (Some (TGroup content), rest)
    | None => (None, r)
    end
  else if ch_eqb c "-" then
    let (t, rest) := span is_dash r in (Some (TTicks (S (List.length t))), rest)
  else if ch_eqb c "," then (Some TComma, r)
  else if ch_eqb c "#" then (Some (TElem [c]), r)
  else if ch_eqb c "|" then (Some (TElem [c]), r)
  else if ch_eqb c ")" then (None, r)
  else let (t, rest) := span elem_char r in (Some (TElem (c :: t)), rest).

Definition emit (o : option token) (l : list token) : list token :=
  match o with Some t => t :: l | None => l end.

Lemma lex_aux_step : forall f c r,
  lex_aux (S f) (c :: r) = emit (fst (lex_step c r)) (lex_aux f (snd (lex_step c r))).
Proof.
  intros f c r. cbn [lex_aux]. unfold lex_step.
  destruct (ch_eqb c "("); [destruct (find_close r) as [[a b]|]; reflexivity|].
  destruct (ch_eqb c "-"); [destruct (span is_dash r); reflexivity|].
  destruct (ch_eqb c ","); [reflexivity|].
  destruct (ch_eqb c "#"); [reflexivity|].
  destruct (ch_eqb c "|"); [reflexivity|].
  destruct (ch_eqb c ")"); [reflexivity|].
  destruct (span elem_char r); reflexivity.
Qed.

(* A produced token is exactly what the step consumed, and [scan_clean] passes over it unless
   it is a comma; what a step drops without a token is a stray parenthesis, which alone makes
   the string unclean. *)
Lemma lex_step_spec : forall c r o rest, lex_step c r = (o, rest) ->
  List.length rest <= List.length r /\
  match o with
  | Some t => c :: r = tok_str t ++ rest /\
              scan_clean false (c :: r) = (match t with TComma => false | _ => scan_clean false rest end)
  | None => rest = r /\ scan_clean false (c :: r) = false
  end.
Proof.
  intros c r o rest. unfold lex_step. cbn [scan_clean].
  destruct (ch_eqb c "(") eqn:E1.
  { apply ch_eqb_eq in E1. subst c. destruct (find_close r) as [[a b]|] eqn:E; intros [= <- <-].
    - destruct (find_close_spec _ _ _ E) as [-> Ha]. rewrite app_length. simpl. split; [lia|].
      rewrite <- app_assoc. split; [reflexivity | apply scan_inside_app; exact Ha].
    - split; [lia|]. split; [reflexivity|]. destruct (scan_clean true r) eqn:Hc; [|reflexivity].
      apply scan_inside in Hc. destruct Hc as [a [b [Hc _]]]. congruence. }
  destruct (ch_eqb c "-") eqn:E2.
  { apply ch_eqb_eq in E2. subst c. destruct (span is_dash r) as [a b] eqn:E. intros [= <- <-].
    destruct (span_spec _ _ _ _ E) as [-> [Ha _]]. rewrite app_length. split; [lia|].
    simpl. rewrite <- (dashes_repeat a Ha). split; [reflexivity|].
    apply scan_skip. eapply forallb_impl; [apply is_dash_plain | exact Ha]. }
  destruct (ch_eqb c ",") eqn:E3.
  { apply ch_eqb_eq in E3. subst c. intros [= <- <-]. split; [lia | split; reflexivity]. }
  destruct (ch_eqb c "#") eqn:E4.
  { apply ch_eqb_eq in E4. subst c. intros [= <- <-]. split; [lia | split; reflexivity]. }
  destruct (ch_eqb c "|") eqn:E5.
  { apply ch_eqb_eq in E5. subst c. intros [= <- <-]. split; [lia | split; reflexivity]. }
  destruct (ch_eqb c ")") eqn:E6; [intros [= <- <-]; split; [lia | split; reflexivity]|].
  destruct (span elem_char r) as [a b] eqn:E. intros [= <- <-].
  destruct (span_spec _ _ _ _ E) as [-> [Ha _]]. rewrite app_length. split; [lia|]. split; [reflexivity|].
  apply scan_skip. eapply forallb_impl; [apply elem_char_plain | exact Ha].
Qed.

Lemma lex_aux_fuel : forall f1 f2 s, List.length s <= f1 -> List.length s <= f2 ->
  lex_aux f1 s = lex_aux f2 s.
Proof.
  induction f1 as [|f1 IH]; intros f2 s H1 H2.
  - destruct s; [|simpl in H1; lia]. destruct f2; reflexivity.
  - destruct s as [|c r]; [destruct f2; reflexivity|].
    destruct f2 as [|f2]; [simpl in H2; lia|]. simpl in H1, H2. rewrite !lex_aux_step.
    destruct (lex_step c r) as [o rest] eqn:E. apply lex_step_spec in E. destruct E as [Hl _].
    f_equal. apply IH; simpl; lia.
Qed.

Theorem lex_fuel : forall s k, lex_aux (List.length s + k) s = lex s.
Proof. intros s k. unfold lex. apply lex_aux_fuel; lia. Qed.

Theorem lex_nil : lex [] = [].
Proof. reflexivity. Qed.

Lemma lex_step_eq : forall c r, lex (c :: r) = emit (fst (lex_step c r)) (lex (snd (lex_step c r))).
Proof.
  intros c r. unfold lex. cbn [List.length]. rewrite lex_aux_step. f_equal.
  destruct (lex_step c r) as [o rest] eqn:E. apply lex_step_spec in E. apply lex_aux_fuel; simpl; lia.
Qed.

Theorem lex_cons : forall c r, lex (c :: r) =
  if ch_eqb c "(" then
    match find_close r with
    | Some (content, rest) => TGroup content :: lex rest
    | None => lex r
    end
  else if ch_eqb c "-" then
    let (t, rest) := span is_dash r in TTicks (S (List.length t)) :: lex rest
  else if ch_eqb c "," then TComma :: lex r
  else if ch_eqb c "#" then TElem [c] :: lex r
  else if ch_eqb c "|" then TElem [c] :: lex r
  else if ch_eqb c ")" then lex r
  else let (t, rest) := span elem_char r in TElem (c :: t) :: lex rest.
Proof.
  intros c r. rewrite lex_step_eq. unfold lex_step.
  destruct (ch_eqb c "("); [destruct (find_close r) as [[a b]|]; reflexivity|].
  destruct (ch_eqb c "-"); [destruct (span is_dash r); reflexivity|].
  destruct (ch_eqb c ","); [reflexivity|].
  destruct (ch_eqb c "#"); [reflexivity|].
  destruct (ch_eqb c "|"); [reflexivity|].
  destruct (ch_eqb c ")"); [reflexivity|].
  destruct (span elem_char r); reflexivity.
Qed.

Lemma join_split : forall a, join_comma (split_comma a) = a.
Proof.
  induction a as [|c r IH]; [reflexivity|].
  simpl. destruct (ch_eqb c ",") eqn:Hc.
  - apply ch_eqb_eq in Hc. subst.
    pose proof (split_comma_nonempty r) as Hne.
    destruct (split_comma r) as [|h t] eqn:E; [contradiction|].
    change (join_comma ([] :: h :: t)) with ([] ++ "," :: join_comma (h :: t)).
    rewrite IH. reflexivity.
  - pose proof (split_comma_nonempty r) as Hne.
    destruct (split_comma r) as [|h t] eqn:E; [contradiction|].
    destruct t as [|e t'].
    + simpl in *. rewrite IH. reflexivity.
    + change (join_comma ((c :: h) :: e :: t')) with ((c :: h) ++ "," :: join_comma (e :: t')).
      change (join_comma (h :: e :: t')) with (h ++ "," :: join_comma (e :: t')) in IH.
      rewrite <- IH. reflexivity.
Qed.

Lemma split_forall : forall (q : ascii -> bool) a, forallb q a = true ->
  forallb (forallb (fun c => q c && comma_free c)) (split_comma a) = true.
Proof.
  intros q. induction a as [|c r IH]; intros H; [reflexivity|].
  simpl in H. apply andb_true_iff in H. destruct H as [Hc Hr]. specialize (IH Hr).
  simpl. destruct (ch_eqb c ",") eqn:E.
  - simpl. exact IH.
  - destruct (split_comma r) as [|h t]; simpl in *.
    + rewrite Hc. unfold comma_free. rewrite E. reflexivity.
    + rewrite Hc. unfold comma_free at 1. rewrite E. simpl. exact IH.
Qed.

Lemma group_char_of : forall c, (close_free c && negb (ch_eqb c " ")) && comma_free c = true -> group_char c = true.
Proof.
  intros c. unfold close_free, comma_free, group_char.
  destruct (ch_eqb c ","), (ch_eqb c ")"), (ch_eqb c newline), (ch_eqb c " "); simpl; auto.
Qed.

Lemma forallb_both : forall (p q : ascii -> bool) a,
  forallb p a = true -> forallb q a = true -> forallb (fun c => p c && q c) a = true.
Proof.
  intros p q. induction a as [|x a IH]; simpl; intros Hp Hq; [reflexivity|].
  apply andb_true_iff in Hp. apply andb_true_iff in Hq. rewrite (proj1 Hp), (proj1 Hq). apply IH; tauto.
Qed.

Lemma nospace_app : forall a b, nospace (a ++ b) = nospace a && nospace b.
Proof. intros. unfold nospace. apply forallb_app. Qed.

(* the item a produced token stands for, in a clean string without spaces; [adj_ok] with
   what follows comes from the first character of the rest, which the token could not take *)
Lemma step_item : forall c r t rest, lex_step c r = (Some t, rest) ->
  nospace (c :: r) = true -> t <> TComma ->
  exists i, tok_of i = t /\ render_item i = tok_str t /\ wf_item i = true /\ nospace rest = true /\
    forall d, wf d = true -> render d = rest -> match d with [] => true | j :: _ => adj_ok i j end = true.
Proof.
  intros c r t rest. unfold lex_step.
  change (nospace (c :: r)) with (negb (ch_eqb c " ") && nospace r). rewrite andb_true_iff.
  destruct (ch_eqb c "(") eqn:E1.
  { destruct (find_close r) as [[a b]|] eqn:Ef; intros [= <- <-] [_ Hsr] _.
    destruct (find_close_spec _ _ _ Ef) as [-> Ha].
    rewrite nospace_app in Hsr. apply andb_true_iff in Hsr. destruct Hsr as [Hsa Hsb].
    exists (IGroup (split_comma a)). simpl. rewrite join_split. repeat split; [|exact Hsb|intros [|j d]; reflexivity].
    apply andb_true_iff. split.
    - pose proof (split_comma_nonempty a). destruct (split_comma a); [contradiction | reflexivity].
    - eapply forallb_impl; [|apply (split_forall (fun c => close_free c && negb (ch_eqb c " ")))].
      + intros e He. eapply forallb_impl; [|exact He]. intros x Hx. apply group_char_of. exact Hx.
      + exact (forallb_both _ _ a Ha Hsa). }
  destruct (ch_eqb c "-") eqn:E2.
  { destruct (span is_dash r) as [a b] eqn:Esp. intros [= <- <-] [_ Hsr] _.
    destruct (span_spec _ _ _ _ Esp) as [-> [Ha Hh]].
    rewrite nospace_app in Hsr. apply andb_true_iff in Hsr.
    exists (ITicks (S (List.length a))). repeat split; [tauto|].
    intros d Hw Hr. apply (adj_head (ITicks (S (List.length a))) d Hw). rewrite Hr. exact Hh. }
  destruct (ch_eqb c ",") eqn:E3; [intros [= <- <-] _ H; contradiction|].
  destruct (ch_eqb c "#") eqn:E4.
  { apply ch_eqb_eq in E4. subst c. intros [= <- <-] [_ Hsr] _.
    exists IErr. repeat split; [exact Hsr | intros [|j d]; reflexivity]. }
  destruct (ch_eqb c "|") eqn:E5.
  { apply ch_eqb_eq in E5. subst c. intros [= <- <-] [_ Hsr] _.
    exists IEnd. repeat split; [exact Hsr | intros [|j d]; reflexivity]. }
  destruct (ch_eqb c ")") eqn:E6; [discriminate|].
  destruct (span elem_char r) as [a b] eqn:Esp. intros [= <- <-] [Hsc Hsr] _.
  destruct (span_spec _ _ _ _ Esp) as [-> [Ha Hh]].
  rewrite nospace_app in Hsr. apply andb_true_iff in Hsr. destruct Hsr as [Hsa Hsb].
  assert (Hec : elem_char c = true) by (unfold elem_char; rewrite E1, E2, E3, E4, E5, E6; reflexivity).
  exists (IElem (c :: a)). repeat split; [|exact Hsb|].
  - simpl. unfold value_char at 1. rewrite Hec, Hsc. exact (forallb_both _ _ a Ha Hsa).
  - intros d Hw Hr. apply (adj_head (IElem (c :: a)) d Hw). rewrite Hr. exact Hh.
Qed.

(* by induction on a bound n of the length: the rest a step leaves is shorter, not a subterm *)
Lemma cover_gen : forall n t, List.length t <= n -> clean_str t = true -> nospace t = true ->
  exists d, wf d = true /\ render d = t /\ lex t = map tok_of d.
Proof.
  induction n as [|n IH]; intros t Hn Hc Hs.
  - destruct t; [|simpl in Hn; lia]. exists []. repeat split.
  - destruct t as [|c r]; [exists []; repeat split|]. simpl in Hn. rewrite lex_step_eq.
    unfold clean_str in Hc. destruct (lex_step c r) as [[t|] rest] eqn:E.
    + destruct (lex_step_spec _ _ _ _ E) as [Hr [Hstr Hcl]]. rewrite Hcl in Hc.
      destruct (step_item _ _ _ _ E Hs) as [i [Ht [Hri [Hwi [Hsr Hadj]]]]]; [intros ->; discriminate|].
      assert (Hc' : scan_clean false rest = true) by (destruct t; (exact Hc || discriminate)).
      destruct (IH rest ltac:(lia) Hc' Hsr) as [d [Hw [Hrd Hl]]].
      exists (i :: d). split; [|split].
      * cbn [wf]. rewrite Hwi, (Hadj d Hw Hrd), Hw. reflexivity.
      * rewrite render_cons, Hri, Hrd. symmetry. exact Hstr.
      * cbn [fst snd emit map]. rewrite Ht, Hl. reflexivity.
    + destruct (lex_step_spec _ _ _ _ E) as [_ [_ Hcl]]. congruence.
Qed.

Lemma remove_spaces_nospace : forall s, nospace (remove_spaces s) = true.
Proof.
  induction s as [|c r IH]; [reflexivity|]. unfold remove_spaces. simpl.
  destruct (negb (ch_eqb c " ")) eqn:E; [|exact IH]. simpl. rewrite E. exact IH.
Qed.

Theorem cover : forall t, clean_str t = true -> nospace t = true ->
  exists d, wf d = true /\ render d = t /\ lex t = map tok_of d.
Proof. intros t. apply (cover_gen (List.length t)). lia. Qed.

(* the form used by the parser: any string, after its spaces are removed *)
Theorem cover_string : forall s, clean_str (remove_spaces s) = true ->
  exists d, wf d = true /\ render d = remove_spaces s.
Proof.
  intros s H. destruct (cover _ H (remove_spaces_nospace s)) as [d [H1 [H2 _]]].
  exists d. split; assumption.
Qed.

Lemma untok_cons : forall t r, untok (t :: r) = tok_str t ++ untok r.
Proof. reflexivity. Qed.

(* [app_inv_head_iff] at the type [str], for rewriting in equations between strings *)
Lemma app_eq_iff : forall (x y z : str), x ++ y = x ++ z <-> y = z.
Proof. intros x y z. apply app_inv_head_iff. Qed.

(* The lexer only ever drops characters (a stray
   parenthesis), so the tokens written back give the string exactly when nothing was
   dropped; that and the absence of a comma token is what [scan_clean] reads off the string.
   Induction on a bound of the length, as [cover_gen]. *)
Lemma lex_clean_gen : forall n t, List.length t <= n ->
  List.length (untok (lex t)) <= List.length t /\
  (scan_clean false t = true <-> no_comma (lex t) = true /\ untok (lex t) = t).
Proof.
  induction n as [|n IH]; intros t Hn.
  - destruct t; [|simpl in Hn; lia]. simpl. intuition.
  - destruct t as [|c r]; [simpl; intuition|]. simpl in Hn. rewrite lex_step_eq.
    destruct (lex_step c r) as [[t|] rest] eqn:E; apply lex_step_spec in E; destruct E as [Hr E];
      cbn [fst snd emit].
    + destruct E as [Hs Hc]. destruct (IH rest ltac:(lia)) as [Hl Hiff].
      rewrite Hc, Hs, untok_cons, app_eq_iff, !app_length. split; [lia|].
      destruct t; try exact Hiff. split; [discriminate | intros [H _]; discriminate].
    + destruct E as [-> Hc]. destruct (IH r ltac:(lia)) as [Hl _]. rewrite Hc. split; [simpl; lia|].
      split; [discriminate|]. intros [_ H]. rewrite H in Hl. simpl in Hl. lia.
Qed.

Theorem clean_iff_tokens : forall t, clean_str t = true <-> clean t (lex t) = true.
Proof.
  intros t. unfold clean. rewrite andb_true_iff, str_eqb_eq.
  exact (proj2 (lex_clean_gen _ t (le_n _))).
Qed.

Lemma tok_str_tok_of : forall i, tok_str (tok_of i) = render_item i.
Proof. intros [n|s| | |es]; reflexivity. Qed.

Theorem wf_render_clean : forall d, wf d = true -> clean_str (render d) = true /\ nospace (render d) = true.
Proof.
  intros d H. split; [|apply render_no_space; exact H].
  apply clean_iff_tokens. unfold clean, lex. rewrite lex_render by (auto; lia).
  apply andb_true_iff. split.
  - clear. induction d as [|i d IH]; [reflexivity|]. simpl. rewrite IH. destruct i; reflexivity.
  - apply str_eqb_eq. clear. induction d as [|i d IH]; [reflexivity|].
    simpl map. rewrite untok_cons, render_cons, IH, tok_str_tok_of. reflexivity.
Qed.

Section Comma.
  Variable V : Type.
  Variable valof : str -> V.

  (* a ValueError in any case; without raise_stopped no other error can come first *)
  Lemma parse_tokens_comma : forall rs toks f st, no_comma toks = false ->
    exists e, parse_tokens V valof rs toks f st = inl e /\ (rs = false -> e = ErrComma).
  Proof.
    intros rs. induction toks as [|t r IH]; intros f st H; [discriminate|].
    destruct t as [content|n| |e]; cbn [no_comma forallb andb] in H; cbn [parse_tokens].
    - destruct (check_all rs st (split_comma content)) as [st'|] eqn:Ec.
      + destruct (IH (f + (2 + List.length content)) st' H) as [e [He Hc]]. rewrite He. exists e. split; [reflexivity | exact Hc].
      + eexists. split; [reflexivity|]. intros ->. rewrite check_all_norule in Ec. discriminate.
    - apply IH. exact H.
    - exists ErrComma. split; reflexivity.
    - destruct (check rs st e) as [st'|] eqn:Ec.
      + destruct (IH (f + List.length e) st' H) as [e' [He Hc]]. rewrite He. exists e'. split; [reflexivity | exact Hc].
      + eexists. split; [reflexivity|]. intros ->. discriminate.
  Qed.
End Comma.
