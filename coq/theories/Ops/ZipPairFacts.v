(* C13: the pairing rule of zip as a statement about [run] over the FULL input alphabet:
   the i-th tuple emitted consists of the i-th element of every source, where the elements
   of a source are those it delivered while subscribed (before its own completion). *)
From RxVerif Require Import Base.Prelude Ops.Machine Ops.Multi Ops.Combinators Ops.CombineFacts Ops.ZipSpecFacts.

Definition tuples {B} (l : list (nat * ev B)) : list B :=
  flat_map (fun pe => match snd pe with Next b => [b] | _ => [] end) l.

Section ZipPair.
Context {A : Type}.

(* what each source delivers while it is subscribed: elements of one of the n sources up
   to that source's own termination, up to the subscriber's dispose *)
Fixpoint zip_hists (n : nat) (hists : list (list A)) (done : list bool) (ins : list (Z * inp A))
  : list (list A) :=
  match ins with
  | [] => hists
  | (_, ISrc k e) :: t =>
      if Nat.ltb k n && negb (nth k done true) then
        match e with
        | Next x => zip_hists n (nth_set k (nth k hists [] ++ [x]) hists) done t
        | _ => zip_hists n hists (nth_set k true done) t
        end
      else zip_hists n hists done t
  | (_, ITick _) :: t => zip_hists n hists done t
  | (_, IDispose) :: _ => hists
  end.

Lemma zip_hists_extends n (ins : list (Z * inp A)) : forall hists done j,
  length hists = n ->
  exists ext, nth j (zip_hists n hists done ins) [] = nth j hists [] ++ ext.
Proof.
  induction ins as [|[now i] rest IH]; intros hists done j Hlen.
  - exists []. cbn. now rewrite app_nil_r.
  - cbn [zip_hists]. destruct i as [k e|tag|].
    + destruct (Nat.ltb k n && negb (nth k done true)) eqn:Hacc; [|apply IH; exact Hlen].
      apply andb_true_iff in Hacc. destruct Hacc as [Hk _]. apply Nat.ltb_lt in Hk.
      destruct e as [x|err|]; try (apply IH; exact Hlen).
      destruct (IH (nth_set k (nth k hists [] ++ [x]) hists) done j) as [ext Hext].
      { rewrite nth_set_length; lia. }
      rewrite Hext, nth_nth_set_cases by lia.
      destruct (Nat.eqb_spec j k) as [->|Hne].
      * exists (x :: ext). now rewrite <- app_assoc.
      * exists ext. reflexivity.
    + apply IH. exact Hlen.
    + exists []. now rewrite app_nil_r.
Qed.

Lemma zip_spec_pairing n (ins : list (Z * inp A)) : forall hists done c pos i tup,
  length hists = n ->
  nth_error (tuples (zip_spec n hists done c pos ins)) i = Some tup ->
  length tup = n /\
  forall k d, (k < n)%nat ->
    (c + i < length (nth k (zip_hists n hists done ins) []))%nat
    /\ nth k tup d = nth (c + i) (nth k (zip_hists n hists done ins) []) d.
Proof.
  induction ins as [|[now inp0] rest IH]; intros hists done c pos i tup Hlen Hnth.
  - destruct i; discriminate.
  - cbn [zip_spec zip_hists] in *. destruct inp0 as [k e|tag|].
    + destruct (Nat.ltb k n && negb (nth k done true)) eqn:Hacc; [|eapply IH; eassumption].
      pose proof Hacc as Hacc'. apply andb_true_iff in Hacc'. destruct Hacc' as [Hk _]. apply Nat.ltb_lt in Hk.
      destruct e as [x|err|].
      * set (hists1 := nth_set k (nth k hists [] ++ [x]) hists) in *.
        assert (Hlen1 : length hists1 = n) by (subst hists1; rewrite nth_set_length; lia).
        destruct (forallb (fun h => Nat.ltb c (length h)) hists1) eqn:Hfull; [|eapply IH; eassumption].
        cbn [tuples flat_map snd app] in Hnth. fold (@tuples (list A)) in Hnth.
        destruct i as [|i'].
        -- (* tuple c is read off the histories as they are now; the later inputs only extend them *)
           cbn [nth_error] in Hnth. injection Hnth as <-.
           split; [now rewrite map_length|]. intros j d Hj.
           destruct (zip_hists_extends n rest hists1 done j Hlen1) as [ext Hext].
           assert (Hc : (c < length (nth j hists1 []))%nat).
           { rewrite forallb_forall in Hfull. apply Nat.ltb_lt. apply Hfull. apply nth_In. lia. }
           rewrite Hext, Nat.add_0_r, app_length. split; [lia|].
           rewrite app_nth1 by exact Hc.
           rewrite (nth_indep _ d (nth c (@nil A) x)) by (rewrite map_length; lia).
           rewrite (map_nth (fun h => nth c h x) hists1 [] j).
           apply nth_indep. exact Hc.
        -- cbn [nth_error] in Hnth.
           destruct (existsb (fun hd : list A * bool => Nat.leb (length (fst hd)) (S c) && snd hd)
                             (combine hists1 done)).
           ++ destruct i'; discriminate.
           ++ replace (c + S i')%nat with (S c + i')%nat by lia. eapply IH; eassumption.
      * destruct i; discriminate.
      * destruct (Nat.leb (length (nth k hists [])) c); [destruct i; discriminate|].
        eapply IH; eassumption.
    + eapply IH; eassumption.
    + destruct i; discriminate.
Qed.

End ZipPair.
