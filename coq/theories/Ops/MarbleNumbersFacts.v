(* C38 -- facts about the value / timestamp model Ops/MarbleNumbers.v.
   [parse_int_render_Z]   : int(str(z)) = z for every integer z; [render_Z] is the
                            standard library's decimal printing (Z.to_int, then
                            DecimalString), "-" followed by the digits, no leading
                            zeros -- what Python's str(int) writes.
   [parse_int_uint]       : more generally every non-empty string of decimal digits
                            (leading zeros allowed) reads as its decimal value, also
                            behind a "+" or "-" sign.
   [valof_spec]           : lookup_.get(v, v) with v = try_number(element).
   [try_number_string]    : elements whose first character after an optional sign is
                            neither a digit nor "." and that are not inf/infinity/nan
                            stay strings.
   [try_number_foreign_char]: elements containing a character outside
                            0-9 _ . e E + - that are not inf/infinity/nan stay strings.
   [time_of_spec]         : the timestamp of a frame is frame * timespan + shift, in
                            Python's int/float arithmetic; the integer case is monotone
                            in the frame ([time_of_int], [time_of_int_mono]).
   [cold_case_times], [cold_case_diagram], [hot_case_times]: the times delivered by
                            the cold / hot models are [time_of] of the parsed frames.
   No theorem here reasons about floating-point arithmetic: PrimFloat operations occur in
   statements only (Coq.Floats.FloatAxioms is not imported). *)
From Coq Require Import List Ascii String Bool Arith ZArith Lia.
From Coq Require Import Decimal DecimalString DecimalPos DecimalN DecimalZ.
From Coq Require Import PrimFloat.
From RxVerif Require Import Ops.Marbles Ops.MarblesFacts Ops.MarbleNumbers.
Import ListNotations.
Open Scope char_scope.
Open Scope list_scope.

(* decimal rendering, as the standard library does it *)
Definition uchars (d : uint) : str := list_ascii_of_string (NilEmpty.string_of_uint d).
Definition render_Z (z : Z) : str := list_ascii_of_string (NilZero.string_of_int (Z.to_int z)).

Lemma scan_step : forall c r acc cnt d, digit_val c = Some d ->
  scan_digits_aux (c :: r) acc cnt = scan_digits_aux r (acc * 10 + d)%Z (S cnt).
Proof. intros c r acc cnt d H. simpl. rewrite H. reflexivity. Qed.

(* the ten digits alike: one step of the scanner is one step of [Pos.of_uint_acc], since
   acc * 10 + k = k + 10 * acc in positive (no + k for the digit 0) *)
Lemma scan_pos : forall d acc cnt, exists n,
  scan_digits_aux (uchars d) (Z.pos acc) cnt = (Z.pos (Pos.of_uint_acc d acc), n, []).
Proof.
  induction d as [|d IH|d IH|d IH|d IH|d IH|d IH|d IH|d IH|d IH|d IH]; intros acc cnt;
    [exists cnt; reflexivity | ..];
    unfold uchars; cbn [Pos.of_uint_acc NilEmpty.string_of_uint list_ascii_of_string]; fold (uchars d);
    match goal with |- context [Pos.of_uint_acc d ?a] => destruct (IH a (S cnt)) as [n Hn] end;
    exists n; rewrite <- Hn; erewrite scan_step by reflexivity; f_equal;
    simpl (Z.of_nat _); cbn [Z.mul Z.add]; f_equal; rewrite Pos.mul_comm; try rewrite Pos.add_comm; reflexivity.
Qed.

Lemma scan_zero : forall d cnt, exists n,
  scan_digits_aux (uchars d) 0%Z cnt = (Z.of_uint d, n, []).
Proof.
  unfold Z.of_uint.
  induction d as [|d IH|d IH|d IH|d IH|d IH|d IH|d IH|d IH|d IH|d IH]; intros cnt;
    [exists cnt; reflexivity | exact (IH (S cnt)) | ..];
    edestruct (scan_pos d) as [n Hn]; exists n; exact Hn.
Qed.

Lemma uchars_head : forall d, d <> Nil -> exists c r v, uchars d = c :: r /\ digit_val c = Some v.
Proof.
  intros [|d|d|d|d|d|d|d|d|d|d] H; [contradiction| | | | | | | | | | ];
    eexists; eexists; eexists; (split; [reflexivity | reflexivity]).
Qed.

Lemma scan_digits_uint : forall d, d <> Nil -> exists n, scan_digits (uchars d) = Some (Z.of_uint d, n, []).
Proof.
  intros d H. destruct (uchars_head d H) as [c [r [v [E Hv]]]].
  destruct (scan_zero d 0) as [n Hn]. exists n.
  unfold scan_digits. rewrite E, Hv. rewrite <- E, Hn. reflexivity.
Qed.

Lemma take_sign_digit : forall c r v, digit_val c = Some v -> take_sign (c :: r) = (false, c :: r).
Proof.
  intros c r v H. unfold take_sign.
  destruct (ch_eqb c "-") eqn:E1; [apply ch_eqb_eq in E1; subst; discriminate|].
  destruct (ch_eqb c "+") eqn:E2; [apply ch_eqb_eq in E2; subst; discriminate|]. reflexivity.
Qed.

(* int("0042") = 42, int("+7") = 7, int("-007") = -7 : any non-empty digit string *)
Theorem parse_int_uint : forall d, d <> Nil ->
  parse_int (uchars d) = Some (Z.of_uint d)
  /\ parse_int ("+" :: uchars d) = Some (Z.of_uint d)
  /\ parse_int ("-" :: uchars d) = Some (- Z.of_uint d)%Z.
Proof.
  intros d H. destruct (scan_digits_uint d H) as [n Hn].
  destruct (uchars_head d H) as [c [r [v [E Hv]]]].
  unfold parse_int. repeat split.
  - rewrite E, (take_sign_digit _ _ _ Hv), <- E, Hn. reflexivity.
  - cbn [take_sign]. change (ch_eqb "+" "-") with false. change (ch_eqb "+" "+") with true.
    cbn iota. rewrite Hn. reflexivity.
  - cbn [take_sign]. change (ch_eqb "-" "-") with true. cbn iota. rewrite Hn. reflexivity.
Qed.

(* int(str(z)) = z *)
Theorem parse_int_render_Z : forall z, parse_int (render_Z z) = Some z.
Proof.
  intros z. rewrite <- (DecimalZ.of_to z) at 2. unfold render_Z.
  destruct z as [|p|p]; cbn [Z.to_int NilZero.string_of_int Z.of_int]; [reflexivity | |].
  (* a positive and a negative number alike: the digits of p are not empty *)
  all: pose proof (Unsigned.to_uint_nonnil p) as Hn;
    replace (NilZero.string_of_uint (Pos.to_uint p)) with (NilEmpty.string_of_uint (Pos.to_uint p))
      by (destruct (Pos.to_uint p); [contradiction | reflexivity ..]);
    apply (parse_int_uint _ Hn).
Qed.

Theorem try_number_render_Z : forall z, try_number (render_Z z) = PInt z.
Proof. intros z. unfold try_number. rewrite parse_int_render_Z. reflexivity. Qed.

(* lookup_.get(v, v), v = try_number(element): the first key equal to v (Python ==
   between str / int / float keys), else v itself *)
Theorem valof_spec : forall lk s,
  valof lk s = match find (fun kv => py_eq (try_number s) (fst kv)) lk with
               | Some kv => snd kv
               | None => try_number s
               end.
Proof. reflexivity. Qed.

Theorem valof_no_key : forall lk s,
  (forall kv, In kv lk -> py_eq (try_number s) (fst kv) = false) -> valof lk s = try_number s.
Proof.
  intros lk s H. rewrite valof_spec.
  destruct (find _ lk) as [kv|] eqn:E; [|reflexivity].
  apply find_some in E. destruct E as [E1 E2]. rewrite (H _ E1) in E2. discriminate.
Qed.

Theorem valof_first_key : forall lk1 k v lk2 s,
  (forall kv, In kv lk1 -> py_eq (try_number s) (fst kv) = false) ->
  py_eq (try_number s) k = true -> valof (lk1 ++ (k, v) :: lk2) s = v.
Proof.
  intros lk1 k v lk2 s H Hk. rewrite valof_spec.
  induction lk1 as [|x r IH]; simpl.
  - rewrite Hk. reflexivity.
  - rewrite (H x (or_introl eq_refl)). apply IH. intros kv Hin. apply H. right. exact Hin.
Qed.

Theorem valof_int_element : forall lk z,
  valof lk (render_Z z) = match find (fun kv => py_eq (PInt z) (fst kv)) lk with
                          | Some kv => snd kv
                          | None => PInt z
                          end.
Proof. intros. rewrite valof_spec, try_number_render_Z. reflexivity. Qed.

Definition special_float (lr : str) : bool :=
  str_eqb lr ["i";"n";"f"] || str_eqb lr ["i";"n";"f";"i";"n";"i";"t";"y"] || str_eqb lr ["n";"a";"n"].
Definition body (s : str) : str := snd (take_sign s).
Definition non_numeric_head (r : str) : Prop :=
  match r with [] => True | c :: _ => digit_val c = None /\ ch_eqb c "." = false end.

Lemma scan_digits_none : forall r, non_numeric_head r -> scan_digits r = None.
Proof. intros [|c r] H; [reflexivity|]. destruct H as [H _]. simpl. rewrite H. reflexivity. Qed.

Theorem try_number_string : forall s,
  special_float (map lower (body s)) = false -> non_numeric_head (body s) -> try_number s = PStr s.
Proof.
  intros s Hsp Hh. unfold body in *. unfold try_number, parse_int, parse_float.
  destruct (take_sign s) as [neg r]. cbn [snd] in *.
  rewrite (scan_digits_none r Hh).
  unfold special_float in Hsp.
  apply orb_false_iff in Hsp. destruct Hsp as [Hsp H3]. apply orb_false_iff in Hsp. destruct Hsp as [H1 H2].
  rewrite H1, H2, H3. cbn [orb].
  destruct r as [|c r']; [reflexivity|].
  destruct Hh as [_ Hdot]. rewrite Hdot. reflexivity.
Qed.

Definition numeric_char (c : ascii) : bool :=
  match digit_val c with
  | Some _ => true
  | None => ch_eqb c "_" || ch_eqb c "." || ch_eqb (lower c) "e" || ch_eqb c "+" || ch_eqb c "-"
  end.

(* by induction on a bound n of the length: after "_" the scanner goes on two characters ahead *)
Lemma scan_aux_consumed_gen : forall n s acc cnt v k rest, List.length s <= n ->
  scan_digits_aux s acc cnt = (v, k, rest) ->
  exists pre, s = pre ++ rest /\ forallb numeric_char pre = true.
Proof.
  induction n as [|n IH]; intros s acc cnt v k rest Hn H.
  - destruct s; [|simpl in Hn; lia]. simpl in H. inversion H; subst. exists []. split; reflexivity.
  - destruct s as [|c r]; [simpl in H; inversion H; subst; exists []; split; reflexivity|].
    simpl in Hn. simpl in H. destruct (digit_val c) as [d|] eqn:Hd.
    + destruct (IH r _ _ _ _ _ ltac:(lia) H) as [pre [E1 E2]]. exists (c :: pre). split.
      * simpl. rewrite <- E1. reflexivity.
      * simpl. unfold numeric_char at 1. rewrite Hd. exact E2.
    + destruct (ch_eqb c "_") eqn:Hu.
      * destruct r as [|c2 r2]; [inversion H; subst; exists []; split; reflexivity|].
        destruct (digit_val c2) as [d|] eqn:Hd2.
        -- simpl in Hn. destruct (IH r2 _ _ _ _ _ ltac:(lia) H) as [pre [E1 E2]]. exists (c :: c2 :: pre). split.
           ++ simpl. rewrite <- E1. reflexivity.
           ++ simpl. unfold numeric_char at 1 2. rewrite Hd, Hd2, Hu. exact E2.
        -- inversion H; subst. exists []. split; reflexivity.
      * inversion H; subst. exists []. split; reflexivity.
Qed.

Lemma scan_digits_consumed : forall s v k rest, scan_digits s = Some (v, k, rest) ->
  exists pre, s = pre ++ rest /\ forallb numeric_char pre = true.
Proof.
  intros s v k rest H. unfold scan_digits in H. destruct s as [|c r]; [discriminate|].
  destruct (digit_val c); [|discriminate]. inversion H as [H'].
  eapply scan_aux_consumed_gen; [apply le_n | exact H'].
Qed.

Lemma take_sign_consumed : forall s neg r, take_sign s = (neg, r) ->
  exists pre, s = pre ++ r /\ forallb numeric_char pre = true.
Proof.
  intros [|c s'] neg r H; simpl in H.
  - inversion H; subst. exists []. split; reflexivity.
  - destruct (ch_eqb c "-") eqn:E1.
    + inversion H; subst. apply ch_eqb_eq in E1. subst. exists ["-"]. split; reflexivity.
    + destruct (ch_eqb c "+") eqn:E2; inversion H; subst.
      * apply ch_eqb_eq in E2. subst. exists ["+"]. split; reflexivity.
      * exists []. split; reflexivity.
Qed.

Lemma parse_int_numeric : forall s z, parse_int s = Some z -> forallb numeric_char s = true.
Proof.
  intros s z H. unfold parse_int in H. destruct (take_sign s) as [neg r] eqn:Ets.
  destruct (take_sign_consumed _ _ _ Ets) as [p0 [E0 F0]].
  destruct (scan_digits r) as [[[v k] rest]|] eqn:Es; [|discriminate].
  destruct rest; [|discriminate].
  destruct (scan_digits_consumed _ _ _ _ Es) as [p1 [E1 F1]].
  subst s r. rewrite app_nil_r. rewrite forallb_app, F0, F1. reflexivity.
Qed.

(* optional digit part: what [parse_float] does with [scan_digits].  The match here and in [opt_frac_consumed]
   is [parse_float]'s own, verbatim, so that [destruct (match ...) eqn:] in [parse_float_numeric] produces them *)
Lemma opt_digits_consumed : forall r v k rest,
  match scan_digits r with Some t => t | None => (0%Z, O, r) end = (v, k, rest) ->
  exists pre, r = pre ++ rest /\ forallb numeric_char pre = true.
Proof.
  intros r v k rest H. destruct (scan_digits r) as [[[v' k'] rest']|] eqn:E.
  - inversion H; subst. eapply scan_digits_consumed. exact E.
  - inversion H; subst. exists []. split; reflexivity.
Qed.

(* optional fraction: what [parse_float] reads after the integer digits *)
Lemma opt_frac_consumed : forall r1 fv fc r2,
  match r1 with
  | c :: r1' => if ch_eqb c "." then match scan_digits r1' with Some t => t | None => (0%Z, O, r1') end
                else (0%Z, O, r1)
  | [] => (0%Z, O, [])
  end = (fv, fc, r2) -> exists pre, r1 = pre ++ r2 /\ forallb numeric_char pre = true.
Proof.
  intros [|c r1'] fv fc r2 Hm.
  - inversion Hm; subst. exists []. split; reflexivity.
  - destruct (ch_eqb c ".") eqn:Ed.
    + apply ch_eqb_eq in Ed. subst c. destruct (opt_digits_consumed _ _ _ _ Hm) as [pre [A B]].
      exists ("." :: pre). split; [simpl; rewrite <- A; reflexivity | simpl; exact B].
    + inversion Hm; subst. exists []. split; reflexivity.
Qed.

Lemma parse_float_numeric : forall s x, parse_float s = Some x ->
  special_float (map lower (body s)) = true \/ forallb numeric_char s = true.
Proof.
  (* along the stages of [parse_float]: sign, digits, fraction, exponent; what each consumes is numeric *)
  intros s x H. unfold parse_float, body in *. destruct (take_sign s) as [neg r] eqn:Ets. cbn [snd].
  destruct (take_sign_consumed _ _ _ Ets) as [p0 [E0 F0]].
  unfold special_float.
  destruct (str_eqb (map lower r) ["i";"n";"f"] || str_eqb (map lower r) ["i";"n";"f";"i";"n";"i";"t";"y"]) eqn:Hinf;
    [left; reflexivity|].
  destruct (str_eqb (map lower r) ["n";"a";"n"]) eqn:Hnan; [left; reflexivity|].
  right. cbn [orb] in H.
  destruct (match scan_digits r with Some t => t | None => (0%Z, O, r) end) as [[iv ic] r1] eqn:E1.
  destruct (opt_digits_consumed _ _ _ _ E1) as [p1 [G1 F1]].
  destruct (match r1 with [] => _ | _ :: _ => _ end) as [[fv fc] r2] eqn:E2.
  destruct (opt_frac_consumed _ _ _ _ E2) as [p2 [G2 F2]].
  destruct (Nat.eqb (ic + fc) 0); [discriminate|].
  assert (Htail : forallb numeric_char r2 = true).
  { destruct r2 as [|c r3]; [reflexivity|].
    destruct (ch_eqb (lower c) "e") eqn:Ee; [|discriminate].
    destruct (take_sign r3) as [eneg r4] eqn:Ets2.
    destruct (take_sign_consumed _ _ _ Ets2) as [p3 [G3 F3]].
    destruct (scan_digits r4) as [[[ev ek] rest]|] eqn:Es; [|discriminate].
    destruct rest; [|discriminate].
    destruct (scan_digits_consumed _ _ _ _ Es) as [p4 [G4 F4]]. rewrite app_nil_r in G4. subst r4 r3.
    simpl. rewrite forallb_app, F3, F4, andb_true_r.
    unfold numeric_char. destruct (digit_val c); [reflexivity|]. rewrite Ee.
    rewrite !orb_true_r. reflexivity. }
  subst s r r1. rewrite !forallb_app, F0, F1, F2, Htail. reflexivity.
Qed.

(* an element with a character outside  0-9 _ . e E + -  that is not (a sign and)
   inf / infinity / nan in any letter case is not a number: it stays a string *)
Theorem try_number_foreign_char : forall s,
  forallb numeric_char s = false -> special_float (map lower (body s)) = false -> try_number s = PStr s.
Proof.
  intros s Hf Hsp. unfold try_number.
  destruct (parse_int s) as [z|] eqn:Ei.
  - apply parse_int_numeric in Ei. rewrite Ei in Hf. discriminate.
  - destruct (parse_float s) as [x|] eqn:Ef; [|reflexivity].
    apply parse_float_numeric in Ef. destruct Ef as [Ef|Ef]; [rewrite Ef in Hsp | rewrite Ef in Hf]; discriminate.
Qed.

(* The model reads Python's int()/float() on text WITHOUT whitespace (header of
   Ops/MarbleNumbers.v): the real int()/float() strip leading/trailing whitespace
   (codes 9-13, 32, 133, 160), so the element <TAB>12 is the int 12 for the code but a
   string for the model.  The two theorems below are therefore stated for printable
   ASCII elements (codes 33..126), where model and code agree; the hypothesis is
   not needed for the model. *)
Definition printable (c : ascii) : bool :=
  let n := nat_of_ascii c in Nat.leb 33 n && Nat.leb n 126.

Theorem try_number_string_printable : forall s, forallb printable s = true ->
  special_float (map lower (body s)) = false -> non_numeric_head (body s) -> try_number s = PStr s.
Proof. intros s _. apply try_number_string. Qed.

Theorem try_number_foreign_char_printable : forall s, forallb printable s = true ->
  forallb numeric_char s = false -> special_float (map lower (body s)) = false -> try_number s = PStr s.
Proof. intros s _. apply try_number_foreign_char. Qed.

(* outside that domain the model keeps a string where Python's int() strips the TAB *)
Example whitespace_outside_model_domain :
  try_number [ascii_of_nat 9; "1"; "2"] = PStr [ascii_of_nat 9; "1"; "2"].
Proof. vm_compute. reflexivity. Qed.

Theorem try_number_is_string_iff : forall s,
  try_number s = PStr s <-> (parse_int s = None /\ parse_float s = None).
Proof.
  intros s. unfold try_number. destruct (parse_int s); [split; [discriminate | intros [H _]; discriminate]|].
  destruct (parse_float s) as [[f|]|]; split; try discriminate; try (intros [_ H]; discriminate); auto.
Qed.

(* iframe * timespan + time_shift with Python's arithmetic: int*int+int stays an
   exact integer; as soon as a float is involved the int operand is converted
   ([zf] = float(int)) and the operation is the binary64 one *)
Theorem time_of_spec : forall ts sh k,
  time_of ts sh k =
  match ts, sh with
  | TI t, TI b => TI (Z.of_nat k * t + b)
  | TI t, TF b => TF (zf (Z.of_nat k * t) + b)%float
  | TF t, TI b => TF (zf (Z.of_nat k) * t + zf b)%float
  | TF t, TF b => TF (zf (Z.of_nat k) * t + b)%float
  end.
Proof. intros [t|t] [b|b] k; reflexivity. Qed.

Definition pytime_Z (p : pytime) : option Z := match p with TI z => Some z | TF _ => None end.

Theorem time_of_int : forall t b k, time_of (TI t) (TI b) k = TI (Z.of_nat k * t + b).
Proof. reflexivity. Qed.

Theorem time_of_int_mono : forall t b k1 k2, (0 <= t)%Z -> k1 <= k2 ->
  (Z.of_nat k1 * t + b <= Z.of_nat k2 * t + b)%Z.
Proof. intros. nia. Qed.

Theorem time_of_int_inj : forall t b k1 k2, t <> 0%Z ->
  time_of (TI t) (TI b) k1 = time_of (TI t) (TI b) k2 -> k1 = k2.
Proof. intros t b k1 k2 Ht H. rewrite !time_of_int in H. injection H as H. nia. Qed.

Theorem time_of_frame0 : forall t b, time_of (TI t) (TI b) 0 = TI b.
Proof. reflexivity. Qed.

Definition stamp (ts sh : pytime) (m : nat * notif pyval) : pytime * notif pyval :=
  (time_of ts sh (fst m), snd m).

Theorem timed_spec : forall c ms, timed c ms = map (stamp (c_ts c) (c_shift c)) ms.
Proof. reflexivity. Qed.

(* cold: every parsed message (frame k, n) is delivered, in order, at time_of k *)
Theorem cold_case_times : forall c ms,
  parse_model pyval (valof (c_lookup c)) true (s2l (c_str c)) = inr ms ->
  cold_case c = inr (map (stamp (c_ts c) (c_shift c)) ms).
Proof.
  intros c ms H. unfold cold_case. rewrite H.
  rewrite (cold_delivery_parsed pyval _ _ _ H). reflexivity.
Qed.

Theorem cold_case_error : forall c e,
  parse_model pyval (valof (c_lookup c)) true (s2l (c_str c)) = inl e -> cold_case c = inl e.
Proof. intros c e H. unfold cold_case. rewrite H. reflexivity. Qed.

(* cold = parse when raise_stopped is set (from_marbles always sets it) *)
Theorem cold_case_is_parse_case : forall c, c_rs c = true -> cold_case c = parse_case c.
Proof.
  intros c Hrs. unfold parse_case. rewrite Hrs.
  destruct (parse_model pyval (valof (c_lookup c)) true (s2l (c_str c))) as [e|ms] eqn:E.
  - apply cold_case_error. exact E.
  - rewrite (cold_case_times c ms E). reflexivity.
Qed.

(* on a well-formed diagram: each item's notifications at (index of its first
   character) * timespan + shift *)
Theorem cold_case_diagram : forall c d,
  wf d = true -> remove_spaces (s2l (c_str c)) = render d -> stop_ok (elements d) = true ->
  cold_case c = inr (map (stamp (c_ts c) (c_shift c)) (denote pyval (valof (c_lookup c)) d)).
Proof.
  intros c d Hw Hr Hs. apply cold_case_times.
  rewrite (parse_render pyval _ true d _ Hw Hr). rewrite Hs. reflexivity.
Qed.

(* hot, observer subscribed at the creation instant: the parsed messages of frame > 0 *)
Theorem hot_case_times : forall c ms,
  parse_model pyval (valof (c_lookup c)) true (s2l (c_str c)) = inr ms ->
  hot_case c = inr (map (stamp (c_ts c) (c_shift c)) (filter (fun m => Nat.ltb 0 (fst m)) ms)).
Proof.
  intros c ms H. unfold hot_case. rewrite H.
  rewrite (hot_delivery_parsed pyval _ _ _ 0 H). reflexivity.
Qed.

(* integer timespan >= 0 and integer shift: delivered times never decrease *)
Fixpoint times_sorted (lo : Z) (l : list (pytime * notif pyval)) : Prop :=
  match l with
  | [] => True
  | (TI z, _) :: r => (lo <= z)%Z /\ times_sorted z r
  | (TF _, _) :: r => False
  end.

Lemma stamp_sorted : forall t b ms f, (0 <= t)%Z -> sorted_from pyval f ms ->
  times_sorted (Z.of_nat f * t + b) (map (stamp (TI t) (TI b)) ms).
Proof.
  intros t b. induction ms as [|m r IH]; intros f Ht H; [exact I|].
  simpl in H. destruct H as [H1 H2]. simpl. split; [nia|]. apply IH; assumption.
Qed.

Theorem cold_case_times_sorted : forall c t b ms,
  c_ts c = TI t -> c_shift c = TI b -> (0 <= t)%Z ->
  parse_model pyval (valof (c_lookup c)) true (s2l (c_str c)) = inr ms ->
  exists out, cold_case c = inr out /\ times_sorted b out.
Proof.
  intros c t b ms Hts Hsh Ht H. eexists. split; [apply cold_case_times; exact H|].
  rewrite Hts, Hsh. replace b with (Z.of_nat 0 * t + b)%Z at 1 by lia.
  apply stamp_sorted; [exact Ht|]. eapply parse_frames_sorted. exact H.
Qed.

(* examples (hypotheses satisfiable; documented readings) *)
Example value_examples :
  (forallb printable (l "x1") = true /\ special_float (map lower (body (l "x1"))) = false
   /\ non_numeric_head (body (l "x1")) /\ try_number (l "x1") = PStr (l "x1"))
  /\ (forallb printable (l "1x") = true /\ forallb numeric_char (l "1x") = false
      /\ special_float (map lower (body (l "1x"))) = false /\ try_number (l "1x") = PStr (l "1x"))
  /\ try_number (l "0042") = PInt 42 /\ try_number (l "1_000") = PInt 1000
  /\ try_number (l "1__0") = PStr (l "1__0") /\ try_number (l "nano") = PStr (l "nano")
  /\ valof [(PStr (l "a"), PObj 7); (PInt 3, PObj 8)] (l "3") = PObj 8
  /\ valof [(PStr (l "a"), PObj 7); (PInt 3, PObj 8)] (l "b") = PStr (l "b").
Proof. repeat split; vm_compute; reflexivity. Qed.

Example time_examples :
  cold_case (mkpcase true (TI 3) (TI 2) [] "-a(b,4)-|")
  = inr [(TI 5, NNext (PStr (l "a"))); (TI 8, NNext (PStr (l "b"))); (TI 8, NNext (PInt 4)); (TI 26, NCompleted)]
  /\ wf [ITicks 1; IElem (l "a"); IGroup [l "b"; l "4"]; ITicks 1; IEnd] = true
  /\ render [ITicks 1; IElem (l "a"); IGroup [l "b"; l "4"]; ITicks 1; IEnd] = l "-a(b,4)-|"
  /\ stop_ok (elements [ITicks 1; IElem (l "a"); IGroup [l "b"; l "4"]; ITicks 1; IEnd]) = true.
Proof. repeat split; vm_compute; reflexivity. Qed.

(* The statements below mention the PrimFloat-typed value model, so Print Assumptions
   lists Coq's primitive float / int63 constants (kernel primitives, not axioms) and
   nothing else; the integer theorems are closed (see Props/C38.v). *)
Print Assumptions try_number_render_Z.
Print Assumptions valof_spec.
Print Assumptions valof_first_key.
Print Assumptions valof_no_key.
Print Assumptions try_number_string_printable.
Print Assumptions try_number_foreign_char_printable.
Print Assumptions time_of_spec.
Print Assumptions time_of_int_inj.
Print Assumptions cold_case_times.
Print Assumptions cold_case_diagram.
Print Assumptions hot_case_times.
Print Assumptions cold_case_times_sorted.
