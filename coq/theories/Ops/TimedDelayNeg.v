(* C15: delay(d) with d <= 0 (a negative relative delay, or a datetime due time that is already
   past at subscription).  operators/_delay.py stamps the queued notification with now + d but
   the scheduler clamps the negative delay of the drain action to zero, so the action runs at
   the instant the first queued notification arrived (after the source notifications of that
   instant) and finds everything queued due.  Hence: in the closed world of Ops/TimedSim.v the
   machine [x_delay d], d <= 0, is indistinguishable from [x_delay 0] -- for EVERY event
   sequence of the source (no sortedness, no conformance hypothesis). *)
From RxVerif Require Import Base.Prelude Ops.Machine Ops.Multi Ops.MultiFacts Ops.Timed Ops.TimedSim
  Ops.TimedFacts Ops.TimedDelayFacts.

Section DelayNeg.
Context {A : Type}.
Local Notation qent := (Z * ev A)%type.

Definition shiftq (d : Z) (q : list qent) : list qent := map (fun n => (fst n + d, snd n)) q.

Lemma drain_all now : forall (q : list qent) stopped, Forall (fun n => fst n <= now) q ->
  snd (delay_drain now q stopped) = [].
Proof.
  induction q as [|[ts n] q IH]; intros stopped H; [reflexivity|].
  inversion H as [|? ? Hts Hq]; subst. cbn [fst] in Hts. cbn [delay_drain].
  assert (E : (ts <=? now) = true) by lia. rewrite E.
  destruct n as [x|c|]; [specialize (IH stopped Hq)|specialize (IH true Hq)|specialize (IH true Hq)];
    destruct (delay_drain now q _) as [[o f] q']; exact IH.
Qed.

Lemma drain_shift now d : d <= 0 -> forall (q : list qent) stopped, Forall (fun n => fst n <= now) q ->
  fst (delay_drain now (shiftq d q) stopped) = fst (delay_drain now q stopped).
Proof.
  intros Hd. induction q as [|[ts n] q IH]; intros stopped H; [reflexivity|].
  inversion H as [|? ? Hts Hq]; subst. cbn [fst] in Hts. cbn [shiftq map fst snd delay_drain]. fold (shiftq d q).
  assert (E : (ts <=? now) = true) by lia. assert (E' : (ts + d <=? now) = true) by lia. rewrite E, E'.
  destruct n as [x|c|]; [specialize (IH stopped Hq)|specialize (IH true Hq)|specialize (IH true Hq)];
    destruct (delay_drain now q _) as [[o f] q'], (delay_drain now (shiftq d q) _) as [[o2 f2] q2];
    cbn [fst] in *; injection IH as -> ->; reflexivity.
Qed.

Lemma shiftq_le now d (q : list qent) : d <= 0 -> Forall (fun n => fst n <= now) q -> Forall (fun n => fst n <= now) (shiftq d q).
Proof.
  intros Hd H. unfold shiftq. rewrite Forall_map. eapply Forall_impl; [|exact H]. intros n Hn. cbn in *. lia.
Qed.

(* the two machines side by side: same runner state, same pending timer; the queues differ by
   the stamp only, and everything queued is due when the pending timer fires *)
Inductive drel (d : Z) : @delay_st A -> @delay_st A -> rstate -> pend -> Prop :=
| DR_stopped s0 sd r p : r_stopped r = true -> drel d s0 sd r p
| DR_idle n lv : drel d (DelaySt [] false false None n) (DelaySt [] false false None n) (RState lv [] false) []
| DR_busy q0 tg lv T : Forall (fun n => fst n <= T) q0 ->
    drel d (DelaySt q0 true false None (S tg)) (DelaySt (shiftq d q0) true false None (S tg))
         (RState lv [tg] false) [(tg, T)].

(* a notification of a subscribed source, for every queue and with or without a timer pending
   ([act]): queued for [t + d] -- the first one schedules the drain action -- or, an error, the end *)
Lemma delay_rstep_src d (q : list qent) (act : bool) n lv tms t k (e : ev A) : mem k lv = true ->
  rstep (x_delay d) (DelaySt q act false None n) (RState lv tms false) t (ISrc k e)
  = match e with
    | Err c => (DelaySt [(t, Err c)] act false (Some c) n, RState [] [] true,
                OUnsub k :: OEmit (Err c) :: map OUnsub (sort_nat (remove k lv)) ++ map OCancel (sort_nat tms))
    | _ => (DelaySt (q ++ [(t + d, e)]) true false None (if act then n else S n),
            RState (if is_terminal e then remove k lv else lv) (if act then tms else tms ++ [n]) false,
            (if act then [] else [OTimer n (clamp d)]) ++ (if is_terminal e then [OUnsub k] else []))
    end.
Proof.
  intros Hm. cbn [rstep r_stopped r_live]. rewrite Hm.
  destruct e as [x|c|], act; cbn -[mem]; rewrite ?Hm; reflexivity.
Qed.

Lemma delay_neg_tick d q0 tg lv T : d <= 0 -> Forall (fun n : qent => fst n <= T) q0 ->
  exists s0' sd' r' o,
    rstep (x_delay 0) (DelaySt q0 true false None (S tg)) (RState lv [tg] false) T (ITick tg) = (s0', r', o)
    /\ rstep (x_delay d) (DelaySt (shiftq d q0) true false None (S tg)) (RState lv [tg] false) T (ITick tg) = (sd', r', o)
    /\ drel d s0' sd' r' (upd [(tg, T)] T o r').
Proof.
  intros Hd Hq. cbn [rstep r_stopped r_timers r_live]. rewrite mem_self.
  cbn [x_step x_delay dl_exc dl_queue dl_ntag dl_active].
  pose proof (drain_all T q0 false Hq) as H0. pose proof (drain_all T (shiftq d q0) false (shiftq_le T d q0 Hd Hq)) as H1.
  pose proof (drain_shift T d Hd q0 false Hq) as H2.
  destruct (delay_drain T q0 false) as [[o f] q']. destruct (delay_drain T (shiftq d q0) false) as [[o2 f2] q2].
  cbn [fst snd] in *. subst q' q2. injection H2 as -> ->.
  rewrite apply_cmds_emit_only. cbn [remove]. rewrite Nat.eqb_refl.
  destruct f as [| |c]; cbn [finish release r_live r_timers r_stopped].
  - eexists _, _, _, _. split; [reflexivity|]. split; [reflexivity|].
    unfold upd. cbn [r_timers mem existsb]. rewrite filter_false. apply DR_idle.
  - eexists _, _, _, _. split; [reflexivity|]. split; [reflexivity|]. apply DR_stopped. reflexivity.
  - eexists _, _, _, _. split; [reflexivity|]. split; [reflexivity|]. apply DR_stopped. reflexivity.
Qed.

(* every input the simulator can choose on a one-port timeline keeps the two machines side by side *)
Lemma delay_neg_step d : d <= 0 -> forall s0 sd r p (es : list (Z * ev A)) t i ext',
  drel d s0 sd r p -> next_event p (ext_of es) = Some (t, i, ext') ->
  exists sd' s0' r' o, rstep (x_delay d) sd r t i = (sd', r', o) /\ rstep (x_delay 0) s0 r t i = (s0', r', o)
                       /\ drel d s0' sd' r' (upd p t o r').
Proof.
  intros Hd s0 sd r p es t i ext' Hr En. assert (Hc : clamp d = 0) by (unfold clamp; lia).
  destruct Hr as [s0 sd r p Hst|n lv|q0 tg lv T Hq].
  - rewrite !rstep_stopped by exact Hst. eexists _, _, _, _. repeat split. apply DR_stopped, Hst.
  - (* idle: only the source can notify; its first notification schedules the drain action, at once *)
    destruct (next_event_ext_of _ es t i ext' En) as [(e & rest & -> & -> & -> & _)|(tg & Hp & _)]; [|discriminate Hp].
    destruct (mem 0 lv) eqn:Hm;
      [|cbn [rstep r_stopped r_live]; rewrite Hm; eexists _, _, _, _; repeat split; apply DR_idle].
    rewrite !delay_rstep_src by exact Hm. rewrite Hc.
    destruct e as [x|c|]; eexists _, _, _, _; repeat split; [|apply DR_stopped; reflexivity|].
    (* an element and the completion are queued alike *)
    all: unfold upd; cbn; rewrite Nat.eqb_refl; cbn; replace (t + d) with (t + 0 + d) by lia;
      apply (DR_busy d [(t + 0, _)] n _ (t + 0)); repeat constructor; cbn; lia.
  - destruct (next_event_ext_of _ es t i ext' En) as [(e & rest & -> & -> & -> & Ht)|(tg' & Hp & -> & _)].
    + (* a notification not after the drain action: queued behind what is queued, due by then as well *)
      cbn [earliest] in Ht.
      destruct (mem 0 lv) eqn:Hm;
        [|cbn [rstep r_stopped r_live]; rewrite Hm; eexists _, _, _, _; repeat split;
          unfold upd; cbn -[mem]; rewrite mem_self; apply DR_busy, Hq].
      assert (Hq' : forall n, Forall (fun m : qent => fst m <= T) (q0 ++ [(t + 0, n)])).
      { intros n. apply Forall_app. split; [exact Hq|repeat constructor; cbn; lia]. }
      assert (Hsh : forall n, shiftq d q0 ++ [(t + d, n)] = shiftq d (q0 ++ [(t + 0, n)])).
      { intros n. unfold shiftq. rewrite map_app. cbn [map fst snd]. repeat f_equal. lia. }
      rewrite !delay_rstep_src by exact Hm.
      destruct e as [x|c|]; eexists _, _, _, _; repeat split; [|apply DR_stopped; reflexivity|].
      all: unfold upd; cbn -[mem]; rewrite mem_self, Hsh; apply DR_busy, Hq'.
    + cbn [earliest] in Hp. injection Hp as <- <-.
      destruct (delay_neg_tick d q0 tg lv T Hd Hq) as (s0' & sd' & r' & o & E0 & Ed & Hrel).
      exists sd', s0', r', o. repeat split; assumption.
Qed.

Lemma delay_neg_sim d : d <= 0 -> forall fuel (es : list (Z * ev A)) s0 sd r p, drel d s0 sd r p ->
  sim (x_delay d) fuel sd r p (ext_of es) = sim (x_delay 0) fuel s0 r p (ext_of es).
Proof.
  intros Hd. induction fuel as [|f IH]; intros es s0 sd r p Hr; [reflexivity|].
  rewrite !sim_S. destruct (next_event p (ext_of es)) as [[[t i] ext']|] eqn:En; [|reflexivity].
  destruct (delay_neg_step d Hd _ _ _ _ _ _ _ _ Hr En) as (sd' & s0' & r' & o & -> & -> & Hrel). f_equal.
  destruct (next_event_ext_of _ _ _ _ _ En) as [(e & rest & _ & _ & -> & _)|(tg & _ & _ & ->)]; apply IH, Hrel.
Qed.

(* the whole simulation -- inputs delivered, everything the runner observed -- is the same *)
Theorem delay_nonpositive_is_zero d t0 (es : list (Z * ev A)) : d <= 0 ->
  simulate (x_delay d) t0 (ext_of es) = simulate (x_delay 0) t0 (ext_of es).
Proof.
  intros Hd. unfold simulate, simulate_fuel.
  cbn [x_start x_delay apply_cmds finish fst snd app]. f_equal.
  apply delay_neg_sim; [exact Hd|]. cbn. apply DR_idle.
Qed.

Corollary delay_nonpositive_walk d t0 (es : list (Z * ev A)) :
  d <= 0 -> tsorted es -> Forall (fun e => t0 <= fst e) es ->
  timed_emits t0 (simulate (x_delay d) t0 (ext_of es)) = dspec 0 [] es.
Proof. intros Hd Hs Hlo. rewrite delay_nonpositive_is_zero by exact Hd. apply delay_sim_spec; [lia|exact Hs|exact Hlo]. Qed.

End DelayNeg.
