(* C09: an exception raised by a user callback becomes on_error(e) for the
   subscriber, at that instant, and the subscription ends there. *)
From RxVerif Require Import Base.Prelude Ops.Machine Ops.MachineFacts Ops.Elementwise.

(* elements processed before the first raise, and the raise (tag, exception) *)
Fixpoint until_raise {A B} (f : A -> res B) (k : nat) (xs : list A) : list (nat * B) * option (nat * Z) :=
  match xs with
  | [] => ([], None)
  | x :: r => match f x with
              | Ok b => let '(o, e) := until_raise f (S k) r in ((k, b) :: o, e)
              | Raise e => ([], Some (k, e))
              end
  end.

Definition close {B} (n : nat) (t : term) (e : option (nat * Z)) : list (nat * ev B) :=
  match e with Some (k, x) => [(k, Err x)] | None => tterm n t end.

Section Closed.
Context {A B : Type}.

Lemma until_raise_oks (f : A -> res B) xs vs tail :
  Forall2 (fun x v => f x = Ok v) xs vs -> forall k,
  until_raise f k (xs ++ tail)
  = (indexed k vs ++ fst (until_raise f (k + length xs) tail), snd (until_raise f (k + length xs) tail)).
Proof.
  induction 1 as [|x v xs vs Hx _ IH]; intros k; cbn [app until_raise length indexed].
  - rewrite Nat.add_0_r. now destruct (until_raise f k tail).
  - now rewrite Hx, IH, <- plus_n_Sm.
Qed.

(* a stateless operator that forwards [f x] or fails with what [f x] raises: the elements before the
   first raise, then that raise -- or, if there is none, the operator's answer to the termination *)
Lemma raise_walk (m : mealy A B) (f : A -> res B) :
  (forall s x, m_next m s x = match f x with Ok b => (s, [b], Cont) | Raise e => (s, [], Fail e) end) ->
  forall xs t s k,
  exec_from m s k (events xs t)
  = nexts (fst (until_raise f k xs))
    ++ match snd (until_raise f k xs) with
       | Some (j, e) => [(j, Err e)]
       | None => exec_from m s (k + length xs) (events [] t)
       end.
Proof.
  intros Hm. induction xs as [|x r IH]; intros t s k.
  - cbn [until_raise fst snd nexts map app length]. now rewrite Nat.add_0_r.
  - rewrite events_cons, exec_from_cons, Hm. cbn [until_raise]. destruct (f x) as [b|e]; cbn -[exec_from]; [|reflexivity].
    rewrite IH. destruct (until_raise f (S k) r) as [o e']. cbn [fst snd]. now rewrite <- plus_n_Sm.
Qed.

Lemma map_raise_from (f : A -> res B) xs t s k :
  exec_from (op_map f) s k (events xs t)
  = nexts (fst (until_raise f k xs)) ++ close (k + length xs) t (snd (until_raise f k xs)).
Proof.
  rewrite (raise_walk (op_map f) f (fun _ _ => eq_refl)). destruct (snd (until_raise f k xs)) as [[j e]|]; [reflexivity|].
  destruct t; reflexivity.
Qed.
End Closed.

Section ClosedA.
Context {A : Type}.

Definition keep (p : A -> res bool) (x : A) : res (option A) :=
  match p x with Ok true => Ok (Some x) | Ok false => Ok None | Raise e => Raise e end.

Fixpoint somes {X} (l : list (nat * option X)) : list (nat * X) :=
  match l with
  | [] => []
  | (k, Some x) :: t => (k, x) :: somes t
  | (_, None) :: t => somes t
  end.

Lemma filter_raise_from (p : A -> res bool) xs t s k :
  exec_from (op_filter p) s k (events xs t)
  = nexts (somes (fst (until_raise (keep p) k xs)))
    ++ close (k + length xs) t (snd (until_raise (keep p) k xs)).
Proof.
  revert k; induction xs as [|x r IH]; intros k.
  - destruct t; cbn; rewrite ?Nat.add_0_r; reflexivity.
  - rewrite events_cons, exec_from_cons. cbn -[exec_from]. unfold keep at 1 3.
    destruct (p x) as [b|e]; [|reflexivity].
    destruct b; cbn -[exec_from]; rewrite IH; destruct (until_raise (keep p) (S k) r) as [o e']; cbn [fst snd somes];
      now rewrite <- plus_n_Sm.
Qed.
End ClosedA.

Lemma fail_stops {A B} (m : mealy A B) s k x rest s' outs e :
  m_next m s x = (s', outs, Fail e) ->
  exec_from m s k (Next x :: rest) = map (fun b => (k, Next b)) outs ++ [(k, Err e)].
Proof. intros H. cbn [exec_from]. rewrite H. cbn. now rewrite app_nil_r. Qed.
