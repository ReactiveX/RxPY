(* C13: zip under the RUNNER against an abstract specification over the FULL input
   alphabet (elements, completions, errors, timer ticks, dispose), for every number of
   sources and EVERY input sequence.  The specification keeps, per source, the whole
   HISTORY of the elements it delivered, the completed flags, and the number c of tuples
   emitted so far: tuple c is made of the c-th elements of the histories -- emitted at the
   first moment every history is longer than c -- and the output completes at the first
   moment a completed source has no element beyond the tuples emitted. *)
From RxVerif Require Import Base.Prelude Ops.Machine Ops.Multi Ops.Combinators Ops.CombineFacts.

Section ZipSpec.
Context {A : Type}.

Fixpoint zip_spec (n : nat) (hists : list (list A)) (done : list bool) (c : nat) (pos : nat)
  (ins : list (Z * inp A)) : list (nat * ev (list A)) :=
  match ins with
  | [] => []
  | (_, ISrc k e) :: t =>
      (* a source that has completed (or is not one of the n) delivers nothing *)
      if Nat.ltb k n && negb (nth k done true) then
        match e with
        | Next x =>
            let hists1 := nth_set k (nth k hists [] ++ [x]) hists in
            if forallb (fun h => Nat.ltb c (length h)) hists1 then
              (pos, Next (map (fun h => nth c h x) hists1)) ::
              (if existsb (fun hd : list A * bool => Nat.leb (length (fst hd)) (S c) && snd hd)
                          (combine hists1 done)
               then [(pos, Done)]
               else zip_spec n hists1 done (S c) (S pos) t)
            else zip_spec n hists1 done c (S pos) t
        | Err er => [(pos, Err er)]
        | Done => if Nat.leb (length (nth k hists [])) c then [(pos, Done)]
                  else zip_spec n hists (nth_set k true done) c (S pos) t
        end
      else zip_spec n hists done c (S pos) t
  | (_, ITick _) :: t => zip_spec n hists done c (S pos) t
  | (_, IDispose) :: _ => []
  end.

Lemma hd_skipn (c : nat) : forall (h : list A) x,
  match skipn c h with [] => x | v :: _ => v end = nth c h x.
Proof. induction c as [|c IH]; intros [|a t] x; cbn; try reflexivity. apply IH. Qed.

Lemma tl_skipn (c : nat) : forall (h : list A), tl (skipn c h) = skipn (S c) h.
Proof.
  induction c as [|c IH]; intros [|a t]; try reflexivity.
  change (skipn (S c) (a :: t)) with (skipn c t). change (skipn (S (S c)) (a :: t)) with (skipn (S c) t).
  apply IH.
Qed.

Lemma nth_map_skipn c (l : list (list A)) k : nth k (map (skipn c) l) [] = skipn c (nth k l []).
Proof. now rewrite <- (map_nth (skipn c)), skipn_nil. Qed.

Lemma all_nonempty_skipn c (l : list (list A)) :
  all_nonempty (map (skipn c) l) = forallb (fun h => Nat.ltb c (length h)) l.
Proof.
  unfold all_nonempty. induction l as [|h t IH]; [reflexivity|].
  cbn [map forallb]. rewrite IH. f_equal. rewrite skipn_length.
  destruct (Nat.ltb_spec c (length h)), (Nat.eqb_spec (length h - c) 0); cbn; try reflexivity; lia.
Qed.

Lemma existsb_skipn_done c (l : list (list A)) : forall done,
  existsb (fun qd : list A * bool => Nat.eqb (length (fst qd)) 0 && snd qd) (combine (map (skipn c) l) done)
  = existsb (fun hd : list A * bool => Nat.leb (length (fst hd)) c && snd hd) (combine l done).
Proof.
  induction l as [|h t IH]; intros [|d ds]; try reflexivity.
  cbn [map combine existsb fst snd]. rewrite IH. f_equal. f_equal. rewrite skipn_length.
  destruct (Nat.leb_spec (length h) c), (Nat.eqb_spec (length h - c) 0); try reflexivity; lia.
Qed.

(* the handler in terms of histories: its queues are the histories without their first c elements *)
Lemma zip_step_next n c (hists : list (list A)) done now k x :
  (k < length hists)%nat -> Forall (fun h => (c <= length h)%nat) hists ->
  x_step (x_zip n) (map (skipn c) hists, done) now (ISrc k (Next x))
  = let hists1 := nth_set k (nth k hists [] ++ [x]) hists in
    if forallb (fun h => Nat.ltb c (length h)) hists1
    then ((map (skipn (S c)) hists1, done), [CEmit (map (fun h => nth c h x) hists1)],
          if existsb (fun hd : list A * bool => Nat.leb (length (fst hd)) (S c) && snd hd) (combine hists1 done)
          then Complete else Cont)
    else ((map (skipn c) hists1, done), [], Cont).
Proof.
  intros Hk Hall. cbn [x_zip x_step].
  assert (E : nth_set k (nth k (map (skipn c) hists) [] ++ [x]) (map (skipn c) hists)
              = map (skipn c) (nth_set k (nth k hists [] ++ [x]) hists)).
  { rewrite map_nth_set, nth_map_skipn, skipn_app. f_equal.
    assert (Hc : (c <= length (nth k hists []))%nat).
    { rewrite Forall_forall in Hall. apply Hall. now apply nth_In. }
    replace (c - length (nth k hists []))%nat with 0%nat by lia. reflexivity. }
  rewrite E, all_nonempty_skipn. cbv zeta.
  destruct (forallb (fun h => Nat.ltb c (length h)) (nth_set k (nth k hists [] ++ [x]) hists)); [|reflexivity].
  rewrite !map_map.
  rewrite (map_ext (fun h => tl (skipn c h)) (skipn (S c)) (tl_skipn c)).
  rewrite (map_ext (fun h => match skipn c h with [] => x | v :: _ => v end) (fun h => nth c h x)
             (fun h => hd_skipn c h x)).
  rewrite existsb_skipn_done. reflexivity.
Qed.

Lemma zip_step_done n c (hists : list (list A)) done now k :
  x_step (x_zip n) (map (skipn c) hists, done) now (ISrc k Done)
  = ((map (skipn c) hists, nth_set k true done), [],
     if Nat.leb (length (nth k hists [])) c then Complete else Cont).
Proof.
  cbn [x_zip x_step]. rewrite nth_map_skipn, skipn_length. f_equal.
  destruct (Nat.leb_spec (length (nth k hists [])) c), (Nat.eqb_spec (length (nth k hists []) - c) 0);
    try reflexivity; lia.
Qed.

Definition zip_acc (n : nat) (a : list (list A) * list bool * nat) (k : nat) : bool :=
  Nat.ltb k n && negb (nth k (snd (fst a)) true).

Definition zip_sstep (n : nat) (a : list (list A) * list bool * nat) (k : nat) (e : ev A)
  : (list (list A) * list bool * nat) * list (list A) * fin :=
  let '(hists, done, c) := a in
  match e with
  | Next x =>
      let hists1 := nth_set k (nth k hists [] ++ [x]) hists in
      if forallb (fun h => Nat.ltb c (length h)) hists1
      then ((hists1, done, S c), [map (fun h => nth c h x) hists1],
            if existsb (fun hd : list A * bool => Nat.leb (length (fst hd)) (S c) && snd hd) (combine hists1 done)
            then Complete else Cont)
      else ((hists1, done, c), [], Cont)
  | Err er => (a, [], Fail er)
  | Done => ((hists, nth_set k true done, c), [],
             if Nat.leb (length (nth k hists [])) c then Complete else Cont)
  end.

Definition zip_P (n : nat) (a : list (list A) * list bool * nat) (s : x_state (x_zip (A:=A) n)) : Prop :=
  let '(hists, done, c) := a in
  s = (map (skipn c) hists, done) /\ length hists = n /\ length done = n
  /\ Forall (fun h => (c <= length h)%nat) hists.

Lemma zip_gspec n (ins : list (Z * inp A)) : forall hists done c pos,
  gspec (zip_acc n) (zip_sstep n) (hists, done, c) pos ins = zip_spec n hists done c pos ins.
Proof.
  induction ins as [|[now i] rest IH]; intros hists done c pos; [reflexivity|].
  cbn [gspec zip_spec]. destruct i as [k e|tag|]; [|apply IH|reflexivity].
  unfold zip_acc at 1. cbn [fst snd].
  destruct (Nat.ltb k n && negb (nth k done true)); [|apply IH].
  destruct e as [x|er|]; cbn [zip_sstep]; [|reflexivity|].
  - cbv zeta. destruct (forallb _ _); [|apply IH].
    destruct (existsb _ _); [reflexivity|]. cbn [map app]. f_equal. apply IH.
  - destruct (Nat.leb _ c); [reflexivity|apply IH].
Qed.

Lemma zip_step_ok n a s now k e :
  zip_P n a s -> zip_acc n a k = true ->
  let '(a', bs, f) := zip_sstep n a k e in
  exists s', x_step (x_zip n) s now (ISrc k e) = (s', map CEmit bs, f)
    /\ (f = Cont -> zip_P n a' s'
        /\ forall j, zip_acc n a' j = (if is_terminal e then negb (Nat.eqb j k) else true) && zip_acc n a j).
Proof.
  destruct a as [[hists done] c]. unfold zip_acc. cbn [zip_P fst snd]. intros (-> & Hlh & Hld & Hall) Hacc.
  apply andb_true_iff in Hacc. destruct Hacc as [Hk _]. apply Nat.ltb_lt in Hk.
  destruct e as [x|er|]; cbn [zip_sstep].
  - rewrite zip_step_next by (lia || exact Hall). cbv zeta.
    set (hists1 := nth_set k (nth k hists [] ++ [x]) hists).
    assert (Hall1 : Forall (fun h => (c <= length h)%nat) hists1).
    { apply Forall_nth_set; [exact Hall|]. rewrite app_length.
      assert (c <= length (nth k hists []))%nat by (rewrite Forall_forall in Hall; apply Hall, nth_In; lia).
      lia. }
    assert (Hlh1 : length hists1 = n) by (subst hists1; now rewrite nth_set_length).
    destruct (forallb (fun h => Nat.ltb c (length h)) hists1) eqn:Hfull;
      (eexists; split; [reflexivity|]); intros _;
      (split; [|intros j; reflexivity]); repeat split; try assumption.
    apply Forall_forall. intros h Hh. rewrite forallb_forall in Hfull.
    specialize (Hfull h Hh). apply Nat.ltb_lt in Hfull. lia.
  - eexists. split; [reflexivity|discriminate].
  - rewrite zip_step_done. eexists. split; [reflexivity|]. intros _. split.
    + repeat split; rewrite ?nth_set_length; assumption.
    + intros j. cbn [fst snd is_terminal]. apply (acc_after_done (fun i => Nat.ltb i n)). lia.
Qed.

(* C13, zip: every number of sources, EVERY input sequence -- also notifications of sources that
   have completed or do not exist *)
Theorem zip_refines_spec n (ins : list (Z * inp A)) :
  temitted (fst (run (x_zip n) ins)) = zip_spec n (repeat [] n) (repeat false n) 0 1 ins.
Proof.
  rewrite <- zip_gspec.
  apply (engine_run (x_zip n) _ (zip_acc n) (zip_sstep n) (zip_P n))
    with (s0 := (repeat [] n, repeat false n)) (live0 := seq 0 n).
  (* engine_run's premises: the handler follows [zip_sstep]; dispose sends no command; subscribe() subscribes
     live0; the start states are related; live0 has no duplicates; live0 = what [zip_acc] accepts at the start *)
  - exact (zip_step_ok n).
  - intros [queues done] now. reflexivity.
  - reflexivity.
  - cbn [zip_P]. rewrite map_id, !repeat_length. repeat split. apply Forall_forall. intros h _. lia.
  - apply seq_NoDup.
  - intros j. apply mem_seq0_none_done.
Qed.
End ZipSpec.
