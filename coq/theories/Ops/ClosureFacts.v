(* C04 / C44 -- proofs about the closure-level model Ops/Closure.v.

   C04_generic   no code writes a factory- or application-level cell  ->  in EVERY history (any
                 number of applications, subscriptions, handler runs, any interleaving) every
                 subscription emits exactly what it would emit alone (fresh operator, fresh
                 application, the inputs it received), whatever the other subscriptions and
                 applications did.  By induction on the interleaved history (invariant [inv]).
                 (The simulation behind C44_generic is in Ops/ClosureAct.v.)
   cells_* / rows_*  the bridge from the rows of a table (allocation level, deepest write level) to
                 the frame hypotheses, for programs whose cells are the rows. *)
From Coq Require Import List ZArith Bool Lia.
From RxVerif Require Import Ops.Closure.
Import ListNotations.

Lemma upd_length : forall (X : Type) (l : list X) k x, List.length (upd l k x) = List.length l.
Proof. induction l; destruct k; simpl; intros; auto. Qed.

Lemma nth_error_upd_eq : forall (X : Type) (l : list X) k x,
  k < List.length l -> nth_error (upd l k x) k = Some x.
Proof.
  induction l; destruct k; simpl; intros; try lia; auto. apply IHl. lia.
Qed.

Lemma nth_error_upd_neq : forall (X : Type) (l : list X) k k' x,
  k <> k' -> nth_error (upd l k x) k' = nth_error l k'.
Proof.
  induction l; destruct k, k'; simpl; intros; try congruence; auto.
Qed.

Lemma upd_same : forall (X : Type) (l : list X) k x, nth_error l k = Some x -> upd l k x = l.
Proof.
  induction l; destruct k; simpl; intros; try discriminate.
  - congruence.
  - f_equal. auto.
Qed.

Lemma nth_error_lt : forall (X : Type) (l : list X) k x, nth_error l k = Some x -> k < List.length l.
Proof. intros. apply nth_error_Some. congruence. Qed.

Lemma nth_error_snoc : forall (X : Type) (l : list X) x k y,
  nth_error (l ++ [x]) k = Some y -> nth_error l k = Some y \/ (k = List.length l /\ y = x).
Proof.
  intros X l x k y H. destruct (Nat.lt_ge_cases k (List.length l)) as [L|L].
  - rewrite nth_error_app1 in H by auto. auto.
  - rewrite nth_error_app2 in H by auto.
    destruct (k - List.length l) as [|n] eqn:D; simpl in H.
    + injection H as <-. right. split; [lia | reflexivity].
    + destruct n; discriminate.
Qed.

Section Facts.
  Variables Src In Out F A S : Type.
  Variable p : lprog Src In Out F A S.

  Local Notation new_f' := (new_f Src In Out F A S p).
  Local Notation sstate' := (sstate Src F A S).
  Local Notation obs' := (obs In Out).
  Local Notation step_sh := (step_shared Src In Out F A S p).
  Local Notation exec_sh := (exec_shared Src In Out F A S p).
  Local Notation frameF := (frame_F Src In Out F A S p).
  Local Notation frameA := (frame_A Src In Out F A S p).
  Local Notation ins := (ins_of In Out).
  Local Notation outs := (outs_of In Out).
  Local Notation ofsub := (of_sub In Out).
  Local Notation a0' := (a0 Src In Out F A S p).
  Local Notation iso' := (iso Src In Out F A S p).
  Local Notation iso_run' := (iso_run Src In Out F A S p).
  Local Notation iso_state' := (iso_state Src In Out F A S p).

  Lemma filter_sub_app : forall j (t u : list obs'),
    filter (ofsub j) (t ++ u) = filter (ofsub j) t ++ filter (ofsub j) u.
  Proof. intros. apply filter_app. Qed.

  Lemma iso_run_snoc : forall xs a s i,
    iso_run' a s (xs ++ [i]) =
    iso_run' a s xs ++ [run_o _ _ _ _ _ _ p new_f' a (fold_left (fun s i => run_s _ _ _ _ _ _ p new_f' a s i) xs s) i].
  Proof.
    induction xs; intros; simpl; auto. rewrite IHxs. reflexivity.
  Qed.

  Lemma filter_snoc_same : forall j i o (t : list obs'),
    filter (ofsub j) (t ++ [(j, i, o)]) = filter (ofsub j) t ++ [(j, i, o)].
  Proof.
    intros. rewrite filter_sub_app. simpl. unfold of_sub at 2. simpl. rewrite Nat.eqb_refl. reflexivity.
  Qed.

  Lemma filter_snoc_other : forall j j' i o (t : list obs'), j <> j' ->
    filter (ofsub j') (t ++ [(j, i, o)]) = filter (ofsub j') t.
  Proof.
    intros. rewrite filter_sub_app. simpl. unfold of_sub at 2. simpl.
    destruct (Nat.eqb_spec j j'); [congruence|]. apply app_nil_r.
  Qed.

  Lemma ins_snoc_same : forall j i o t, ins j (t ++ [(j, i, o)]) = ins j t ++ [i].
  Proof. intros. unfold ins_of. rewrite filter_snoc_same, map_app. reflexivity. Qed.
  Lemma outs_snoc_same : forall j i o t, outs j (t ++ [(j, i, o)]) = outs j t ++ [o].
  Proof. intros. unfold outs_of. rewrite filter_snoc_same, map_app. reflexivity. Qed.
  Lemma ins_snoc_other : forall j j' i o t, j <> j' -> ins j' (t ++ [(j, i, o)]) = ins j' t.
  Proof. intros. unfold ins_of. rewrite filter_snoc_other; auto. Qed.
  Lemma outs_snoc_other : forall j j' i o t, j <> j' -> outs j' (t ++ [(j, i, o)]) = outs j' t.
  Proof. intros. unfold outs_of. rewrite filter_snoc_other; auto. Qed.

  (* With both frames the factory state and every application state stay what a fresh operator
     gives; every subscription's state and outputs are its isolated run on the inputs it received;
     and the trace holds nothing of a subscription not yet made (so a new one starts from nothing). *)
  Definition inv (st : sstate') (t : list obs') : Prop :=
    s_f _ _ _ _ st = new_f'
    /\ (forall k src a, nth_error (s_apps _ _ _ _ st) k = Some (src, a) -> a = a0' src)
    /\ (forall j k s, nth_error (s_subs _ _ _ _ st) j = Some (k, s) ->
          exists src, nth_error (s_apps _ _ _ _ st) k = Some (src, a0' src)
                   /\ s = iso_state' src (ins j t) /\ outs j t = iso' src (ins j t))
    /\ (forall j, List.length (s_subs _ _ _ _ st) <= j -> filter (ofsub j) t = []).

  Lemma inv_init : inv (init_shared Src In Out F A S p) [].
  Proof.
    repeat split; simpl; intros.
    - destruct k; discriminate.
    - destruct j; discriminate.
  Qed.

  Lemma step_inv : frameF -> frameA -> forall st t e, inv st t ->
    inv (fst (step_sh st e)) (t ++ snd (step_sh st e)).
  Proof.
    intros [Fa [Fs Fr]] [As Ar] st t e I.
    (* an event that finds no such application or subscription changes nothing *)
    assert (Hsame : inv st (t ++ [])) by (rewrite app_nil_r; exact I).
    destruct st as [f apps subs]. destruct I as [Hf [Happ [Hsub Hnew]]]. simpl in Hf, Happ, Hsub, Hnew.
    subst f. destruct e as [src | k | j i]; simpl.
    - (* apply *)
      rewrite app_nil_r, Fa. repeat split; simpl; auto.
      + intros k src' a H. destruct (nth_error_snoc _ _ _ _ _ H) as [H'|[_ H']]; [eauto|].
        injection H' as -> ->. reflexivity.
      + intros j k s H. destruct (Hsub j k s H) as [src' [H1 H2]].
        exists src'. split; auto. rewrite nth_error_app1; auto. eapply nth_error_lt; eauto.
    - (* subscribe *)
      destruct (nth_error apps k) as [[src a]|] eqn:E; simpl.
      + rewrite app_nil_r. pose proof (Happ k src a E) as Ha. subst a.
        rewrite Fs, As. rewrite (upd_same _ apps k (src, a0' src) E).
        repeat split; simpl; auto.
        * intros j k' s H. destruct (nth_error_snoc _ _ _ _ _ H) as [H'|[-> H']]; [auto|].
          (* the new subscription: nothing in the trace is its own yet *)
          injection H' as -> ->. exists src. split; auto.
          unfold ins_of, outs_of. rewrite (Hnew _ (le_n _)). simpl. split; reflexivity.
        * intros j L. rewrite app_length in L. simpl in L. apply Hnew. lia.
      + exact Hsame.
    - (* one handler run *)
      destruct (nth_error subs j) as [[k s]|] eqn:Ej; simpl.
      + destruct (nth_error apps k) as [[src a]|] eqn:Ek; simpl.
        * destruct (Hsub j k s Ej) as [src' [H1 [H2 H3]]].
          rewrite Ek in H1. injection H1 as <- ->.
          rewrite Fr, Ar. rewrite (upd_same _ apps k (src, a0' src) Ek).
          pose proof (nth_error_lt _ _ _ _ Ej) as Lj.
          repeat split; simpl; auto.
          -- intros j' k' s' H.
             destruct (Nat.eq_dec j j') as [->|N].
             ++ rewrite nth_error_upd_eq in H by auto. injection H as <- <-.
                exists src. split; auto.
                rewrite ins_snoc_same, outs_snoc_same. split.
                ** unfold iso_state. rewrite fold_left_app. simpl.
                   rewrite H2. reflexivity.
                ** rewrite H3. unfold iso. rewrite iso_run_snoc.
                   rewrite H2. reflexivity.
             ++ rewrite nth_error_upd_neq in H by auto.
                destruct (Hsub j' k' s' H) as [src' [G1 [G2 G3]]].
                exists src'. split; auto.
                rewrite ins_snoc_other, outs_snoc_other by auto. auto.
          -- intros j' L. rewrite upd_length in L.
             rewrite filter_snoc_other by lia. apply Hnew. auto.
        * exact Hsame.
      + exact Hsame.
  Qed.

  Lemma exec_inv : frameF -> frameA -> forall h st t0 st' t',
    exec_sh st h = (st', t') -> inv st t0 -> inv st' (t0 ++ t').
  Proof.
    intros HF HA. induction h as [|e r IH]; intros st t0 st' t' E I; simpl in E.
    - inversion E; subst. rewrite app_nil_r. auto.
    - pose proof (step_inv HF HA st t0 e I) as I1.
      destruct (step_sh st e) as [st1 o]. simpl in I1.
      destruct (exec_sh st1 r) as [st2 t] eqn:E2. inversion E; subst st' t'.
      rewrite app_assoc. eapply IH; eauto.
  Qed.

  (* every subscription of every application, in every history, behaves as if it were alone;
     [g] is any closed form of the isolated run (iso itself; for a pipeline the stages' runs
     composed) *)
  Theorem C04_generic_iso : frameF -> frameA ->
    forall g : Src -> list In -> list Out, (forall src xs, iso' src xs = g src xs) ->
    forall h st t, exec_sh (init_shared Src In Out F A S p) h = (st, t) ->
    forall j k s, nth_error (s_subs _ _ _ _ st) j = Some (k, s) ->
      exists src a, nth_error (s_apps _ _ _ _ st) k = Some (src, a)
                 /\ outs j t = g src (ins j t).
  Proof.
    intros HF HA g Hg h st t E j k s Hj.
    pose proof (exec_inv HF HA h _ [] st t E inv_init) as [_ [_ [Hsub _]]]. simpl in Hsub.
    destruct (Hsub j k s Hj) as [src [H1 [_ H3]]]. exists src, (a0' src). rewrite <- Hg. auto.
  Qed.
End Facts.

Lemma level_cases : forall a b : level, level_ltb a b = false -> level_leb b a = true.
Proof. destruct a, b; simpl; intros; try reflexivity; discriminate. Qed.

Lemma level_leb_trans : forall a b c, level_leb a b = true -> level_leb b c = true -> level_leb a c = true.
Proof.
  unfold level_leb. intros a b c H1 H2. apply Nat.leb_le in H1, H2. apply Nat.leb_le. lia.
Qed.

Section CellFacts.
  Variables Src In Out S : Type.
  Variable p : lprog Src In Out store store S.

  (* code at a level below every declared cell's deepest writer leaves the whole store as it was *)
  Lemma keeps_eq : forall top m L old new,
    cells_ok top m = true -> level_ltb top L = true -> keeps m L old new -> new = old.
  Proof.
    intros top m L old new Hok Hlt [Hlen Hnth]. apply Nat.ltb_lt in Hlt.
    apply nth_ext with (d := 0%Z) (d' := 0%Z); auto.
    intros n _. apply Hnth.
    destruct (Nat.lt_ge_cases n (List.length m)) as [Ln|Ln].
    - unfold cells_ok in Hok. rewrite forallb_forall in Hok.
      specialize (Hok (nth n m LModule) (nth_In _ _ Ln)).
      unfold level_leb in Hok. apply Nat.leb_le in Hok. lia.
    - rewrite nth_overflow by auto. simpl. lia.
  Qed.

  Lemma described_frame_F : forall fm am,
    cells_ok LFactory fm = true -> described_by Src In Out S p fm am -> frame_F _ _ _ _ _ _ p.
  Proof.
    intros fm am Hok [H1 [H2 [H3 _]]]. repeat split; intros.
    - exact (keeps_eq LFactory fm LApply _ _ Hok eq_refl (H1 f src)).
    - exact (keeps_eq LFactory fm LSub _ _ Hok eq_refl (H2 f a)).
    - exact (keeps_eq LFactory fm LHandler _ _ Hok eq_refl (H3 f a s i)).
  Qed.

  Lemma described_frame_A : forall fm am,
    cells_ok LApply am = true -> described_by Src In Out S p fm am -> frame_A _ _ _ _ _ _ p.
  Proof.
    intros fm am Hok [_ [_ [_ [H4 H5]]]]. split; intros.
    - exact (keeps_eq LApply am LSub _ _ Hok eq_refl (H4 f a)).
    - exact (keeps_eq LApply am LHandler _ _ Hok eq_refl (H5 f a s i)).
  Qed.
End CellFacts.

(* Cells selected from rows.  A selected row is allocated at [top] or above, [top] above [need]; not
   being [shared_above need] it is written no deeper than it is allocated ([level_cases]), hence
   no deeper than [top] ([level_leb_trans]). *)
Lemma cells_ok_unshared : forall need top (sel : alloc_entry -> bool) rows,
  level_ltb top need = true ->
  (forall e, In e rows -> sel e = true ->
     level_leb (a_alloc e) top = true /\ shared_above need e = false) ->
  cells_ok top (map a_mut (filter sel rows)) = true.
Proof.
  intros need top sel rows Ht H. unfold cells_ok. apply forallb_forall. intros w Hw.
  apply in_map_iff in Hw. destruct Hw as [e [<- He]]. apply filter_In in He.
  destruct (H e (proj1 He) (proj2 He)) as [Ha Hs].
  assert (Hn : level_ltb (a_alloc e) need = true).
  { unfold level_leb, level_ltb in *. apply Nat.leb_le in Ha. apply Nat.ltb_lt in Ht.
    apply Nat.ltb_lt. lia. }
  unfold shared_above in Hs. rewrite Hn in Hs.
  exact (level_leb_trans _ _ _ (level_cases _ _ Hs) Ha).
Qed.

Lemma C44_unshared : forall e, entry_ok_C44 e = true -> negb (a_creation e) = true ->
  negb (site_exempt e) = true -> shared_above LApply e = false.
Proof.
  unfold entry_ok_C44. intros e Hok Hc Hex. apply negb_true_iff in Hc, Hex.
  rewrite Hc, Hex in Hok. apply negb_true_iff. exact Hok.
Qed.

Lemma C04_unshared : forall e, entry_ok_C04 e = true -> negb (a_mc e || a_hot e) = true ->
  negb (site_exempt e) = true -> shared_above LSub e = false.
Proof.
  unfold entry_ok_C04. intros e Hok Hc Hex. apply negb_true_iff in Hc, Hex.
  apply orb_false_elim in Hc. destruct Hc as [Hm Hh].
  rewrite Hm, Hh, Hex in Hok. apply negb_true_iff. exact Hok.
Qed.

Lemma rows_fcells_C44 : forall rows,
  forallb entry_ok_C44 rows = true -> forallb (fun e => negb (a_creation e)) rows = true ->
  cells_ok LFactory (fcells rows) = true.
Proof.
  intros rows Hok Hnc. apply (cells_ok_unshared LApply); [reflexivity|]. intros e He Hsel.
  rewrite forallb_forall in Hok, Hnc. apply andb_prop in Hsel. destruct Hsel as [Hex Hlv].
  split; [exact Hlv | exact (C44_unshared e (Hok e He) (Hnc e He) Hex)].
Qed.

Lemma rows_fcells_C04 : forall rows,
  forallb entry_ok_C04 rows = true -> forallb (fun e => negb (a_mc e || a_hot e)) rows = true ->
  cells_ok LFactory (fcells rows) = true.
Proof.
  intros rows Hok Hnc. apply (cells_ok_unshared LSub); [reflexivity|]. intros e He Hsel.
  rewrite forallb_forall in Hok, Hnc. apply andb_prop in Hsel. destruct Hsel as [Hex Hlv].
  split; [exact Hlv | exact (C04_unshared e (Hok e He) (Hnc e He) Hex)].
Qed.

Lemma rows_acells_C04 : forall rows,
  forallb entry_ok_C04 rows = true -> forallb (fun e => negb (a_mc e || a_hot e)) rows = true ->
  cells_ok LApply (acells rows) = true.
Proof.
  intros rows Hok Hnc. apply (cells_ok_unshared LSub); [reflexivity|]. intros e He Hsel.
  rewrite forallb_forall in Hok, Hnc. apply andb_prop in Hsel. destruct Hsel as [Hsel Hlv].
  apply andb_prop in Hsel. destruct Hsel as [Hex _].
  split; [exact Hlv | exact (C04_unshared e (Hok e He) (Hnc e He) Hex)].
Qed.
