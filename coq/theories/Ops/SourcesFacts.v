(* C37: source machines are "timer chains": at any moment at most one pending
   timer, each firing emits something and schedules the next.  The runner's
   trace on the firings is computed by a plain recursion ([chain_trace]); the
   specifications (Python range, iterable, while-loop, accumulated delays) are
   proved about that recursion. *)
From RxVerif Require Import Base.Prelude Ops.Machine Ops.MachineFacts Ops.Multi Ops.MultiFacts Ops.Sources.

Local Open Scope nat_scope.

Section Chain.
Context {A B : Type}.

Definition simple (c : cmd B) : bool :=
  match c with CEmit _ | CTimer _ _ | CEffect _ => true | _ => false end.
Definition obs_of (c : cmd B) : list (obs B) :=
  match c with
  | CEmit b => [OEmit (Next b)] | CTimer t d => [OTimer t d] | CEffect n => [OEffect n] | _ => []
  end.
Definition ctimers (cs : list (cmd B)) : list nat :=
  flat_map (fun c => match c with CTimer t _ => [t] | _ => [] end) cs.
Definition fin_obs (f : fin) : list (obs B) :=
  match f with Cont => [] | Complete => [OEmit Done] | Fail e => [OEmit (Err e)] end.

Lemma apply_simple (cs : list (cmd B)) : forall r, forallb simple cs = true ->
  apply_cmds r cs = (RState (r_live r) (r_timers r ++ ctimers cs) (r_stopped r), flat_map obs_of cs).
Proof.
  induction cs as [|c t IH]; intros r Hs.
  - cbn. rewrite app_nil_r. destruct r; reflexivity.
  - cbn [forallb] in Hs. apply andb_true_iff in Hs. destruct Hs as [Hc Ht].
    destruct c; try discriminate; cbn [apply_cmds]; rewrite (IH _ Ht); cbn [r_live r_timers r_stopped];
      cbn [flat_map obs_of ctimers app]; rewrite <- ?app_assoc; reflexivity.
Qed.

Definition timerless (cs : list (cmd B)) : Prop := forallb simple cs = true /\ ctimers cs = [].

Lemma timerless_app (a b : list (cmd B)) : timerless a -> timerless b -> timerless (a ++ b).
Proof. intros [A1 A2] [B1 B2]. split; [now rewrite forallb_app, A1, B1|unfold ctimers in *; now rewrite flat_map_app, A2, B2]. Qed.

Context (m : machine A B) (tag_of : x_state m -> nat).

(* every firing: only emissions / effects / timers; if the subscription goes on
   exactly one new timer, numbered next; none at a terminating firing *)
Definition chain_ok : Prop := forall s now t,
  forallb simple (snd (fst (x_step m s now (ITick t)))) = true
  /\ match snd (x_step m s now (ITick t)) with
     | Cont => ctimers (snd (fst (x_step m s now (ITick t)))) = [S (tag_of s)]
               /\ tag_of (fst (fst (x_step m s now (ITick t)))) = S (tag_of s)
     | _ => ctimers (snd (fst (x_step m s now (ITick t)))) = []
     end.

(* the same condition as a predicate on one answer: case analyses in the instances then meet the step
   function once instead of six times *)
Definition chain_ans (tag : nat) (a : x_state m * list (cmd B) * fin) : Prop :=
  forallb simple (snd (fst a)) = true
  /\ match snd a with
     | Cont => ctimers (snd (fst a)) = [S tag] /\ tag_of (fst (fst a)) = S tag
     | _ => ctimers (snd (fst a)) = []
     end.

Lemma chain_ok_intro : (forall s now t, chain_ans (tag_of s) (x_step m s now (ITick t))) -> chain_ok.
Proof. intros H s now t. exact (H s now t). Qed.

Fixpoint tick_ins (t : nat) (nows : list Z) : list (Z * inp A) :=
  match nows with [] => [] | now :: rest => (now, ITick t) :: tick_ins (S t) rest end.

Fixpoint chain_trace (s : x_state m) (k : nat) (nows : list Z) : list (nat * obs B) :=
  match nows with
  | [] => []
  | now :: rest =>
      let '(s', cs, f) := x_step m s now (ITick (tag_of s)) in
      map (fun o => (k, o)) (flat_map obs_of cs ++ fin_obs f)
      ++ match f with Cont => chain_trace s' (S k) rest | _ => [] end
  end.

Lemma tick_simple s t now s' cs f : x_step m s now (ITick t) = (s', cs, f) ->
  forallb simple cs = true -> (live f = false -> ctimers cs = []) ->
  rstep m s (RState [] [t] false) now (ITick t)
  = (s', (if live f then RState [] (ctimers cs) false else RState [] [] true), flat_map obs_of cs ++ fin_obs f).
Proof.
  intros E Hs Ht. cbn [rstep r_stopped r_timers r_live mem existsb remove]. rewrite Nat.eqb_refl, E, (apply_simple cs _ Hs).
  cbn [orb r_live r_timers r_stopped app].
  destruct f; cbn [live finish fin_obs]; [now rewrite app_nil_r| |]; rewrite (Ht eq_refl); reflexivity.
Qed.

Theorem chain_run : chain_ok -> forall nows s k,
  fst (run_from m s (RState [] [tag_of s] false) k (tick_ins (tag_of s) nows)) = chain_trace s k nows.
Proof.
  intros H. induction nows as [|now rest IH]; intros s k; [reflexivity|].
  cbn [tick_ins run_from chain_trace]. destruct (H s now (tag_of s)) as [Hs Hf].
  destruct (x_step m s now (ITick (tag_of s))) as [[s' cs] f] eqn:E. cbn [fst snd] in *.
  rewrite (tick_simple _ _ _ _ _ _ E Hs) by (destruct f; [discriminate|auto|auto]).
  destruct f; cbn [live]; [|now rewrite run_from_stopped..].
  destruct Hf as [Ht Htag]. rewrite Ht, <- Htag, <- (IH s' (S k)).
  now destruct (run_from m s' (RState [] [tag_of s'] false) (S k) (tick_ins (tag_of s') rest)).
Qed.

(* from subscription: the factory schedules its first timer inside subscribe() *)
Theorem chain_run0 : chain_ok -> forall s0 d nows, x_start m = (s0, [CTimer (tag_of s0) d], Cont) ->
  fst (run m (tick_ins (tag_of s0) nows)) = (0, OTimer (tag_of s0) d) :: chain_trace s0 1 nows.
Proof.
  intros H s0 d nows E. unfold run. rewrite E. cbn [apply_cmds finish r_live r_timers r_stopped app].
  pose proof (chain_run H nows s0 1) as C.
  destruct (run_from m s0 (RState [] [tag_of s0] false) 1 (tick_ins (tag_of s0) nows)) as [tr rf].
  cbn [fst] in *. now rewrite C.
Qed.

(* the first firing alone, for a machine that need not be a chain *)
Lemma first_firing s0 t d now : x_start m = (s0, [CTimer t d], Cont) -> timerless (snd (fst (x_step m s0 now (ITick t)))) ->
  fst (run m [(now, ITick t)])
  = (0, OTimer t d) :: map (fun o => (1, o)) (flat_map obs_of (snd (fst (x_step m s0 now (ITick t)))) ++ fin_obs (snd (x_step m s0 now (ITick t)))).
Proof.
  intros E [Hs Ht]. unfold run. rewrite E. cbn [apply_cmds finish r_live r_timers r_stopped app run_from].
  destruct (x_step m s0 now (ITick t)) as [[s' cs] f] eqn:E'. rewrite (tick_simple _ _ _ _ _ _ E' Hs (fun _ => Ht)).
  cbn [fst snd map]. now rewrite app_nil_r.
Qed.
End Chain.

Lemma temitted_timer {B} k t d (tr : list (nat * obs B)) : temitted ((k, OTimer t d) :: tr) = temitted tr.
Proof. reflexivity. Qed.

Definition zeros (n : nat) : list Z := repeat 0%Z n.

Lemma zeros_S n : zeros (S n) = 0%Z :: zeros n.
Proof. reflexivity. Qed.

Lemma map_seq_S {X} (f g : nat -> X) n : (forall j, f (S j) = g j) -> map f (seq 0 (S n)) = f 0 :: map g (seq 0 n).
Proof. intros E. cbn [seq map]. rewrite <- seq_shift, map_map. f_equal. apply map_ext, E. Qed.

Local Open Scope Z_scope.

Definition py_range (start stop step : Z) : list Z :=
  map (fun i => start + Z.of_nat i * step) (seq 0 (Z.to_nat (range_len start stop step))).

(* Python's meaning of range(start, stop, step) as the loop
     x = start; while (x < stop if step > 0 else x > stop): yield x; x += step *)
Fixpoint range_loop (fuel : nat) (x stop step : Z) : list Z :=
  match fuel with
  | O => []
  | S f => if (if 0 <? step then x <? stop else stop <? x)
           then x :: range_loop f (x + step) stop step else []
  end.

Lemma range_len_nonneg a b s : 0 <= range_len a b s.
Proof.
  unfold range_len. destruct (0 <? s) eqn:H1; [|destruct (s <? 0) eqn:H2; [|lia]].
  - apply Z.ltb_lt in H1. destruct (a <? b) eqn:H3; [|lia]. apply Z.ltb_lt in H3.
    assert (0 <= (b - a - 1) / s) by (apply Z.div_pos; lia). lia.
  - apply Z.ltb_lt in H2. destruct (b <? a) eqn:H3; [|lia]. apply Z.ltb_lt in H3.
    assert (0 <= (a - b - 1) / (- s)) by (apply Z.div_pos; lia). lia.
Qed.

Lemma range_len_step a b s : s <> 0 ->
  (if 0 <? s then a <? b else b <? a) = true -> range_len a b s = 1 + range_len (a + s) b s.
Proof.
  intros Hs Hc. unfold range_len. destruct (0 <? s) eqn:H1.
  - apply Z.ltb_lt in H1. rewrite Hc. apply Z.ltb_lt in Hc.
    destruct (a + s <? b) eqn:H3.
    + apply Z.ltb_lt in H3. replace (b - a - 1) with ((b - (a + s) - 1) + 1 * s) by lia.
      rewrite Z.div_add by lia. lia.
    + apply Z.ltb_ge in H3. rewrite Z.div_small by lia. lia.
  - apply Z.ltb_ge in H1. assert (H2 : s < 0) by lia. apply Z.ltb_lt in H2. rewrite H2, Hc.
    apply Z.ltb_lt in H2. apply Z.ltb_lt in Hc.
    destruct (b <? a + s) eqn:H3.
    + apply Z.ltb_lt in H3. replace (a - b - 1) with ((a + s - b - 1) + 1 * (- s)) by lia.
      rewrite Z.div_add by lia. lia.
    + apply Z.ltb_ge in H3. rewrite Z.div_small by lia. lia.
Qed.

Lemma range_len_stop a b s : (if 0 <? s then a <? b else b <? a) = false -> range_len a b s = 0.
Proof.
  intros Hc. unfold range_len. destruct (0 <? s); [now rewrite Hc|]. destruct (s <? 0); [now rewrite Hc|reflexivity].
Qed.

Lemma py_range_cons a b s : s <> 0 -> (if 0 <? s then a <? b else b <? a) = true ->
  py_range a b s = a :: py_range (a + s) b s.
Proof.
  intros Hs Hc. unfold py_range. rewrite (range_len_step a b s Hs Hc).
  pose proof (range_len_nonneg (a + s) b s) as Hn.
  rewrite Z2Nat.inj_add by lia. change (Z.to_nat 1) with 1%nat. cbn [Nat.add].
  rewrite (map_seq_S _ (fun i => a + s + Z.of_nat i * s)) by (intros j; lia). f_equal. lia.
Qed.

Lemma py_range_nil a b s : (if 0 <? s then a <? b else b <? a) = false -> py_range a b s = [].
Proof. intros Hc. unfold py_range. now rewrite (range_len_stop a b s Hc). Qed.

(* the length formula computes exactly the elements of the loop *)
Theorem py_range_is_loop s b : s <> 0 -> forall fuel a,
  (Z.to_nat (range_len a b s) <= fuel)%nat -> range_loop fuel a b s = py_range a b s.
Proof.
  intros Hs. induction fuel as [|f IH]; intros a Hf.
  - cbn. unfold py_range. assert (E : Z.to_nat (range_len a b s) = 0%nat) by lia. now rewrite E.
  - cbn [range_loop]. destruct (if 0 <? s then a <? b else b <? a) eqn:Hc.
    + rewrite (py_range_cons a b s Hs Hc). f_equal. apply IH.
      rewrite (range_len_step a b s Hs Hc) in Hf. pose proof (range_len_nonneg (a + s) b s). lia.
    + now rewrite (py_range_nil a b s Hc).
Qed.

Theorem py_range_nth a b s i : (i < length (py_range a b s))%nat ->
  nth i (py_range a b s) 0 = a + Z.of_nat i * s.
Proof.
  unfold py_range. rewrite map_length, seq_length. intros Hi.
  set (f := fun i : nat => a + Z.of_nat i * s).
  rewrite (nth_indep _ 0 (f 0%nat)) by now rewrite map_length, seq_length.
  rewrite map_nth, seq_nth by exact Hi. reflexivity.
Qed.

Theorem py_range_bound a b s x : s <> 0 -> In x (py_range a b s) -> if 0 <? s then x < b else b < x.
Proof.
  intros Hs. unfold py_range. rewrite in_map_iff. intros [i [<- Hi]]. apply in_seq in Hi.
  pose proof (range_len_nonneg a b s) as Hn. assert (Hi' : Z.of_nat i < range_len a b s) by lia. clear Hi.
  unfold range_len in *. destruct (0 <? s) eqn:H1.
  - apply Z.ltb_lt in H1. destruct (a <? b) eqn:H3; [|lia]. apply Z.ltb_lt in H3.
    assert (Z.of_nat i <= (b - a - 1) / s) by lia.
    assert (s * ((b - a - 1) / s) <= b - a - 1) by (apply Z.mul_div_le; lia). nia.
  - apply Z.ltb_ge in H1. assert (H2 : s < 0) by lia. apply Z.ltb_lt in H2. rewrite H2 in *. apply Z.ltb_lt in H2.
    destruct (b <? a) eqn:H3; [|lia]. apply Z.ltb_lt in H3.
    assert (Z.of_nat i <= (a - b - 1) / (- s)) by lia.
    assert ((- s) * ((a - b - 1) / (- s)) <= a - b - 1) by (apply Z.mul_div_le; lia). nia.
Qed.

Local Open Scope nat_scope.

Definition range_tag (s : Z * Z * nat) : nat := snd s.

Lemma range_chain a b s : chain_ok (x_range a b s) range_tag.
Proof.
  apply chain_ok_intro. intros [[cur rem] tag] now t. cbn [x_range x_step]. destruct (0 <? rem)%Z; repeat split.
Qed.

Lemma range_chain_trace step : forall n cur tag k,
  temitted (chain_trace (x_range 0 0 step) range_tag (cur, Z.of_nat n, tag) k (zeros (S n)))
  = nexts (indexed k (map (fun i => (cur + Z.of_nat i * step)%Z) (seq 0 n))) ++ [(k + n, Done)].
Proof.
  induction n as [|n IH]; intros cur tag k.
  - cbn. now rewrite Nat.add_0_r.
  - rewrite zeros_S. cbn [chain_trace x_range x_step range_tag snd].
    assert (E : (0 <? Z.of_nat (S n))%Z = true) by (apply Z.ltb_lt; lia). rewrite E.
    rewrite temitted_app. cbn [flat_map obs_of app fin_obs map].
    replace (Z.of_nat (S n) - 1)%Z with (Z.of_nat n) by lia. rewrite (IH (cur + step)%Z (S tag) (S k)).
    rewrite (map_seq_S _ (fun i => (cur + step + Z.of_nat i * step)%Z)) by (intros i; lia).
    cbn [temitted flat_map snd fst app indexed nexts map]. now rewrite Z.add_0_r, <- plus_n_Sm.
Qed.

(* range(start, stop, step) subscribed with a scheduler: the i-th firing emits
   the i-th element of Python's range, the firing after the last completes *)
Theorem range_spec a b s :
  let n := Z.to_nat (range_len a b s) in
  temitted (fst (run (x_range a b s) (tick_ins 0 (zeros (S n)))))
  = nexts (indexed 1 (py_range a b s)) ++ [(S n, Done)].
Proof.
  intros n. rewrite (chain_run0 (x_range a b s) range_tag (range_chain a b s) (a, range_len a b s, 0) 0%Z), temitted_timer
    by reflexivity.
  pose proof (range_len_nonneg a b s) as Hn.
  assert (E : range_len a b s = Z.of_nat n) by (subst n; lia). rewrite E.
  (* [x_step] of [x_range] uses the step only; start and stop only fix the initial state *)
  change (chain_trace (x_range a b s)) with (chain_trace (x_range 0 0 s)).
  rewrite range_chain_trace. unfold py_range. fold n. reflexivity.
Qed.

Definition ttimers {B} (tr : list (nat * obs B)) : list (nat * (nat * Z)) :=
  flat_map (fun x => match snd x with OTimer t d => [(fst x, (t, d))] | _ => [] end) tr.
Definition cvals {B} (cs : list (cmd B)) : list B :=
  flat_map (fun c => match c with CEmit b => [b] | _ => [] end) cs.
Definition tfin {B} (k : nat) (f : fin) : list (nat * ev B) :=
  match f with Cont => [] | Complete => [(k, Done)] | Fail e => [(k, Err e)] end.

Lemma ttimers_app {B} (a b : list (nat * obs B)) : ttimers (a ++ b) = ttimers a ++ ttimers b.
Proof. apply flat_map_app. Qed.

Lemma ttimers_timer {B} k t d (tr : list (nat * obs B)) : ttimers ((k, OTimer t d) :: tr) = (k, (t, d)) :: ttimers tr.
Proof. reflexivity. Qed.

Lemma temitted_group {B} k (cs : list (cmd B)) f :
  temitted (map (fun o => (k, o)) (flat_map obs_of cs ++ fin_obs f))
  = map (fun b => (k, Next b)) (cvals cs) ++ tfin k f.
Proof.
  rewrite map_app, temitted_app. f_equal.
  - unfold temitted, cvals in *. induction cs as [|c t IH]; [reflexivity|].
    destruct c; cbn [flat_map obs_of map app fst snd]; rewrite ?IH; reflexivity.
  - destruct f; reflexivity.
Qed.

Lemma iter_cmds_simple spy items : forall i b, timerless (fst (iter_cmds spy items i b)).
Proof.
  assert (P : forall i, timerless (if spy then [CEffect (e_pull i)] else [] : list (cmd Z)))
    by (intros i; destruct spy; split; reflexivity).
  induction items as [|[v|e] t IH]; intros i b; destruct b as [[|k]|]; cbn [iter_cmds fst];
    try (split; reflexivity); try apply P.
  all: match goal with |- context [iter_cmds ?sp ?tl ?j ?b'] => specialize (IH j b'); destruct (iter_cmds sp tl j b') end.
  all: apply timerless_app; [apply P|]; apply (timerless_app [CEmit v]); [split; reflexivity|exact IH].
Qed.

Lemma iter_cmds_none spy items : forall i, snd (iter_cmds spy items i None) <> Cont.
Proof.
  induction items as [|[v|e] t IH]; intros i; cbn [iter_cmds option_map]; try discriminate.
  specialize (IH (i + 1)%Z). destruct (iter_cmds spy t (i + 1) None) as [cs f]. exact IH.
Qed.

Lemma from_iterable_chain spy items : chain_ok (x_from_iterable spy items None) (fun _ => 0).
Proof.
  intros s now t. cbn [x_from_iterable x_step fst snd].
  destruct (iter_cmds_simple spy items 0%Z None) as [H1 H2]. pose proof (iter_cmds_none spy items 0%Z) as H3.
  split; [exact H1|]. destruct (snd (iter_cmds spy items 0 None)); [congruence|exact H2|exact H2].
Qed.

Lemma iter_cmds_values spy vs tl : (tl = [] \/ exists e r, tl = Raise e :: r) -> forall i,
  cvals (fst (iter_cmds spy (map Ok vs ++ tl) i None)) = vs
  /\ snd (iter_cmds spy (map Ok vs ++ tl) i None)
     = match tl with Raise e :: _ => Fail e | _ => Complete end.
Proof.
  intros Htl. induction vs as [|v t IH]; intros i; cbn [map app iter_cmds option_map].
  - destruct Htl as [->|[e [r ->]]]; destruct spy; cbn; auto.
  - destruct (IH (i + 1)%Z) as [H1 H2]. destruct (iter_cmds spy (map Ok t ++ tl) (i + 1) None) as [cs f].
    cbn [fst snd] in *. subst t. destruct spy; cbn [app cvals flat_map]; auto.
Qed.

(* one scheduled action emits every item, in order, then completes -- or
   on_error at the position where the iterator raises *)
Theorem from_iterable_spec spy vs tl now : (tl = [] \/ exists e r, tl = Raise e :: r) ->
  temitted (fst (run (x_from_iterable spy (map Ok vs ++ tl) None) [(now, ITick 0)]))
  = map (fun v => (1, Next v)) vs ++ [(1, match tl with Raise e :: _ => Err e | _ => Done end)].
Proof.
  intros Htl. destruct (iter_cmds_values spy vs tl Htl 0%Z) as [H1 H2].
  rewrite (first_firing (x_from_iterable spy (map Ok vs ++ tl) None) tt 0 0%Z now eq_refl) by apply iter_cmds_simple.
  cbn [x_from_iterable x_step fst snd]. rewrite temitted_timer, temitted_group, H1, H2.
  destruct Htl as [->|[e [r ->]]]; reflexivity.
Qed.

Definition cpulls {B} (cs : list (cmd B)) : list Z :=
  flat_map (fun c => match c with CEffect n => [n] | _ => [] end) cs.

Lemma effects_group {B} k (cs : list (cmd B)) f :
  flat_map (fun x : nat * obs B => match snd x with OEffect n => [n] | _ => [] end)
    (map (fun o => (k, o)) (flat_map obs_of cs ++ fin_obs f))
  = cpulls cs.
Proof.
  rewrite map_app, flat_map_app.
  replace (flat_map _ (map _ (fin_obs f))) with (@nil Z) by (destruct f; reflexivity). rewrite app_nil_r. unfold cpulls.
  induction cs as [|c t IH]; [reflexivity|]. destruct c; cbn [flat_map obs_of map app snd]; rewrite ?IH; reflexivity.
Qed.

Lemma iter_cmds_zero spy items i : iter_cmds spy items i (Some 0) = ([], Cont).
Proof. destruct items; reflexivity. Qed.

Local Arguments e_pull : simpl never.

Lemma iter_cmds_budget : forall vs k tl i, (k <= length vs)%nat ->
  cvals (fst (iter_cmds true (map Ok vs ++ tl) i (Some k))) = firstn k vs
  /\ cpulls (fst (iter_cmds true (map Ok vs ++ tl) i (Some k)))
     = map (fun j => e_pull (i + Z.of_nat j)) (seq 0 k)
  /\ snd (iter_cmds true (map Ok vs ++ tl) i (Some k)) = Cont.
Proof.
  induction vs as [|v t IH]; intros k tl i Hk; (destruct k as [|k]; [rewrite iter_cmds_zero; auto|]); cbn [length] in Hk; [lia|].
  cbn [map app iter_cmds option_map pred]. destruct (IH k tl (i + 1)%Z ltac:(lia)) as (H1 & H2 & H3).
  destruct (iter_cmds true (map Ok t ++ tl) (i + 1) (Some k)) as [cs f]. cbn [fst snd] in *.
  split; [|split]; [unfold cvals in *; cbn [app flat_map firstn]; now rewrite H1| |exact H3].
  unfold cpulls in *. cbn [app flat_map].
  rewrite H2, (map_seq_S _ (fun j => e_pull (i + 1 + Z.of_nat j))) by (intros j; f_equal; lia).
  cbn [Z.of_nat]. now rewrite Z.add_0_r.
Qed.

(* the `disposed` flag: a subscriber disposing inside its k-th on_next gets k
   elements, no terminal notification, and the iterator is pulled k times *)
Theorem from_iterable_disposed_flag vs k tl now : (0 < k <= length vs)%nat ->
  let tr := fst (run (x_from_iterable true (map Ok vs ++ tl) (Some k)) [(now, ITick 0)]) in
  temitted tr = map (fun v => (1, Next v)) (firstn k vs)
  /\ flat_map (fun x => match snd x with OEffect n => [n] | _ => [] end) tr
     = map (fun j => e_pull (Z.of_nat j)) (seq 0 k).
Proof.
  intros Hk. destruct (iter_cmds_budget vs k tl 0%Z (proj2 Hk)) as (H1 & H2 & H3).
  rewrite (first_firing (x_from_iterable true (map Ok vs ++ tl) (Some k)) tt 0 0%Z now eq_refl) by apply iter_cmds_simple.
  cbn [x_from_iterable x_step fst snd]. rewrite H3. split.
  - rewrite temitted_timer, temitted_group, H1. apply app_nil_r.
  - cbn [flat_map snd app]. rewrite effects_group. exact H2.
Qed.

(* timer(d): one timer with delay max(d, 0); when it fires: 0, then completion *)
Theorem timer_spec d now :
  fst (run (x_timer d) [(now, ITick 0)])
  = [(0, OTimer 0 (Z.max d 0)); (1, OEmit (Next 0%Z)); (1, OEmit Done)].
Proof. reflexivity. Qed.

(* never: nothing at all, whatever happens at its boundary *)
Lemma never_step r now i : r_live r = [] -> r_timers r = [] ->
  exists r', rstep x_never tt r now i = (tt, r', []) /\ r_live r' = [] /\ r_timers r' = [].
Proof.
  intros Hl Ht. unfold rstep. destruct (r_stopped r); [exists r; auto|].
  destruct i as [j e|tag|].
  - rewrite Hl. exists r. auto.
  - rewrite Ht. exists r. auto.
  - exists (RState [] [] true). cbn [x_never x_step idle apply_cmds release fst snd filter app]. rewrite Hl, Ht. auto.
Qed.

Lemma never_from ins : forall r k, r_live r = [] -> r_timers r = [] ->
  fst (run_from x_never tt r k ins) = [].
Proof.
  induction ins as [|[now i] rest IH]; intros r k Hl Ht; [reflexivity|].
  cbn [run_from]. destruct (never_step r now i Hl Ht) as [r' [E [Hl' Ht']]]. rewrite E.
  specialize (IH r' (S k) Hl' Ht'). destruct (run_from x_never tt r' (S k) rest) as [tr rf].
  cbn [fst] in *. now subst tr.
Qed.

Fixpoint while_states (fuel : nat) (c : Z -> bool) (f : Z -> Z) (s : Z) : list Z :=
  match fuel with
  | O => []
  | S k => if c s then s :: while_states k c f (f s) else []
  end.

Definition gen_tag (s : bool * Z * nat) : nat := snd s.

Lemma generate_chain init cond iter : chain_ok (x_generate init cond iter) gen_tag.
Proof.
  apply chain_ok_intro. intros [[first st] tag] now t. cbn [x_generate x_step].
  destruct (if first then Ok st else iter st) as [st'|e]; [destruct (cond st') as [[|]|e]|]; repeat split.
Qed.

(* arbitrary (raising) callbacks: the machine run equals the fuelled reference loop *)
Fixpoint gen_ref (cond : Z -> res bool) (iter : Z -> res Z) (n : nat) (first : bool) (st : Z) (k : nat)
  : list (nat * ev Z) :=
  match n with
  | O => []
  | S n' =>
      match (if first then Ok st else iter st) with
      | Raise e => [(k, Err e)]
      | Ok st' =>
          match cond st' with
          | Raise e => [(k, Err e)]
          | Ok false => [(k, Done)]
          | Ok true => (k, Next st') :: gen_ref cond iter n' false st' (S k)
          end
      end
  end.

Lemma generate_ref_trace init0 cond iter : forall n first st tag k,
  temitted (chain_trace (x_generate init0 cond iter) gen_tag (first, st, tag) k (zeros n))
  = gen_ref cond iter n first st k.
Proof.
  induction n as [|n IH]; intros first st tag k; [reflexivity|].
  rewrite zeros_S. cbn [chain_trace x_generate x_step gen_tag snd gen_ref].
  destruct (if first then @Ok Z st else iter st) as [st'|e]; [|reflexivity].
  destruct (cond st') as [[|]|e]; try reflexivity.
  rewrite temitted_app, IH. reflexivity.
Qed.

Theorem generate_ref_spec init cond iter n :
  temitted (fst (run (x_generate init cond iter) (tick_ins 0 (zeros n)))) = gen_ref cond iter n true init 1.
Proof.
  rewrite (chain_run0 _ _ (generate_chain init cond iter) (true, init, 0) 0%Z), temitted_timer by reflexivity.
  apply generate_ref_trace.
Qed.

Section Generate.
Context (c : Z -> bool) (f : Z -> Z).
Let cond := fun x : Z => @Ok bool (c x).
Let iter := fun x : Z => @Ok Z (f x).

Lemma gen_ref_pure : forall fuel (first : bool) st k,
  let s := if first then st else f st in
  let ws := while_states fuel c f s in
  length ws < fuel ->
  gen_ref cond iter (S (length ws)) first st k = nexts (indexed k ws) ++ [(k + length ws, Done)].
Proof.
  induction fuel as [|fuel IH]; intros first st k s ws Hlt; [cbn in Hlt; lia|].
  subst ws. cbn [while_states] in *. cbn [gen_ref].
  replace (if first then Ok st else iter st) with (@Ok Z s) by (subst s; destruct first; reflexivity).
  unfold cond at 1. destruct (c s); cbn [length] in *.
  - rewrite (IH false s (S k)) by lia. cbn [indexed nexts map app]. now rewrite <- plus_n_Sm.
  - cbn. now rewrite Nat.add_0_r.
Qed.

(* generate(init, condition, iterate) emits the states of
     s = init; while condition(s): yield s; s = iterate(s)
   one per firing, and completes at the firing after the last (the loop is
   assumed to exit: it uses fewer than [fuel] iterations) *)
Theorem generate_spec init fuel :
  let ws := while_states fuel c f init in
  length ws < fuel ->
  temitted (fst (run (x_generate init cond iter) (tick_ins 0 (zeros (S (length ws))))))
  = nexts (indexed 1 ws) ++ [(S (length ws), Done)].
Proof. intros ws Hlt. rewrite generate_ref_spec. exact (gen_ref_pure fuel true init 1 Hlt). Qed.
End Generate.

Definition gwrt_tag (s : bool * Z * option Z * nat) : nat := snd s.

Lemma gwrt_chain init cond iter tm : chain_ok (x_gwrt init cond iter tm) gwrt_tag.
Proof.
  apply chain_ok_intro. intros [[[first st] result] tag] now t. cbn [x_gwrt x_step].
  destruct (if first then Ok st else iter st) as [st'|e];
    [destruct (cond st') as [[|]|e]; [destruct (tm st') as [d|e]|..]|]; destruct result; repeat split.
Qed.

Lemma ttimers_group {B} k (cs : list (cmd B)) f :
  ttimers (map (fun o => (k, o)) (flat_map obs_of cs ++ fin_obs f))
  = flat_map (fun c => match c with CTimer t d => [(k, (t, d))] | _ => [] end) cs.
Proof.
  rewrite map_app, ttimers_app.
  assert (E : ttimers (map (fun o : obs B => (k, o)) (fin_obs f)) = []) by (destruct f; reflexivity).
  rewrite E, app_nil_r. unfold ttimers.
  induction cs as [|c t IH]; [reflexivity|]. destruct c; cbn [flat_map obs_of map app fst snd]; rewrite ?IH; reflexivity.
Qed.

Section Gwrt.
Context (c : Z -> bool) (f : Z -> Z) (d : Z -> Z).
Let cond := fun x : Z => @Ok bool (c x).
Let iter := fun x : Z => @Ok Z (f x).
Let tm := fun x : Z => @Ok Z (d x).

Lemma shift_timers (k tag : nat) (l : list Z) : forall j,
  map (fun p : nat * Z => (S k + fst p, (S (S tag + fst p), d (snd p)))) (indexed j l)
  = map (fun p : nat * Z => (k + fst p, (S (tag + fst p), d (snd p)))) (indexed (S j) l).
Proof.
  induction l as [|x l IHl]; intros j; [reflexivity|]. cbn [indexed map fst snd].
  now rewrite (IHl (S j)), <- !plus_n_Sm.
Qed.

Lemma gwrt_chain_trace init0 : forall fuel (first : bool) st result tag k nows,
  let s := if first then st else f st in
  let ws := while_states fuel c f s in
  length ws < fuel -> length nows = S (length ws) ->
  let tr := chain_trace (x_gwrt init0 cond iter tm) gwrt_tag (first, st, result, tag) k nows in
  temitted tr = (match result with Some r => [(k, Next r)] | None => [] end)
                ++ nexts (indexed (S k) ws) ++ [(k + length ws, Done)]
  /\ ttimers tr = map (fun p => (k + fst p, (S (tag + fst p), d (snd p)))) (indexed 0 ws).
Proof.
  induction fuel as [|fuel IH]; intros first st result tag k nows s ws Hlt Hn tr; [cbn in Hlt; lia|].
  subst tr ws. cbn [while_states] in *.
  assert (E : (if first then @Ok Z st else iter st) = Ok s) by (subst s; destruct first; reflexivity).
  destruct nows as [|now rest]; [discriminate Hn|]. cbn [chain_trace x_gwrt x_step gwrt_tag snd]. rewrite E.
  assert (Et : tm s = Ok (d s)) by reflexivity.
  assert (Ec : cond s = Ok (c s)) by reflexivity. rewrite Ec. destruct (c s).
  - cbn [length] in *. rewrite Et.
    rewrite temitted_app, ttimers_app, temitted_group, ttimers_group.
    destruct (IH false s (Some s) (S tag) (S k) rest) as [I1 I2]; [lia|lia|]. rewrite I1, I2, <- plus_n_Sm, shift_timers.
    split; destruct result; cbn; rewrite ?Nat.add_0_r; reflexivity.
  - cbn [length] in *. destruct rest; [|discriminate Hn].
    rewrite app_nil_r, temitted_group, ttimers_group, Nat.add_0_r. split; destruct result; reflexivity.
Qed.

(* generate_with_relative_time(init, condition, iterate, time_mapper): the
   first timer (tag 0, delay 0) only computes; for the i-th state x_i of the
   while-loop, the timer scheduled at firing i+1 carries delay d(x_i) -- zero
   included -- and x_i is emitted when THAT timer fires (firing i+2); the
   completion comes with the last emission *)
Theorem gwrt_spec init fuel nows :
  let ws := while_states fuel c f init in
  length ws < fuel -> length nows = S (length ws) ->
  let tr := fst (run (x_gwrt init cond iter tm) (tick_ins 0 nows)) in
  temitted tr = nexts (indexed 2 ws) ++ [(S (length ws), Done)]
  /\ ttimers tr = (0, (0, 0%Z)) :: map (fun p => (S (fst p), (S (fst p), d (snd p)))) (indexed 0 ws).
Proof.
  intros ws Hlt Hn tr. subst tr.
  rewrite (chain_run0 _ _ (gwrt_chain init cond iter tm) (true, init, None, 0) 0%Z), temitted_timer, ttimers_timer by reflexivity.
  (* trace position 0 is subscribe(), the chain starts at position 1 with timer tag 0 *)
  destruct (gwrt_chain_trace init fuel true init None 0 1 nows Hlt Hn) as [I1 I2].
  cbn zeta in I1, I2. rewrite I1, I2. split; reflexivity.
Qed.
End Gwrt.

Definition tp_tag (s : Z * nat) : nat := snd s.
Definition tdp_tag (s : Z * Z * nat) : nat := snd s.

Lemma timer_periodic_chain p : chain_ok (x_timer_periodic p) tp_tag.
Proof. intros [count tag] now t. cbn. auto. Qed.

Lemma timer_period_chain d p : chain_ok (x_timer_period d p) tdp_tag.
Proof. intros [[dt count] tag] now t. cbn. auto. Qed.

Lemma counter_cons (c : Z) k n :
  nexts (indexed k (map (fun j => (c + Z.of_nat j)%Z) (seq 0 (S n))))
  = (k, Next c) :: nexts (indexed (S k) (map (fun j => (c + 1 + Z.of_nat j)%Z) (seq 0 n))).
Proof.
  rewrite (map_seq_S _ (fun j => (c + 1 + Z.of_nat j)%Z)) by (intros j; lia). cbn [indexed nexts map]. now rewrite Z.add_0_r.
Qed.

Lemma ticks_cons (k tag : nat) (p : Z) n :
  map (fun j => (k + j, (S (tag + j), p))) (seq 0 (S n))
  = (k, (S tag, p)) :: map (fun j => (S k + j, (S (S tag + j), p))) (seq 0 n).
Proof.
  rewrite (map_seq_S _ (fun j => (S k + j, (S (S tag + j), p)))) by (intros j; now rewrite <- !plus_n_Sm).
  now rewrite !Nat.add_0_r.
Qed.

Lemma timer_periodic_trace p : forall nows count tag k,
  let tr := chain_trace (x_timer_periodic p) tp_tag (count, tag) k nows in
  temitted tr = nexts (indexed k (map (fun j => (count + Z.of_nat j)%Z) (seq 0 (length nows))))
  /\ ttimers tr = map (fun j => (k + j, (S (tag + j), Z.max p 0))) (seq 0 (length nows)).
Proof.
  induction nows as [|now rest IH]; intros count tag k tr; subst tr; [split; reflexivity|].
  cbn [chain_trace x_timer_periodic x_step tp_tag snd length].
  rewrite temitted_app, ttimers_app, temitted_group, ttimers_group, counter_cons, ticks_cons.
  destruct (IH (count + 1)%Z (S tag) (S k)) as [I1 I2]. cbn zeta in I1, I2. rewrite I1, I2. split; reflexivity.
Qed.

(* timer(d, p), d <> p, 0 < p, from a firing that is on time (due at dt) and with the later firings
   on time as well: counter values, and every new timer has delay p *)
Lemma timer_period_trace d p : (0 < p)%Z -> forall n dt count tag k,
  let nows := map (fun j => (dt + Z.of_nat j * p)%Z) (seq 0 n) in
  let tr := chain_trace (x_timer_period d p) tdp_tag (dt, count, tag) k nows in
  temitted tr = nexts (indexed k (map (fun j => (count + Z.of_nat j)%Z) (seq 0 n)))
  /\ ttimers tr = map (fun j => (k + j, (S (tag + j), p))) (seq 0 n).
Proof.
  intros Hp. induction n as [|n IH]; intros dt count tag k nows tr; subst tr nows; [split; reflexivity|].
  rewrite counter_cons, ticks_cons, (map_seq_S _ (fun j => (dt + p + Z.of_nat j * p)%Z)) by (intros j; lia).
  cbn [chain_trace x_timer_period x_step tdp_tag snd].
  replace (Z.max p 0) with p by lia. replace (0 <? p)%Z with true by (symmetry; apply Z.ltb_lt, Hp).
  replace (dt + Z.of_nat 0 * p)%Z with dt by lia.
  replace (dt + p <=? dt)%Z with false by (symmetry; apply Z.leb_gt; lia).
  replace (Z.max (dt + p - dt) 0) with p by lia.
  rewrite temitted_app, ttimers_app, temitted_group, ttimers_group.
  destruct (IH (dt + p)%Z (count + 1)%Z (S tag) (S k)) as [I1 I2]. cbn zeta in I1, I2.
  rewrite I1, I2. split; reflexivity.
Qed.

Definition rv_tag (s : bool * option nat * nat) : nat := snd s.

Lemma repeat_value_chain v rc : chain_ok (x_repeat_value v rc) rv_tag.
Proof.
  apply chain_ok_intro. intros [[phase remaining] tag] now t. cbn [x_repeat_value x_step].
  destruct phase; [destruct remaining as [[|r]|]|]; repeat split.
Qed.

Lemma repeat_value_trace v rc : forall r tag k,
  temitted (chain_trace (x_repeat_value v rc) rv_tag (true, Some r, tag) k (zeros (S (2 * r))))
  = map (fun j => (k + 2 * j + 1, Next v)) (seq 0 r) ++ [(k + 2 * r, Done)].
Proof.
  induction r as [|r IH]; intros tag k.
  - cbn. now rewrite Nat.add_0_r.
  - replace (S (2 * S r)) with (S (S (S (2 * r)))) by lia.
    change (zeros (S (S (S (2 * r))))) with (0%Z :: 0%Z :: zeros (S (2 * r))).
    cbn [chain_trace x_repeat_value x_step rv_tag snd option_map pred].
    rewrite !temitted_app, !temitted_group, (IH (S (S tag)) (S (S k))).
    rewrite (map_seq_S _ (fun j => (S (S k) + 2 * j + 1, Next v))) by (intros j; f_equal; lia).
    cbn [cvals flat_map app tfin map]. f_equal; [f_equal; lia|]. do 3 f_equal. lia.
Qed.

(* repeat_value(v, n), n >= 0: v at the firings 2, 4, ..., 2n (concat's action
   and return_value's action alternate), completion at firing 2n + 1 *)
Theorem repeat_value_spec v c : (0 <= c)%Z ->
  let n := Z.to_nat c in
  temitted (fst (run (x_repeat_value v (Some c)) (tick_ins 0 (zeros (S (2 * n))))))
  = map (fun j => (2 * j + 2, Next v)) (seq 0 n) ++ [(S (2 * n), Done)].
Proof.
  intros Hc n.
  assert (E : repeat_count (Some c) = Some n).
  { unfold repeat_count. destruct (Z.eqb_spec c (-1)); [lia|reflexivity]. }
  rewrite (chain_run0 _ _ (repeat_value_chain v (Some c)) (true, Some n, 0) 0%Z), temitted_timer
    by (cbn [x_repeat_value x_start]; now rewrite E).
  rewrite repeat_value_trace. f_equal. apply map_ext. intros j. f_equal. lia.
Qed.

Lemma emitted_of_temitted {B} (tr : list (nat * obs B)) : emitted tr = map snd (temitted tr).
Proof. exact (emitted_temitted tr). Qed.
