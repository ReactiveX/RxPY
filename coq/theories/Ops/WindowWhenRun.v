(* C18: window_when / buffer_when (closing selector) at run level.  Over ALL interleavings of the
   notifications of the source (port 0) and of the closing observables the closing mapper makes
   (port g+1 for the observable made for window g), the run of [x_window_when] / [x_buffer_when]
   (Ops/Windows.v, operators/_window.py, _buffer.py) with every window subscribed when handed
   equals a walk whose whole state is the index g of the current window (and, for buffers, its
   content):
     - a source element goes to window g;
     - ONLY the closing observable of window g (port g+1) is listened to: its first notification,
       an element or its completion, completes window g, hands window g+1, disposes that closing
       subscription and subscribes a NEW closing observable, made by the (g+1)-th call of the mapper;
     - an error of the source or of the current closing observable goes to window g and to the outer;
       the source's completion completes window g and the outer;
     - a raising closing mapper ends everything: the CURRENT window (window 0 at the first call,
       inside subscribe(); the window just handed at a later call) gets the error, then the outer
       sequence; every earlier window has completed, so the source is released and nothing that
       comes later on any port is observed; buffers: the result's error, all disposed.
   The last section reads partition and no-loss properties off the walks ([src_nexts], [routed]). *)
From RxVerif Require Import Base.Prelude Ops.Machine Ops.MultiFacts Ops.MultiWin Ops.MultiWinFacts Ops.Windows
  Ops.WindowCountFacts Ops.WindowFacts Ops.BufferFacts Ops.WinSim.
From Coq Require Import Sorting.Sorted.

Local Arguments Multi.mem : simpl never.
Local Arguments Multi.remove : simpl never.

Lemma remove_nil' k : remove k [] = [].
Proof. reflexivity. Qed.

(* how a machine that passes on the terminal [e] ends the outer sequence *)
Definition term_fin {A} (e : ev A) : fin := match e with Err z => Fail z | _ => Complete end.

Section WindowWhen.
Context {A B : Type}.
Variable mapper : nat -> res unit.
Notation M := (x_window_when (A:=A) (B:=B) mapper).
Notation tin := (Z * nat * ev A)%type.

Definition out_ev (e : ev A) : ev B := match e with Err z => Err z | _ => Done end.

(* [g] = the current window (every earlier one has completed) *)
Fixpoint ww_walk (g : nat) (pos : nat) (ins : list tin) : list (nat * obs A B) :=
  match ins with
  | [] => []
  | (_, k, e) :: rest =>
      if Nat.eqb k 0 then
        match e with
        | Next x => (pos, OWin g (Next x)) :: ww_walk g (S pos) rest
        | _ => [(pos, OWin g e); (pos, OEmit (out_ev e)); (pos, OUnsub 0%nat); (pos, OUnsub (S g))]
        end
      else if Nat.eqb k (S g) then
        match e with
        | Err z => [(pos, OWin g (Err z)); (pos, OEmit (Err z)); (pos, OUnsub 0%nat); (pos, OUnsub (S g))]
        | _ =>
            [(pos, OWin g Done); (pos, OHand (S g) 0); (pos, OUnsub (S g))]
            ++ match mapper (S g) with
               | Ok _ => (pos, OSub (S (S g))) :: ww_walk (S g) (S pos) rest
               | Raise z => [(pos, OWin (S g) (Err z)); (pos, OEmit (Err z)); (pos, OUnsub 0%nat)]
               end
        end
      else ww_walk g (S pos) rest
  end.

(* inside subscribe(): window 0 handed, the source subscribed, the first call of the mapper *)
Definition ww_start : list (nat * obs A B) :=
  [(0%nat, OHand 0%nat 0); (0%nat, OSub 0%nat)]
  ++ match mapper 0%nat with
     | Ok _ => [(0%nat, OSub 1%nat)]
     | Raise z => [(0%nat, OWin 0%nat (Err z)); (0%nat, OEmit (Err z)); (0%nat, OUnsub 0%nat)]
     end.

(* the whole trace: when the FIRST call raises nothing is listened to any more *)
Definition ww_out (ins : list tin) : list (nat * obs A B) :=
  ww_start ++ match mapper 0%nat with Ok _ => ww_walk 0 1 ins | Raise _ => [] end.

Definition ww_rstate (g : nat) : rstate A :=
  RState [0%nat; S g] [] true [g] (map (fun k => (k, Done)) (seq 0 g)) (seq 0 (S g)) false.

(* the machine's counters when window g is current: the next window and the next call of the mapper are g+1 *)
Definition ww_ok (s : ww_st) (g : nat) : Prop := ww_cur s = g /\ ww_next s = S g /\ ww_calls s = S g.

Lemma wterm_fresh g : wterm_of (W:=A) g (map (fun k => (k, Done)) (seq 0 g)) = None.
Proof. rewrite wterm_done_seq, Nat.ltb_irrefl. reflexivity. Qed.
Lemma wterm_fresh_S g e : wterm_of (W:=A) (S g) (map (fun k => (k, Done)) (seq 0 g) ++ [(g, e)]) = None.
Proof.
  rewrite wterm_of_app, wterm_done_seq. destruct (Nat.ltb_spec (S g) g); [lia|]. cbn [wterm_of].
  destruct (Nat.eqb_spec (S g) g); [lia|reflexivity].
Qed.
Lemma count_one g : count_of g [g] = 1%nat.
Proof. unfold count_of. cbn [filter]. now rewrite Nat.eqb_refl. Qed.
Lemma mem_seq_S g : mem (S g) (seq 0 (S g) ++ [S g]) = true.
Proof.
  change [S g] with (seq (0 + S g) 1). rewrite <- seq_app, mem_seq.
  destruct (Nat.leb_spec 0 (S g)), (Nat.ltb_spec (S g) (0 + (S g + 1))); try lia; reflexivity.
Qed.

Lemma mem_S_SS g : mem (S g) [0%nat; S (S g)] = false.
Proof. rewrite !mem_cons, mem_nil'. cbn [Nat.eqb orb]. now rewrite (proj2 (Nat.eqb_neq g (S g))) by lia. Qed.

Lemma mem_closing g l : mem (S g) (0%nat :: S g :: l) = true.
Proof. now rewrite !mem_cons, Nat.eqb_refl, Bool.orb_true_r. Qed.

Lemma mem_other k g : k <> 0%nat -> k <> S g -> mem k [0%nat; S g] = false.
Proof.
  intros H0 Hg. rewrite !mem_cons, mem_nil'.
  now rewrite (proj2 (Nat.eqb_neq k 0)), (proj2 (Nat.eqb_neq k (S g))) by assumption.
Qed.

Lemma ww_rstate_S g :
  ww_rstate (S g)
  = RState [0%nat; S (S g)] [] true [S g] (map (fun k => (k, Done)) (seq 0 g) ++ [(g, Done)]) (seq 0 (S g) ++ [S g]) false.
Proof. unfold ww_rstate. f_equal; [now rewrite seq_S, map_app|apply (seq_S (S g) 0)]. Qed.

(* the machine when the closing observable of the current window fires: window g completes, window g+1 is
   handed, the closing subscription is disposed and the mapper is called for the (g+1)-th time *)
Lemma ww_fire s g t e : ww_ok s g -> (forall z, e <> Err z) ->
  exists s', ww_ok s' (S g)
    /\ x_step M s t (ISrc (S g) e)
       = (s', [CWin g Done; CHand (S g) 0; CUnsub (S g)]
              ++ match mapper (S g) with Ok _ => [CSubLive (S (S g))] | Raise z => [CWin (S g) (Err z)] end,
          match mapper (S g) with Ok _ => Cont | Raise z => Fail z end).
Proof.
  destruct s as [cur nx calls cl]. intros (Hc & Hn & Hk) He. cbn [ww_cur ww_next ww_calls] in *. subst cur nx calls.
  rewrite (window_when_fires mapper _ t g e He). unfold ww_arm. cbn [ww_calls ww_cur ww_next ww_closing].
  destruct (mapper (S g)); (eexists; split; [|reflexivity]); repeat split.
Qed.

(* One input in the state "window g is current", runner state [ww_rstate g]: either that state is reached
   again, for g or for g+1, or the runner is left without a source subscription. *)
Lemma ww_step_next s g t x : ww_ok s g ->
  rstep all_imm M s (ww_rstate g) t (ISrc 0%nat (Next x)) = (s, ww_rstate g, [OWin g (Next x)]).
Proof.
  intros (Hc & _). unfold rstep, deliver, ww_rstate. cbn [r_live x_step x_window_when]. rewrite mem_cons, Hc.
  cbn [Nat.eqb orb]. rs. rewrite wterm_fresh, count_one. reflexivity.
Qed.

(* a terminal that the machine passes to window g and to the outer *)
Lemma ww_step_end s g t k e : mem k [0%nat; S g] = true -> is_terminal e = true ->
  x_step M s t (ISrc k e) = (s, [CWin g e], term_fin e) ->
  exists r', r_live r' = []
    /\ rstep all_imm M s (ww_rstate g) t (ISrc k e)
       = (s, r', [OWin g e; OEmit (out_ev e); OUnsub 0%nat; OUnsub (S g)]).
Proof.
  intros Hk He Ex. unfold rstep, deliver, ww_rstate. cbn [r_live]. rewrite Hk, Ex.
  cbn [apply_cmds apply_cmd r_wterm]. rewrite wterm_fresh, He. rs. rewrite count_one, Nat.eqb_refl.
  unfold maybe_release. rs.
  destruct e as [x|z|]; [discriminate He| |]; unfold end_outer, maybe_release; rs;
    eexists; (split; [|reflexivity]); reflexivity.
Qed.

Lemma ww_step_fire s g t e : ww_ok s g -> (forall z, e <> Err z) ->
  match mapper (S g) with
  | Ok _ => exists s', ww_ok s' (S g)
      /\ rstep all_imm M s (ww_rstate g) t (ISrc (S g) e)
         = (s', ww_rstate (S g), [OWin g Done; OHand (S g) 0; OUnsub (S g); OSub (S (S g))])
  | Raise z => exists s' r', r_live r' = []
      /\ rstep all_imm M s (ww_rstate g) t (ISrc (S g) e)
         = (s', r', [OWin g Done; OHand (S g) 0; OUnsub (S g); OWin (S g) (Err z); OEmit (Err z); OUnsub 0%nat])
  end.
Proof.
  intros Hs He. destruct (ww_fire s g t e Hs He) as (s' & Hs' & Ex).
  unfold rstep, deliver, ww_rstate. cbn [r_live]. rewrite mem_closing, Ex.
  destruct (mapper (S g)) as [u|z]; rs; rewrite wterm_fresh, count_one; rs; rewrite Nat.eqb_refl;
    unfold maybe_release, sub_win; rs; rewrite wterm_fresh_S, mem_seq_S; rs;
    rewrite mem_closing, !remove_cons, Nat.eqb_refl; cbn [Nat.eqb]; rs.
  - rewrite mem_S_SS, Bool.andb_false_r, <- ww_rstate_S. now exists s'.
  - rewrite wterm_fresh_S, count_one. rs. rewrite Nat.eqb_refl. unfold end_outer, maybe_release. rs.
    rewrite mem_nil', Bool.andb_false_r. eexists _, _. split; [|reflexivity]. reflexivity.
Qed.

(* [Hstay], [Hend], [Hfire]: the three outcomes of a step (same state; released; next window or released), each
   as one unfolding of the walk *)
Lemma ww_run_from : forall (ins : list tin) s g pos, ww_ok s g ->
  fst (run_from all_imm M s (ww_rstate g) pos (wports ins)) = ww_walk g pos ins.
Proof.
  induction ins as [|[[t k] e] rest IH]; intros s g pos Hs; [reflexivity|].
  rewrite wports_cons. cbn [ww_walk].
  assert (Hstay : forall o, rstep all_imm M s (ww_rstate g) t (ISrc k e) = (s, ww_rstate g, o) ->
            fst (run_from all_imm M s (ww_rstate g) pos ((t, ISrc k e) :: wports rest))
            = map (fun x => (pos, x)) o ++ ww_walk g (S pos) rest).
  { intros o E. rewrite run_from_cons, E. cbn [fst snd]. now rewrite (IH s g (S pos) Hs). }
  assert (Hend : mem k [0%nat; S g] = true -> is_terminal e = true ->
            x_step M s t (ISrc k e) = (s, [CWin g e], term_fin e) ->
            fst (run_from all_imm M s (ww_rstate g) pos ((t, ISrc k e) :: wports rest))
            = [(pos, OWin g e); (pos, OEmit (out_ev e)); (pos, OUnsub 0%nat); (pos, OUnsub (S g))]).
  { intros Hk He Ex. destruct (ww_step_end s g t k e Hk He Ex) as (r' & Hr & E).
    exact (run_from_stop all_imm M s _ pos t _ s r' _ rest E Hr). }
  pose proof Hs as (Hc & _).
  destruct k as [|j]; cbn [Nat.eqb].
  - destruct e as [x|z|].
    + exact (Hstay _ (ww_step_next s g t x Hs)).
    + apply Hend; [reflexivity|reflexivity|now rewrite <- Hc].
    + apply Hend; [reflexivity|reflexivity|now rewrite <- Hc].
  - destruct (Nat.eqb_spec j g) as [->|Hne]; [|apply (Hstay []), rstep_unheard, mem_other; congruence].
    assert (Hfire : (forall z, e <> Err z) ->
              fst (run_from all_imm M s (ww_rstate g) pos ((t, ISrc (S g) e) :: wports rest))
              = [(pos, OWin g Done); (pos, OHand (S g) 0); (pos, OUnsub (S g))]
                ++ match mapper (S g) with
                   | Ok _ => (pos, OSub (S (S g))) :: ww_walk (S g) (S pos) rest
                   | Raise z => [(pos, OWin (S g) (Err z)); (pos, OEmit (Err z)); (pos, OUnsub 0%nat)]
                   end).
    { intros He. pose proof (ww_step_fire s g t e Hs He) as H. destruct (mapper (S g)) as [u|z].
      - destruct H as (s' & Hs' & E). rewrite run_from_cons, E. cbn [fst snd]. now rewrite (IH s' (S g) (S pos) Hs').
      - destruct H as (s' & r' & Hr & E). exact (run_from_stop all_imm M s _ pos t _ s' r' _ rest E Hr). }
    destruct e as [x|z|]; [apply Hfire; discriminate| |apply Hfire; discriminate].
    apply Hend; [apply mem_closing|reflexivity|now rewrite <- Hc].
Qed.

(* inside subscribe(): window 0, the source, the first call of the mapper *)
Lemma ww_machine_start : exists s0, ww_ok s0 0
  /\ x_start M = (s0, [CHand 0%nat 0; CSub 0%nat]
                      ++ match mapper 0%nat with Ok _ => [CSub 1%nat] | Raise z => [CWin 0%nat (Err z)] end,
                  match mapper 0%nat with Ok _ => Cont | Raise z => Fail z end).
Proof.
  cbn [x_start x_window_when]. unfold ww_arm. cbn [ww_calls].
  destruct (mapper 0%nat); (eexists; split; [|reflexivity]); repeat split.
Qed.

(* C18, window_when: the whole trace, for every interleaving of the ports *)
Theorem window_when_run (ins : list tin) : fst (run all_imm M (wports ins)) = ww_out ins.
Proof.
  destruct ww_machine_start as (s0 & Hs0 & E).
  rewrite run_unfold. cbn [fst]. unfold ww_out, ww_start, start_obs, start_state. rewrite E.
  destruct (mapper 0%nat) as [u|z]; unfold rstate0; rs; unfold sub_win; rs; cbn [wterm_of]; rewrite mem_self; rs.
  - exact (f_equal (fun l => _ :: _ :: _ :: l) (ww_run_from ins s0 0 1 Hs0)).
  - rewrite count_one. rs. cbn [Nat.eqb]. unfold end_outer, maybe_release. rs.
    now rewrite run_from_deaf by reflexivity.
Qed.
End WindowWhen.

Section BufferWhen.
Context {A : Type}.
Variable mapper : nat -> res unit.
Notation MW := (x_window_when (A:=A) (B:=unit) mapper).
Notation MB := (x_buffer_when (A:=A) mapper).
Notation tin := (Z * nat * ev A)%type.

(* [c]: what the current buffer holds *)
Fixpoint bw_walk (g : nat) (c : list A) (pos : nat) (ins : list tin) : list (nat * obs A (list A)) :=
  match ins with
  | [] => []
  | (_, k, e) :: rest =>
      if Nat.eqb k 0 then
        match e with
        | Next x => bw_walk g (c ++ [x]) (S pos) rest
        | Err z => [(pos, OEmit (Err z)); (pos, OUnsub 0%nat); (pos, OUnsub (S g))]
        | Done => [(pos, OEmit (Next c)); (pos, OEmit Done); (pos, OUnsub 0%nat); (pos, OUnsub (S g))]
        end
      else if Nat.eqb k (S g) then
        match e with
        | Err z => [(pos, OEmit (Err z)); (pos, OUnsub 0%nat); (pos, OUnsub (S g))]
        | _ =>
            [(pos, OEmit (Next c)); (pos, OUnsub (S g))]
            ++ match mapper (S g) with
               | Ok _ => (pos, OSub (S (S g))) :: bw_walk (S g) [] (S pos) rest
               | Raise z => [(pos, OEmit (Err z)); (pos, OUnsub 0%nat)]
               end
        end
      else bw_walk g c (S pos) rest
  end.

Definition bw_rstate (g : nat) : rstate A := RState [0%nat; S g] [] true [] [] [] false.

(* the steps of [ww_run_from], for the buffered machine holding the content [c] of buffer g *)
Lemma bw_step_next s g c t x : ww_ok s g ->
  rstep all_imm MB (BufSt s [(g, c)] false) (bw_rstate g) t (ISrc 0%nat (Next x))
  = (BufSt s [(g, c ++ [x])] false, bw_rstate g, []).
Proof.
  intros (Hc & _). unfold rstep, deliver, bw_rstate, x_buffer_when. cbn [r_live]. rewrite mem_cons, x_step_buffered.
  cbn [Nat.eqb orb b_inner b_open b_outer_done x_step x_window_when]. rewrite Hc.
  cbn [buf_cmds buf_add]. now rewrite Nat.eqb_refl.
Qed.

Lemma bw_step_end s g c t k e : mem k [0%nat; S g] = true -> is_terminal e = true ->
  x_step MW s t (ISrc k e) = (s, [CWin g e], term_fin e) ->
  exists st' r', r_live r' = []
    /\ rstep all_imm MB (BufSt s [(g, c)] false) (bw_rstate g) t (ISrc k e)
       = (st', r', match e with Done => [OEmit (Next c); OEmit Done] | _ => [OEmit (out_ev e)] end
                   ++ [OUnsub 0%nat; OUnsub (S g)]).
Proof.
  intros Hk He Ex. unfold rstep, deliver, bw_rstate, x_buffer_when. cbn [r_live]. rewrite Hk, x_step_buffered.
  cbn [b_inner b_open b_outer_done]. rewrite Ex.
  destruct e as [x|z|]; [discriminate He| |]; cbn [buf_cmds buf_get buf_del]; rewrite Nat.eqb_refl;
    cbn [andb orb buf_finish term_fin]; rs; unfold end_outer, maybe_release; rs;
    eexists _, _; (split; [|reflexivity]); reflexivity.
Qed.

Lemma bw_step_fire s g c t e : ww_ok s g -> (forall z, e <> Err z) ->
  match mapper (S g) with
  | Ok _ => exists s', ww_ok s' (S g)
      /\ rstep all_imm MB (BufSt s [(g, c)] false) (bw_rstate g) t (ISrc (S g) e)
         = (BufSt s' [(S g, [])] false, bw_rstate (S g), [OEmit (Next c); OUnsub (S g); OSub (S (S g))])
  | Raise z => exists st' r', r_live r' = []
      /\ rstep all_imm MB (BufSt s [(g, c)] false) (bw_rstate g) t (ISrc (S g) e)
         = (st', r', [OEmit (Next c); OUnsub (S g); OEmit (Err z); OUnsub 0%nat])
  end.
Proof.
  intros Hs He. destruct (ww_fire (B:=unit) mapper s g t e Hs He) as (s' & Hs' & Ex).
  unfold rstep, deliver, bw_rstate, x_buffer_when. cbn [r_live]. rewrite mem_closing, x_step_buffered.
  cbn [b_inner b_open b_outer_done]. rewrite Ex.
  destruct (mapper (S g)) as [u|z]; cbn [app buf_cmds buf_get buf_del]; rewrite !Nat.eqb_refl;
    cbn [andb orb app buf_cmds buf_get]; rewrite ?Nat.eqb_refl; cbn [buf_finish]; rs;
    rewrite mem_closing, !remove_cons, Nat.eqb_refl; cbn [Nat.eqb]; rs.
  - rewrite mem_S_SS, Bool.andb_false_r. now exists s'.
  - unfold end_outer, maybe_release. rs. rewrite mem_nil', Bool.andb_false_r.
    eexists _, _. split; [|reflexivity]. reflexivity.
Qed.

Lemma bw_run_from : forall (ins : list tin) s g c pos, ww_ok s g ->
  fst (run_from all_imm MB (BufSt s [(g, c)] false) (bw_rstate g) pos (wports ins)) = bw_walk g c pos ins.
Proof.
  induction ins as [|[[t k] e] rest IH]; intros s g c pos Hs; [reflexivity|].
  rewrite wports_cons. cbn [bw_walk].
  assert (Hend : mem k [0%nat; S g] = true -> is_terminal e = true ->
            x_step MW s t (ISrc k e) = (s, [CWin g e], term_fin e) ->
            fst (run_from all_imm MB (BufSt s [(g, c)] false) (bw_rstate g) pos ((t, ISrc k e) :: wports rest))
            = map (fun x => (pos, x))
                  (match e with Done => [OEmit (Next c); OEmit Done] | _ => [OEmit (out_ev e)] end
                   ++ [OUnsub 0%nat; OUnsub (S g)])).
  { intros Hk He Ex. destruct (bw_step_end s g c t k e Hk He Ex) as (st' & r' & Hr & E).
    exact (run_from_stop all_imm MB _ _ pos t _ st' r' _ rest E Hr). }
  pose proof Hs as (Hc & _).
  destruct k as [|j]; cbn [Nat.eqb].
  - destruct e as [x|z|].
    + rewrite run_from_cons, (bw_step_next s g c t x Hs). exact (IH s g (c ++ [x]) (S pos) Hs).
    + apply Hend; [reflexivity|reflexivity|now rewrite <- Hc].
    + apply Hend; [reflexivity|reflexivity|now rewrite <- Hc].
  - destruct (Nat.eqb_spec j g) as [->|Hne];
      [|rewrite run_from_cons, rstep_unheard by (apply mem_other; congruence); exact (IH s g c (S pos) Hs)].
    assert (Hfire : (forall z, e <> Err z) ->
              fst (run_from all_imm MB (BufSt s [(g, c)] false) (bw_rstate g) pos ((t, ISrc (S g) e) :: wports rest))
              = [(pos, OEmit (Next c)); (pos, OUnsub (S g))]
                ++ match mapper (S g) with
                   | Ok _ => (pos, OSub (S (S g))) :: bw_walk (S g) [] (S pos) rest
                   | Raise z => [(pos, OEmit (Err z)); (pos, OUnsub 0%nat)]
                   end).
    { intros He. pose proof (bw_step_fire s g c t e Hs He) as H. destruct (mapper (S g)) as [u|z].
      - destruct H as (s' & Hs' & E). rewrite run_from_cons, E. cbn [fst snd]. now rewrite (IH s' (S g) [] (S pos) Hs').
      - destruct H as (st' & r' & Hr & E). exact (run_from_stop all_imm MB _ _ pos t _ st' r' _ rest E Hr). }
    destruct e as [x|z|]; [apply Hfire; discriminate| |apply Hfire; discriminate].
    apply Hend; [apply mem_closing|reflexivity|now rewrite <- Hc].
Qed.

Definition bw_out (ins : list tin) : list (nat * obs A (list A)) :=
  match mapper 0%nat with
  | Ok _ => [(0%nat, OSub 0%nat); (0%nat, OSub 1%nat)] ++ bw_walk 0 [] 1 ins
  | Raise z => [(0%nat, OSub 0%nat); (0%nat, OEmit (Err z)); (0%nat, OUnsub 0%nat)]
  end.

(* C18, buffer_when: the whole trace, for every interleaving of the ports *)
Theorem buffer_when_run (ins : list tin) : fst (run all_imm MB (wports ins)) = bw_out ins.
Proof.
  destruct (ww_machine_start (A:=A) (B:=unit) mapper) as (s0 & Hs0 & E).
  rewrite run_unfold. cbn [fst]. unfold bw_out, start_obs, start_state, x_buffer_when. rewrite x_start_buffered, E.
  destruct (mapper 0%nat) as [u|z]; cbn [app buf_cmds buf_get buf_finish Nat.eqb]; unfold rstate0; rs.
  - exact (f_equal (fun l => _ :: _ :: l) (bw_run_from ins s0 0 [] 1 Hs0)).
  - unfold end_outer, maybe_release. rs. now rewrite run_from_deaf by reflexivity.
Qed.
End BufferWhen.

(* the elements of the source (port 0), in order *)
Definition src_nexts {A} (ins : list (Z * nat * ev A)) : list A :=
  flat_map (fun i => match i with (_, O, Next x) => [x] | _ => [] end) ins.
(* (window, element) for every element delivered on a window, in trace order *)
Definition routed {A B} (tr : list (nat * obs A B)) : list (nat * A) :=
  flat_map (fun x => match snd x with OWin g (Next v) => [(g, v)] | _ => [] end) tr.
(* no error notification on any port / no completion of the source *)
Definition no_err {A} (ins : list (Z * nat * ev A)) : Prop := forall t k z, ~ In (t, k, Err z) ins.
Definition src_open {A} (ins : list (Z * nat * ev A)) : Prop := forall t, ~ In (t, 0%nat, Done) ins.

Lemma routed_app {A B} (a b : list (nat * obs A B)) : routed (a ++ b) = routed a ++ routed b.
Proof. unfold routed. apply flat_map_app. Qed.

Lemma no_err_tail {A} (i : Z * nat * ev A) l : no_err (i :: l) -> no_err l.
Proof. intros H t k z Hi. apply (H t k z). right. exact Hi. Qed.
Lemma src_open_tail {A} (i : Z * nat * ev A) l : src_open (i :: l) -> src_open l.
Proof. intros H t Hi. apply (H t). right. exact Hi. Qed.

Section WhenReadings.
Context {A B : Type}.
Variable mapper : nat -> res unit.
Notation tin := (Z * nat * ev A)%type.

(* windows partition the source: the elements delivered on windows are, in trace order, a prefix
   of the source's elements (nothing invented, duplicated or reordered; each element goes to ONE
   window), and the window index never decreases along the trace *)
Lemma ww_walk_partition : forall (ins : list tin) g pos,
  (exists rest, src_nexts ins = map snd (routed (ww_walk (B:=B) mapper g pos ins)) ++ rest)
  /\ Forall (fun gv => (g <= fst gv)%nat) (routed (ww_walk (B:=B) mapper g pos ins))
  /\ StronglySorted (fun p q => (fst p <= fst q)%nat) (routed (ww_walk (B:=B) mapper g pos ins)).
Proof.
  induction ins as [|[[t k] e] rest IH]; intros g pos.
  - cbn. repeat split; [exists []; reflexivity|constructor|constructor].
  - cbn [ww_walk]. destruct k as [|j]; cbn [Nat.eqb].
    + destruct e as [x|z|].
      * destruct (IH g (S pos)) as ((r & Hr) & Hf & Hs). cbn [routed flat_map snd app]. fold (routed (ww_walk (B:=B) mapper g (S pos) rest)).
        repeat split.
        -- exists r. cbn [src_nexts flat_map app map snd]. fold (src_nexts rest). now rewrite Hr.
        -- constructor; [cbn; lia|exact Hf].
        -- constructor; [exact Hs|]. eapply Forall_impl; [|exact Hf]. cbn. auto.
      * repeat split; [exists (src_nexts rest); reflexivity|constructor|constructor].
      * repeat split; [exists (src_nexts rest); reflexivity|constructor|constructor].
    + destruct (Nat.eqb j g) eqn:Ek;
        [|destruct (IH g (S pos)) as ((r & Hr) & Hf & Hs); repeat split; [exists r; exact Hr|exact Hf|exact Hs]].
      assert (Fire : (exists r, src_nexts ((t, S j, e) :: rest) = map snd (routed (ww_walk (B:=B) mapper (S g) (S pos) rest)) ++ r)
                /\ Forall (fun gv => (g <= fst gv)%nat) (routed (ww_walk (B:=B) mapper (S g) (S pos) rest))
                /\ StronglySorted (fun p q => (fst p <= fst q)%nat) (routed (ww_walk (B:=B) mapper (S g) (S pos) rest))).
      { destruct (IH (S g) (S pos)) as ((r & Hr) & Hf & Hs). repeat split; [exists r; exact Hr| |exact Hs].
        eapply Forall_impl; [|exact Hf]. cbn. intros; lia. }
      assert (Stop : (exists r, src_nexts ((t, S j, e) :: rest) = map snd (@nil (nat * A)) ++ r)
                /\ Forall (fun gv : nat * A => (g <= fst gv)%nat) []
                /\ StronglySorted (fun p q : nat * A => (fst p <= fst q)%nat) []).
      { repeat split; [exists (src_nexts rest); reflexivity|constructor|constructor]. }
      destruct e as [x|z|].
      * rewrite routed_app. cbn [routed flat_map snd app]. destruct (mapper (S g)); cbn [routed flat_map snd app]; [apply Fire|apply Stop].
      * apply Stop.
      * rewrite routed_app. cbn [routed flat_map snd app]. destruct (mapper (S g)); cbn [routed flat_map snd app]; [apply Fire|apply Stop].
Qed.

(* nothing is lost while nothing fails (no error notification, no raising mapper call) and the
   source has not completed *)
Lemma ww_walk_no_loss (Htot : forall j, exists u, mapper j = Ok u) : forall (ins : list tin) g pos,
  no_err ins -> src_open ins ->
  map snd (routed (ww_walk (B:=B) mapper g pos ins)) = src_nexts ins.
Proof.
  induction ins as [|[[t k] e] rest IH]; intros g pos Hne Hso; [reflexivity|].
  pose proof (no_err_tail _ _ Hne) as Hne'. pose proof (src_open_tail _ _ Hso) as Hso'.
  cbn [ww_walk]. destruct k as [|j]; cbn [Nat.eqb].
  - destruct e as [x|z|].
    + cbn [routed flat_map snd app map src_nexts]. fold (routed (ww_walk (B:=B) mapper g (S pos) rest)). fold (src_nexts rest).
      f_equal. apply IH; assumption.
    + exfalso. apply (Hne t 0%nat z). left. reflexivity.
    + exfalso. apply (Hso t). left. reflexivity.
  - change (src_nexts ((t, S j, e) :: rest)) with (src_nexts rest).
    destruct (Nat.eqb j g); [|apply IH; assumption].
    destruct (Htot (S g)) as [u Hu].
    destruct e as [x|z|]; [| exfalso; apply (Hne t (S j) z); left; reflexivity |];
      rewrite routed_app; cbn [routed flat_map snd app]; rewrite Hu;
      cbn [routed flat_map snd app]; apply IH; assumption.
Qed.

Lemma routed_ww_start : routed (ww_start (A:=A) (B:=B) mapper) = [].
Proof. unfold ww_start. destruct (mapper 0%nat); reflexivity. Qed.

(* buffers partition the source: while nothing fails, the buffers emitted up to and at the
   source's completion, concatenated, are the source's elements; then Done *)
Lemma bw_walk_partition (Htot : forall j, exists u, mapper j = Ok u) : forall (body : list tin) tD g c pos,
  no_err body -> src_open body ->
  exists bufs, emitted (bw_walk mapper g c pos (body ++ [(tD, 0%nat, Done)])) = map Next bufs ++ [Done]
               /\ concat bufs = c ++ src_nexts body.
Proof.
  induction body as [|[[t k] e] rest IH]; intros tD g c pos Hne Hso.
  - exists [c]. cbn. rewrite !app_nil_r. auto.
  - pose proof (no_err_tail _ _ Hne) as Hne'. pose proof (src_open_tail _ _ Hso) as Hso'.
    cbn [app bw_walk]. destruct k as [|j]; cbn [Nat.eqb].
    + destruct e as [x|z|].
      * destruct (IH tD g (c ++ [x]) (S pos) Hne' Hso') as (bufs & H1 & H2). exists bufs. split; [exact H1|].
        rewrite H2, <- app_assoc. reflexivity.
      * exfalso. apply (Hne t 0%nat z). left. reflexivity.
      * exfalso. apply (Hso t). left. reflexivity.
    + change (src_nexts ((t, S j, e) :: rest)) with (src_nexts rest).
      destruct (Nat.eqb j g); [|apply IH; assumption].
      destruct (Htot (S g)) as [u Hu].
      destruct (IH tD (S g) [] (S pos) Hne' Hso') as (bufs & H1 & H2).
      destruct e as [x|z|]; [| exfalso; apply (Hne t (S j) z); left; reflexivity |];
        rewrite Hu; exists (c :: bufs); cbn [app emitted flat_map snd map concat];
        fold (emitted (bw_walk mapper (S g) [] (S pos) (rest ++ [(tD, 0%nat, Done)])));
        rewrite H1, H2; auto.
Qed.

End WhenReadings.
