(* Closed-world environment for timer-using machines: a small discrete-event
   simulator that plays the scheduler.  External events (source notifications,
   dispose) come with their instants; every timer the machine requests at clock
   [now] with delay [d] fires exactly at [now + d] unless it was cancelled
   first.  Order at equal instants -- the policy of the proxy scheduler the
   implementation is driven with (harness/k2m.py: run_multi): source
   notifications first, then due timers (earliest due time, then lowest tag =
   scheduling order), a dispose last.

   The simulator only CHOOSES the next input; every input is handled by the
   runner's [rstep] (Ops/Multi.v), so a simulation is a run: [sim_is_run]. *)
From RxVerif Require Import Base.Prelude Ops.Machine Ops.Multi Ops.MultiFacts.

Section Sim.
Context {A B : Type}.

(* pending timers: (tag, absolute due time), in scheduling order *)
Definition pend := list (nat * Z).

Fixpoint earliest (p : pend) : option (nat * Z) :=
  match p with
  | [] => None
  | (tg, due) :: rest =>
      match earliest rest with
      | Some (tg', due') => if due' <? due then Some (tg', due') else Some (tg, due)
      | None => Some (tg, due)
      end
  end.

Definition new_timers (now : Z) (o : list (obs B)) : pend :=
  flat_map (fun x => match x with OTimer tg d => [(tg, now + d)] | _ => [] end) o.

(* after a step: timers requested during the step are added; timers that are
   no longer pending for the runner (fired, cancelled, released) are dropped *)
Definition upd (p : pend) (now : Z) (o : list (obs B)) (r' : rstate) : pend :=
  filter (fun td => mem (fst td) (r_timers r')) (p ++ new_timers now o).

(* the next input: (time, input, remaining external events) *)
Definition next_event (p : pend) (ext : list (Z * inp A))
  : option (Z * inp A * list (Z * inp A)) :=
  match ext, earliest p with
  | [], None => None
  | (t, i) :: ext', None => Some (t, i, ext')
  | [], Some (tg, due) => Some (due, ITick tg, [])
  | (t, i) :: ext', Some (tg, due) =>
      if match i with IDispose => t <? due | _ => t <=? due end
      then Some (t, i, ext') else Some (due, ITick tg, ext)
  end.

Context (m : machine A B).

(* one record per delivered input: (clock, input, what the runner observed) *)
Fixpoint sim (fuel : nat) (s : x_state m) (r : rstate) (p : pend) (ext : list (Z * inp A))
  : list (Z * inp A * list (obs B)) :=
  match fuel with
  | O => []
  | S f =>
      match next_event p ext with
      | None => []
      | Some (t, i, ext') =>
          let '(s', r', o) := rstep m s r t i in
          (t, i, o) :: sim f s' r' (upd p t o r') ext'
      end
  end.

(* subscription at clock t0, then the simulation *)
Definition simulate_fuel (fuel : nat) (t0 : Z) (ext : list (Z * inp A))
  : list (obs B) * list (Z * inp A * list (obs B)) :=
  let '(s0, cs, f) := x_start m in
  let '(r1, o1) := apply_cmds (RState [] [] false) cs in
  let '(r2, o2) := finish r1 f in
  (o1 ++ o2, sim fuel s0 r2 (upd [] t0 (o1 ++ o2) r2) ext).

(* enough for every machine that schedules at most two timers per external event *)
Definition simulate (t0 : Z) (ext : list (Z * inp A)) :=
  simulate_fuel (3 * length ext + 4) t0 ext.

Definition sim_inputs (l : list (Z * inp A * list (obs B))) : list (Z * inp A) :=
  map (fun x => (fst (fst x), snd (fst x))) l.

(* timed emissions: (clock reading, notification) *)
Definition sim_emits (l : list (Z * inp A * list (obs B))) : list (Z * ev B) :=
  flat_map (fun x => map (fun e => (fst (fst x), e)) (emits (snd x))) l.

Definition timed_emits (t0 : Z) (res : list (obs B) * list (Z * inp A * list (obs B))) : list (Z * ev B) :=
  map (fun e => (t0, e)) (emits (fst res)) ++ sim_emits (snd res).

(* position-tagged trace, as the runner produces it *)
Fixpoint tag_from (k : nat) (l : list (Z * inp A * list (obs B))) : list (nat * obs B) :=
  match l with
  | [] => []
  | x :: t => map (fun o => (k, o)) (snd x) ++ tag_from (S k) t
  end.

Lemma sim_inputs_cons t i o l : sim_inputs ((t, i, o) :: l) = (t, i) :: sim_inputs l.
Proof. reflexivity. Qed.

Lemma sim_is_run_from fuel : forall s r p ext k,
  fst (run_from m s r k (sim_inputs (sim fuel s r p ext))) = tag_from k (sim fuel s r p ext).
Proof.
  induction fuel as [|f IH]; intros s r p ext k; [reflexivity|].
  cbn [sim]. destruct (next_event p ext) as [[[t i] ext']|]; [|reflexivity].
  destruct (rstep m s r t i) as [[s' r'] o] eqn:E.
  rewrite sim_inputs_cons. cbn [run_from tag_from snd]. rewrite E.
  specialize (IH s' r' (upd p t o r') ext' (S k)).
  destruct (run_from m s' r' (S k) (sim_inputs (sim f s' r' (upd p t o r') ext'))) as [tr rf].
  cbn [fst] in *. now rewrite IH.
Qed.

Theorem sim_is_run fuel t0 ext :
  fst (run m (sim_inputs (snd (simulate_fuel fuel t0 ext))))
  = map (fun o => (0%nat, o)) (fst (simulate_fuel fuel t0 ext)) ++ tag_from 1 (snd (simulate_fuel fuel t0 ext)).
Proof.
  unfold run, simulate_fuel. destruct (x_start m) as [[s0 cs] f].
  destruct (apply_cmds (RState [] [] false) cs) as [r1 o1].
  destruct (finish r1 f) as [r2 o2]. cbn [fst snd].
  pose proof (sim_is_run_from fuel s0 r2 (upd [] t0 (o1 ++ o2) r2) ext 1) as H.
  destruct (run_from m s0 r2 1 (sim_inputs (sim fuel s0 r2 (upd [] t0 (o1 ++ o2) r2) ext))) as [tr rf].
  cbn [fst] in *. now rewrite H.
Qed.

Lemma sim_S f s r p ext :
  sim (S f) s r p ext =
  match next_event p ext with
  | None => []
  | Some (t, i, ext') =>
      let '(s', r', o) := rstep m s r t i in (t, i, o) :: sim f s' r' (upd p t o r') ext'
  end.
Proof. reflexivity. Qed.

Lemma sim_emits_cons t i o l :
  sim_emits ((t, i, o) :: l) = map (fun e => (t, e)) (emits o) ++ sim_emits l.
Proof. reflexivity. Qed.

Lemma sim_stopped fuel : forall s r p ext, r_stopped r = true -> sim_emits (sim fuel s r p ext) = [].
Proof.
  induction fuel as [|f IH]; intros s r p ext H; [reflexivity|].
  rewrite sim_S. destruct (next_event p ext) as [[[t i] ext']|]; [|reflexivity].
  rewrite rstep_stopped by exact H. rewrite sim_emits_cons. cbn [emits flat_map map app]. now apply IH.
Qed.
End Sim.

(* a conforming timed source on port 0: elements at their instants, then at
   most one terminal *)
Inductive tterm := TTDone (t : Z) | TTErr (t : Z) (e : Z) | TTNever.

Definition tsrc {A} (tl : list (Z * A)) (tm : tterm) : list (Z * inp A) :=
  map (fun tx => (fst tx, ISrc 0%nat (Next (snd tx)))) tl ++
  match tm with
  | TTDone t => [(t, ISrc 0%nat Done)]
  | TTErr t e => [(t, ISrc 0%nat (Err e))]
  | TTNever => []
  end.

(* instants non-decreasing, starting not before [from] *)
Fixpoint sorted_from {A} (from : Z) (tl : list (Z * A)) : Prop :=
  match tl with
  | [] => True
  | (t, _) :: rest => from <= t /\ sorted_from t rest
  end.

Definition last_time {A} (from : Z) (tl : list (Z * A)) : Z :=
  fold_left (fun _ tx => fst tx) tl from.

Definition term_ok {A} (from : Z) (tl : list (Z * A)) (tm : tterm) : Prop :=
  match tm with
  | TTDone t | TTErr t _ => last_time from tl <= t
  | TTNever => True
  end.
