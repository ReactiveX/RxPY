(* C10: one source at a time for every sequential operator (generic runner
   invariant), exact subscription count of repeat(n), closed forms of while_do /
   do_while in the sequential environment. *)
From RxVerif Require Import Base.Prelude Ops.Machine Ops.MachineFacts Ops.Multi Ops.MultiFacts
  Ops.RunLemmas Ops.Combinators Ops.SequentialFacts Ops.RepeatFacts.

Local Arguments Nat.ltb : simpl never.
Local Arguments Nat.leb : simpl never.

Section OneAtATime.
Context {A B : Type} (m : machine A B).

(* what a handler of a sequential operator answers: nothing, one element, or --
   only in the handler of a source's terminal notification -- ONE subscription *)
Definition seq_cmds (i : inp A) (cs : list (cmd B)) : Prop :=
  cs = [] \/ (exists b, cs = [CEmit b]) \/
  (exists k e j, i = ISrc k e /\ is_terminal e = true /\ cs = [CSub j]).

Definition sequential : Prop :=
  (forall s now i, seq_cmds i (snd (fst (x_step m s now i)))) /\
  (snd (fst (x_start m)) = [] \/ exists j, snd (fst (x_start m)) = [CSub j]).

Lemma remove_length k l : (length (remove k l) <= length l)%nat.
Proof.
  induction l as [|j t IH]; [cbn; lia|]. cbn [remove]. destruct (Nat.eqb k j); cbn [length]; lia.
Qed.

Lemma live_single k (l : list nat) : mem k l = true -> (length l <= 1)%nat -> l = [k].
Proof.
  destruct l as [|k1 [|k2 t]]; [discriminate| |cbn; lia]. unfold mem. cbn [existsb].
  rewrite Bool.orb_false_r. intros H _. apply Nat.eqb_eq in H. now subst.
Qed.

Lemma finish_live (r : rstate) f : (length (r_live (fst (@finish B r f))) <= length (r_live r))%nat.
Proof. destruct f; cbn; lia. Qed.

Lemma settled_length (i : inp A) (r1 : rstate) f :
  (length (r_live (fst (finish (B:=B) (fst (auto_detach (B:=B) i r1)) f))) <= length (r_live r1))%nat.
Proof.
  destruct (settled_live (B:=B) i r1 f) as [E|[E|[k E]]]; rewrite E; [cbn; lia|lia|apply remove_length].
Qed.

Lemma seq_step (Hseq : sequential) s r now i :
  (length (r_live r) <= 1)%nat ->
  (length (r_live (snd (fst (rstep m s r now i)))) <= 1)%nat.
Proof.
  intros Hl. destruct (handled_or_dropped r i) as [[Hst Hd]|Hd]; [|now rewrite rstep_dropped].
  rewrite (rstep_handled_eq m s r now i Hst Hd). unfold handled_step.
  destruct Hseq as [Hstep _]. specialize (Hstep s now i).
  destruct (x_step m s now i) as [[s' cs] f]. cbn [fst snd] in *.
  destruct i as [k e|tag|]; cbn [fst snd]; [| |cbn; lia].
  - (* nothing, or one element: the live list can only shrink *)
    destruct Hstep as [->|[[b ->]|(k0 & e0 & j & Heq & Ht & ->)]];
      [eapply Nat.le_trans; [apply settled_length|exact Hl]..|].
    (* one subscription: the live list is [k] -- k is subscribed and at most one source is --,
       becomes [k; j], and k is detached *)
    injection Heq as <- <-. destruct Hd as [Hd|Hd]; [cbn [delivered] in Hd|discriminate Hd].
    cbn [apply_cmds fst snd auto_detach r_live]. rewrite Ht, (live_single k _ Hd Hl).
    cbn [app mem existsb]. rewrite Nat.eqb_refl. cbn [andb orb fst].
    eapply Nat.le_trans; [apply finish_live|]. cbn [r_live remove]. rewrite Nat.eqb_refl. cbn. lia.
  - destruct Hstep as [->|[[b ->]|(k0 & e0 & j & Heq & _)]]; [..|discriminate Heq];
      (eapply Nat.le_trans; [apply settled_length|exact Hl]).
Qed.

(* at every moment between two inputs of every run at most one source is subscribed *)
Theorem sequential_one_at_a_time (Hseq : sequential) (ins : list (Z * inp A)) :
  (length (r_live (snd (run m ins))) <= 1)%nat.
Proof.
  rewrite run_final.
  apply (run_from_invariant m (fun _ r _ => (length (r_live r) <= 1)%nat)
           (fun s r acc now i H => seq_step Hseq s r now i H) ins _ _ 1 []).
  destruct Hseq as [_ H0]. unfold start_state.
  destruct (x_start m) as [[s0 cs] f]. cbn [fst snd] in *.
  destruct H0 as [->|[j ->]]; cbn [apply_cmds fst];
    match goal with |- context [finish ?r0 f] => pose proof (finish_live r0 f) as F end;
    cbn [r_live app length] in F; cbn [r_live app]; lia.
Qed.
End OneAtATime.

Section Instances.
Context {A : Type}.

(* seq_tac: picks the disjunct of seq_cmds by the shape of the command list in the goal *)
Ltac seq_tac :=
  match goal with
  | |- seq_cmds _ [] => left; reflexivity
  | |- seq_cmds _ [CEmit ?x] => right; left; exists x; reflexivity
  | |- seq_cmds (ISrc ?k ?e) [CSub ?j] => right; right; exists k, e, j; repeat split; reflexivity
  end.

Lemma catch_sequential n : sequential (x_catch (A:=A) n).
Proof.
  split.
  - intros [cur last] now [k [x|e|]|tag|]; cbn; try seq_tac.
    destruct (Nat.ltb (S cur) n); cbn; seq_tac.
  - destruct n; cbn; [left; reflexivity|right; eexists; reflexivity].
Qed.

Lemma oern_sequential n : sequential (x_oern (A:=A) n).
Proof.
  split.
  - intros cur now [k [x|e|]|tag|]; cbn; try seq_tac;
      destruct (Nat.ltb (S cur) n); cbn; seq_tac.
  - destruct n; cbn; [left; reflexivity|right; eexists; reflexivity].
Qed.

Lemma retry_sequential c : sequential (x_retry (A:=A) c).
Proof.
  split.
  - intros used now [k [x|e|]|tag|]; cbn; try seq_tac.
    destruct (match c with None => true | Some c0 => Nat.ltb used c0 end); cbn; seq_tac.
  - destruct c as [[|c]|]; cbn; [left; reflexivity|right; eexists; reflexivity|right; eexists; reflexivity].
Qed.

Lemma repeat_sequential c : sequential (x_repeat (A:=A) c).
Proof.
  split.
  - intros used now [k [x|e|]|tag|]; cbn; try seq_tac.
    destruct (match c with None => true | Some c0 => Nat.ltb used c0 end); cbn; seq_tac.
  - destruct c as [[|c]|]; cbn; [left; reflexivity|right; eexists; reflexivity|right; eexists; reflexivity].
Qed.

Lemma while_do_sequential cond : sequential (x_while_do (A:=A) cond).
Proof.
  split.
  - intros j now [k [x|e|]|tag|]; cbn; try seq_tac.
    destruct (cond j) as [[|]|e]; cbn; seq_tac.
  - cbn. destruct (cond 0%nat) as [[|]|e]; cbn;
      [right; eexists; reflexivity|left; reflexivity|left; reflexivity].
Qed.

Lemma do_while_sequential cond : sequential (x_do_while (A:=A) cond).
Proof.
  split.
  - intros j now [k [x|e|]|tag|]; cbn; try seq_tac.
    destruct (cond j) as [[|]|e]; cbn; seq_tac.
  - cbn. right; eexists; reflexivity.
Qed.

Lemma catch_handler_sequential h : sequential (x_catch_handler (A:=A) h).
Proof.
  split.
  - intros sw now [k [x|e|]|tag|]; cbn; try seq_tac.
    destruct sw; cbn; [seq_tac|]. destruct (h e) as [u|e']; cbn; seq_tac.
  - cbn. right; eexists; reflexivity.
Qed.

Lemma concat_sequential n : sequential (x_concat (A:=A) n).
Proof.
  split.
  - intros cur now [k [x|e|]|tag|]; cbn; try seq_tac.
    destruct (Nat.ltb (S cur) n); cbn; seq_tac.
  - destruct n; cbn; [left; reflexivity|right; eexists; reflexivity].
Qed.

End Instances.

Definition csubs {B} (tr : list (nat * obs B)) : nat := count_subs (map snd tr).
Arguments csubs : simpl never.

Lemma csubs_app {B} (a b : list (nat * obs B)) : csubs (a ++ b) = (csubs a + csubs b)%nat.
Proof. unfold csubs. now rewrite map_app, count_subs_app. Qed.

Lemma csubs_elems_trace {A} (ys : list A) k : csubs (elems_trace k ys) = 0%nat.
Proof.
  revert k. unfold csubs, count_subs, elems_trace. induction ys as [|y r IH]; intros k; [reflexivity|]. cbn. apply IH.
Qed.

Lemma csubs_cons_sub {B} k j (tr : list (nat * obs B)) : csubs ((k, OSub j) :: tr) = S (csubs tr).
Proof. reflexivity. Qed.
Lemma csubs_cons_unsub {B} k j (tr : list (nat * obs B)) : csubs ((k, OUnsub j) :: tr) = csubs tr.
Proof. reflexivity. Qed.
Lemma csubs_cons_emit {B} k e (tr : list (nat * obs B)) : csubs ((k, OEmit e) :: tr) = csubs tr.
Proof. reflexivity. Qed.

Section RepeatCount.
Context {A : Type}.

Definition completing (runs : list (list A)) : list (list A * term) := map (fun xs => (xs, TDone)) runs.

Lemma repeat_count_from n (runs : list (list A)) : forall (used k : nat),
  csubs (fst (run_from (x_repeat (Some n)) used (RState [0%nat] [] false) k (runs_env (completing runs))))
  = Nat.min (n - used) (length runs).
Proof.
  induction runs as [|xs rest IH]; intros used k; [cbn [length]; rewrite Nat.min_0_r; reflexivity|].
  unfold runs_env, completing. cbn [map flat_map]. fold (completing rest). fold (runs_env (completing rest)).
  unfold block, events. cbn [fst snd]. rewrite map_app, <- app_assoc, run_from_elems by (intros now x; reflexivity).
  cbn [fst map app]. rewrite csubs_app, csubs_elems_trace, run_from_cons. cbn [fst]. rewrite csubs_app.
  rs.
  destruct (Nat.ltb_spec used n) as [Hlt|Hge]; rs.
  - rewrite csubs_cons_sub, csubs_cons_unsub, IH. cbn [length]. change (csubs (@nil (nat * obs A))) with 0%nat. lia.
  - rewrite run_from_stopped by reflexivity. cbn [length fst].
    rewrite csubs_cons_unsub, csubs_cons_emit. change (csubs (@nil (nat * obs A))) with 0%nat. lia.
Qed.

(* repeat(n) over runs that all complete: one subscription at subscribe(), one more at
   each completion while the count allows -- min n (1 + number of completed runs) *)
Theorem repeat_subscription_count (n : nat) (runs : list (list A)) :
  count_subs (map snd (fst (run (x_repeat (Some n)) (runs_env (completing runs)))))
  = Nat.min n (S (length runs)).
Proof.
  rewrite trace_subs_run, count_subs_app.
  destruct n as [|c].
  - unfold start_state, start_obs. cbn -[run_from runs_env].
    rewrite run_from_stopped by reflexivity. reflexivity.
  - unfold start_state, start_obs. cbn -[run_from runs_env count_subs Nat.min].
    pose proof (repeat_count_from (S c) runs 1 1) as H. unfold csubs in H. rewrite H.
    cbn [count_subs filter length]. lia.
Qed.

End RepeatCount.

Section While.
Context {A : Type}.

(* successive runs of source 0; j = number of condition evaluations made so far:
   every run's elements; a completed run is followed by the j-th evaluation of the
   condition: true = the next run, false = completion, raising = that error; an
   error of the source ends everything *)
Fixpoint while_spec (cond : nat -> res bool) (j : nat) (runs : list (list A * term)) : list (ev A) :=
  match runs with
  | [] => []
  | (xs, t) :: rest =>
      map Next xs ++ match t with
                     | TDone => match cond j with
                                | Ok true => while_spec cond (S j) rest
                                | Ok false => [Done]
                                | Raise e => [Err e]
                                end
                     | TErr e => [Err e]
                     | TNever => while_spec cond j rest
                     end
  end.

Lemma while_from cond (runs : list (list A * term)) : forall j k,
  emitted (fst (run_from (x_while_do cond) j (RState [0%nat] [] false) k (runs_env runs)))
  = while_spec cond j runs.
Proof.
  induction runs as [|[xs t] rest IH]; intros j k; [reflexivity|].
  unfold runs_env. cbn [flat_map while_spec]. fold (runs_env rest).
  rewrite emitted_block by (intros now x; reflexivity). f_equal.
  destruct t as [|e|]; cbn [events map app]; rewrite ?emitted_run_cons.
  - rs.
    destruct (cond j) as [[|]|e]; rs.
    + rewrite IH. reflexivity.
    + rewrite run_from_stopped by reflexivity. reflexivity.
    + rewrite run_from_stopped by reflexivity. reflexivity.
  - rs. rewrite run_from_stopped by reflexivity. reflexivity.
  - apply IH.
Qed.

(* while_do: the condition is evaluated first (evaluation 0) *)
Theorem while_do_closed_form cond (runs : list (list A * term)) :
  emitted (fst (run (x_while_do cond) (runs_env runs)))
  = match cond 0%nat with
    | Ok true => while_spec cond 1%nat runs
    | Ok false => [Done]
    | Raise e => [Err e]
    end.
Proof.
  rewrite run_unfold. cbn [fst]. rewrite emitted_app.
  unfold start_state, start_obs. cbn [x_while_do x_start].
  destruct (cond 0%nat) as [[|]|e].
  - cbn -[run_from runs_env while_spec emitted x_while_do]. rewrite while_from. reflexivity.
  - cbn -[run_from runs_env]. rewrite run_from_stopped by reflexivity. reflexivity.
  - cbn -[run_from runs_env]. rewrite run_from_stopped by reflexivity. reflexivity.
Qed.

(* do_while: the source runs once before the first evaluation *)
Theorem do_while_closed_form cond (runs : list (list A * term)) :
  emitted (fst (run (x_do_while cond) (runs_env runs))) = while_spec cond 0%nat runs.
Proof.
  rewrite run_unfold. cbn [fst]. rewrite emitted_app.
  unfold start_state, start_obs. cbn -[run_from runs_env while_spec emitted].
  exact (while_from cond runs 0%nat 1%nat).
Qed.

(* the condition holds at evaluations j..n-1 and fails at evaluation n, all runs complete:
   exactly the next n-j+1 runs, then completion *)
Lemma while_n_completing cond (n : nat) (runs : list (list A)) : forall j : nat,
  (j <= n)%nat -> (forall k, (j <= k < n)%nat -> cond k = Ok true) -> cond n = Ok false ->
  (n - j < length runs)%nat ->
  while_spec cond j (map (fun xs => (xs, TDone)) runs)
  = map Next (concat (firstn (S (n - j)) runs)) ++ [Done].
Proof.
  induction runs as [|xs rest IH]; intros j Hj Ht Hf Hl; [cbn in Hl; lia|].
  cbn [map while_spec]. destruct (Nat.eq_dec j n) as [->|Hne].
  - rewrite Hf. replace (n - n)%nat with 0%nat by lia. cbn [firstn concat]. now rewrite app_nil_r.
  - rewrite (Ht j) by lia. rewrite (IH (S j)); [|lia|intros k Hk; apply Ht; lia|exact Hf|cbn in Hl; lia].
    replace (S (n - j)) with (S (S (n - S j))) by lia.
    cbn [firstn concat]. rewrite map_app, <- app_assoc. reflexivity.
Qed.

(* do_while whose condition holds n times and then fails, over completing runs: exactly
   the first n+1 runs, then completion; while_do: exactly the first n runs *)
Corollary do_while_n_completing cond (n : nat) (runs : list (list A)) :
  (forall k, (k < n)%nat -> cond k = Ok true) -> cond n = Ok false -> (n < length runs)%nat ->
  emitted (fst (run (x_do_while cond) (runs_env (map (fun xs => (xs, TDone)) runs))))
  = map Next (concat (firstn (S n) runs)) ++ [Done].
Proof.
  intros Ht Hf Hl. rewrite do_while_closed_form.
  rewrite (while_n_completing cond n runs 0%nat); [|lia|intros k Hk; apply Ht; lia|exact Hf|lia].
  now rewrite Nat.sub_0_r.
Qed.

Corollary while_do_n_completing cond (n : nat) (runs : list (list A)) :
  (forall k, (k < n)%nat -> cond k = Ok true) -> cond n = Ok false -> (n <= length runs)%nat ->
  emitted (fst (run (x_while_do cond) (runs_env (map (fun xs => (xs, TDone)) runs))))
  = map Next (concat (firstn n runs)) ++ [Done].
Proof.
  intros Ht Hf Hl. rewrite while_do_closed_form.
  destruct n as [|n'].
  - rewrite Hf. reflexivity.
  - rewrite (Ht 0%nat) by lia.
    rewrite (while_n_completing cond (S n') runs 1%nat); [|lia|intros k Hk; apply Ht; lia|exact Hf|lia].
    replace (S (S n' - 1)) with (S n') by lia. reflexivity.
Qed.
End While.
