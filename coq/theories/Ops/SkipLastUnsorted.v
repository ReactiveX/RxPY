(* C17: skip_last_with_time WITHOUT the hypothesis that the instants are sorted.
   operators/_skiplastwithtime.py keeps a FIFO queue and, at every on_next and at on_completed,
   pops from the head while the head's age reached the duration: the head blocks.  On a
   timeline whose clock readings are not monotone an element that is old enough therefore waits
   behind a younger head.  Stated here: (1) the walk for ANY notification sequence; (2) the
   closed form for a source that sends elements and at most one terminal, by the index of the
   notification at which every element leaves ([slu_out]); (3) what follows: the emitted
   elements are a prefix of the source's, every one had reached age d at its emission instant
   (the release indices are monotone by the definition of [slu_out]).  That on sorted timelines
   [slu_out] is [sl_out], and that on unsorted ones [sl_out] is not what the machine does, is
   Props/C17.v; a worked instance closes the file. *)
From RxVerif Require Import Base.Prelude Ops.Machine Ops.Multi Ops.MultiFacts Ops.Timed Ops.TimedSim
  Ops.TimedFacts Ops.TimedWindowFacts2.

Section SkipLastUnsorted.
Context {A : Type}.

Fixpoint slw_spec (d : Z) (q : list (Z * A)) (es : list (Z * ev A)) : list (Z * ev A) :=
  match es with
  | [] => []
  | (t, Next x) :: rest =>
      let '(o, q') := pop_aged t d (q ++ [(t, x)]) in map (fun y => (t, Next y)) o ++ slw_spec d q' rest
  | (t, Err c) :: _ => [(t, Err c)]
  | (t, Done) :: _ => map (fun y => (t, Next y)) (fst (pop_aged t d q)) ++ [(t, Done)]
  end.

Lemma slw_sim d : forall (es : list (Z * ev A)) fuel q, (length es <= fuel)%nat ->
  sim_emits (sim (x_skip_last_with_time d) fuel q R0 [] (ext_of es)) = slw_spec d q es.
Proof.
  induction es as [|[t e] rest IH]; intros fuel q Hf.
  - now rewrite ext_of_nil, sim_nil.
  - destruct fuel as [|f]; [cbn in Hf; lia|]. cbn [length] in Hf.
    rewrite sim_S, ext_of_cons. cbn [next_event earliest fst snd].
    destruct e as [x|c|]; cbn [slw_spec].
    + cbn. destruct (pop_aged t d (q ++ [(t, x)])) as [o q'].
      rewrite apply_cmds_emit_only. sim_fin. rewrite app_nil_r, filter_false.
      rewrite emits_emit_only, map_map. f_equal. apply IH. lia.
    + cbn. sim_fin. rewrite sim_stopped by reflexivity. reflexivity.
    + cbn. destruct (pop_aged t d q) as [o q'].
      rewrite apply_cmds_emit_only. sim_fin. rewrite sim_stopped by reflexivity. rewrite app_nil_r.
      cbn [fst]. rewrite emits_app, emits_emit_only, map_app, map_map. reflexivity.
Qed.

Theorem skip_last_with_time_walk t0 d (es : list (Z * ev A)) :
  timed_emits t0 (simulate (x_skip_last_with_time d) t0 (ext_of es)) = slw_spec d [] es.
Proof.
  rewrite (timed_emits_sub0 (x_skip_last_with_time d) []) by reflexivity.
  apply slw_sim. rewrite ext_of_length. lia.
Qed.

(* closed form by release index.
   [U]: the instants of the notifications that pop (the elements', then the completion's);
   element i (arrived with U[i]) leaves at the least index j, not below i and not below the index
   at which its predecessor left, such that d <= U[j] - t_i; if there is none it never leaves,
   and neither does any later element *)
Definition first_aged (d : Z) (U : list Z) (lo : nat) (t : Z) : option nat :=
  find (fun j => d <=? nth j U 0 - t) (seq lo (length U - lo)).

Fixpoint slu_out (d : Z) (U : list Z) (lo i : nat) (tl : list (Z * A)) : list (Z * ev A) :=
  match tl with
  | [] => []
  | (t, x) :: rest =>
      match first_aged d U (Nat.max lo i) t with
      | Some j => (nth j U 0, Next x) :: slu_out d U j (S i) rest
      | None => []
      end
  end.

Lemma first_aged_here d U n t : (n < length U)%nat -> (d <=? nth n U 0 - t) = true ->
  first_aged d U n t = Some n.
Proof.
  intros Hn H. unfold first_aged. replace (length U - n)%nat with (S (length U - S n)) by lia.
  cbn [seq find]. rewrite H. reflexivity.
Qed.

Lemma first_aged_next d U n t : (n < length U)%nat -> (d <=? nth n U 0 - t) = false ->
  first_aged d U n t = first_aged d U (S n) t.
Proof.
  intros Hn H. unfold first_aged. replace (length U - n)%nat with (S (length U - S n)) by lia.
  cbn [seq find]. rewrite H. reflexivity.
Qed.

Lemma first_aged_end d U lo t : (length U <= lo)%nat -> first_aged d U lo t = None.
Proof. intros H. unfold first_aged. replace (length U - lo)%nat with 0%nat by lia. reflexivity. Qed.

Lemma slu_out_end d U lo i tl : (length U <= lo)%nat -> slu_out d U lo i tl = [].
Proof. intros H. destruct tl as [|[t x] r]; [reflexivity|]. cbn [slu_out]. rewrite first_aged_end by lia. reflexivity. Qed.

(* one popping notification, index n at instant u: the aged prefix p of the queue leaves *)
Lemma slu_pop d U n u : nth n U 0 = u -> (n < length U)%nat -> forall (p : list (Z * A)) R q2 post,
  Forall (fun tx => aged u d tx = true) p ->
  match q2 with [] => True | tx :: _ => aged u d tx = false end ->
  ((R + length p + length q2 = S n)%nat \/ (post = [] /\ (R + length p + length q2 = n)%nat)) ->
  slu_out d U n R (p ++ q2 ++ post) = at_time u p ++ slu_out d U (S n) (R + length p) (q2 ++ post).
Proof.
  intros Hu Hn. induction p as [|[t x] p IH]; intros R q2 post Ha Hy Hlen.
  - cbn [app at_time map length]. rewrite Nat.add_0_r. destruct q2 as [|[t x] q2].
    + cbn [app length] in *. destruct Hlen as [Hlen|[-> _]]; [|reflexivity].
      destruct post as [|[t x] post]; [reflexivity|]. cbn [slu_out].
      replace (Nat.max n R) with (Nat.max (S n) R) by lia. reflexivity.
    + cbn [app length] in *. cbn [slu_out]. unfold aged in Hy. cbn [fst] in Hy.
      replace (Nat.max n R) with n by lia. replace (Nat.max (S n) R) with (S n) by lia.
      rewrite (first_aged_next d U n t Hn) by (rewrite Hu; exact Hy). reflexivity.
  - apply Forall_cons_iff in Ha. destruct Ha as [Hx Hp]. unfold aged in Hx. cbn [fst] in Hx.
    cbn [app length at_time map snd] in *. cbn [slu_out].
    replace (Nat.max n R) with n by lia.
    rewrite (first_aged_here d U n t Hn) by (rewrite Hu; exact Hx). rewrite Hu. f_equal.
    replace (R + S (length p))%nat with (S R + length p)%nat by lia.
    apply IH; [exact Hp|exact Hy|]. destruct Hlen as [H1|[H1 H2]]; [left; lia|right; split; [exact H1|lia]].
Qed.

Lemma nth_mid (a b : list (Z * A)) u x (c : list Z) :
  nth (length a) (map fst (a ++ (u, x) :: b) ++ c) 0 = u.
Proof.
  rewrite map_app, <- app_assoc, app_nth2 by (rewrite map_length; lia).
  rewrite map_length, Nat.sub_diag. reflexivity.
Qed.

(* generalised over the elements already emitted ([pre]) and the queue, so that element indices and
   popping indices are those of the whole timeline pre ++ q ++ post *)
Lemma slw_closed d tm : forall (post pre q : list (Z * A)),
  slw_spec d q (tevents post tm)
  = slu_out d (map fst (pre ++ q ++ post) ++ done_time tm) (length pre + length q) (length pre) (q ++ post)
    ++ term_ev tm.
Proof.
  induction post as [|[u x] post IH]; intros pre q.
  - rewrite !app_nil_r. unfold tevents. cbn [map app].
    destruct tm as [T|t e|]; cbn [slw_spec done_time term_ev].
    + destruct (pop_aged_split T d q) as [p [s [Hq [Hp [Ha Hy]]]]]. rewrite Hp. cbn [fst]. f_equal.
      set (U := map fst (pre ++ q) ++ [T]).
      assert (HT : nth (length pre + length q) U 0 = T).
      { unfold U. rewrite <- app_length, app_nth2 by (rewrite map_length; lia).
        rewrite map_length, Nat.sub_diag. reflexivity. }
      assert (HU : length U = S (length pre + length q)).
      { unfold U. rewrite app_length, map_length, app_length. cbn. lia. }
      replace (slu_out d U (length pre + length q) (length pre) q)
        with (slu_out d U (length pre + length q) (length pre) (p ++ s ++ [])) by (rewrite app_nil_r, <- Hq; reflexivity).
      rewrite (slu_pop d U _ T HT ltac:(lia) p (length pre) s [] Ha Hy)
        by (right; split; [reflexivity|]; rewrite Hq, app_length; lia).
      rewrite slu_out_end by lia. rewrite app_nil_r. unfold at_time. now rewrite map_map.
    + rewrite slu_out_end by (rewrite app_nil_r, map_length, app_length; lia). reflexivity.
    + rewrite slu_out_end by (rewrite app_nil_r, map_length, app_length; lia). reflexivity.
  - rewrite tevents_cons. cbn [slw_spec].
    destruct (pop_aged_split u d (q ++ [(u, x)])) as [p [s [Hq [Hp [Ha Hy]]]]]. rewrite Hp.
    rewrite (IH (pre ++ p) s).
    assert (Hl : (length p + length s = S (length q))%nat).
    { rewrite <- app_length, <- Hq, app_length. cbn. lia. }
    assert (E1 : (pre ++ p) ++ s ++ post = pre ++ q ++ (u, x) :: post).
    { rewrite <- app_assoc. f_equal. rewrite app_assoc, <- Hq, <- app_assoc. reflexivity. }
    rewrite E1. set (U := map fst (pre ++ q ++ (u, x) :: post) ++ done_time tm).
    assert (Hu : nth (length pre + length q) U 0 = u).
    { unfold U. rewrite <- app_length, app_assoc. apply nth_mid. }
    assert (HU : (length pre + length q < length U)%nat).
    { unfold U. rewrite app_length, map_length, !app_length. cbn. lia. }
    assert (E2 : q ++ (u, x) :: post = p ++ s ++ post).
    { change ((u, x) :: post) with ([(u, x)] ++ post). rewrite app_assoc, Hq, <- app_assoc. reflexivity. }
    rewrite E2.
    rewrite (slu_pop d U _ u Hu HU p (length pre) s post Ha Hy) by (left; lia).
    rewrite app_length. replace (length pre + length p + length s)%nat with (S (length pre + length q)) by lia.
    rewrite <- app_assoc. f_equal. unfold at_time. now rewrite map_map.
Qed.

Theorem skip_last_with_time_unsorted t0 d (tl : list (Z * A)) tm :
  timed_emits t0 (simulate (x_skip_last_with_time d) t0 (ext_of (tevents tl tm)))
  = slu_out d (map fst tl ++ done_time tm) 0 0 tl ++ term_ev tm.
Proof. rewrite skip_last_with_time_walk. exact (slw_closed d tm tl [] []). Qed.

Lemma first_aged_some d U lo t j : first_aged d U lo t = Some j ->
  (lo <= j < length U)%nat /\ d <= nth j U 0 - t.
Proof.
  unfold first_aged. intros H. apply find_some in H. destruct H as [Hin Hd].
  apply in_seq in Hin. split; [lia|lia].
Qed.

Lemma slu_out_prefix d U : forall (tl : list (Z * A)) lo i,
  map snd (slu_out d U lo i tl)
  = map (fun tx => Next (snd tx)) (firstn (length (slu_out d U lo i tl)) tl).
Proof.
  induction tl as [|[t x] rest IH]; intros lo i; [reflexivity|]. cbn [slu_out].
  destruct (first_aged d U (Nat.max lo i) t) as [j|]; [|reflexivity].
  cbn [length firstn map snd]. f_equal. apply IH.
Qed.

(* the k-th emission is the k-th element, at the instant of a popping notification that is not
   before the element's own arrival, and at which its age had reached d *)
Lemma slu_out_nth d U : forall (tl : list (Z * A)) lo i k u e,
  nth_error (slu_out d U lo i tl) k = Some (u, e) ->
  exists t x j, nth_error tl k = Some (t, x) /\ e = Next x /\ (Nat.max lo (i + k) <= j < length U)%nat
                /\ u = nth j U 0 /\ d <= u - t.
Proof.
  induction tl as [|[t x] rest IH]; intros lo i k u e H; [destruct k; discriminate H|].
  cbn [slu_out] in H. destruct (first_aged d U (Nat.max lo i) t) as [j|] eqn:Ef; [|destruct k; discriminate H].
  apply first_aged_some in Ef. destruct Ef as [Hj Hd]. destruct k as [|k].
  - cbn [nth_error] in H. injection H as <- <-. exists t, x, j. rewrite Nat.add_0_r.
    repeat split; [lia|lia|exact Hd].
  - cbn [nth_error] in H. destruct (IH j (S i) k u e H) as (t' & x' & j' & H1 & H2 & H3 & H4 & H5).
    exists t', x', j'. cbn [nth_error]. repeat split; [exact H1|exact H2|lia|lia|exact H4|exact H5].
Qed.

Lemma slu_out_in d U : forall (tl : list (Z * A)) lo i u x, In (u, Next x) (slu_out d U lo i tl) ->
  exists t, In (t, x) tl /\ d <= u - t /\ In u U.
Proof.
  intros tl lo i u x Hin. apply In_nth_error in Hin. destruct Hin as [k Hk].
  destruct (slu_out_nth d U tl lo i k u (Next x) Hk) as (t & x' & j & H1 & H2 & H3 & H4 & H5).
  injection H2 as <-. exists t. split; [exact (nth_error_In _ _ H1)|]. split; [exact H5|].
  rewrite H4. apply nth_In. lia.
Qed.

Theorem skip_last_with_time_unsorted_only_aged t0 d (tl : list (Z * A)) tm k u e :
  nth_error (timed_emits t0 (simulate (x_skip_last_with_time d) t0 (ext_of (tevents tl tm)))) k = Some (u, e) ->
  is_terminal e = false ->
  exists t x j, nth_error tl k = Some (t, x) /\ e = Next x /\ (k <= j < length tl + length (done_time tm))%nat
                /\ u = nth j (map fst tl ++ done_time tm) 0 /\ d <= u - t.
Proof.
  rewrite skip_last_with_time_unsorted. intros H He.
  set (U := map fst tl ++ done_time tm) in *.
  assert (Hk : (k < length (slu_out d U 0 0 tl))%nat).
  { destruct (Nat.lt_ge_cases k (length (slu_out d U 0 0 tl))) as [Hlt|Hge]; [exact Hlt|exfalso].
    rewrite nth_error_app2 in H by exact Hge.
    destruct tm as [T|T c|]; cbn [term_ev] in H.
    - destruct (k - length (slu_out d U 0 0 tl))%nat as [|[|?]]; cbn in H; try discriminate H.
      injection H as <- <-. discriminate He.
    - destruct (k - length (slu_out d U 0 0 tl))%nat as [|[|?]]; cbn in H; try discriminate H.
      injection H as <- <-. discriminate He.
    - destruct (k - length (slu_out d U 0 0 tl))%nat; discriminate H. }
  rewrite nth_error_app1 in H by exact Hk.
  destruct (slu_out_nth d U tl 0 0 k u e H) as (t & x & j & H1 & H2 & H3 & H4 & H5).
  exists t, x, j. repeat split; [exact H1|exact H2|lia| |exact H4|exact H5].
  unfold U in H3. rewrite app_length, map_length in H3. lia.
Qed.
End SkipLastUnsorted.

(* without sortedness: released in order, each at the first popping notification not before its
   predecessor's at which its own age reached d.  Readings 0 10 4 9 16, completion at 17, d = 5:
   the element with reading 4 has age 5 at the notification with reading 9, but the head (reading
   10) has age -1 there and blocks it until 16 ([sl_out] would release it at 9) *)
Example slu_out_example :
  let tl := [(0, 1); (10, 2); (4, 3); (9, 4); (16, 5)] in
  slu_out 5 (map fst tl ++ done_time (TTDone 17)) 0 0 tl ++ @term_ev Z (TTDone 17)
  = [(10, Next 1); (16, Next 2); (16, Next 3); (16, Next 4); (17, Done)]
  /\ timed_emits 0 (simulate (x_skip_last_with_time 5) 0 (ext_of (tevents tl (TTDone 17))))
  = [(10, Next 1); (16, Next 2); (16, Next 3); (16, Next 4); (17, Done)]
  /\ sl_out 5 tl (TTDone 17) = [(10, Next 1); (16, Next 2); (9, Next 3); (16, Next 4)].
Proof. vm_compute. repeat split; reflexivity. Qed.
