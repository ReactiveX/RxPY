(* C10: repeat(count) and retry(count), closed forms in the sequential environment:
   the same source (0) is subscribed again and again, its successive runs are the
   blocks of the input. *)
From RxVerif Require Import Base.Prelude Ops.Machine Ops.MachineFacts Ops.Multi Ops.MultiFacts
  Ops.RunLemmas Ops.Combinators Ops.SequentialFacts.

Local Arguments Nat.ltb : simpl never.
Local Arguments Nat.leb : simpl never.

Section Repeat.
Context {A : Type}.

Definition more (count : option nat) (used : nat) : bool :=
  match count with None => true | Some c => Nat.ltb used c end.

(* successive runs of source 0 *)
Definition runs_env (runs : list (list A * term)) : list (Z * inp A) := flat_map (block 0) runs.

(* repeat: every run's elements; a completed run is followed by the next one while the
   count allows, then completion; an error ends everything *)
Fixpoint repeat_spec (count : option nat) (used : nat) (runs : list (list A * term)) : list (ev A) :=
  match runs with
  | [] => []
  | (xs, t) :: rest =>
      map Next xs ++ match t with
                     | TDone => if more count used then repeat_spec count (S used) rest else [Done]
                     | TErr e => [Err e]
                     | TNever => repeat_spec count used rest
                     end
  end.

(* retry: a failed run is followed by the next one while the count allows, then the error
   is passed on; a completed run completes everything *)
Fixpoint retry_spec (count : option nat) (used : nat) (runs : list (list A * term)) : list (ev A) :=
  match runs with
  | [] => []
  | (xs, t) :: rest =>
      map Next xs ++ match t with
                     | TErr e => if more count used then retry_spec count (S used) rest else [Err e]
                     | TDone => [Done]
                     | TNever => retry_spec count used rest
                     end
  end.

Lemma repeat_from count (runs : list (list A * term)) : forall used k,
  emitted (fst (run_from (x_repeat count) used (RState [0%nat] [] false) k (runs_env runs)))
  = repeat_spec count used runs.
Proof.
  induction runs as [|[xs t] rest IH]; intros used k; [reflexivity|].
  unfold runs_env. cbn [flat_map repeat_spec]. fold (runs_env rest).
  rewrite emitted_block by (intros now x; reflexivity). f_equal.
  destruct t as [|e|]; cbn [events map app]; rewrite ?emitted_run_cons.
  - rs. unfold more.
    destruct (match count with None => true | Some c => Nat.ltb used c end); rs.
    + rewrite IH. reflexivity.
    + rewrite run_from_stopped by reflexivity. reflexivity.
  - rs. rewrite run_from_stopped by reflexivity. reflexivity.
  - apply IH.
Qed.

Theorem repeat_closed_form count (runs : list (list A * term)) :
  emitted (fst (run (x_repeat count) (runs_env runs)))
  = match count with Some O => [Done] | _ => repeat_spec count 1 runs end.
Proof.
  rewrite run_unfold. cbn [fst]. rewrite emitted_app.
  destruct count as [[|c]|].
  - cbn -[run_from runs_env]. rewrite run_from_stopped by reflexivity. reflexivity.
  - unfold start_state, start_obs. cbn -[run_from runs_env repeat_spec emitted]. rewrite repeat_from. reflexivity.
  - unfold start_state, start_obs. cbn -[run_from runs_env repeat_spec emitted]. rewrite repeat_from. reflexivity.
Qed.

Lemma retry_from count (runs : list (list A * term)) : forall used k,
  emitted (fst (run_from (x_retry count) used (RState [0%nat] [] false) k (runs_env runs)))
  = retry_spec count used runs.
Proof.
  induction runs as [|[xs t] rest IH]; intros used k; [reflexivity|].
  unfold runs_env. cbn [flat_map retry_spec]. fold (runs_env rest).
  rewrite emitted_block by (intros now x; reflexivity). f_equal.
  destruct t as [|e|]; cbn [events map app]; rewrite ?emitted_run_cons.
  - rs. rewrite run_from_stopped by reflexivity. reflexivity.
  - rs. unfold more.
    destruct (match count with None => true | Some c => Nat.ltb used c end); rs.
    + rewrite IH. reflexivity.
    + rewrite run_from_stopped by reflexivity. reflexivity.
  - apply IH.
Qed.

Theorem retry_closed_form count (runs : list (list A * term)) :
  emitted (fst (run (x_retry count) (runs_env runs)))
  = match count with Some O => [Done] | _ => retry_spec count 1 runs end.
Proof.
  rewrite run_unfold. cbn [fst]. rewrite emitted_app.
  destruct count as [[|c]|].
  - cbn -[run_from runs_env]. rewrite run_from_stopped by reflexivity. reflexivity.
  - unfold start_state, start_obs. cbn -[run_from runs_env retry_spec emitted]. rewrite retry_from. reflexivity.
  - unfold start_state, start_obs. cbn -[run_from runs_env retry_spec emitted]. rewrite retry_from. reflexivity.
Qed.

(* repeat(n) over runs that all complete emits the concatenation of the first n runs, then completes *)
Corollary repeat_n_completing (n : nat) (runs : list (list A)) : (n <= length runs)%nat -> (0 < n)%nat ->
  repeat_spec (Some n) 1 (map (fun xs => (xs, TDone)) runs)
  = map Next (concat (firstn n runs)) ++ [Done].
Proof.
  assert (G : forall runs used, (used <= n)%nat -> (0 < used)%nat -> (n - used < length runs)%nat ->
    repeat_spec (Some n) used (map (fun xs => (xs, TDone)) runs)
    = map Next (concat (firstn (S (n - used)) runs)) ++ [Done]).
  { clear runs. induction runs as [|xs rest IH]; intros used Hu Hp Hl; [cbn in Hl; lia|].
    cbn [map repeat_spec more]. destruct (Nat.ltb_spec used n) as [Hlt|Hge].
    - rewrite IH by (cbn in Hl; lia). replace (S (n - used)) with (S (S (n - S used))) by lia.
      cbn [firstn concat]. rewrite map_app, <- app_assoc. reflexivity.
    - replace (n - used)%nat with 0%nat by lia. cbn [firstn concat]. now rewrite app_nil_r. }
  intros Hl Hp. rewrite G by lia. replace (S (n - 1)) with n by lia. reflexivity.
Qed.
End Repeat.
