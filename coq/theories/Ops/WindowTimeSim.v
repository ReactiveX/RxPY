(* C18: window_with_time in the closed world of Ops/WinSim.v (exact timers; at equal instants the
   source goes first).  (a) the simulation equals a walk over the timeline that carries nothing
   but the edge counters (a shift edges and b span edges have fired), for EVERY event sequence on
   the source port and every horizon; (b) on sorted conforming timelines: window k receives
   exactly the elements whose instant t satisfies  k*shift < t - t0 <= k*shift + span  (window 0:
   0 <= t - t0 <= span) and completes at t0 + k*shift + span, or ends with the source. *)
From RxVerif Require Import Base.Prelude Ops.Machine Ops.MultiFacts Ops.MultiWin Ops.MultiWinFacts Ops.Windows
  Ops.WindowCountFacts Ops.WindowFacts Ops.WinSim.
From RxVerif Require Ops.TimedSim.

Local Arguments Z.of_nat : simpl never.
Local Arguments Z.mul : simpl never.
Local Arguments Z.add : simpl never.
Local Arguments Z.sub : simpl never.
Local Arguments Z.min : simpl never.
Local Arguments Z.div : simpl never.
Local Arguments Multi.mem : simpl never.
Local Arguments Multi.remove : simpl never.

(* notifications of the source (port 0) at their instants *)
Definition wext_of {A} (es : list (Z * ev A)) : list (Z * inp A) :=
  map (fun te => (fst te, ISrc 0%nat (snd te))) es.

Lemma wsim_deaf {A W B} imm (m : machine A W B) s (r : rstate W) : r_live r = [] ->
  forall fuel (es : list (Z * ev A)),
  wsim imm m fuel s r [] (wext_of es) = map (fun te => (fst te, ISrc 0%nat (snd te), [])) (firstn fuel es).
Proof.
  intros Hr. induction fuel as [|f IH]; intros es; [reflexivity|]. rewrite wsim_S.
  destruct es as [|[t e] rest]; [reflexivity|]. cbn [wext_of map fst snd wnext_event wearliest firstn].
  rewrite rstep_unheard by (rewrite Hr; reflexivity). f_equal. unfold wupd. cbn [app wnew_timers flat_map filter].
  apply IH.
Qed.

(* one timer pending, due at T: the source's notifications up to T go first, then the timer fires *)
Lemma wsim_one_timer {A W B} imm (m : machine A W B) f s (r : rstate W) tg T (es : list (Z * ev A)) :
  wsim imm m (S f) s r [(tg, T)] (wext_of es)
  = let tick := let '(s', r', o) := rstep imm m s r T (ITick tg) in
                (T, ITick tg, o) :: wsim imm m f s' r' (wupd [(tg, T)] T o r') (wext_of es) in
    match es with
    | [] => tick
    | (t, e) :: rest =>
        if t <=? T
        then let '(s', r', o) := rstep imm m s r t (ISrc 0%nat e) in
             (t, ISrc 0%nat e, o) :: wsim imm m f s' r' (wupd [(tg, T)] t o r') (wext_of rest)
        else tick
    end.
Proof.
  rewrite wsim_S. destruct es as [|[t e] rest]; [reflexivity|].
  cbn [wext_of map fst snd wnext_event wearliest]. destruct (t <=? T); reflexivity.
Qed.

(* a step that schedules nothing and leaves the runner with the pending timer *)
Lemma wupd_keep {W B} tg T now (o : list (obs W B)) (r' : rstate W) :
  wnew_timers now o = [] -> r_timers r' = [tg] -> wupd [(tg, T)] now o r' = [(tg, T)].
Proof. intros Ho Hr. unfold wupd. rewrite Ho, Hr. cbn [app filter fst]. rewrite mem_self. reflexivity. Qed.

(* the step of the pending timer, which schedules its successor *)
Lemma wupd_rearm {W B} tg T tg' T' now (o : list (obs W B)) (r' : rstate W) :
  wnew_timers now o = [(tg', T')] -> r_timers r' = [tg'] -> tg <> tg' -> wupd [(tg, T)] now o r' = [(tg', T')].
Proof.
  intros Ho Hr Hne. unfold wupd. rewrite Ho, Hr. cbn [app filter fst]. rewrite mem_self, mem_cons, mem_nil'.
  rewrite (proj2 (Nat.eqb_neq tg tg') Hne). reflexivity.
Qed.

Section Edges.
Variables span shift : Z.

(* after a shift edges and b span edges: the next edge (relative to the subscription instant) *)
Definition e_due (a b : nat) : Z := Z.min ((Z.of_nat a + 1) * shift) (span + Z.of_nat b * shift).
Definition e_shift (a b : nat) : bool := (Z.of_nat a + 1) * shift <=? span + Z.of_nat b * shift.
Definition e_span (a b : nat) : bool := span + Z.of_nat b * shift <=? (Z.of_nat a + 1) * shift.
Definition e_a' (a b : nat) : nat := if e_shift a b then S a else a.
Definition e_b' (a b : nat) : nat := if e_span a b then S b else b.

(* the instant tau (relative) lies in window k: after its opening edge (window 0 is opened by
   subscribe itself), not after its closing edge *)
Definition in_win (k : nat) (tau : Z) : bool :=
  ((k =? 0)%nat || (Z.of_nat k * shift <? tau)) && (tau <=? span + Z.of_nat k * shift).

(* every edge that has fired lies strictly before tau *)
Definition fired (a b : nat) (tau : Z) : Prop :=
  (a = 0%nat \/ Z.of_nat a * shift < tau) /\ (b = 0%nat \/ span + (Z.of_nat b - 1) * shift < tau).

Hypothesis Hspan : 0 < span.
Hypothesis Hshift : 0 < shift.

Lemma e_due_pos a b : 0 < e_due a b.
Proof. unfold e_due. nia. Qed.

(* the next edge is a span edge: the closing edge of window b, which is open *)
Lemma e_span_true a b : e_span a b = true -> (b <= a)%nat /\ e_due a b = span + Z.of_nat b * shift.
Proof. unfold e_span, e_due. intros H. apply Z.leb_le in H. split; [nia|lia]. Qed.

(* ... a shift edge: the opening edge of window a+1 *)
Lemma e_shift_true a b : e_shift a b = true -> e_due a b = (Z.of_nat a + 1) * shift.
Proof. unfold e_shift, e_due. intros H. apply Z.leb_le in H. lia. Qed.

Lemma e_some_edge a b : e_shift a b = false -> e_span a b = false -> False.
Proof. unfold e_shift, e_span. intros H1 H2. apply Z.leb_gt in H1. apply Z.leb_gt in H2. lia. Qed.

(* whichever candidate is the minimum fires and then exceeds the old minimum; the other was larger already *)
Lemma e_tick_progress a b : (b <= S a)%nat ->
  e_due a b < e_due (e_a' a b) (e_b' a b) /\ (e_b' a b <= S (e_a' a b))%nat
  /\ (a <= e_a' a b)%nat /\ (b <= e_b' a b)%nat.
Proof.
  intros Hba. unfold e_due, e_a', e_b', e_shift, e_span.
  destruct (Z.leb_spec ((Z.of_nat a + 1) * shift) (span + Z.of_nat b * shift));
    destruct (Z.leb_spec (span + Z.of_nat b * shift) ((Z.of_nat a + 1) * shift));
    rewrite ?Nat2Z.inj_succ; repeat split; try nia.
Qed.

Lemma fired_tick a b tau : fired a b tau -> e_due a b < tau -> fired (e_a' a b) (e_b' a b) tau.
Proof.
  intros [Ha Hb] Hd. unfold fired, e_due, e_a', e_b', e_shift, e_span in *.
  destruct (Z.leb_spec ((Z.of_nat a + 1) * shift) (span + Z.of_nat b * shift));
    destruct (Z.leb_spec (span + Z.of_nat b * shift) ((Z.of_nat a + 1) * shift));
    rewrite ?Nat2Z.inj_succ; split; try (right; nia); auto.
Qed.

Lemma fired_mono a b tau tau' : fired a b tau -> tau <= tau' -> fired a b tau'.
Proof. intros [Ha Hb] H. split; [destruct Ha; [left|right]|destruct Hb; [left|right]]; auto; lia. Qed.

Lemma fired0 tau : fired 0 0 tau.
Proof. split; left; reflexivity. Qed.

(* the windows open while the edges up to (a, b) have fired are b .. a: exactly those whose
   interval contains tau, for an instant tau not after the next edge *)
Lemma in_win_iff a b tau k : (b <= S a)%nat -> fired a b tau -> tau <= e_due a b ->
  (In k (seq b (S a - b)) <-> in_win k tau = true).
Proof.
  intros Hba [Ha Hb] Hd. rewrite in_seq. unfold in_win, e_due in *.
  rewrite andb_true_iff, orb_true_iff, Nat.eqb_eq, Z.ltb_lt, Z.leb_le. split.
  - intros [H1 H2]. split; [|nia]. destruct (Nat.eq_dec k 0) as [->|Hk]; [left; reflexivity|right].
    destruct Ha as [->|Ha]; [lia|nia].
  - intros [H1 H2]. split.
    + destruct (Nat.le_gt_cases b k); [assumption|]. destruct Hb as [->|Hb]; [lia|nia].
    + destruct H1 as [->|H1]; [lia|nia].
Qed.

(* a window whose closing edge has fired receives nothing from later instants *)
Lemma in_win_closed a b tau k : fired a b tau -> (k < b)%nat -> in_win k tau = false.
Proof.
  intros [_ Hb] Hk. unfold in_win. destruct Hb as [->|Hb]; [lia|].
  destruct (Z.leb_spec tau (span + Z.of_nat k * shift)); [nia|]. apply andb_false_r.
Qed.

(* windows opened before an event at the relative instant tau is delivered: window 0 and every
   k >= 1 with k*shift < tau;  windows closed before: every k with span + k*shift < tau *)
Definition n_open (tau : Z) : nat := S (Z.to_nat ((tau - 1) / shift)).
Definition n_closed (tau : Z) : nat := Z.to_nat (if tau <=? span then 0 else (tau - span - 1) / shift + 1).

Lemma n_open_spec tau k : (k < n_open tau)%nat <-> k = 0%nat \/ Z.of_nat k * shift < tau.
Proof.
  pose proof (zdiv_count shift (tau - 1) k Hshift) as H. unfold n_open.
  destruct (Z.le_gt_cases tau 0) as [Hle|Hgt].
  - assert ((tau - 1) / shift < 0) by (apply Z.div_lt_upper_bound; lia).
    split; [intros; left; lia|intros [->|H']; [lia|nia]].
  - assert (H0 : 0 <= (tau - 1) / shift) by (apply Z.div_pos; lia). split.
    + intros Hk. destruct (Nat.eq_dec k 0) as [->|Hk0]; [left; reflexivity|right].
      assert (Z.of_nat k * shift <= tau - 1) by (apply H; lia). lia.
    + intros [->|Hk]; [lia|]. assert (k < Z.to_nat ((tau - 1) / shift + 1))%nat by (apply H; lia). lia.
Qed.

Lemma n_closed_spec tau k : (k < n_closed tau)%nat <-> span + Z.of_nat k * shift < tau.
Proof.
  unfold n_closed. destruct (Z.leb_spec tau span) as [Hle|Hgt].
  - cbn. split; [lia|nia].
  - rewrite (zdiv_count shift (tau - span - 1) k Hshift). lia.
Qed.

(* up to the next edge the windows opened are 0..a, the windows closed 0..b-1 *)
Lemma n_open_now a b tau : fired a b tau -> tau <= e_due a b -> n_open tau = S a.
Proof.
  intros [Ha _] Hd. unfold e_due in Hd.
  assert (a < n_open tau)%nat by (apply n_open_spec; destruct Ha as [->|Ha]; [left; reflexivity|right; exact Ha]).
  assert (~ (S a < n_open tau)%nat); [|lia].
  rewrite n_open_spec. intros [H'|H']; [discriminate H'|]. rewrite Nat2Z.inj_succ in H'. lia.
Qed.

Lemma n_closed_now a b tau : fired a b tau -> tau <= e_due a b -> n_closed tau = b.
Proof.
  intros [_ Hb] Hd. unfold e_due in Hd.
  assert (~ (b < n_closed tau)%nat) by (rewrite n_closed_spec; lia).
  destruct b as [|b1]; [lia|]. destruct Hb as [Hb|Hb]; [discriminate Hb|].
  assert (b1 < n_closed tau)%nat; [|lia]. apply n_closed_spec. rewrite Nat2Z.inj_succ in Hb. lia.
Qed.

End Edges.

Section WindowTime.
Context {A B : Type}.
Variables span shift t0 : Z.
Hypothesis Hspan : 0 < span.
Hypothesis Hshift : 0 < shift.
Notation M := (x_window_time (A:=A) (B:=B) span shift).
Notation due := (e_due span shift).
Notation a' := (e_a' span shift).
Notation b' := (e_b' span shift).

Definition wt_rstate (a b tg : nat) : rstate A :=
  RState [0%nat] [tg] true (seq b (S a - b)) (map (fun k => (k, Done)) (seq 0 b)) (seq 0 (S a)) false.

Definition wt_dead_rstate (wt : list (nat * ev A)) (hd : list nat) : rstate A :=
  RState [] [] false [] wt hd true.

Definition wt_tick_obs (a b tg : nat) : list (obs A B) :=
  (if e_shift span shift a b then [OHand (S a) 0] else [])
  ++ (if e_span span shift a b then [OWin b Done] else [])
  ++ [OTimer (S tg) (due (a' a b) (b' a b) - due a b)].

Definition out_term (e : ev A) : ev B := match e with Err z => Err z | _ => Done end.

Definition wt_term_obs (a b tg : nat) (e : ev A) : list (obs A B) :=
  map (fun g => OWin g e) (seq b (S a - b)) ++ [OEmit (out_term e); OUnsub 0%nat; OCancel tg].

Definition wt_dead (es : list (Z * ev A)) : list (Z * inp A * list (obs A B)) :=
  map (fun te => (fst te, ISrc 0%nat (snd te), [])) es.

Fixpoint wt_walk (fuel : nat) (a b tg : nat) (es : list (Z * ev A)) : list (Z * inp A * list (obs A B)) :=
  match fuel with
  | O => []
  | S f =>
      let tick := (t0 + due a b, ITick tg, wt_tick_obs a b tg) :: wt_walk f (a' a b) (b' a b) (S tg) es in
      match es with
      | [] => tick
      | (t, e) :: rest =>
          if t <=? t0 + due a b then
            match e with
            | Next x => (t, ISrc 0%nat (Next x), map (fun g => OWin g (Next x)) (seq b (S a - b)))
                        :: wt_walk f a b tg rest
            | _ => (t, ISrc 0%nat e, wt_term_obs a b tg e) :: wt_dead (firstn f rest)
            end
          else tick
      end
  end.

Lemma wt_walk_tick f a b tg (es : list (Z * ev A)) : Forall (fun te => t0 + due a b < fst te) es ->
  wt_walk (S f) a b tg es = (t0 + due a b, ITick tg, wt_tick_obs a b tg) :: wt_walk f (a' a b) (b' a b) (S tg) es.
Proof.
  destruct es as [|[t e] r]; [reflexivity|]. intros H. inversion H as [|? ? Ht _]. cbn [fst] in Ht. cbn [wt_walk].
  rewrite (proj2 (Z.leb_gt t (t0 + due a b)) Ht). reflexivity.
Qed.

Lemma wt_walk_next f a b tg t x (rest : list (Z * ev A)) : t <= t0 + due a b ->
  wt_walk (S f) a b tg ((t, Next x) :: rest)
  = (t, ISrc 0%nat (Next x), map (fun g => OWin g (Next x)) (seq b (S a - b))) :: wt_walk f a b tg rest.
Proof. intros H. cbn [wt_walk]. rewrite (proj2 (Z.leb_le t (t0 + due a b)) H). reflexivity. Qed.

Lemma wt_walk_term f a b tg t e (rest : list (Z * ev A)) : is_terminal e = true -> t <= t0 + due a b ->
  wt_walk (S f) a b tg ((t, e) :: rest) = (t, ISrc 0%nat e, wt_term_obs a b tg e) :: wt_dead (firstn f rest).
Proof.
  intros He H. cbn [wt_walk]. rewrite (proj2 (Z.leb_le t (t0 + due a b)) H). destruct e; [discriminate He| |]; reflexivity.
Qed.

Lemma inv_flags s a b : wt_inv span shift s a b ->
  wt_is_shift s = e_shift span shift a b /\ wt_is_span s = e_span span shift a b /\ wt_total s = due a b.
Proof. intros I. exact (conj (ti_shift _ _ _ _ _ I) (conj (ti_span _ _ _ _ _ I) (ti_total _ _ _ _ _ I))). Qed.

Lemma wt_tick_step s a b tg now : wt_inv span shift s a b -> wt_ntag s = S tg ->
  rstep all_imm M s (wt_rstate a b tg) now (ITick tg)
  = (fst (wt_action (A:=A) (B:=B) shift s), wt_rstate (a' a b) (b' a b) (S tg), wt_tick_obs a b tg)
  /\ wt_inv span shift (fst (wt_action (A:=A) (B:=B) shift s)) (a' a b) (b' a b)
  /\ wt_ntag (fst (wt_action (A:=A) (B:=B) shift s)) = S (S tg).
Proof.
  intros I Ht. destruct (inv_flags s a b I) as (Esh & Esp & Etot).
  destruct (wt_tick span shift Hspan Hshift (A:=A) (B:=B) s a b I) as [I' Hcs]. cbn zeta in *.
  pose proof (ti_ba _ _ _ _ _ I) as Hba.
  unfold e_a', e_b'. rewrite <- Esh, <- Esp. split; [|split; [exact I'|now rewrite wt_action_ntag, Ht]].
  cbn [rstep wt_rstate r_live r_timers r_outer r_wsubs r_wterm r_handed r_released].
  rewrite mem_self, remove_head. cbn iota.
  change (RState [0%nat] [] true (seq b (S a - b)) (map (fun k => (k, Done)) (seq 0 b)) (seq 0 (S a)) false)
    with (wq_rstate (A:=A) [0%nat] [] b (S a)).
  unfold deliver. cbn [x_step x_window_time].
  destruct (wt_action (A:=A) (B:=B) shift s) as [s' cs]. cbn [fst snd] in *. subst cs.
  unfold wt_tick_obs, e_a', e_b'. rewrite <- Esh, <- Esp, Ht, Etot.
  fold (e_due span shift (if wt_is_shift s then S a else a) (if wt_is_span s then S b else b)).
  rewrite Esh, Esp in *.
  pose proof (e_span_true span shift Hspan Hshift a b) as Hsp_b.
  rewrite !apply_cmds_app.
  destruct (e_shift span shift a b) eqn:Es; [rewrite wq_hand by exact Hba|]; cbn [apply_cmds fst snd];
    (destruct (e_span span shift a b) eqn:Ep; [rewrite wq_close by (specialize (Hsp_b eq_refl); lia)|]);
    [| | |destruct (e_some_edge span shift a b Es Ep)];
    rs; rewrite ?app_nil_r; reflexivity.
Qed.

Lemma wt_next_step s a b tg now (x : A) : wt_inv span shift s a b ->
  rstep all_imm M s (wt_rstate a b tg) now (ISrc 0%nat (Next x))
  = (s, wt_rstate a b tg, map (fun g => OWin g (Next x)) (seq b (S a - b))).
Proof.
  intros I. change (wt_rstate a b tg) with (wq_rstate (A:=A) [0%nat] [tg] b (S a)).
  cbn [rstep wq_rstate r_live]. rewrite mem_self. cbn iota. unfold deliver.
  cbn [x_step x_window_time]. rewrite (ti_q _ _ _ _ _ I), wq_next. rs. now rewrite app_nil_r.
Qed.

Lemma wt_term_step s a b tg now (e : ev A) : wt_inv span shift s a b -> is_terminal e = true ->
  rstep all_imm M s (wt_rstate a b tg) now (ISrc 0%nat e)
  = (s, wt_dead_rstate (map (fun k => (k, Done)) (seq 0 b) ++ map (fun g => (g, e)) (seq b (S a - b))) (seq 0 (S a)),
     wt_term_obs a b tg e).
Proof.
  intros I He. change (wt_rstate a b tg) with (wq_rstate (A:=A) [0%nat] [tg] b (S a)).
  cbn [rstep wq_rstate r_live]. rewrite mem_self. cbn iota. unfold deliver.
  destruct e as [x|z|]; [discriminate| |]; cbn [x_step x_window_time]; rewrite (ti_q _ _ _ _ _ I), wq_term by reflexivity;
    cbn [finish r_outer end_outer maybe_release r_live r_timers r_wsubs r_wterm r_handed r_released negb andb fst snd
         is_terminal];
    rewrite mem_nil'; cbn [andb snd app]; rewrite app_nil_r; reflexivity.
Qed.

Lemma wnew_timers_wins now (e : ev A) q : wnew_timers (B:=B) now (map (fun g => OWin g e) q) = [].
Proof. induction q; auto. Qed.

Lemma wt_sim : forall fuel s a b tg (es : list (Z * ev A)), wt_inv span shift s a b -> wt_ntag s = S tg ->
  wsim all_imm M fuel s (wt_rstate a b tg) [(tg, t0 + due a b)] (wext_of es) = wt_walk fuel a b tg es.
Proof.
  induction fuel as [|f IH]; intros s a b tg es I Ht; [reflexivity|].
  rewrite wsim_one_timer. cbn [wt_walk].
  destruct (wt_tick_step s a b tg (t0 + due a b) I Ht) as (-> & I' & Ht').
  rewrite (wupd_rearm tg _ (S tg) (t0 + due (a' a b) (b' a b))), (IH _ _ _ _ es I' Ht');
    [|unfold wt_tick_obs; destruct (e_shift span shift a b), (e_span span shift a b);
      cbn [app wnew_timers flat_map]; f_equal; f_equal; lia|reflexivity|lia].
  destruct es as [|[t e] rest]; [reflexivity|]. destruct (t <=? t0 + due a b); [|reflexivity].
  destruct e as [x|z|].
  - rewrite (wt_next_step s a b tg t x I), wupd_keep by (reflexivity || apply wnew_timers_wins).
    f_equal. apply IH; assumption.
  - rewrite (wt_term_step s a b tg t (Err z) I eq_refl), wupd_no_timers by reflexivity. f_equal. now apply wsim_deaf.
  - rewrite (wt_term_step s a b tg t Done I eq_refl), wupd_no_timers by reflexivity. f_equal. now apply wsim_deaf.
Qed.

(* C18 (a): the simulation is the walk, for every event sequence and every horizon *)
Theorem window_time_walk fuel (es : list (Z * ev A)) :
  wsimulate all_imm M fuel t0 (wext_of es)
  = ([OHand 0%nat 0; OTimer 0%nat (Z.min shift span); OSub 0%nat], wt_walk fuel 0 0 0 es).
Proof.
  unfold wsimulate, start_obs, start_state.
  destruct (wt_start_inv span shift Hspan Hshift (A:=A) (B:=B)) as [I0 Hc].
  assert (Hf : snd (x_start M) = Cont) by reflexivity.
  assert (Hn : wt_ntag (fst (fst (x_start M))) = 1%nat) by reflexivity.
  destruct (x_start M) as [[s0 cs] f]. cbn [fst snd] in *. subst cs f.
  cbn [apply_cmds apply_cmd rstate0 r_outer r_live r_timers r_wsubs r_wterm r_handed r_released all_imm sub_win
       wterm_of finish fst snd app].
  rewrite !mem_self.
  cbn [apply_cmds apply_cmd rstate0 r_outer r_live r_timers r_wsubs r_wterm r_handed r_released all_imm sub_win
       wterm_of finish fst snd app andb negb].
  f_equal.
  assert (Eu : wupd (W:=A) (B:=B) [] t0 [OHand 0%nat 0; OTimer 0%nat (Z.min shift span); OSub 0%nat]
                 (RState [0%nat] [0%nat] true [0%nat] [] [0%nat] false) = [(0%nat, t0 + due 0 0)]).
  { unfold wupd. cbn [r_timers app wnew_timers flat_map filter fst]. rewrite mem_self. unfold e_due.
    repeat f_equal; lia. }
  rewrite Eu. apply (wt_sim fuel s0 0 0 0 es I0 Hn).
Qed.

(* a conforming source: elements at their instants, then at most one terminal *)
Definition tm_ev (tm : TimedSim.tterm) : list (Z * ev A) :=
  match tm with
  | TimedSim.TTDone t => [(t, Done)]
  | TimedSim.TTErr t e => [(t, Err e)]
  | TimedSim.TTNever => []
  end.
Definition wsrc (tl : list (Z * A)) (tm : TimedSim.tterm) : list (Z * ev A) :=
  map (fun tx => (fst tx, Next (snd tx))) tl ++ tm_ev tm.

(* the elements of window k: those whose instant lies in k's interval *)
Definition wt_contents (k : nat) (tl : list (Z * A)) : list (Z * A) :=
  filter (fun tx => in_win span shift k (fst tx - t0)) tl.
(* how window k ends: at its closing edge t0 + k*shift + span if that is strictly before the source's
   terminal (or the source never ends); with the source's terminal if that lies in k's interval;
   a window the source's terminal precedes is never opened *)
Definition wt_ending (k : nat) (tm : TimedSim.tterm) : list (Z * ev A) :=
  match tm_ev tm with
  | [] => [(t0 + (span + Z.of_nat k * shift), Done)]
  | (T, e) :: _ =>
      if span + Z.of_nat k * shift <? T - t0 then [(t0 + (span + Z.of_nat k * shift), Done)]
      else if in_win span shift k (T - t0) then [(T, e)] else []
  end.

Lemma wsim_wevents_cons k t (i : inp A) (o : list (obs A B)) l :
  wsim_wevents k ((t, i, o) :: l) = map (fun e => (t, e)) (wobs k o) ++ wsim_wevents k l.
Proof. reflexivity. Qed.

Lemma wsim_wevents_dead k (es : list (Z * ev A)) : wsim_wevents (B:=B) k (wt_dead es) = [].
Proof. induction es as [|[t e] r IH]; [reflexivity|]. cbn [wt_dead map]. rewrite wsim_wevents_cons. exact IH. Qed.

Definition is_open (a b k : nat) : bool := mem k (seq b (S a - b)).

Lemma is_open_spec a b k : is_open a b k = true <-> In k (seq b (S a - b)).
Proof.
  unfold is_open. rewrite mem_seq, in_seq, andb_true_iff, Nat.leb_le, Nat.ltb_lt. reflexivity.
Qed.

(* up to the next edge, those are the windows whose interval contains the instant *)
Lemma is_open_in_win a b tau k : (b <= S a)%nat -> fired span shift a b tau -> tau <= due a b ->
  is_open a b k = in_win span shift k tau.
Proof.
  intros Hba Hf Hd. pose proof (in_win_iff span shift Hspan Hshift a b tau k Hba Hf Hd) as Hiff.
  rewrite <- is_open_spec in Hiff. destruct (is_open a b k), (in_win span shift k tau); try reflexivity.
  - symmetry. now apply Hiff.
  - now apply Hiff.
Qed.

Lemma wobs_wins k a b (e : ev A) :
  wobs (B:=B) k (map (fun g => OWin g e) (seq b (S a - b))) = if is_open a b k then [e] else [].
Proof. apply wobs_map_win, seq_NoDup. Qed.

Lemma wobs_term k a b tg (e : ev A) : wobs k (wt_term_obs a b tg e) = if is_open a b k then [e] else [].
Proof.
  unfold wt_term_obs. rewrite wobs_app, wobs_wins. cbn [wobs flat_map app]. now rewrite app_nil_r.
Qed.

Lemma wobs_tick k a b tg :
  wobs k (wt_tick_obs a b tg) = if e_span span shift a b && Nat.eqb k b then [Done] else [].
Proof.
  unfold wt_tick_obs. rewrite !wobs_app.
  destruct (e_shift span shift a b), (e_span span shift a b); cbn [wobs flat_map app andb];
    try destruct (Nat.eqb k b); reflexivity.
Qed.

Lemma wt_walk_closed_silent k : forall fuel a b tg (es : list (Z * ev A)), (b <= S a)%nat -> (k < b)%nat ->
  wsim_wevents k (wt_walk fuel a b tg es) = [].
Proof.
  induction fuel as [|f IH]; intros a b tg es Hba Hk; [reflexivity|].
  destruct (e_tick_progress span shift Hspan Hshift a b Hba) as (_ & Hba' & _ & Hb').
  assert (Tick : wsim_wevents k ((t0 + due a b, ITick tg, wt_tick_obs a b tg) :: wt_walk f (a' a b) (b' a b) (S tg) es) = []).
  { rewrite wsim_wevents_cons, wobs_tick. rewrite (proj2 (Nat.eqb_neq k b)) by lia. rewrite andb_false_r.
    cbn [map app]. apply IH; [exact Hba'|lia]. }
  assert (Ho : is_open a b k = false).
  { destruct (is_open a b k) eqn:E; [|reflexivity]. apply is_open_spec, in_seq in E. lia. }
  cbn [wt_walk]. destruct es as [|[t e] rest]; [exact Tick|].
  destruct (t <=? t0 + due a b); [|exact Tick].
  destruct e as [x|z|]; rewrite wsim_wevents_cons.
  - rewrite wobs_wins, Ho. cbn [map app]. apply IH; assumption.
  - rewrite wobs_term, Ho. cbn [map app]. apply wsim_wevents_dead.
  - rewrite wobs_term, Ho. cbn [map app]. apply wsim_wevents_dead.
Qed.

Notation sorted_from := TimedSim.sorted_from.

Lemma sorted_from_lb {X} (es : list (Z * X)) : forall lb, sorted_from lb es -> Forall (fun te => lb <= fst te) es.
Proof.
  induction es as [|[t e] r IH]; intros lb H; [constructor|]. destruct H as [H1 H2]. constructor; [exact H1|].
  eapply Forall_impl; [|exact (IH t H2)]. cbn. intros; lia.
Qed.

Lemma sorted_from_raise {X} (es : list (Z * X)) lb lb' : sorted_from lb es ->
  Forall (fun te => lb' <= fst te) es -> sorted_from lb' es.
Proof.
  destruct es as [|[t e] r]; [auto|]. intros [_ H2] H. inversion H; subst. split; assumption.
Qed.

Lemma sorted_from_after {X} d t (e : X) es : d < t -> sorted_from t es -> Forall (fun te => d < fst te) ((t, e) :: es).
Proof.
  intros Hd Hso. constructor; [exact Hd|]. eapply Forall_impl; [|exact (sorted_from_lb _ _ Hso)]. cbn. intros; lia.
Qed.

(* when the pending timer fires before every remaining event, the edges it stands for have fired
   before them (+1: the remaining events are strictly later than the tick, and [fired] asks for edges
   strictly before tau) *)
Lemma tick_advance {X} a b lb (es : list (Z * X)) : fired span shift a b (lb - t0) -> sorted_from lb es ->
  Forall (fun te => t0 + due a b < fst te) es ->
  fired span shift (a' a b) (b' a b) (Z.max lb (t0 + due a b + 1) - t0)
  /\ sorted_from (Z.max lb (t0 + due a b + 1)) es.
Proof.
  intros Hfi Hso Hall. split.
  - apply fired_tick; try assumption; [|lia]. eapply fired_mono; [exact Hfi|lia].
  - apply (sorted_from_raise _ lb); [exact Hso|].
    pose proof (sorted_from_lb _ _ Hso) as Hlb. rewrite Forall_forall in *. intros te Hte.
    specialize (Hall te Hte). specialize (Hlb te Hte). cbn in *. lia.
Qed.

Lemma wt_contents_after k (tl : list (Z * A)) :
  Forall (fun tx => t0 + (span + Z.of_nat k * shift) < fst tx) tl -> wt_contents k tl = [].
Proof.
  induction 1 as [|tx r Hx Hr IH]; [reflexivity|]. unfold wt_contents, in_win in *. cbn [filter].
  destruct (Z.leb_spec (fst tx - t0) (span + Z.of_nat k * shift)); [lia|]. rewrite andb_false_r. exact IH.
Qed.

Lemma wsrc_Forall (P : Z -> Prop) tl tm :
  Forall (fun te => P (fst te)) (wsrc tl tm) ->
  Forall (fun tx => P (fst tx)) tl /\ Forall (fun te => P (fst te)) (tm_ev tm).
Proof.
  unfold wsrc. intros H. apply Forall_app in H. destruct H as [H1 H2]. split; [|exact H2].
  rewrite Forall_map in H1. exact H1.
Qed.

(* fuel: one record per element, one for the terminal, and at most one tick per unit of time up to k's closing
   edge (every tick moves [due] forward by at least 1) *)
Lemma wt_window_events k tm : forall fuel a b tg (tl : list (Z * A)) lb,
  (b <= S a)%nat -> (b <= k)%nat -> fired span shift a b (lb - t0) -> sorted_from lb (wsrc tl tm) ->
  (length tl + 1 + Z.to_nat (span + Z.of_nat k * shift + 1 - due a b) <= fuel)%nat ->
  wsim_wevents k (wt_walk fuel a b tg (wsrc tl tm))
  = map (fun tx => (fst tx, Next (snd tx))) (wt_contents k tl) ++ wt_ending k tm.
Proof.
  induction fuel as [|f IH]; intros a b tg tl lb Hba Hbk Hfi Hso Hfu; [lia|].
  destruct (e_tick_progress span shift Hspan Hshift a b Hba) as (Hdue & Hba' & Ha' & Hb').
  assert (Hdk : due a b <= span + Z.of_nat k * shift) by (unfold e_due; nia).
  (* the timer fires before every remaining event *)
  assert (Tick : Forall (fun te => t0 + due a b < fst te) (wsrc tl tm) ->
            wsim_wevents k (wt_walk (S f) a b tg (wsrc tl tm))
            = map (fun tx => (fst tx, Next (snd tx))) (wt_contents k tl) ++ wt_ending k tm).
  { intros Hall. rewrite (wt_walk_tick f a b tg _ Hall), wsim_wevents_cons, wobs_tick.
    destruct (tick_advance a b lb _ Hfi Hso Hall) as [Hfi' Hso'].
    destruct (e_span span shift a b && Nat.eqb k b) eqn:Ecl.
    - (* the closing edge of k *)
      apply andb_true_iff in Ecl. destruct Ecl as [Esp Ekb]. apply Nat.eqb_eq in Ekb. subst b.
      assert (Eb' : b' a k = S k) by (unfold e_b'; now rewrite Esp).
      destruct (e_span_true span shift Hspan Hshift a k Esp) as [_ Ed].
      rewrite wt_walk_closed_silent by (rewrite ?Eb'; try exact Hba'; lia). rewrite app_nil_r.
      rewrite Ed in Hall. destruct (wsrc_Forall _ tl tm Hall) as [Htl Htm].
      rewrite (wt_contents_after k tl Htl).
      cbn [map app]. unfold wt_ending. rewrite Ed. destruct (tm_ev tm) as [|[T e] r]; [reflexivity|].
      inversion Htm; subst. cbn [fst] in *. destruct (Z.ltb_spec (span + Z.of_nat k * shift) (T - t0)); [reflexivity|lia].
    - cbn [map app].
      assert (Hbk' : (b' a b <= k)%nat).
      { unfold e_b'. destruct (e_span span shift a b); [|exact Hbk]. cbn [andb] in Ecl. apply Nat.eqb_neq in Ecl. lia. }
      apply (IH _ _ _ _ _ Hba' Hbk' Hfi' Hso'). lia. }
  destruct tl as [|[t x] rest].
  - (* no element left *)
    destruct (tm_ev tm) as [|[T e] r] eqn:Etm.
    + apply Tick. unfold wsrc. rewrite Etm. constructor.
    + assert (Er : r = []) by (destruct tm; cbn in Etm; inversion Etm; reflexivity). subst r.
      assert (HlbT : lb <= T) by (unfold wsrc in Hso; rewrite Etm in Hso; cbn in Hso; tauto).
      destruct (Z.leb_spec T (t0 + due a b)) as [El|El].
      * assert (Het : is_terminal e = true) by (destruct tm; cbn in Etm; inversion Etm; reflexivity).
        unfold wsrc at 1. cbn [map app]. rewrite Etm, (wt_walk_term f a b tg T e [] Het El).
        rewrite wsim_wevents_cons, wobs_term, wsim_wevents_dead, app_nil_r.
        rewrite (is_open_in_win a b (T - t0) k Hba) by (try eapply fired_mono; try exact Hfi; lia).
        unfold wt_ending. rewrite Etm. cbn [wt_contents filter map app].
        destruct (Z.ltb_spec (span + Z.of_nat k * shift) (T - t0)); [lia|].
        destruct (in_win span shift k (T - t0)); reflexivity.
      * apply Tick. unfold wsrc. rewrite Etm. constructor; [cbn; lia|constructor].
  - (* an element *)
    change (wsrc ((t, x) :: rest) tm) with ((t, Next x) :: wsrc rest tm) in *.
    destruct Hso as [Hlt Hso].
    destruct (Z.leb_spec t (t0 + due a b)) as [El|El].
    + rewrite (wt_walk_next f a b tg t x _ El), wsim_wevents_cons, wobs_wins.
      assert (Hf2 : fired span shift a b (t - t0)) by (eapply fired_mono; [exact Hfi|lia]).
      rewrite (is_open_in_win a b (t - t0) k Hba Hf2) by lia. unfold wt_contents. cbn [filter fst]. fold (wt_contents k rest).
      rewrite (IH a b tg rest t Hba Hbk Hf2 Hso) by (cbn [length] in Hfu; lia).
      destruct (in_win span shift k (t - t0)); reflexivity.
    + apply Tick. apply sorted_from_after; [lia|exact Hso].
Qed.

(* C18 (b): window k, on a sorted conforming timeline *)
Theorem window_time_contents (tl : list (Z * A)) tm k fuel : sorted_from t0 (wsrc tl tm) ->
  (length tl + 1 + Z.to_nat (span + Z.of_nat k * shift) <= fuel)%nat ->
  wsim_wevents k (snd (wsimulate all_imm M fuel t0 (wext_of (wsrc tl tm))))
  = map (fun tx => (fst tx, Next (snd tx))) (wt_contents k tl) ++ wt_ending k tm.
Proof.
  intros Hso Hfu. rewrite window_time_walk. cbn [snd].
  apply (wt_window_events k tm fuel 0 0 0 tl t0); [lia|lia|apply fired0|exact Hso|].
  pose proof (e_due_pos span shift Hspan Hshift 0 0). lia.
Qed.

Lemma wsim_outer_cons t (i : inp A) (o : list (obs A B)) l :
  wsim_outer ((t, i, o) :: l)
  = flat_map (fun x => match x with OHand _ _ | OEmit _ => [(t, x)] | _ => [] end) o ++ wsim_outer l.
Proof. reflexivity. Qed.

Lemma wsim_outer_dead (es : list (Z * ev A)) : wsim_outer (wt_dead es) = [].
Proof. induction es as [|[t e] r IH]; [reflexivity|]. cbn [wt_dead map]. rewrite wsim_outer_cons. exact IH. Qed.

Lemma outer_wins (t : Z) (e : ev A) q :
  flat_map (fun x : obs A B => match x with OHand _ _ | OEmit _ => [(t, x)] | _ => [] end) (map (fun g => OWin g e) q) = [].
Proof. induction q; auto. Qed.

Lemma wt_outer_from tm T e : tm_ev tm = [(T, e)] -> forall fuel a b tg (tl : list (Z * A)) lb,
  (b <= S a)%nat -> fired span shift a b (lb - t0) -> sorted_from lb (wsrc tl tm) ->
  (length tl + 1 + Z.to_nat (T - t0 + 1 - due a b) <= fuel)%nat ->
  wsim_outer (wt_walk fuel a b tg (wsrc tl tm))
  = map (fun k => (t0 + Z.of_nat k * shift, OHand k 0)) (seq (S a) (n_open shift (T - t0) - S a))
    ++ [(T, OEmit (out_term e))].
Proof.
  intros Htm.
  assert (Het : is_terminal e = true) by (destruct tm; cbn in Htm; inversion Htm; reflexivity).
  induction fuel as [|f IH]; intros a b tg tl lb Hba Hfi Hso Hfu; [lia|].
  destruct (e_tick_progress span shift Hspan Hshift a b Hba) as (Hdue & Hba' & Ha' & Hb').
  (* the timer fires before every remaining event *)
  assert (Tick : Forall (fun te => t0 + due a b < fst te) (wsrc tl tm) ->
            wsim_outer (wt_walk (S f) a b tg (wsrc tl tm))
            = map (fun k => (t0 + Z.of_nat k * shift, OHand k 0)) (seq (S a) (n_open shift (T - t0) - S a))
              ++ [(T, OEmit (out_term e))]).
  { intros Hall. rewrite (wt_walk_tick f a b tg _ Hall), wsim_outer_cons.
    destruct (wsrc_Forall (fun t => t0 + due a b < t) tl tm Hall) as [Htl HtT]. rewrite Htm in HtT.
    inversion HtT as [|? ? HT _]; subst. cbn [fst] in HT.
    destruct (tick_advance a b lb _ Hfi Hso Hall) as [Hfi' Hso'].
    rewrite (IH (a' a b) (b' a b) (S tg) tl _ Hba' Hfi' Hso') by lia.
    unfold wt_tick_obs, e_a'. destruct (e_shift span shift a b) eqn:Es.
    - (* the opening edge of window a+1 *)
      pose proof (e_shift_true span shift a b Es) as Ed.
      assert (Hao : (S a < n_open shift (T - t0))%nat).
      { apply (n_open_spec shift Hshift). right. rewrite Nat2Z.inj_succ. lia. }
      replace (n_open shift (T - t0) - S a)%nat with (S (n_open shift (T - t0) - S (S a))) by lia.
      cbn [seq map]. destruct (e_span span shift a b); cbn [app flat_map]; rewrite Ed, Nat2Z.inj_succ;
        repeat f_equal; lia.
    - destruct (e_span span shift a b); reflexivity. }
  destruct tl as [|[t x] rest].
  - (* the terminal *)
    assert (HlbT : lb <= T) by (unfold wsrc in Hso; rewrite Htm in Hso; cbn in Hso; tauto).
    destruct (Z.leb_spec T (t0 + due a b)) as [El|El].
    + unfold wsrc at 1. cbn [map app]. rewrite Htm, (wt_walk_term f a b tg T e [] Het El).
      rewrite (n_open_now span shift Hshift a b (T - t0)), Nat.sub_diag by (try eapply fired_mono; try exact Hfi; lia).
      rewrite wsim_outer_cons, wsim_outer_dead, app_nil_r. unfold wt_term_obs. rewrite flat_map_app, outer_wins.
      reflexivity.
    + apply Tick. unfold wsrc. rewrite Htm. constructor; [cbn; lia|constructor].
  - (* an element *)
    change (wsrc ((t, x) :: rest) tm) with ((t, Next x) :: wsrc rest tm) in *.
    destruct Hso as [Hlt Hso].
    destruct (Z.leb_spec t (t0 + due a b)) as [El|El].
    + rewrite (wt_walk_next f a b tg t x _ El), wsim_outer_cons, outer_wins. cbn [app].
      assert (Hf2 : fired span shift a b (t - t0)) by (eapply fired_mono; [exact Hfi|lia]).
      apply (IH a b tg rest t Hba Hf2 Hso). cbn [length] in Hfu. lia.
    + apply Tick. apply sorted_from_after; [lia|exact Hso].
Qed.

(* C18: the outer subscriber of a terminating timeline: window k >= 1 is handed at its opening edge
   t0 + k*shift iff that edge lies strictly before the source's terminal (window 0: inside
   subscribe); then the source's terminal *)
Theorem window_time_outer (tl : list (Z * A)) tm T e fuel : tm_ev tm = [(T, e)] ->
  sorted_from t0 (wsrc tl tm) -> (length tl + 1 + Z.to_nat (T - t0) <= fuel)%nat ->
  wsim_outer (snd (wsimulate all_imm M fuel t0 (wext_of (wsrc tl tm))))
  = map (fun k => (t0 + Z.of_nat k * shift, OHand k 0)) (seq 1 (n_open shift (T - t0) - 1))
    ++ [(T, OEmit (out_term e))].
Proof.
  intros Htm Hso Hfu. rewrite window_time_walk. cbn [snd].
  apply (wt_outer_from tm T e Htm fuel 0 0 0 tl t0); [lia|apply fired0|exact Hso|].
  pose proof (e_due_pos span shift Hspan Hshift 0 0). lia.
Qed.
End WindowTime.
