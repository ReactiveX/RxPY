(* List arithmetic behind Ops/SliceProof.v: [lastn] and closed forms ([firstn] / [skipn]) for the queue
   operators of Ops/Slice.v (take_last, skip_last, every_nth), for index tags, and for each primitive
   [pop] of a slice plan read through [map snd]. *)
From RxVerif Require Import Base.Prelude Base.PreludeFacts Ops.Slice.

Definition lastn {A} (k : nat) (l : list A) : list A := skipn (length l - k) l.

Lemma zlen_app {A} (l1 l2 : list A) : zlen (l1 ++ l2) = zlen l1 + zlen l2.
Proof. unfold zlen. rewrite app_length. lia. Qed.

Lemma lastn_length {A} k (l : list A) : length (lastn k l) = Nat.min k (length l).
Proof. unfold lastn. rewrite skipn_length. lia. Qed.

Lemma tl_skipn {A} (l : list A) : tl l = skipn 1 l.
Proof. destruct l; reflexivity. Qed.

Lemma skipn_skipn {A} (l : list A) : forall m n, skipn m (skipn n l) = skipn (m + n) l.
Proof.
  induction l as [|x t IH]; intros m n.
  - now rewrite !skipn_nil.
  - destruct n as [|n].
    + cbn [skipn]. now replace (m + 0)%nat with m by lia.
    + replace (m + S n)%nat with (S (m + n)) by lia. cbn [skipn]. apply IH.
Qed.

Lemma zlen_snoc {A} (q : list A) (x : A) : zlen (q ++ [x]) = Z.of_nat (length q) + 1.
Proof. unfold zlen. rewrite app_length. cbn [length]. lia. Qed.

Lemma skipn_snoc_full {A} (l : list A) (x : A) m :
  (m <= length l)%nat -> skipn m (l ++ [x]) = skipn m l ++ [x].
Proof.
  intros H. rewrite skipn_app. replace (m - length l)%nat with 0%nat by lia. reflexivity.
Qed.

Lemma take_last_push_lastn {A} (k : Z) (l : list A) (x : A) :
  0 <= k ->
  take_last_push k (lastn (Z.to_nat k) l) x = lastn (Z.to_nat k) (l ++ [x]).
Proof.
  intros Hk. unfold take_last_push. rewrite zlen_snoc, lastn_length.
  unfold lastn. rewrite app_length. cbn [length].
  destruct (Z.gtb_spec (Z.of_nat (Nat.min (Z.to_nat k) (length l)) + 1) k) as [H|H].
  - assert (Hl : (Z.to_nat k <= length l)%nat) by lia.
    rewrite tl_skipn.
    rewrite <- skipn_snoc_full by lia.
    rewrite skipn_skipn. f_equal. lia.
  - assert (Hl : (length l < Z.to_nat k)%nat) by lia.
    replace (length l - Z.to_nat k)%nat with 0%nat by lia.
    replace (length l + 1 - Z.to_nat k)%nat with 0%nat by lia.
    reflexivity.
Qed.

Lemma take_last_fold {A} (k : Z) (l l0 : list A) :
  0 <= k ->
  fold_left (take_last_push k) l (lastn (Z.to_nat k) l0) = lastn (Z.to_nat k) (l0 ++ l).
Proof.
  intros Hk. revert l0. induction l as [|x t IH]; intros l0; cbn [fold_left].
  - now rewrite app_nil_r.
  - rewrite take_last_push_lastn by assumption. rewrite IH.
    now rewrite <- app_assoc.
Qed.

Lemma take_last_spec {A} (k : Z) (l : list A) :
  0 <= k -> take_last k l = skipn (length l - Z.to_nat k) l.
Proof.
  intros Hk. unfold take_last.
  change (@nil A) with (lastn (Z.to_nat k) (@nil A)) at 1.
  rewrite take_last_fold by assumption. reflexivity.
Qed.

Lemma firstn_snoc_next {A} (l : list A) (x : A) :
  forall m, (m <= length l)%nat ->
  firstn m l ++ firstn 1 (skipn m l ++ [x]) = firstn (S m) (l ++ [x]).
Proof.
  induction l as [|y t IH]; intros m Hm.
  - cbn [length] in Hm. replace m with 0%nat by lia. reflexivity.
  - destruct m as [|m].
    + reflexivity.
    + cbn [length] in Hm. cbn [firstn skipn app]. f_equal. apply IH. lia.
Qed.

(* the queue of skip_last is the one of take_last; what leaves it is the next element of the output *)
Lemma skip_last_step_inv {A} (k : Z) (l : list A) (x : A) :
  0 <= k ->
  skip_last_step k (lastn (Z.to_nat k) l, firstn (length l - Z.to_nat k) l) x
  = (lastn (Z.to_nat k) (l ++ [x]), firstn (length (l ++ [x]) - Z.to_nat k) (l ++ [x])).
Proof.
  intros Hk. rewrite <- take_last_push_lastn by exact Hk. unfold skip_last_step, take_last_push.
  rewrite zlen_snoc, lastn_length, app_length. cbn [length].
  destruct (Z.gtb_spec (Z.of_nat (Nat.min (Z.to_nat k) (length l)) + 1) k) as [H|H]; f_equal.
  - replace (length l + 1 - Z.to_nat k)%nat with (S (length l - Z.to_nat k)) by lia.
    apply firstn_snoc_next. lia.
  - replace (length l - Z.to_nat k)%nat with 0%nat by lia.
    replace (length l + 1 - Z.to_nat k)%nat with 0%nat by lia.
    reflexivity.
Qed.

Lemma skip_last_fold {A} (k : Z) (l l0 : list A) :
  0 <= k ->
  fold_left (skip_last_step k) l (lastn (Z.to_nat k) l0, firstn (length l0 - Z.to_nat k) l0)
  = (lastn (Z.to_nat k) (l0 ++ l), firstn (length (l0 ++ l) - Z.to_nat k) (l0 ++ l)).
Proof.
  intros Hk. revert l0. induction l as [|x t IH]; intros l0; cbn [fold_left].
  - now rewrite app_nil_r.
  - rewrite skip_last_step_inv by assumption. rewrite IH. now rewrite <- app_assoc.
Qed.

Lemma skip_last_spec {A} (k : Z) (l : list A) :
  0 <= k -> skip_last k l = firstn (length l - Z.to_nat k) l.
Proof.
  intros Hk. unfold skip_last.
  change (@nil A, @nil A) with
    (lastn (Z.to_nat k) (@nil A), firstn (length (@nil A) - Z.to_nat k) (@nil A)).
  rewrite skip_last_fold by assumption. reflexivity.
Qed.

Lemma every_nth_from_map {A B} (f : A -> B) step (l : list A) :
  forall i, every_nth_from i step (map f l) = map f (every_nth_from i step l).
Proof.
  induction l as [|x t IH]; intros i; cbn [every_nth_from map]; [reflexivity|].
  destruct (i mod step =? 0); cbn [map]; now rewrite IH.
Qed.

Lemma tag_from_map_snd {A} (l : list (Z * A)) : forall i, map snd (tag_from i l) = map snd l.
Proof.
  induction l as [|[j x] t IH]; intros i; cbn [tag_from map snd]; [reflexivity|].
  now rewrite IH.
Qed.

Lemma tag_from_length {A} (l : list (Z * A)) : forall i, length (tag_from i l) = length l.
Proof.
  induction l as [|[j x] t IH]; intros i; cbn [tag_from length]; [reflexivity|].
  now rewrite IH.
Qed.

Lemma skipn_tag_from {A} (l : list (Z * A)) :
  forall m i, skipn m (tag_from i l) = tag_from (i + Z.of_nat m) (skipn m l).
Proof.
  induction l as [|[j x] t IH]; intros m i.
  - cbn [tag_from]. rewrite !skipn_nil. reflexivity.
  - destruct m as [|m].
    + cbn [skipn]. replace (i + Z.of_nat 0) with i by lia. reflexivity.
    + cbn [tag_from skipn]. rewrite IH. f_equal. lia.
Qed.

Lemma filter_tag_lt {A} (l : list (Z * A)) :
  forall i stop,
  map snd (filter (fun ix => fst ix <? stop) (tag_from i l))
  = firstn (Z.to_nat (stop - i)) (map snd l).
Proof.
  induction l as [|[j x] t IH]; intros i stop.
  - cbn. now rewrite firstn_nil.
  - cbn [tag_from filter fst map snd].
    destruct (Z.ltb_spec i stop) as [H|H].
    + cbn [map snd]. rewrite IH.
      replace (Z.to_nat (stop - i)) with (S (Z.to_nat (stop - (i + 1)))) by lia.
      reflexivity.
    + replace (Z.to_nat (stop - i)) with 0%nat by lia. cbn [firstn].
      (* nothing later passes either *)
      rewrite IH. replace (Z.to_nat (stop - (i + 1))) with 0%nat by lia. reflexivity.
Qed.

Lemma every_nth_1 {A} (l : list A) : every_nth 1 l = l.
Proof.
  unfold every_nth. generalize 0. induction l as [|x t IH]; intros i; cbn [every_nth_from].
  - reflexivity.
  - rewrite Z.mod_1_r. cbn. now rewrite IH.
Qed.

Definition seg {A} (a b : nat) (l : list A) := firstn a (skipn b l).

Definition run_tagged {A} (plan : list pop) (tl : list (Z * A)) : list (Z * A) :=
  fold_left (fun acc p => run_pop p acc) plan tl.

Lemma run_plan_tagged {A} plan (l : list A) :
  run_plan plan l = map snd (run_tagged plan (map (fun x => (0, x)) l)).
Proof. reflexivity. Qed.

Lemma run_tagged_cons {A} p plan (tl : list (Z * A)) :
  run_tagged (p :: plan) tl = run_tagged plan (run_pop p tl).
Proof. reflexivity. Qed.

Lemma map_snd_tag0 {A} (l : list A) : map snd (map (fun x => (0, x)) l) = l.
Proof. rewrite map_map. cbn. apply map_id. Qed.

Section PopFacts.
Context {A : Type}.
Implicit Types (tl : list (Z * A)).

Lemma pop_take tl n : map snd (run_pop (PTake n) tl) = firstn (Z.to_nat n) (map snd tl).
Proof. cbn. now rewrite ztake_firstn, firstn_map. Qed.

Lemma pop_skip tl n : map snd (run_pop (PSkip n) tl) = skipn (Z.to_nat n) (map snd tl).
Proof. cbn. now rewrite zskip_skipn, skipn_map. Qed.

Lemma pop_take_last tl n : 0 <= n ->
  map snd (run_pop (PTakeLast n) tl) = skipn (length (map snd tl) - Z.to_nat n) (map snd tl).
Proof. intros H. cbn. rewrite take_last_spec by assumption. now rewrite skipn_map, map_length. Qed.

Lemma pop_skip_last tl n : 0 <= n ->
  map snd (run_pop (PSkipLast n) tl) = firstn (length (map snd tl) - Z.to_nat n) (map snd tl).
Proof. intros H. cbn. rewrite skip_last_spec by assumption. now rewrite firstn_map, map_length. Qed.

Lemma pop_every_nth tl n : map snd (run_pop (PEveryNth n) tl) = every_nth n (map snd tl).
Proof. cbn. unfold every_nth. now rewrite every_nth_from_map. Qed.

(* the tagged path of a negative start with a non-negative stop: l[:stop], then its part from n - k on *)
Lemma pop_tagged_tail tl k stop : 0 <= k ->
  map snd (run_tagged [PTagIndex; PTakeLast k; PFilterTagLt stop; PUntag] tl)
  = skipn (length (map snd tl) - Z.to_nat k) (firstn (Z.to_nat stop) (map snd tl)).
Proof.
  intros Hk. unfold run_tagged. cbn [fold_left].
  cbn [run_pop]. rewrite map_map. cbn [snd].
  change (map (fun x : Z * A => snd x)) with (@map (Z * A) A snd).
  rewrite take_last_spec by assumption. rewrite tag_from_length.
  rewrite skipn_tag_from, filter_tag_lt, <- skipn_map, skipn_firstn_comm, map_length.
  f_equal. lia.
Qed.
End PopFacts.
