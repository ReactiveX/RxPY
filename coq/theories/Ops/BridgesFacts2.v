(* C41: the models of Ops/BridgesRun.v.  run() as run.py computes it agrees with [run_outcome] (the
   to_future based description) on ALL notification sequences, conforming or not: the two state machines
   run in lock step ([rel]).  from_callback with an arbitrary mapper function. *)
From RxVerif Require Import Base.Prelude Ops.Machine Ops.Bridges Ops.BridgesFacts Ops.BridgesRun.

Local Open Scope nat_scope.

Definition outcome_of (f : fstate) : outcome :=
  match f with
  | FResult v => Returns v
  | FExn e => Raises e
  | FCancelled => Raises CANCELLED
  | FPending => Blocks
  end.

Definition rel (s : option Z * fstate * bool) (rs : rstate) : Prop :=
  let '(last, fut, live) := s in
  if live then
    fut = FPending /\ r_stopped rs = false /\ r_done rs = false /\ r_exn rs = None
    /\ last = (if r_has rs then Some (r_result rs) else None)
  else r_stopped rs = true /\ outcome_of fut = rm_final rs.

Lemma rel_init : rel (None, FPending, true) r_init.
Proof. cbn. repeat split. Qed.

Lemma rel_step s rs k e : rel s rs -> rel (fst (tf_step s k (TSrc e))) (rm_step rs e).
Proof.
  destruct s as [[last fut] [|]]; cbn [rel]; unfold rm_step.
  - intros (-> & -> & D & X & L). destruct e as [v|x|]; cbn [tf_step fst rel]; [repeat split; assumption|split; reflexivity|].
    split; [reflexivity|]. unfold rm_final. cbn [r_done r_exn r_has r_result negb]. rewrite X, L. now destruct (r_has rs).
  - intros [St R]. rewrite St. destruct e; split; assumption.
Qed.

Lemma rel_final s rs : rel s rs -> outcome_of (snd (fst s)) = rm_final rs.
Proof.
  destruct s as [[last fut] [|]]; cbn [rel fst snd]; [|intros [_ R]; exact R].
  intros (-> & _ & D & _). unfold rm_final. now rewrite D.
Qed.

Lemma run_models_agree_from ins : forall s k rs, rel s rs ->
  outcome_of (snd (tf_run s k (map TSrc ins))) = rm_final (fold_left rm_step ins rs).
Proof.
  induction ins as [|e t IH]; intros s k rs R; [exact (rel_final s rs R)|].
  cbn [map tf_run fold_left]. pose proof (rel_step s rs k e R) as R'. destruct (tf_step s k (TSrc e)) as [s' u].
  specialize (IH s' (S k) _ R'). now destruct (tf_run s' (S k) (map TSrc t)).
Qed.

(* run() as run.py computes it = the outcome of the to_future description, ALL sequences
   (no grammar assumed: elements after a terminal notification, several terminals, none) *)
Theorem run_model_is_run_outcome ins : run_model ins = run_outcome ins.
Proof.
  unfold run_model, run_outcome, to_future.
  rewrite <- (run_models_agree_from ins (None, FPending, true) 1 r_init rel_init).
  reflexivity.
Qed.

Lemma fc_run_fn_stopped m invs : fc_run_fn m true invs = [].
Proof. induction invs as [|[k a] t IH]; [reflexivity|exact IH]. Qed.

Theorem from_callback_fn_first_invocation m k args rest :
  from_callback_fn m ((k, args) :: rest) = handler_notes_fn m k args.
Proof. unfold from_callback_fn. cbn [fc_run_fn]. now rewrite fc_run_fn_stopped, app_nil_r. Qed.

Theorem from_callback_fn_no_mapper k args rest :
  from_callback_fn None ((k, args) :: rest) = [(k, Next (arguments_value args)); (k, Done)].
Proof. rewrite from_callback_fn_first_invocation. reflexivity. Qed.

Theorem from_callback_fn_mapper (mp : list Z -> res Z) k args rest v : mp args = Ok v ->
  from_callback_fn (Some mp) ((k, args) :: rest) = [(k, Next (VOne v)); (k, Done)].
Proof. intros E. rewrite from_callback_fn_first_invocation. cbn [handler_notes_fn]. now rewrite E. Qed.

Theorem from_callback_fn_mapper_raises (mp : list Z -> res Z) k args rest e : mp args = Raise e ->
  from_callback_fn (Some mp) ((k, args) :: rest) = [(k, Err e)].
Proof. intros E. rewrite from_callback_fn_first_invocation. cbn [handler_notes_fn]. now rewrite E. Qed.

(* the model the correspondence evaluates is the instance at the four concrete mappers *)
Theorem from_callback_is_instance m invs :
  from_callback m invs = from_callback_fn (option_map apply_mapper m) invs.
Proof.
  unfold from_callback, from_callback_fn. generalize false.
  induction invs as [|[k a] t IH]; intros st; [reflexivity|].
  cbn [fc_run fc_run_fn]. destruct st; [apply IH|]. rewrite IH. f_equal.
  destruct m; reflexivity.
Qed.
