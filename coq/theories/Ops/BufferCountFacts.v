(* C18: buffer_with_count -- closed form of the whole run, for ALL count >= 1,
   skip >= 1, every finite source and every termination:
     buffer k is the slice  xs[k*skip .. k*skip+count-1]  (shorter at the end),
     buffers are emitted in the order of k,
     a completing source flushes the non-empty partial buffers (those with
       k*skip < length) and then completes,
     a failing source emits only the buffers that were full before the error,
       then the error; the partial ones are lost.
   The machine is [x_buffer_count] = [buffered false (x_window_count ...)]
   (Ops/Windows.v) under the window runner of Ops/MultiWin.v.
   First, shared with BufferTimeSim and BufferToggleRun: arithmetic of [zskip] / [ztake] / [zlen], and what
   [buf_cmds] (flat_map(to_list)) does with the commands the window machines send to every open window
   ([bc_wins_next], [bc_wins_done], [bc_wins_err]); [apply_emits] for the runner. *)
From RxVerif Require Import Base.Prelude Base.PreludeFacts Ops.Machine Ops.MultiFacts Ops.MultiWin Ops.MultiWinFacts Ops.Windows
  Ops.WindowCountFacts Ops.BufferFacts.

Local Arguments Z.of_nat : simpl never.
Local Arguments Z.mul : simpl never.
Local Arguments Z.add : simpl never.
Local Arguments Z.sub : simpl never.
Local Arguments Z.div : simpl never.
Local Arguments Multi.mem : simpl never.
Local Arguments Multi.remove : simpl never.

Lemma zlen_app {X} (a b : list X) : zlen (a ++ b) = zlen a + zlen b.
Proof. unfold zlen. rewrite app_length. lia. Qed.
Lemma zskip_app_le {X} (p : list X) : forall a q, a <= zlen p -> zskip a (p ++ q) = zskip a p ++ q.
Proof.
  induction p as [|x t IH]; intros a q Ha.
  - unfold zlen in Ha. cbn [length] in Ha. cbn [app zskip].
    destruct q as [|y q]; [reflexivity|]. cbn [zskip]. destruct (Z.leb_spec a 0); [reflexivity|lia].
  - cbn [app zskip]. destruct (Z.leb_spec a 0); [reflexivity|].
    apply IH. unfold zlen in *. cbn [length] in Ha. lia.
Qed.

Lemma zskip_all {X} (l : list X) : forall a, zlen l <= a -> zskip a l = [].
Proof.
  induction l as [|x t IH]; intros a Ha; [reflexivity|]. cbn [zskip].
  unfold zlen in *. cbn [length] in Ha. destruct (Z.leb_spec a 0); [lia|]. apply IH. lia.
Qed.

Lemma zlen_zskip {X} (l : list X) : forall a, 0 <= a -> a <= zlen l -> zlen (zskip a l) = zlen l - a.
Proof.
  induction l as [|x t IH]; intros a H0 Ha.
  - unfold zlen in *. cbn [length] in *. cbn. lia.
  - cbn [zskip]. destruct (Z.leb_spec a 0).
    + replace a with 0 by lia. lia.
    + rewrite IH; unfold zlen in *; cbn [length] in *; lia.
Qed.

Lemma ztake_app_exact {X} (p : list X) : forall c q, zlen p = c -> ztake c (p ++ q) = p.
Proof.
  induction p as [|x t IH]; intros c q Hc.
  - unfold zlen in Hc. cbn [length] in Hc. subst c. destruct q; reflexivity.
  - cbn [app ztake]. unfold zlen in *. cbn [length] in Hc. destruct (Z.leb_spec c 0); [lia|].
    f_equal. apply IH. lia.
Qed.

Section BufCount.
Context {A : Type}.
Variables count skip : Z.
Hypothesis Hcount : 0 < count.
Hypothesis Hskip : 0 < skip.

Notation MW := (x_window_count (A:=A) (B:=unit) count skip).
Notation M := (x_buffer_count (A:=A) count skip).
Notation bc := (buf_cmds (A:=A) (B0:=unit)).
Notation inv := (wc_inv count skip).

(* number of buffers of a source of n elements: a completing source also
   flushes the partial ones *)
Definition nbuffers (n : Z) (tm : term) : nat :=
  match tm with
  | TDone => Z.to_nat ((n + skip - 1) / skip)
  | _ => Z.to_nat (if n <? count then 0 else (n - count) / skip + 1)
  end.

Lemma nbuffers_done n k : 0 <= n -> ((k < nbuffers n TDone)%nat <-> Z.of_nat k * skip < n).
Proof.
  intros Hn. cbn [nbuffers]. replace (n + skip - 1) with (n - 1 + 1 * skip) by lia.
  rewrite Z.div_add, (zdiv_count skip (n - 1) k Hskip) by lia. lia.
Qed.

Lemma nbuffers_full n tm k : tm <> TDone -> 0 <= n ->
  ((k < nbuffers n tm)%nat <-> Z.of_nat k * skip + count <= n).
Proof.
  intros Htm Hn.
  assert (E : nbuffers n tm = Z.to_nat (if n <? count then 0 else (n - count) / skip + 1))
    by (destruct tm; [congruence|reflexivity|reflexivity]).
  rewrite E. destruct (Z.ltb_spec n count) as [Hlt|Hge].
  - cbn. split; [lia|nia].
  - rewrite (zdiv_count skip (n - count) k Hskip). lia.
Qed.

Definition okeys (open : list (nat * list A)) : list nat := map fst open.

Lemma buf_add_skip g x (head tail : list (nat * list A)) b :
  ~ In g (okeys head) -> buf_add g x (head ++ (g, b) :: tail) = head ++ (g, b ++ [x]) :: tail.
Proof.
  induction head as [|[j c] t IH]; intros Hn; cbn [app buf_add].
  - now rewrite Nat.eqb_refl.
  - cbn [okeys map fst] in Hn. destruct (Nat.eqb_spec g j) as [->|Hne]; [exfalso; apply Hn; left; reflexivity|].
    f_equal. apply IH. intros H. apply Hn. right. exact H.
Qed.

Lemma okeys_app (p q : list (nat * list A)) : okeys (p ++ q) = okeys p ++ okeys q.
Proof. unfold okeys. apply map_app. Qed.

(* `for s in q: s.on_next(x)`: every open buffer gets x *)
Lemma bc_wins_next keep od x (open : list (nat * list A)) : forall head,
  NoDup (okeys head ++ okeys open) ->
  bc keep (head ++ open) od (wins_all (okeys open) (Next x))
  = (head ++ map (fun kb => (fst kb, snd kb ++ [x])) open, [], Cont).
Proof.
  induction open as [|[g b] t IH]; intros head Hnd; [reflexivity|].
  cbn [okeys map fst wins_all buf_cmds].
  assert (Hg : ~ In g (okeys head)).
  { intros Hin. apply NoDup_remove_2 in Hnd. apply Hnd. apply in_or_app. left. exact Hin. }
  rewrite buf_add_skip by exact Hg.
  change (head ++ (g, b ++ [x]) :: t) with (head ++ [(g, b ++ [x])] ++ t). rewrite app_assoc.
  fold (okeys t). fold (wins_all (B:=unit) (okeys t) (Next x)). rewrite IH.
  - cbn [map fst snd]. now rewrite <- app_assoc.
  - rewrite okeys_app, <- app_assoc. exact Hnd.
Qed.

Lemma bc_wins_next_all keep od x (open : list (nat * list A)) : NoDup (okeys open) ->
  bc keep open od (wins_all (okeys open) (Next x)) = (map (fun kb => (fst kb, snd kb ++ [x])) open, [], Cont).
Proof. exact (bc_wins_next keep od x open []). Qed.

(* `for s in q: s.on_completed()` at the source's completion: every open buffer is emitted, in
   order (unless empty, for buffer_with_count); if the outer had completed, so does the result *)
Lemma bc_wins_done keep od (open : list (nat * list A)) :
  NoDup (okeys open) ->
  bc keep open od (wins_all (okeys open) Done)
  = ([], map CEmit (filter (fun b => keep || negb (match b with [] => true | _ => false end)) (map snd open)),
     if od && negb (match open with [] => true | _ => false end) then Complete else Cont).
Proof.
  induction open as [|[g b] t IH]; intros Hnd; [now rewrite Bool.andb_false_r|].
  cbn [okeys map fst snd wins_all buf_cmds buf_get buf_del filter]. rewrite Nat.eqb_refl.
  cbn [negb]. rewrite Bool.andb_true_r. fold (okeys t). fold (wins_all (A:=A) (B:=unit) (okeys t) Done).
  inversion Hnd as [|? ? _ Hd]; subst. specialize (IH Hd).
  destruct od; cbn [andb].
  - destruct t as [|[g' b'] t'].
    + destruct (keep || negb match b with [] => true | _ => false end); reflexivity.
    + rewrite IH. cbn [negb andb]. destruct (keep || negb match b with [] => true | _ => false end); reflexivity.
  - rewrite IH. cbn [andb]. destruct (keep || negb match b with [] => true | _ => false end); reflexivity.
Qed.

(* an erroring source: nothing is emitted; the result fails if a buffer is open *)
Lemma bc_wins_err keep od e (open : list (nat * list A)) :
  snd (fst (bc keep open od (wins_all (okeys open) (Err e)))) = []
  /\ snd (bc keep open od (wins_all (okeys open) (Err e))) = match open with [] => Cont | _ => Fail e end.
Proof. destruct open as [|[g b] t]; cbn; [auto|]. rewrite Nat.eqb_refl. cbn. auto. Qed.

(* the open buffers after the prefix [done] of the source *)
Definition bopen (done : list A) (lo nx : nat) : list (nat * list A) :=
  map (fun k => (k, zskip (Z.of_nat k * skip) done)) (seq lo (nx - lo)).

Lemma okeys_bopen done lo nx : okeys (bopen done lo nx) = seq lo (nx - lo).
Proof. unfold okeys, bopen. rewrite map_map. cbn [fst]. apply map_id. Qed.

Lemma bopen_head done lo nx : (lo < nx)%nat ->
  bopen done lo nx = (lo, zskip (Z.of_nat lo * skip) done) :: bopen done (S lo) nx.
Proof.
  intros H. unfold bopen. destruct (nx - lo)%nat as [|len] eqn:El; [lia|]. cbn [seq map].
  replace (nx - S lo)%nat with len by lia. reflexivity.
Qed.

Lemma bopen_snoc done lo nx : (lo <= nx)%nat -> zlen done <= Z.of_nat nx * skip ->
  bopen done lo (S nx) = bopen done lo nx ++ [(nx, [])].
Proof.
  intros H Hd. unfold bopen. replace (S nx - lo)%nat with ((nx - lo) + 1)%nat by lia. rewrite seq_app, map_app.
  cbn [seq map]. replace (lo + (nx - lo))%nat with nx by lia. now rewrite (zskip_all done) by exact Hd.
Qed.

Lemma bopen_push done lo nx x : Z.of_nat nx * skip <= zlen done + skip ->
  map (fun kb => (fst kb, snd kb ++ [x])) (bopen done lo nx) = bopen (done ++ [x]) lo nx.
Proof.
  intros Hd. unfold bopen. rewrite map_map. cbn [fst snd]. apply map_ext_in. intros k Hk. apply in_seq in Hk.
  f_equal. symmetry. apply zskip_app_le. nia.
Qed.

(* one source element through the buffered machine: every open buffer gets it, the oldest is emitted
   if it is full now, a new one is opened if its first index comes next *)
Lemma bstep_next s n lo nx (done : list A) (x : A) now :
  inv s n lo nx -> n = zlen done ->
  let closing := n =? Z.of_nat lo * skip + count - 1 in
  let opening := n + 1 =? Z.of_nat nx * skip in
  x_step M (BufSt s (bopen done lo nx) false) now (ISrc 0%nat (Next x))
  = (BufSt (fst (wc_on_next (B:=unit) count skip s x))
           (bopen (done ++ [x]) (if closing then S lo else lo) (if opening then S nx else nx)) false,
     map CEmit (if closing then [zskip (Z.of_nat lo * skip) (done ++ [x])] else []), Cont).
Proof.
  intros I Hn. pose proof (wc_inv_lo_le count skip Hcount Hskip _ _ _ _ I) as Hle.
  destruct (wc_on_next_spec count skip Hcount Hskip (B:=unit) s n lo nx x I) as (_ & Hcs & Hlt).
  cbn zeta in *.
  unfold x_buffer_count. rewrite x_step_buffered. cbn [x_step b_inner b_open b_outer_done x_window_count].
  destruct (wc_on_next (B:=unit) count skip s x) as [s' cs]. cbn [fst snd] in *. subst cs.
  rewrite <- (okeys_bopen done lo nx), buf_cmds_app, bc_wins_next_all by (rewrite okeys_bopen; apply seq_NoDup).
  cbn [fst snd app]. rewrite bopen_push by (destruct I; lia).
  assert (Hlen : zlen (done ++ [x]) = n + 1) by (rewrite zlen_app; change (zlen [x]) with 1; lia).
  assert (Eopen : forall l, (l <= nx)%nat ->
            bc false (bopen (done ++ [x]) l nx) false (if n + 1 =? Z.of_nat nx * skip then [CHand nx 0] else [])
            = (bopen (done ++ [x]) l (if n + 1 =? Z.of_nat nx * skip then S nx else nx), [], Cont)).
  { intros l Hl. destruct (Z.eqb_spec (n + 1) (Z.of_nat nx * skip)); [|reflexivity].
    cbn [buf_cmds]. now rewrite bopen_snoc by lia. }
  destruct (Z.eqb_spec n (Z.of_nat lo * skip + count - 1)) as [Ec|Ec].
  - specialize (Hlt eq_refl). rewrite (bopen_head (done ++ [x]) lo nx Hlt). cbn [app buf_cmds buf_get buf_del].
    rewrite Nat.eqb_refl. cbn [andb orb]. rewrite Eopen by exact Hlt.
    (* the buffer that is full now is not empty *)
    destruct (zskip (Z.of_nat lo * skip) (done ++ [x])) as [|z0 zs] eqn:Ez; [|reflexivity].
    pose proof (zlen_zskip (done ++ [x]) (Z.of_nat lo * skip)) as HL. rewrite Ez in HL.
    change (zlen (@nil A)) with 0 in HL. nia.
  - cbn [app]. rewrite Eopen by exact Hle. reflexivity.
Qed.

(* the runner's state during the run: the source is subscribed, nothing else *)
Definition R0 : rstate A := RState [0%nat] [] true [] [] [] false.

Lemma apply_emits (r : rstate A) (l : list (list A)) : r_outer r = true ->
  apply_cmds (W:=A) all_imm r (map CEmit l) = (r, map (fun b => OEmit (Next b)) l).
Proof.
  intros Hr. induction l as [|b t IH]; [reflexivity|]. cbn [map apply_cmds apply_cmd]. rewrite Hr, IH.
  reflexivity.
Qed.

Lemma emitted_tag_emits k (l : list (list A)) (rest : list (nat * obs A (list A))) :
  emitted (map (fun x => (k, x)) (map (fun b => OEmit (Next b)) l) ++ rest) = map Next l ++ emitted rest.
Proof. induction l as [|b t IH]; [reflexivity|]. cbn. now rewrite <- IH. Qed.

Lemma emitted_term_release k (e : ev (list A)) (l1 l2 : list nat) :
  emitted (map (fun x => (k, x)) (OEmit (W:=A) e :: map OUnsub l1 ++ map OCancel l2)) = [e].
Proof.
  cbn [map emitted flat_map snd app]. f_equal. rewrite map_app. unfold emitted. rewrite flat_map_app.
  assert (H1 : forall l, flat_map (fun x : nat * obs A (list A) => match snd x with OEmit e0 => [e0] | _ => [] end)
                           (map (fun x => (k, x)) (map OUnsub l)) = []) by (induction l; auto).
  assert (H2 : forall l, flat_map (fun x : nat * obs A (list A) => match snd x with OEmit e0 => [e0] | _ => [] end)
                           (map (fun x => (k, x)) (map OCancel l)) = []) by (induction l; auto).
  now rewrite H1, H2.
Qed.

Lemma brstep_next s n lo nx (done : list A) (x : A) now :
  inv s n lo nx -> n = zlen done ->
  let closing := n =? Z.of_nat lo * skip + count - 1 in
  let opening := n + 1 =? Z.of_nat nx * skip in
  rstep all_imm M (BufSt s (bopen done lo nx) false) R0 now (ISrc 0%nat (Next x))
  = (BufSt (fst (wc_on_next (B:=unit) count skip s x))
           (bopen (done ++ [x]) (if closing then S lo else lo) (if opening then S nx else nx)) false,
     R0,
     map (fun b => OEmit (Next b)) (if closing then [zskip (Z.of_nat lo * skip) (done ++ [x])] else [])).
Proof.
  intros I Hn. cbn zeta. cbn [rstep R0 r_live]. change (mem 0%nat [0%nat]) with true. cbn iota.
  unfold deliver. rewrite (bstep_next s n lo nx done x now I Hn). cbn zeta.
  rewrite apply_emits by reflexivity. cbn [finish fst snd is_terminal andb app].
  now rewrite app_nil_r.
Qed.

(* the source completes: the non-empty open buffers are flushed in order *)
Lemma brstep_done s n lo nx (xs : list A) now : inv s n lo nx ->
  exists st' r',
    rstep all_imm M (BufSt s (bopen xs lo nx) false) R0 now (ISrc 0%nat Done)
    = (st', r', map (fun b => OEmit (Next b))
                    (filter (fun b => negb match b with [] => true | _ => false end) (map snd (bopen xs lo nx)))
                ++ OEmit Done :: map OUnsub [0%nat] ++ map OCancel []).
Proof.
  intros I. cbn [rstep R0 r_live]. change (mem 0%nat [0%nat]) with true. cbn iota.
  unfold deliver, x_buffer_count. rewrite x_step_buffered. cbn [x_step b_inner b_open b_outer_done x_window_count].
  rewrite (wi_q _ _ _ _ _ _ I), <- (okeys_bopen xs lo nx), bc_wins_done by (rewrite okeys_bopen; apply seq_NoDup).
  cbn [andb buf_finish orb]. rewrite apply_emits by reflexivity. eexists _, _. reflexivity.
Qed.

(* the source fails: the partial buffers are lost *)
Lemma brstep_err s n lo nx (xs : list A) now e : inv s n lo nx ->
  exists st' r',
    rstep all_imm M (BufSt s (bopen xs lo nx) false) R0 now (ISrc 0%nat (Err e)) = (st', r', [OEmit (Err e); OUnsub 0%nat]).
Proof.
  intros I. cbn [rstep R0 r_live]. change (mem 0%nat [0%nat]) with true. cbn iota.
  unfold deliver, x_buffer_count. rewrite x_step_buffered. cbn [x_step b_inner b_open b_outer_done x_window_count].
  rewrite (wi_q _ _ _ _ _ _ I), <- (okeys_bopen xs lo nx).
  destruct (bc_wins_err false false e (bopen xs lo nx)) as [Ho Hf].
  destruct (bc false (bopen xs lo nx) false (wins_all (okeys (bopen xs lo nx)) (Err e))) as [[op out] f1].
  cbn [fst snd] in *. subst out f1. destruct (bopen xs lo nx); eexists _, _; reflexivity.
Qed.

Definition slice (xs : list A) (k : nat) : list A := ztake count (zskip (Z.of_nat k * skip) xs).

(* the non-empty partial buffers are their slices *)
Lemma flush_slices (xs : list A) (l : list nat) :
  (forall k, In k l -> Z.of_nat k * skip < zlen xs /\ zlen xs < Z.of_nat k * skip + count) ->
  filter (fun b : list A => negb match b with [] => true | _ => false end)
         (map (fun k => zskip (Z.of_nat k * skip) xs) l) = map (slice xs) l.
Proof.
  induction l as [|k l IHl]; intros Hl; [reflexivity|]. cbn [map filter].
  destruct (Hl k (or_introl eq_refl)) as [Hk1 Hk2].
  assert (Hk0 : 0 <= Z.of_nat k * skip) by nia.
  assert (HL : zlen (zskip (Z.of_nat k * skip) xs) = zlen xs - Z.of_nat k * skip)
    by (apply zlen_zskip; lia).
  assert (Hs : zskip (Z.of_nat k * skip) xs = slice xs k).
  { unfold slice. symmetry. apply ztake_all. lia. }
  rewrite <- Hs. destruct (zskip (Z.of_nat k * skip) xs) eqn:Ez.
  - change (zlen (@nil A)) with 0 in HL. lia.
  - cbn [negb]. f_equal. apply IHl. intros j Hj. apply Hl. right. exact Hj.
Qed.

(* at the source's completion the non-empty open buffers are the slices lo .. nbuffers - 1: the
   newest buffer is empty iff the number of elements is a multiple of skip *)
Lemma flush_open s lo nx (xs : list A) : inv s (zlen xs) lo nx ->
  filter (fun b : list A => negb match b with [] => true | _ => false end) (map snd (bopen xs lo nx))
  = map (slice xs) (seq lo (nbuffers (zlen xs) TDone - lo)).
Proof.
  intros I. pose proof (wc_inv_lo_le count skip Hcount Hskip _ _ _ _ I) as Hle.
  unfold bopen. rewrite map_map. cbn [snd]. destruct I as [_ Hn0 _ _ Hnx1 H1 H2 H3 H4].
  (* only the bounds of the invariant are used: H1, H2 put zlen xs in [(nx-1)*skip, nx*skip), H3 gives [Hhi] *)
  set (K := nbuffers (zlen xs) TDone).
  assert (HK : forall k, (k < K)%nat <-> Z.of_nat k * skip < zlen xs) by (intros k; apply nbuffers_done; lia).
  assert (Hhi : forall k, (lo <= k)%nat -> zlen xs < Z.of_nat k * skip + count) by (intros k Hk; nia).
  (* the buffers lo .. K-1 are not empty *)
  assert (Hfl : forall len, (lo + len <= K)%nat ->
            filter (fun b : list A => negb match b with [] => true | _ => false end)
                   (map (fun k => zskip (Z.of_nat k * skip) xs) (seq lo len)) = map (slice xs) (seq lo len)).
  { intros len Hl. apply flush_slices. intros k Hk. apply in_seq in Hk. split; [apply HK; lia|apply Hhi; lia]. }
  destruct (Z.eq_dec ((Z.of_nat nx - 1) * skip) (zlen xs)) as [Eeq|Eneq].
  - assert (EK : K = (nx - 1)%nat).
    { assert (~ (nx - 1 < K)%nat) by (rewrite HK; nia).
      destruct (Nat.eq_dec nx 1) as [->|]; [lia|].
      assert ((nx - 2 < K)%nat) by (apply HK; nia). lia. }
    rewrite EK. destruct (nx - lo)%nat as [|len] eqn:El.
    + replace (nx - 1 - lo)%nat with 0%nat by lia. reflexivity.
    + replace (nx - 1 - lo)%nat with len by lia. rewrite seq_S, map_app, filter_app. cbn [map filter].
      rewrite (zskip_all xs (Z.of_nat (lo + len) * skip)) by nia. cbn [negb app]. rewrite app_nil_r.
      apply Hfl. lia.
  - assert (EK : K = nx).
    { assert ((nx - 1 < K)%nat) by (apply HK; nia).
      assert (~ (nx < K)%nat) by (rewrite HK; nia). lia. }
    rewrite EK. apply Hfl. lia.
Qed.

(* a source that does not complete emits no buffer beyond the full ones *)
Lemma no_partial s lo nx (xs : list A) tm : inv s (zlen xs) lo nx -> tm <> TDone ->
  (nbuffers (zlen xs) tm - lo = 0)%nat.
Proof.
  intros I Htm. pose proof (zlen_nonneg xs). assert (~ (lo < nbuffers (zlen xs) tm)%nat); [|lia].
  rewrite nbuffers_full by assumption. destruct I. lia.
Qed.

Lemma bc_run_from (xs : list A) tm (ys : list A) : forall done s n lo nx pos,
  inv s n lo nx -> n = zlen done -> xs = done ++ ys ->
  emitted (fst (run_from all_imm M (BufSt s (bopen done lo nx) false) R0 pos (src_events ys tm)))
  = map Next (map (slice xs) (seq lo (nbuffers (zlen xs) tm - lo))) ++ term_ev tm.
Proof.
  induction ys as [|y t IH]; intros done s n lo nx pos I Hn Hxs.
  - (* the terminal *)
    rewrite app_nil_r in Hxs. subst done n.
    unfold src_events. cbn [map app]. destruct tm as [|e|]; cbn [term_ev map].
    + (* completion: flush *)
      destruct (brstep_done s (zlen xs) lo nx xs 0 I) as (st' & r' & E).
      rewrite run_from_cons, E. cbn [run_from fst snd]. rewrite app_nil_r, map_app, emitted_tag_emits, emitted_term_release.
      now rewrite (flush_open s lo nx xs I).
    + (* error: partial buffers are lost *)
      destruct (brstep_err s (zlen xs) lo nx xs 0 e I) as (st' & r' & E).
      rewrite run_from_cons, E. cbn [run_from fst snd]. now rewrite (no_partial s lo nx xs (TErr e) I) by discriminate.
    + (* the source never ends *)
      now rewrite (no_partial s lo nx xs TNever I) by discriminate.
  - (* one element *)
    unfold src_events. cbn [map app]. fold (src_events t tm). rewrite run_from_cons.
    rewrite (brstep_next s n lo nx done y 0 I Hn). cbn [fst snd].
    destruct (wc_on_next_spec count skip Hcount Hskip (B:=unit) s n lo nx y I) as (I' & _ & Hlt). cbn zeta in *.
    cbn [fst]. rewrite emitted_tag_emits.
    rewrite (IH (done ++ [y]) _ (n + 1) _ _ _ I')
      by (rewrite ?zlen_app, <- ?app_assoc; unfold zlen; cbn [length app]; unfold zlen in Hn; auto; lia).
    destruct (n =? Z.of_nat lo * skip + count - 1) eqn:Ec; [|reflexivity].
    apply Z.eqb_eq in Ec. cbn [map app].
    (* the buffer that just filled up is slice lo, and lo is below the count of buffers *)
    assert (Hlen : zlen xs = n + 1 + zlen t).
    { rewrite Hxs, zlen_app. unfold zlen. cbn [length]. unfold zlen in Hn. lia. }
    pose proof (zlen_nonneg t) as Ht0.
    assert (Hlo : (lo < nbuffers (zlen xs) tm)%nat).
    { destruct tm as [|e|].
      - apply nbuffers_done; [lia|]. nia.
      - apply nbuffers_full; [discriminate|lia|]. nia.
      - apply nbuffers_full; [discriminate|lia|]. nia. }
    replace (nbuffers (zlen xs) tm - lo)%nat with (S (nbuffers (zlen xs) tm - S lo))%nat by lia.
    cbn [seq map app].
    assert (Hd : Z.of_nat lo * skip <= zlen (done ++ [y])).
    { rewrite zlen_app. change (zlen [y]) with 1. destruct I. nia. }
    assert (E : zskip (Z.of_nat lo * skip) (done ++ [y]) = slice xs lo).
    { unfold slice. rewrite Hxs.
      replace (done ++ y :: t) with ((done ++ [y]) ++ t) by (rewrite <- app_assoc; reflexivity).
      rewrite (zskip_app_le (done ++ [y]) _ t Hd). symmetry. apply ztake_app_exact.
      rewrite zlen_zskip by (try exact Hd; nia). rewrite zlen_app. change (zlen [y]) with 1. lia. }
    rewrite E. reflexivity.
Qed.

(* C18, buffer_with_count: the closed form announced at the head of the file *)
Theorem buffer_count_closed_form (xs : list A) (tm : term) :
  emitted (fst (run all_imm M (src_events xs tm)))
  = map Next (map (fun k => ztake count (zskip (Z.of_nat k * skip) xs)) (seq 0 (nbuffers (zlen xs) tm)))
    ++ term_ev tm.
Proof.
  rewrite run_unfold. cbn [fst].
  assert (Es : start_state all_imm M = (BufSt (WcSt 0 [0%nat] 1) (bopen [] 0 1) false, R0)) by reflexivity.
  assert (Eo : start_obs all_imm M = [OSub 0%nat]) by reflexivity.
  rewrite Es, Eo. cbn [fst snd map app].
  change (emitted ((0%nat, OSub 0%nat) :: ?l)) with (emitted l).
  rewrite (bc_run_from xs tm xs [] _ 0 0%nat 1%nat 1%nat (wc_inv0 count skip Hcount Hskip) eq_refl eq_refl).
  rewrite Nat.sub_0_r. reflexivity.
Qed.
End BufCount.
