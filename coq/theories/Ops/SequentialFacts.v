(* C10: sequential composition runs one source at a time, in order. *)
From RxVerif Require Import Base.Prelude Ops.Machine Ops.MachineFacts Ops.Multi Ops.MultiFacts
  Ops.RunLemmas Ops.Combinators.

Local Arguments Nat.ltb : simpl never.
Local Arguments Nat.leb : simpl never.

(* reachable runner states of the operators that walk through sources 0 .. n-1: everything
   released, or exactly the current source live *)
Definition cur_inv (n cur : nat) (r : rstate) : Prop :=
  r = RState [] [] true \/ (r = RState [cur] [] false /\ (cur < n)%nat).

Section Concat.
Context {A : Type}.

Definition block (k : nat) (src : list A * term) : list (Z * inp A) :=
  map (fun e => (0, ISrc k e)) (events (fst src) (snd src)).
Fixpoint seq_env_from (k : nat) (srcs : list (list A * term)) : list (Z * inp A) :=
  match srcs with [] => [] | s :: rest => block k s ++ seq_env_from (S k) rest end.

Fixpoint concat_spec (srcs : list (list A * term)) : list (ev A) :=
  match srcs with
  | [] => [Done]
  | (xs, t) :: rest =>
      map Next xs ++ match t with TDone => concat_spec rest | TErr e => [Err e] | TNever => [] end
  end.

Lemma emitted_app {B} (a b : list (nat * obs B)) : emitted (a ++ b) = emitted a ++ emitted b.
Proof. unfold emitted. apply flat_map_app. Qed.

(* inputs of sources that are not subscribed change nothing (any machine) *)
Lemma run_from_not_live {B} (m : machine A B) s r (ins : list (Z * inp A)) : forall k,
  (forall now i, In (now, i) ins -> exists j e, i = ISrc j e /\ mem j (r_live r) = false) ->
  run_from m s r k ins = ([], r).
Proof.
  induction ins as [|[now i] rest IH]; intros k H; [reflexivity|].
  destruct (H now i (or_introl eq_refl)) as (j & e & -> & Hm).
  cbn [run_from]. rewrite rstep_dropped by (right; split; [exact Hm|discriminate]).
  rewrite IH; [reflexivity|intros n0 i0 Hin; apply (H n0 i0); right; exact Hin].
Qed.

Lemma in_seq_env (srcs : list (list A * term)) : forall j now i,
  In (now, i) (seq_env_from j srcs) -> exists j' e, i = ISrc j' e /\ (j <= j')%nat.
Proof.
  induction srcs as [|s rest IH]; intros j now i H; [destruct H|].
  cbn [seq_env_from] in H. apply in_app_or in H. destruct H as [H|H].
  - unfold block in H. apply in_map_iff in H. destruct H as (e & He & _). injection He as <- <-.
    exists j, e. auto.
  - destruct (IH _ _ _ H) as (j' & e & -> & Hle). exists j', e. split; [reflexivity|lia].
Qed.

(* ... so, while source c is the subscribed one, the later sources' blocks are dropped *)
Lemma seq_env_dropped {B} (m : machine A B) s c ts (srcs : list (list A * term)) k j : (c < j)%nat ->
  run_from m s (RState [c] ts false) k (seq_env_from j srcs) = ([], RState [c] ts false).
Proof.
  intros Hj. apply run_from_not_live. intros now i Hin.
  destruct (in_seq_env _ _ _ _ Hin) as (j' & e & -> & Hle). exists j', e. split; [reflexivity|].
  cbn [r_live mem existsb]. destruct (Nat.eqb_spec j' c); [lia|reflexivity].
Qed.

(* the elements of the one subscribed source c pass, one trace position each, when the
   handler forwards them and keeps its state *)
Definition forwards (m : machine A A) (s : x_state m) (c : nat) : Prop :=
  forall now x, x_step m s now (ISrc c (Next x)) = (s, [CEmit x], Cont).

Definition elems_trace (k : nat) (ys : list A) : list (nat * obs A) :=
  map (fun p => (fst p, OEmit (Next (snd p)))) (indexed k ys).

Lemma run_from_elems (m : machine A A) s c (ys : list A) rest : forwards m s c -> forall k,
  run_from m s (RState [c] [] false) k (map (fun e => (0, ISrc c e)) (map Next ys) ++ rest)
  = (elems_trace k ys ++ fst (run_from m s (RState [c] [] false) (k + length ys) rest),
     snd (run_from m s (RState [c] [] false) (k + length ys) rest)).
Proof.
  intros Hx. induction ys as [|y ys IH]; intros k.
  - cbn [map app length]. rewrite Nat.add_0_r. now destruct (run_from m s _ k rest).
  - cbn [map app run_from length rstep r_stopped r_live mem existsb].
    rewrite Nat.eqb_refl, Hx. cbn. rewrite IH, Nat.add_succ_r. reflexivity.
Qed.

Lemma emitted_elems_trace k (ys : list A) : emitted (elems_trace k ys) = map Next ys.
Proof.
  revert k. unfold emitted, elems_trace. induction ys as [|y r IH]; intros k; [reflexivity|]. cbn. now rewrite IH.
Qed.

Lemma emitted_run_cons {B} (m : machine A B) s r k now i rest :
  emitted (fst (run_from m s r k ((now, i) :: rest)))
  = emits (snd (rstep m s r now i))
    ++ emitted (fst (run_from m (fst (fst (rstep m s r now i))) (snd (fst (rstep m s r now i))) (S k) rest)).
Proof. rewrite run_from_cons. cbn [fst]. apply emitted_tag_app. Qed.

(* one block of the environment: the elements, then the source's terminal (if any) *)
Lemma emitted_block (m : machine A A) s c xs t rest k : forwards m s c ->
  emitted (fst (run_from m s (RState [c] [] false) k (block c (xs, t) ++ rest)))
  = map Next xs
    ++ emitted (fst (run_from m s (RState [c] [] false) (k + length xs)
                       (map (fun e => (0, ISrc c e)) (events [] t) ++ rest))).
Proof.
  intros Hx. unfold block, events. cbn [fst snd map app]. rewrite map_app, <- app_assoc, run_from_elems by exact Hx.
  cbn [fst]. now rewrite emitted_app, emitted_elems_trace.
Qed.

Lemma concat_from n (srcs : list (list A * term)) : forall cur k,
  (cur + length srcs = n)%nat -> srcs <> [] ->
  emitted (fst (run_from (x_concat n) cur (RState [cur] [] false) k (seq_env_from cur srcs)))
  = concat_spec srcs.
Proof.
  induction srcs as [|[xs t] rest IH]; intros cur k Hn Hne; [congruence|].
  cbn [seq_env_from concat_spec]. rewrite emitted_block by (intros now x; reflexivity). f_equal.
  destruct t as [|e|]; cbn [events map app]; rewrite ?emitted_run_cons.
  - (* completes: move on, or finish *)
    rs.
    destruct (Nat.ltb_spec (S cur) n) as [Hlt|Hge]; rs.
    + destruct rest as [|s2 rest2]; [cbn in Hn; lia|].
      rewrite IH; [reflexivity|cbn in *; lia|discriminate].
    + destruct rest as [|s2 rest2]; [|cbn in Hn; lia].
      cbn. reflexivity.
  - rs. rewrite run_from_stopped by reflexivity. reflexivity.
  - rewrite seq_env_dropped by lia. reflexivity.
Qed.

(* the output is the concatenation of the consumed sources' elements, up to the
   first source that fails (error passed on) or never terminates *)
Theorem concat_closed_form (srcs : list (list A * term)) :
  emitted (fst (run (x_concat (length srcs)) (seq_env_from 0 srcs))) = concat_spec srcs.
Proof.
  rewrite run_unfold. cbn [fst]. rewrite emitted_app.
  destruct srcs as [|s rest].
  - cbn. reflexivity.
  - unfold start_state, start_obs. cbn -[run_from seq_env_from concat_spec emitted].
    rewrite (concat_from (S (length rest)) (s :: rest) 0 1); [reflexivity|reflexivity|discriminate].
Qed.
End Concat.

Section Counts.
Context {A : Type}.

Lemma trace_subs_run {B} (m : machine A B) ins :
  count_subs (map snd (fst (run m ins)))
  = count_subs (start_obs m ++ map snd (fst (run_from m (fst (start_state m)) (snd (start_state m)) 1 ins))).
Proof.
  rewrite run_unfold. cbn [fst]. rewrite map_app, map_map. cbn [snd]. now rewrite map_id.
Qed.

(* subs_bounded over a whole run, subscribe() included *)
Lemma run_subs_bounded {B} (m : machine A B) (J : x_state m -> nat -> Prop) (c : nat) :
  (forall s n, J s n -> (n <= c)%nat) ->
  (forall s n now i, J s n -> J (fst (fst (x_step m s now i))) (n + count_csub (snd (fst (x_step m s now i))))%nat) ->
  J (fst (start_state m)) (count_subs (start_obs m)) ->
  forall ins, (count_subs (map snd (fst (run m ins))) <= c)%nat.
Proof.
  intros Hc Hstep H0 ins. rewrite trace_subs_run.
  exact (Hc _ _ (subs_bounded m J Hstep ins _ (snd (start_state m)) 1 _ H0)).
Qed.

(* the state of retry / repeat is the number of subscriptions made so far, and it stays
   within the count *)
Definition counted (c : nat) (used n : nat) : Prop := (n = used /\ used <= c)%nat.

Theorem retry_subscribes_at_most (c : nat) (ins : list (Z * inp A)) :
  (count_subs (map snd (fst (run (x_retry (A:=A) (Some c)) ins))) <= c)%nat.
Proof.
  apply (run_subs_bounded (x_retry (Some c)) (counted c)); unfold counted.
  - lia.
  - intros s n now i [-> Hle]. destruct i as [k [x|e|]|tag|]; cbn; try lia.
    destruct (Nat.ltb_spec s c); cbn; lia.
  - unfold start_state, start_obs. destruct c; cbn; lia.
Qed.

Theorem repeat_subscribes_at_most (c : nat) (ins : list (Z * inp A)) :
  (count_subs (map snd (fst (run (x_repeat (A:=A) (Some c)) ins))) <= c)%nat.
Proof.
  apply (run_subs_bounded (x_repeat (Some c)) (counted c)); unfold counted.
  - lia.
  - intros s n now i [-> Hle]. destruct i as [k [x|e|]|tag|]; cbn; try lia.
    destruct (Nat.ltb_spec s c); cbn; lia.
  - unfold start_state, start_obs. destruct c; cbn; lia.
Qed.
End Counts.
