(* Generic facts about Mealy operators: the notification grammar for ARBITRARY
   (also non-conforming) inputs, and unfolding lemmas for well-behaved sources.
   Also the vocabulary in which the operator catalogues state their specifications:
   [indexed], [nexts], [tterm] (tagged outputs), [pure], [pure2] (callbacks that do not raise). *)
From RxVerif Require Import Base.Prelude Ops.Machine.

Fixpoint indexed {A} (k : nat) (xs : list A) : list (nat * A) :=
  match xs with [] => [] | x :: t => (k, x) :: indexed (S k) t end.
Definition nexts {B} (l : list (nat * B)) : list (nat * ev B) :=
  map (fun p => (fst p, Next (snd p))) l.
Definition tterm {B} (k : nat) (t : term) : list (nat * ev B) :=
  match t with TDone => [(k, Done)] | TErr e => [(k, Err e)] | TNever => [] end.
Definition pure {A B} (f : A -> B) : A -> res B := fun x => Ok (f x).
Definition pure2 {A I B} (f : A -> I -> B) : A -> I -> res B := fun x i => Ok (f x i).

Lemma indexed_length {A} (xs : list A) k : length (indexed k xs) = length xs.
Proof. revert k; induction xs as [|x t IH]; intros k; cbn; [reflexivity|now rewrite IH]. Qed.

Lemma indexed_app {A} (xs ys : list A) k :
  indexed k (xs ++ ys) = indexed k xs ++ indexed (k + length xs) ys.
Proof.
  revert k; induction xs as [|x t IH]; intros k; cbn [app indexed length].
  - now rewrite Nat.add_0_r.
  - rewrite IH. now rewrite Nat.add_succ_comm.
Qed.

Lemma map_snd_indexed {A} (xs : list A) k : map snd (indexed k xs) = xs.
Proof. revert k; induction xs as [|x t IH]; intros k; cbn; [reflexivity|now rewrite IH]. Qed.

Lemma nexts_app {B} (a b : list (nat * B)) : nexts (a ++ b) = nexts a ++ nexts b.
Proof. unfold nexts. apply map_app. Qed.

Lemma wellformed_nexts_app {B} (outs : list B) (k : nat) (rest : list (ev B)) :
  wellformed (map snd (map (fun b => (k, Next b)) outs) ++ rest) = wellformed rest.
Proof. induction outs as [|b t IH]; cbn; [reflexivity|exact IH]. Qed.

Lemma untag_app {B} (a b : list (nat * ev B)) : untag (a ++ b) = untag a ++ untag b.
Proof. unfold untag. apply map_app. Qed.

(* what an answer (a batch, then how the handler left) puts on the output, without tags *)
Definition fin_ev {B} (f : fin) : list (ev B) :=
  match f with Cont => [] | Complete => [Done] | Fail e => [Err e] end.

Lemma untag_emit {B} k (outs : list B) f : untag (emit k outs f) = map Next outs ++ fin_ev f.
Proof.
  unfold emit, untag. rewrite map_app, map_map. cbn [snd].
  f_equal. destruct f; reflexivity.
Qed.

Lemma emit_wf {B} k (outs : list B) f (rest : list (nat * ev B)) :
  (live f = false -> rest = []) -> wellformed (untag rest) = true ->
  wellformed (untag (emit k outs f ++ rest)) = true.
Proof.
  intros Hf Hr. unfold emit. rewrite <- app_assoc, untag_app. unfold untag at 1.
  rewrite wellformed_nexts_app.
  destruct f; cbn.
  - exact Hr.
  - rewrite (Hf eq_refl). reflexivity.
  - rewrite (Hf eq_refl). reflexivity.
Qed.

(* the handler an input reaches, with its answer; behind a terminal input
   [exec_from] stops whatever the handler answered *)
Definition handle {A B} (m : mealy A B) (s : m_state m) (e : ev A) : m_state m * list B * fin :=
  match e with
  | Next x => m_next m s x
  | Err z => (s, fst (m_err m s z), snd (m_err m s z))
  | Done => (s, fst (m_done m s), snd (m_done m s))
  end.

Lemma exec_from_handle {A B} (m : mealy A B) s k e rest :
  exec_from m s k (e :: rest)
  = emit k (snd (fst (handle m s e))) (snd (handle m s e))
    ++ (if live (snd (handle m s e)) && negb (is_terminal e)
        then exec_from m (fst (fst (handle m s e))) (S k) rest else []).
Proof.
  destruct e as [x|z|]; cbn [exec_from handle is_terminal negb].
  - destruct (m_next m s x) as [[s' outs] f]. cbn [fst snd]. now rewrite andb_true_r.
  - destruct (m_err m s z) as [outs f]. cbn [fst snd]. now rewrite andb_false_r, app_nil_r.
  - destruct (m_done m s) as [outs f]. cbn [fst snd]. now rewrite andb_false_r, app_nil_r.
Qed.

Theorem exec_from_wellformed {A B} (m : mealy A B) :
  forall ins s k, wellformed (untag (exec_from m s k ins)) = true.
Proof.
  induction ins as [|e rest IH]; intros s k; [reflexivity|]. rewrite exec_from_handle. apply emit_wf.
  - now intros ->.
  - destruct (live _ && negb _); [apply IH|reflexivity].
Qed.

(* every Mealy operator emits Next* (Err|Done)? whatever its source does *)
Theorem exec_wellformed {A B} (m : mealy A B) (ins : list (ev A)) :
  wellformed (untag (exec m ins)) = true.
Proof.
  unfold exec. destruct (m_pre m) as [outs f].
  apply emit_wf.
  - intros Hf. now rewrite Hf.
  - destruct (live f); [apply exec_from_wellformed|reflexivity].
Qed.

(* nothing is emitted after the source's terminal: inputs behind it are dropped *)
Theorem exec_from_ignores_after_terminal {A B} (m : mealy A B) :
  forall xs s k (t : ev A) junk, is_terminal t = true ->
  exec_from m s k (map Next xs ++ t :: junk) = exec_from m s k (map Next xs ++ [t]).
Proof.
  induction xs as [|x r IH]; intros s k t junk Ht; cbn [map app exec_from].
  - destruct t; [discriminate|reflexivity|reflexivity].
  - destruct (m_next m s x) as [[s' outs] f]. destruct (live f); [|reflexivity].
    now rewrite IH.
Qed.

Lemma exec_from_cons {A B} (m : mealy A B) s k x rest :
  exec_from m s k (Next x :: rest) =
  let '(s', outs, f) := m_next m s x in
  emit k outs f ++ (if live f then exec_from m s' (S k) rest else []).
Proof. reflexivity. Qed.

Lemma events_cons {A} (x : A) xs t : events (x :: xs) t = Next x :: events xs t.
Proof. reflexivity. Qed.

Lemma events_nil {A} t : @events A [] t = match t with TDone => [Done] | TErr e => [Err e] | TNever => [] end.
Proof. reflexivity. Qed.

Lemma emit_cont {B} k (outs : list B) : emit k outs Cont = map (fun b => (k, Next b)) outs.
Proof. unfold emit. now rewrite app_nil_r. Qed.
