(* C11: flat_map / merge_all (dynamic inner sequences) against an abstract
   specification over the interleaved input sequence, for EVERY mapper and
   EVERY input sequence. *)
From RxVerif Require Import Base.Prelude Ops.Machine Ops.MachineFacts Ops.Multi Ops.MultiFacts
  Ops.RunLemmas Ops.Combinators Ops.MergeFacts.

Local Arguments Nat.ltb : simpl never.
Local Arguments Nat.leb : simpl never.

Section FlatMap.
Context {A : Type}.

(* SPEC: the outer source's elements create inner sequences (numbered 1, 2, ..
   in creation order); every element of a running inner passes at its own
   instant; the first error (outer, inner, or a raising mapper) ends
   everything; completion when the outer and all inners have completed *)
Fixpoint flat_map_spec (mapper : A -> nat -> res unit) (outer_live : bool) (cnt : nat) (running : list nat)
  (pos : nat) (ins : list (Z * inp A)) : list (nat * ev A) :=
  match ins with
  | [] => []
  | (_, ISrc O e) :: t =>
      if outer_live then
        match e with
        | Next x => match mapper x cnt with
                    | Ok _ => flat_map_spec mapper true (S cnt) (running ++ [S cnt]) (S pos) t
                    | Raise err => [(pos, Err err)]
                    end
        | Err err => [(pos, Err err)]
        | Done => match running with
                  | [] => [(pos, Done)]
                  | _ => flat_map_spec mapper false cnt running (S pos) t
                  end
        end
      else flat_map_spec mapper outer_live cnt running (S pos) t
  | (_, ISrc (S j) e) :: t =>
      if mem (S j) running then
        match e with
        | Next x => (pos, Next x) :: flat_map_spec mapper outer_live cnt running (S pos) t
        | Err err => [(pos, Err err)]
        | Done => match remove (S j) running, outer_live with
                  | [], false => [(pos, Done)]
                  | rest, _ => flat_map_spec mapper outer_live cnt rest (S pos) t
                  end
        end
      else flat_map_spec mapper outer_live cnt running (S pos) t
  | (_, ITick _) :: t => flat_map_spec mapper outer_live cnt running (S pos) t
  | (_, IDispose) :: _ => []
  end.

Definition fm_live (outer_live : bool) (running : list nat) : list nat :=
  (if outer_live then [0%nat] else []) ++ running.

(* well-formed running lists: duplicate-free, inner ids in 1..cnt *)
Definition fm_ok (cnt : nat) (running : list nat) : Prop :=
  NoDup running /\ forall k, In k running -> (1 <= k <= cnt)%nat.

Lemma fm_ok_new cnt running : fm_ok cnt running -> fm_ok (S cnt) (running ++ [S cnt]).
Proof.
  intros [Hnd Hr]. split.
  - apply NoDup_app_snoc; [exact Hnd|]. intros Hin. specialize (Hr _ Hin). lia.
  - intros k Hk. apply in_app_or in Hk. destruct Hk as [Hk|[<-|[]]]; [specialize (Hr _ Hk)|]; lia.
Qed.

Lemma fm_ok_remove cnt running k : fm_ok cnt running -> fm_ok cnt (remove k running).
Proof.
  intros [Hnd Hr]. split.
  - apply (remove_nodup k running Hnd).
  - intros j Hj. apply Hr. eapply incl_remove; eassumption.
Qed.

Lemma mem_fm_live_S ol running j : mem (S j) (fm_live ol running) = mem (S j) running.
Proof. unfold fm_live, mem. destruct ol; reflexivity. Qed.

Lemma remove_fm_live_S ol running j : remove (S j) (fm_live ol running) = fm_live ol (remove (S j) running).
Proof. unfold fm_live. destruct ol; reflexivity. Qed.

Lemma mem_removed running k : NoDup running -> mem k (remove k running) = false.
Proof. intros H. apply mem_false. apply (remove_nodup k running H). Qed.

Lemma mem_0_running cnt running : fm_ok cnt running -> mem 0 running = false.
Proof. intros [_ H]. apply mem_false. intros Hin. specialize (H _ Hin). lia. Qed.

Lemma mem_0_fm_live cnt ol running : fm_ok cnt running -> mem 0 (fm_live ol running) = ol.
Proof.
  intros H. unfold fm_live. destruct ol; [reflexivity|]. cbn [app]. eapply mem_0_running; eassumption.
Qed.

Lemma flat_map_from mapper (ins : list (Z * inp A)) : forall ol cnt running pos,
  fm_ok cnt running -> (ol = true \/ running <> []) ->
  temitted (fst (run_from (x_flat_map mapper) (cnt, running, negb ol)
                   (RState (fm_live ol running) [] false) pos ins))
  = flat_map_spec mapper ol cnt running pos ins.
Proof.
  induction ins as [|[now i] rest IH]; intros ol cnt running pos Hok Hsome; [reflexivity|].
  rewrite temitted_run_cons. cbn [flat_map_spec].
  destruct i as [k e|tag|].
  - destruct k as [|j].
    + (* the outer source *)
      destruct ol.
      * destruct e as [x|err|].
        -- destruct (mapper x cnt) as [[]|err] eqn:Hmap.
           ++ assert (E : rstep (x_flat_map mapper) (cnt, running, negb true) (RState (fm_live true running) [] false)
                            now (ISrc 0%nat (Next x))
                          = ((S cnt, running ++ [S cnt], negb true),
                             RState (fm_live true (running ++ [S cnt])) [] false, [OSub (S cnt)])).
              { unfold rstep, fm_live. cbn. rewrite Hmap. cbn. reflexivity. }
              rewrite E. cbn [fst snd]. rewrite IH by (auto using fm_ok_new). reflexivity.
           ++ rewrite temitted_fin; [cbn; rewrite Hmap; reflexivity|reflexivity|reflexivity|cbn; rewrite Hmap; discriminate].
        -- rewrite temitted_fin; [reflexivity|reflexivity|reflexivity|cbn; discriminate].
        -- destruct running as [|r0 rs].
           ++ rewrite temitted_fin; [reflexivity|reflexivity|reflexivity|cbn; discriminate].
           ++ assert (E : rstep (x_flat_map mapper) (cnt, r0 :: rs, negb true)
                            (RState (fm_live true (r0 :: rs)) [] false) now (ISrc 0%nat Done)
                          = ((cnt, r0 :: rs, negb false), RState (fm_live false (r0 :: rs)) [] false, [OUnsub 0%nat])).
              { unfold rstep, fm_live. cbn. reflexivity. }
              rewrite E. cbn [fst snd]. rewrite IH by (auto; right; discriminate). reflexivity.
      * rewrite temitted_dropped by (exact (mem_0_fm_live cnt false running Hok) || discriminate). now apply IH.
    + (* an inner source *)
      destruct (mem (S j) running) eqn:Hmem.
      * destruct e as [x|err|].
        -- assert (E : rstep (x_flat_map mapper) (cnt, running, negb ol) (RState (fm_live ol running) [] false)
                         now (ISrc (S j) (Next x))
                       = ((cnt, running, negb ol), RState (fm_live ol running) [] false, [OEmit (Next x)])).
           { cbn [rstep r_stopped r_live]. rewrite mem_fm_live_S, Hmem. cbn. reflexivity. }
           rewrite E. cbn [fst snd]. rewrite IH by auto. reflexivity.
        -- rewrite temitted_fin;
             [reflexivity|reflexivity|cbn [delivered r_live]; now rewrite mem_fm_live_S|cbn; discriminate].
        -- destruct Hok as [Hnd Hrange].
           pose proof (mem_removed running (S j) Hnd) as Hgone.
           destruct (remove (S j) running) as [|r0 rs] eqn:Hrem; rewrite ?Hrem in Hgone.
           ++ destruct ol.
              ** assert (E : rstep (x_flat_map mapper) (cnt, running, negb true) (RState (fm_live true running) [] false)
                               now (ISrc (S j) Done)
                             = ((cnt, [], negb true), RState (fm_live true []) [] false, [OUnsub (S j)])).
                 { cbn [rstep r_stopped r_live]. rewrite mem_fm_live_S, Hmem.
                   cbn [x_flat_map x_step negb]. rewrite Hrem. cbn [apply_cmds r_live r_timers r_stopped].
                   rewrite mem_fm_live_S, Hmem, remove_fm_live_S, Hrem.
                   cbn [fst snd app is_terminal andb r_live]. rewrite mem_fm_live_S. cbn [mem existsb finish].
                   reflexivity. }
                 rewrite E. cbn [fst snd]. rewrite IH; [reflexivity|split; [constructor|intros k []]|auto].
              ** rewrite temitted_fin;
                   [cbn [x_flat_map x_step negb fst snd]; rewrite Hrem; reflexivity|reflexivity
                   |cbn [delivered r_live]; now rewrite mem_fm_live_S
                   |cbn [x_flat_map x_step negb snd]; rewrite Hrem; discriminate].
           ++ assert (Hok2 : fm_ok cnt (r0 :: rs)).
              { rewrite <- Hrem. apply fm_ok_remove. split; assumption. }
              assert (E : rstep (x_flat_map mapper) (cnt, running, negb ol) (RState (fm_live ol running) [] false)
                            now (ISrc (S j) Done)
                          = ((cnt, r0 :: rs, negb ol), RState (fm_live ol (r0 :: rs)) [] false, [OUnsub (S j)])).
              { cbn [rstep r_stopped r_live]. rewrite mem_fm_live_S, Hmem.
                cbn [x_flat_map x_step]. rewrite Hrem. cbn [apply_cmds r_live r_timers r_stopped].
                rewrite mem_fm_live_S, Hmem, remove_fm_live_S, Hrem.
                cbn [fst snd app is_terminal andb r_live]. rewrite mem_fm_live_S, Hgone.
                destruct ol; cbn [negb finish fst snd app]; reflexivity. }
              rewrite E. cbn [fst snd]. rewrite IH by (auto; right; discriminate).
              destruct ol; reflexivity.
      * rewrite temitted_dropped by ((cbn [delivered r_live]; now rewrite mem_fm_live_S) || discriminate). now apply IH.
  - rewrite temitted_dropped by (reflexivity || discriminate). now apply IH.
  - cbn [rstep r_stopped x_flat_map x_step apply_cmds fst snd].
    rewrite run_from_stopped by reflexivity. cbn [fst]. rewrite app_nil_r.
    cbn [filter app]. apply release_temitted.
Qed.

(* for EVERY mapper (also raising) and EVERY input sequence; also merge_all and
   flat_map_indexed, which share the machine *)
Theorem flat_map_refines_spec mapper (ins : list (Z * inp A)) :
  temitted (fst (run (x_flat_map mapper) ins)) = flat_map_spec mapper true 0 [] 1 ins.
Proof.
  rewrite run_unfold. cbn [fst]. rewrite temitted_app.
  unfold start_state, start_obs. cbn -[run_from flat_map_spec temitted].
  change (RState [0%nat] [] false) with (RState (fm_live true []) [] false).
  change (0%nat, @nil nat, false) with (0%nat, @nil nat, negb true).
  rewrite flat_map_from; [reflexivity|split; [constructor|intros k []]|auto].
Qed.
End FlatMap.
