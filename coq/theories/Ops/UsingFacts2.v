(* C40: two more effect disciplines on the runner layer of Ops/UsingFacts.v -- an effect no handler
   issues ([never_steps]) and an effect issued at a terminal notification but not at dispose
   ([once_at_end], [once_at] with d = 0) -- with using's effect balance for every outcome of the two
   factories; do_action with ARBITRARY (raising) callbacks on a conforming source is, up to effects, the
   lifted Mealy operator [op_do], whose run is computed in closed form. *)
From RxVerif Require Import Base.Prelude Ops.Machine Ops.MachineFacts Ops.Multi Ops.MultiFacts Ops.RunLemmas Ops.Using
  Ops.RaiseFacts Ops.Lift Ops.UsingFacts.
Local Open Scope nat_scope.

(* an effect code that no handler issues (from states satisfying P) occurs
   in the trace exactly as often as subscribe() issued it *)
Section Never.
Context {A B : Type} (m : machine A B) (n : Z) (P : x_state m -> Prop).

Definition never_steps : Prop := forall s now i, P s ->
  cnt_cmd n (snd (fst (x_step m s now i))) = 0 /\ P (fst (fst (x_step m s now i))).

Hypothesis H : never_steps.

Lemma run_from_never ins : forall s r k, P s -> cnt_tr n (fst (run_from m s r k ins)) = 0.
Proof.
  intros s r k HP. destruct (r_stopped r) eqn:H0; [now rewrite run_from_stopped|].
  apply (run_from_G m P (fun _ a => cnt_cmd n (snd (fst a)) = 0) (fun _ tr => cnt_tr n tr = 0)); auto.
  - intros s1 now i HP1. destruct (H s1 now i HP1). auto.
  - intros i s' cs f j u tr _ Hc Ef _ Htr. cbn [fst snd] in Hc.
    assert (E : cnt_tr n tr = 0) by (destruct (stops i f); [now subst tr|exact Htr]).
    now rewrite (cnt_tr_handled n j u cs tr Ef), Hc, E.
Qed.

Theorem run_never ins : P (fst (fst (x_start m))) ->
  cnt_tr n (fst (run m ins)) = cnt_cmd n (snd (fst (x_start m))).
Proof.
  intros HP. rewrite run_start, start_step_handled. cbn [fst].
  destruct (handled_out (x_start m) (RState [] [] false) (ITick 0 : inp A)) as (Ef & _).
  rewrite (cnt_tr_handled n 0 _ _ _ Ef), handled_state, run_from_never by exact HP. lia.
Qed.

Lemma only_effects_cnt (cs : list (cmd B)) : cnt_cmd n (only_effects cs) = cnt_cmd n cs.
Proof.
  unfold cnt_cmd, only_effects. induction cs as [|c t IH]; [reflexivity|].
  destruct c; cbn [filter is_ceff]; try exact IH. destruct (Z.eqb n0 n); cbn [length]; congruence.
Qed.

Lemma feed_dead_never pre : forall s, P s ->
  cnt_cmd n (snd (feed_dead m s pre)) = 0 /\ P (fst (feed_dead m s pre)).
Proof.
  induction pre as [|e t IH]; intros s HP; [auto|]. rewrite feed_dead_cons. cbv zeta.
  destruct (H s 0%Z (ISrc 0 e) HP) as [Hc Hi].
  destruct (is_terminal e); cbn [fst snd]; rewrite ?cnt_cmd_app, only_effects_cnt, Hc; [auto|apply IH, Hi].
Qed.

Lemma feed_pre_never pre : forall s, P s ->
  cnt_cmd n (snd (fst (feed_pre m s pre))) = 0 /\ P (fst (fst (feed_pre m s pre))).
Proof.
  induction pre as [|e t IH]; intros s HP; [auto|]. rewrite feed_pre_cons. cbv zeta.
  destruct (H s 0%Z (ISrc 0 e) HP) as [Hc Hi].
  destruct (is_terminal e); [|destruct (live _)]; cbn [fst snd]; rewrite cnt_cmd_app, Hc.
  - destruct (live _); auto.
  - apply IH, Hi.
  - apply feed_dead_never, Hi.
Qed.
End Never.

Theorem run_never_with_pre {A B} (m : machine A B) n (P : x_state m -> Prop) pre ins :
  never_steps m n P -> P (fst (fst (x_start m))) ->
  cnt_tr n (fst (run (with_pre m pre) ins)) = cnt_cmd n (snd (fst (x_start m))).
Proof.
  intros H HP.
  assert (K : P (fst (fst (x_start (with_pre m pre)))) /\
              cnt_cmd n (snd (fst (x_start (with_pre m pre)))) = cnt_cmd n (snd (fst (x_start m)))).
  { rewrite with_pre_start. destruct (_ && _); cbn [fst snd]; [|auto].
    destruct (feed_pre_never m n P H pre _ HP) as [I1 I2]. rewrite cnt_cmd_app, I1. auto. }
  destruct K as [K1 K2]. rewrite <- K2.
  exact (run_never (with_pre m pre) n P H ins K1).
Qed.

Lemma using_never_created rf obf sched : never_steps (x_using rf obf sched) E_CREATED (fun _ => True).
Proof.
  intros [has pend] now i _. split; [|exact I].
  destruct i as [k [x|e|]|tag|]; destruct has; try destruct pend; reflexivity.
Qed.

Lemma using_never_released_without_resource rf obf sched :
  never_steps (x_using rf obf sched) E_RELEASED (fun s => fst s = false).
Proof.
  intros [has pend] now i HP. cbn in HP. subst has.
  destruct i as [k [x|e|]|tag|]; try destruct pend; split; reflexivity.
Qed.

Definition has_resource (rf : res bool) : bool := match rf with Ok true => true | _ => false end.

Lemma using_start_created rf obf sched :
  cnt_cmd E_CREATED (snd (fst (x_start (x_using rf obf sched)))) = if has_resource rf then 1 else 0.
Proof. destruct rf as [[|]|e]; destruct obf as [[]|e']; destruct sched; reflexivity. Qed.

Lemma using_start_no_resource rf obf sched : has_resource rf = false ->
  fst (fst (fst (x_start (x_using rf obf sched)))) = false /\
  cnt_cmd E_RELEASED (snd (fst (x_start (x_using rf obf sched)))) = 0.
Proof. destruct rf as [[|]|e]; [discriminate| |]; intros _; destruct obf as [[]|e']; destruct sched; split; reflexivity. Qed.

(* using, for every outcome of the two factories: the creation effect occurs once iff the resource
   factory returned a resource, the release effect once, at the stop, iff there is a resource *)
Theorem using_effect_balance rf obf sched pre ins :
  let tr := fst (run (with_pre (x_using rf obf sched) pre) ins) in
  cnt_tr E_CREATED tr = (if has_resource rf then 1 else 0) /\
  cnt_tr E_RELEASED tr = (if has_resource rf then if ended (emitted tr) || has_dispose ins then 1 else 0 else 0).
Proof.
  cbv zeta. split.
  - rewrite (run_never_with_pre _ _ _ pre ins (using_never_created rf obf sched) I). apply using_start_created.
  - destruct (has_resource rf) eqn:Hr.
    + destruct rf as [[|]|e]; try discriminate.
      exact (once_observable _ _ _ (once_with_pre _ _ _ pre (using_once obf sched) (using_calm _ _ _)) ins).
    + destruct (using_start_no_resource rf obf sched Hr) as [H1 H2].
      rewrite (run_never_with_pre _ _ _ pre ins (using_never_released_without_resource rf obf sched) H1).
      exact H2.
Qed.

Lemma run_start_fails {A B} (m : machine A B) s cs e ins : x_start m = (s, cs, Fail e) -> cemits cs = [] ->
  temitted (fst (run m ins)) = [(0, Err e)].
Proof.
  intros E Hc. rewrite run_start, start_step_handled. cbn [fst].
  destruct (handled_out (x_start m) (RState [] [] false) (ITick 0 : inp A)) as (_ & Em & Es). rewrite E in *. cbn [fst snd] in *.
  rewrite run_from_stopped by exact Es. cbn [fst]. now rewrite app_nil_r, temitted_tag, Em, Hc.
Qed.

(* a factory raises and no scheduler was passed: the subscriber receives exactly
   on_error(that exception), inside subscribe(), whatever happens afterwards *)
Definition using_failure (rf : res bool) (obf : res unit) : option Z :=
  match rf with
  | Raise e => Some e
  | Ok _ => match obf with Raise e => Some e | Ok _ => None end
  end.

Theorem using_factory_failure_emits rf obf e pre ins : using_failure rf obf = Some e ->
  temitted (fst (run (with_pre (x_using rf obf false) pre) ins)) = [(0, Err e)].
Proof.
  intros Hf. destruct rf as [has|e1]; [destruct obf as [[]|e2]; [discriminate|]|]; cbn in Hf; injection Hf as ->;
    [destruct has|]; eapply run_start_fails; reflexivity.
Qed.

Definition tapo (fn : option (Z -> res unit)) (x : Z) : res Z :=
  match fn with None => Ok x | Some f => tapf f x end.
(* the error the subscriber gets when the source fails with e *)
Definition do_err_out (fe : option (Z -> res unit)) (e : Z) : Z :=
  match fe with Some f => match f e with Ok _ => e | Raise e' => e' end | None => e end.
Definition do_done_out (fd : option (res unit)) : fin :=
  match fd with Some (Raise e) => Fail e | _ => Complete end.
(* how the source's termination is seen downstream *)
Definition do_term (fe : option (Z -> res unit)) (fd : option (res unit)) (t : term) : term :=
  match t with
  | TErr e => TErr (do_err_out fe e)
  | TDone => match fd with Some (Raise e) => TErr e | _ => TDone end
  | TNever => TNever
  end.

Definition op_do (fn fe : option (Z -> res unit)) (fd : option (res unit)) : mealy Z Z :=
  Mealy tt ([], Cont)
    (fun s x => match tapo fn x with Ok b => (s, [b], Cont) | Raise e => (s, [], Fail e) end)
    (fun _ e => ([], Fail (do_err_out fe e)))
    (fun _ => ([], do_done_out fd)).

Lemma do_action_sim_op fn fe fd : sim (x_do_action fn fe fd) (lift (op_do fn fe fd)) (fun _ _ => True).
Proof.
  constructor; [reflexivity|reflexivity|exact I|].
  intros s1 s2 now i _. destruct i as [k [x|e|]|tag|]; [| | |repeat split..];
    cbn [x_step x_do_action lift op_do m_next m_err m_done fst snd]; unfold tapo, tapf, do_err_out.
  - destruct fn as [f|]; [destruct (f x) as [[]|e]|]; repeat split.
  - destruct fe as [f|]; [destruct (f e) as [[]|e']|]; repeat split.
  - destruct fd as [[[]|e]|]; repeat split.
Qed.

Lemma op_do_from fn fe fd xs t s k :
  exec_from (op_do fn fe fd) s k (events xs t)
  = nexts (fst (until_raise (tapo fn) k xs))
    ++ close (k + length xs) (do_term fe fd t) (snd (until_raise (tapo fn) k xs)).
Proof.
  rewrite (raise_walk (op_do fn fe fd) (tapo fn) (fun _ _ => eq_refl)).
  destruct (snd (until_raise (tapo fn) k xs)) as [[j e]|]; [reflexivity|].
  destruct t; try reflexivity. destruct fd as [[[]|e]|]; reflexivity.
Qed.

Theorem do_action_closed_form fn fe fd xs t :
  temitted (fst (run (x_do_action fn fe fd) (feed0 (events xs t))))
  = nexts (fst (until_raise (tapo fn) 1 xs))
    ++ close (S (length xs)) (do_term fe fd t) (snd (until_raise (tapo fn) 1 xs)).
Proof.
  rewrite (sim_temitted _ _ _ (do_action_sim_op fn fe fd)), lift_exec.
  unfold exec. cbn -[exec_from]. apply op_do_from.
Qed.

Lemma until_raise_calm fn : calm1 fn -> forall xs k, until_raise (tapo fn) k xs = (indexed k xs, None).
Proof.
  intros Hc. induction xs as [|x r IH]; intros k; cbn [until_raise indexed]; [reflexivity|].
  assert (E : tapo fn x = Ok x).
  { unfold tapo, tapf. destruct fn as [f|]; [|reflexivity]. now rewrite (Hc f x eq_refl). }
  rewrite E, IH. reflexivity.
Qed.

(* an exception raised by the on_error callback REPLACES the source's error *)
Theorem do_error_callback_replaces fn fe fd xs e e' : calm1 fn -> fe e = Raise e' ->
  temitted (fst (run (x_do_action fn (Some fe) fd) (feed0 (events xs (TErr e)))))
  = nexts (indexed 1 xs) ++ [(S (length xs), Err e')].
Proof.
  intros Hc Hf. rewrite do_action_closed_form, (until_raise_calm fn Hc). cbn [fst snd close do_term tterm].
  unfold do_err_out. now rewrite Hf.
Qed.

(* an exception raised by the on_completed callback turns completion into on_error *)
Theorem do_completed_callback_replaces fn fe xs e : calm1 fn ->
  temitted (fst (run (x_do_action fn fe (Some (Raise e))) (feed0 (events xs TDone))))
  = nexts (indexed 1 xs) ++ [(S (length xs), Err e)].
Proof.
  intros Hc. rewrite do_action_closed_form, (until_raise_calm fn Hc). reflexivity.
Qed.

(* do_on_terminate whose callback raises: either termination becomes on_error(its exception) *)
Lemma do_on_terminate_sim_op f :
  sim (x_do_on_terminate f)
      (lift (op_do None (match f with Ok _ => None | Raise e => Some (fun _ => Raise e) end)
                        (match f with Ok _ => None | Raise e => Some (Raise e) end)))
      (fun _ _ => True).
Proof.
  sim_id; destruct f as [[]|e0]; reflexivity.
Qed.

Theorem do_on_terminate_closed_form f xs t :
  temitted (fst (run (x_do_on_terminate f) (feed0 (events xs t))))
  = nexts (indexed 1 xs)
    ++ tterm (S (length xs)) (match f, t with
                              | Raise e, TErr _ | Raise e, TDone => TErr e
                              | _, _ => t
                              end).
Proof.
  rewrite (sim_temitted _ _ _ (do_on_terminate_sim_op f)), lift_exec.
  unfold exec. cbn -[exec_from]. rewrite op_do_from.
  rewrite (until_raise_calm None) by (intros g x Hg; discriminate). cbn [fst snd close].
  destruct f as [[]|e]; destruct t; reflexivity.
Qed.

(* an effect issued exactly by the handler that terminates the subscription
   (and NOT by dispose) occurs once iff a terminal notification was emitted *)
Section AtEnd.
Context {A B : Type} (m : machine A B) (n : Z) (P : x_state m -> Prop).

Record once_at_end : Prop := {
  oae_start_cnt : cnt_cmd n (snd (fst (x_start m))) = if live (snd (x_start m)) then 0 else 1;
  oae_start_inv : live (snd (x_start m)) = true -> P (fst (fst (x_start m)));
  oae_step_cnt : forall s now i, P s ->
    cnt_cmd n (snd (fst (x_step m s now i)))
    = if is_dispose i then 0 else if live (snd (x_step m s now i)) then 0 else 1;
  oae_step_inv : forall s now i, P s -> live (snd (x_step m s now i)) = true ->
    P (fst (fst (x_step m s now i))) }.

Lemma once_at_end_at : once_at_end -> once_at m n P 0.
Proof.
  intros [H1 H2 H3 H4]. constructor; auto. intros s now i HP Hs. apply (H4 s now i HP).
  rewrite stops_alt in Hs. apply orb_false_iff in Hs. now apply negb_false_iff.
Qed.

Theorem effect_at_end : once_at_end -> forall ins,
  cnt_tr n (fst (run m ins)) = if ended (emitted (fst (run m ins))) then 1 else 0.
Proof.
  intros H ins. rewrite (effect_once_at m n P 0 (once_at_end_at H) ins). unfold tally.
  destruct (ended _), (has_dispose ins); reflexivity.
Qed.
End AtEnd.

Theorem at_end_with_pre {A B} (m : machine A B) n P pre : once_at_end m n P -> calm_on_next m ->
  once_at_end (with_pre m pre) n P.
Proof.
  intros H Hcalm. destruct (once_at_with_pre m n P 0 pre (once_at_end_at m n P H) Hcalm) as [K1 K2 _ _].
  constructor; [exact K1|exact K2|apply H|apply H].
Qed.

(* instances: do_on_terminate / do_after_terminate run their callback exactly when a
   terminal notification passes, whatever the callback does, and never at dispose *)
Lemma do_on_terminate_at_end f : once_at_end (x_do_on_terminate f) E_TERMINATE (fun _ => True).
Proof.
  constructor; cbn; auto. intros s now i _.
  destruct i as [k [x|e|]|tag|]; destruct f as [[]|e0]; reflexivity.
Qed.
Lemma do_after_terminate_at_end f : once_at_end (x_do_after_terminate f) E_AFTER_TERMINATE (fun _ => True).
Proof.
  constructor; cbn; auto. intros s now i _. destruct i as [k [x|e|]|tag|]; reflexivity.
Qed.
Lemma do_on_terminate_calm f : calm_on_next (x_do_on_terminate f).
Proof. intros s now k x. reflexivity. Qed.
Lemma do_after_terminate_calm f : calm_on_next (x_do_after_terminate f).
Proof. intros s now k x. reflexivity. Qed.

Theorem terminate_callbacks_run_at_terminal f pre ins :
  let tr1 := fst (run (with_pre (x_do_on_terminate f) pre) ins) in
  let tr2 := fst (run (with_pre (x_do_after_terminate f) pre) ins) in
  cnt_tr E_TERMINATE tr1 = (if ended (emitted tr1) then 1 else 0) /\
  cnt_tr E_AFTER_TERMINATE tr2 = (if ended (emitted tr2) then 1 else 0).
Proof.
  cbv zeta. split.
  - exact (effect_at_end _ _ _ (at_end_with_pre _ _ _ pre (do_on_terminate_at_end f) (do_on_terminate_calm f)) ins).
  - exact (effect_at_end _ _ _ (at_end_with_pre _ _ _ pre (do_after_terminate_at_end f) (do_after_terminate_calm f)) ins).
Qed.

(* do_on_subscribe: the callback runs exactly once, inside subscribe(), whatever follows *)
Lemma do_on_subscribe_never f : never_steps (x_do_on_subscribe f) E_SUBSCRIBE (fun _ => True).
Proof. intros s now i _. split; [|exact I]. destruct i as [k [x|e|]|tag|]; reflexivity. Qed.

Theorem on_subscribe_runs_once f pre ins :
  cnt_tr E_SUBSCRIBE (fst (run (with_pre (x_do_on_subscribe f) pre) ins)) = 1.
Proof.
  rewrite (run_never_with_pre _ _ _ pre ins (do_on_subscribe_never f) I). destruct f as [[]|e]; reflexivity.
Qed.
