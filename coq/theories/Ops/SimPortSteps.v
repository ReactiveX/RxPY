(* C15-C17: machines driven by observables a mapper makes (no timers of their own).  One simulator step
   on a source port by the outcome of the handler (port not subscribed / handler continues / handler ends),
   and three words about multi-port timelines the walks are stated with ([count0], [port_silent], [fires]).
   The timelines themselves are turned into inputs by [ext2_of] (TimedSubFacts.v) and split by port with
   [port] (TimedWindowFacts2.v). *)
From RxVerif Require Import Base.Prelude Ops.Machine Ops.Multi Ops.MultiFacts Ops.TimedSim
  Ops.TimedFacts.

(* multi-port timelines: (instant, port, notification) *)
Section PortTimelines.
Context {A : Type}.
Notation tin := (Z * nat * ev A)%type.

(* number of notifications of port 0 (the source) *)
Definition count0 (l : list tin) : nat := length (filter (fun i => Nat.eqb (snd (fst i)) 0) l).
Definition port_silent (k : nat) (l : list tin) : Prop := forall t e, ~ In (t, k, e) l.
(* an on_next or an on_completed *)
Definition fires (e : ev A) : Prop := match e with Err _ => False | _ => True end.

Lemma port_silent_nil k : port_silent k [].
Proof. intros ? ? []. Qed.
Lemma port_silent_cons k i l : snd (fst i) <> k -> port_silent k l -> port_silent k (i :: l).
Proof. intros H1 H2 t e [E|E]; [apply H1; rewrite E; reflexivity|exact (H2 t e E)]. Qed.
Lemma count0_cons0 t e l : count0 ((t, 0%nat, e) :: l) = S (count0 l).
Proof. reflexivity. Qed.
Lemma count0_consS t k e l : count0 ((t, S k, e) :: l) = count0 l.
Proof. reflexivity. Qed.
End PortTimelines.

Section PortSteps.
Context {A B : Type} (m : machine A B).

(* what [rstep] does to the runner state after a terminal on port k: the library's auto-detach *)
Definition detach (k : nat) (e : ev A) (r : rstate) : rstate :=
  if is_terminal e && mem k (r_live r) then RState (remove k (r_live r)) (r_timers r) (r_stopped r) else r.

Definition fin_ev (f : fin) : list (ev B) :=
  match f with Cont => [] | Complete => [Done] | Fail c => [Err c] end.

Lemma upd_no_timers_r (p : pend) t (o : list (obs B)) r : r_timers r = [] -> upd p t o r = [].
Proof. intros H. unfold upd. rewrite H. apply filter_false. Qed.

(* a port that is not subscribed (never was, detached after its terminal, unsubscribed) is not heard *)
Lemma sim_port_dead f s live t k e ext : mem k live = false ->
  sim_emits (sim m (S f) s (RState live [] false) [] ((t, ISrc k e) :: ext))
  = sim_emits (sim m f s (RState live [] false) [] ext).
Proof.
  intros H. rewrite sim_S. cbn [next_event earliest rstep r_stopped r_live]. rewrite H.
  rewrite sim_emits_cons. cbn [emits flat_map map app]. rewrite upd_no_timers_r by reflexivity. reflexivity.
Qed.

Lemma sim_port_cont f s live t k e ext s' cs r1 o1 : mem k live = true ->
  x_step m s t (ISrc k e) = (s', cs, Cont) -> apply_cmds (RState live [] false) cs = (r1, o1) ->
  r_timers r1 = [] ->
  sim_emits (sim m (S f) s (RState live [] false) [] ((t, ISrc k e) :: ext))
  = map (fun n => (t, n)) (emits o1) ++ sim_emits (sim m f s' (detach k e r1) [] ext).
Proof.
  intros H Hs Ha Ht. rewrite sim_S. cbn [next_event earliest rstep r_stopped r_live]. rewrite H, Hs, Ha.
  unfold detach. destruct (is_terminal e && mem k (r_live r1)); cbn [finish];
    rewrite sim_emits_cons, upd_no_timers_r by (cbn [r_timers]; exact Ht);
    rewrite !emits_app; cbn [emits flat_map app]; rewrite app_nil_r; reflexivity.
Qed.

Lemma sim_port_end f s live t k e ext s' cs r1 o1 fn : mem k live = true ->
  x_step m s t (ISrc k e) = (s', cs, fn) -> fn <> Cont -> apply_cmds (RState live [] false) cs = (r1, o1) ->
  sim_emits (sim m (S f) s (RState live [] false) [] ((t, ISrc k e) :: ext))
  = map (fun n => (t, n)) (emits o1 ++ fin_ev fn).
Proof.
  intros H Hs Hn Ha. rewrite sim_S. cbn [next_event earliest rstep r_stopped r_live]. rewrite H, Hs, Ha.
  set (d := if is_terminal e && mem k (r_live r1) then _ else _). destruct d as [r2 o2] eqn:Ed.
  assert (Eo2 : emits o2 = []). (* the auto-detach emits nothing *)
  { subst d. destruct (is_terminal e && mem k (r_live r1)); injection Ed as <- <-; reflexivity. }
  destruct fn as [| |c]; [contradiction| |]; cbn [finish release fin_ev];
    rewrite sim_emits_cons, sim_stopped by reflexivity;
    rewrite app_nil_r; f_equal; rewrite emits_app; f_equal; rewrite emits_app, Eo2; cbn [app];
    pose proof (@release_emits B r2) as Hr; cbn [release snd] in Hr;
    [exact (f_equal (cons Done) Hr)|exact (f_equal (cons (Err c)) Hr)].
Qed.

Lemma sim_port_fail f s live t k e ext s' c : mem k live = true -> x_step m s t (ISrc k e) = (s', [], Fail c) ->
  sim_emits (sim m (S f) s (RState live [] false) [] ((t, ISrc k e) :: ext)) = [(t, Err c)].
Proof. intros H Hs. exact (sim_port_end f s live t k e ext s' [] _ [] (Fail c) H Hs ltac:(discriminate) eq_refl). Qed.

Lemma sim_port_done f s live t k e ext s' : mem k live = true -> x_step m s t (ISrc k e) = (s', [], Complete) ->
  sim_emits (sim m (S f) s (RState live [] false) [] ((t, ISrc k e) :: ext)) = [(t, Done)].
Proof. intros H Hs. exact (sim_port_end f s live t k e ext s' [] _ [] Complete H Hs ltac:(discriminate) eq_refl). Qed.
End PortSteps.
