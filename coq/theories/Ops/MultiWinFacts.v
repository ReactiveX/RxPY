(* Generic facts about the window/group runner (Ops/MultiWin.v), for EVERY
   machine, EVERY subscription policy and EVERY input sequence:
   - the ref-count invariant: the underlying disposable is released exactly when
     the outer subscription has ended and no subscription of a handed
     observable is live; a released runner holds no source subscription and no
     timer (C02 clause for groups/windows);
   - release is the ONLY way the runner takes a source subscription away from
     a machine: while the outer subscription or a window subscriber is live,
     a source the machine does not unsubscribe itself stays subscribed until
     it terminates (C03 exception clause);
   - the outer is silent once it ended; ending and releasing are permanent;
   - a window notification reaches exactly the live subscriptions of that
     window, a window without live subscription is silent. *)
From RxVerif Require Import Base.Prelude Ops.Machine Ops.MultiFacts Ops.MultiWin.

Local Arguments Multi.mem : simpl never.
Local Arguments Multi.remove : simpl never.
Local Arguments Multi.sort_nat : simpl never.

Section Facts.
Context {A W B : Type}.

(* bookkeeping observations: source subscriptions, timers, side effects *)
Definition book (x : obs W B) : Prop :=
  match x with OSub _ | OUnsub _ | OTimer _ _ | OCancel _ | OEffect _ => True | _ => False end.

Context (imm : nat -> bool).

(* The four places where a reference to the underlying disposable is dropped;
   each is followed by [maybe_release]. *)
Inductive rdrop : rstate W -> list (obs W B) -> rstate W -> Prop :=
| rd_winterm r g e : wterm_of g (r_wterm r) = None -> is_terminal e = true ->
    rdrop r (repeat (OWin g e) (count_of g (r_wsubs r)))
      (RState (r_live r) (r_timers r) (r_outer r) (filter (fun j => negb (Nat.eqb g j)) (r_wsubs r))
              (r_wterm r ++ [(g, e)]) (r_handed r) (r_released r))
| rd_finish r t : r_outer r = true -> is_terminal t = true ->
    rdrop r [OEmit t] (RState (r_live r) (r_timers r) false (r_wsubs r) (r_wterm r) (r_handed r) (r_released r))
| rd_end r :
    rdrop r [] (RState (r_live r) (r_timers r) false (r_wsubs r) (r_wterm r) (r_handed r) (r_released r))
| rd_unsubwin r g : mem g (r_wsubs r) = true ->
    rdrop r [] (RState (r_live r) (r_timers r) (r_outer r) (remove g (r_wsubs r)) (r_wterm r) (r_handed r)
                       (r_released r)).

(* Everything the runner does to its state is a sequence of the transitions
   below ([rstep_trans]; a subscription to a handed observable from outside,
   ISubWin, is [sub_win] itself), so a property of runner states and
   observations is proved by one induction on this relation ([rstep_cases]).
   [rt_book] changes only the lists of source subscriptions and timers; once
   released they can only shrink. *)
Inductive rtrans : rstate W -> list (obs W B) -> rstate W -> Prop :=
| rt_nil r : rtrans r [] r
| rt_app r o1 r1 o2 r2 : rtrans r o1 r1 -> rtrans r1 o2 r2 -> rtrans r (o1 ++ o2) r2
| rt_book r r' o : Forall book o ->
    r_outer r' = r_outer r -> r_wsubs r' = r_wsubs r -> r_wterm r' = r_wterm r ->
    r_handed r' = r_handed r -> r_released r' = r_released r ->
    (r_released r = true -> incl (r_live r') (r_live r) /\ incl (r_timers r') (r_timers r)) ->
    rtrans r o r'
| rt_emit r b : r_outer r = true -> rtrans r [OEmit (Next b)] r
| rt_hand r g key : r_outer r = true ->
    rtrans r
      (OHand g key ::
       (if imm g
        then snd (@sub_win W B (RState (r_live r) (r_timers r) true (r_wsubs r) (r_wterm r) (r_handed r ++ [g])
                                       (r_released r)) g)
        else []))
      (if imm g
       then fst (@sub_win W B (RState (r_live r) (r_timers r) true (r_wsubs r) (r_wterm r) (r_handed r ++ [g])
                                      (r_released r)) g)
       else RState (r_live r) (r_timers r) true (r_wsubs r) (r_wterm r) (r_handed r ++ [g]) (r_released r))
| rt_win r g e : wterm_of g (r_wterm r) = None -> is_terminal e = false ->
    rtrans r (repeat (OWin g e) (count_of g (r_wsubs r))) r
| rt_drop r o r1 : rdrop r o r1 ->
    rtrans r (o ++ snd (@maybe_release W B r1)) (fst (@maybe_release W B r1)).

Lemma rt_same r o : Forall book o -> rtrans r o r.
Proof. intros H. apply rt_book; auto using incl_refl. Qed.

Lemma remove_cons k j (t : list nat) : remove k (j :: t) = if Nat.eqb k j then t else j :: remove k t.
Proof. reflexivity. Qed.

Lemma apply_cmd_trans r c : rtrans r (snd (apply_cmd imm r c)) (fst (apply_cmd imm r c)).
Proof.
  destruct c as [b|g key|g e|k|k|tg d|tg|n|k]; cbn [apply_cmd].
  - destruct (r_outer r) eqn:Eo; [apply rt_emit; exact Eo|apply rt_nil].
  - destruct (r_outer r) eqn:Eo; [|apply rt_nil].
    pose proof (rt_hand r g key Eo) as H. revert H.
    destruct (imm g); [destruct (sub_win _ g)|]; intros H; exact H.
  - destruct (wterm_of g (r_wterm r)) eqn:Et; [apply rt_nil|].
    destruct (is_terminal e) eqn:Ee; [|apply rt_win; assumption].
    pose proof (rt_drop _ _ _ (rd_winterm r g e Et Ee)) as H. revert H.
    destruct (maybe_release _); intros H; exact H.
  (* the other commands touch only the lists of source subscriptions and timers: they grow while not
     released, shrink otherwise *)
  - destruct (r_released r) eqn:Er; apply rt_book; cbn [fst snd r_live r_timers]; auto using incl_refl;
      try congruence; repeat constructor.
  - destruct (mem k (r_live r)); [|apply rt_nil].
    apply rt_book; cbn [fst snd r_live r_timers]; auto using incl_refl, incl_remove. repeat constructor.
  - destruct (r_released r) eqn:Er; apply rt_book; cbn [fst snd r_live r_timers]; auto using incl_refl;
      try congruence; repeat constructor.
  - destruct (mem tg (r_timers r)); [|apply rt_nil].
    apply rt_book; cbn [fst snd r_live r_timers]; auto using incl_refl, incl_remove. repeat constructor.
  - apply rt_same. repeat constructor.
  - destruct (r_released r) eqn:Er; [apply rt_nil|].
    apply rt_book; cbn [fst snd r_live r_timers]; auto; try congruence. repeat constructor.
Qed.

Lemma apply_cmds_trans cs : forall r, rtrans r (snd (apply_cmds imm r cs)) (fst (apply_cmds imm r cs)).
Proof.
  induction cs as [|c t IH]; intros r; cbn [apply_cmds]; [apply rt_nil|].
  pose proof (apply_cmd_trans r c) as H1. destruct (apply_cmd imm r c) as [r1 o1].
  specialize (IH r1). destruct (apply_cmds imm r1 t) as [r2 o2]. exact (rt_app _ _ _ _ _ H1 IH).
Qed.

Lemma end_outer_trans r : rtrans r (snd (@end_outer W B r)) (fst (@end_outer W B r)).
Proof. exact (rt_drop _ _ _ (rd_end r)). Qed.

Lemma finish_cases r f :
  @finish W B r f = (r, [])
  \/ (exists t, is_terminal t = true /\ r_outer r = true
                /\ @finish W B r f = (fst (@end_outer W B r), OEmit t :: snd (@end_outer W B r))).
Proof.
  destruct f as [| |z]; cbn [finish]; [left; reflexivity| |]; (destruct (r_outer r); [right|left; reflexivity]);
    [exists Done|exists (Err z)]; destruct (end_outer r); auto.
Qed.

Lemma finish_trans r f : rtrans r (snd (@finish W B r f)) (fst (@finish W B r f)).
Proof.
  destruct (finish_cases r f) as [->|(t & Ht & Ho & ->)]; [apply rt_nil|exact (rt_drop _ _ _ (rd_finish r t Ho Ht))].
Qed.

(* the ref-count invariant: a released runner holds nothing and nobody refers to it ([rinv1]);
   when nobody refers to the underlying disposable any more it has been released ([rinv2]) *)
Definition rinv1 (r : rstate W) : Prop :=
  r_released r = true -> r_live r = [] /\ r_timers r = [] /\ r_outer r = false /\ r_wsubs r = [].
Definition rinv2 (r : rstate W) : Prop :=
  r_outer r = false -> r_wsubs r = [] -> r_released r = true.
Definition rinv (r : rstate W) : Prop := rinv1 r /\ rinv2 r.

Lemma rinv0 : rinv (@rstate0 W).
Proof. split; intros H; cbn in *; discriminate. Qed.

Lemma maybe_release_inv (r : rstate W) : rinv1 r -> rinv (fst (@maybe_release W B r)).
Proof.
  intros H1. unfold maybe_release.
  destruct r as [lv tm ou ws wt hd rl]. cbn [r_outer r_released r_wsubs r_live r_timers r_wterm r_handed].
  (* the release fires in one of the eight cases; released with the outer or a window subscriber
     live is excluded by [H1] *)
  destruct ou, rl, ws; cbn [negb andb fst]; split; intros Ha; cbn in *; try discriminate; auto.
  all: try (intros Hb; discriminate).
  all: try (destruct (H1 eq_refl) as (? & ? & ? & ?); discriminate).
Qed.

Lemma sub_win_inv (r : rstate W) g : rinv r -> rinv (fst (@sub_win W B r g)).
Proof.
  intros [H1 H2]. unfold sub_win. destruct (wterm_of g (r_wterm r)); [split; assumption|].
  destruct (mem g (r_handed r) && negb (r_released r)) eqn:E; [|split; assumption].
  apply andb_true_iff in E. destruct E as [_ E]. apply negb_true_iff in E.
  destruct r as [lv tm ou ws wt hd rl]. cbn in *. subst rl. split; intros Ha; cbn in *; try discriminate.
  intros Hb. destruct ws; discriminate.
Qed.

Lemma rdrop_inv1 r o r1 : rdrop r o r1 -> rinv1 r -> rinv1 r1.
Proof.
  unfold rinv1. destruct 1; cbn; intros Hi Ha; destruct (Hi Ha) as (Hl & Ht & Ho & Hw); rewrite ?Hw; auto.
Qed.

Lemma rtrans_inv r o r' : rtrans r o r' -> rinv r -> rinv r'.
Proof.
  induction 1 as [r|r o1 r1 o2 r2 _ IH1 _ IH2|r r' o _ Eo Ew _ _ Er Hl|r b _|r g key Ho|r g e _ _|r o r1 D];
    intros Hr; auto.
  - destruct Hr as [H1 H2]. split.
    + intros Ha. rewrite Er in Ha. destruct (H1 Ha) as (Hl1 & Ht1 & Ho1 & Hw1). destruct (Hl Ha) as [Il It].
      rewrite Hl1 in Il. rewrite Ht1 in It. rewrite Eo, Ew. auto using incl_l_nil.
    + intros Ha Hb. rewrite Er. apply H2; congruence.
  - assert (Hr1 : rinv (RState (r_live r) (r_timers r) true (r_wsubs r) (r_wterm r) (r_handed r ++ [g])
                               (r_released r))).
    { destruct Hr as [H1 H2]. split; intros Ha; cbn in *; [|discriminate].
      destruct (H1 Ha) as (_ & _ & Hc & _). congruence. }
    destruct (imm g); [apply sub_win_inv|]; exact Hr1.
  - apply maybe_release_inv, (rdrop_inv1 _ _ _ D), Hr.
Qed.

(* ending and releasing are permanent *)
Lemma maybe_release_mono (r : rstate W) :
  (r_released r = true -> r_released (fst (@maybe_release W B r)) = true)
  /\ (r_outer r = false -> r_outer (fst (@maybe_release W B r)) = false).
Proof.
  unfold maybe_release. destruct r as [lv tm ou ws wt hd rl]. cbn.
  destruct ou, rl, ws; cbn; auto.
Qed.

Lemma sub_win_mono (r : rstate W) g :
  r_released (fst (@sub_win W B r g)) = r_released r /\ r_outer (fst (@sub_win W B r g)) = r_outer r
  /\ r_live (fst (@sub_win W B r g)) = r_live r /\ r_timers (fst (@sub_win W B r g)) = r_timers r.
Proof.
  unfold sub_win. destruct (wterm_of g (r_wterm r)); [auto|].
  destruct (mem g (r_handed r) && negb (r_released r)); auto.
Qed.

Lemma rtrans_mono r o r' : rtrans r o r' ->
  (r_released r = true -> r_released r' = true) /\ (r_outer r = false -> r_outer r' = false).
Proof.
  induction 1 as [r|r o1 r1 o2 r2 _ [IH1 IH1'] _ [IH2 IH2']|r r' o _ Eo _ _ _ Er _|r b _|r g key Ho|r g e _ _
                  |r o r1 D]; auto.
  - rewrite Eo, Er. auto.
  - split; [|congruence]. destruct (imm g); [|auto].
    match goal with |- context [sub_win ?r1 g] => destruct (sub_win_mono r1 g) as (Ha & _) end.
    rewrite Ha. auto.
  - destruct (maybe_release_mono r1) as [Ha Hb]. destruct D; cbn in *; auto.
Qed.

(* C03: the outer is silent once it ended *)
Definition outer_obs (o : obs W B) : bool := match o with OEmit _ | OHand _ _ => true | _ => false end.
Definition outer_silent (o : list (obs W B)) : Prop := forall x, In x o -> outer_obs x = false.

Lemma outer_silent_app a b : outer_silent a -> outer_silent b -> outer_silent (a ++ b).
Proof. intros Ha Hb x Hx. apply in_app_or in Hx. destruct Hx; auto. Qed.
Lemma outer_silent_nil : outer_silent [].
Proof. intros x []. Qed.

Lemma book_silent o : Forall book o -> outer_silent o.
Proof. intros H x Hx. rewrite Forall_forall in H. specialize (H x Hx). destruct x; auto; destruct H. Qed.

Lemma maybe_release_book (r : rstate W) : Forall book (snd (@maybe_release W B r)).
Proof.
  unfold maybe_release.
  destruct (negb (r_outer r) && negb (r_released r) && match r_wsubs r with [] => true | _ => false end);
    cbn [snd]; [|constructor].
  apply Forall_app; split; apply Forall_forall; intros x Hx; apply in_map_iff in Hx;
    destruct Hx as [j [<- _]]; exact I.
Qed.

Lemma maybe_release_silent (r : rstate W) : outer_silent (snd (@maybe_release W B r)).
Proof. apply book_silent, maybe_release_book. Qed.

Lemma sub_win_silent (r : rstate W) g : outer_silent (snd (@sub_win W B r g)).
Proof.
  unfold sub_win. destruct (wterm_of g (r_wterm r)); cbn [snd].
  - intros x [<-|[]]. reflexivity.
  - destruct (mem g (r_handed r) && negb (r_released r)); apply outer_silent_nil.
Qed.

Lemma repeat_silent g (e : ev W) n : outer_silent (repeat (@OWin W B g e) n).
Proof. intros x Hx. apply repeat_spec in Hx. now subst. Qed.

Lemma rtrans_silent r o r' : rtrans r o r' -> r_outer r = false -> outer_silent o.
Proof.
  induction 1 as [r|r o1 r1 o2 r2 H1 IH1 _ IH2|r r' o Hb _ _ _ _ _ _|r b Ho|r g key Ho|r g e _ _|r o r1 D];
    intros Hf; try congruence.
  - apply outer_silent_nil.
  - apply outer_silent_app; [auto|]. apply IH2, (proj2 (rtrans_mono _ _ _ H1)), Hf.
  - apply book_silent, Hb.
  - apply repeat_silent.
  - apply outer_silent_app; [|apply maybe_release_silent].
    destruct D; try congruence; [apply repeat_silent|apply outer_silent_nil..].
Qed.

Context (m : machine A W B).

Lemma deliver_trans s r now i :
  rtrans r (snd (deliver imm m s r now i)) (snd (fst (deliver imm m s r now i))).
Proof.
  unfold deliver. destruct (x_step m s now i) as [[s' cs] f].
  pose proof (apply_cmds_trans cs r) as H1. destruct (apply_cmds imm r cs) as [r1 o1].
  pose proof (finish_trans r1 f) as H2. destruct (finish r1 f) as [r2 o2]. cbn [fst snd] in *.
  destruct i as [k e| | | |]; cbn [fst snd]; rewrite ?app_nil_r; try exact (rt_app _ _ _ _ _ H1 H2).
  destruct (is_terminal e && mem k (r_live r2)); cbn [fst snd]; rewrite ?app_nil_r;
    [|exact (rt_app _ _ _ _ _ H1 H2)].
  apply rt_app with (1 := H1), rt_app with (1 := H2).
  apply rt_book; cbn [r_live r_timers]; auto using incl_refl, incl_remove. repeat constructor.
Qed.

(* every boundary input except an outside subscription to a handed observable *)
Lemma rstep_trans s r now i : match i with ISubWin _ => False | _ => True end ->
  rtrans r (snd (rstep imm m s r now i)) (snd (fst (rstep imm m s r now i))).
Proof.
  destruct i as [k e|tag| |g|g]; intros Hi; cbn [rstep]; [| | |destruct Hi|].
  - destruct (mem k (r_live r)); [apply deliver_trans|apply rt_nil].
  - destruct (mem tag (r_timers r)); [|apply rt_nil].
    match goal with |- context [deliver imm m s ?r1 now ?i] =>
      apply (rt_app _ [] _ _ _) with (2 := deliver_trans s r1 now i) end.
    apply rt_book; cbn [r_live r_timers]; auto using incl_refl, incl_remove.
  - destruct (r_outer r); [|apply rt_nil].
    pose proof (end_outer_trans r) as H. destruct (end_outer r) as [r' o]. exact H.
  - destruct (mem g (r_wsubs r)) eqn:E; [|apply rt_nil].
    pose proof (rt_drop _ _ _ (rd_unsubwin r g E)) as H. revert H.
    destruct (maybe_release _); intros H; exact H.
Qed.

Lemma start_trans : rtrans rstate0 (start_obs imm m) (snd (start_state imm m)).
Proof.
  unfold start_obs, start_state. destruct (x_start m) as [[s0 cs] f]. cbn [snd].
  exact (rt_app _ _ _ _ _ (apply_cmds_trans cs rstate0) (finish_trans _ f)).
Qed.

(* a property of all transitions and of [sub_win] holds of every boundary input *)
Lemma rstep_cases (P : rstate W -> list (obs W B) -> rstate W -> Prop) :
  (forall r o r', rtrans r o r' -> P r o r') ->
  (forall r g, P r (snd (@sub_win W B r g)) (fst (@sub_win W B r g))) ->
  forall s r now i, P r (snd (rstep imm m s r now i)) (snd (fst (rstep imm m s r now i))).
Proof.
  intros Ht Hs s r now i. destruct i as [k e|tag| |g|g]; try (apply Ht, rstep_trans; exact I).
  cbn [rstep]. specialize (Hs r g). destruct (sub_win r g). exact Hs.
Qed.

Lemma rstep_inv s (r : rstate W) now i : rinv r -> rinv (snd (fst (rstep imm m s r now i))).
Proof. exact (rstep_cases (fun r _ r' => rinv r -> rinv r') rtrans_inv sub_win_inv s r now i). Qed.

Lemma after_inv ins : forall s (r : rstate W), rinv r -> rinv (snd (after imm m s r ins)).
Proof.
  induction ins as [|[now i] rest IH]; intros s r Hr; [exact Hr|]. cbn [after].
  pose proof (rstep_inv s r now i Hr) as H1. destruct (rstep imm m s r now i) as [[s' r'] o].
  apply IH. exact H1.
Qed.

Lemma after_snd ins : forall s (r : rstate W) k,
  snd (after imm m s r ins) = snd (run_from imm m s r k ins).
Proof.
  induction ins as [|[now i] rest IH]; intros s r k; [reflexivity|]. cbn [after run_from].
  destruct (rstep imm m s r now i) as [[s' r'] o]. rewrite (IH s' r' (S k)).
  destruct (run_from imm m s' r' (S k) rest). reflexivity.
Qed.

Lemma start_inv : rinv (snd (start_state imm m)).
Proof. exact (rtrans_inv _ _ _ start_trans rinv0). Qed.

Lemma run_final ins :
  snd (run imm m ins) = snd (after imm m (fst (start_state imm m)) (snd (start_state imm m)) ins).
Proof.
  unfold run. rewrite (after_snd ins _ _ 1).
  destruct (run_from imm m (fst (start_state imm m)) (snd (start_state imm m)) 1 ins). reflexivity.
Qed.

Theorem run_inv ins : rinv (snd (run imm m ins)).
Proof. rewrite run_final. apply after_inv, start_inv. Qed.

(* C02 clause: once the outer subscription has ended AND no subscription of a
   handed window/group is live, no source subscription and no timer is left *)
Theorem run_all_ended_released ins :
  r_outer (snd (run imm m ins)) = false -> r_wsubs (snd (run imm m ins)) = [] ->
  r_live (snd (run imm m ins)) = [] /\ r_timers (snd (run imm m ins)) = [].
Proof.
  intros Ho Hw. destruct (run_inv ins) as [H1 H2].
  destruct (H1 (H2 Ho Hw)) as (Ha & Hb & _). split; assumption.
Qed.

(* and conversely the runner has released ONLY in that situation *)
Theorem run_released_only_when_all_ended ins :
  r_released (snd (run imm m ins)) = true ->
  r_outer (snd (run imm m ins)) = false /\ r_wsubs (snd (run imm m ins)) = [].
Proof. intros H. destruct (run_inv ins) as [H1 _]. destruct (H1 H) as (_ & _ & Ha & Hb). split; assumption. Qed.

Lemma rstep_mono s (r : rstate W) now i :
  (r_released r = true -> r_released (snd (fst (rstep imm m s r now i))) = true)
  /\ (r_outer r = false -> r_outer (snd (fst (rstep imm m s r now i))) = false).
Proof.
  apply (rstep_cases (fun r _ r' => (r_released r = true -> r_released r' = true)
                                    /\ (r_outer r = false -> r_outer r' = false)) rtrans_mono).
  intros r0 g. destruct (sub_win_mono r0 g) as (-> & -> & _). auto.
Qed.

Lemma rstep_silent s (r : rstate W) now i :
  r_outer r = false -> outer_silent (snd (rstep imm m s r now i)).
Proof.
  exact (rstep_cases (fun r o _ => r_outer r = false -> outer_silent o) rtrans_silent
           (fun r g _ => sub_win_silent r g) s r now i).
Qed.

(* after the outer subscription ended (its terminal, or the subscriber's
   dispose) nothing is observed on the outer any more, whatever comes *)
Theorem run_from_outer_silent ins : forall s (r : rstate W) k,
  r_outer r = false -> forall x, In x (fst (run_from imm m s r k ins)) -> outer_obs (snd x) = false.
Proof.
  induction ins as [|[now i] rest IH]; intros s r k Ho x Hx; [destruct Hx|]. cbn [run_from] in Hx.
  pose proof (rstep_silent s r now i Ho) as H1. destruct (rstep_mono s r now i) as [_ H2].
  destruct (rstep imm m s r now i) as [[s' r'] o]. cbn [fst snd] in *.
  specialize (IH s' r' (S k) (H2 Ho)). destruct (run_from imm m s' r' (S k) rest) as [tr rf]. cbn [fst] in *.
  apply in_app_or in Hx. destruct Hx as [Hx|Hx]; [|apply IH; exact Hx].
  apply in_map_iff in Hx. destruct Hx as [y [<- Hy]]. apply H1. exact Hy.
Qed.

Lemma rstep_dispose_ends s (r : rstate W) now :
  r_outer (snd (fst (rstep imm m s r now IDispose))) = false.
Proof.
  cbn [rstep]. destruct (r_outer r) eqn:E; [|exact E]. unfold end_outer.
  match goal with |- context [maybe_release ?r1] =>
    destruct (maybe_release_mono r1) as [_ Hb]; destruct (maybe_release r1) end.
  exact (Hb eq_refl).
Qed.

Lemma mem_app_l k l j : mem k l = true -> mem k (l ++ [j]) = true.
Proof. unfold Multi.mem. intros H. rewrite existsb_app, H. reflexivity. Qed.

Lemma mem_remove_other k j l : j <> k -> mem k l = true -> mem k (remove j l) = true.
Proof. rewrite !mem_In. apply in_remove_other. Qed.

Definition is_unsub (k : nat) (c : cmd W B) : bool :=
  match c with CUnsub j => Nat.eqb j k | _ => false end.

(* C03 exception clause, release is the only way a source goes: from [r] to [r'] source k was not
   taken away, unless [r'] is released; as a release is permanent, such steps compose *)
Definition keeps (k : nat) (r r' : rstate W) : Prop :=
  r_released r' = false -> r_released r = false /\ (mem k (r_live r) = true -> mem k (r_live r') = true).

Lemma keeps_refl k r : keeps k r r.
Proof. intros H. auto. Qed.

Lemma keeps_trans k r r1 r2 : keeps k r r1 -> keeps k r1 r2 -> keeps k r r2.
Proof. intros H1 H2 H. destruct (H2 H) as [Ha Hb]. destruct (H1 Ha) as [Hc Hd]. auto. Qed.

Lemma rtrans_keeps k r o r' : rtrans r o r' ->
  (r_released r' = false -> mem k (r_live r) = true -> mem k (r_live r') = true) -> keeps k r r'.
Proof.
  intros T H Hr. split; [|exact (H Hr)]. destruct (r_released r) eqn:E; [|reflexivity].
  rewrite (proj1 (rtrans_mono _ _ _ T) E) in Hr. discriminate.
Qed.

Lemma maybe_release_same (r : rstate W) :
  r_released (fst (@maybe_release W B r)) = false -> fst (@maybe_release W B r) = r.
Proof.
  unfold maybe_release.
  destruct (negb (r_outer r) && negb (r_released r) && match r_wsubs r with [] => true | _ => false end);
    [discriminate|reflexivity].
Qed.

Lemma drop_keeps k r o r1 : rdrop r o r1 -> keeps k r (fst (@maybe_release W B r1)).
Proof.
  intros D. apply (rtrans_keeps k _ _ _ (rt_drop _ _ _ D)). intros Hr. rewrite (maybe_release_same _ Hr).
  destruct D; exact (fun H => H).
Qed.

Lemma apply_cmd_keeps k (r : rstate W) (c : cmd W B) :
  is_unsub k c = false -> keeps k r (fst (apply_cmd imm r c)).
Proof.
  intros Hc. apply (rtrans_keeps k _ _ _ (apply_cmd_trans r c)). destruct c; cbn [apply_cmd].
  - destruct (r_outer r); auto.
  - destruct (r_outer r); [|auto]. destruct (imm g); [|auto].
    match goal with |- context [sub_win ?r1 g] =>
      destruct (sub_win_mono r1 g) as (_ & _ & Ha & _); destruct (sub_win r1 g) as [r2 o] end.
    cbn [fst] in *. rewrite Ha. auto.
  - destruct (wterm_of g (r_wterm r)); [auto|]. destruct (is_terminal e); [|auto].
    match goal with |- context [maybe_release ?r1] =>
      pose proof (maybe_release_same r1) as Hm; destruct (maybe_release r1) as [r2 o2] end.
    cbn [fst] in *. intros Hr. rewrite (Hm Hr). auto.
  - destruct (r_released r); [auto|]. cbn [fst r_live]. auto using mem_app_l.
  - cbn [is_unsub] in Hc. apply Nat.eqb_neq in Hc.
    destruct (mem k0 (r_live r)); [|auto]. cbn [fst r_live]. auto using mem_remove_other.
  - destruct (r_released r); auto.
  - destruct (mem tag (r_timers r)); auto.
  - auto.
  - destruct (r_released r); [auto|]. cbn [fst r_live]. auto using mem_app_l.
Qed.

Lemma apply_cmds_keeps k (cs : list (cmd W B)) : forall r,
  existsb (is_unsub k) cs = false -> keeps k r (fst (apply_cmds imm r cs)).
Proof.
  induction cs as [|c t IH]; intros r Hc; cbn [apply_cmds]; [apply keeps_refl|].
  apply orb_false_iff in Hc. destruct Hc as [Hc1 Hc2].
  pose proof (apply_cmd_keeps k r c Hc1) as H1. destruct (apply_cmd imm r c) as [r1 o1].
  specialize (IH r1 Hc2). destruct (apply_cmds imm r1 t) as [r2 o2]. exact (keeps_trans _ _ _ _ H1 IH).
Qed.

Lemma finish_keeps k (r : rstate W) f : keeps k r (fst (@finish W B r f)).
Proof.
  destruct (finish_cases r f) as [->|(t & Ht & Ho & ->)];
    [apply keeps_refl|exact (drop_keeps k _ _ _ (rd_finish r t Ho Ht))].
Qed.

Lemma deliver_keeps k s (r : rstate W) now i :
  existsb (is_unsub k) (snd (fst (x_step m s now i))) = false ->
  (forall e, i = ISrc k e -> is_terminal e = false) ->
  keeps k r (snd (fst (deliver imm m s r now i))).
Proof.
  intros Hc Hi. unfold deliver. destruct (x_step m s now i) as [[s' cs] f]. cbn [fst snd] in Hc.
  pose proof (apply_cmds_keeps k cs r Hc) as H1. destruct (apply_cmds imm r cs) as [r1 o1].
  pose proof (finish_keeps k r1 f) as H2. destruct (finish r1 f) as [r2 o2]. cbn [fst] in *.
  apply keeps_trans with (1 := H1), keeps_trans with (1 := H2).
  destruct i as [j e| | | |]; try apply keeps_refl.
  destruct (is_terminal e && mem j (r_live r2)) eqn:Et; [|apply keeps_refl].
  intros Hr. split; [exact Hr|]. cbn [fst snd r_live]. apply mem_remove_other. intros ->.
  rewrite (Hi e eq_refl) in Et. discriminate.
Qed.

(* one boundary input: a subscribed source the step does not unsubscribe, and
   that is not terminating itself, is still subscribed afterwards UNLESS the
   runner released everything (outer ended and no window subscriber live) *)
Theorem rstep_keeps k s (r : rstate W) now i :
  existsb (is_unsub k) (snd (fst (x_step m s now i))) = false ->
  (forall e, i = ISrc k e -> is_terminal e = false) ->
  keeps k r (snd (fst (rstep imm m s r now i))).
Proof.
  intros Hc Hi. destruct i as [j e|tag| |g|g]; cbn [rstep].
  - destruct (mem j (r_live r)); [apply deliver_keeps; assumption|apply keeps_refl].
  - destruct (mem tag (r_timers r)); [|apply keeps_refl].
    match goal with |- context [deliver imm m s ?r1 now ?i] => exact (deliver_keeps k s r1 now i Hc Hi) end.
  - destruct (r_outer r); [|apply keeps_refl].
    pose proof (drop_keeps k _ _ _ (rd_end r)) as H. unfold end_outer. destruct (maybe_release _). exact H.
  - destruct (sub_win_mono r g) as (Ha & _ & Hb & _). destruct (sub_win r g) as [r' o]. cbn [fst snd] in *.
    intros Hr. rewrite Ha, Hb in *. auto.
  - destruct (mem g (r_wsubs r)) eqn:E; [|apply keeps_refl].
    pose proof (drop_keeps k _ _ _ (rd_unsubwin r g E)) as H. destruct (maybe_release _). exact H.
Qed.

Definition never_unsubs (k : nat) : Prop :=
  forall s now i, existsb (is_unsub k) (snd (fst (x_step m s now i))) = false.

(* whole runs: while the outer subscription or some window/group subscriber is
   live (= not released), source k stays subscribed until it terminates *)
Lemma after_keeps k (ins : list (Z * inp A)) : forall s (r : rstate W),
  never_unsubs k -> (forall now e, In (now, ISrc k e) ins -> is_terminal e = false) ->
  keeps k r (snd (after imm m s r ins)).
Proof.
  induction ins as [|[now i] rest IH]; intros s r Hn Hi; [apply keeps_refl|]. cbn [after].
  assert (H1 : keeps k r (snd (fst (rstep imm m s r now i)))).
  { apply rstep_keeps; [apply Hn|]. intros e ->. apply (Hi now e). left. reflexivity. }
  destruct (rstep imm m s r now i) as [[s' r'] o].
  exact (keeps_trans _ _ _ _ H1 (IH s' r' Hn (fun n e H => Hi n e (or_intror H)))).
Qed.

Theorem source_stays_subscribed k (ins : list (Z * inp A)) : forall s (r : rstate W),
  never_unsubs k -> mem k (r_live r) = true ->
  (forall now e, In (now, ISrc k e) ins -> is_terminal e = false) ->
  r_released (snd (after imm m s r ins)) = false ->
  mem k (r_live (snd (after imm m s r ins))) = true.
Proof. intros s r Hn Hk Hi Hrel. exact (proj2 (after_keeps k ins s r Hn Hi Hrel) Hk). Qed.

Definition wobs (g : nat) (o : list (obs W B)) : list (ev W) :=
  flat_map (fun x => match x with OWin j e => if Nat.eqb g j then [e] else [] | _ => [] end) o.

Lemma wobs_app g a b : wobs g (a ++ b) = wobs g a ++ wobs g b.
Proof. unfold wobs. apply flat_map_app. Qed.

Lemma wobs_repeat_same g (e : ev W) n : wobs g (repeat (OWin g e) n) = repeat e n.
Proof. induction n as [|n IH]; [reflexivity|]. cbn. rewrite Nat.eqb_refl. cbn. f_equal. exact IH. Qed.
Lemma wobs_repeat_other g j (e : ev W) n : g <> j -> wobs g (repeat (OWin j e) n) = [].
Proof.
  intros Hne. induction n as [|n IH]; [reflexivity|]. cbn.
  destruct (Nat.eqb_spec g j); [congruence|]. exact IH.
Qed.

Lemma wobs_book g (o : list (obs W B)) : Forall book o -> wobs g o = [].
Proof. induction 1 as [|x t Hx _ IH]; [reflexivity|]. destruct x; try destruct Hx; exact IH. Qed.

Lemma wobs_release g (r : rstate W) : wobs g (snd (@maybe_release W B r)) = [].
Proof. apply wobs_book, maybe_release_book. Qed.

(* subject_g.on_xxx reaches exactly the live subscriptions of g -- once each --
   and nobody else; a terminated subject is silent *)
Theorem win_cmd_delivery (r : rstate W) g e j :
  wobs j (snd (apply_cmd imm r (CWin g e)))
  = if Nat.eqb j g
    then match wterm_of g (r_wterm r) with
         | Some _ => []
         | None => repeat e (count_of g (r_wsubs r))
         end
    else [].
Proof.
  cbn [apply_cmd]. destruct (wterm_of g (r_wterm r)).
  - cbn. destruct (Nat.eqb j g); reflexivity.
  - destruct (is_terminal e).
    + match goal with |- context [maybe_release ?r1] =>
        pose proof (wobs_release j r1) as Hm; destruct (maybe_release r1) as [r2 o2] end.
      cbn [snd] in *. rewrite wobs_app, Hm, app_nil_r.
      destruct (Nat.eqb_spec j g) as [->|Hne]; [apply wobs_repeat_same|apply wobs_repeat_other; exact Hne].
    + cbn [snd]. destruct (Nat.eqb_spec j g) as [->|Hne]; [apply wobs_repeat_same|apply wobs_repeat_other; exact Hne].
Qed.

Lemma apply_cmds_app (a b : list (cmd W B)) : forall r,
  apply_cmds imm r (a ++ b)
  = (fst (apply_cmds imm (fst (apply_cmds imm r a)) b),
     snd (apply_cmds imm r a) ++ snd (apply_cmds imm (fst (apply_cmds imm r a)) b)).
Proof.
  induction a as [|c t IH]; intros r.
  - cbn. destruct (apply_cmds imm r b); reflexivity.
  - cbn [app apply_cmds]. destruct (apply_cmd imm r c) as [r1 o1]. rewrite IH.
    destruct (apply_cmds imm r1 t) as [r2 o2]. cbn [fst snd].
    destruct (apply_cmds imm r2 b) as [r3 o3]. cbn [fst snd]. now rewrite app_assoc.
Qed.

(* `for s in queue: s.on_next(x)` when every window of the queue is live and
   has exactly one subscriber *)
Lemma apply_cmds_wins_next (q : list nat) (x : W) (r : rstate W) :
  (forall g, In g q -> wterm_of g (r_wterm r) = None /\ count_of g (r_wsubs r) = 1%nat) ->
  apply_cmds (B:=B) imm r (map (fun g => CWin g (Next x)) q) = (r, map (fun g => OWin g (Next x)) q).
Proof.
  induction q as [|g t IH]; intros H; [reflexivity|]. cbn [map apply_cmds apply_cmd].
  destruct (H g (or_introl eq_refl)) as [H1 H2]. rewrite H1, H2. cbn [is_terminal repeat].
  rewrite IH by (intros j Hj; apply H; right; exact Hj). reflexivity.
Qed.

Lemma wterm_of_app g (l1 l2 : list (nat * ev W)) :
  wterm_of g (l1 ++ l2) = match wterm_of g l1 with Some e => Some e | None => wterm_of g l2 end.
Proof. induction l1 as [|[j e] t IH]; [reflexivity|]. cbn. destruct (Nat.eqb g j); auto. Qed.

Lemma count_of_notin g (l : list nat) : ~ In g l -> count_of g l = 0%nat.
Proof.
  unfold count_of. induction l as [|x t IH]; intros H; [reflexivity|]. cbn [filter].
  destruct (Nat.eqb_spec g x) as [->|Hne]; [exfalso; apply H; left; reflexivity|].
  apply IH. intros Hin. apply H. right. exact Hin.
Qed.

Lemma count_of_mem g (l : list nat) : NoDup l -> count_of g l = if mem g l then 1%nat else 0%nat.
Proof.
  unfold Multi.mem. induction 1 as [|x t Hx Hnd IH]; [reflexivity|]. unfold count_of in *. cbn [filter existsb].
  destruct (Nat.eqb_spec g x) as [->|Hne]; cbn [orb length]; [|exact IH].
  fold (count_of x t). rewrite (count_of_notin x t Hx). reflexivity.
Qed.

Lemma count_of_nodup g (l : list nat) : NoDup l -> In g l -> count_of g l = 1%nat.
Proof. intros H Hi. rewrite (count_of_mem g l H), (proj2 (mem_In g l) Hi). reflexivity. Qed.

Lemma count_of_snoc g j (l : list nat) : count_of g (l ++ [j]) = (count_of g l + if Nat.eqb g j then 1 else 0)%nat.
Proof. unfold count_of. rewrite filter_app, app_length. cbn [filter]. destruct (Nat.eqb g j); reflexivity. Qed.

Lemma count_of_filter_other g j (l : list nat) : g <> j ->
  count_of g (filter (fun x => negb (Nat.eqb j x)) l) = count_of g l.
Proof.
  intros Hne. unfold count_of. induction l as [|x t IH]; [reflexivity|]. cbn [filter].
  destruct (Nat.eqb_spec j x) as [->|Hx]; cbn [negb filter].
  - destruct (Nat.eqb_spec g x); [congruence|exact IH].
  - destruct (Nat.eqb g x); cbn [length]; rewrite IH; reflexivity.
Qed.

Lemma wobs_map_win k (q : list nat) (e : ev W) : NoDup q ->
  wobs k (map (fun g => @OWin W B g e) q) = if mem k q then [e] else [].
Proof.
  unfold Multi.mem. induction 1 as [|g t Hg Ht IH]; [reflexivity|]. cbn [map wobs flat_map existsb].
  fold (wobs k (map (fun g => @OWin W B g e) t)). rewrite IH.
  destruct (Nat.eqb_spec k g) as [->|Hne]; cbn [orb app]; [|reflexivity].
  fold (mem g t). now rewrite (proj2 (mem_false g t) Hg).
Qed.

(* `for s in queue: s.on_completed()/on_error(e)` while the outer is live: every
   window of the queue, having one subscriber each, sees the terminal once *)
Lemma apply_cmds_wins_term k (e : ev W) (q : list nat) : is_terminal e = true -> NoDup q -> forall r : rstate W,
  r_outer r = true ->
  (forall g, In g q -> wterm_of g (r_wterm r) = None /\ count_of g (r_wsubs r) = 1%nat) ->
  wobs k (snd (apply_cmds (B:=B) imm r (map (fun g => CWin g e) q))) = (if mem k q then [e] else [])
  /\ r_outer (fst (apply_cmds (B:=B) imm r (map (fun g => CWin g e) q))) = true.
Proof.
  intros He. induction 1 as [|g t Hg Ht IH]; intros r Ho H; [split; [reflexivity|exact Ho]|].
  cbn [map apply_cmds apply_cmd]. destruct (H g (or_introl eq_refl)) as [H1 H2]. rewrite H1, H2, He.
  unfold maybe_release. cbn [r_outer]. rewrite Ho. cbn [negb andb repeat app].
  match goal with |- context [apply_cmds imm ?r1 _] => specialize (IH r1) end.
  destruct IH as [IH1 IH2]; [reflexivity| |].
  { intros j Hj. destruct (H j (or_intror Hj)) as [Ha Hb]. cbn [r_wterm r_wsubs].
    assert (Hne : j <> g) by (intros ->; contradiction).
    rewrite wterm_of_app, Ha. cbn [wterm_of]. destruct (Nat.eqb_spec j g); [congruence|].
    rewrite count_of_filter_other by exact Hne. auto. }
  match goal with |- context [apply_cmds imm ?r1 ?cs] => destruct (apply_cmds imm r1 cs) as [r2 o2] end.
  cbn [fst snd] in *. split; [|exact IH2].
  cbn [wobs flat_map app]. fold (wobs k o2). rewrite IH1. unfold Multi.mem. cbn [existsb].
  destruct (Nat.eqb_spec k g) as [->|Hne]; cbn [orb app]; [|reflexivity].
  fold (mem g t). now rewrite (proj2 (mem_false g t) Hg).
Qed.

Lemma wobs_finish g (r : rstate W) f : wobs g (snd (@finish W B r f)) = [].
Proof. destruct (finish_cases r f) as [->|(t & _ & _ & ->)]; [reflexivity|exact (wobs_release g _)]. Qed.

Definition hobs (o : list (obs W B)) : list (nat * Z) :=
  flat_map (fun x => match x with OHand g key => [(g, key)] | _ => [] end) o.
Lemma hobs_app a b : hobs (a ++ b) = hobs a ++ hobs b.
Proof. unfold hobs. apply flat_map_app. Qed.

Lemma rstep_state s (r : rstate W) now i :
  fst (fst (rstep imm m s r now i)) = s \/ fst (fst (rstep imm m s r now i)) = fst (fst (x_step m s now i)).
Proof.
  assert (D : forall r0, fst (fst (deliver imm m s r0 now i)) = fst (fst (x_step m s now i))).
  { intros r0. unfold deliver. destruct (x_step m s now i) as [[s' cs] f].
    destruct (apply_cmds imm r0 cs) as [r1 o1]. destruct (finish r1 f) as [r2 o2].
    destruct i as [k e| | | |]; try reflexivity.
    destruct (is_terminal e && mem k (r_live r2)); reflexivity. }
  destruct i as [k e|tag| |g|g]; cbn [rstep].
  - destruct (mem k (r_live r)); [right; apply D|left; reflexivity].
  - destruct (mem tag (r_timers r)); [right; apply D|left; reflexivity].
  - destruct (r_outer r); [destruct (end_outer r)|]; left; reflexivity.
  - destruct (sub_win r g). left. reflexivity.
  - destruct (mem g (r_wsubs r)); [destruct (maybe_release _)|]; left; reflexivity.
Qed.

Theorem after_state_inv (P : x_state m -> Prop) :
  (forall s now i, P s -> P (fst (fst (x_step m s now i)))) ->
  forall ins s (r : rstate W), P s -> P (fst (after imm m s r ins)).
Proof.
  intros Hstep. induction ins as [|[now i] rest IH]; intros s r Hs; [exact Hs|]. cbn [after].
  pose proof (rstep_state s r now i) as Hc. destruct (rstep imm m s r now i) as [[s' r'] o]. cbn [fst] in Hc.
  apply IH. destruct Hc as [->| ->]; [exact Hs|apply Hstep; exact Hs].
Qed.

Lemma run_from_cons s (r : rstate W) k now i rest :
  run_from imm m s r k ((now, i) :: rest)
  = (map (fun x => (k, x)) (snd (rstep imm m s r now i))
     ++ fst (run_from imm m (fst (fst (rstep imm m s r now i))) (snd (fst (rstep imm m s r now i))) (S k) rest),
     snd (run_from imm m (fst (fst (rstep imm m s r now i))) (snd (fst (rstep imm m s r now i))) (S k) rest)).
Proof.
  cbn [run_from]. destruct (rstep imm m s r now i) as [[s' r'] o]. cbn [fst snd].
  destruct (run_from imm m s' r' (S k) rest). reflexivity.
Qed.

Lemma run_unfold ins :
  run imm m ins
  = (map (fun x => (0%nat, x)) (start_obs imm m)
     ++ fst (run_from imm m (fst (start_state imm m)) (snd (start_state imm m)) 1 ins),
     snd (run_from imm m (fst (start_state imm m)) (snd (start_state imm m)) 1 ins)).
Proof. unfold run. destruct (run_from imm m _ _ 1 ins). reflexivity. Qed.
End Facts.

Lemma wevents_app {W B} g (a b : list (nat * obs W B)) : wevents g (a ++ b) = wevents g a ++ wevents g b.
Proof. unfold wevents. apply flat_map_app. Qed.

Lemma wevents_tag {W B} g k (o : list (obs W B)) : wevents g (map (fun x => (k, x)) o) = wobs g o.
Proof.
  unfold wevents, wobs. induction o as [|x t IH]; [reflexivity|]. cbn [map flat_map snd]. now rewrite IH.
Qed.

Lemma hands_app {W B} (a b : list (nat * obs W B)) : hands (a ++ b) = hands a ++ hands b.
Proof. unfold hands. apply flat_map_app. Qed.

Lemma hands_tag {W B} k (o : list (obs W B)) : hands (map (fun x => (k, x)) o) = hobs o.
Proof.
  unfold hands, hobs. induction o as [|x t IH]; [reflexivity|]. cbn [map flat_map snd]. now rewrite IH.
Qed.
