(* C02/C03 at the level of the OBSERVABLE TRACE (what is compared with the
   implementation): subscriptions opened and closed balance out -- the set of
   source subscriptions still open after a trace is exactly the runner's live
   set, which is empty after a terminal notification or a dispose. *)
From Coq Require Import Permutation.
From RxVerif Require Import Base.Prelude Ops.Machine Ops.Multi Ops.MultiFacts.

Section Track.
Context {B : Type}.

Definition track (l : list nat) (o : obs B) : list nat :=
  match o with OSub k => l ++ [k] | OUnsub k => remove k l | _ => l end.
Definition open_after (l : list nat) (os : list (obs B)) : list nat := fold_left track os l.

Lemma open_after_app l a b : open_after l (a ++ b) = open_after (open_after l a) b.
Proof. unfold open_after. apply fold_left_app. Qed.

Lemma mem_true_in k l : mem k l = true -> In k l.
Proof. exact (proj1 (mem_In k l)). Qed.

Lemma remove_perm k l : In k l -> Permutation l (k :: remove k l).
Proof.
  induction l as [|j t IH]; intros H; [destruct H|].
  cbn [remove]. destruct (Nat.eqb_spec k j) as [->|Hne]; [reflexivity|].
  destruct H as [H|H]; [congruence|].
  rewrite (IH H) at 1. apply perm_swap.
Qed.

Lemma remove_all ks : forall l, Permutation ks l ->
  open_after l (map (@OUnsub B) ks) = [].
Proof.
  induction ks as [|k ks IH]; intros l HP.
  - apply Permutation_nil in HP. now subst.
  - cbn [map open_after fold_left track]. apply IH.
    assert (Hin : In k l) by (eapply Permutation_in; [exact HP|left; reflexivity]).
    pose proof (remove_perm k l Hin) as H2.
    apply Permutation_cons_inv with (a := k). now rewrite HP.
Qed.

Lemma insert_sorted_perm k l : Permutation (insert_sorted k l) (k :: l).
Proof.
  induction l as [|j t IH]; [reflexivity|]. cbn [insert_sorted].
  destruct (Nat.leb k j); [reflexivity|]. rewrite IH. apply perm_swap.
Qed.

Lemma sort_nat_perm l : Permutation (sort_nat l) l.
Proof.
  induction l as [|k t IH]; [reflexivity|]. cbn [sort_nat fold_right].
  fold (sort_nat t). rewrite insert_sorted_perm. now constructor.
Qed.

Lemma open_after_cancels l ts : open_after l (map (@OCancel B) ts) = l.
Proof. revert l; induction ts as [|t r IH]; intros l; [reflexivity|]. cbn. apply IH. Qed.

Lemma release_track (r : rstate) :
  open_after (r_live r) (snd (@release B r)) = r_live (fst (@release B r)).
Proof.
  unfold release. cbn [fst snd r_live]. rewrite open_after_app.
  rewrite (remove_all (sort_nat (r_live r)) (r_live r) (sort_nat_perm _)).
  apply open_after_cancels.
Qed.

Lemma apply_cmds_track (cs : list (cmd B)) : forall r,
  open_after (r_live r) (snd (apply_cmds r cs)) = r_live (fst (apply_cmds r cs)).
Proof.
  apply (apply_cmds_fold (fun r o r' => open_after (r_live r) o = r_live r')); [reflexivity|].
  intros r c o2 r2 <-. rewrite open_after_app. f_equal.
  destruct c; cbn; try destruct (mem _ _); reflexivity.
Qed.

Lemma finish_track (r : rstate) f :
  open_after (r_live r) (snd (@finish B r f)) = r_live (fst (@finish B r f)).
Proof. destruct (@finish_cases B r f) as [[_ ->]|(t & _ & ->)]; [reflexivity|exact (release_track r)]. Qed.

Lemma filter_noemit_track l (o : list (obs B)) :
  open_after l (filter (fun o => match o with OEmit _ => false | _ => true end) o) = open_after l o.
Proof.
  revert l; induction o as [|x t IH]; intros l; [reflexivity|].
  destruct x; cbn; apply IH.
Qed.
End Track.

Section Run.
Context {A B : Type} (m : machine A B).

Lemma auto_detach_track (i : inp A) r :
  open_after (r_live r) (snd (auto_detach (B:=B) i r)) = r_live (fst (auto_detach (B:=B) i r)).
Proof.
  destruct i as [k e| |]; try reflexivity. cbn [auto_detach].
  destruct (is_terminal e && mem k (r_live r)); reflexivity.
Qed.

Lemma handled_track {S} (a : S * list (cmd B) * fin) r (i : inp A) :
  open_after (r_live r) (snd (handled_step a r i)) = r_live (snd (fst (handled_step a r i))).
Proof.
  unfold handled_step, noemit. set (r0 := match i with ITick tag => _ | _ => r end).
  replace (r_live r) with (r_live r0) by now destruct i.
  destruct i; cbn [fst snd]; rewrite !open_after_app, ?filter_noemit_track, apply_cmds_track, ?auto_detach_track;
    [apply finish_track..|apply release_track].
Qed.

Lemma rstep_track s r now i :
  open_after (r_live r) (snd (rstep m s r now i)) = r_live (snd (fst (rstep m s r now i))).
Proof.
  destruct (handled_or_dropped r i) as [[Hst Hd]|Hd].
  - rewrite (rstep_handled_eq m s r now i Hst Hd). apply handled_track.
  - now rewrite (rstep_dropped m s r now i Hd).
Qed.

Lemma run_from_track ins : forall s r k,
  open_after (r_live r) (map snd (fst (run_from m s r k ins))) = r_live (snd (run_from m s r k ins)).
Proof.
  revert ins. apply (run_from_fold m (fun _ r tr rf => open_after (r_live r) (map snd tr) = r_live rf)); [reflexivity|].
  intros k s r now i tr rf IH _. rewrite map_app, map_map. cbn [snd]. now rewrite map_id, open_after_app, rstep_track.
Qed.

Theorem run_track ins :
  open_after [] (map snd (fst (run m ins))) = r_live (snd (run m ins)).
Proof.
  rewrite run_start. cbn [fst snd]. rewrite map_app, map_map. cbn [snd]. rewrite map_id, open_after_app.
  rewrite <- run_from_track with (k := 1%nat). f_equal.
  rewrite start_step_handled. apply (handled_track _ (RState [] [] false)).
Qed.

End Run.

(* C02, trace-level corollary of the step shape (Ops/MultiFacts.v: step_kind):
   the terminal notification is the last thing the trace says, except for
   the unsubscribes / timer cancellations of the SAME step (tag) that follow
   it: "released at that instant", read off the observable trace. *)
Section Tail.
Context {A B : Type}.

(* an observation that is not a terminal notification *)
Definition nt (o : obs B) : bool :=
  match o with OEmit e => negb (is_terminal e) | _ => true end.
(* what may follow the terminal: releases carrying the terminal's tag *)
Definition release_tail (k : nat) (post : list (nat * obs B)) : Prop :=
  Forall (fun x => fst x = k /\ relo (snd x)) post.
Definition closed_tr (tr : list (nat * obs B)) : Prop :=
  forall pre k t post, tr = pre ++ (k, OEmit t) :: post -> is_terminal t = true ->
    release_tail k post.

Definition ntt (x : nat * obs B) : bool := nt (snd x).

Lemma relo_nt o : relo o -> nt o = true.
Proof. intros [j [->| ->]]; reflexivity. Qed.

Lemma split_skip (l1 : list (nat * obs B)) : forall l2 pre x post,
  forallb ntt l1 = true -> ntt x = false -> l1 ++ l2 = pre ++ x :: post ->
  exists pre', pre = l1 ++ pre' /\ l2 = pre' ++ x :: post.
Proof.
  induction l1 as [|y t IH]; intros l2 pre x post H1 Hx E.
  - exists pre. auto.
  - cbn [forallb] in H1. apply andb_true_iff in H1. destruct H1 as [Hy Ht].
    destruct pre as [|p pre]; cbn [app] in E.
    + injection E as -> _. congruence.
    + injection E as <- E. destruct (IH _ _ _ _ Ht Hx E) as [pre' [-> ->]].
      exists pre'. auto.
Qed.

Lemma split_unique (a : list (nat * obs B)) x0 rel pre x post :
  forallb ntt a = true -> forallb ntt rel = true -> ntt x = false ->
  a ++ x0 :: rel = pre ++ x :: post -> pre = a /\ x = x0 /\ post = rel.
Proof.
  intros Ha Hrel Hx E. destruct (split_skip a _ _ _ _ Ha Hx E) as [pre' [-> E2]].
  destruct pre' as [|p pre']; cbn [app] in E2.
  - injection E2 as -> ->. now rewrite app_nil_r.
  - injection E2 as _ E2. exfalso.
    assert (H : forallb ntt (pre' ++ x :: post) = true) by (rewrite <- E2; exact Hrel).
    rewrite forallb_app in H. cbn [forallb] in H. rewrite Hx in H.
    rewrite andb_false_r in H. discriminate.
Qed.

Lemma ntt_map k (o : list (obs B)) : forallb ntt (map (fun x => (k, x)) o) = forallb nt o.
Proof. induction o as [|x t IH]; [reflexivity|]. cbn. now rewrite IH. Qed.

Lemma all_next_nt (o : list (obs B)) : all_next (emits o) -> forallb nt o = true.
Proof.
  induction o as [|x t IH]; intros H; [reflexivity|]. destruct x as [e| | | | |]; try exact (IH H).
  change (all_next (e :: emits t)) in H. cbn [forallb nt]. rewrite (Forall_inv H). exact (IH (Forall_inv_tail H)).
Qed.

Lemma closed_nil : closed_tr [].
Proof. intros pre k t post E. destruct pre; discriminate. Qed.

Lemma closed_step k o tr r r' :
  step_kind r r' o -> (r_stopped r' = true -> tr = []) -> closed_tr tr ->
  closed_tr (map (fun x => (k, x)) o ++ tr).
Proof.
  intros K Hstop Hc pre k' t' post E Ht'.
  assert (Hx : ntt (k', OEmit t') = false) by exact (f_equal negb Ht').
  destruct K as [-> _ | Hn _ | a t rel -> Ha Ht Hrel Hr].
  - exact (Hc _ _ _ _ E Ht').
  - destruct (split_skip _ _ _ _ _ (eq_trans (ntt_map k o) (all_next_nt o Hn)) Hx E) as [pre' [-> E2]].
    exact (Hc _ _ _ _ E2 Ht').
  - rewrite (Hstop (f_equal r_stopped Hr)), app_nil_r, map_app in E. cbn [map] in E.
    assert (Hr' : forallb ntt (map (fun x => (k, x)) rel) = true).
    { rewrite ntt_map. apply forallb_forall. intros x Hin.
      apply relo_nt. rewrite Forall_forall in Hrel. auto. }
    destruct (split_unique _ _ _ _ _ _ (eq_trans (ntt_map k a) (all_next_nt a Ha)) Hr' Hx E) as [_ [Hy ->]].
    injection Hy as -> _. unfold release_tail. apply Forall_forall.
    intros x Hin. apply in_map_iff in Hin. destruct Hin as [y [<- Hy]].
    rewrite Forall_forall in Hrel. cbn [fst snd]. auto.
Qed.

Context (m : machine A B).

Lemma run_from_closed ins : forall s r k, closed_tr (fst (run_from m s r k ins)).
Proof.
  revert ins. apply (run_from_fold m (fun _ _ tr _ => closed_tr tr)); [intros; apply closed_nil|].
  intros k s r now i tr rf IH Hs. apply closed_step with (1 := rstep_kind m s r now i); [|exact IH].
  intros H. now injection (Hs H).
Qed.

(* C02: whatever follows a terminal notification in the trace of a run is an
   unsubscribe or a timer cancellation of the SAME step *)
Theorem run_closed ins : closed_tr (fst (run m ins)).
Proof.
  rewrite run_start. cbn [fst]. apply closed_step with (1 := start_kind m); [|apply run_from_closed].
  intros H. now rewrite run_from_stopped.
Qed.

Lemma run_from_tags_ge ins : forall s r k x, In x (fst (run_from m s r k ins)) -> (k <= fst x)%nat.
Proof.
  revert ins. apply (run_from_fold m (fun k _ tr _ => forall x, In x tr -> (k <= fst x)%nat)); [intros k r x []|].
  intros k s r now i tr rf IH _ x H. apply in_app_or in H. destruct H as [H|H].
  - apply in_map_iff in H. destruct H as [y [<- _]]. apply Nat.le_refl.
  - specialize (IH x H). lia.
Qed.

(* sortedness by tag is stated as: everything before an entry has at most its tag *)
Lemma block_sorted k (o : list (obs B)) (tr : list (nat * obs B)) :
  (forall y, In y tr -> (k <= fst y)%nat) ->
  (forall pre x post, tr = pre ++ x :: post -> Forall (fun y => (fst y <= fst x)%nat) pre) ->
  forall pre x post, map (fun z => (k, z)) o ++ tr = pre ++ x :: post ->
    Forall (fun y => (fst y <= fst x)%nat) pre.
Proof.
  intros G S. induction o as [|z o IH]; intros pre x post E; cbn [map app] in E; [exact (S _ _ _ E)|].
  destruct pre as [|p pre]; [constructor|]. cbn [app] in E. injection E as <- E.
  constructor; [|exact (IH _ _ _ E)]. cbn [fst].
  assert (Hx : In x (map (fun z => (k, z)) o ++ tr)) by (rewrite E; apply in_elt).
  apply in_app_or in Hx. destruct Hx as [H|H]; [|exact (G _ H)].
  apply in_map_iff in H. destruct H as [w [<- _]]. apply Nat.le_refl.
Qed.

Lemma run_from_sorted ins : forall s r k pre x post,
  fst (run_from m s r k ins) = pre ++ x :: post -> Forall (fun y => (fst y <= fst x)%nat) pre.
Proof.
  induction ins as [|[now i] rest IH]; intros s r k; cbn [run_from].
  - intros pre x post E. destruct pre; discriminate.
  - destruct (rstep m s r now i) as [[s' r'] o].
    specialize (IH s' r' (S k)). pose proof (run_from_tags_ge rest s' r' (S k)) as G.
    destruct (run_from m s' r' (S k) rest) as [tr rf]. cbn [fst] in *.
    apply block_sorted; [|exact IH]. intros y Hy. specialize (G y Hy). lia.
Qed.

(* no trace entry carries a later tag than the terminal notification *)
Theorem run_nothing_later ins k t k' o :
  In (k, OEmit t) (fst (run m ins)) -> is_terminal t = true ->
  In (k', o) (fst (run m ins)) -> (k' <= k)%nat.
Proof.
  intros H1 Ht H2. apply in_split in H1. destruct H1 as [pre [post E]].
  pose proof (run_closed ins pre k t post E Ht) as C.
  assert (S : Forall (fun y => (fst y <= k)%nat) pre).
  { rewrite run_start in E. refine (block_sorted 0 _ _ _ (run_from_sorted ins _ _ 1) _ _ _ E).
    intros y _. apply Nat.le_0_l. }
  rewrite E in H2. apply in_app_or in H2. destruct H2 as [H2|[H2|H2]].
  - rewrite Forall_forall in S. exact (S _ H2).
  - injection H2 as <- _. lia.
  - unfold release_tail in C. rewrite Forall_forall in C. destruct (C _ H2) as [<- _]. cbn. lia.
Qed.
End Tail.
