(* C18: facts about the window machines of Ops/Windows.v, for EVERY state (hence
   every input history):
   - routing ([routes], proved per machine in Props/C18.v): a source element goes to
     exactly the windows open when it arrives, in opening order; the source's terminal
     ends exactly the open windows with its kind and ends the outer sequence
     (window_toggle: the outer follows the openings);
   - rules: when each machine opens and closes windows (count: closed form in
     Ops/WindowCountFacts.v; time: the timer chain visits the edges k*shift
     and k*shift + span in order; time-or-count; closing selector; the rules that
     hold by evaluation of one handler are proved where they are stated, Props/C18.v);
   - no window machine unsubscribes the main source. *)
From RxVerif Require Import Base.Prelude Ops.Machine Ops.MultiWin Ops.MultiWinFacts Ops.Windows.

Local Arguments Z.of_nat : simpl never.
Local Arguments Z.mul : simpl never.
Local Arguments Z.add : simpl never.
Local Arguments Z.sub : simpl never.

Section Routing.
Context {A B : Type}.

Definition cwin_nexts (cs : list (cmd A B)) : list (nat * A) :=
  flat_map (fun c => match c with CWin g (Next x) => [(g, x)] | _ => [] end) cs.

Lemma cwin_nexts_app a b : cwin_nexts (a ++ b) = cwin_nexts a ++ cwin_nexts b.
Proof. unfold cwin_nexts. apply flat_map_app. Qed.

Lemma cwin_nexts_all q (x : A) : cwin_nexts (wins_all q (Next x)) = map (fun g => (g, x)) q.
Proof. induction q as [|g t IH]; [reflexivity|]. cbn. f_equal. exact IH. Qed.

(* [routes m open f]: in every state s of m,
   an element x of the source (port 0) is sent to exactly the windows [open s], in order;
   the source's completion completes exactly [open s] and leaves with f;
   the source's error e errors exactly [open s] and fails the outer with e *)
Definition routes (m : machine A A B) (open : x_state m -> list nat) (f : fin) : Prop :=
  forall s now,
    (forall x, cwin_nexts (snd (fst (x_step m s now (ISrc 0%nat (Next x))))) = map (fun g => (g, x)) (open s))
    /\ (snd (fst (x_step m s now (ISrc 0%nat Done))) = wins_all (open s) Done
        /\ snd (x_step m s now (ISrc 0%nat Done)) = f)
    /\ (forall e, snd (fst (x_step m s now (ISrc 0%nat (Err e)))) = wins_all (open s) (Err e)
                  /\ snd (x_step m s now (ISrc 0%nat (Err e))) = Fail e).

End Routing.

Section TimeChain.
Context {A B : Type}.
Variables span shift : Z.
Hypothesis Hspan : 0 < span.
Hypothesis Hshift : 0 < shift.

(* after [a] shift edges and [b] span edges have fired: the pending timer is due at
   (subscription time +) min((a+1)*shift, span + b*shift); windows b..a are open *)
Record wt_inv (s : wt_st) (a b : nat) : Prop := {
  ti_span : wt_is_span s = (span + Z.of_nat b * shift <=? (Z.of_nat a + 1) * shift);
  ti_shift : wt_is_shift s = ((Z.of_nat a + 1) * shift <=? span + Z.of_nat b * shift);
  ti_total : wt_total s = Z.min ((Z.of_nat a + 1) * shift) (span + Z.of_nat b * shift);
  ti_nshift : wt_nshift s = (Z.of_nat a + 1) * shift + (if wt_is_shift s then shift else 0);
  ti_nspan : wt_nspan s = span + Z.of_nat b * shift + (if wt_is_span s then shift else 0);
  ti_q : wt_q s = seq b (S a - b);
  ti_next : wt_next s = S a;
  ti_ba : (b <= S a)%nat }.

(* create_timer, called when the next shift edge is (a+1)*shift, the next span edge span + b*shift
   and windows b..a are open: it establishes the invariant and schedules the earlier of the two *)
Lemma wt_create_timer_inv s1 a b :
  wt_nshift s1 = (Z.of_nat a + 1) * shift -> wt_nspan s1 = span + Z.of_nat b * shift ->
  wt_q s1 = seq b (S a - b) -> wt_next s1 = S a -> (b <= S a)%nat ->
  wt_total s1 <= Z.min ((Z.of_nat a + 1) * shift) (span + Z.of_nat b * shift) ->
  wt_inv (fst (wt_create_timer (A:=A) (B:=B) shift s1)) a b
  /\ snd (wt_create_timer (A:=A) (B:=B) shift s1)
     = [CTimer (wt_ntag s1) (Z.min ((Z.of_nat a + 1) * shift) (span + Z.of_nat b * shift) - wt_total s1)].
Proof.
  intros Hns Hnp Hq Hnx Hba Htot. unfold wt_create_timer. cbn [fst snd]. rewrite Hns, Hnp. split.
  - constructor; cbn [wt_is_span wt_is_shift wt_total wt_nshift wt_nspan wt_q wt_next]; try assumption; try reflexivity.
    + destruct (Z.leb_spec (span + Z.of_nat b * shift) ((Z.of_nat a + 1) * shift)); lia.
    + destruct ((Z.of_nat a + 1) * shift <=? span + Z.of_nat b * shift); lia.
    + destruct (span + Z.of_nat b * shift <=? (Z.of_nat a + 1) * shift); lia.
  - f_equal. f_equal. destruct (Z.leb_spec (span + Z.of_nat b * shift) ((Z.of_nat a + 1) * shift)); lia.
Qed.

Lemma wt_start_inv :
  wt_inv (fst (fst (x_start (x_window_time (A:=A) (B:=B) span shift)))) 0 0
  /\ snd (fst (x_start (x_window_time (A:=A) (B:=B) span shift)))
     = [CHand 0%nat 0; CTimer 0%nat (Z.min shift span); CSub 0%nat].
Proof.
  cbn [x_start x_window_time].
  destruct (wt_create_timer_inv (WtSt shift span 0 [0%nat] 1 0 false false) 0 0) as [I Hc];
    cbn [wt_nshift wt_nspan wt_q wt_next wt_total wt_ntag] in *; try reflexivity; try lia.
  destruct (wt_create_timer shift _) as [s0 c]. cbn [fst snd] in *. subst c. split; [exact I|].
  cbn [app]. do 3 f_equal. lia.
Qed.

(* one timer firing: opens window a+1 iff the shift edge (a+1)*shift is due,
   closes window b iff the span edge span + b*shift is due (both when they
   coincide: open first, then close the OLDEST), and schedules the next edge *)
Theorem wt_tick s a b : wt_inv s a b ->
  let a' := if wt_is_shift s then S a else a in
  let b' := if wt_is_span s then S b else b in
  wt_inv (fst (wt_action (A:=A) (B:=B) shift s)) a' b'
  /\ snd (wt_action (A:=A) (B:=B) shift s)
     = (if wt_is_shift s then [CHand (S a) 0] else []) ++ (if wt_is_span s then [CWin b Done] else [])
       ++ [CTimer (wt_ntag s) (Z.min ((Z.of_nat a' + 1) * shift) (span + Z.of_nat b' * shift) - wt_total s)].
Proof.
  intros [Hsp Hsh Htot Hns Hnp Hq Hnx Hba]. cbn zeta. unfold wt_action. rewrite Hq, Hnx.
  destruct (wt_is_shift s) eqn:Esh; destruct (wt_is_span s) eqn:Esp;
    symmetry in Hsp, Hsh;
    try (apply Z.leb_le in Hsp); try (apply Z.leb_gt in Hsp);
    try (apply Z.leb_le in Hsh); try (apply Z.leb_gt in Hsh); [| | |lia].
  - (* both: open a+1, close b *)
    assert (Hb : (b <= a)%nat) by nia.
    destruct (S a - b)%nat as [|len] eqn:El; [lia|]. cbn [seq app].
    match goal with |- context [wt_create_timer shift ?X] => destruct (wt_create_timer_inv X (S a) (S b)) as [I' Hc] end;
      [cbn [wt_nshift wt_nspan wt_q wt_next wt_total]; rewrite ?Hns, ?Hnp, ?Htot, ?Nat2Z.inj_succ; try lia ..|].
    + replace (S (S a) - S b)%nat with (len + 1)%nat by lia. rewrite seq_app. cbn [seq].
      replace (S b + len)%nat with (S a) by lia. reflexivity.
    + destruct (wt_create_timer shift _) as [s' c3]. cbn [fst snd wt_total wt_ntag] in *. subst c3. split; [exact I'|reflexivity].
  - (* shift only *)
    cbn [app].
    match goal with |- context [wt_create_timer shift ?X] => destruct (wt_create_timer_inv X (S a) b) as [I' Hc] end;
      [cbn [wt_nshift wt_nspan wt_q wt_next wt_total]; rewrite ?Hns, ?Hnp, ?Htot, ?Nat2Z.inj_succ; try lia ..|].
    + replace (S (S a) - b)%nat with ((S a - b) + 1)%nat by lia. rewrite seq_app. cbn [seq].
      replace (b + (S a - b))%nat with (S a) by lia. reflexivity.
    + destruct (wt_create_timer shift _) as [s' c3]. cbn [fst snd wt_total wt_ntag] in *. subst c3. split; [exact I'|reflexivity].
  - (* span only: close b *)
    assert (Hb : (b <= a)%nat) by nia.
    destruct (S a - b)%nat as [|len] eqn:El; [lia|]. cbn [seq app].
    match goal with |- context [wt_create_timer shift ?X] => destruct (wt_create_timer_inv X a (S b)) as [I' Hc] end;
      [cbn [wt_nshift wt_nspan wt_q wt_next wt_total]; rewrite ?Hns, ?Hnp, ?Htot, ?Nat2Z.inj_succ; try lia ..|].
    + replace (S a - S b)%nat with len by lia. reflexivity.
    + destruct (wt_create_timer shift _) as [s' c3]. cbn [fst snd wt_total wt_ntag] in *. subst c3. split; [exact I'|reflexivity].
Qed.

(* every firing schedules exactly one timer *)
Lemma wt_action_ntag s : wt_ntag (fst (wt_action (A:=A) (B:=B) shift s)) = S (wt_ntag s).
Proof.
  unfold wt_action. destruct (wt_is_shift s), (wt_is_span s);
    [destruct (wt_q s ++ [wt_next s])| |destruct (wt_q s)|]; reflexivity.
Qed.

(* the chain invariant holds in every reachable state, whatever the inputs *)
Theorem wt_always (imm : nat -> bool) (ins : list (Z * inp A)) :
  exists a b, wt_inv (fst (after imm (x_window_time (A:=A) (B:=B) span shift)
                              (fst (start_state imm (x_window_time (A:=A) (B:=B) span shift)))
                              (snd (start_state imm (x_window_time (A:=A) (B:=B) span shift))) ins)) a b.
Proof.
  apply (after_state_inv imm (x_window_time (A:=A) (B:=B) span shift) (fun s => exists a b, wt_inv s a b)).
  - intros s now i [a [b I]]. destruct i as [k [x|e|]|tag| | |]; cbn [x_step x_window_time fst]; eauto.
    destruct (wt_tick s a b I) as [I' _]. cbn zeta in I'.
    destruct (wt_action (A:=A) (B:=B) shift s) as [s' cs]. cbn [fst] in *. eauto.
  - exists 0%nat, 0%nat. unfold start_state.
    destruct wt_start_inv as [I _].
    destruct (x_start (x_window_time (A:=A) (B:=B) span shift)) as [[s0 cs] f]. exact I.
Qed.

End TimeChain.

Section TimeOrCount.
Context {A B : Type}.
Variables span count : Z.
Hypothesis Hcount : 0 < count.
Notation M := (x_window_time_or_count (A:=A) (B:=B) span count).

(* n counts the elements of the current window; the pending timer always belongs to
   the current window (create_timer is called with the new id whenever window_id changes) *)
Definition wtc_inv (s : wtc_st) : Prop :=
  0 <= wtc_n s < count /\ wtc_tid s = wtc_wid s /\ wtc_next s = S (wtc_cur s).

Lemma wtc_roll_spec s : wtc_inv s ->
  wtc_inv (fst (wtc_roll (A:=A) (B:=B) span s))
  /\ snd (wtc_roll (A:=A) (B:=B) span s)
     = [CWin (wtc_cur s) Done; CHand (S (wtc_cur s)) 0]
       ++ match wtc_ttag s with Some t => [CCancel t] | None => [] end ++ [CTimer (wtc_ntag s) (Z.max 0 span)]
  /\ wtc_cur (fst (wtc_roll (A:=A) (B:=B) span s)) = S (wtc_cur s).
Proof.
  intros (Hn & Ht & Hx). unfold wtc_roll, wtc_create_timer, wtc_inv. cbn [fst snd wtc_n wtc_tid wtc_wid wtc_next wtc_cur].
  rewrite Hx. repeat split; try lia.
Qed.

(* every delivered timer closes the current window and opens the next *)
Theorem wtc_tick s now tag : wtc_inv s ->
  snd (fst (x_step M s now (ITick tag))) = snd (wtc_roll (A:=A) (B:=B) span s)
  /\ wtc_inv (fst (fst (x_step M s now (ITick tag)))).
Proof.
  intros I. pose proof I as (Hn & Ht & Hx). cbn [x_step x_window_time_or_count].
  rewrite Ht, Z.eqb_refl. destruct (wtc_roll_spec s I) as (I' & _ & _).
  destruct (wtc_roll (A:=A) (B:=B) span s) as [s' c]. cbn [fst snd] in *. auto.
Qed.

(* an element goes to the current window; the count-th one closes it *)
Theorem wtc_next_elem s now k (x : A) : wtc_inv s ->
  wtc_inv (fst (fst (x_step M s now (ISrc k (Next x)))))
  /\ snd (fst (x_step M s now (ISrc k (Next x))))
     = CWin (wtc_cur s) (Next x) :: (if wtc_n s + 1 =? count then snd (wtc_roll (A:=A) (B:=B) span s) else [])
  /\ wtc_n (fst (fst (x_step M s now (ISrc k (Next x))))) = (if wtc_n s + 1 =? count then 0 else wtc_n s + 1).
Proof.
  intros I. pose proof I as (Hn & Ht & Hx). cbn [x_step x_window_time_or_count].
  destruct (wtc_n s + 1 =? count) eqn:E.
  - destruct (wtc_roll_spec s I) as (I' & _ & _). unfold wtc_roll, wtc_create_timer in *.
    cbn [fst snd wtc_n] in *. auto.
  - apply Z.eqb_neq in E. unfold wtc_inv. cbn [fst snd wtc_n wtc_tid wtc_wid wtc_next wtc_cur].
    repeat split; auto; lia.
Qed.

Theorem wtc_always (imm : nat -> bool) (ins : list (Z * inp A)) :
  wtc_inv (fst (after imm M (fst (start_state imm M)) (snd (start_state imm M)) ins)).
Proof.
  apply (after_state_inv imm M wtc_inv).
  - intros s now i I. destruct i as [k [x|e|]|tag| | |]; try exact I.
    + apply wtc_next_elem. exact I.
    + apply wtc_tick. exact I.
  - unfold wtc_inv. cbn. repeat split; lia.
Qed.
End TimeOrCount.

Section Rules.
Context {A B : Type}.

(* window_when: the first notification (element or completion) of the current closing
   observable closes the window, opens the next and calls the closing mapper again
   (guarded: only if the underlying disposable has not been released meanwhile) *)
Lemma window_when_fires mapper s now k (e : ev A) : (forall z, e <> Err z) ->
  x_step (x_window_when (A:=A) (B:=B) mapper) s now (ISrc (S k) e)
  = (let '(s', c, f) := ww_arm (A:=A) (B:=B) true mapper (WwSt (ww_next s) (S (ww_next s)) (ww_calls s) (ww_closing s)) in
     (s', [CWin (ww_cur s) Done; CHand (ww_next s) 0; CUnsub (S k)] ++ c, f)).
Proof. intros He. destruct e as [x|z|]; [reflexivity|destruct (He z eq_refl)|reflexivity]. Qed.

(* a raising closing mapper ends the outer sequence with that error ... *)
Theorem window_when_mapper_raises gd mapper s e :
  mapper (ww_calls s) = Raise e -> snd (ww_arm (A:=A) (B:=B) gd mapper s) = Fail e.
Proof. intros H. unfold ww_arm. rewrite H. reflexivity. Qed.

(* ... after the current window got it: nothing else is commanded (no new closing subscription) *)
Theorem window_when_mapper_raises_window gd mapper s e :
  mapper (ww_calls s) = Raise e -> snd (fst (ww_arm (A:=A) (B:=B) gd mapper s)) = [CWin (ww_cur s) (Err e)].
Proof. intros H. unfold ww_arm. rewrite H. reflexivity. Qed.

(* window_toggle: any error (source, openings, a closing observable, a raising closing mapper)
   reaches every open window and the outer *)
Theorem window_toggle_error_fanout mapper s now k z :
  x_step (x_window_toggle (A:=A) (B:=B) mapper) s now (ISrc k (Err z))
  = (s, wins_all (wg_windows s) (Err z), Fail z).
Proof. destruct k as [|[|k]]; reflexivity. Qed.
End Rules.

Section NeverUnsub.
Context {A B : Type}.

Lemma no_unsub_wins k q (e : ev A) : existsb (is_unsub (W:=A) (B:=B) k) (wins_all q e) = false.
Proof. induction q; auto. Qed.

Lemma existsb_app_false {X} (f : X -> bool) a b : existsb f a = false -> existsb f b = false -> existsb f (a ++ b) = false.
Proof. intros Ha Hb. now rewrite existsb_app, Ha, Hb. Qed.

Theorem window_count_never_unsubs count skip k : never_unsubs (x_window_count (A:=A) (B:=B) count skip) k.
Proof.
  intros s now i. destruct i as [j [x|z|]|tag| | |]; cbn [x_step x_window_count fst snd]; try reflexivity;
    try apply no_unsub_wins.
  unfold wc_on_next.
  destruct ((0 <=? wc_n s - count + 1) && ((wc_n s - count + 1) mod skip =? 0));
    [destruct (wc_q s)|]; destruct ((wc_n s + 1) mod skip =? 0); cbn [fst snd];
    repeat (apply existsb_app_false; try apply no_unsub_wins; try reflexivity).
Qed.

Theorem window_time_never_unsubs span shift k : never_unsubs (x_window_time (A:=A) (B:=B) span shift) k.
Proof.
  intros s now i. destruct i as [j [x|z|]|tag| | |]; cbn [x_step x_window_time fst snd]; try reflexivity;
    try apply no_unsub_wins.
  unfold wt_action, wt_create_timer.
  destruct (wt_is_shift s), (wt_is_span s); cbn [fst snd]; try destruct (wt_q s); try reflexivity;
    cbn; try destruct (l ++ _); reflexivity.
Qed.

Theorem window_time_or_count_never_unsubs span count k :
  never_unsubs (x_window_time_or_count (A:=A) (B:=B) span count) k.
Proof.
  intros s now i. unfold wtc_roll, wtc_create_timer.
  destruct i as [j [x|z|]|tag| | |]; cbn [x_step x_window_time_or_count fst snd]; try reflexivity.
  - destruct (wtc_n s + 1 =? count); [|reflexivity]. unfold wtc_roll, wtc_create_timer. destruct (wtc_ttag s); reflexivity.
  - destruct (wtc_tid s =? wtc_wid s); [|reflexivity]. unfold wtc_roll, wtc_create_timer. destruct (wtc_ttag s); reflexivity.
Qed.

Theorem window_boundaries_never_unsubs k : never_unsubs (x_window_boundaries (A:=A) (B:=B)) k.
Proof. intros [cur next] now i. destruct i as [[|j] [x|z|]|tag| | |]; reflexivity. Qed.

(* closing selector / toggle: only closing observables (sources >= 1 resp. >= 2) are unsubscribed *)
Theorem window_when_never_unsubs_source mapper : never_unsubs (x_window_when (A:=A) (B:=B) mapper) 0%nat.
Proof.
  intros s now i. destruct i as [[|j] [x|z|]|tag| | |]; cbn [x_step x_window_when fst snd]; try reflexivity;
    unfold ww_arm; cbn [ww_calls]; destruct (mapper (ww_calls s)); reflexivity.
Qed.

Theorem window_toggle_never_unsubs_source mapper :
  never_unsubs (x_window_toggle (A:=A) (B:=B) mapper) 0%nat.
Proof.
  intros s now i. destruct i as [[|[|j]] [x|z|]|tag| | |]; cbn [x_step x_window_toggle fst snd]; try reflexivity;
    try apply no_unsub_wins.
  - destruct (mapper (wg_calls s)); cbn [fst snd existsb is_unsub]; [reflexivity|]. apply no_unsub_wins.
  - destruct (wg_find (S (S j)) (wg_open s)); reflexivity.
  - destruct (wg_find (S (S j)) (wg_open s)); reflexivity.
Qed.

Theorem window_machines_keep_source :
  (forall count skip k, never_unsubs (x_window_count (A:=A) (B:=B) count skip) k)
  /\ (forall span shift k, never_unsubs (x_window_time (A:=A) (B:=B) span shift) k)
  /\ (forall span count k, never_unsubs (x_window_time_or_count (A:=A) (B:=B) span count) k)
  /\ (forall k, never_unsubs (x_window_boundaries (A:=A) (B:=B)) k)
  /\ (forall mapper, never_unsubs (x_window_when (A:=A) (B:=B) mapper) 0%nat)
  /\ (forall mapper, never_unsubs (x_window_toggle (A:=A) (B:=B) mapper) 0%nat).
Proof.
  exact (conj window_count_never_unsubs (conj window_time_never_unsubs
    (conj window_time_or_count_never_unsubs (conj window_boundaries_never_unsubs
    (conj window_when_never_unsubs_source window_toggle_never_unsubs_source))))).
Qed.
End NeverUnsub.
