(* C18: window_with_count -- closed form of the WHOLE trace of a conforming run (every window
   subscribed when handed), for ALL count >= 1, skip >= 1, every finite source and termination.
   [window_count_index] / [window_count_hands] (Ops/WindowCountFacts.v) give each window's
   content and the handed windows; here the complete, position-tagged trace is given: what the
   runner observes at input position n+1 (the element with index n) is a function of n alone --
   the element goes to the windows lo(n) .. nx(n)-1 in opening order, then window lo(n) completes
   iff n = lo(n)*skip + count - 1, then window nx(n) is handed iff n+1 = nx(n)*skip -- and the
   source's terminal goes to the windows open at that point, in order, then to the outer
   subscriber, after which the source subscription is released.  Readings: at which position a
   window receives which notification. *)
From RxVerif Require Import Base.Prelude Ops.Machine Ops.MultiWin Ops.MultiWinFacts Ops.Windows
  Ops.WindowCountFacts.

Local Arguments Z.of_nat : simpl never.
Local Arguments Z.mul : simpl never.
Local Arguments Z.add : simpl never.
Local Arguments Z.sub : simpl never.
Local Arguments Z.modulo : simpl never.
Local Arguments Z.div : simpl never.
Local Arguments Multi.mem : simpl never.
Local Arguments Multi.remove : simpl never.

Section CountRun.
Context {A B : Type}.
Variables count skip : Z.
Hypothesis Hcount : 0 < count.
Hypothesis Hskip : 0 < skip.
Notation M := (x_window_count (A:=A) (B:=B) count skip).
Notation inv := (wc_inv count skip).

(* windows completed before the element with index n arrives = #{k | k*skip + count <= n} *)
Definition wc_lo (n : Z) : nat := Z.to_nat (if n <? count then 0 else (n - count) / skip + 1).
(* windows handed before the element with index n arrives = #{k | k*skip <= n} *)
Definition wc_nx (n : Z) : nat := (Z.to_nat (n / skip) + 1)%nat.

Lemma wc_inv_closed s n lo nx : inv s n lo nx -> lo = wc_lo n /\ nx = wc_nx n.
Proof.
  intros [Hn Hn0 Hnx Hq Hnx1 H1 H2 H3 H4]. unfold wc_lo, wc_nx. split.
  - destruct (Z.ltb_spec n count) as [Hlt|Hge].
    + destruct H4 as [->|H4]; [reflexivity|]. nia.
    + destruct H4 as [->|H4]; [lia|].
      assert (E : (n - count) / skip = Z.of_nat lo - 1).
      { symmetry. apply Z.div_unique with (r := n - count - (Z.of_nat lo - 1) * skip); lia. }
      rewrite E. lia.
  - assert (E : n / skip = Z.of_nat nx - 1).
    { symmetry. apply Z.div_unique with (r := n - (Z.of_nat nx - 1) * skip); lia. }
    rewrite E. lia.
Qed.

Lemma wc_lo_spec n k : 0 <= n -> ((k < wc_lo n)%nat <-> Z.of_nat k * skip + count <= n).
Proof.
  intros Hn. unfold wc_lo. destruct (Z.ltb_spec n count) as [Hlt|Hge].
  - cbn. split; [lia|nia].
  - rewrite (zdiv_count skip (n - count) k Hskip). lia.
Qed.

Lemma wc_nx_spec n k : 0 <= n -> ((k < wc_nx n)%nat <-> Z.of_nat k * skip <= n).
Proof.
  intros Hn. unfold wc_nx. rewrite <- (zdiv_count skip n k Hskip).
  assert (H0 : 0 <= n / skip) by (apply Z.div_pos; lia). lia.
Qed.

(* the windows open when the element with index n arrives are lo(n) .. nx(n)-1 *)
Lemma wc_open_range n k : 0 <= n ->
  (In k (seq (wc_lo n) (wc_nx n - wc_lo n)) <-> wopen count skip k n = true).
Proof.
  intros Hn. rewrite in_seq. unfold wopen. rewrite andb_true_iff, Z.leb_le, Z.ltb_lt.
  pose proof (wc_lo_spec n k Hn) as Hl. pose proof (wc_nx_spec n k Hn) as Hx. split.
  - intros [Ha Hb]. split; [apply Hx; lia|]. destruct (Z.lt_ge_cases n (Z.of_nat k * skip + count)); [assumption|].
    assert (k < wc_lo n)%nat by (apply Hl; lia). lia.
  - intros [Ha Hb]. assert (k < wc_nx n)%nat by (apply Hx; exact Ha).
    assert (~ (k < wc_lo n)%nat) by (rewrite Hl; lia). lia.
Qed.

(* what the runner observes while the element with index n is delivered *)
Definition wc_elem_obs (n : Z) (x : A) : list (obs A B) :=
  map (fun g => OWin g (Next x)) (seq (wc_lo n) (wc_nx n - wc_lo n))
  ++ (if n =? Z.of_nat (wc_lo n) * skip + count - 1 then [OWin (wc_lo n) Done] else [])
  ++ (if n + 1 =? Z.of_nat (wc_nx n) * skip then [OHand (wc_nx n) 0] else []).

(* ... and while the source's terminal is delivered after n elements *)
Definition wc_term_obs (n : Z) (e : ev A) : list (obs A B) :=
  map (fun g => OWin g e) (seq (wc_lo n) (wc_nx n - wc_lo n))
  ++ [OEmit (match e with Err z => Err z | _ => Done end); OUnsub 0%nat].

Fixpoint wc_trace_from (n : Z) (pos : nat) (ys : list A) (tm : term) : list (nat * obs A B) :=
  match ys with
  | [] => flat_map (fun e => map (fun o => (pos, o)) (wc_term_obs n e)) (term_ev tm)
  | y :: t => map (fun o => (pos, o)) (wc_elem_obs n y) ++ wc_trace_from (n + 1) (S pos) t tm
  end.

Lemma wc_trace_run_from tm (ys : list A) : forall s n lo nx pos, inv s n lo nx ->
  fst (run_from all_imm M s (wc_rstate lo nx) pos (src_events ys tm)) = wc_trace_from n pos ys tm.
Proof.
  induction ys as [|y t IH]; intros s n lo nx pos I; destruct (wc_inv_closed s n lo nx I) as [El Ex].
  - unfold src_events. cbn [map app wc_trace_from]. destruct tm as [|z|]; cbn [term_ev map flat_map]; [| |reflexivity];
      rewrite run_from_cons; cbn [run_from fst]; rewrite !app_nil_r;
      [rewrite (wc_term_step_full count skip s n lo nx Done 0 I eq_refl)|rewrite (wc_term_step_full count skip s n lo nx (Err z) 0 I eq_refl)];
      unfold wc_term_obs; rewrite <- El, <- Ex; reflexivity.
  - unfold src_events. cbn [map app]. fold (src_events t tm). rewrite run_from_cons.
    rewrite (wc_step count skip Hcount Hskip s n lo nx y 0 I). cbn [fst snd].
    destruct (wc_on_next_spec count skip Hcount Hskip (B:=B) s n lo nx y I) as (I' & _ & _). cbn zeta in I'.
    rewrite (IH _ _ _ _ _ I'). cbn [wc_trace_from]. unfold wc_elem_obs. rewrite <- El, <- Ex. reflexivity.
Qed.

(* C18, window_with_count: the whole trace *)
Theorem window_count_trace (xs : list A) (tm : term) :
  fst (run all_imm M (src_events xs tm))
  = [(0%nat, OHand 0%nat 0); (0%nat, OSub 0%nat)] ++ wc_trace_from 0 1 xs tm.
Proof.
  rewrite run_unfold. cbn [fst].
  assert (Es : start_state all_imm M = (WcSt 0 [0%nat] 1, wc_rstate 0 1)) by reflexivity.
  assert (Eo : start_obs all_imm M = [OHand 0%nat 0; OSub 0%nat]) by reflexivity.
  rewrite Es, Eo. cbn [fst snd map]. f_equal.
  apply (wc_trace_run_from tm xs _ 0 0%nat 1%nat 1%nat (wc_inv0 count skip Hcount Hskip)).
Qed.

(* [He : In e (term_ev tm)]: one goal per termination, e replaced by the terminal where there is one *)
Ltac tcase tm He := destruct tm; cbn in He; [destruct He as [<-|[]]|destruct He as [<-|[]]|destruct He].
Lemma in_wc_trace_from p o tm (ys : list A) : forall n pos, 0 <= n ->
  In (p, o) (wc_trace_from n pos ys tm) <->
  (exists i y, nth_error ys i = Some y /\ p = (pos + i)%nat /\ In o (wc_elem_obs (n + Z.of_nat i) y))
  \/ (exists e, In e (term_ev tm) /\ p = (pos + length ys)%nat /\ In o (wc_term_obs (n + zlen ys) e)).
Proof.
  induction ys as [|y t IH]; intros n pos Hn.
  - cbn [wc_trace_from]. rewrite in_flat_map. unfold zlen. cbn [length]. rewrite Nat.add_0_r, Z.add_0_r. split.
    + intros (e & He & Hi). apply in_map_iff in Hi. destruct Hi as (o' & E & Ho). injection E as <- <-.
      right. exists e. auto.
    + intros [(i & y & Hnth & _)|(e & He & -> & Ho)]; [destruct i; discriminate Hnth|].
      exists e. split; [exact He|]. apply in_map_iff. exists o. auto.
  - cbn [wc_trace_from]. rewrite in_app_iff, (IH (n + 1) (S pos)) by lia. split.
    + intros [Hi|[(i & y' & Hnth & -> & Ho)|(e & He & -> & Ho)]].
      * apply in_map_iff in Hi. destruct Hi as (o' & E & Ho). injection E as <- <-.
        left. exists 0%nat, y. rewrite Nat.add_0_r, Z.add_0_r. auto.
      * left. exists (S i), y'. cbn [nth_error]. replace (n + Z.of_nat (S i)) with (n + 1 + Z.of_nat i) by lia.
        repeat split; [exact Hnth|lia|exact Ho].
      * right. exists e. unfold zlen in *. cbn [length].
        replace (n + Z.of_nat (S (length t))) with (n + 1 + Z.of_nat (length t)) by lia.
        repeat split; [exact He|lia|exact Ho].
    + intros [(i & y' & Hnth & -> & Ho)|(e & He & -> & Ho)].
      * destruct i as [|i].
        -- cbn [nth_error] in Hnth. injection Hnth as <-. left. apply in_map_iff. exists o.
           rewrite Nat.add_0_r, Z.add_0_r in *. auto.
        -- right. left. exists i, y'. cbn [nth_error] in Hnth.
           replace (n + Z.of_nat (S i)) with (n + 1 + Z.of_nat i) in Ho by lia.
           repeat split; [exact Hnth|lia|exact Ho].
      * right. right. exists e. unfold zlen in *. cbn [length] in *.
        replace (n + Z.of_nat (S (length t))) with (n + 1 + Z.of_nat (length t)) in Ho by lia.
        repeat split; [exact He|lia|exact Ho].
Qed.

Lemma in_one (c : bool) (y o : obs A B) : In o (if c then [y] else []) <-> o = y /\ c = true.
Proof. destruct c; cbn; intuition congruence. Qed.

(* what is observed while an element / the terminal is delivered, one observation at a time *)
Lemma in_wc_elem_obs n x o :
  In o (wc_elem_obs n x) <->
  (exists g, o = OWin g (Next x) /\ In g (seq (wc_lo n) (wc_nx n - wc_lo n)))
  \/ (o = OWin (wc_lo n) Done /\ n = Z.of_nat (wc_lo n) * skip + count - 1)
  \/ (o = OHand (wc_nx n) 0 /\ n + 1 = Z.of_nat (wc_nx n) * skip).
Proof.
  unfold wc_elem_obs. rewrite !in_app_iff, in_map_iff, !in_one, !Z.eqb_eq.
  split; (intros [(g & E & Hg)|H]; [left; exists g; auto|right; exact H]).
Qed.

Lemma in_wc_term_obs n e o :
  In o (wc_term_obs n e) <->
  (exists g, o = OWin g e /\ In g (seq (wc_lo n) (wc_nx n - wc_lo n)))
  \/ o = OEmit (match e with Err z => Err z | _ => Done end) \/ o = OUnsub 0%nat.
Proof.
  unfold wc_term_obs. rewrite in_app_iff, in_map_iff. cbn [In].
  split; (intros [(g & E & Hg)|H]; [left; exists g; auto|right; intuition congruence]).
Qed.

(* window k receives the element x at position p  iff  x is the element with index p-1 and
   k*skip <= p-1 < k*skip + count *)
Theorem window_count_next_at (xs : list A) tm k p x :
  In (p, OWin k (Next x)) (fst (run all_imm M (src_events xs tm)))
  <-> exists n, p = S n /\ nth_error xs n = Some x /\ wopen count skip k (Z.of_nat n) = true.
Proof.
  rewrite window_count_trace, in_app_iff, (in_wc_trace_from _ _ tm xs 0 1) by lia. split.
  - intros [[H|[H|[]]]|[(i & y & Hnth & -> & Ho)|(e & He & -> & Ho)]]; try discriminate H.
    + rewrite Z.add_0_l in Ho. apply in_wc_elem_obs in Ho. destruct Ho as [(g & E & Hk)|[(E & _)|(E & _)]]; try discriminate E.
      injection E as -> ->. exists i. apply wc_open_range in Hk; [|lia]. auto.
    + rewrite Z.add_0_l in Ho. apply in_wc_term_obs in Ho. destruct Ho as [(g & E & _)|[E|E]]; try discriminate E.
      injection E as _ E. tcase tm He; discriminate E.
  - intros (n & -> & Hnth & Hk). right. left. exists n, x. repeat split; [exact Hnth|].
    apply in_wc_elem_obs. left. exists k. split; [reflexivity|].
    rewrite Z.add_0_l. apply wc_open_range; [lia|exact Hk].
Qed.

(* window k completes at position p  iff  p-1 = k*skip + count - 1 is the index of an element (right
   after its last element, in the same on_next call), or the source completes at p while k is open *)
Theorem window_count_done_at (xs : list A) tm k p :
  In (p, OWin k Done) (fst (run all_imm M (src_events xs tm)))
  <-> (Z.of_nat p = Z.of_nat k * skip + count /\ Z.of_nat p <= zlen xs)
      \/ (tm = TDone /\ p = S (length xs) /\ wopen count skip k (zlen xs) = true).
Proof.
  pose proof (zlen_nonneg xs) as Hx0.
  rewrite window_count_trace, in_app_iff, (in_wc_trace_from _ _ tm xs 0 1) by lia. split.
  - intros [[H|[H|[]]]|[(i & y & Hnth & -> & Ho)|(e & He & -> & Ho)]]; try discriminate H.
    + left. rewrite Z.add_0_l in Ho. apply in_wc_elem_obs in Ho. destruct Ho as [(g & E & _)|[(E & Hn)|(E & _)]]; try discriminate E.
      injection E as ->.
      assert (i < length xs)%nat by (apply nth_error_Some; congruence). unfold zlen. lia.
    + right. rewrite Z.add_0_l in Ho. apply in_wc_term_obs in Ho. destruct Ho as [(g & E & Hk)|[E|E]]; try discriminate E.
      injection E as -> E. apply wc_open_range in Hk; [|lia].
      tcase tm He; try discriminate E. auto.
  - intros [[Hp Hle]|(-> & -> & Hk)]; right.
    + left. assert (Hp1 : (1 <= p)%nat) by nia.
      destruct (nth_error xs (p - 1)) as [y|] eqn:Hnth; [|apply nth_error_None in Hnth; unfold zlen in Hle; lia].
      exists (p - 1)%nat, y. repeat split; [exact Hnth|lia|].
      apply in_wc_elem_obs. right. left. rewrite Z.add_0_l.
      set (n := Z.of_nat (p - 1)).
      assert (Hn : n = Z.of_nat k * skip + count - 1) by (subst n; lia).
      assert (El : wc_lo n = k).
      { assert (~ (k < wc_lo n)%nat) by (rewrite wc_lo_spec by lia; lia).
        destruct (Nat.eq_dec k 0) as [->|Hk0]; [lia|].
        assert ((k - 1 < wc_lo n)%nat) by (apply wc_lo_spec; nia). lia. }
      rewrite El. auto.
    + right. exists Done. repeat split; [left; reflexivity|].
      apply in_wc_term_obs. left. exists k. split; [reflexivity|].
      rewrite Z.add_0_l. apply wc_open_range; [lia|exact Hk].
Qed.

(* the source's error reaches exactly the windows open when it arrives ... *)
Theorem window_count_error_at (xs : list A) tm k p z :
  In (p, OWin k (Err z)) (fst (run all_imm M (src_events xs tm)))
  <-> tm = TErr z /\ p = S (length xs) /\ wopen count skip k (zlen xs) = true.
Proof.
  pose proof (zlen_nonneg xs) as Hx0.
  rewrite window_count_trace, in_app_iff, (in_wc_trace_from _ _ tm xs 0 1) by lia. split.
  - intros [[H|[H|[]]]|[(i & y & Hnth & -> & Ho)|(e & He & -> & Ho)]]; try discriminate H.
    + rewrite Z.add_0_l in Ho. apply in_wc_elem_obs in Ho. destruct Ho as [(g & E & _)|[(E & _)|(E & _)]]; discriminate E.
    + rewrite Z.add_0_l in Ho. apply in_wc_term_obs in Ho. destruct Ho as [(g & E & Hk)|[E|E]]; try discriminate E.
      injection E as -> E. apply wc_open_range in Hk; [|lia].
      tcase tm He; try discriminate E. injection E as ->. auto.
  - intros (-> & -> & Hk). right. right. exists (Err z). repeat split; [left; reflexivity|].
    apply in_wc_term_obs. left. exists k. split; [reflexivity|].
    rewrite Z.add_0_l. apply wc_open_range; [lia|exact Hk].
Qed.

(* ... and the outer subscriber, which sees nothing but the handed windows and then the source's terminal *)
Theorem window_count_outer_at (xs : list A) tm p e :
  In (p, OEmit e) (fst (run all_imm M (src_events xs tm))) <-> p = S (length xs) /\ In e (term_ev tm).
Proof.
  pose proof (zlen_nonneg xs) as Hx0.
  rewrite window_count_trace, in_app_iff, (in_wc_trace_from _ _ tm xs 0 1) by lia. split.
  - intros [[H|[H|[]]]|[(i & y & Hnth & -> & Ho)|(e' & He & -> & Ho)]]; try discriminate H.
    + rewrite Z.add_0_l in Ho. apply in_wc_elem_obs in Ho. destruct Ho as [(g & E & _)|[(E & _)|(E & _)]]; discriminate E.
    + rewrite Z.add_0_l in Ho. apply in_wc_term_obs in Ho. destruct Ho as [(g & E & _)|[E|E]]; try discriminate E.
      injection E as ->. split; [reflexivity|]. tcase tm He; left; reflexivity.
  - intros (-> & He). right. right. tcase tm He;
      (eexists; repeat split; [left; reflexivity|apply in_wc_term_obs; right; left; reflexivity]).
Qed.

(* window k (k >= 1) is handed at position k*skip, inside the on_next of the element with index
   k*skip - 1 (window 0: inside subscribe) *)
Theorem window_count_hand_at (xs : list A) tm k key p :
  In (p, OHand k key) (fst (run all_imm M (src_events xs tm)))
  <-> key = 0 /\ Z.of_nat p = Z.of_nat k * skip /\ Z.of_nat p <= zlen xs.
Proof.
  pose proof (zlen_nonneg xs) as Hx0.
  rewrite window_count_trace, in_app_iff, (in_wc_trace_from _ _ tm xs 0 1) by lia. split.
  - intros [[H|[H|[]]]|[(i & y & Hnth & -> & Ho)|(e' & He & -> & Ho)]]; try discriminate H.
    + injection H as <- <- <-. repeat split; lia.
    + rewrite Z.add_0_l in Ho. apply in_wc_elem_obs in Ho. destruct Ho as [(g & E & _)|[(E & _)|(E & Hn)]]; try discriminate E.
      injection E as -> ->.
      assert (i < length xs)%nat by (apply nth_error_Some; congruence). unfold zlen. repeat split; lia.
    + rewrite Z.add_0_l in Ho. apply in_wc_term_obs in Ho. destruct Ho as [(g & E & _)|[E|E]]; discriminate E.
  - intros (-> & Hp & Hle). destruct (Nat.eq_dec p 0) as [->|Hp0].
    + left. assert (k = 0%nat) by nia. subst k. left. reflexivity.
    + right. left. destruct (nth_error xs (p - 1)) as [y|] eqn:Hnth; [|apply nth_error_None in Hnth; unfold zlen in Hle; lia].
      exists (p - 1)%nat, y. repeat split; [exact Hnth|lia|].
      apply in_wc_elem_obs. right. right. rewrite Z.add_0_l.
      set (n := Z.of_nat (p - 1)). assert (Hn : n + 1 = Z.of_nat k * skip) by (subst n; lia).
      assert (Ex : wc_nx n = k).
      { assert (~ (k < wc_nx n)%nat) by (rewrite wc_nx_spec by lia; lia).
        assert (k <> 0%nat) by nia.
        assert ((k - 1 < wc_nx n)%nat) by (apply wc_nx_spec; nia). lia. }
      rewrite Ex. auto.
Qed.
End CountRun.
