(* C01 for the window/group runner (Ops/MultiWin.v): notification grammar of
   the subscribers the runner serves, for EVERY machine, EVERY subscription
   policy [imm] and EVERY input sequence.

   * the OUTER subscriber (elements and handed observables are its on_next
     calls): Next* (Err | Done)? -- [run_outer_grammar], [run_emitted_grammar];
   * a handed window / group g: [wevents g] is the merged record of what ALL
     subscriptions of g received (the trace does not tell subscriptions of the
     same g apart: a notification is logged once per live subscription, and a
     subscription made after g's terminal is answered with that terminal).
     For that record: elements, then copies of ONE terminal, at most as many
     copies as subscriptions of g were attempted ([run_window_grammar]); so
     with at most one subscription of g -- the case of a single subscriber --
     it is Next* (Err | Done)? ([run_window_single_subscriber_grammar]).  With
     two subscriptions of g the merged record is NOT in the grammar although
     each subscriber's own sequence is ([two_subscribers_merged_record]). *)
From RxVerif Require Import Base.Prelude Ops.Machine Ops.MultiWin Ops.MultiWinFacts Ops.Windows.

Definition nonterm {X} (e : ev X) : Prop := is_terminal e = false.

Lemma nonterm_wf {X} (l : list (ev X)) rest : Forall nonterm l -> wellformed (l ++ rest) = wellformed rest.
Proof.
  induction 1 as [|e t He Ht IH]; [reflexivity|].
  destruct e; cbn in *; try discriminate. exact IH.
Qed.

Lemma nonterm_wf_term {X} (l : list (ev X)) t : Forall nonterm l -> wellformed (l ++ [t]) = true.
Proof. intros H. rewrite nonterm_wf by exact H. destruct t; reflexivity. Qed.

Lemma nonterm_wf_nil {X} (l : list (ev X)) : Forall nonterm l -> wellformed l = true.
Proof. intros H. rewrite <- (app_nil_r l), nonterm_wf by exact H. reflexivity. Qed.

Section Grammar.
Context {A W B : Type}.

Variable g : nat.

(* subscriptions of g made inside the on_next that hands it *)
Definition is_hand (x : obs W B) : bool := match x with OHand j _ => Nat.eqb g j | _ => false end.
Definition hcnt (o : list (obs W B)) : nat := length (filter is_hand o).
Lemma hcnt_app a b : hcnt (a ++ b) = (hcnt a + hcnt b)%nat.
Proof. unfold hcnt. now rewrite filter_app, app_length. Qed.

(* what all subscriptions of g have received so far ([Wl]) against the runner
   state, with [a] = subscriptions of g attempted so far *)
Definition winP (r : rstate W) (Wl : list (ev W)) (a : nat) : Prop :=
  match wterm_of g (r_wterm r) with
  | None => Forall nonterm Wl /\ (count_of g (r_wsubs r) <= a)%nat
  | Some t => is_terminal t = true /\ count_of g (r_wsubs r) = 0%nat
              /\ exists ns n, Wl = ns ++ repeat t n /\ Forall nonterm ns /\ (n <= a)%nat
  end.

Lemma winP_ext r r' Wl a : r_wterm r' = r_wterm r -> r_wsubs r' = r_wsubs r -> winP r Wl a -> winP r' Wl a.
Proof. unfold winP. intros -> ->. auto. Qed.

Lemma winP_mono r Wl a a' : (a <= a')%nat -> winP r Wl a -> winP r Wl a'.
Proof.
  unfold winP. intros Hle. destruct (wterm_of g (r_wterm r)).
  - intros (H1 & H2 & ns & n & H3 & H4 & H5). repeat split; auto. exists ns, n. repeat split; auto. lia.
  - intros [H1 H2]. split; [auto|lia].
Qed.

Lemma winP_shape r Wl a : winP r Wl a ->
  exists ns t n, Wl = ns ++ repeat t n /\ Forall nonterm ns /\ is_terminal t = true /\ (n <= a)%nat.
Proof.
  unfold winP. destruct (wterm_of g (r_wterm r)) as [t|].
  - intros (H1 & _ & ns & n & H3 & H4 & H5). exists ns, t, n. auto.
  - intros [H1 _]. exists Wl, Done, 0%nat. cbn [repeat]. rewrite app_nil_r. repeat split; auto. lia.
Qed.

Lemma maybe_release_fields (r : rstate W) :
  r_wterm (fst (@maybe_release W B r)) = r_wterm r /\ r_wsubs (fst (@maybe_release W B r)) = r_wsubs r.
Proof.
  unfold maybe_release. destruct r as [lv tm ou ws wt hd rl]. cbn.
  destruct ou, rl, ws; cbn; auto.
Qed.

Lemma hcnt_book (o : list (obs W B)) : Forall (@book W B) o -> hcnt o = 0%nat.
Proof. induction 1 as [|x t Hx _ IH]; [reflexivity|]. destruct x; try destruct Hx; exact IH. Qed.

Lemma winP_release r Wl a : winP r Wl a -> winP (fst (@maybe_release W B r)) Wl a.
Proof. destruct (maybe_release_fields r) as [H1 H2]. apply winP_ext; assumption. Qed.

Lemma repeat_snoc {X} (t : X) n : repeat t n ++ [t] = repeat t (S n).
Proof. induction n as [|n IH]; [reflexivity|]. cbn [repeat app]. now rewrite IH. Qed.

Lemma wobs1_same (e : ev W) : wobs (B:=B) g [OWin g e] = [e].
Proof. cbn. now rewrite Nat.eqb_refl. Qed.
Lemma wobs1_other j (e : ev W) : g <> j -> wobs (B:=B) g [OWin j e] = [].
Proof. intros H. cbn. destruct (Nat.eqb_spec g j); [congruence|reflexivity]. Qed.

(* the subscriber subscribes to handed observable j *)
Lemma winP_sub_win r j Wl a : winP r Wl a ->
  winP (fst (@sub_win W B r j)) (Wl ++ wobs g (snd (@sub_win W B r j))) (a + if Nat.eqb g j then 1 else 0)
  /\ hcnt (snd (@sub_win W B r j)) = 0%nat.
Proof.
  intros HP. unfold sub_win. destruct (wterm_of j (r_wterm r)) as [t|] eqn:Ej; cbn [fst snd].
  - split; [|reflexivity]. destruct (Nat.eqb_spec g j) as [<-|Hne].
    + rewrite wobs1_same. unfold winP in *. rewrite Ej in *.
      destruct HP as (H1 & H2 & ns & n & H3 & H4 & H5). repeat split; auto.
      exists ns, (S n). rewrite H3, <- app_assoc, repeat_snoc. repeat split; auto. lia.
    + rewrite wobs1_other by exact Hne. rewrite app_nil_r. apply winP_mono with (a := a); [lia|exact HP].
  - destruct (mem j (r_handed r) && negb (r_released r)); cbn [fst snd]; rewrite app_nil_r;
      (split; [|reflexivity]).
    + unfold winP in *. cbn [r_wterm r_wsubs]. rewrite count_of_snoc.
      destruct (wterm_of g (r_wterm r)) as [t|] eqn:Eg.
      * destruct (Nat.eqb_spec g j) as [<-|Hne]; [congruence|].
        destruct HP as (H1 & H2 & ns & n & H3 & H4 & H5). repeat split; auto; [lia|].
        exists ns, n. repeat split; auto. lia.
      * destruct HP as [H1 H2]. split; [auto|]. destruct (Nat.eqb g j); lia.
    + apply winP_mono with (a := a); [lia|exact HP].
Qed.

Lemma count_of_filter_same (l : list nat) : count_of g (filter (fun j => negb (Nat.eqb g j)) l) = 0%nat.
Proof.
  unfold count_of. induction l as [|j t IH]; [reflexivity|]. cbn [filter].
  destruct (Nat.eqb g j) eqn:E; cbn [negb filter]; [exact IH|]. rewrite E. exact IH.
Qed.

Lemma count_of_remove_le j (l : list nat) : (count_of g (remove j l) <= count_of g l)%nat.
Proof.
  unfold count_of. induction l as [|i t IH]; [apply Nat.le_refl|]. rewrite remove_cons.
  destruct (Nat.eqb j i); cbn [filter]; destruct (Nat.eqb g i); cbn [length]; lia.
Qed.

Lemma Forall_repeat {X} (outQ : X -> Prop) x n : outQ x -> Forall outQ (repeat x n).
Proof. intros H. induction n; cbn; auto. Qed.

Context (imm : nat -> bool).
(* [hcnt] counted only when the policy subscribes to g at the hand *)
Definition hc (o : list (obs W B)) : nat := if imm g then hcnt o else 0%nat.
Lemma hc_app a b : hc (a ++ b) = (hc a + hc b)%nat.
Proof. unfold hc. destruct (imm g); [apply hcnt_app|reflexivity]. Qed.
Lemma hc_of_hcnt0 o : hcnt o = 0%nat -> hc o = 0%nat.
Proof. unfold hc. destruct (imm g); auto. Qed.

(* handing j counts as a subscription of g when it is g and subscribed at once *)
Lemma hc_hand j key : hc [OHand j key] = if imm j && Nat.eqb g j then 1%nat else 0%nat.
Proof.
  unfold hc, hcnt. cbn [filter is_hand].
  destruct (Nat.eqb_spec g j) as [<-|_]; [destruct (imm g)|destruct (imm g), (imm j)]; reflexivity.
Qed.

Lemma winP_quiet r r' o Wl a :
  r_wterm r' = r_wterm r -> r_wsubs r' = r_wsubs r -> wobs g o = [] -> hcnt o = 0%nat ->
  winP r Wl a -> winP r' (Wl ++ wobs g o) (a + hc o).
Proof.
  intros E1 E2 Hw Hh HP. rewrite Hw, app_nil_r, (hc_of_hcnt0 _ Hh), Nat.add_0_r.
  exact (winP_ext r r' _ _ E1 E2 HP).
Qed.

Lemma hcnt_repeat j (e : ev W) n : hcnt (repeat (@OWin W B j e) n) = 0%nat.
Proof. induction n; auto. Qed.

Lemma rdrop_winP r o r1 Wl a : rdrop r o r1 -> winP r Wl a ->
  winP r1 (Wl ++ wobs g o) a /\ hcnt o = 0%nat.
Proof.
  intros D HP. destruct D as [r j e Ej Ee|r t _ _|r|r j _]; (split; [|auto using hcnt_repeat]);
    cbn [wobs flat_map]; rewrite ?app_nil_r.
  - (* rd_winterm: the subscriptions of j all get its terminal and go *)
    unfold winP in *. cbn [r_wterm r_wsubs]. rewrite wterm_of_app.
    destruct (Nat.eqb_spec g j) as [<-|Hne].
    + rewrite Ej in *. cbn [wterm_of]. rewrite Nat.eqb_refl. destruct HP as [H1 H2].
      rewrite wobs_repeat_same. repeat split; auto; [apply count_of_filter_same|].
      exists Wl, (count_of g (r_wsubs r)). auto.
    + rewrite wobs_repeat_other by exact Hne. rewrite app_nil_r. cbn [wterm_of].
      destruct (Nat.eqb_spec g j); [congruence|].
      rewrite (count_of_filter_other g j (r_wsubs r) Hne).
      destruct (wterm_of g (r_wterm r)); exact HP.
  - exact (winP_ext r _ _ _ eq_refl eq_refl HP).
  - exact (winP_ext r _ _ _ eq_refl eq_refl HP).
  - (* rd_unsubwin *)
    unfold winP in *. cbn [r_wterm r_wsubs].
    pose proof (count_of_remove_le j (r_wsubs r)) as Hle.
    destruct (wterm_of g (r_wterm r)).
    + destruct HP as (H1 & H2 & H3). repeat split; auto. lia.
    + destruct HP as [H1 H2]. split; [auto|lia].
Qed.

Lemma rtrans_winP r o r' : rtrans imm r o r' -> forall Wl a, winP r Wl a ->
  winP r' (Wl ++ wobs g o) (a + hc o).
Proof.
  induction 1 as [r|r o1 r1 o2 r2 _ IH1 _ IH2|r r' o Hb _ Ew Et _ _ _|r b _|r j key _|r j e Ej Ee|r o r1 D];
    intros Wl a HP.
  - apply (winP_quiet r); auto.
  - rewrite wobs_app, hc_app, app_assoc, Nat.add_assoc. auto.
  - apply (winP_quiet r); auto using wobs_book, hcnt_book.
  - apply (winP_quiet r); auto.
  - (* rt_hand: under [imm j] the subscription is made at once and counted by [hc] *)
    set (r1 := RState (r_live r) (r_timers r) true (r_wsubs r) (r_wterm r) (r_handed r ++ [j]) (r_released r)).
    assert (HP1 : winP r1 Wl a) by exact (winP_ext r r1 _ _ eq_refl eq_refl HP).
    change (OHand j key :: ?o) with ([OHand (W:=W) (B:=B) j key] ++ o). rewrite wobs_app, hc_app, hc_hand.
    cbn [wobs flat_map app]. destruct (imm j); cbn [andb].
    + destruct (winP_sub_win r1 j Wl a HP1) as [H1 H2]. rewrite (hc_of_hcnt0 _ H2), Nat.add_0_r. exact H1.
    + cbn [wobs flat_map]. rewrite app_nil_r, (hc_of_hcnt0 [] eq_refl), !Nat.add_0_r. exact HP1.
  - (* rt_win: an element to every live subscription of j *)
    rewrite (hc_of_hcnt0 _ (hcnt_repeat _ _ _)), Nat.add_0_r.
    destruct (Nat.eqb_spec g j) as [<-|Hne].
    + rewrite wobs_repeat_same. unfold winP in *. rewrite Ej in *. destruct HP as [H1 H2]. split; [|exact H2].
      apply Forall_app. split; [exact H1|]. apply Forall_repeat. exact Ee.
    + rewrite wobs_repeat_other by exact Hne. rewrite app_nil_r. exact HP.
  - (* rt_drop *)
    destruct (rdrop_winP _ _ _ _ _ D HP) as [H1 H2].
    rewrite wobs_app, wobs_release, app_nil_r, hc_app, (hc_of_hcnt0 _ H2),
      (hc_of_hcnt0 _ (hcnt_book _ (maybe_release_book r1))), !Nat.add_0_r.
    apply winP_release, H1.
Qed.

Context (m : machine A W B).

(* an explicit subscription of g by the subscriber *)
Definition ic (i : inp A) : nat := match i with ISubWin j => if Nat.eqb g j then 1%nat else 0%nat | _ => 0%nat end.

Lemma winP_rstep s r now i Wl a : winP r Wl a ->
  winP (snd (fst (rstep imm m s r now i))) (Wl ++ wobs g (snd (rstep imm m s r now i)))
    (a + hc (snd (rstep imm m s r now i)) + ic i).
Proof.
  intros HP. destruct i as [k e|tag| |j|j]; cbn [ic]; rewrite ?Nat.add_0_r.
  - exact (rtrans_winP r _ _ (rstep_trans imm m s r now (ISrc k e) I) Wl a HP).
  - exact (rtrans_winP r _ _ (rstep_trans imm m s r now (ITick tag) I) Wl a HP).
  - exact (rtrans_winP r _ _ (rstep_trans imm m s r now IDispose I) Wl a HP).
  - cbn [rstep]. destruct (winP_sub_win r j Wl a HP) as [H1 H2]. destruct (sub_win r j) as [r' o].
    cbn [fst snd] in *. rewrite (hc_of_hcnt0 _ H2), Nat.add_0_r. exact H1.
  - exact (rtrans_winP r _ _ (rstep_trans imm m s r now (IUnsubWin j) I) Wl a HP).
Qed.

(* subscriptions of g attempted by the subscriber over a run: those made inside
   the on_next that hands g (policy [imm]) and the explicit ones *)
Definition icount (ins : list (Z * inp A)) : nat := fold_right (fun x n => (ic (snd x) + n)%nat) 0%nat ins.
Definition attempts (tr : list (nat * obs W B)) (ins : list (Z * inp A)) : nat :=
  (hc (map snd tr) + icount ins)%nat.

Lemma winP_run_from ins : forall s r k Wl a, winP r Wl a ->
  winP (snd (run_from imm m s r k ins)) (Wl ++ wevents g (fst (run_from imm m s r k ins)))
    (a + attempts (fst (run_from imm m s r k ins)) ins).
Proof.
  unfold attempts.
  induction ins as [|[now i] rest IH]; intros s r k Wl a HP; cbn [run_from].
  - cbn [fst snd wevents flat_map map icount fold_right]. rewrite app_nil_r.
    unfold hc, hcnt. cbn. destruct (imm g); rewrite !Nat.add_0_r; exact HP.
  - pose proof (winP_rstep s r now i Wl a HP) as H1.
    destruct (rstep imm m s r now i) as [[s' r'] o]. cbn [fst snd] in H1.
    specialize (IH s' r' (S k) _ _ H1).
    destruct (run_from imm m s' r' (S k) rest) as [tr rf]. cbn [fst snd] in *.
    rewrite wevents_app, wevents_tag, map_app, map_map. cbn [snd]. rewrite map_id, hc_app.
    cbn [icount fold_right snd]. fold (icount rest).
    rewrite app_assoc.
    replace (a + (hc o + hc (map snd tr) + (ic i + icount rest)))%nat
      with (a + hc o + ic i + (hc (map snd tr) + icount rest))%nat by lia.
    exact IH.
Qed.

Lemma winP0 : winP (@rstate0 W) [] 0.
Proof. unfold winP. cbn. split; [constructor|lia]. Qed.

Theorem run_window_grammar ins :
  exists ns t n,
    wevents g (fst (run imm m ins)) = ns ++ repeat t n
    /\ Forall nonterm ns /\ is_terminal t = true
    /\ (n <= attempts (fst (run imm m ins)) ins)%nat.
Proof.
  rewrite run_unfold. cbn [fst].
  pose proof (rtrans_winP _ _ _ (start_trans imm m) [] 0%nat winP0) as H2.
  pose proof (winP_run_from ins (fst (start_state imm m)) _ 1%nat _ _ H2) as H5.
  apply winP_shape in H5. destruct H5 as (ns & t & n & E1 & E2 & E3 & E4).
  exists ns, t, n. repeat split; auto.
  - rewrite wevents_app, wevents_tag. exact E1.
  - unfold attempts in *. rewrite map_app, map_map. cbn [snd]. rewrite map_id, hc_app. lia.
Qed.

Theorem run_window_single_subscriber_grammar ins :
  (attempts (fst (run imm m ins)) ins <= 1)%nat ->
  wellformed (wevents g (fst (run imm m ins))) = true.
Proof.
  intros Ha. destruct (run_window_grammar ins) as (ns & t & n & E1 & E2 & E3 & E4). rewrite E1.
  destruct n as [|[|n]]; [| |lia]; cbn [repeat].
  - rewrite app_nil_r. apply nonterm_wf_nil. exact E2.
  - apply nonterm_wf_term. exact E2.
Qed.
End Grammar.

Section Outer.
Context {A W B : Type}.

(* the outer subscriber's notifications: elements (buffers) and handed
   observables are its on_next calls *)
Definition oview1 (o : obs W B) : list (ev (option B)) :=
  match o with
  | OEmit (Next b) => [Next (Some b)]
  | OEmit (Err e) => [Err e]
  | OEmit Done => [Done]
  | OHand _ _ => [Next None]
  | _ => []
  end.
Definition oview (o : list (obs W B)) : list (ev (option B)) := flat_map oview1 o.
Definition outer_view (tr : list (nat * obs W B)) : list (ev (option B)) :=
  flat_map (fun x => oview1 (snd x)) tr.

Lemma oview_app a b : oview (a ++ b) = oview a ++ oview b.
Proof. unfold oview. apply flat_map_app. Qed.
Lemma outer_view_app a b : outer_view (a ++ b) = outer_view a ++ outer_view b.
Proof. unfold outer_view. apply flat_map_app. Qed.
Lemma outer_view_tag k o : outer_view (map (fun x => (k, x)) o) = oview o.
Proof. unfold outer_view, oview. induction o as [|x t IH]; [reflexivity|]. cbn [map flat_map snd]. now rewrite IH. Qed.

Lemma silent_oview (o : list (obs W B)) : outer_silent o -> oview o = [].
Proof.
  induction o as [|x t IH]; intros H; [reflexivity|]. cbn [oview flat_map]. fold (oview t).
  rewrite IH by (intros y Hy; apply H; right; exact Hy).
  specialize (H x (or_introl eq_refl)). destruct x; cbn in *; try discriminate; reflexivity.
Qed.

Context (imm : nat -> bool).

(* invariant: what the outer has seen is all elements, or the outer has ended
   and it is in the grammar *)
Definition outQ (r : rstate W) (v : list (ev (option B))) : Prop :=
  Forall nonterm v \/ (r_outer r = false /\ wellformed v = true).

Lemma outQ_silent r r' v o : outer_silent o -> (r_outer r = false -> r_outer r' = false) ->
  outQ r v -> outQ r' (v ++ oview o).
Proof.
  intros Hs Hm HQ. rewrite (silent_oview o Hs), app_nil_r. destruct HQ as [Hv|[Ho Hw]]; [left|right]; auto.
Qed.

(* an on_next of the outer subscriber: only while the outer is live *)
Lemma outQ_next r r' v x : r_outer r = true -> outQ r v -> outQ r' (v ++ [Next x]).
Proof.
  intros Ho [Hv|[Hc _]]; [|congruence]. left. apply Forall_app. split; [exact Hv|]. repeat constructor.
Qed.

Lemma rtrans_outQ r o r' : rtrans imm r o r' -> forall v, outQ r v -> outQ r' (v ++ oview o).
Proof.
  induction 1 as [r|r o1 r1 o2 r2 _ IH1 _ IH2|r r' o Hb Eo _ _ _ _ _|r b Ho|r j key Ho|r j e _ _|r o r1 D];
    intros v HQ.
  - apply (outQ_silent r); auto using outer_silent_nil.
  - rewrite oview_app, app_assoc. auto.
  - apply (outQ_silent r); [apply book_silent, Hb|congruence|exact HQ].
  - exact (outQ_next r r v (Some b) Ho HQ).
  - (* rt_hand: one on_next; the subscription made inside it is not heard by the outer *)
    change (OHand j key :: ?o) with ([OHand (W:=W) (B:=B) j key] ++ o). rewrite oview_app.
    replace (oview (if imm j then snd (sub_win _ j) else [])) with (@nil (ev (option B)));
      [exact (outQ_next r _ v None Ho HQ)|].
    symmetry. apply silent_oview. destruct (imm j); [apply sub_win_silent|apply outer_silent_nil].
  - apply (outQ_silent r); [apply repeat_silent|auto|exact HQ].
  - (* rt_drop: silent, except [rd_finish], the outer's terminal -- the only case left after the [try] *)
    pose proof (proj2 (rtrans_mono imm _ _ _ (rt_drop imm _ _ _ D))) as Hm.
    destruct D as [r j e _ _|r t Ho Ht|r|r j _];
      try (apply (outQ_silent r); [apply outer_silent_app; [|apply maybe_release_silent]|exact Hm|exact HQ];
           first [apply repeat_silent|apply outer_silent_nil]).
    destruct HQ as [Hv|[Hc _]]; [|congruence]. right. split; [apply (proj2 (maybe_release_mono _)); reflexivity|].
    rewrite oview_app, (silent_oview _ (maybe_release_silent _)), app_nil_r.
    destruct t; [discriminate| |]; apply nonterm_wf_term, Hv.
Qed.

Context (m : machine A W B).

Lemma rstep_outQ s (r : rstate W) now i v : outQ r v ->
  outQ (snd (fst (rstep imm m s r now i))) (v ++ oview (snd (rstep imm m s r now i))).
Proof.
  revert v. apply (rstep_cases imm m (fun r o r' => forall v, outQ r v -> outQ r' (v ++ oview o)) rtrans_outQ).
  intros r0 g v. apply (outQ_silent r0); [apply sub_win_silent|].
  destruct (sub_win_mono (B:=B) r0 g) as (_ & -> & _). auto.
Qed.

Lemma outQ_run_from ins : forall s (r : rstate W) k v, outQ r v ->
  outQ (snd (run_from imm m s r k ins)) (v ++ outer_view (fst (run_from imm m s r k ins))).
Proof.
  induction ins as [|[now i] rest IH]; intros s r k v HQ; cbn [run_from].
  - cbn [fst snd outer_view flat_map]. rewrite app_nil_r. exact HQ.
  - pose proof (rstep_outQ s r now i v HQ) as HQ'.
    destruct (rstep imm m s r now i) as [[s' r'] o]. cbn [fst snd] in *.
    specialize (IH s' r' (S k) _ HQ'). destruct (run_from imm m s' r' (S k) rest) as [tr rf]. cbn [fst snd] in *.
    rewrite outer_view_app, outer_view_tag, app_assoc. exact IH.
Qed.

Lemma outQ_wf r v : outQ r v -> wellformed v = true.
Proof. intros [H | [_ H]]; [apply nonterm_wf_nil; exact H|exact H]. Qed.

(* the outer subscriber of EVERY window/group machine, under every
   policy and on every input sequence, sees  Next* (Err | Done)?  *)
Theorem run_outer_grammar ins : wellformed (outer_view (fst (run imm m ins))) = true.
Proof.
  rewrite run_unfold. cbn [fst]. rewrite outer_view_app, outer_view_tag.
  apply (outQ_wf (snd (run_from imm m (fst (start_state imm m)) (snd (start_state imm m)) 1 ins))).
  apply outQ_run_from. apply (rtrans_outQ _ _ _ (start_trans imm m) []). left. constructor.
Qed.

(* the plain elements alone (buffers): [emitted] *)
Definition strip1 (e : ev (option B)) : list (ev B) :=
  match e with Next (Some b) => [Next b] | Next None => [] | Err z => [Err z] | Done => [Done] end.
Definition strip (l : list (ev (option B))) : list (ev B) := flat_map strip1 l.

Lemma strip_nonterm l : Forall nonterm l -> Forall nonterm (strip l).
Proof.
  induction 1 as [|e t He Ht IH]; [constructor|]. cbn [strip flat_map]. fold (strip t).
  destruct e as [[b|]|z|]; cbn in *; try discriminate; auto.
Qed.

Lemma strip_wf l : wellformed l = true -> wellformed (strip l) = true.
Proof.
  induction l as [|e t IH]; [reflexivity|]. intros H. cbn [strip flat_map]. fold (strip t).
  destruct e as [[b|]|z|]; cbn [strip1 app] in *.
  - cbn [wellformed] in *. auto.
  - cbn [wellformed] in H. auto.
  - cbn [wellformed] in H. destruct t; [reflexivity|discriminate].
  - cbn [wellformed] in H. destruct t; [reflexivity|discriminate].
Qed.

Lemma emitted_strip (tr : list (nat * obs W B)) : emitted tr = strip (outer_view tr).
Proof.
  unfold emitted, strip, outer_view. induction tr as [|x t IH]; [reflexivity|].
  cbn [flat_map]. rewrite flat_map_app, IH. f_equal.
  destruct (snd x) as [[b|z|]| | | | | | |]; reflexivity.
Qed.

Theorem run_emitted_grammar ins : wellformed (emitted (fst (run imm m ins))) = true.
Proof. rewrite emitted_strip. apply strip_wf, run_outer_grammar. Qed.
End Outer.

(* the merged record of a window with TWO subscriptions is not in the grammar
   (each notification is logged once per subscription), and neither is that of
   a window subscribed again after its terminal (the late subscription is
   answered with the terminal): the hypothesis of
   [run_window_single_subscriber_grammar] cannot be dropped.  This is a fact
   about the projection [wevents], which merges the subscriptions of one
   window, not about what any single subscriber sees. *)
Lemma two_subscribers_merged_record :
  wevents 0 (fst (run all_imm (x_window_count (A:=Z) (B:=unit) 2 2)
                    [(0, ISubWin 0%nat); (0, ISrc 0%nat (Next 1)); (0, ISrc 0%nat (Next 2))]))
  = [Next 1; Next 1; Next 2; Next 2; Done; Done]
  /\ wevents 0 (fst (run all_imm (x_window_count (A:=Z) (B:=unit) 1 1)
                       [(0, ISrc 0%nat (Next 1)); (0, ISubWin 0%nat)]))
     = [Next 1; Done; Done].
Proof. vm_compute. auto. Qed.

Lemma window_grammar_all_subscriptions_refuted :
  ~ (forall (imm : nat -> bool) (m : machine Z Z unit) ins g,
       wellformed (wevents g (fst (run imm m ins))) = true).
Proof.
  intros H.
  specialize (H all_imm (x_window_count (A:=Z) (B:=unit) 1 1) [(0, ISrc 0%nat (Next 1)); (0, ISubWin 0%nat)] 0%nat).
  vm_compute in H. discriminate.
Qed.
