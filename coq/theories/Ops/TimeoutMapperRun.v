(* C17: timeout_with_mapper at run level.  Over ALL interleavings of the notifications of the
   source (port 0), of the first timeout observable (port 1 when [has_first]), of the fallback
   (port 2 when [has_other]) and of the timeout observables the mapper makes (port 3 + j for the
   j-th element the mapper accepted), the closed world [simulate] of the machine
   [x_timeout_with_mapper] (Ops/Timed.v, operators/_timeoutwithmapper.py) equals the walk
   [twm_spec]; property-level readings of the walk follow. *)
From RxVerif Require Import Base.Prelude Ops.Machine Ops.Multi Ops.MultiFacts Ops.Timed Ops.TimedSim
  Ops.TimedFacts Ops.TimedSubFacts Ops.SimPortSteps Ops.TimedMapperFacts Ops.TimedWindowFacts Ops.TimedWindowFacts2.

Section TimeoutMapperRun.
Context {A : Type}.
Notation tin := (Z * nat * ev A)%type.
Context (has_first has_other : bool) (mapper : option (A -> nat -> res unit)).

(* [cur]: the port of the timeout observable set by the latest set_timer() (None: never()) *)
Definition is_cur (k : nat) (cur : option nat) : bool :=
  match cur with Some c => Nat.eqb k c | None => false end.

(* the CURRENT timeout observable notifies at t: an error is passed on; an on_next or an
   on_completed switches -- from there on exactly the fallback's notifications up to its first
   terminal, or the Timeout error at once when there is no fallback *)
Definition twm_switch (t : Z) (e : ev A) (rest : list tin) : list (Z * ev A) :=
  match e with
  | Err c => [(t, Err c)]
  | _ => if has_other then upto_term (port 2 rest) else [(t, Err TIMEOUT_ERR)]
  end.

(* [cnt]: elements the mapper accepted so far *)
Fixpoint twm_spec (cnt : nat) (cur : option nat) (ins : list tin) : list (Z * ev A) :=
  match ins with
  | [] => []
  | (t, O, e) :: rest =>
      match e with
      | Next x =>
          (t, Next x) ::
          match mapper with
          | None => twm_spec cnt None rest
          | Some f =>
              match f x cnt with
              | Raise c => [(t, Err c)]
              | Ok _ => twm_spec (S cnt) (Some (3 + cnt)%nat) rest
              end
          end
      | _ => [(t, e)]
      end
  | (t, k, e) :: rest =>
      if is_cur k cur then twm_switch t e rest      (* the current timeout observable *)
      else twm_spec cnt cur rest                    (* a stale one, the fallback before the switch, an unknown port *)
  end.

Definition twm_out (ins : list tin) : list (Z * ev A) :=
  twm_spec 0 (if has_first then Some 1%nat else None) ins.

Local Notation M := (x_timeout_with_mapper has_first has_other mapper).

(* after the switch the fallback is mirrored *)
Lemma twm_fallback_sim (ins : list tin) fuel (s : twm_st) : (length ins <= fuel)%nat ->
  sim_emits (sim M fuel s (RState [2%nat] [] false) [] (ext2_of ins)) = upto_term (port 2 ins).
Proof. apply sim_mirror; reflexivity. Qed.

(* no fallback, the current timeout observable sent an on_next: throw(Timeout) was
   subscribed with the scheduler, its zero-delay action is pending and nothing is subscribed *)
Lemma twm_throw_sim t : forall (ins : list tin) fuel (s : twm_st), (length ins < fuel)%nat ->
  sim_emits (sim M fuel s (RState [] [0%nat] false) [(0%nat, t)] (ext2_of ins)) = [(t, Err TIMEOUT_ERR)].
Proof.
  induction ins as [|[[t' k] e] rest IH]; intros fuel s Hf.
  - destruct fuel as [|f]; [cbn in Hf; lia|].
    rewrite ext2_of_nil, sim_S. cbn.
    rewrite sim_emits_cons. cbn [emits flat_map map app]. rewrite sim_stopped by reflexivity. reflexivity.
  - destruct fuel as [|f]; [cbn in Hf; lia|]. cbn [length] in Hf.
    rewrite ext2_of_cons, sim_S. cbn [next_event earliest].
    destruct (t' <=? t) eqn:El.
    + cbn [rstep r_stopped r_live mem existsb].
      rewrite sim_emits_cons. cbn [emits flat_map map app].
      replace (upd [(0%nat, t)] t' [] (RState [] [0%nat] false)) with [(0%nat, t)] by reflexivity.
      apply IH. lia.
    + cbn.
      rewrite sim_emits_cons. cbn [emits flat_map map app]. rewrite sim_stopped by reflexivity. reflexivity.
Qed.

(* the ports listened to before the switch *)
Definition twm_live (cur : option nat) : list nat :=
  match cur with
  | None => [0%nat]
  | Some k => if Nat.eqb k 1 then [1%nat; 0%nat] else [0%nat; k]
  end.

Definition cur_ok (id : nat) (timers : list (nat * nat)) (cnt : nat) (cur : option nat) : Prop :=
  match cur with
  | None => True
  | Some k => lookup k timers = Some id /\ (k = 1%nat \/ exists j, (j < cnt)%nat /\ k = (3 + j)%nat)
  end.

Lemma twm_unsub_cur id timers cnt cur : cur_ok id timers cnt cur ->
  exists o, apply_cmds (RState (twm_live cur) [] false) (@unsub_cur A cur) = (RState [0%nat] [] false, o)
            /\ emits o = [].
Proof.
  intros Hok. destruct cur as [c|]; [|exists []; split; reflexivity].
  destruct Hok as [_ [->|[j [_ ->]]]].
  - exists [OUnsub 1%nat]. split; reflexivity.
  - exists [OUnsub (3 + j)%nat]. cbn. rewrite Nat.eqb_refl. split; reflexivity.
Qed.

Lemma twm_live_dead k cur : is_cur (S k) cur = false -> mem (S k) (twm_live cur) = false.
Proof.
  destruct cur as [c|]; [|reflexivity]. cbn [is_cur twm_live]. intros H.
  destruct (Nat.eqb c 1) eqn:E1.
  - apply Nat.eqb_eq in E1. subst c. unfold mem. cbn [existsb]. rewrite H. reflexivity.
  - unfold mem. cbn [existsb]. rewrite H. reflexivity.
Qed.

(* the runner's side of the command lists the handler of the current timeout observable can return
   (the live list is [1; 0] or [0; 3 + j]) *)
Lemma twm_cur_cmds id timers cnt k : cur_ok id timers cnt (Some k) ->
  k <> 0%nat /\ k <> 2%nat /\ mem k (twm_live (Some k)) = true
  /\ apply_cmds (RState (twm_live (Some k)) [] false) [@CSub A 2%nat; CUnsub 0%nat; CUnsub k]
     = (RState [2%nat] [] false, [OSub 2%nat; OUnsub 0%nat; OUnsub k])
  /\ apply_cmds (RState (twm_live (Some k)) [] false) [@CTimer A 0%nat 0; CUnsub 0%nat; CUnsub k]
     = (RState [] [0%nat] false, [OTimer 0%nat 0; OUnsub 0%nat; OUnsub k])
  /\ apply_cmds (RState (twm_live (Some k)) [] false) [@CSub A 2%nat; CUnsub 0%nat]
     = (RState (remove 0 (twm_live (Some k)) ++ [2%nat]) [] false, [OSub 2%nat; OUnsub 0%nat])
  /\ remove k (remove 0 (twm_live (Some k)) ++ [2%nat]) = [2%nat]
  /\ mem k (remove 0 (twm_live (Some k)) ++ [2%nat]) = true.
Proof.
  intros [_ [->|[j [_ ->]]]]; cbn; rewrite ?Nat.eqb_refl; repeat split; (reflexivity || discriminate).
Qed.

Lemma twm_switch_sim k id timers cnt th t e (rest : list tin) f : cur_ok id timers cnt (Some k) -> (length rest < f)%nat ->
  sim_emits (sim M (S f) (TwmSt id timers cnt (Some k) th) (RState (twm_live (Some k)) [] false) []
                 ((t, ISrc k e) :: ext2_of rest))
  = twm_switch t e rest.
Proof.
  intros Hok Hf. destruct (twm_cur_cmds _ _ _ _ Hok) as (Hk0 & Hk2 & Hm & Hsw & Hth & Hsw2 & Hrem & Hmem).
  (* [M] mentions has_other: the case analysis on it goes through an equation *)
  enough (Hho : forall ho, has_other = ho ->
            sim_emits (sim M (S f) (TwmSt id timers cnt (Some k) th) (RState (twm_live (Some k)) [] false) []
                           ((t, ISrc k e) :: ext2_of rest))
            = match e with Err c => [(t, Err c)] | _ => if ho then upto_term (port 2 rest) else [(t, Err TIMEOUT_ERR)] end)
    by exact (Hho _ eq_refl).
  intros ho Eo.
  assert (Hstep : x_step M (TwmSt id timers cnt (Some k) th) t (ISrc k e)
            = match e with
              | Next _ => if ho then (TwmSt id timers cnt (Some k) th, [CSub 2%nat; CUnsub 0%nat; CUnsub k], Cont)
                          else (TwmSt id timers cnt (Some k) (Some 0%nat), [CTimer 0%nat 0; CUnsub 0%nat; CUnsub k], Cont)
              | Err c => (TwmSt id timers cnt (Some k) th, [], Fail c)
              | Done => if ho then (TwmSt id timers cnt (Some k) th, [CSub 2%nat; CUnsub 0%nat], Cont)
                        else (TwmSt id timers cnt (Some k) th, [], Fail TIMEOUT_ERR)
              end).
  { rewrite twm_step_timeout by assumption. unfold twm_wins. cbn [tw_timers tw_id].
    destruct Hok as [-> _]. rewrite Nat.eqb_refl, Eo. reflexivity. }
  destruct e as [y|c|]; [destruct ho| |destruct ho].
  - (* on_next, with a fallback *)
    etransitivity; [eapply sim_port_cont; [exact Hm|exact Hstep|exact Hsw|reflexivity]|].
    cbn [emits flat_map map app]. unfold detach. cbn [is_terminal andb].
    apply twm_fallback_sim. lia.
  - (* on_next, without: the zero-delay action of throw() is scheduled *)
    rewrite sim_S. cbn [next_event earliest rstep r_stopped r_live]. rewrite Hm, Hstep, Hth.
    cbn [is_terminal andb finish app]. rewrite sim_emits_cons. cbn [emits flat_map map app].
    replace (upd [] t [OTimer 0%nat 0; @OUnsub A 0%nat; OUnsub k] (RState [] [0%nat] false)) with [(0%nat, t)]
      by (unfold upd; cbn; rewrite Z.add_0_r; reflexivity).
    apply twm_throw_sim. lia.
  - eapply sim_port_fail; [exact Hm|exact Hstep].
  - (* on_completed, with a fallback: the runner detaches the port itself *)
    etransitivity; [eapply sim_port_cont; [exact Hm|exact Hstep|exact Hsw2|reflexivity]|].
    cbn [emits flat_map map app]. unfold detach. cbn [is_terminal andb r_live r_timers r_stopped].
    rewrite Hmem, Hrem. apply twm_fallback_sim. lia.
  - eapply sim_port_fail; [exact Hm|exact Hstep].
Qed.

Lemma twm_sim : forall (ins : list tin) fuel id timers cnt cur th, (length ins < fuel)%nat ->
  cur_ok id timers cnt cur ->
  sim_emits (sim M fuel (TwmSt id timers cnt cur th) (RState (twm_live cur) [] false) [] (ext2_of ins))
  = twm_spec cnt cur ins.
Proof.
  induction ins as [|[[t k] e] rest IH]; intros fuel id timers cnt cur th Hf Hok.
  - now rewrite ext2_of_nil, sim_nil.
  - destruct fuel as [|f]; [cbn in Hf; lia|]. cbn [length] in Hf.
    rewrite ext2_of_cons. cbn [twm_spec].
    destruct k as [|k].
    + (* the source *)
      assert (Hm : mem 0 (twm_live cur) = true).
      { destruct cur as [c|]; [|reflexivity]. cbn [twm_live]. destruct (Nat.eqb c 1); reflexivity. }
      destruct e as [x|c|].
      * (* on_next: forwarded, set_timer *)
        destruct (twm_unsub_cur id timers cnt cur Hok) as [ou [Hun Heu]].
        destruct mapper as [fm|] eqn:Emap.
        -- destruct (fm x cnt) as [u|c] eqn:Em.
           ++ assert (Hcmd : apply_cmds (RState (twm_live cur) [] false) (CEmit x :: @unsub_cur A cur ++ [CSub (3 + cnt)%nat])
                             = (RState (twm_live (Some (3 + cnt)%nat)) [] false, OEmit (Next x) :: ou ++ [OSub (3 + cnt)%nat])).
              { cbn [apply_cmds]. rewrite apply_cmds_app, Hun. reflexivity. }
              etransitivity; [eapply sim_port_cont; [exact Hm|cbn; rewrite Em; reflexivity|exact Hcmd|reflexivity]|].
              assert (He : emits (OEmit (Next x) :: ou ++ [@OSub A (3 + cnt)%nat]) = [Next x]).
              { change (emits (OEmit (Next x) :: ou ++ [@OSub A (3 + cnt)%nat])) with (Next x :: emits (ou ++ [@OSub A (3 + cnt)%nat])).
                rewrite emits_app, Heu. reflexivity. }
              rewrite He. cbn [map app]. f_equal.
              unfold detach. cbn [is_terminal andb].
              apply IH; [lia|]. cbn [cur_ok lookup]. rewrite Nat.eqb_refl. split; [reflexivity|].
              right. exists cnt. split; [lia|reflexivity].
           ++ etransitivity; [eapply sim_port_end; [exact Hm|cbn; rewrite Em; reflexivity|discriminate|cbn; reflexivity]|].
              reflexivity.
        -- assert (Hcmd : apply_cmds (RState (twm_live cur) [] false) (CEmit x :: @unsub_cur A cur)
                          = (RState (twm_live None) [] false, OEmit (Next x) :: ou)).
           { cbn [apply_cmds]. rewrite Hun. reflexivity. }
           etransitivity; [eapply sim_port_cont; [exact Hm|cbn; reflexivity|exact Hcmd|reflexivity]|].
           change (emits (OEmit (Next x) :: ou)) with (Next x :: emits ou). rewrite Heu.
           cbn [map app]. f_equal. unfold detach. cbn [is_terminal andb].
           apply IH; [lia|exact I].
      * eapply sim_port_fail; [exact Hm|reflexivity].
      * eapply sim_port_done; [exact Hm|reflexivity].
    + destruct (is_cur (S k) cur) eqn:Ec;
        [|rewrite sim_port_dead by (apply twm_live_dead; exact Ec); apply IH; [lia|exact Hok]].
      destruct cur as [c|]; [|discriminate Ec]. cbn [is_cur] in Ec. apply Nat.eqb_eq in Ec. subst c.
      apply twm_switch_sim; [exact Hok|lia].
Qed.

Theorem timeout_with_mapper_walk t0 (ins : list tin) :
  timed_emits t0 (simulate M t0 (ext2_of ins)) = twm_out ins.
Proof.
  unfold twm_out.
  rewrite (timed_emits_start M _ _ (RState (twm_live (if has_first then Some 1%nat else None)) [] false)
             (if has_first then [OSub 1%nat; OSub 0%nat] else [OSub 0%nat]) t0 _ eq_refl) by (destruct has_first; reflexivity).
  apply twm_sim; [unfold ext2_of; rewrite map_length; lia|]. destruct has_first; cbn; [split; [reflexivity|left; reflexivity]|exact I].
Qed.

Definition tport (i : tin) : nat := snd (fst i).
Definition tnote (i : tin) : Z * ev A := (fst (fst i), snd i).

(* notifications of ports other than the source and the current timeout observable -- stale
   timeout observables, the fallback before the switch -- change nothing *)
Lemma twm_skip : forall (mid : list tin) cnt cur tail,
  Forall (fun i => tport i <> 0%nat /\ is_cur (tport i) cur = false) mid ->
  twm_spec cnt cur (mid ++ tail) = twm_spec cnt cur tail.
Proof.
  induction mid as [|[[t k] e] mid IH]; intros cnt cur tail H; [reflexivity|].
  inversion H as [|? ? [H0 Hc] Hr]; subst. cbn [tport fst snd] in H0, Hc.
  cbn [app twm_spec]. destruct k as [|k]; [contradiction|]. rewrite Hc. apply IH, Hr.
Qed.

Lemma twm_skip_cur (mid : list tin) cnt k tail :
  Forall (fun i => tport i <> 0%nat /\ tport i <> k) mid ->
  twm_spec cnt (Some k) (mid ++ tail) = twm_spec cnt (Some k) tail.
Proof.
  intros H. apply twm_skip. eapply Forall_impl; [|exact H]. intros i [H0 H1]. split; [exact H0|].
  cbn [is_cur]. apply Nat.eqb_neq. exact H1.
Qed.

(* the first timeout observable: whichever of its on_next / on_completed comes before the
   first notification of the source switches at that instant; its error is passed on *)
Theorem twm_first_timeout (mid rest : list tin) t e : has_first = true ->
  Forall (fun i => tport i <> 0%nat /\ tport i <> 1%nat) mid ->
  twm_out (mid ++ (t, 1%nat, e) :: rest) = twm_switch t e rest.
Proof.
  intros Hf Hmid. unfold twm_out. rewrite Hf, twm_skip_cur by exact Hmid. reflexivity.
Qed.

Definition mapper_accepts (f : A -> nat -> res unit) : Prop := forall y i, exists u, f y i = Ok u.
Definition src_next (i : tin) : Prop := tport i = 0%nat /\ exists y, snd i = Next y.

Lemma twm_src_prefix f : mapper = Some f -> mapper_accepts f ->
  forall (pre : list tin) cnt cur tx x tail, Forall src_next pre ->
  twm_spec cnt cur (pre ++ (tx, 0%nat, Next x) :: tail)
  = map tnote pre ++ (tx, Next x) :: twm_spec (S (cnt + length pre)) (Some (3 + (cnt + length pre))%nat) tail.
Proof.
  intros Hm Hacc. induction pre as [|[[t k] e] pre IH]; intros cnt cur tx x tail H.
  - cbn [app map length twm_spec]. rewrite Hm. destruct (Hacc x cnt) as [u ->]. rewrite Nat.add_0_r. reflexivity.
  - inversion H as [|? ? [H0 [y Hy]] Hr]; subst. cbn [tport fst snd] in H0, Hy. subst k e.
    cbn [app map length twm_spec tnote fst snd]. rewrite Hm. destruct (Hacc y cnt) as [u ->].
    rewrite (IH (S cnt) _ tx x tail Hr). replace (S cnt + length pre)%nat with (cnt + S (length pre))%nat by lia.
    reflexivity.
Qed.

(* the timeout observable the mapper made for an element: after elements pre ++ [x] of the
   source (the mapper accepting all of them), whatever the stale timeout observables (ports 1,
   3 .. 2 + |pre|), the fallback or unknown ports send in between, the first notification of
   port 3 + |pre| -- the observable made for x -- switches at that instant (its error is
   passed on); everything forwarded before is exactly the source's elements at their instants *)
Theorem twm_element_timeout f (pre mid rest : list tin) tx x t e : mapper = Some f -> mapper_accepts f ->
  Forall src_next pre ->
  Forall (fun i => tport i <> 0%nat /\ tport i <> (3 + length pre)%nat) mid ->
  twm_out (pre ++ (tx, 0%nat, Next x) :: mid ++ (t, (3 + length pre)%nat, e) :: rest)
  = map tnote pre ++ (tx, Next x) :: twm_switch t e rest.
Proof.
  intros Hm Hacc Hpre Hmid. unfold twm_out. rewrite (twm_src_prefix f Hm Hacc pre 0 _ tx x _ Hpre).
  f_equal. f_equal. cbn [Nat.add]. rewrite twm_skip_cur by exact Hmid.
  cbn [twm_spec Nat.add is_cur]. rewrite Nat.eqb_refl. reflexivity.
Qed.

(* no timeout observable ever notifies (only the source and the fallback do): the operator
   forwards the source's notifications up to its first terminal and nothing else *)
Definition mapper_ok : Prop := match mapper with None => True | Some f => mapper_accepts f end.

Lemma twm_quiet : mapper_ok -> forall (ins : list tin) cnt cur,
  Forall (fun i => tport i = 0%nat \/ tport i = 2%nat) ins -> is_cur 2 cur = false ->
  twm_spec cnt cur ins = upto_term (port 0 ins).
Proof.
  intros Hok. induction ins as [|[[t k] e] rest IH]; intros cnt cur H Hc; [reflexivity|].
  inversion H as [|? ? Hk Hr]; subst. cbn [tport fst snd] in Hk. rewrite port_cons. cbn [twm_spec].
  destruct Hk as [->| ->].
  - cbn [Nat.eqb app upto_term]. destruct e as [x|c|]; [|reflexivity|reflexivity]. f_equal.
    unfold mapper_ok in Hok. destruct mapper as [f|].
    + destruct (Hok x cnt) as [u ->]. apply IH; [exact Hr|reflexivity].
    + apply IH; [exact Hr|reflexivity].
  - rewrite Hc. cbn [Nat.eqb app]. apply IH; assumption.
Qed.

Theorem twm_no_timeout (ins : list tin) : mapper_ok ->
  Forall (fun i => tport i = 0%nat \/ tport i = 2%nat) ins ->
  twm_out ins = upto_term (port 0 ins).
Proof. intros Hok H. apply twm_quiet; [exact Hok|exact H|]. destruct has_first; reflexivity. Qed.
End TimeoutMapperRun.
