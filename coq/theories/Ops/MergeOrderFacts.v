(* C11: merge(max_concurrent) opens its inner subscriptions in arrival order -- the OSub
   events of EVERY run carry strictly increasing ids (inner j is the one created by the
   j-th accepted outer element), and whatever still waits in the queue is newer than
   everything started so far.  Generic part: the subscriptions a runner step opens are the
   handler's CSub commands. *)
From RxVerif Require Import Base.Prelude Ops.Machine Ops.MachineFacts Ops.Multi Ops.MultiFacts
  Ops.RunLemmas Ops.Combinators.
From Coq Require Import Sorting.Sorted.

Local Arguments Nat.ltb : simpl never.
Local Arguments Nat.leb : simpl never.

Section SubIds.
Context {A B : Type} (m : machine A B).

Definition sub_ids (os : list (obs B)) : list nat :=
  flat_map (fun o => match o with OSub k => [k] | _ => [] end) os.
Definition csub_ids (cs : list (cmd B)) : list nat :=
  flat_map (fun c => match c with CSub k => [k] | _ => [] end) cs.

Lemma sub_ids_app a b : sub_ids (a ++ b) = sub_ids a ++ sub_ids b.
Proof. apply flat_map_app. Qed.

Lemma apply_cmds_sub_ids (cs : list (cmd B)) : forall r,
  sub_ids (snd (apply_cmds r cs)) = csub_ids cs.
Proof.
  induction cs as [|c t IH]; intros r; [reflexivity|]. rewrite apply_cmds_cons. cbn [snd].
  rewrite sub_ids_app, IH. destruct c; cbn; try destruct (mem _ _); reflexivity.
Qed.

Lemma release_sub_ids (r : rstate) : sub_ids (snd (@release B r)) = [].
Proof.
  unfold release. cbn [snd]. rewrite sub_ids_app.
  assert (H1 : forall l, sub_ids (map (@OUnsub B) l) = []) by (induction l; auto).
  assert (H2 : forall l, sub_ids (map (@OCancel B) l) = []) by (induction l; auto).
  now rewrite H1, H2.
Qed.

Lemma finish_sub_ids (r : rstate) f : sub_ids (snd (@finish B r f)) = [].
Proof. destruct (@finish_cases B r f) as [[_ ->]|(t & _ & ->)]; [reflexivity|exact (release_sub_ids r)]. Qed.

Lemma in_osub_sub_ids (o : list (obs B)) j : In (OSub j) o <-> In j (sub_ids o).
Proof.
  unfold sub_ids. rewrite in_flat_map. split.
  - intros H. exists (OSub j). split; [exact H|left; reflexivity].
  - intros (x & Hx & Hj). destruct x; try destruct Hj as [Hj|[]]; try contradiction. now subst.
Qed.

Lemma sub_ids_noemit (o : list (obs B)) : sub_ids (filter noemit o) = sub_ids o.
Proof. induction o as [|x t IH]; [reflexivity|]. destruct x; unfold sub_ids in *; cbn; rewrite ?IH; reflexivity. Qed.

Lemma handled_sub_ids {S} (a : S * list (cmd B) * fin) r (i : inp A) :
  sub_ids (snd (handled_step a r i)) = csub_ids (snd (fst a)).
Proof.
  assert (Hdet : forall r1, sub_ids (snd (auto_detach (B:=B) i r1)) = []).
  { intros r1. destruct i as [k e| |]; try reflexivity. cbn [auto_detach]. now destruct (is_terminal e && mem k (r_live r1)). }
  unfold handled_step. destruct i; cbn [fst snd];
    rewrite !sub_ids_app, ?sub_ids_noemit, ?Hdet, ?finish_sub_ids, ?release_sub_ids, apply_cmds_sub_ids, ?app_nil_r;
    reflexivity.
Qed.

Lemma rstep_sub_ids s r now i :
  rstep m s r now i = (s, r, [])
  \/ (fst (fst (rstep m s r now i)) = fst (fst (x_step m s now i))
      /\ sub_ids (snd (rstep m s r now i)) = csub_ids (snd (fst (x_step m s now i)))).
Proof.
  destruct (handled_or_dropped r i) as [[Hst Hd]|Hd]; [right|left; now apply rstep_dropped].
  rewrite (rstep_handled_eq m s r now i Hst Hd). split; [apply handled_state|apply handled_sub_ids].
Qed.

(* a subscription is opened by a step exactly when the input reaches the handler (or is the
   dispose) and the handler asks for it *)
Lemma rstep_osub_iff s r now i j :
  In (OSub j) (snd (rstep m s r now i)) <->
  r_stopped r = false /\ (delivered r i = true \/ i = IDispose)
  /\ In j (csub_ids (snd (fst (x_step m s now i)))).
Proof.
  rewrite in_osub_sub_ids. destruct (handled_or_dropped r i) as [[Hst Hd]|Hd].
  - rewrite (rstep_handled_eq m s r now i Hst Hd), handled_sub_ids. tauto.
  - rewrite (rstep_dropped m s r now i Hd). split; [intros []|].
    intros (Hst & Hh & _). destruct Hd as [Hd|[Hd Hi]]; [congruence|]. destruct Hh; congruence.
Qed.

(* an invariant relating the handler state to the ids subscribed so far lifts to runs *)
Lemma sub_ids_invariant (J : x_state m -> list nat -> Prop)
  (Hstep : forall s l now i, J s l ->
     J (fst (fst (x_step m s now i))) (l ++ csub_ids (snd (fst (x_step m s now i))))) :
  forall ins s r k acc, J s (sub_ids acc) ->
    J (fst (after m s r ins)) (sub_ids (acc ++ map snd (fst (run_from m s r k ins)))).
Proof.
  intros ins s r k acc H.
  apply (run_from_invariant m (fun s _ acc => J s (sub_ids acc))); [|exact H].
  clear - Hstep. intros s r acc now i H.
  destruct (rstep_sub_ids s r now i) as [E|[E1 E2]].
  - rewrite E. cbn [fst snd]. now rewrite app_nil_r.
  - rewrite E1, sub_ids_app, E2. apply Hstep. exact H.
Qed.
End SubIds.

Lemma ssorted_snoc (l : list nat) c :
  StronglySorted lt l -> Forall (fun j => j <= c)%nat l -> StronglySorted lt (l ++ [S c]).
Proof.
  induction l as [|a t IH]; intros Hs Hf; cbn.
  - constructor; constructor.
  - apply StronglySorted_inv in Hs. destruct Hs as [Hs Ha]. inversion Hf as [|? ? Hac Hft]; subst.
    constructor; [apply IH; assumption|].
    apply Forall_app. split; [exact Ha|]. constructor; [lia|constructor].
Qed.

Lemma Forall_le_snoc (l : list nat) c :
  Forall (fun j => j <= c)%nat l -> Forall (fun j => j <= S c)%nat (l ++ [S c]).
Proof.
  intros H. apply Forall_app. split; [|constructor; [lia|constructor]].
  eapply Forall_impl; [|exact H]. cbn. intros; lia.
Qed.

Lemma ssorted_app_l (a b : list nat) : StronglySorted lt (a ++ b) -> StronglySorted lt a.
Proof.
  induction a as [|x t IH]; intros H; [constructor|]. cbn in H.
  apply StronglySorted_inv in H. destruct H as [Hs Hx]. constructor; [apply IH; exact Hs|].
  apply Forall_app in Hx. apply Hx.
Qed.

Section Order.
Context {A : Type}.

(* ids started so far, then the waiting queue: strictly increasing, all among the inners
   created so far; and an inner waits only while max_concurrent inners are active *)
Definition mc_order_inv (mc : nat) (s : nat * nat * list nat * bool) (started : list nat) : Prop :=
  let '(cnt, active, queue, _) := s in
  StronglySorted lt (started ++ queue) /\ Forall (fun j => j <= cnt)%nat (started ++ queue)
  /\ (queue <> [] -> (mc <= active)%nat).

Lemma mc_order_step mc mapper (s : nat * nat * list nat * bool) l now (i : inp A) :
  mc_order_inv mc s l ->
  mc_order_inv mc (fst (fst (x_step (x_merge_concurrent mc mapper) s now i)))
                  (l ++ csub_ids (snd (fst (x_step (x_merge_concurrent mc mapper) s now i)))).
Proof.
  destruct s as [[[cnt active] queue] stopped]. unfold mc_order_inv. intros (Hs & Hf & Hq).
  assert (Same : StronglySorted lt ((l ++ []) ++ queue) /\ Forall (fun j => j <= cnt)%nat ((l ++ []) ++ queue)
                   /\ (queue <> [] -> (mc <= active)%nat)).
  { rewrite app_nil_r. auto. }
  (* only an outer element and the completion of an inner open a subscription or touch the queue *)
  destruct i as [[|j] [x|err|]|tag|]; cbn [x_merge_concurrent x_step];
    try (cbn [fst snd csub_ids flat_map]; exact Same).
  - destruct (mapper x cnt) as [[]|err]; [|cbn [fst snd csub_ids flat_map]; exact Same].
    destruct (Nat.ltb_spec active mc) as [Hlt|Hge]; cbn [fst snd csub_ids flat_map app].
    + assert (queue = []) as ->. { destruct queue; [reflexivity|]. assert (mc <= active)%nat by (apply Hq; discriminate). lia. }
      rewrite !app_nil_r in *. split; [apply ssorted_snoc; assumption|]. split; [now apply Forall_le_snoc|congruence].
    + rewrite app_nil_r, app_assoc. split; [apply ssorted_snoc; assumption|]. split; [now apply Forall_le_snoc|auto].
  - destruct queue as [|q qs]; cbn [fst snd csub_ids flat_map app].
    + rewrite !app_nil_r in *. split; [exact Hs|]. split; [exact Hf|congruence].
    + rewrite <- app_assoc. cbn [app]. split; [exact Hs|]. split; [exact Hf|].
      intros _. apply Hq. discriminate.
Qed.

Lemma merge_concurrent_order_inv mc mapper (ins : list (Z * inp A)) :
  let m := x_merge_concurrent mc mapper in
  mc_order_inv mc (fst (after m (fst (start_state m)) (snd (start_state m)) ins))
                  (sub_ids (map snd (fst (run m ins)))).
Proof.
  intros m. rewrite run_unfold. cbn [fst]. rewrite map_app, map_map. cbn [snd]. rewrite map_id.
  apply (sub_ids_invariant m (mc_order_inv mc)).
  - intros s l now i. apply mc_order_step.
  - unfold start_state, start_obs, m, mc_order_inv. cbn.
    split; [constructor; constructor|]. split; [constructor; [lia|constructor]|congruence].
Qed.

End Order.
