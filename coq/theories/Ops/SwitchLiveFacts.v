(* C12: the subscriptions the runner holds after EVERY input sequence are those of the
   specification's state: the outer while it runs and the latest inner while it runs. *)
From RxVerif Require Import Base.Prelude Ops.Machine Ops.Multi Ops.RunLemmas Ops.Combinators
  Ops.MergeFacts Ops.SwitchSpecFacts Ops.SwitchInvFacts.

Section SwitchLive.
Context {A : Type}.

(* the id of the latest inner the operator has received so far (0 = none yet) *)
Definition sw_latest_after (mapper : A -> nat -> res unit) (ins : list (Z * inp A)) : nat :=
  fst (fst (fst (after (x_switch_map mapper) (fst (start_state (x_switch_map mapper)))
                       (snd (start_state (x_switch_map mapper))) ins))).

Lemma switch_live_shape ol latest has : (has = true -> latest <> 0%nat) ->
  (length (switch_live ol latest has) <= 2)%nat
  /\ NoDup (switch_live ol latest has)
  /\ forall k, In k (switch_live ol latest has) -> k = 0%nat \/ (k = latest /\ k <> 0%nat).
Proof.
  intros Hl. unfold switch_live.
  destruct ol, has; cbn [app length In]; (split; [lia|]); (split; [repeat constructor; cbn [In]; tauto|]).
  - intros k [<-|[<-|[]]]; auto.
  - intros k [<-|[]]. auto.
  - intros k [<-|[]]. auto.
  - intros k [].
Qed.

Theorem switch_run_live mapper (ins : list (Z * inp A)) :
  match sw_after mapper true 0 false ins with
  | Some (ol, latest, has) =>
      r_live (snd (run (x_switch_map mapper) ins)) = switch_live ol latest has
      /\ sw_latest_after mapper ins = latest /\ (has = true -> latest <> 0%nat)
  | None => r_live (snd (run (x_switch_map mapper) ins)) = []
  end.
Proof.
  pose proof (switch_state_is_spec mapper ins) as H. unfold sw_latest_after.
  destruct (sw_after mapper true 0 false ins) as [[[ol latest] has]|]; cbn [sw_at] in H.
  - destruct H as (-> & -> & Hl & _). auto.
  - now rewrite H.
Qed.
End SwitchLive.
