(* C16: the property-level reading of sample(sampler): every element emitted is the LATEST source
   element not yet sampled at the tick that emits it.  Stated on the specification [smp_spec]
   (which the machine is proved equal to for every interleaving: sample_observable_spec) and then
   on the machine itself. *)
From RxVerif Require Import Base.Prelude Ops.Machine Ops.Timed Ops.TimedSim Ops.TimedSubFacts.

Section SampleReading.
Context {A : Type}.
Notation tin := (Z * nat * ev A)%type.

(* the notifications the operator listens to: every port up to and including its first terminal
   notification (the library's auto-detach), ports other than 0 (source) and 1 (sampler) ignored.
   A conforming two-port timeline is its own [heard]. *)
Fixpoint heard (l0 l1 : bool) (ins : list tin) : list tin :=
  match ins with
  | [] => []
  | (t, O, e) :: rest => if l0 then (t, O, e) :: heard (negb (is_terminal e)) l1 rest else heard l0 l1 rest
  | (t, S O, e) :: rest => if l1 then (t, 1%nat, e) :: heard l0 (negb (is_terminal e)) rest else heard l0 l1 rest
  | _ :: rest => heard l0 l1 rest
  end.

(* no source element / no sampler notification in a stretch of the timeline *)
Definition no_src_next (l : list tin) : Prop := forall t x, ~ In (t, 0%nat, Next x) l.
Definition no_sampler (l : list tin) : Prop := forall t e, ~ In (t, 1%nat, e) l.
Definition is_tick (e : ev A) : Prop := match e with Err _ => False | _ => True end.

Lemma no_src_next_cons i l : (forall t x, i <> (t, 0%nat, Next x)) -> no_src_next l -> no_src_next (i :: l).
Proof. intros H1 H2 t x [E|E]; [exact (H1 t x E)|exact (H2 t x E)]. Qed.
Lemma no_sampler_cons i l : (forall t e, i <> (t, 1%nat, e)) -> no_sampler l -> no_sampler (i :: l).
Proof. intros H1 H2 t e [E|E]; [exact (H1 t e E)|exact (H2 t e E)]. Qed.

(* where an element x emitted at t comes from: it was pending when [h] begins and the first tick of [h] is at
   t ([from_pending]), or the source delivers it inside [h] and the next tick after it is at t *)
Definition from_pending (x : A) (t : Z) (h : list tin) : Prop :=
  exists pre e rest, h = pre ++ (t, 1%nat, e) :: rest /\ is_tick e /\ no_src_next pre /\ no_sampler pre.
Definition from_element (x : A) (t : Z) (h : list tin) : Prop :=
  exists pre tx mid e rest,
    h = pre ++ (tx, 0%nat, Next x) :: mid ++ (t, 1%nat, e) :: rest /\ is_tick e /\ no_src_next mid /\ no_sampler mid.

Lemma from_pending_cons i x t h : (forall t' y, i <> (t', 0%nat, Next y)) -> (forall t' e, i <> (t', 1%nat, e)) ->
  from_pending x t h -> from_pending x t (i :: h).
Proof.
  intros H1 H2 (pre & e & rest & E & He & Hn & Hs). exists (i :: pre), e, rest. rewrite E.
  repeat split; [exact He|apply no_src_next_cons; assumption|apply no_sampler_cons; assumption].
Qed.
Lemma from_element_cons i x t h : from_element x t h -> from_element x t (i :: h).
Proof.
  intros (pre & tx & mid & e & rest & E & He & Hn & Hs). exists (i :: pre), tx, mid, e, rest. rewrite E.
  repeat split; assumption.
Qed.

(* generalised over the live flags and the pending element so that the induction on the timeline goes
   through: a pending element can only leave at the next tick, a new source element replaces it *)
Lemma smp_in_next : forall (ins : list tin) l0 l1 ae pend t x,
  In (t, Next x) (smp_spec l0 l1 ae pend ins) ->
  (pend = Some x /\ from_pending x t (heard l0 l1 ins)) \/ from_element x t (heard l0 l1 ins).
Proof.
  induction ins as [|[[t' k] e'] rest IH]; intros l0 l1 ae pend t x Hin; [destruct Hin|].
  cbn [smp_spec heard] in *. destruct k as [|[|k]].
  - destruct l0; [|exact (IH _ _ _ _ _ _ Hin)].
    destruct e' as [y|c|]; cbn [is_terminal negb].
    + destruct (IH _ _ _ _ _ _ Hin) as [[Ep (pre & e & rest' & E & He & Hn & Hs)]|Hr].
      * right. injection Ep as ->. exists [], t', pre, e, rest'. rewrite E. repeat split; assumption.
      * right. apply from_element_cons, Hr.
    + destruct Hin as [Hin|[]]. discriminate Hin.
    + destruct (IH _ _ _ _ _ _ Hin) as [[Ep Hl]|Hr].
      * left. split; [exact Ep|]. apply from_pending_cons; [discriminate|discriminate|exact Hl].
      * right. apply from_element_cons, Hr.
  - destruct l1; [|exact (IH _ _ _ _ _ _ Hin)].
    assert (Htick : is_tick e' ->
      In (t, Next x) (match pend with Some v => [(t', Next v)] | None => [] end ++
                      (if ae then [(t', Done)]
                       else smp_spec l0 (match e' with Done => false | _ => true end) ae None rest)) ->
      (pend = Some x /\ from_pending x t ((t', 1%nat, e') :: heard l0 (negb (is_terminal e')) rest)) \/
      from_element x t ((t', 1%nat, e') :: heard l0 (negb (is_terminal e')) rest)).
    { intros He H. apply in_app_or in H. destruct H as [H|H].
      - destruct pend as [v|]; [|destruct H]. destruct H as [H|[]]. injection H as -> ->.
        left. split; [reflexivity|]. exists [], e', (heard l0 (negb (is_terminal e')) rest).
        repeat split; [exact He|intros ? ? []|intros ? ? []].
      - destruct ae; [destruct H as [H|[]]; discriminate H|].
        assert (Ef : (match e' with Done => false | _ => true end) = negb (is_terminal e'))
          by (destruct e'; [reflexivity|destruct He|reflexivity]).
        rewrite Ef in H. destruct (IH _ _ _ _ _ _ H) as [[Ep _]|Hr]; [discriminate Ep|].
        right. apply from_element_cons, Hr. }
    destruct e' as [y|c|].
    + apply Htick; [exact I|exact Hin].
    + destruct Hin as [Hin|[]]. discriminate Hin.
    + apply Htick; [exact I|exact Hin].
  - exact (IH _ _ _ _ _ _ Hin).
Qed.

(* sample(sampler) emits, at a sampler tick at time t, the latest source element not sampled
   yet: the element x emitted at t was delivered by the source at some tx, the tick (the
   sampler's on_next or on_completed) is at t, and between the two the source delivered no other
   element and the sampler did not notify (x had not been sampled, and is the latest) *)
Theorem sample_emits_latest_unsampled : forall (ins : list tin) t x,
  In (t, Next x) (smp_spec true true false None ins) ->
  exists pre tx mid e rest,
    heard true true ins = pre ++ (tx, 0%nat, Next x) :: mid ++ (t, 1%nat, e) :: rest /\
    is_tick e /\ no_src_next mid /\ no_sampler mid.
Proof.
  intros ins t x Hin. destruct (smp_in_next ins true true false None t x Hin) as [[E _]|H]; [discriminate E|exact H].
Qed.

(* the same about the machine, for every interleaving of the two ports *)
Theorem sample_machine_emits_latest_unsampled : forall t0 (ins : list tin) t x,
  In (t, Next x) (timed_emits t0 (simulate x_sample_observable t0 (ext2_of ins))) ->
  exists pre tx mid e rest,
    heard true true ins = pre ++ (tx, 0%nat, Next x) :: mid ++ (t, 1%nat, e) :: rest /\
    is_tick e /\ no_src_next mid /\ no_sampler mid.
Proof. intros t0 ins t x. rewrite (sample_observable_spec t0 ins). apply sample_emits_latest_unsampled. Qed.

(* [heard] changes nothing on a timeline in which no port notifies after its terminal
   notification and only ports 0 and 1 occur *)
Definition port_conforming (ins : list tin) : Prop :=
  forall pre t k e rest, ins = pre ++ (t, k, e) :: rest ->
    (k = 0 \/ k = 1)%nat /\ (is_terminal e = true -> forall t' e', ~ In (t', k, e') rest).

Lemma heard_conforming_gen : forall (ins : list tin) l0 l1,
  (forall pre t k e rest, ins = pre ++ (t, k, e) :: rest ->
     (k = 0 \/ k = 1)%nat /\ (is_terminal e = true -> forall t' e', ~ In (t', k, e') rest)) ->
  (l0 = false -> forall t e, ~ In (t, 0%nat, e) ins) -> (l1 = false -> forall t e, ~ In (t, 1%nat, e) ins) ->
  heard l0 l1 ins = ins.
Proof.
  induction ins as [|[[t k] e] rest IH]; intros l0 l1 Hc H0 H1; [reflexivity|].
  destruct (Hc [] t k e rest eq_refl) as [Hk Ht].
  assert (Hc' : forall pre t k e rest0, rest = pre ++ (t, k, e) :: rest0 ->
     (k = 0 \/ k = 1)%nat /\ (is_terminal e = true -> forall t' e', ~ In (t', k, e') rest0)).
  { intros pre t1 k1 e1 r1 E. apply (Hc ((t, k, e) :: pre) t1 k1 e1 r1). rewrite E. reflexivity. }
  cbn [heard]. destruct Hk as [-> | ->].
  - destruct l0; [|exfalso; apply (H0 eq_refl t e); left; reflexivity].
    f_equal. apply IH; [exact Hc'| |].
    + intros Hn t1 e1. apply Ht. destruct (is_terminal e); [reflexivity|discriminate Hn].
    + intros Hn t1 e1 Hi. apply (H1 Hn t1 e1). right. exact Hi.
  - destruct l1; [|exfalso; apply (H1 eq_refl t e); left; reflexivity].
    f_equal. apply IH; [exact Hc'| |].
    + intros Hn t1 e1 Hi. apply (H0 Hn t1 e1). right. exact Hi.
    + intros Hn t1 e1. apply Ht. destruct (is_terminal e); [reflexivity|discriminate Hn].
Qed.

Lemma heard_conforming (ins : list tin) : port_conforming ins -> heard true true ins = ins.
Proof. intros H. apply heard_conforming_gen; [exact H|discriminate|discriminate]. Qed.

Corollary sample_emits_latest_unsampled_own : forall t0 (ins : list tin) t x,
  heard true true ins = ins ->
  In (t, Next x) (timed_emits t0 (simulate x_sample_observable t0 (ext2_of ins))) ->
  exists pre tx mid e rest,
    ins = pre ++ (tx, 0%nat, Next x) :: mid ++ (t, 1%nat, e) :: rest /\
    is_tick e /\ no_src_next mid /\ no_sampler mid.
Proof.
  intros t0 ins t x Hc Hin.
  pose proof (sample_machine_emits_latest_unsampled t0 ins t x Hin) as H.
  rewrite Hc in H. exact H.
Qed.

Corollary sample_emits_latest_unsampled_conforming : forall t0 (ins : list tin) t x,
  port_conforming ins ->
  In (t, Next x) (timed_emits t0 (simulate x_sample_observable t0 (ext2_of ins))) ->
  exists pre tx mid e rest,
    ins = pre ++ (tx, 0%nat, Next x) :: mid ++ (t, 1%nat, e) :: rest /\
    is_tick e /\ no_src_next mid /\ no_sampler mid.
Proof. intros t0 ins t x Hc. apply sample_emits_latest_unsampled_own, heard_conforming, Hc. Qed.
End SampleReading.
