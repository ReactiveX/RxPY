(* C19: partition -- run-level theorem for ANY number of simultaneous
   subscriptions of the same output (operators/_partition.py as modelled in
   Ops/Groups.v: ONE published Subject, ref_count, one filter per subscription).

   For a total predicate and EVERY input sequence (subscriptions and disposals
   of either output, in any number and at any time, interleaved with the
   source's notifications, conforming or not), the notifications observed on
   output g are those of a small counting specification [pv_view]:
     - an element of g's side of the predicate is delivered once per
       subscription of g that is live when the source emits it -- every
       subscription gets its own copy, from ITS subscription point on (the
       published source is shared and hot: what was emitted before a
       subscription is not replayed to it), until it is disposed;
     - elements of the other side are not delivered on g at all;
     - the source's terminal is delivered once per live subscription of g; a
       subscription made after it gets the terminal at once;
     - while no output has a subscription the source is not connected and what it
       emits is lost.
   (The model does not name the individual subscriptions of an output: a
   disposal of output g removes one of them, and the trace records one
   notification per live subscription.) *)
From RxVerif Require Import Base.Prelude Ops.Machine Ops.MultiFacts Ops.MultiWin Ops.MultiWinFacts Ops.Groups
  Ops.GroupFacts Ops.WindowCountFacts Ops.PartitionRunFacts.

Local Arguments Multi.mem : simpl never.
Local Arguments Multi.remove : simpl never.

Record pv_st (A : Type) := PvSt { pv_cnt : nat -> nat; pv_tot : nat; pv_stopped : option (ev A) }.
Arguments PvSt {A}. Arguments pv_cnt {A}. Arguments pv_tot {A}. Arguments pv_stopped {A}.

Section Spec.
Context {A : Type}.
Variable pf : A -> bool.

(* [pv_cnt s j] = live subscriptions of output j, [pv_tot s] = live subscriptions of both outputs *)
Definition pv_step (g : nat) (s : pv_st A) (i : inp A) : pv_st A * list (ev A) :=
  match i with
  | ISubWin j =>
      match pv_stopped s with
      | Some t => (s, if Nat.eqb g j then [t] else [])
      | None => (PvSt (fun h => if Nat.eqb h j then S (pv_cnt s h) else pv_cnt s h) (S (pv_tot s)) None, [])
      end
  | IUnsubWin j =>
      match pv_cnt s j with
      | O => (s, [])
      | S _ => (PvSt (fun h => if Nat.eqb h j then Nat.pred (pv_cnt s h) else pv_cnt s h) (Nat.pred (pv_tot s))
                     (pv_stopped s), [])
      end
  | ISrc O e =>
      match pv_tot s, pv_stopped s with
      | S _, None =>
          match e with
          | Next x => (s, if side pf g x then repeat (Next x) (pv_cnt s g) else [])
          | _ => (PvSt (fun _ => 0%nat) 0 (Some e), repeat e (pv_cnt s g))
          end
      | _, _ => (s, [])
      end
  | _ => (s, [])
  end.

Fixpoint pv_run (g : nat) (s : pv_st A) (ins : list (Z * inp A)) : list (ev A) :=
  match ins with
  | [] => []
  | (_, i) :: rest => snd (pv_step g s i) ++ pv_run g (fst (pv_step g s i)) rest
  end.

Definition pv_init : pv_st A := PvSt (fun _ => 0%nat) 0 None.
(* what output g shows during the input sequence [ins] *)
Definition pv_view (g : nat) (ins : list (Z * inp A)) : list (ev A) := pv_run g pv_init ins.
End Spec.

Lemma mem_count j (l : list nat) : mem j l = match count_of j l with O => false | S _ => true end.
Proof.
  unfold Multi.mem, count_of. induction l as [|x t IH]; [reflexivity|]. cbn [existsb filter].
  destruct (Nat.eqb j x); [reflexivity|exact IH].
Qed.

Lemma count_of_remove h j (l : list nat) : mem j l = true ->
  count_of h (remove j l) = if Nat.eqb h j then Nat.pred (count_of h l) else count_of h l.
Proof.
  unfold Multi.mem, count_of. induction l as [|x t IH]; [discriminate|]. rewrite remove_cons. cbn [existsb filter].
  destruct (Nat.eqb_spec j x) as [->|Hne].
  - intros _. destruct (Nat.eqb h x); reflexivity.
  - cbn [orb]. intros Hm. cbn [filter]. specialize (IH Hm).
    destruct (Nat.eqb_spec h x) as [->|Hx].
    + destruct (Nat.eqb_spec x j); [congruence|]. cbn [length]. rewrite IH. reflexivity.
    + exact IH.
Qed.

Section Refine.
Context {A : Type}.
Variable pf : A -> bool.
Notation tp := (tpred pf).

Record pv_rel (s : pt_st (A:=A)) (v : pv_st A) : Prop := {
  pr_cnt : forall j, pv_cnt v j = count_of j (pt_subs s);
  pr_tot : pv_tot v = length (pt_subs s);
  pr_stop : pv_stopped v = pt_stopped s;
  pr_inv : pt_inv s }.

Lemma pv_refine_step g s v i : pv_rel s v ->
  pv_rel (fst (pt_step tp s i)) (fst (pv_step pf g v i))
  /\ wobs g (snd (pt_step tp s i)) = snd (pv_step pf g v i).
Proof.
  intros HR. pose proof HR as HR0. pose proof (pt_step_inv tp s i (pr_inv _ _ HR)) as Hinv'.
  destruct HR as [Hc Ht Hs [Hi1 Hi2]].
  destruct i as [[|k] e|tag| |j|j]; try (split; [exact HR0|reflexivity]).
  - (* a notification of the source *)
    assert (Hnc : pt_conn s = false -> pt_subs s = []).
    { intros Ec. destruct (pt_subs s) eqn:E; [reflexivity|].
      assert (HH : pt_conn s = true) by (apply Hi1; discriminate). congruence. }
    destruct (pt_conn s) eqn:Ec;
      [|(* nobody subscribed: not connected *)
        cbn [pt_step pv_step]; rewrite Ec, Ht, (Hnc eq_refl); split; [exact HR0|reflexivity]].
    assert (El : exists n, pv_tot v = S n).
    { rewrite Ht. destruct (pt_subs s); [exfalso; apply (proj1 Hi1); reflexivity|eexists; reflexivity]. }
    destruct El as [n El].
    assert (Est : pt_stopped s = None).
    { destruct (pt_stopped s) eqn:E; [|reflexivity]. rewrite Hi2 in Ht by discriminate. rewrite Ht in El. discriminate. }
    destruct (is_terminal e) eqn:He.
    + (* a terminal: once per live subscription of g; nobody is left *)
      rewrite (pt_step_terminal_wobs tp s g e He Ec Est), (pt_step_terminal tp s e He Ec Est).
      cbn [pv_step]. rewrite El, Hs, Est, Hc.
      destruct e as [x|z|]; [discriminate| |]; (split; [|reflexivity]); constructor; cbn; auto; apply pt_inv_empty.
    + destruct e as [x|z|]; try discriminate. cbn [pt_step pv_step]. rewrite Ec, Est, El, Hs, Est.
      rewrite (partition_deliver tp x (pf x) eq_refl). cbn [fst snd]. split.
      * assert (E : PtSt (pt_subs s) true None = s) by (destruct s; cbn in *; congruence).
        rewrite E. exact HR0.
      * rewrite wobs_map_side, count_of_filter_side, Hc. unfold side. destruct (goes_to (pf x) g); reflexivity.
  - (* a new subscription of output j *)
    cbn [pt_step pv_step] in *. rewrite Hs. destruct (pt_stopped s) as [t|] eqn:Est.
    + (* the stopped subject answers with its terminal; nothing changes *)
      destruct (match pt_subs s with [] => true | _ => false end && negb (pt_conn s));
        (split; [exact HR0|cbn [snd wobs flat_map]; rewrite ?app_nil_r; reflexivity]).
    + destruct (match pt_subs s with [] => true | _ => false end && negb (pt_conn s)); cbn [fst snd] in *;
        (split; [|reflexivity]); constructor; cbn [pt_subs pt_stopped pv_cnt pv_tot pv_stopped]; auto;
        try (intros h; rewrite count_of_snoc, Hc; destruct (Nat.eqb h j); lia); rewrite app_length, Ht; cbn [length]; lia.
  - (* a subscription of output j is disposed *)
    cbn [pt_step pv_step] in *. rewrite Hc, (mem_count j (pt_subs s)).
    destruct (count_of j (pt_subs s)) as [|n] eqn:En.
    + split; [exact HR0|reflexivity].
    + assert (Hm : mem j (pt_subs s) = true) by (rewrite mem_count, En; reflexivity).
      rewrite mem_count, En in Hinv'.
      pose proof (wobs_leave (A:=A) g (remove j (pt_subs s)) (pt_conn s)) as HL.
      destruct (pt_leave (A:=A) (remove j (pt_subs s)) (pt_conn s)) as [c1 o1]. cbn [fst snd] in *.
      split; [|exact HL]. constructor; cbn [pt_subs pt_stopped pv_cnt pv_tot pv_stopped]; auto.
      * intros h. rewrite (count_of_remove h j _ Hm), Hc. reflexivity.
      * rewrite (length_remove j _ Hm), Ht. reflexivity.
Qed.

Lemma pv_refine_run g ins : forall s v k, pv_rel s v ->
  wevents g (pt_run_from tp s k ins) = pv_run pf g v ins.
Proof.
  induction ins as [|[now i] rest IH]; intros s v k HR; [reflexivity|]. cbn [pt_run_from pv_run].
  destruct (pv_refine_step g s v i HR) as [HR' Ho].
  destruct (pt_step tp s i) as [s' o]. cbn [fst snd] in *.
  rewrite wevents_app, wevents_tag, Ho, (IH s' _ (S k) HR'). reflexivity.
Qed.

(* THEOREM (C19, partition with any number of subscriptions per output): for every input sequence,
   output g shows exactly what the counting specification says *)
Theorem partition_refines_counting_spec g (ins : list (Z * inp A)) :
  wevents g (pt_run tp ins) = pv_view pf g ins.
Proof.
  apply pv_refine_run. constructor; cbn; auto. apply pt_inv_empty.
Qed.

(* two subscriptions of the SAME output, the second one made after the prefix xs1 of the source: the
   first gets g's side of xs1 ++ xs2, the second g's side of xs2 only (no replay), both the terminal *)
Theorem partition_same_output_twice g (xs1 xs2 : list A) tm :
  wevents g (pt_run tp ((0, ISubWin g) :: src_events xs1 TNever ++ (0, ISubWin g) :: src_events xs2 tm))
  = map Next (filter (side pf g) xs1)
    ++ flat_map (fun x => [Next x; Next x]) (filter (side pf g) xs2)
    ++ flat_map (fun e => [e; e]) (term_ev tm).
Proof.
  unfold pt_run. cbn [pt_run_from pt_step pt_subs pt_conn pt_stopped andb negb app map].
  unfold src_events at 1. cbn [term_ev map]. rewrite app_nil_r.
  rewrite wevents_cons. cbn [wobs flat_map app].
  rewrite pt_elements.
  cbn [pt_run_from pt_step pt_subs pt_conn pt_stopped andb negb app map].
  rewrite partition_from_connected_n.
  assert (E1 : count_of g [g] = 1%nat) by (unfold count_of; cbn [filter]; now rewrite Nat.eqb_refl).
  assert (E2 : count_of g [g; g] = 2%nat) by (unfold count_of; cbn [filter]; now rewrite Nat.eqb_refl).
  rewrite E1, E2. cbn [repeat]. now rewrite flat_map_single.
Qed.
End Refine.
