(* sequence_equal(observable): the two-queue machine of Ops/SeqEqual.v against a
   specification stated on the two HISTORIES (everything each source has
   delivered so far), for EVERY interleaved input sequence. *)
From RxVerif Require Import Base.Prelude Ops.Machine Ops.MachineFacts Ops.Multi Ops.MultiFacts
  Ops.RunLemmas Ops.SeqEqual.

Section SeqEqualFacts.
Context {A : Type}.
Variable eqb : A -> A -> bool.
Hypothesis eqb_sym : forall a b, eqb a b = eqb b a.

(* the elements present on both sides so far are pairwise equal *)
Definition agree (L R : list A) : bool := forallb (fun ab => eqb (fst ab) (snd ab)) (combine L R).

(* what two histories decide: L / R = elements delivered so far by the first / second
   source, dl / dr = that source has completed *)
Definition se_decide (L R : list A) (dl dr : bool) : option bool :=
  if negb (agree L R) then Some false
  else if dl && Nat.ltb (length L) (length R) then Some false
  else if dr && Nat.ltb (length R) (length L) then Some false
  else if dl && dr then Some true
  else None.

Definition se_answer (pos : nat) (b : bool) : list (nat * ev bool) := [(pos, Next b); (pos, Done)].

(* SPEC: after every notification of a still-subscribed source the answer is looked up
   from the histories; the first answer is emitted (with completion) at that position;
   an error of either source passes through; l0 / l1 = the source is still subscribed *)
Fixpoint se_spec (L R : list A) (l0 l1 : bool) (pos : nat) (ins : list (Z * inp A)) : list (nat * ev bool) :=
  match ins with
  | [] => []
  | (_, ISrc O e) :: t =>
      if l0 then
        match e with
        | Next x => match se_decide (L ++ [x]) R false (negb l1) with
                    | Some b => se_answer pos b
                    | None => se_spec (L ++ [x]) R l0 l1 (S pos) t
                    end
        | Err err => [(pos, Err err)]
        | Done => match se_decide L R true (negb l1) with
                  | Some b => se_answer pos b
                  | None => se_spec L R false l1 (S pos) t
                  end
        end
      else se_spec L R l0 l1 (S pos) t
  | (_, ISrc (S O) e) :: t =>
      if l1 then
        match e with
        | Next x => match se_decide L (R ++ [x]) (negb l0) false with
                    | Some b => se_answer pos b
                    | None => se_spec L (R ++ [x]) l0 l1 (S pos) t
                    end
        | Err err => [(pos, Err err)]
        | Done => match se_decide L R (negb l0) true with
                  | Some b => se_answer pos b
                  | None => se_spec L R l0 false (S pos) t
                  end
        end
      else se_spec L R l0 l1 (S pos) t
  | (_, ISrc _ _) :: t => se_spec L R l0 l1 (S pos) t
  | (_, ITick _) :: t => se_spec L R l0 l1 (S pos) t
  | (_, IDispose) :: _ => []
  end.

Lemma agree_app (P1 P2 a b : list A) : length P1 = length P2 ->
  agree (P1 ++ a) (P2 ++ b) = agree P1 P2 && agree a b.
Proof.
  unfold agree. revert P2. induction P1 as [|x P1 IH]; intros [|y P2] H; try discriminate; [reflexivity|].
  cbn [app combine forallb fst snd]. rewrite IH by (cbn in H; lia). now rewrite andb_assoc.
Qed.
Lemma agree_nil_l (R : list A) : agree [] R = true.
Proof. reflexivity. Qed.
Lemma agree_nil_r (L : list A) : agree L [] = true.
Proof. unfold agree. destruct L; reflexivity. Qed.

Section Boundary.
Context {X Y : Type} (m : machine X Y).

Lemma rstep_src_quiet s s' r now k e :
  r_stopped r = false -> mem k (r_live r) = true -> x_step m s now (ISrc k e) = (s', [], Cont) ->
  rstep m s r now (ISrc k e)
  = if is_terminal e then (s', RState (remove k (r_live r)) (r_timers r) (r_stopped r), [OUnsub k])
    else (s', r, []).
Proof.
  intros Hst Hk Hx. rewrite rstep_handled_eq by (auto; left; exact Hk). unfold handled_step. rewrite Hx.
  cbn [fst snd apply_cmds auto_detach]. rewrite Hk. destruct (is_terminal e); reflexivity.
Qed.
End Boundary.

Definition se_live (l0 l1 : bool) : list nat :=
  (if l0 then [0%nat] else []) ++ (if l1 then [1%nat] else []).

Notation M := (x_sequence_equal (pure2 eqb)).
Notation state := (list A * list A * bool * bool)%type.

(* the histories are a common prefix of pairwise equal elements followed by what is queued; only one queue
   is non-empty, and a source that has completed leaves nothing of the other source waiting for it *)
Definition se_inv (L R : list A) (l0 l1 : bool) (s : state) : Prop :=
  let '(ql, qr, donel, doner) := s in
  donel = negb l0 /\ doner = negb l1
  /\ (exists P1 P2, L = P1 ++ ql /\ R = P2 ++ qr /\ length P1 = length P2 /\ agree P1 P2 = true)
  /\ (ql = [] \/ qr = []) /\ (l0 = false -> qr = []) /\ (l1 = false -> ql = []).

Lemma ltb_add_l n a b : Nat.ltb (n + a) (n + b) = Nat.ltb a b.
Proof. destruct (Nat.ltb_spec (n + a) (n + b)), (Nat.ltb_spec a b); try reflexivity; lia. Qed.

Lemma decide_cancel (P1 P2 a b : list A) dl dr :
  length P1 = length P2 -> agree P1 P2 = true ->
  se_decide (P1 ++ a) (P2 ++ b) dl dr = se_decide a b dl dr.
Proof.
  intros Hl Ha. unfold se_decide. rewrite agree_app, Ha by exact Hl. cbn [andb].
  rewrite !app_length, Hl, !ltb_add_l. reflexivity.
Qed.
Lemma decide_r_nil (a : list A) dl dr :
  se_decide a [] dl dr = if dr && Nat.ltb 0 (length a) then Some false else if dl && dr then Some true else None.
Proof.
  unfold se_decide. rewrite agree_nil_r. cbn [negb length].
  replace (Nat.ltb (length a) 0) with false by (destruct (length a); reflexivity).
  now rewrite andb_false_r.
Qed.

(* the second source is the first one of the swapped state: its cases ([second_next], [second_done]) follow from the
   first's through [reacts_swap] *)
Definition sw (s : state) : state := let '(ql, qr, donel, doner) := s in (qr, ql, doner, donel).

Lemma agree_sym (L R : list A) : agree L R = agree R L.
Proof.
  unfold agree. revert R. induction L as [|a L IH]; intros [|b R]; try reflexivity.
  cbn [combine forallb fst snd]. now rewrite IH, eqb_sym.
Qed.

Lemma decide_swap (L R : list A) dl dr : se_decide L R dl dr = se_decide R L dr dl.
Proof.
  unfold se_decide. rewrite (agree_sym R L).
  destruct (agree L R), dl, dr, (Nat.ltb (length L) (length R)), (Nat.ltb (length R) (length L)); reflexivity.
Qed.

Lemma se_inv_swap L R l0 l1 s : se_inv L R l0 l1 s -> se_inv R L l1 l0 (sw s).
Proof.
  destruct s as [[[ql qr] donel] doner]. intros (H1 & H2 & (P1 & P2 & HL & HR & Hlen & Hag) & Hone & Hl & Hr).
  repeat split; auto; [|tauto]. exists P2, P1. now rewrite agree_sym.
Qed.

Lemma x_step_swap (s : state) now e :
  x_step M (sw s) now (ISrc 1%nat e)
  = (sw (fst (fst (x_step M s now (ISrc 0%nat e)))), snd (fst (x_step M s now (ISrc 0%nat e))),
     snd (x_step M s now (ISrc 0%nat e))).
Proof.
  destruct s as [[[ql qr] donel] doner], e as [x|err|]; cbn.
  - destruct qr as [|v t]; [destruct doner; reflexivity|]. unfold pure2. destruct (eqb v x); reflexivity.
  - reflexivity.
  - destruct ql, qr, doner; reflexivity.
Qed.

(* one notification of a live source: what the histories decide is what the handler does.  An answer is
   emitted with completion; no answer means no command, and the invariant [I'] of the longer histories for
   the new state *)
Definition reacts (s : state) now (i : inp A) (d : option bool) (I' : state -> Prop) : Prop :=
  match d with
  | Some b => exists s', x_step M s now i = (s', [CEmit b], Complete)
  | None => exists s', x_step M s now i = (s', [], Cont) /\ I' s'
  end.

Lemma reacts_swap s now e d (I I' : state -> Prop) : (forall s', I s' -> I' (sw s')) ->
  reacts (sw s) now (ISrc 0%nat e) d I -> reacts s now (ISrc 1%nat e) d I'.
Proof.
  intros HI. destruct s as [[[ql qr] donel] doner]. unfold reacts.
  change (x_step M (ql, qr, donel, doner)) with (x_step M (sw (qr, ql, doner, donel))).
  rewrite x_step_swap. cbn [sw]. destruct d; intros [s' H]; exists (sw s').
  - now rewrite H.
  - destruct H as [H Hs']. rewrite H. auto.
Qed.

Lemma first_next L R l1 s now x : se_inv L R true l1 s ->
  reacts s now (ISrc 0%nat (Next x)) (se_decide (L ++ [x]) R false (negb l1)) (se_inv (L ++ [x]) R true l1).
Proof.
  destruct s as [[[ql qr] donel] doner].
  intros (-> & -> & (P1 & P2 & -> & -> & Hlen & Hag) & Hone & _ & Hr).
  rewrite <- app_assoc, decide_cancel by assumption. destruct qr as [|v t].
  - rewrite decide_r_nil, app_length, Nat.add_1_r. cbn [Nat.ltb Nat.leb andb]. rewrite andb_true_r.
    destruct l1; cbn [negb reacts]; [|eexists; reflexivity].
    eexists. split; [reflexivity|]. repeat split; auto; try discriminate. exists P1, P2. now rewrite app_assoc.
  - assert (ql = []) as -> by (destruct Hone; [assumption|discriminate]).
    unfold se_decide, agree. cbn [app combine forallb fst snd length]. rewrite (eqb_sym x v), !andb_false_r, andb_true_r.
    assert (Hx : x_step M ([], v :: t, negb true, negb l1) now (ISrc 0%nat (Next x))
                 = if eqb v x then (([], t, false, negb l1), [], Cont)
                   else (([], t, false, negb l1), [CEmit false], Complete))
      by (cbn; unfold pure2; destruct (eqb v x); reflexivity).
    destruct (eqb v x) eqn:E; cbn [negb reacts]; [|eexists; exact Hx].
    eexists. split; [exact Hx|]. repeat split; auto; try discriminate.
    exists (P1 ++ [x]), (P2 ++ [v]). rewrite <- !app_assoc, !app_length, Hlen, agree_app, Hag by assumption.
    repeat split. unfold agree. cbn. now rewrite eqb_sym, E.
Qed.

Lemma first_done L R l1 s now : se_inv L R true l1 s ->
  reacts s now (ISrc 0%nat Done) (se_decide L R true (negb l1)) (se_inv L R false l1).
Proof.
  destruct s as [[[ql qr] donel] doner].
  intros (-> & -> & (P1 & P2 & -> & -> & Hlen & Hag) & Hone & _ & Hr).
  rewrite decide_cancel by assumption. destruct ql as [|a ql'].
  - rewrite decide_swap, decide_r_nil. destruct qr as [|v t]; cbn [length Nat.ltb Nat.leb andb].
    + destruct l1; cbn [negb reacts]; [|eexists; reflexivity].
      eexists. split; [reflexivity|]. repeat split; auto. exists P1, P2. auto.
    + eexists. reflexivity.
  - assert (qr = []) as -> by (destruct Hone; [discriminate|assumption]).
    assert (l1 = true) as -> by (destruct l1; [reflexivity|discriminate (Hr eq_refl)]).
    rewrite decide_r_nil. cbn [negb andb reacts].
    eexists. split; [reflexivity|]. repeat split; auto; try discriminate. exists P1, P2. auto.
Qed.

Lemma second_next L R l0 s now x : se_inv L R l0 true s ->
  reacts s now (ISrc 1%nat (Next x)) (se_decide L (R ++ [x]) (negb l0) false) (se_inv L (R ++ [x]) l0 true).
Proof.
  intros Inv. rewrite decide_swap.
  exact (reacts_swap _ _ _ _ _ _ (se_inv_swap _ _ _ _) (first_next _ _ _ _ now x (se_inv_swap _ _ _ _ _ Inv))).
Qed.

Lemma second_done L R l0 s now : se_inv L R l0 true s ->
  reacts s now (ISrc 1%nat Done) (se_decide L R (negb l0) true) (se_inv L R l0 false).
Proof.
  intros Inv. rewrite decide_swap.
  exact (reacts_swap _ _ _ _ _ _ (se_inv_swap _ _ _ _) (first_done _ _ _ _ now (se_inv_swap _ _ _ _ _ Inv))).
Qed.

Lemma run_reacts s l0 l1 l0' l1' pos now k e rest d (I' : state -> Prop) spec_rest :
  mem k (se_live l0 l1) = true ->
  (if is_terminal e then remove k (se_live l0 l1) else se_live l0 l1) = se_live l0' l1' ->
  reacts s now (ISrc k e) d I' ->
  (forall s', I' s' ->
     temitted (fst (run_from M s' (RState (se_live l0' l1') [] false) (S pos) rest)) = spec_rest) ->
  temitted (fst (run_from M s (RState (se_live l0 l1) [] false) pos ((now, ISrc k e) :: rest)))
  = match d with Some b => se_answer pos b | None => spec_rest end.
Proof.
  intros Hk Hlive Hr Hrest. destruct d as [b|]; cbn [reacts] in Hr.
  - destruct Hr as [s' Hx]. rewrite temitted_run_fin; rewrite ?Hx; [reflexivity| |exact Hk|discriminate]. reflexivity.
  - destruct Hr as [s' [Hx HI]]. rewrite temitted_run_cons, (rstep_src_quiet M s s') by (exact Hk || exact Hx || reflexivity).
    destruct (is_terminal e); cbn [fst snd map r_live r_timers r_stopped]; rewrite Hlive; now apply Hrest.
Qed.

Lemma seq_equal_from (ins : list (Z * inp A)) : forall L R l0 l1 s pos,
  se_inv L R l0 l1 s ->
  temitted (fst (run_from M s (RState (se_live l0 l1) [] false) pos ins))
  = se_spec L R l0 l1 pos ins.
Proof.
  induction ins as [|[now i] rest IH]; intros L R l0 l1 s pos Inv; [reflexivity|].
  assert (Drop : forall k e, mem k (se_live l0 l1) = false ->
            temitted (fst (run_from M s (RState (se_live l0 l1) [] false) pos ((now, ISrc k e) :: rest)))
            = se_spec L R l0 l1 (S pos) rest).
  { intros k e Hk. rewrite temitted_run_cons, temitted_dropped by (exact Hk || discriminate). now apply IH. }
  assert (mem1 : forall b, mem 1 (se_live b true) = true) by (now intros []).
  assert (rem1 : forall b, remove 1 (se_live b true) = se_live b false) by (now intros []).
  destruct i as [[|[|k]] e|tag|]; cbn [se_spec].
  - (* the first source *)
    destruct l0; [|apply Drop; now destruct l1].
    destruct e as [x|err|].
    + apply (run_reacts s true l1 true l1 pos now 0%nat (Next x) rest _ _ _ eq_refl eq_refl (first_next L R l1 s now x Inv)).
      intros s' HI. now apply IH.
    + destruct s as [[[ql qr] donel] doner]. now rewrite temitted_run_fin.
    + apply (run_reacts s true l1 false l1 pos now 0%nat Done rest _ _ _ eq_refl eq_refl (first_done L R l1 s now Inv)).
      intros s' HI. now apply IH.
  - (* the second source: the first one of the swapped state *)
    destruct l1; [|apply Drop; now destruct l0].
    destruct e as [x|err|].
    + apply (run_reacts s l0 true l0 true pos now 1%nat (Next x) rest _ _ _ (mem1 l0) eq_refl (second_next L R l0 s now x Inv)).
      intros s' HI. now apply IH.
    + destruct s as [[[ql qr] donel] doner]. rewrite temitted_run_fin; [reflexivity|reflexivity|apply mem1|discriminate].
    + apply (run_reacts s l0 true l0 false pos now 1%nat Done rest _ _ _ (mem1 l0) (rem1 l0) (second_done L R l0 s now Inv)).
      intros s' HI. now apply IH.
  - apply Drop. now destruct l0, l1.
  - rewrite temitted_run_cons, temitted_dropped by (reflexivity || discriminate). now apply IH.
  - rewrite temitted_run_cons. apply temitted_dispose.
Qed.

(* for EVERY interleaving of the two sources' notifications (well-formed or not, with
   dispose, with notifications of sources that are no longer subscribed) *)
Theorem sequence_equal_refines_spec (ins : list (Z * inp A)) :
  temitted (fst (run M ins)) = se_spec [] [] true true 1 ins.
Proof.
  rewrite run_unfold. cbn [fst]. rewrite temitted_app.
  unfold start_state, start_obs. cbn -[run_from se_spec temitted].
  change (RState [0%nat; 1%nat] [] false) with (RState (se_live true true) [] false).
  rewrite (seq_equal_from ins [] [] true true ([], [], false, false) 1); [reflexivity|].
  repeat split; auto; try discriminate. exists [], []. auto.
Qed.

Lemma agree_length_Forall2 (L R : list A) :
  agree L R = true /\ length L = length R <-> Forall2 (fun a b => eqb a b = true) L R.
Proof.
  revert R. induction L as [|a L IH]; intros [|b R]; cbn.
  - split; [constructor|auto].
  - split; [intros [_ H]; discriminate|intros H; inversion H].
  - split; [intros [_ H]; discriminate|intros H; inversion H].
  - unfold agree in *. cbn [combine forallb fst snd]. split.
    + intros [H1 H2]. apply andb_true_iff in H1. destruct H1 as [H1 H3].
      constructor; [exact H1|]. apply IH. split; [exact H3|lia].
    + intros H. inversion H as [|? ? ? ? Hab Hrest]; subst. apply IH in Hrest. destruct Hrest as [H1 H2].
      rewrite Hab, H1. split; [reflexivity|lia].
Qed.

(* the answer true is given exactly when both sides are complete, equally long and pairwise equal *)
Theorem se_decide_true_iff (L R : list A) dl dr :
  se_decide L R dl dr = Some true
  <-> dl = true /\ dr = true /\ Forall2 (fun a b => eqb a b = true) L R.
Proof.
  rewrite <- agree_length_Forall2. unfold se_decide.
  destruct (agree L R); cbn [negb].
  - destruct dl, dr; cbn [andb];
      destruct (Nat.ltb_spec (length L) (length R)), (Nat.ltb_spec (length R) (length L));
      split; try discriminate; try (intros (? & ? & ? & ?); (discriminate || lia));
      intros _; repeat split; lia.
  - split; [discriminate|]. intros (_ & _ & H & _). discriminate.
Qed.

(* the answer false needs a reason: a differing pair, or a complete side that is shorter *)
Theorem se_decide_false_iff (L R : list A) dl dr :
  se_decide L R dl dr = Some false
  <-> agree L R = false
      \/ (dl = true /\ (length L < length R)%nat)
      \/ (dr = true /\ (length R < length L)%nat).
Proof.
  unfold se_decide. destruct (agree L R); cbn [negb].
  - destruct dl, dr; cbn [andb];
      destruct (Nat.ltb_spec (length L) (length R)), (Nat.ltb_spec (length R) (length L));
      (split; [intros HH; try discriminate;
                 first [right; left; split; [reflexivity|lia] | right; right; split; [reflexivity|lia]]
              |intros [HH|[[HH1 HH2]|[HH1 HH2]]]; first [reflexivity | discriminate | lia]]).
  - split; auto.
Qed.
End SeqEqualFacts.
