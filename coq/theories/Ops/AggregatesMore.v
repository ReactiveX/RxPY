(* C06: to_set, sequence_equal against an iterable, average with a key selector, extrema. *)
From RxVerif Require Import Base.Prelude Ops.Machine Ops.MachineFacts Ops.ComposeFacts Ops.Elementwise
  Ops.ElementwiseFacts Ops.Aggregates Ops.AggregatesFacts.

Section More.
Context {A : Type}.

(* to_set: first occurrences, in arrival order, emitted once at completion *)
Definition dedup_step (eqb : A -> A -> bool) (s : list A) (x : A) : list A :=
  if existsb (eqb x) s then s else s ++ [x].
Definition dedup (eqb : A -> A -> bool) (xs : list A) : list A := fold_left (dedup_step eqb) xs [].

Lemma to_set_from eqb (xs : list A) t s k :
  untag (exec_from (op_to_set eqb) s k (events xs t))
  = match t with TDone => [Next (fold_left (dedup_step eqb) xs s); Done] | TErr e => [Err e] | TNever => [] end.
Proof.
  unfold events. rewrite (collect_run (op_to_set eqb) (dedup_step eqb)) by reflexivity. destruct t; reflexivity.
Qed.

Lemma dedup_from_sound eqb (xs : list A) : forall s y,
  In y (fold_left (dedup_step eqb) xs s) -> In y s \/ In y xs.
Proof.
  induction xs as [|x r IH]; intros s y H; [left; exact H|].
  cbn [fold_left] in H. apply IH in H. destruct H as [H|H]; [|right; right; exact H].
  unfold dedup_step in H. destruct (existsb (eqb x) s); [left; exact H|].
  apply in_app_or in H. destruct H as [H|[<-|[]]]; [left; exact H|right; left; reflexivity].
Qed.

Theorem dedup_sound eqb (xs : list A) y : In y (dedup eqb xs) -> In y xs.
Proof. intros H. apply dedup_from_sound in H. destruct H as [[]|H]. exact H. Qed.

Lemma dedup_from_keeps eqb (xs : list A) : forall s y, In y s -> In y (fold_left (dedup_step eqb) xs s).
Proof.
  induction xs as [|x r IH]; intros s y H; [exact H|].
  cbn [fold_left]. apply IH. unfold dedup_step. destruct (existsb (eqb x) s); [exact H|].
  apply in_or_app. left. exact H.
Qed.

Theorem dedup_complete eqb (xs : list A) : (forall x, eqb x x = true) ->
  forall x, In x xs -> exists y, In y (dedup eqb xs) /\ eqb x y = true.
Proof.
  intros Hrefl. unfold dedup. generalize (@nil A).
  induction xs as [|a r IH]; intros s x Hin; [contradiction|].
  cbn [fold_left]. destruct Hin as [->|Hin]; [|apply IH; exact Hin].
  unfold dedup_step at 2. destruct (existsb (eqb x) s) eqn:E.
  - apply existsb_exists in E. destruct E as [y [Hy Hxy]].
    exists y. split; [apply dedup_from_keeps; exact Hy|exact Hxy].
  - exists x. split; [|apply Hrefl]. apply dedup_from_keeps. apply in_or_app. right. left. reflexivity.
Qed.

(* None: a mismatch decided the answer (false) early; Some q: undecided, q still expected *)
Fixpoint se_run (eqb : A -> A -> bool) (qr xs : list A) {struct xs} : option (list A) :=
  match xs with
  | [] => Some qr
  | x :: r => match qr with
              | v :: t => if eqb v x then se_run eqb t r else None
              | [] => None
              end
  end.

Theorem se_run_true_iff eqb (qr xs : list A) :
  se_run eqb qr xs = Some [] <-> Forall2 (fun v x => eqb v x = true) qr xs.
Proof.
  revert qr; induction xs as [|x r IH]; intros qr.
  - cbn [se_run]. split.
    + intros H. assert (qr = []) as -> by congruence. constructor.
    + intros H. inversion H. reflexivity.
  - destruct qr as [|v q]; cbn [se_run].
    + split; [discriminate|intros H; inversion H].
    + destruct (eqb v x) eqn:E.
      * rewrite IH. split.
        -- intros H. constructor; assumption.
        -- intros H. inversion H. assumption.
      * split; [discriminate|]. intros H. inversion H. congruence.
Qed.
End More.

Section Keyed.
Context {A : Type}.

(* average(key) as the exact pair (sum, count): emitted at completion; an empty
   source fails with "no elements" *)
Theorem average_pair_spec (key : A -> Z) (xs : list A) t :
  untag (exec (op_average_pair (pure key)) (events xs t))
  = match t with
    | TDone => match xs with
               | [] => [Err EXN_NO_ELEMENTS]
               | _ => [Next (fold_left (fun (s : Z * Z) x => (fst s + x, snd s + 1)) (map key xs) (0, 0)); Done]
               end
    | TErr e => [Err e]
    | TNever => []
    end.
Proof.
  unfold op_average_pair. rewrite !compose_exec, map_untag.
  change (fun (s : Z * Z) (x : Z) => Ok (fst s + x, snd s + 1))
    with (pure2 (fun (s : Z * Z) (x : Z) => (fst s + x, snd s + 1))).
  rewrite scan_seed_spec, last_spec. destruct t; try reflexivity.
  rewrite last_opt_scanl. destruct xs; reflexivity.
Qed.

Lemma average_fold (ys : list Z) : forall s c,
  fold_left (fun (p : Z * Z) x => (fst p + x, snd p + 1)) ys (s, c)
  = (s + fold_left Z.add ys 0, c + Z.of_nat (length ys)).
Proof.
  induction ys as [|y r IH]; intros s c.
  - cbn. f_equal; lia.
  - cbn [fold_left length fst snd]. rewrite IH.
    assert (H : forall a, fold_left Z.add r a = a + fold_left Z.add r 0).
    { clear. induction r as [|z r IH]; intros a; cbn; [lia|]. rewrite IH, (IH z). lia. }
    rewrite (H (0 + y)). f_equal; lia.
Qed.

End Keyed.

Section Extrema.
Context {A : Type}.
Variable key : A -> Z.
Variable cmp : Z -> Z -> res Z.
Variable rank : Z -> Z.
(* the comparer never raises and orders keys by [rank] (identity for max_by,
   negation for min_by) *)
Hypothesis cmp_ok : forall a b, exists c, cmp a b = Ok c
  /\ (c >? 0) = (rank a >? rank b) /\ (c >=? 0) = (rank a >=? rank b).

Definition ext_inv (seen : list A) (st : option Z * list A) : Prop :=
  match fst st with
  | None => seen = [] /\ snd st = []
  | Some lk => (forall y, In y seen -> rank (key y) <= rank lk)
               /\ (exists y, In y seen /\ rank (key y) = rank lk)
               /\ snd st = filter (fun y => rank (key y) =? rank lk) seen
  end.

Lemma filter_none (p : A -> bool) (l : list A) : (forall y, In y l -> p y = false) -> filter p l = [].
Proof.
  induction l as [|a l IH]; intros H; [reflexivity|]. cbn. rewrite (H a (or_introl eq_refl)).
  apply IH. intros y Hy. apply H. right. exact Hy.
Qed.

Lemma filter_same (p q : A -> bool) (l : list A) : (forall y, In y l -> p y = q y) -> filter p l = filter q l.
Proof.
  induction l as [|a l IH]; intros H; [reflexivity|]. cbn. rewrite (H a (or_introl eq_refl)).
  rewrite IH; [reflexivity|]. intros y Hy. apply H. right. exact Hy.
Qed.

Lemma extrema_from (xs : list A) t : forall seen st k, ext_inv seen st ->
  exists items,
    untag (exec_from (op_extrema_by (pure key) cmp) st k (events xs t))
    = match t with TDone => [Next items; Done] | TErr e => [Err e] | TNever => [] end
    /\ exists st', snd st' = items /\ ext_inv (seen ++ xs) st'.
Proof.
  induction xs as [|x r IH]; intros seen [last items] k Hinv.
  - exists items. split; [destruct t; reflexivity|]. exists (last, items). rewrite app_nil_r. auto.
  - rewrite events_cons, exec_from_cons. cbn -[exec_from untag pure].
    change (pure key x) with (Ok (key x)). cbn -[exec_from untag pure].
    destruct last as [lk|].
    + destruct Hinv as (Hle & (y0 & Hy0 & Hy0k) & Hit). cbn [fst snd] in *.
      destruct (cmp_ok (key x) lk) as (c & Hc & Hgt & Hge). rewrite Hc.
      cbn -[exec_from untag pure].
      replace (seen ++ x :: r) with ((seen ++ [x]) ++ r) by now rewrite <- app_assoc.
      apply IH. unfold ext_inv. cbn [fst snd].
      rewrite Hgt, Hge.
      destruct (rank (key x) >? rank lk) eqn:Egt.
      * (* strictly better: the collection restarts with x *)
        assert (Hlt : rank lk < rank (key x)) by lia.
        assert (Hge' : (rank (key x) >=? rank lk) = true) by lia. rewrite Hge'.
        split; [|split].
        -- intros y Hy. apply in_app_or in Hy. destruct Hy as [Hy|[<-|[]]]; [specialize (Hle y Hy)|]; lia.
        -- exists x. split; [apply in_or_app; right; left; reflexivity|reflexivity].
        -- rewrite filter_app. cbn [filter]. rewrite Z.eqb_refl.
           rewrite filter_none; [reflexivity|]. intros y Hy. specialize (Hle y Hy). lia.
      * destruct (rank (key x) >=? rank lk) eqn:Ege.
        -- (* equally good: appended *)
           assert (Heq : rank (key x) = rank lk) by lia.
           split; [|split].
           ++ intros y Hy. apply in_app_or in Hy. destruct Hy as [Hy|[<-|[]]]; [apply Hle; exact Hy|lia].
           ++ exists y0. split; [apply in_or_app; left; exact Hy0|exact Hy0k].
           ++ rewrite filter_app. cbn [filter]. rewrite Heq, Z.eqb_refl, Hit. reflexivity.
        -- (* worse: ignored *)
           assert (Hlt : rank (key x) < rank lk) by lia.
           split; [|split].
           ++ intros y Hy. apply in_app_or in Hy. destruct Hy as [Hy|[<-|[]]]; [apply Hle; exact Hy|lia].
           ++ exists y0. split; [apply in_or_app; left; exact Hy0|exact Hy0k].
           ++ rewrite filter_app. cbn [filter].
              assert (E : (rank (key x) =? rank lk) = false) by lia. rewrite E, app_nil_r. exact Hit.
    + destruct Hinv as [-> Hit]. cbn [fst snd] in *. subst items. cbn -[exec_from untag pure].
      apply (IH [x] (Some (key x), [x]) (S k)). unfold ext_inv. cbn [fst snd app].
      split; [|split].
      * intros y [<-|[]]. lia.
      * exists x. split; [left; reflexivity|reflexivity].
      * cbn [filter]. now rewrite Z.eqb_refl.
Qed.

(* the list emitted at completion: every element whose key is extremal, in arrival order *)
Theorem extrema_spec (xs : list A) t :
  exists items,
    untag (exec (op_extrema_by (pure key) cmp) (events xs t))
    = match t with TDone => [Next items; Done] | TErr e => [Err e] | TNever => [] end
    /\ match xs with
       | [] => items = []
       | _ => exists m, (forall y, In y xs -> rank (key y) <= m)
                        /\ (exists y, In y xs /\ rank (key y) = m)
                        /\ items = filter (fun y => rank (key y) =? m) xs
       end.
Proof.
  unfold exec. cbn -[exec_from untag].
  destruct (extrema_from xs t [] (None, []) 1) as (items & Hrun & st' & Hst & Hinv).
  { unfold ext_inv. cbn. auto. }
  exists items. split; [exact Hrun|]. cbn [app] in Hinv. unfold ext_inv in Hinv.
  destruct xs as [|x r].
  - destruct (fst st'); [|destruct Hinv as [_ H]; congruence].
    destruct Hinv as (_ & (y & [] & _) & _).
  - destruct (fst st') as [lk|]; [|destruct Hinv as [H _]; discriminate].
    destruct Hinv as (Hle & Hex & Hit). exists (rank lk). rewrite <- Hst. auto.
Qed.
End Extrema.

(* instances: max_by / min_by with the integer comparer a - b *)
Lemma max_cmp_ok : forall a b : Z, exists c, pure2 Z.sub a b = Ok c
  /\ (c >? 0) = ((fun z => z) a >? (fun z => z) b) /\ (c >=? 0) = ((fun z => z) a >=? (fun z => z) b).
Proof. intros a b. exists (a - b). unfold pure2. repeat split; lia. Qed.

Lemma min_cmp_ok : forall a b : Z, exists c, res_neg (pure2 Z.sub a b) = Ok c
  /\ (c >? 0) = (Z.opp a >? Z.opp b) /\ (c >=? 0) = (Z.opp a >=? Z.opp b).
Proof. intros a b. exists (- (a - b)). unfold pure2, res_neg. repeat split; lia. Qed.

Theorem max_by_spec {A} (key : A -> Z) (xs : list A) t :
  exists items,
    untag (exec (op_max_by (pure key) (pure2 Z.sub)) (events xs t))
    = match t with TDone => [Next items; Done] | TErr e => [Err e] | TNever => [] end
    /\ match xs with
       | [] => items = []
       | _ => exists m, (forall y, In y xs -> key y <= m) /\ (exists y, In y xs /\ key y = m)
                        /\ items = filter (fun y => key y =? m) xs
       end.
Proof. unfold op_max_by. exact (extrema_spec key (pure2 Z.sub) (fun z => z) max_cmp_ok xs t). Qed.

Theorem min_by_spec {A} (key : A -> Z) (xs : list A) t :
  exists items,
    untag (exec (op_min_by (pure key) (pure2 Z.sub)) (events xs t))
    = match t with TDone => [Next items; Done] | TErr e => [Err e] | TNever => [] end
    /\ match xs with
       | [] => items = []
       | _ => exists m, (forall y, In y xs -> m <= key y) /\ (exists y, In y xs /\ key y = m)
                        /\ items = filter (fun y => key y =? m) xs
       end.
Proof.
  unfold op_min_by.
  destruct (extrema_spec key (fun x y => res_neg (pure2 Z.sub x y)) Z.opp min_cmp_ok xs t) as (items & H1 & H2).
  exists items. split; [exact H1|]. destruct xs as [|x r]; [exact H2|].
  destruct H2 as (m & Hle & (y & Hy & Hym) & Hit). exists (- m). split; [|split].
  - intros z Hz. specialize (Hle z Hz). lia.
  - exists y. split; [exact Hy|lia].
  - rewrite Hit. apply filter_same. intros z _. lia.
Qed.

(* max / min over integers: max_by(identity) ; map(first of the list) *)
Lemma filter_eq_head (m : Z) (xs : list Z) : In m xs ->
  exists rest, filter (fun y => y =? m) xs = m :: rest.
Proof.
  induction xs as [|x r IH]; intros Hin; [contradiction|]. cbn [filter].
  destruct (Z.eqb_spec x m) as [->|Hne].
  - eexists. reflexivity.
  - destruct Hin as [->|Hin]; [congruence|]. exact (IH Hin).
Qed.

Lemma first_only_stage (items : list Z) :
  untag (exec (op_map (@first_only Z)) [Next items; Done])
  = match items with [] => [Err EXN_NO_ELEMENTS] | x :: _ => [Next x; Done] end.
Proof. destruct items; reflexivity. Qed.

(* a fold with an operation that selects one of its arguments, the larger one for [le], ends on an element
   of the list that is above all the others *)
Lemma fold_select (f : Z -> Z -> Z) (le : Z -> Z -> Prop) :
  (forall a b, (f a b = a \/ f a b = b) /\ le a (f a b) /\ le b (f a b)) ->
  (forall a b c, le a b -> le b c -> le a c) ->
  forall l a, (forall y, In y (a :: l) -> le y (fold_left f l a)) /\ In (fold_left f l a) (a :: l).
Proof.
  intros Hf Htr. induction l as [|b l IH]; intros a; cbn [fold_left].
  - split; [|left; reflexivity]. intros y [<-|[]]. destruct (Hf a a) as ([E|E] & H & _); now rewrite E in H.
  - destruct (IH (f a b)) as [I1 I2], (Hf a b) as (Hsel & Ha & Hb).
    pose proof (I1 _ (or_introl eq_refl)) as Hab. split.
    + intros y [<-|[<-|Hy]]; [eapply Htr; eassumption|eapply Htr; eassumption|apply I1; right; exact Hy].
    + destruct I2 as [<-|I2]; [|right; right; exact I2]. destruct Hsel as [->| ->]; [left|right; left]; reflexivity.
Qed.

(* max / min: the first of the extremal elements is the extremum, which is what the fold computes *)
Lemma first_of_extrema (le : Z -> Z -> Prop) (f : Z -> Z -> Z) (x : Z) (r items : list Z) :
  (forall a b, (f a b = a \/ f a b = b) /\ le a (f a b) /\ le b (f a b)) ->
  (forall a b c, le a b -> le b c -> le a c) -> (forall a b, le a b -> le b a -> a = b) ->
  (exists m, (forall y, In y (x :: r) -> le y m) /\ (exists y, In y (x :: r) /\ y = m)
             /\ items = filter (fun y => y =? m) (x :: r)) ->
  untag (exec (op_map (@first_only Z)) [Next items; Done]) = [Next (fold_left f r x); Done].
Proof.
  intros Hf Htr Has (m & Hle & (y & Hy & <-) & ->).
  destruct (filter_eq_head y (x :: r) Hy) as [rest Hr]. rewrite first_only_stage, Hr.
  destruct (fold_select f le Hf Htr r x) as [G1 G2]. now rewrite (Has y (fold_left f r x)) by auto.
Qed.

Theorem max_spec (xs : list Z) t :
  untag (exec (op_max (pure2 Z.sub)) (events xs t))
  = match t with
    | TDone => match xs with
               | [] => [Err EXN_NO_ELEMENTS]
               | x :: r => [Next (fold_left Z.max r x); Done]
               end
    | TErr e => [Err e]
    | TNever => []
    end.
Proof.
  unfold op_max. rewrite compose_exec.
  change (fun x : Z => Ok x) with (pure (fun x : Z => x)).
  destruct (max_by_spec (fun x : Z => x) xs t) as (items & H1 & H2). rewrite H1.
  destruct t; [|reflexivity|reflexivity]. destruct xs as [|x r]; [now subst items|].
  apply (first_of_extrema Z.le); [intros; lia|intros; lia|intros; lia|exact H2].
Qed.

Theorem min_spec (xs : list Z) t :
  untag (exec (op_min (pure2 Z.sub)) (events xs t))
  = match t with
    | TDone => match xs with
               | [] => [Err EXN_NO_ELEMENTS]
               | x :: r => [Next (fold_left Z.min r x); Done]
               end
    | TErr e => [Err e]
    | TNever => []
    end.
Proof.
  unfold op_min. rewrite compose_exec.
  change (fun x : Z => Ok x) with (pure (fun x : Z => x)).
  destruct (min_by_spec (fun x : Z => x) xs t) as (items & H1 & H2). rewrite H1.
  destruct t; [|reflexivity|reflexivity]. destruct xs as [|x r]; [now subst items|].
  apply (first_of_extrema Z.ge); [intros; lia|intros; lia|intros; lia|].
  destruct H2 as (m & Hle & H). exists m. split; [|exact H]. intros y Hy. specialize (Hle y Hy). lia.
Qed.
