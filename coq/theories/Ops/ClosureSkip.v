(* C04 -- a second concrete levelled program at the rows of the generated table: ops.skip, and the
   executable view of the two concrete programs (take, skip) that the harness runs against the
   real operators (family `closure_progs` of harness/props/C04.py).

   reactivex/operators/_skip.py: `count` is captured when the operator is built (read only),
   `remaining = count` is allocated by subscribe; on_next forwards the value when remaining <= 0 and
   decrements remaining otherwise.  Stores as in [described_by]: the factory store holds the
   captured argument, the application store is empty, the subscription state is `remaining`.
   Inputs are the source's on_next values; an output is the list of notifications the handler
   sends (Some v = on_next v; skip never completes by itself).

     skip_described      prog_skip writes no factory or application cell, so every layout describes it
                         (in Props/C04.v: the layout of the rows "ops.skip" of the generated table)
     skip_run_closed, take_run_closed
                         closed form of one subscription alone: the inputs after the first `count`;
                         the first `count` inputs and the completion
     run_prog            flat encoding of a shared run, evaluated by the correspondence check *)
From Coq Require Import List String ZArith Lia ZifyBool.
From RxVerif Require Base.Prelude.
From RxVerif Require Import Ops.Closure Ops.ClosureCompose Gen.AllocTable.
Import ListNotations.

Definition prog_skip (count : Z) : lprog unit Z (list (option Z)) store store Z :=
  mk_lprog _ _ _ _ _ _ [count]
    (fun f _ => f) (fun _ _ => [])
    (fun f _ => f) (fun _ a => a) (fun f _ => nth 0 f 0%Z)
    (fun f _ _ _ => f) (fun _ a _ _ => a)
    (fun _ _ s _ => if (s <=? 0)%Z then s else (s - 1)%Z)
    (fun _ _ s i => if (s <=? 0)%Z then [Some i] else []).

Open Scope string_scope.

Lemma skip_rows_ok :
  forallb entry_ok_C04 (rows_of "ops.skip" alloc_table) = true
  /\ forallb (fun e => negb (a_mc e || a_hot e)) (rows_of "ops.skip" alloc_table) = true.
Proof. vm_compute. split; reflexivity. Qed.

Lemma skip_described : forall count fm am, described_by unit Z (list (option Z)) Z (prog_skip count) fm am.
Proof. intros count fm am. apply frames_described; repeat split. Qed.

Close Scope string_scope.

Lemma zskip_nonpos : forall (s : Z) (l : list Z), (s <= 0)%Z -> RxVerif.Base.Prelude.zskip s l = l.
Proof. intros s [|x l] Hs; cbn [RxVerif.Base.Prelude.zskip]; [reflexivity|]. replace (s <=? 0)%Z with true by lia. reflexivity. Qed.

Lemma ztake_nonpos : forall (s : Z) (l : list Z), (s <= 0)%Z -> RxVerif.Base.Prelude.ztake s l = [].
Proof. intros s [|x l] Hs; cbn [RxVerif.Base.Prelude.ztake]; [reflexivity|]. replace (s <=? 0)%Z with true by lia. reflexivity. Qed.

Lemma skip_run_closed : forall count ins a s,
  List.concat (iso_run _ _ _ _ _ _ (prog_skip count) a s ins) = map Some (RxVerif.Base.Prelude.zskip s ins).
Proof.
  intros count. induction ins as [|i r IH]; intros a s;
    cbn [iso_run prog_skip run_o run_s new_f List.concat map RxVerif.Base.Prelude.zskip]; [reflexivity|].
  rewrite IH. destruct (s <=? 0)%Z eqn:E; cbn [app].
  - rewrite zskip_nonpos by lia. reflexivity.
  - reflexivity.
Qed.

Lemma take_run_done : forall count ins a s, (s <= 0)%Z ->
  List.concat (iso_run _ _ _ _ _ _ (prog_take count) a s ins) = [].
Proof.
  intros count. induction ins as [|i r IH]; intros a s Hs;
    cbn [iso_run prog_take run_o run_s new_f List.concat]; [reflexivity|].
  replace (s >? 0)%Z with false by lia. cbn [app]. apply IH. exact Hs.
Qed.

Lemma take_run_closed : forall count ins a s, (0 < s)%Z ->
  List.concat (iso_run _ _ _ _ _ _ (prog_take count) a s ins) =
  map Some (RxVerif.Base.Prelude.ztake s ins) ++ (if (Z.of_nat (List.length ins) >=? s)%Z then [None] else []).
Proof.
  intros count. induction ins as [|i r IH]; intros a s Hs.
  - cbn. destruct (0 >=? s)%Z eqn:E; [lia | reflexivity].
  - cbn [iso_run prog_take run_o run_s new_f List.concat map RxVerif.Base.Prelude.ztake List.length].
    replace (s >? 0)%Z with true by lia. replace (s <=? 0)%Z with false by lia.
    cbn [map app]. f_equal.
    destruct (s - 1 =? 0)%Z eqn:E1; cbn [app].
    + rewrite take_run_done, ztake_nonpos by lia. cbn [map app].
      destruct (Z.of_nat (S (List.length r)) >=? s)%Z eqn:E2; [reflexivity | lia].
    + rewrite IH by lia. f_equal.
      destruct (Z.of_nat (List.length r) >=? s - 1)%Z eqn:A;
        destruct (Z.of_nat (S (List.length r)) >=? s)%Z eqn:B; try reflexivity; lia.
Qed.

(* The executable view for the correspondence check.  which: 0 = take, otherwise skip.  An observation
   (j, i, out) is flattened to j, i, #out, then one number per notification (0 = on_completed,
   v + 1 = on_next v, v >= 0). *)
Definition enc_out (o : option Z) : Z := match o with None => 0%Z | Some v => (v + 1)%Z end.
Definition enc_obs (o : nat * Z * list (option Z)) : list Z :=
  Z.of_nat (fst (fst o)) :: snd (fst o) :: Z.of_nat (List.length (snd o)) :: map enc_out (snd o).

Definition dec_event (e : Z * Z) : event unit Z :=
  if (fst e <? -99)%Z then EApply tt                                  (* apply the operator value to a new source *)
  else if (fst e <? 0)%Z then ESub (Z.to_nat (-1 - fst e))            (* -1 - k: subscribe to application k *)
  else ERun (Z.to_nat (fst e)) (snd e).                               (* j: subscription j receives snd e *)

Definition run_prog (c : Z * Z * list (Z * Z)) : list Z :=
  let '(which, count, h) := c in
  let evs := map dec_event h in
  let t := if (which =? 0)%Z then trace_shared _ _ _ _ _ _ (prog_take count) evs
           else trace_shared _ _ _ _ _ _ (prog_skip count) evs in
  List.concat (map enc_obs t).
