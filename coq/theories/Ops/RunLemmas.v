(* Whole runs of the runner, for every machine (the single step is in Ops/MultiFacts.v): the states after a
   run, splitting a run, invariants along a run (over states and the accumulated observable trace); then the
   subscriptions and the tagged emissions of a handled step ([handled_step], Ops/MultiFacts.v) read off the
   handler's answer, and what the first input of a run contributes to its emissions in those terms. *)
From RxVerif Require Import Base.Prelude Ops.Machine Ops.Multi Ops.MultiFacts.

Section Runs.
Context {A B : Type} (m : machine A B).

(* states after a run *)
Fixpoint after (s : x_state m) (r : rstate) (l : list (Z * inp A)) : x_state m * rstate :=
  match l with
  | [] => (s, r)
  | (now, i) :: t => let '(s', r', _) := rstep m s r now i in after s' r' t
  end.

Lemma run_from_app ins1 : forall ins2 s r k,
  run_from m s r k (ins1 ++ ins2)
  = (fst (run_from m s r k ins1)
     ++ fst (run_from m (fst (after s r ins1)) (snd (after s r ins1)) (k + length ins1) ins2),
     snd (run_from m (fst (after s r ins1)) (snd (after s r ins1)) (k + length ins1) ins2)).
Proof.
  induction ins1 as [|[now i] rest IH]; intros ins2 s r k.
  - cbn. rewrite Nat.add_0_r. destruct (run_from m s r k ins2); reflexivity.
  - cbn [app run_from length after]. destruct (rstep m s r now i) as [[s' r'] o].
    rewrite IH. destruct (run_from m s' r' (S k) rest) as [tr1 r1]. cbn [fst snd].
    rewrite <- plus_n_Sm. cbn [Nat.add].
    destruct (run_from m (fst (after s' r' rest)) (snd (after s' r' rest)) (S (k + length rest)) ins2) as [tr2 rf].
    cbn [fst snd]. now rewrite app_assoc.
Qed.

Lemma after_app l1 : forall l2 s r,
  after s r (l1 ++ l2) = after (fst (after s r l1)) (snd (after s r l1)) l2.
Proof.
  induction l1 as [|[now i] t IH]; intros l2 s r; [reflexivity|].
  cbn [app after]. destruct (rstep m s r now i) as [[s' r'] o]. apply IH.
Qed.

Lemma after_snd ins : forall s r k, snd (after s r ins) = snd (run_from m s r k ins).
Proof.
  induction ins as [|[now i] rest IH]; intros s r k; [reflexivity|].
  cbn [after run_from]. destruct (rstep m s r now i) as [[s' r'] o].
  rewrite (IH s' r' (S k)). destruct (run_from m s' r' (S k) rest). reflexivity.
Qed.

(* invariant over (operator state, runner state, observations so far) *)
Lemma run_from_invariant (I : x_state m -> rstate -> list (obs B) -> Prop)
  (Hstep : forall s r acc now i, I s r acc ->
     I (fst (fst (rstep m s r now i))) (snd (fst (rstep m s r now i))) (acc ++ snd (rstep m s r now i))) :
  forall ins s r k acc, I s r acc ->
    I (fst (after s r ins)) (snd (after s r ins)) (acc ++ map snd (fst (run_from m s r k ins))).
Proof.
  induction ins as [|[now i] rest IH]; intros s r k acc H.
  - cbn. now rewrite app_nil_r.
  - cbn [after run_from]. specialize (Hstep s r acc now i H).
    destruct (rstep m s r now i) as [[s' r'] o]. cbn [fst snd] in Hstep.
    specialize (IH s' r' (S k) (acc ++ o) Hstep).
    destruct (run_from m s' r' (S k) rest) as [tr rf]. cbn [fst snd] in *.
    rewrite map_app, map_map. cbn [snd]. rewrite map_id, app_assoc. exact IH.
Qed.

(* the runner state right after subscribe() *)
Definition start_state : x_state m * rstate :=
  let '(s0, cs, f) := x_start m in
  (s0, fst (finish (B:=B) (fst (apply_cmds (RState [] [] false) cs)) f)).
Definition start_obs : list (obs B) :=
  let '(s0, cs, f) := x_start m in
  snd (apply_cmds (RState [] [] false) cs) ++ snd (finish (B:=B) (fst (apply_cmds (RState [] [] false) cs)) f).

(* the subscribe step ([start_step], Ops/MultiFacts.v) in two parts *)
Lemma start_step_eq : start_step m = (fst start_state, snd start_state, start_obs).
Proof.
  unfold start_step, start_state, start_obs. destruct (x_start m) as [[s0 cs] f].
  destruct (apply_cmds (RState [] [] false) cs) as [r1 o1]. cbn [fst snd]. now destruct (finish r1 f).
Qed.

Lemma run_unfold ins :
  run m ins = (map (fun x => (0%nat, x)) start_obs ++ fst (run_from m (fst start_state) (snd start_state) 1 ins),
               snd (run_from m (fst start_state) (snd start_state) 1 ins)).
Proof. rewrite run_start, start_step_eq. reflexivity. Qed.

Lemma run_final ins : snd (run m ins) = snd (after (fst start_state) (snd start_state) ins).
Proof. rewrite run_unfold. cbn [snd]. now rewrite <- (after_snd ins _ _ 1). Qed.

Definition count_subs (os : list (obs B)) : nat :=
  length (filter (fun o => match o with OSub _ => true | _ => false end) os).

Lemma count_subs_app a b : count_subs (a ++ b) = (count_subs a + count_subs b)%nat.
Proof. unfold count_subs. now rewrite filter_app, app_length. Qed.
End Runs.

Section Subscriptions.
Context {A B : Type} (m : machine A B).

Definition count_csub (cs : list (cmd B)) : nat :=
  length (filter (fun c => match c with CSub _ => true | _ => false end) cs).

Lemma apply_cmds_subs (cs : list (cmd B)) : forall r,
  count_subs (snd (apply_cmds r cs)) = count_csub cs.
Proof.
  induction cs as [|c t IH]; intros r; [reflexivity|]. rewrite apply_cmds_cons. cbn [snd].
  rewrite count_subs_app, IH. destruct c; cbn; try destruct (mem _ _); reflexivity.
Qed.

Lemma release_subs (r : rstate) : count_subs (snd (@release B r)) = 0%nat.
Proof.
  unfold release. cbn [snd]. rewrite count_subs_app.
  assert (H1 : forall l, count_subs (map (@OUnsub B) l) = 0%nat) by (induction l; auto).
  assert (H2 : forall l, count_subs (map (@OCancel B) l) = 0%nat) by (induction l; auto).
  now rewrite H1, H2.
Qed.

Lemma finish_subs (r : rstate) f : count_subs (snd (@finish B r f)) = 0%nat.
Proof. destruct (@finish_cases B r f) as [[_ ->]|(t & _ & ->)]; [reflexivity|exact (release_subs r)]. Qed.

Lemma auto_detach_subs (i : inp A) r : count_subs (snd (@auto_detach A B i r)) = 0%nat.
Proof. destruct i as [k e| |]; cbn [auto_detach]; [destruct (is_terminal e && mem k (r_live r))|..]; reflexivity. Qed.

Lemma noemit_subs (o : list (obs B)) : count_subs (filter noemit o) = count_subs o.
Proof. induction o as [|x t IH]; [reflexivity|]. destruct x; unfold count_subs in *; cbn; rewrite ?IH; reflexivity. Qed.

Lemma handled_subs {S} (a : S * list (cmd B) * fin) r (i : inp A) :
  count_subs (snd (handled_step a r i)) = count_csub (snd (fst a)).
Proof.
  destruct i; cbn [handled_step fst snd];
    rewrite !count_subs_app, ?noemit_subs, apply_cmds_subs, ?auto_detach_subs, ?finish_subs, ?release_subs; lia.
Qed.

Lemma rstep_cases s r now i :
  rstep m s r now i = (s, r, [])
  \/ (fst (fst (rstep m s r now i)) = fst (fst (x_step m s now i))
      /\ count_subs (snd (rstep m s r now i)) = count_csub (snd (fst (x_step m s now i)))).
Proof.
  destruct (handled_or_dropped r i) as [[Hst Hd]|Hd]; [right|left; now apply rstep_dropped].
  rewrite (rstep_handled_eq m s r now i Hst Hd). split; [apply handled_state|apply handled_subs].
Qed.

(* a machine-level counting invariant lifted to runs: J relates the handler state to a bound on the
   subscriptions made so far *)
Lemma subs_bounded (J : x_state m -> nat -> Prop)
  (Hstep : forall s n now i, J s n -> J (fst (fst (x_step m s now i))) (n + count_csub (snd (fst (x_step m s now i))))%nat) :
  forall ins s r k acc, J s (count_subs acc) ->
    J (fst (after m s r ins)) (count_subs (acc ++ map snd (fst (run_from m s r k ins)))).
Proof.
  intros ins s r k acc H.
  apply (run_from_invariant m (fun s _ acc => J s (count_subs acc))); [|exact H].
  clear - Hstep. intros s r acc now i H.
  destruct (rstep_cases s r now i) as [E|[E1 E2]].
  - rewrite E. cbn [fst snd]. now rewrite app_nil_r.
  - rewrite E1, count_subs_app, E2. apply Hstep. exact H.
Qed.
End Subscriptions.

Section FirstInput.
Context {A B : Type} (m : machine A B).

Lemma temitted_run_cons s r k now i rest :
  temitted (fst (run_from m s r k ((now, i) :: rest)))
  = temitted (map (fun x => (k, x)) (snd (rstep m s r now i)))
    ++ temitted (fst (run_from m (fst (fst (rstep m s r now i))) (snd (fst (rstep m s r now i))) (S k) rest)).
Proof.
  rewrite run_from_cons. apply temitted_app.
Qed.
End FirstInput.

Section Emissions.
Context {A B : Type} (m : machine A B).

Definition cemits (cs : list (cmd B)) : list B :=
  flat_map (fun c => match c with CEmit b => [b] | _ => [] end) cs.

Lemma apply_cmds_temitted (k : nat) (cs : list (cmd B)) : forall r,
  temitted (map (fun x => (k, x)) (snd (apply_cmds r cs))) = map (fun b => (k, Next b)) (cemits cs).
Proof.
  induction cs as [|c t IH]; intros r; [reflexivity|]. rewrite apply_cmds_cons. cbn [snd].
  rewrite map_app, temitted_app, IH. destruct c; cbn; try destruct (mem _ _); reflexivity.
Qed.

Lemma release_temitted (k : nat) (r : rstate) : temitted (map (fun x => (k, x)) (snd (@release B r))) = [].
Proof.
  (* every observation of a release is an OUnsub or an OCancel ([relo], Ops/MultiFacts.v) *)
  induction (release_relo (B:=B) r) as [|x t [j [->| ->]] _ IH]; [reflexivity|exact IH|exact IH].
Qed.

Lemma finish_temitted (k : nat) (r : rstate) f :
  temitted (map (fun x => (k, x)) (snd (@finish B r f)))
  = match f with Cont => [] | Complete => [(k, Done)] | Fail e => [(k, Err e)] end.
Proof.
  destruct f as [| |e]; [reflexivity|..].
  - exact (f_equal (cons (k, Done)) (release_temitted k r)).
  - exact (f_equal (cons (k, Err e)) (release_temitted k r)).
Qed.

Lemma auto_detach_temitted (k : nat) (i : inp A) r : temitted (map (fun x => (k, x)) (snd (@auto_detach A B i r))) = [].
Proof. destruct i as [j e| |]; cbn [auto_detach]; [destruct (is_terminal e && mem j (r_live r))|..]; reflexivity. Qed.

(* [IDispose] is left out: it filters the handler's emissions away ([noemit]) *)
Lemma handled_fin {S} (a : S * list (cmd B) * fin) r (i : inp A) k : i <> IDispose ->
  temitted (map (fun x => (k, x)) (snd (handled_step a r i)))
  = map (fun b => (k, Next b)) (cemits (snd (fst a)))
    ++ match snd a with Cont => [] | Complete => [(k, Done)] | Fail e => [(k, Err e)] end
  /\ (snd a <> Cont -> r_stopped (snd (fst (handled_step a r i))) = true).
Proof.
  intros Hi. destruct i; [| |congruence]; cbn [handled_step fst snd];
    (split; [now rewrite !map_app, !temitted_app, apply_cmds_temitted, auto_detach_temitted, finish_temitted|]);
    destruct (snd a); (congruence || reflexivity).
Qed.

Lemma rstep_fin s r now i k :
  r_stopped r = false -> delivered r i = true ->
  snd (x_step m s now i) <> Cont ->
  temitted (map (fun x => (k, x)) (snd (rstep m s r now i)))
  = map (fun b => (k, Next b)) (cemits (snd (fst (x_step m s now i))))
    ++ match snd (x_step m s now i) with Cont => [] | Complete => [(k, Done)] | Fail e => [(k, Err e)] end
  /\ r_stopped (snd (fst (rstep m s r now i))) = true.
Proof.
  intros Hst Hd Hf. rewrite (rstep_handled_eq m s r now i Hst (or_introl Hd)).
  destruct (handled_fin (x_step m s now i) r i k) as [E1 E2]; [intros ->; discriminate Hd|]. auto.
Qed.

(* the left-hand sides of the next three are what [temitted_run_cons] leaves of a run; here the handler ends
   the subscription and what it emits is all that is left of the run *)
Lemma temitted_fin s r k k' now i rest :
  r_stopped r = false -> delivered r i = true -> snd (x_step m s now i) <> Cont ->
  temitted (map (fun x => (k, x)) (snd (rstep m s r now i)))
    ++ temitted (fst (run_from m (fst (fst (rstep m s r now i))) (snd (fst (rstep m s r now i))) k' rest))
  = map (fun b => (k, Next b)) (cemits (snd (fst (x_step m s now i))))
    ++ match snd (x_step m s now i) with Cont => [] | Complete => [(k, Done)] | Fail e => [(k, Err e)] end.
Proof.
  intros Hst Hd Hf. destruct (rstep_fin s r now i k Hst Hd Hf) as [E1 E2].
  rewrite E1, (run_from_stopped _ _ _ _ _ E2). apply app_nil_r.
Qed.

Lemma temitted_run_fin s r k now i rest :
  r_stopped r = false -> delivered r i = true -> snd (x_step m s now i) <> Cont ->
  temitted (fst (run_from m s r k ((now, i) :: rest)))
  = map (fun b => (k, Next b)) (cemits (snd (fst (x_step m s now i))))
    ++ match snd (x_step m s now i) with Cont => [] | Complete => [(k, Done)] | Fail e => [(k, Err e)] end.
Proof.
  intros Hst Hd Hf. rewrite temitted_run_cons. now apply temitted_fin.
Qed.

Lemma temitted_dropped s r k k' now i rest :
  delivered r i = false -> i <> IDispose ->
  temitted (map (fun x => (k, x)) (snd (rstep m s r now i)))
    ++ temitted (fst (run_from m (fst (fst (rstep m s r now i))) (snd (fst (rstep m s r now i))) k' rest))
  = temitted (fst (run_from m s r k' rest)).
Proof.
  intros Hd Hi. now rewrite rstep_dropped by auto.
Qed.

Lemma temitted_dispose s r k k' now rest :
  temitted (map (fun x => (k, x)) (snd (rstep m s r now IDispose)))
    ++ temitted (fst (run_from m (fst (fst (rstep m s r now IDispose))) (snd (fst (rstep m s r now IDispose))) k' rest))
  = [].
Proof. now rewrite temitted_tag, rstep_dispose_emits, run_from_stopped by apply rstep_dispose_stopped. Qed.
End Emissions.
