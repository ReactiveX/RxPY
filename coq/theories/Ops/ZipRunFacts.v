(* C13: the link from the element-delivery "feeds" (zip_feed, cl_feed, wlf_feed, which
   iterate x_step directly) to the RUNNER: on the corresponding element-only input
   sequence [run] emits exactly the feed's tuples, in order, and nothing else; no
   source is unsubscribed and the output does not terminate.  Also: the release of
   amb's losers as a statement about [run]. *)
From RxVerif Require Import Base.Prelude Ops.Machine Ops.Multi Ops.MultiFacts
  Ops.RunLemmas Ops.Combinators Ops.CombineFacts Ops.LatestFacts.

(* element-only input sequences: (time, (source, element)) *)
Definition elem_inputs {A} (tins : list (Z * (nat * A))) : list (Z * inp A) :=
  map (fun tp => (fst tp, ISrc (fst (snd tp)) (Next (snd (snd tp))))) tins.

Section Bridge.
Context {A B : Type} (m : machine A B).

(* [feed]: the handler iterated on element deliveries at clock 0, collecting what it emits
   (zip_feed, cl_feed, wlf_feed) *)
Variable feed : x_state m -> list (nat * A) -> list B -> x_state m * list B.
Hypothesis feed_nil : forall st outs, feed st [] outs = (st, outs).
Hypothesis feed_cons : forall st k x t outs,
  feed st ((k, x) :: t) outs
  = let '(st', cs, _) := x_step m st 0 (ISrc k (Next x)) in feed st' t (outs ++ cemits cs).

Lemma feed_outs ins : forall st outs,
  feed st ins outs = (fst (feed st ins []), outs ++ snd (feed st ins [])).
Proof.
  induction ins as [|[k x] t IH]; intros st outs.
  - rewrite !feed_nil. cbn. now rewrite app_nil_r.
  - rewrite !feed_cons. destruct (x_step m st 0 (ISrc k (Next x))) as [[st' cs] f].
    rewrite (IH st' (outs ++ cemits cs)), (IH st' ([] ++ cemits cs)). cbn [fst snd app].
    now rewrite app_assoc.
Qed.

(* P: an invariant of the handler state under which an element of a live source is handled
   with emissions only and without ending the subscription; the handler ignores the clock *)
Variable P : x_state m -> Prop.
Variable live : list nat.
Hypothesis Hclock : forall s now i, x_step m s now i = x_step m s 0 i.
Hypothesis Hstep : forall s k x, P s -> mem k live = true ->
  exists s' bs, x_step m s 0 (ISrc k (Next x)) = (s', map CEmit bs, Cont) /\ P s'.

Lemma feed_bridge_from ts (tins : list (Z * (nat * A))) : forall s pos,
  P s -> Forall (fun tp => mem (fst (snd tp)) live = true) tins ->
  emitted (fst (run_from m s (RState live ts false) pos (elem_inputs tins)))
    = map Next (snd (feed s (map snd tins) []))
  /\ snd (run_from m s (RState live ts false) pos (elem_inputs tins)) = RState live ts false.
Proof.
  induction tins as [|[now [k x]] rest IH]; intros s pos HP Hf; [cbn; now rewrite feed_nil|].
  inversion Hf as [|? ? Hk Hrest]; subst. cbn [fst snd] in Hk.
  destruct (Hstep s k x HP Hk) as (s' & bs & E0 & HP').
  cbn [elem_inputs map fst snd run_from]. fold (elem_inputs rest).
  rewrite (rstep_emit_only m s live ts now k (Next x) s' bs Hk) by (now rewrite Hclock).
  rewrite feed_cons, E0. cbn [is_terminal]. rewrite app_nil_r.
  destruct (IH s' (S pos) HP' Hrest) as (IH1 & IH2).
  destruct (run_from m s' (RState live ts false) (S pos) _) as [tr rf].
  cbn [fst snd] in *. rewrite emitted_tag_app, emits_emit_only, IH1.
  rewrite (feed_outs (map snd rest) s' ([] ++ cemits (map CEmit bs))). cbn [fst snd app].
  rewrite cemits_emit_only, map_app. auto.
Qed.

Lemma feed_bridge_run s0 (tins : list (Z * (nat * A))) :
  x_start m = (s0, map CSub live, Cont) ->
  P s0 -> Forall (fun tp => mem (fst (snd tp)) live = true) tins ->
  emitted (fst (run m (elem_inputs tins))) = map Next (snd (feed s0 (map snd tins) []))
  /\ snd (run m (elem_inputs tins)) = RState live [] false.
Proof.
  intros Hstart HP Hf. rewrite (run_sub_start m s0 live _ Hstart). cbn [fst snd].
  rewrite emitted_tag_app, emits_sub_only. exact (feed_bridge_from [] tins s0 1%nat HP Hf).
Qed.
End Bridge.

Section ZipRun.
Context {A : Type}.

Lemma existsb_combine_none_done (qs : list (list A)) : forall n,
  existsb (fun qd : list A * bool => Nat.eqb (length (fst qd)) 0 && snd qd) (combine qs (repeat false n)) = false.
Proof.
  induction qs as [|q t IH]; intros n; [reflexivity|].
  destruct n as [|n']; [reflexivity|]. cbn [repeat combine existsb fst snd].
  now rewrite andb_false_r, IH.
Qed.

Lemma zip_elem_step n (s : x_state (x_zip (A:=A) n)) k x :
  snd s = repeat false n ->
  exists s' bs, x_step (x_zip n) s 0 (ISrc k (Next x)) = (s', map CEmit bs, Cont) /\ snd s' = repeat false n.
Proof.
  destruct s as [queues done]. cbn [snd]. intros ->. cbn [x_zip x_step].
  destruct (all_nonempty (nth_set k (nth k queues [] ++ [x]) queues)).
  - rewrite existsb_combine_none_done. eexists. eexists [_]. split; reflexivity.
  - eexists. exists []. split; reflexivity.
Qed.

(* so C13_zip_pairing, stated over zip_feed, is a statement about [run] *)
Theorem zip_run_is_feed n (tins : list (Z * (nat * A))) :
  Forall (fun tp => (fst (snd tp) < n)%nat) tins ->
  emitted (fst (run (x_zip n) (elem_inputs tins)))
    = map Next (snd (zip_feed n (repeat [] n, repeat false n) (map snd tins) []))
  /\ snd (run (x_zip n) (elem_inputs tins)) = RState (seq 0 n) [] false.
Proof.
  intros Hf.
  apply (feed_bridge_run (x_zip n) (zip_feed n) (fun _ _ => eq_refl) (fun _ _ _ _ _ => eq_refl)
           (fun s => snd s = repeat false n) (seq 0 n)).
  - intros [queues done] now i. reflexivity.
  - intros s k x HP _. apply zip_elem_step. exact HP.
  - reflexivity.
  - reflexivity.
  - eapply Forall_impl; [|exact Hf]. intros tp H. rewrite (mem_seq _ 0). now apply Nat.ltb_lt.
Qed.
End ZipRun.

Section ClRun.
Context {A : Type}.

(* while no source has completed, "every OTHER source is done" is false unless the
   delivering source is the only one -- and then its element completes the snapshot *)
Lemma cl_others_not_done n k (values : list (option A)) x :
  (k < n)%nat -> length values = n ->
  forallb (fun v : option A => match v with Some _ => true | None => false end)
          (nth_set k (Some x) values) = false ->
  forallb (fun jd : nat * bool => Nat.eqb (fst jd) k || snd jd) (combine (seq 0 n) (repeat false n)) = false.
Proof.
  intros Hk Hlen Hnot. pose proof (forallb_combine_seq (fun j => Nat.eqb j k) (repeat false n) 0) as E.
  rewrite repeat_length in E. rewrite E. clear E.
  destruct n as [|[|n2]]; [lia| |].
  - assert (k = 0%nat) by lia. subst k.
    destruct values as [|v [|? ?]]; discriminate.
  - cbn [seq forallb]. destruct k as [|[|k]]; reflexivity.
Qed.

Lemma cl_elem_step n (s : x_state (x_combine_latest (A:=A) n)) k x :
  (k < n)%nat -> length (fst (fst s)) = n /\ snd s = repeat false n ->
  exists s' bs, x_step (x_combine_latest n) s 0 (ISrc k (Next x)) = (s', map CEmit bs, Cont)
                /\ (length (fst (fst s')) = n /\ snd s' = repeat false n).
Proof.
  destruct s as [[values hva] done]. cbn [fst snd]. intros Hk [Hlen ->]. cbn [x_combine_latest x_step].
  pose proof (cl_others_not_done n k values x Hk Hlen) as Hnot.
  destruct (hva || _) eqn:E.
  - eexists. eexists [_]. split; [reflexivity|]. cbn [fst snd]. now rewrite nth_set_length.
  - apply orb_false_iff in E. rewrite (Hnot (proj2 E)). eexists. exists []. split; [reflexivity|]. cbn [fst snd].
    now rewrite nth_set_length.
Qed.

Theorem cl_run_is_feed n (tins : list (Z * (nat * A))) :
  Forall (fun tp => (fst (snd tp) < n)%nat) tins ->
  emitted (fst (run (x_combine_latest n) (elem_inputs tins)))
    = map Next (snd (cl_feed n (repeat None n, false, repeat false n) (map snd tins) []))
  /\ snd (run (x_combine_latest n) (elem_inputs tins)) = RState (seq 0 n) [] false.
Proof.
  intros Hf.
  apply (feed_bridge_run (x_combine_latest n) (cl_feed n) (fun _ _ => eq_refl) (fun _ _ _ _ _ => eq_refl)
           (fun s => length (fst (fst s)) = n /\ snd s = repeat false n) (seq 0 n)).
  - intros [[values hva] done] now i. reflexivity.
  - intros s k x HP Hm. apply cl_elem_step; [|exact HP].
    rewrite (mem_seq _ 0) in Hm. now apply Nat.ltb_lt.
  - reflexivity.
  - cbn [fst snd]. split; [apply repeat_length|reflexivity].
  - eapply Forall_impl; [|exact Hf]. intros tp H. rewrite (mem_seq _ 0). now apply Nat.ltb_lt.
Qed.

End ClRun.

Section WlfRun.
Context {A : Type}.

Lemma wlf_elem_step n (s : x_state (x_with_latest_from (A:=A) n)) k x :
  exists s' bs, x_step (x_with_latest_from n) s 0 (ISrc k (Next x)) = (s', map CEmit bs, Cont).
Proof.
  destruct k as [|j]; cbn [x_with_latest_from x_step].
  - destruct (forallb _ s); eexists; [eexists [_]|exists []]; reflexivity.
  - eexists. exists []. reflexivity.
Qed.

Theorem wlf_run_is_feed n (tins : list (Z * (nat * A))) :
  Forall (fun tp => (fst (snd tp) <= n)%nat) tins ->
  emitted (fst (run (x_with_latest_from n) (elem_inputs tins)))
    = map Next (snd (wlf_feed n (repeat None n) (map snd tins) []))
  /\ snd (run (x_with_latest_from n) (elem_inputs tins)) = RState (seq 1 n ++ [0%nat]) [] false.
Proof.
  intros Hf.
  apply (feed_bridge_run (x_with_latest_from n) (wlf_feed n) (fun _ _ => eq_refl) (fun _ _ _ _ _ => eq_refl)
           (fun _ => True) (seq 1 n ++ [0%nat])).
  - intros values now [[|j] [x|er|]|tag|]; reflexivity.
  - intros s k x _ _. destruct (wlf_elem_step n s k x) as (s' & bs & E). now exists s', bs.
  - cbn [x_with_latest_from x_start]. now rewrite map_app.
  - exact I.
  - eapply Forall_impl; [|exact Hf]. intros tp H. rewrite wlf_live_mem. now apply Nat.leb_le.
Qed.

End WlfRun.

Section AmbRun.
Context {A : Type}.

(* inputs that do not make amb choose: notifications of sources it does not have, timer ticks *)
Definition amb_quiet (n : nat) (ti : Z * inp A) : Prop :=
  match snd ti with ISrc k _ => (n <= k)%nat | ITick _ => True | IDispose => False end.

Lemma amb_open_quiet n (pre : list (Z * inp A)) : forall pos rest,
  Forall (amb_quiet n) pre ->
  snd (run_from (x_amb n) None (RState (rev (seq 0 n)) [] false) pos (pre ++ rest))
  = snd (run_from (x_amb n) None (RState (rev (seq 0 n)) [] false) (pos + length pre) rest).
Proof.
  induction pre as [|[now i] t IH]; intros pos rest Hq.
  - cbn. now rewrite Nat.add_0_r.
  - inversion Hq as [|? ? Hi Ht]; subst. cbn [app length]. rewrite run_from_cons_snd, Nat.add_succ_r.
    unfold amb_quiet in Hi. cbn [snd] in Hi.
    destruct i as [k e|tag|]; [rewrite amb_foreign_step by exact Hi| |contradiction]; exact (IH (S pos) rest Ht).
Qed.

(* as soon as one of the n sources has notified (w, the first to do so), on EVERY
   continuation [post] the winner is the only source that can still be subscribed: the final runner
   state is "exactly w live" or "everything released".  With post = []: the losers are
   unsubscribed within the winner's first notification. *)
Theorem amb_run_losers_released n (pre post : list (Z * inp A)) now w e :
  Forall (amb_quiet n) pre -> (w < n)%nat ->
  snd (run (x_amb n) (pre ++ (now, ISrc w e) :: post)) = RState [w] [] false
  \/ snd (run (x_amb n) (pre ++ (now, ISrc w e) :: post)) = RState [] [] true.
Proof.
  intros Hq Hw. rewrite (run_sub_start (x_amb n) None (rev (seq 0 n)) _ eq_refl). cbn [snd].
  rewrite (amb_open_quiet n pre 1 _ Hq), run_from_cons_snd.
  destruct (amb_winner_step n now w e 0 Hw) as [E _].
  destruct e; rewrite E; cbn [fst snd]; [apply amb_chosen_final|right; now rewrite run_from_stopped..].
Qed.

(* the decomposition exists whenever the specification emits something *)
Lemma amb_spec_nonempty_winner n (ins : list (Z * inp A)) : forall pos,
  amb_spec n None pos ins <> [] ->
  exists pre now w e post, ins = pre ++ (now, ISrc w e) :: post /\ Forall (amb_quiet n) pre /\ (w < n)%nat.
Proof.
  induction ins as [|[now i] rest IH]; intros pos H; [contradiction|].
  cbn [amb_spec] in H. destruct i as [k e|tag|].
  - destruct (Nat.ltb_spec k n) as [Hlt|Hge].
    + exists [], now, k, e, rest. repeat split; [constructor|exact Hlt].
    + destruct (IH _ H) as (pre & now' & w & e' & post & -> & Hq & Hw).
      exists ((now, ISrc k e) :: pre), now', w, e', post. repeat split; [|exact Hw].
      constructor; [exact Hge|exact Hq].
  - destruct (IH _ H) as (pre & now' & w & e' & post & -> & Hq & Hw).
    exists ((now, ITick tag) :: pre), now', w, e', post. repeat split; [|exact Hw].
    constructor; [exact I|exact Hq].
  - contradiction.
Qed.
End AmbRun.
