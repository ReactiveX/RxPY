(* C19: group_by_until -- RUN-LEVEL theorem for every interleaving of the source
   port (0) and the duration ports (1 + j = the observable returned by the j-th
   call of the duration mapper), every key / element / duration callback
   (raising ones included), the subscriber subscribing to every group inside the
   on_next call that hands it ([all_imm]) and never disposing anything.

   The routing part of the runner's trace (group hand-overs, notifications on
   the groups, the outer's terminal -- with their input positions) EQUALS the
   trace of a small functional specification [gbu_spec]: a map "key -> live
   group" in creation order, a counter for fresh group ids, and a flag "over".

     element x, key k:
       a live group has key k   -> the mapped element goes to it, nothing else;
       no live group has key k  -> group [next] is created and handed with k,
                                   the mapped element goes to it, nothing else;
     duration port 1+g fires (element or completion) while g is live
                                -> g completes and is no longer live: the next
                                   element of its key creates a fresh group;
     source completes           -> every live group completes, then the outer;
     source errors / a live group's duration observable errors / the key,
     element or duration mapper raises
                                -> every live group (the one just handed
                                   included) gets the error, then the outer;
     after any of the last two nothing happens any more (over).

   The machine of Ops/Groups.v, the subscription plumbing of Ops/MultiWin.v
   (ref-counted release, terminated subjects, auto-detach of the duration
   subscriptions) are all on the left-hand side; none of it is in the spec. *)
From RxVerif Require Import Base.Prelude Ops.Machine Ops.MultiFacts Ops.MultiWin Ops.MultiWinFacts Ops.Groups Ops.GroupFacts.

Local Arguments Multi.mem : simpl never.
Local Arguments Multi.remove : simpl never.

Definition tev {X} (z : option Z) : ev X := match z with None => Done | Some e => Err e end.

Record gbu_st := GbuSt { gbu_live : list (Z * nat); gbu_next : nat; gbu_over : bool }.

Fixpoint gbu_find (k : Z) (l : list (Z * nat)) : option nat :=
  match l with [] => None | (j, g) :: t => if j =? k then Some g else gbu_find k t end.
Definition gbu_is_live (g : nat) (l : list (Z * nat)) : bool := existsb (fun p => Nat.eqb g (snd p)) l.
Definition gbu_drop (g : nat) (l : list (Z * nat)) : list (Z * nat) :=
  filter (fun p => negb (Nat.eqb g (snd p))) l.

Section Spec.
Context {A W B : Type}.
Variables (key : A -> res Z) (elem : A -> res W) (dur : nat -> res bool).

(* the duration observable of group g (the g-th call of the duration mapper) is
   a real observable, not reactivex.never() *)
Definition gbu_hot (g : nat) : bool := match dur g with Ok true => true | _ => false end.

(* every live group, in creation order, then the outer *)
Definition gbu_end (l : list (Z * nat)) (z : option Z) : list (obs W B) :=
  map (fun p => OWin (snd p) (tev z)) l ++ [OEmit (tev z)].

Definition gbu_step (s : gbu_st) (i : inp A) : gbu_st * list (obs W B) :=
  if gbu_over s then (s, []) else
  let live := gbu_live s in
  let stop := GbuSt [] (gbu_next s) true in
  match i with
  | ISrc O (Next x) =>
      match key x with
      | Raise e => (stop, gbu_end live (Some e))
      | Ok k =>
          match gbu_find k live with
          | Some g =>
              match elem x with
              | Ok y => (s, [OWin g (Next y)])
              | Raise e => (stop, gbu_end live (Some e))
              end
          | None =>
              let g := gbu_next s in
              match dur g with
              | Raise e => (stop, gbu_end live (Some e))
              | Ok _ =>
                  match elem x with
                  | Ok y => (GbuSt (live ++ [(k, g)]) (S g) false, [OHand g k; OWin g (Next y)])
                  | Raise e => (stop, OHand g k :: gbu_end (live ++ [(k, g)]) (Some e))
                  end
              end
          end
      end
  | ISrc O Done => (stop, gbu_end live None)
  | ISrc O (Err e) => (stop, gbu_end live (Some e))
  | ISrc (S d) e =>
      if gbu_is_live d live && gbu_hot d then
        match e with
        | Err z => (stop, gbu_end live (Some z))
        | _ => (GbuSt (gbu_drop d live) (gbu_next s) false, [OWin d Done])
        end
      else (s, [])
  | _ => (s, [])
  end.

Fixpoint gbu_run (s : gbu_st) (k : nat) (ins : list (Z * inp A)) : list (nat * obs W B) :=
  match ins with
  | [] => []
  | (_, i) :: rest => map (fun x => (k, x)) (snd (gbu_step s i)) ++ gbu_run (fst (gbu_step s i)) (S k) rest
  end.
Fixpoint gbu_after (s : gbu_st) (ins : list (Z * inp A)) : gbu_st :=
  match ins with [] => s | (_, i) :: rest => gbu_after (fst (gbu_step s i)) rest end.

Definition gbu_init : gbu_st := GbuSt [] 0 false.
Definition gbu_spec (ins : list (Z * inp A)) : list (nat * obs W B) := gbu_run gbu_init 1 ins.
End Spec.

Definition is_route {W B} (o : obs W B) : bool :=
  match o with OEmit _ | OHand _ _ | OWin _ _ => true | _ => false end.
Definition routing {W B} (tr : list (nat * obs W B)) : list (nat * obs W B) :=
  filter (fun x => is_route (snd x)) tr.
(* inputs on the ports (source, durations); timer ticks are accepted too: the operator has no timer *)
Definition is_port {A} (i : inp A) : bool := match i with ISrc _ _ | ITick _ => true | _ => false end.
Definition ports_only {A} (ins : list (Z * inp A)) : Prop := forall p, In p ins -> is_port (snd p) = true.

Lemma flat_map_filter {X Y} (f : X -> list Y) (p : X -> bool) (l : list X) :
  (forall x, p x = false -> f x = []) -> flat_map f (filter p l) = flat_map f l.
Proof.
  intros H. induction l as [|x t IH]; [reflexivity|]. cbn [filter flat_map].
  destruct (p x) eqn:E; [cbn [flat_map]; now rewrite IH|]. now rewrite (H x E).
Qed.
Lemma wevents_routing {W B} g (tr : list (nat * obs W B)) : wevents g (routing tr) = wevents g tr.
Proof. apply flat_map_filter. intros [k []]; (discriminate || reflexivity). Qed.
Lemma hands_routing {W B} (tr : list (nat * obs W B)) : hands (routing tr) = hands tr.
Proof. apply flat_map_filter. intros [k []]; (discriminate || reflexivity). Qed.

Lemma filter_notin (q l : list nat) : (forall j, In j l -> In j q) -> filter (fun j => negb (mem j q)) l = [].
Proof.
  induction l as [|x t IH]; intros H; [reflexivity|]. cbn [filter].
  assert (E : mem x q = true) by (apply mem_In, H; left; reflexivity). rewrite E. cbn [negb].
  apply IH. intros j Hj. apply H. right. exact Hj.
Qed.

Lemma filter_filter_mem g (t l : list nat) :
  filter (fun j => negb (mem j t)) (filter (fun j => negb (Nat.eqb g j)) l) = filter (fun j => negb (mem j (g :: t))) l.
Proof.
  induction l as [|x r IH]; [reflexivity|]. cbn [filter]. rewrite mem_cons, (Nat.eqb_sym x g).
  destruct (Nat.eqb g x); cbn [negb orb filter]; [exact IH|]. rewrite IH. reflexivity.
Qed.

Lemma count_of_app g (a b : list nat) : count_of g (a ++ b) = (count_of g a + count_of g b)%nat.
Proof. unfold count_of. now rewrite filter_app, app_length. Qed.

Lemma mem_map_S d (l : list nat) : mem (S d) (map S l) = mem d l.
Proof. unfold Multi.mem. induction l as [|x t IH]; [reflexivity|]. cbn [map existsb]. now rewrite IH. Qed.

Lemma flat_map_ext_In {X Y} (f g : X -> list Y) (l : list X) :
  (forall x, In x l -> f x = g x) -> flat_map f l = flat_map g l.
Proof.
  induction l as [|x t IH]; intros H; [reflexivity|]. cbn [flat_map].
  rewrite (H x (or_introl eq_refl)), IH; [reflexivity|]. intros y Hy. apply H. right. exact Hy.
Qed.

Lemma gbu_is_live_In g l : gbu_is_live g l = true <-> In g (map snd l).
Proof.
  unfold gbu_is_live. induction l as [|p t IH]; cbn [existsb map In]; [split; [discriminate|intros []]|].
  rewrite <- IH. destruct (Nat.eqb_spec g (snd p)) as [->|Hne]; cbn [orb]; [tauto|].
  split; [auto|intros [E|H]; [congruence|exact H]].
Qed.

Lemma gbu_find_In k l g : gbu_find k l = Some g -> In (k, g) l.
Proof.
  induction l as [|[j g0] t IH]; [discriminate|]. cbn [gbu_find].
  destruct (Z.eqb_spec j k) as [->|Hne]; [intros [= ->]; left; reflexivity|]. intros H. right. auto.
Qed.

Lemma gbu_find_none k l : gbu_find k l = None -> ~ In k (map fst l).
Proof.
  induction l as [|[j g0] t IH]; [intros _ []|]. cbn [gbu_find map fst In].
  destruct (Z.eqb_spec j k) as [->|Hne]; [discriminate|]. intros H [E|Hin]; [congruence|]. now apply IH.
Qed.

Lemma map_snd_drop d l : map snd (gbu_drop d l) = filter (fun j => negb (Nat.eqb d j)) (map snd l).
Proof.
  unfold gbu_drop. induction l as [|[j g] t IH]; [reflexivity|]. cbn [filter map snd].
  destruct (Nat.eqb d g); cbn [negb map snd]; now rewrite IH.
Qed.

Lemma gbu_drop_In d l p : In p (gbu_drop d l) -> In p l /\ snd p <> d.
Proof.
  unfold gbu_drop. intros H. apply filter_In in H. destruct H as [H1 H2]. split; [exact H1|].
  intros E. rewrite E, Nat.eqb_refl in H2. discriminate.
Qed.

Lemma gbu_drop_dead d l : gbu_is_live d (gbu_drop d l) = false.
Proof.
  unfold gbu_is_live, gbu_drop. induction l as [|p t IH]; [reflexivity|]. cbn [filter].
  destruct (Nat.eqb d (snd p)) eqn:E; cbn [negb existsb]; rewrite ?E; exact IH.
Qed.

Lemma gbu_drop_notin d l : ~ In d (map snd l) -> gbu_drop d l = l.
Proof.
  unfold gbu_drop. induction l as [|[j g] t IH]; intros H; [reflexivity|]. cbn [filter snd].
  destruct (Nat.eqb_spec d g) as [->|Hne]; [exfalso; apply H; left; reflexivity|]. cbn [negb]. f_equal.
  apply IH. intros Hin. apply H. right. exact Hin.
Qed.

Lemma NoDup_map_filter {X Y} (f : X -> Y) (p : X -> bool) (l : list X) : NoDup (map f l) -> NoDup (map f (filter p l)).
Proof.
  induction l as [|x t IH]; [auto|]. cbn [map filter]. intros H. apply NoDup_cons_iff in H. destruct H as [Hx Ht].
  destruct (p x); [|apply IH; exact Ht]. cbn [map]. constructor; [|apply IH; exact Ht].
  intros Hin. apply Hx. apply in_map_iff in Hin. destruct Hin as [y [Hy Hin]]. apply filter_In in Hin.
  apply in_map_iff. exists y. tauto.
Qed.

Section Refine.
Context {A W B : Type}.
Variables (key : A -> res Z) (elem : A -> res W) (dur : nat -> res bool).
Notation M := (x_group_by_until (B:=B) key elem dur).
Notation hot := (gbu_hot dur).
Notation step := (gbu_step (B:=B) key elem dur).

Lemma routing_app (a b : list (nat * obs W B)) : routing (a ++ b) = routing a ++ routing b.
Proof. unfold routing. apply filter_app. Qed.
Lemma routing_tag k (o : list (obs W B)) : routing (map (fun x => (k, x)) o) = map (fun x => (k, x)) (filter is_route o).
Proof.
  unfold routing. induction o as [|x t IH]; [reflexivity|]. cbn [map filter snd].
  destruct (is_route x); cbn [map]; now rewrite IH.
Qed.

(* the writers-table entry of a live group *)
Definition wr (p : Z * nat) : Z * nat * nat := (fst p, snd p, if hot (snd p) then S (snd p) else 0%nat).

Lemma gb_groups_wr l : gb_groups (map wr l) = map snd l.
Proof. unfold gb_groups. rewrite map_map. reflexivity. Qed.

Lemma gb_lookup_wr k l : gb_lookup k (map wr l) = gbu_find k l.
Proof. induction l as [|[j g] t IH]; [reflexivity|]. cbn [map wr fst snd gb_lookup gbu_find]. now rewrite IH. Qed.

Lemma gb_by_dur_wr d l : NoDup (map snd l) -> gbu_is_live d l = true -> hot d = true ->
  exists k, In (k, d) l /\ gb_by_dur (S d) (map wr l) = Some (k, d).
Proof.
  intros Hnd Hl Hh. induction l as [|[j g] t IH]; [discriminate|].
  cbn [map snd] in Hnd. apply NoDup_cons_iff in Hnd. destruct Hnd as [Hg Ht].
  cbn [map wr fst snd gb_by_dur]. cbn [gbu_is_live existsb snd] in Hl.
  destruct (Nat.eqb_spec d g) as [->|Hne].
  - rewrite Hh. rewrite Nat.eqb_refl. exists j. split; [left; reflexivity|reflexivity].
  - cbn [orb] in Hl. destruct (IH Ht Hl) as [k [Hin Hk]]. exists k. split; [right; exact Hin|].
    destruct (hot g).
    + change (Nat.eqb (S d) (S g)) with (Nat.eqb d g). destruct (Nat.eqb_spec d g); [congruence|exact Hk].
    + exact Hk.
Qed.

Lemma gb_del_wr k d l : NoDup (map snd l) -> NoDup (map fst l) -> In (k, d) l ->
  gb_del k (map wr l) = map wr (gbu_drop d l).
Proof.
  intros Hg Hk Hin. induction l as [|[j g] t IH]; [destruct Hin|].
  cbn [map fst snd] in Hg, Hk. apply NoDup_cons_iff in Hg, Hk. destruct Hg as [Hg1 Hg2], Hk as [Hk1 Hk2].
  cbn [map wr fst snd gb_del]. unfold gbu_drop. cbn [filter snd]. fold (gbu_drop d t).
  destruct Hin as [E|Hin].
  - injection E as -> ->. rewrite Z.eqb_refl, Nat.eqb_refl. cbn [negb].
    now rewrite (gbu_drop_notin d t Hg1).
  - assert (j <> k) by (intros ->; apply Hk1; apply in_map_iff; exists (k, d); auto).
    assert (g <> d) by (intros ->; apply Hg1; apply in_map_iff; exists (k, d); auto).
    destruct (Z.eqb_spec j k); [congruence|]. destruct (Nat.eqb_spec d g); [congruence|]. cbn [negb map wr fst snd].
    now rewrite (IH Hg2 Hk2 Hin).
Qed.

(* Refinement relation between (machine state, runner state) and the spec state.  While the spec is not
   over, its state determines the machine's state and all of the runner's state but the terminated
   subjects [wt] and the list of handed groups [h]: the writers are the live groups with their duration
   ports, the calls counter is the id counter (every call of the duration mapper creates a group), the
   source and the hot durations of the live groups are subscribed, every live group has exactly one
   subscription. *)
Definition gbu_ms (l : list (Z * nat)) (n : nat) : gb_st := GbSt (map wr l) n n.
Definition gbu_rs (l : list (Z * nat)) (wt : list (nat * ev W)) (h : list nat) : rstate W :=
  RState (0%nat :: map S (filter hot (map snd l))) [] true (map snd l) wt h false.

Record gbu_open (l : list (Z * nat)) (n : nat) (wt : list (nat * ev W)) : Prop := {
  go_wt : forall g, In g (map snd l) \/ (n <= g)%nat -> wterm_of g wt = None;
  go_lt : forall g, In g (map snd l) -> (g < n)%nat;
  go_ndg : NoDup (map snd l);
  go_ndk : NoDup (map fst l) }.

(* once the spec is over the runner has released everything: no input reaches the machine any more *)
Inductive gbu_R : gb_st -> rstate W -> gbu_st -> Prop :=
| R_open l n wt h : gbu_open l n wt -> gbu_R (gbu_ms l n) (gbu_rs l wt h) (GbuSt l n false)
| R_over s r n : r_live r = [] -> r_timers r = [] -> gbu_R s r (GbuSt [] n true).

Definition refines (x : gb_st * rstate W * list (obs W B)) (y : gbu_st * list (obs W B)) : Prop :=
  gbu_R (fst (fst x)) (snd (fst x)) (fst y) /\ filter is_route (snd x) = snd y.

Lemma gbu_open_fresh l n wt : gbu_open l n wt ->
  NoDup (map snd l ++ [n]) /\ forall g, In g (map snd l ++ [n]) -> wterm_of g wt = None.
Proof.
  intros [Hwt Hlt Hg _]. split.
  - apply NoDup_app_snoc; [exact Hg|]. intros H. specialize (Hlt n H). lia.
  - intros g Hin. apply Hwt. apply in_app_or in Hin. destruct Hin as [H|[<-|[]]]; [left; exact H|right; lia].
Qed.

Lemma gbu_open_snoc l n wt k : gbu_open l n wt -> gbu_find k l = None -> gbu_open (l ++ [(k, n)]) (S n) wt.
Proof.
  intros HO Hf. destruct (gbu_open_fresh l n wt HO) as [Hq Hwq]. destruct HO as [Hwt Hlt _ Hk].
  constructor; rewrite map_app; cbn [map snd fst].
  - intros g [Hin|Hle]; [apply Hwq, Hin|apply Hwt; right; lia].
  - intros g Hin. apply in_app_or in Hin. destruct Hin as [H|[<-|[]]]; [specialize (Hlt g H)|]; lia.
  - exact Hq.
  - apply NoDup_app_snoc; [exact Hk|apply gbu_find_none, Hf].
Qed.

Lemma gbu_open_drop l n wt d : gbu_open l n wt -> In d (map snd l) ->
  gbu_open (gbu_drop d l) n (wt ++ [(d, Done)]).
Proof.
  intros [Hwt Hlt Hg Hk] Hd.
  assert (Hin : forall g, In g (map snd (gbu_drop d l)) -> In g (map snd l) /\ g <> d).
  { intros g Hin. apply in_map_iff in Hin. destruct Hin as [p [<- Hp]]. apply gbu_drop_In in Hp.
    split; [apply in_map|]; tauto. }
  constructor.
  - intros g Hg0. rewrite wterm_of_app, Hwt; cbn [wterm_of].
    + destruct (Nat.eqb_spec g d) as [-> |]; [|reflexivity].
      destruct Hg0 as [H|H]; [apply Hin in H; tauto|specialize (Hlt d Hd); lia].
    + destruct Hg0 as [H|H]; [left; apply Hin, H|right; exact H].
  - intros g Hg0. apply Hlt, Hin, Hg0.
  - apply NoDup_map_filter, Hg.
  - apply NoDup_map_filter, Hk.
Qed.

(* the duration subscriptions once group d has expired *)
Lemma durs_drop d l : NoDup (map snd l) -> hot d = true ->
  remove (S d) (map S (filter hot (map snd l))) = map S (filter hot (map snd (gbu_drop d l))).
Proof.
  intros Hnd Hd. induction l as [|[j g] t IH]; [reflexivity|]. cbn [map snd] in Hnd. apply NoDup_cons_iff in Hnd. destruct Hnd as [Hg Ht].
  unfold gbu_drop. cbn [map snd filter]. fold (gbu_drop d t).
  destruct (Nat.eqb_spec d g) as [->|Hne]; cbn [negb].
  - rewrite Hd, (gbu_drop_notin g t Hg). cbn [map]. rewrite remove_cons, Nat.eqb_refl. reflexivity.
  - cbn [map snd filter]. destruct (hot g); cbn [map]; [|exact (IH Ht)].
    rewrite remove_cons. change (Nat.eqb (S d) (S g)) with (Nat.eqb d g).
    destruct (Nat.eqb_spec d g); [congruence|]. f_equal. exact (IH Ht).
Qed.

(* the list is [r_live (gbu_rs l wt h)]: the runner's test "is port 1+d subscribed" in terms of the spec *)
Lemma mem_live d (l : list (Z * nat)) :
  mem (S d) (0%nat :: map S (filter hot (map snd l))) = gbu_is_live d l && hot d.
Proof.
  rewrite mem_cons. cbn [Nat.eqb orb]. rewrite mem_map_S.
  destruct (mem d (filter hot (map snd l))) eqn:E.
  - apply mem_In, filter_In in E. destruct E as [E1 E2]. rewrite E2, (proj2 (gbu_is_live_In d l) E1). reflexivity.
  - destruct (gbu_is_live d l) eqn:El; [|reflexivity]. destruct (hot d) eqn:Eh; [|reflexivity].
    exfalso. apply (proj1 (mem_false _ _) E). apply filter_In. split; [apply gbu_is_live_In; exact El|exact Eh].
Qed.

(* the runner on a terminal of one group, and on `for wrt in list(writers.values()): wrt.on_xxx()` *)
Lemma apply_win_term (r : rstate W) g (e : ev W) :
  wterm_of g (r_wterm r) = None -> is_terminal e = true -> r_outer r = true ->
  apply_cmd (B:=B) all_imm r (CWin g e)
  = (RState (r_live r) (r_timers r) (r_outer r) (filter (fun j => negb (Nat.eqb g j)) (r_wsubs r))
            (r_wterm r ++ [(g, e)]) (r_handed r) (r_released r),
     repeat (OWin g e) (count_of g (r_wsubs r))).
Proof.
  intros Hw He Ho. cbn [apply_cmd]. rewrite Hw, He. unfold maybe_release. cbn [r_outer]. rewrite Ho.
  cbn [negb andb]. now rewrite app_nil_r.
Qed.

Lemma fanout_eq (e : ev W) : is_terminal e = true -> forall q, NoDup q -> forall r : rstate W,
  r_outer r = true -> (forall g, In g q -> wterm_of g (r_wterm r) = None) ->
  apply_cmds (B:=B) all_imm r (map (fun g => CWin g e) q)
  = (RState (r_live r) (r_timers r) (r_outer r) (filter (fun j => negb (mem j q)) (r_wsubs r))
            (r_wterm r ++ map (fun g => (g, e)) q) (r_handed r) (r_released r),
     flat_map (fun g => repeat (OWin g e) (count_of g (r_wsubs r))) q).
Proof.
  intros He. induction 1 as [|g t Hg Ht IH]; intros r Ho Hw; cbn [map apply_cmds flat_map].
  - rewrite filter_true, app_nil_r. now destruct r.
  - rewrite (apply_win_term r g e (Hw g (or_introl eq_refl)) He Ho), IH;
      cbn [r_live r_timers r_outer r_wsubs r_wterm r_handed r_released].
    + rewrite filter_filter_mem, <- app_assoc. do 2 f_equal. apply flat_map_ext_In. intros j Hj.
      rewrite count_of_filter_other; [reflexivity|]. intros ->. contradiction.
    + exact Ho.
    + intros j Hj. rewrite wterm_of_app, (Hw j (or_intror Hj)). cbn [wterm_of].
      destruct (Nat.eqb_spec j g) as [-> |]; [contradiction|reflexivity].
Qed.

Lemma fanout (e : ev W) : is_terminal e = true -> forall q, NoDup q -> forall r : rstate W,
  r_outer r = true -> (forall g, In g q -> wterm_of g (r_wterm r) = None) ->
  r_live (fst (apply_cmds (B:=B) all_imm r (map (fun g => CWin g e) q))) = r_live r
  /\ r_timers (fst (apply_cmds (B:=B) all_imm r (map (fun g => CWin g e) q))) = r_timers r
  /\ r_outer (fst (apply_cmds (B:=B) all_imm r (map (fun g => CWin g e) q))) = true
  /\ r_released (fst (apply_cmds (B:=B) all_imm r (map (fun g => CWin g e) q))) = r_released r
  /\ r_wsubs (fst (apply_cmds (B:=B) all_imm r (map (fun g => CWin g e) q))) = filter (fun j => negb (mem j q)) (r_wsubs r)
  /\ snd (apply_cmds (B:=B) all_imm r (map (fun g => CWin g e) q))
     = flat_map (fun g => repeat (OWin g e) (count_of g (r_wsubs r))) q.
Proof.
  intros He q Hq r Ho Hw. rewrite (fanout_eq e He q Hq r Ho Hw). repeat split. exact Ho.
Qed.

Lemma route_unsubs (l1 l2 : list nat) : filter is_route (map (@OUnsub W B) l1 ++ map (@OCancel W B) l2) = [].
Proof.
  rewrite filter_app.
  assert (H1 : forall l, filter is_route (map (@OUnsub W B) l) = []) by (induction l; auto).
  assert (H2 : forall l, filter is_route (map (@OCancel W B) l) = []) by (induction l; auto).
  now rewrite H1, H2.
Qed.

Lemma filter_route_wins (e : ev W) (c : nat -> nat) (q : list nat) :
  filter is_route (flat_map (fun g => repeat (@OWin W B g e) (c g)) q) = flat_map (fun g => repeat (@OWin W B g e) (c g)) q.
Proof.
  induction q as [|g t IH]; [reflexivity|]. cbn [flat_map]. rewrite filter_app, IH. f_equal.
  induction (c g) as [|n IHn]; [reflexivity|]. cbn [repeat filter is_route]. now rewrite IHn.
Qed.

Definition fin_of (z : option Z) : fin := match z with None => Complete | Some e => Fail e end.

(* the outer's terminal when no group subscription is left: the runner releases everything *)
Lemma finish_all_ended lv tm (wt : list (nat * ev W)) hd z :
  finish (B:=B) (RState lv tm true [] wt hd false) (fin_of z)
  = (RState [] [] false [] wt hd true, [OEmit (tev z)] ++ map OUnsub (sort_nat lv) ++ map OCancel (sort_nat tm)).
Proof. destruct z; reflexivity. Qed.

(* all groups get the terminal, then the outer: everything is released *)
Lemma finale (r : rstate W) (q : list nat) (z : option Z) :
  r_outer r = true -> r_released r = false -> NoDup q ->
  (forall g, In g q -> wterm_of g (r_wterm r) = None) ->
  (forall j, In j (r_wsubs r) -> In j q) ->
  let a := apply_cmds (B:=B) all_imm r (map (fun g => CWin g (tev z)) q) in
  let b := finish (fst a) (fin_of z) in
  r_live (fst b) = [] /\ r_timers (fst b) = []
  /\ filter is_route (snd a ++ snd b)
     = flat_map (fun g => repeat (OWin g (tev z)) (count_of g (r_wsubs r))) q ++ [OEmit (tev z)].
Proof.
  intros Ho Hr Hq Hw Hs. cbn zeta.
  assert (He : is_terminal (tev (X:=W) z) = true) by (destruct z; reflexivity).
  rewrite (fanout_eq (tev z) He q Hq r Ho Hw), (filter_notin q _ Hs), Ho, Hr. cbn [fst snd].
  rewrite finish_all_ended. cbn [fst snd r_live r_timers]. repeat split.
  rewrite filter_app, filter_route_wins, filter_app, route_unsubs. now destruct z.
Qed.

Lemma wins_live (e : ev W) (q extra : list nat) : NoDup (q ++ extra) ->
  flat_map (fun g => repeat (@OWin W B g e) (count_of g q)) (q ++ extra) = map (fun g => OWin g e) q.
Proof.
  intros Hnd. rewrite flat_map_app.
  rewrite (flat_map_ext_In _ (fun g => [OWin g e]) q), (flat_map_ext_In _ (fun _ => []) extra).
  - replace (flat_map (fun _ => []) extra) with (@nil (obs W B)) by (clear; induction extra; auto).
    rewrite app_nil_r. clear Hnd. induction q as [|g t IH]; [reflexivity|]. cbn [flat_map map app]. now rewrite IH.
  - intros g Hg. rewrite count_of_notin; [reflexivity|]. intros Hin.
    apply in_split in Hg. destruct Hg as [a [b ->]]. rewrite app_assoc in Hnd. apply NoDup_remove_2 in Hnd.
    apply Hnd, in_or_app. left. apply in_or_app. left. exact Hin.
  - intros g Hg. rewrite count_of_nodup; [reflexivity|exact (NoDup_app_l _ _ Hnd)|exact Hg].
Qed.

Lemma end_map (l : list (Z * nat)) (z : option Z) :
  map (fun g => @OWin W B g (tev z)) (map snd l) ++ [OEmit (tev z)] = gbu_end l z.
Proof. unfold gbu_end. now rewrite map_map. Qed.

(* runs the runner on an explicit runner state: only its own functions and projections are unfolded, so
   [mem], [count_of], [wterm_of] stay and are rewritten by the facts about the state *)
Ltac rs := cbn [r_live r_timers r_outer r_wsubs r_wterm r_handed r_released fst snd app apply_cmds apply_cmd
                finish is_terminal all_imm negb andb repeat gbu_rs].

(* nothing is subscribed any more: no auto-detach after the handler *)
Lemma detach_none (r : rstate W) (i : inp A) : r_live r = [] ->
  match i with
  | ISrc k e => if is_terminal e && mem k (r_live r)
                then (RState (remove k (r_live r)) (r_timers r) (r_outer r) (r_wsubs r) (r_wterm r) (r_handed r)
                             (r_released r), [@OUnsub W B k])
                else (r, [])
  | _ => (r, [])
  end = (r, []).
Proof. intros H. destruct i as [k e| | | |]; try reflexivity. rewrite H. now destruct (is_terminal e). Qed.

(* a handler that ends with `for wrt in list(writers.values()): wrt.on_xxx(); observer.on_xxx()`, possibly after
   handing a last group ([pre]); [l'] are the groups subscribed by then, [extra] a writer that was never
   handed (the duration mapper raised) *)
Lemma deliver_end l n wt h now i s' pre q l' extra z :
  x_step M (gbu_ms l n) now i = (s', pre ++ map (fun g => CWin g (tev z)) q, fin_of z) ->
  q = map snd l' ++ extra ->
  let r0 := fst (apply_cmds (B:=B) all_imm (gbu_rs l wt h) pre) in
  r_outer r0 = true -> r_released r0 = false -> r_wsubs r0 = map snd l' ->
  NoDup q -> (forall g, In g q -> wterm_of g (r_wterm r0) = None) ->
  refines (deliver all_imm M (gbu_ms l n) (gbu_rs l wt h) now i)
          (GbuSt [] n true, filter is_route (snd (apply_cmds (B:=B) all_imm (gbu_rs l wt h) pre)) ++ gbu_end l' z).
Proof.
  intros Hx -> r0 Ho Hr Hs Hq Hw. unfold deliver. rewrite Hx, (apply_cmds_app all_imm).
  fold r0. cbn [fst snd].
  destruct (finale r0 _ z Ho Hr Hq Hw) as [F1 [F2 F3]]; [rewrite Hs; intros j Hj; apply in_or_app; left; exact Hj|].
  cbn zeta in *. rewrite Hs, (wins_live _ _ _ Hq), end_map in F3.
  destruct (apply_cmds all_imm r0 _) as [r1 o1]. cbn [fst snd] in *.
  destruct (finish r1 (fin_of z)) as [r2 o2]. cbn [fst snd] in *.
  rewrite (detach_none r2 i F1). unfold refines. cbn [fst snd]. rewrite <- F3, app_nil_r, <- app_assoc, filter_app.
  split; [apply R_over; assumption|reflexivity].
Qed.

Lemma deliver_end_all l n wt h now i z : gbu_open l n wt ->
  x_step M (gbu_ms l n) now i = (gbu_ms l n, gb_all (map wr l) (tev z), fin_of z) ->
  refines (deliver all_imm M (gbu_ms l n) (gbu_rs l wt h) now i) (GbuSt [] n true, gbu_end l z).
Proof.
  intros [Hwt _ Hg _] Hx. unfold gb_all in Hx. rewrite gb_groups_wr in Hx.
  eapply deliver_end with (pre := []) (l' := l) (extra := []); [exact Hx|symmetry; apply app_nil_r|..]; rs; auto.
Qed.

Lemma hot_ok g hb : dur g = Ok hb -> hot g = hb.
Proof. unfold gbu_hot. intros ->. now destruct hb. Qed.

Lemma wr_new k g hb : dur g = Ok hb -> wr (k, g) = (k, g, if hb then S g else 0%nat).
Proof. intros H. unfold wr. cbn [fst snd]. now rewrite (hot_ok g hb H). Qed.

Lemma gb_all_snoc l k n c (e : ev W) :
  gb_all (B:=B) (map wr l ++ [(k, n, c)]) e = map (fun g => CWin g e) (map snd l ++ [n]).
Proof. unfold gb_all, gb_groups. rewrite map_app. fold (gb_groups (map wr l)). now rewrite gb_groups_wr. Qed.

(* a new group is handed (and subscribed at once), its duration is subscribed if it is a real observable *)
Lemma apply_hand l n wt h k (hb : bool) : wterm_of n wt = None ->
  apply_cmds (B:=B) all_imm (gbu_rs l wt h) (CHand n k :: (if hb then [CSub (S n)] else []))
  = (RState ((0%nat :: map S (filter hot (map snd l))) ++ (if hb then [S n] else [])) [] true
            (map snd l ++ [n]) wt (h ++ [n]) false,
     OHand n k :: (if hb then [OSub (S n)] else [])).
Proof.
  intros Hn. assert (Em : mem n (h ++ [n]) = true) by (apply mem_In, in_or_app; right; left; reflexivity).
  destruct hb; rs; unfold sub_win; rs; rewrite Hn, Em; rs; rewrite ?app_nil_r; reflexivity.
Qed.

Lemma gbu_snoc l k n hb wt h : dur n = Ok hb ->
  gbu_ms (l ++ [(k, n)]) (S n) = GbSt (map wr l ++ [(k, n, if hb then S n else 0%nat)]) (S n) (S n)
  /\ gbu_rs (l ++ [(k, n)]) wt h
     = RState ((0%nat :: map S (filter hot (map snd l))) ++ (if hb then [S n] else [])) [] true
              (map snd l ++ [n]) wt h false.
Proof.
  intros Hd. unfold gbu_ms, gbu_rs. rewrite !map_app, filter_app, map_app. cbn [map filter snd].
  rewrite (wr_new k n hb Hd), (hot_ok n hb Hd). destruct hb; split; reflexivity.
Qed.

(* a handler that goes on (no terminal for the outer): the runner state and the output are those of its
   commands, provided the input's own subscription is not one the runner detaches afterwards *)
Lemma deliver_cont (s s' : gb_st) now i cs (r r' : rstate W) o :
  x_step M s now i = (s', cs, Cont) -> apply_cmds (B:=B) all_imm r cs = (r', o) ->
  match i with ISrc k e => is_terminal e && mem k (r_live r') | _ => false end = false ->
  deliver all_imm M s r now i = (s', r', o).
Proof.
  intros Hx Ha Hd. unfold deliver. rewrite Hx, Ha. cbn [finish].
  destruct i as [k e| | | |]; try rewrite Hd; now rewrite !app_nil_r.
Qed.

Lemma deliver_existing l n wt h now x k g y : gbu_open l n wt ->
  key x = Ok k -> gbu_find k l = Some g -> elem x = Ok y ->
  deliver all_imm M (gbu_ms l n) (gbu_rs l wt h) now (ISrc 0%nat (Next x))
  = (gbu_ms l n, gbu_rs l wt h, [OWin g (Next y)]).
Proof.
  intros [Hwt _ Hnd _] Hk Hf He.
  assert (Hg : In g (map snd l)) by (apply gbu_find_In, (in_map snd) in Hf; exact Hf).
  apply (deliver_cont _ _ now _ [CWin g (Next y)]); [|rs|reflexivity].
  - exact (group_existing (B:=B) key elem dur (gbu_ms l n) now x k g y Hk (eq_trans (gb_lookup_wr k l) Hf) He).
  - rewrite (Hwt g (or_introl Hg)), (count_of_nodup g _ Hnd Hg). reflexivity.
Qed.

Lemma deliver_new l n wt h now x k hb y : gbu_open l n wt ->
  key x = Ok k -> gbu_find k l = None -> dur n = Ok hb -> elem x = Ok y ->
  deliver all_imm M (gbu_ms l n) (gbu_rs l wt h) now (ISrc 0%nat (Next x))
  = (gbu_ms (l ++ [(k, n)]) (S n), gbu_rs (l ++ [(k, n)]) wt (h ++ [n]),
     OHand n k :: (if hb then [OSub (S n)] else []) ++ [OWin n (Next y)]).
Proof.
  intros [Hwt Hlt _ _] Hk Hf Hd He.
  assert (Hfresh : ~ In n (map snd l)) by (intros H; specialize (Hlt n H); lia).
  assert (Ec : count_of n (map snd l ++ [n]) = 1%nat).
  { rewrite count_of_app, (count_of_notin _ _ Hfresh). unfold count_of. cbn [filter]. now rewrite Nat.eqb_refl. }
  destruct (gbu_snoc l k n hb wt (h ++ [n]) Hd) as [-> ->].
  apply (deliver_cont _ _ now _ ((CHand n k :: if hb then [CSub (S n)] else []) ++ [CWin n (Next y)])); [| |reflexivity].
  - exact (group_new (B:=B) key elem dur (gbu_ms l n) now x k hb y Hk (eq_trans (gb_lookup_wr k l) Hf) Hd He).
  - rewrite (apply_cmds_app all_imm), (apply_hand l n wt h k hb (Hwt n (or_intror (le_n _)))). rs.
    rewrite (Hwt n (or_intror (le_n _))), Ec. destruct hb; reflexivity.
Qed.

Lemma deliver_expire l n wt h now d (e : ev A) : gbu_open l n wt ->
  gbu_is_live d l = true -> hot d = true -> (forall z, e <> Err z) ->
  deliver all_imm M (gbu_ms l n) (gbu_rs l wt h) now (ISrc (S d) e)
  = (gbu_ms (gbu_drop d l) n, gbu_rs (gbu_drop d l) (wt ++ [(d, Done)]) h, [OWin d Done; OUnsub (S d)]).
Proof.
  intros [Hwt _ Hg Hk] El Eh He.
  destruct (gb_by_dur_wr d l Hg El Eh) as [k [Hin Hby]].
  assert (Hd : In d (map snd l)) by (apply gbu_is_live_In; exact El).
  apply (deliver_cont _ _ now _ [CWin d Done; CUnsub (S d)]).
  - rewrite (group_expire (B:=B) key elem dur (gbu_ms l n) now d e k d He Hby).
    cbn [gbu_ms gb_writers gb_next gb_calls]. now rewrite (gb_del_wr k d l Hg Hk Hin).
  - rs. rewrite (Hwt d (or_introl Hd)), (count_of_nodup d _ Hg Hd). rs. unfold maybe_release. rs.
    rewrite mem_live, El, Eh. rs.
    rewrite remove_cons. cbn [Nat.eqb]. rewrite (durs_drop d l Hg Eh), <- map_snd_drop. reflexivity.
  - cbn [gbu_rs r_live]. rewrite mem_live, gbu_drop_dead. apply andb_false_r.
Qed.

(* the element mapper raises on the first element of a new group: handed, then errored with all the others *)
Lemma deliver_new_elem_raises l n wt h now x k hb e : gbu_open l n wt ->
  key x = Ok k -> gbu_find k l = None -> dur n = Ok hb -> elem x = Raise e ->
  refines (deliver all_imm M (gbu_ms l n) (gbu_rs l wt h) now (ISrc 0%nat (Next x)))
          (GbuSt [] n true, OHand n k :: gbu_end (l ++ [(k, n)]) (Some e)).
Proof.
  intros HO Hk Ef Hd He.
  pose proof (group_elem_raises_new (B:=B) key elem dur (gbu_ms l n) now x k hb e Hk
                (eq_trans (gb_lookup_wr k l) Ef) Hd He) as Hx.
  cbn zeta in Hx. cbn [gbu_ms gb_writers gb_next gb_calls] in Hx. rewrite gb_all_snoc, app_comm_cons in Hx.
  destruct (gbu_open_fresh l n wt HO) as [Hq Hwq].
  pose proof (deliver_end l n wt h now _ _ _ _ (l ++ [(k, n)]) [] (Some e) Hx
                (eq_sym (eq_trans (app_nil_r _) (map_app snd l [(k, n)])))) as D.
  cbn zeta in D. rewrite (apply_hand l n wt h k hb (go_wt _ _ _ HO n (or_intror (le_n n)))) in D.
  cbn [fst snd r_outer r_released r_wsubs r_wterm] in D.
  destruct hb; exact (D eq_refl eq_refl (eq_sym (map_app snd l [(k, n)])) Hq Hwq).
Qed.

(* the duration mapper raises: the group is created but never handed *)
Lemma deliver_dur_raises l n wt h now x k e : gbu_open l n wt ->
  key x = Ok k -> gbu_find k l = None -> dur n = Raise e ->
  refines (deliver all_imm M (gbu_ms l n) (gbu_rs l wt h) now (ISrc 0%nat (Next x)))
          (GbuSt [] n true, gbu_end l (Some e)).
Proof.
  intros HO Hk Ef Hd.
  pose proof (group_dur_raises (B:=B) key elem dur (gbu_ms l n) now x k e Hk (eq_trans (gb_lookup_wr k l) Ef) Hd) as Hx.
  cbn [gbu_ms gb_writers gb_next gb_calls] in Hx. rewrite gb_all_snoc in Hx.
  destruct (gbu_open_fresh l n wt HO) as [Hq Hwq].
  eapply deliver_end with (pre := []) (l' := l) (extra := [n]); [exact Hx|..]; (reflexivity || assumption).
Qed.

Lemma gbu_refine_step s (r : rstate W) st now i : gbu_R s r st -> is_port i = true ->
  refines (rstep all_imm M s r now i) (step st i).
Proof.
  intros [l n wt h HO|s0 r0 n Hl Ht] Hp; unfold gbu_step; cbn [gbu_over gbu_live gbu_next];
    [|(* over: the runner drops everything *)
      destruct i as [k e|tag| | |]; try discriminate; cbn [rstep]; rewrite ?Hl, ?Ht;
        (split; [apply R_over; assumption|reflexivity])].
  destruct i as [[|d] e|tag| | |]; try discriminate; cbn [rstep gbu_rs r_live r_timers].
  - (* the source port *)
    rewrite mem_cons. cbn [Nat.eqb orb]. fold (gbu_rs l wt h).
    destruct e as [x|z|].
    + destruct (key x) as [k|e] eqn:Hk; [|apply (deliver_end_all l n wt h now _ (Some e) HO), group_key_raises, Hk].
      destruct (gbu_find k l) as [g|] eqn:Ef.
      * destruct (elem x) as [y|e] eqn:He.
        -- rewrite (deliver_existing l n wt h now x k g y HO Hk Ef He). split; [apply R_open, HO|reflexivity].
        -- apply (deliver_end_all l n wt h now _ (Some e) HO).
           exact (group_elem_raises_existing (B:=B) key elem dur (gbu_ms l n) now x k g e Hk (eq_trans (gb_lookup_wr k l) Ef) He).
      * destruct (dur n) as [hb|e] eqn:Hd.
        -- destruct (elem x) as [y|e] eqn:He.
           ++ rewrite (deliver_new l n wt h now x k hb y HO Hk Ef Hd He).
              split; [apply R_open, gbu_open_snoc; assumption|destruct hb; reflexivity].
           ++ exact (deliver_new_elem_raises l n wt h now x k hb e HO Hk Ef Hd He).
        -- exact (deliver_dur_raises l n wt h now x k e HO Hk Ef Hd).
    + apply (deliver_end_all l n wt h now _ (Some z) HO), group_source_error.
    + apply (deliver_end_all l n wt h now _ None HO), group_source_done.
  - (* a duration port *)
    rewrite mem_live. fold (gbu_rs l wt h).
    destruct (gbu_is_live d l && hot d) eqn:El; [|split; [apply R_open, HO|reflexivity]].
    apply andb_prop in El. destruct El as [El Eh].
    assert (Hexp : forall e0 : ev A, (forall z, e0 <> Err z) ->
              refines (deliver all_imm M (gbu_ms l n) (gbu_rs l wt h) now (ISrc (S d) e0))
                      (GbuSt (gbu_drop d l) n false, [OWin d Done])).
    { intros e0 He0. rewrite (deliver_expire l n wt h now d e0 HO El Eh He0).
      split; [apply R_open, gbu_open_drop, gbu_is_live_In; assumption|reflexivity]. }
    destruct e as [x|z|]; [apply Hexp; discriminate| |apply Hexp; discriminate].
    apply (deliver_end_all l n wt h now _ (Some z) HO), group_source_error.
  - split; [apply R_open, HO|reflexivity].
Qed.

Lemma gbu_refine_run ins : forall s (r : rstate W) st k, gbu_R s r st -> ports_only ins ->
  routing (fst (run_from all_imm M s r k ins)) = gbu_run (B:=B) key elem dur st k ins
  /\ gbu_R (fst (after all_imm M s r ins)) (snd (after all_imm M s r ins)) (gbu_after (W:=W) (B:=B) key elem dur st ins).
Proof.
  induction ins as [|[now i] rest IH]; intros s r st k HR Hp; [split; [reflexivity|exact HR]|].
  destruct (gbu_refine_step s r st now i HR (Hp (now, i) (or_introl eq_refl))) as [HR' Ho].
  rewrite run_from_cons. cbn [fst gbu_run after gbu_after].
  destruct (rstep all_imm M s r now i) as [[s' r'] o]. cbn [fst snd] in *.
  destruct (IH s' r' (fst (step st i)) (S k) HR' (fun p Hin => Hp p (or_intror Hin))) as [I1 I2].
  split; [|exact I2]. rewrite routing_app, routing_tag, Ho, I1. reflexivity.
Qed.

Lemma gbu_R_nodup s (r : rstate W) st : gbu_R s r st ->
  NoDup (map fst (gbu_live st)) /\ NoDup (map snd (gbu_live st)).
Proof. intros [l n wt h [_ _ Hg Hk]|s0 r0 n _ _]; split; try assumption; constructor. Qed.

Lemma gbu_R_start : gbu_R (fst (start_state all_imm M)) (snd (start_state all_imm M)) gbu_init.
Proof.
  apply (R_open [] 0 [] []). constructor; [reflexivity|intros g []|constructor|constructor].
Qed.

(* THEOREM (C19, group_by_until at run level): for every interleaving of the source port and the
   duration ports, every callback, every group subscribed when handed: the routing part of the
   trace is the trace of the functional specification *)
Theorem group_by_until_refines_spec (ins : list (Z * inp A)) : ports_only ins ->
  routing (fst (run all_imm M ins)) = gbu_spec (B:=B) key elem dur ins.
Proof.
  intros Hp. rewrite run_unfold. cbn [fst]. rewrite routing_app.
  destruct (gbu_refine_run ins _ _ gbu_init 1%nat gbu_R_start Hp) as [H _]. rewrite H. reflexivity.
Qed.
End Refine.

Section Consequences.
Context {A W B : Type}.
Variables (key : A -> res Z) (elem : A -> res W) (dur : nat -> res bool).
Notation M := (x_group_by_until (B:=B) key elem dur).
Notation step := (gbu_step (B:=B) key elem dur).
Notation after_ := (gbu_after (W:=W) (B:=B) key elem dur).
Notation run_ := (gbu_run (B:=B) key elem dur).

Lemma gbu_run_app (a : list (Z * inp A)) : forall st k b,
  run_ st k (a ++ b) = run_ st k a ++ run_ (after_ st a) (k + length a) b.
Proof.
  induction a as [|[now i] t IH]; intros st k b; cbn [app gbu_run gbu_after length].
  - now rewrite Nat.add_0_r.
  - rewrite IH, <- app_assoc, Nat.add_succ_r. reflexivity.
Qed.

Lemma gbu_over_silent (ins : list (Z * inp A)) : forall st k, gbu_over st = true ->
  run_ st k ins = [] /\ after_ st ins = st.
Proof.
  induction ins as [|[now i] t IH]; intros st k Ho; [auto|]. cbn [gbu_run gbu_after].
  assert (E : step st i = (st, [])) by (unfold gbu_step; now rewrite Ho).
  rewrite E. cbn [fst snd map app]. apply IH. exact Ho.
Qed.

Lemma ports_only_app (a b : list (Z * inp A)) : ports_only (a ++ b) -> ports_only a /\ ports_only b.
Proof. intros H. split; intros p Hp; apply H, in_or_app; auto. Qed.

Lemma gbu_input_run pre now i post : ports_only (pre ++ (now, i) :: post) ->
  routing (fst (run all_imm M (pre ++ (now, i) :: post)))
  = routing (fst (run all_imm M pre)) ++ map (fun o => (S (length pre), o)) (snd (step (after_ gbu_init pre) i))
    ++ run_ (fst (step (after_ gbu_init pre) i)) (S (S (length pre))) post.
Proof.
  intros Hp. rewrite (group_by_until_refines_spec key elem dur _ Hp).
  rewrite (group_by_until_refines_spec key elem dur pre (proj1 (ports_only_app _ _ Hp))).
  unfold gbu_spec. rewrite gbu_run_app. reflexivity.
Qed.

(* an input that ends everything: the trace is the trace up to it, then that input's routing -- nothing after *)
Theorem gbu_ending_run pre now i post : ports_only (pre ++ (now, i) :: post) ->
  gbu_over (fst (step (after_ gbu_init pre) i)) = true ->
  routing (fst (run all_imm M (pre ++ (now, i) :: post)))
  = routing (fst (run all_imm M pre)) ++ map (fun o => (S (length pre), o)) (snd (step (after_ gbu_init pre) i)).
Proof.
  intros Hp Ho. rewrite (gbu_input_run pre now i post Hp), (proj1 (gbu_over_silent post _ _ Ho)), app_nil_r.
  reflexivity.
Qed.
End Consequences.

(* group g got a terminal in the trace *)
Definition ends {W B} (g : nat) (o : obs W B) : bool :=
  match o with OWin j e => Nat.eqb g j && is_terminal e | _ => false end.
Definition ended_in {W B} (g : nat) (tr : list (nat * obs W B)) : bool := existsb (fun x => ends g (snd x)) tr.
(* the groups that were handed and have not ended, with their keys, in hand-over order *)
Definition trace_live {W B} (tr : list (nat * obs W B)) : list (Z * nat) :=
  map (fun p => (snd p, fst p)) (filter (fun p => negb (ended_in (fst p) tr)) (hands tr)).
Definition outer_open {W B} (tr : list (nat * obs W B)) : bool := match emitted tr with [] => true | _ => false end.

Section TraceState.
Context {A W B : Type}.
Variables (key : A -> res Z) (elem : A -> res W) (dur : nat -> res bool).
Notation step := (gbu_step (W:=W) (B:=B) key elem dur).
Notation after_ := (gbu_after (W:=W) (B:=B) key elem dur).
Notation run_ := (gbu_run (W:=W) (B:=B) key elem dur).
Notation tag k := (fun x : obs W B => (k, x)).

Lemma ended_in_app g (a b : list (nat * obs W B)) : ended_in g (a ++ b) = ended_in g a || ended_in g b.
Proof. unfold ended_in. apply existsb_app. Qed.
Lemma ended_in_tag g k (o : list (obs W B)) : ended_in g (map (tag k) o) = existsb (ends g) o.
Proof. unfold ended_in. induction o as [|x t IH]; [reflexivity|]. cbn [map existsb snd]. now rewrite IH. Qed.
Lemma emitted_app (a b : list (nat * obs W B)) : emitted (a ++ b) = emitted a ++ emitted b.
Proof. unfold emitted. apply flat_map_app. Qed.

Lemma ends_end g (l : list (Z * nat)) z : existsb (ends g) (gbu_end (W:=W) (B:=B) l z) = gbu_is_live g l.
Proof.
  unfold gbu_end, gbu_is_live. rewrite existsb_app. cbn [existsb ends orb]. rewrite orb_false_r.
  induction l as [|p t IH]; [reflexivity|]. cbn [map existsb ends]. rewrite IH.
  assert (E : is_terminal (tev (X:=W) z) = true) by (destruct z; reflexivity). rewrite E, andb_true_r. reflexivity.
Qed.
Lemma hobs_end (l : list (Z * nat)) z : hobs (gbu_end (W:=W) (B:=B) l z) = [].
Proof. unfold gbu_end. rewrite hobs_app. cbn [hobs flat_map app]. rewrite app_nil_r. induction l; auto. Qed.
Lemma emitted_end k (l : list (Z * nat)) z : emitted (map (tag k) (gbu_end (W:=W) (B:=B) l z)) = [tev z].
Proof.
  unfold gbu_end. rewrite map_app, emitted_app. cbn [map emitted flat_map snd app].
  replace (emitted (map (tag k) (map (fun p : Z * nat => OWin (snd p) (tev z)) l))) with (@nil (ev B)); [reflexivity|].
  induction l; auto.
Qed.

Lemma trace_live_app (tr new : list (nat * obs W B)) :
  trace_live (tr ++ new)
  = filter (fun q => negb (ended_in (snd q) new)) (trace_live tr)
    ++ map (fun p => (snd p, fst p))
           (filter (fun p => negb (ended_in (fst p) tr) && negb (ended_in (fst p) new)) (hands new)).
Proof.
  unfold trace_live. rewrite hands_app, filter_app, map_app. f_equal.
  - induction (hands tr) as [|p t IH]; [reflexivity|]. cbn [filter]. rewrite ended_in_app.
    destruct (ended_in (fst p) tr); cbn [orb negb]; [exact IH|].
    cbn [map filter snd fst]. destruct (ended_in (fst p) new); cbn [negb map]; now rewrite IH.
  - f_equal. apply filter_ext. intros p. rewrite ended_in_app. now destruct (ended_in (fst p) tr), (ended_in (fst p) new).
Qed.

Lemma ended_not_live d k (tr : list (nat * obs W B)) :
  gbu_is_live d (trace_live (tr ++ [(k, OWin d Done)])) = false.
Proof.
  rewrite trace_live_app. cbn [hands flat_map snd filter map]. rewrite app_nil_r.
  destruct (gbu_is_live d (filter _ (trace_live tr))) eqn:El; [|reflexivity].
  apply gbu_is_live_In, in_map_iff in El. destruct El as [p [Hp1 Hp2]]. apply filter_In in Hp2. destruct Hp2 as [_ Hp2].
  unfold ended_in in Hp2. cbn [existsb ends snd is_terminal] in Hp2. rewrite Hp1, Nat.eqb_refl in Hp2. discriminate.
Qed.

Lemma filter_all_live (l : list (Z * nat)) (f : nat -> bool) : (forall p, In p l -> f (snd p) = true) ->
  filter (fun q => negb (f (snd q))) l = [].
Proof.
  induction l as [|p t IH]; intros H; [reflexivity|]. cbn [filter]. rewrite (H p (or_introl eq_refl)). cbn [negb].
  apply IH. intros q Hq. apply H. right. exact Hq.
Qed.

Lemma is_live_self (l : list (Z * nat)) p : In p l -> gbu_is_live (snd p) l = true.
Proof. intros H. apply gbu_is_live_In. apply in_map. exact H. Qed.

Record tinv (st : gbu_st) (tr : list (nat * obs W B)) : Prop := {
  ti_live : gbu_live st = trace_live tr;
  ti_over : gbu_over st = negb (outer_open tr);
  ti_next : gbu_over st = false -> gbu_next st = length (hands tr);
  ti_lt : forall p, In p (gbu_live st) -> (snd p < gbu_next st)%nat;
  ti_ended : gbu_over st = false -> forall g, ended_in g tr = true -> (g < gbu_next st)%nat }.

Lemma tinv_open st tr : tinv st tr -> gbu_over st = false ->
  gbu_live st = trace_live tr /\ emitted tr = [] /\ gbu_next st = length (hands tr)
  /\ (forall p, In p (gbu_live st) -> (snd p < gbu_next st)%nat)
  /\ (forall g, ended_in g tr = true -> (g < gbu_next st)%nat).
Proof.
  intros [Hl Ho Hn Hlt He] Eo. repeat split; auto.
  rewrite Eo in Ho. unfold outer_open in Ho. destruct (emitted tr); [reflexivity|discriminate].
Qed.

(* The four shapes of what a step appends to an open trace.  Nothing handed, ended or emitted: same state *)
Lemma tinv_same st tr k (o : list (obs W B)) : tinv st tr -> gbu_over st = false ->
  hobs o = [] -> (forall g, existsb (ends g) o = false) -> emitted (map (tag k) o) = [] ->
  tinv st (tr ++ map (tag k) o).
Proof.
  intros H Eo H1 H2 H3. destruct (tinv_open st tr H Eo) as (Hl & Hopen & Hn & Hlt & He). constructor; rewrite ?Eo.
  - rewrite trace_live_app, hands_tag, H1. cbn [filter map]. rewrite app_nil_r, Hl.
    symmetry. erewrite filter_ext; [apply filter_true|]. intros q. cbn beta. now rewrite ended_in_tag, H2.
  - unfold outer_open. now rewrite emitted_app, H3, app_nil_r, Hopen.
  - intros _. now rewrite hands_app, hands_tag, H1, app_nil_r.
  - exact Hlt.
  - intros _ g. rewrite ended_in_app, ended_in_tag, H2, orb_false_r. apply He.
Qed.

(* every live group and the outer get a terminal: over (the invariant says nothing about the id counter of a state that is over) *)
Lemma tinv_stop st tr k z n : tinv st tr -> gbu_over st = false ->
  tinv (GbuSt [] n true) (tr ++ map (tag k) (gbu_end (gbu_live st) z)).
Proof.
  intros H Eo. destruct (tinv_open st tr H Eo) as (Hl & Hopen & _). constructor; cbn [gbu_live gbu_over gbu_next]; try discriminate.
  - rewrite trace_live_app, hands_tag, hobs_end. cbn [filter map]. rewrite app_nil_r, <- Hl.
    symmetry. apply (filter_all_live (gbu_live st) (fun g => ended_in g (map (tag k) (gbu_end (gbu_live st) z)))).
    intros p Hp. rewrite ended_in_tag, ends_end. apply is_live_self. exact Hp.
  - unfold outer_open. rewrite emitted_app, emitted_end, Hopen. reflexivity.
  - intros p [].
Qed.

Lemma tinv_hand st tr k kx : tinv st tr -> gbu_over st = false ->
  tinv (GbuSt (gbu_live st ++ [(kx, gbu_next st)]) (S (gbu_next st)) false) (tr ++ map (tag k) [OHand (gbu_next st) kx]).
Proof.
  intros H Eo. destruct (tinv_open st tr H Eo) as (Hl & Hopen & Hn & Hlt & He).
  assert (Hfresh : ended_in (gbu_next st) tr = false).
  { destruct (ended_in (gbu_next st) tr) eqn:E; [|reflexivity]. specialize (He _ E). lia. }
  constructor; cbn [gbu_live gbu_over gbu_next].
  - rewrite trace_live_app, hands_tag. cbn [hobs flat_map app filter fst]. rewrite Hfresh. cbn [negb andb map fst snd].
    rewrite <- Hl. f_equal. symmetry. erewrite filter_ext; [apply filter_true|]. reflexivity.
  - unfold outer_open. now rewrite emitted_app, Hopen.
  - intros _. rewrite hands_app, hands_tag, app_length, <- Hn. cbn. lia.
  - intros p Hp. apply in_app_or in Hp. destruct Hp as [Hp|[<-|[]]]; [specialize (Hlt p Hp); lia|cbn; lia].
  - intros _ j. rewrite ended_in_app, orb_false_r. intros Hj. specialize (He j Hj). lia.
Qed.

Lemma tinv_drop st tr k d : tinv st tr -> gbu_over st = false -> gbu_is_live d (gbu_live st) = true ->
  tinv (GbuSt (gbu_drop d (gbu_live st)) (gbu_next st) false) (tr ++ map (tag k) [OWin d Done]).
Proof.
  intros H Eo El. destruct (tinv_open st tr H Eo) as (Hl & Hopen & Hn & Hlt & He).
  constructor; cbn [gbu_live gbu_over gbu_next].
  - rewrite trace_live_app, hands_tag. cbn [hobs flat_map filter map]. rewrite app_nil_r, <- Hl. unfold gbu_drop.
    apply filter_ext. intros q. unfold ended_in. cbn [existsb ends snd map is_terminal].
    now rewrite andb_true_r, orb_false_r, Nat.eqb_sym.
  - unfold outer_open. now rewrite emitted_app, Hopen.
  - intros _. rewrite hands_app, hands_tag. cbn [hobs flat_map]. now rewrite app_nil_r.
  - intros p Hp. apply gbu_drop_In in Hp. apply Hlt, Hp.
  - intros _ j. rewrite ended_in_app, ended_in_tag. cbn [existsb ends is_terminal]. rewrite andb_true_r, orb_false_r.
    intros Hj. apply orb_prop in Hj. destruct Hj as [Hj|Hj]; [apply He; exact Hj|].
    apply Nat.eqb_eq in Hj. subst j. apply gbu_is_live_In, in_map_iff in El.
    destruct El as [p [<- Hp]]. apply Hlt, Hp.
Qed.

Lemma tinv_step st tr k i : tinv st tr -> tinv (fst (step st i)) (tr ++ map (tag k) (snd (step st i))).
Proof.
  intros H. unfold gbu_step. destruct (gbu_over st) eqn:Eo; [cbn [fst snd map]; now rewrite app_nil_r|].
  pose proof (fun z => tinv_stop st tr k z (gbu_next st) H Eo) as Stop.
  assert (Next1 : forall st' tr' g (y : W), tinv st' tr' -> gbu_over st' = false -> tinv st' (tr' ++ map (tag k) [OWin g (Next y)])).
  { intros st' tr' g y H' Eo'. apply tinv_same; [exact H'|exact Eo'|reflexivity| |reflexivity].
    intros j. cbn [existsb ends is_terminal]. now rewrite andb_false_r. }
  destruct i as [[|d] e|tag0| | |]; try (cbn [fst snd map]; now rewrite app_nil_r).
  - destruct e as [x|z|]; [|apply (Stop (Some z))|apply (Stop None)].
    destruct (key x) as [kx|e]; [|apply (Stop (Some e))].
    destruct (gbu_find kx (gbu_live st)) as [g|] eqn:Ef.
    + destruct (elem x) as [y|e]; [apply Next1; assumption|apply (Stop (Some e))].
    + (* a new group is handed, then gets the element or everything errors *)
      destruct (dur (gbu_next st)) as [hb|e]; [|apply (Stop (Some e))].
      pose proof (tinv_hand st tr k kx H Eo) as Hand.
      destruct (elem x) as [y|e]; cbn [fst snd].
      * change (tr ++ map (tag k) [OHand (gbu_next st) kx; OWin (gbu_next st) (Next y)])
          with (tr ++ map (tag k) [OHand (gbu_next st) kx] ++ map (tag k) [OWin (gbu_next st) (Next y)]).
        rewrite app_assoc. apply Next1; [exact Hand|reflexivity].
      * change (tr ++ map (tag k) (OHand (gbu_next st) kx :: ?l)) with (tr ++ map (tag k) [OHand (gbu_next st) kx] ++ map (tag k) l).
        rewrite app_assoc. exact (tinv_stop _ _ k (Some e) (gbu_next st) Hand eq_refl).
  - (* a duration port: an error ends everything, anything else completes group d alone *)
    destruct (gbu_is_live d (gbu_live st) && gbu_hot dur d) eqn:El; [|cbn [fst snd map]; now rewrite app_nil_r].
    apply andb_prop in El. destruct El as [El _].
    destruct e as [x|z|]; [|apply (Stop (Some z))|]; exact (tinv_drop st tr k d H Eo El).
Qed.

Lemma tinv_run ins : forall st tr k, tinv st tr -> tinv (after_ st ins) (tr ++ run_ st k ins).
Proof.
  induction ins as [|[now i] rest IH]; intros st tr k H; cbn [gbu_after gbu_run]; [now rewrite app_nil_r|].
  rewrite app_assoc. apply IH. apply tinv_step. exact H.
Qed.

Lemma tinv_init : tinv gbu_init [].
Proof. constructor; cbn; auto; try discriminate. intros p []. Qed.

(* the spec's state after any input sequence IS what its trace shows: the live map is the list of
   groups handed and not ended, "over" = the outer got its terminal, the next id = groups handed so far *)
Theorem gbu_state_is_trace_state (ins : list (Z * inp A)) :
  let st := after_ gbu_init ins in
  let tr := gbu_spec (W:=W) (B:=B) key elem dur ins in
  gbu_live st = trace_live tr /\ gbu_over st = negb (outer_open tr)
  /\ (gbu_over st = false -> gbu_next st = length (hands tr)).
Proof.
  cbn zeta. destruct (tinv_run ins gbu_init [] 1%nat tinv_init) as [H1 H2 H3 _ _]. cbn [app] in *. auto.
Qed.
End TraceState.

Section TraceStateDef.
Context {W B : Type}.
(* the state of the specification that a trace shows (gbu_state_is_trace_state) *)
Definition trace_state (tr : list (nat * obs W B)) : gbu_st :=
  GbuSt (trace_live tr) (length (hands tr)) (negb (outer_open tr)).
End TraceStateDef.

(* the specification's step from the state an open trace shows ([Ho : outer_open tr = true]) *)
Ltac open_step Ho := unfold trace_state; rewrite Ho; cbn [negb gbu_step gbu_over gbu_live gbu_next].

Section TraceLevel.
Context {A W B : Type}.
Variables (key : A -> res Z) (elem : A -> res W) (dur : nat -> res bool).
Notation M := (x_group_by_until (B:=B) key elem dur).
Notation step := (gbu_step (W:=W) (B:=B) key elem dur).
Notation after_ := (gbu_after (W:=W) (B:=B) key elem dur).
Notation TR ins := (routing (fst (run all_imm M ins))).
Notation tag k := (fun x : obs W B => (k, x)).

Lemma run_state pre : ports_only pre ->
  gbu_live (after_ gbu_init pre) = trace_live (TR pre)
  /\ gbu_over (after_ gbu_init pre) = negb (outer_open (TR pre))
  /\ (gbu_over (after_ gbu_init pre) = false -> gbu_next (after_ gbu_init pre) = length (hands (TR pre))).
Proof.
  intros Hp. rewrite (group_by_until_refines_spec key elem dur pre Hp).
  apply (gbu_state_is_trace_state key elem dur pre).
Qed.

Lemma step_trace_state pre i : ports_only pre ->
  snd (step (after_ gbu_init pre) i) = snd (step (trace_state (TR pre)) i)
  /\ gbu_over (fst (step (after_ gbu_init pre) i)) = gbu_over (fst (step (trace_state (TR pre)) i)).
Proof.
  intros Hp. destruct (run_state pre Hp) as [H1 [H2 H3]].
  destruct (after_ gbu_init pre) as [live next over] eqn:E. cbn [gbu_live gbu_next gbu_over] in *.
  unfold trace_state. rewrite <- H1, <- H2. destruct over.
  - cbn [gbu_step gbu_over negb]. split; reflexivity.
  - rewrite <- (H3 eq_refl). split; reflexivity.
Qed.

(* THEOREM: what the next input adds to the trace is the specification's step from the state that the
   trace so far shows (groups handed and not ended; outer open or not; number of groups handed) *)
Theorem gbu_next_input_run pre now i : ports_only (pre ++ [(now, i)]) ->
  TR (pre ++ [(now, i)]) = TR pre ++ map (tag (S (length pre))) (snd (step (trace_state (TR pre)) i)).
Proof.
  intros Hp. rewrite (gbu_input_run key elem dur pre now i [] Hp). cbn [gbu_run]. rewrite app_nil_r.
  now rewrite (proj1 (step_trace_state pre i (proj1 (ports_only_app _ _ Hp)))).
Qed.

(* an input on which the specification, stepping from the state the trace shows, is over afterwards:
   its routing is all that is added, whatever follows *)
Lemma gbu_ending_trace pre now i post st' o : ports_only (pre ++ (now, i) :: post) ->
  step (trace_state (TR pre)) i = (st', o) -> gbu_over st' = true ->
  TR (pre ++ (now, i) :: post) = TR pre ++ map (tag (S (length pre))) o.
Proof.
  intros Hp E Ho. destruct (step_trace_state pre i (proj1 (ports_only_app _ _ Hp))) as [E1 E2].
  rewrite E in E1, E2. cbn [fst snd] in *.
  rewrite (gbu_ending_run key elem dur pre now i post Hp), E1; [reflexivity|]. rewrite E2. exact Ho.
Qed.

Lemma ports_only_snoc pre now (i : inp A) : ports_only pre -> is_port i = true -> ports_only (pre ++ [(now, i)]).
Proof. intros Hpre Hi p Hin. apply in_app_or in Hin. destruct Hin as [Hin|[<-|[]]]; [apply Hpre; exact Hin|exact Hi]. Qed.

Lemma open_element (tr : list (nat * obs W B)) x k y :
  outer_open tr = true -> key x = Ok k -> elem x = Ok y ->
  (gbu_find k (trace_live tr) = None -> exists h, dur (length (hands tr)) = Ok h) ->
  snd (step (trace_state tr) (ISrc 0%nat (Next x)))
  = match gbu_find k (trace_live tr) with
    | Some g => [OWin g (Next y)]
    | None => [OHand (length (hands tr)) k; OWin (length (hands tr)) (Next y)]
    end.
Proof.
  intros Ho Hk He Hd. open_step Ho. rewrite Hk.
  destruct (gbu_find k (trace_live tr)); [now rewrite He|].
  destruct (Hd eq_refl) as [h Hh]. now rewrite Hh, He.
Qed.

Lemma open_expiry (tr : list (nat * obs W B)) d (e : ev A) :
  outer_open tr = true -> (forall z, e <> Err z) ->
  snd (step (trace_state tr) (ISrc (S d) e))
  = if gbu_is_live d (trace_live tr) && gbu_hot dur d then [OWin d Done] else [].
Proof.
  intros Ho He. open_step Ho.
  destruct (gbu_is_live d (trace_live tr) && gbu_hot dur d); [|reflexivity].
  destruct e as [x|z|]; [reflexivity|exfalso; apply (He z); reflexivity|reflexivity].
Qed.

End TraceLevel.
