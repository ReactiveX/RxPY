(* C19: group_by -- run-level closed form ("dict of lists by key") for total key
   and element functions, every finite source and every termination, every
   group subscribed when it is handed:
     groups are handed in the order in which their keys first occur;
     group j (key k_j) receives exactly the mapped elements whose key is k_j,
     in arrival order, then the source's terminal. *)
From RxVerif Require Import Base.Prelude Ops.Machine Ops.MultiFacts Ops.MultiWin Ops.MultiWinFacts
  Ops.WindowCountFacts Ops.Groups Ops.GroupFacts Ops.GroupUntilRunFacts.

Lemma ports_only_src {A} (xs : list A) tm : ports_only (src_events xs tm).
Proof.
  intros p Hp. apply in_app_or in Hp.
  destruct Hp as [Hp|Hp]; apply in_map_iff in Hp; destruct Hp as [x [<- _]]; reflexivity.
Qed.

Section GroupRun.
Context {A W B : Type}.
Variables (kf : A -> Z) (ef : A -> W).
Notation M := (x_group_by (B:=B) (fun x => Ok (kf x)) (fun x => Ok (ef x))).

(* keys in first-occurrence order, not counting those already seen *)
Fixpoint new_keys (seen : list Z) (ys : list A) : list Z :=
  match ys with
  | [] => []
  | y :: t => if existsb (Z.eqb (kf y)) seen then new_keys seen t
              else kf y :: new_keys (seen ++ [kf y]) t
  end.
Definition distinct_keys (xs : list A) : list Z := new_keys [] xs.

(* writers table: group g (= its position) <-> key *)
Definition gb_aligned (ws : list (Z * nat * nat)) (n : nat) : Prop :=
  gb_groups ws = seq 0 n /\ NoDup (gb_keys ws).

Lemma gb_aligned_len ws n : gb_aligned ws n -> length ws = n.
Proof. intros [H _]. unfold gb_groups in H. apply (f_equal (@length nat)) in H. now rewrite map_length, seq_length in H. Qed.

Lemma gb_lookup_nth ws : forall n0 k g, gb_groups ws = seq n0 (length ws) -> gb_lookup k ws = Some g ->
  (n0 <= g)%nat /\ nth_error (gb_keys ws) (g - n0) = Some k.
Proof.
  induction ws as [|[[j g0] c] t IH]; intros n0 k g Hg; [discriminate|].
  cbn [gb_groups map fst snd length seq] in Hg. injection Hg as -> Hg. cbn [gb_lookup gb_keys map fst].
  destruct (Z.eqb_spec j k) as [->|Hne].
  - intros [= <-]. split; [lia|]. now rewrite Nat.sub_diag.
  - intros H. destruct (IH (S n0) k g Hg H) as [Hle Hn]. split; [lia|].
    replace (g - n0)%nat with (S (g - S n0)) by lia. exact Hn.
Qed.

Lemma gb_lookup_aligned ws n k g : gb_aligned ws n -> gb_lookup k ws = Some g -> nth_error (gb_keys ws) g = Some k.
Proof.
  intros Ha H. pose proof (gb_aligned_len ws n Ha) as Hl. destruct Ha as [Hg _]. rewrite <- Hl in Hg.
  destruct (gb_lookup_nth ws 0 k g Hg H) as [_ Hn]. now rewrite Nat.sub_0_r in Hn.
Qed.

(* [new_keys] tests membership with existsb *)
Lemma gb_lookup_existsb k ws :
  existsb (Z.eqb k) (gb_keys ws) = match gb_lookup k ws with Some _ => true | None => false end.
Proof.
  induction ws as [|[[j g] c] t IH]; [reflexivity|]. cbn [gb_keys map fst existsb gb_lookup].
  rewrite (Z.eqb_sym k j). destruct (j =? k); [reflexivity|exact IH].
Qed.

Lemma gb_aligned_snoc ws n k : gb_aligned ws n -> gb_lookup k ws = None -> gb_aligned (ws ++ [(k, n, 0%nat)]) (S n).
Proof.
  intros [Hg Hnd] Hl. split.
  - unfold gb_groups in *. rewrite map_app, Hg, seq_S. reflexivity.
  - apply gb_keys_fresh; assumption.
Qed.

Lemma new_keys_nodup ys : forall seen, NoDup seen -> NoDup (seen ++ new_keys seen ys).
Proof.
  induction ys as [|y t IH]; intros seen Hs; cbn [new_keys]; [now rewrite app_nil_r|].
  destruct (existsb (Z.eqb (kf y)) seen) eqn:E; [apply IH; exact Hs|].
  replace (seen ++ kf y :: new_keys (seen ++ [kf y]) t) with ((seen ++ [kf y]) ++ new_keys (seen ++ [kf y]) t)
    by (rewrite <- app_assoc; reflexivity).
  apply IH. apply NoDup_app_snoc; [exact Hs|].
  intros Hin. assert (E2 : existsb (Z.eqb (kf y)) seen = true).
  { apply existsb_exists. exists (kf y). split; [exact Hin|apply Z.eqb_refl]. }
  congruence.
Qed.

(* the keys are pairwise different, so the element y belongs to group j iff j is the position of its key *)
Lemma closed_cons keys g (y : A) t j tm : NoDup keys -> nth_error keys g = Some (kf y) ->
  (if Nat.eqb j g then [Next (ef y)] else [])
  ++ match nth_error keys j with
     | Some k => map Next (map ef (filter (fun y => kf y =? k) t)) ++ term_ev tm
     | None => []
     end
  = match nth_error keys j with
    | Some k => map Next (map ef (filter (fun y => kf y =? k) (y :: t))) ++ term_ev tm
    | None => []
    end.
Proof.
  intros Hnd Hg. destruct (nth_error keys j) as [kj|] eqn:Ej.
  - cbn [filter]. destruct (Z.eqb_spec (kf y) kj) as [Hk|Hk].
    + assert (j = g) by (apply (proj1 (NoDup_nth_error _) Hnd); [apply nth_error_Some|]; congruence).
      subst j. rewrite Nat.eqb_refl. reflexivity.
    + destruct (Nat.eqb_spec j g) as [->|Hne]; [congruence|reflexivity].
  - destruct (Nat.eqb_spec j g) as [->|Hne]; [congruence|reflexivity].
Qed.

(* group_by is group_by_until with durations that never fire, so the routing part of its
   run is the trace of the specification of Ops/GroupUntilRunFacts.v; on a conforming source group j of that
   trace is read off by induction over the source *)
Notation K := (fun x : A => Ok (kf x)).
Notation E := (fun x : A => Ok (ef x)).
Notation D := (fun _ : nat => @Ok bool false).
Notation wr0 := (wr D).
Notation spec_run := (gbu_run (B:=B) K E D).

Lemma spec_next l n (y : A) :
  gbu_step (B:=B) K E D (GbuSt l n false) (ISrc 0%nat (Next y))
  = match gb_lookup (kf y) (map wr0 l) with
    | Some g => (GbuSt l n false, [OWin g (Next (ef y))])
    | None => (GbuSt (l ++ [(kf y, n)]) (S n) false, [OHand n (kf y); OWin n (Next (ef y))])
    end.
Proof. cbn [gbu_step gbu_over gbu_live gbu_next]. rewrite gb_lookup_wr. reflexivity. Qed.

Lemma wr0_snoc l k n : map wr0 (l ++ [(k, n)]) = map wr0 l ++ [(k, n, 0%nat)].
Proof. rewrite map_app. reflexivity. Qed.

Lemma wobs_seq j (e : ev W) n :
  wobs (B:=B) j (map (fun g => OWin g e) (seq 0 n)) = if (j <? n)%nat then [e] else [].
Proof.
  induction n as [|n IH]; [reflexivity|]. rewrite seq_S, map_app, wobs_app, IH. cbn [map wobs flat_map Nat.add].
  destruct (Nat.ltb_spec j n), (Nat.eqb_spec j n), (Nat.ltb_spec j (S n)); try lia; reflexivity.
Qed.

Lemma spec_term l n pos tm :
  spec_run (GbuSt l n false) pos (map (fun e => (0, ISrc 0%nat e)) (term_ev tm))
  = match tm with
    | TDone => map (fun o => (pos, o)) (gbu_end l None)
    | TErr z => map (fun o => (pos, o)) (gbu_end l (Some z))
    | TNever => []
    end.
Proof. destruct tm; cbn [term_ev map gbu_run]; rewrite ?app_nil_r; reflexivity. Qed.

Lemma gb_run_closed tm j (ys : list A) : forall l n pos, gb_aligned (map wr0 l) n ->
  wevents j (spec_run (GbuSt l n false) pos (src_events ys tm))
  = match nth_error (gb_keys (map wr0 l) ++ new_keys (gb_keys (map wr0 l)) ys) j with
    | Some k => map Next (map ef (filter (fun y => kf y =? k) ys)) ++ term_ev tm
    | None => []
    end.
Proof.
  induction ys as [|y t IH]; intros l n pos Ha; pose proof (gb_aligned_len _ n Ha) as Hl;
    assert (Hlen : length (gb_keys (map wr0 l)) = n) by (unfold gb_keys; now rewrite map_length).
  - (* every group there is gets the terminal, and these are the groups below n *)
    unfold src_events. cbn [map app new_keys filter]. rewrite spec_term, app_nil_r.
    assert (Hg : map snd l = seq 0 n) by (rewrite <- (gb_groups_wr D); exact (proj1 Ha)).
    assert (Et : match nth_error (gb_keys (map wr0 l)) j with Some _ => term_ev (A:=W) tm | None => [] end
                 = if (j <? n)%nat then term_ev tm else []).
    { destruct (Nat.ltb_spec j n) as [Hj|Hj]; [|now rewrite (proj2 (nth_error_None _ j)) by lia].
      destruct (nth_error (gb_keys (map wr0 l)) j) eqn:E; [reflexivity|apply nth_error_None in E; lia]. }
    rewrite Et. destruct tm as [|z|]; [| |now destruct (j <? n)%nat];
      rewrite wevents_tag, <- end_map, wobs_app, Hg, wobs_seq; destruct (j <? n)%nat; reflexivity.
  - pose proof (new_keys_nodup (y :: t) _ (proj2 Ha)) as Hnd.
    unfold src_events. cbn [map app gbu_run new_keys] in *. fold (src_events t tm). rewrite spec_next.
    destruct (gb_lookup (kf y) (map wr0 l)) as [g|] eqn:El; cbn [fst snd]; rewrite wevents_app, wevents_tag;
      cbn [wobs flat_map app]; rewrite app_nil_r.
    + rewrite gb_lookup_existsb, El in *. rewrite (IH l n _ Ha).
      apply (gb_lookup_aligned _ n (kf y) g Ha) in El.
      apply (closed_cons _ g y t j tm Hnd). rewrite nth_error_app1 by (apply nth_error_Some; congruence). exact El.
    + rewrite gb_lookup_existsb, El in *.
      rewrite IH, wr0_snoc by (rewrite wr0_snoc; exact (gb_aligned_snoc _ n (kf y) Ha El)).
      rewrite gb_keys_snoc, <- app_assoc. cbn [app]. apply (closed_cons _ n y t j tm Hnd).
      rewrite nth_error_app2, Hlen, Nat.sub_diag by lia. reflexivity.
Qed.

Lemma gb_aligned0 : gb_aligned (map wr0 []) 0.
Proof. split; [reflexivity|constructor]. Qed.

(* THEOREM (C19, group_by as a dict of lists): group j is the group of the j-th distinct key (first
   occurrence order); it receives exactly the mapped elements with that key, in arrival order, and
   then the source's terminal *)
Theorem group_by_closed_form (xs : list A) (tm : term) (j : nat) :
  wevents j (fst (run all_imm M (src_events xs tm)))
  = match nth_error (distinct_keys xs) j with
    | Some k => map Next (map ef (filter (fun y => kf y =? k) xs)) ++ term_ev tm
    | None => []
    end.
Proof.
  rewrite <- wevents_routing. unfold x_group_by.
  rewrite (group_by_until_refines_spec K E D _ (ports_only_src xs tm)).
  exact (gb_run_closed tm j xs [] 0%nat 1%nat gb_aligned0).
Qed.

(* the groups are handed in first-occurrence order of their keys, numbered 0, 1, 2, ... *)
Lemma gb_hands_from tm (ys : list A) : forall l n pos, gb_aligned (map wr0 l) n ->
  hands (spec_run (GbuSt l n false) pos (src_events ys tm))
  = combine (seq n (length (new_keys (gb_keys (map wr0 l)) ys))) (new_keys (gb_keys (map wr0 l)) ys).
Proof.
  induction ys as [|y t IH]; intros l n pos Ha.
  - unfold src_events. cbn [map app new_keys length seq combine]. rewrite spec_term.
    destruct tm; [| |reflexivity]; rewrite hands_tag; apply hobs_end.
  - unfold src_events. cbn [map app gbu_run new_keys]. fold (src_events t tm). rewrite spec_next.
    destruct (gb_lookup (kf y) (map wr0 l)) as [g|] eqn:El; cbn [fst snd]; rewrite hands_app, hands_tag.
    + rewrite gb_lookup_existsb, El, (IH l n _ Ha). reflexivity.
    + rewrite gb_lookup_existsb, El, IH, wr0_snoc
        by (rewrite wr0_snoc; exact (gb_aligned_snoc _ n (kf y) Ha El)).
      rewrite gb_keys_snoc. reflexivity.
Qed.

Theorem group_by_hands (xs : list A) (tm : term) :
  hands (fst (run all_imm M (src_events xs tm)))
  = combine (seq 0 (length (distinct_keys xs))) (distinct_keys xs).
Proof.
  rewrite <- hands_routing. unfold x_group_by.
  rewrite (group_by_until_refines_spec K E D _ (ports_only_src xs tm)).
  exact (gb_hands_from tm xs [] 0%nat 1%nat gb_aligned0).
Qed.
End GroupRun.
