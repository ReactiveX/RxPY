(* Closed-world environment for the window/group machines of Ops/MultiWin.v that use timers: the
   discrete-event simulator of Ops/TimedSim.v, over the window-aware runner.  External events
   (source notifications, the subscriber's dispose / window subscriptions) come with their
   instants; every timer the machine requests at clock [now] with delay [d] fires exactly at
   [now + d] unless it was cancelled first.  Order at equal instants -- the policy of the proxy
   scheduler the implementation is driven with (harness/k2w.py: run_win): source notifications
   first, then due timers (earliest due time, then lowest tag = scheduling order), a dispose last.

   The simulator only CHOOSES the next input; every input is handled by the runner's [rstep]
   (Ops/MultiWin.v), so a simulation is a run: [wsim_is_run].

   After the simulator, for the run-level files of the window operators driven by observables only
   (WindowToggleRun, BufferToggleRun, WindowWhenRun; no timers, no simulation): [mem] / [remove] on the
   runner's lists, the inputs [wports], and [deliver] without its let-patterns ([deliver_eq]). *)
From RxVerif Require Import Base.Prelude Ops.Machine Ops.MultiFacts Ops.MultiWin Ops.MultiWinFacts.

Section WSim.
Context {A W B : Type}.

(* pending timers: (tag, absolute due time), in scheduling order *)
Definition wpend := list (nat * Z).

Fixpoint wearliest (p : wpend) : option (nat * Z) :=
  match p with
  | [] => None
  | (tg, due) :: rest =>
      match wearliest rest with
      | Some (tg', due') => if due' <? due then Some (tg', due') else Some (tg, due)
      | None => Some (tg, due)
      end
  end.

Definition wnew_timers (now : Z) (o : list (obs W B)) : wpend :=
  flat_map (fun x => match x with OTimer tg d => [(tg, now + d)] | _ => [] end) o.

(* after a step: timers requested during the step are added; timers that are no longer pending
   for the runner (fired, cancelled, released) are dropped *)
Definition wupd (p : wpend) (now : Z) (o : list (obs W B)) (r' : rstate W) : wpend :=
  filter (fun td => mem (fst td) (r_timers r')) (p ++ wnew_timers now o).

(* the next input: (time, input, remaining external events) *)
Definition wnext_event (p : wpend) (ext : list (Z * inp A)) : option (Z * inp A * list (Z * inp A)) :=
  match ext, wearliest p with
  | [], None => None
  | (t, i) :: ext', None => Some (t, i, ext')
  | [], Some (tg, due) => Some (due, ITick tg, [])
  | (t, i) :: ext', Some (tg, due) =>
      if match i with IDispose => t <? due | _ => t <=? due end
      then Some (t, i, ext') else Some (due, ITick tg, ext)
  end.

(* [mem _ []] computes to false, so each step of the induction is the induction hypothesis itself *)
Lemma wupd_no_timers (p : wpend) now (o : list (obs W B)) (r : rstate W) : r_timers r = [] -> wupd p now o r = [].
Proof.
  intros H. unfold wupd. rewrite H. induction (p ++ wnew_timers now o) as [|x t IH]; [reflexivity|exact IH].
Qed.

Context (imm : nat -> bool) (m : machine A W B).

(* one record per delivered input: (clock, input, what the runner observed) *)
Fixpoint wsim (fuel : nat) (s : x_state m) (r : rstate W) (p : wpend) (ext : list (Z * inp A))
  : list (Z * inp A * list (obs W B)) :=
  match fuel with
  | O => []
  | S f =>
      match wnext_event p ext with
      | None => []
      | Some (t, i, ext') =>
          let '(s', r', o) := rstep imm m s r t i in
          (t, i, o) :: wsim f s' r' (wupd p t o r') ext'
      end
  end.

(* subscription at clock t0, then the simulation for at most [fuel] inputs *)
Definition wsimulate (fuel : nat) (t0 : Z) (ext : list (Z * inp A))
  : list (obs W B) * list (Z * inp A * list (obs W B)) :=
  (start_obs imm m,
   wsim fuel (fst (start_state imm m)) (snd (start_state imm m))
        (wupd [] t0 (start_obs imm m) (snd (start_state imm m))) ext).

Definition wsim_inputs (l : list (Z * inp A * list (obs W B))) : list (Z * inp A) :=
  map (fun x => (fst (fst x), snd (fst x))) l.

(* position-tagged trace, as the runner produces it *)
Fixpoint wtag_from (k : nat) (l : list (Z * inp A * list (obs W B))) : list (nat * obs W B) :=
  match l with
  | [] => []
  | x :: t => map (fun o => (k, o)) (snd x) ++ wtag_from (S k) t
  end.

Definition wsim_trace (res : list (obs W B) * list (Z * inp A * list (obs W B))) : list (nat * obs W B) :=
  map (fun o => (0%nat, o)) (fst res) ++ wtag_from 1 (snd res).

(* clock-tagged trace: every observation with the instant at which it happened *)
Definition wsim_timed (t0 : Z) (res : list (obs W B) * list (Z * inp A * list (obs W B))) : list (Z * obs W B) :=
  map (fun o => (t0, o)) (fst res) ++ flat_map (fun x => map (fun o => (fst (fst x), o)) (snd x)) (snd res).

Lemma wsim_inputs_cons t i o l : wsim_inputs ((t, i, o) :: l) = (t, i) :: wsim_inputs l.
Proof. reflexivity. Qed.

Lemma wsim_is_run_from fuel : forall s r p ext k,
  fst (run_from imm m s r k (wsim_inputs (wsim fuel s r p ext))) = wtag_from k (wsim fuel s r p ext).
Proof.
  induction fuel as [|f IH]; intros s r p ext k; [reflexivity|].
  cbn [wsim]. destruct (wnext_event p ext) as [[[t i] ext']|]; [|reflexivity].
  destruct (rstep imm m s r t i) as [[s' r'] o] eqn:E.
  rewrite wsim_inputs_cons. cbn [run_from wtag_from snd]. rewrite E.
  specialize (IH s' r' (wupd p t o r') ext' (S k)).
  destruct (run_from imm m s' r' (S k) (wsim_inputs (wsim f s' r' (wupd p t o r') ext'))) as [tr rf].
  cbn [fst] in *. now rewrite IH.
Qed.

(* a simulation IS a run of the machine on the input sequence it delivered *)
Theorem wsim_is_run fuel t0 ext :
  fst (run imm m (wsim_inputs (snd (wsimulate fuel t0 ext)))) = wsim_trace (wsimulate fuel t0 ext).
Proof.
  rewrite run_unfold. unfold wsim_trace, wsimulate. cbn [fst snd]. f_equal. apply wsim_is_run_from.
Qed.

Lemma wsim_S f s r p ext :
  wsim (S f) s r p ext =
  match wnext_event p ext with
  | None => []
  | Some (t, i, ext') =>
      let '(s', r', o) := rstep imm m s r t i in (t, i, o) :: wsim f s' r' (wupd p t o r') ext'
  end.
Proof. reflexivity. Qed.

Lemma wtag_from_app l1 : forall k l2, wtag_from k (l1 ++ l2) = wtag_from k l1 ++ wtag_from (k + length l1) l2.
Proof.
  induction l1 as [|x t IH]; intros k l2; cbn [app wtag_from length]; [now rewrite Nat.add_0_r|].
  rewrite IH, <- app_assoc. replace (k + S (length t))%nat with (S k + length t)%nat by lia. reflexivity.
Qed.
End WSim.

Definition wsim_wevents {A W B} (g : nat) (l : list (Z * inp A * list (obs W B))) : list (Z * ev W) :=
  flat_map (fun x => map (fun e => (fst (fst x), e)) (wobs g (snd x))) l.
Definition wsim_emitted {A W B} (l : list (Z * inp A * list (obs W B))) : list (Z * ev B) :=
  flat_map (fun x => flat_map (fun o => match o with OEmit e => [(fst (fst x), e)] | _ => [] end) (snd x)) l.
(* what the outer subscriber sees (handed observables, elements, terminal), with the instants *)
Definition wsim_outer {A W B} (l : list (Z * inp A * list (obs W B))) : list (Z * obs W B) :=
  flat_map (fun x => flat_map (fun o => match o with OHand _ _ | OEmit _ => [(fst (fst x), o)] | _ => [] end) (snd x)) l.

Lemma mem_nil' k : mem k [] = false.
Proof. reflexivity. Qed.
(* the inputs of a machine driven by observables only (no timers): notifications of several ports, in the
   order in which they happen *)
Definition wports {A} (ins : list (Z * nat * ev A)) : list (Z * inp A) :=
  map (fun x => (fst (fst x), ISrc (snd (fst x)) (snd x))) ins.
Lemma wports_cons {A} t k (e : ev A) ins : wports ((t, k, e) :: ins) = (t, ISrc k e) :: wports ins.
Proof. reflexivity. Qed.

Lemma rstep_unheard {A W B} (imm : nat -> bool) (m : machine A W B) s (r : rstate W) t k e :
  mem k (r_live r) = false -> rstep imm m s r t (ISrc k e) = (s, r, []).
Proof. intros H. unfold rstep. now rewrite H. Qed.

Lemma run_from_deaf {A W B} (imm : nat -> bool) (m : machine A W B) (ins : list (Z * nat * ev A)) :
  forall s (r : rstate W) k, r_live r = [] -> fst (run_from imm m s r k (wports ins)) = [].
Proof.
  induction ins as [|[[t j] e] rest IH]; intros s r k Hr; [reflexivity|].
  rewrite wports_cons, run_from_cons. unfold rstep. rewrite Hr. cbn [Multi.mem existsb fst snd map app].
  apply IH. exact Hr.
Qed.

Lemma run_from_stop {A W B} (imm : nat -> bool) (m : machine A W B) s (r : rstate W) k t i s' r' o
  (rest : list (Z * nat * ev A)) :
  rstep imm m s r t i = (s', r', o) -> r_live r' = [] ->
  fst (run_from imm m s r k ((t, i) :: wports rest)) = map (fun x => (k, x)) o.
Proof.
  intros E Hr. rewrite run_from_cons, E. cbn [fst snd].
  rewrite (run_from_deaf imm m rest s' r' (S k) Hr). apply app_nil_r.
Qed.

(* one delivered input, without the let-patterns of [deliver] *)
Section Deliver.
Context {A W B : Type} (imm : nat -> bool) (m : machine A W B).

(* auto-detach of a source subscription after its terminal *)
Definition detach_src (i : inp A) (r2 : rstate W) : rstate W * list (obs W B) :=
  match i with
  | ISrc k e => if is_terminal e && mem k (r_live r2)
                then (RState (remove k (r_live r2)) (r_timers r2) (r_outer r2) (r_wsubs r2) (r_wterm r2)
                             (r_handed r2) (r_released r2), [OUnsub k])
                else (r2, [])
  | _ => (r2, [])
  end.

Lemma deliver_eq s (r : rstate W) now i :
  deliver imm m s r now i
  = (fst (fst (x_step m s now i)),
     fst (detach_src i (fst (finish (B:=B) (fst (apply_cmds imm r (snd (fst (x_step m s now i))))) (snd (x_step m s now i))))),
     snd (apply_cmds imm r (snd (fst (x_step m s now i))))
     ++ snd (finish (B:=B) (fst (apply_cmds imm r (snd (fst (x_step m s now i))))) (snd (x_step m s now i)))
     ++ snd (detach_src i (fst (finish (B:=B) (fst (apply_cmds imm r (snd (fst (x_step m s now i))))) (snd (x_step m s now i)))))).
Proof.
  unfold deliver, detach_src. destruct (x_step m s now i) as [[s' cs] f]. cbn [fst snd].
  destruct (apply_cmds imm r cs) as [r1 o1]. cbn [fst snd]. destruct (finish r1 f) as [r2 o2]. cbn [fst snd].
  destruct i as [k e| | | |]; try reflexivity. destruct (is_terminal e && mem k (r_live r2)); reflexivity.
Qed.

Lemma detach_dead i (r2 : rstate W) : r_live r2 = [] -> detach_src i r2 = (r2, []).
Proof. intros H. unfold detach_src. destruct i; try reflexivity. now rewrite H, Bool.andb_false_r. Qed.

Lemma finish_dead (r : rstate W) f : r_outer r = false -> finish (B:=B) r f = (r, []).
Proof. intros H. destruct f; cbn [finish]; rewrite ?H; reflexivity. Qed.
End Deliver.
