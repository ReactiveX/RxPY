(* C04 -- pipelines of levelled programs (Ops/Closure.v).

   [lcompose g p1 p2] is the levelled program of `source.pipe(op1, op2)`: the operator value is the
   pair of the two operator values, its application-level state the pair of the two applications'
   states, its subscription state the pair of the two subscriptions' states; one handler run of
   the pipeline on input i runs p1's handler on i and hands what p1 emits to p2's handler (p2's
   input type is p1's output type).  Code of p1 cannot reach a cell of p2 and vice versa (the two
   closure towers are disjoint), so the order of the two halves inside one level is irrelevant.
   [Src] is the model's opaque description of the source: p2 is applied to the description
   [g src] of the observable that p1 produced from [src].

     lcompose_frames     both stages respect the F- and A-frames  ->  so does the pipeline
     lcompose_iso        what a subscription of the pipeline emits alone is p2's isolated run on
                         p1's isolated run (so lcompose really is sequential composition)
     chain / chain_prog  finite pipelines, element types changing from stage to stage (a
                         type-indexed list folded with lcompose; the empty pipeline is the identity)
     pipeline            the same for a plain list of stages with one element type (fold_right)
     *_frames, *_prog_iso  frames and isolated run of a folded pipeline; with them the generic
                         theorem of Ops/ClosureFacts.v applies to any finite pipeline (Props/C04.v)
     take program        a concrete program for ops.take; writing no factory or application cell it
                         satisfies [described_by] at every layout ([frames_described]), in Props/C04.v
                         at the rows of "ops.take" of the generated table. *)
From Coq Require Import List String ZArith.
From RxVerif Require Import Ops.Closure Gen.AllocTable.
Import ListNotations.

Section Compose.
  Variables Src1 Src2 In Mid Out F1 A1 S1 F2 A2 S2 : Type.
  Variable g : Src1 -> Src2.
  Variable p1 : lprog Src1 In Mid F1 A1 S1.
  Variable p2 : lprog Src2 Mid Out F2 A2 S2.

  Local Notation o1 := (fun (f : F1 * F2) (a : A1 * A2) (s : S1 * S2) (i : In) =>
                          run_o _ _ _ _ _ _ p1 (fst f) (fst a) (fst s) i).

  Definition lcompose : lprog Src1 In Out (F1 * F2) (A1 * A2) (S1 * S2) :=
    mk_lprog _ _ _ _ _ _
      (new_f _ _ _ _ _ _ p1, new_f _ _ _ _ _ _ p2)
      (fun f src => (app_f _ _ _ _ _ _ p1 (fst f) src, app_f _ _ _ _ _ _ p2 (snd f) (g src)))
      (fun f src => (app_a _ _ _ _ _ _ p1 (fst f) src, app_a _ _ _ _ _ _ p2 (snd f) (g src)))
      (fun f a => (sub_f _ _ _ _ _ _ p1 (fst f) (fst a), sub_f _ _ _ _ _ _ p2 (snd f) (snd a)))
      (fun f a => (sub_a _ _ _ _ _ _ p1 (fst f) (fst a), sub_a _ _ _ _ _ _ p2 (snd f) (snd a)))
      (fun f a => (sub_s _ _ _ _ _ _ p1 (fst f) (fst a), sub_s _ _ _ _ _ _ p2 (snd f) (snd a)))
      (fun f a s i => (run_f _ _ _ _ _ _ p1 (fst f) (fst a) (fst s) i,
                       run_f _ _ _ _ _ _ p2 (snd f) (snd a) (snd s) (o1 f a s i)))
      (fun f a s i => (run_a _ _ _ _ _ _ p1 (fst f) (fst a) (fst s) i,
                       run_a _ _ _ _ _ _ p2 (snd f) (snd a) (snd s) (o1 f a s i)))
      (fun f a s i => (run_s _ _ _ _ _ _ p1 (fst f) (fst a) (fst s) i,
                       run_s _ _ _ _ _ _ p2 (snd f) (snd a) (snd s) (o1 f a s i)))
      (fun f a s i => run_o _ _ _ _ _ _ p2 (snd f) (snd a) (snd s) (o1 f a s i)).

  Theorem lcompose_frames :
    frame_F _ _ _ _ _ _ p1 -> frame_A _ _ _ _ _ _ p1 ->
    frame_F _ _ _ _ _ _ p2 -> frame_A _ _ _ _ _ _ p2 ->
    frame_F _ _ _ _ _ _ lcompose /\ frame_A _ _ _ _ _ _ lcompose.
  Proof.
    intros [Fa1 [Fs1 Fr1]] [As1 Ar1] [Fa2 [Fs2 Fr2]] [As2 Ar2].
    split; [split; [|split]|split].
    - intros [f1 f2] src. cbn. rewrite Fa1, Fa2. reflexivity.
    - intros [f1 f2] [a1 a2]. cbn. rewrite Fs1, Fs2. reflexivity.
    - intros [f1 f2] [a1 a2] [s1 s2] i. cbn. rewrite Fr1, Fr2. reflexivity.
    - intros [f1 f2] [a1 a2]. cbn. rewrite As1, As2. reflexivity.
    - intros [f1 f2] [a1 a2] [s1 s2] i. cbn. rewrite Ar1, Ar2. reflexivity.
  Qed.

  Lemma lcompose_iso_run : forall ins a1 a2 s1 s2,
    iso_run _ _ _ _ _ _ lcompose (a1, a2) (s1, s2) ins =
    iso_run _ _ _ _ _ _ p2 a2 s2 (iso_run _ _ _ _ _ _ p1 a1 s1 ins).
  Proof.
    induction ins as [|i r IH]; intros; [reflexivity|].
    cbn [iso_run]. cbn [lcompose new_f run_o run_s fst snd]. f_equal. apply IH.
  Qed.

  Theorem lcompose_iso : forall src ins,
    iso _ _ _ _ _ _ lcompose src ins =
    iso _ _ _ _ _ _ p2 (g src) (iso _ _ _ _ _ _ p1 src ins).
  Proof. intros. unfold iso, a0. cbn [lcompose new_f app_a sub_s fst snd]. apply lcompose_iso_run. Qed.
End Compose.

Arguments lcompose {Src1 Src2 In Mid Out F1 A1 S1 F2 A2 S2}.

(* the empty pipeline: no state, every input is emitted unchanged *)
Definition lid (Src X : Type) : lprog Src X X unit unit unit :=
  mk_lprog _ _ _ _ _ _ tt
    (fun f _ => f) (fun _ _ => tt)
    (fun f _ => f) (fun _ a => a) (fun _ _ => tt)
    (fun f _ _ _ => f) (fun _ a _ _ => a) (fun _ _ s _ => s) (fun _ _ _ i => i).

Lemma lid_frames : forall Src X, frame_F _ _ _ _ _ _ (lid Src X) /\ frame_A _ _ _ _ _ _ (lid Src X).
Proof. repeat split. Qed.

Lemma lid_iso : forall Src X src ins, iso _ _ _ _ _ _ (lid Src X) src ins = ins.
Proof.
  intros. unfold iso. induction ins as [|i r IH]; cbn; [reflexivity|]. f_equal. exact IH.
Qed.

Section Chain.
  Variable Src : Type.

  (* a pipeline from element type X to element type Z: stages with their own state types *)
  Inductive chain : Type -> Type -> Type :=
  | CNil : forall X, chain X X
  | CCons : forall X Y Z F A S0, lprog Src X Y F A S0 -> chain Y Z -> chain X Z.

  Fixpoint chF {X Z} (c : chain X Z) : Type :=
    match c with CNil _ => unit | CCons _ _ _ F _ _ _ r => (F * chF r)%type end.
  Fixpoint chA {X Z} (c : chain X Z) : Type :=
    match c with CNil _ => unit | CCons _ _ _ _ A _ _ r => (A * chA r)%type end.
  Fixpoint chS {X Z} (c : chain X Z) : Type :=
    match c with CNil _ => unit | CCons _ _ _ _ _ S0 _ r => (S0 * chS r)%type end.

  (* the pipeline's program: lcompose folded over the stages (source description passed along) *)
  Fixpoint chain_prog {X Z} (c : chain X Z) : lprog Src X Z (chF c) (chA c) (chS c) :=
    match c with
    | CNil X => lid Src X
    | CCons _ _ _ _ _ _ p r => lcompose (fun s => s) p (chain_prog r)
    end.

  Fixpoint chain_frames {X Z} (c : chain X Z) : Prop :=
    match c with
    | CNil _ => True
    | CCons _ _ _ _ _ _ p r => frame_F _ _ _ _ _ _ p /\ frame_A _ _ _ _ _ _ p /\ chain_frames r
    end.

  (* the stages run one after the other, each alone *)
  Fixpoint chain_iso {X Z} (c : chain X Z) (src : Src) : list X -> list Z :=
    match c with
    | CNil _ => fun ins => ins
    | CCons _ _ _ _ _ _ p r => fun ins => chain_iso r src (iso _ _ _ _ _ _ p src ins)
    end.

  Theorem chain_prog_frames : forall X Z (c : chain X Z), chain_frames c ->
    frame_F _ _ _ _ _ _ (chain_prog c) /\ frame_A _ _ _ _ _ _ (chain_prog c).
  Proof.
    induction c as [X | X Y Z F A S0 p r IH]; cbn [chain_frames chain_prog].
    - intros _. apply lid_frames.
    - intros [HF [HA Hr]]. destruct (IH Hr) as [HF2 HA2]. apply lcompose_frames; assumption.
  Qed.

  Theorem chain_prog_iso : forall X Z (c : chain X Z) src ins,
    iso _ _ _ _ _ _ (chain_prog c) src ins = chain_iso c src ins.
  Proof.
    induction c as [X | X Y Z F A S0 p r IH]; intros; cbn [chain_iso chain_prog].
    - apply lid_iso.
    - etransitivity; [apply (lcompose_iso _ _ _ _ _ _ _ _ _ _ _ (fun s => s) p (chain_prog r))|]. apply IH.
  Qed.
End Chain.

Arguments CNil {Src}.
Arguments CCons {Src X Y Z F A S0}.

Section Pipeline.
  Variables Src X : Type.

  (* an operator program packaged with its three state types *)
  Record stage := mk_stage {
    st_F : Type; st_A : Type; st_S : Type;
    st_prog : lprog Src X X st_F st_A st_S }.

  Definition stage_id : stage := mk_stage unit unit unit (lid Src X).
  Definition stage_compose (a b : stage) : stage :=
    mk_stage _ _ _ (lcompose (fun s => s) (st_prog a) (st_prog b)).
  Definition pipeline (l : list stage) : stage := fold_right stage_compose stage_id l.

  Definition stage_frames (a : stage) : Prop :=
    frame_F _ _ _ _ _ _ (st_prog a) /\ frame_A _ _ _ _ _ _ (st_prog a).

  Definition pipeline_iso (l : list stage) (src : Src) (ins : list X) : list X :=
    fold_left (fun xs a => iso _ _ _ _ _ _ (st_prog a) src xs) l ins.

  Theorem pipeline_frames : forall l, Forall stage_frames l -> stage_frames (pipeline l).
  Proof.
    induction 1 as [|a l [HF HA] _ [HF2 HA2]]; cbn [pipeline fold_right].
    - apply lid_frames.
    - apply lcompose_frames; assumption.
  Qed.

  Theorem pipeline_prog_iso : forall l src ins,
    iso _ _ _ _ _ _ (st_prog (pipeline l)) src ins = pipeline_iso l src ins.
  Proof.
    induction l as [|a l IH]; intros; cbn [pipeline fold_right pipeline_iso fold_left].
    - apply lid_iso.
    - etransitivity; [apply (lcompose_iso _ _ _ _ _ _ _ _ _ _ _ (fun s => s) (st_prog a) (st_prog (pipeline l)))|].
      apply IH.
  Qed.
End Pipeline.

Arguments mk_stage {Src X}.
Arguments st_prog {Src X}.
Arguments pipeline {Src X}.
Arguments pipeline_iso {Src X}.
Arguments stage_frames {Src X}.

(* A concrete program at the rows of ops.take.
   reactivex/operators/_take.py: `count` is captured when the operator is built (read only),
   `remaining = count` is allocated by subscribe and decremented by on_next; on_next forwards the
   value while remaining > 0 and completes when it reaches 0.  Stores as in [described_by]: the
   factory store holds the captured argument, the application store is empty, the subscription
   state is `remaining`.  Inputs are the source's on_next values; an output is the list of
   notifications the handler sends (Some v = on_next v, None = on_completed). *)
Definition prog_take (count : Z) : lprog unit Z (list (option Z)) store store Z :=
  mk_lprog _ _ _ _ _ _ [count]
    (fun f _ => f) (fun _ _ => [])
    (fun f _ => f) (fun _ a => a) (fun f _ => nth 0 f 0%Z)
    (fun f _ _ _ => f) (fun _ a _ _ => a)
    (fun _ _ s _ => if (s >? 0)%Z then (s - 1)%Z else s)
    (fun _ _ s i => if (s >? 0)%Z then Some i :: (if (s - 1 =? 0)%Z then [None] else []) else []).

Lemma frames_described : forall (Src In Out S : Type) (p : lprog Src In Out store store S) fm am,
  frame_F _ _ _ _ _ _ p -> frame_A _ _ _ _ _ _ p -> described_by Src In Out S p fm am.
Proof.
  intros Src In Out S p fm am [Fa [Fs Fr]] [As Ar]. unfold described_by, keeps.
  repeat split; intros; rewrite ?Fa, ?Fs, ?Fr, ?As, ?Ar; reflexivity.
Qed.

Open Scope string_scope.

Lemma take_rows_ok :
  forallb entry_ok_C04 (rows_of "ops.take" alloc_table) = true
  /\ forallb (fun e => negb (a_mc e || a_hot e)) (rows_of "ops.take" alloc_table) = true.
Proof. vm_compute. split; reflexivity. Qed.

Lemma take_described : forall count fm am, described_by unit Z (list (option Z)) Z (prog_take count) fm am.
Proof. intros count fm am. apply frames_described; repeat split. Qed.

(* Stage programs of the witness pipelines of Props/C04.v.
   map_indexed as repaired (the index is per-subscription state): emits value + index *)
Definition prog_add_index : lprog unit Z Z unit unit Z :=
  mk_lprog _ _ _ _ _ _ tt
    (fun f _ => f) (fun _ _ => tt)
    (fun f _ => f) (fun _ a => a) (fun _ _ => 0%Z)
    (fun f _ _ _ => f) (fun _ a _ _ => a) (fun _ _ s _ => (s + 1)%Z) (fun _ _ s i => (i + s)%Z).
(* scan(+): emits the running sum *)
Definition prog_running_sum : lprog unit Z Z unit unit Z :=
  mk_lprog _ _ _ _ _ _ tt
    (fun f _ => f) (fun _ _ => tt)
    (fun f _ => f) (fun _ a => a) (fun _ _ => 0%Z)
    (fun f _ _ _ => f) (fun _ a _ _ => a) (fun _ _ s i => (s + i)%Z) (fun _ _ s i => (s + i)%Z).
(* counts the notifications it has been handed so far *)
Definition prog_count_notifications : lprog unit (list (option Z)) nat unit unit nat :=
  mk_lprog _ _ _ _ _ _ tt
    (fun f _ => f) (fun _ _ => tt)
    (fun f _ => f) (fun _ a => a) (fun _ _ => 0)
    (fun f _ _ _ => f) (fun _ a _ _ => a)
    (fun _ _ s i => s + List.length i) (fun _ _ s i => s + List.length i).

Definition stages3 : list (stage unit Z) :=
  [mk_stage _ _ _ prog_add_index; mk_stage _ _ _ prog_running_sum; mk_stage _ _ _ prog_add_index].

(* a pipeline whose element type changes: take(2), then the notification counter *)
Definition chain_take_count : chain unit Z nat :=
  CCons (prog_take 2) (CCons prog_count_notifications (CNil nat)).
