(* C18: buffer_toggle at run level.  Over ALL interleavings of the notifications of the source
   (port 0), of the openings (port 1) and of the closing observables the closing mapper makes
   (port 2+g for the observable made for buffer g), what the subscriber of [x_buffer_toggle]
   (Ops/Windows.v: flat_map(to_list) over window_toggle) receives equals a walk whose state is: is
   the source / are the openings still listened to, and the list [b : bcl] of the buffers whose closing
   observable is still subscribed, each with its content while it is open (opening order):
     - a source element is appended to every open buffer;
     - an element of the openings opens a new, empty buffer g and subscribes a NEW closing
       observable (port 2+g) made by the g-th call of the mapper; if that call raises, the result
       fails with that error;
     - the first notification of buffer g's closing observable, an element or its completion,
       emits buffer g (empty or not);
     - the source's completion emits every open buffer, in opening order;
     - the result completes when the openings have completed and no buffer is open;
     - an error on any subscribed port fails the result; the open buffers are lost. *)
From RxVerif Require Import Base.Prelude Ops.Machine Ops.MultiFacts Ops.MultiWin Ops.MultiWinFacts Ops.Windows
  Ops.WindowCountFacts Ops.WindowFacts Ops.BufferFacts Ops.BufferCountFacts Ops.WinSim Ops.WindowToggleRun.

Local Arguments Multi.mem : simpl never.
Local Arguments Multi.remove : simpl never.

Section BufferToggle.
Context {A : Type}.
Variable mapper : nat -> res unit.
Notation MW := (x_window_toggle (A:=A) (B:=unit) mapper).
Notation MB := (x_buffer_toggle (A:=A) mapper).
Notation tin := (Z * nat * ev A)%type.
Notation bcl := (list (nat * option (list A))).
Notation bc := (buf_cmds (A:=A) (B0:=unit)).

(* [bcl]: the closing subscriptions in opening order, each with the content of its buffer while that is open
   ([None]: emitted at the source's completion, the closing observable still subscribed); [flags] forgets the
   contents and gives the [cls] of WindowToggleRun *)
Definition is_some {X} (o : option X) : bool := match o with Some _ => true | None => false end.
Definition flags (b : bcl) : list (nat * bool) := map (fun c => (fst c, is_some (snd c))) b.
Definition bo_open (b : bcl) : list (nat * list A) :=
  flat_map (fun c => match snd c with Some l => [(fst c, l)] | None => [] end) b.
Fixpoint bo_find (j : nat) (b : bcl) : option (option (list A)) :=
  match b with [] => None | (i, o) :: t => if Nat.eqb j i then Some o else bo_find j t end.
Fixpoint bo_del (j : nat) (b : bcl) : bcl :=
  match b with [] => [] | (i, o) :: t => if Nat.eqb j i then t else (i, o) :: bo_del j t end.
Definition bo_close (b : bcl) : bcl := map (fun c => (fst c, None)) b.
Definition bo_push (x : A) (b : bcl) : bcl := map (fun c => (fst c, option_map (fun l => l ++ [x]) (snd c))) b.

Lemma flags_keys b : map fst (flags b) = map fst b.
Proof. unfold flags. rewrite map_map. reflexivity. Qed.
Lemma flags_del j b : flags (bo_del j b) = cl_del j (flags b).
Proof.
  induction b as [|[i o] t IH]; [reflexivity|]. cbn [bo_del flags map fst snd cl_del].
  destruct (Nat.eqb j i); [reflexivity|]. cbn [map fst snd]. f_equal. exact IH.
Qed.
Lemma flags_close b : flags (bo_close b) = cl_close (flags b).
Proof. unfold flags, bo_close, cl_close. rewrite !map_map. reflexivity. Qed.
Lemma flags_push x b : flags (bo_push x b) = flags b.
Proof.
  unfold flags, bo_push. rewrite map_map. apply map_ext. intros [i [l|]]; reflexivity.
Qed.
Lemma flags_snoc b g l : flags (b ++ [(g, Some l)]) = flags b ++ [(g, true)].
Proof. unfold flags. rewrite map_app. reflexivity. Qed.
Lemma flags_find j b : cl_find j (flags b) = option_map is_some (bo_find j b).
Proof.
  induction b as [|[i o] t IH]; [reflexivity|]. cbn [flags map fst snd cl_find bo_find].
  destruct (Nat.eqb j i); [reflexivity|exact IH].
Qed.
Lemma okeys_bo_open b : okeys (bo_open b) = cl_ws (flags b).
Proof.
  induction b as [|[i [l|]] t IH]; [reflexivity| |]; cbn [bo_open flat_map snd fst app flags map is_some];
    unfold cl_ws, okeys in *; cbn [filter snd map fst]; fold (bo_open t); fold (flags t); [f_equal|]; exact IH.
Qed.
Lemma bo_open_close b : bo_open (bo_close b) = [].
Proof. induction b as [|[i o] t IH]; [reflexivity|exact IH]. Qed.
Lemma bo_open_push x b : bo_open (bo_push x b) = map (fun kb => (fst kb, snd kb ++ [x])) (bo_open b).
Proof.
  induction b as [|[i [l|]] t IH]; [reflexivity| |]; cbn [bo_push map fst snd option_map bo_open flat_map app];
    fold (bo_push x t); fold (bo_open (bo_push x t)); fold (bo_open t); [cbn [map fst snd]; f_equal|]; exact IH.
Qed.
Lemma bo_open_snoc b g : bo_open (b ++ [(g, Some [])]) = bo_open b ++ [(g, [])].
Proof. unfold bo_open. rewrite flat_map_app. reflexivity. Qed.

Lemma buf_get_open j b : NoDup (map fst b) ->
  buf_get j (bo_open b) = match bo_find j b with Some (Some l) => Some l | _ => None end.
Proof.
  induction b as [|[i o] t IH]; [reflexivity|]. cbn [map fst]. intros H. inversion H as [|? ? Hn Hd]; subst.
  cbn [bo_find]. destruct (Nat.eqb_spec j i) as [->|Hne].
  - destruct o as [l|]; cbn [bo_open flat_map snd fst app]; fold (bo_open t).
    + cbn [buf_get]. now rewrite Nat.eqb_refl.
    + (* i is not a key of t *)
      assert (E : forall t', ~ In i (map fst t') -> buf_get (A:=A) i (bo_open t') = None).
      { induction t' as [|[i' [l'|]] t' IHt]; intros Hni; [reflexivity| |];
          cbn [bo_open flat_map snd fst app]; fold (bo_open t'); cbn [map fst] in Hni.
        - cbn [buf_get]. destruct (Nat.eqb_spec i i') as [->|]; [exfalso; apply Hni; left; reflexivity|].
          apply IHt. intros Hi. apply Hni. right. exact Hi.
        - apply IHt. intros Hi. apply Hni. right. exact Hi. }
      apply E, Hn.
  - destruct o as [l|]; cbn [bo_open flat_map snd fst app]; fold (bo_open t); [|apply IH; exact Hd].
    cbn [buf_get]. destruct (Nat.eqb_spec j i); [contradiction|]. apply IH. exact Hd.
Qed.

Lemma buf_del_open j b : NoDup (map fst b) -> buf_del j (bo_open b) = bo_open (bo_del j b).
Proof.
  induction b as [|[i o] t IH]; [reflexivity|]. cbn [map fst]. intros H. inversion H as [|? ? Hn Hd]; subst.
  cbn [bo_del]. destruct (Nat.eqb_spec j i) as [->|Hne].
  - destruct o as [l|]; cbn [bo_open flat_map snd fst app]; fold (bo_open t).
    + cbn [buf_del]. now rewrite Nat.eqb_refl.
    + assert (E : forall t', ~ In i (map fst t') -> buf_del (A:=A) i (bo_open t') = bo_open t').
      { induction t' as [|[i' [l'|]] t' IHt]; intros Hni; [reflexivity| |];
          cbn [bo_open flat_map snd fst app]; fold (bo_open t'); cbn [map fst] in Hni.
        - cbn [buf_del]. destruct (Nat.eqb_spec i i') as [->|]; [exfalso; apply Hni; left; reflexivity|].
          f_equal. apply IHt. intros Hi. apply Hni. right. exact Hi.
        - apply IHt. intros Hi. apply Hni. right. exact Hi. }
      apply E, Hn.
  - destruct o as [l|]; cbn [bo_open flat_map snd fst app]; fold (bo_open t); fold (bo_open (bo_del j t)); [|apply IH; exact Hd].
    cbn [buf_del]. destruct (Nat.eqb_spec j i); [contradiction|]. f_equal. apply IH. exact Hd.
Qed.

Fixpoint bg_walk (l0 l1 : bool) (b : bcl) (g pos : nat) (ins : list tin) : list (nat * obs A (list A)) :=
  match ins with
  | [] => []
  | (_, k, e) :: rest =>
      match k with
      | O =>
          if l0 then
            match e with
            | Next x => bg_walk l0 l1 (bo_push x b) g (S pos) rest
            | Err z => [(pos, OEmit (Err z))]
            | Done => map (fun kb => (pos, OEmit (Next (snd kb)))) (bo_open b)
                      ++ (if l1 then bg_walk false l1 (bo_close b) g (S pos) rest else [(pos, OEmit Done)])
            end
          else bg_walk l0 l1 b g (S pos) rest
      | S O =>
          if l1 then
            match e with
            | Next _ =>
                match mapper g with
                | Ok _ => bg_walk l0 l1 (b ++ [(g, Some [])]) (S g) (S pos) rest
                | Raise z => [(pos, OEmit (Err z))]
                end
            | Err z => [(pos, OEmit (Err z))]
            | Done => match bo_open b with [] => [(pos, OEmit Done)] | _ :: _ => bg_walk l0 false b g (S pos) rest end
            end
          else bg_walk l0 l1 b g (S pos) rest
      | S (S j) =>
          match bo_find j b with
          | None => bg_walk l0 l1 b g (S pos) rest
          | Some o =>
              match e with
              | Err z => [(pos, OEmit (Err z))]
              | _ =>
                  match o with
                  | Some c =>
                      (pos, OEmit (Next c))
                      :: (if negb l1 && match bo_open (bo_del j b) with [] => true | _ => false end
                          then [(pos, OEmit Done)]
                          else bg_walk l0 l1 (bo_del j b) g (S pos) rest)
                  | None => bg_walk l0 l1 (bo_del j b) g (S pos) rest
                  end
              end
          end
      end
  end.

Definition bg_rstate (l0 l1 : bool) (b : bcl) : rstate A := RState (tg_live l0 l1 (flags b)) [] true [] [] [] false.
Definition bg_mstate (l1 : bool) (b : bcl) (g : nat) : buf_st (A:=A) wg_st :=
  BufSt (tg_mstate (flags b) g) (bo_open b) (negb l1).

Record bg_inv (l1 : bool) (b : bcl) (g : nat) : Prop := {
  bv_nodup : NoDup (map fst b);
  bv_lt : forall j, In j (map fst b) -> (j < g)%nat;
  bv_alive : l1 = false -> bo_open b <> [] }.

Definition bg_next (res : buf_st (A:=A) wg_st * rstate A * list (obs A (list A))) (vis : list (obs A (list A)))
  (nxt : option (bool * bool * bcl * nat)) : Prop :=
  filter is_vis (snd res) = vis /\
  match nxt with
  | None => r_live (snd (fst res)) = []
  | Some (l0', l1', b', g') =>
      fst (fst res) = bg_mstate l1' b' g' /\ snd (fst res) = bg_rstate l0' l1' b' /\ bg_inv l1' b' g'
  end.

(* one delivered input: the window machine's commands through flat_map(to_list), then the runner *)
Lemma bdeliver_eq l1 b g (r : rstate A) now i :
  let xs := x_step MW (tg_mstate (flags b) g) now i in
  let bcs := bc true (bo_open b) (negb l1) (snd (fst xs)) in
  let bf := buf_finish (fst (fst bcs)) (negb l1) (snd bcs) (snd xs) in
  let ac := apply_cmds (B:=list A) all_imm r (snd (fst bcs)) in
  let fi := finish (B:=list A) (fst ac) (snd bf) in
  let dt := detach_src i (fst fi) in
  deliver all_imm MB (bg_mstate l1 b g) r now i
  = (BufSt (fst (fst xs)) (fst (fst bcs)) (fst bf), fst dt, snd ac ++ snd fi ++ snd dt).
Proof.
  cbn zeta. unfold x_buffer_toggle, bg_mstate. rewrite deliver_eq, x_step_buffered. cbn [b_inner b_open b_outer_done].
  destruct (x_step MW (tg_mstate (flags b) g) now i) as [[s' cs] f]. cbn [fst snd].
  destruct (bc true (bo_open b) (negb l1) cs) as [[open out] f1]. cbn [fst snd].
  destruct (buf_finish open (negb l1) f1 f) as [od f2]. reflexivity.
Qed.

Lemma bg_finish_end l0 l1 b (f : fin) : f <> Cont ->
  r_live (fst (finish (B:=list A) (bg_rstate l0 l1 b) f)) = []
  /\ filter is_vis (snd (finish (B:=list A) (bg_rstate l0 l1 b) f))
     = [OEmit (match f with Fail z => Err z | _ => Done end)].
Proof.
  intros Hf. unfold bg_rstate. destruct f as [| |z]; [contradiction| |]; cbn [finish r_outer]; unfold end_outer, maybe_release;
    cbn [r_outer r_released r_wsubs r_live r_timers r_wterm r_handed negb andb fst snd filter is_vis];
    rewrite vis_release; auto.
Qed.

Lemma bg_flags_nodup l1 b g : bg_inv l1 b g -> NoDup (map fst (flags b)).
Proof. intros I. rewrite flags_keys. apply (bv_nodup _ _ _ I). Qed.

Lemma bg_step_skip l0 l1 b g t k e : bg_inv l1 b g -> mem k (tg_live l0 l1 (flags b)) = false ->
  bg_next (rstep all_imm MB (bg_mstate l1 b g) (bg_rstate l0 l1 b) t (ISrc k e)) [] (Some (l0, l1, b, g)).
Proof. intros I Hm. cbn [rstep bg_rstate r_live]. rewrite Hm. split; [reflexivity|]. auto. Qed.

Lemma bg_step_src_next l1 b g t x : bg_inv l1 b g ->
  bg_next (rstep all_imm MB (bg_mstate l1 b g) (bg_rstate true l1 b) t (ISrc 0%nat (Next x))) []
          (Some (true, l1, bo_push x b, g)).
Proof.
  intros I. cbn [rstep bg_rstate r_live]. rewrite tg_live_mem0. fold (bg_rstate true l1 b).
  pose proof (bdeliver_eq l1 b g (bg_rstate true l1 b) t (ISrc 0%nat (Next x))) as E. cbn zeta in E. rewrite E. clear E.
  cbn [x_step x_window_toggle fst snd]. rewrite wg_windows_ms, <- okeys_bo_open.
  rewrite bc_wins_next_all by (rewrite okeys_bo_open; apply cl_ws_nodup, (bg_flags_nodup l1 b g I)).
  cbn [fst snd buf_finish apply_cmds finish detach_src is_terminal andb app]. split; [reflexivity|].
  cbn [fst snd]. repeat split.
  - unfold bg_mstate. now rewrite flags_push, bo_open_push.
  - unfold bg_rstate. now rewrite flags_push.
  - unfold bo_push. rewrite map_map. cbn [fst]. apply (bv_nodup _ _ _ I).
  - unfold bo_push. rewrite map_map. cbn [fst]. apply (bv_lt _ _ _ I).
  - intros Hl. rewrite bo_open_push. pose proof (bv_alive _ _ _ I Hl) as Hne.
    destruct (bo_open b); [contradiction|discriminate].
Qed.

Lemma filter_vis_emits {X} (f : X -> list A) (l : list X) :
  filter is_vis (map (fun c => @OEmit A (list A) (Next (f c))) l) = map (fun c => OEmit (Next (f c))) l.
Proof. induction l as [|c t IH]; [reflexivity|]. cbn [map filter is_vis]. now rewrite IH. Qed.

Lemma bg_step_src_done l1 b g t : bg_inv l1 b g ->
  bg_next (rstep all_imm MB (bg_mstate l1 b g) (bg_rstate true l1 b) t (ISrc 0%nat Done))
          (map (fun kb => OEmit (Next (snd kb))) (bo_open b) ++ (if l1 then [] else [OEmit Done]))
          (if l1 then Some (false, l1, bo_close b, g) else None).
Proof.
  intros I. cbn [rstep bg_rstate r_live]. rewrite tg_live_mem0. fold (bg_rstate true l1 b).
  pose proof (bdeliver_eq l1 b g (bg_rstate true l1 b) t (ISrc 0%nat Done)) as E. cbn zeta in E. rewrite E. clear E.
  cbn [x_step x_window_toggle fst snd wg_next wg_calls tg_mstate]. fold (tg_mstate (flags b) g).
  rewrite wg_windows_ms, <- okeys_bo_open.
  rewrite bc_wins_done by (rewrite okeys_bo_open; apply cl_ws_nodup, (bg_flags_nodup l1 b g I)).
  cbn [orb]. rewrite filter_true.
  cbn [fst snd]. rewrite (apply_emits (bg_rstate true l1 b) (map snd (bo_open b)) eq_refl). cbn [fst snd].
  rewrite map_map.
  destruct l1; cbn [negb andb].
  - cbn [buf_finish fst snd finish]. unfold detach_src, bg_rstate. cbn [is_terminal andb r_live]. rewrite tg_live_mem0. cbn [fst snd].
    split; [cbn [fst snd]; rewrite !filter_app; cbn [filter is_vis]; rewrite !app_nil_r;
            apply filter_vis_emits|].
    cbn [fst snd r_timers r_outer r_wsubs r_wterm r_handed r_released]. repeat split.
    + unfold bg_mstate. rewrite flags_close, bo_open_close. unfold tg_mstate. rewrite cl_ws_close. reflexivity.
    + unfold bg_rstate. rewrite tg_live_remove0, flags_close, tg_live_close. reflexivity.
    + unfold bo_close. rewrite map_map. cbn [fst]. apply (bv_nodup _ _ _ I).
    + unfold bo_close. rewrite map_map. cbn [fst]. apply (bv_lt _ _ _ I).
    + discriminate.
  - pose proof (bv_alive _ _ _ I eq_refl) as Hne. destruct (bo_open b) as [|kb t'] eqn:Eo; [contradiction|].
    cbn [negb buf_finish fst snd].
    destruct (bg_finish_end true false b Complete ltac:(discriminate)) as [D V].
    rewrite (detach_dead _ _ D). cbn [fst snd]. split; [|exact D].
    cbn [snd]. rewrite app_nil_r, filter_app, V. f_equal. apply filter_vis_emits.
Qed.

Lemma bg_step_err l0 l1 b g t k z : bg_inv l1 b g -> mem k (tg_live l0 l1 (flags b)) = true ->
  bg_next (rstep all_imm MB (bg_mstate l1 b g) (bg_rstate l0 l1 b) t (ISrc k (Err z))) [OEmit (Err z)] None.
Proof.
  intros I Hm. cbn [rstep bg_rstate r_live]. rewrite Hm. fold (bg_rstate l0 l1 b).
  pose proof (bdeliver_eq l1 b g (bg_rstate l0 l1 b) t (ISrc k (Err z))) as E. cbn zeta in E. rewrite E. clear E.
  rewrite (window_toggle_error_fanout (A:=A) (B:=unit) mapper (tg_mstate (flags b) g) t k z). cbn [fst snd].
  rewrite wg_windows_ms, <- okeys_bo_open.
  destruct (bc_wins_err true (negb l1) z (bo_open b)) as [Ho Hf]. rewrite Ho.
  assert (Ef : snd (buf_finish (fst (fst (bc true (bo_open b) (negb l1) (wins_all (okeys (bo_open b)) (Err z))))) (negb l1)
                      (snd (bc true (bo_open b) (negb l1) (wins_all (okeys (bo_open b)) (Err z)))) (Fail z)) = Fail z).
  { rewrite Hf. destruct (bo_open b); reflexivity. }
  rewrite Ef. cbn [apply_cmds fst snd app].
  destruct (bg_finish_end l0 l1 b (Fail z) ltac:(discriminate)) as [D V].
  rewrite (detach_dead _ _ D). cbn [fst snd]. rewrite app_nil_r. split; [exact V|exact D].
Qed.

Lemma bg_inv_open b g : bg_inv true b g -> bg_inv true (b ++ [(g, Some [])]) (S g).
Proof.
  intros I. constructor.
  - rewrite map_app. cbn [map fst]. apply NoDup_app_snoc; [apply (bv_nodup _ _ _ I)|].
    intros Hi. pose proof (bv_lt _ _ _ I g Hi). lia.
  - intros j Hj. rewrite map_app in Hj. apply in_app_or in Hj. destruct Hj as [Hj|[Hj|[]]]; [|cbn in Hj; lia].
    pose proof (bv_lt _ _ _ I j Hj). lia.
  - discriminate.
Qed.

Lemma bg_step_open_ok l0 b g t v u : bg_inv true b g -> mapper g = Ok u ->
  bg_next (rstep all_imm MB (bg_mstate true b g) (bg_rstate l0 true b) t (ISrc 1%nat (Next v))) []
          (Some (l0, true, b ++ [(g, Some [])], S g)).
Proof.
  intros I Hm. cbn [rstep bg_rstate r_live]. rewrite tg_live_mem1. fold (bg_rstate l0 true b).
  pose proof (bdeliver_eq true b g (bg_rstate l0 true b) t (ISrc 1%nat (Next v))) as E. cbn zeta in E. rewrite E. clear E.
  cbn [x_step x_window_toggle fst snd wg_next wg_calls wg_open tg_mstate]. rewrite Hm. cbn [fst snd].
  cbn [buf_cmds buf_finish fst snd negb]. unfold bg_rstate. rs. unfold detach_src. rs.
  split; [reflexivity|]. cbn [fst snd]. split; [|split; [|apply bg_inv_open; exact I]].
  - unfold bg_mstate, tg_mstate. rewrite flags_snoc, cl_ws_app, map_app, bo_open_snoc. reflexivity.
  - change (2 + g)%nat with (S (S g)). rewrite tg_live_snoc with (b := true), <- (flags_snoc b g []). reflexivity.
Qed.

Lemma bg_step_open_raise l0 b g t v z : bg_inv true b g -> mapper g = Raise z ->
  bg_next (rstep all_imm MB (bg_mstate true b g) (bg_rstate l0 true b) t (ISrc 1%nat (Next v))) [OEmit (Err z)] None.
Proof.
  intros I Hm. cbn [rstep bg_rstate r_live]. rewrite tg_live_mem1. fold (bg_rstate l0 true b).
  pose proof (bdeliver_eq true b g (bg_rstate l0 true b) t (ISrc 1%nat (Next v))) as E. cbn zeta in E. rewrite E. clear E.
  cbn [x_step x_window_toggle fst snd wg_next wg_calls wg_open tg_mstate]. rewrite Hm. cbn [fst snd].
  assert (Ew : wg_windows (WgSt (map (fun j => (j, S (S j))) (cl_ws (flags b)) ++ [(g, 0%nat)]) (S g) (S g))
               = okeys (bo_open b ++ [(g, [])])).
  { unfold wg_windows. cbn [wg_open]. rewrite map_app, map_map. cbn [map fst]. rewrite map_id, okeys_app, okeys_bo_open. reflexivity. }
  rewrite Ew. cbn [buf_cmds negb].
  destruct (bc_wins_err true false z (bo_open b ++ [(g, [])])) as [Ho Hf].
  destruct (bc true (bo_open b ++ [(g, [])]) false (wins_all (okeys (bo_open b ++ [(g, [])])) (Err z))) as [[o out] f1].
  cbn [fst snd] in *. subst out.
  assert (Ef1 : f1 = Fail z) by (rewrite Hf; destruct (bo_open b); reflexivity). clear Hf. subst f1.
  cbn [buf_finish fst snd apply_cmds app].
  destruct (bg_finish_end l0 true b (Fail z) ltac:(discriminate)) as [D V].
  rewrite (detach_dead _ _ D). cbn [fst snd]. rewrite app_nil_r. split; [exact V|exact D].
Qed.

Lemma bg_step_open_done l0 b g t : bg_inv true b g ->
  bg_next (rstep all_imm MB (bg_mstate true b g) (bg_rstate l0 true b) t (ISrc 1%nat Done))
          (match bo_open b with [] => [OEmit Done] | _ :: _ => [] end)
          (match bo_open b with [] => None | _ :: _ => Some (l0, false, b, g) end).
Proof.
  intros I. cbn [rstep bg_rstate r_live]. rewrite tg_live_mem1. fold (bg_rstate l0 true b).
  pose proof (bdeliver_eq true b g (bg_rstate l0 true b) t (ISrc 1%nat Done)) as E. cbn zeta in E. rewrite E. clear E.
  cbn [x_step x_window_toggle fst snd buf_cmds buf_finish negb apply_cmds app].
  destruct (bo_open b) as [|kb t'] eqn:Eo.
  - destruct (bg_finish_end l0 true b Complete ltac:(discriminate)) as [D V].
    rewrite (detach_dead _ _ D). cbn [fst snd]. rewrite app_nil_r. split; [exact V|exact D].
  - cbn [finish fst snd]. unfold detach_src, bg_rstate. cbn [is_terminal andb r_live]. rewrite tg_live_mem1. cbn [fst snd].
    split; [reflexivity|]. cbn [fst snd r_timers r_outer r_wsubs r_wterm r_handed r_released]. repeat split.
    + unfold bg_mstate. rewrite Eo. reflexivity.
    + apply (bv_nodup _ _ _ I).
    + apply (bv_lt _ _ _ I).
    + intros _. rewrite Eo. discriminate.
Qed.

Lemma bo_find_key j b o : bo_find j b = Some o -> In j (map fst b).
Proof.
  induction b as [|[i o'] t IH]; [discriminate|]. cbn [bo_find map fst].
  destruct (Nat.eqb_spec j i) as [->|]; [left; reflexivity|]. intros H. right. auto.
Qed.
Lemma bo_del_keys_incl j b i : In i (map fst (bo_del j b)) -> In i (map fst b).
Proof. rewrite <- !flags_keys, flags_del. apply cl_del_keys_incl. Qed.
Lemma bo_del_nodup j b : NoDup (map fst b) -> NoDup (map fst (bo_del j b)).
Proof. rewrite <- !flags_keys, flags_del. apply cl_del_nodup. Qed.
Lemma bo_open_del_orphan j b : bo_find j b = Some None -> bo_open (bo_del j b) = bo_open b.
Proof.
  induction b as [|[i o] t IH]; [discriminate|]. cbn [bo_find bo_del].
  destruct (Nat.eqb j i).
  - intros [= ->]. reflexivity.
  - intros H. destruct o as [l|]; cbn [bo_open flat_map snd fst app]; fold (bo_open t); fold (bo_open (bo_del j t));
      now rewrite IH.
Qed.

Lemma bg_step_close_open l0 l1 b g t j e c : bg_inv l1 b g -> bo_find j b = Some (Some c) -> (forall z, e <> Err z) ->
  bg_next (rstep all_imm MB (bg_mstate l1 b g) (bg_rstate l0 l1 b) t (ISrc (S (S j)) e))
          (OEmit (Next c) :: (if negb l1 && match bo_open (bo_del j b) with [] => true | _ => false end then [OEmit Done] else []))
          (if negb l1 && match bo_open (bo_del j b) with [] => true | _ => false end then None
           else Some (l0, l1, bo_del j b, g)).
Proof.
  intros I Hf He. pose proof (bv_nodup _ _ _ I) as Hnd. pose proof (bg_flags_nodup l1 b g I) as Hnf.
  assert (Hcf : cl_find j (flags b) = Some true) by (rewrite flags_find, Hf; reflexivity).
  cbn [rstep bg_rstate r_live]. rewrite tg_live_memS, Hcf. fold (bg_rstate l0 l1 b).
  pose proof (bdeliver_eq l1 b g (bg_rstate l0 l1 b) t (ISrc (S (S j)) e)) as E. cbn zeta in E. rewrite E. clear E.
  rewrite (tgx_close_open (B:=unit) mapper (flags b) g t j e Hnf Hcf He). cbn [fst snd buf_cmds].
  rewrite (buf_get_open j b Hnd), Hf, (buf_del_open j b Hnd). cbn [orb].
  destruct (negb l1 && match bo_open (bo_del j b) with [] => true | _ => false end) eqn:Erel.
  - cbn [fst snd buf_finish].
    change [@CEmit A (list A) c] with (map (@CEmit A (list A)) [c]).
    rewrite (apply_emits (bg_rstate l0 l1 b) [c] eq_refl). cbn [fst snd map].
    destruct (bg_finish_end l0 l1 b Complete ltac:(discriminate)) as [D V].
    rewrite (detach_dead _ _ D). cbn [fst snd]. rewrite app_nil_r. split; [|exact D].
    cbn [snd app filter is_vis]. rewrite V. reflexivity.
  - cbn [fst snd buf_finish app]. unfold bg_rstate. rs. rewrite tg_live_memS, Hcf. rs.
    unfold detach_src. cbn [r_live]. rewrite tg_live_removeS, tg_live_memS, (cl_find_del_self j (flags b) Hnf), Bool.andb_false_r.
    cbn [fst snd]. split; [reflexivity|]. cbn [fst snd]. repeat split.
    + unfold bg_mstate. rewrite flags_del. reflexivity.
    + unfold bg_rstate. rewrite flags_del. reflexivity.
    + apply bo_del_nodup, Hnd.
    + intros i Hi. apply (bv_lt _ _ _ I). eapply bo_del_keys_incl; eauto.
    + intros ->. cbn [negb andb] in Erel. destruct (bo_open (bo_del j b)); [discriminate Erel|discriminate].
Qed.

(* the closing observable of a buffer that the source's completion emitted before: the subscription goes,
   nothing else *)
Lemma bg_step_close_orphan l0 l1 b g t j e : bg_inv l1 b g -> bo_find j b = Some None -> (forall z, e <> Err z) ->
  bg_next (rstep all_imm MB (bg_mstate l1 b g) (bg_rstate l0 l1 b) t (ISrc (S (S j)) e)) []
          (Some (l0, l1, bo_del j b, g)).
Proof.
  intros I Hf He. pose proof (bv_nodup _ _ _ I) as Hnd. pose proof (bg_flags_nodup l1 b g I) as Hnf.
  assert (Hcf : cl_find j (flags b) = Some false) by (rewrite flags_find, Hf; reflexivity).
  destruct (tgx_close_orphan (B:=unit) mapper (flags b) g t j e Hnf Hcf He) as [Ex Ews].
  cbn [rstep bg_rstate r_live]. rewrite tg_live_memS, Hcf. fold (bg_rstate l0 l1 b).
  pose proof (bdeliver_eq l1 b g (bg_rstate l0 l1 b) t (ISrc (S (S j)) e)) as E. cbn zeta in E. rewrite E. clear E.
  rewrite Ex. cbn [fst snd buf_cmds buf_finish app]. unfold bg_rstate. rs. rewrite tg_live_memS, Hcf. rs.
  unfold detach_src. cbn [r_live]. rewrite tg_live_removeS, tg_live_memS, (cl_find_del_self j (flags b) Hnf), Bool.andb_false_r.
  cbn [fst snd]. split; [reflexivity|]. cbn [fst snd]. repeat split.
  - unfold bg_mstate, tg_mstate. rewrite flags_del, Ews, (bo_open_del_orphan j b Hf). reflexivity.
  - unfold bg_rstate. rewrite flags_del. reflexivity.
  - apply bo_del_nodup, Hnd.
  - intros i Hi. apply (bv_lt _ _ _ I). eapply bo_del_keys_incl; eauto.
  - rewrite (bo_open_del_orphan j b Hf). apply (bv_alive _ _ _ I).
Qed.

(* as [tg_run_from], with [bg_next] and the [bg_step_*] lemmas *)
Lemma bg_run_from : forall (ins : list tin) l0 l1 b g pos, bg_inv l1 b g ->
  visible (fst (run_from all_imm MB (bg_mstate l1 b g) (bg_rstate l0 l1 b) pos (wports ins)))
  = bg_walk l0 l1 b g pos ins.
Proof.
  induction ins as [|[[t k] e] rest IH]; intros l0 l1 b g pos I; [reflexivity|].
  rewrite wports_cons.
  assert (Use : forall vis nxt,
            bg_next (rstep all_imm MB (bg_mstate l1 b g) (bg_rstate l0 l1 b) t (ISrc k e)) vis nxt ->
            visible (fst (run_from all_imm MB (bg_mstate l1 b g) (bg_rstate l0 l1 b) pos ((t, ISrc k e) :: wports rest)))
            = map (fun x => (pos, x)) vis
              ++ match nxt with
                 | None => []
                 | Some (l0', l1', b', g') => bg_walk l0' l1' b' g' (S pos) rest
                 end).
  { intros vis nxt. destruct (rstep all_imm MB (bg_mstate l1 b g) (bg_rstate l0 l1 b) t (ISrc k e)) as [[s' r'] o] eqn:E.
    intros [Hv Hn]. cbn [fst snd] in Hv, Hn. rewrite (visible_step _ _ _ _ _ _ _ _ _ _ _ E), Hv. f_equal.
    destruct nxt as [[[[l0' l1'] b'] g']|].
    - destruct Hn as (-> & -> & I'). apply IH. exact I'.
    - rewrite run_from_deaf by exact Hn. reflexivity. }
  cbn [bg_walk]. destruct k as [|[|j]].
  - destruct l0; [|rewrite (Use [] _ (bg_step_skip false l1 b g t 0 e I (tg_live_mem0 false l1 (flags b)))); reflexivity].
    destruct e as [x|z|].
    + rewrite (Use _ _ (bg_step_src_next l1 b g t x I)). reflexivity.
    + rewrite (Use _ _ (bg_step_err true l1 b g t 0 z I (tg_live_mem0 true l1 (flags b)))). reflexivity.
    + rewrite (Use _ _ (bg_step_src_done l1 b g t I)), map_app, map_map. destruct l1; cbn [map app]; rewrite ?app_nil_r; reflexivity.
  - destruct l1; [|rewrite (Use [] _ (bg_step_skip l0 false b g t 1 e I (tg_live_mem1 l0 false (flags b)))); reflexivity].
    destruct e as [v|z|].
    + destruct (mapper g) as [u|z] eqn:Em.
      * rewrite (Use _ _ (bg_step_open_ok l0 b g t v u I Em)). reflexivity.
      * rewrite (Use _ _ (bg_step_open_raise l0 b g t v z I Em)). reflexivity.
    + rewrite (Use _ _ (bg_step_err l0 true b g t 1 z I (tg_live_mem1 l0 true (flags b)))). reflexivity.
    + rewrite (Use _ _ (bg_step_open_done l0 b g t I)). destruct (bo_open b); reflexivity.
  - destruct (bo_find j b) as [o|] eqn:Ef;
      [|assert (Hm : mem (S (S j)) (tg_live l0 l1 (flags b)) = false) by (rewrite tg_live_memS, flags_find, Ef; reflexivity);
        rewrite (Use [] _ (bg_step_skip l0 l1 b g t (S (S j)) e I Hm)); reflexivity].
    assert (Hm : mem (S (S j)) (tg_live l0 l1 (flags b)) = true) by (rewrite tg_live_memS, flags_find, Ef; reflexivity).
    assert (Fire : (forall z, e <> Err z) ->
       visible (fst (run_from all_imm MB (bg_mstate l1 b g) (bg_rstate l0 l1 b) pos ((t, ISrc (S (S j)) e) :: wports rest)))
       = match o with
         | Some c => (pos, OEmit (Next c))
                     :: (if negb l1 && match bo_open (bo_del j b) with [] => true | _ => false end
                         then [(pos, OEmit Done)] else bg_walk l0 l1 (bo_del j b) g (S pos) rest)
         | None => bg_walk l0 l1 (bo_del j b) g (S pos) rest
         end).
    { intros He. destruct o as [c|].
      - rewrite (Use _ _ (bg_step_close_open l0 l1 b g t j e c I Ef He)). cbn [map app].
        destruct (negb l1 && match bo_open (bo_del j b) with [] => true | _ => false end); reflexivity.
      - rewrite (Use _ _ (bg_step_close_orphan l0 l1 b g t j e I Ef He)). reflexivity. }
    destruct e as [x|z|].
    + apply Fire. discriminate.
    + rewrite (Use _ _ (bg_step_err l0 l1 b g t (S (S j)) z I Hm)). reflexivity.
    + apply Fire. discriminate.
Qed.

(* C18, buffer_toggle: what the subscriber receives, for every interleaving of the ports *)
Theorem buffer_toggle_run (ins : list tin) :
  visible (fst (run all_imm MB (wports ins))) = bg_walk true true [] 0 1 ins.
Proof.
  rewrite run_unfold. cbn [fst]. rewrite visible_app.
  assert (Es : start_state all_imm MB = (bg_mstate true [] 0, bg_rstate true true [])) by reflexivity.
  assert (Eo : start_obs all_imm MB = [OSub 1%nat; OSub 0%nat]) by reflexivity.
  rewrite Es, Eo. cbn [fst snd map visible filter is_vis app].
  apply bg_run_from. constructor; cbn; try (intros; contradiction); try constructor; try discriminate.
Qed.
End BufferToggle.
