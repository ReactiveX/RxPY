(* C06: aggregating operators compute the reference fold / search, with the
   documented terminations.  Derived operators are handled through the
   composition theorem (Ops/ComposeFacts.v). *)
From RxVerif Require Import Base.Prelude Ops.Machine Ops.MachineFacts Ops.ComposeFacts
  Ops.ElementwiseFacts Ops.Aggregates.

Local Arguments Z.of_nat : simpl never.
Local Arguments Z.add : simpl never.

Definition term_evs {A} (t : term) : list (ev A) :=
  match t with TDone => [Done] | TErr e => [Err e] | TNever => [] end.

Lemma events_eq {A} (xs : list A) t : events xs t = map Next xs ++ term_evs t.
Proof. reflexivity. Qed.

Lemma untag_cons {B} (k : nat) (e : ev B) l : untag ((k, e) :: l) = e :: untag l.
Proof. reflexivity. Qed.
Lemma untag_nil {B} : untag (@nil (nat * ev B)) = [].
Proof. reflexivity. Qed.

Section Prims.
Context {A : Type}.

Fixpoint scanl {S} (f : S -> A -> S) (acc : S) (xs : list A) : list S :=
  match xs with [] => [] | x :: t => f acc x :: scanl f (f acc x) t end.

Lemma scan_seed_from {S} (f : S -> A -> S) seed (xs : list A) t acc k :
  untag (exec_from (op_scan_seed (pure2 f) seed) acc k (events xs t))
  = events (scanl f (match acc with Some a => a | None => seed end) xs) t.
Proof.
  revert acc k; induction xs as [|x r IH]; intros acc k.
  - destruct t; reflexivity.
  - rewrite events_cons, exec_from_cons. cbn -[exec_from untag].
    rewrite untag_cons, IH. reflexivity.
Qed.

Theorem scan_seed_spec {S} (f : S -> A -> S) seed (xs : list A) t :
  untag (exec (op_scan_seed (pure2 f) seed) (events xs t)) = events (scanl f seed xs) t.
Proof. unfold exec. cbn -[exec_from untag]. apply (scan_seed_from f seed xs t None). Qed.

Lemma scan_from (f : A -> A -> A) (xs : list A) t a k :
  untag (exec_from (op_scan (pure2 f)) (Some a) k (events xs t)) = events (scanl f a xs) t.
Proof.
  revert a k; induction xs as [|x r IH]; intros a k.
  - destruct t; reflexivity.
  - rewrite events_cons, exec_from_cons. cbn -[exec_from untag].
    rewrite untag_cons, IH. reflexivity.
Qed.

Theorem scan_spec (f : A -> A -> A) (xs : list A) t :
  untag (exec (op_scan (pure2 f)) (events xs t))
  = match xs with [] => events [] t | x :: r => events (x :: scanl f x r) t end.
Proof.
  unfold exec. cbn -[exec_from untag]. destruct xs as [|x r].
  - destruct t; reflexivity.
  - rewrite events_cons, exec_from_cons. cbn -[exec_from untag].
    rewrite untag_cons, (scan_from f r t x 2). reflexivity.
Qed.

Definition last_opt (xs : list A) (init : option A) : option A :=
  fold_left (fun _ x => Some x) xs init.

Lemma last_from default (xs : list A) t v k :
  untag (exec_from (op_last default) v k (events xs t))
  = match t with
    | TDone => match last_opt xs v, default with
               | Some x, _ => [Next x; Done]
               | None, Some d => [Next d; Done]
               | None, None => [Err EXN_NO_ELEMENTS]
               end
    | TErr e => [Err e]
    | TNever => []
    end.
Proof.
  unfold events, last_opt. rewrite (collect_run (op_last default) (fun _ x => Some x)) by reflexivity.
  destruct t; [|reflexivity..]. cbn. destruct (fold_left (fun _ x => Some x) xs v), default; reflexivity.
Qed.

Theorem last_spec default (xs : list A) t :
  untag (exec (op_last default) (events xs t))
  = match t with
    | TDone => match last_opt xs None, default with
               | Some x, _ => [Next x; Done]
               | None, Some d => [Next d; Done]
               | None, None => [Err EXN_NO_ELEMENTS]
               end
    | TErr e => [Err e]
    | TNever => []
    end.
Proof. unfold exec. cbn -[exec_from untag]. apply last_from. Qed.

(* some: short-circuits at the first element (tag 1) *)
Theorem some_spec (xs : list A) t :
  exec op_some (events xs t)
  = match xs with
    | _ :: _ => [(1%nat, Next true); (1%nat, Done)]
    | [] => match t with
            | TDone => [(1%nat, Next false); (1%nat, Done)]
            | TErr e => [(1%nat, Err e)]
            | TNever => []
            end
    end.
Proof. unfold exec. cbn -[exec_from untag]. destruct xs; [destruct t|]; reflexivity. Qed.

Lemma to_list_from (xs : list A) t q k :
  untag (exec_from op_to_list q k (events xs t))
  = match t with TDone => [Next (q ++ xs); Done] | TErr e => [Err e] | TNever => [] end.
Proof.
  revert q k; induction xs as [|x r IH]; intros q k.
  - destruct t; cbn; rewrite ?app_nil_r; reflexivity.
  - rewrite events_cons, exec_from_cons. cbn -[exec_from untag]. rewrite IH.
    now rewrite <- app_assoc.
Qed.

End Prims.

Section Derived.
Context {A : Type}.

(* the last partial result is the fold *)
Lemma last_opt_scanl {S} (f : S -> A -> S) (xs : list A) : forall acc v,
  last_opt (scanl f acc xs) v = match xs with [] => v | _ => Some (fold_left f xs acc) end.
Proof.
  induction xs as [|x r IH]; intros acc v; [reflexivity|].
  cbn [scanl fold_left]. unfold last_opt in *. cbn [fold_left]. rewrite IH. destruct r; reflexivity.
Qed.

Theorem reduce_seed_spec {S} (f : S -> A -> S) seed (xs : list A) t :
  untag (exec (op_reduce_seed (pure2 f) seed) (events xs t))
  = match t with
    | TDone => [Next (fold_left f xs seed); Done]
    | TErr e => [Err e]
    | TNever => []
    end.
Proof.
  unfold op_reduce_seed. rewrite compose_exec, scan_seed_spec, last_spec.
  destruct t; try reflexivity.
  rewrite last_opt_scanl. destruct xs; reflexivity.
Qed.

Theorem reduce_spec (f : A -> A -> A) (xs : list A) t :
  untag (exec (op_reduce (pure2 f)) (events xs t))
  = match t with
    | TDone => match xs with
               | [] => [Err EXN_NO_ELEMENTS]
               | x :: r => [Next (fold_left f r x); Done]
               end
    | TErr e => [Err e]
    | TNever => []
    end.
Proof.
  unfold op_reduce. rewrite compose_exec, scan_spec.
  destruct xs as [|x r]; rewrite last_spec; destruct t; try reflexivity.
  change (last_opt (x :: scanl f x r) None) with (last_opt (scanl f x r) (Some x)).
  rewrite last_opt_scanl. destruct r; reflexivity.
Qed.

Lemma fold_count (xs : list A) n : fold_left (fun (n : Z) (_ : A) => n + 1) xs n = n + zlen xs.
Proof.
  revert n; induction xs as [|x r IH]; intros n; unfold zlen in *; cbn [fold_left length].
  - lia.
  - rewrite IH. lia.
Qed.

Theorem count_spec (xs : list A) t :
  untag (exec op_count (events xs t))
  = match t with TDone => [Next (zlen xs); Done] | TErr e => [Err e] | TNever => [] end.
Proof.
  unfold op_count. change (fun (n : Z) (_ : A) => Ok (n + 1)) with (pure2 (fun (n : Z) (_ : A) => n + 1)).
  rewrite reduce_seed_spec. destruct t; try reflexivity. rewrite fold_count. reflexivity.
Qed.

End Derived.

Theorem sum_spec (xs : list Z) t :
  untag (exec op_sum (events xs t))
  = match t with TDone => [Next (fold_left Z.add xs 0); Done] | TErr e => [Err e] | TNever => [] end.
Proof.
  unfold op_sum. change (fun a x : Z => Ok (a + x)) with (pure2 Z.add).
  apply reduce_seed_spec.
Qed.
