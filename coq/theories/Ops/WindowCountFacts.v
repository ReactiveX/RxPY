(* C18: window_with_count -- closed-form index arithmetic for ALL count >= 1,
   skip >= 1 (skip < count: overlapping, skip = count: tiling, skip > count:
   gapped), every finite source and every termination:
     window k is handed iff k*skip <= number of elements,
     window k receives exactly the elements k*skip .. k*skip+count-1, in order,
     it completes right after element k*skip+count-1, and the windows still
     open when the source terminates end with the source's terminal.
   First come the runner's rules for a FIFO of windows ([wq_rstate]), which window_with_time
   shares. *)
From RxVerif Require Import Base.Prelude Ops.Machine Ops.MultiFacts Ops.MultiWin Ops.MultiWinFacts Ops.Windows.

Local Arguments Z.of_nat : simpl never.
Local Arguments Z.mul : simpl never.
Local Arguments Z.add : simpl never.
Local Arguments Z.sub : simpl never.
Local Arguments Z.modulo : simpl never.

(* a conforming source on port 0 *)
Definition term_ev {A} (tm : term) : list (ev A) :=
  match tm with TDone => [Done] | TErr e => [Err e] | TNever => [] end.
Definition src_events {A} (xs : list A) (tm : term) : list (Z * inp A) :=
  map (fun x => (0, ISrc 0%nat (Next x))) xs ++ map (fun e => (0, ISrc 0%nat e)) (term_ev tm).

(* how many k >= 0 satisfy k*skip <= x *)
Lemma zdiv_count skip x k : 0 < skip -> ((k < Z.to_nat (x / skip + 1))%nat <-> Z.of_nat k * skip <= x).
Proof.
  intros Hs. split; intros H.
  - destruct (Z.le_gt_cases (Z.of_nat k * skip) x) as [|Hgt]; [assumption|exfalso].
    assert (x / skip < Z.of_nat k) by (apply Z.div_lt_upper_bound; nia). lia.
  - assert (Z.of_nat k <= x / skip) by (apply Z.div_le_lower_bound; nia). lia.
Qed.

(* computes the runner on an explicit command list and an explicit state: the projections of [rstate],
   [apply_cmds]/[finish], and the boolean tests they make *)
Ltac rs := cbn [r_live r_timers r_outer r_wsubs r_wterm r_handed r_released fst snd app apply_cmds apply_cmd
                finish is_terminal all_imm negb andb orb repeat filter].

(* The runner's state for operators that keep their open windows in a queue (count, time)
   with every window subscribed when handed: windows 0 .. nx-1 were handed,
   0 .. lo-1 have completed, lo .. nx-1 are open with one subscriber each. *)
Section Queue.
Context {A B : Type}.

Definition wq_rstate (live tms : list nat) (lo nx : nat) : rstate A :=
  RState live tms true (seq lo (nx - lo)) (map (fun k => (k, Done)) (seq 0 lo)) (seq 0 nx) false.

Lemma wterm_done_seq g lo :
  wterm_of (W:=A) g (map (fun k => (k, Done)) (seq 0 lo)) = if (g <? lo)%nat then Some Done else None.
Proof.
  induction lo as [|lo IH]; [reflexivity|].
  rewrite seq_S, map_app. cbn [map Nat.add]. rewrite wterm_of_app, IH. cbn [wterm_of].
  destruct (Nat.ltb_spec g lo), (Nat.ltb_spec g (S lo)), (Nat.eqb_spec g lo); try lia; reflexivity.
Qed.

Lemma filter_neq_seq lo len :
  filter (fun j => negb (Nat.eqb lo j)) (seq lo (S len)) = seq (S lo) len.
Proof.
  cbn [seq filter]. rewrite Nat.eqb_refl. cbn [negb].
  assert (E : forall a n, (lo < a)%nat -> filter (fun j => negb (Nat.eqb lo j)) (seq a n) = seq a n).
  { intros a n. revert a. induction n as [|n IHn]; intros a Ha; [reflexivity|]. cbn [seq filter].
    destruct (Nat.eqb_spec lo a); [lia|]. cbn [negb]. f_equal. apply IHn. lia. }
  apply E. lia.
Qed.

Lemma zlen_nonneg {X} (a : list X) : 0 <= zlen a.
Proof. unfold zlen. lia. Qed.

Lemma count_of_seq g lo len :
  count_of g (seq lo len) = if ((lo <=? g) && (g <? lo + len))%nat then 1%nat else 0%nat.
Proof. rewrite count_of_mem by apply seq_NoDup. rewrite mem_seq. reflexivity. Qed.
Lemma filter_notin g (l : list nat) : ~ In g l -> filter (fun j => negb (Nat.eqb g j)) l = l.
Proof.
  induction l as [|x t IH]; intros H; [reflexivity|]. cbn [filter].
  destruct (Nat.eqb_spec g x) as [->|Hne]; [exfalso; apply H; left; reflexivity|].
  cbn [negb]. f_equal. apply IH. intros Hi. apply H. right. exact Hi.
Qed.

(* `for s in q: s.on_completed()/on_error(e)`, q being all the subscribed windows: each sees the
   terminal once; when the outer subscription has ended already, the last one releases everything *)
Lemma wins_term (e : ev A) : is_terminal e = true -> forall q, NoDup q -> forall lv tm outer wt hd,
  (forall g, In g q -> wterm_of g wt = None) ->
  apply_cmds (B:=B) all_imm (RState lv tm outer q wt hd false) (map (fun g => CWin g e) q)
  = if outer || match q with [] => true | _ => false end
    then (RState lv tm outer [] (wt ++ map (fun g => (g, e)) q) hd false, map (fun g => OWin g e) q)
    else (RState [] [] false [] (wt ++ map (fun g => (g, e)) q) hd true,
          map (fun g => OWin g e) q ++ map OUnsub (sort_nat lv) ++ map OCancel (sort_nat tm)).
Proof.
  intros He. induction 1 as [|g t Hg Ht IH]; intros lv tm outer wt hd Hw.
  - cbn [map apply_cmds]. now rewrite Bool.orb_true_r, app_nil_r.
  - cbn [map apply_cmds apply_cmd r_wterm r_wsubs r_live r_timers r_outer r_handed r_released].
    rewrite (Hw g (or_introl eq_refl)), He, (count_of_nodup g (g :: t)) by first [left; reflexivity|constructor; assumption].
    cbn [filter]. rewrite Nat.eqb_refl. cbn [negb]. rewrite (filter_notin g t Hg).
    assert (Hw' : forall j, In j t -> wterm_of j (wt ++ [(g, e)]) = None).
    { intros j Hj. rewrite wterm_of_app, (Hw j (or_intror Hj)). cbn [wterm_of].
      destruct (Nat.eqb_spec j g) as [->|]; [contradiction|reflexivity]. }
    unfold maybe_release. cbn [r_outer r_released r_wsubs r_live r_timers r_wterm r_handed negb andb repeat app].
    rewrite Bool.orb_false_r, Bool.andb_true_r.
    destruct outer, t as [|j t']; cbn [negb andb orb]; try (rewrite (IH _ _ _ _ _ Hw'));
      cbn [orb map apply_cmds]; rewrite <- ?app_assoc, ?app_nil_r; reflexivity.
Qed.

Lemma wq_open_ok lo nx g : In g (seq lo (nx - lo)) ->
  wterm_of (W:=A) g (map (fun k => (k, Done)) (seq 0 lo)) = None /\ count_of g (seq lo (nx - lo)) = 1%nat.
Proof.
  intros Hg. apply in_seq in Hg. rewrite wterm_done_seq, count_of_seq.
  destruct (Nat.ltb_spec g lo), (Nat.leb_spec lo g), (Nat.ltb_spec g (lo + (nx - lo))); try lia. auto.
Qed.

(* `for s in q: s.on_next(x)` *)
Lemma wq_next live tms lo nx (x : A) :
  apply_cmds (B:=B) all_imm (wq_rstate live tms lo nx) (wins_all (seq lo (nx - lo)) (Next x))
  = (wq_rstate live tms lo nx, map (fun g => OWin g (Next x)) (seq lo (nx - lo))).
Proof. apply apply_cmds_wins_next. intros g Hg. exact (wq_open_ok lo nx g Hg). Qed.

(* `q.pop(0).on_completed()` *)
Lemma wq_close live tms lo nx : (lo < nx)%nat ->
  apply_cmds (B:=B) all_imm (wq_rstate live tms lo nx) [CWin lo Done] = (wq_rstate live tms (S lo) nx, [OWin lo Done]).
Proof.
  intros Hlt. unfold wq_rstate. rs.
  destruct (wq_open_ok lo nx lo) as [-> ->]; [apply in_seq; lia|]. rs.
  destruct (nx - lo)%nat as [|len] eqn:El; [lia|]. rewrite filter_neq_seq. unfold maybe_release. rs.
  rewrite (seq_S lo 0), map_app. replace (nx - S lo)%nat with len by lia. reflexivity.
Qed.

(* a new window is handed, and subscribed at once *)
Lemma wq_hand live tms lo nx key : (lo <= nx)%nat ->
  apply_cmds (B:=B) all_imm (wq_rstate live tms lo nx) [CHand nx key] = (wq_rstate live tms lo (S nx), [OHand nx key]).
Proof.
  intros Hle. unfold wq_rstate. rs. unfold sub_win. rs.
  rewrite wterm_done_seq. destruct (Nat.ltb_spec nx lo); [lia|].
  change [nx] with (seq (0 + nx) 1) at 1. rewrite <- seq_app, mem_seq.
  destruct (Nat.leb_spec 0 nx), (Nat.ltb_spec nx (0 + (nx + 1))); try lia. rs.
  rewrite (seq_S nx 0). replace (S nx - lo)%nat with ((nx - lo) + 1)%nat by lia. rewrite seq_app. cbn [seq].
  replace (lo + (nx - lo))%nat with nx by lia. reflexivity.
Qed.

(* `for s in q: s.on_completed()/on_error(e)` *)
Lemma wq_term live tms lo nx (e : ev A) : is_terminal e = true ->
  apply_cmds (B:=B) all_imm (wq_rstate live tms lo nx) (wins_all (seq lo (nx - lo)) e)
  = (RState live tms true [] (map (fun k => (k, Done)) (seq 0 lo) ++ map (fun g => (g, e)) (seq lo (nx - lo)))
            (seq 0 nx) false,
     map (fun g => OWin g e) (seq lo (nx - lo))).
Proof.
  intros He. apply (wins_term e He _ (seq_NoDup _ _) live tms true). intros g Hg. exact (proj1 (wq_open_ok lo nx g Hg)).
Qed.
End Queue.

Section Count.
Context {A : Type}.
Variables count skip : Z.
Hypothesis Hcount : 0 < count.
Hypothesis Hskip : 0 < skip.

(* machine-level invariant after n elements: the open windows are lo .. nx-1 *)
Record wc_inv (s : wc_st) (n : Z) (lo nx : nat) : Prop := {
  wi_n : wc_n s = n;
  wi_n0 : 0 <= n;
  wi_next : wc_next s = nx;
  wi_q : wc_q s = seq lo (nx - lo);
  wi_nx1 : (1 <= nx)%nat;
  wi_nx_lo : (Z.of_nat nx - 1) * skip <= n;
  wi_nx_hi : n < Z.of_nat nx * skip;
  wi_lo_hi : n < Z.of_nat lo * skip + count;
  wi_lo_lo : lo = 0%nat \/ (Z.of_nat lo - 1) * skip + count <= n }.

Lemma wc_inv_lo_le s n lo nx : wc_inv s n lo nx -> (lo <= nx)%nat.
Proof. intros [? ? ? ? ? ? ? ? [->|H]]; [lia|]. nia. Qed.

Lemma wc_inv0 : wc_inv (WcSt 0 [0%nat] 1) 0 0 1.
Proof. constructor; cbn; try lia; auto. Qed.

(* the element with index n closes a window iff n = lo*skip + count - 1 *)
Lemma closing_iff n lo : 0 <= n ->
  n < Z.of_nat lo * skip + count -> (lo = 0%nat \/ (Z.of_nat lo - 1) * skip + count <= n) ->
  ((0 <=? n - count + 1) && ((n - count + 1) mod skip =? 0) = true <-> n = Z.of_nat lo * skip + count - 1).
Proof.
  intros Hn Hhi Hlo. split.
  - intros H. apply andb_true_iff in H. destruct H as [H1 H2]. apply Z.leb_le in H1. apply Z.eqb_eq in H2.
    apply Z.mod_divide in H2; [|lia]. destruct H2 as [q Hq].
    assert (q = Z.of_nat lo); [|subst; lia].
    destruct Hlo as [->|Hlo]; nia.
  - intros ->. apply andb_true_iff. split; [apply Z.leb_le; nia|]. apply Z.eqb_eq.
    replace (Z.of_nat lo * skip + count - 1 - count + 1) with (Z.of_nat lo * skip) by lia.
    apply Z.mod_mul. lia.
Qed.

Lemma opening_iff n nx : (Z.of_nat nx - 1) * skip <= n -> n < Z.of_nat nx * skip ->
  ((n + 1) mod skip =? 0 = true <-> n + 1 = Z.of_nat nx * skip).
Proof.
  intros Hlo Hhi. split.
  - intros H. apply Z.eqb_eq in H. apply Z.mod_divide in H; [|lia]. destruct H as [q Hq].
    assert (q = Z.of_nat nx); [nia|subst; lia].
  - intros ->. apply Z.eqb_eq. apply Z.mod_mul. lia.
Qed.

(* what on_next does, in terms of the invariant *)
Lemma wc_on_next_spec {B} s n lo nx (x : A) : wc_inv s n lo nx ->
  let closing := n =? Z.of_nat lo * skip + count - 1 in
  let opening := n + 1 =? Z.of_nat nx * skip in
  wc_inv (fst (wc_on_next (B:=B) count skip s x)) (n + 1)
         (if closing then S lo else lo) (if opening then S nx else nx)
  /\ snd (wc_on_next (B:=B) count skip s x)
     = wins_all (seq lo (nx - lo)) (Next x) ++ (if closing then [CWin lo Done] else [])
       ++ (if opening then [CHand nx 0] else [])
  /\ (closing = true -> (lo < nx)%nat).
Proof.
  intros I. pose proof (wc_inv_lo_le _ _ _ _ I) as Hle. destruct I as [Hn Hn0 Hnx Hq Hnx1 H1 H2 H3 H4].
  cbn zeta. unfold wc_on_next. rewrite Hn, Hq, Hnx.
  (* the machine's two tests are [closing] and [opening] *)
  replace ((0 <=? n - count + 1) && ((n - count + 1) mod skip =? 0)) with (n =? Z.of_nat lo * skip + count - 1)
    by (apply Bool.eq_iff_eq_true; rewrite Z.eqb_eq; symmetry; apply closing_iff; assumption).
  replace ((n + 1) mod skip =? 0) with (n + 1 =? Z.of_nat nx * skip)
    by (apply Bool.eq_iff_eq_true; rewrite Z.eqb_eq; symmetry; apply opening_iff; assumption).
  destruct (Z.eqb_spec n (Z.of_nat lo * skip + count - 1)) as [En|En].
  - assert (Hlt : (lo < nx)%nat) by nia.
    destruct (nx - lo)%nat as [|len] eqn:El; [lia|]. cbn [seq].
    destruct (Z.eqb_spec (n + 1) (Z.of_nat nx * skip)) as [Eo|Eo]; cbn [fst snd];
      (split; [|split; [rewrite ?app_nil_r; reflexivity|auto]]);
      constructor; cbn [wc_n wc_q wc_next]; try lia.
    + replace (S nx - S lo)%nat with (len + 1)%nat by lia. rewrite seq_app. cbn [seq]. f_equal. f_equal. lia.
    + replace (nx - S lo)%nat with len by lia. reflexivity.
  - destruct (Z.eqb_spec (n + 1) (Z.of_nat nx * skip)) as [Eo|Eo]; cbn [fst snd];
      (split; [|split; [rewrite ?app_nil_r; reflexivity|discriminate]]);
      constructor; cbn [wc_n wc_q wc_next]; try lia; try reflexivity.
    replace (S nx - lo)%nat with ((nx - lo) + 1)%nat by lia. rewrite seq_app. cbn [seq]. f_equal. f_equal. lia.
Qed.

(* q.pop(0) is never reached with an empty q *)
Theorem wcount_pop_safe s n lo nx : wc_inv s n lo nx ->
  (0 <=? wc_n s - count + 1) && ((wc_n s - count + 1) mod skip =? 0) = true -> wc_q s <> [].
Proof.
  intros I Hc. pose proof (wc_inv_lo_le _ _ _ _ I) as Hle. destruct I as [Hn Hn0 Hnx Hq Hnx1 H1 H2 H3 H4].
  rewrite Hn in Hc. apply (closing_iff n lo Hn0 H3 H4) in Hc.
  rewrite Hq. assert (lo < nx)%nat by nia. destruct (nx - lo)%nat eqn:E; [lia|discriminate].
Qed.

(* window k is open when element n arrives iff k*skip <= n < k*skip + count *)
Definition wopen (k : nat) (n : Z) : bool := (Z.of_nat k * skip <=? n) && (n <? Z.of_nat k * skip + count).

Lemma wc_open_iff s n lo nx k : wc_inv s n lo nx -> (In k (wc_q s) <-> wopen k n = true).
Proof.
  intros I. destruct I as [Hn Hn0 Hnx Hq Hnx1 H1 H2 H3 H4]. rewrite Hq, in_seq. unfold wopen.
  rewrite andb_true_iff, Z.leb_le, Z.ltb_lt. split.
  - intros [Ha Hb]. split; [nia|nia].
  - intros [Ha Hb]. split; [|nia]. destruct H4 as [->|H4]; [lia|nia].
Qed.

Context {B : Type}.
Notation M := (x_window_count (A:=A) (B:=B) count skip).

(* runner state along a conforming run with every window subscribed when handed *)
Definition wc_rstate (lo nx : nat) : rstate A :=
  RState [0%nat] [] true (seq lo (nx - lo)) (map (fun k => (k, Done)) (seq 0 lo)) (seq 0 nx) false.

Lemma wc_open_mem s n lo nx k : wc_inv s n lo nx -> mem k (seq lo (nx - lo)) = wopen k n.
Proof.
  intros I. pose proof (wc_open_iff s n lo nx k I) as Hiff. rewrite (wi_q _ _ _ _ I), in_seq in Hiff.
  rewrite mem_seq. destruct (wopen k n).
  - destruct (proj2 Hiff eq_refl). destruct (Nat.leb_spec lo k), (Nat.ltb_spec k (lo + (nx - lo))); try lia; reflexivity.
  - destruct (Nat.leb_spec lo k), (Nat.ltb_spec k (lo + (nx - lo))); try reflexivity.
    assert (false = true) by (apply Hiff; lia). discriminate.
Qed.

Lemma wc_step s n lo nx (x : A) now : wc_inv s n lo nx ->
  let closing := n =? Z.of_nat lo * skip + count - 1 in
  let opening := n + 1 =? Z.of_nat nx * skip in
  rstep all_imm M s (wc_rstate lo nx) now (ISrc 0%nat (Next x))
  = (fst (wc_on_next (B:=B) count skip s x),
     wc_rstate (if closing then S lo else lo) (if opening then S nx else nx),
     map (fun g => OWin g (Next x)) (seq lo (nx - lo)) ++ (if closing then [OWin lo Done] else [])
       ++ (if opening then [OHand nx 0] else [])).
Proof.
  intros I. pose proof (wc_inv_lo_le _ _ _ _ I) as Hle.
  destruct (wc_on_next_spec (B:=B) s n lo nx x I) as (_ & Hcs & Hlt). cbn zeta in *.
  change (wc_rstate lo nx) with (wq_rstate (A:=A) [0%nat] [] lo nx).
  cbn [rstep wq_rstate r_live]. change (mem 0%nat [0%nat]) with true. cbn iota.
  unfold deliver. cbn [x_step x_window_count].
  destruct (wc_on_next (B:=B) count skip s x) as [s' cs]. cbn [fst snd] in *. subst cs.
  rewrite !apply_cmds_app, wq_next. cbn [fst snd].
  destruct (n =? Z.of_nat lo * skip + count - 1).
  - specialize (Hlt eq_refl). rewrite wq_close by exact Hlt. cbn [fst snd].
    destruct (n + 1 =? Z.of_nat nx * skip); [rewrite wq_hand by exact Hlt|]; rs; rewrite ?app_nil_r; reflexivity.
  - cbn [apply_cmds fst snd]. destruct (n + 1 =? Z.of_nat nx * skip); [rewrite wq_hand by exact Hle|]; rs; rewrite ?app_nil_r; reflexivity.
Qed.

(* the source's terminal: every open window sees it, then the outer; the source is released *)
Lemma wc_term_step_full s n lo nx (e : ev A) now : wc_inv s n lo nx -> is_terminal e = true ->
  snd (rstep all_imm M s (wc_rstate lo nx) now (ISrc 0%nat e))
  = map (fun g => OWin g e) (seq lo (nx - lo)) ++ [OEmit (match e with Err z => Err z | _ => Done end); OUnsub 0%nat].
Proof.
  intros I He. change (wc_rstate lo nx) with (wq_rstate (A:=A) [0%nat] [] lo nx).
  cbn [rstep wq_rstate r_live]. change (mem 0%nat [0%nat]) with true. cbn iota. unfold deliver.
  destruct e as [x|z|]; [discriminate| |]; cbn [x_step x_window_count]; rewrite (wi_q _ _ _ _ I), wq_term by reflexivity;
    cbn [finish r_outer end_outer maybe_release r_live r_timers r_wsubs r_wterm r_handed r_released negb andb fst snd
         is_terminal];
    change (mem 0%nat []) with false; cbn [andb snd app]; rewrite app_nil_r; reflexivity.
Qed.

Lemma wc_term_step s n lo nx (e : ev A) now k : wc_inv s n lo nx -> is_terminal e = true ->
  wobs k (snd (rstep all_imm M s (wc_rstate lo nx) now (ISrc 0%nat e)))
  = if wopen k n then [e] else [].
Proof.
  intros I He. rewrite (wc_term_step_full s n lo nx e now I He), wobs_app, wobs_map_win by apply seq_NoDup.
  cbn [wobs flat_map]. now rewrite app_nil_r, (wc_open_mem s n lo nx k I).
Qed.

(* events on window k from the elements with indices n, n+1, ... *)
Fixpoint wc_events (k : nat) (n : Z) (ys : list A) (tm : term) : list (ev A) :=
  match ys with
  | [] => if wopen k n then term_ev tm else []
  | y :: t => (if wopen k n then [Next y] else [])
              ++ (if n =? Z.of_nat k * skip + count - 1 then [Done] else [])
              ++ wc_events k (n + 1) t tm
  end.

Lemma wc_run_from k tm (ys : list A) : forall s n lo nx pos, wc_inv s n lo nx ->
  wevents k (fst (run_from all_imm M s (wc_rstate lo nx) pos (src_events ys tm))) = wc_events k n ys tm.
Proof.
  induction ys as [|y t IH]; intros s n lo nx pos I.
  - unfold src_events. cbn [map app wc_events]. destruct tm as [|e|]; cbn [term_ev map].
    + rewrite run_from_cons. cbn [run_from fst]. rewrite app_nil_r, wevents_tag.
      apply (wc_term_step s n lo nx Done 0 k I eq_refl).
    + rewrite run_from_cons. cbn [run_from fst]. rewrite app_nil_r, wevents_tag.
      apply (wc_term_step s n lo nx (Err e) 0 k I eq_refl).
    + cbn. destruct (wopen k n); reflexivity.
  - unfold src_events. cbn [map app]. fold (src_events t tm). rewrite run_from_cons.
    pose proof (wc_inv_lo_le _ _ _ _ I) as Hle.
    rewrite (wc_step s n lo nx y 0 I). cbn [fst snd].
    destruct (wc_on_next_spec (B:=B) s n lo nx y I) as (I' & _ & _). cbn zeta in I'.
    rewrite wevents_app, wevents_tag, (IH _ _ _ _ _ I'). cbn [wc_events]. rewrite !wobs_app, <- !app_assoc.
    (* what window k sees of the three parts of the step's output: the element, the closing, the hand *)
    assert (E1 : wobs k (map (fun g => @OWin A B g (Next y)) (seq lo (nx - lo))) = if wopen k n then [Next y] else []).
    { rewrite wobs_map_win by apply seq_NoDup. now rewrite (wc_open_mem s n lo nx k I). }
    assert (E2 : wobs k (if n =? Z.of_nat lo * skip + count - 1 then [@OWin A B lo Done] else [])
                 = if n =? Z.of_nat k * skip + count - 1 then [Done] else []).
    { destruct I as [Hn Hn0 Hnx Hq Hnx1 H1 H2 H3 H4].
      destruct (n =? Z.of_nat lo * skip + count - 1) eqn:Ec.
      * apply Z.eqb_eq in Ec. cbn [wobs flat_map app].
        destruct (Nat.eqb_spec k lo) as [->|Hne].
        -- rewrite (proj2 (Z.eqb_eq _ _) Ec). reflexivity.
        -- destruct (n =? Z.of_nat k * skip + count - 1) eqn:Ek; [|reflexivity].
           apply Z.eqb_eq in Ek. assert (k = lo) by nia. contradiction.
      * apply Z.eqb_neq in Ec. cbn [wobs flat_map].
        destruct (n =? Z.of_nat k * skip + count - 1) eqn:Ek; [|reflexivity].
        apply Z.eqb_eq in Ek. assert (k = lo); [|subst; lia].
        destruct H4 as [->|H4]; nia. }
    assert (E3 : wobs k (if n + 1 =? Z.of_nat nx * skip then [@OHand A B nx 0] else []) = [])
      by (destruct (n + 1 =? Z.of_nat nx * skip); reflexivity).
    rewrite E1, E2, E3. reflexivity.
Qed.

Lemma zskip_nil {X} n : zskip n (@nil X) = [].
Proof. reflexivity. Qed.
Lemma ztake_nil {X} n : ztake n (@nil X) = [].
Proof. reflexivity. Qed.

Lemma wc_events_closed k tm (ys : list A) : forall n, 0 <= n ->
  wc_events k n ys tm
  = if Z.of_nat k * skip + count <=? n then []
    else map Next (ztake (Z.of_nat k * skip + count - Z.max (Z.of_nat k * skip) n)
                         (zskip (Z.max (Z.of_nat k * skip) n - n) ys))
         ++ (if Z.of_nat k * skip + count <=? n + zlen ys then [Done]
             else if Z.of_nat k * skip <=? n + zlen ys then term_ev tm else []).
Proof.
  set (a := Z.of_nat k * skip). set (b := a + count).
  induction ys as [|y t IH]; intros n Hn.
  - cbn [wc_events]. unfold wopen. fold a. fold b. unfold zlen. cbn [length]. rewrite zskip_nil, ztake_nil.
    cbn [map app]. replace (n + Z.of_nat 0) with n by lia.
    destruct (Z.leb_spec b n), (Z.leb_spec a n), (Z.ltb_spec n b); cbn [andb]; try lia; reflexivity.
  - cbn [wc_events]. rewrite IH by lia. unfold wopen. fold a. fold b.
    assert (Hl : zlen (y :: t) = zlen t + 1) by (unfold zlen; cbn [length]; lia). rewrite Hl.
    replace (n + 1 + zlen t) with (n + (zlen t + 1)) by lia.
    destruct (Z.leb_spec b n) as [Hbn|Hbn].
    + destruct (Z.leb_spec b (n + 1)); [|lia].
      destruct (Z.leb_spec a n), (Z.ltb_spec n b), (Z.eqb_spec n (b - 1)); cbn [andb app]; try lia; reflexivity.
    + destruct (Z.leb_spec a n) as [Han|Han].
      * (* a <= n < b: y belongs to the window *)
        destruct (Z.ltb_spec n b); [|lia]. cbn [andb].
        replace (Z.max a n) with n by lia. replace (n - n) with 0 by lia.
        cbn [zskip]. replace (0 <=? 0) with true by reflexivity.
        cbn [ztake]. destruct (Z.leb_spec (b - n) 0); [lia|]. cbn [map app].
        destruct (Z.eqb_spec n (b - 1)) as [E|E].
        -- destruct (Z.leb_spec b (n + 1)); [|lia]. cbn [app].
           replace (b - n - 1) with 0 by lia.
           assert (Ez : forall l : list A, ztake 0 l = []) by (destruct l; reflexivity). rewrite Ez. cbn [map app].
           destruct (Z.leb_spec b (n + (zlen t + 1))); [reflexivity|]. unfold zlen in *. lia.
        -- destruct (Z.leb_spec b (n + 1)); [lia|]. cbn [app].
           replace (Z.max a (n + 1)) with (n + 1) by lia. replace (n + 1 - (n + 1)) with 0 by lia.
           assert (Ez : forall l : list A, zskip 0 l = l) by (destruct l; reflexivity). rewrite Ez.
           replace (b - (n + 1)) with (b - n - 1) by lia. reflexivity.
      * (* n < a: y is before the window *)
        destruct (Z.eqb_spec n (b - 1)); [lia|]. cbn [andb app].
        destruct (Z.leb_spec b (n + 1)); [lia|].
        replace (Z.max a n) with a by lia. replace (Z.max a (n + 1)) with a by lia.
        cbn [zskip]. destruct (Z.leb_spec (a - n) 0); [lia|].
        replace (a - n - 1) with (a - (n + 1)) by lia. reflexivity.
Qed.

(* C18, count-based windows: for all count >= 1, skip >= 1, every
   finite source and every termination, with every window subscribed when it
   is handed: window k holds exactly elements k*skip .. k*skip+count-1, ends
   with Done right after the last of them, or with the source's terminal if
   that comes first *)
Theorem window_count_index (xs : list A) (tm : term) (k : nat) :
  wevents k (fst (run all_imm M (src_events xs tm)))
  = map Next (ztake count (zskip (Z.of_nat k * skip) xs))
    ++ (if Z.of_nat k * skip + count <=? zlen xs then [Done]
        else if Z.of_nat k * skip <=? zlen xs then term_ev tm else []).
Proof.
  rewrite run_unfold. cbn [fst]. rewrite wevents_app.
  assert (Es : start_state all_imm M = (WcSt 0 [0%nat] 1, wc_rstate 0 1)) by reflexivity.
  assert (Eo : start_obs all_imm M = [OHand 0%nat 0; OSub 0%nat]) by reflexivity.
  rewrite Es, Eo. cbn [fst snd]. rewrite (wc_run_from k tm xs _ 0 0%nat 1%nat 1%nat wc_inv0).
  rewrite wc_events_closed by lia. cbn [wevents flat_map map snd app].
  destruct (Z.leb_spec (Z.of_nat k * skip + count) 0); [nia|].
  replace (Z.max (Z.of_nat k * skip) 0) with (Z.of_nat k * skip) by nia.
  replace (Z.of_nat k * skip + count - Z.of_nat k * skip) with count by lia.
  replace (Z.of_nat k * skip - 0) with (Z.of_nat k * skip) by lia.
  replace (0 + zlen xs) with (zlen xs) by lia. reflexivity.
Qed.

Lemma hobs_map_win (e : ev A) q : hobs (map (fun g => @OWin A B g e) q) = [].
Proof. induction q; auto. Qed.

Lemma wc_hands_from tm (ys : list A) : forall s n lo nx pos, wc_inv s n lo nx ->
  map fst (hands (fst (run_from all_imm M s (wc_rstate lo nx) pos (src_events ys tm))))
  = seq nx (Z.to_nat ((n + zlen ys) / skip) + 1 - nx).
Proof.
  (* the invariant puts n in [(nx-1)*skip, nx*skip): that locates the quotients *)
  induction ys as [|y t IH]; intros s n lo nx pos I.
  - assert (Hd : (n + zlen (@nil A)) / skip = Z.of_nat nx - 1).
    { destruct I. unfold zlen. cbn [length]. replace (n + Z.of_nat 0) with n by lia.
      symmetry. apply Z.div_unique with (r := n - (Z.of_nat nx - 1) * skip); lia. }
    rewrite Hd. pose proof (wi_nx1 _ _ _ _ I) as Hnx1.
    replace (Z.to_nat (Z.of_nat nx - 1) + 1 - nx)%nat with 0%nat by lia. cbn [seq].
    unfold src_events. cbn [map app]. destruct tm as [|e|]; cbn [term_ev map]; [| |reflexivity];
      rewrite run_from_cons; cbn [run_from fst];
      rewrite app_nil_r, hands_tag, (wc_term_step_full s n lo nx) by first [exact I|reflexivity];
      rewrite hobs_app, hobs_map_win; reflexivity.
  - unfold src_events. cbn [map app]. fold (src_events t tm). rewrite run_from_cons.
    rewrite (wc_step s n lo nx y 0 I). cbn [fst snd].
    destruct (wc_on_next_spec (B:=B) s n lo nx y I) as (I' & _ & _). cbn zeta in I'.
    rewrite hands_app, map_app, (IH _ _ _ _ _ I'), hands_tag.
    assert (Hl : zlen (y :: t) = zlen t + 1) by (unfold zlen; cbn [length]; lia). rewrite Hl.
    replace (n + (zlen t + 1)) with (n + 1 + zlen t) by lia.
    rewrite !hobs_app, hobs_map_win. cbn [app].
    assert (Hge : Z.of_nat nx - 1 <= (n + 1 + zlen t) / skip).
    { destruct I. apply Z.div_le_lower_bound; [lia|]. unfold zlen. nia. }
    destruct (n + 1 =? Z.of_nat nx * skip) eqn:Eo.
    + apply Z.eqb_eq in Eo.
      assert (Hge2 : Z.of_nat nx <= (n + 1 + zlen t) / skip).
      { apply Z.div_le_lower_bound; [lia|]. unfold zlen. nia. }
      destruct (n =? Z.of_nat lo * skip + count - 1); cbn [map hobs flat_map snd fst app];
        replace (Z.to_nat ((n + 1 + zlen t) / skip) + 1 - nx)%nat
          with (S (Z.to_nat ((n + 1 + zlen t) / skip) + 1 - S nx))%nat by lia; reflexivity.
    + destruct (n =? Z.of_nat lo * skip + count - 1); cbn [map hobs flat_map snd fst app]; reflexivity.
Qed.

(* C18: the windows handed are 0 .. floor(len/skip), in order: window k is
   handed iff k*skip <= number of source elements *)
Theorem window_count_hands (xs : list A) (tm : term) :
  map fst (hands (fst (run all_imm M (src_events xs tm)))) = seq 0 (Z.to_nat (zlen xs / skip) + 1).
Proof.
  rewrite run_unfold. cbn [fst]. rewrite hands_app, map_app.
  assert (Es : start_state all_imm M = (WcSt 0 [0%nat] 1, wc_rstate 0 1)) by reflexivity.
  assert (Eo : start_obs all_imm M = [OHand 0%nat 0; OSub 0%nat]) by reflexivity.
  rewrite Es, Eo. cbn [fst snd]. rewrite (wc_hands_from tm xs _ 0 0%nat 1%nat 1%nat wc_inv0).
  cbn [map hands flat_map snd fst app]. replace (0 + zlen xs) with (zlen xs) by lia.
  replace (Z.to_nat (zlen xs / skip) + 1)%nat with (S (Z.to_nat (zlen xs / skip) + 1 - 1))%nat at 2 by lia.
  reflexivity.
Qed.
End Count.
