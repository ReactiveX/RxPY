(* C15: delay_with_mapper at run level.  Over ALL interleavings of the notifications of the
   source (port 0), of the optional subscription delay (port 1 when [has_sub]) and of the delay
   observables the mapper makes (port base + j for the j-th accepted element; base = 1, or 2
   with a subscription delay), the closed world [simulate] of the machine
   [x_delay_with_mapper] (Ops/Timed.v, operators/_delaywithmapper.py) equals the walk
   [dwm_spec]; the walk's property-level reading follows. *)
From RxVerif Require Import Base.Prelude Ops.Machine Ops.Multi Ops.MultiFacts Ops.Timed Ops.TimedSim
  Ops.TimedFacts Ops.TimedSubFacts Ops.SimPortSteps Ops.TimedMapperFacts.

Section DelayMapperRun.
Context {A : Type}.
Notation tin := (Z * nat * ev A)%type.
Context (has_sub : bool) (mapper : A -> nat -> res unit).

Definition dwm_base : nat := if has_sub then 2%nat else 1%nat.

(* [l1]: the subscription delay is still awaited; [l0]: the source is subscribed and has not
   terminated; [at_end]: the source completed; [cnt]: elements accepted so far;
   [pend]: (port of the delay observable, element) for every element not delivered yet *)
Fixpoint dwm_spec (l1 l0 at_end : bool) (cnt : nat) (pend : list (nat * A)) (ins : list tin)
  : list (Z * ev A) :=
  match ins with
  | [] => []
  | (t, O, e) :: rest =>
      if l0 then
        match e with
        | Next x =>
            match mapper x cnt with
            | Raise c => [(t, Err c)]
            | Ok _ => dwm_spec l1 l0 at_end (S cnt) (pend ++ [((dwm_base + cnt)%nat, x)]) rest
            end
        | Err c => [(t, Err c)]
        | Done => match pend with [] => [(t, Done)] | _ :: _ => dwm_spec l1 false true cnt pend rest end
        end
      else dwm_spec l1 l0 at_end cnt pend rest
  | (t, k, e) :: rest =>
      if l1 && Nat.eqb k 1 then
        match e with
        | Err c => [(t, Err c)]
        | _ => dwm_spec false true at_end cnt pend rest     (* on_next or on_completed: start() *)
        end
      else
        match lookup k pend with
        | Some x =>
            match e with
            | Err c => [(t, Err c)]
            | _ =>                                            (* first on_next OR on_completed *)
                (t, Next x) ::
                (if at_end && Nat.eqb (length (remove_key k pend)) 0 then [(t, Done)]
                 else dwm_spec l1 l0 at_end cnt (remove_key k pend) rest)
            end
        | None => dwm_spec l1 l0 at_end cnt pend rest
        end
  end.

Definition dwm_out (ins : list tin) : list (Z * ev A) :=
  dwm_spec has_sub (negb has_sub) false 0 [] ins.

Definition dwm_live (l1 l0 : bool) (pend : list (nat * A)) : list nat :=
  (if l1 then [1%nat] else []) ++ (if l0 then [0%nat] else []) ++ map fst pend.

(* the pending elements sit under distinct ports, all among those handed out so far (base .. base + cnt - 1) *)
Definition dwm_inv (cnt : nat) (pend : list (nat * A)) : Prop :=
  Forall (fun p => (dwm_base <= fst p < dwm_base + cnt)%nat) pend /\ NoDup (map fst pend).

Lemma mem_keys k (pend : list (nat * A)) :
  mem k (map fst pend) = match lookup k pend with Some _ => true | None => false end.
Proof.
  induction pend as [|[j x] p IH]; [reflexivity|]. cbn [map fst lookup]. unfold mem in *. cbn [existsb].
  destruct (Nat.eqb k j); [reflexivity|exact IH].
Qed.

Lemma remove_keys k (pend : list (nat * A)) : remove k (map fst pend) = map fst (remove_key k pend).
Proof.
  induction pend as [|[j x] p IH]; [reflexivity|]. cbn [map fst remove remove_key].
  destruct (Nat.eqb k j); [reflexivity|]. cbn [map fst]. now rewrite IH.
Qed.

Lemma lookup_none_notin k (pend : list (nat * A)) : ~ In k (map fst pend) -> lookup k pend = None.
Proof.
  induction pend as [|[j x] p IH]; intros H; [reflexivity|]. cbn [lookup].
  destruct (Nat.eqb k j) eqn:E.
  - apply Nat.eqb_eq in E. exfalso. apply H. left. cbn. auto.
  - apply IH. intros Hi. apply H. right. exact Hi.
Qed.

Lemma lookup_some_in k (pend : list (nat * A)) x : lookup k pend = Some x -> In (k, x) pend.
Proof.
  induction pend as [|[j y] p IH]; intros H; [discriminate H|]. cbn [lookup] in H.
  destruct (Nat.eqb k j) eqn:E.
  - apply Nat.eqb_eq in E. injection H as ->. left. now subst.
  - right. auto.
Qed.

Lemma remove_key_incl k (pend : list (nat * A)) p : In p (remove_key k pend) -> In p pend.
Proof.
  induction pend as [|[j y] q IH]; intros H; [destruct H|]. cbn [remove_key] in H.
  destruct (Nat.eqb k j); [right; exact H|]. destruct H as [H|H]; [left; exact H|right; auto].
Qed.

Lemma remove_key_nodup k (pend : list (nat * A)) :
  NoDup (map fst pend) -> NoDup (map fst (remove_key k pend)) /\ ~ In k (map fst (remove_key k pend)).
Proof.
  induction pend as [|[j y] q IH]; intros H; [split; [constructor|intros []]|].
  cbn [remove_key map fst] in *. inversion H as [|? ? Hn Hd]; subst.
  destruct (Nat.eqb k j) eqn:E.
  - apply Nat.eqb_eq in E. subst. split; assumption.
  - apply Nat.eqb_neq in E. destruct (IH Hd) as [H1 H2]. cbn [map fst]. split.
    + constructor; [|exact H1]. intros Hi. apply Hn. apply in_map_iff in Hi. destruct Hi as [p [Ep Hp]].
      apply in_map_iff. exists p. split; [exact Ep|]. eapply remove_key_incl; eauto.
    + intros [Hi|Hi]; [apply E; auto|exact (H2 Hi)].
Qed.

Lemma dwm_inv_remove k cnt pend : dwm_inv cnt pend -> dwm_inv cnt (remove_key k pend).
Proof.
  intros [H1 H2]. split; [|apply remove_key_nodup, H2].
  rewrite Forall_forall in *. intros p Hp. apply H1. eapply remove_key_incl; eauto.
Qed.

Lemma dwm_inv_add cnt pend x : dwm_inv cnt pend -> dwm_inv (S cnt) (pend ++ [((dwm_base + cnt)%nat, x)]).
Proof.
  intros [H1 H2]. split.
  - apply Forall_app. split.
    + rewrite Forall_forall in *. intros p Hp. specialize (H1 p Hp). lia.
    + constructor; [cbn; lia|constructor].
  - rewrite map_app. cbn [map fst]. apply NoDup_app_snoc; [exact H2|].
    intros Hi. apply in_map_iff in Hi. destruct Hi as [p [Ep Hp]]. rewrite Forall_forall in H1.
    specialize (H1 p Hp). lia.
Qed.

Lemma dwm_inv_out k cnt pend : dwm_inv cnt pend -> ~ (dwm_base <= k < dwm_base + cnt)%nat -> lookup k pend = None.
Proof.
  intros [H1 _] Hk. apply lookup_none_notin. intros Hi. apply in_map_iff in Hi. destruct Hi as [p [<- Hp]].
  rewrite Forall_forall in H1. exact (Hk (H1 p Hp)).
Qed.

Lemma dwm_inv_low k cnt pend : dwm_inv cnt pend -> (k < dwm_base)%nat -> lookup k pend = None.
Proof. intros H Hk. apply (dwm_inv_out k cnt pend H). lia. Qed.

Local Notation M := (x_delay_with_mapper has_sub mapper).

Lemma dwm_live_add (l0 : bool) (pend : list (nat * A)) (k : nat) (x : A) :
  (if l0 then [0%nat] else @nil nat) ++ map fst pend ++ [k] = dwm_live false l0 (pend ++ [(k, x)]).
Proof. unfold dwm_live. rewrite map_app. reflexivity. Qed.

Lemma dwm_live_mem_S l0 (pend : list (nat * A)) k :
  mem (S k) (dwm_live false l0 pend) = match lookup (S k) pend with Some _ => true | None => false end.
Proof. unfold dwm_live. rewrite !mem_app, mem_keys. destruct l0; reflexivity. Qed.

Lemma dwm_live_remove_S l0 (pend : list (nat * A)) k :
  remove (S k) (dwm_live false l0 pend) = dwm_live false l0 (remove_key (S k) pend).
Proof. unfold dwm_live. destruct l0; cbn [app remove Nat.eqb]; now rewrite remove_keys. Qed.

(* third hypothesis: while the subscription delay is awaited the source is not subscribed yet and nothing
   is pending *)
Lemma dwm_sim : forall (ins : list tin) fuel cnt ae pend l1 l0, (length ins <= fuel)%nat ->
  dwm_inv cnt pend ->
  (l1 = true -> has_sub = true /\ l0 = false /\ pend = []) ->
  sim_emits (sim M fuel (DwmSt cnt ae pend) (RState (dwm_live l1 l0 pend) [] false) [] (ext2_of ins))
  = dwm_spec l1 l0 ae cnt pend ins.
Proof.
  induction ins as [|[[t k] e] rest IH]; intros fuel cnt ae pend l1 l0 Hf Hinv Hl1.
  - now rewrite ext2_of_nil, sim_nil.
  - destruct fuel as [|f]; [cbn in Hf; lia|]. cbn [length] in Hf.
    rewrite ext2_of_cons. cbn [dwm_spec].
    assert (Hlow : forall j, (j < dwm_base)%nat -> mem j (map fst pend) = false).
    { intros j Hj. rewrite mem_keys, (dwm_inv_low j cnt pend Hinv Hj). reflexivity. }
    assert (Hb : (1 <= dwm_base)%nat) by (unfold dwm_base; destruct has_sub; lia).
    destruct k as [|k].
    + (* the source *)
      assert (Hm : mem 0 (dwm_live l1 l0 pend) = l0).
      { unfold dwm_live. rewrite !mem_app, Hlow by lia. destruct l1, l0; reflexivity. }
      destruct l0; [|rewrite sim_port_dead by exact Hm; apply IH; [lia|exact Hinv|exact Hl1]].
      assert (El1 : l1 = false) by (destruct l1; [destruct (Hl1 eq_refl) as (_ & H & _); discriminate H|reflexivity]).
      subst l1.
      destruct e as [x|c|].
      * destruct (mapper x cnt) as [u|c] eqn:Em.
        -- etransitivity; [eapply sim_port_cont; [exact Hm|cbn; rewrite Em; reflexivity|cbn; reflexivity|reflexivity]|].
           cbn [emits flat_map map app]. unfold detach. cbn [is_terminal andb r_live]. fold dwm_base.
           pose proof (dwm_live_add true pend (dwm_base + cnt)%nat x) as E. cbn [app] in E. rewrite E.
           apply IH; [lia|apply dwm_inv_add, Hinv|discriminate].
        -- eapply sim_port_fail; [exact Hm|cbn; rewrite Em; reflexivity].
      * eapply sim_port_fail; [exact Hm|reflexivity].
      * destruct pend as [|p pend'].
        -- etransitivity; [eapply sim_port_end; [exact Hm|cbn; reflexivity|discriminate|cbn; reflexivity]|]. reflexivity.
        -- etransitivity; [eapply sim_port_cont; [exact Hm|cbn; reflexivity|cbn; reflexivity|reflexivity]|].
           cbn [emits flat_map map app]. unfold detach. cbn [is_terminal andb r_live].
           change (fst p :: map fst pend') with (map fst (p :: pend')). rewrite Hlow by lia.
           apply (IH f cnt true (p :: pend') false false); [lia|exact Hinv|discriminate].
    + destruct l1.
      * (* waiting for the subscription delay *)
        destruct (Hl1 eq_refl) as (Hs & -> & ->). cbn [andb].
        destruct k as [|k].
        -- cbn [Nat.eqb].
           destruct e as [y|c|].
           ++ etransitivity; [eapply sim_port_cont; [reflexivity|cbn; rewrite Hs; reflexivity|cbn; reflexivity|reflexivity]|].
              cbn [emits flat_map map app]. unfold detach. cbn [is_terminal andb].
              apply (IH f cnt ae [] false true); [lia|exact Hinv|discriminate].
           ++ eapply sim_port_fail; [reflexivity|cbn; rewrite Hs; reflexivity].
           ++ etransitivity; [eapply sim_port_cont; [reflexivity|cbn; rewrite Hs; reflexivity|cbn; reflexivity|reflexivity]|].
              cbn [emits flat_map map app]. unfold detach. cbn.
              apply (IH f cnt ae [] false true); [lia|exact Hinv|discriminate].
        -- cbn [Nat.eqb lookup]. rewrite sim_port_dead by reflexivity. apply IH; [lia|exact Hinv|intros _; auto].
      * cbn [andb]. pose proof (dwm_live_mem_S l0 pend k) as Hm.
        destruct (lookup (S k) pend) as [x|] eqn:El;
          [|rewrite sim_port_dead by exact Hm; apply IH; [lia|exact Hinv|discriminate]].
        assert (Hsp : dwm_special has_sub (S k) = false).
        { destruct k as [|k]; [|destruct has_sub; reflexivity]. destruct has_sub eqn:Hs; [|reflexivity].
          exfalso. rewrite (dwm_inv_low 1 cnt pend Hinv) in El by (unfold dwm_base; rewrite Hs; lia). discriminate El. }
        pose proof (fun e' => dwm_step_delay has_sub mapper (DwmSt cnt ae pend) t (S k) e' Hsp) as Hstep.
        cbn [dw_cnt dw_at_end dw_delays] in Hstep. rewrite El in Hstep.
        assert (Hd : mem (S k) (dwm_live false l0 (remove_key (S k) pend)) = false).
        { rewrite dwm_live_mem_S. rewrite lookup_none_notin; [reflexivity|]. apply remove_key_nodup, Hinv. }
        assert (Hcmd : apply_cmds (RState (dwm_live false l0 pend) [] false) [CEmit x; CUnsub (S k)]
                       = (RState (dwm_live false l0 (remove_key (S k) pend)) [] false, [OEmit (Next x); @OUnsub A (S k)])).
        { cbn [apply_cmds r_live r_timers r_stopped]. rewrite Hm, dwm_live_remove_S. reflexivity. }
        (* an on_next and an on_completed of the delay observable are handled alike *)
        assert (Hgo : forall e',
                  x_step M (DwmSt cnt ae pend) t (ISrc (S k) e')
                  = (DwmSt cnt ae (remove_key (S k) pend), [CEmit x; CUnsub (S k)],
                     if ae && Nat.eqb (length (remove_key (S k) pend)) 0 then Complete else Cont) ->
                  sim_emits (sim M (S f) (DwmSt cnt ae pend) (RState (dwm_live false l0 pend) [] false) []
                               ((t, ISrc (S k) e') :: ext2_of rest))
                  = (t, Next x) :: (if ae && Nat.eqb (length (remove_key (S k) pend)) 0 then [(t, Done)]
                                    else dwm_spec false l0 ae cnt (remove_key (S k) pend) rest)).
        { intros e' He'.
          destruct (ae && Nat.eqb (length (remove_key (S k) pend)) 0) eqn:Efin.
          - etransitivity; [eapply sim_port_end; [exact Hm|exact He'|discriminate|exact Hcmd]|]. reflexivity.
          - etransitivity; [eapply sim_port_cont; [exact Hm|exact He'|exact Hcmd|reflexivity]|].
            cbn [emits flat_map map app]. f_equal. unfold detach. cbn [r_live]. rewrite Hd, Bool.andb_false_r.
            apply IH; [lia|apply dwm_inv_remove, Hinv|discriminate]. }
        destruct e as [y|c|].
        -- exact (Hgo _ (Hstep (Next y))).
        -- eapply sim_port_fail; [exact Hm|exact (Hstep (Err c))].
        -- exact (Hgo _ (Hstep Done)).
Qed.

Theorem delay_with_mapper_walk t0 (ins : list tin) :
  timed_emits t0 (simulate M t0 (ext2_of ins)) = dwm_out ins.
Proof.
  unfold dwm_out.
  rewrite (timed_emits_start M _ _ (RState (dwm_live has_sub (negb has_sub) []) [] false) [OSub (if has_sub then 1%nat else 0%nat)]
             t0 _ eq_refl) by (destruct has_sub; reflexivity).
  assert (Hinv : dwm_inv 0 []) by (split; constructor).
  assert (Hlen : (length ins <= 3 * length (ext2_of ins) + 4)%nat) by (unfold ext2_of; rewrite map_length; lia).
  apply (dwm_sim ins _ 0 false [] has_sub (negb has_sub) Hlen Hinv). intros E. rewrite E. auto.
Qed.

Lemma lookup_app_inv k (pend : list (nat * A)) b y x : lookup k (pend ++ [(b, y)]) = Some x ->
  lookup k pend = Some x \/ (k = b /\ x = y).
Proof.
  induction pend as [|[j z] p IH]; cbn [app lookup].
  - destruct (Nat.eqb k b) eqn:E; [|discriminate]. apply Nat.eqb_eq in E. intros H. injection H as ->. right. auto.
  - destruct (Nat.eqb k j); [left; assumption|exact IH].
Qed.

Lemma lookup_remove_inv k j (pend : list (nat * A)) x : NoDup (map fst pend) ->
  lookup k (remove_key j pend) = Some x -> lookup k pend = Some x /\ k <> j.
Proof.
  intros Hn H. assert (Hk : k <> j).
  { intros ->. rewrite lookup_none_notin in H; [discriminate H|]. apply remove_key_nodup, Hn. }
  split; [|exact Hk]. clear Hn. induction pend as [|[i z] p IH]; [discriminate H|].
  cbn [remove_key lookup] in *. destruct (Nat.eqb j i) eqn:Eji.
  - apply Nat.eqb_eq in Eji. subst i. destruct (Nat.eqb k j) eqn:Ekj; [apply Nat.eqb_eq in Ekj; contradiction|exact H].
  - cbn [lookup] in H. destruct (Nat.eqb k i); [exact H|exact (IH H)].
Qed.

(* where an element x emitted at t comes from: it is pending under a port whose first notification in
   [ins] is at t and fires ([from_pend]); or the source delivers it inside [ins], it gets port c + the number
   of source notifications before it, and that port first notifies, firing, at t ([from_src]) *)
Definition from_pend (x : A) (t : Z) (pend : list (nat * A)) (ins : list tin) : Prop :=
  exists k mid e rest, lookup k pend = Some x /\ ins = mid ++ (t, k, e) :: rest /\ fires e /\ port_silent k mid.
Definition from_src (x : A) (t : Z) (c : nat) (ins : list tin) : Prop :=
  exists pre tx mid e rest,
    ins = pre ++ (tx, 0%nat, Next x) :: mid ++ (t, (c + count0 pre)%nat, e) :: rest
    /\ fires e /\ port_silent (c + count0 pre)%nat mid.

Lemma from_pend_cons i x t pend ins :
  (forall k, lookup k pend <> None -> snd (fst i) <> k) -> from_pend x t pend ins -> from_pend x t pend (i :: ins).
Proof.
  intros Hi (k & mid & e & rest & Hl & E & He & Hs). exists k, (i :: mid), e, rest. rewrite E.
  repeat split; [exact Hl|exact He|]. apply port_silent_cons; [|exact Hs]. apply Hi. rewrite Hl. discriminate.
Qed.

(* stated from any point of the walk (any pending list, any count) so that the induction on the timeline
   goes through; [Hgen]: an on_next and an on_completed of a delay observable are handled alike *)
Lemma dwm_next_origin : forall (ins : list tin) l0 ae cnt pend t x, dwm_inv cnt pend ->
  In (t, Next x) (dwm_spec false l0 ae cnt pend ins) ->
  from_pend x t pend ins \/ (l0 = true /\ from_src x t (dwm_base + cnt) ins).
Proof.
  induction ins as [|[[t' k] e'] rest IH]; intros l0 ae cnt pend t x Hinv Hin; [destruct Hin|].
  assert (Hk0 : forall j, lookup j pend <> None -> 0%nat <> j).
  { intros j Hj <-. apply Hj. apply (dwm_inv_low 0 cnt pend Hinv). unfold dwm_base. destruct has_sub; lia. }
  cbn [dwm_spec] in Hin. destruct k as [|k].
  - destruct l0;
      [|destruct (IH _ _ _ _ _ _ Hinv Hin) as [H|[H _]]; [|discriminate H]; left; apply from_pend_cons; assumption].
    destruct e' as [y|c|].
    + destruct (mapper y cnt) as [u|c]; [|destruct Hin as [Hin|[]]; discriminate Hin].
      destruct (IH _ _ _ _ _ _ (dwm_inv_add cnt pend y Hinv) Hin) as [(j & mid & e & rest' & Hl & E & He & Hs)|[_ H]].
      * apply lookup_app_inv in Hl. destruct Hl as [Hl|[-> ->]].
        -- left. apply from_pend_cons; [exact Hk0|]. exists j, mid, e, rest'. auto.
        -- right. split; [reflexivity|]. exists [], t', mid, e, rest'. cbn [count0 filter length app].
           rewrite Nat.add_0_r, E. auto.
      * right. split; [reflexivity|]. destruct H as (pre & tx & mid & e & rest' & E & He & Hs).
        exists ((t', 0%nat, Next y) :: pre), tx, mid, e, rest'.
        assert (Ec : (dwm_base + cnt + count0 ((t', 0%nat, Next y) :: pre) = dwm_base + S cnt + count0 pre)%nat).
        { unfold count0. cbn [filter fst snd Nat.eqb length]. lia. }
        rewrite Ec, E. auto.
    + destruct Hin as [Hin|[]]; discriminate Hin.
    + destruct pend as [|p pend']; [destruct Hin as [Hin|[]]; discriminate Hin|].
      destruct (IH _ _ _ _ _ _ Hinv Hin) as [H|[H _]]; [|discriminate H]. left. apply from_pend_cons; assumption.
  - cbn [andb] in Hin. destruct (lookup (S k) pend) as [y|] eqn:El.
    + assert (Hgen : fires e' ->
        In (t, Next x) ((t', Next y) :: (if ae && Nat.eqb (length (remove_key (S k) pend)) 0 then [(t', Done)]
                                        else dwm_spec false l0 ae cnt (remove_key (S k) pend) rest)) ->
        from_pend x t pend ((t', S k, e') :: rest) \/ (l0 = true /\ from_src x t (dwm_base + cnt) ((t', S k, e') :: rest))).
      { intros He' [H|H].
        - injection H as Et Ex. subst t' y. left. exists (S k), [], e', rest.
          repeat split; [exact El|exact He'|intros ? ? []].
        - destruct (ae && Nat.eqb (length (remove_key (S k) pend)) 0); [destruct H as [H|[]]; discriminate H|].
          destruct (IH _ _ _ _ _ _ (dwm_inv_remove (S k) cnt pend Hinv) H) as [(j & mid & e & rest' & Hl & E & He & Hs)|[El0 H']].
          + left. destruct (lookup_remove_inv j (S k) pend x (proj2 Hinv) Hl) as [Hl' Hne].
            exists j, ((t', S k, e') :: mid), e, rest'. rewrite E.
            repeat split; [exact Hl'|exact He|]. apply port_silent_cons; [cbn; auto|exact Hs].
          + right. split; [exact El0|]. destruct H' as (pre & tx & mid & e & rest' & E & He & Hs).
            exists ((t', S k, e') :: pre), tx, mid, e, rest'. unfold count0 in *. cbn [filter fst snd Nat.eqb]. rewrite E. auto. }
      destruct e' as [z|c|]; [apply Hgen; [exact I|exact Hin]|destruct Hin as [Hin|[]]; discriminate Hin|apply Hgen; [exact I|exact Hin]].
    + destruct (IH _ _ _ _ _ _ Hinv Hin) as [H|[El0 H]].
      * left. apply from_pend_cons; [|exact H]. intros j Hj Ej. cbn [fst snd] in Ej. subst j. contradiction.
      * right. split; [exact El0|]. destruct H as (pre & tx & mid & e & rest' & E & He & Hs).
        exists ((t', S k, e') :: pre), tx, mid, e, rest'. unfold count0 in *. cbn [filter fst snd Nat.eqb]. rewrite E. auto.
Qed.

(* the j-th notification of the source, an element x accepted by the mapper, is emitted at t:
   t is the instant of the first notification of port j+1 after the element arrived, and that
   notification is an on_next or an on_completed *)
Theorem dwm_emitted_at_first_fire (ins : list tin) t x : has_sub = false ->
  In (t, Next x) (dwm_out ins) ->
  exists pre tx mid e rest,
    ins = pre ++ (tx, 0%nat, Next x) :: mid ++ (t, S (count0 pre), e) :: rest
    /\ fires e /\ port_silent (S (count0 pre)) mid.
Proof.
  intros Hs Hin. unfold dwm_out in Hin. rewrite Hs in Hin. cbn [negb] in Hin.
  destruct (dwm_next_origin ins true false 0 [] t x (conj (Forall_nil _) (NoDup_nil _)) Hin)
    as [(k & mid & e & rest & Hl & _)|[_ H]]; [discriminate Hl|].
  unfold from_src, dwm_base in H. rewrite Hs in H. exact H.
Qed.

(* conversely: as long as nothing fails, every element IS emitted when its delay observable
   first notifies *)
Definition no_err_tl (l : list tin) : Prop := forall t k c, ~ In (t, k, Err c) l.
Definition mapper_total : Prop := forall y i, exists u, mapper y i = Ok u.

Lemma no_err_tl_tail i l : no_err_tl (i :: l) -> no_err_tl l.
Proof. intros H t k c Hi. apply (H t k c). right. exact Hi. Qed.

Lemma lookup_app_l k (pend : list (nat * A)) q x : lookup k pend = Some x -> lookup k (pend ++ q) = Some x.
Proof.
  induction pend as [|[j y] p IH]; intros H; [discriminate H|]. cbn [app lookup] in *.
  destruct (Nat.eqb k j); [exact H|exact (IH H)].
Qed.

Lemma lookup_app_fresh k (pend : list (nat * A)) x : lookup k pend = None -> lookup k (pend ++ [(k, x)]) = Some x.
Proof.
  induction pend as [|[j y] p IH]; intros H; cbn [app lookup] in *; [now rewrite Nat.eqb_refl|].
  destruct (Nat.eqb k j); [discriminate H|exact (IH H)].
Qed.

Lemma lookup_remove_other k j (pend : list (nat * A)) : k <> j -> lookup k (remove_key j pend) = lookup k pend.
Proof.
  intros Hn. induction pend as [|[i y] p IH]; [reflexivity|]. cbn [remove_key lookup].
  destruct (Nat.eqb j i) eqn:Eji.
  - apply Nat.eqb_eq in Eji. subst i. destruct (Nat.eqb k j) eqn:Ekj; [apply Nat.eqb_eq in Ekj; contradiction|reflexivity].
  - cbn [lookup]. destruct (Nat.eqb k i); [reflexivity|exact IH].
Qed.

Lemma dwm_inv_fresh cnt pend : dwm_inv cnt pend -> lookup (dwm_base + cnt)%nat pend = None.
Proof. intros H. apply (dwm_inv_out _ cnt pend H). lia. Qed.

(* while the source is live and has not completed *)
Lemma dwm_prefix : mapper_total -> forall (pre : list tin) cnt pend tail, dwm_inv cnt pend ->
  no_err_tl pre -> (forall t, ~ In (t, 0%nat, Done) pre) ->
  exists outs pend', dwm_inv (cnt + count0 pre) pend' /\
    dwm_spec false true false cnt pend (pre ++ tail)
    = outs ++ dwm_spec false true false (cnt + count0 pre) pend' tail.
Proof.
  intros Hmt. induction pre as [|[[t' k] e'] pre IH]; intros cnt pend tail Hinv Hne Hnd.
  - exists [], pend. cbn [count0 filter length app]. rewrite Nat.add_0_r. auto.
  - assert (Hne' := no_err_tl_tail _ _ Hne).
    assert (Hnd' : forall t, ~ In (t, 0%nat, Done) pre) by (intros t Hi; apply (Hnd t); right; exact Hi).
    cbn [app dwm_spec]. destruct k as [|k].
    + rewrite count0_cons0. destruct e' as [y|c|].
      * destruct (Hmt y cnt) as [u ->].
        destruct (IH (S cnt) _ tail (dwm_inv_add cnt pend y Hinv) Hne' Hnd') as (outs & pend' & Hi & E).
        exists outs, pend'. replace (cnt + S (count0 pre))%nat with (S cnt + count0 pre)%nat by lia. auto.
      * exfalso. apply (Hne t' 0%nat c). left. reflexivity.
      * exfalso. apply (Hnd t'). left. reflexivity.
    + rewrite count0_consS. cbn [andb]. destruct (lookup (S k) pend) as [y|] eqn:El.
      * assert (Hf : fires e') by (destruct e' as [z|c|]; [exact I|exfalso; apply (Hne t' (S k) c); left; reflexivity|exact I]).
        destruct (IH cnt _ tail (dwm_inv_remove (S k) cnt pend Hinv) Hne' Hnd') as (outs & pend' & Hi & E).
        exists ((t', Next y) :: outs), pend'. split; [exact Hi|]. cbn [andb]. rewrite E.
        destruct e' as [z|c|]; [reflexivity|destruct Hf|reflexivity].
      * exact (IH cnt pend tail Hinv Hne' Hnd').
Qed.

(* while an element is pending, whatever else happens (short of a failure) *)
Lemma dwm_keep_pending : mapper_total -> forall (mid : list tin) l0 ae cnt pend k x tail,
  lookup k pend = Some x -> no_err_tl mid -> port_silent k mid ->
  exists outs l0' ae' cnt' pend',
    dwm_spec false l0 ae cnt pend (mid ++ tail) = outs ++ dwm_spec false l0' ae' cnt' pend' tail
    /\ lookup k pend' = Some x.
Proof.
  intros Hmt. induction mid as [|[[t' j] e'] mid IH]; intros l0 ae cnt pend k x tail Hl Hne Hs.
  - exists [], l0, ae, cnt, pend. auto.
  - assert (Hne' := no_err_tl_tail _ _ Hne).
    assert (Hs' : port_silent k mid) by (intros t e Hi; apply (Hs t e); right; exact Hi).
    cbn [app dwm_spec]. destruct j as [|j].
    + destruct l0; [|exact (IH false ae cnt pend k x tail Hl Hne' Hs')].
      destruct e' as [y|c|].
      * destruct (Hmt y cnt) as [u ->]. apply IH; [apply lookup_app_l; exact Hl|exact Hne'|exact Hs'].
      * exfalso. apply (Hne t' 0%nat c). left. reflexivity.
      * destruct pend as [|p pend']; [discriminate Hl|]. apply IH; assumption.
    + cbn [andb]. destruct (lookup (S j) pend) as [y|] eqn:El; [|apply IH; assumption].
      assert (Hkj : k <> S j) by (intros ->; apply (Hs t' e'); left; reflexivity).
      assert (Hl' : lookup k (remove_key (S j) pend) = Some x) by (rewrite lookup_remove_other; assumption).
      assert (Hlen : Nat.eqb (length (remove_key (S j) pend)) 0 = false) by (destruct (remove_key (S j) pend); [discriminate Hl'|reflexivity]).
      rewrite Hlen, Bool.andb_false_r.
      destruct (IH l0 ae cnt _ k x tail Hl' Hne' Hs') as (outs & l0' & ae' & cnt' & pend' & E & Hp).
      exists ((t', Next y) :: outs), l0', ae', cnt', pend'. split; [|exact Hp]. rewrite E.
      destruct e' as [z|c|]; [reflexivity|exfalso; apply (Hne t' (S j) c); left; reflexivity|reflexivity].
Qed.

(* the converse, spelled out: no subscription delay, a mapper that does not raise, no error notification
   and no completion of the source before the element arrives, no error while it is pending *)
Theorem dwm_emits_when_fired (pre mid rest : list tin) tx t x e : has_sub = false -> mapper_total ->
  no_err_tl pre -> (forall t', ~ In (t', 0%nat, Done) pre) ->
  no_err_tl mid -> port_silent (S (count0 pre)) mid -> fires e ->
  In (t, Next x) (dwm_out (pre ++ (tx, 0%nat, Next x) :: mid ++ (t, S (count0 pre), e) :: rest)).
Proof.
  intros Hs Hmt Hne Hnd Hnm Hsil He. unfold dwm_out. rewrite Hs. cbn [negb].
  destruct (dwm_prefix Hmt pre 0 [] ((tx, 0%nat, Next x) :: mid ++ (t, S (count0 pre), e) :: rest)
              (conj (Forall_nil _) (NoDup_nil _)) Hne Hnd) as (o1 & p1 & Hi & ->).
  apply in_or_app. right. change (0 + count0 pre)%nat with (count0 pre) in *. cbn [dwm_spec]. destruct (Hmt x (count0 pre)) as [u ->].
  assert (Hb : (dwm_base + count0 pre)%nat = S (count0 pre)) by (unfold dwm_base; rewrite Hs; reflexivity).
  pose proof (lookup_app_fresh _ p1 x (dwm_inv_fresh _ _ Hi)) as Hl. rewrite Hb in *.
  destruct (dwm_keep_pending Hmt mid true false (S (count0 pre)) _ (S (count0 pre)) x
              ((t, S (count0 pre), e) :: rest) Hl Hnm Hsil) as (o2 & l0' & ae' & cnt' & p2 & -> & Hl2).
  apply in_or_app. right. cbn [dwm_spec andb]. rewrite Hl2.
  destruct e as [z|c|]; [left; reflexivity|destruct He|left; reflexivity].
Qed.
End DelayMapperRun.
