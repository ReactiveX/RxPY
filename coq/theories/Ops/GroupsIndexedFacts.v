(* C19: facts about partition_indexed (model of Ops/GroupsIndexed.v), for EVERY state:
   - a non-raising indexed predicate delivers the element to exactly the subscribers whose
     verdict -- the predicate at THAT subscriber's own index -- selects their output, and
     advances every subscriber's index by one;
   - subscribers that share an index (e.g. all subscribed before the first element) see the
     element on exactly one of the two outputs, never both, and still share an index afterwards;
   - the source is subscribed iff some output subscriber is live, in every reachable state;
     a terminated subject has no subscriber. *)
From RxVerif Require Import Base.Prelude Ops.Machine Ops.MultiWin Ops.GroupsIndexed.

Section PartitionIndexedFacts.
Context {A : Type}.
Variable pred : A -> nat -> res bool.

Definition goes_to_i (b : bool) (g : nat) : bool := match g with O => b | _ => negb b end.

Definition pti_bumped (l : list (nat * nat)) : list (nat * nat) := map (fun gc => (fst gc, S (snd gc))) l.

Theorem partition_indexed_deliver (x : A) (pb : nat -> bool) : forall todo kept conn,
  (forall g c, In (g, c) todo -> pred x c = Ok (pb c)) ->
  pti_deliver pred x kept todo conn
  = (kept ++ pti_bumped todo, conn,
     map (fun gc => OWin (fst gc) (Next x)) (filter (fun gc => goes_to_i (pb (snd gc)) (fst gc)) todo)).
Proof.
  induction todo as [|[g c] t IH]; intros kept conn Hp.
  - cbn. rewrite app_nil_r. reflexivity.
  - cbn [pti_deliver filter pti_bumped map fst snd].
    assert (Hgc : pred x c = Ok (pb c)) by (apply (Hp g); left; reflexivity).
    assert (Ht : forall g' c', In (g', c') t -> pred x c' = Ok (pb c')) by (intros g' c' H; apply (Hp g'); right; exact H).
    unfold pti_pred. rewrite Hgc. rewrite (IH (kept ++ [(g, S c)]) conn Ht). rewrite <- app_assoc. cbn [app].
    destruct g as [|g]; cbn [goes_to_i]; destruct (pb c); cbn [negb map fst snd]; reflexivity.
Qed.

(* the step on an element, non-raising predicate: routing by each subscriber's own index *)
Theorem partition_indexed_routing (x : A) (pb : nat -> bool) s :
  pti_conn s = true -> pti_stopped s = None ->
  (forall g c, In (g, c) (pti_subs s) -> pred x c = Ok (pb c)) ->
  let '(s', o) := pti_step pred s (ISrc 0%nat (Next x)) in
  (forall g, In (OWin g (Next x)) o <-> exists c, In (g, c) (pti_subs s) /\ goes_to_i (pb c) g = true)
  /\ s' = PtiSt (pti_bumped (pti_subs s)) true None.
Proof.
  intros Hc Hs Hp. cbn [pti_step]. rewrite Hc, Hs, (partition_indexed_deliver x pb _ [] true Hp). cbn [app].
  split; [|reflexivity].
  intros g. rewrite in_map_iff. split.
  - intros [[j c] [Hj Hin]]. cbn [fst] in Hj. injection Hj as ->. apply filter_In in Hin. cbn [fst snd] in Hin.
    exists c. exact Hin.
  - intros [c [Hin Hg]]. exists (g, c). split; [reflexivity|]. apply filter_In. split; [exact Hin|exact Hg].
Qed.

(* subscribers sharing the index c: exactly one of the two outputs, never both; the index stays shared *)
Theorem partition_indexed_exactly_one (x : A) b c s :
  pti_conn s = true -> pti_stopped s = None ->
  (forall g c', In (g, c') (pti_subs s) -> c' = c) -> pred x c = Ok b ->
  let '(s', o) := pti_step pred s (ISrc 0%nat (Next x)) in
  (forall g, In (OWin g (Next x)) o <-> In g (pti_outs (pti_subs s)) /\ goes_to_i b g = true)
  /\ ~ (In (OWin 0%nat (Next x)) o /\ In (OWin 1%nat (Next x)) o)
  /\ pti_subs s' = map (fun gc => (fst gc, S c)) (pti_subs s)
  /\ (forall g c', In (g, c') (pti_subs s') -> c' = S c).
Proof.
  intros Hc Hs Heq Hp.
  assert (Hall : forall g c', In (g, c') (pti_subs s) -> pred x c' = Ok ((fun _ => b) c')).
  { intros g c' Hin. rewrite (Heq g c' Hin). exact Hp. }
  pose proof (partition_indexed_routing x (fun _ => b) s Hc Hs Hall) as R.
  destruct (pti_step pred s (ISrc 0%nat (Next x))) as [s' o]. destruct R as [R1 R2].
  assert (Hg : forall g, In (OWin g (Next x)) o <-> In g (pti_outs (pti_subs s)) /\ goes_to_i b g = true).
  { intros g. rewrite R1. unfold pti_outs. rewrite in_map_iff. split.
    - intros [c' [Hin Hg]]. split; [exists (g, c'); split; [reflexivity|exact Hin]|exact Hg].
    - intros [[[j c'] [Hj Hin]] Hg]. cbn [fst] in Hj. subst j. exists c'. split; assumption. }
  assert (Hsubs : pti_subs s' = map (fun gc => (fst gc, S c)) (pti_subs s)).
  { subst s'. cbn [pti_subs]. unfold pti_bumped. apply map_ext_in. intros [g c'] Hin. cbn [fst snd].
    rewrite (Heq g c' Hin). reflexivity. }
  split; [exact Hg|]. split; [|split; [exact Hsubs|]].
  - intros [H0 H1]. apply Hg in H0. apply Hg in H1. destruct H0 as [_ H0]. destruct H1 as [_ H1].
    cbn [goes_to_i] in *. rewrite H0 in H1. discriminate.
  - intros g c' Hin. rewrite Hsubs in Hin. apply in_map_iff in Hin. destruct Hin as [[j d] [Hj _]].
    injection Hj as _ <-. reflexivity.
Qed.

(* the source is subscribed iff some output subscriber is live; a terminated subject has none *)
Definition pti_inv (s : pti_st (A:=A)) : Prop :=
  (pti_conn s = true <-> pti_subs s <> []) /\ (pti_stopped s <> None -> pti_subs s = []).

Lemma pti_inv_empty st : pti_inv (PtiSt [] false st).
Proof. split; cbn; [split; [discriminate|intros H; contradiction]|auto]. Qed.

(* a subscriber leaves [subs], [rest] stay: the connection goes with the last one *)
Lemma pti_leave_inv (subs rest : list (nat * nat)) conn : (conn = true <-> subs <> []) -> (rest <> [] -> subs <> []) ->
  (fst (pti_leave (A:=A) rest conn) = true <-> rest <> []).
Proof.
  intros H Hr. unfold pti_leave. destruct rest as [|p l].
  - destruct conn; cbn [fst]; split; try discriminate; intros F; contradiction.
  - cbn [fst]. split; [intros _; discriminate|intros _; apply H, Hr; discriminate].
Qed.

Lemma pti_deliver_inv (x : A) : forall todo kept conn, (conn = true <-> kept ++ todo <> []) ->
  let '(s', c', _) := pti_deliver pred x kept todo conn in (c' = true <-> s' <> []).
Proof.
  induction todo as [|[g c] t IH]; intros kept conn H.
  - cbn [pti_deliver]. rewrite app_nil_r in H. exact H.
  - cbn [pti_deliver]. destruct (pti_pred pred g c x) as [b|e].
    + assert (H1 : conn = true <-> (kept ++ [(g, S c)]) ++ t <> []).
      { split; [intros _; destruct kept; discriminate|intros _; apply H; destruct kept; discriminate]. }
      specialize (IH (kept ++ [(g, S c)]) conn H1).
      destruct (pti_deliver pred x (kept ++ [(g, S c)]) t conn) as [[s' c'] o]. exact IH.
    + assert (H1 : fst (pti_leave (A:=A) (kept ++ t) conn) = true <-> kept ++ t <> []).
      { apply (pti_leave_inv _ _ conn H). intros _. destruct kept; discriminate. }
      destruct (pti_leave (A:=A) (kept ++ t) conn) as [c1 o1]. cbn [fst] in H1.
      specialize (IH kept c1 H1). destruct (pti_deliver pred x kept t c1) as [[s' c'] o]. exact IH.
Qed.

Theorem pti_step_inv s i : pti_inv s -> pti_inv (fst (pti_step pred s i)).
Proof.
  intros Hinv. pose proof Hinv as [H1 H2].
  destruct i as [k e|tag| |g|g]; cbn [pti_step]; try exact Hinv.
  - (* the source: a terminal empties the subject; an element drops the subscribers whose predicate raises *)
    destruct k; [|exact Hinv]. destruct (pti_conn s) eqn:Ec; [|exact Hinv].
    destruct (pti_stopped s) eqn:Es; [exact Hinv|].
    destruct e as [x|z|]; [|destruct (pti_terminate _ (pti_subs s) true) as [c' o]; apply pti_inv_empty..].
    pose proof (pti_deliver_inv x (pti_subs s) [] true H1) as Hd.
    destruct (pti_deliver pred x [] (pti_subs s) true) as [[s' c'] o]. cbn [fst].
    split; cbn [pti_conn pti_subs pti_stopped]; [exact Hd|intros H; contradiction].
  - (* a subscription: connects when it is the first *)
    destruct (pti_stopped s) eqn:Es.
    + destruct (match pti_subs s with [] => true | _ => false end && negb (pti_conn s)); exact Hinv.
    + destruct (match pti_subs s with [] => true | _ => false end && negb (pti_conn s)) eqn:E; cbn [fst];
        split; cbn [pti_conn pti_subs pti_stopped]; try (intros H; contradiction).
      * split; [intros _; destruct (pti_subs s); discriminate|reflexivity].
      * split; [intros _; destruct (pti_subs s); discriminate|].
        intros _. destruct (pti_subs s) as [|j t] eqn:El.
        -- cbn in E. destruct (pti_conn s); [reflexivity|discriminate].
        -- apply H1. discriminate.
  - (* a disposal: the connection goes with the last subscriber *)
    destruct (mem g (pti_outs (pti_subs s))); [|exact Hinv].
    assert (Hl : fst (pti_leave (A:=A) (pti_remove g (pti_subs s)) (pti_conn s)) = true <-> pti_remove g (pti_subs s) <> []).
    { apply (pti_leave_inv _ _ _ H1). intros Hr F. rewrite F in Hr. exact (Hr eq_refl). }
    destruct (pti_leave (A:=A) (pti_remove g (pti_subs s)) (pti_conn s)) as [c1 o1]. cbn [fst] in *.
    split; cbn [pti_conn pti_subs pti_stopped]; [exact Hl|].
    intros Hst. rewrite (H2 Hst). reflexivity.
Qed.

(* a fresh subscription of an output starts at index 0 *)
Theorem partition_indexed_fresh_index s g : pti_stopped s = None ->
  pti_subs (fst (pti_step pred s (ISubWin g))) = pti_subs s ++ [(g, 0%nat)].
Proof.
  intros Hs. cbn [pti_step]. rewrite Hs.
  destruct (match pti_subs s with [] => true | _ => false end && negb (pti_conn s)); reflexivity.
Qed.
End PartitionIndexedFacts.
