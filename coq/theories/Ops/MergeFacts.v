(* C11/C12: merge against its abstract specification over the interleaved input
   sequence, for EVERY input sequence; the abstract specification of switch (the
   refinement is in SwitchInvFacts.v).  Also the temitted_* equations and [remove_nodup],
   which FlatMapFacts, MergeConcFacts and MergeSpecFacts use. *)
From RxVerif Require Import Base.Prelude Ops.Machine Ops.MachineFacts Ops.Multi Ops.MultiFacts
  Ops.RunLemmas Ops.Combinators.

Local Arguments Nat.ltb : simpl never.
Local Arguments Nat.leb : simpl never.

Section Merge.
Context {A : Type}.

(* SPEC of merge over n sources: the output is the interleaving itself --
   every element of a still-running source passes at its own instant; the first
   error ends everything; completion when the last running source completes;
   notifications of sources that already terminated are ignored. *)
Fixpoint merge_spec (running : list nat) (pos : nat) (ins : list (Z * inp A)) : list (nat * ev A) :=
  match ins with
  | [] => []
  | (_, ISrc k e) :: t =>
      if mem k running then
        match e with
        | Next x => (pos, Next x) :: merge_spec running (S pos) t
        | Err x => [(pos, Err x)]
        | Done => match remove k running with
                  | [] => [(pos, Done)]
                  | rest => merge_spec rest (S pos) t
                  end
        end
      else merge_spec running (S pos) t
  | (_, ITick _) :: t => merge_spec running (S pos) t
  | (_, IDispose) :: _ => []
  end.

Lemma temitted_cons_emit {B} k (e : ev B) tr : temitted ((k, OEmit e) :: tr) = (k, e) :: temitted tr.
Proof. reflexivity. Qed.

Lemma temitted_map_unsub {B} k (l : list nat) (tr : list (nat * obs B)) :
  temitted (map (fun x => (k, x)) (map OUnsub l) ++ tr) = temitted tr.
Proof. induction l as [|j t IH]; [reflexivity|]. cbn. exact IH. Qed.

Lemma temitted_release {B} k (l1 l2 : list nat) (tr : list (nat * obs B)) :
  temitted (map (fun x => (k, x)) (map OUnsub l1 ++ map OCancel l2) ++ tr) = temitted tr.
Proof.
  rewrite map_app, <- app_assoc, temitted_map_unsub.
  induction l2 as [|j t IH]; [reflexivity|]. cbn. exact IH.
Qed.

Lemma temitted_cons_unsub {B} k j (tr : list (nat * obs B)) : temitted ((k, OUnsub j) :: tr) = temitted tr.
Proof. reflexivity. Qed.

Lemma remove_nodup k l : NoDup l -> NoDup (remove k l) /\ ~ In k (remove k l).
Proof.
  induction 1 as [|x t Hx Ht IH]; [split; [constructor|auto]|].
  cbn [remove]. destruct (Nat.eqb_spec k x) as [->|Hne].
  - split; assumption.
  - destruct IH as [IH1 IH2]. split.
    + constructor; [|exact IH1]. intros Hin. apply Hx. eapply incl_remove; eassumption.
    + intros [H|H]; [congruence|auto].
Qed.

Local Arguments mem : simpl never.
Local Arguments remove : simpl never.
Local Arguments sort_nat : simpl never.

Lemma merge_from n (ins : list (Z * inp A)) : forall running pos,
  running <> [] -> NoDup running ->
  temitted (fst (run_from (x_merge n) running (RState running [] false) pos ins))
  = merge_spec running pos ins.
Proof.
  induction ins as [|[now i] rest IH]; intros running pos Hne Hnd; [reflexivity|].
  (* per case: rs computes the runner's step, then IH at the new list of running sources *)
  cbn [run_from merge_spec].
  destruct i as [k e|tag|]; cbn [rstep r_stopped r_live r_timers].
  - destruct (mem k running) eqn:Hm.
    + destruct e as [x|e|].
      * rs. rewrite ?Hm. rs.
        specialize (IH running (S pos) Hne Hnd).
        destruct (run_from (x_merge n) running (RState running [] false) (S pos) rest) as [tr rf].
        cbn [fst] in *. rewrite temitted_cons_emit. now rewrite IH.
      * rs. rewrite ?Hm. rs.
        rewrite run_from_stopped by reflexivity. cbn [fst].
        rewrite temitted_cons_unsub, temitted_cons_emit, temitted_release. reflexivity.
      * rs. rewrite ?Hm. rs.
        destruct (remove_nodup k running Hnd) as [Hnd2 Hnotin].
        rewrite (proj2 (mem_false _ _) Hnotin). rs.
        destruct (remove k running) as [|j rest2] eqn:Hrem.
        -- rs. rewrite run_from_stopped by reflexivity. reflexivity.
        -- rs. specialize (IH (j :: rest2) (S pos) ltac:(discriminate) Hnd2).
           destruct (run_from (x_merge n) (j :: rest2) (RState (j :: rest2) [] false) (S pos) rest) as [tr rf].
           cbn [fst] in *. exact IH.
    + specialize (IH running (S pos) Hne Hnd).
      destruct (run_from (x_merge n) running (RState running [] false) (S pos) rest) as [tr rf].
      cbn [fst] in *. exact IH.
  - change (mem tag (@nil nat)) with false. rs. specialize (IH running (S pos) Hne Hnd).
    destruct (run_from (x_merge n) running (RState running [] false) (S pos) rest) as [tr rf].
    cbn [fst] in *. exact IH.
  - rs. rewrite run_from_stopped by reflexivity. cbn [fst]. rewrite temitted_release. reflexivity.
Qed.

(* for every number of sources and EVERY input sequence, what the subscriber of
   merge(s_0 .. s_{n-1}) receives, and when, is merge_spec *)
Theorem merge_refines_spec n (ins : list (Z * inp A)) :
  temitted (fst (run (x_merge n) ins))
  = match n with O => [(0%nat, Done)] | _ => merge_spec (seq 0 n) 1 ins end.
Proof.
  rewrite run_unfold. cbn [fst]. rewrite temitted_app.
  destruct n as [|n'].
  - unfold start_state, start_obs. cbn. rewrite run_from_stopped by reflexivity. reflexivity.
  - unfold start_state, start_obs.
    assert (E : forall l r, apply_cmds (B:=A) r (map CSub l)
                = (RState (r_live r ++ l) (r_timers r) (r_stopped r), map OSub l)).
    { induction l as [|j t IHl]; intros r.
      - destruct r; cbn. now rewrite app_nil_r.
      - cbn [map apply_cmds]. rewrite IHl. cbn. now rewrite <- app_assoc. }
    cbn [x_merge x_start]. rewrite E. cbn [fst snd finish app r_live r_timers r_stopped].
    assert (T : temitted (map (fun x => (0%nat, x)) (map (@OSub A) (seq 0 (S n')) ++ [])) = []).
    { rewrite app_nil_r. generalize (seq 0 (S n')). induction l; [reflexivity|exact IHl]. }
    rewrite T. cbn [app].
    apply merge_from; [discriminate|apply seq_NoDup].
Qed.

End Merge.

Section Switch.
Context {A : Type}.

(* SPEC of switch_map / switch_latest over the interleaved inputs: only the
   LATEST inner sequence is listened to; a new inner replaces it; completion
   needs the outer and the latest inner to have completed *)
Fixpoint switch_spec (mapper : A -> nat -> res unit) (outer_live : bool) (latest : nat) (has : bool)
  (pos : nat) (ins : list (Z * inp A)) : list (nat * ev A) :=
  match ins with
  | [] => []
  | (_, ISrc O e) :: t =>
      if outer_live then
        match e with
        | Next x => match mapper x latest with
                    | Ok _ => switch_spec mapper true (S latest) true (S pos) t
                    | Raise err => [(pos, Err err)]
                    end
        | Err err => [(pos, Err err)]
        | Done => if has then switch_spec mapper false latest has (S pos) t else [(pos, Done)]
        end
      else switch_spec mapper outer_live latest has (S pos) t
  | (_, ISrc (S j) e) :: t =>
      if has && Nat.eqb (S j) latest then
        match e with
        | Next x => (pos, Next x) :: switch_spec mapper outer_live latest has (S pos) t
        | Err err => [(pos, Err err)]
        | Done => if outer_live then switch_spec mapper outer_live latest false (S pos) t
                  else [(pos, Done)]
        end
      else switch_spec mapper outer_live latest has (S pos) t
  | (_, ITick _) :: t => switch_spec mapper outer_live latest has (S pos) t
  | (_, IDispose) :: _ => []
  end.

Definition switch_live (outer_live : bool) (latest : nat) (has : bool) : list nat :=
  (if outer_live then [0%nat] else []) ++ (if has then [latest] else []).
End Switch.
