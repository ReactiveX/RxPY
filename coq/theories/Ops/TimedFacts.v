(* C15-C17: what the timed machines (Ops/Timed.v) do in the closed world of
   Ops/TimedSim.v -- for ALL timelines.  First the facts about the simulator
   itself that every part uses: what [simulate] does before the first input,
   and which input comes next (a pending timer or the head of the timeline).
   Then the operators that only read the clock (no timers): timestamp,
   time_interval, throttle_first, take_last_with_time, skip_last_with_time.
   The theorems hold for arbitrary (also non-conforming, also non-monotone)
   event sequences on port 0 unless a hypothesis says otherwise. *)
From RxVerif Require Import Base.Prelude Ops.Machine Ops.Multi Ops.MultiFacts Ops.Timed Ops.TimedSim.

(* events of the main source at their instants *)
Definition ext_of {A} (es : list (Z * ev A)) : list (Z * inp A) :=
  map (fun te => (fst te, ISrc 0%nat (snd te))) es.
Lemma ext_of_cons {A} t (e : ev A) es : ext_of ((t, e) :: es) = (t, ISrc 0%nat e) :: ext_of es.
Proof. reflexivity. Qed.
Lemma ext_of_nil {A} : @ext_of A [] = [].
Proof. reflexivity. Qed.
Lemma ext_of_length {A} (es : list (Z * ev A)) : length (ext_of es) = length es.
Proof. apply map_length. Qed.
Arguments ext_of : simpl never.
Arguments sim_emits : simpl never.

(* a conforming source: elements, then a terminal (or none) *)
Definition tevents {A} (tl : list (Z * A)) (tm : tterm) : list (Z * ev A) :=
  map (fun tx => (fst tx, Next (snd tx))) tl ++
  match tm with
  | TTDone t => [(t, Done)]
  | TTErr t e => [(t, Err e)]
  | TTNever => []
  end.
Lemma tevents_cons {A} t (x : A) tl tm : tevents ((t, x) :: tl) tm = (t, Next x) :: tevents tl tm.
Proof. reflexivity. Qed.

Definition R0 := RState [0%nat] [] false.

(* one input at the head of a one-port timeline, by computation: [sim_step] from the simulator's
   choice on, [sim_fin] from the call of [rstep] on, after a case split on the input *)
Ltac sim_step :=
  rewrite sim_S; rewrite ?ext_of_cons; cbn; rewrite ?sim_emits_cons; cbn [emits flat_map map app].
Ltac sim_fin := cbn; rewrite ?sim_emits_cons; cbn [emits flat_map map app].

Lemma sim_nil {A B} (m : machine A B) fuel s r : sim m fuel s r [] [] = [].
Proof. destruct fuel; reflexivity. Qed.

(* the subscription itself: what [simulate] does before the first input *)
Lemma simulate_unfold {A B} (m : machine A B) t0 ext :
  simulate m t0 ext = simulate_fuel m (3 * length ext + 4) t0 ext.
Proof. reflexivity. Qed.

Lemma simulate_fuel_start {A B} (m : machine A B) s0 cs r1 o1 fuel t0 ext :
  x_start m = (s0, cs, Cont) -> apply_cmds (RState [] [] false) cs = (r1, o1) ->
  simulate_fuel m fuel t0 ext = (o1, sim m fuel s0 r1 (upd [] t0 o1 r1) ext).
Proof. intros Hs Ha. unfold simulate_fuel. rewrite Hs, Ha. cbn [finish]. now rewrite app_nil_r. Qed.

Lemma filter_false {X} (l : list X) : filter (fun _ => false) l = [].
Proof. induction l; auto. Qed.

(* ... for a machine whose start only subscribes: no timer, nothing emitted *)
Lemma timed_emits_start {A B} (m : machine A B) s0 cs r1 o1 t0 ext :
  x_start m = (s0, cs, Cont) -> apply_cmds (RState [] [] false) cs = (r1, o1) -> r_timers r1 = [] -> emits o1 = [] ->
  timed_emits t0 (simulate m t0 ext) = sim_emits (sim m (3 * length ext + 4) s0 r1 [] ext).
Proof.
  intros Hs Ha Ht He. rewrite simulate_unfold, (simulate_fuel_start m _ _ _ _ _ t0 ext Hs Ha).
  unfold timed_emits. cbn [fst snd]. rewrite He.
  replace (upd [] t0 o1 r1) with (@nil (nat * Z)) by (unfold upd; rewrite Ht; symmetry; apply filter_false).
  reflexivity.
Qed.

(* ... its source alone *)
Lemma timed_emits_sub0 {A B} (m : machine A B) s0 t0 ext : x_start m = (s0, [CSub 0%nat], Cont) ->
  timed_emits t0 (simulate m t0 ext) = sim_emits (sim m (3 * length ext + 4) s0 R0 [] ext).
Proof. intros Hs. exact (timed_emits_start m s0 _ R0 _ t0 ext Hs eq_refl eq_refl eq_refl). Qed.

(* ... and for one that first schedules a timer and then subscribes its source *)
Lemma simulate_timer_sub0 {A B} (m : machine A B) s0 d t0 ext : x_start m = (s0, [CTimer 0%nat d; CSub 0%nat], Cont) ->
  simulate m t0 ext
  = ([OTimer 0%nat d; OSub 0%nat], sim m (3 * length ext + 4) s0 (RState [0%nat] [0%nat] false) [(0%nat, t0 + d)] ext).
Proof. intros Hs. rewrite simulate_unfold, (simulate_fuel_start m _ _ _ _ _ t0 ext Hs eq_refl). reflexivity. Qed.

(* the earliest pending timer fires before any input that is later, whatever that input is (at equal
   instants the source goes first); [later due ext]: the next external input, if there is one, comes
   strictly after [due] *)
Definition later {A} (due : Z) (ext : list (Z * inp A)) : Prop :=
  match ext with [] => True | (t, _) :: _ => due < t end.
Lemma next_tick_late {A} p tg due (ext : list (Z * inp A)) : earliest p = Some (tg, due) -> later due ext ->
  next_event p ext = Some (due, ITick tg, ext).
Proof.
  intros Hp. unfold next_event. rewrite Hp. destruct ext as [|[t i] ext]; [reflexivity|]. cbn [later]. intros H.
  replace (match i with IDispose => t <? due | _ => t <=? due end) with false by (destruct i; lia).
  reflexivity.
Qed.
(* on a one-port timeline: that, or the head of the timeline comes first *)
Lemma later_or_src {A} due (es : list (Z * ev A)) :
  later due (ext_of es) \/ exists t e rest, es = (t, e) :: rest /\ (t <=? due) = true.
Proof.
  destruct es as [|[t e] rest]; [left; exact I|]. destruct (t <=? due) eqn:E; [right; eauto|left].
  rewrite ext_of_cons. cbn [later]. lia.
Qed.

(* the next input on a one-port timeline: its head, not after the earliest pending timer, or that timer *)
Lemma next_event_ext_of {A} p (es : list (Z * ev A)) t i ext' : next_event p (ext_of es) = Some (t, i, ext') ->
  (exists e rest, es = (t, e) :: rest /\ i = ISrc 0%nat e /\ ext' = ext_of rest
                  /\ match earliest p with Some (_, due) => t <= due | None => True end)
  \/ (exists tg, earliest p = Some (tg, t) /\ i = ITick tg /\ ext' = ext_of es).
Proof.
  destruct es as [|[t1 e1] rest]; [rewrite ext_of_nil|rewrite ext_of_cons]; cbn [next_event];
    destruct (earliest p) as [[tg due]|]; try discriminate.
  - intros H. injection H as <- <- <-. right. exists tg. auto.
  - destruct (t1 <=? due) eqn:E; intros H; injection H as <- <- <-.
    + left. exists e1, rest. repeat split. lia.
    + right. exists tg. auto.
  - intros H. injection H as <- <- <-. left. exists e1, rest. auto.
Qed.

Lemma apply_cmds_map_emit {B X} (r : rstate) (g : X -> B) (l : list X) :
  apply_cmds r (map (fun x => CEmit (g x)) l) = (r, map (fun x => OEmit (Next (g x))) l).
Proof.
  induction l as [|x l IH]; [reflexivity|]. cbn [map apply_cmds]. rewrite IH. reflexivity.
Qed.
Lemma apply_cmds_app {B} (r : rstate) (c1 c2 : list (cmd B)) :
  apply_cmds r (c1 ++ c2)
  = let '(r1, o1) := apply_cmds r c1 in let '(r2, o2) := apply_cmds r1 c2 in (r2, o1 ++ o2).
Proof.
  rewrite MultiFacts.apply_cmds_app. destruct (apply_cmds r c1) as [r1 o1]. cbn [fst snd].
  destruct (apply_cmds r1 c2). reflexivity.
Qed.
Lemma emits_map_emit {B X} (g : X -> B) (l : list X) :
  emits (map (fun x => OEmit (Next (g x))) l) = map (fun x => Next (g x)) l.
Proof. induction l as [|x l IH]; [reflexivity|]. cbn. now rewrite <- IH. Qed.
Section Stamp.
Context {A : Type}.

(* elements are relabelled with a function of the clock and a running state;
   the first terminal ends the sequence *)
Fixpoint tmap {S B} (f : S -> Z -> A -> S * B) (s : S) (es : list (Z * ev A)) : list (Z * ev B) :=
  match es with
  | [] => []
  | (t, Next x) :: rest => let '(s', b) := f s t x in (t, Next b) :: tmap f s' rest
  | (t, Err e) :: _ => [(t, Err e)]
  | (t, Done) :: _ => [(t, Done)]
  end.

(* a machine that does just that: state S, one CEmit per element, terminals passed on *)
Lemma tmap_sim {S B} (f : S -> Z -> A -> S * B) st (step : S -> Z -> inp A -> S * list (cmd B) * fin) :
  (forall s t x, step s t (ISrc 0%nat (Next x)) = let '(s', b) := f s t x in (s', [CEmit b], Cont)) ->
  (forall s t c, step s t (ISrc 0%nat (Err c)) = (s, [], Fail c)) ->
  (forall s t, step s t (ISrc 0%nat Done) = (s, [], Complete)) ->
  forall (es : list (Z * ev A)) fuel s, (length es <= fuel)%nat ->
  sim_emits (sim (Machine st step) fuel s R0 [] (ext_of es)) = tmap f s es.
Proof.
  intros Hn He Hd. induction es as [|[t e] rest IH]; intros fuel s Hf.
  - now rewrite ext_of_nil, sim_nil.
  - destruct fuel as [|f']; [cbn in Hf; lia|]. cbn [length] in Hf.
    rewrite sim_S, ext_of_cons. cbn [next_event earliest fst snd rstep R0 r_stopped r_live mem existsb Nat.eqb orb x_step tmap].
    destruct e as [x|c|]; [rewrite Hn; destruct (f s t x) as [s' b]|rewrite He|rewrite Hd]; sim_fin.
    + f_equal. apply IH. lia.
    + f_equal. apply sim_stopped. reflexivity.
    + f_equal. apply sim_stopped. reflexivity.
Qed.

Definition term_ev {B} (tm : tterm) : list (Z * ev B) :=
  match tm with TTDone t => [(t, Done)] | TTErr t e => [(t, Err e)] | TTNever => [] end.

Lemma tmap_tevents {S B} (f : S -> Z -> A -> S * B) : forall tl s tm,
  tmap f s (tevents tl tm) =
  (fix go s tl := match tl with
                  | [] => []
                  | (t, x) :: r => let '(s', b) := f s t x in (t, Next b) :: go s' r
                  end) s tl ++ term_ev tm.
Proof.
  induction tl as [|[t x] r IH]; intros s tm.
  - destruct tm; reflexivity.
  - rewrite tevents_cons. cbn [tmap]. destruct (f s t x) as [s' b]. rewrite IH. reflexivity.
Qed.
End Stamp.

Section StampSpecs.
Context {A : Type}.

Theorem timestamp_spec t0 (tl : list (Z * A)) tm :
  timed_emits t0 (simulate x_timestamp t0 (ext_of (tevents tl tm)))
  = map (fun tx => (fst tx, Next (snd tx, fst tx))) tl ++ term_ev tm.
Proof.
  rewrite (timed_emits_sub0 x_timestamp tt) by reflexivity. unfold x_timestamp.
  rewrite (tmap_sim (fun s t x => (s, (x, t)))) by (reflexivity || (rewrite ext_of_length; lia)).
  rewrite tmap_tevents. f_equal.
  induction tl as [|[t x] r IH]; [reflexivity|]. cbn [map fst snd]. now rewrite IH.
Qed.

(* time since the previous element, or since the subscription (t0) *)
Fixpoint intervals (last : Z) (tl : list (Z * A)) : list (Z * ev (A * Z)) :=
  match tl with
  | [] => []
  | (t, x) :: r => (t, Next (x, t - last)) :: intervals t r
  end.

Theorem time_interval_spec t0 (tl : list (Z * A)) tm :
  timed_emits t0 (simulate (x_time_interval t0) t0 (ext_of (tevents tl tm)))
  = intervals t0 tl ++ term_ev tm.
Proof.
  rewrite (timed_emits_sub0 (x_time_interval t0) t0) by reflexivity. unfold x_time_interval.
  rewrite (tmap_sim (fun last t x => (t, (x, t - last)))) by (reflexivity || (rewrite ext_of_length; lia)).
  rewrite tmap_tevents. reflexivity.
Qed.
End StampSpecs.

(* strongly sorted by instant *)
Fixpoint tsorted {X} (l : list (Z * X)) : Prop :=
  match l with
  | [] => True
  | (t, _) :: r => Forall (fun y => t <= fst y) r /\ tsorted r
  end.

Lemma tsorted_app_r {X} (p s : list (Z * X)) : tsorted (p ++ s) -> tsorted s.
Proof. induction p as [|[t x] p IH]; [auto|]. cbn. intros [_ H]. auto. Qed.

Section ThrottleFirst.
Context {A : Type}.

(* the greedy subsequence: an element passes iff it is the first one or at
   least [w] after the last one that PASSED *)
Fixpoint tf_spec (w : Z) (last : option Z) (es : list (Z * ev A)) : list (Z * ev A) :=
  match es with
  | [] => []
  | (t, Next x) :: rest =>
      if match last with None => true | Some l => w <=? t - l end
      then (t, Next x) :: tf_spec w (Some t) rest else tf_spec w last rest
  | (t, e) :: _ => [(t, e)]
  end.

Lemma tf_sim w : forall es fuel last, (length es <= fuel)%nat ->
  sim_emits (sim (x_throttle_first w) fuel last R0 [] (ext_of es)) = tf_spec w last es.
Proof.
  induction es as [|[t e] rest IH]; intros fuel last Hf.
  - now rewrite ext_of_nil, sim_nil.
  - destruct fuel as [|f]; [cbn in Hf; lia|]. cbn [length] in Hf.
    destruct e as [x|e|]; sim_step.
    + destruct (match last with None => true | Some l => w <=? t - l end) eqn:E; sim_fin.
      * f_equal. apply IH. lia.
      * apply IH. lia.
    + f_equal. apply sim_stopped. reflexivity.
    + f_equal. apply sim_stopped. reflexivity.
Qed.

Theorem throttle_first_spec t0 w (es : list (Z * ev A)) :
  timed_emits t0 (simulate (x_throttle_first w) t0 (ext_of es)) = tf_spec w None es.
Proof.
  rewrite (timed_emits_sub0 (x_throttle_first w) None) by reflexivity.
  apply tf_sim. rewrite ext_of_length. lia.
Qed.

(* consecutive emitted elements are at least [w] apart *)
Fixpoint gaps_ok (w : Z) (last : option Z) (out : list (Z * ev A)) : Prop :=
  match out with
  | [] => True
  | (t, Next _) :: rest => match last with None => True | Some l => w <= t - l end /\ gaps_ok w (Some t) rest
  | _ :: rest => gaps_ok w last rest
  end.

(* an element that does not pass arrived less than [w] after the last one that passed *)
Lemma tf_spec_dropped w l t (x : A) rest :
  t - l < w -> tf_spec w (Some l) ((t, Next x) :: rest) = tf_spec w (Some l) rest.
Proof. intros H. cbn [tf_spec]. destruct (w <=? t - l) eqn:E; [lia|reflexivity]. Qed.
End ThrottleFirst.

Section LastWithTime.
Context {A : Type}.

Definition aged (T d : Z) (tx : Z * A) : bool := d <=? T - fst tx.
Definition young (T d : Z) (tx : Z * A) : bool := T - fst tx <? d.

Lemma young_aged T d tx : young T d tx = negb (aged T d tx).
Proof. unfold young, aged. destruct (T - fst tx <? d) eqn:E1, (d <=? T - fst tx) eqn:E2; try reflexivity; lia. Qed.

Lemma trim_head_split now d : forall q : list (Z * A),
  exists p, q = p ++ trim_head now d q /\ Forall (fun tx => aged now d tx = true) p.
Proof.
  induction q as [|[t x] r IH]; [exists []; split; [reflexivity|constructor]|].
  cbn [trim_head]. destruct (d <=? now - t) eqn:E.
  - destruct IH as [p [Hq Hp]]. exists ((t, x) :: p). split; [cbn; now rewrite <- Hq|].
    constructor; [exact E|exact Hp].
  - exists []. split; [reflexivity|constructor].
Qed.

Lemma filter_none {X} (f : X -> bool) l : Forall (fun x => f x = false) l -> filter f l = [].
Proof. induction 1 as [|x l Hx _ IH]; [reflexivity|]. cbn. now rewrite Hx. Qed.
Lemma filter_all {X} (f : X -> bool) l : Forall (fun x => f x = true) l -> filter f l = l.
Proof. induction 1 as [|x l Hx _ IH]; [reflexivity|]. cbn. now rewrite Hx, IH. Qed.

Lemma aged_mono T u d (tx : Z * A) : u <= T -> aged u d tx = true -> aged T d tx = true.
Proof. unfold aged. intros. destruct (d <=? u - fst tx) eqn:E1; [|discriminate]. destruct (d <=? T - fst tx) eqn:E2; [reflexivity|lia]. Qed.

Definition at_time (T : Z) (l : list (Z * A)) : list (Z * ev A) := map (fun tx => (T, Next (snd tx))) l.

Definition tlast_out (keep : Z -> Z -> bool) (d : Z) (q : list (Z * A)) (tm : tterm) : list (Z * ev A) :=
  match tm with
  | TTDone T => at_time T (filter (fun tx => keep (T - fst tx) d) q) ++ [(T, Done)]
  | TTErr t e => [(t, Err e)]
  | TTNever => []
  end.

Definition tm_time (tm : tterm) (dflt : Z) : Z :=
  match tm with TTDone t | TTErr t _ => t | TTNever => dflt end.

(* from any queue state; all remaining elements arrive not after the completion *)
Lemma take_last_sim d : forall (tl : list (Z * A)) tm fuel q,
  (length tl + 1 <= fuel)%nat ->
  (forall T, tm = TTDone T -> Forall (fun tx => fst tx <= T) tl) ->
  sim_emits (sim (x_take_last_with_time d) fuel q R0 [] (ext_of (tevents tl tm)))
  = tlast_out Z.ltb d (q ++ tl) tm.
Proof.
  induction tl as [|[u x] rest IH]; intros tm fuel q Hf Hle.
  - destruct fuel as [|f]; [cbn in Hf; lia|]. rewrite app_nil_r.
    destruct tm as [T|t e|]; cbn [tevents map app].
    + sim_step. rewrite apply_cmds_map_emit. sim_fin. rewrite sim_stopped by reflexivity.
      rewrite app_nil_r, emits_app, emits_map_emit, map_app. unfold at_time. rewrite map_map. reflexivity.
    + sim_step. rewrite sim_stopped by reflexivity. reflexivity.
    + now rewrite ext_of_nil, sim_nil.
  - destruct fuel as [|f]; [cbn in Hf; lia|]. cbn [length] in Hf.
    rewrite tevents_cons. sim_step.
    rewrite IH; [|lia|intros T HT; specialize (Hle T HT); now inversion Hle].
    destruct tm as [T|t e|]; cbn [tlast_out]; [|reflexivity|reflexivity].
    f_equal. f_equal.
    destruct (trim_head_split u d (q ++ [(u, x)])) as [p [Hq Hp]].
    replace (q ++ (u, x) :: rest) with ((q ++ [(u, x)]) ++ rest) by (rewrite <- app_assoc; reflexivity).
    rewrite Hq at 2. rewrite <- app_assoc. rewrite (filter_app _ p).
    rewrite (filter_none _ p); [reflexivity|].
    specialize (Hle T eq_refl). inversion Hle as [|? ? HuT _]; subst. cbn [fst] in HuT.
    eapply Forall_impl; [|exact Hp]. intros tx Ha. cbn beta.
    pose proof (aged_mono T u d tx HuT Ha) as H2. unfold aged in H2.
    destruct (T - fst tx <? d) eqn:E; [|reflexivity]. destruct (d <=? T - fst tx) eqn:E2; [lia|discriminate].
Qed.

Theorem take_last_with_time_spec t0 d (tl : list (Z * A)) tm :
  (forall T, tm = TTDone T -> Forall (fun tx => fst tx <= T) tl) ->
  timed_emits t0 (simulate (x_take_last_with_time d) t0 (ext_of (tevents tl tm)))
  = tlast_out Z.ltb d tl tm.
Proof.
  intros H. rewrite (timed_emits_sub0 (x_take_last_with_time d) []) by reflexivity.
  rewrite (take_last_sim d tl tm _ []); [reflexivity| |exact H].
  rewrite ext_of_length. unfold tevents. rewrite app_length, map_length. lia.
Qed.

(* pop_aged: the maximal aged prefix *)
Lemma pop_aged_split now d : forall q : list (Z * A),
  exists p s, q = p ++ s /\ pop_aged now d q = (map snd p, s)
              /\ Forall (fun tx => aged now d tx = true) p
              /\ match s with [] => True | tx :: _ => aged now d tx = false end.
Proof.
  induction q as [|[t x] r IH]; [exists [], []; repeat split; constructor|].
  cbn [pop_aged]. destruct (d <=? now - t) eqn:E.
  - destruct IH as [p [s [Hq [Hp [Ha Hs]]]]]. exists ((t, x) :: p), s. rewrite Hp. subst r.
    repeat split; [constructor; [exact E|exact Ha]|exact Hs].
  - exists [], ((t, x) :: r). repeat split; [constructor|exact E].
Qed.

Definition vals (l : list (Z * ev A)) : list (ev A) := map snd l.

Lemma young_tail T d t (x : A) s : aged T d (t, x) = false -> Forall (fun y => t <= fst y) s ->
  Forall (fun y => aged T d y = false) s.
Proof.
  intros H Hs. eapply Forall_impl; [|exact Hs]. intros y Hy. unfold aged in *. cbn [fst] in *.
  destruct (d <=? T - t) eqn:E1; [discriminate|]. destruct (d <=? T - fst y) eqn:E2; [lia|reflexivity].
Qed.

(* sorted timeline, completion not before the last element: by the completion
   exactly the elements aged >= d have been emitted, in order *)
Lemma skip_last_sim d : forall (tl : list (Z * A)) T fuel q,
  (length tl + 1 <= fuel)%nat -> tsorted (q ++ tl) -> Forall (fun tx => fst tx <= T) tl ->
  vals (sim_emits (sim (x_skip_last_with_time d) fuel q R0 [] (ext_of (tevents tl (TTDone T)))))
  = map (fun tx => Next (snd tx)) (filter (aged T d) (q ++ tl)) ++ [Done].
Proof.
  induction tl as [|[u x] rest IH]; intros T fuel q Hf Hs Hle.
  - destruct fuel as [|f]; [cbn in Hf; lia|]. rewrite app_nil_r in *. cbn [tevents map app].
    rewrite sim_S, ext_of_cons. cbn.
    destruct (pop_aged_split T d q) as [p [s [Hq [Hp [Ha Hy]]]]]. rewrite Hp.
    rewrite apply_cmds_emit_only. sim_fin.
    rewrite sim_stopped by reflexivity. rewrite app_nil_r. unfold vals.
    subst q. rewrite filter_app, (filter_all _ p Ha).
    assert (Hn : filter (aged T d) s = []).
    { destruct s as [|[t y] s']; [reflexivity|]. apply filter_none. constructor; [exact Hy|].
      apply tsorted_app_r in Hs. cbn in Hs. destruct Hs as [Hs _]. exact (young_tail T d t y s' Hy Hs). }
    rewrite Hn, app_nil_r.
    rewrite emits_app, emits_emit_only, !map_app, !map_map. reflexivity.
  - destruct fuel as [|f]; [cbn in Hf; lia|]. cbn [length] in Hf.
    rewrite tevents_cons, sim_S, ext_of_cons. cbn.
    destruct (pop_aged_split u d (q ++ [(u, x)])) as [p [s [Hq [Hp [Ha Hy]]]]]. rewrite Hp.
    rewrite apply_cmds_emit_only. sim_fin. rewrite app_nil_r.
    unfold vals in *. rewrite map_app, filter_false.
    assert (Hsort : tsorted (s ++ rest)).
    { replace (q ++ (u, x) :: rest) with ((q ++ [(u, x)]) ++ rest) in Hs by (rewrite <- app_assoc; reflexivity).
      rewrite Hq, <- app_assoc in Hs. exact (tsorted_app_r _ _ Hs). }
    inversion Hle as [|? ? HuT Hrest]; subst. cbn [fst] in HuT.
    rewrite IH; [|lia|exact Hsort|exact Hrest].
    replace (q ++ (u, x) :: rest) with ((q ++ [(u, x)]) ++ rest) by (rewrite <- app_assoc; reflexivity).
    rewrite Hq, <- app_assoc, (filter_app _ p), map_app, <- app_assoc. f_equal.
    rewrite filter_all; [|eapply Forall_impl; [|exact Ha]; intros tx; apply aged_mono; exact HuT].
    rewrite emits_emit_only, !map_map. reflexivity.
Qed.

Theorem skip_last_with_time_spec t0 d (tl : list (Z * A)) T :
  tsorted tl -> Forall (fun tx => fst tx <= T) tl ->
  vals (timed_emits t0 (simulate (x_skip_last_with_time d) t0 (ext_of (tevents tl (TTDone T)))))
  = map (fun tx => Next (snd tx)) (filter (aged T d) tl) ++ [Done].
Proof.
  intros Hs H. rewrite (timed_emits_sub0 (x_skip_last_with_time d) []) by reflexivity.
  rewrite (skip_last_sim d tl T _ []); [reflexivity| |exact Hs|exact H].
  rewrite ext_of_length. unfold tevents. rewrite app_length, map_length. cbn. lia.
Qed.
End LastWithTime.

