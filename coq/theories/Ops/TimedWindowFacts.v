(* C16/C17: operators with ONE live timer at a time, in the closed world
   of Ops/TimedSim.v (timers fire exactly at their due time; at equal instants
   source notifications go first): take_with_time / take_until_with_time,
   skip_with_time / skip_until_with_time, timeout, debounce.

   Each operator gets (a) the simulation theorem: the timed emissions equal a
   specification function that walks the timeline with the current due time,
   for ALL event sequences on port 0 (non-conforming ones included), and (b)
   closed forms on conforming sorted timelines (skip: the closed form at once,
   for time-sorted event sequences).

   The head of the file is shared with the other timed files: [nat_eqb], [upto_term] / [has_term];
   so are [due_at] and [sim_deaf] (a runner that does not listen observes nothing) further down. *)
From RxVerif Require Import Base.Prelude Ops.Machine Ops.Multi Ops.MultiFacts Ops.Timed Ops.TimedSim
  Ops.TimedFacts.

Lemma eqb_succ_r n : Nat.eqb n (S n) = false.
Proof. apply Nat.eqb_neq. lia. Qed.
Lemma eqb_succ_l n : Nat.eqb (S n) n = false.
Proof. apply Nat.eqb_neq. lia. Qed.

(* the comparisons of timer tags a step leaves behind: n =? n, n =? S n, S n =? n *)
Ltac nat_eqb := rewrite ?Nat.eqb_refl, ?eqb_succ_r, ?eqb_succ_l.

(* the prefix of an event list up to and including the first terminal *)
Fixpoint upto_term {A} (es : list (Z * ev A)) : list (Z * ev A) :=
  match es with
  | [] => []
  | (t, Next x) :: rest => (t, Next x) :: upto_term rest
  | (t, e) :: _ => [(t, e)]
  end.
Definition has_term {A} (es : list (Z * ev A)) : bool := existsb (fun te => is_terminal (snd te)) es.

Section TakeUntil.
Context {A : Type}.

(* [D] = the instant the timer is due.  Notifications up to AND AT D pass (at
   the instant D the source goes first); then completion at D. *)
Fixpoint take_spec (D : Z) (es : list (Z * ev A)) : list (Z * ev A) :=
  match es with
  | [] => [(D, Done)]
  | (t, e) :: rest =>
      if t <=? D then match e with Next x => (t, Next x) :: take_spec D rest | _ => [(t, e)] end
      else [(D, Done)]
  end.

Lemma take_sim ts t0 D : forall es fuel, (length es + 1 <= fuel)%nat ->
  sim_emits (sim (x_take_until_with_time ts t0) fuel tt (RState [0%nat] [0%nat] false) [(0%nat, D)] (ext_of es))
  = take_spec D es.
Proof.
  induction es as [|[t e] rest IH]; intros fuel Hf.
  - destruct fuel as [|f]; [cbn in Hf; lia|]. rewrite ext_of_nil. sim_step.
    rewrite sim_stopped by reflexivity. reflexivity.
  - destruct fuel as [|f]; [cbn in Hf; lia|]. cbn [length] in Hf. cbn [take_spec].
    rewrite sim_S, ext_of_cons. cbn [next_event earliest fst snd].
    destruct (t <=? D) eqn:E; [destruct e as [x|e|]|]; sim_fin;
      try (rewrite sim_stopped by reflexivity; reflexivity).
    f_equal. apply IH. lia.
Qed.

(* due instant of the timer scheduled at subscription *)
Definition due_at (ts : tspec) (t0 : Z) : Z := t0 + clamp (tdelay ts t0).

Theorem take_until_with_time_spec ts t0 (es : list (Z * ev A)) :
  timed_emits t0 (simulate (x_take_until_with_time ts t0) t0 (ext_of es)) = take_spec (due_at ts t0) es.
Proof.
  unfold timed_emits. rewrite (simulate_timer_sub0 (x_take_until_with_time ts t0) tt _ t0 _ eq_refl).
  apply take_sim. rewrite ext_of_length. lia.
Qed.

Theorem take_with_time_spec d t0 (es : list (Z * ev A)) :
  timed_emits t0 (simulate (x_take_until_with_time (Rel d) t0) t0 (ext_of es)) = take_spec (t0 + clamp d) es.
Proof. exact (take_until_with_time_spec (Rel d) t0 es). Qed.

(* closed form on a time-sorted event list: the events up to the boundary,
   then the completion unless the source terminated by then *)
Lemma take_spec_sorted D : forall es : list (Z * ev A), tsorted es ->
  take_spec D es =
  let k := filter (fun te => fst te <=? D) es in
  upto_term k ++ (if has_term k then [] else [(D, Done)]).
Proof.
  induction es as [|[t e] rest IH]; intros Hs; [reflexivity|].
  cbn [take_spec filter fst]. destruct Hs as [Hall Hs]. destruct (t <=? D) eqn:E.
  - destruct e as [x|e|]; [|reflexivity|reflexivity].
    cbn [upto_term has_term existsb snd is_terminal orb]. rewrite IH by exact Hs. reflexivity.
  - rewrite filter_none; [reflexivity|].
    eapply Forall_impl; [|exact Hall]. intros te Hte. cbn beta in *. destruct (fst te <=? D) eqn:E2; [lia|reflexivity].
Qed.
End TakeUntil.

Section SkipUntil.
Context {A : Type}.

Lemma skip_open_sim b ts t0 : forall (es : list (Z * ev A)) fuel, (length es <= fuel)%nat ->
  sim_emits (sim (x_skip_until_with_time b ts t0) fuel true R0 [] (ext_of es)) = upto_term es.
Proof.
  induction es as [|[t e] rest IH]; intros fuel Hf.
  - now rewrite ext_of_nil, sim_nil.
  - destruct fuel as [|f]; [cbn in Hf; lia|]. cbn [length] in Hf.
    destruct e as [x|e|]; sim_step; try (rewrite sim_stopped by reflexivity; reflexivity).
    f_equal. apply IH. lia.
Qed.

(* gate closed, timer due at D, time-sorted events: elements up to and AT D are dropped (the
   source goes first at D), terminals always pass; once the timer fired the gate stays open *)
Lemma skip_sim b ts t0 D : forall (es : list (Z * ev A)) fuel, (length es + 1 <= fuel)%nat -> tsorted es ->
  sim_emits (sim (x_skip_until_with_time b ts t0) fuel false (RState [0%nat] [0%nat] false) [(0%nat, D)] (ext_of es))
  = upto_term (filter (fun te => is_terminal (snd te) || (D <? fst te)) es).
Proof.
  induction es as [|[t e] rest IH]; intros fuel Hf Hs.
  - destruct fuel as [|f]; [cbn in Hf; lia|]. rewrite ext_of_nil. sim_step. now rewrite sim_nil.
  - destruct fuel as [|f]; [cbn in Hf; lia|]. cbn [length] in Hf.
    rewrite sim_S, ext_of_cons. cbn [next_event earliest fst snd]. destruct Hs as [Hall Hs].
    destruct (t <=? D) eqn:E.
    + cbn [filter fst snd]. replace (D <? t) with false by lia. rewrite Bool.orb_false_r.
      destruct e as [x|e|]; sim_fin; try (rewrite sim_stopped by reflexivity; reflexivity).
      apply IH; [lia|exact Hs].
    + rewrite filter_all.
      * sim_fin. rewrite <- ext_of_cons. apply (skip_open_sim b ts t0 ((t, e) :: rest)). cbn [length]. lia.
      * apply Forall_forall. intros te Hin.
        assert (t <= fst te) by (destruct Hin as [<-|Hin]; [cbn; lia|exact (proj1 (Forall_forall _ _) Hall te Hin)]).
        replace (D <? fst te) with true by lia. apply Bool.orb_true_r.
Qed.
End SkipUntil.

Section Timeout.
Context {A : Type}.

(* [due] = instant at which the running timer fires; an element arriving up to
   and AT that instant re-arms it for [t + clamp (tdelay ts t)] (relative d: t + d;
   absolute D: D again); a terminal up to and at it ends the sequence -- the
   timer never acts after the source terminated *)
Fixpoint timeout_spec (ts : tspec) (due : Z) (es : list (Z * ev A)) : list (Z * ev A) * option Z :=
  match es with
  | [] => ([], Some due)
  | (t, e) :: rest =>
      if t <=? due then
        match e with
        | Next x => let '(o, sw) := timeout_spec ts (t + clamp (tdelay ts t)) rest in ((t, Next x) :: o, sw)
        | _ => ([(t, e)], None)
        end
      else ([], Some due)
  end.

(* without a fallback: throw(Exception("Timeout")) subscribed with the scheduler *)
Definition timeout_out (r : list (Z * ev A) * option Z) : list (Z * ev A) :=
  fst r ++ match snd r with Some due => [(due, Err TIMEOUT_ERR)] | None => [] end.

(* with a fallback (source 1): at the switch instant the fallback is subscribed
   and the source unsubscribed.  Stated for timelines of the main source only:
   [sim_subs] lists the (instant, source) of every subscription made. *)
Definition sim_subs {B} (l : list (Z * inp A * list (obs B))) : list (Z * nat) :=
  flat_map (fun x => flat_map (fun o => match o with OSub k => [(fst (fst x), k)] | _ => [] end) (snd x)) l.
Definition sim_unsubs {B} (l : list (Z * inp A * list (obs B))) : list (Z * nat) :=
  flat_map (fun x => flat_map (fun o => match o with OUnsub k => [(fst (fst x), k)] | _ => [] end) (snd x)) l.

(* closed form for a relative due time d >= 0 on a conforming timeline: the
   switch happens at the first instant [last + d] (last = subscription or the
   latest element) that is strictly before the next notification *)
Fixpoint first_gap (d last : Z) (tl : list (Z * A)) (tm : tterm) : option Z :=
  match tl with
  | [] => match tm with
          | TTDone t | TTErr t _ => if t <=? last + d then None else Some (last + d)
          | TTNever => Some (last + d)
          end
  | (t, _) :: rest => if t <=? last + d then first_gap d t rest tm else Some (last + d)
  end.

End Timeout.

Arguments sim_subs : simpl never.

Lemma sim_subs_cons {A B} t (i : inp A) (o : list (obs B)) l :
  sim_subs ((t, i, o) :: l) = flat_map (fun o => match o with OSub k => [(t, k)] | _ => [] end) o ++ sim_subs l.
Proof. reflexivity. Qed.

Lemma sim_subs_stopped {A B} (m : machine A B) fuel : forall s r p ext, r_stopped r = true ->
  sim_subs (sim m fuel s r p ext) = [].
Proof.
  induction fuel as [|f IH]; intros s r p ext H; [reflexivity|].
  rewrite sim_S. destruct (next_event p ext) as [[[t i] ext']|]; [|reflexivity].
  rewrite rstep_stopped by exact H. rewrite sim_subs_cons. cbn. now apply IH.
Qed.

(* a runner with no timer pending that does not listen to the only port that notifies observes nothing *)
Lemma sim_deaf {A B} (m : machine A B) live : mem 0%nat live = false -> forall (es : list (Z * ev A)) fuel s,
  sim_emits (sim m fuel s (RState live [] false) [] (ext_of es)) = []
  /\ sim_subs (sim m fuel s (RState live [] false) [] (ext_of es)) = [].
Proof.
  intros Hm. induction es as [|[t e] rest IH]; intros fuel s.
  - rewrite ext_of_nil, sim_nil. split; reflexivity.
  - destruct fuel as [|f]; [split; reflexivity|].
    rewrite sim_S, ext_of_cons. cbn [next_event earliest rstep r_stopped r_live]. rewrite Hm.
    rewrite sim_emits_cons, sim_subs_cons. cbn. apply IH.
Qed.

Section TimeoutWalk.
Context {A : Type} (ts : tspec) (t0 : Z).

(* the simulation before the switch: the source is listened to and timer [tg], armed under the
   id [id] of the latest element (or of the subscription), is pending for [due] *)
Definition to_sim (other : bool) (fuel id tg : nat) (tms : list (nat * nat)) (due : Z) (ext : list (Z * inp A)) :=
  sim (x_timeout ts other t0) fuel (ToSt false id ((tg, id) :: tms) None (S tg)) (RState [0%nat] [tg] false) [(tg, due)] ext.

(* the three things that can happen there, with or without a fallback and whatever else [ext] holds *)
Lemma timeout_src_next other f id tg tms due t (x : A) ext : (t <=? due) = true ->
  to_sim other (S f) id tg tms due ((t, ISrc 0%nat (Next x)) :: ext)
  = (t, ISrc 0%nat (Next x), [OEmit (Next x); OTimer (S tg) (clamp (tdelay ts t)); OCancel tg])
    :: to_sim other f (S id) (S tg) ((tg, id) :: tms) (t + clamp (tdelay ts t)) ext.
Proof.
  intros E. unfold to_sim. rewrite sim_S. cbn [next_event earliest]. rewrite E.
  cbn. nat_eqb. cbn. nat_eqb. reflexivity.
Qed.

Lemma timeout_src_term other f id tg tms due t (e : ev A) ext : (t <=? due) = true -> is_terminal e = true ->
  sim_emits (to_sim other (S f) id tg tms due ((t, ISrc 0%nat e) :: ext)) = [(t, e)]
  /\ sim_subs (to_sim other (S f) id tg tms due ((t, ISrc 0%nat e) :: ext)) = [].
Proof.
  intros E He. unfold to_sim. rewrite sim_S. cbn [next_event earliest].
  destruct e as [x|c|]; [discriminate He| |]; rewrite E; cbn;
    rewrite sim_emits_cons, sim_subs_cons, sim_stopped, sim_subs_stopped by reflexivity; split; reflexivity.
Qed.

Lemma timeout_fire other f id tg tms due (ext : list (Z * inp A)) : later due ext ->
  to_sim other (S f) id tg tms due ext
  = if other
    then (due, ITick tg, [OSub 1%nat; OUnsub 0%nat])
         :: sim (x_timeout ts other t0) f (ToSt true id ((tg, id) :: tms) None (S tg)) (RState [1%nat] [] false) [] ext
    else (due, ITick tg, [OTimer (S tg) 0; OUnsub 0%nat])
         :: sim (x_timeout ts other t0) f (ToSt true id ((tg, id) :: tms) (Some (S tg)) (S (S tg))) (RState [] [S tg] false)
                [(S tg, due)] ext.
Proof.
  intros H. unfold to_sim. rewrite sim_S, (next_tick_late [(tg, due)] tg due ext eq_refl H). cbn. nat_eqb. cbn. nat_eqb.
  destruct other; cbn; nat_eqb; rewrite ?Z.add_0_r; reflexivity.
Qed.

(* without a fallback the zero-delay action of throw() runs at the same instant, before whatever comes later *)
Lemma timeout_throw_sim f id tg tms due (ext : list (Z * inp A)) : later due ext ->
  sim_emits (to_sim false (S (S f)) id tg tms due ext) = [(due, Err TIMEOUT_ERR)].
Proof.
  intros H. rewrite (timeout_fire false _ _ _ _ _ _ H). cbv iota.
  rewrite sim_emits_cons, sim_S, (next_tick_late [(S tg, due)] (S tg) due ext eq_refl H).
  cbn. nat_eqb. cbn. rewrite sim_emits_cons, sim_stopped by reflexivity. reflexivity.
Qed.

Lemma timeout_sim : forall (es : list (Z * ev A)) fuel id tg tms due, (2 * length es + 2 <= fuel)%nat ->
  sim_emits (to_sim false fuel id tg tms due (ext_of es)) = timeout_out (timeout_spec ts due es).
Proof.
  induction es as [|[t e] rest IH]; intros fuel id tg tms due Hf.
  - destruct fuel as [|[|f]]; [cbn in Hf; lia..|]. rewrite ext_of_nil. apply timeout_throw_sim. exact I.
  - destruct fuel as [|[|f]]; [cbn in Hf; lia..|]. cbn [length] in Hf. cbn [timeout_spec]. rewrite ext_of_cons.
    destruct (t <=? due) eqn:E; [|apply timeout_throw_sim; cbn; lia].
    destruct e as [x|c|]; [|apply timeout_src_term; [exact E|reflexivity]..].
    rewrite timeout_src_next, sim_emits_cons, IH by (exact E || lia).
    destruct (timeout_spec ts (t + clamp (tdelay ts t)) rest) as [o sw]. reflexivity.
Qed.

Theorem timeout_spec_no_fallback (es : list (Z * ev A)) :
  timed_emits t0 (simulate (x_timeout ts false t0) t0 (ext_of es))
  = timeout_out (timeout_spec ts (due_at ts t0) es).
Proof.
  unfold timed_emits. rewrite (simulate_timer_sub0 (x_timeout ts false t0) _ _ t0 _ eq_refl).
  apply (timeout_sim es _ 0 0 []). rewrite ext_of_length. lia.
Qed.

Lemma timeout_fallback_sim : forall (es : list (Z * ev A)) fuel id tg tms due, (2 * length es + 2 <= fuel)%nat ->
  sim_emits (to_sim true fuel id tg tms due (ext_of es)) = fst (timeout_spec ts due es)
  /\ sim_subs (to_sim true fuel id tg tms due (ext_of es))
     = match snd (timeout_spec ts due es) with Some d => [(d, 1%nat)] | None => [] end.
Proof.
  assert (Fire : forall f id tg tms due (es : list (Z * ev A)), later due (ext_of es) ->
            sim_emits (to_sim true (S f) id tg tms due (ext_of es)) = []
            /\ sim_subs (to_sim true (S f) id tg tms due (ext_of es)) = [(due, 1%nat)]).
  { intros f id tg tms due es H. rewrite (timeout_fire true _ _ _ _ _ _ H). cbv iota. rewrite sim_emits_cons, sim_subs_cons.
    (* the main source is unsubscribed: nothing of it is observed any more *)
    destruct (sim_deaf (x_timeout ts true t0) [1%nat] eq_refl es f (ToSt true id ((tg, id) :: tms) None (S tg))) as [-> ->].
    split; reflexivity. }
  induction es as [|[t e] rest IH]; intros fuel id tg tms due Hf.
  - destruct fuel as [|f]; [cbn in Hf; lia|]. apply Fire. exact I.
  - destruct fuel as [|f]; [cbn in Hf; lia|]. cbn [length] in Hf. cbn [timeout_spec].
    destruct (t <=? due) eqn:E; [|apply Fire; rewrite ext_of_cons; cbn; lia].
    rewrite ext_of_cons. destruct e as [x|c|]; [|apply timeout_src_term; [exact E|reflexivity]..].
    rewrite timeout_src_next, sim_emits_cons, sim_subs_cons by exact E.
    destruct (IH f (S id) (S tg) ((tg, id) :: tms) (t + clamp (tdelay ts t))) as [-> ->]; [lia|].
    destruct (timeout_spec ts (t + clamp (tdelay ts t)) rest) as [o sw]. split; reflexivity.
Qed.
End TimeoutWalk.


Section Debounce.
Context {A : Type}.

(* [pend] = the pending element with the instant its timer is due.  A
   notification up to and AT the due instant comes first: a newer element
   replaces the pending one, completion flushes it, an error drops it. *)
Fixpoint deb_spec (dd : Z) (pend : option (Z * A)) (es : list (Z * ev A)) : list (Z * ev A) :=
  match es with
  | [] => match pend with Some (due, v) => [(due, Next v)] | None => [] end
  | (t, e) :: rest =>
      let fired := match pend with Some (due, v) => negb (t <=? due) | None => false end in
      (match pend with Some (due, v) => if fired then [(due, Next v)] else [] | None => [] end) ++
      match e with
      | Next x => deb_spec dd (Some (t + dd, x)) rest
      | Done => (match pend with Some (_, v) => if fired then [] else [(t, Next v)] | None => [] end) ++ [(t, Done)]
      | Err c => [(t, Err c)]
      end
  end.

Inductive deb_inv : deb_st -> rstate -> pend -> option (Z * A) -> Prop :=
| DI_none s : db_has s = false -> deb_inv s R0 [] None
| DI_some v id tg tms due :
    deb_inv (DebSt true (Some v) id ((tg, id) :: tms) (S tg)) (RState [0%nat] [tg] false) [(tg, due)] (Some (due, v)).

Lemma deb_sim d : forall es fuel s r p pend, (2 * length es + 1 <= fuel)%nat -> deb_inv s r p pend ->
  sim_emits (sim (x_debounce d) fuel s r p (ext_of es)) = deb_spec (clamp d) pend es.
Proof.
  induction es as [|[t e] rest IH]; intros fuel s r p pend Hf Hinv.
  - destruct fuel as [|f]; [cbn in Hf; lia|]. rewrite ext_of_nil. destruct Hinv as [s Hh|v id tg tms due].
    + reflexivity.
    + rewrite sim_S. cbn. nat_eqb. cbn. nat_eqb. sim_fin.
      now rewrite sim_nil.
  - (* nothing pending: the head of the timeline is next; used directly and after the pending timer fired
       (hence two units of fuel per notification) *)
    assert (StepNone : forall f s, (2 * length rest + 2 <= f)%nat -> db_has s = false ->
              sim_emits (sim (x_debounce d) f s R0 [] ((t, ISrc 0%nat e) :: ext_of rest))
              = match e with
                | Next x => deb_spec (clamp d) (Some (t + clamp d, x)) rest
                | Done => [(t, Done)]
                | Err c => [(t, Err c)]
                end).
    { intros f s0 Hf0 Hh. destruct f as [|f]; [lia|].
      rewrite sim_S. cbn [next_event earliest fst snd].
      destruct e as [x|c|]; cbn.
      - destruct (db_ntag s0) as [|n] eqn:En; cbn; nat_eqb; sim_fin; (rewrite IH with (pend := Some (t + clamp d, x)); [reflexivity|lia|constructor]).
      - destruct (db_ntag s0) as [|n] eqn:En; cbn; sim_fin; rewrite sim_stopped by reflexivity; reflexivity.
      - rewrite Hh. destruct (db_ntag s0) as [|n] eqn:En; cbn; sim_fin; rewrite sim_stopped by reflexivity; reflexivity. }
    cbn [length] in Hf. rewrite ext_of_cons. cbn [deb_spec].
    destruct Hinv as [s Hh|v id tg tms due].
    + cbn [app]. rewrite StepNone; [|lia|exact Hh]. destruct e; reflexivity.
    + destruct fuel as [|f]; [lia|].
      rewrite sim_S. cbn [next_event earliest fst snd].
      destruct (t <=? due) eqn:E; cbn [negb app].
      * destruct e as [x|c|]; cbn; nat_eqb; cbn; nat_eqb; sim_fin.
        -- rewrite IH with (pend := Some (t + clamp d, x)); [reflexivity|lia|constructor].
        -- rewrite sim_stopped by reflexivity. reflexivity.
        -- rewrite sim_stopped by reflexivity. reflexivity.
      * cbn. nat_eqb. cbn. nat_eqb. sim_fin. f_equal.
        rewrite StepNone; [|lia|reflexivity]. destruct e; reflexivity.
Qed.

Theorem debounce_sim_spec d t0 (es : list (Z * ev A)) :
  timed_emits t0 (simulate (x_debounce d) t0 (ext_of es)) = deb_spec (clamp d) None es.
Proof.
  rewrite (timed_emits_sub0 (x_debounce d) (DebSt false None 0 [] 0)) by reflexivity.
  apply deb_sim; [rewrite ext_of_length; lia|constructor; reflexivity].
Qed.

(* closed form on a conforming time-sorted timeline, due time dd >= 0: each
   element is decided by the instant of the NEXT notification alone *)
Fixpoint deb_out (dd : Z) (tl : list (Z * A)) (tm : tterm) : list (Z * ev A) :=
  match tl with
  | [] => term_ev tm
  | (t, x) :: rest =>
      match rest with
      | (t', _) :: _ => if t' <=? t + dd then [] else [(t + dd, Next x)]
      | [] =>
          match tm with
          | TTDone T => [(Z.min (t + dd) T, Next x)]           (* its timer, or the flush on completion *)
          | TTErr T _ => if T <=? t + dd then [] else [(t + dd, Next x)]
          | TTNever => [(t + dd, Next x)]
          end
      end ++ deb_out dd rest tm
  end.

Lemma deb_spec_closed dd : forall (tl : list (Z * A)) tm t x,
  deb_spec dd (Some (t + dd, x)) (tevents tl tm) = deb_out dd ((t, x) :: tl) tm.
Proof.
  induction tl as [|[t' x'] rest IH]; intros tm t x.
  - destruct tm as [T|T c|]; cbn [tevents map app deb_spec deb_out term_ev].
    + destruct (T <=? t + dd) eqn:E; cbn [negb app].
      * rewrite Z.min_r by lia. reflexivity.
      * rewrite Z.min_l by lia. reflexivity.
    + destruct (T <=? t + dd) eqn:E; reflexivity.
    + reflexivity.
  - rewrite tevents_cons. cbn [deb_spec]. rewrite IH. cbn [deb_out].
    destruct (t' <=? t + dd); reflexivity.
Qed.

Theorem debounce_spec d t0 (tl : list (Z * A)) tm :
  timed_emits t0 (simulate (x_debounce d) t0 (ext_of (tevents tl tm))) = deb_out (clamp d) tl tm.
Proof.
  rewrite debounce_sim_spec. destruct tl as [|[t x] rest].
  - destruct tm; reflexivity.
  - rewrite tevents_cons. cbn [deb_spec app]. apply deb_spec_closed.
Qed.
End Debounce.
