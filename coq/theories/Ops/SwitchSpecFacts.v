(* C12: the switch specification ([switch_spec], to which the machine is proved to refine for
   every mapper and every input sequence) read one input at a time: whatever it emits, it emits
   at one input, from the state [sw_after] reached on the inputs before it. *)
From RxVerif Require Import Base.Prelude Ops.Machine Ops.Multi Ops.MergeFacts.

Section SwitchSpec.
Context {A : Type}.

(* the specification's state after a prefix of the inputs: (outer live, id of the
   latest inner = number of inners created, latest inner still running), or None
   once the output has terminated *)
Fixpoint sw_after (mapper : A -> nat -> res unit) (ol : bool) (latest : nat) (has : bool)
  (ins : list (Z * inp A)) : option (bool * nat * bool) :=
  match ins with
  | [] => Some (ol, latest, has)
  | (_, ISrc O e) :: t =>
      if ol then
        match e with
        | Next x => match mapper x latest with
                    | Ok _ => sw_after mapper true (S latest) true t
                    | Raise _ => None
                    end
        | Err _ => None
        | Done => if has then sw_after mapper false latest has t else None
        end
      else sw_after mapper ol latest has t
  | (_, ISrc (S j) e) :: t =>
      if has && Nat.eqb (S j) latest then
        match e with
        | Next _ => sw_after mapper ol latest has t
        | Err _ => None
        | Done => if ol then sw_after mapper ol latest false t else None
        end
      else sw_after mapper ol latest has t
  | (_, ITick _) :: t => sw_after mapper ol latest has t
  | (_, IDispose) :: _ => None
  end.

Lemma switch_spec_cons mapper ol latest has pos now (i : inp A) rest :
  switch_spec mapper ol latest has pos ((now, i) :: rest)
  = switch_spec mapper ol latest has pos [(now, i)]
    ++ match sw_after mapper ol latest has [(now, i)] with
       | Some (ol', latest', has') => switch_spec mapper ol' latest' has' (S pos) rest
       | None => []
       end.
Proof.
  destruct i as [[|j] e|tag|]; cbn [switch_spec sw_after]; try reflexivity.
  - destruct ol; [destruct e as [x|er|]; [destruct (mapper x latest)| |destruct has]|]; reflexivity.
  - destruct (has && Nat.eqb (S j) latest); [destruct e; [| |destruct ol]|]; reflexivity.
Qed.

Lemma sw_after_cons mapper ol latest has now (i : inp A) rest :
  sw_after mapper ol latest has ((now, i) :: rest)
  = match sw_after mapper ol latest has [(now, i)] with
    | Some (ol', latest', has') => sw_after mapper ol' latest' has' rest
    | None => None
    end.
Proof.
  destruct i as [[|j] e|tag|]; cbn [sw_after]; try reflexivity.
  - destruct ol; [destruct e as [x|er|]; [destruct (mapper x latest)| |destruct has]|]; reflexivity.
  - destruct (has && Nat.eqb (S j) latest); [destruct e; [| |destruct ol]|]; reflexivity.
Qed.

Lemma switch_spec_one mapper ol latest has pos now (i : inp A) p e :
  In (p, e) (switch_spec mapper ol latest has pos [(now, i)]) ->
  p = pos /\
  match e with
  | Next x => has = true /\ i = ISrc latest (Next x) /\ (1 <= latest)%nat
  | Done => (ol = false /\ has = true /\ i = ISrc latest Done /\ (1 <= latest)%nat)
            \/ (ol = true /\ has = false /\ i = ISrc 0%nat Done)
  | Err _ => True
  end.
Proof.
  destruct i as [[|j] e0|tag|]; cbn [switch_spec]; try contradiction.
  - destruct ol; [|contradiction].
    destruct e0 as [x|er|]; [destruct (mapper x latest); [contradiction|]| |destruct has; [contradiction|]];
      intros [E|[]]; injection E as <- <-; auto.
  - destruct (has && Nat.eqb (S j) latest) eqn:Hc; [|contradiction].
    apply andb_true_iff in Hc. destruct Hc as [-> Hc]. apply Nat.eqb_eq in Hc. subst latest.
    destruct e0 as [x|er|]; [| |destruct ol; [contradiction|]];
      intros [E|[]]; injection E as <- <-; (split; [reflexivity|]); auto with arith.
Qed.

Lemma switch_spec_In mapper (ins : list (Z * inp A)) : forall ol latest has pos p e,
  In (p, e) (switch_spec mapper ol latest has pos ins) ->
  (pos <= p)%nat /\
  exists ol' latest' has' now i,
    sw_after mapper ol latest has (firstn (p - pos) ins) = Some (ol', latest', has')
    /\ nth_error ins (p - pos) = Some (now, i)
    /\ In (p, e) (switch_spec mapper ol' latest' has' p [(now, i)]).
Proof.
  induction ins as [|[now i] rest IH]; intros ol latest has pos p e Hin; [destruct Hin|].
  rewrite switch_spec_cons in Hin. apply in_app_or in Hin. destruct Hin as [Hin|Hin].
  - destruct (switch_spec_one _ _ _ _ _ _ _ _ _ Hin) as [-> _]. split; [lia|]. rewrite Nat.sub_diag.
    exists ol, latest, has, now, i. auto.
  - destruct (sw_after mapper ol latest has [(now, i)]) as [[[ol1 latest1] has1]|] eqn:E1; [|destruct Hin].
    destruct (IH _ _ _ _ _ _ Hin) as (Hle & ol' & latest' & has' & now' & i' & Hs & Hn & He).
    split; [lia|]. exists ol', latest', has', now', i'.
    replace (p - pos)%nat with (S (p - S pos)) by lia. cbn [firstn nth_error].
    rewrite sw_after_cons, E1. auto.
Qed.

End SwitchSpec.
