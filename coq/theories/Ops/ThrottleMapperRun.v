(* C16: throttle_with_mapper at run level.  Over ALL interleavings of the notifications of the
   source (port 0) and of the throttle observables the mapper makes (port j+1 for the j-th
   accepted element), the closed world [simulate] of the machine [x_throttle_with_mapper]
   (Ops/Timed.v, operators/_debounce.py: throttle_with_mapper_) equals the walk [thm_spec]. *)
From RxVerif Require Import Base.Prelude Ops.Machine Ops.Multi Ops.MultiFacts Ops.Timed Ops.TimedSim
  Ops.TimedFacts Ops.TimedSubFacts Ops.SimPortSteps.

Section ThrottleMapperRun.
Context {A : Type}.
Notation tin := (Z * nat * ev A)%type.
Context (mapper : A -> nat -> res unit).

Definition opt_at (t : Z) (v : option A) : list (Z * ev A) :=
  match v with Some x => [(t, Next x)] | None => [] end.

(* [cnt]: elements accepted so far (the throttle observable of the latest one is port [cnt]);
   [pend]: the latest element, while its throttle observable has not fired *)
Fixpoint thm_spec (cnt : nat) (pend : option A) (ins : list tin) : list (Z * ev A) :=
  match ins with
  | [] => []
  | (t, O, e) :: rest =>
      match e with
      | Next x =>
          match mapper x cnt with
          | Raise c => [(t, Err c)]                          (* the pending element is dropped *)
          | Ok _ => thm_spec (S cnt) (Some x) rest           (* replaces the pending element *)
          end
      | Err c => [(t, Err c)]
      | Done => opt_at t pend ++ [(t, Done)]                  (* completion flushes it *)
      end
  | (t, k, e) :: rest =>
      match pend with
      | Some v =>
          if Nat.eqb k cnt then
            match e with
            | Err c => [(t, Err c)]
            | _ => (t, Next v) :: thm_spec cnt None rest      (* on_next or on_completed of the throttle *)
            end
          else thm_spec cnt pend rest                         (* a throttle observable of an older element *)
      | None => thm_spec cnt pend rest
      end
  end.

Local Notation M := (x_throttle_with_mapper mapper).

Definition thm_live (has : bool) (cnt : nat) : list nat := 0%nat :: if has then [cnt] else [].

Lemma thm_unsub_prev (has : bool) cnt (cs : list (cmd A)) : (has = true -> cnt <> 0%nat) ->
  apply_cmds (RState (thm_live has cnt) [] false) (unsub_prev cnt ++ cs)
  = let '(r, o) := apply_cmds (RState [0%nat] [] false) cs in (r, (if has then [OUnsub cnt] else []) ++ o).
Proof.
  intros H. unfold thm_live. destruct cnt as [|c].
  - destruct has; [exfalso; apply H; reflexivity|]. cbn [unsub_prev app]. destruct (apply_cmds _ cs); reflexivity.
  - cbn [unsub_prev app apply_cmds r_live r_timers r_stopped]. destruct has.
    + unfold mem. cbn [existsb Nat.eqb]. rewrite Nat.eqb_refl. cbn [orb remove Nat.eqb]. rewrite Nat.eqb_refl.
      destruct (apply_cmds _ cs); reflexivity.
    + unfold mem. cbn [existsb Nat.eqb orb]. destruct (apply_cmds _ cs); reflexivity.
Qed.

(* a port other than the source is heard only while an element is pending, and only if it is the throttle
   observable of the latest element (port cnt): the older ones were unsubscribed by [unsub_prev] *)
Lemma thm_sim : forall (ins : list tin) fuel has value id subs cnt, (length ins <= fuel)%nat ->
  (has = true -> value <> None /\ lookup cnt subs = Some id /\ cnt <> 0%nat) ->
  sim_emits (sim M fuel (ThmSt has value id subs cnt) (RState (thm_live has cnt) [] false) [] (ext2_of ins))
  = thm_spec cnt (if has then value else None) ins.
Proof.
  induction ins as [|[[t k] e] rest IH]; intros fuel has value id subs cnt Hf Hinv.
  - now rewrite ext2_of_nil, sim_nil.
  - destruct fuel as [|f]; [cbn in Hf; lia|]. cbn [length] in Hf.
    rewrite ext2_of_cons. cbn [thm_spec].
    assert (Hc : has = true -> cnt <> 0%nat) by (intros H; apply Hinv, H).
    destruct k as [|k].
    + destruct e as [x|c|].
      * destruct (mapper x cnt) as [u|c] eqn:Em.
        -- etransitivity; [eapply sim_port_cont; [reflexivity|cbn; rewrite Em; reflexivity| |]|].
           ++ rewrite (thm_unsub_prev has cnt _ Hc). cbn. reflexivity.
           ++ reflexivity.
           ++ assert (Ee : emits ((if has then [@OUnsub A cnt] else []) ++ [OSub (S cnt)]) = []) by (destruct has; reflexivity).
              rewrite Ee. cbn [map app]. unfold detach. cbn [is_terminal andb].
              apply (IH f true (Some x) (S id) ((S cnt, S id) :: subs) (S cnt)); [lia|].
              intros _. split; [discriminate|]. split; [|discriminate]. cbn [lookup]. now rewrite Nat.eqb_refl.
        -- eapply sim_port_fail; [reflexivity|cbn; rewrite Em; reflexivity].
      * etransitivity; [eapply sim_port_end; [reflexivity|cbn; reflexivity|discriminate|]|].
        ++ rewrite <- (app_nil_r (unsub_prev cnt)). rewrite (thm_unsub_prev has cnt _ Hc). cbn. reflexivity.
        ++ destruct has; reflexivity.
      * destruct has; [destruct value as [v|]; [|exfalso; destruct (Hinv eq_refl) as [Hv _]; apply Hv; reflexivity]|];
          (etransitivity; [eapply sim_port_end; [reflexivity|cbn; reflexivity|discriminate|]|];
           [rewrite (thm_unsub_prev _ cnt _ Hc); cbn; reflexivity|reflexivity]).
    + destruct has; [|rewrite sim_port_dead by reflexivity; apply IH; [lia|discriminate]].
      destruct (Hinv eq_refl) as (Hv & Hl & Hn). destruct value as [v|]; [clear Hv|contradiction].
      assert (Hm : mem (S k) (thm_live true cnt) = Nat.eqb (S k) cnt).
      { unfold thm_live, mem. cbn [existsb Nat.eqb]. now rewrite Bool.orb_false_r. }
      destruct (Nat.eqb (S k) cnt) eqn:Ek;
        [|rewrite sim_port_dead by exact Hm; apply IH; [lia|intros _]; repeat split; [discriminate|exact Hl|exact Hn]].
      apply Nat.eqb_eq in Ek. subst cnt.
      assert (Hgo : forall e', (forall c, e' <> Err c) ->
                sim_emits (sim M (S f) (ThmSt true (Some v) id subs (S k)) (RState (thm_live true (S k)) [] false) []
                             ((t, ISrc (S k) e') :: ext2_of rest))
                = (t, Next v) :: thm_spec (S k) None rest).
      { intros e' He'.
        etransitivity; [eapply (sim_port_cont M f _ _ t (S k) e' _ (ThmSt false (Some v) id subs (S k)) [CEmit v; CUnsub (S k)]);
                        [exact Hm| | |]|].
        - cbn [x_step x_throttle_with_mapper tm_has tm_value tm_id tm_subs tm_cnt]. rewrite Hl, Nat.eqb_refl.
          destruct e' as [y|c|]; [reflexivity|exfalso; exact (He' c eq_refl)|reflexivity].
        - cbn [apply_cmds r_live r_timers r_stopped]. rewrite Hm. unfold thm_live. cbn [remove Nat.eqb]. rewrite Nat.eqb_refl. reflexivity.
        - reflexivity.
        - cbn [emits flat_map map app]. f_equal. unfold detach. cbn [r_live]. unfold mem. cbn [existsb Nat.eqb orb].
          rewrite Bool.andb_false_r. apply (IH f false (Some v) id subs (S k)); [lia|discriminate]. }
      destruct e as [y|c|].
      * apply Hgo. discriminate.
      * eapply sim_port_fail; [exact Hm|reflexivity].
      * apply Hgo. discriminate.
Qed.

Theorem throttle_with_mapper_walk t0 (ins : list tin) :
  timed_emits t0 (simulate M t0 (ext2_of ins)) = thm_spec 0 None ins.
Proof.
  rewrite (timed_emits_sub0 M (ThmSt false None 0 [] 0)) by reflexivity.
  apply (thm_sim ins _ false None 0 [] 0); [unfold ext2_of; rewrite map_length; lia|discriminate].
Qed.

(* an element is emitted only when ITS OWN throttle observable
   fires before the source notifies again, or when the source completes while it is pending *)
Definition thm_cause (j : nat) (t : Z) (mid : list tin) (k : nat) (e : ev A) : Prop :=
  port_silent 0%nat mid /\ port_silent j mid /\ ((k = j /\ j <> 0%nat /\ fires e) \/ (k = 0%nat /\ e = Done)).

Lemma thm_cause_cons j t i mid k e : snd (fst i) <> 0%nat -> snd (fst i) <> j ->
  thm_cause j t mid k e -> thm_cause j t (i :: mid) k e.
Proof. intros H0 Hj (A0 & Aj & H). repeat split; [apply port_silent_cons|apply port_silent_cons|]; assumption. Qed.

(* stated from any point of the walk (any count, any pending element) so that the induction on the timeline
   goes through.  Left: the pending element; right: an element that arrives in [ins] *)
Lemma thm_next_origin : forall (ins : list tin) cnt pend t x,
  In (t, Next x) (thm_spec cnt pend ins) ->
  (pend = Some x /\ exists mid k e rest, ins = mid ++ (t, k, e) :: rest /\ thm_cause cnt t mid k e)
  \/ (exists pre tx mid k e rest,
        ins = pre ++ (tx, 0%nat, Next x) :: mid ++ (t, k, e) :: rest /\ thm_cause (S (cnt + count0 pre)) t mid k e).
Proof.
  induction ins as [|[[t' k'] e'] rest IH]; intros cnt pend t x Hin; [destruct Hin|].
  cbn [thm_spec] in Hin. destruct k' as [|k'].
  - destruct e' as [y|c|].
    + destruct (mapper y cnt) as [u|c]; [|destruct Hin as [Hin|[]]; discriminate Hin].
      right. destruct (IH _ _ _ _ Hin) as [(Ep & mid & k & e & rest' & E & Hc)|(pre & tx & mid & k & e & rest' & E & Hc)].
      * injection Ep as ->. exists [], t', mid, k, e, rest'. cbn [app count0 filter length]. rewrite Nat.add_0_r, E. auto.
      * exists ((t', 0%nat, Next y) :: pre), tx, mid, k, e, rest'. rewrite count0_cons0, E.
        replace (S (cnt + S (count0 pre))) with (S (S cnt + count0 pre)) by lia. auto.
    + destruct Hin as [Hin|[]]; discriminate Hin.
    + left. destruct pend as [v|]; cbn [opt_at app] in Hin.
      * destruct Hin as [Hin|[Hin|[]]]; [|discriminate Hin]. injection Hin as -> ->.
        split; [reflexivity|]. exists [], 0%nat, Done, rest. split; [reflexivity|].
        repeat split; [apply port_silent_nil|apply port_silent_nil|right; auto].
      * destruct Hin as [Hin|[]]; discriminate Hin.
  - assert (Hskip : In (t, Next x) (thm_spec cnt pend rest) -> S k' <> cnt \/ pend = None ->
      (pend = Some x /\ exists mid k e rest0, (t', S k', e') :: rest = mid ++ (t, k, e) :: rest0 /\ thm_cause cnt t mid k e)
      \/ (exists pre tx mid k e rest0,
            (t', S k', e') :: rest = pre ++ (tx, 0%nat, Next x) :: mid ++ (t, k, e) :: rest0
            /\ thm_cause (S (cnt + count0 pre)) t mid k e)).
    { intros H Hne. destruct (IH _ _ _ _ H) as [(Ep & mid & k & e & rest' & E & Hc)|(pre & tx & mid & k & e & rest' & E & Hc)].
      - left. split; [exact Ep|]. exists ((t', S k', e') :: mid), k, e, rest'. rewrite E. split; [reflexivity|].
        apply thm_cause_cons; [discriminate| |exact Hc]. destruct Hne as [Hne|Hne]; [exact Hne|]. rewrite Hne in Ep. discriminate Ep.
      - right. exists ((t', S k', e') :: pre), tx, mid, k, e, rest'. rewrite count0_consS, E. auto. }
    destruct pend as [v|]; [|apply Hskip; [exact Hin|right; reflexivity]].
    destruct (Nat.eqb (S k') cnt) eqn:Ek; [|apply Hskip; [exact Hin|left; apply Nat.eqb_neq; exact Ek]].
    apply Nat.eqb_eq in Ek. subst cnt.
    assert (Hgen : fires e' -> In (t, Next x) ((t', Next v) :: thm_spec (S k') None rest) ->
      (Some v = Some x /\ exists mid k e rest0, (t', S k', e') :: rest = mid ++ (t, k, e) :: rest0 /\ thm_cause (S k') t mid k e)
      \/ (exists pre tx mid k e rest0,
            (t', S k', e') :: rest = pre ++ (tx, 0%nat, Next x) :: mid ++ (t, k, e) :: rest0
            /\ thm_cause (S (S k' + count0 pre)) t mid k e)).
    { intros He' [H|H].
      - injection H as -> ->. left. split; [reflexivity|]. exists [], (S k'), e', rest. split; [reflexivity|].
        repeat split; [apply port_silent_nil|apply port_silent_nil|left; repeat split; [discriminate|exact He']].
      - destruct (IH _ _ _ _ H) as [(Ep & _)|(pre & tx & mid & k & e & rest' & E & Hc)]; [discriminate Ep|].
        right. exists ((t', S k', e') :: pre), tx, mid, k, e, rest'. rewrite count0_consS, E. auto. }
    destruct e' as [z|c|]; [apply Hgen; [exact I|exact Hin]|destruct Hin as [Hin|[]]; discriminate Hin|apply Hgen; [exact I|exact Hin]].
Qed.

(* the element x emitted at t was delivered by the source as its j-th notification (j = count0
   pre) at tx; since then the source did not notify, nor did the throttle observable of x (port
   j+1), until -- at t -- either that throttle observable fired (on_next or on_completed) or
   the source completed *)
Theorem thm_emitted_cause (ins : list tin) t x :
  In (t, Next x) (thm_spec 0 None ins) ->
  exists pre tx mid k e rest,
    ins = pre ++ (tx, 0%nat, Next x) :: mid ++ (t, k, e) :: rest
    /\ port_silent 0%nat mid /\ port_silent (S (count0 pre)) mid
    /\ ((k = S (count0 pre) /\ fires e) \/ (k = 0%nat /\ e = Done)).
Proof.
  intros Hin. destruct (thm_next_origin ins 0 None t x Hin) as [(Ep & _)|(pre & tx & mid & k & e & rest & E & H0 & Hj & Hc)]; [discriminate Ep|].
  exists pre, tx, mid, k, e, rest. cbn [Nat.add] in *. repeat split; try assumption.
  destruct Hc as [(Hk & _ & He)|Hc]; [left; auto|right; exact Hc].
Qed.

End ThrottleMapperRun.
