(* C08: operators that do not inspect their elements are NATURAL in the element
   type: relabelling every element by an arbitrary function g (which may
   identify values or map None/0/False/"" anywhere) commutes with the
   operator.  So no value -- falsy or not -- is treated specially. *)
From RxVerif Require Import Base.Prelude Ops.Machine Ops.Elementwise Ops.Aggregates.

Definition ev_map {A B} (g : A -> B) (e : ev A) : ev B :=
  match e with Next a => Next (g a) | Err x => Err x | Done => Done end.

Section Sim.
Context {A A' B B' : Type} (g : A -> A') (h : B -> B').
Context (m : mealy A B) (m' : mealy A' B').

Record msim := {
  R : m_state m -> m_state m' -> Prop;
  sim_init : R (m_init m) (m_init m');
  sim_pre : m_pre m' = (map h (fst (m_pre m)), snd (m_pre m));
  sim_next : forall s s' x, R s s' ->
     R (fst (fst (m_next m s x))) (fst (fst (m_next m' s' (g x))))
     /\ snd (fst (m_next m' s' (g x))) = map h (snd (fst (m_next m s x)))
     /\ snd (m_next m' s' (g x)) = snd (m_next m s x);
  sim_err : forall s s' e, R s s' -> m_err m' s' e = (map h (fst (m_err m s e)), snd (m_err m s e));
  sim_done : forall s s', R s s' -> m_done m' s' = (map h (fst (m_done m s)), snd (m_done m s)) }.

Definition tag_map (l : list (nat * ev B)) : list (nat * ev B') :=
  map (fun p => (fst p, ev_map h (snd p))) l.

Lemma emit_map k outs f : tag_map (emit k outs f) = emit k (map h outs) f.
Proof.
  unfold tag_map, emit. rewrite map_app, !map_map. cbn [fst snd ev_map].
  f_equal. destruct f; reflexivity.
Qed.

Lemma sim_exec_from (S : msim) ins : forall s s' k, R S s s' ->
  exec_from m' s' k (map (ev_map g) ins) = tag_map (exec_from m s k ins).
Proof.
  induction ins as [|i rest IH]; intros s s' k HR; [reflexivity|].
  destruct i as [x|e|]; cbn [map ev_map exec_from].
  - destruct (sim_next S s s' x HR) as (HR' & Ho & Hf).
    destruct (m_next m s x) as [[t o] f]. destruct (m_next m' s' (g x)) as [[t' o'] f'].
    cbn [fst snd] in *. subst o' f'.
    unfold tag_map. rewrite map_app. fold (tag_map (emit k o f)). rewrite emit_map. f_equal.
    destruct (live f); [|reflexivity]. apply IH. exact HR'.
  - rewrite (sim_err S s s' e HR). destruct (m_err m s e) as [o f]. cbn [fst snd].
    now rewrite emit_map.
  - rewrite (sim_done S s s' HR). destruct (m_done m s) as [o f]. cbn [fst snd].
    now rewrite emit_map.
Qed.

Theorem sim_exec (S : msim) ins :
  exec m' (map (ev_map g) ins) = tag_map (exec m ins).
Proof.
  unfold exec. rewrite (sim_pre S). destruct (m_pre m) as [o f]. cbn [fst snd].
  unfold tag_map. rewrite map_app. fold (tag_map (emit 0 o f)). rewrite emit_map. f_equal.
  destruct (live f); [|reflexivity]. apply (sim_exec_from S). apply (sim_init S).
Qed.

(* the usual case: the second machine's state is a function of the first one's *)
Lemma msim_fun (phi : m_state m -> m_state m') :
  m_init m' = phi (m_init m) ->
  m_pre m' = (map h (fst (m_pre m)), snd (m_pre m)) ->
  (forall s x, m_next m' (phi s) (g x)
               = (phi (fst (fst (m_next m s x))), map h (snd (fst (m_next m s x))), snd (m_next m s x))) ->
  (forall s e, m_err m' (phi s) e = (map h (fst (m_err m s e)), snd (m_err m s e))) ->
  (forall s, m_done m' (phi s) = (map h (fst (m_done m s)), snd (m_done m s))) ->
  msim.
Proof.
  intros Hi Hp Hn He Hd. exists (fun s s' => s' = phi s); [exact Hi|exact Hp| | |].
  - intros s s' x ->. rewrite Hn. auto.
  - intros s s' e ->. apply He.
  - intros s s' ->. apply Hd.
Qed.
End Sim.

Section Instances.
Context {A A' : Type} (g : A -> A').

Lemma zlen_map {X Y} (f : X -> Y) l : zlen (map f l) = zlen l.
Proof. unfold zlen. now rewrite map_length. Qed.

Lemma map_tl {X Y} (f : X -> Y) (l : list X) : map f (tl l) = tl (map f l).
Proof. destruct l; reflexivity. Qed.

Lemma q_push_map c (q : list A) x : q_push c (map g q) (g x) = map g (q_push c q x).
Proof.
  unfold q_push. change [g x] with (map g [x]). rewrite <- map_app, zlen_map.
  destruct (zlen (q ++ [x]) >? c); [|reflexivity]. now rewrite <- map_tl.
Qed.

Lemma sim_take c : msim g g (op_take c) (op_take c).
Proof.
  apply msim_fun with (phi := fun s : Z => s); try reflexivity.
  - cbn. destruct (c =? 0); reflexivity.
  - intros s x. cbn. destruct (s >? 0); [destruct (s - 1 =? 0)|]; reflexivity.
Qed.

Lemma sim_skip c : msim g g (op_skip c) (op_skip c).
Proof.
  apply msim_fun with (phi := fun s : Z => s); try reflexivity.
  intros s x. cbn. destruct (s <=? 0); reflexivity.
Qed.

Lemma sim_take_last c : msim g g (op_take_last c) (op_take_last c).
Proof.
  apply msim_fun with (phi := map g); try reflexivity.
  intros s x. cbn. now rewrite q_push_map.
Qed.

Lemma sim_take_last_buffer c : msim g (map g) (op_take_last_buffer c) (op_take_last_buffer c).
Proof.
  apply msim_fun with (phi := map g); try reflexivity.
  intros s x. cbn. now rewrite q_push_map.
Qed.

Lemma sim_skip_last c : msim g g (op_skip_last c) (op_skip_last c).
Proof.
  apply msim_fun with (phi := map g); try reflexivity.
  intros s x. cbn. change [g x] with (map g [x]). rewrite <- map_app, zlen_map.
  destruct (zlen (s ++ [x]) >? c); cbn; [|reflexivity].
  rewrite <- map_tl. now destruct (s ++ [x]).
Qed.

Lemma sim_pairwise : msim g (fun p => (g (fst p), g (snd p))) op_pairwise op_pairwise.
Proof.
  apply msim_fun with (phi := option_map g); try reflexivity.
  intros [p|] x; reflexivity.
Qed.

Lemma sim_start_with args : msim g g (op_start_with args) (op_start_with (map g args)).
Proof. apply msim_fun with (phi := fun s : unit => s); reflexivity. Qed.

Lemma sim_default_if_empty d : msim g g (op_default_if_empty d) (op_default_if_empty (g d)).
Proof.
  apply msim_fun with (phi := fun s : bool => s); try reflexivity.
  intros [|]; reflexivity.
Qed.

Lemma sim_ignore_elements : msim g g op_ignore_elements op_ignore_elements.
Proof. apply msim_fun with (phi := fun s : unit => s); reflexivity. Qed.

Lemma sim_element_at i d exn :
  msim g g (op_element_at i d exn) (op_element_at i (option_map g d) exn).
Proof.
  apply msim_fun with (phi := fun s : Z => s); try reflexivity.
  - intros s x. cbn. destruct (s =? 0); reflexivity.
  - intros s. cbn. destruct d; reflexivity.
Qed.

Lemma sim_first d : msim g g (op_first d) (op_first (option_map g d)).
Proof.
  apply msim_fun with (phi := fun s : unit => s); try reflexivity.
  intros s. cbn. destruct d; reflexivity.
Qed.

Lemma sim_last d : msim g g (op_last d) (op_last (option_map g d)).
Proof.
  apply msim_fun with (phi := option_map g); try reflexivity.
  intros s. cbn. destruct s, d; reflexivity.
Qed.

Lemma sim_single d : msim g g (op_single d) (op_single (option_map g d)).
Proof.
  apply msim_fun with (phi := option_map g); try reflexivity.
  - intros [v|] x; reflexivity.
  - intros s. cbn. destruct s, d; reflexivity.
Qed.

Lemma sim_to_list : msim g (map g) op_to_list op_to_list.
Proof.
  apply msim_fun with (phi := map g); try reflexivity.
  intros s x. cbn. now rewrite map_app.
Qed.

Lemma sim_some : msim g (fun b : bool => b) op_some op_some.
Proof. apply msim_fun with (phi := fun s : unit => s); reflexivity. Qed.

Lemma sim_materialize : msim g (ev_map g) op_materialize op_materialize.
Proof. apply msim_fun with (phi := fun s : unit => s); reflexivity. Qed.

(* callbacks see the relabelled value: map/filter commute when the callback
   factors through g *)
Lemma sim_map {B} (f' : A' -> res B) : msim g (fun b : B => b) (op_map (fun x => f' (g x))) (op_map f').
Proof.
  apply msim_fun with (phi := fun s : unit => s); try reflexivity.
  intros s x. cbn. destruct (f' (g x)); reflexivity.
Qed.

Lemma sim_filter (p' : A' -> res bool) : msim g g (op_filter (fun x => p' (g x))) (op_filter p').
Proof.
  apply msim_fun with (phi := fun s : unit => s); try reflexivity.
  intros s x. cbn. destruct (p' (g x)) as [[|]|]; reflexivity.
Qed.
End Instances.
