(* take_until / skip_until against abstract specifications over the interleaved
   input sequence (source 0 = the gated source, source 1 = the other observable),
   for EVERY input sequence.  Section FirstInput, for any machine: the tagged emissions
   of a run by what its first input does. *)
From RxVerif Require Import Base.Prelude Ops.Machine Ops.Multi Ops.MultiFacts
  Ops.RunLemmas Ops.Combinators.

Section FirstInput.
Context {A B : Type} (m : machine A B).

(* the run goes on: the runner's step, given as a triple *)
Lemma run_cons_go s' r' o s r k now i rest :
  rstep m s r now i = (s', r', o) ->
  temitted (fst (run_from m s r k ((now, i) :: rest)))
  = map (pair k) (emits o) ++ temitted (fst (run_from m s' r' (S k) rest)).
Proof. intros E. now rewrite temitted_run_cons, E, temitted_tag. Qed.

Lemma run_cons_dispose s r k now rest :
  temitted (fst (run_from m s r k ((now, IDispose) :: rest))) = [].
Proof.
  now rewrite temitted_run_cons, temitted_tag, rstep_dispose_emits, (run_from_stopped m rest)
    by apply rstep_dispose_stopped.
Qed.
End FirstInput.

Section Gates.
Context {A : Type}.

Definition gate_live (l0 l1 : bool) : list nat :=
  (if l0 then [0%nat] else []) ++ (if l1 then [1%nat] else []).

(* SPEC of take_until: the source is mirrored -- elements, error, completion -- until
   the other observable delivers its first element (completion of the output) or
   fails (error passed on); the other's own completion changes nothing *)
Fixpoint tu_spec (l1 : bool) (pos : nat) (ins : list (Z * inp A)) : list (nat * ev A) :=
  match ins with
  | [] => []
  | (_, ISrc O e) :: t =>
      match e with
      | Next x => (pos, Next x) :: tu_spec l1 (S pos) t
      | Err err => [(pos, Err err)]
      | Done => [(pos, Done)]
      end
  | (_, ISrc (S O) e) :: t =>
      if l1 then
        match e with
        | Next _ => [(pos, Done)]
        | Err err => [(pos, Err err)]
        | Done => tu_spec false (S pos) t
        end
      else tu_spec l1 (S pos) t
  | (_, ISrc _ _) :: t => tu_spec l1 (S pos) t
  | (_, ITick _) :: t => tu_spec l1 (S pos) t
  | (_, IDispose) :: _ => []
  end.

(* the induction: along a run the runner state is RState (gate_live _ _) [] false with the flags the
   specification carries; every input is one evaluated step of the runner behind which the run goes on
   ([run_cons_go]), ends the run ([temitted_run_fin]), or is the dispose *)
Lemma take_until_from (ins : list (Z * inp A)) : forall l1 pos,
  temitted (fst (run_from (x_take_until (A:=A)) tt (RState (gate_live true l1) [] false) pos ins))
  = tu_spec l1 pos ins.
Proof.
  induction ins as [|[now i] rest IH]; intros l1 pos; [reflexivity|]. cbn [tu_spec].
  destruct i as [[|[|k2]] e|tag|].
  - destruct e as [x|err|]; [|now rewrite temitted_run_fin..].
    rewrite (run_cons_go x_take_until tt (RState (gate_live true l1) [] false) [OEmit (Next x)])
      by reflexivity.
    now rewrite IH.
  - destruct l1; [destruct e as [x|err|]; [now rewrite temitted_run_fin..|]|].
    + rewrite (run_cons_go x_take_until tt (RState (gate_live true false) [] false) [OUnsub 1%nat])
        by reflexivity.
      now rewrite IH.
    + rewrite (run_cons_go x_take_until tt (RState (gate_live true false) [] false) []) by reflexivity.
      now rewrite IH.
  - rewrite (run_cons_go x_take_until tt (RState (gate_live true l1) [] false) [])
      by (destruct l1; reflexivity).
    now rewrite IH.
  - rewrite (run_cons_go x_take_until tt (RState (gate_live true l1) [] false) []) by reflexivity.
    now rewrite IH.
  - apply run_cons_dispose.
Qed.

Theorem take_until_refines_spec (ins : list (Z * inp A)) :
  temitted (fst (run (x_take_until (A:=A)) ins)) = tu_spec true 1 ins.
Proof.
  (* the subscribe step emits nothing and leaves both sources live *)
  rewrite run_unfold. exact (take_until_from ins true 1).
Qed.

(* SPEC of skip_until: source elements pass only once the other observable has
   delivered an element (it is unsubscribed at that moment); errors of either pass
   at once; the source's completion completes the output only if the gate is open *)
Fixpoint su_spec (is_open l0 l1 : bool) (pos : nat) (ins : list (Z * inp A)) : list (nat * ev A) :=
  match ins with
  | [] => []
  | (_, ISrc O e) :: t =>
      if l0 then
        match e with
        | Next x => (if is_open then [(pos, Next x)] else []) ++ su_spec is_open l0 l1 (S pos) t
        | Err err => [(pos, Err err)]
        | Done => if is_open then [(pos, Done)] else su_spec is_open false l1 (S pos) t
        end
      else su_spec is_open l0 l1 (S pos) t
  | (_, ISrc (S O) e) :: t =>
      if l1 then
        match e with
        | Next _ => su_spec true l0 false (S pos) t
        | Err err => [(pos, Err err)]
        | Done => su_spec is_open l0 false (S pos) t
        end
      else su_spec is_open l0 l1 (S pos) t
  | (_, ISrc _ _) :: t => su_spec is_open l0 l1 (S pos) t
  | (_, ITick _) :: t => su_spec is_open l0 l1 (S pos) t
  | (_, IDispose) :: _ => []
  end.

Lemma skip_until_from (ins : list (Z * inp A)) : forall is_open l0 l1 pos,
  temitted (fst (run_from (x_skip_until (A:=A)) is_open (RState (gate_live l0 l1) [] false) pos ins))
  = su_spec is_open l0 l1 pos ins.
Proof.
  induction ins as [|[now i] rest IH]; intros is_open l0 l1 pos; [reflexivity|]. cbn [su_spec].
  destruct i as [[|[|k2]] e|tag|].
  - destruct l0; [destruct e as [x|err|]; [|now rewrite temitted_run_fin|destruct is_open; [now rewrite temitted_run_fin|]]|].
    + rewrite (run_cons_go x_skip_until is_open (RState (gate_live true l1) [] false)
                 (if is_open then [OEmit (Next x)] else [])) by (destruct is_open; reflexivity).
      rewrite IH. now destruct is_open.
    + rewrite (run_cons_go x_skip_until false (RState (gate_live false l1) [] false) [OUnsub 0%nat])
        by reflexivity.
      now rewrite IH.
    + rewrite (run_cons_go x_skip_until is_open (RState (gate_live false l1) [] false) [])
        by (destruct l1; reflexivity).
      now rewrite IH.
  - destruct l1; [destruct e as [x|err|]|].
    + rewrite (run_cons_go x_skip_until true (RState (gate_live l0 false) [] false) [OUnsub 1%nat])
        by (destruct l0; reflexivity).
      now rewrite IH.
    + destruct l0; now rewrite temitted_run_fin.
    + rewrite (run_cons_go x_skip_until is_open (RState (gate_live l0 false) [] false) [OUnsub 1%nat])
        by (destruct l0; reflexivity).
      now rewrite IH.
    + rewrite (run_cons_go x_skip_until is_open (RState (gate_live l0 false) [] false) [])
        by (destruct l0; reflexivity).
      now rewrite IH.
  - rewrite (run_cons_go x_skip_until is_open (RState (gate_live l0 l1) [] false) [])
      by (destruct l0, l1; reflexivity).
    now rewrite IH.
  - rewrite (run_cons_go x_skip_until is_open (RState (gate_live l0 l1) [] false) []) by reflexivity.
    now rewrite IH.
  - apply run_cons_dispose.
Qed.

Theorem skip_until_refines_spec (ins : list (Z * inp A)) :
  temitted (fst (run (x_skip_until (A:=A)) ins)) = su_spec false true true 1 ins.
Proof.
  rewrite run_unfold. exact (skip_until_from ins false true true 1).
Qed.
End Gates.
