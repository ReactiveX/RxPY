(* C15: delay(d), d >= 0, in the closed world of Ops/TimedSim.v.
   [delay_sim_spec]: for every time-sorted event sequence on port 0 the timed
   emissions equal [dspec] (a walk over the timeline with the queue of pending
   notifications); [delay_spec]: closed form on conforming timelines -- every
   element and the completion exactly d later, in order (bursts keep their
   order); an error immediately, the elements still pending dropped. *)
From RxVerif Require Import Base.Prelude Ops.Machine Ops.Multi Ops.MultiFacts Ops.Timed Ops.TimedSim
  Ops.TimedFacts Ops.SimPortSteps Ops.TimedWindowFacts.

Section Delay.
Context {A : Type}.

Local Notation qent := (Z * ev A)%type.

(* queue discipline: a terminal can only be the last entry, and it is a completion *)
Definition no_err (q : list qent) : Prop := Forall (fun n => match snd n with Err _ => False | _ => True end) q.
Definition wfq (q : list qent) : Prop := upto_term q = q /\ no_err q.

Lemma wfq_tail n q : wfq (n :: q) -> wfq q.
Proof.
  intros [H1 H2]. split.
  - destruct n as [ts [x|e|]]; cbn in H1.
    + injection H1 as H1. exact H1.
    + injection H1 as <-. reflexivity.
    + injection H1 as <-. reflexivity.
  - inversion H2; assumption.
Qed.

(* the drain loop pops the maximal prefix that is due; the sequence completes iff that prefix holds
   the completion, and then nothing is left (a completion is the last entry) *)
Lemma drain_split now : forall q : list qent, wfq q ->
  exists P Sq o, delay_drain now q false = (o, if has_term P then Complete else Cont, Sq) /\ q = P ++ Sq
    /\ Forall (fun n => fst n <= now) P
    /\ match Sq with [] => True | n :: _ => now < fst n end
    /\ map snd P = map Next o ++ (if has_term P then [Done] else [])
    /\ (has_term P = true -> Sq = []).
Proof.
  induction q as [|[ts n] q IH]; intros Hw.
  - exists [], [], []. repeat split; auto.
  - cbn [delay_drain]. destruct (ts <=? now) eqn:E.
    + destruct n as [x|e|].
      * destruct (IH (wfq_tail _ _ Hw)) as (P & Sq & o & Hd & Hq & HP & HS & He & Hf).
        rewrite Hd. exists ((ts, Next x) :: P), Sq, (x :: o). repeat split; auto.
        -- cbn. now rewrite Hq.
        -- constructor; [cbn; lia|exact HP].
        -- cbn [map snd app]. now rewrite He.
      * destruct Hw as [_ Hn]. inversion Hn as [|? ? Hbad _]. destruct Hbad.
      * destruct Hw as [H1 _]. cbn in H1. injection H1 as <-. cbn [delay_drain].
        exists [(ts, Done)], [], []. repeat split; auto. constructor; [cbn; lia|constructor].
    + exists [], ((ts, n) :: q), []. repeat split; auto. cbn. lia. discriminate.
Qed.

(* pending notifications due strictly before the next notification of the
   source are delivered first; an element / the completion is queued for
   t + d; an error is delivered at once and drops the queue *)
Fixpoint dspec (d : Z) (q : list qent) (es : list (Z * ev A)) : list (Z * ev A) :=
  match es with
  | [] => q
  | (t, e) :: rest =>
      filter (fun n => fst n <? t) q ++
      match e with
      | Next x => dspec d (filter (fun n => t <=? fst n) q ++ [(t + d, Next x)]) rest
      | Done => filter (fun n => t <=? fst n) q ++ [(t + d, Done)]
      | Err c => [(t, Err c)]
      end
  end.

Lemma dspec_pop d (P Sq : list qent) ts0 es :
  Forall (fun n => fst n = ts0) P -> later ts0 (ext_of es) ->
  dspec d (P ++ Sq) es = P ++ dspec d Sq es.
Proof.
  intros HP Etf. destruct es as [|[t e] rest]; [reflexivity|]. rewrite ext_of_cons in Etf. cbn [later] in Etf. cbn [dspec]. rewrite !filter_app.
  rewrite (filter_all _ P), (filter_none _ P), <- app_assoc; [reflexivity| |];
    (eapply Forall_impl; [|exact HP]; intros n Hn; cbn beta in *; lia).
Qed.

(* the configurations the walk passes through: nothing queued and no timer, or one timer pending
   for the head of the queue *)
Inductive dinv (lv : list nat) : delay_st -> rstate -> pend -> list qent -> Prop :=
| DI_idle n : dinv lv (DelaySt [] false false None n) (RState lv [] false) [] []
| DI_busy ts0 n0 q1 tg :
    dinv lv (DelaySt ((ts0, n0) :: q1) true false None (S tg)) (RState lv [tg] false) [(tg, ts0)] ((ts0, n0) :: q1).

Lemma sorted_head_eq (ts0 : Z) (n0 : ev A) q1 P Sq :
  tsorted ((ts0, n0) :: q1) -> (ts0, n0) :: q1 = P ++ Sq -> Forall (fun n => fst n <= ts0) P ->
  Forall (fun n => fst n = ts0) P.
Proof.
  intros [Hall _] Hq HP.
  assert (Hge : Forall (fun n => ts0 <= fst n) ((ts0, n0) :: q1)) by (constructor; [cbn; lia|exact Hall]).
  rewrite Hq in Hge. apply Forall_app in Hge. destruct Hge as [Hge _].
  rewrite Forall_forall in *. intros n Hn. specialize (Hge n Hn). specialize (HP n Hn). lia.
Qed.

Lemma retime now (P : list qent) : Forall (fun n => fst n = now) P ->
  map (fun e => (now, e)) (map snd P) = P.
Proof.
  induction 1 as [|[ts n] P H _ IH]; [reflexivity|]. cbn in *. subst. now rewrite IH.
Qed.

Lemma emits_emit_list_fin (o : list A) (f : fin) (tail : list (obs A)) :
  emits (map (fun x => OEmit (Next x)) o ++ tail) = map Next o ++ emits tail.
Proof. now rewrite emits_app, emits_emit_only. Qed.

Lemma new_timers_emit_list now (o : list A) : new_timers now (map (fun x => @OEmit A (Next x)) o) = [].
Proof. induction o; auto. Qed.
Lemma new_timers_app now (a b : list (obs A)) : new_timers now (a ++ b) = new_timers now a ++ new_timers now b.
Proof. unfold new_timers. apply flat_map_app. Qed.
Lemma emits_unsubs (l : list nat) : emits (map (@OUnsub A) l) = [].
Proof. induction l; auto. Qed.
Lemma emits_cons_emit (e : ev A) l : emits (OEmit e :: l) = e :: emits l.
Proof. reflexivity. Qed.
Lemma has_term_app (a b : list qent) : has_term (a ++ b) = has_term a || has_term b.
Proof. unfold has_term. apply existsb_app. Qed.

Lemma wfq_app_r (a b : list qent) : wfq (a ++ b) -> has_term a = false -> wfq b.
Proof.
  induction a as [|[ts n] a IH]; intros Hw Ha; [exact Hw|].
  cbn in Ha. destruct n; cbn in Ha; try discriminate. apply IH; [exact (wfq_tail _ _ Hw)|exact Ha].
Qed.

(* one tick: everything due is delivered (at its own due time), the next timer
   is set for the new head; what the inductions below need about the rest of the
   queue comes back with it *)
Lemma delay_tick d fuel ts0 n0 q1 tg lv (es : list (Z * ev A)) :
  wfq ((ts0, n0) :: q1) -> tsorted ((ts0, n0) :: q1) -> later ts0 (ext_of es) ->
  exists P Sq s' r' p', (ts0, n0) :: q1 = P ++ Sq /\ (length Sq <= length q1)%nat /\ Forall (fun n => fst n = ts0) P
    /\ tsorted Sq
    /\ sim_emits (sim (x_delay d) (S fuel) (DelaySt ((ts0, n0) :: q1) true false None (S tg))
                      (RState lv [tg] false) [(tg, ts0)] (ext_of es))
       = P ++ sim_emits (sim (x_delay d) fuel s' r' p' (ext_of es))
    /\ if has_term P then Sq = [] /\ r_stopped r' = true else wfq Sq /\ dinv lv s' r' p' Sq.
Proof.
  intros Hw Hs Hnext%(next_tick_late [(tg, ts0)] tg ts0 _ eq_refl).
  destruct (drain_split ts0 _ Hw) as (P & Sq & o & Hd & Hq & HP & HS & He & Hf).
  pose proof (sorted_head_eq ts0 n0 q1 P Sq Hs Hq HP) as Heq.
  assert (Hlen : (length Sq <= length q1)%nat).
  { destruct P as [|n P']; [cbn in Hq; subst Sq; cbn in HS; lia|].
    apply (f_equal (@length _)) in Hq. rewrite app_length in Hq. cbn in Hq. lia. }
  assert (Hsq : tsorted Sq) by (rewrite Hq in Hs; exact (tsorted_app_r _ _ Hs)).
  assert (Hwq : has_term P = false -> wfq Sq) by (rewrite Hq in Hw; exact (wfq_app_r _ _ Hw)).
  destruct (rstep (x_delay d) (DelaySt ((ts0, n0) :: q1) true false None (S tg)) (RState lv [tg] false) ts0 (ITick tg))
    as [[s' r'] o'] eqn:Est.
  exists P, Sq, s', r', (upd [(tg, ts0)] ts0 o' r').
  split; [exact Hq|]. split; [exact Hlen|]. split; [exact Heq|]. split; [exact Hsq|].
  rewrite sim_S, Hnext, Est, sim_emits_cons. revert Est.
  cbn [rstep r_stopped r_timers mem existsb]. nat_eqb. cbn [orb remove].
  nat_eqb. cbn [x_step x_delay dl_exc dl_queue dl_ntag dl_active]. rewrite Hd.
  destruct (has_term P).
  - (* the completion was due *)
    rewrite (Hf eq_refl). rewrite apply_cmds_emit_only.
    cbn [r_live r_timers r_stopped finish release sort_nat fold_right map app]. intros Est. injection Est as <- <- <-.
    split; [|split; reflexivity]. f_equal.
    rewrite app_nil_r, !emits_app, emits_emit_only, emits_cons_emit, emits_unsubs.
    rewrite <- He, (retime _ _ Heq). reflexivity.
  - rewrite app_nil_r in He. destruct Sq as [|[ts1 n1] Sq'].
    + (* queue emptied *)
      rewrite apply_cmds_emit_only. cbn [r_live r_timers r_stopped finish app]. intros Est. injection Est as <- <- <-.
      rewrite upd_no_timers_r by reflexivity. split; [|split; [exact (Hwq eq_refl)|apply DI_idle]]. f_equal.
      rewrite !app_nil_r, emits_emit_only, <- He, (retime _ _ Heq). reflexivity.
    + (* next timer, for the new head *)
      rewrite apply_cmds_app, apply_cmds_emit_only. cbn [apply_cmds r_live r_timers r_stopped app finish].
      intros Est. injection Est as <- <- <-.
      replace (upd _ _ _ _) with [(S tg, ts1)].
      * split; [|split; [exact (Hwq eq_refl)|apply (DI_busy lv ts1 n1 Sq' (S tg))]]. f_equal.
        rewrite !app_nil_r, emits_app, emits_emit_only. cbn [emits flat_map app]. rewrite app_nil_r.
        rewrite <- He, (retime _ _ Heq). reflexivity.
      * unfold upd. rewrite !app_nil_r, new_timers_app, new_timers_emit_list.
        cbn [new_timers flat_map app filter fst r_timers mem existsb]. nat_eqb. cbn [orb].
        cbn in HS. unfold clamp. rewrite Z.max_r by lia. replace (ts0 + (ts1 - ts0)) with ts1 by lia. reflexivity.
Qed.

Lemma wfq_snoc (q : list qent) n : wfq q -> has_term q = false ->
  match snd n with Err _ => False | _ => True end -> wfq (q ++ [n]).
Proof.
  intros [H1 H2] Hn He. split.
  - clear H1 H2. induction q as [|[ts m] q IH]; [destruct n as [ts [x|e|]]; reflexivity|].
    cbn in Hn. destruct m; cbn in Hn; try discriminate. cbn. now rewrite IH.
  - apply Forall_app. split; [exact H2|constructor; [exact He|constructor]].
Qed.

Lemma tsorted_snoc (q : list qent) t (n : ev A) : tsorted q -> Forall (fun m => fst m <= t) q -> tsorted (q ++ [(t, n)]).
Proof.
  induction q as [|[ts m] q IH]; intros Hs Hle; [cbn; auto|].
  cbn in *. destruct Hs as [Hall Hs]. inversion Hle as [|? ? Hts Hle']; subst. split.
  - apply Forall_app. split; [exact Hall|constructor; [cbn in *; lia|constructor]].
  - apply IH; assumption.
Qed.

(* the source is gone (completed): everything still queued is delivered, each
   notification at its own due time, whatever else arrives *)
Lemma delay_detached_sim d : forall fuel (es : list (Z * ev A)) s r p q,
  (length es + length q + 1 <= fuel)%nat -> dinv [] s r p q -> wfq q -> tsorted q ->
  sim_emits (sim (x_delay d) fuel s r p (ext_of es)) = q.
Proof.
  induction fuel as [|f IH]; intros es s r p q Hf Hinv Hw Hs; [lia|].
  destruct Hinv as [k|ts0 n0 q1 tg]; [exact (proj1 (sim_deaf (x_delay d) [] eq_refl es _ _))|]. cbn [length] in Hf.
  destruct (later_or_src ts0 es) as [Etf|(t & e & rest & -> & Etf)].
  - destruct (delay_tick d f ts0 n0 q1 tg [] es Hw Hs Etf)
      as (P & Sq & s' & r' & p' & Hq & Hlen & Heq & Hs' & Hsim & Hfin).
    rewrite Hsim, Hq. f_equal. destruct (has_term P).
    + destruct Hfin as [-> Hst]. now rewrite sim_stopped.
    + apply (IH es s' r' p' Sq); [lia|apply Hfin|apply Hfin|exact Hs'].
  - rewrite ext_of_cons, sim_S. cbn [next_event earliest fst snd]. rewrite Etf. cbn [length] in Hf.
    destruct e; cbn; nat_eqb; cbn; rewrite sim_emits_cons; cbn;
      (apply (IH rest _ _ _ ((ts0, n0) :: q1)); [cbn [length]; lia|apply DI_busy|exact Hw|exact Hs]).
Qed.

Lemma filter_lt_none (q : list qent) t : Forall (fun n => t <= fst n) q -> filter (fun n => fst n <? t) q = [].
Proof. intros H. apply filter_none. eapply Forall_impl; [|exact H]. intros n Hn. cbn beta in *. apply Z.ltb_ge. exact Hn. Qed.
Lemma filter_ge_all (q : list qent) t : Forall (fun n => t <= fst n) q -> filter (fun n => t <=? fst n) q = q.
Proof. intros H. apply filter_all. eapply Forall_impl; [|exact H]. intros n Hn. cbn beta in *. apply Z.leb_le. exact Hn. Qed.

Lemma sorted_all_ge (ts0 : Z) (n0 : ev A) q1 : tsorted ((ts0, n0) :: q1) -> Forall (fun n => ts0 <= fst n) ((ts0, n0) :: q1).
Proof. intros [H _]. constructor; [cbn; lia|exact H]. Qed.

(* the source is subscribed, nothing terminal is queued.  [lo]: a lower bound of the instants still to
   come; whatever is queued is due by lo + d, so a notification queued now (for t + d, t >= lo) keeps the
   queue sorted.  Fuel: every notification costs its own step and the tick that delivers it later (2 each);
   what is already queued costs only its tick. *)
Lemma delay_live_sim d : 0 <= d -> forall fuel (es : list (Z * ev A)) s r p q lo,
  (2 * length es + length q + 1 <= fuel)%nat ->
  dinv [0%nat] s r p q -> wfq q -> has_term q = false -> tsorted q -> Forall (fun m => fst m <= lo + d) q ->
  tsorted es -> Forall (fun e => lo <= fst e) es ->
  sim_emits (sim (x_delay d) fuel s r p (ext_of es)) = dspec d q es.
Proof.
  intros Hd. induction fuel as [|f IH]; intros es s r p q lo Hf Hinv Hw Ht Hs Hle Hes Hlo; [lia|].
  destruct Hinv as [k|ts0 n0 q1 tg].
  - (* idle *)
    destruct es as [|[t e] rest]; [now rewrite ext_of_nil, sim_nil|].
    rewrite ext_of_cons, sim_S. cbn [next_event earliest fst snd]. cbn [length] in Hf.
    destruct Hes as [Hall Hes]. inversion Hlo as [|? ? Hlt _]; subst. cbn [fst] in Hlt.
    destruct e as [x|c|]; cbn; nat_eqb; cbn; rewrite sim_emits_cons; cbn.
    + unfold clamp. rewrite Z.max_r by lia.
      apply (IH rest _ _ _ [(t + d, Next x)] t); [cbn [length]; lia|apply DI_busy| | | | | |].
      * split; [reflexivity|repeat constructor].
      * reflexivity.
      * cbn. auto.
      * repeat constructor. cbn. lia.
      * exact Hes.
      * exact Hall.
    + rewrite sim_stopped by reflexivity. reflexivity.
    + unfold clamp. rewrite Z.max_r by lia.
      apply (delay_detached_sim d f rest _ _ _ [(t + d, Done)]); [cbn [length]; lia|apply DI_busy| |].
      * split; [reflexivity|repeat constructor].
      * cbn. auto.
  - (* a timer is pending for the head of the queue *)
    pose proof (sorted_all_ge ts0 n0 q1 Hs) as Hge. cbn [length] in Hf.
    destruct (later_or_src ts0 es) as [Etf|(t & e & rest & -> & Etf)].
    + (* it fires first: everything due is delivered, the walk goes on with the rest of the queue *)
      destruct (delay_tick d f ts0 n0 q1 tg [0%nat] es Hw Hs Etf)
        as (P & Sq & s' & r' & p' & Hq & Hlen & Heq & Hs' & Hsim & Hfin).
      rewrite Hsim, Hq, (dspec_pop d P Sq ts0 es Heq Etf). f_equal.
      rewrite Hq, has_term_app in Ht. apply orb_false_elim in Ht. destruct Ht as [HtP HtS]. rewrite HtP in Hfin.
      rewrite Hq in Hle. apply Forall_app in Hle.
      apply (IH es s' r' p' Sq lo); [lia|apply Hfin|apply Hfin|exact HtS|exact Hs'|apply Hle|exact Hes|exact Hlo].
    + (* the notification comes first (also at the due instant) *)
      rewrite ext_of_cons. cbn [length] in Hf.
      destruct Hes as [Hall Hes]. inversion Hlo as [|? ? Hlt _]; subst. cbn [fst] in Hlt.
      assert (Hget : Forall (fun m : qent => t <= fst m) ((ts0, n0) :: q1)).
      { eapply Forall_impl; [|exact Hge]. intros m Hm. cbn beta in *. lia. }
      assert (Hlet : Forall (fun m : qent => fst m <= t + d) ((ts0, n0) :: q1)).
      { eapply Forall_impl; [|exact Hle]. intros m Hm. cbn beta in *. lia. }
      rewrite sim_S. cbn [next_event earliest fst snd]. rewrite Etf. cbn [dspec].
      rewrite (filter_lt_none _ t Hget), (filter_ge_all _ t Hget). cbn [app].
      destruct e as [x|c|]; cbn; nat_eqb; cbn; rewrite sim_emits_cons; cbn.
      * apply (IH rest _ _ _ (((ts0, n0) :: q1) ++ [(t + d, Next x)]) t);
          [rewrite app_length; cbn [length]; lia|apply DI_busy| | | | | |].
        -- apply wfq_snoc; [exact Hw|exact Ht|exact I].
        -- rewrite has_term_app, Ht. reflexivity.
        -- apply tsorted_snoc; [exact Hs|exact Hlet].
        -- apply Forall_app. split; [exact Hlet|repeat constructor; cbn; lia].
        -- exact Hes.
        -- exact Hall.
      * rewrite sim_stopped by reflexivity. reflexivity.
      * apply (delay_detached_sim d f rest _ _ _ (((ts0, n0) :: q1) ++ [(t + d, Done)]));
          [rewrite app_length; cbn [length]; lia|apply DI_busy| |].
        -- apply wfq_snoc; [exact Hw|exact Ht|exact I].
        -- apply tsorted_snoc; [exact Hs|exact Hlet].
Qed.

Theorem delay_sim_spec d t0 (es : list (Z * ev A)) :
  0 <= d -> tsorted es -> Forall (fun e => t0 <= fst e) es ->
  timed_emits t0 (simulate (x_delay d) t0 (ext_of es)) = dspec d [] es.
Proof.
  intros Hd Hs Hlo. rewrite (timed_emits_sub0 (x_delay d) (DelaySt [] false false None 0)) by reflexivity.
  apply (delay_live_sim d Hd _ es _ _ _ [] t0); [rewrite ext_of_length; cbn [length]; lia|apply DI_idle| | | | | |].
  - split; [reflexivity|constructor].
  - reflexivity.
  - exact I.
  - constructor.
  - exact Hs.
  - exact Hlo.
Qed.

Definition shift (d : Z) (tl : list (Z * A)) : list (Z * ev A) :=
  map (fun tx => (fst tx + d, Next (snd tx))) tl.

Definition delay_outq (d : Z) (l : list qent) (tm : tterm) : list (Z * ev A) :=
  match tm with
  | TTDone T => l ++ [(T + d, Done)]
  | TTErr T c => filter (fun n => fst n <? T) l ++ [(T, Err c)]
  | TTNever => l
  end.

Lemma tsorted_filter (f : qent -> bool) : forall q, tsorted q -> tsorted (filter f q).
Proof.
  induction q as [|[ts n] q IH]; intros Hs; [exact I|]. destruct Hs as [Hall Hs]. cbn [filter].
  destruct (f (ts, n)); [|exact (IH Hs)]. split; [|exact (IH Hs)].
  rewrite Forall_forall in *. intros m Hm. apply filter_In in Hm. apply Hall. tauto.
Qed.

Lemma filter_split_sorted t : forall q : list qent, tsorted q ->
  filter (fun n => fst n <? t) q ++ filter (fun n => t <=? fst n) q = q.
Proof.
  induction q as [|[ts n] q IH]; intros Hs; [reflexivity|]. destruct Hs as [Hall Hs]. cbn [filter fst].
  destruct (ts <? t) eqn:E.
  - assert (E2 : (t <=? ts) = false) by lia. rewrite E2. cbn [app]. now rewrite IH.
  - assert (E2 : (t <=? ts) = true) by lia. rewrite E2.
    rewrite filter_lt_none, filter_ge_all; [reflexivity| |];
      (eapply Forall_impl; [|exact Hall]; intros m Hm; cbn beta in *; lia).
Qed.

(* from any sorted queue due by lo + d: what the walk has queued and what the source still sends, shifted
   by d, are one sorted list *)
Lemma dspec_closed d : forall (tl : list (Z * A)) tm q lo,
  tsorted q -> Forall (fun m => fst m <= lo + d) q ->
  tsorted (tevents tl tm) -> Forall (fun e => lo <= fst e) (tevents tl tm) ->
  dspec d q (tevents tl tm) = delay_outq d (q ++ shift d tl) tm.
Proof.
  induction tl as [|[t x] rest IH]; intros tm q lo Hs Hle Hes Hlo.
  - cbn [shift map]. rewrite app_nil_r. destruct tm as [T|T c|]; cbn [tevents map app dspec delay_outq].
    + rewrite app_assoc, filter_split_sorted by exact Hs. reflexivity.
    + reflexivity.
    + reflexivity.
  - rewrite tevents_cons in *. cbn [dspec]. destruct Hes as [Hall Hes].
    inversion Hlo as [|? ? Hlt _]; subst. cbn [fst] in Hlt.
    rewrite (IH tm _ t).
    + cbn [shift map fst snd]. fold (shift d rest).
      pose proof (filter_split_sorted t q Hs) as Hsplit.
      destruct tm as [T|T c|]; cbn [delay_outq].
      * rewrite <- Hsplit at 3. rewrite <- !app_assoc. reflexivity.
      * assert (HtT : t <= T).
        { rewrite Forall_forall in Hall. apply (Hall (T, Err c)). unfold tevents. apply in_or_app. right. left. reflexivity. }
        rewrite <- Hsplit at 3. rewrite <- !app_assoc. rewrite (filter_app _ (filter (fun n => fst n <? t) q)).
        rewrite (filter_all _ (filter (fun n => fst n <? t) q)).
        -- rewrite <- !app_assoc. reflexivity.
        -- rewrite Forall_forall. intros m Hm. apply filter_In in Hm. destruct Hm as [_ Hm]. lia.
      * rewrite <- Hsplit at 3. rewrite <- !app_assoc. reflexivity.
    + apply tsorted_snoc; [apply tsorted_filter; exact Hs|].
      rewrite Forall_forall in *. intros m Hm. apply filter_In in Hm. destruct Hm as [Hm _]. specialize (Hle m Hm). lia.
    + apply Forall_app. split.
      * rewrite Forall_forall in *. intros m Hm. apply filter_In in Hm. destruct Hm as [Hm _]. specialize (Hle m Hm). lia.
      * repeat constructor. cbn. lia.
    + exact Hes.
    + exact Hall.
Qed.

(* every element and the completion exactly d later, in order; an error at once,
   what was still pending (due at or after the error instant) is dropped *)
Definition delay_out (d : Z) (tl : list (Z * A)) (tm : tterm) : list (Z * ev A) :=
  delay_outq d (shift d tl) tm.

Theorem delay_spec d t0 (tl : list (Z * A)) tm :
  0 <= d -> tsorted (tevents tl tm) -> Forall (fun e => t0 <= fst e) (tevents tl tm) ->
  timed_emits t0 (simulate (x_delay d) t0 (ext_of (tevents tl tm))) = delay_out d tl tm.
Proof.
  intros Hd Hs Hlo. rewrite delay_sim_spec by assumption.
  rewrite (dspec_closed d tl tm [] t0); [reflexivity|exact I|constructor|exact Hs|exact Hlo].
Qed.

Corollary delay_zero t0 (tl : list (Z * A)) T :
  tsorted (tevents tl (TTDone T)) -> Forall (fun e => t0 <= fst e) (tevents tl (TTDone T)) ->
  timed_emits t0 (simulate (x_delay 0) t0 (ext_of (tevents tl (TTDone T)))) = tevents tl (TTDone T).
Proof.
  intros Hs Hlo. rewrite delay_spec by (try lia; assumption).
  unfold delay_out, delay_outq, shift, tevents. rewrite Z.add_0_r. f_equal.
  apply map_ext. intros [t x]. cbn. now rewrite Z.add_0_r.
Qed.

End Delay.
