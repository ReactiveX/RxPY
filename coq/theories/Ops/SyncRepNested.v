(* C14: repeat(of(v :: l)) / repeat_value(v) in front of flat_map(of), switch_map(of) and behind
   concat(of(1,2), .), for ANY consumer (Core/SyncSources.v: nets n_flat_map_of, n_switch_map_of,
   n_concat true).

   The inner list loop of repeat is ONE trampoline action: a whole round of the list is pulled
   (every element subscribing its inner of(x), whose action is queued) before the inner actions
   run.  So
   - flat_map(of): the consumer sees the cyclic stream; completing at its k-th element, with
     n = |v :: l| and k = n * r + j + 1 (j < n), exactly n * (r + 1) elements have been pulled;
   - switch_map(of): every inner but the last of a round is disposed before its action runs; the
     consumer sees the last element of the list once per round; completing at its k-th element,
     exactly n * k elements have been pulled;
   - concat(of(1,2), source): the consumer sees 1, 2, then the cyclic stream; completing at its
     k-th element, exactly k - 2 elements have been pulled (none if k <= 2).
   [fm_rounds], [sw_rounds] and [sw_never_returns] start from any state whose queue holds the
   concat action alone; Props/C14.v instantiates them at the initial state. *)
From RxVerif Require Import Base.Prelude Core.SyncSources Core.SyncSourcesFacts Ops.SyncRepFacts Core.SyncShapes.

Lemma stops_at_split : forall C e a s i b, stops_at C e s i (a + S b) ->
  exists s', feed C e s i a = Some s' /\ stops_at C e s' (i + a) (S b).
Proof.
  intros C e. induction a as [|a IH]; intros s i b H.
  - exists s. rewrite Nat.add_0_r. split; [reflexivity|exact H].
  - cbn [Nat.add stops_at] in H. cbn [feed]. destruct (c_step C s (e i)) as [[s1 n] stop].
    destruct stop; [lia|]. destruct (IH s1 (S i) b H) as (s' & F & S'). exists s'. split; [exact F|].
    replace (i + S a)%nat with (S i + a)%nat by lia. exact S'.
Qed.

Lemma cyc_round : forall v l q d, (d < length (v :: l))%nat -> cyc v l (length (v :: l) * q + d) = nth d (v :: l) 0.
Proof.
  intros v l q d H. unfold cyc. rewrite Nat.add_comm, Nat.mul_comm, Nat.mod_add by (cbn; lia).
  rewrite Nat.mod_small by exact H. apply nth_indep. exact H.
Qed.

(* the queued actions of inners of(v), as pairs (port, v) *)
Definition inners (mvs : list (nat * Z)) : list task := map (fun mv => TList (fst mv) [snd mv] false) mvs.

Lemma inners_app a b : inners (a ++ b) = inners a ++ inners b.
Proof. apply map_app. Qed.

Lemma memn_cons p x l : memn p (x :: l) = Nat.eqb p x || memn p l.
Proof. reflexivity. Qed.

Lemma memn_removen_false p q l : memn p l = false -> memn p (removen q l) = false.
Proof.
  unfold memn. induction l as [|x l IH]; intros H; [reflexivity|]. cbn [existsb removen] in *.
  apply Bool.orb_false_iff in H. destruct H as [H1 H2]. destruct (Nat.eqb q x); [auto|].
  cbn [existsb]. rewrite H1. auto.
Qed.

Lemma memn_removen_same p l : memn p (removen p l) = false.
Proof.
  unfold memn. induction l as [|x l IH]; [reflexivity|]. cbn [removen]. destruct (Nat.eqb p x) eqn:E; [exact IH|].
  cbn [existsb]. rewrite E. exact IH.
Qed.

Lemma map_snd_combine_seq : forall (r : list Z) nx, map snd (combine (seq nx (length r)) r) = r.
Proof. induction r as [|v r IH]; intros nx; [reflexivity|]. cbn [length seq combine map snd]. now rewrite IH. Qed.

Definition live_ports (live : list nat) (mvs : list (nat * Z)) : Prop :=
  Forall (fun mv => memn (fst mv) live = true /\ fst mv <> 0%nat) mvs.

(* source.flat_map(lambda x: of(x)) *)
Section FlatMapOf.
Variable gen : nat -> Z.
Variable C : cons.
Variable v0 : Z.
Variable l0 : list Z.
Notation L := (v0 :: l0).
Notation K := (KRep L).
Notation N := n_flat_map_of.
Notation State := (St N C).
Notation n := (length L).

(* the inner list loop of repeat: every element subscribes an inner of(x), whose action is queued *)
Lemma fm_pull : forall r pend cs a nx live i p o,
  memn 0 live = true -> nx <> 0%nat -> live_ports live pend ->
  exists live', memn 0 live' = true /\ live_ports live' (pend ++ combine (seq nx (length r)) r)
    /\ forall f,
       run gen K N C (length r + f) (State (FSt false a nx) cs false live (TList 0 r true :: inners pend) i p o)
       = run gen K N C f (State (FSt false (a + length r) (nx + length r)) cs false live'
                            (TList 0 [] true :: inners (pend ++ combine (seq nx (length r)) r))
                            (i + length r) (p + length r) o).
Proof.
  induction r as [|v r IH]; intros pend cs a nx live i p o H0 Hnx HP.
  - exists live. cbn [length seq combine Nat.add]. rewrite !Nat.add_0_r, app_nil_r. auto.
  - destruct (IH (pend ++ [(nx, v)]) cs (S a) (S nx) (nx :: live) (S i) (S p) o) as (live' & H0' & HP' & R).
    + apply memn_later, H0.
    + lia.
    + apply Forall_app. split.
      * eapply Forall_impl; [|exact HP]. intros mv [M1 M2]. split; [apply memn_later, M1|exact M2].
      * constructor; [|constructor]. split; [apply memn_here|exact Hnx].
    + rewrite <- app_assoc in HP', R. exists live'. split; [exact H0'|]. split; [exact HP'|]. intros f.
      cbn [length Nat.add].
      rewrite (run_step gen K N C (step_pull gen K N C H0)), (deliver_eq K N C (flat_map_of_src _ _ _)).
      cbn [apply s_done apply1 s_net s_cons s_live s_q s_idx s_pulls s_out first_task].
      change ((TList 0 r true :: inners pend) ++ [TList nx [v] false])
        with (TList 0 r true :: inners pend ++ inners [(nx, v)]).
      rewrite <- inners_app, R, <- !Nat.add_succ_comm. reflexivity.
Qed.

(* a round from the concat action until the inner actions, one for every element of the list, are
   at the head of the queue *)
Lemma fm_round_pull : forall cs a nx live i p o,
  memn 0 live = true -> nx <> 0%nat ->
  exists live' mvs, memn 0 live' = true /\ live_ports live' mvs /\ map snd mvs = L
    /\ forall f,
       run gen K N C (n + 2 + f) (State (FSt false a nx) cs false live [TConc 0] i p o)
       = run gen K N C f (State (FSt false (a + n) (nx + n)) cs false live' (inners mvs ++ [TConc 0]) (i + n) (p + n) o).
Proof.
  intros cs a nx live i p o H0 Hnx.
  destruct (fm_pull L [] cs a nx live i p o H0 Hnx (Forall_nil _)) as (live' & H0' & HP & R).
  exists live', (combine (seq nx n) L). split; [exact H0'|]. split; [exact HP|]. split; [apply map_snd_combine_seq|].
  intros f. replace (n + 2 + f)%nat with (S (n + S f)) by lia.
  rewrite (run_step gen K N C (step_conc gen L N C H0)). cbn [app].
  change [TList 0 L true] with (TList 0 L true :: inners []). rewrite R.
  rewrite (run_step gen K N C (step_round_end gen K N C H0')). reflexivity.
Qed.

(* the queued inner actions, the consumer not completing: two dispatches each *)
Lemma fm_pass : forall mvs cs cs' a nx live q i p o f,
  live_ports live mvs -> feed C (lgen (map snd mvs)) cs 0 (length mvs) = Some cs' ->
  exists a' o', run gen K N C (2 * length mvs + f) (State (FSt false a nx) cs false live (inners mvs ++ q) i p o)
                = run gen K N C f (State (FSt false a' nx) cs' false live q i p o').
Proof.
  induction mvs as [|[m v] mvs IH]; intros cs cs' a nx live q i p o f HL HF.
  - cbn in HF. injection HF as <-. exists a, o. reflexivity.
  - apply Forall_cons_iff in HL. destruct HL as [[Hm Hm0] HL]. cbn [fst] in Hm, Hm0.
    cbn [map snd length feed] in HF. change (lgen (v :: map snd mvs) 0) with v in HF.
    destruct (c_step C cs v) as [[s1 n1] [|]] eqn:E; [discriminate HF|].
    cbn [inners map fst snd app length]. replace (2 * S (length mvs) + f)%nat with (S (S (2 * length mvs + f))) by lia.
    rewrite (inner_pass gen K N C (flat_map_of_inner_next a nx m v Hm0) (flat_map_of_inner_done a nx m Hm0) Hm E).
    apply (IH s1 cs' (pred a) nx live q i p (o + n1)%nat f HL).
    rewrite <- HF. apply feed_ext. intros d _. reflexivity.
Qed.

(* the same, the consumer completing at the k-th of them: what is left of the queue is skipped *)
Lemma fm_stop : forall mvs k cs a nx live q i p o f,
  live_ports live mvs -> (k <= length mvs)%nat -> stops_at C (lgen (map snd mvs)) cs 0 k ->
  (2 * k + length mvs + length q <= f)%nat ->
  exists o', run gen K N C f (State (FSt false a nx) cs false live (inners mvs ++ q) i p o) = Returned p o' true.
Proof.
  induction mvs as [|[m v] mvs IH]; intros k cs a nx live q i p o f HL Hk HS Hf.
  - destruct k; [destruct HS|cbn in Hk; lia].
  - apply Forall_cons_iff in HL. destruct HL as [[Hm Hm0] HL]. cbn [fst] in Hm, Hm0.
    destruct k as [|k]; [destruct HS|]. cbn [map snd stops_at] in HS. change (lgen (v :: map snd mvs) 0) with v in HS.
    destruct (c_step C cs v) as [[s1 n1] stop] eqn:E. cbn [length] in Hk, Hf.
    cbn [inners map fst snd app]. replace f with (S (S (f - 2))) by lia. destruct stop.
    + eexists. apply (inner_stop gen K N C (flat_map_of_inner_next a nx m v Hm0) Hm E).
      rewrite app_length. unfold inners. rewrite map_length. lia.
    + rewrite (inner_pass gen K N C (flat_map_of_inner_next a nx m v Hm0) (flat_map_of_inner_done a nx m Hm0) Hm E).
      apply (IH k s1 (pred a) nx live q i p (o + n1)%nat (f - 2)%nat HL); [lia| |lia].
      eapply stops_at_ext; [|exact HS]. intros d _. reflexivity.
Qed.

(* completing at element j + 1 of round r + 1; a round that passes costs (n + 2) + 2 * n dispatches *)
Theorem fm_rounds : forall r j cs a nx live i p o f rho,
  memn 0 live = true -> nx <> 0%nat -> (j < n)%nat ->
  stops_at C (cyc v0 l0) cs (n * rho) (n * r + S j) ->
  ((3 * n + 2) * r + 2 * n + 2 * j + 5 <= f)%nat ->
  exists o', run gen K N C f (State (FSt false a nx) cs false live [TConc 0] i p o)
             = Returned (p + n * S r)%nat o' true.
Proof.
  induction r as [|r IH]; intros j cs a nx live i p o f rho H0 Hnx Hj HS Hf;
    destruct (fm_round_pull cs a nx live i p o H0 Hnx) as (live' & mvs & H0' & HP & HM & R);
    assert (HLn : length mvs = n) by (rewrite <- HM; symmetry; apply map_length).
  - (* the last round *)
    rewrite Nat.mul_0_r, Nat.add_0_l in HS.
    replace f with (n + 2 + (f - n - 2))%nat by lia. rewrite R. clear R.
    destruct (fm_stop mvs (S j) cs (a + n) (nx + n) live' [TConc 0] (i + n) (p + n) o (f - n - 2) HP) as (o' & R).
    + lia.
    + rewrite HM. eapply stops_at_ext; [|exact HS]. intros d Hd. cbn [Nat.add]. rewrite cyc_round by lia. reflexivity.
    + cbn [length] in *. lia.
    + exists o'. rewrite R. f_equal. lia.
  - (* a whole round passes *)
    replace (n * S r + S j)%nat with (n + S (n * r + j))%nat in HS by lia.
    destruct (stops_at_split _ _ _ _ _ _ HS) as (cs' & HF & HS').
    replace f with (n + 2 + (2 * n + (f - 3 * n - 2)))%nat by (cbn [length] in *; lia). rewrite R. clear R.
    destruct (fm_pass mvs cs cs' (a + n) (nx + n) live' [TConc 0] (i + n) (p + n) o (f - 3 * n - 2) HP) as (a' & o' & R).
    + rewrite HM, HLn, <- HF. apply feed_ext. intros d Hd. cbn [Nat.add]. rewrite cyc_round by lia. reflexivity.
    + rewrite HLn in R. rewrite R. clear R.
      destruct (IH j cs' a' (nx + n)%nat live' (i + n)%nat (p + n)%nat o' (f - 3 * n - 2)%nat (S rho) H0') as (o'' & R).
      * lia.
      * exact Hj.
      * replace (n * S rho)%nat with (n * rho + n)%nat by lia.
        replace (n * r + S j)%nat with (S (n * r + j)) by lia. exact HS'.
      * cbn [length] in *. lia.
      * exists o''. rewrite R. f_equal. lia.
Qed.
End FlatMapOf.

Lemma last_cons_default : forall (r : list Z) v d, last (v :: r) d = last r v.
Proof.
  induction r as [|x r IH]; intros v d; [reflexivity|].
  change (last (v :: x :: r) d) with (last (x :: r) d). now rewrite (IH x d), (IH x v).
Qed.

(* source.switch_map(lambda x: of(x)) *)
Section SwitchMapOf.
Variable gen : nat -> Z.
Variable C : cons.
Variable v0 : Z.
Variable l0 : list Z.
Notation L := (v0 :: l0).
Notation K := (KRep L).
Notation N := n_switch_map_of.
Notation State := (St N C).
Notation n := (length L).
Notation vlast := (last l0 v0).

Definition dead_ports (live : list nat) (nx : nat) (mvs : list (nat * Z)) : Prop :=
  Forall (fun mv => memn (fst mv) live = false /\ (fst mv < nx)%nat) mvs.

Lemma sw_on_src h lt nx v : lt <> 0%nat ->
  n_on N (SSt false h lt nx) 0 (Next v) = (SSt false true nx (S nx), [NUnsub lt; NSub nx (SOf [v])]).
Proof. intros H. cbn [n_on n_switch_map_of Nat.eqb w_stopped w_has w_latest w_next]. destruct lt; [contradiction|reflexivity]. Qed.

(* the rest of a round: every element disposes the previous inner (its queued action is dead) *)
Lemma sw_pull_rest : forall r dead lt vl cs h nx live i p o,
  memn 0 live = true -> lt <> 0%nat -> (lt < nx)%nat -> memn lt live = true -> dead_ports live nx dead ->
  exists live' dead' lt' h',
    memn 0 live' = true /\ lt' <> 0%nat /\ memn lt' live' = true
    /\ dead_ports live' (nx + length r) dead' /\ length dead' = (length dead + length r)%nat
    /\ forall f,
       run gen K N C (length r + f)
         (State (SSt false h lt nx) cs false live (TList 0 r true :: inners (dead ++ [(lt, vl)])) i p o)
       = run gen K N C f
           (State (SSt false h' lt' (nx + length r)) cs false live'
              (TList 0 [] true :: inners (dead' ++ [(lt', last r vl)])) (i + length r) (p + length r) o).
Proof.
  induction r as [|v r IH]; intros dead lt vl cs h nx live i p o H0 Hlt0 Hlt Hl Hd.
  - exists live, dead, lt, h. cbn [length last Nat.add]. rewrite !Nat.add_0_r. auto 6.
  - destruct (IH (dead ++ [(lt, vl)]) nx v cs true (S nx) (nx :: removen lt live) (S i) (S p) o)
      as (live' & dead' & lt' & h' & A1 & A2 & A4 & A5 & A6 & R).
    + apply memn_later. rewrite memn_removen by lia. exact H0.
    + lia.
    + lia.
    + apply memn_here.
    + apply Forall_app. split.
      * eapply Forall_impl; [|exact Hd]. intros mv [M1 M2]. split; [|lia].
        rewrite memn_cons. replace (Nat.eqb (fst mv) nx) with false by (symmetry; apply Nat.eqb_neq; lia).
        apply memn_removen_false. exact M1.
      * constructor; [|constructor]. cbn [fst]. split; [|lia].
        rewrite memn_cons. replace (Nat.eqb lt nx) with false by (symmetry; apply Nat.eqb_neq; lia).
        apply memn_removen_same.
    + exists live', dead', lt', h'. rewrite last_cons_default. cbn [length]. rewrite <- !Nat.add_succ_comm.
      repeat split; auto; [rewrite A6, app_length; cbn; lia|].
      intros f. cbn [Nat.add].
      rewrite (run_step gen K N C (step_pull gen K N C H0)), (deliver_eq K N C (sw_on_src h lt nx v Hlt0)).
      cbn [apply s_done apply1 s_net s_cons s_live s_q s_idx s_pulls s_out first_task].
      change ((TList 0 r true :: inners (dead ++ [(lt, vl)])) ++ [TList nx [v] false])
        with (TList 0 r true :: inners (dead ++ [(lt, vl)]) ++ inners [(nx, v)]).
      rewrite <- inners_app. apply R.
Qed.

(* queued actions of disposed inners: one dispatch each, nothing happens *)
Lemma sw_skip : forall dead ns cs live nx q i p o f, dead_ports live nx dead ->
  run gen K N C (length dead + f) (State ns cs false live (inners dead ++ q) i p o)
  = run gen K N C f (State ns cs false live q i p o).
Proof.
  induction dead as [|[m v] dead IH]; intros ns cs live nx q i p o f Hd; [reflexivity|].
  apply Forall_cons_iff in Hd. destruct Hd as [[M _] Hd]. cbn [fst] in M.
  cbn [length Nat.add inners map fst snd app].
  rewrite (run_step gen K N C (step_inner_dead gen K N C M)).
  apply (IH ns cs live nx q i p o f Hd).
Qed.

(* a round from the concat action until the only live inner action, that of the last element of
   the list, is at the head of the queue: n elements pulled, n - 1 dead actions skipped *)
Lemma sw_round : forall cs h lt nx live i p o,
  memn 0 live = true -> nx <> 0%nat ->
  exists h' lt' live', memn 0 live' = true /\ lt' <> 0%nat /\ memn lt' live' = true
    /\ forall f,
       run gen K N C (2 * n + 1 + f) (State (SSt false h lt nx) cs false live [TConc 0] i p o)
       = run gen K N C f (State (SSt false h' lt' (nx + n)) cs false live'
                            [TList lt' [vlast] false; TConc 0] (i + n) (p + n) o).
Proof.
  intros cs h lt nx live i p o H0 Hnx.
  destruct (switch_map_of_src K C h lt nx v0 live H0) as (live1 & B0 & B1 & E1).
  destruct (sw_pull_rest l0 [] nx v0 cs true (S nx) live1 (S i) (S p) o)
    as (live' & dead' & lt' & h' & A1 & A2 & A4 & A5 & A6 & R); auto; [constructor|].
  exists h', lt', live'. split; [exact A1|]. split; [exact A2|]. split; [exact A4|]. intros f.
  cbn [length Nat.add] in *. replace (2 * S (length l0) + 1 + f)%nat with (S (S (length l0 + S (length l0 + f)))) by lia.
  rewrite (run_step gen K N C (step_conc gen L N C H0)). cbn [app].
  rewrite (run_step gen K N C (step_pull gen K N C H0)), E1.
  change ([TList 0 l0 true] ++ first_task K nx (SOf [v0])) with (TList 0 l0 true :: inners ([] ++ [(nx, v0)])).
  rewrite R. clear R.
  rewrite (run_step gen K N C (step_round_end gen K N C A1)).
  rewrite inners_app, <- app_assoc, <- A6, (sw_skip dead' _ cs live' _ _ _ _ _ _ A5), A6, <- !Nat.add_succ_comm.
  reflexivity.
Qed.

(* the consumer sees the last element once per round *)
Theorem sw_rounds : forall k cs h lt nx live i p o f,
  memn 0 live = true -> nx <> 0%nat ->
  stops_at C (fun _ => vlast) cs 0 k -> ((2 * n + 3) * k + 2 <= f)%nat ->
  exists o', run gen K N C f (State (SSt false h lt nx) cs false live [TConc 0] i p o)
             = Returned (p + n * k)%nat o' true.
Proof.
  induction k as [|k IH]; intros cs h lt nx live i p o f H0 Hnx HS Hf; [destruct HS|].
  cbn [stops_at] in HS. destruct (c_step C cs vlast) as [[s1 n1] stop] eqn:E.
  destruct (sw_round cs h lt nx live i p o H0 Hnx) as (h' & lt' & live' & A0 & A2 & A4 & R).
  replace f with (2 * n + 1 + S (S (f - (2 * n + 3))))%nat by lia. rewrite R. clear R. destruct stop.
  - subst k. eexists.
    rewrite (inner_stop gen K N C (switch_map_of_latest_next h' lt' _ vlast A2) A4 E)
      by (cbn [length] in *; lia).
    f_equal. lia.
  - rewrite (inner_pass gen K N C (switch_map_of_latest_next h' lt' _ vlast A2) (switch_map_of_latest_done h' lt' _ A2) A4 E).
    destruct (IH s1 false lt' (nx + n)%nat live' (i + n)%nat (p + n)%nat (o + n1)%nat (f - (2 * n + 3))%nat A0)
      as (o' & R).
    + lia.
    + eapply stops_at_ext; [|exact HS]. intros d _. reflexivity.
    + lia.
    + exists o'. rewrite R. f_equal. lia.
Qed.

(* it does NOT see the cyclic stream: a consumer that never completes on the constant stream of
   last elements keeps the pipeline running for ever *)
Lemma sw_diverges : forall m cs h lt nx live i p o,
  memn 0 live = true -> nx <> 0%nat -> never_stops C (fun _ => vlast) cs 0 ->
  run gen K N C ((2 * n + 3) * m) (State (SSt false h lt nx) cs false live [TConc 0] i p o) = OutOfFuel.
Proof.
  induction m as [|m IH]; intros cs h lt nx live i p o H0 Hnx HN.
  - rewrite Nat.mul_0_r. cbn [run]. rewrite (step_conc gen L N C H0). reflexivity.
  - destruct (c_step C cs vlast) as [[s1 n1] [|]] eqn:E.
    { exfalso. apply (HN 1%nat). cbn [feed]. rewrite E. reflexivity. }
    destruct (sw_round cs h lt nx live i p o H0 Hnx) as (h' & lt' & live' & A0 & A2 & A4 & R).
    replace ((2 * n + 3) * S m)%nat with (2 * n + 1 + S (S ((2 * n + 3) * m)))%nat by lia.
    rewrite R, (inner_pass gen K N C (switch_map_of_latest_next h' lt' _ vlast A2) (switch_map_of_latest_done h' lt' _ A2) A4 E).
    apply IH; [exact A0|lia|].
    intros k Hk. apply (HN (S k)). cbn [feed]. rewrite E, <- Hk. apply feed_ext. intros d _. reflexivity.
Qed.

Theorem sw_never_returns : forall fuel cs h lt nx live i p o,
  memn 0 live = true -> nx <> 0%nat -> never_stops C (fun _ => vlast) cs 0 ->
  run gen K N C fuel (State (SSt false h lt nx) cs false live [TConc 0] i p o) = OutOfFuel.
Proof.
  intros fuel cs h lt nx live i p o H0 Hnx HN.
  match goal with |- ?R = _ => destruct R as [a b c|] eqn:ER; [|reflexivity] end.
  exfalso. apply (run_mono gen _ _ _ fuel ((2 * n + 3) * fuel)) in ER; [|nia].
  rewrite sw_diverges in ER by assumption. discriminate ER.
Qed.
End SwitchMapOf.

(* concat(of(1, 2), source): the consumer sees 1, 2, then the cyclic stream *)
Definition concat_stream (v : Z) (l : list Z) (i : nat) : Z :=
  match i with O => 1 | S O => 2 | S (S j) => cyc v l j end.

Theorem concat_before_rep_any : forall gen C v l k fuel,
  stops_at C (concat_stream v l) (c_init C) 0 k -> (3 * k + 12 <= fuel)%nat ->
  exists out, run_default gen (KRep (v :: l)) (n_concat true) C fuel = Returned (k - 2) out true.
Proof.
  intros gen C v l k fuel HS Hf. unfold run_default.
  set (K := KRep (v :: l)). set (N := n_concat true).
  (* the concat action subscribes of(1, 2), whose action delivers 1 *)
  destruct k as [|k]; [destruct HS|]. cbn [stops_at concat_stream] in HS.
  replace fuel with (2 + (fuel - 2))%nat by lia.
  rewrite (run_steps gen K N C 2 _ _
             (apply K N C [NEmit 1] (St N C 1%nat (c_init C) false [1%nat] [TList 1 [2] false] 0 0 0)))
    by reflexivity.
  cbn [apply apply1 s_done s_net s_cons s_live s_q s_idx s_pulls s_out].
  destruct (c_step C (c_init C) 1) as [[s1 n1] [|]].
  { subst k. eexists. rewrite run_done by (cbn; lia). reflexivity. }
  (* ... then 2 *)
  destruct k as [|k]; [destruct HS|]. cbn [stops_at concat_stream] in HS.
  replace (fuel - 2)%nat with (1 + (fuel - 3))%nat by lia.
  rewrite (run_steps gen K N C 1 _ _
             (apply K N C [NEmit 2] (St N C 1%nat s1 false [1%nat] [TList 1 [] false] 0 0 (0 + n1))))
    by reflexivity.
  cbn [apply apply1 s_done s_net s_cons s_live s_q s_idx s_pulls s_out].
  destruct (c_step C s1 2) as [[s2 n2] [|]].
  { subst k. eexists. rewrite run_done by (cbn; lia). reflexivity. }
  (* of(1, 2) completes, the concat action subscribes the source, its concat action the list *)
  replace (fuel - 3)%nat with (3 + (fuel - 6))%nat by lia.
  rewrite (run_steps gen K N C 3 _ _
             (St N C 2%nat s2 false [0%nat; 1%nat] [TList 0 (v :: l) true] 0 0 (0 + n1 + n2)))
    by reflexivity.
  replace (S (S k) - 2)%nat with (0 + k)%nat by lia.
  apply (rep_loop gen N C (fun _ => True) (concat_emits true) v l k); [exact I|reflexivity| |lia].
  eapply stops_at_ext; [|exact HS]. intros d _. symmetry. apply rest_stream_full.
Qed.
