(* C40: what the runner does with an operator's answer to one input does not depend on the operator
   ([handled_step], Ops/MultiFacts.v); its effects, emissions and stopped flag are read off the answer
   ([handled_out]).  On top of that the side-effect disciplines (exactly once at the stop; effect-erasing
   simulation; effects mirror emissions), their stability under a source that notifies inside
   subscribe(), and the instances for using / finally_action / do_finally / do_action variants. *)
From RxVerif Require Import Base.Prelude Ops.Machine Ops.Multi Ops.MultiFacts Ops.RunLemmas Ops.Using.

Local Open Scope nat_scope.

Section Proj.
Context {B : Type}.

Definition is_eff (n : Z) (o : obs B) : bool := match o with OEffect k => Z.eqb k n | _ => false end.
Definition is_ceff (n : Z) (c : cmd B) : bool := match c with CEffect k => Z.eqb k n | _ => false end.
Definition cnt_obs (n : Z) (os : list (obs B)) : nat := length (filter (is_eff n) os).
Definition cnt_cmd (n : Z) (cs : list (cmd B)) : nat := length (filter (is_ceff n) cs).
Definition cnt_tr (n : Z) (tr : list (nat * obs B)) : nat := cnt_obs n (map snd tr).

Definition ceffs (cs : list (cmd B)) : list Z :=
  flat_map (fun c => match c with CEffect n => [n] | _ => [] end) cs.
Definition oeffs (os : list (obs B)) : list Z :=
  flat_map (fun o => match o with OEffect n => [n] | _ => [] end) os.
Definition fin_ev (f : fin) : list (ev B) :=
  match f with Cont => [] | Complete => [Done] | Fail e => [Err e] end.

Definition keep_c (c : cmd B) : bool := match c with CEffect _ => false | _ => true end.
Definition keep_o (o : obs B) : bool := match o with OEffect _ => false | _ => true end.
Definition strip_c (cs : list (cmd B)) := filter keep_c cs.
Definition strip_o (os : list (obs B)) := filter keep_o os.
Definition strip_t (tr : list (nat * obs B)) := filter (fun x => keep_o (snd x)) tr.

Lemma cnt_cmd_app n a b : cnt_cmd n (a ++ b) = cnt_cmd n a + cnt_cmd n b.
Proof. unfold cnt_cmd. now rewrite filter_app, app_length. Qed.

Lemma cnt_tr_app n a b : cnt_tr n (a ++ b) = cnt_tr n a + cnt_tr n b.
Proof. unfold cnt_tr, cnt_obs. now rewrite map_app, filter_app, app_length. Qed.

Lemma cnt_tr_tag n k (o : list (obs B)) : cnt_tr n (map (fun x => (k, x)) o) = cnt_obs n o.
Proof. unfold cnt_tr. now rewrite map_map, map_id. Qed.

(* counting is a projection of the list of effects *)
Definition zcount (n : Z) (l : list Z) : nat := length (filter (fun k => Z.eqb k n) l).

Lemma cnt_obs_oeffs n (os : list (obs B)) : cnt_obs n os = zcount n (oeffs os).
Proof.
  unfold cnt_obs, zcount, oeffs. induction os as [|o t IH]; [reflexivity|].
  destruct o; cbn [filter is_eff flat_map app]; try exact IH. destruct (Z.eqb n0 n); cbn [length]; now rewrite IH.
Qed.

Lemma cnt_cmd_ceffs n (cs : list (cmd B)) : cnt_cmd n cs = zcount n (ceffs cs).
Proof.
  unfold cnt_cmd, zcount, ceffs. induction cs as [|c t IH]; [reflexivity|].
  destruct c; cbn [filter is_ceff flat_map app]; try exact IH. destruct (Z.eqb n0 n); cbn [length]; now rewrite IH.
Qed.

Lemma cnt_tr_handled n k (u : list (obs B)) cs tr : oeffs u = ceffs cs ->
  cnt_tr n (map (fun x => (k, x)) u ++ tr) = cnt_cmd n cs + cnt_tr n tr.
Proof. intros E. now rewrite cnt_tr_app, cnt_tr_tag, cnt_obs_oeffs, E, <- cnt_cmd_ceffs. Qed.

Lemma oeffs_app (a b : list (obs B)) : oeffs (a ++ b) = oeffs a ++ oeffs b.
Proof. apply flat_map_app. Qed.

Lemma strip_o_app (a b : list (obs B)) : strip_o (a ++ b) = strip_o a ++ strip_o b.
Proof. apply filter_app. Qed.

Lemma strip_c_app (a b : list (cmd B)) : strip_c (a ++ b) = strip_c a ++ strip_c b.
Proof. apply filter_app. Qed.

Lemma strip_t_app (a b : list (nat * obs B)) : strip_t (a ++ b) = strip_t a ++ strip_t b.
Proof. apply filter_app. Qed.

Lemma strip_t_tag k (o : list (obs B)) :
  strip_t (map (fun x => (k, x)) o) = map (fun x => (k, x)) (strip_o o).
Proof.
  induction o as [|x t IH]; [reflexivity|]. unfold strip_t, strip_o in *. cbn [map filter snd].
  destruct (keep_o x); cbn [map]; now rewrite IH.
Qed.

(* two answers (state, commands, fin) that agree up to side effects, with related states *)
Definition ans_sim {S1 S2} (R : S1 -> S2 -> Prop) (a1 : S1 * list (cmd B) * fin) (a2 : S2 * list (cmd B) * fin) : Prop :=
  strip_c (snd (fst a1)) = strip_c (snd (fst a2)) /\ snd a1 = snd a2 /\ R (fst (fst a1)) (fst (fst a2)).

Lemma ans_sim_app {S1 S2} (R : S1 -> S2 -> Prop) s1 s2 c1 c2 d1 d2 f :
  strip_c c1 = strip_c c2 -> strip_c d1 = strip_c d2 -> R s1 s2 -> ans_sim R (s1, c1 ++ d1, f) (s2, c2 ++ d2, f).
Proof. intros E1 E2 HR. split; [|split; [reflexivity|exact HR]]. cbn [fst snd]. now rewrite !strip_c_app, E1, E2. Qed.

Lemma ended_app (a b : list (ev B)) : ended (a ++ b) = ended a || ended b.
Proof. apply existsb_app. Qed.

Lemma ended_nexts_fin (xs : list B) f : ended (map Next xs ++ fin_ev f) = negb (live f).
Proof.
  rewrite ended_app. replace (ended (map Next xs)) with false by (induction xs; auto). destruct f; reflexivity.
Qed.

Lemma apply_cmds_out (cs : list (cmd B)) : forall r,
  oeffs (snd (apply_cmds r cs)) = ceffs cs /\ emits (snd (apply_cmds r cs)) = map Next (cemits cs).
Proof.
  induction cs as [|c t IH]; intros r; [split; reflexivity|]. rewrite apply_cmds_cons. cbn [snd].
  destruct (IH (fst (apply_cmds r [c]))) as [E1 E2]. rewrite oeffs_app, emits_app, E1, E2.
  destruct c; cbn [apply_cmds]; try destruct (mem _ _); split; reflexivity.
Qed.

Lemma apply_cmds_strip (cs : list (cmd B)) : forall r,
  apply_cmds r (strip_c cs) = (fst (apply_cmds r cs), strip_o (snd (apply_cmds r cs))).
Proof.
  induction cs as [|c t IH]; intros r; [reflexivity|]. rewrite (apply_cmds_cons r c t). cbn [fst snd]. rewrite strip_o_app.
  destruct c; cbn [strip_c filter keep_c]; fold (strip_c t); try rewrite (apply_cmds_cons r _ (strip_c t)); rewrite IH; cbn [apply_cmds fst snd];
    try destruct (mem _ _); reflexivity.
Qed.

Lemma apply_cmds_strip_eq (cs1 cs2 : list (cmd B)) r : strip_c cs1 = strip_c cs2 ->
  fst (apply_cmds r cs1) = fst (apply_cmds r cs2)
  /\ strip_o (snd (apply_cmds r cs1)) = strip_o (snd (apply_cmds r cs2)).
Proof.
  intros E. pose proof (apply_cmds_strip cs1 r) as H1. pose proof (apply_cmds_strip cs2 r) as H2.
  rewrite E in H1. rewrite H1 in H2. injection H2 as -> ->. split; reflexivity.
Qed.

(* outputs with no effect, no emission, nothing to strip: what release and auto-detach produce *)
Definition quiet (o : list (obs B)) : Prop := oeffs o = [] /\ emits o = [] /\ strip_o o = o.

Lemma quiet_app a b : quiet a -> quiet b -> quiet (a ++ b).
Proof.
  intros (A1 & A2 & A3) (B1 & B2 & B3). unfold quiet.
  now rewrite oeffs_app, emits_app, strip_o_app, A1, A2, A3, B1, B2, B3.
Qed.

Lemma quiet_map (c : nat -> obs B) l : (forall k, quiet [c k]) -> quiet (map c l).
Proof.
  intros Hc. induction l as [|k t IH]; [repeat split|]. exact (quiet_app [c k] (map c t) (Hc k) IH).
Qed.

Lemma release_out r : quiet (snd (@release B r)).
Proof. unfold release. cbn [snd]. apply quiet_app; apply quiet_map; intros k; repeat split. Qed.

Lemma finish_out r f :
  oeffs (snd (@finish B r f)) = [] /\ emits (snd (@finish B r f)) = fin_ev f
  /\ strip_o (snd (@finish B r f)) = snd (@finish B r f)
  /\ r_stopped (fst (@finish B r f)) = r_stopped r || negb (live f).
Proof.
  destruct (release_out r) as (Q1 & Q2 & Q3).
  destruct f; cbn [finish release fin_ev live negb fst snd] in *; rewrite ?orb_true_r, ?orb_false_r;
    unfold oeffs, emits, strip_o in *; cbn [flat_map filter keep_o app]; repeat split; congruence.
Qed.

Lemma oeffs_noemit (o : list (obs B)) : oeffs (filter noemit o) = oeffs o.
Proof.
  unfold oeffs. induction o as [|x t IH]; [reflexivity|]. destruct x; cbn [filter noemit flat_map app]; rewrite ?IH; reflexivity.
Qed.

Lemma strip_o_noemit (o : list (obs B)) : strip_o (filter noemit o) = filter noemit (strip_o o).
Proof.
  unfold strip_o. induction o as [|x t IH]; [reflexivity|]. destruct x; cbn [filter noemit keep_o]; rewrite ?IH; reflexivity.
Qed.
End Proj.

Definition stops {A} (i : inp A) (f : fin) : bool :=
  match i with IDispose => true | _ => negb (live f) end.

Section Handled.
Context {A B : Type}.

Definition is_dispose (i : inp A) : bool := match i with IDispose => true | _ => false end.
Definition has_dispose (ins : list (Z * inp A)) : bool := existsb (fun x => is_dispose (snd x)) ins.

Lemma stops_alt (i : inp A) f : stops i f = is_dispose i || negb (live f).
Proof. destruct i; reflexivity. Qed.

Lemma auto_detach_out (i : inp A) r :
  quiet (snd (auto_detach (B := B) i r)) /\ r_stopped (fst (auto_detach (B := B) i r)) = r_stopped r.
Proof.
  destruct i as [k e|t|]; cbn [auto_detach]; try (repeat split; reflexivity).
  destruct (is_terminal e && mem k (r_live r)); repeat split; reflexivity.
Qed.

(* the observable content of one handled answer ([handled_step], Ops/MultiFacts.v) *)
Lemma handled_out {S} (a : S * list (cmd B) * fin) r (i : inp A) :
  oeffs (snd (handled_step a r i)) = ceffs (snd (fst a))
  /\ emits (snd (handled_step a r i))
     = (if is_dispose i then [] else map Next (cemits (snd (fst a))) ++ fin_ev (snd a))
  /\ r_stopped (snd (fst (handled_step a r i))) = r_stopped r || stops i (snd a).
Proof.
  unfold handled_step. set (r0 := match i with ITick tag => _ | _ => r end).
  destruct (apply_cmds_out (snd (fst a)) r0) as [E1 E2]. pose proof (apply_cmds_stopped (snd (fst a)) r0) as E3.
  replace (r_stopped r0) with (r_stopped r) in E3 by (destruct i; reflexivity).
  set (r1 := fst (apply_cmds r0 (snd (fst a)))) in *.
  destruct (auto_detach_out i r1) as ((Q1 & Q2 & _) & Q4).
  destruct (finish_out (B := B) (fst (auto_detach (B := B) i r1)) (snd a)) as (F1 & F2 & _ & F4).
  destruct (release_out (B := B) r1) as (R1 & R2 & _).
  destruct i as [k e|t|]; cbn [fst snd is_dispose stops];
    [now rewrite !oeffs_app, !emits_app, E1, E2, Q1, Q2, F1, F2, F4, Q4, E3, app_nil_r..|].
  now rewrite oeffs_app, emits_app, oeffs_noemit, (filter_noemit (B := B) _), E1, R1, R2, orb_true_r, app_nil_r.
Qed.

Lemma handled_strip {S1 S2} (a1 : S1 * list (cmd B) * fin) (a2 : S2 * list (cmd B) * fin) r (i : inp A) :
  strip_c (snd (fst a1)) = strip_c (snd (fst a2)) -> snd a1 = snd a2 ->
  snd (fst (handled_step a1 r i)) = snd (fst (handled_step a2 r i))
  /\ strip_o (snd (handled_step a1 r i)) = strip_o (snd (handled_step a2 r i)).
Proof.
  intros E Ef. unfold handled_step. set (r0 := match i with ITick tag => _ | _ => r end).
  destruct (apply_cmds_strip_eq (snd (fst a1)) (snd (fst a2)) r0 E) as [E1 E2]. rewrite <- E1, <- Ef.
  destruct i; cbn [fst snd]; (split; [reflexivity|]); now rewrite !strip_o_app, ?strip_o_noemit, E2.
Qed.
End Handled.

(* One walk along the run for the disciplines of one machine.  [L i a]: what a discipline asks of the
   operator's answer [a] to input [i]; [G d tr]: what it promises of a trace, [d] telling whether the
   subscriber has disposed.  [G] has to be closed under putting the output of one handled [L]-answer in
   front ([G_cons]: all it may use of that output is [handled_out]); the walk does the rest. *)
Section RunInd.
Context {A B : Type} (m : machine A B) (Inv : x_state m -> Prop)
  (L : inp A -> x_state m * list (cmd B) * fin -> Prop) (G : bool -> list (nat * obs B) -> Prop).

Hypothesis L_step : forall s now i, Inv s ->
  L i (x_step m s now i) /\ (stops i (snd (x_step m s now i)) = false -> Inv (fst (fst (x_step m s now i)))).
Hypothesis G_nil : G false [].
Hypothesis G_cons : forall i s' cs f k u tr d, L i (s', cs, f) ->
  oeffs u = ceffs cs -> emits u = (if is_dispose i then [] else map Next (cemits cs) ++ fin_ev f) ->
  (if stops i f then tr = [] else G d tr) -> G (is_dispose i || d) (map (fun x => (k, x)) u ++ tr).

Definition G_from ins : Prop := forall s r k, Inv s -> r_stopped r = false ->
  G (has_dispose ins) (fst (run_from m s r k ins)).

(* the step and the start alike: one handled answer, then a run *)
Lemma handled_then_G ins r i a k : G_from ins -> r_stopped r = false ->
  L i a -> (stops i (snd a) = false -> Inv (fst (fst a))) ->
  G (is_dispose i || has_dispose ins)
    (map (fun x => (k, x)) (snd (handled_step a r i))
     ++ fst (run_from m (fst (fst (handled_step a r i))) (snd (fst (handled_step a r i))) (S k) ins)).
Proof.
  intros IH H0 HL Hi. destruct (handled_out a r i) as (Ef & Em & Es). rewrite handled_state, H0 in *.
  destruct a as [[s' cs] f]. cbn [orb fst snd] in *. apply (G_cons i s' cs f k _ _ _ HL Ef Em).
  destruct (stops i f); [now rewrite run_from_stopped|exact (IH s' _ (S k) (Hi eq_refl) Es)].
Qed.

Lemma run_from_G ins : G_from ins.
Proof.
  induction ins as [|[now i] rest IH]; intros s r k HI H0; [exact G_nil|].
  rewrite run_from_cons. cbn [fst has_dispose existsb snd]. fold (has_dispose rest).
  destruct (handled_or_dropped r i) as [[_ Hd]|Hd].
  - rewrite (rstep_handled_eq m s r now i H0 Hd). destruct (L_step s now i HI) as [HL Hi].
    exact (handled_then_G rest r i _ k IH H0 HL Hi).
  - rewrite (rstep_dropped m s r now i Hd).
    replace (is_dispose i) with false by (destruct Hd as [Hd|[_ Hd]]; [congruence|now destruct i]).
    exact (IH s r (S k) HI H0).
Qed.

Theorem run_G ins : L (ITick 0) (x_start m) -> (live (snd (x_start m)) = true -> Inv (fst (fst (x_start m)))) ->
  G (has_dispose ins) (fst (run m ins)).
Proof.
  intros HL Hi. rewrite run_start, start_step_handled.
  apply (handled_then_G ins (RState [] [] false) (ITick 0) _ 0 (run_from_G ins) eq_refl HL).
  cbn [stops]. destruct (live _); [auto|discriminate].
Qed.
End RunInd.

(* an effect issued exactly by the handler that terminates the subscription, and [d] times by the
   dispose handler, occurs once if a terminal notification was emitted, else [d] times if the
   subscriber disposed, else not (yet) *)
Section OnceAt.
Context {A B : Type} (m : machine A B) (n : Z) (P : x_state m -> Prop) (d : nat).

Record once_at : Prop := {
  oa_start_cnt : cnt_cmd n (snd (fst (x_start m))) = if live (snd (x_start m)) then 0 else 1;
  oa_start_inv : live (snd (x_start m)) = true -> P (fst (fst (x_start m)));
  oa_step_cnt : forall s now i, P s ->
    cnt_cmd n (snd (fst (x_step m s now i)))
    = if is_dispose i then d else if live (snd (x_step m s now i)) then 0 else 1;
  oa_step_inv : forall s now i, P s -> stops i (snd (x_step m s now i)) = false ->
    P (fst (fst (x_step m s now i))) }.

Definition tally (disposed : bool) (tr : list (nat * obs B)) : nat :=
  if ended (emitted tr) then 1 else if disposed then d else 0.

Theorem effect_once_at : once_at -> forall ins, cnt_tr n (fst (run m ins)) = tally (has_dispose ins) (fst (run m ins)).
Proof.
  intros H ins.
  apply (run_G m P (fun i a => cnt_cmd n (snd (fst a)) = if is_dispose i then d else if live (snd a) then 0 else 1)
               (fun disposed tr => cnt_tr n tr = tally disposed tr)).
  - intros s now i HP. exact (conj (oa_step_cnt H s now i HP) (oa_step_inv H s now i HP)).
  - reflexivity.
  - intros i s' cs f k u tr dd Hc Ef Em Htr. cbn [fst snd] in Hc. unfold tally.
    rewrite (cnt_tr_handled n k u cs tr Ef), emitted_tag_app, ended_app, Hc, Em.
    rewrite stops_alt in Htr. destruct (is_dispose i); cbn [orb] in *; [subst tr; cbn; lia|].
    rewrite ended_nexts_fin. destruct (live f); cbn [negb orb] in *; [exact Htr|subst tr; reflexivity].
  - exact (oa_start_cnt H).
  - exact (oa_start_inv H).
Qed.
End OnceAt.

Section Prefix.
Context {A B : Type} (m : machine A B).

Theorem run_prefix a b : exists tr', fst (run m (a ++ b)) = fst (run m a) ++ tr'.
Proof.
  rewrite !run_start, run_from_app. cbn [fst]. eexists. apply app_assoc.
Qed.
End Prefix.

(* exactly once, at the stopping instant: by the terminating handler or by dispose *)
Section Once.
Context {A B : Type} (m : machine A B) (n : Z) (P : x_state m -> Prop).

Record once_at_stop : Prop := {
  oas_start_cnt : cnt_cmd n (snd (fst (x_start m))) = if live (snd (x_start m)) then 0 else 1;
  oas_start_inv : live (snd (x_start m)) = true -> P (fst (fst (x_start m)));
  oas_step_cnt : forall s now i, P s ->
    cnt_cmd n (snd (fst (x_step m s now i))) = if stops i (snd (x_step m s now i)) then 1 else 0;
  oas_step_inv : forall s now i, P s -> stops i (snd (x_step m s now i)) = false ->
    P (fst (fst (x_step m s now i))) }.

Lemma once_at_stop_iff : once_at_stop <-> once_at m n P 1.
Proof.
  assert (E : forall (i : inp A) f, (if stops i f then 1 else 0) = if is_dispose i then 1 else if live f then 0 else 1)
    by (intros i f; rewrite stops_alt; destruct (is_dispose i), (live f); reflexivity).
  split; intros [H1 H2 H3 H4]; constructor; auto; intros s now i HP; rewrite (H3 s now i HP); [|symmetry]; apply E.
Qed.
End Once.

Section Observable.
Context {A B : Type} (m : machine A B) (n : Z) (P : x_state m -> Prop).

(* exactly once, and exactly when a terminal notification has been emitted or
   the subscriber has disposed *)
Theorem once_observable : once_at_stop m n P -> forall ins,
  cnt_tr n (fst (run m ins))
  = if ended (emitted (fst (run m ins))) || has_dispose ins then 1 else 0.
Proof.
  intros H ins. rewrite (effect_once_at m n P 1 (proj1 (once_at_stop_iff m n P) H) ins). unfold tally.
  destruct (ended _); reflexivity.
Qed.

(* ... at every moment: the trace after a prefix [a] of the inputs is a prefix
   of the final trace, the effect has happened in it iff the subscription has
   terminated or been disposed within [a], and it never happens again *)
Theorem once_timing : once_at_stop m n P -> forall a b, exists tr',
  fst (run m (a ++ b)) = fst (run m a) ++ tr'
  /\ cnt_tr n (fst (run m a)) = (if ended (emitted (fst (run m a))) || has_dispose a then 1 else 0)
  /\ (ended (emitted (fst (run m a))) || has_dispose a = true -> cnt_tr n tr' = 0).
Proof.
  intros H a b. destruct (run_prefix m a b) as [tr' E]. exists tr'. split; [exact E|].
  pose proof (once_observable H a) as Ha. split; [exact Ha|].
  intros Hs. pose proof (once_observable H (a ++ b)) as Hab.
  rewrite E, cnt_tr_app, Ha, Hs in Hab. destruct (ended _ || has_dispose (a ++ b)); lia.
Qed.
End Observable.

(* two machines whose commands agree up to side effects produce the same
   trace up to side effects (same emissions, same subscribe / unsubscribe /
   timer instants) on EVERY input sequence *)
Section Sim.
Context {A B : Type} (m1 m2 : machine A B) (R : x_state m1 -> x_state m2 -> Prop).

Record sim : Prop := {
  sim_start_c : strip_c (snd (fst (x_start m1))) = strip_c (snd (fst (x_start m2)));
  sim_start_f : snd (x_start m1) = snd (x_start m2);
  sim_start_R : R (fst (fst (x_start m1))) (fst (fst (x_start m2)));
  sim_step : forall s1 s2 now i, R s1 s2 ->
     strip_c (snd (fst (x_step m1 s1 now i))) = strip_c (snd (fst (x_step m2 s2 now i)))
     /\ snd (x_step m1 s1 now i) = snd (x_step m2 s2 now i)
     /\ R (fst (fst (x_step m1 s1 now i))) (fst (fst (x_step m2 s2 now i))) }.

Hypothesis H : sim.

Definition sim_from ins : Prop := forall s1 s2 r k, R s1 s2 ->
  strip_t (fst (run_from m1 s1 r k ins)) = strip_t (fst (run_from m2 s2 r k ins))
  /\ snd (run_from m1 s1 r k ins) = snd (run_from m2 s2 r k ins).

Lemma handled_then_sim ins r (i : inp A) a1 a2 k : sim_from ins -> ans_sim R a1 a2 ->
  strip_t (map (fun x => (k, x)) (snd (handled_step a1 r i))
           ++ fst (run_from m1 (fst (fst (handled_step a1 r i))) (snd (fst (handled_step a1 r i))) (S k) ins))
  = strip_t (map (fun x => (k, x)) (snd (handled_step a2 r i))
             ++ fst (run_from m2 (fst (fst (handled_step a2 r i))) (snd (fst (handled_step a2 r i))) (S k) ins))
  /\ snd (run_from m1 (fst (fst (handled_step a1 r i))) (snd (fst (handled_step a1 r i))) (S k) ins)
     = snd (run_from m2 (fst (fst (handled_step a2 r i))) (snd (fst (handled_step a2 r i))) (S k) ins).
Proof.
  intros IH (Hc & Hf & HR). destruct (handled_strip a1 a2 r i Hc Hf) as [Er Eu]. rewrite !handled_state, Er.
  destruct (IH _ _ (snd (fst (handled_step a2 r i))) (S k) HR) as [I1 I2]. split; [|exact I2].
  now rewrite !strip_t_app, !strip_t_tag, Eu, I1.
Qed.

Lemma run_from_sim ins : sim_from ins.
Proof.
  induction ins as [|[now i] rest IH]; intros s1 s2 r k HR; [auto|]. rewrite !run_from_cons. cbn [fst snd].
  destruct (handled_or_dropped r i) as [[H0 Hd]|Hd].
  - rewrite !rstep_handled_eq by assumption. exact (handled_then_sim rest r i _ _ k IH (sim_step H s1 s2 now i HR)).
  - rewrite !rstep_dropped by assumption. exact (IH s1 s2 r (S k) HR).
Qed.

Theorem run_sim ins :
  strip_t (fst (run m1 ins)) = strip_t (fst (run m2 ins)) /\ snd (run m1 ins) = snd (run m2 ins).
Proof.
  rewrite !run_start, !start_step_handled.
  exact (handled_then_sim ins (RState [] [] false) (ITick 0) _ _ 0 (run_from_sim ins)
           (conj (sim_start_c H) (conj (sim_start_f H) (sim_start_R H)))).
Qed.
End Sim.

(* if every handler reports (as side effects) exactly the notifications it
   sends downstream, the effects of the whole trace are the codes of the
   emitted notifications, instant by instant *)
Section Mirror.
Context {A B : Type} (m : machine A B) (code : ev B -> Z).

Definition teffs (tr : list (nat * obs B)) : list (nat * Z) :=
  flat_map (fun x => match snd x with OEffect n => [(fst x, n)] | _ => [] end) tr.
Definition tcode (x : nat * ev B) : nat * Z := (fst x, code (snd x)).

Record mirrors : Prop := {
  mir_start : ceffs (snd (fst (x_start m)))
              = map code (map Next (cemits (snd (fst (x_start m)))) ++ fin_ev (snd (x_start m)));
  mir_step : forall s now i, i <> IDispose ->
      ceffs (snd (fst (x_step m s now i)))
      = map code (map Next (cemits (snd (fst (x_step m s now i)))) ++ fin_ev (snd (x_step m s now i)));
  mir_disp : forall s now, ceffs (snd (fst (x_step m s now IDispose))) = [] }.

Hypothesis H : mirrors.

Lemma teffs_app a b : teffs (a ++ b) = teffs a ++ teffs b.
Proof. apply flat_map_app. Qed.

Lemma teffs_tag k (o : list (obs B)) : teffs (map (fun x => (k, x)) o) = map (fun n => (k, n)) (oeffs o).
Proof.
  unfold teffs, oeffs. induction o as [|x t IH]; [reflexivity|].
  destruct x; cbn [map flat_map fst snd app]; rewrite ?IH; reflexivity.
Qed.

Theorem effects_mirror_emissions ins :
  teffs (fst (run m ins)) = map tcode (temitted (fst (run m ins))).
Proof.
  apply (run_G m (fun _ => True)
               (fun i a => ceffs (snd (fst a))
                           = if is_dispose i then [] else map code (map Next (cemits (snd (fst a))) ++ fin_ev (snd a)))
               (fun _ tr => teffs tr = map tcode (temitted tr))); auto.
  - intros s now i _. split; [|auto]. destruct i; [apply (mir_step H)|apply (mir_step H)|apply (mir_disp H)]; discriminate.
  - intros i s' cs f k u tr _ Hm Ef Em Htr. cbn [fst snd] in Hm.
    assert (E : teffs tr = map tcode (temitted tr)) by (destruct (stops i f); [now subst tr|exact Htr]).
    rewrite teffs_app, temitted_app, map_app, E, teffs_tag, temitted_tag, Ef, Em, Hm.
    destruct (is_dispose i); [reflexivity|]. now rewrite !map_map.
  - exact (mir_start H).
Qed.
End Mirror.

(* a source that already notifies inside subscribe() preserves the disciplines *)
Section PreFacts.
Context {A B : Type}.

Definition calm_on_next (m : machine A B) : Prop :=
  forall s now k x, snd (x_step m s now (ISrc k (Next x))) = Cont.

Lemma feed_dead_cons (m : machine A B) s e t :
  feed_dead m s (e :: t)
  = let a := x_step m s 0 (ISrc 0 e) in
    if is_terminal e then (fst (fst a), only_effects (snd (fst a)))
    else (fst (feed_dead m (fst (fst a)) t), only_effects (snd (fst a)) ++ snd (feed_dead m (fst (fst a)) t)).
Proof.
  cbn [feed_dead]. destruct (x_step m s 0 (ISrc 0 e)) as [[s' cs] f]. cbn [fst snd].
  destruct (is_terminal e); [reflexivity|]. now destruct (feed_dead m s' t).
Qed.

Lemma feed_pre_cons (m : machine A B) s e t :
  feed_pre m s (e :: t)
  = let a := x_step m s 0 (ISrc 0 e) in
    if is_terminal e
    then (fst (fst a), snd (fst a) ++ (if live (snd a) then [CUnsub 0] else []), snd a)
    else if live (snd a)
         then (fst (fst (feed_pre m (fst (fst a)) t)), snd (fst a) ++ snd (fst (feed_pre m (fst (fst a)) t)),
               snd (feed_pre m (fst (fst a)) t))
         else (fst (feed_dead m (fst (fst a)) t), snd (fst a) ++ snd (feed_dead m (fst (fst a)) t), snd a).
Proof.
  cbn [feed_pre]. destruct (x_step m s 0 (ISrc 0 e)) as [[s' cs] f]. cbn [fst snd].
  destruct (is_terminal e), f; cbn [live]; rewrite ?app_nil_r; try reflexivity.
  - now destruct (feed_pre m s' t) as [[s'' cs'] f'].
  - now destruct (feed_dead m s' t).
  - now destruct (feed_dead m s' t).
Qed.

Lemma with_pre_start (m : machine A B) pre :
  x_start (with_pre m pre)
  = if live (snd (x_start m)) && subscribes0 (snd (fst (x_start m)))
    then (fst (fst (feed_pre m (fst (fst (x_start m))) pre)),
          snd (fst (x_start m)) ++ snd (fst (feed_pre m (fst (fst (x_start m))) pre)),
          snd (feed_pre m (fst (fst (x_start m))) pre))
    else x_start m.
Proof.
  cbn [with_pre x_start]. destruct (x_start m) as [[s0 cs0] f0]. cbn [fst snd].
  destruct (live f0 && subscribes0 cs0); [|reflexivity]. now destruct (feed_pre m s0 pre) as [[s1 cs1] f1].
Qed.

Definition ans_once {S} n (P : S -> Prop) (a : S * list (cmd B) * fin) : Prop :=
  cnt_cmd n (snd (fst a)) = (if live (snd a) then 0 else 1) /\ (live (snd a) = true -> P (fst (fst a))).

Lemma ans_once_app {S} n (P : S -> Prop) s c c' f : cnt_cmd n c = 0 -> ans_once n P (s, c', f) -> ans_once n P (s, c ++ c', f).
Proof. intros Hc [H1 H2]. split; [|exact H2]. cbn [fst snd] in *. now rewrite cnt_cmd_app, Hc. Qed.

(* an operator that never terminates on an element never reaches [feed_dead] *)
Lemma feed_pre_once_at (m : machine A B) n P d : once_at m n P d -> calm_on_next m -> forall pre s, P s ->
  ans_once n P (feed_pre m s pre).
Proof.
  intros H Hcalm. induction pre as [|e t IH]; intros s HP; [split; auto|]. rewrite feed_pre_cons. cbv zeta.
  pose proof (oa_step_cnt _ _ _ _ H s 0%Z (ISrc 0 e) HP) as Hc.
  pose proof (oa_step_inv _ _ _ _ H s 0%Z (ISrc 0 e) HP) as Hi. cbn [is_dispose stops] in Hc, Hi.
  destruct e as [x| |]; cbn [is_terminal].
  - rewrite (Hcalm s 0%Z 0 x) in *. cbn [live negb] in *. specialize (IH _ (Hi eq_refl)).
    destruct (feed_pre m _ t) as [[s'' cs'] f']. now apply ans_once_app.
  - split; cbn [fst snd]; [rewrite cnt_cmd_app, Hc|]; destruct (live _); auto.
  - split; cbn [fst snd]; [rewrite cnt_cmd_app, Hc|]; destruct (live _); auto.
Qed.

Theorem once_at_with_pre (m : machine A B) n P d pre : once_at m n P d -> calm_on_next m ->
  once_at (with_pre m pre) n P d.
Proof.
  intros H Hcalm. pose proof (oa_start_cnt _ _ _ _ H) as Hc. pose proof (oa_start_inv _ _ _ _ H) as Hi.
  assert (K : ans_once n P (x_start (with_pre m pre))).
  { rewrite with_pre_start. destruct (live (snd (x_start m)) && subscribes0 (snd (fst (x_start m)))) eqn:E; [|split; auto].
    apply andb_true_iff in E. destruct E as [Hl _]. rewrite Hl in Hc.
    pose proof (feed_pre_once_at m n P d H Hcalm pre _ (Hi Hl)) as G.
    destruct (feed_pre m _ pre) as [[s1 cs1] f1]. now apply ans_once_app. }
  destruct K. constructor; auto; apply H.
Qed.

Theorem once_with_pre (m : machine A B) n P pre : once_at_stop m n P -> calm_on_next m ->
  once_at_stop (with_pre m pre) n P.
Proof. intros H Hcalm. apply once_at_stop_iff, once_at_with_pre, Hcalm. apply once_at_stop_iff, H. Qed.

Lemma subscribes0_strip (cs : list (cmd B)) : subscribes0 (strip_c cs) = subscribes0 cs.
Proof.
  unfold subscribes0, strip_c. induction cs as [|c t IH]; [reflexivity|].
  destruct c; cbn [filter keep_c existsb]; rewrite ?IH; reflexivity.
Qed.

Lemma strip_only_effects (cs : list (cmd B)) : strip_c (only_effects cs) = [].
Proof.
  unfold strip_c, only_effects. induction cs as [|c t IH]; [reflexivity|].
  destruct c; cbn [filter keep_c]; exact IH.
Qed.

Lemma feed_dead_strip (m : machine A B) pre : forall s, strip_c (snd (feed_dead m s pre)) = [].
Proof.
  induction pre as [|e t IH]; intros s; [reflexivity|]. rewrite feed_dead_cons. cbv zeta.
  destruct (is_terminal e); cbn [snd]; rewrite ?strip_c_app, strip_only_effects; [reflexivity|apply IH].
Qed.

Lemma feed_dead_sim (m1 m2 : machine A B) R : sim m1 m2 R -> forall pre s1 s2, R s1 s2 ->
  R (fst (feed_dead m1 s1 pre)) (fst (feed_dead m2 s2 pre)).
Proof.
  intros H. induction pre as [|e t IH]; intros s1 s2 HR; [exact HR|]. rewrite !feed_dead_cons. cbv zeta.
  destruct (sim_step _ _ _ H s1 s2 0%Z (ISrc 0 e) HR) as (_ & _ & HR').
  destruct (is_terminal e); cbn [fst]; [exact HR'|apply IH, HR'].
Qed.

Lemma feed_pre_sim (m1 m2 : machine A B) R : sim m1 m2 R -> forall pre s1 s2, R s1 s2 ->
  ans_sim R (feed_pre m1 s1 pre) (feed_pre m2 s2 pre).
Proof.
  intros H. induction pre as [|e t IH]; intros s1 s2 HR; [repeat split; exact HR|]. rewrite !feed_pre_cons. cbv zeta.
  destruct (sim_step _ _ _ H s1 s2 0%Z (ISrc 0 e) HR) as (Hc & Hf & HR').
  destruct (x_step m1 s1 0%Z (ISrc 0 e)) as [[s1' cs1] f]. destruct (x_step m2 s2 0%Z (ISrc 0 e)) as [[s2' cs2] f2].
  cbn [fst snd] in *. subst f2.
  destruct (is_terminal e); [|destruct (live f)].
  - now apply ans_sim_app.
  - destruct (IH _ _ HR') as (I1 & I2 & I3). rewrite <- I2. now apply ans_sim_app.
  - apply ans_sim_app; [exact Hc|now rewrite !feed_dead_strip|apply (feed_dead_sim m1 m2 R H), HR'].
Qed.

Theorem sim_with_pre (m1 m2 : machine A B) R pre : sim m1 m2 R -> sim (with_pre m1 pre) (with_pre m2 pre) R.
Proof.
  intros H. pose proof (sim_start_c _ _ _ H) as Hc. pose proof (sim_start_f _ _ _ H) as Hf.
  pose proof (sim_start_R _ _ _ H) as HR.
  assert (K : ans_sim R (x_start (with_pre m1 pre)) (x_start (with_pre m2 pre))).
  { rewrite !with_pre_start, <- Hf, <- (subscribes0_strip (snd (fst (x_start m2)))), <- Hc, subscribes0_strip.
    destruct (_ && _); [|exact (conj Hc (conj Hf HR))].
    destruct (feed_pre_sim m1 m2 R H pre _ _ HR) as (I1 & I2 & I3). rewrite <- I2. now apply ans_sim_app. }
  destruct K as (K1 & K2 & K3). constructor; auto. apply H.
Qed.
End PreFacts.

Lemma temitted_strip {B} (tr : list (nat * obs B)) : temitted (strip_t tr) = temitted tr.
Proof.
  unfold temitted, strip_t. induction tr as [|[k o] t IH]; [reflexivity|].
  destruct o; cbn [filter snd keep_o flat_map fst]; rewrite ?IH; reflexivity.
Qed.

Lemma sim_temitted {A B} (m1 m2 : machine A B) R : sim m1 m2 R -> forall ins,
  temitted (fst (run m1 ins)) = temitted (fst (run m2 ins)).
Proof.
  intros H ins. destruct (run_sim m1 m2 R H ins) as [E _].
  rewrite <- (temitted_strip (fst (run m1 ins))), E. apply temitted_strip.
Qed.

(* using: the resource is released exactly once, at the stopping instant *)
Lemma using_once obf sched :
  once_at_stop (x_using (Ok true) obf sched) E_RELEASED (fun s => fst s = true).
Proof.
  constructor; cbn [x_using x_start x_step].
  - destruct obf as [[]|e]; unfold using_throw; destruct sched; reflexivity.
  - destruct obf as [[]|e]; unfold using_throw; destruct sched; cbn; auto.
  - intros [has pend] now i HP. cbn in HP. subst has. destruct i as [k [x|e|]|tag|]; try reflexivity.
    destruct pend; reflexivity.
  - intros [has pend] now i HP Hs. cbn in HP. subst has. destruct i as [k [x|e|]|tag|]; try reflexivity.
    destruct pend; reflexivity.
Qed.

Lemma finally_action_once : once_at_stop x_finally_action E_FINALLY (fun _ => True).
Proof. constructor; cbn; auto; intros s now i _; destruct i as [k [x|e|]|tag|]; reflexivity. Qed.

Lemma do_on_dispose_once : once_at_stop x_do_on_dispose E_ON_DISPOSE (fun _ => True).
Proof. constructor; cbn; auto; intros s now i _; destruct i as [k [x|e|]|tag|]; reflexivity. Qed.

Lemma do_finally_once : once_at_stop x_do_finally E_FINALLY (fun flag => flag = false).
Proof.
  constructor; cbn [x_do_finally x_start x_step fst snd live]; auto.
  - intros s now i ->. destruct i as [k [x|e|]|tag|]; reflexivity.
  - intros s now i -> Hs. destruct i as [k [x|e|]|tag|]; try reflexivity; discriminate.
Qed.

(* transparency: with non-raising callbacks every variant is the identity on
   the notification sequence and on the subscribe/unsubscribe/timer instants *)
Definition calm1 (f : option (Z -> res unit)) : Prop := forall g x, f = Some g -> g x = Ok tt.
Definition calm0 (f : option (res unit)) : Prop := forall g, f = Some g -> g = Ok tt.

(* stateless operator against the identity: same start, then one goal per kind of input *)
Ltac sim_id :=
  constructor; [reflexivity|reflexivity|exact I|];
  intros s1 s2 now i _; destruct i as [k [x|e|]|tag|]; (split; [|split; [|exact I]]); try reflexivity.

Lemma using_sim has sched : sim (x_using (Ok has) (Ok tt) sched) x_id (fun s1 _ => snd s1 = None).
Proof.
  constructor; [destruct has; reflexivity|reflexivity|reflexivity|].
  intros [h pend] s2 now i HR. cbn in HR. subst pend.
  destruct i as [k [x|e|]|tag|]; destruct h; repeat split.
Qed.

Lemma finally_action_sim : sim x_finally_action x_id (fun _ _ => True).
Proof. sim_id. Qed.
Lemma do_finally_sim : sim x_do_finally x_id (fun _ _ => True).
Proof. sim_id; destruct s1; reflexivity. Qed.
Lemma do_on_dispose_sim : sim x_do_on_dispose x_id (fun _ _ => True).
Proof. sim_id. Qed.
Lemma do_on_subscribe_sim : sim (x_do_on_subscribe (Ok tt)) x_id (fun _ _ => True).
Proof. sim_id. Qed.
Lemma do_on_terminate_sim : sim (x_do_on_terminate (Ok tt)) x_id (fun _ _ => True).
Proof. sim_id. Qed.
(* after_terminate may even raise: its exception is dropped *)
Lemma do_after_terminate_sim f : sim (x_do_after_terminate f) x_id (fun _ _ => True).
Proof. sim_id. Qed.
Lemma do_after_next_sim f : (forall x, f x = Ok tt) -> sim (x_do_after_next f) x_id (fun _ _ => True).
Proof. intros Hf. sim_id. cbn [x_step x_do_after_next snd]. now rewrite Hf. Qed.

Lemma do_action_sim fn fe fd : calm1 fn -> calm1 fe -> calm0 fd ->
  sim (x_do_action fn fe fd) x_id (fun _ _ => True).
Proof.
  intros Hn He Hd. constructor; [reflexivity|reflexivity|exact I|].
  intros s1 s2 now i _. destruct i as [k [x|e|]|tag|]; cbn [x_step x_do_action]; [| | |repeat split..].
  - destruct fn as [g|]; [rewrite (Hn g x eq_refl)|]; repeat split.
  - destruct fe as [g|]; [rewrite (He g e eq_refl)|]; repeat split.
  - destruct fd as [g|]; [rewrite (Hd g eq_refl)|]; repeat split.
Qed.

(* do_action with all three callbacks, none raising: the callbacks observe
   exactly the notifications delivered downstream, in order, at their instants *)
Definition do_code (e : ev Z) : Z :=
  match e with Next x => e_do_next x | Err x => e_do_err x | Done => E_DO_DONE end.

Lemma do_action_mirrors fn fe : (forall x, fn x = Ok tt) -> (forall x, fe x = Ok tt) ->
  mirrors (x_do_action (Some fn) (Some fe) (Some (Ok tt))) do_code.
Proof.
  intros Hn He. constructor; [reflexivity| |reflexivity].
  intros s now i Hi. destruct i as [k [x|e|]|tag|]; try reflexivity; try congruence; cbn [x_step x_do_action fst snd].
  - rewrite Hn. reflexivity.
  - rewrite He. reflexivity.
Qed.

(* routing of a raising callback: on_error(exception of the callback) and no
   other emission, at that instant *)
Lemma do_on_terminate_raises s now k e :
  x_step (x_do_on_terminate (Raise e)) s now (ISrc k Done) = (s, [CEffect E_TERMINATE], Fail e)
  /\ forall x, x_step (x_do_on_terminate (Raise e)) s now (ISrc k (Err x)) = (s, [CEffect E_TERMINATE], Fail e).
Proof. split; reflexivity. Qed.
Lemma do_on_subscribe_raises e : x_start (x_do_on_subscribe (Raise e)) = (tt, [CEffect E_SUBSCRIBE], Fail e).
Proof. reflexivity. Qed.

(* what do_action's on_next callback makes of an element: it passes unless the callback raises, as in
   map(lambda x: (callback(x), x)[1]) *)
Definition tapf (fn : Z -> res unit) (x : Z) : res Z := match fn x with Ok _ => Ok x | Raise e => Raise e end.

Lemma using_calm rf obf sched : calm_on_next (x_using rf obf sched).
Proof. intros [has pend] now k x. reflexivity. Qed.
Lemma finally_action_calm : calm_on_next x_finally_action.
Proof. intros s now k x. reflexivity. Qed.
Lemma do_finally_calm : calm_on_next x_do_finally.
Proof. intros s now k x. reflexivity. Qed.
Lemma do_on_dispose_calm : calm_on_next x_do_on_dispose.
Proof. intros s now k x. reflexivity. Qed.
