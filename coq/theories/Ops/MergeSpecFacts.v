(* C11: consequences of the three merging specifications (merge_spec, flat_map_spec,
   mc_spec): every output event is characterised EXACTLY by the specification's state
   just before the input that produced it (fold_spec_in_iff); hence
   - no element of a running source / inner is lost (and only those are emitted),
   - completion comes only after the outer and every inner that ever ran (or waited),
     with an empty waiting queue.
   flat_map's specification step is merge(max_concurrent)'s with an empty queue and room
   for one more inner (mc_step_roomy), so its step lemmas are corollaries. *)
From RxVerif Require Import Base.Prelude Ops.Machine Ops.MachineFacts Ops.Multi Ops.MultiFacts
  Ops.RunLemmas Ops.Combinators Ops.MergeFacts Ops.FlatMapFacts Ops.MergeConcFacts.

Local Arguments Nat.ltb : simpl never.
Local Arguments Nat.leb : simpl never.

Lemma firstn_split {X} q0 : forall q (l : list X), (q0 <= q)%nat ->
  firstn q l = firstn q0 l ++ firstn (q - q0) (skipn q0 l).
Proof.
  induction q0 as [|q0 IH]; intros q l H.
  - cbn. now rewrite Nat.sub_0_r.
  - destruct q as [|q]; [lia|]. destruct l as [|x t].
    + cbn. now rewrite firstn_nil.
    + cbn. f_equal. apply IH. lia.
Qed.

Lemma nth_error_skipn' {X} q0 : forall (l : list X) q, nth_error (skipn q0 l) q = nth_error l (q0 + q).
Proof.
  induction q0 as [|q0 IH]; intros l q; [reflexivity|].
  destruct l as [|x t]; cbn; [now destruct q|apply IH].
Qed.

Lemma nth_error_firstn' {X} n : forall (l : list X) k x,
  nth_error (firstn n l) k = Some x -> (k < n)%nat /\ nth_error l k = Some x.
Proof.
  induction n as [|n IH]; intros l k x H; [destruct k; discriminate|].
  destruct l as [|y t]; [destruct k; discriminate|]. destruct k as [|k]; cbn in *.
  - split; [lia|exact H].
  - apply IH in H. destruct H. split; [lia|assumption].
Qed.

Lemma remove_nil_only k : forall l x, remove k l = [] -> In x l -> x = k.
Proof.
  intros l x. destruct l as [|y t]; [intros _ []|]. cbn [remove].
  destruct (Nat.eqb_spec k y) as [->|Hne]; [|discriminate].
  intros ->. intros [H|[]]. now subst.
Qed.

Section Fold.
Context {A St : Type} (step : St -> inp A -> option St * option (ev A)).

(* what is emitted (with the input position) *)
Fixpoint fold_spec (st : St) (pos : nat) (ins : list (Z * inp A)) : list (nat * ev A) :=
  match ins with
  | [] => []
  | (_, i) :: t =>
      (match snd (step st i) with Some e => [(pos, e)] | None => [] end) ++
      (match fst (step st i) with Some st' => fold_spec st' (S pos) t | None => [] end)
  end.

(* the state after the inputs; None once the output has ended *)
Fixpoint fold_after (st : St) (ins : list (Z * inp A)) : option St :=
  match ins with
  | [] => Some st
  | (_, i) :: t => match fst (step st i) with Some st' => fold_after st' t | None => None end
  end.

Lemma fold_spec_app a : forall b st pos,
  fold_spec st pos (a ++ b) = fold_spec st pos a ++
    match fold_after st a with Some st' => fold_spec st' (pos + length a) b | None => [] end.
Proof.
  induction a as [|[now i] t IH]; intros b st pos.
  - cbn [app fold_spec fold_after length]. now rewrite Nat.add_0_r.
  - cbn [app fold_spec fold_after length]. rewrite <- app_assoc. f_equal.
    destruct (fst (step st i)) as [st1|]; [|reflexivity].
    rewrite IH, Nat.add_succ_r. reflexivity.
Qed.

Lemma fold_after_app a : forall b st,
  fold_after st (a ++ b) = match fold_after st a with Some st' => fold_after st' b | None => None end.
Proof.
  induction a as [|[now i] t IH]; intros b st; [reflexivity|].
  cbn [app fold_after]. destruct (fst (step st i)); [apply IH|reflexivity].
Qed.

Lemma fold_spec_pos ins : forall st pos p e,
  In (p, e) (fold_spec st pos ins) -> (pos <= p < pos + length ins)%nat.
Proof.
  induction ins as [|[now i] t IH]; intros st pos p e H; [destruct H|].
  cbn [fold_spec length] in *. apply in_app_or in H. destruct H as [H|H].
  - destruct (snd (step st i)); [|destruct H]. destruct H as [H|[]]. injection H as <- _. lia.
  - destruct (fst (step st i)) as [st1|]; [|destruct H]. apply IH in H. lia.
Qed.

(* EXACT characterisation of every output event: e is emitted at input position q iff
   the specification is still alive before input q and its step on that input emits e *)
Theorem fold_spec_in_iff ins : forall st pos q e,
  In ((pos + q)%nat, e) (fold_spec st pos ins) <->
  exists now i st', nth_error ins q = Some (now, i) /\ fold_after st (firstn q ins) = Some st'
                    /\ snd (step st' i) = Some e.
Proof.
  induction ins as [|[now i] t IH]; intros st pos q e.
  - split; [intros []|]. intros (n & i & st' & H & _). destruct q; discriminate.
  - cbn [fold_spec]. destruct q as [|q].
    + rewrite Nat.add_0_r. cbn [nth_error firstn fold_after]. split.
      * intros H. apply in_app_or in H. destruct H as [H|H].
        -- destruct (snd (step st i)) as [e0|] eqn:E; [|destruct H]. destruct H as [H|[]].
           injection H as <-. exists now, i, st. auto.
        -- destruct (fst (step st i)) as [st1|]; [|destruct H]. apply fold_spec_pos in H. lia.
      * intros (n & i0 & st' & H1 & H2 & H3). injection H1 as <- <-. injection H2 as <-.
        apply in_or_app. left. rewrite H3. left. reflexivity.
    + cbn [nth_error firstn fold_after]. rewrite Nat.add_succ_r. split.
      * intros H. apply in_app_or in H. destruct H as [H|H].
        -- destruct (snd (step st i)); [|destruct H]. destruct H as [H|[]]. injection H as H _. lia.
        -- destruct (fst (step st i)) as [st1|]; [|destruct H].
           change (S (pos + q)) with (S pos + q)%nat in H. apply IH in H. exact H.
      * intros (n & i0 & st' & H1 & H2 & H3). apply in_or_app. right.
        destruct (fst (step st i)) as [st1|]; [|discriminate].
        change (S (pos + q)) with (S pos + q)%nat. apply IH. eauto 6.
Qed.

(* a property of the state survives until an input of kind D arrives *)
Lemma fold_after_track (P : St -> Prop) (D : inp A -> Prop)
  (Hstep : forall st i st1, fst (step st i) = Some st1 -> P st -> P st1 \/ D i) :
  forall a st st', fold_after st a = Some st' -> P st ->
    P st' \/ exists q now i, nth_error a q = Some (now, i) /\ D i.
Proof.
  induction a as [|[now i] t IH]; intros st st' H HP.
  - injection H as <-. left. exact HP.
  - cbn [fold_after] in H. destruct (fst (step st i)) as [st1|] eqn:E; [|discriminate].
    destruct (Hstep _ _ _ E HP) as [HP1|HD].
    + destruct (IH _ _ H HP1) as [Hl|(q & n & i0 & Hq & Hd)]; [left; exact Hl|].
      right. exists (S q), n, i0. auto.
    + right. exists 0%nat, now, i. auto.
Qed.

Lemma fold_after_inv (P : St -> Prop)
  (Hstep : forall st i st1, fst (step st i) = Some st1 -> P st -> P st1) :
  forall a st st', fold_after st a = Some st' -> P st -> P st'.
Proof.
  intros a st st' H HP.
  destruct (fold_after_track P (fun _ => False) (fun s i s1 E p => or_introl (Hstep s i s1 E p)) a st st' H HP)
    as [H1|(q & n & i & _ & [])]. exact H1.
Qed.

Lemma fold_after_track_between (P : St -> Prop) (D : inp A -> Prop)
  (Hstep : forall st i st1, fst (step st i) = Some st1 -> P st -> P st1 \/ D i) :
  forall ins st q0 q st0 st1, (q0 <= q)%nat ->
    fold_after st (firstn q0 ins) = Some st0 -> fold_after st (firstn q ins) = Some st1 -> P st0 ->
    P st1 \/ exists q1 now i, (q0 <= q1 < q)%nat /\ nth_error ins q1 = Some (now, i) /\ D i.
Proof.
  intros ins st q0 q st0 st1 Hle H0 H1 HP.
  rewrite (firstn_split q0 q ins Hle), fold_after_app, H0 in H1.
  destruct (fold_after_track P D Hstep _ _ _ H1 HP) as [Hl|(q1 & n & i & Hq & Hd)]; [left; exact Hl|].
  right. apply nth_error_firstn' in Hq. destruct Hq as [Hlt Hq]. rewrite nth_error_skipn' in Hq.
  exists (q0 + q1)%nat, n, i. split; [lia|]. auto.
Qed.

Lemma fold_after_inv_between (P : St -> Prop)
  (Hstep : forall st i st1, fst (step st i) = Some st1 -> P st -> P st1) :
  forall ins st q0 q st0 st1, (q0 <= q)%nat ->
    fold_after st (firstn q0 ins) = Some st0 -> fold_after st (firstn q ins) = Some st1 -> P st0 -> P st1.
Proof.
  intros ins st q0 q st0 st1 Hle H0 H1 HP.
  rewrite (firstn_split q0 q ins Hle), fold_after_app, H0 in H1.
  eapply fold_after_inv; eassumption.
Qed.

Lemma fold_after_none
  (Hstep : forall st i, fst (step st i) = None ->
     (exists e, snd (step st i) = Some e /\ is_terminal e = true) \/ i = IDispose) :
  forall a st pos, fold_after st a = None ->
    (exists p e, In (p, e) (fold_spec st pos a) /\ is_terminal e = true) \/ In IDispose (map snd a).
Proof.
  induction a as [|[now i] t IH]; intros st pos H; [discriminate|].
  cbn [fold_after fold_spec map snd] in *. destruct (fst (step st i)) as [st1|] eqn:E.
  - destruct (IH st1 (S pos) H) as [(p & e & Hin & He)|Hd].
    + left. exists p, e. split; [apply in_or_app; right; exact Hin|exact He].
    + right. right. exact Hd.
  - destruct (Hstep _ _ E) as [(e & He & Ht)|Hd].
    + left. exists pos, e. rewrite He. split; [left; reflexivity|exact Ht].
    + right. left. exact Hd.
Qed.

Lemma fold_spec_in ins st pos p e : In (p, e) (fold_spec st pos ins) ->
  (pos <= p)%nat /\
  exists now i st', nth_error ins (p - pos) = Some (now, i) /\ fold_after st (firstn (p - pos) ins) = Some st'
                    /\ snd (step st' i) = Some e.
Proof.
  intros H. pose proof (fold_spec_pos _ _ _ _ _ H) as [Hle _]. split; [exact Hle|].
  apply (fold_spec_in_iff ins st pos). now replace (pos + (p - pos))%nat with p by lia.
Qed.

(* a property P of the state that only an input of kind D ends, and that cannot hold any more
   when e is emitted by an input not of kind D: between any moment at which P holds and the
   emission of e, an input of kind D arrives *)
Lemma fold_spec_released (P : St -> Prop) (D : inp A -> Prop) (e : ev A)
  (Hstep : forall st i st1, fst (step st i) = Some st1 -> P st -> P st1 \/ D i)
  (Hend : forall st i, snd (step st i) = Some e -> P st -> D i) :
  forall ins st pos p q0 st0, In (p, e) (fold_spec st pos ins) -> (q0 <= p - pos)%nat ->
    fold_after st (firstn q0 ins) = Some st0 -> P st0 ->
    exists q now i, (q0 <= q <= p - pos)%nat /\ nth_error ins q = Some (now, i) /\ D i.
Proof.
  intros ins st pos p q0 st0 Hin Hq0 H0 HP.
  destruct (fold_spec_in _ _ _ _ _ Hin) as (_ & now & i & stp & Hn & Hp & Hs).
  destruct (fold_after_track_between P D Hstep ins st q0 (p - pos) st0 stp Hq0 H0 Hp HP)
    as [Hl|(q1 & n1 & i1 & Hr & Hq1 & Hd)].
  - exists (p - pos)%nat, now, i. split; [lia|]. split; [exact Hn|]. exact (Hend _ _ Hs Hl).
  - exists q1, n1, i1. split; [lia|]. auto.
Qed.

(* "the output has not ended" can be read off the output and the inputs *)
Lemma fold_after_some
  (Hnone : forall st i, fst (step st i) = None ->
     (exists e, snd (step st i) = Some e /\ is_terminal e = true) \/ i = IDispose) a st pos :
  (forall p e, In (p, e) (fold_spec st pos a) -> is_terminal e = false) ->
  ~ In IDispose (map snd a) ->
  exists st', fold_after st a = Some st'.
Proof.
  intros Hn Hd. destruct (fold_after st a) as [st'|] eqn:E; [eauto|].
  exfalso. destruct (fold_after_none Hnone a st pos E) as [(p & e & Hin & Ht)|H]; [|contradiction].
  rewrite (Hn _ _ Hin) in Ht. discriminate.
Qed.
End Fold.

Local Arguments mem : simpl never.
Local Arguments remove : simpl never.

Section MergeSpec.
Context {A : Type}.

(* one step of merge_spec: new list of running sources (None: output ended), event emitted *)
Definition merge_step (running : list nat) (i : inp A) : option (list nat) * option (ev A) :=
  match i with
  | ISrc k e =>
      if mem k running then
        match e with
        | Next x => (Some running, Some (Next x))
        | Err x => (None, Some (Err x))
        | Done => match remove k running with
                  | [] => (None, Some Done)
                  | rest => (Some rest, None)
                  end
        end
      else (Some running, None)
  | ITick _ => (Some running, None)
  | IDispose => (None, None)
  end.

Definition merge_after : list nat -> list (Z * inp A) -> option (list nat) := fold_after merge_step.

Lemma merge_spec_fold (ins : list (Z * inp A)) : forall running pos,
  merge_spec running pos ins = fold_spec merge_step running pos ins.
Proof.
  induction ins as [|[now i] t IH]; intros running pos; [reflexivity|].
  cbn [merge_spec fold_spec]. destruct i as [k e|tag|]; cbn [merge_step].
  - destruct (mem k running).
    + destruct e as [x|x|]; cbn [fst snd app]; rewrite ?IH; try reflexivity.
      destruct (remove k running); cbn [fst snd app]; rewrite ?IH; reflexivity.
    + cbn [fst snd app]. apply IH.
  - cbn [fst snd app]. apply IH.
  - reflexivity.
Qed.

(* merge_after really is the state of merge_spec: the specification splits at any point *)
Lemma merge_spec_app (a b : list (Z * inp A)) running pos :
  merge_spec running pos (a ++ b) = merge_spec running pos a ++
    match merge_after running a with Some r' => merge_spec r' (pos + length a) b | None => [] end.
Proof.
  rewrite !merge_spec_fold, fold_spec_app. unfold merge_after.
  destruct (fold_after merge_step running a); [now rewrite merge_spec_fold|reflexivity].
Qed.

Lemma merge_step_passes running (i : inp A) e : e <> Done ->
  snd (merge_step running i) = Some e <-> exists k, i = ISrc k e /\ In k running.
Proof.
  intros He. split.
  - destruct i as [k e0|tag|]; cbn [merge_step]; try discriminate.
    destruct (mem k running) eqn:Hm; [|discriminate]. apply mem_In in Hm.
    destruct e0 as [y|y|]; cbn [snd].
    + intros H. injection H as <-. eauto.
    + intros H. injection H as <-. eauto.
    + destruct (remove k running); [intros H; injection H as <-; congruence|discriminate].
  - intros (k & -> & Hk). cbn [merge_step]. rewrite (proj2 (mem_In _ _) Hk). destruct e; [reflexivity..|congruence].
Qed.

Lemma merge_spec_passes_iff running pos (ins : list (Z * inp A)) q e : e <> Done ->
  In ((pos + q)%nat, e) (merge_spec running pos ins) <->
  exists now k r', nth_error ins q = Some (now, ISrc k e)
                   /\ merge_after running (firstn q ins) = Some r' /\ In k r'.
Proof.
  intros He. rewrite merge_spec_fold, fold_spec_in_iff. unfold merge_after. split.
  - intros (now & i & r' & Hn & Ha & Hs). apply (merge_step_passes _ _ _ He) in Hs.
    destruct Hs as (k & -> & Hk). eauto 6.
  - intros (now & k & r' & Hn & Ha & Hk). exists now, (ISrc k e), r'.
    split; [exact Hn|]. split; [exact Ha|]. apply (merge_step_passes _ _ _ He). eauto.
Qed.

Lemma merge_step_none st (i : inp A) : fst (merge_step st i) = None ->
  (exists e, snd (merge_step st i) = Some e /\ is_terminal e = true) \/ i = IDispose.
Proof.
  destruct i as [k e|tag|]; cbn [merge_step]; [|discriminate|auto].
  destruct (mem k st); [|discriminate]. destruct e as [x|x|]; [discriminate| |].
  - intros _. left. eexists. split; reflexivity.
  - destruct (remove k st); [|discriminate]. intros _. left. eexists. split; reflexivity.
Qed.

Lemma merge_after_some running pos (a : list (Z * inp A)) :
  (forall p e, In (p, e) (merge_spec running pos a) -> is_terminal e = false) ->
  ~ In IDispose (map snd a) ->
  exists r', merge_after running a = Some r'.
Proof.
  intros Hn. apply (fold_after_some merge_step merge_step_none a running pos).
  intros p e H. apply (Hn p e). now rewrite merge_spec_fold.
Qed.

Lemma merge_step_running k running (i : inp A) r1 :
  fst (merge_step running i) = Some r1 -> In k running -> In k r1 \/ i = ISrc k Done.
Proof.
  intros H Hk. revert H. destruct i as [j e|tag|]; cbn [merge_step]; try discriminate.
  - destruct (mem j running); [|intros H; injection H as <-; auto].
    destruct e as [y|y|]; try discriminate.
    + intros H; injection H as <-; auto.
    + destruct (Nat.eq_dec j k) as [->|Hne]; [auto|].
      pose proof (in_remove_other _ _ _ Hne Hk) as Hk2.
      destruct (remove j running); [destruct Hk2|]. intros H; injection H as <-; auto.
  - intros H; injection H as <-; auto.
Qed.

Lemma merge_step_done k running (i : inp A) :
  snd (merge_step running i) = Some Done -> In k running -> i = ISrc k Done.
Proof.
  destruct i as [j e|tag|]; cbn [merge_step]; try discriminate.
  destruct (mem j running); [|discriminate]. destruct e as [y|y|]; try discriminate.
  destruct (remove j running) eqn:Hr; [|discriminate]. intros _ Hk. now rewrite (remove_nil_only _ _ _ Hr Hk).
Qed.

(* completion is emitted only when every source that was running has completed *)
Lemma merge_spec_complete (ins : list (Z * inp A)) running pos p :
  In (p, Done) (merge_spec running pos ins) ->
  forall k, In k running ->
  exists q now, (q <= p - pos)%nat /\ nth_error ins q = Some (now, ISrc k Done).
Proof.
  rewrite merge_spec_fold. intros Hin k Hk.
  destruct (fold_spec_released merge_step (In k) (fun i => i = ISrc k Done) Done
              (merge_step_running k) (merge_step_done k) ins running pos p 0 running Hin (Nat.le_0_l _) eq_refl Hk)
    as (q & now & i & Hq & Hn & ->).
  exists q, now. split; [lia|exact Hn].
Qed.
End MergeSpec.

Section MergeConcSpec.
Context {A : Type}.

(* state of mc_spec: (outer live, inners created, running inners, waiting queue) *)
Definition mc_state := (bool * nat * list nat * list nat)%type.

Definition mc_step (mapper : A -> nat -> res unit) (mc : nat) (st : mc_state) (i : inp A)
  : option mc_state * option (ev A) :=
  let '(ol, cnt, running, queue) := st in
  match i with
  | ISrc O e =>
      if ol then
        match e with
        | Next x => match mapper x cnt with
                    | Ok _ => if Nat.ltb (length running) mc
                              then (Some (true, S cnt, running ++ [S cnt], queue), None)
                              else (Some (true, S cnt, running, queue ++ [S cnt]), None)
                    | Raise err => (None, Some (Err err))
                    end
        | Err err => (None, Some (Err err))
        | Done => match running with
                  | [] => (None, Some Done)
                  | _ => (Some (false, cnt, running, queue), None)
                  end
        end
      else (Some st, None)
  | ISrc (S j) e =>
      if mem (S j) running then
        match e with
        | Next x => (Some st, Some (Next x))
        | Err err => (None, Some (Err err))
        | Done => match queue with
                  | q :: rest => (Some (ol, cnt, remove (S j) running ++ [q], rest), None)
                  | [] => match remove (S j) running, ol with
                          | [], false => (None, Some Done)
                          | rest', _ => (Some (ol, cnt, rest', []), None)
                          end
                  end
        end
      else (Some st, None)
  | ITick _ => (Some st, None)
  | IDispose => (None, None)
  end.

Definition mc_after (mapper : A -> nat -> res unit) (mc : nat)
  : mc_state -> list (Z * inp A) -> option mc_state := fold_after (mc_step mapper mc).

Lemma mc_spec_fold mapper mc (ins : list (Z * inp A)) : forall ol cnt running queue pos,
  mc_spec mapper mc ol cnt running queue pos ins
  = fold_spec (mc_step mapper mc) (ol, cnt, running, queue) pos ins.
Proof.
  induction ins as [|[now i] t IH]; intros ol cnt running queue pos; [reflexivity|].
  cbn [mc_spec fold_spec]. destruct i as [[|j] e|tag|]; cbn [mc_step].
  - destruct ol; [|cbn [fst snd app]; apply IH].
    destruct e as [x|x|].
    + destruct (mapper x cnt); [|reflexivity].
      destruct (Nat.ltb (length running) mc); cbn [fst snd app]; rewrite ?IH; reflexivity.
    + reflexivity.
    + destruct running; cbn [fst snd app]; rewrite ?IH; reflexivity.
  - destruct (mem (S j) running); [|cbn [fst snd app]; apply IH].
    destruct e as [x|x|]; cbn [fst snd app]; rewrite ?IH; try reflexivity.
    destruct queue as [|q qs]; [|cbn [fst snd app]; rewrite ?IH; reflexivity].
    destruct (remove (S j) running); destruct ol; cbn [fst snd app]; rewrite ?IH; reflexivity.
  - cbn [fst snd app]. apply IH.
  - reflexivity.
Qed.

Lemma mc_spec_app mapper mc (a b : list (Z * inp A)) ol cnt running queue pos :
  mc_spec mapper mc ol cnt running queue pos (a ++ b) = mc_spec mapper mc ol cnt running queue pos a ++
    match mc_after mapper mc (ol, cnt, running, queue) a with
    | Some (ol', cnt', r', q') => mc_spec mapper mc ol' cnt' r' q' (pos + length a) b
    | None => []
    end.
Proof.
  rewrite !mc_spec_fold, fold_spec_app. unfold mc_after.
  destruct (fold_after (mc_step mapper mc) (ol, cnt, running, queue) a) as [[[[ol' cnt'] r'] q']|];
    [now rewrite mc_spec_fold|reflexivity].
Qed.

Lemma mc_step_emits mapper mc ol cnt r qu (i : inp A) e :
  snd (mc_step mapper mc (ol, cnt, r, qu) i) = Some e ->
  match e with
  | Next x => exists j, i = ISrc (S j) (Next x) /\ In (S j) r
  | Err err => (ol = true /\ i = ISrc 0%nat (Err err))
               \/ (ol = true /\ exists x, i = ISrc 0%nat (Next x) /\ mapper x cnt = Raise err)
               \/ (exists j, i = ISrc (S j) (Err err) /\ In (S j) r)
  | Done => (i = ISrc 0 Done /\ ol = true /\ r = []) \/
            (exists j, i = ISrc (S j) Done /\ ol = false /\ qu = [] /\ forall k, In k r -> k = S j)
  end.
Proof.
  destruct i as [[|j] e0|tag|]; cbn [mc_step]; try discriminate.
  - destruct ol; [|discriminate]. destruct e0 as [y|y|].
    + destruct (mapper y cnt) as [u|e'] eqn:Hm; [destruct (Nat.ltb (length r) mc); discriminate|].
      intros H. injection H as <-. right. left. eauto.
    + intros H. injection H as <-. auto.
    + destruct r; [|discriminate]. intros H. injection H as <-. auto.
  - destruct (mem (S j) r) eqn:Hm; [|discriminate]. apply mem_In in Hm. destruct e0 as [y|y|].
    + intros H. injection H as <-. eauto.
    + intros H. injection H as <-. right. right. eauto.
    + destruct qu; [|discriminate]. destruct (remove (S j) r) eqn:Hr; destruct ol; try discriminate.
      intros H. injection H as <-. right. exists j. repeat (split; [reflexivity|]).
      intros k Hk. eapply remove_nil_only; eassumption.
Qed.

Lemma mc_step_next mapper mc ol cnt r qu (i : inp A) x :
  snd (mc_step mapper mc (ol, cnt, r, qu) i) = Some (Next x) <-> exists j, i = ISrc (S j) (Next x) /\ In (S j) r.
Proof.
  split; [exact (mc_step_emits mapper mc ol cnt r qu i (Next x))|].
  intros (j & -> & Hj). cbn [mc_step]. now rewrite (proj2 (mem_In _ _) Hj).
Qed.

(* EXACTLY the elements of the running inners *)
Theorem mc_spec_next_iff mapper mc ol cnt running queue pos (ins : list (Z * inp A)) q x :
  In ((pos + q)%nat, Next x) (mc_spec mapper mc ol cnt running queue pos ins) <->
  exists now j ol' cnt' r' q', nth_error ins q = Some (now, ISrc (S j) (Next x))
     /\ mc_after mapper mc (ol, cnt, running, queue) (firstn q ins) = Some (ol', cnt', r', q') /\ In (S j) r'.
Proof.
  rewrite mc_spec_fold, fold_spec_in_iff. unfold mc_after. split.
  - intros (now & i & [[[ol' cnt'] r'] q'] & Hn & Ha & Hs). apply mc_step_next in Hs.
    destruct Hs as (j & -> & Hj). eauto 9.
  - intros (now & j & ol' & cnt' & r' & q' & Hn & Ha & Hk).
    exists now, (ISrc (S j) (Next x)), (ol', cnt', r', q').
    split; [exact Hn|]. split; [exact Ha|]. apply mc_step_next. eauto.
Qed.

Lemma mc_step_done mapper mc ol cnt r qu (i : inp A) :
  snd (mc_step mapper mc (ol, cnt, r, qu) i) = Some Done ->
  (i = ISrc 0 Done /\ ol = true /\ r = []) \/
  (exists j, i = ISrc (S j) Done /\ ol = false /\ qu = [] /\ forall k, In k r -> k = S j).
Proof. exact (mc_step_emits mapper mc ol cnt r qu i Done). Qed.

(* the transitions of mc_step: nothing changes; an outer element creates an inner, which starts
   if there is room and waits otherwise; the outer completes while inners run; a running inner
   completes and the head of the queue, if any, takes its place *)
Lemma mc_step_some mapper mc ol cnt r qu (i : inp A) st1 :
  fst (mc_step mapper mc (ol, cnt, r, qu) i) = Some st1 ->
  st1 = (ol, cnt, r, qu)
  \/ (ol = true /\ (st1 = (true, S cnt, r ++ [S cnt], qu) /\ (length r < mc)%nat
                   \/ st1 = (true, S cnt, r, qu ++ [S cnt]) /\ (mc <= length r)%nat))
  \/ (i = ISrc 0 Done /\ st1 = (false, cnt, r, qu))
  \/ (exists j, i = ISrc (S j) Done /\
        match qu with
        | q :: qs => st1 = (ol, cnt, remove (S j) r ++ [q], qs)
        | [] => st1 = (ol, cnt, remove (S j) r, [])
        end).
Proof.
  destruct i as [[|j] e|tag|]; cbn [mc_step]; try discriminate.
  - destruct ol; [|intros H; injection H as <-; auto].
    destruct e as [y|y|]; try discriminate.
    + destruct (mapper y cnt); [|discriminate].
      destruct (Nat.ltb_spec (length r) mc) as [Hlt|Hge]; intros E; injection E as <-; auto 6.
    + destruct r; [discriminate|]. intros H; injection H as <-; auto.
  - destruct (mem (S j) r); [|intros H; injection H as <-; auto].
    destruct e as [y|y|]; try discriminate.
    + intros H; injection H as <-; auto.
    + intros H. right. right. right. exists j. split; [reflexivity|].
      destruct qu; [|now injection H as <-].
      destruct (remove (S j) r), ol; try discriminate; now injection H as <-.
  - intros H; injection H as <-; auto.
Qed.

Lemma mc_step_outer mapper mc (st : mc_state) (i : inp A) st1 :
  fst (mc_step mapper mc st i) = Some st1 -> fst (fst (fst st)) = true ->
  fst (fst (fst st1)) = true \/ i = ISrc 0 Done.
Proof.
  destruct st as [[[ol cnt] r] qu]. cbn [fst]. intros H ->.
  destruct (mc_step_some mapper mc true cnt r qu i st1 H) as [->|[(_ & [[-> _]|[-> _]])|[(-> & _)|(j & _ & Hj)]]]; auto.
  destruct qu; subst st1; auto.
Qed.

Lemma mc_step_running mapper mc k (st : mc_state) (i : inp A) st1 :
  fst (mc_step mapper mc st i) = Some st1 -> In k (snd (fst st)) -> In k (snd (fst st1)) \/ i = ISrc k Done.
Proof.
  destruct st as [[[ol cnt] r] qu]. cbn [fst snd]. intros H Hk.
  destruct (mc_step_some mapper mc ol cnt r qu i st1 H) as [->|[(_ & [[-> _]|[-> _]])|[(_ & ->)|(j & -> & Hj)]]];
    cbn [fst snd]; rewrite ?in_app_iff; auto.
  destruct (Nat.eq_dec (S j) k) as [->|Hne]; [auto|left].
  pose proof (in_remove_other _ _ _ Hne Hk). destruct qu; subst st1; cbn [fst snd]; rewrite ?in_app_iff; auto.
Qed.

(* a waiting inner can only leave the queue by being started *)
Lemma mc_step_known mapper mc k (st : mc_state) (i : inp A) st1 :
  fst (mc_step mapper mc st i) = Some st1 -> In k (snd (fst st) ++ snd st) ->
  In k (snd (fst st1) ++ snd st1) \/ i = ISrc k Done.
Proof.
  destruct st as [[[ol cnt] r] qu]. cbn [fst snd]. rewrite in_app_iff. intros H Hk.
  destruct (mc_step_some mapper mc ol cnt r qu i st1 H) as [->|[(_ & [[-> _]|[-> _]])|[(_ & ->)|(j & -> & Hj)]]];
    cbn [fst snd]; rewrite ?in_app_iff; try tauto.
  destruct (Nat.eq_dec (S j) k) as [->|Hne]; [auto|left].
  pose proof (in_remove_other (S j) k r Hne).
  destruct qu; subst st1; cbn [fst snd]; rewrite ?in_app_iff; cbn [In] in *; tauto.
Qed.

(* for max_concurrent >= 1: an inner waits only while some inner runs *)
Definition mc_qinv (st : mc_state) : Prop := snd st = [] \/ snd (fst st) <> [].

Lemma mc_step_qinv mapper mc (st : mc_state) (i : inp A) st1 : (0 < mc)%nat ->
  fst (mc_step mapper mc st i) = Some st1 -> mc_qinv st -> mc_qinv st1.
Proof.
  destruct st as [[[ol cnt] r] qu]. unfold mc_qinv. cbn [fst snd]. intros Hmc H Hq.
  (* for [auto]: starting an inner leaves the running list non-empty *)
  assert (Hsnoc : forall (l : list nat) x, l ++ [x] <> []) by (intros [|] ?; discriminate).
  destruct (mc_step_some mapper mc ol cnt r qu i st1 H) as [->|[(_ & [[-> _]|[-> Hge]])|[(_ & ->)|(j & -> & Hj)]]];
    cbn [fst snd]; auto.
  - right. intros ->. cbn in Hge. lia.
  - destruct qu; subst st1; cbn [fst snd]; auto.
Qed.

Lemma mc_done_outer mapper mc (st : mc_state) (i : inp A) :
  snd (mc_step mapper mc st i) = Some Done -> fst (fst (fst st)) = true -> i = ISrc 0 Done.
Proof.
  destruct st as [[[ol cnt] r] qu]. cbn [fst]. intros Hs ->.
  apply mc_step_done in Hs. destruct Hs as [(-> & _)|(j & _ & Hf & _)]; [reflexivity|discriminate].
Qed.

Lemma mc_done_running mapper mc k (st : mc_state) (i : inp A) :
  snd (mc_step mapper mc st i) = Some Done -> In k (snd (fst st)) -> i = ISrc k Done.
Proof.
  destruct st as [[[ol cnt] r] qu]. cbn [fst snd]. intros Hs Hk.
  apply mc_step_done in Hs. destruct Hs as [(_ & _ & ->)|(j & -> & _ & _ & Hall)]; [destruct Hk|].
  now rewrite (Hall _ Hk).
Qed.

(* COMPLETION only after the outer and every inner that ever ran: whatever moment q0 before
   the completion one looks at, the outer (if live then) and every inner running then deliver
   their Done between q0 and the completion *)
Theorem mc_completes_after_outer_and_inners mapper mc (ins : list (Z * inp A)) ol cnt running queue pos p :
  In (p, Done) (mc_spec mapper mc ol cnt running queue pos ins) ->
  (pos <= p)%nat /\
  forall q0 ol' cnt' r' q', (q0 <= p - pos)%nat ->
    mc_after mapper mc (ol, cnt, running, queue) (firstn q0 ins) = Some (ol', cnt', r', q') ->
    (ol' = true -> exists q now, (q0 <= q <= p - pos)%nat /\ nth_error ins q = Some (now, ISrc 0%nat Done)) /\
    (forall k, In k r' -> exists q now, (q0 <= q <= p - pos)%nat /\ nth_error ins q = Some (now, ISrc k Done)).
Proof.
  rewrite mc_spec_fold. intros Hin. split; [exact (proj1 (fold_spec_pos _ _ _ _ _ _ Hin))|].
  intros q0 ol' cnt' r' q' Hq0 H0. split.
  - intros ->.
    destruct (fold_spec_released (mc_step mapper mc) (fun st => fst (fst (fst st)) = true) (fun i => i = ISrc 0%nat Done)
                Done (mc_step_outer mapper mc) (mc_done_outer mapper mc) ins _ pos p q0 _ Hin Hq0 H0 eq_refl)
      as (q & now & i & Hq & Hn & ->). eauto.
  - intros k Hk.
    destruct (fold_spec_released (mc_step mapper mc) (fun st => In k (snd (fst st))) (fun i => i = ISrc k Done)
                Done (mc_step_running mapper mc k) (mc_done_running mapper mc k) ins _ pos p q0 _ Hin Hq0 H0 Hk)
      as (q & now & i & Hq & Hn & ->). eauto.
Qed.

(* ... and, for max_concurrent >= 1 (from a state in which inners wait only while some inner
   runs, e.g. the initial one), with an EMPTY QUEUE: every inner that ever waited has been
   started and has completed before the completion *)
Theorem mc_completes_with_empty_queue mapper mc (ins : list (Z * inp A)) ol cnt running queue pos p :
  (0 < mc)%nat -> (queue = [] \/ running <> []) ->
  In (p, Done) (mc_spec mapper mc ol cnt running queue pos ins) ->
  (exists olp cntp rp, mc_after mapper mc (ol, cnt, running, queue) (firstn (p - pos) ins) = Some (olp, cntp, rp, []))
  /\
  forall q0 ol' cnt' r' q', (q0 <= p - pos)%nat ->
    mc_after mapper mc (ol, cnt, running, queue) (firstn q0 ins) = Some (ol', cnt', r', q') ->
    forall k, In k q' -> exists q now, (q0 <= q <= p - pos)%nat /\ nth_error ins q = Some (now, ISrc k Done).
Proof.
  intros Hmc Hq. rewrite mc_spec_fold. intros Hin.
  assert (Hinv : forall n st, mc_after mapper mc (ol, cnt, running, queue) (firstn n ins) = Some st -> mc_qinv st).
  { intros n st H. eapply (fold_after_inv (mc_step mapper mc) mc_qinv); [|exact H|exact Hq].
    intros s i0 s1. apply mc_step_qinv. exact Hmc. }
  (* a completing step from a state with the queue invariant finds the queue empty *)
  assert (Hdone : forall olp cntp rp qp i, snd (mc_step mapper mc (olp, cntp, rp, qp) i) = Some Done ->
            mc_qinv (olp, cntp, rp, qp) -> qp = [] /\ forall k, In k rp -> i = ISrc k Done).
  { intros olp cntp rp qp i Hs Hqi. apply mc_step_done in Hs.
    destruct Hs as [(_ & _ & ->)|(j & -> & _ & -> & Hall)].
    - destruct Hqi as [H|H]; cbn [fst snd] in H; [|congruence]. split; [exact H|intros k []].
    - split; [reflexivity|]. intros k Hk. now rewrite (Hall _ Hk). }
  split.
  - destruct (fold_spec_in _ _ _ _ _ _ Hin) as (_ & now & i & [[[olp cntp] rp] qp] & _ & Hp & Hs).
    destruct (Hdone _ _ _ _ _ Hs (Hinv _ _ Hp)) as [-> _]. eauto.
  - intros q0 ol' cnt' r' q' Hq0 H0 k Hk.
    (* a waiting inner stays known (running or waiting) until its Done; with the queue invariant,
       a completing step finds it running *)
    set (P := fun st : mc_state => mc_qinv st /\ In k (snd (fst st) ++ snd st)).
    assert (Hstep : forall st i st1, fst (mc_step mapper mc st i) = Some st1 -> P st -> P st1 \/ i = ISrc k Done).
    { intros st i st1 E [Hqi Hkn]. destruct (mc_step_known mapper mc k st i st1 E Hkn); [left|auto].
      split; [exact (mc_step_qinv mapper mc st i st1 Hmc E Hqi)|assumption]. }
    assert (Hend : forall st i, snd (mc_step mapper mc st i) = Some Done -> P st -> i = ISrc k Done).
    { intros [[[olp cntp] rp] qp] i Hs [Hqi Hkn]. destruct (Hdone _ _ _ _ _ Hs Hqi) as [-> Hall].
      cbn [fst snd] in Hkn. rewrite app_nil_r in Hkn. exact (Hall _ Hkn). }
    destruct (fold_spec_released (mc_step mapper mc) P (fun i => i = ISrc k Done) Done Hstep Hend
                ins _ pos p q0 _ Hin Hq0 H0) as (q & now & i & Hr & Hn & ->); [|eauto].
    split; [exact (Hinv _ _ H0)|cbn [fst snd]; apply in_or_app; auto].
Qed.

Lemma mc_step_none mapper mc st (i : inp A) : fst (mc_step mapper mc st i) = None ->
  (exists e, snd (mc_step mapper mc st i) = Some e /\ is_terminal e = true) \/ i = IDispose.
Proof.
  destruct st as [[[ol cnt] r] qu].
  destruct i as [[|j] e|tag|]; cbn [mc_step]; [| |discriminate|auto].
  - destruct ol; [|discriminate]. destruct e as [x|x|].
    + destruct (mapper x cnt); [destruct (Nat.ltb (length r) mc); discriminate|].
      intros _. left. eexists. split; reflexivity.
    + intros _. left. eexists. split; reflexivity.
    + destruct r; [|discriminate]. intros _. left. eexists. split; reflexivity.
  - destruct (mem (S j) r); [|discriminate]. destruct e as [x|x|]; [discriminate| |].
    + intros _. left. eexists. split; reflexivity.
    + destruct qu; [|discriminate].
      destruct (remove (S j) r); destruct ol; try discriminate. intros _. left. eexists. split; reflexivity.
Qed.

Lemma mc_after_some mapper mc ol cnt running queue pos (a : list (Z * inp A)) :
  (forall p e, In (p, e) (mc_spec mapper mc ol cnt running queue pos a) -> is_terminal e = false) ->
  ~ In IDispose (map snd a) ->
  exists st', mc_after mapper mc (ol, cnt, running, queue) a = Some st'.
Proof.
  intros Hn. apply (fold_after_some _ (mc_step_none mapper mc) a _ pos).
  intros p e H. apply (Hn p e). now rewrite mc_spec_fold.
Qed.
End MergeConcSpec.

Section FlatMapSpec.
Context {A : Type}.

(* state of flat_map_spec: (outer live, inners created, running inners) *)
Definition fm_state := (bool * nat * list nat)%type.

Definition fm_step (mapper : A -> nat -> res unit) (st : fm_state) (i : inp A)
  : option fm_state * option (ev A) :=
  let '(ol, cnt, running) := st in
  match i with
  | ISrc O e =>
      if ol then
        match e with
        | Next x => match mapper x cnt with
                    | Ok _ => (Some (true, S cnt, running ++ [S cnt]), None)
                    | Raise err => (None, Some (Err err))
                    end
        | Err err => (None, Some (Err err))
        | Done => match running with
                  | [] => (None, Some Done)
                  | _ => (Some (false, cnt, running), None)
                  end
        end
      else (Some st, None)
  | ISrc (S j) e =>
      if mem (S j) running then
        match e with
        | Next x => (Some st, Some (Next x))
        | Err err => (None, Some (Err err))
        | Done => match remove (S j) running, ol with
                  | [], false => (None, Some Done)
                  | rest, _ => (Some (ol, cnt, rest), None)
                  end
        end
      else (Some st, None)
  | ITick _ => (Some st, None)
  | IDispose => (None, None)
  end.

Definition fm_after (mapper : A -> nat -> res unit) : fm_state -> list (Z * inp A) -> option fm_state :=
  fold_after (fm_step mapper).

Lemma flat_map_spec_fold mapper (ins : list (Z * inp A)) : forall ol cnt running pos,
  flat_map_spec mapper ol cnt running pos ins = fold_spec (fm_step mapper) (ol, cnt, running) pos ins.
Proof.
  induction ins as [|[now i] t IH]; intros ol cnt running pos; [reflexivity|].
  cbn [flat_map_spec fold_spec]. destruct i as [[|j] e|tag|]; cbn [fm_step].
  - destruct ol; [|cbn [fst snd app]; apply IH].
    destruct e as [x|x|].
    + destruct (mapper x cnt); cbn [fst snd app]; rewrite ?IH; reflexivity.
    + reflexivity.
    + destruct running; cbn [fst snd app]; rewrite ?IH; reflexivity.
  - destruct (mem (S j) running); [|cbn [fst snd app]; apply IH].
    destruct e as [x|x|]; cbn [fst snd app]; rewrite ?IH; try reflexivity.
    destruct (remove (S j) running); destruct ol; cbn [fst snd app]; rewrite ?IH; reflexivity.
  - cbn [fst snd app]. apply IH.
  - reflexivity.
Qed.

Lemma flat_map_spec_app mapper (a b : list (Z * inp A)) ol cnt running pos :
  flat_map_spec mapper ol cnt running pos (a ++ b) = flat_map_spec mapper ol cnt running pos a ++
    match fm_after mapper (ol, cnt, running) a with
    | Some (ol', cnt', r') => flat_map_spec mapper ol' cnt' r' (pos + length a) b
    | None => []
    end.
Proof.
  rewrite !flat_map_spec_fold, fold_spec_app. unfold fm_after.
  destruct (fold_after (fm_step mapper) (ol, cnt, running) a) as [[[ol' cnt'] r']|];
    [now rewrite flat_map_spec_fold|reflexivity].
Qed.

(* flat_map is merge(max_concurrent) with an empty queue and room for one more inner: its
   step lemmas are those of mc_step *)
Lemma mc_step_roomy mapper mc ol cnt r (i : inp A) : (length r < mc)%nat ->
  mc_step mapper mc (ol, cnt, r, []) i
  = (match fst (fm_step mapper (ol, cnt, r) i) with
     | Some (ol', cnt', r') => Some (ol', cnt', r', [])
     | None => None
     end, snd (fm_step mapper (ol, cnt, r) i)).
Proof.
  intros H. apply Nat.ltb_lt in H. destruct i as [[|j] e|tag|]; cbn [mc_step fm_step]; try reflexivity.
  - destruct ol; [|reflexivity]. destruct e as [x|x|]; [|reflexivity|destruct r; reflexivity].
    destruct (mapper x cnt); [rewrite H|]; reflexivity.
  - destruct (mem (S j) r); [|reflexivity]. destruct e as [x|x|]; try reflexivity.
    destruct (remove (S j) r), ol; reflexivity.
Qed.

Lemma fm_step_mc mapper ol cnt r (i : inp A) :
  snd (fm_step mapper (ol, cnt, r) i) = snd (mc_step mapper (S (length r)) (ol, cnt, r, []) i)
  /\ forall st1, fst (fm_step mapper (ol, cnt, r) i) = Some st1 ->
       fst (mc_step mapper (S (length r)) (ol, cnt, r, []) i) = Some (st1, []).
Proof.
  rewrite mc_step_roomy by lia. split; [reflexivity|]. intros [[ol' cnt'] r'] ->. reflexivity.
Qed.

Lemma fm_step_next mapper ol cnt r (i : inp A) x :
  snd (fm_step mapper (ol, cnt, r) i) = Some (Next x) <-> exists j, i = ISrc (S j) (Next x) /\ In (S j) r.
Proof. rewrite (proj1 (fm_step_mc mapper ol cnt r i)). apply mc_step_next. Qed.

(* EXACTLY the elements of the running inners *)
Theorem flat_map_spec_next_iff mapper ol cnt running pos (ins : list (Z * inp A)) q x :
  In ((pos + q)%nat, Next x) (flat_map_spec mapper ol cnt running pos ins) <->
  exists now j ol' cnt' r', nth_error ins q = Some (now, ISrc (S j) (Next x))
     /\ fm_after mapper (ol, cnt, running) (firstn q ins) = Some (ol', cnt', r') /\ In (S j) r'.
Proof.
  rewrite flat_map_spec_fold, fold_spec_in_iff. unfold fm_after. split.
  - intros (now & i & [[ol' cnt'] r'] & Hn & Ha & Hs). apply fm_step_next in Hs.
    destruct Hs as (j & -> & Hj). eauto 8.
  - intros (now & j & ol' & cnt' & r' & Hn & Ha & Hk). exists now, (ISrc (S j) (Next x)), (ol', cnt', r').
    split; [exact Hn|]. split; [exact Ha|]. apply fm_step_next. eauto.
Qed.

Lemma fm_step_done mapper ol cnt r (i : inp A) :
  snd (fm_step mapper (ol, cnt, r) i) = Some Done ->
  (i = ISrc 0 Done /\ ol = true /\ r = []) \/
  (exists j, i = ISrc (S j) Done /\ ol = false /\ forall k, In k r -> k = S j).
Proof.
  rewrite (proj1 (fm_step_mc mapper ol cnt r i)). intros H.
  destruct (mc_step_done _ _ _ _ _ _ _ H) as [H1|(j & H1 & H2 & _ & H3)]; [auto|right; eauto].
Qed.

Lemma fm_step_outer mapper (st : fm_state) (i : inp A) st1 :
  fst (fm_step mapper st i) = Some st1 -> fst (fst st) = true -> fst (fst st1) = true \/ i = ISrc 0 Done.
Proof.
  destruct st as [[ol cnt] r]. intros H. apply (proj2 (fm_step_mc mapper ol cnt r i)) in H.
  exact (mc_step_outer _ _ _ _ _ H).
Qed.

Lemma fm_step_running mapper k (st : fm_state) (i : inp A) st1 :
  fst (fm_step mapper st i) = Some st1 -> In k (snd st) -> In k (snd st1) \/ i = ISrc k Done.
Proof.
  destruct st as [[ol cnt] r]. intros H. apply (proj2 (fm_step_mc mapper ol cnt r i)) in H.
  exact (mc_step_running _ _ _ _ _ _ H).
Qed.

Lemma fm_done_outer mapper (st : fm_state) (i : inp A) :
  snd (fm_step mapper st i) = Some Done -> fst (fst st) = true -> i = ISrc 0 Done.
Proof.
  destruct st as [[ol cnt] r]. rewrite (proj1 (fm_step_mc mapper ol cnt r i)). exact (mc_done_outer _ _ _ _).
Qed.

Lemma fm_done_running mapper k (st : fm_state) (i : inp A) :
  snd (fm_step mapper st i) = Some Done -> In k (snd st) -> i = ISrc k Done.
Proof.
  destruct st as [[ol cnt] r]. rewrite (proj1 (fm_step_mc mapper ol cnt r i)). exact (mc_done_running _ _ _ _ _).
Qed.

(* COMPLETION only after the outer and every inner that was ever running: whatever moment
   q0 before the completion one looks at, the outer (if live then) and every inner running
   then deliver their Done between q0 and the completion *)
Theorem flat_map_completes_after_outer_and_inners mapper (ins : list (Z * inp A)) ol cnt running pos p :
  In (p, Done) (flat_map_spec mapper ol cnt running pos ins) ->
  (pos <= p)%nat /\
  forall q0 ol' cnt' r', (q0 <= p - pos)%nat ->
    fm_after mapper (ol, cnt, running) (firstn q0 ins) = Some (ol', cnt', r') ->
    (ol' = true -> exists q now, (q0 <= q <= p - pos)%nat /\ nth_error ins q = Some (now, ISrc 0%nat Done)) /\
    (forall k, In k r' -> exists q now, (q0 <= q <= p - pos)%nat /\ nth_error ins q = Some (now, ISrc k Done)).
Proof.
  rewrite flat_map_spec_fold. intros Hin. split; [exact (proj1 (fold_spec_pos _ _ _ _ _ _ Hin))|].
  intros q0 ol' cnt' r' Hq0 H0. split.
  - intros ->.
    destruct (fold_spec_released (fm_step mapper) (fun st => fst (fst st) = true) (fun i => i = ISrc 0%nat Done)
                Done (fm_step_outer mapper) (fm_done_outer mapper) ins _ pos p q0 _ Hin Hq0 H0 eq_refl)
      as (q & now & i & Hq & Hn & ->). eauto.
  - intros k Hk.
    destruct (fold_spec_released (fm_step mapper) (fun st => In k (snd st)) (fun i => i = ISrc k Done)
                Done (fm_step_running mapper k) (fm_done_running mapper k) ins _ pos p q0 _ Hin Hq0 H0 Hk)
      as (q & now & i & Hq & Hn & ->). eauto.
Qed.

Lemma fm_step_none mapper st (i : inp A) : fst (fm_step mapper st i) = None ->
  (exists e, snd (fm_step mapper st i) = Some e /\ is_terminal e = true) \/ i = IDispose.
Proof.
  destruct st as [[ol cnt] r]. intros H. rewrite (proj1 (fm_step_mc mapper ol cnt r i)).
  apply mc_step_none. rewrite mc_step_roomy by lia. cbn [fst]. now rewrite H.
Qed.

Lemma fm_after_some mapper ol cnt running pos (a : list (Z * inp A)) :
  (forall p e, In (p, e) (flat_map_spec mapper ol cnt running pos a) -> is_terminal e = false) ->
  ~ In IDispose (map snd a) ->
  exists st', fm_after mapper (ol, cnt, running) a = Some st'.
Proof.
  intros Hn. apply (fold_after_some _ (fm_step_none mapper) a _ pos).
  intros p e H. apply (Hn p e). now rewrite flat_map_spec_fold.
Qed.
End FlatMapSpec.

(* max_concurrent = 0 (outside the property's range 1..N): every inner waits for ever and the
   output completes with the outer, the queue still holding inner 1 *)
Example mc_zero_completes_with_waiting_inner :
  mc_spec (A:=Z) (fun _ _ => Ok tt) 0 true 0 [] [] 1 [(0%Z, ISrc 0%nat (Next 5%Z)); (0%Z, ISrc 0%nat Done)]
    = [(2%nat, Done)]
  /\ mc_after (A:=Z) (fun _ _ => Ok tt) 0 (true, 0%nat, [], []) [(0%Z, ISrc 0%nat (Next 5%Z))]
    = Some (true, 1%nat, [], [1%nat]).
Proof. vm_compute. split; reflexivity. Qed.
