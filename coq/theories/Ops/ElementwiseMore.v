(* C05: direct specification of dematerialize and take_while_indexed, the list function of
   skip_while_indexed, and starmap / pluck as the instances of map that the code builds. *)
From RxVerif Require Import Base.Prelude Ops.Machine Ops.MachineFacts Ops.Elementwise
  Ops.ElementwiseFacts Ops.RaiseFacts.

Section More.
Context {A : Type}.

(* dematerialize: the ELEMENTS are notifications.  OnNext x is passed on; the first OnError / OnCompleted
   element ends the output at its own position and everything behind it is dropped; otherwise the source's
   own terminal ends it *)
Fixpoint demat_list (k : nat) (ns : list (ev A)) (t : term) : list (nat * ev A) :=
  match ns with
  | [] => tterm k t
  | Next x :: r => (k, Next x) :: demat_list (S k) r t
  | Err e :: _ => [(k, Err e)]
  | Done :: _ => [(k, Done)]
  end.

Lemma dematerialize_from (ns : list (ev A)) t : forall k,
  exec_from op_dematerialize tt k (events ns t) = demat_list k ns t.
Proof.
  induction ns as [|n r IH]; intros k.
  - destruct t; reflexivity.
  - rewrite events_cons, exec_from_cons. destruct n as [x|e|]; cbn -[exec_from].
    + now rewrite IH.
    + reflexivity.
    + reflexivity.
Qed.

Fixpoint takewhile_i (p : A -> nat -> bool) (i : nat) (l : list (nat * A)) : list (nat * A) :=
  match l with [] => [] | kx :: t => if p (snd kx) i then kx :: takewhile_i p (S i) t else [] end.
Fixpoint first_failing_i (p : A -> nat -> bool) (i : nat) (l : list (nat * A)) : option (nat * A) :=
  match l with [] => None | kx :: t => if p (snd kx) i then first_failing_i p (S i) t else Some kx end.

Lemma take_while_indexed_from (p : A -> nat -> bool) inclusive (xs : list A) t : forall i k,
  exec_from (op_take_while_indexed (pure2 p) inclusive) (true, i) k (events xs t)
  = nexts (takewhile_i p i (indexed k xs)) ++
    match first_failing_i p i (indexed k xs) with
    | Some (j, x) => (if inclusive then [(j, Next x)] else []) ++ [(j, Done)]
    | None => tterm (k + length xs) t
    end.
Proof.
  induction xs as [|x r IH]; intros i k.
  - term_case t.
  - step_cons. unfold pure2. destruct (p x i); cbn -[exec_from].
    + rewrite IH. now rewrite <- ?plus_n_Sm.
    + destruct inclusive; reflexivity.
Qed.

End More.

(* skip_while_indexed: elements are dropped while the predicate, seeing the element and its index,
   holds; from the first failing element on everything passes (the predicate is not asked again) *)
Section SkipWhileIndexed.
Context {A : Type}.

Fixpoint dropwhile_i (p : A -> nat -> bool) (i : nat) (l : list A) : list A :=
  match l with [] => [] | x :: t => if p x i then dropwhile_i p (S i) t else l end.

End SkipWhileIndexed.

(* starmap and pluck are the maps the code builds.  operators/__init__.py: starmap(mapper) = map(starred),
   starred(values) = mapper applied to the unpacked values;
   _pluck.py: pluck(key) = map(lambda x: x[key]).  Elements: pairs / association lists. *)
Section StarPluck.
Context {A B C : Type}.

Definition op_starmap (f : A -> B -> res C) : mealy (A * B) C := op_map (fun ab => f (fst ab) (snd ab)).

(* lookup in a dict rendered as an association list; a missing key raises [exn] (KeyError) *)
Definition lookup (keq : A -> A -> bool) (key : A) (exn : Z) (d : list (A * B)) : res B :=
  match find (fun kv => keq (fst kv) key) d with Some kv => Ok (snd kv) | None => Raise exn end.
Definition op_pluck (keq : A -> A -> bool) (key : A) (exn : Z) : mealy (list (A * B)) B :=
  op_map (lookup keq key exn).

(* as long as every element has the key, pluck is the list of the looked-up values *)
Theorem pluck_spec keq (key : A) exn (ds : list (list (A * B))) (vs : list B) t :
  Forall2 (fun d v => lookup keq key exn d = Ok v) ds vs ->
  untag (exec (op_pluck keq key exn) (events ds t)) = events vs t.
Proof.
  intros H. unfold op_pluck, exec. cbn -[exec_from]. rewrite map_raise_from, <- (app_nil_r ds).
  rewrite (until_raise_oks _ ds vs [] H). cbn [until_raise fst snd close]. rewrite app_nil_r. apply untag_std.
Qed.

(* the first element without the key ends the output with the lookup error at its position *)
Theorem pluck_missing keq (key : A) exn (ds : list (list (A * B))) (vs : list B) d rest t :
  Forall2 (fun d v => lookup keq key exn d = Ok v) ds vs -> lookup keq key exn d = Raise exn ->
  untag (exec (op_pluck keq key exn) (events (ds ++ d :: rest) t)) = map Next vs ++ [Err exn].
Proof.
  intros H Hd. unfold op_pluck, exec. cbn -[exec_from]. rewrite map_raise_from, (until_raise_oks _ ds vs _ H).
  cbn [until_raise]. rewrite Hd. cbn [fst snd close]. rewrite app_nil_r.
  exact (untag_std vs 1 _ (TErr exn)).
Qed.
End StarPluck.
