(* C10: sequential composition over LAZY iterables (generators, for_in's mapped
   values) and on_error_resume_next with factory arguments.  The side effects of
   producing the sources do not change the behaviour at the operator's boundary:
   erasing them gives exactly the trace of the eager machine (so every theorem
   about x_concat / x_catch / x_oern carries over), and the iterable is advanced
   only in the handler of the termination the operator continues on. *)
From RxVerif Require Import Base.Prelude Ops.Machine Ops.MachineFacts Ops.Multi Ops.MultiFacts
  Ops.RunLemmas Ops.Combinators Ops.SequentialFacts.

Local Arguments Nat.ltb : simpl never.
Local Arguments Nat.leb : simpl never.

Definition noeff_c {B} (c : cmd B) : bool := match c with CEffect _ => false | _ => true end.
Definition noeff_o {B} (o : obs B) : bool := match o with OEffect _ => false | _ => true end.
Definition erase {B} (tr : list (nat * obs B)) : list (nat * obs B) := filter (fun x => noeff_o (snd x)) tr.

Section Erase.
Context {A B : Type}.

Lemma apply_cmds_erase (cs : list (cmd B)) : forall r,
  apply_cmds r (filter noeff_c cs)
  = (fst (apply_cmds r cs), filter noeff_o (snd (apply_cmds r cs))).
Proof.
  induction cs as [|c t IH]; intros r; [reflexivity|].
  destruct c as [b|k|k|tag d|tag|z]; cbn [filter noeff_c apply_cmds];
    try destruct (mem _ _); rewrite IH; now destruct (apply_cmds _ t).
Qed.

Lemma noeff_release (r : rstate) : filter noeff_o (snd (@release B r)) = snd (@release B r).
Proof.
  unfold release. cbn [snd]. rewrite filter_app. f_equal.
  - induction (sort_nat (r_live r)); cbn; congruence.
  - induction (sort_nat (r_timers r)); cbn; congruence.
Qed.

Lemma noeff_finish (r : rstate) f : filter noeff_o (snd (@finish B r f)) = snd (@finish B r f).
Proof.
  destruct f; cbn [finish]; [reflexivity| |];
    pose proof (noeff_release r) as H; destruct (release r) as [r' o]; cbn [snd] in *; cbn; now rewrite H.
Qed.

Lemma filter_map_tag (k : nat) (o : list (obs B)) :
  filter (fun x : nat * obs B => noeff_o (snd x)) (map (fun x => (k, x)) o)
  = map (fun x => (k, x)) (filter noeff_o o).
Proof. induction o as [|x t IH]; [reflexivity|]. cbn. destruct (noeff_o x); cbn; now rewrite IH. Qed.

Lemma filter_comm {X} (f g : X -> bool) (l : list X) : filter f (filter g l) = filter g (filter f l).
Proof.
  induction l as [|x t IH]; [reflexivity|]. cbn.
  destruct (f x) eqn:F, (g x) eqn:G; cbn; rewrite ?F, ?G, IH; reflexivity.
Qed.

(* simulation: m2 is m1 without its effects.  (UsingFacts.v proves the two-sided form, both
   machines' effects stripped -- keep_c, strip_t, ans_sim there are noeff_c, erase, same_answer
   here -- for the C40 operators.) *)
Variables (m1 m2 : machine A B) (R : x_state m1 -> x_state m2 -> Prop).

Definition same_answer (a1 : x_state m1 * list (cmd B) * fin) (a2 : x_state m2 * list (cmd B) * fin) : Prop :=
  R (fst (fst a1)) (fst (fst a2)) /\ filter noeff_c (snd (fst a1)) = snd (fst a2) /\ snd a1 = snd a2.

Hypothesis Hstep : forall s1 s2 now i, R s1 s2 -> same_answer (x_step m1 s1 now i) (x_step m2 s2 now i).

Lemma auto_detach_erase (i : inp A) r1 : filter noeff_o (snd (auto_detach (B:=B) i r1)) = snd (auto_detach (B:=B) i r1).
Proof.
  destruct i as [k e| |]; try reflexivity. cbn [auto_detach]. now destruct (is_terminal e && mem k (r_live r1)).
Qed.

Lemma handled_step_erase {S1 S2} (a1 : S1 * list (cmd B) * fin) (a2 : S2 * list (cmd B) * fin) r (i : inp A) :
  filter noeff_c (snd (fst a1)) = snd (fst a2) -> snd a1 = snd a2 ->
  snd (fst (handled_step a1 r i)) = snd (fst (handled_step a2 r i))
  /\ filter noeff_o (snd (handled_step a1 r i)) = snd (handled_step a2 r i).
Proof.
  destruct a1 as [[s1 cs] f], a2 as [[s2 cs2] f2]. cbn [fst snd]. intros <- <-.
  unfold handled_step. cbn [fst snd]. rewrite apply_cmds_erase.
  destruct i; cbn [fst snd]; (split; [reflexivity|]).
  - now rewrite !filter_app, auto_detach_erase, noeff_finish.
  - now rewrite !filter_app, auto_detach_erase, noeff_finish.
  - now rewrite filter_app, noeff_release, (filter_comm noeff_o).
Qed.

Lemma rstep_erase s1 s2 r now i : R s1 s2 ->
  R (fst (fst (rstep m1 s1 r now i))) (fst (fst (rstep m2 s2 r now i)))
  /\ snd (fst (rstep m1 s1 r now i)) = snd (fst (rstep m2 s2 r now i))
  /\ filter noeff_o (snd (rstep m1 s1 r now i)) = snd (rstep m2 s2 r now i).
Proof.
  intros HR. destruct (handled_or_dropped r i) as [[Hst Hd]|Hd].
  - rewrite (rstep_handled_eq m1 s1 r now i Hst Hd), (rstep_handled_eq m2 s2 r now i Hst Hd).
    destruct (Hstep s1 s2 now i HR) as (H1 & H2 & H3).
    split; [now destruct i|]. exact (handled_step_erase _ _ r i H2 H3).
  - rewrite !rstep_dropped by exact Hd. cbn. auto.
Qed.

Lemma run_from_erase ins : forall s1 s2 r k, R s1 s2 ->
  erase (fst (run_from m1 s1 r k ins)) = fst (run_from m2 s2 r k ins)
  /\ snd (run_from m1 s1 r k ins) = snd (run_from m2 s2 r k ins).
Proof.
  induction ins as [|[now i] rest IH]; intros s1 s2 r k HR; [split; reflexivity|].
  cbn [run_from]. pose proof (rstep_erase s1 s2 r now i HR) as (H1 & H2 & H3).
  destruct (rstep m1 s1 r now i) as [[s1' r1] o1], (rstep m2 s2 r now i) as [[s2' r2] o2].
  cbn [fst snd] in H1, H2, H3. subst r2 o2.
  specialize (IH s1' s2' r1 (S k) H1). destruct IH as [IH1 IH2].
  destruct (run_from m1 s1' r1 (S k) rest) as [t1 f1], (run_from m2 s2' r1 (S k) rest) as [t2 f2].
  cbn [fst snd] in *. subst t2 f2. split; [|reflexivity].
  unfold erase. rewrite filter_app. f_equal. apply filter_map_tag.
Qed.

Hypothesis Hstart : same_answer (x_start m1) (x_start m2).

Theorem run_erase ins :
  erase (fst (run m1 ins)) = fst (run m2 ins) /\ snd (run m1 ins) = snd (run m2 ins).
Proof.
  rewrite !run_start, !start_step_handled. destruct Hstart as (H1 & H2 & H3).
  destruct (handled_step_erase (x_start m1) (x_start m2) (RState [] [] false) (ITick 0) H2 H3) as [E1 E2].
  cbn [fst snd]. rewrite !handled_state, <- E1, <- E2.
  destruct (run_from_erase ins _ _ (snd (fst (handled_step (A:=A) (x_start m1) (RState [] [] false) (ITick 0)))) 1 H1)
    as [F1 F2].
  split; [|exact F2]. unfold erase in *. now rewrite filter_app, filter_map_tag, F1.
Qed.
End Erase.

Section Lazy.
Context {A : Type}.

Lemma lazy_next_ok n tail j (onend : fin) :
  filter noeff_c (fst (lazy_next (A:=A) n (fun _ => Ok tt) tail j onend))
  = (if Nat.ltb j n then [CSub j] else [])
  /\ snd (lazy_next (A:=A) n (fun _ => Ok tt) tail j onend) = (if Nat.ltb j n then Cont else onend).
Proof. unfold lazy_next. destruct (Nat.ltb j n); [split; reflexivity|]. destruct tail; split; reflexivity. Qed.

(* a lazy iterable whose production never raises: concat_with_iterable behaves, at
   its boundary, exactly as over the list of the same sources *)
Theorem concat_lazy_erases n tail (ins : list (Z * inp A)) :
  erase (fst (run (x_concat_lazy n (fun _ => Ok tt) tail) ins)) = fst (run (x_concat n) ins)
  /\ snd (run (x_concat_lazy n (fun _ => Ok tt) tail) ins) = snd (run (x_concat n) ins).
Proof.
  apply (run_erase (x_concat_lazy n (fun _ => Ok tt) tail) (x_concat n) (fun a b => a = b)).
  - intros s1 s2 now i <-. unfold same_answer. cbn [x_step x_concat_lazy x_concat].
    destruct i as [k [x|e|]|tag|]; cbn; auto.
    pose proof (lazy_next_ok n tail (S s1) Complete) as [H1 H2].
    destruct (lazy_next n (fun _ => Ok tt) tail (S s1) Complete) as [cs f]. cbn [fst snd] in *.
    destruct (Nat.ltb (S s1) n); cbn; auto.
  - unfold same_answer. cbn [x_start x_concat_lazy x_concat].
    pose proof (lazy_next_ok n tail 0 Complete) as [H1 H2].
    destruct (lazy_next n (fun _ => Ok tt) tail 0 Complete) as [cs f]. cbn [fst snd] in *.
    destruct n; cbn in *; auto.
Qed.

Theorem catch_lazy_erases n tail (ins : list (Z * inp A)) :
  erase (fst (run (x_catch_lazy n (fun _ => Ok tt) tail) ins)) = fst (run (x_catch n) ins)
  /\ snd (run (x_catch_lazy n (fun _ => Ok tt) tail) ins) = snd (run (x_catch n) ins).
Proof.
  apply (run_erase (x_catch_lazy n (fun _ => Ok tt) tail) (x_catch n) (fun a b => a = fst b)).
  - intros s1 [cur last] now i Hs. cbn in Hs. subst s1. unfold same_answer.
    cbn [x_step x_catch_lazy x_catch].
    destruct i as [k [x|e|]|tag|]; cbn; auto.
    pose proof (lazy_next_ok n tail (S cur) (Fail e)) as [H1 H2].
    destruct (lazy_next n (fun _ => Ok tt) tail (S cur) (Fail e)) as [cs f]. cbn [fst snd] in *.
    destruct (Nat.ltb (S cur) n); cbn; auto.
  - unfold same_answer. cbn [x_start x_catch_lazy x_catch].
    pose proof (lazy_next_ok n tail 0 Complete) as [H1 H2].
    destruct (lazy_next n (fun _ => Ok tt) tail 0 Complete) as [cs f]. cbn [fst snd] in *.
    destruct n; cbn in *; auto.
Qed.

(* on_error_resume_next with factory arguments: the factories' calls do not change
   the boundary behaviour *)
Theorem oern_factories_erase n fact (ins : list (Z * inp A)) :
  erase (fst (run (x_oern_f n fact) ins)) = fst (run (x_oern n) ins)
  /\ snd (run (x_oern_f n fact) ins) = snd (run (x_oern n) ins).
Proof.
  apply (run_erase (x_oern_f n fact) (x_oern n) (fun a b => a = b)).
  - intros s1 s2 now i <-. unfold same_answer. cbn [x_step x_oern_f x_oern].
    destruct i as [k [x|e|]|tag|]; cbn; auto;
      destruct (Nat.ltb (S s1) n); cbn; auto; unfold oern_sub; destruct (fact (S s1)); cbn; auto.
  - unfold same_answer. cbn [x_start x_oern_f x_oern]. destruct n; cbn; auto.
    unfold oern_sub; destruct (fact 0%nat); cbn; auto.
Qed.

(* LAZINESS: the iterable is advanced (an effect happens) and a source is
   subscribed only in the handler of a completion (concat / for_in, whatever the
   mapper does), resp. of an error (catch) *)
Definition touches (cs : list (cmd A)) : bool :=
  existsb (fun c => match c with CEffect _ | CSub _ => true | _ => false end) cs.

(* the factory of on_error_resume_next is called only when the previous source
   terminates, and with that source's error (code e) or None (code 0) *)
Theorem oern_factory_argument n fact cur now (i : inp A) z :
  In (CEffect z) (snd (fst (x_step (x_oern_f n fact) cur now i))) ->
  exists k t, i = ISrc k t /\ is_terminal t = true /\ fact (S cur) = true /\
              z = 1000 * Z.of_nat (S cur) + match t with Err e => e | _ => 0 end.
Proof.
  cbn [x_step x_oern_f]. destruct i as [k [x|e|]|tag|]; cbn -[Z.mul Z.of_nat Z.add]; try tauto.
  - intros [H|[]]. discriminate.
  - destruct (Nat.ltb (S cur) n); cbn -[Z.mul Z.of_nat Z.add]; [|tauto]. unfold oern_sub. destruct (fact (S cur)) eqn:F; cbn -[Z.mul Z.of_nat Z.add].
    + intros [H|[H|[]]]; try discriminate. injection H as <-. exists k, (Err e). auto.
    + intros [H|[]]. discriminate.
  - destruct (Nat.ltb (S cur) n); cbn -[Z.mul Z.of_nat Z.add]; [|tauto]. unfold oern_sub. destruct (fact (S cur)) eqn:F; cbn -[Z.mul Z.of_nat Z.add].
    + intros [H|[H|[]]]; try discriminate. injection H as <-. exists k, Done. auto.
    + intros [H|[]]. discriminate.
Qed.

(* one source at a time, for EVERY input sequence and every mapper (raising or not) *)
Lemma lazy_step n produce tail cur r now (i : inp A) :
  cur_inv n cur r ->
  cur_inv n (fst (fst (rstep (x_concat_lazy n produce tail) cur r now i)))
            (snd (fst (rstep (x_concat_lazy n produce tail) cur r now i))).
Proof.
  intros [->|[-> Hc]]; [left; reflexivity|].
  unfold rstep. cbn [r_stopped]. destruct i as [k e|tag|].
  - cbn [r_live mem existsb]. destruct (Nat.eqb_spec k cur) as [->|Hne]; cbn [orb]; [|right; auto].
    destruct e as [x|e|].
    + right. cbn. rewrite ?Nat.eqb_refl. cbn. auto.
    + left. cbn. rewrite ?Nat.eqb_refl. reflexivity.
    + cbn [x_step x_concat_lazy]. unfold lazy_next.
      destruct (Nat.ltb_spec (S cur) n) as [Hlt|Hge].
      * destruct (produce (S cur)); cbn; rewrite ?Nat.eqb_refl; cbn; [right; auto|left; reflexivity].
      * destruct tail; cbn; rewrite ?Nat.eqb_refl; cbn; left; reflexivity.
  - right. cbn. auto.
  - left. cbn. reflexivity.
Qed.

Theorem lazy_one_at_a_time n produce tail (ins : list (Z * inp A)) :
  (length (r_live (snd (run (x_concat_lazy n produce tail) ins))) <= 1)%nat.
Proof.
  set (m := x_concat_lazy (A:=A) n produce tail).
  rewrite run_final.
  enough (H : cur_inv n (fst (after m (fst (start_state m)) (snd (start_state m)) ins))
                        (snd (after m (fst (start_state m)) (snd (start_state m)) ins)))
    by (destruct H as [->|[-> _]]; cbn; lia).
  apply (run_from_invariant m (fun s r _ => cur_inv n s r)
           (fun s r acc now i H => lazy_step n produce tail s r now i H) ins _ _ 1 []).
  unfold start_state, m. cbn [x_start x_concat_lazy]. unfold lazy_next.
  destruct (Nat.ltb_spec 0 n) as [Hlt|Hge].
  - destruct (produce 0%nat); cbn; [right; auto|left; reflexivity].
  - destruct tail; cbn; left; reflexivity.
Qed.
End Lazy.
