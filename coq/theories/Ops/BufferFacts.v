(* C18: each buffer equals the contents of its window.  buffer* = window* |>
   flat_map(to_list) is the transformer [buffered] of Ops/Windows.v; the facts
   below are about its command-level core [buf_cmds], for EVERY window machine
   and every command stream:
   - while a window g is open, its buffer is what the buffer held when the
     stretch began plus exactly the elements sent to g since, in order
     ([buffer_tracks_window]);
   - when `CWin g Done` arrives, that list is what is emitted
     ([buffer_is_window_contents]: hand g ... complete g  ==> emit the elements
     sent to g in between);
   - a window's error is the result's error (one evaluation of [buf_cmds]:
     Props/C18.v); plain outer emissions of the window operator do not exist. *)
From RxVerif Require Import Base.Prelude Ops.Machine Ops.MultiWin Ops.Windows.

Section Buf.
Context {A B0 : Type}.
Notation bc := (buf_cmds (A:=A) (B0:=B0)).

(* elements sent to window g in a command list *)
Definition nexts_of (g : nat) (cs : list (cmd A B0)) : list A :=
  flat_map (fun c => match c with CWin j (Next x) => if Nat.eqb g j then [x] else [] | _ => [] end) cs.

(* the stretch does not hand g again and does not terminate g *)
Definition quiet (g : nat) (cs : list (cmd A B0)) : Prop :=
  forall c, In c cs -> match c with
                       | CHand j _ => j <> g
                       | CWin j e => j = g -> is_terminal e = false
                       | _ => True
                       end.

Lemma buf_get_add_same g x l b : buf_get (A:=A) g l = Some b -> buf_get g (buf_add g x l) = Some (b ++ [x]).
Proof.
  induction l as [|[j c] t IH]; [discriminate|]. cbn [buf_get buf_add].
  destruct (Nat.eqb g j) eqn:E; cbn [buf_get]; rewrite E; [intros [= ->]; reflexivity|exact IH].
Qed.
Lemma buf_get_add_other g j x l : g <> j -> buf_get (A:=A) g (buf_add j x l) = buf_get g l.
Proof.
  intros Hne. induction l as [|[i c] t IH]; [reflexivity|]. cbn [buf_get buf_add].
  destruct (Nat.eqb_spec j i) as [->|Hji]; cbn [buf_get].
  - destruct (Nat.eqb_spec g i); [congruence|reflexivity].
  - destruct (Nat.eqb g i); [reflexivity|exact IH].
Qed.
Lemma buf_get_del_other g j l : g <> j -> buf_get (A:=A) g (buf_del j l) = buf_get g l.
Proof.
  intros Hne. induction l as [|[i c] t IH]; [reflexivity|]. cbn [buf_get buf_del].
  destruct (Nat.eqb_spec j i) as [->|Hji]; cbn [buf_get].
  - destruct (Nat.eqb_spec g i); [congruence|reflexivity].
  - destruct (Nat.eqb g i); [reflexivity|exact IH].
Qed.
Lemma buf_get_snoc_other g j l : g <> j -> buf_get (A:=A) g (l ++ [(j, [])]) = buf_get g l.
Proof.
  intros Hne. induction l as [|[i c] t IH]; cbn [app buf_get].
  - destruct (Nat.eqb_spec g j); [congruence|reflexivity].
  - destruct (Nat.eqb g i); [reflexivity|exact IH].
Qed.
Lemma buf_get_snoc_new g l : buf_get (A:=A) g l = None -> buf_get g (l ++ [(g, [])]) = Some [].
Proof.
  induction l as [|[i c] t IH]; cbn [app buf_get]; [rewrite Nat.eqb_refl; reflexivity|].
  destruct (Nat.eqb g i); [discriminate|exact IH].
Qed.

(* while g stays open and the result has not ended, g's buffer grows by exactly
   the elements sent to g *)
Theorem buffer_tracks_window keep g (cs : list (cmd A B0)) : forall open od b,
  quiet g cs -> buf_get g open = Some b ->
  snd (bc keep open od cs) = Cont ->
  buf_get g (fst (fst (bc keep open od cs))) = Some (b ++ nexts_of g cs).
Proof.
  induction cs as [|c t IH]; intros open od b Hq Hg Hf.
  - cbn. now rewrite app_nil_r.
  - assert (Hq' : quiet g t) by (intros c' Hc'; apply Hq; right; exact Hc').
    pose proof (Hq c (or_introl eq_refl)) as Hc.
    destruct c as [b0|j key|j e|k|k|tg d|tg|n|k]; cbn [buf_cmds nexts_of flat_map] in *;
      fold (nexts_of g t) in *.
    (* goals 4-9: the commands flat_map(to_list) passes on *)
    4-9: specialize (IH open od b Hq' Hg); destruct (bc keep open od t) as [[o out] f]; cbn [fst snd] in *; auto.
    + apply IH; assumption.
    + specialize (IH (open ++ [(j, [])]) od b Hq').
      destruct (bc keep (open ++ [(j, [])]) od t) as [[o out] f]. cbn [fst snd] in *.
      apply IH; [|exact Hf]. rewrite buf_get_snoc_other by congruence. exact Hg.
    + destruct e as [x|z|].
      * destruct (Nat.eqb_spec g j) as [<-|Hne].
        -- specialize (IH (buf_add g x open) od (b ++ [x]) Hq' (buf_get_add_same g x open b Hg)).
           destruct (bc keep (buf_add g x open) od t) as [[o out] f]. cbn [fst snd] in *.
           rewrite IH by exact Hf. cbn [app]. now rewrite <- app_assoc.
        -- specialize (IH (buf_add j x open) od b Hq').
           destruct (bc keep (buf_add j x open) od t) as [[o out] f]. cbn [fst snd app] in *.
           apply IH; [|exact Hf]. rewrite buf_get_add_other by exact Hne. exact Hg.
      * destruct (buf_get j open) eqn:Ej; [cbn in Hf; discriminate|]. cbn [app]. apply IH; assumption.
      * destruct (buf_get j open) as [bj|] eqn:Ej; [|cbn [app]; apply IH; assumption].
        assert (Hne : g <> j) by (intros ->; specialize (Hc eq_refl); discriminate).
        destruct (od && match buf_del j open with [] => true | _ => false end); [cbn in Hf; discriminate|].
        specialize (IH (buf_del j open) od b Hq').
        destruct (bc keep (buf_del j open) od t) as [[o out] f]. cbn [fst snd app] in *.
        apply IH; [|exact Hf]. rewrite buf_get_del_other by exact Hne. exact Hg.
Qed.

(* The recursive cases of buf_cmds all have the shape "run the tail, put [pre] in front of its
   output"; continuing with [k] after such a result is continuing after the tail's. *)
Lemma then_prefix (pre : list (cmd A (list A))) (r : list (nat * list A) * list (cmd A (list A)) * fin)
    (k : list (nat * list A) -> list (nat * list A) * list (cmd A (list A)) * fin) :
  let r' := let '(o, out, f) := r in (o, pre ++ out, f) in
  match snd r' with
  | Cont => let '(o2, out2, f2) := k (fst (fst r')) in (o2, snd (fst r') ++ out2, f2)
  | _ => r'
  end
  = let '(o, out, f) := match snd r with
                        | Cont => let '(o2, out2, f2) := k (fst (fst r)) in (o2, snd (fst r) ++ out2, f2)
                        | _ => r
                        end in (o, pre ++ out, f).
Proof.
  destruct r as [[o out] f]. cbn [fst snd]. destruct f; try reflexivity.
  destruct (k o) as [[o2 out2] f2]. now rewrite app_assoc.
Qed.

Lemma buf_cmds_app keep (a : list (cmd A B0)) : forall open od b,
  bc keep open od (a ++ b)
  = match snd (bc keep open od a) with
    | Cont => let '(o2, out2, f2) := bc keep (fst (fst (bc keep open od a))) od b in
              (o2, snd (fst (bc keep open od a)) ++ out2, f2)
    | _ => bc keep open od a
    end.
Proof.
  induction a as [|c t IH]; intros open od b.
  - cbn. destruct (bc keep open od b) as [[o out] f]. reflexivity.
  - destruct c as [b0|j key|j e|k|k|tg d|tg|n|k]; cbn [app buf_cmds].
    + apply IH.
    + rewrite IH. symmetry. exact (then_prefix [] _ (fun o => bc keep o od b)).
    + destruct e as [x|z|].
      * rewrite IH. symmetry. exact (then_prefix [] _ (fun o => bc keep o od b)).
      * destruct (buf_get j open); [reflexivity|apply IH].
      * destruct (buf_get j open) as [bj|]; [|apply IH].
        destruct (od && match buf_del j open with [] => true | _ => false end); [reflexivity|].
        rewrite IH. symmetry. exact (then_prefix _ _ (fun o => bc keep o od b)).
    + rewrite IH. symmetry. exact (then_prefix [CSub k] _ (fun o => bc keep o od b)).
    + rewrite IH. symmetry. exact (then_prefix [CUnsub k] _ (fun o => bc keep o od b)).
    + rewrite IH. symmetry. exact (then_prefix [CTimer tg d] _ (fun o => bc keep o od b)).
    + rewrite IH. symmetry. exact (then_prefix [CCancel tg] _ (fun o => bc keep o od b)).
    + rewrite IH. symmetry. exact (then_prefix [CEffect n] _ (fun o => bc keep o od b)).
    + rewrite IH. symmetry. exact (then_prefix [CSubLive k] _ (fun o => bc keep o od b)).
Qed.

Definition emits_of (out : list (cmd A (list A))) : list (list A) :=
  flat_map (fun c => match c with CEmit l => [l] | _ => [] end) out.

(* C18: window g is handed, then (stretch [mid]) receives elements, then
   completes: what is emitted at that point is exactly the list of the elements
   sent to g in between.  (keep = false -- buffer_with_count -- drops an empty
   list; if the outer is done and g was the last open window, the result
   completes there.) *)
Theorem buffer_is_window_contents keep g key (mid post : list (cmd A B0)) open od :
  buf_get g open = None -> quiet g mid ->
  snd (bc keep (open ++ [(g, [])]) od mid) = Cont ->
  let o1 := fst (fst (bc keep (open ++ [(g, [])]) od mid)) in
  let content := nexts_of g mid in
  snd (fst (bc keep open od (CHand g key :: mid ++ CWin g Done :: post)))
  = snd (fst (bc keep (open ++ [(g, [])]) od mid))
    ++ (if keep || negb (match content with [] => true | _ => false end) then [CEmit content] else [])
    ++ (if od && match buf_del g o1 with [] => true | _ => false end then []
        else snd (fst (bc keep (buf_del g o1) od post))).
Proof.
  intros Hnone Hq Hf. cbn zeta. cbn [buf_cmds].
  pose proof (buffer_tracks_window keep g mid (open ++ [(g, [])]) od [] Hq (buf_get_snoc_new g open Hnone) Hf) as Ht.
  cbn [app] in Ht.
  assert (E : bc keep (open ++ [(g, [])]) od (mid ++ CWin g Done :: post)
              = let '(o2, out2, f2) := bc keep (fst (fst (bc keep (open ++ [(g, [])]) od mid))) od (CWin g Done :: post) in
                (o2, snd (fst (bc keep (open ++ [(g, [])]) od mid)) ++ out2, f2)).
  { rewrite buf_cmds_app, Hf. reflexivity. }
  rewrite E. clear E. cbn [buf_cmds]. rewrite Ht.
  destruct (bc keep (open ++ [(g, [])]) od mid) as [[o1 out1] f1]. cbn [fst snd] in *.
  destruct (od && match buf_del g o1 with [] => true | _ => false end); cbn [fst snd].
  - now rewrite app_nil_r.
  - destruct (bc keep (buf_del g o1) od post) as [[o3 out3] f3]. cbn [fst snd]. reflexivity.
Qed.

(* one step of a buffered machine, without unfolding the inner machine *)
Lemma x_step_buffered keep (m : machine A A B0) st now i :
  x_step (buffered keep m) st now i
  = let '(s', cs, f) := x_step m (b_inner st) now i in
    let '(open, out, f1) := bc keep (b_open st) (b_outer_done st) cs in
    let '(od, f2) := buf_finish open (b_outer_done st) f1 f in
    (BufSt s' open od, out, f2).
Proof. reflexivity. Qed.

Lemma x_start_buffered keep (m : machine A A B0) :
  x_start (buffered keep m)
  = let '(s0, cs, f) := x_start m in
    let '(open, out, f1) := bc keep [] false cs in
    let '(od, f2) := buf_finish open false f1 f in
    (BufSt s0 open od, out, f2).
Proof. reflexivity. Qed.
End Buf.
