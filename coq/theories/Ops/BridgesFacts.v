(* C41: the bridge outcome models of Ops/Bridges.v (from_future, to_future and run(), to_async,
   from_callback), for all action sequences. *)
From RxVerif Require Import Base.Prelude Ops.Machine Ops.Bridges.

Local Open Scope nat_scope.

Definition settled (fs : fstate) : Prop := fs <> FPending.

Lemma ff_run_dead acts : forall fs k, settled fs -> ff_run (fs, true) k acts = ([], [], fs).
Proof.
  induction acts as [|a rest IH]; intros fs k Hs; [reflexivity|].
  cbn [ff_run]. assert (E : ff_step (fs, true) k a = ((fs, true), [], [])).
  { destruct a; cbn; destruct fs; try reflexivity; exfalso; apply Hs; reflexivity. }
  rewrite E, (IH fs (S k) Hs). reflexivity.
Qed.

Theorem from_future_result v rest :
  from_future FPending (ASetResult v :: rest) = ([(1, Next v); (1, Done)], [1], FResult v).
Proof. cbn [from_future ff_run ff_step]. rewrite ff_run_dead by discriminate. reflexivity. Qed.

Theorem from_future_exception e rest :
  from_future FPending (ASetExn e :: rest) = ([(1, Err e)], [1], FExn e).
Proof. cbn [from_future ff_run ff_step]. rewrite ff_run_dead by discriminate. reflexivity. Qed.

Theorem from_future_cancelled rest :
  from_future FPending (ACancel :: rest) = ([(1, Err CANCELLED)], [1], FCancelled).
Proof. cbn [from_future ff_run ff_step]. rewrite ff_run_dead by discriminate. reflexivity. Qed.

(* unsubscribed first: the future is cancelled, nothing is ever delivered *)
Theorem from_future_dispose_first rest :
  from_future FPending (ADispose :: rest) = ([], [1], FCancelled).
Proof. cbn [from_future ff_run ff_step]. rewrite ff_run_dead by discriminate. reflexivity. Qed.

Theorem from_future_already_done init acts : settled init ->
  from_future init acts = (settled_notes 0 init, [0], init).
Proof.
  intros Hs. unfold from_future. destruct init; try (exfalso; apply Hs; reflexivity);
    rewrite ff_run_dead by discriminate; cbn; rewrite ?app_nil_r; reflexivity.
Qed.

(* in general: the subscriber gets nothing, or exactly the notifications of the
   future's final state, at one position; the library calls cancel() at most once *)
Lemma ff_run_shape acts : forall fs k,
  (fs = FPending ->
   let '(ns, cs, fin) := ff_run (fs, false) k acts in
   (ns = [] /\ cs = [] /\ fin = FPending)
   \/ (exists j, (ns = [] \/ ns = settled_notes j fin) /\ cs = [j] /\ settled fin)).
Proof.
  induction acts as [|a rest IH]; intros fs k ->; [left; auto|].
  cbn [ff_run].
  destruct a; cbn [ff_step]; rewrite ff_run_dead by discriminate; right; exists k; cbn; repeat split; auto; discriminate.
Qed.

Theorem from_future_at_most_one_outcome acts :
  let '(ns, cs, fin) := from_future FPending acts in
  (ns = [] /\ cs = [] /\ fin = FPending)
  \/ (exists j, (ns = [] \/ ns = settled_notes j fin) /\ cs = [j] /\ settled fin).
Proof. exact (ff_run_shape acts FPending 1 eq_refl). Qed.

Definition last_opt (xs : list Z) (d : option Z) : option Z := fold_left (fun _ x => Some x) xs d.

Lemma tf_run_nexts xs : forall last k rest,
  tf_run (last, FPending, true) k (map TSrc (map Next xs) ++ rest)
  = tf_run (last_opt xs last, FPending, true) (k + length xs) rest.
Proof.
  induction xs as [|x t IH]; intros last k rest; cbn [map app length last_opt fold_left].
  - now rewrite Nat.add_0_r.
  - cbn [tf_run tf_step]. rewrite (IH (Some x) (S k) rest). unfold last_opt.
    replace (S k + length t) with (k + S (length t)) by lia.
    destruct (tf_run (fold_left (fun (_ : option Z) (x0 : Z) => Some x0) t (Some x), FPending, true) (k + S (length t)) rest). reflexivity.
Qed.

Lemma tf_run_dead junk : forall last fut k,
  tf_run (last, fut, false) k (map TSrc junk) = ([], fut).
Proof.
  induction junk as [|e t IH]; intros last fut k; [reflexivity|].
  cbn [map tf_run]. destruct e; cbn [tf_step]; rewrite IH; reflexivity.
Qed.

Definition expected_future (xs : list Z) (t : term) : fstate :=
  match t with
  | TDone => match last_opt xs None with Some v => FResult v | None => FExn NO_ELEMENTS end
  | TErr e => FExn e
  | TNever => FPending
  end.

(* to_future resolves with the LAST element of every finite sequence, fails with
   the sequence's error, or with SequenceContainsNoElementsError when empty;
   whatever a non-conforming source sends after its terminal notification is
   ignored; the source subscription is disposed exactly then *)
Theorem to_future_spec xs t junk : t <> TNever ->
  to_future (map TSrc (events xs t ++ junk)) = ([S (length xs)], expected_future xs t).
Proof.
  intros Ht. unfold to_future, events. rewrite <- app_assoc, map_app, tf_run_nexts.
  destruct t; try congruence; cbn [app map tf_run tf_step expected_future];
    rewrite tf_run_dead; cbn; destruct (last_opt xs None); reflexivity.
Qed.

Theorem to_future_pending xs : to_future (map TSrc (events xs TNever)) = ([], FPending).
Proof.
  unfold to_future, events. rewrite app_nil_r. rewrite <- (app_nil_r (map TSrc (map Next xs))), tf_run_nexts.
  reflexivity.
Qed.

Theorem run_spec xs t junk : t <> TNever ->
  run_outcome (events xs t ++ junk)
  = match t with
    | TDone => match last_opt xs None with Some v => Returns v | None => Raises NO_ELEMENTS end
    | TErr e => Raises e
    | TNever => Blocks
    end.
Proof.
  intros Ht. unfold run_outcome. rewrite (to_future_spec xs t junk Ht). cbn [snd].
  destruct t; try congruence; cbn; destruct (last_opt xs None); reflexivity.
Qed.

Theorem run_blocks xs : run_outcome (events xs TNever) = Blocks.
Proof. unfold run_outcome. now rewrite to_future_pending. Qed.

Lemma ta_run_stopped r acts : forall ran k, ta_run r (ran, Stopped) k acts = [].
Proof.
  induction acts as [|a t IH]; intros ran k; [reflexivity|]. cbn [ta_run].
  destruct a; cbn [ta_step]; try (destruct ran); cbn [app]; apply IH.
Qed.

(* the function's single result, once, or nothing: never twice, never anything else *)
Theorem ta_run_single_result r acts : forall ran sub k,
  ta_run r (ran, sub) k acts = [] \/ exists j, ta_run r (ran, sub) k acts = result_notes j r.
Proof.
  induction acts as [|a t IH]; intros ran sub k; [left; reflexivity|]. cbn [ta_run].
  destruct a; cbn [ta_step].
  - destruct ran; [apply IH|]. destruct sub; cbn [app]; try apply IH.
    rewrite ta_run_stopped, app_nil_r. right. exists k. reflexivity.
  - destruct sub; cbn [app]; try apply IH. destruct ran; cbn [app]; [|apply IH].
    rewrite ta_run_stopped, app_nil_r. right. exists k. reflexivity.
  - destruct sub; cbn [app]; apply IH.
Qed.

(* no delivery without the call having run, none without a subscription *)
Lemma ta_run_never_run r acts : forall sub k, ~ In ARun acts -> ta_run r (false, sub) k acts = [].
Proof.
  induction acts as [|a t IH]; intros sub k H; [reflexivity|].
  cbn [ta_run]. assert (H' : ~ In ARun t) by (intros C; apply H; right; exact C).
  destruct a; [exfalso; apply H; left; reflexivity| |]; cbn [ta_step]; destruct sub; cbn [app]; apply IH; exact H'.
Qed.

Lemma ta_run_never_subscribed r acts : forall ran k, ~ In ASubscribe acts -> ta_run r (ran, NotYet) k acts = [].
Proof.
  induction acts as [|a t IH]; intros ran k H; [reflexivity|].
  cbn [ta_run]. assert (H' : ~ In ASubscribe t) by (intros C; apply H; right; exact C).
  destruct a; [|exfalso; apply H; left; reflexivity|]; cbn [ta_step]; try destruct ran; cbn [app]; apply IH; exact H'.
Qed.

Definition is_run (a : aact) : bool := match a with ARun => true | _ => false end.

Lemma is_run_In l : existsb is_run l = true <-> In ARun l.
Proof.
  rewrite existsb_exists. split.
  - intros [x [I E]]. destruct x; try discriminate. exact I.
  - intros I. exists ARun. split; [exact I|reflexivity].
Qed.

(* before the subscription: only the call's action can happen (unsubscribing nothing is a no-op) *)
Lemma ta_run_notyet r a1 : forall ran k rest, ~ In ASubscribe a1 ->
  ta_run r (ran, NotYet) k (a1 ++ rest) = ta_run r (ran || existsb is_run a1, NotYet) (k + length a1) rest.
Proof.
  induction a1 as [|a t IH]; intros ran k rest Hs.
  - cbn. now rewrite orb_false_r, Nat.add_0_r.
  - cbn [app ta_run length existsb]. replace (k + S (length t)) with (S k + length t) by lia.
    assert (Hs' : ~ In ASubscribe t) by (intros C; apply Hs; right; exact C).
    destruct a.
    + cbn [ta_step is_run]. destruct ran; cbn [app orb]; rewrite IH by exact Hs'; reflexivity.
    + exfalso. apply Hs. left. reflexivity.
    + cbn [ta_step app is_run orb]. apply IH. exact Hs'.
Qed.

(* while subscribed and the call has not run: further subscribe calls are no-ops *)
Lemma ta_run_live r a2 : forall k rest, ~ In ARun a2 -> ~ In AUnsubscribe a2 ->
  ta_run r (false, Live) k (a2 ++ rest) = ta_run r (false, Live) (k + length a2) rest.
Proof.
  induction a2 as [|a t IH]; intros k rest H1 H2.
  - cbn. now rewrite Nat.add_0_r.
  - cbn [app ta_run length]. replace (k + S (length t)) with (S k + length t) by lia.
    destruct a.
    + exfalso. apply H1. left. reflexivity.
    + cbn [ta_step app]. apply IH; intros C; [apply H1|apply H2]; right; exact C.
    + exfalso. apply H2. left. reflexivity.
Qed.

Lemma to_async_live r a1 a2 rest : ~ In ARun a1 -> ~ In ASubscribe a1 -> ~ In ARun a2 -> ~ In AUnsubscribe a2 ->
  to_async r (a1 ++ ASubscribe :: a2 ++ rest) = ta_run r (false, Live) (length a1 + S (length a2)) rest.
Proof.
  intros H1 H2 H3 H4. unfold to_async. rewrite ta_run_notyet by exact H2.
  destruct (existsb is_run a1) eqn:Ex; [exfalso; apply H1; apply is_run_In; exact Ex|].
  cbn [orb ta_run ta_step Nat.add app]. rewrite ta_run_live by assumption. f_equal. lia.
Qed.

Lemma fc_run_stopped m invs : fc_run m true invs = [].
Proof. induction invs as [|[k a] t IH]; [reflexivity|exact IH]. Qed.

Theorem from_callback_first_invocation m k args rest :
  from_callback m ((k, args) :: rest) = handler_notes m k args.
Proof. unfold from_callback. cbn [fc_run]. now rewrite fc_run_stopped, app_nil_r. Qed.

Definition arguments_value (args : list Z) : bval :=
  match args with [] => VNone | [x] => VOne x | _ => VList args end.

(* exactly one value -- the callback arguments, or the mapper's result -- and
   then completion, with or without a mapper *)
Theorem from_callback_spec_no_mapper k args rest :
  from_callback None ((k, args) :: rest) = [(k, Next (arguments_value args)); (k, Done)].
Proof. rewrite from_callback_first_invocation. reflexivity. Qed.

Theorem from_callback_spec_mapper mp k args rest v : apply_mapper mp args = Ok v ->
  from_callback (Some mp) ((k, args) :: rest) = [(k, Next (VOne v)); (k, Done)].
Proof. intros E. rewrite from_callback_first_invocation. cbn [handler_notes]. now rewrite E. Qed.

Theorem from_callback_mapper_raises mp k args rest e : apply_mapper mp args = Raise e ->
  from_callback (Some mp) ((k, args) :: rest) = [(k, Err e)].
Proof. intros E. rewrite from_callback_first_invocation. cbn [handler_notes]. now rewrite E. Qed.

Theorem from_callback_never_invoked m : from_callback m [] = [].
Proof. reflexivity. Qed.
