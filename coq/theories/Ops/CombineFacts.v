(* C13: what the multi-source combinators share under the runner -- a subscribe() that only
   subscribes the sources; handlers that only emit and keep every source subscribed until it
   terminates ([engine_run]: the trace of such an operator is read off an abstract state) -- then
   amb against its abstract specification, and the pairing invariant of zip's handler.
   The first half is what those proofs need from lists and from the runner: [nth_set] (the handlers'
   update of a per-source list), [mem] over the live lists the subscribe() functions build
   ([seq], its reverse, children-then-parent), and runs of commands that only subscribe or only emit. *)
From RxVerif Require Import Base.Prelude Ops.Machine Ops.Multi Ops.MultiFacts
  Ops.RunLemmas Ops.Combinators Ops.MergeFacts.

Section Lists.
Context {X : Type}.

Lemma nth_set_length k (x : X) l : length (nth_set k x l) = length l.
Proof.
  revert k. induction l as [|a l IH]; intros [|k]; try reflexivity.
  unfold nth_set in *. cbn [firstn skipn app length]. f_equal. apply IH.
Qed.

Lemma nth_nth_set_same k (x d : X) l : (k < length l)%nat -> nth k (nth_set k x l) d = x.
Proof.
  revert k. induction l as [|a l IH]; intros [|k] H; cbn [length] in H; try lia; [reflexivity|].
  unfold nth_set in *. cbn [firstn skipn app nth]. apply IH. lia.
Qed.

Lemma nth_nth_set_other j k (x d : X) l : j <> k -> nth j (nth_set k x l) d = nth j l d.
Proof.
  revert j k. induction l as [|a l IH]; intros [|j] [|k] H; try reflexivity; try congruence.
  unfold nth_set in *. cbn [firstn skipn app nth]. apply IH. congruence.
Qed.

Lemma nth_nth_set_cases j k (v d : X) l : (k < length l)%nat ->
  nth j (nth_set k v l) d = if Nat.eqb j k then v else nth j l d.
Proof.
  intros Hk. destruct (Nat.eqb_spec j k) as [->|Hne].
  - now apply nth_nth_set_same.
  - now apply nth_nth_set_other.
Qed.

Lemma map_nth_set {Y} (f : X -> Y) k v l : map f (nth_set k v l) = nth_set k (f v) (map f l).
Proof.
  unfold nth_set. rewrite map_app, firstn_map, skipn_map. f_equal.
  destruct (skipn k l); reflexivity.
Qed.

Lemma Forall_nth_set (P : X -> Prop) k v l : Forall P l -> P v -> Forall P (nth_set k v l).
Proof.
  intros Hl Hv. revert k. induction Hl as [|a l Ha Hl IH]; intros [|k]; try constructor; auto.
  exact (IH k).
Qed.
End Lists.

Lemma nth_repeat_false j n : nth j (repeat false n) true = negb (Nat.ltb j n).
Proof.
  destruct (Nat.ltb_spec j n) as [H|H]; cbn [negb].
  - rewrite (nth_indep _ true false) by (rewrite repeat_length; exact H). apply nth_repeat.
  - apply nth_overflow. rewrite repeat_length. exact H.
Qed.

Lemma forallb_ext_in {X} (f g : X -> bool) (l : list X) :
  (forall x, In x l -> f x = g x) -> forallb f l = forallb g l.
Proof.
  induction l as [|a t IH]; intros H; [reflexivity|].
  cbn [forallb]. rewrite (H a (or_introl eq_refl)), IH; [reflexivity|].
  intros x Hx. apply H. now right.
Qed.

(* a check over the (index, completed flag) pairs, as the handlers write it, is a check over the indices *)
Lemma forallb_combine_seq (f : nat -> bool) : forall (done : list bool) s,
  forallb (fun jd : nat * bool => f (fst jd) || snd jd) (combine (seq s (length done)) done)
  = forallb (fun j => f j || nth (j - s) done true) (seq s (length done)).
Proof.
  induction done as [|d ds IH]; intros s; [reflexivity|].
  cbn [length seq combine forallb fst snd]. rewrite Nat.sub_diag. cbn [nth]. f_equal.
  rewrite IH. apply forallb_ext_in. intros j Hj. apply in_seq in Hj.
  replace (j - s)%nat with (S (j - S s)) by lia. reflexivity.
Qed.

Lemma mem_eq_iff k l (b : bool) : (In k l <-> b = true) -> mem k l = b.
Proof. intros H. apply eq_true_iff_eq. now rewrite mem_In. Qed.

(* at subscription the sources 0 .. n-1 are live and none has completed *)
Lemma mem_seq0_none_done j n : mem j (seq 0 n) = Nat.ltb j n && negb (nth j (repeat false n) true).
Proof. rewrite nth_repeat_false, negb_involutive, andb_diag. exact (mem_seq j 0 n). Qed.

Lemma mem_rev_seq k n : mem k (rev (seq 0 n)) = Nat.ltb k n.
Proof. apply mem_eq_iff. rewrite <- in_rev, in_seq, Nat.ltb_lt. lia. Qed.

(* what with_latest_from subscribes: the children 1 .. n, then the parent 0 *)
Lemma wlf_live_mem j n : mem j (seq 1 n ++ [0%nat]) = Nat.leb j n.
Proof. apply mem_eq_iff. rewrite in_app_iff, in_seq, Nat.leb_le. cbn [In]. lia. Qed.

Lemma wlf_live_nodup n : NoDup (seq 1 n ++ [0%nat]).
Proof.
  rewrite <- (rev_involutive (seq 1 n)). apply (NoDup_rev (l := 0%nat :: rev (seq 1 n))).
  constructor; [rewrite <- in_rev, in_seq; lia|apply NoDup_rev, seq_NoDup].
Qed.

Lemma mem_remove_nodup j k l : NoDup l -> mem j (remove k l) = negb (Nat.eqb j k) && mem j l.
Proof.
  intros Hnd. apply mem_eq_iff. rewrite andb_true_iff, negb_true_iff, Nat.eqb_neq, mem_In.
  split.
  - intros H. split; [|now apply (incl_remove _ _ _) in H].
    intros ->. now apply (remove_nodup k l Hnd).
  - intros [Hne H]. apply in_remove_other; [congruence|exact H].
Qed.

(* the sources still subscribed, told by completed flags: source k completes *)
Lemma acc_after_done (bound : nat -> bool) k (done : list bool) j : (k < length done)%nat ->
  bound j && negb (nth j (nth_set k true done) true)
  = negb (Nat.eqb j k) && (bound j && negb (nth j done true)).
Proof.
  intros Hk. rewrite nth_nth_set_cases by exact Hk.
  destruct (Nat.eqb j k), (bound j), (nth j done true); reflexivity.
Qed.

Section Runner.
Context {A B : Type} (m : machine A B).

Lemma apply_cmds_sub_only (l : list nat) : forall r,
  apply_cmds (B:=B) r (map CSub l) = (RState (r_live r ++ l) (r_timers r) (r_stopped r), map OSub l).
Proof.
  induction l as [|j t IHl]; intros r.
  - destruct r; cbn. now rewrite app_nil_r.
  - cbn [map apply_cmds]. rewrite IHl. cbn. now rewrite <- app_assoc.
Qed.

Lemma cemits_emit_only (bs : list B) : cemits (map CEmit bs) = bs.
Proof. induction bs as [|b t IH]; [reflexivity|]. cbn. f_equal. exact IH. Qed.

Lemma emits_sub_only (l : list nat) : emits (map (@OSub B) l) = [].
Proof. induction l; [reflexivity|assumption]. Qed.

Lemma temitted_sub_only pos (l : list nat) (tr : list (nat * obs B)) :
  temitted (map (fun x => (pos, x)) (map OSub l) ++ tr) = temitted tr.
Proof. induction l; [reflexivity|assumption]. Qed.

Lemma run_from_cons_snd s r k now i rest :
  snd (run_from m s r k ((now, i) :: rest))
  = snd (run_from m (fst (fst (rstep m s r now i))) (snd (fst (rstep m s r now i))) (S k) rest).
Proof.
  now rewrite run_from_cons.
Qed.

Lemma rstep_emit_only s live ts now k e s' (bs : list B) :
  mem k live = true -> x_step m s now (ISrc k e) = (s', map CEmit bs, Cont) ->
  rstep m s (RState live ts false) now (ISrc k e)
  = (s', RState (if is_terminal e then remove k live else live) ts false,
     map (fun b => OEmit (Next b)) bs ++ (if is_terminal e then [OUnsub k] else [])).
Proof.
  intros Hmem Ex. rewrite rstep_handled_eq by (auto; left; exact Hmem).
  rewrite Ex. cbn [handled_step fst snd]. rewrite apply_cmds_emit_only.
  cbn [fst snd auto_detach r_live r_timers r_stopped]. rewrite Hmem.
  destruct (is_terminal e); cbn [andb finish fst snd app]; rewrite ?app_nil_r; reflexivity.
Qed.

Lemma run_sub_start s0 live (ins : list (Z * inp A)) :
  x_start m = (s0, map CSub live, Cont) ->
  run m ins = (map (fun x => (0%nat, x)) (map OSub live) ++ fst (run_from m s0 (RState live [] false) 1 ins),
               snd (run_from m s0 (RState live [] false) 1 ins)).
Proof.
  intros H. rewrite run_start. unfold start_step. rewrite H, apply_cmds_sub_only.
  cbn [fst snd finish app r_live r_timers r_stopped]. now rewrite app_nil_r.
Qed.
End Runner.

(* operators whose handlers only emit, keep one subscription per source until that source
   terminates, and never use timers: the trace of a run is [gspec], read off an abstract state *)
Section Engine.
Context {A B : Type} (m : machine A B) (St : Type).
Variable acc : St -> nat -> bool.                            (* source k is subscribed *)
Variable sstep : St -> nat -> ev A -> St * list B * fin.     (* abstract handler *)
Variable P : St -> x_state m -> Prop.                        (* abstraction relation *)

Fixpoint gspec (a : St) (pos : nat) (ins : list (Z * inp A)) : list (nat * ev B) :=
  match ins with
  | [] => []
  | (_, ISrc k e) :: t =>
      if acc a k then
        let '(a', bs, f) := sstep a k e in
        map (fun b => (pos, Next b)) bs ++
        match f with
        | Cont => gspec a' (S pos) t
        | Complete => [(pos, Done)]
        | Fail er => [(pos, Err er)]
        end
      else gspec a (S pos) t
  | (_, ITick _) :: t => gspec a (S pos) t
  | (_, IDispose) :: _ => []
  end.

Hypothesis Hstep : forall a s now k e, P a s -> acc a k = true ->
  let '(a', bs, f) := sstep a k e in
  exists s', x_step m s now (ISrc k e) = (s', map CEmit bs, f)
    /\ (f = Cont -> P a' s'
        /\ forall j, acc a' j = (if is_terminal e then negb (Nat.eqb j k) else true) && acc a j).
Hypothesis Hdisp : forall s now, snd (fst (x_step m s now IDispose)) = [].

Lemma engine_from (ins : list (Z * inp A)) : forall a s live pos,
  P a s -> NoDup live -> (forall j, mem j live = acc a j) ->
  temitted (fst (run_from m s (RState live [] false) pos ins)) = gspec a pos ins.
Proof.
  induction ins as [|[now i] rest IH]; intros a s live pos HP Hnd Hlive; [reflexivity|].
  rewrite temitted_run_cons. cbn [gspec].
  destruct i as [k e|tag|].
  - rewrite <- (Hlive k). destruct (mem k live) eqn:Hmem.
    + assert (Hacc : acc a k = true) by (now rewrite <- Hlive).
      pose proof (Hstep a s now k e HP Hacc) as Hs.
      destruct (sstep a k e) as [[a' bs] f]. destruct Hs as (s' & Ex & Hc).
      destruct f as [| |er];
        [|rewrite temitted_fin by (reflexivity || exact Hmem || (rewrite Ex; discriminate));
          rewrite Ex; cbn [fst snd]; now rewrite cemits_emit_only..].
      (* the subscription goes on *)
      destruct (Hc eq_refl) as [HP' Hacc'].
      assert (T : temitted (map (fun x : obs B => (pos, x)) (if is_terminal e then [OUnsub k] else [])) = [])
        by (destruct (is_terminal e); reflexivity).
      rewrite (rstep_emit_only m s live [] now k e s' bs Hmem Ex). cbn [fst snd].
      rewrite map_app, temitted_app, T, app_nil_r, temitted_emit_only. f_equal.
      apply IH; [exact HP'| |].
      * destruct (is_terminal e); [apply remove_nodup; exact Hnd|exact Hnd].
      * intros j. rewrite Hacc', <- Hlive. destruct (is_terminal e); [|reflexivity].
        apply mem_remove_nodup. exact Hnd.
    + rewrite temitted_dropped by (exact Hmem || discriminate). apply IH; assumption.
  - rewrite temitted_dropped by (reflexivity || discriminate). apply IH; assumption.
  - cbn [rstep r_stopped]. pose proof (Hdisp s now) as Hd.
    destruct (x_step m s now IDispose) as [[s' cs] f]. cbn [fst snd] in Hd. subst cs.
    cbn [apply_cmds fst snd]. rewrite run_from_stopped by reflexivity. cbn [fst]. rewrite app_nil_r.
    cbn [filter app]. apply release_temitted.
Qed.

Lemma engine_run a0 s0 live0 (ins : list (Z * inp A)) :
  x_start m = (s0, map CSub live0, Cont) ->
  P a0 s0 -> NoDup live0 -> (forall j, mem j live0 = acc a0 j) ->
  temitted (fst (run m ins)) = gspec a0 1 ins.
Proof.
  intros Hstart HP Hnd Hlive. rewrite (run_sub_start m s0 live0 ins Hstart). cbn [fst].
  rewrite temitted_sub_only. now apply engine_from.
Qed.
End Engine.
Arguments gspec {A B St} acc sstep a pos ins.

Section Amb.
Context {A : Type}.

(* SPEC of amb over n sources: the first source to notify is mirrored --
   including its termination -- and all others are ignored from then on *)
Fixpoint amb_spec (n : nat) (choice : option nat) (pos : nat) (ins : list (Z * inp A)) : list (nat * ev A) :=
  match ins with
  | [] => []
  | (_, ISrc k e) :: t =>
      if match choice with None => Nat.ltb k n | Some c => Nat.eqb k c end then
        match e with
        | Next x => (pos, Next x) :: amb_spec n (Some k) (S pos) t
        | Err x => [(pos, Err x)]
        | Done => [(pos, Done)]
        end
      else amb_spec n choice (S pos) t
  | (_, ITick _) :: t => amb_spec n choice (S pos) t
  | (_, IDispose) :: _ => []
  end.

Lemma apply_unsub_others (k : nat) (others : list nat) : forall live ts,
  NoDup live -> In k live -> ~ In k others -> (forall j, In j live -> j = k \/ In j others) ->
  fst (apply_cmds (B:=A) (RState live ts false) (map CUnsub others)) = RState [k] ts false.
Proof.
  induction others as [|j rest IH]; intros live ts Hnd Hk Hnot Hcov.
  - (* nothing to unsubscribe: live is covered by k alone and has no duplicates *)
    cbn. f_equal.
    destruct live as [|a l]; [destruct Hk|].
    assert (a = k) by (destruct (Hcov a (or_introl eq_refl)) as [H|[]]; exact H). subst a.
    destruct l as [|b l']; [reflexivity|].
    exfalso. destruct (Hcov b (or_intror (or_introl eq_refl))) as [H|[]]. subst b.
    inversion Hnd as [|? ? Hn _]. apply Hn. left. reflexivity.
  - cbn [map apply_cmds r_live r_timers r_stopped].
    assert (Hjk : j <> k) by (intros ->; apply Hnot; left; reflexivity).
    destruct (mem j live) eqn:Hm.
    + destruct (remove_nodup j live Hnd) as [Hnd2 Hnotin].
      specialize (IH (remove j live) ts Hnd2 (in_remove_other j k live Hjk Hk)
                    (fun H => Hnot (or_intror H))).
      destruct (apply_cmds (RState (remove j live) ts false) (map CUnsub rest)) as [r2 o2] eqn:E.
      cbn [fst] in *. apply IH.
      intros x Hx. destruct (Hcov x (incl_remove _ _ _ Hx)) as [H|[H|H]]; auto.
      subst x. contradiction.
    + specialize (IH live ts Hnd Hk (fun H => Hnot (or_intror H))).
      destruct (apply_cmds (RState live ts false) (map CUnsub rest)) as [r2 o2] eqn:E.
      cbn [fst] in *. apply IH.
      intros x Hx. destruct (Hcov x Hx) as [H|[H|H]]; auto.
      subst x. apply mem_false in Hm. contradiction.
Qed.

Lemma cemits_unsub_only (others : list nat) : cemits (map (@CUnsub A) others) = [].
Proof. induction others; [reflexivity|assumption]. Qed.

(* "chosen": the machine's state is [Some c] and c is the only subscription (from the first
   notification of one of the n sources on); "open": [None], all n sources subscribed *)
Lemma amb_chosen_step n c now (i : inp A) :
  rstep (x_amb n) (Some c) (RState [c] [] false) now i
  = match i with
    | ISrc k e =>
        if Nat.eqb k c then
          match e with
          | Next x => (Some c, RState [c] [] false, [OEmit (Next x)])
          | _ => (Some c, RState [] [] true, [OUnsub c; OEmit e])
          end
        else (Some c, RState [c] [] false, [])
    | ITick _ => (Some c, RState [c] [] false, [])
    | IDispose => (Some c, RState [] [] true, [OUnsub c])
    end.
Proof.
  destruct i as [k e|tag|]; [|reflexivity|reflexivity].
  destruct (Nat.eqb k c) eqn:E.
  - apply Nat.eqb_eq in E. subst k. destruct e; cbn; rewrite !Nat.eqb_refl; cbn;
      rewrite ?Nat.eqb_refl; reflexivity.
  - cbn. rewrite E. reflexivity.
Qed.

Lemma amb_chosen_from n (ins : list (Z * inp A)) : forall c pos,
  temitted (fst (run_from (x_amb n) (Some c) (RState [c] [] false) pos ins)) = amb_spec n (Some c) pos ins.
Proof.
  induction ins as [|[now i] rest IH]; intros c pos; [reflexivity|].
  rewrite temitted_run_cons, amb_chosen_step. cbn [amb_spec].
  destruct i as [k e|tag|]; [destruct (Nat.eqb_spec k c) as [->|_]; [destruct e|]| |];
    cbn [fst snd]; rewrite ?IH, ?run_from_stopped by reflexivity; reflexivity.
Qed.

Lemma amb_chosen_final n (ins : list (Z * inp A)) : forall c pos,
  snd (run_from (x_amb n) (Some c) (RState [c] [] false) pos ins) = RState [c] [] false
  \/ snd (run_from (x_amb n) (Some c) (RState [c] [] false) pos ins) = RState [] [] true.
Proof.
  induction ins as [|[now i] rest IH]; intros c pos; [left; reflexivity|].
  rewrite run_from_cons_snd, amb_chosen_step.
  destruct i as [k e|tag|]; [destruct (Nat.eqb k c); [destruct e|]| |];
    cbn [fst snd]; try apply IH; right; now rewrite run_from_stopped.
Qed.

(* the first notification of one of the n sources: every other source is unsubscribed within that
   very step *)
Lemma amb_winner_step n now w (e : ev A) pos : (w < n)%nat ->
  match e with
  | Next _ => fst (rstep (x_amb n) None (RState (rev (seq 0 n)) [] false) now (ISrc w e))
              = (Some w, RState [w] [] false)
  | _ => snd (fst (rstep (x_amb n) None (RState (rev (seq 0 n)) [] false) now (ISrc w e))) = RState [] [] true
  end
  /\ temitted (map (fun x => (pos, x)) (snd (rstep (x_amb n) None (RState (rev (seq 0 n)) [] false) now (ISrc w e))))
     = [(pos, e)].
Proof.
  intros Hlt.
  assert (Hmem : mem w (rev (seq 0 n)) = true) by (rewrite mem_rev_seq; now apply Nat.ltb_lt).
  pose proof (rstep_fin (x_amb n) None (RState (rev (seq 0 n)) [] false) now (ISrc w e) pos eq_refl Hmem) as Hfin.
  pose proof (rstep_rinv (x_amb n) None (RState (rev (seq 0 n)) [] false) now (ISrc w e)) as Hinv.
  cbn [x_amb x_step] in Hfin. rewrite Nat.eqb_refl in Hfin.
  (* a terminal notification: passed on, everything released *)
  destruct e as [x|err|];
    [|destruct Hfin as [E1 E2]; [discriminate|]; split; [apply Hinv; [discriminate|exact E2]|];
      rewrite E1; cbn [fst snd]; rewrite cemits_unsub_only; reflexivity..].
  clear Hfin Hinv.
  set (others := filter (fun j => negb (Nat.eqb j w)) (seq 0 n)).
  assert (Hrel : fst (apply_cmds (B:=A) (RState (rev (seq 0 n)) [] false) (map CUnsub others))
                 = RState [w] [] false).
  { apply apply_unsub_others.
    - apply NoDup_rev, seq_NoDup.
    - apply -> in_rev. apply in_seq. lia.
    - intros H. apply filter_In in H. destruct H as [_ H]. rewrite Nat.eqb_refl in H. discriminate.
    - intros j Hj. apply in_rev in Hj.
      destruct (Nat.eq_dec j w) as [->|Hne]; [left; reflexivity|right].
      apply filter_In. split; [exact Hj|]. destruct (Nat.eqb_spec j w); [congruence|reflexivity]. }
  cbn [rstep r_stopped r_live]. rewrite Hmem. cbn [x_amb x_step]. rewrite Nat.eqb_refl. fold others.
  rewrite apply_cmds_app, Hrel. cbn [fst snd apply_cmds is_terminal andb finish].
  split; [reflexivity|].
  rewrite !app_nil_r, map_app, temitted_app, apply_cmds_temitted, cemits_unsub_only. reflexivity.
Qed.

Lemma amb_foreign_step n now k (e : ev A) : (n <= k)%nat ->
  rstep (x_amb n) None (RState (rev (seq 0 n)) [] false) now (ISrc k e)
  = (None, RState (rev (seq 0 n)) [] false, []).
Proof.
  intros H. apply rstep_dropped. right. split; [|discriminate]. cbn [delivered r_live]. rewrite mem_rev_seq.
  apply Nat.ltb_ge, H.
Qed.

Lemma amb_open_from n (ins : list (Z * inp A)) : forall pos,
  temitted (fst (run_from (x_amb n) None (RState (rev (seq 0 n)) [] false) pos ins)) = amb_spec n None pos ins.
Proof.
  induction ins as [|[now i] rest IH]; intros pos; [reflexivity|].
  rewrite temitted_run_cons. cbn [amb_spec].
  destruct i as [k e|tag|].
  - destruct (Nat.ltb_spec k n) as [Hlt|Hge].
    + destruct (amb_winner_step n now k e pos Hlt) as [E1 E2]. rewrite E2.
      destruct e; rewrite E1; cbn [fst snd];
        [rewrite amb_chosen_from|rewrite run_from_stopped by reflexivity..]; reflexivity.
    + rewrite amb_foreign_step by exact Hge. apply IH.
  - apply IH.
  - apply temitted_dispose.
Qed.

End Amb.

Section Zip.
Context {A : Type}.

(* drive the zip machine with elements only: (source, element) pairs *)
Fixpoint zip_feed (n : nat) (st : x_state (x_zip (A:=A) n)) (ins : list (nat * A)) (outs : list (list A))
  : x_state (x_zip (A:=A) n) * list (list A) :=
  match ins with
  | [] => (st, outs)
  | (k, x) :: t =>
      let '(st', cs, _) := x_step (x_zip n) st 0 (ISrc k (Next x)) in
      zip_feed n st' t (outs ++ cemits cs)
  end.

Definition proj (k : nat) (ins : list (nat * A)) : list A :=
  flat_map (fun p => if Nat.eqb (fst p) k then [snd p] else []) ins.

Definition col (d : A) (k : nat) (outs : list (list A)) : list A := map (fun t => nth k t d) outs.

(* pairing invariant: what source k delivered = the k-th column of the emitted
   tuples followed by what is still queued for k *)
Definition zip_inv (d : A) (n : nat) (ins : list (nat * A)) (queues : list (list A)) (outs : list (list A)) : Prop :=
  length queues = n /\ forall k, (k < n)%nat -> proj k ins = col d k outs ++ nth k queues [].

Lemma proj_app k (a b : list (nat * A)) : proj k (a ++ b) = proj k a ++ proj k b.
Proof. unfold proj. apply flat_map_app. Qed.

Lemma col_app d k (a b : list (list A)) : col d k (a ++ b) = col d k a ++ col d k b.
Proof. unfold col. apply map_app. Qed.

Lemma all_nonempty_nth (qs : list (list A)) : all_nonempty qs = true ->
  forall k, (k < length qs)%nat -> nth k qs [] <> [].
Proof.
  unfold all_nonempty. intros H k Hk Hnil.
  rewrite forallb_forall in H. specialize (H (nth k qs []) (nth_In _ _ Hk)).
  rewrite Hnil in H. discriminate.
Qed.

Lemma zip_step_inv d n (done : list bool) (seen : list (nat * A)) queues outs k x :
  (k < n)%nat -> zip_inv d n seen queues outs ->
  let '(st', cs, _) := x_step (x_zip n) (queues, done) 0 (ISrc k (Next x)) in
  zip_inv d n (seen ++ [(k, x)]) (fst st') (outs ++ cemits cs) /\ snd st' = done.
Proof.
  intros Hk [Hlen Hinv]. cbn [x_zip x_step].
  set (queues1 := nth_set k (nth k queues [] ++ [x]) queues).
  assert (Hlen1 : length queues1 = n) by (subst queues1; now rewrite nth_set_length).
  assert (H1 : forall j, (j < n)%nat -> proj j (seen ++ [(k, x)]) = col d j outs ++ nth j queues1 []).
  { intros j Hj. rewrite proj_app, (Hinv j Hj). unfold proj at 1. cbn [flat_map fst snd app].
    subst queues1. rewrite nth_nth_set_cases by lia. rewrite (Nat.eqb_sym j k).
    destruct (Nat.eqb_spec k j) as [->|Hne]; now rewrite <- app_assoc, ?app_nil_r. }
  destruct (all_nonempty queues1) eqn:Hall; cbn [fst snd cemits flat_map app].
  - split; [|reflexivity]. split; [now rewrite map_length|].
    intros j Hj. rewrite (H1 j Hj), col_app. unfold col at 2. cbn [map].
    assert (Hne : nth j queues1 [] <> []) by (apply all_nonempty_nth; [exact Hall|lia]).
    rewrite <- app_assoc. f_equal.
    (* the j-th queue = its head :: its tail *)
    unfold col. cbn [map app].
    rewrite (nth_indep _ d x) by (rewrite map_length; lia).
    rewrite (map_nth (fun q => match q with [] => x | v :: _ => v end) queues1 [] j).
    pose proof (map_nth (@tl A) queues1 [] j) as Htl. cbn [tl] in Htl. rewrite Htl.
    destruct (nth j queues1 []) as [|v t]; [congruence|reflexivity].
  - split; [|reflexivity]. split; [exact Hlen1|].
    intros j Hj. rewrite app_nil_r. apply H1. exact Hj.
Qed.

(* so column k of the emitted tuples is a prefix of what source k delivered, along ANY sequence of
   deliveries; the same rule by index, over the full input alphabet: ZipPairFacts.zip_spec_pairing *)
Lemma zip_feed_inv d n (ins : list (nat * A)) : forall seen queues done outs,
  Forall (fun p => (fst p < n)%nat) ins -> zip_inv d n seen queues outs ->
  let '(st, outs') := zip_feed n (queues, done) ins outs in
  zip_inv d n (seen ++ ins) (fst st) outs'.
Proof.
  induction ins as [|[k x] rest IH]; intros seen queues done outs Hf Hinv.
  - cbn. now rewrite app_nil_r.
  - inversion Hf as [|? ? Hk Hrest]; subst. cbn [fst] in Hk. cbn [zip_feed].
    pose proof (zip_step_inv d n done seen queues outs k x Hk Hinv) as Hs.
    destruct (x_step (x_zip n) (queues, done) 0 (ISrc k (Next x))) as [[[q' d'] cs] f].
    destruct Hs as [Hs1 Hs2]. cbn [fst snd] in *. subst d'.
    specialize (IH (seen ++ [(k, x)]) q' done (outs ++ cemits cs) Hrest Hs1).
    rewrite <- app_assoc in IH. exact IH.
Qed.

Lemma zip_inv_start d n : zip_inv d n [] (repeat [] n) [].
Proof. split; [apply repeat_length|]. intros k _. symmetry. apply (nth_repeat []). Qed.

End Zip.
