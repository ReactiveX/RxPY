(* C38 -- facts about the marble parser model (Ops/Marbles.v).
   [parse_render]: for every well-formed diagram, with spaces inserted anywhere,
   the parser returns exactly the diagram's meaning: each marble at the index of
   its first character (spaces not counted), group members at the index of the
   opening parenthesis; with raise_stopped it is rejected iff something follows a
   terminal.  [parse_terminal_last], [parse_frames_sorted]: for ALL strings.
   [cold_delivery_parsed], [hot_delivery_parsed]: a virtual-time scheduler
   delivers the parsed messages unchanged, in order. *)
From Coq Require Import List Ascii String Bool Arith Lia.
From RxVerif Require Import Ops.Marbles.
Import ListNotations.
Open Scope char_scope.
Open Scope list_scope.

Lemma ch_eqb_eq : forall a b, ch_eqb a b = true <-> a = b.
Proof. intros. unfold ch_eqb. apply Ascii.eqb_eq. Qed.

Lemma str_eqb_eq : forall a b, str_eqb a b = true <-> a = b.
Proof.
  induction a as [|x r IH]; intros [|y s]; simpl; split; intros H; try discriminate; try reflexivity.
  - apply andb_true_iff in H. destruct H as [H1 H2]. apply ch_eqb_eq in H1. apply IH in H2. subst. reflexivity.
  - inversion H; subst. apply andb_true_iff. split; [apply ch_eqb_eq; reflexivity | apply IH; reflexivity].
Qed.

Lemma span_app : forall p a b,
  forallb p a = true -> match b with [] => True | c :: _ => p c = false end ->
  span p (a ++ b) = (a, b).
Proof.
  intros p a b. induction a as [|x r IH]; simpl; intros Ha Hb.
  - destruct b as [|c b']; [reflexivity|]. simpl. rewrite Hb. reflexivity.
  - apply andb_true_iff in Ha. destruct Ha as [Hx Hr]. rewrite Hx. rewrite IH by assumption. reflexivity.
Qed.

Definition close_free (c : ascii) : bool := negb (ch_eqb c ")") && negb (ch_eqb c newline).

Lemma find_close_app : forall a b, forallb close_free a = true -> find_close (a ++ ")" :: b) = Some (a, b).
Proof.
  induction a as [|x r IH]; intros b H; simpl.
  - reflexivity.
  - simpl in H. apply andb_true_iff in H. destruct H as [Hx Hr].
    unfold close_free in Hx. apply andb_true_iff in Hx. destruct Hx as [H1 H2].
    apply negb_true_iff in H1. apply negb_true_iff in H2. rewrite H1, H2. rewrite IH by exact Hr. reflexivity.
Qed.

Lemma no_space_filter : forall s, forallb (fun c => negb (ch_eqb c " ")) s = true -> remove_spaces s = s.
Proof.
  induction s as [|c r IH]; simpl; intros H; [reflexivity|].
  apply andb_true_iff in H. destruct H as [H1 H2]. rewrite H1. rewrite IH by exact H2. reflexivity.
Qed.

Definition comma_free (c : ascii) : bool := negb (ch_eqb c ",").

Lemma split_comma_nonempty : forall s, split_comma s <> [].
Proof.
  induction s as [|c r IH]; simpl; [discriminate|].
  destruct (ch_eqb c ","); [discriminate|]. destruct (split_comma r); discriminate.
Qed.

Lemma split_comma_app : forall e x, forallb comma_free e = true ->
  split_comma (e ++ "," :: x) = e :: split_comma x.
Proof.
  induction e as [|c r IH]; intros x H; simpl.
  - reflexivity.
  - simpl in H. apply andb_true_iff in H. destruct H as [Hc Hr].
    unfold comma_free in Hc. apply negb_true_iff in Hc. rewrite Hc. rewrite IH by exact Hr. reflexivity.
Qed.

Lemma split_comma_single : forall e, forallb comma_free e = true -> split_comma e = [e].
Proof.
  induction e as [|c r IH]; intros H; simpl; [reflexivity|].
  simpl in H. apply andb_true_iff in H. destruct H as [Hc Hr].
  unfold comma_free in Hc. apply negb_true_iff in Hc. rewrite Hc. rewrite IH by exact Hr. reflexivity.
Qed.

Lemma split_join : forall es, es <> [] -> forallb (forallb comma_free) es = true ->
  split_comma (join_comma es) = es.
Proof.
  induction es as [|e r IH]; intros Hne H; [contradiction|].
  simpl in H. apply andb_true_iff in H. destruct H as [He Hr].
  destruct r as [|e' r'].
  - simpl. apply split_comma_single. exact He.
  - change (join_comma (e :: e' :: r')) with (e ++ "," :: join_comma (e' :: r')).
    rewrite split_comma_app by exact He. rewrite IH by (auto; discriminate). reflexivity.
Qed.

Definition tok_of (i : item) : token :=
  match i with
  | ITicks n => TTicks n
  | IElem s => TElem s
  | IEnd => TElem ["|"]
  | IErr => TElem ["#"]
  | IGroup es => TGroup (join_comma es)
  end.

Lemma elem_char_inv : forall c, elem_char c = true ->
  ch_eqb c "-" = false /\ ch_eqb c "," = false /\ ch_eqb c "(" = false /\ ch_eqb c ")" = false
  /\ ch_eqb c "#" = false /\ ch_eqb c "|" = false.
Proof.
  intros c H. unfold elem_char in H. apply negb_true_iff in H.
  repeat (apply orb_false_iff in H; destruct H as [H ?]). tauto.
Qed.

Lemma group_char_inv : forall c, group_char c = true ->
  comma_free c = true /\ close_free c = true /\ ch_eqb c " " = false.
Proof.
  intros c H. unfold group_char in H. apply negb_true_iff in H.
  apply orb_false_iff in H. destruct H as [H Hsp]. apply orb_false_iff in H. destruct H as [H Hnl].
  apply orb_false_iff in H. destruct H as [Hco Hcl].
  unfold comma_free, close_free. rewrite Hco, Hnl, Hcl. simpl. tauto.
Qed.

Lemma join_forall : forall (q : ascii -> bool) es, q "," = true ->
  forallb (forallb q) es = true -> forallb q (join_comma es) = true.
Proof.
  intros q es Hq. induction es as [|e r IH]; intros H; [reflexivity|].
  simpl in H. apply andb_true_iff in H. destruct H as [He Hr].
  destruct r as [|e' r']; [exact He|].
  change (join_comma (e :: e' :: r')) with (e ++ "," :: join_comma (e' :: r')).
  rewrite forallb_app. rewrite He. simpl. rewrite Hq. apply IH. exact Hr.
Qed.

Lemma forallb_impl : forall (A : Type) (p q : A -> bool) l,
  (forall x, p x = true -> q x = true) -> forallb p l = true -> forallb q l = true.
Proof.
  intros A p q l H. induction l as [|x r IH]; simpl; intros Hl; [reflexivity|].
  apply andb_true_iff in Hl. destruct Hl as [H1 H2]. rewrite (H _ H1). apply IH. exact H2.
Qed.

Lemma group_members : forall (q : ascii -> bool) es,
  (forall c, group_char c = true -> q c = true) ->
  forallb (forallb group_char) es = true -> forallb (forallb q) es = true.
Proof. intros q es H. apply forallb_impl. intros e. apply forallb_impl. exact H. Qed.

Lemma render_item_nonempty : forall i, wf_item i = true -> 1 <= List.length (render_item i).
Proof.
  intros [n|s| | |es] H; simpl in *; try lia.
  - rewrite repeat_length. destruct n; [discriminate | lia].
  - destruct s; [discriminate | simpl; lia].
Qed.

(* first character of what follows *)
Definition head_is (p : ascii -> bool) (s : str) : Prop :=
  match s with [] => True | c :: _ => p c = false end.

Lemma render_cons : forall i d, render (i :: d) = render_item i ++ render d.
Proof. reflexivity. Qed.

Lemma wf_tail : forall i d, wf (i :: d) = true -> wf_item i = true /\ wf d = true.
Proof.
  intros i d H. simpl in H. apply andb_true_iff in H. destruct H as [H Hw].
  apply andb_true_iff in H. destruct H as [Hi _]. split; assumption.
Qed.

(* what may follow a run of hyphens or a value is told by the first character of what is
   rendered next: not a hyphen after hyphens, not a value character after a value *)
Lemma adj_head : forall i d, wf d = true ->
  (match d with [] => true | j :: _ => adj_ok i j end = true <->
   match i with
   | ITicks _ => head_is is_dash (render d)
   | IElem _ => head_is elem_char (render d)
   | _ => True
   end).
Proof.
  intros i [|j d'] Hw; [destruct i; simpl; tauto|].
  destruct (wf_tail _ _ Hw) as [Hj _]. rewrite render_cons.
  (* "|", "#" and "(" are neither hyphens nor value characters *)
  destruct j as [k|s| | |es]; simpl in Hj;
    [ | | destruct i; simpl; split; intros; (reflexivity || exact I) ..].
  - destruct k as [|k]; [discriminate|]. destruct i; simpl; split; intros; (reflexivity || exact I || discriminate).
  - destruct s as [|c t]; [discriminate|]. simpl in Hj. apply andb_true_iff in Hj. destruct Hj as [Hc _].
    unfold value_char in Hc. apply andb_true_iff in Hc. destruct Hc as [Hc _].
    pose proof (proj1 (elem_char_inv _ Hc)) as Hd.
    destruct i; simpl; split; intros; (reflexivity || exact I || exact Hd || congruence).
Qed.

Lemma wf_adj : forall i d, wf (i :: d) = true -> match d with [] => true | j :: _ => adj_ok i j end = true.
Proof.
  intros i d H. simpl in H. apply andb_true_iff in H. destruct H as [H _].
  apply andb_true_iff in H. exact (proj2 H).
Qed.

(* f is the lexer's fuel: any bound of the length does, and the induction on d needs it free *)
Lemma lex_render : forall d f, wf d = true -> List.length (render d) <= f ->
  lex_aux f (render d) = map tok_of d.
Proof.
  induction d as [|i d IH]; intros f Hwf Hf.
  - destruct f; reflexivity.
  - destruct (wf_tail _ _ Hwf) as [Hi Hd].
    pose proof (render_item_nonempty _ Hi) as Hne.
    rewrite render_cons in *. rewrite app_length in Hf.
    destruct f as [|f]; [lia|].
    destruct i as [n|s| | |es].
    + (* ticks *)
      simpl in Hi. destruct n as [|n]; [discriminate|].
      simpl render_item in *. simpl repeat in *. simpl in Hf. rewrite repeat_length in Hf.
      simpl. rewrite (span_app is_dash (repeat "-" n) (render d)).
      * rewrite repeat_length. rewrite IH by (auto; lia). reflexivity.
      * clear. induction n; simpl; [reflexivity | assumption].
      * apply (adj_head (ITicks (S n)) d Hd), (wf_adj _ _ Hwf).
    + (* value *)
      simpl in Hi. apply andb_true_iff in Hi. destruct Hi as [Hs Hv].
      destruct s as [|c t]; [discriminate|]. simpl in Hv. apply andb_true_iff in Hv. destruct Hv as [Hc Ht].
      unfold value_char in Hc. apply andb_true_iff in Hc. destruct Hc as [Hc _].
      destruct (elem_char_inv _ Hc) as [E1 [E2 [E3 [E4 [E5 E6]]]]].
      simpl render_item in *. simpl in Hf. simpl. rewrite E1, E2, E3, E4, E5, E6.
      rewrite (span_app elem_char t (render d)).
      * rewrite IH by (auto; lia). reflexivity.
      * eapply forallb_impl; [|exact Ht]. intros x Hx. unfold value_char in Hx.
        apply andb_true_iff in Hx. tauto.
      * apply (adj_head (IElem (c :: t)) d Hd), (wf_adj _ _ Hwf).
    + simpl in Hf. simpl. rewrite IH by (auto; lia). reflexivity.
    + simpl in Hf. simpl. rewrite IH by (auto; lia). reflexivity.
    + (* group *)
      simpl in Hi. apply andb_true_iff in Hi. destruct Hi as [_ Hg].
      simpl render_item in *. simpl in Hf. rewrite app_length in Hf. simpl in Hf.
      simpl. rewrite <- app_assoc. simpl.
      rewrite find_close_app.
      * rewrite IH by (auto; lia). reflexivity.
      * apply join_forall; [reflexivity|].
        apply (group_members _ _ (fun c Hc => proj1 (proj2 (group_char_inv c Hc))) Hg).
Qed.

Lemma render_no_space : forall d, wf d = true ->
  forallb (fun c => negb (ch_eqb c " ")) (render d) = true.
Proof.
  induction d as [|i d IH]; intros H; [reflexivity|].
  destruct (wf_tail _ _ H) as [Hi Hd]. rewrite render_cons, forallb_app. rewrite (IH Hd), andb_true_r.
  destruct i as [n|s| | |es]; simpl in *; try reflexivity.
  - clear. induction n; simpl; [reflexivity | assumption].
  - apply andb_true_iff in Hi. destruct Hi as [_ Hv]. eapply forallb_impl; [|exact Hv].
    intros c Hc. unfold value_char in Hc. apply andb_true_iff in Hc. tauto.
  - apply andb_true_iff in Hi. destruct Hi as [_ Hg]. rewrite forallb_app. simpl. rewrite andb_true_r.
    apply join_forall; [reflexivity|]. apply (group_members (fun c => negb (ch_eqb c " ")) es); [|exact Hg].
    intros c Hc. apply group_char_inv in Hc. destruct Hc as [_ [_ Hc]]. rewrite Hc. reflexivity.
Qed.

(* [splits d] lists every item with the items written before it *)
Lemma splits_spec : forall d pre it,
  In (pre, it) (splits d) <-> exists post, d = pre ++ it :: post.
Proof.
  induction d as [|i r IH]; intros pre it; simpl.
  - split; [contradiction|]. intros [post H]. destruct pre; discriminate.
  - split.
    + intros [H|H].
      * inversion H; subst. exists r. reflexivity.
      * apply in_map_iff in H. destruct H as [[pre' it'] [E Hin]]. simpl in E. inversion E; subst.
        apply IH in Hin. destruct Hin as [post Hp]. exists post. simpl. rewrite Hp. reflexivity.
    + intros [post H]. destruct pre as [|p pre'].
      * simpl in H. inversion H; subst. left. reflexivity.
      * simpl in H. inversion H; subst. right. apply in_map_iff.
        exists (pre', it). split; [reflexivity|]. apply IH. exists post. reflexivity.
Qed.

Section Facts.
  Variable V : Type.
  Variable valof : str -> V.
  Notation notif := (notif V).
  Notation map_element := (map_element V valof).
  Notation parse_tokens := (parse_tokens V valof).
  Notation parse_model := (parse_model V valof).
  Notation denote := (denote V valof).
  Notation msgs_of_item := (msgs_of_item V valof).

  Lemma check_all_app : forall rs st a b,
    check_all rs st (a ++ b) = match check_all rs st a with Some st' => check_all rs st' b | None => None end.
  Proof.
    intros rs st a. revert st. induction a as [|e r IH]; intros st b; simpl; [reflexivity|].
    destruct (check rs st e); [apply IH | reflexivity].
  Qed.

  Lemma check_all_norule : forall st es, check_all false st es = Some st.
  Proof. intros st es. induction es as [|e r IH]; simpl; [reflexivity | exact IH]. Qed.

  Lemma check_all_stopped : forall es, check_all true true es = match es with [] => Some true | _ => None end.
  Proof. intros [|e r]; reflexivity. Qed.

  Lemma check_all_running : forall es,
    check_all true false es = if stop_ok es then Some (existsb is_term es) else None.
  Proof.
    induction es as [|e r IH]; simpl; [reflexivity|].
    destruct (is_term e) eqn:Ht; simpl.
    - rewrite check_all_stopped. destruct r; reflexivity.
    - exact IH.
  Qed.

  (* [denote] with the first character at frame f: where the token loop stands after a prefix of the diagram *)
  Definition denote_from (f : nat) (d : list item) : list (nat * notif) :=
    flat_map (fun pi => msgs_of_item (f + List.length (render (fst pi))) (snd pi)) (splits d).

  Lemma denote_from_cons : forall f i d,
    denote_from f (i :: d) = msgs_of_item f i ++ denote_from (f + List.length (render_item i)) d.
  Proof.
    intros f i d. unfold denote_from. simpl. rewrite Nat.add_0_r. f_equal.
    rewrite flat_map_concat_map, map_map, <- flat_map_concat_map.
    apply flat_map_ext. intros [pre it]. simpl. rewrite app_length, Nat.add_assoc. reflexivity.
  Qed.

  Definition elements (d : list item) : list str := flat_map elements_of d.

  Lemma parse_tokens_render : forall rs d f st, wf d = true ->
    parse_tokens rs (map tok_of d) f st =
    match check_all rs st (elements d) with
    | None => inl ErrStopped
    | Some _ => inr (denote_from f d)
    end.
  Proof.
    intros rs. induction d as [|i d IH]; intros f st Hwf.
    - reflexivity.
    - destruct (wf_tail _ _ Hwf) as [Hi Hd]. rewrite denote_from_cons.
      unfold elements. simpl flat_map. fold (elements d).
      (* a value, "|" and "#" alike: one element *)
      destruct i as [n|s| | |es]; simpl map; simpl tok_of;
        [ | (simpl; destruct (check rs st _) as [st'|]; [|reflexivity];
             rewrite IH by exact Hd; destruct (check_all rs st' (elements d)); reflexivity) .. | ].
      + simpl. rewrite repeat_length. apply IH. exact Hd.
      + simpl in Hi. apply andb_true_iff in Hi. destruct Hi as [Hne Hg].
        assert (Hsj : split_comma (join_comma es) = es).
        { apply split_join; [destruct es; discriminate|].
          apply (group_members _ _ (fun c Hc => proj1 (group_char_inv c Hc)) Hg). }
        cbn [Marbles.parse_tokens elements_of]. rewrite Hsj. rewrite check_all_app.
        destruct (check_all rs st es) as [st'|]; [|reflexivity].
        rewrite IH by exact Hd.
        assert (Hl : f + (2 + List.length (join_comma es)) = f + List.length (render_item (IGroup es))).
        { simpl. rewrite app_length. simpl. lia. }
        rewrite Hl. destruct (check_all rs st' (elements d)); reflexivity.
  Qed.

  (* a well-formed diagram, written with spaces anywhere, parses to its meaning *)
  Theorem parse_render : forall rs d s, wf d = true -> remove_spaces s = render d ->
    parse_model rs s =
    if negb rs || stop_ok (elements d) then inr (denote d) else inl ErrStopped.
  Proof.
    intros rs d s Hwf Hs. unfold Marbles.parse_model. rewrite Hs.
    unfold lex. rewrite lex_render by (auto; lia).
    rewrite parse_tokens_render by exact Hwf. change (denote_from 0 d) with (denote d).
    destruct rs; simpl.
    - rewrite check_all_running. destruct (stop_ok (elements d)); reflexivity.
    - rewrite check_all_norule. reflexivity.
  Qed.

  Corollary parse_render_exact : forall rs d, wf d = true ->
    parse_model rs (render d) =
    if negb rs || stop_ok (elements d) then inr (denote d) else inl ErrStopped.
  Proof.
    intros rs d Hwf. apply parse_render; [exact Hwf|].
    apply no_space_filter. apply render_no_space. exact Hwf.
  Qed.

  Fixpoint term_last (ms : list (nat * notif)) : bool :=
    match ms with
    | [] => true
    | m :: r => if is_terminal V m then (match r with [] => true | _ => false end) else term_last r
    end.

  Lemma is_terminal_map_element : forall f e, is_terminal V (map_element f e) = is_term e.
  Proof.
    intros f e. unfold Marbles.map_element, is_term, is_terminal.
    destruct (str_eqb e ["|"]) eqn:E1; simpl; [rewrite orb_true_r; reflexivity|].
    destruct (str_eqb e ["#"]) eqn:E2; reflexivity.
  Qed.

  Lemma parse_stopped_nil : forall toks f ms, parse_tokens true toks f true = inr ms -> ms = [].
  Proof.
    induction toks as [|t r IH]; intros f ms H; simpl in H.
    - inversion H. reflexivity.
    - destruct t as [content|n| |e]; try discriminate.
      + rewrite check_all_stopped in H. pose proof (split_comma_nonempty content).
        destruct (split_comma content); [contradiction | discriminate].
      + eapply IH. exact H.
  Qed.

  Lemma group_msgs_terms : forall f es, stop_ok es = true ->
    term_last (map (map_element f) (filter nonempty es)) = true /\
    (existsb is_term es = false ->
     forallb (fun m => negb (is_terminal V m)) (map (map_element f) (filter nonempty es)) = true).
  Proof.
    intros f. induction es as [|e r IH]; intros H; [split; reflexivity|].
    simpl in H. destruct (is_term e) eqn:Ht.
    - destruct r; [|discriminate]. simpl. rewrite Ht.
      assert (nonempty e = true) by (destruct e; [discriminate | reflexivity]).
      rewrite H0. simpl. rewrite is_terminal_map_element, Ht. split; [reflexivity | discriminate].
    - destruct (IH H) as [A B]. simpl. rewrite Ht. simpl.
      destruct (nonempty e); simpl; [|split; assumption].
      rewrite is_terminal_map_element, Ht. simpl. split; assumption.
  Qed.

  Lemma term_last_app_nonterm : forall a b,
    forallb (fun m => negb (is_terminal V m)) a = true -> term_last b = true -> term_last (a ++ b) = true.
  Proof.
    induction a as [|m r IH]; intros b Ha Hb; [exact Hb|].
    simpl in Ha. apply andb_true_iff in Ha. destruct Ha as [Hm Hr]. apply negb_true_iff in Hm.
    simpl. rewrite Hm. apply IH; assumption.
  Qed.

  (* with raise_stopped, no message follows a terminal one (whatever the string) *)
  Lemma parse_tokens_term_last : forall toks f ms,
    parse_tokens true toks f false = inr ms -> term_last ms = true.
  Proof.
    induction toks as [|t r IH]; intros f ms H; simpl in H.
    - inversion H. reflexivity.
    - destruct t as [content|n| |e]; try discriminate.
      + rewrite check_all_running in H.
        destruct (stop_ok (split_comma content)) eqn:Hs; [|discriminate].
        destruct (parse_tokens true r _ _) as [err|ms'] eqn:Hp; [discriminate|].
        inversion H; subst. destruct (group_msgs_terms f _ Hs) as [A B].
        destruct (existsb is_term (split_comma content)) eqn:Hex.
        * apply parse_stopped_nil in Hp. subst. rewrite app_nil_r. exact A.
        * apply term_last_app_nonterm; [apply B; reflexivity | eapply IH; exact Hp].
      + eapply IH. exact H.
      + simpl in H. destruct (is_term e) eqn:Ht.
        * destruct (parse_tokens true r _ true) as [err|ms'] eqn:Hp; [discriminate|].
          inversion H; subst. apply parse_stopped_nil in Hp. subst. simpl.
          rewrite is_terminal_map_element, Ht. reflexivity.
        * destruct (parse_tokens true r _ false) as [err|ms'] eqn:Hp; [discriminate|].
          inversion H; subst. simpl. rewrite is_terminal_map_element, Ht. eapply IH. exact Hp.
  Qed.

  Theorem parse_terminal_last : forall s ms, parse_model true s = inr ms -> term_last ms = true.
  Proof. intros s ms H. eapply parse_tokens_term_last. exact H. Qed.

  Lemma term_last_spec : forall ms, term_last ms = true ->
    forall pre m post, ms = pre ++ m :: post -> is_terminal V m = true -> post = [].
  Proof.
    induction ms as [|x r IH]; intros H pre m post E Hm.
    - destruct pre; discriminate.
    - simpl in H. destruct pre as [|p pre'].
      + simpl in E. inversion E; subst. rewrite Hm in H. destruct post; [reflexivity | discriminate].
      + simpl in E. inversion E; subst. destruct (is_terminal V p).
        * destruct (pre' ++ m :: post) eqn:E'; [destruct pre'; discriminate | discriminate].
        * eapply IH; eauto.
  Qed.

  (* frames never decrease along the message list, and start at the initial frame *)
  Fixpoint sorted_from (f : nat) (ms : list (nat * notif)) : Prop :=
    match ms with [] => True | m :: r => f <= fst m /\ sorted_from (fst m) r end.

  Lemma sorted_from_weaken : forall ms f g, f <= g -> sorted_from g ms -> sorted_from f ms.
  Proof. intros [|m r] f g Hfg H; simpl in *; [exact I | destruct H; split; [lia | assumption]]. Qed.

  Lemma fst_map_element : forall f e, fst (map_element f e) = f.
  Proof.
    intros f e. unfold Marbles.map_element.
    destruct (str_eqb e ["|"]); [reflexivity|]. destruct (str_eqb e ["#"]); reflexivity.
  Qed.

  Lemma sorted_group : forall f es ms, sorted_from f ms -> sorted_from f (map (map_element f) es ++ ms).
  Proof.
    intros f. induction es as [|e r IH]; intros ms H; simpl; [exact H|].
    rewrite fst_map_element. split; [lia | apply IH; exact H].
  Qed.

  Lemma parse_tokens_sorted : forall rs toks f st ms,
    parse_tokens rs toks f st = inr ms -> sorted_from f ms.
  Proof.
    intros rs. induction toks as [|t r IH]; intros f st ms H; simpl in H.
    - inversion H. exact I.
    - destruct t as [content|n| |e]; try discriminate.
      + destruct (check_all rs st (split_comma content)) as [st'|]; [|discriminate].
        destruct (parse_tokens rs r _ st') as [err|ms'] eqn:Hp; [discriminate|].
        inversion H; subst. apply sorted_group. eapply sorted_from_weaken; [|eapply IH; exact Hp]. lia.
      + eapply sorted_from_weaken; [|eapply IH; exact H]. lia.
      + destruct (check rs st e) as [st'|]; [|discriminate].
        destruct (parse_tokens rs r _ st') as [err|ms'] eqn:Hp; [discriminate|].
        inversion H; subst. simpl. rewrite fst_map_element. split; [lia|].
        eapply sorted_from_weaken; [|eapply IH; exact Hp]. lia.
  Qed.

  Theorem parse_frames_sorted : forall rs s ms, parse_model rs s = inr ms -> sorted_from 0 ms.
  Proof. intros rs s ms H. eapply parse_tokens_sorted. exact H. Qed.

  Lemma insert_stable_last : forall m acc, Forall (fun x => fst x <= fst m) acc ->
    insert_stable V m acc = acc ++ [m].
  Proof.
    intros m. induction acc as [|x r IH]; intros H; simpl; [reflexivity|].
    inversion H; subst. assert (Hlt : Nat.ltb (fst m) (fst x) = false) by (apply Nat.ltb_ge; assumption).
    rewrite Hlt. rewrite IH by assumption. reflexivity.
  Qed.

  Lemma sorted_from_Forall : forall ms f, sorted_from f ms -> Forall (fun x => f <= fst x) ms.
  Proof.
    induction ms as [|m r IH]; intros f H; [constructor|]. simpl in H. destruct H as [H1 H2].
    constructor; [exact H1|]. specialize (IH _ H2). eapply Forall_impl; [|exact IH]. simpl. intros. lia.
  Qed.

  Lemma run_order_sorted_gen : forall ms acc f,
    Forall (fun x => fst x <= f) acc -> sorted_from f ms ->
    fold_left (fun a m => insert_stable V m a) ms acc = acc ++ ms.
  Proof.
    induction ms as [|m r IH]; intros acc f Ha Hs; simpl; [rewrite app_nil_r; reflexivity|].
    simpl in Hs. destruct Hs as [H1 H2].
    rewrite insert_stable_last by (eapply Forall_impl; [|exact Ha]; simpl; intros; lia).
    rewrite (IH (acc ++ [m]) (fst m)).
    - rewrite <- app_assoc. reflexivity.
    - apply Forall_app. split; [eapply Forall_impl; [|exact Ha]; simpl; intros; lia | constructor; [lia | constructor]].
    - exact H2.
  Qed.

  Lemma run_order_sorted : forall ms, sorted_from 0 ms -> run_order V ms = ms.
  Proof. intros ms H. unfold run_order. rewrite (run_order_sorted_gen ms [] 0); [reflexivity | constructor | exact H]. Qed.

  Lemma upto_terminal_id : forall ms, term_last ms = true -> upto_terminal V ms = ms.
  Proof.
    induction ms as [|m r IH]; intros H; [reflexivity|]. simpl in *.
    destruct (is_terminal V m); [destruct r; [reflexivity | discriminate] | rewrite IH by exact H; reflexivity].
  Qed.

  Lemma term_last_filter : forall p ms, term_last ms = true -> term_last (filter p ms) = true.
  Proof.
    intros p. induction ms as [|m r IH]; intros H; [reflexivity|]. simpl in *.
    destruct (is_terminal V m) eqn:Hm.
    - destruct r; [|discriminate]. destruct (p m); simpl; [rewrite Hm|]; reflexivity.
    - destruct (p m); simpl; [rewrite Hm|]; apply IH; exact H.
  Qed.

  (* from_marbles / cold: what the virtual-time scheduler delivers (stable insertion by frame, cut after the
     first terminal) is the parsed list itself; frames become times in MarbleNumbersFacts.cold_case_times *)
  Theorem cold_delivery_parsed : forall s ms, parse_model true s = inr ms -> cold_delivery V ms = ms.
  Proof.
    intros s ms H. unfold cold_delivery.
    rewrite run_order_sorted by (eapply parse_frames_sorted; exact H).
    apply upto_terminal_id. eapply parse_terminal_last. exact H.
  Qed.

  (* hot: the parsed notifications that are due strictly after the subscription *)
  Theorem hot_delivery_parsed : forall s ms sub, parse_model true s = inr ms ->
    hot_delivery V sub ms = filter (fun m => Nat.ltb sub (fst m)) ms.
  Proof.
    intros s ms sub H. unfold hot_delivery.
    rewrite run_order_sorted by (eapply parse_frames_sorted; exact H).
    apply upto_terminal_id. apply term_last_filter. eapply parse_terminal_last. exact H.
  Qed.
End Facts.

(* string literals as character lists and the identity value function, for the examples of
   MarbleNumbersFacts.v and Props/C38.v *)
Definition l (s : string) : str := list_ascii_of_string s.
Definition idv (e : str) : str := e.
