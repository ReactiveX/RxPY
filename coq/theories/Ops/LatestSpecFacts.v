(* C13: fork_join, combine_latest and with_latest_from under the RUNNER against abstract
   specifications over the FULL input alphabet (elements, completions, errors, timer ticks,
   dispose; also notifications of sources that already completed or do not exist), for every
   number of sources and EVERY input sequence.  Each specification keeps the list [seen] of
   the element deliveries accepted so far (source, element) and the completed flags; the
   tuples are the snapshots of LatestFacts ([snapshot] / [child_snapshot], [strip]).
   For fork_join also: [run] = fj_spec (LatestFacts: what [fj_feed] computes) on deliveries and
   completions that respect the grammar per source, and the one tuple is made of the last element
   every source delivered while subscribed ([fj_accepted]). *)
From RxVerif Require Import Base.Prelude Ops.Machine Ops.Multi Ops.Combinators Ops.CombineFacts
  Ops.LatestFacts.

Section ForkJoinSpec.
Context {A : Type}.

(* SPEC of fork_join over n sources: nothing is emitted until every source has completed, then
   ONE tuple made of the last element of every source, and the completion, at the same
   moment; a source completing WITHOUT having delivered anything completes the output at
   once (no tuple); the first error of a subscribed source ends the output; what a source
   sends after its own completion, and what sources the operator does not have send, is
   ignored; dispose truncates *)
Fixpoint fj_full_spec (n : nat) (seen : list (nat * A)) (done : list bool) (pos : nat)
  (ins : list (Z * inp A)) : list (nat * ev (list A)) :=
  match ins with
  | [] => []
  | (_, ISrc k e) :: t =>
      if Nat.ltb k n && negb (nth k done true) then
        match e with
        | Next x => fj_full_spec n (seen ++ [(k, x)]) done (S pos) t
        | Err er => [(pos, Err er)]
        | Done =>
            match latest k seen with
            | None => [(pos, Done)]
            | Some _ =>
                if forallb (fun d => d) (nth_set k true done)
                then [(pos, Next (strip (snapshot n seen))); (pos, Done)]
                else fj_full_spec n seen (nth_set k true done) (S pos) t
            end
        end
      else fj_full_spec n seen done (S pos) t
  | (_, ITick _) :: t => fj_full_spec n seen done (S pos) t
  | (_, IDispose) :: _ => []
  end.

(* source k is subscribed: one of the n, not completed (combine_latest keeps the same abstract state) *)
Definition fj_acc (n : nat) (a : list (nat * A) * list bool) (k : nat) : bool :=
  Nat.ltb k n && negb (nth k (snd a) true).

Definition fj_sstep (n : nat) (a : list (nat * A) * list bool) (k : nat) (e : ev A)
  : (list (nat * A) * list bool) * list (list A) * fin :=
  let '(seen, done) := a in
  match e with
  | Next x => ((seen ++ [(k, x)], done), [], Cont)
  | Err er => ((seen, done), [], Fail er)
  | Done =>
      match latest k seen with
      | None => ((seen, nth_set k true done), [], Complete)
      | Some _ =>
          if forallb (fun d => d) (nth_set k true done)
          then ((seen, nth_set k true done), [strip (snapshot n seen)], Complete)
          else ((seen, nth_set k true done), [], Cont)
      end
  end.

Definition fj_P (n : nat) (a : list (nat * A) * list bool) (s : x_state (x_fork_join (A:=A) n)) : Prop :=
  s = (snapshot n (fst a), snd a) /\ length (snd a) = n.

Lemma fj_gspec n (ins : list (Z * inp A)) : forall seen done pos,
  gspec (fj_acc n) (fj_sstep n) (seen, done) pos ins = fj_full_spec n seen done pos ins.
Proof.
  induction ins as [|[now i] rest IH]; intros seen done pos; [reflexivity|].
  cbn [gspec fj_full_spec]. destruct i as [k e|tag|]; [|apply IH|reflexivity].
  unfold fj_acc at 1. cbn [snd].
  destruct (Nat.ltb k n && negb (nth k done true)); [|apply IH].
  destruct e as [x|er|]; cbn [fj_sstep map app]; [apply IH|reflexivity|].
  destruct (latest k seen); [|reflexivity].
  destruct (forallb (fun d : bool => d) (nth_set k true done)); [reflexivity|]. cbn [map app]. apply IH.
Qed.

Lemma fj_step_ok n a s now k e :
  fj_P n a s -> fj_acc n a k = true ->
  let '(a', bs, f) := fj_sstep n a k e in
  exists s', x_step (x_fork_join n) s now (ISrc k e) = (s', map CEmit bs, f)
    /\ (f = Cont -> fj_P n a' s'
        /\ forall j, fj_acc n a' j = (if is_terminal e then negb (Nat.eqb j k) else true) && fj_acc n a j).
Proof.
  destruct a as [seen done]. unfold fj_P, fj_acc. cbn [fst snd]. intros [-> Hlen] Hacc.
  apply andb_true_iff in Hacc. destruct Hacc as [Hk _]. apply Nat.ltb_lt in Hk.
  cbn [x_fork_join x_step]. destruct e as [x|er|]; cbn [fj_sstep].
  - eexists. split; [reflexivity|]. intros _. cbn [fst snd is_terminal].
    rewrite (snapshot_snoc n seen k x Hk). repeat split. exact Hlen.
  - eexists. split; [reflexivity|discriminate].
  - rewrite (snapshot_nth n seen k Hk).
    destruct (latest k seen) as [y|]; [|eexists; split; [reflexivity|discriminate]].
    change (flat_map (fun v : option A => match v with Some y => [y] | None => [] end)) with (@strip A).
    destruct (forallb (fun d : bool => d) (nth_set k true done)); (eexists; split; [reflexivity|]);
      [discriminate|]. intros _. cbn [fst snd is_terminal]. repeat split.
    + now rewrite nth_set_length.
    + intros j. apply (acc_after_done (fun i => Nat.ltb i n)). lia.
Qed.

Theorem fork_join_refines_spec n (ins : list (Z * inp A)) :
  temitted (fst (run (x_fork_join n) ins)) = fj_full_spec n [] (repeat false n) 1 ins.
Proof.
  rewrite <- fj_gspec.
  apply (engine_run (x_fork_join n) _ (fj_acc n) (fj_sstep n) (fj_P n)) with (s0 := (repeat None n, repeat false n))
                                                                           (live0 := seq 0 n).
  (* engine_run's premises: the handler follows [fj_sstep]; dispose sends no command; subscribe() subscribes
     live0; the start states are related; live0 has no duplicates; live0 = what [fj_acc] accepts at the start *)
  - exact (fj_step_ok n).
  - intros [values done] now. reflexivity.
  - reflexivity.
  - split; cbn [fst snd]; [now rewrite snapshot_nil|apply repeat_length].
  - apply seq_NoDup.
  - intros j. apply mem_seq0_none_done.
Qed.
End ForkJoinSpec.

Section ForkJoinBridge.
Context {A : Type}.

(* input sequences made of element deliveries (source, Some x) and completions (source, None) *)
Definition fj_inputs (tins : list (Z * (nat * option A))) : list (Z * inp A) :=
  map (fun tp => (fst tp, ISrc (fst (snd tp))
                            (match snd (snd tp) with Some x => Next x | None => Done end))) tins.

(* the Rx grammar per source: every delivery comes from a source (one of the [length done])
   that has not completed before *)
Fixpoint fj_wfb (done : list bool) (ins : list (nat * option A)) : bool :=
  match ins with
  | [] => true
  | (k, o) :: t =>
      negb (nth k done true)
      && fj_wfb (match o with None => nth_set k true done | Some _ => done end) t
  end.

Lemma nth_false_lt k (done : list bool) : nth k done true = false -> (k < length done)%nat.
Proof.
  intros H. destruct (Nat.lt_ge_cases k (length done)) as [Hlt|Hge]; [exact Hlt|].
  rewrite nth_overflow in H by exact Hge. discriminate.
Qed.

Lemma fj_wfb_bound (ins : list (nat * option A)) : forall done,
  fj_wfb done ins = true -> Forall (fun p => (fst p < length done)%nat) ins.
Proof.
  induction ins as [|[k o] t IH]; intros done H; [constructor|].
  cbn [fj_wfb] in H. apply andb_true_iff in H. destruct H as [Hk Ht].
  apply negb_true_iff in Hk. apply nth_false_lt in Hk.
  constructor; [exact Hk|].
  destruct o as [x|]; [now apply IH|].
  specialize (IH _ Ht). rewrite nth_set_length in IH by exact Hk. exact IH.
Qed.

Lemma fj_full_spec_feed n (tins : list (Z * (nat * option A))) : forall seen done pos,
  length done = n -> fj_wfb done (map snd tins) = true ->
  map snd (fj_full_spec n seen done pos (fj_inputs tins))
  = map Next (fst (fj_spec n seen done (map snd tins)))
    ++ (if snd (fj_spec n seen done (map snd tins)) then [Done] else []).
Proof.
  induction tins as [|[now [k o]] rest IH]; intros seen done pos Hlen Hwf; [reflexivity|].
  cbn [map snd fst fj_wfb] in Hwf. apply andb_true_iff in Hwf. destruct Hwf as [Hk Ht].
  apply negb_true_iff in Hk. pose proof (nth_false_lt k done Hk) as Hlt. rewrite Hlen in Hlt.
  cbn [fj_inputs map fst snd fj_full_spec fj_spec]. fold (fj_inputs rest).
  rewrite Hk. apply Nat.ltb_lt in Hlt. rewrite Hlt. cbn [negb andb].
  destruct o as [x|].
  - apply IH; assumption.
  - destruct (latest k seen) as [y|]; [|reflexivity].
    destruct (forallb (fun d : bool => d) (nth_set k true done)); [reflexivity|].
    apply IH; [|exact Ht]. apply Nat.ltb_lt in Hlt. rewrite nth_set_length; lia.
Qed.

(* under the runner, on deliveries and completions that respect the grammar, the output is [fj_spec]'s,
   which LatestFacts.fork_join_closed_form shows to be [fj_feed]'s *)
Lemma fj_run_closed_form n (tins : list (Z * (nat * option A))) :
  fj_wfb (repeat false n) (map snd tins) = true ->
  emitted (fst (run (x_fork_join n) (fj_inputs tins)))
  = map Next (fst (fj_spec n [] (repeat false n) (map snd tins)))
    ++ (if snd (fj_spec n [] (repeat false n) (map snd tins)) then [Done] else []).
Proof.
  intros Hwf. rewrite MultiFacts.emitted_temitted, fork_join_refines_spec.
  exact (fj_full_spec_feed n tins [] (repeat false n) 1 (repeat_length _ _) Hwf).
Qed.
End ForkJoinBridge.

Section CombineLatestSpec.
Context {A : Type}.

Definition others_done (n k : nat) (done : list bool) : bool :=
  forallb (fun j => Nat.eqb j k || nth j done true) (seq 0 n).

(* SPEC of combine_latest over n sources.  An element of a subscribed source: the tuple of
   the latest elements is emitted iff every source has delivered by now (as in cl_spec).
   The output completes when the LAST source completes -- a source completing without ever
   having delivered does NOT complete the output by itself -- and also at an element that
   leaves the snapshot incomplete while every OTHER source has completed (then some
   completed source never delivered and no tuple can ever be formed; the element is
   swallowed and the output completes at that moment).  The first error of a subscribed
   source ends the output; dispose truncates. *)
Fixpoint cl_full_spec (n : nat) (seen : list (nat * A)) (done : list bool) (pos : nat)
  (ins : list (Z * inp A)) : list (nat * ev (list A)) :=
  match ins with
  | [] => []
  | (_, ISrc k e) :: t =>
      if Nat.ltb k n && negb (nth k done true) then
        match e with
        | Next x =>
            let seen' := seen ++ [(k, x)] in
            if full (snapshot n seen')
            then (pos, Next (strip (snapshot n seen'))) :: cl_full_spec n seen' done (S pos) t
            else if others_done n k done then [(pos, Done)]
            else cl_full_spec n seen' done (S pos) t
        | Err er => [(pos, Err er)]
        | Done =>
            if forallb (fun d => d) (nth_set k true done) then [(pos, Done)]
            else cl_full_spec n seen (nth_set k true done) (S pos) t
        end
      else cl_full_spec n seen done (S pos) t
  | (_, ITick _) :: t => cl_full_spec n seen done (S pos) t
  | (_, IDispose) :: _ => []
  end.

Lemma others_done_machine n k (done : list bool) : length done = n ->
  forallb (fun jd : nat * bool => Nat.eqb (fst jd) k || snd jd) (combine (seq 0 n) done)
  = others_done n k done.
Proof.
  intros <-. rewrite (forallb_combine_seq (fun j => Nat.eqb j k)). unfold others_done.
  apply forallb_ext_in. intros j _. now rewrite Nat.sub_0_r.
Qed.

Definition cl_sstep (n : nat) (a : list (nat * A) * list bool) (k : nat) (e : ev A)
  : (list (nat * A) * list bool) * list (list A) * fin :=
  let '(seen, done) := a in
  match e with
  | Next x =>
      let seen' := seen ++ [(k, x)] in
      if full (snapshot n seen') then ((seen', done), [strip (snapshot n seen')], Cont)
      else if others_done n k done then ((seen', done), [], Complete)
      else ((seen', done), [], Cont)
  | Err er => ((seen, done), [], Fail er)
  | Done =>
      if forallb (fun d => d) (nth_set k true done) then ((seen, nth_set k true done), [], Complete)
      else ((seen, nth_set k true done), [], Cont)
  end.

(* the machine's flag [hva] (every source has a value) is [full] of the snapshot; for n = 0 it
   starts as false while [full []] = true, hence the guard (no source is ever accepted then) *)
Definition cl_P (n : nat) (a : list (nat * A) * list bool) (s : x_state (x_combine_latest (A:=A) n)) : Prop :=
  length (snd a) = n /\ fst (fst s) = snapshot n (fst a) /\ snd s = snd a
  /\ ((0 < n)%nat -> snd (fst s) = full (snapshot n (fst a))).

Lemma cl_gspec n (ins : list (Z * inp A)) : forall seen done pos,
  gspec (fj_acc n) (cl_sstep n) (seen, done) pos ins = cl_full_spec n seen done pos ins.
Proof.
  induction ins as [|[now i] rest IH]; intros seen done pos; [reflexivity|].
  cbn [gspec cl_full_spec]. destruct i as [k e|tag|]; [|apply IH|reflexivity].
  unfold fj_acc at 1. cbn [snd].
  destruct (Nat.ltb k n && negb (nth k done true)); [|apply IH].
  destruct e as [x|er|]; cbn [cl_sstep map app]; [|reflexivity|].
  - cbv zeta. destruct (full (snapshot n (seen ++ [(k, x)]))).
    + cbn [map app]. f_equal. apply IH.
    + destruct (others_done n k done); [reflexivity|]. cbn [map app]. apply IH.
  - destruct (forallb (fun d : bool => d) (nth_set k true done)); [reflexivity|]. cbn [map app]. apply IH.
Qed.

Lemma cl_step_ok n a s now k e :
  cl_P n a s -> fj_acc n a k = true ->
  let '(a', bs, f) := cl_sstep n a k e in
  exists s', x_step (x_combine_latest n) s now (ISrc k e) = (s', map CEmit bs, f)
    /\ (f = Cont -> cl_P n a' s'
        /\ forall j, fj_acc n a' j = (if is_terminal e then negb (Nat.eqb j k) else true) && fj_acc n a j).
Proof.
  destruct a as [seen done]. destruct s as [[values hva] done']. unfold cl_P, fj_acc. cbn [fst snd].
  intros (Hlen & -> & -> & Hhva) Hacc.
  apply andb_true_iff in Hacc. destruct Hacc as [Hk _]. apply Nat.ltb_lt in Hk.
  rewrite Hhva by lia. clear Hhva.
  destruct e as [x|er|]; cbn [cl_sstep]; [|cbn [x_combine_latest x_step]..].
  - rewrite (cl_step_next n seen done now k x Hk), (others_done_machine n k done Hlen). cbv zeta.
    destruct (full (snapshot n (seen ++ [(k, x)]))) eqn:Hfull; [|destruct (others_done n k done)];
      (eexists; split; [reflexivity|]); try discriminate;
      intros _; cbn [fst snd is_terminal]; repeat split; try exact Hlen; intros _; now rewrite Hfull.
  - eexists. split; [reflexivity|discriminate].
  - destruct (forallb (fun d : bool => d) (nth_set k true done)); (eexists; split; [reflexivity|]);
      [discriminate|]. intros _. cbn [fst snd is_terminal]. repeat split.
    + now rewrite nth_set_length.
    + intros j. apply (acc_after_done (fun i => Nat.ltb i n)). lia.
Qed.

Theorem combine_latest_refines_spec n (ins : list (Z * inp A)) :
  temitted (fst (run (x_combine_latest n) ins)) = cl_full_spec n [] (repeat false n) 1 ins.
Proof.
  rewrite <- cl_gspec.
  apply (engine_run (x_combine_latest n) _ (fj_acc n) (cl_sstep n) (cl_P n))
    with (s0 := (repeat None n, false, repeat false n)) (live0 := seq 0 n).
  (* the premises in the order of fork_join_refines_spec *)
  - exact (cl_step_ok n).
  - intros [[values hva] done] now. reflexivity.
  - reflexivity.
  - unfold cl_P. cbn [fst snd]. repeat split; [apply repeat_length|now rewrite snapshot_nil|].
    intros Hn. rewrite snapshot_nil. destruct n; [lia|reflexivity].
  - apply seq_NoDup.
  - intros j. apply mem_seq0_none_done.
Qed.
End CombineLatestSpec.

Section WithLatestFromSpec.
Context {A : Type}.

(* SPEC of with_latest_from: parent = source 0, children = sources 1..n; [done] has one
   flag per source 0..n.  Only elements of the parent produce tuples, and only once every
   child has delivered (as in wlf_spec); the output completes exactly when the PARENT
   completes -- a child's completion only ends that child's deliveries; the first error of
   ANY subscribed source ends the output; dispose truncates. *)
Fixpoint wlf_full_spec (n : nat) (seen : list (nat * A)) (done : list bool) (pos : nat)
  (ins : list (Z * inp A)) : list (nat * ev (list A)) :=
  match ins with
  | [] => []
  | (_, ISrc k e) :: t =>
      if Nat.leb k n && negb (nth k done true) then
        match e with
        | Next x =>
            (match k with
             | O => if full (child_snapshot n seen)
                    then [(pos, Next (x :: strip (child_snapshot n seen)))] else []
             | S _ => []
             end) ++ wlf_full_spec n (seen ++ [(k, x)]) done (S pos) t
        | Err er => [(pos, Err er)]
        | Done =>
            match k with
            | O => [(pos, Done)]
            | S _ => wlf_full_spec n seen (nth_set k true done) (S pos) t
            end
        end
      else wlf_full_spec n seen done (S pos) t
  | (_, ITick _) :: t => wlf_full_spec n seen done (S pos) t
  | (_, IDispose) :: _ => []
  end.

Definition wlf_acc (n : nat) (a : list (nat * A) * list bool) (k : nat) : bool :=
  Nat.leb k n && negb (nth k (snd a) true).

Definition wlf_sstep (n : nat) (a : list (nat * A) * list bool) (k : nat) (e : ev A)
  : (list (nat * A) * list bool) * list (list A) * fin :=
  let '(seen, done) := a in
  match e with
  | Next x =>
      ((seen ++ [(k, x)], done),
       match k with
       | O => if full (child_snapshot n seen) then [x :: strip (child_snapshot n seen)] else []
       | S _ => []
       end, Cont)
  | Err er => ((seen, done), [], Fail er)
  | Done => ((seen, nth_set k true done), [], match k with O => Complete | S _ => Cont end)
  end.

Definition wlf_P (n : nat) (a : list (nat * A) * list bool) (s : x_state (x_with_latest_from (A:=A) n)) : Prop :=
  s = child_snapshot n (fst a) /\ length (snd a) = S n.

Lemma wlf_gspec n (ins : list (Z * inp A)) : forall seen done pos,
  gspec (wlf_acc n) (wlf_sstep n) (seen, done) pos ins = wlf_full_spec n seen done pos ins.
Proof.
  induction ins as [|[now i] rest IH]; intros seen done pos; [reflexivity|].
  cbn [gspec wlf_full_spec]. destruct i as [k e|tag|]; [|apply IH|reflexivity].
  unfold wlf_acc at 1. cbn [snd].
  destruct (Nat.leb k n && negb (nth k done true)); [|apply IH].
  destruct e as [x|er|]; cbn [wlf_sstep map app]; [|reflexivity|].
  - rewrite IH. f_equal. destruct k; [|reflexivity].
    destruct (full (child_snapshot n seen)); reflexivity.
  - destruct k; [reflexivity|]. cbn [map app]. apply IH.
Qed.

Lemma wlf_step_ok n a s now k e :
  wlf_P n a s -> wlf_acc n a k = true ->
  let '(a', bs, f) := wlf_sstep n a k e in
  exists s', x_step (x_with_latest_from n) s now (ISrc k e) = (s', map CEmit bs, f)
    /\ (f = Cont -> wlf_P n a' s'
        /\ forall j, wlf_acc n a' j = (if is_terminal e then negb (Nat.eqb j k) else true) && wlf_acc n a j).
Proof.
  destruct a as [seen done]. unfold wlf_P, wlf_acc. cbn [fst snd]. intros [-> Hlen] Hacc.
  apply andb_true_iff in Hacc. destruct Hacc as [Hk _]. apply Nat.leb_le in Hk.
  destruct e as [x|er|]; cbn [wlf_sstep]; [|cbn [x_with_latest_from x_step]..].
  - rewrite (wlf_step_next n seen now k x Hk). eexists. split.
    + destruct k; [destruct (full (child_snapshot n seen))|]; reflexivity.
    + intros _. cbn [fst snd is_terminal]. repeat split. exact Hlen.
  - eexists. split; [destruct k; reflexivity|discriminate].
  - destruct k as [|j]; (eexists; split; [reflexivity|]); [discriminate|].
    intros _. cbn [fst snd is_terminal]. repeat split.
    + now rewrite nth_set_length.
    + intros i. apply (acc_after_done (fun i => Nat.leb i n)). lia.
Qed.

Theorem with_latest_from_refines_spec n (ins : list (Z * inp A)) :
  temitted (fst (run (x_with_latest_from n) ins)) = wlf_full_spec n [] (repeat false (S n)) 1 ins.
Proof.
  rewrite <- wlf_gspec.
  apply (engine_run (x_with_latest_from n) _ (wlf_acc n) (wlf_sstep n) (wlf_P n))
    with (s0 := repeat None n) (live0 := seq 1 n ++ [0%nat]).
  (* the premises in the order of fork_join_refines_spec *)
  - exact (wlf_step_ok n).
  - intros values now. reflexivity.
  - cbn [x_with_latest_from x_start]. now rewrite map_app.
  - split; cbn [fst snd]; [now rewrite child_snapshot_nil|apply repeat_length].
  - apply wlf_live_nodup.
  - intros j. unfold wlf_acc. cbn [snd]. rewrite nth_repeat_false, negb_involutive, wlf_live_mem.
    destruct (Nat.leb_spec j n), (Nat.ltb_spec j (S n)); try reflexivity; lia.
Qed.
End WithLatestFromSpec.

Section ForkJoinTuple.
Context {A : Type}.

(* the elements the n sources deliver before their own termination, in order of arrival *)
Fixpoint fj_accepted (n : nat) (done : list bool) (ins : list (Z * inp A)) : list (nat * A) :=
  match ins with
  | [] => []
  | (_, ISrc k e) :: t =>
      if Nat.ltb k n && negb (nth k done true) then
        match e with
        | Next x => (k, x) :: fj_accepted n done t
        | _ => fj_accepted n (nth_set k true done) t
        end
      else fj_accepted n done t
  | _ :: t => fj_accepted n done t
  end.

Lemma all_done_nth (done : list bool) j :
  forallb (fun d : bool => d) done = true -> nth j done true = true.
Proof.
  intros H. destruct (Nat.lt_ge_cases j (length done)) as [Hlt|Hge].
  - rewrite forallb_forall in H. apply H. now apply nth_In.
  - now apply nth_overflow.
Qed.

Lemma fj_accepted_all_done n (ins : list (Z * inp A)) : forall done,
  forallb (fun d : bool => d) done = true -> fj_accepted n done ins = [].
Proof.
  induction ins as [|[now i] rest IH]; intros done H; [reflexivity|].
  cbn [fj_accepted]. destruct i as [k e|tag|]; try (now apply IH).
  rewrite (all_done_nth done k H). cbn [negb]. rewrite andb_false_r. now apply IH.
Qed.

(* a completed source has delivered something (otherwise the output would have ended) *)
Definition fj_inv (n : nat) (seen : list (nat * A)) (done : list bool) : Prop :=
  forall j, (j < n)%nat -> nth j done true = true -> is_some (latest j seen) = true.

(* the one tuple is made of the last element every source delivered while subscribed *)
Lemma fj_full_spec_tuple n (ins : list (Z * inp A)) : forall seen done pos p tup,
  length done = n -> fj_inv n seen done ->
  In (p, Next tup) (fj_full_spec n seen done pos ins) ->
  length tup = n /\
  forall j d, (j < n)%nat -> latest j (seen ++ fj_accepted n done ins) = Some (nth j tup d).
Proof.
  induction ins as [|[now i] rest IH]; intros seen done pos p tup Hlen Hinv Hin; [destruct Hin|].
  cbn [fj_full_spec fj_accepted] in *. destruct i as [k e|tag|]; [|eapply IH; eassumption|destruct Hin].
  destruct (Nat.ltb k n && negb (nth k done true)) eqn:Hacc; [|eapply IH; eassumption].
  apply andb_true_iff in Hacc. destruct Hacc as [Hk _]. apply Nat.ltb_lt in Hk.
  destruct e as [x|er|].
  - destruct (IH (seen ++ [(k, x)]) done (S pos) p tup Hlen) as [H1 H2]; [|exact Hin|].
    + intros j Hj Hd. apply latest_some_mono. now apply Hinv.
    + split; [exact H1|]. intros j d Hj. rewrite <- (H2 j d Hj), <- app_assoc. reflexivity.
  - destruct Hin as [Hin|[]]. discriminate.
  - destruct (latest k seen) as [y|] eqn:Hy; [|destruct Hin as [Hin|[]]; discriminate].
    assert (Hinv1 : fj_inv n seen (nth_set k true done)).
    { intros j Hj Hd. rewrite nth_nth_set_cases in Hd by lia.
      destruct (Nat.eqb_spec j k) as [->|Hne]; [now rewrite Hy|]. now apply Hinv. }
    destruct (forallb (fun d : bool => d) (nth_set k true done)) eqn:Hall.
    + destruct Hin as [Hin|[Hin|[]]]; [|discriminate]. injection Hin as _ <-.
      (* every source has completed, so by the invariant every source has a latest element *)
      assert (Hfull : full (snapshot n seen) = true).
      { unfold full, snapshot. apply forallb_forall. intros v Hv. apply in_map_iff in Hv.
        destruct Hv as [j [<- Hj]]. apply in_seq in Hj. apply Hinv1; [lia|]. now apply all_done_nth. }
      rewrite (fj_accepted_all_done n rest _ Hall), app_nil_r. now apply strip_snapshot_latest.
    + eapply IH; [|exact Hinv1|exact Hin]. rewrite nth_set_length; lia.
Qed.

(* ... and the output is: at most that one tuple, then nothing but the termination *)
Lemma fj_full_spec_shape n (ins : list (Z * inp A)) : forall seen done pos,
  fj_full_spec n seen done pos ins = []
  \/ (exists p e, is_terminal e = true /\ fj_full_spec n seen done pos ins = [(p, e)])
  \/ (exists p tup, fj_full_spec n seen done pos ins = [(p, Next tup); (p, Done)]).
Proof.
  induction ins as [|[now i] rest IH]; intros seen done pos; [left; reflexivity|].
  cbn [fj_full_spec]. destruct i as [k e|tag|]; [|apply IH|left; reflexivity].
  destruct (Nat.ltb k n && negb (nth k done true)); [|apply IH].
  destruct e as [x|er|]; [apply IH|right; left; exists pos, (Err er); split; reflexivity|].
  destruct (latest k seen); [|right; left; exists pos, Done; split; reflexivity].
  destruct (forallb (fun d : bool => d) (nth_set k true done)); [|apply IH].
  right; right. eexists. eexists. reflexivity.
Qed.

End ForkJoinTuple.
