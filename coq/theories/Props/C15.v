(* C15 -- time-shifting operators move notifications by the requested time.

   Machines: Ops/Timed.v (written from reactivex/operators/_delay.py,
   _delaysubscription.py, _delaywithmapper.py, _timestamp.py, _timeinterval.py),
   tied to the implementation by the K2 correspondence on delivered input
   sequences (harness/props/C15.py).  The theorems below are about the CLOSED
   WORLD of Ops/TimedSim.v: [simulate m t0 ext] subscribes at clock t0, delivers
   the external events [ext] at their instants and fires every timer the machine
   requests exactly at request time + delay (at equal instants: source
   notifications first, then timers in scheduling order -- the policy of the
   proxy scheduler the implementation is driven with).  [timed_emits] is the
   list of (clock reading, notification) delivered downstream.  Time is integer
   milliseconds; [tevents tl tm] is a conforming timed source: elements [tl] =
   [(t_i, x_i)], then the terminal [tm]. *)
From RxVerif Require Import Base.Prelude Ops.Machine Ops.Multi Ops.MultiFacts Ops.Timed Ops.TimedSim
  Ops.TimedFacts Ops.TimedWindowFacts Ops.TimedDelayFacts Ops.TimedSubFacts Ops.TimedMapperFacts.

(* the closed world is a run of the machine: the simulator only chooses the next
   input, the runner of Ops/Multi.v (the one compared with the implementation) handles it *)
Theorem C15_simulation_is_a_run : forall A B (m : machine A B) fuel t0 ext,
  fst (run m (sim_inputs (snd (simulate_fuel m fuel t0 ext))))
  = map (fun o => (0%nat, o)) (fst (simulate_fuel m fuel t0 ext)) ++ tag_from 1 (snd (simulate_fuel m fuel t0 ext)).
Proof. exact @sim_is_run. Qed.
Print Assumptions C15_simulation_is_a_run.

(* delay(d), d >= 0: every element and the completion exactly d later, in order
   (bursts at one instant keep their order); an error immediately, the elements
   still pending (due at or after the error instant) dropped *)
Theorem C15_delay_spec : forall A d t0 (tl : list (Z * A)) tm,
  0 <= d -> tsorted (tevents tl tm) -> Forall (fun e => t0 <= fst e) (tevents tl tm) ->
  timed_emits t0 (simulate (x_delay d) t0 (ext_of (tevents tl tm)))
  = match tm with
    | TTDone T => shift d tl ++ [(T + d, Done)]
    | TTErr T c => filter (fun n => fst n <? T) (shift d tl) ++ [(T, Err c)]
    | TTNever => shift d tl
    end.
Proof. exact @delay_spec. Qed.
Print Assumptions C15_delay_spec.

(* the same for ANY time-sorted notification sequence of the source (also
   non-conforming ones): the walk [dspec] with the queue of pending notifications *)
Theorem C15_delay_walk : forall A d t0 (es : list (Z * ev A)),
  0 <= d -> tsorted es -> Forall (fun e => t0 <= fst e) es ->
  timed_emits t0 (simulate (x_delay d) t0 (ext_of es)) = dspec d [] es.
Proof. exact @delay_sim_spec. Qed.
Print Assumptions C15_delay_walk.

Theorem C15_delay_zero : forall A t0 (tl : list (Z * A)) T,
  tsorted (tevents tl (TTDone T)) -> Forall (fun e => t0 <= fst e) (tevents tl (TTDone T)) ->
  timed_emits t0 (simulate (x_delay 0) t0 (ext_of (tevents tl (TTDone T)))) = tevents tl (TTDone T).
Proof. exact @delay_zero. Qed.
Print Assumptions C15_delay_zero.

(* an absolute (datetime) due time is the delay [due - t0] fixed at subscription *)
Theorem C15_delay_absolute : forall A ts t0 (tl : list (Z * A)) tm,
  0 <= tdelay ts t0 -> tsorted (tevents tl tm) -> Forall (fun e => t0 <= fst e) (tevents tl tm) ->
  timed_emits t0 (simulate (x_delay_at ts t0) t0 (ext_of (tevents tl tm))) = delay_out (tdelay ts t0) tl tm.
Proof.
  intros A ts t0 tl tm.
  exact (delay_spec (tdelay ts t0) t0 tl tm).
Qed.
Print Assumptions C15_delay_absolute.

(* delay_subscription: the first thing observed is the subscription of the
   source, exactly at the due instant t0 + max(0, delay); every notification the
   (hot) source sent up to and at that instant found nobody listening *)
Theorem C15_delay_subscription_subscribes_at : forall A ts t0 (es : list (Z * ev A)),
  exists rest,
    snd (simulate (x_delay_subscription ts t0) t0 (ext_of es))
    = map (fun te => (fst te, ISrc 0%nat (snd te), @nil (obs A))) (take_upto (due_at ts t0) es)
      ++ (due_at ts t0, ITick 0%nat, [@OSub A 0%nat]) :: rest.
Proof.
  intros A ts t0 es. rewrite dsub_start. eexists. reflexivity.
Qed.
Print Assumptions C15_delay_subscription_subscribes_at.

(* ... and afterwards the source is mirrored: the elements after the subscription
   instant at their own instants, then the source's terminal (elements arriving
   at the very instant of an error are dropped with it) *)
Theorem C15_delay_subscription_spec : forall A ts t0 (tl : list (Z * A)) tm,
  tsorted (tevents tl tm) ->
  timed_emits t0 (simulate (x_delay_subscription ts t0) t0 (ext_of (tevents tl tm)))
  = ds_outq (own (after (due_at ts t0) tl)) (term_after (due_at ts t0) tm).
Proof. exact @delay_subscription_spec. Qed.
Print Assumptions C15_delay_subscription_spec.

(* delay_with_mapper, step level (the instants at which the delay observables
   notify are inputs): an element is delivered at the first on_next OR
   on_completed of its delay observable and only then; errors end the sequence.
   PARTIAL: no closed form over absolute time (the delay observables are
   arbitrary); whole-run behaviour is covered by the K2 correspondence and, over
   all interleavings of the ports, by C15_delay_with_mapper_walk below. *)
Theorem C15_delay_with_mapper_step_partial : forall A has_sub (mapper : A -> nat -> res unit) (s : dwm_st) now,
  let m := x_delay_with_mapper has_sub mapper in
  (forall k e x, dwm_special has_sub k = false -> lookup k (dw_delays s) = Some x -> not_err e ->
     emitted_cmds (snd (fst (x_step m s now (ISrc k e)))) = [x]
     /\ dw_delays (fst (fst (x_step m s now (ISrc k e)))) = remove_key k (dw_delays s)
     /\ snd (x_step m s now (ISrc k e))
        = if dw_at_end s && Nat.eqb (length (remove_key k (dw_delays s))) 0 then Complete else Cont)
  /\ (forall i x, In x (emitted_cmds (snd (fst (x_step m s now i)))) ->
        exists k e, i = ISrc k e /\ dwm_special has_sub k = false /\ not_err e /\ lookup k (dw_delays s) = Some x)
  /\ (forall x u, mapper x (dw_cnt s) = Ok u ->
        x_step m s now (ISrc 0%nat (Next x))
        = (DwmSt (S (dw_cnt s)) (dw_at_end s)
                 (dw_delays s ++ [(((if has_sub then 2 else 1) + dw_cnt s)%nat, x)]),
           [CSub ((if has_sub then 2 else 1) + dw_cnt s)%nat], Cont))
  /\ (forall k c, snd (x_step m s now (ISrc k (Err c))) = Fail c
                  /\ emitted_cmds (snd (fst (x_step m s now (ISrc k (Err c))))) = [])
  /\ (forall x c, mapper x (dw_cnt s) = Raise c -> snd (x_step m s now (ISrc 0%nat (Next x))) = Fail c).
Proof.
  intros A has_sub mapper s now. cbn zeta. split; [|split; [|split; [|split]]].
  - intros k e x H H0 H1. rewrite (dwm_step_delay has_sub mapper s now k e H).
    destruct e as [y|c|]; [|destruct (H1 c eq_refl)|]; rewrite H0; repeat split; reflexivity.
  - intros i x Hin. destruct i as [k e| |]; [|destruct Hin|destruct Hin].
    destruct (dwm_special has_sub k) eqn:Hk; [rewrite dwm_step_special in Hin by exact Hk; destruct Hin|].
    rewrite (dwm_step_delay has_sub mapper s now k e Hk) in Hin. exists k, e.
    destruct e as [y|c|]; [|destruct Hin|]; (destruct (lookup k (dw_delays s)) as [z|]; [|destruct Hin]);
      destruct Hin as [<-|[]]; (split; [reflexivity|split; [exact Hk|split; [intros c0 Hc; discriminate Hc|reflexivity]]]).
  - intros x u Hm. cbn. rewrite Hm. destruct has_sub; reflexivity.
  - intros k c. destruct k as [|[|k]]; destruct has_sub; split; reflexivity.
  - intros x c Hm. cbn. rewrite Hm. reflexivity.
Qed.
Print Assumptions C15_delay_with_mapper_step_partial.

(* timestamp / time_interval attach the clock reading / the time since the
   previous element or the subscription; no hypothesis on the instants *)
Theorem C15_timestamp_spec : forall A t0 (tl : list (Z * A)) tm,
  timed_emits t0 (simulate x_timestamp t0 (ext_of (tevents tl tm)))
  = map (fun tx => (fst tx, Next (snd tx, fst tx))) tl ++ term_ev tm.
Proof. exact @timestamp_spec. Qed.
Print Assumptions C15_timestamp_spec.

Theorem C15_time_interval_spec : forall A t0 (tl : list (Z * A)) tm,
  timed_emits t0 (simulate (x_time_interval t0) t0 (ext_of (tevents tl tm)))
  = intervals t0 tl ++ term_ev tm.
Proof. exact @time_interval_spec. Qed.
Print Assumptions C15_time_interval_spec.

(* ---- non-vacuity: the hypotheses are satisfiable, the closed forms compute --- *)
Example C15_ex_timeline_sorted :
  tsorted (tevents [(0, 1); (0, 2); (5, 0)] (TTDone 20))
  /\ Forall (fun e : Z * ev Z => 0 <= fst e) (tevents [(0, 1); (0, 2); (5, 0)] (TTDone 20)).
Proof. cbn. repeat split; repeat constructor; cbn; lia. Qed.

Example C15_ex_delay :
  timed_emits 0 (simulate (x_delay 10) 0 (ext_of (tevents [(0, 1); (0, 2); (5, 0)] (TTDone 20))))
  = [(10, Next 1); (10, Next 2); (15, Next 0); (30, Done)].
Proof. vm_compute. reflexivity. Qed.

Example C15_ex_delay_error_drops_pending :
  timed_emits 0 (simulate (x_delay 10) 0 (ext_of (tevents [(0, 1); (5, 2)] (TTErr 15 7))))
  = [(10, Next 1); (15, Err 7)].
Proof. vm_compute. reflexivity. Qed.

Example C15_ex_delay_subscription :
  timed_emits 0 (simulate (x_delay_subscription (Rel 10) 0) 0 (ext_of (tevents [(5, 1); (10, 2); (15, 3); (15, 0)] (TTDone 15))))
  = [(15, Next 3); (15, Next 0); (15, Done)].
Proof. vm_compute. reflexivity. Qed.

Example C15_ex_time_interval :
  timed_emits 5 (simulate (x_time_interval 5) 5 (ext_of (tevents [(5, 1); (20, 0)] (TTDone 20))))
  = [(5, Next (1, 0)); (20, Next (0, 15)); (20, Done)].
Proof. vm_compute. reflexivity. Qed.

(* ---- delay_with_mapper at run level (Ops/DelayMapperRun.v); delay with d <= 0 (Ops/TimedDelayNeg.v) ---- *)
From RxVerif Require Import Ops.SimPortSteps Ops.TimedDelayNeg Ops.DelayMapperRun.

(* delay_with_mapper, WHOLE RUN, over all interleavings of the notifications of the source
   (port 0), of the optional subscription delay (port 1 when has_sub) and of the delay
   observables the mapper makes (port base + j for the j-th accepted element, base = 2 with a
   subscription delay, else 1): the timed emissions of the machine equal the walk [dwm_spec]
   (Ops/DelayMapperRun.v).  The walk: the source is heard once the subscription delay notified
   (on_next or on_completed); an accepted element waits in the pending set under the port of its
   delay observable; the FIRST notification of that port delivers it if it is an on_next or an
   on_completed (later notifications of the port find nothing); an error of any heard port and a
   raising mapper end the output with that error; completion is emitted when the source is done
   and the pending set is empty (at the source's completion, or at the delivery that empties it).
   Ports that are not subscribed (not yet made, already fired, the source after its terminal) are
   not heard. *)
Theorem C15_delay_with_mapper_walk : forall A has_sub (mapper : A -> nat -> res unit) t0 (ins : list (Z * nat * ev A)),
  timed_emits t0 (simulate (x_delay_with_mapper has_sub mapper) t0 (ext2_of ins))
  = dwm_spec has_sub mapper has_sub (negb has_sub) false 0 [] ins.
Proof. exact @delay_with_mapper_walk. Qed.
Print Assumptions C15_delay_with_mapper_walk.

(* property-level reading (no subscription delay), "only then": an element x emitted at t was
   the source's notification number j = count0 pre, and t is the instant of the FIRST
   notification of port j+1 after x arrived, an on_next or an on_completed *)
Theorem C15_delay_with_mapper_emitted_at_first_fire :
  forall A (mapper : A -> nat -> res unit) t0 (ins : list (Z * nat * ev A)) t x,
  In (t, Next x) (timed_emits t0 (simulate (x_delay_with_mapper false mapper) t0 (ext2_of ins))) ->
  exists pre tx mid e rest,
    ins = pre ++ (tx, 0%nat, Next x) :: mid ++ (t, S (count0 pre), e) :: rest
    /\ fires e /\ port_silent (S (count0 pre)) mid.
Proof.
  intros A mapper t0 ins t x. rewrite delay_with_mapper_walk.
  exact (dwm_emitted_at_first_fire false mapper ins t x eq_refl).
Qed.
Print Assumptions C15_delay_with_mapper_emitted_at_first_fire.

(* ... and "then": if the mapper does not raise, nothing failed and the source had not completed
   before x arrived, and nothing fails while x is pending, x IS emitted at the first notification
   of its delay observable *)
Theorem C15_delay_with_mapper_emits_when_fired :
  forall A (mapper : A -> nat -> res unit) t0 (pre mid rest : list (Z * nat * ev A)) tx t x e,
  mapper_total mapper -> no_err_tl pre -> (forall t', ~ In (t', 0%nat, Done) pre) ->
  no_err_tl mid -> port_silent (S (count0 pre)) mid -> fires e ->
  In (t, Next x) (timed_emits t0 (simulate (x_delay_with_mapper false mapper) t0
        (ext2_of (pre ++ (tx, 0%nat, Next x) :: mid ++ (t, S (count0 pre), e) :: rest)))).
Proof.
  intros A mapper t0 pre mid rest tx t x e. rewrite delay_with_mapper_walk.
  exact (dwm_emits_when_fired false mapper pre mid rest tx t x e eq_refl).
Qed.
Print Assumptions C15_delay_with_mapper_emits_when_fired.

(* delay(d), d <= 0 (a negative delay; a datetime due time not in the future): the scheduler
   clamps the negative delay of the drain action to zero, so in the closed world the WHOLE
   simulation (inputs delivered, everything the runner observes) is that of delay(0) -- for
   every event sequence of the source, no hypothesis on the instants *)
Theorem C15_delay_nonpositive_is_zero : forall A d t0 (es : list (Z * ev A)),
  d <= 0 -> simulate (x_delay d) t0 (ext_of es) = simulate (x_delay 0) t0 (ext_of es).
Proof. exact @delay_nonpositive_is_zero. Qed.
Print Assumptions C15_delay_nonpositive_is_zero.

(* closed form: every element and the completion at the instant they arrive (bursts in order);
   an error at once, the elements of its own instant dropped (they are still queued: at equal
   instants the closed world delivers the source's notifications before the drain action) *)
Theorem C15_delay_nonpositive_spec : forall A d t0 (tl : list (Z * A)) tm,
  d <= 0 -> tsorted (tevents tl tm) -> Forall (fun e => t0 <= fst e) (tevents tl tm) ->
  timed_emits t0 (simulate (x_delay d) t0 (ext_of (tevents tl tm))) = delay_out 0 tl tm.
Proof.
  intros A d t0 tl tm Hd Hs Hlo. rewrite delay_nonpositive_is_zero by exact Hd. apply delay_spec; [lia|exact Hs|exact Hlo].
Qed.
Print Assumptions C15_delay_nonpositive_spec.

Theorem C15_delay_absolute_past : forall A ts t0 (tl : list (Z * A)) tm,
  tdelay ts t0 <= 0 -> tsorted (tevents tl tm) -> Forall (fun e => t0 <= fst e) (tevents tl tm) ->
  timed_emits t0 (simulate (x_delay_at ts t0) t0 (ext_of (tevents tl tm))) = delay_out 0 tl tm.
Proof.
  intros A ts t0 tl tm.
  exact (C15_delay_nonpositive_spec A (tdelay ts t0) t0 tl tm).
Qed.
Print Assumptions C15_delay_absolute_past.

(* ---- non-vacuity of the run-level theorems ---- *)
Definition C15_ex_mapper (x : Z) (i : nat) : res unit := if x =? 99 then Raise 5 else Ok tt.

(* delay observables firing out of order, a second notification of a port, completion of the
   source while elements are pending, delivery by on_completed *)
Example C15_ex_delay_with_mapper :
  timed_emits 0 (simulate (x_delay_with_mapper false C15_ex_mapper) 0
    (ext2_of [(1, 0%nat, Next 10); (2, 0%nat, Next 20); (3, 2%nat, Next 0); (4, 2%nat, Next 0);
              (5, 0%nat, Done); (6, 1%nat, Done); (7, 1%nat, Next 0)]))
  = [(3, Next 20); (6, Next 10); (6, Done)].
Proof. vm_compute. reflexivity. Qed.

(* with a subscription delay: what the source sends before it fires is lost; a raising mapper *)
Example C15_ex_delay_with_mapper_sub :
  timed_emits 0 (simulate (x_delay_with_mapper true C15_ex_mapper) 0
    (ext2_of [(1, 0%nat, Next 10); (2, 1%nat, Next 0); (3, 0%nat, Next 7); (4, 2%nat, Done);
              (5, 0%nat, Next 99); (6, 0%nat, Done)]))
  = [(4, Next 7); (5, Err 5)].
Proof. vm_compute. reflexivity. Qed.

(* the hypotheses of C15_delay_with_mapper_emits_when_fired hold for a mapper that never raises
   on a timeline with a notification of a port that does not exist (port 5), an older element
   delivered and the source completing while x = 20 (the source's notification number 2) is pending *)
Example C15_ex_emits_when_fired_hyps :
  let pre := [(1, 0%nat, Next 10); (2, 5%nat, Next 0); (3, 0%nat, Next 30)] in
  let mid := [(5, 1%nat, Done); (6, 0%nat, Done)] in
  @mapper_total Z (fun _ _ => Ok tt) /\ @no_err_tl Z pre /\ (forall t', ~ In (t', 0%nat, @Done Z) pre)
  /\ @no_err_tl Z mid /\ port_silent (S (count0 pre)) mid /\ count0 pre = 2%nat
  /\ timed_emits 0 (simulate (x_delay_with_mapper false (fun (_ : Z) _ => Ok tt)) 0
       (ext2_of (pre ++ (4, 0%nat, Next 20) :: mid ++ [(7, 3%nat, Done)])))
     = [(5, Next 10); (7, Next 20)].
Proof.
  cbn zeta. split; [intros y i; exists tt; reflexivity|].
  split; [intros t k c H; cbn in H; intuition discriminate|].
  split; [intros t H; cbn in H; intuition discriminate|].
  split; [intros t k c H; cbn in H; intuition discriminate|].
  split; [intros t e H; cbn in H; intuition discriminate|].
  split; [reflexivity|vm_compute; reflexivity].
Qed.

Example C15_ex_delay_negative :
  timed_emits 0 (simulate (x_delay (-7)) 0 (ext_of (tevents [(0, 1); (0, 2); (5, 0)] (TTDone 20))))
  = [(0, Next 1); (0, Next 2); (5, Next 0); (20, Done)]
  /\ timed_emits 0 (simulate (x_delay (-7)) 0 (ext_of (tevents [(0, 1); (5, 2); (5, 3)] (TTErr 5 9))))
     = [(0, Next 1); (5, Err 9)].
Proof. vm_compute. split; reflexivity. Qed.
