(* C28 -- virtual time runs actions in due order on a monotone clock.

   Model: Core/VTime.v (VirtualTimeScheduler / TestScheduler / HistoricalScheduler,
   PriorityQueue, ScheduledItem; tied to the code by the K1 correspondence of
   harness/props/C28.py).  The theorems from C28_pop_index to
   C28_advance_to_complete quantify over ALL histories [h : list tcmd]
   (top-level schedule / cancel / stop / sleep / start / advance_to /
   advance_by calls whose actions are arbitrary finite trees that schedule,
   cancel, stop, sleep, raise -- past a CatchScheduler handler or not --, note,
   and subscribe / dispose periodic actions), both clock kinds [c], every
   initial clock [c0] and every amount of fuel (also when the fuel runs out:
   the statements hold of the log produced so far).  The theorems from
   C28_advance_to_only_due on are about one call in ANY state [s], reachable
   or not.

   [pops (log s)] lists the dequeued items, NEWEST FIRST; in
   [ForallOrdPairs (fun b a => ...)] b is dequeued later than a. *)
From RxVerif Require Import Base.Prelude Core.VTime Core.VTimeFacts Core.VTimeNested Core.VTAdvance.
From Coq Require Import Sorting.Sorted.

(* the k-th dequeued item carries r_idx = k *)
Theorem C28_pop_index : forall c fuel c0 h,
  let s := state_of (run c fuel (init c0) h) in
  map r_idx (pops (log s)) = desc (npops s).
Proof. intros c fuel c0 h. exact (proj2 (inv_records _ (inv_run c fuel c0 h))). Qed.
Print Assumptions C28_pop_index.

(* Run order: if b was already queued when a was dequeued, a comes first in
   the order (due time, then order of the schedule calls) *)
Theorem C28_run_order : forall c fuel c0 h,
  let s := state_of (run c fuel (init c0) h) in
  ForallOrdPairs (fun b a => queued_at_pop_of b a -> plt a b) (pops (log s)).
Proof. intros c fuel c0 h. exact (proj2 (proj2 (inv_order _ (inv_run c fuel c0 h)))). Qed.
Print Assumptions C28_run_order.

(* Due order: when nothing is scheduled in the past, dequeued items (and hence
   the actions run) are strictly increasing in (due time, scheduling order) *)
Theorem C28_due_order : forall c fuel c0 h,
  let s := state_of (run c fuel (init c0) h) in
  Forall (fun a => r_sclk a <= r_due a) (pops (log s)) ->
  ForallOrdPairs (fun b a => plt a b) (pops (log s)).
Proof. intros c fuel c0 h. apply sorted_if_no_past, inv_run. Qed.
Print Assumptions C28_due_order.

Theorem C28_due_order_of_runs : forall c fuel c0 h,
  let s := state_of (run c fuel (init c0) h) in
  Forall (fun a => r_sclk a <= r_due a) (pops (log s)) ->
  ForallOrdPairs (fun b a => plt a b) (filter r_ran (pops (log s))).
Proof. intros c fuel c0 h s H. apply FOP_filter, sorted_if_no_past; [apply inv_run | exact H]. Qed.
Print Assumptions C28_due_order_of_runs.

(* Clock when an action runs = max(clock before, due time), except at the
   dequeue where start() bumps the clock after MAX_SPINNING same-instant items *)
Theorem C28_clock_at_run : forall c fuel c0 h,
  let s := state_of (run c fuel (init c0) h) in
  Forall rec_ok (pops (log s)).
Proof. intros c fuel c0 h. exact (proj1 (inv_records _ (inv_run c fuel c0 h))). Qed.
Print Assumptions C28_clock_at_run.

(* The clock never moves backwards *)
Theorem C28_clock_monotone : forall c fuel c0 h,
  let s := state_of (run c fuel (init c0) h) in
  StronglySorted Z.ge (readings (log s)) /\ Forall (fun k => k <= clock s) (readings (log s)).
Proof. intros c fuel c0 h. apply inv5_readings, inv_clock, inv_run. Qed.
Print Assumptions C28_clock_monotone.

(* Cancelled actions never run; an action is skipped only if it was cancelled *)
Theorem C28_cancelled_never_run : forall c fuel c0 h,
  no_run_after_cancel (log (state_of (run c fuel (init c0) h))).
Proof. intros c fuel c0 h. exact (proj1 (proj2 (inv_cancel _ (inv_run c fuel c0 h)))). Qed.
Print Assumptions C28_cancelled_never_run.

Theorem C28_skipped_only_if_cancelled : forall c fuel c0 h,
  skip_only_if_cancelled (log (state_of (run c fuel (init c0) h))).
Proof. intros c fuel c0 h. exact (proj2 (proj2 (inv_cancel _ (inv_run c fuel c0 h)))). Qed.
Print Assumptions C28_skipped_only_if_cancelled.

(* Every scheduled action is dequeued at most once and is never lost *)
Theorem C28_conservation : forall c fuel c0 h,
  let s := state_of (run c fuel (init c0) h) in
  NoDup (map i_id (queue s) ++ map r_id (pops (log s))) /\
  forall id, (id < next_id s)%nat <->
             In id (map i_id (queue s)) \/ In id (map r_id (pops (log s))).
Proof. intros c fuel c0 h. apply inv7_conservation, inv_ids, inv_run. Qed.
Print Assumptions C28_conservation.

(* advance_to(t), t later than the clock, in any reachable stopped state whose
   pending actions never stop the scheduler or raise (sl: may they sleep?):
   returns; dequeues only items due <= t, without spin bump; leaves only items
   due > t; the clock ends at t (at least t if actions sleep).  advance_by(d)
   is advance_to(clock + d) by definition (VTime.step_t). *)
Theorem C28_advance_to : forall c fuel c0 h sl fuel' t,
  let s := state_of (run c fuel (init c0) h) in
  enabled s = false -> clock s < t -> calm_q sl (queue s) -> (qsize (queue s) <= fuel')%nat ->
  exists s', advance_to fuel' s t = Finished s' /\ enabled s' = false /\
             Forall (fun it => t < i_due it) (queue s') /\
             t <= clock s' /\ (sl = false -> clock s' = t) /\
             calm_q sl (queue s') /\ new_pops_ok s s' t.
Proof. intros c fuel c0 h sl fuel' t s. apply advance_to_calm, inv_queue, inv_run. Qed.
Print Assumptions C28_advance_to.

(* advance_to(t) is COMPLETE: every pending item due at or before t has been dequeued
   when advance_to returns (new_pops_ok of C28_advance_to is the converse inclusion:
   whatever it dequeued was due <= t; "was run unless cancelled" is
   C28_skipped_only_if_cancelled) *)
Theorem C28_advance_to_complete : forall c fuel c0 h sl fuel' t,
  let s := state_of (run c fuel (init c0) h) in
  enabled s = false -> clock s < t -> calm_q sl (queue s) -> (qsize (queue s) <= fuel')%nat ->
  exists s', advance_to fuel' s t = Finished s' /\
             forall it, In it (queue s) -> i_due it <= t -> In (i_id it) (map r_id (pops (log s'))).
Proof. intros c fuel c0 h sl fuel' t s. apply advance_to_complete, inv_run. Qed.
Print Assumptions C28_advance_to_complete.

(* advance_to NEVER dequeues an item due after its target and never spin-bumps: in ANY
   state (reachable or not; pending actions may stop the scheduler, raise, be periodic),
   for any target and fuel, whatever the outcome (returned, raised, out of fuel) *)
Theorem C28_advance_to_only_due : forall fuel s t,
  new_pops_ok s (ostate (advance_to fuel s t)) t.
Proof. exact advance_to_only_due. Qed.
Print Assumptions C28_advance_to_only_due.

(* advance_to(now) does not run the items due now; it is a no-op (so "advance_to(t) runs
   everything due <= t" fails at t = now) *)
Theorem C28_advance_to_now_is_noop : forall fuel s, advance_to fuel s (clock s) = Finished s.
Proof. exact advance_to_now_noop. Qed.
Print Assumptions C28_advance_to_now_is_noop.

Theorem C28_advance_to_past_raises : forall fuel s t,
  t < clock s -> advance_to fuel s t = Raised AOOR s.
Proof. exact advance_to_past_raises. Qed.
Print Assumptions C28_advance_to_past_raises.

(* sleep(d) only moves the clock; a negative d raises and changes nothing *)
Theorem C28_sleep : forall s d, 0 <= d ->
  exec_cmd s (SSleep d) = BOk (set_clock s (clock s + d)).
Proof. exact sleep_spec. Qed.
Print Assumptions C28_sleep.

Theorem C28_sleep_negative : forall s d, d < 0 ->
  exists s', exec_cmd s (SSleep d) = BRaise AOOR s' /\ clock s' = clock s /\ queue s' = queue s.
Proof. intros s d H. simpl. apply Z.ltb_lt in H. rewrite H. eexists. repeat split. Qed.
Print Assumptions C28_sleep_negative.

(* start() / advance_to() / advance_by() issued from INSIDE a running action (the model has no
   command for it; harness/vt.py erases such calls when it prints a history, see Core/VTimeNested.v):
   the loops invoke items only while the flag is set, nothing but stop() clears it, and with the
   flag set the calls return at once (advance_to(t < clock) raises, C28_advance_to_past_raises). *)
Theorem C28_nested_start_returns_at_once : forall c fuel s,
  enabled s = true -> start c fuel s = Finished s.
Proof. exact start_while_enabled. Qed.
Print Assumptions C28_nested_start_returns_at_once.

Theorem C28_nested_advance_returns_at_once : forall fuel s t,
  enabled s = true -> clock s <= t -> advance_to fuel s t = Finished s.
Proof. exact advance_to_while_enabled. Qed.
Print Assumptions C28_nested_advance_returns_at_once.

Theorem C28_loops_invoke_only_while_enabled : forall c fuel s sp t,
  enabled s = false ->
  start_loop c fuel s sp = Finished (set_enabled s false) /\ advance_loop fuel s t = finish_adv s t.
Proof. intros c fuel s sp t H. exact (conj (start_loop_disabled c fuel s sp H) (advance_loop_disabled fuel s t H)). Qed.
Print Assumptions C28_loops_invoke_only_while_enabled.

Theorem C28_action_invoked_with_the_loop_flag : forall s it q' newclk bumped,
  run_item s it q' newclk bumped =
    (if negb (memb (i_id it) (cancelled s))
     then invoke (invoke_state s it q' newclk bumped) (i_pay it)
     else BOk (invoke_state s it q' newclk bumped))
  /\ enabled (invoke_state s it q' newclk bumped) = enabled s.
Proof. exact run_item_invokes_with_flag. Qed.
Print Assumptions C28_action_invoked_with_the_loop_flag.

Theorem C28_only_stop_clears_the_flag : forall b1 b2 s s1,
  nostop b1 = true -> exec_body s b1 = BOk s1 ->
  enabled s1 = enabled s /\ exec_body s (b1 ++ b2) = exec_body s1 b2.
Proof. exact exec_body_prefix_enabled. Qed.
Print Assumptions C28_only_stop_clears_the_flag.

(* ---- non-vacuity --------------------------------------------------- *)

(* [ex_h] (Core/VTimeFacts.v): three actions at one instant + one scheduled from inside + one cancelled *)
Example C28_witness_order :
  observe (run (Cfg Numeric false) 10 (init 0) ex_h)
  = [OClock 0; OClock 0; OClock 0; OClock 0;
     ORun 4 2; ORun 0 5; ORun 1 5; ORun 3 5; OClock 5].
Proof. vm_compute. reflexivity. Qed.

(* the hypothesis of C28_due_order holds of it *)
Example C28_witness_no_past :
  forallb (fun a => r_sclk a <=? r_due a)
          (pops (log (state_of (run (Cfg Numeric false) 10 (init 0) ex_h)))) = true.
Proof. vm_compute. reflexivity. Qed.

(* the hypotheses of C28_advance_to are satisfiable, and the result is as stated *)
Example C28_witness_advance :
  let s := state_of (run (Cfg Datetime false) 10 (init 0)
             [TDo (SSched (Abs 3) 0 [SSched (Rel 2) 1 []; SSched (Rel 20) 2 []]); TDo (SSched (Abs 30) 3 [])]) in
  enabled s = false /\ clock s <? 10 = true /\
  forallb (fun it => calm_pay false (i_pay it)) (queue s) = true /\
  observe (run (Cfg Datetime false) 10 s [TAdvTo 10]) =
    [OClock 0; OClock 0; ORun 0 3; ORun 1 5; OClock 10].
Proof. vm_compute. repeat split; reflexivity. Qed.

(* C28_advance_to_now_is_noop on a concrete state: an item due now stays queued *)
Example C28_advance_to_now_refuted :
  let s := state_of (run (Cfg Numeric false) 10 (init 7) [TDo (SSched Now 0 [])]) in
  map i_due (queue s) = [7] /\ clock s = 7 /\
  observe (run (Cfg Numeric false) 10 s [TAdvTo 7; TAdvBy 0]) = [OClock 7; OClock 7; OClock 7].
Proof. vm_compute. repeat split; reflexivity. Qed.

(* the hypotheses of the nested-call theorems hold in the state in which a loop invokes an action:
   here action 0, whose body is [SSched Now 1 []] (no stop), in start() *)
Example C28_witness_nested :
  let s := set_enabled (state_of (run (Cfg Numeric false) 10 (init 0)
             [TDo (SSched (Abs 3) 0 [SSched Now 1 []]); TDo (SSched (Abs 4) 2 [])])) true in
  match queue s with
  | it :: q' =>
      let s0 := invoke_state s it q' 3 false in
      enabled s0 = true /\ nostop [SSched Now 1 []] = true /\
      match exec_body s0 [SSched Now 1 []] with
      | BOk s1 => enabled s1 = true /\ start (Cfg Numeric false) 10 s1 = Finished s1 /\
                  advance_to 10 s1 9 = Finished s1 /\ advance_to 10 s1 1 = Raised AOOR s1
      | _ => False
      end
  | [] => False
  end.
Proof. vm_compute. repeat split; reflexivity. Qed.

(* C28_advance_to_only_due on a state with a periodic subscription, a raising and a
   stopping action pending (outside C28_advance_to): advance_to(10) raises at 4, only
   items due <= 10 were dequeued *)
Example C28_witness_only_due :
  let s := state_of (run (Cfg Numeric false) 10 (init 0)
             [TDo (SPeriodic 3 ([], PNext [] 0%N 0) 0); TDo (SSched (Abs 4) 0 [SRaise 7]);
              TDo (SSched (Abs 5) 1 [SStop]); TDo (SSched (Abs 30) 2 [])]) in
  forallb (fun it => calm_pay true (i_pay it)) (queue s) = false /\
  match advance_to 10 s 10 with
  | Raised 7 s' => map r_due (pops (log s')) = [4; 3]
  | _ => False
  end.
Proof. vm_compute. split; reflexivity. Qed.

(* C28_advance_to_complete on the state of C28_witness_advance: item 0 (due 3) is
   pending and due <= 10, item 1 (due 30) is not; ids dequeued: 0 and the nested 2 *)
Example C28_witness_complete :
  let s := state_of (run (Cfg Datetime false) 10 (init 0)
             [TDo (SSched (Abs 3) 0 [SSched (Rel 2) 1 []; SSched (Rel 20) 2 []]); TDo (SSched (Abs 30) 3 [])]) in
  map (fun it => (i_id it, i_due it)) (queue s) = [(0%nat, 3); (1%nat, 30)] /\
  match advance_to 10 s 10 with
  | Finished s' => map r_id (pops (log s')) = [2%nat; 0%nat]
  | _ => False
  end.
Proof. vm_compute. split; reflexivity. Qed.
