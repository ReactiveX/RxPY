(* C33 -- cancelling an asyncio-scheduled action is effective from any thread.

   Model: Core/AsyncIO.v -- AsyncIOScheduler / AsyncIOThreadSafeScheduler as the code is, on a model
   of the asyncio loop (FIFO _ready, timer heap, Handle.cancel() = flag + cleared callback, the flag is
   tested when the handle is popped and again when it is run).  Thread 0 is the loop thread (it may make
   calls before run_forever() and from inside actions), the other threads are foreign.
   [ts]: thread-safe scheduler or plain one; [fixed]: _on_self_loop_or_not_running as repaired
   (proposed_fixes/C33-foreign-thread-cancel-marshalled.diff, applied to /repo).
   The theorems hold for the thread-safe scheduler as repaired with ANY foreign threads, for either
   scheduler when only the loop thread uses it (the intended use of the plain AsyncIOScheduler), and -- IN
   THIS MODEL, where a plain dispose() (handle.cancel()) and the loop's test-and-run of a handle are single
   steps -- for the plain scheduler with any foreign threads as well (C33_cancel_effective_plain/_all).
   The loop may be stopped and run again any number of times ([AStop] = loop.stop(), from an action, from
   the loop thread between two runs, or from any thread; run_forever() returns between two iterations of
   _run_once with whatever is queued still queued; [segs] = what the loop thread calls before each further
   run_forever()).  What the unchanged code guarantees there: a dispose() that found the loop running has
   marshalled cancel_handle and stays in future.result() until cancel_handle has run ON the loop -- across
   a stop, until the loop is run again (for ever if it never is: C33_ex_stopped_for_good) -- so it never
   returns with an uncancelled handle (C33_dispose_returns_cancelled); the action may start meanwhile, but
   then dispose() has not returned yet (C33_ex_stop_with_cancel_queued).
   Assumption of the property, built into the system: the loop does not start (again) while a dispose()
   that found it not running is in progress. *)
From RxVerif Require Import Base.Prelude Core.AsyncIO Core.AsyncIOFacts Core.AsyncIOTime Core.AsyncIOPlain.
Local Open Scope Z_scope.

(* once dispose() on the returned disposable has returned, the action does not start -- for every
   schedule, whether dispose() ran on the loop thread (before run_forever() or inside an action) or on a
   foreign thread (direct path while the loop is not running, marshalled while it is) *)
Theorem C33_cancel_effective : forall ts fixed abody t0 pre segs progs sched l1 u l2,
  (ts && fixed = true \/ progs = []) ->
  AL_ (arun ts fixed abody (ainit t0 pre segs progs) sched) = l1 ++ ADispRet u :: l2 -> ~ In (AStart u) l2.
Proof. exact aio_cancel_effective. Qed.
Print Assumptions C33_cancel_effective.

(* dispose() never returns before the cancellation has been carried out: when it has returned, every handle
   created so far for that call (interval, stage2, the timer) is cancelled -- for the marshalled path:
   future.result() is not left before cancel_handle has run on the loop, however often the loop was stopped
   and run again in between *)
Theorem C33_dispose_returns_cancelled : forall ts fixed abody t0 pre segs progs sched u h,
  (ts && fixed = true \/ progs = []) ->
  let c := arun ts fixed abody (ainit t0 pre segs progs) sched in
  In (ADispRet u) (AL_ c) -> owner (a_sh c) h = Some u -> amem h (acanc (a_sh c)) = true.
Proof. exact aio_dispose_returns_cancelled. Qed.
Print Assumptions C33_dispose_returns_cancelled.

(* the PLAIN AsyncIOScheduler with ANY foreign threads (repaired predicate or not): in the model each plain
   call owns one handle, its dispose() always takes the direct path and is one atomic step (handle.cancel()),
   and the loop tests the flag in the same step in which it runs the handle *)
Theorem C33_cancel_effective_plain : forall fixed abody t0 pre segs progs sched l1 u l2,
  AL_ (arun false fixed abody (ainit t0 pre segs progs) sched) = l1 ++ ADispRet u :: l2 -> ~ In (AStart u) l2.
Proof. exact aio_cancel_effective_plain. Qed.
Print Assumptions C33_cancel_effective_plain.

Theorem C33_dispose_returns_cancelled_plain : forall fixed abody t0 pre segs progs sched u h,
  let c := arun false fixed abody (ainit t0 pre segs progs) sched in
  In (ADispRet u) (AL_ c) -> owner (a_sh c) h = Some u -> amem h (acanc (a_sh c)) = true.
Proof. exact aio_dispose_returns_cancelled_plain. Qed.
Print Assumptions C33_dispose_returns_cancelled_plain.

(* why the plain class needs no side condition: no foreign thread is ever in the middle of a plain dispose() *)
Theorem C33_plain_dispose_atomic : forall fixed abody t0 pre segs progs sched tid cur todo,
  nth_error (a_ths (arun false fixed abody (ainit t0 pre segs progs) sched)) tid = Some (AF cur todo) -> cur = None.
Proof.
  intros fixed abody t0 pre segs progs sched tid cur todo N.
  destruct (invPl_reach fixed abody t0 pre segs progs sched) as [_ T]. exact (T tid _ N).
Qed.
Print Assumptions C33_plain_dispose_atomic.

(* both classes under one statement: the side condition is needed for the thread-safe class only *)
Theorem C33_cancel_effective_all : forall ts fixed abody t0 pre segs progs sched l1 u l2,
  (ts = true -> fixed = true \/ progs = []) ->
  AL_ (arun ts fixed abody (ainit t0 pre segs progs) sched) = l1 ++ ADispRet u :: l2 -> ~ In (AStart u) l2.
Proof. exact aio_cancel_effective_all. Qed.
Print Assumptions C33_cancel_effective_all.

Theorem C33_dispose_returns_cancelled_all : forall ts fixed abody t0 pre segs progs sched u h,
  (ts = true -> fixed = true \/ progs = []) ->
  let c := arun ts fixed abody (ainit t0 pre segs progs) sched in
  In (ADispRet u) (AL_ c) -> owner (a_sh c) h = Some u -> amem h (acanc (a_sh c)) = true.
Proof.
  intros ts fixed abody t0 pre segs progs sched u h H. destruct ts.
  - apply aio_dispose_returns_cancelled. destruct (H eq_refl) as [ -> | -> ]; [left; reflexivity|right; reflexivity].
  - apply aio_dispose_returns_cancelled_plain.
Qed.
Print Assumptions C33_dispose_returns_cancelled_all.

(* the theorems above speak of the dispose() call that won the test-and-set of Disposable (ADispRet).  A further
   dispose() of the same disposable returns at once (ADispNoop): if the winner has returned before, the action
   does not start after the no-op return either ... *)
Theorem C33_noop_after_winner_returned : forall ts fixed abody t0 pre segs progs sched l1 u l2,
  (ts = true -> fixed = true \/ progs = []) ->
  AL_ (arun ts fixed abody (ainit t0 pre segs progs) sched) = l1 ++ ADispNoop u :: l2 ->
  In (ADispRet u) l1 -> ~ In (AStart u) l2.
Proof.
  intros ts fixed abody t0 pre segs progs sched l1 u l2 H E I S.
  destruct (in_split _ _ I) as (a & b & ->).
  rewrite <- app_assoc in E. cbn [app] in E.
  apply (aio_cancel_effective_all ts fixed abody t0 pre segs progs sched a u _ H E).
  apply in_or_app. right. right. exact S.
Qed.
Print Assumptions C33_noop_after_winner_returned.

(* ... but NOT while the winner is still waiting in future.result(): T1 schedule(), T1 dispose() (marshalled,
   waits), T2 dispose() (no-op, returns at once), the loop runs the action.  The literal text "once dispose()
   has returned" is false for a second, concurrent dispose(); the property is kept for the winning call only *)
Theorem C33_noop_dispose_refuted :
  map snd (a_log noop_witness) = [ARet 0; ADispNoop 0; AStart 0]%nat /\
  nth_error (a_ths noop_witness) 1 = Some (AF (Some (FWait 0 0)) []) /\
  ~ In (ADispRet 0%nat) (map snd (a_log noop_witness)).
Proof.
  vm_compute. split; [reflexivity|]. split; [reflexivity|].
  intros [H|[H|[H|[]]]]; discriminate H.
Qed.
Print Assumptions C33_noop_dispose_refuted.

(* a thread in future.result() does not move while the future has no result (only cancel_handle, run by the
   loop, sets it): while the loop is stopped the dispose() blocks *)
Theorem C33_wait_blocks : forall ts fixed abody c tid u f todo,
  nth_error (a_ths c) tid = Some (AF (Some (FWait u f)) todo) -> amem f (afut (a_sh c)) = false ->
  atstep ts fixed abody c tid = c.
Proof.
  intros ts fixed abody c tid u f todo N M. unfold atstep. rewrite N. unfold call_step, do_cont. rewrite M. reflexivity.
Qed.
Print Assumptions C33_wait_blocks.

(* actions start on the loop thread only -- either class, repaired or not, any foreign threads: no side condition *)
Theorem C33_on_loop_thread : forall ts fixed abody t0 pre segs progs sched tid t u,
  In (tid, t, AStart u) (a_log (arun ts fixed abody (ainit t0 pre segs progs) sched)) -> tid = 0%nat.
Proof. exact aio_on_loop_thread_all. Qed.
Print Assumptions C33_on_loop_thread.

(* "No earlier than their due time".
   Every schedule call records the due time of the new call (uid = number of calls made before) in the ghost
   list [adue]: the clock at the call + the positive part of the delay; schedule_absolute(t) is
   schedule_relative(t - now) (both classes), a negative or zero delay is schedule().  Holds for either
   scheduler, repaired or not, with any foreign threads: no side condition. *)
Theorem C33_due_recorded : forall ts fixed ol s o r s' cur' todo' out,
  length (adue s) = length (ahl s) ->
  call_step ts fixed ol s None (o :: r) = Some (s', cur', todo', out) ->
  forall d, (o = ANow /\ d = 0) \/ o = ARel d \/ (exists t, o = AAbs t /\ d = t - aclock s) ->
  out = [ARet (length (ahl s))] /\ nth_error (adue s') (length (ahl s)) = Some (aclock s + Z.max 0 d).
Proof.
  intros ts fixed ol s o r s' cur' todo' out LN CS d H. apply call_step_spec in CS.
  pose proof (do_sched_due ts s d) as D. pose proof (do_sched_out ts s d) as O.
  destruct H as [[-> ->]|[->|[t [-> ->]]]]; inversion CS; subst; (split; [exact O|]); rewrite D, <- LN; apply nth_error_app_last.
Qed.
Print Assumptions C33_due_recorded.

(* the hypothesis of C33_due_recorded holds in every reachable state, and a recorded due time is never changed
   afterwards *)
Theorem C33_due_len : forall ts fixed abody t0 pre segs progs sched,
  let c := arun ts fixed abody (ainit t0 pre segs progs) sched in length (adue (a_sh c)) = length (ahl (a_sh c)).
Proof.
  intros ts fixed abody t0 pre segs progs sched c.
  destruct (invT_run ts fixed abody sched _ (invT_init t0 pre segs progs)) as [(ph & rest & _ & _ & q) _]. fold c in q.
  exact (n_len q).
Qed.
Print Assumptions C33_due_len.

Theorem C33_due_stable : forall ts fixed abody t0 pre segs progs sched1 sched2 u due,
  let c1 := arun ts fixed abody (ainit t0 pre segs progs) sched1 in
  nth_error (adue (a_sh c1)) u = Some due -> nth_error (adue (a_sh (arun ts fixed abody c1 sched2))) u = Some due.
Proof.
  intros ts fixed abody t0 pre segs progs sched1 sched2 u due c1 NT. apply aio_due_stable_inv; [|exact NT].
  apply invT_run, invT_init.
Qed.
Print Assumptions C33_due_stable.

(* an action starts no earlier than the due time of its call -- for every schedule of thread steps and clock
   advances, across loop.stop() / run again *)
Theorem C33_not_early : forall ts fixed abody t0 pre segs progs sched tid t u,
  let c := arun ts fixed abody (ainit t0 pre segs progs) sched in
  In (tid, t, AStart u) (a_log c) -> exists due, nth_error (adue (a_sh c)) u = Some due /\ due <= t.
Proof. exact aio_not_early. Qed.
Print Assumptions C33_not_early.

(* the timer-heap step of _run_once on its own: a timer is moved to _ready only when now >= when *)
Theorem C33_timer_popped_when_due : forall now tm dl rest h, split_due now tm = (dl, rest) -> In h dl ->
  exists w, In (w, h) tm /\ w <= now.
Proof. intros. eapply split_due_due; eassumption. Qed.
Print Assumptions C33_timer_popped_when_due.

(* the code BEFORE the repair is refuted: a foreign dispose() while the loop is between call_later
   returning and handle.append cancels stage 1 only; the timer fires after dispose() returned *)
Theorem C33_foreign_direct_cancel_refuted :
  map snd (a_log old_code_witness) = [ARet 0; ADispRet 0; AStart 0]%nat.
Proof. exact aio_foreign_direct_cancel_refuted. Qed.
Print Assumptions C33_foreign_direct_cancel_refuted.

(* the same schedule on the repaired code *)
Theorem C33_same_schedule_repaired :
  map snd (a_log new_code_same_schedule) = [ARet 0; ADispRet 0]%nat.
Proof. vm_compute. reflexivity. Qed.
Print Assumptions C33_same_schedule_repaired.

(* non-vacuity.  An immediate and a relative action run *)
Example C33_ex_runs :
  let c := arun true true noaction (ainit 0 [ANow] [] [[ARel 1000]])
                ([AMStep 0; AMStep 0; AMStep 1] ++ repeat (AMStep 0%nat) 8 ++ [AMTick 1000] ++ repeat (AMStep 0%nat) 6) in
  map snd (a_log c) = [ARet 0; ARet 1; AStart 0; AEnd 0; AStart 1; AEnd 1]%nat /\
  map (fun x => snd (fst x)) (filter (fun x => match snd x with AStart _ => true | _ => false end) (a_log c)) = [0; 1000].
Proof. vm_compute. split; reflexivity. Qed.

(* a foreign dispose of the relative action while the loop runs is marshalled and effective *)
Example C33_ex_marshalled_dispose :
  let c := arun true true noaction (ainit 0 [] [] [[ARel 1000; ADispose 0%nat]])
                ([AMStep 0; AMStep 1; AMStep 1]%nat ++ repeat (AMStep 0%nat) 10 ++ [AMStep 1%nat; AMTick 1000] ++
                 repeat (AMStep 0%nat) 6) in
  map snd (a_log c) = [ARet 0; ADispRet 0]%nat /\ aeff (a_sh c) = [0%nat] /\ map astatus (a_ths c) = [2; 1]%nat /\
  aclock (a_sh c) = 1000.
Proof. vm_compute. repeat split; reflexivity. Qed.

(* a dispose from inside an action (on the loop thread) is direct *)
Example C33_ex_dispose_on_loop_thread :
  let body := abody_of [(0%nat, [ADispose 1%nat])] in
  let c := arun true true body (ainit 0 [ANow; ARel 500] [] []) (repeat (AMStep 0%nat) 12 ++ [AMTick 500] ++ repeat (AMStep 0%nat) 6) in
  map snd (a_log c) = [ARet 0; ARet 1; AStart 0; ADispRet 1; AEnd 0]%nat.
Proof. vm_compute. reflexivity. Qed.

(* the plain scheduler: a dispose before run_forever() is direct; the other call still runs *)
Example C33_ex_dispose_before_loop_runs :
  let c := arun false true noaction (ainit 0 [ANow; ARel 500; ADispose 0%nat] [] []) (repeat (AMStep 0%nat) 8 ++ [AMTick 500] ++ repeat (AMStep 0%nat) 6) in
  map snd (a_log c) = [ARet 0; ARet 1; ADispRet 0; AStart 1; AEnd 1]%nat.
Proof. vm_compute. reflexivity. Qed.

(* schedule_absolute: due 1500 scheduled at 200 (thread-safe: stage2 at 300, timer key 300 + 1300 = 1600 -- later than
   due, never earlier); an absolute time in the past and a negative relative delay run at once *)
Example C33_ex_absolute_and_negative :
  let c := arun true true noaction (ainit 200 [AAbs 1500; AAbs 100; ARel (-700)] [] [])
                ([AMStep 0; AMStep 0; AMStep 0; AMTick 100] ++ repeat (AMStep 0%nat) 14 ++ [AMTick 1299] ++
                 repeat (AMStep 0%nat) 3 ++ [AMTick 1] ++ repeat (AMStep 0%nat) 4) in
  map (fun x => (snd (fst x), snd x)) (filter (fun x => match snd x with AStart _ => true | _ => false end) (a_log c)) =
    [(300, AStart 1%nat); (300, AStart 2%nat); (1600, AStart 0%nat)] /\
  adue (a_sh c) = [1500; 200; 200].
Proof. vm_compute. split; reflexivity. Qed.

Example C33_ex_absolute_plain :
  let c := arun false true noaction (ainit 200 [AAbs 1500] [] [])
                ([AMStep 0; AMStep 0; AMTick 1299; AMStep 0; AMTick 1] ++ repeat (AMStep 0%nat) 4) in
  map (fun x => (snd (fst x), snd x)) (filter (fun x => match snd x with AStart _ => true | _ => false end) (a_log c)) =
    [(1500, AStart 0%nat)] /\ adue (a_sh c) = [1500].
Proof. vm_compute. split; reflexivity. Qed.

(* The loop is stopped while callbacks are queued, and run again.
   Action 0 stops the loop; while it runs a foreign thread schedules action 1 and disposes it (marshalled:
   _ready = [interval 1; cancel_handle]).  The loop stops with both queued; the foreign thread stays in
   future.result() (status 2) while the clock advances.  When the loop is run again, interval 1 comes
   first: the action starts -- dispose() has NOT returned yet -- then cancel_handle runs and dispose()
   returns. *)
Definition stop_body := abody_of [(0%nat, [AStop])].
Definition stop_c1 := arun true true stop_body (ainit 0 [ANow] [[]] [[ANow; ADispose 1%nat]])
   ([AMStep 0; AMStep 0; AMStep 0; AMStep 0; AMStep 0; AMStep 1; AMStep 1; AMStep 0; AMStep 0; AMStep 1; AMTick 500;
     AMStep 1]%nat).
Example C33_ex_stop_with_cancel_queued :
  (map snd (a_log stop_c1) = [ARet 0; AStart 0; ARet 1; AStopEv; AEnd 0]%nat /\
   map astatus (a_ths stop_c1) = [0; 2]%nat /\ arunning (a_sh stop_c1) = false /\ aready (a_sh stop_c1) = [1; 2]%nat) /\
  let c := arun true true stop_body stop_c1 (repeat (AMStep 0%nat) 8 ++ [AMStep 1%nat]) in
  map snd (a_log c) = [ARet 0; AStart 0; ARet 1; AStopEv; AEnd 0; AStart 1; AEnd 1; ADispRet 1]%nat /\
  map astatus (a_ths c) = [2; 1]%nat.
Proof. vm_compute. repeat split; reflexivity. Qed.

(* the cancellation overtakes a timer: action 0 stops the loop, stage2 of the relative call 1 still runs in that
   iteration, the foreign dispose of call 1 is queued behind it; the loop stops, the timer expires while the
   loop is stopped; on the next run cancel_handle is ahead of the expired timer: the action never starts *)
Definition stop_c2 := arun true true stop_body (ainit 0 [ANow; ARel 500] [[]] [[ADispose 1%nat]])
   ([AMStep 0; AMStep 0; AMStep 0; AMStep 0; AMStep 0; AMStep 0; AMStep 1; AMStep 0; AMStep 0; AMStep 0; AMStep 0;
     AMStep 0; AMStep 1; AMTick 500; AMStep 1]%nat).
Example C33_ex_stop_timer_expires_while_stopped :
  (map snd (a_log stop_c2) = [ARet 0; ARet 1; AStart 0; AStopEv; AEnd 0]%nat /\
   map astatus (a_ths stop_c2) = [0; 2]%nat /\ arunning (a_sh stop_c2) = false /\
   aready (a_sh stop_c2) = [2%nat] /\ atimers (a_sh stop_c2) = [(500, 3%nat)]) /\
  let c := arun true true stop_body stop_c2 (repeat (AMStep 0%nat) 8 ++ [AMStep 1%nat]) in
  map snd (a_log c) = [ARet 0; ARet 1; AStart 0; AStopEv; AEnd 0; ADispRet 1]%nat /\
  map astatus (a_ths c) = [2; 1]%nat /\ acanc (a_sh c) = [1; 3]%nat.
Proof. vm_compute. repeat split; reflexivity. Qed.

(* liveness is NOT promised: if the loop is never run again (no further segment), the marshalled dispose()
   stays in future.result() for ever -- it does not return, so the property is kept; recorded as a quirk *)
Example C33_ex_stopped_for_good :
  let c := arun true true stop_body (ainit 0 [ANow] [] [[ANow; ADispose 1%nat]])
             ([AMStep 0; AMStep 0; AMStep 0; AMStep 0; AMStep 0; AMStep 1; AMStep 1; AMStep 0; AMStep 0; AMStep 1;
               AMTick 500; AMStep 1; AMStep 0; AMStep 0]%nat) in
  map snd (a_log c) = [ARet 0; AStart 0; ARet 1; AStopEv; AEnd 0]%nat /\ map astatus (a_ths c) = [1; 2]%nat /\
  a_ths c = [AL LDone; AF (Some (FWait 1 0)) []].
Proof. vm_compute. repeat split; reflexivity. Qed.

(* loop.stop() before run_forever(): exactly one iteration runs (zero select timeout), then the loop stops *)
Example C33_ex_stop_before_run :
  let c := arun true true noaction (ainit 0 [ANow; ARel 500; AStop] [] []) (repeat (AMStep 0%nat) 12) in
  map snd (a_log c) = [ARet 0; ARet 1; AStopEv; AStart 0; AEnd 0]%nat /\ a_ths c = [AL LDone] /\
  atimers (a_sh c) = [(500, 2%nat)].
Proof. vm_compute. repeat split; reflexivity. Qed.

(* the busy callback: action 0 waits for the clock (the loop is running, busy), meanwhile a foreign thread
   schedules action 1 and disposes it; action 0 then stops the loop, which is run again 4 ms later.  The
   dispose() is still waiting then; it returns after cancel_handle ran, i.e. after interval 1 ran. *)
Example C33_ex_busy_callback_stop_run_again :
  let body := abody_of [(0%nat, [ASleep 1000; AStop])] in
  let c := arun true true body (ainit 0 [ANow] [[ASleep 5000]] [[ANow; ADispose 1%nat]])
             ([AMStep 0; AMStep 0; AMStep 0; AMStep 0; AMStep 0; AMStep 1; AMStep 1; AMTick 1000; AMStep 0; AMStep 0;
               AMStep 0; AMStep 1; AMTick 4000] ++ repeat (AMStep 0%nat) 9 ++ [AMStep 1])%nat in
  map snd (a_log c) = [ARet 0; AStart 0; ARet 1; ASlept; AStopEv; AEnd 0; ASlept; AStart 1; AEnd 1; ADispRet 1]%nat /\
  map (fun x => snd (fst x)) (a_log c) = [0; 0; 0; 1000; 1000; 1000; 5000; 5000; 5000; 5000] /\
  map astatus (a_ths c) = [2; 1]%nat.
Proof. vm_compute. repeat split; reflexivity. Qed.

(* the plain scheduler with two foreign threads while the loop runs: T1 schedule_relative(1000), T1 dispose() --
   direct, returns; T2 dispose() -- no-op (the hypotheses of C33_noop_after_winner_returned); the clock passes
   the due time, the loop wakes up: nothing starts *)
Example C33_ex_plain_foreign_dispose :
  let c := arun false true noaction (ainit 0 [] [] [[ARel 1000; ADispose 0%nat]; [ADispose 0%nat]])
                ([AMStep 0; AMStep 1; AMStep 0; AMStep 1; AMStep 2; AMTick 1000] ++ repeat (AMStep 0%nat) 6)%nat in
  map snd (a_log c) = [ARet 0; ADispRet 0; ADispNoop 0]%nat /\ arunning (a_sh c) = true /\
  a_ths c = [AL (LIdle None); AF None []; AF None []] /\ aclock (a_sh c) = 1000.
Proof. vm_compute. repeat split; reflexivity. Qed.
