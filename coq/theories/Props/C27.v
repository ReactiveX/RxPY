(* C27 -- RefCountDisposable releases its resource only after all dependents.
   The underlying item is disposed at most once; exactly when (and only after) dispose() was called
   on the primary AND every dependent handed out was disposed; disposing a dependent twice releases
   it once; dependents requested after the release are inert.
   Part 1: all call histories of one thread, stated on the history and the observable log only
   (dependents are numbered in the order they were handed out; [rwf] = a history only disposes
   dependents that exist).  Part 2: ALL schedules of ANY number of threads: the invariant
   count = #undisposed dependents + #dispose()s of dependents in progress, is_disposed = primary
   and count = 0, and (#dispose() of the underlying) + (#threads about to call it) = is_disposed.
   Part 3: release() is entered at most once per dependent, however many threads dispose it (ghost counter
   of Core/RefCountOnce.v).  Part 4: dependents requested after the release are inert, nothing but the
   underlying item is disposed, and "only after" on the calls in the threads' programs.
   Models tied to /repo by harness/props/C27.py. *)
From RxVerif Require Import Base.Prelude Core.Disposables Core.DisposablesFacts Core.DispConc Core.DispConcFacts
  Core.RefCountOnce Core.RefCountOnceFacts Core.DispConcFacts2.

(* ---- one thread: all call histories ------------------------------------------ *)
Local Open Scope nat_scope.

(* the number of dispose() calls on the underlying item is 1 if the object is released, else 0 *)
Theorem C27_underlying_disposed_iff_released :
  forall h,
  u_disposes (log r_step r_init h) = b2n (r_disposed (final r_step r_init h)).
Proof. exact rc_underlying_is_released_flag. Qed.
Print Assumptions C27_underlying_disposed_iff_released.

Theorem C27_at_most_once :
  forall h, u_disposes (log r_step r_init h) <= 1.
Proof. intros h. rewrite rc_underlying_is_released_flag. destruct (r_disposed _); cbn; lia. Qed.
Print Assumptions C27_at_most_once.

Theorem C27_only_the_underlying :
  forall h j, j <> underlying -> disposes j (log r_step r_init h) = 0.
Proof. intros h j Hj. destruct (rc_log_gen h r_init r_init_ok) as [_ B]. apply B, Hj. Qed.
Print Assumptions C27_only_the_underlying.

(* ONLY AFTER: if the underlying item was disposed then dispose() was called on the primary and every
   dependent handed out was disposed -- except those requested after the release (which are inert) *)
Theorem C27_released_only_after_primary_and_all_dependents :
  forall h,
  u_disposes (log r_step r_init h) = 1 ->
  existsb is_rdispose h = true /\
  forall k, k < gets h ->
    dispd k h = true \/
    exists h1 h2, h = h1 ++ RGet :: h2 /\ gets h1 = k /\ u_disposes (log r_step r_init h1) = 1.
Proof. exact rc_released_only_after. Qed.
Print Assumptions C27_released_only_after_primary_and_all_dependents.

(* the converse, for histories that only dispose dependents that exist ([rwf]): if dispose() was called on
   the primary and every dependent handed out was disposed, the underlying item has been disposed (once) *)
Theorem C27_released_when_primary_and_all_dependents :
  forall h,
  rwf 0 h = true -> existsb is_rdispose h = true ->
  (forall k, k < gets h -> dispd k h = true) ->
  u_disposes (log r_step r_init h) = 1.
Proof. exact rc_released_when_all_done. Qed.
Print Assumptions C27_released_when_primary_and_all_dependents.

(* DOUBLE DISPOSE: disposing a dependent that was already disposed changes nothing and emits nothing *)
Theorem C27_dependent_disposed_twice_releases_once :
  forall h k,
  rwf 0 h = true -> dispd k h = true ->
  r_step (final r_step r_init h) (RDispDep k) = (final r_step r_init h, []).
Proof. exact rc_second_dispose_noop. Qed.
Print Assumptions C27_dependent_disposed_twice_releases_once.

Theorem C27_second_dispose_of_dependent_erasable :
  forall h k h',
  rwf 0 h = true -> dispd k h = true ->
  log r_step r_init (h ++ RDispDep k :: h') = log r_step r_init (h ++ h') /\
  final r_step r_init (h ++ RDispDep k :: h') = final r_step r_init (h ++ h').
Proof.
  intros h k h' W D. pose proof (rc_second_dispose_noop h k W D) as N.
  rewrite !log_app, !final_app, log_cons, final_cons, N. cbn [fst snd app]. split; reflexivity.
Qed.
Print Assumptions C27_second_dispose_of_dependent_erasable.

(* after the release nothing is disposed any more, whatever is called (in particular dependents
   requested afterwards are inert) *)
Theorem C27_inert_after_release :
  forall h1 h2 j,
  u_disposes (log r_step r_init h1) = 1 -> disposes j (log r_step (final r_step r_init h1) h2) = 0.
Proof.
  intros h1 h2 j U. pose proof (r_final_ok h1 r_init r_init_ok) as OK.
  destruct (rc_log_gen h2 _ OK) as [A B]. rewrite rc_underlying_is_released_flag in U.
  destruct (Nat.eq_dec j underlying) as [->|Hj]; [|apply B, Hj].
  destruct (r_disposed (final r_step r_init h1)); [|discriminate U]. cbn [b2n] in A. unfold u_disposes in A.
  destruct (r_disposed (final r_step (final r_step r_init h1) h2)); cbn [b2n] in A; lia.
Qed.
Print Assumptions C27_inert_after_release.

Theorem C27_dependent_after_release_is_inert :
  forall h1,
  u_disposes (log r_step r_init h1) = 1 ->
  let s := final r_step r_init h1 in
  r_step s RGet = (RState (r_count s) (r_primary s) (r_disposed s) (r_deps s ++ [DInert false]), []).
Proof.
  intros h1 U s. rewrite rc_underlying_is_released_flag in U. fold s in U.
  cbn [r_step]. destruct (r_disposed s); [reflexivity|discriminate U].
Qed.
Print Assumptions C27_dependent_after_release_is_inert.

(* non-vacuity *)
Example C27_witness_seq :
  let h := [RGet; RGet; RDispose; RDispDep 0; RDispDep 0; RIsDisposed; RDispDep 1; RGet; RDispDep 2; RIsDisposed] in
  outs r_step r_init h = [[]; []; []; []; []; [OBool false]; [ODisp underlying]; []; []; [OBool true]] /\
  rwf 0 h = true /\ existsb is_rdispose h = true /\ gets h = 3.
Proof. vm_compute. repeat split. Qed.
Example C27_witness_all_done_hyp :
  let h := [RGet; RDispose; RDispDep 0] in
  rwf 0 h = true /\ existsb is_rdispose h = true /\ (forall k, k < gets h -> dispd k h = true).
Proof. cbn. repeat split. intros k Hk. assert (k = 0) as -> by (unfold gets in Hk; cbn in Hk; lia). reflexivity. Qed.

(* ---- any number of threads: all schedules -------------------------------------- *)
Local Close Scope nat_scope.
Local Open Scope Z_scope.

Theorem C27_invariant_all_interleavings :
  forall progs sched, rc_inv (rc_run progs sched).
Proof. exact rc_run_inv. Qed.
Print Assumptions C27_invariant_all_interleavings.

(* C27 under every interleaving, at every moment:
   - the underlying item receives at most one dispose();
   - if it received one, dispose() was executed on the primary (is_primary_disposed), the count is zero:
     no handed-out dependent is still undisposed and no dependent's dispose() is still in progress
     between taking the handle and the decrement -- each handle contributes at most one decrement
     however many threads dispose it, because its parent link is taken under its own lock;
   - when all calls have returned, it received exactly one iff the primary was disposed and every
     handed-out dependent was disposed. *)
Theorem C27_all_interleavings :
  forall progs sched,
  let c := rc_run progs sched in
  und_acc (plain (c_log c)) <= 1 /\
  (1 <= und_acc (plain (c_log c)) ->
   r_primary (c_sh c) = true /\ live (r_deps (c_sh c)) = 0%nat /\ rc_tokens c = 0) /\
  (quiescent c = true ->
   und_acc (plain (c_log c)) = b2z (r_primary (c_sh c) && (live (r_deps (c_sh c)) =? 0)%nat)).
Proof. exact refcount_conc. Qed.
Print Assumptions C27_all_interleavings.

Theorem C27_needs_primary_all_interleavings :
  forall progs sched,
  (forall p, In p progs -> ~ In RDispose p) ->
  und_acc (plain (c_log (rc_run progs sched))) = 0.
Proof.
  intros progs sched NP. destruct (refcount_conc progs sched) as [U1 [U2 _]].
  destruct (Z_lt_le_dec (und_acc (plain (c_log (rc_run progs sched)))) 1) as [LT|GE].
  - unfold und_acc, zdisp in *. lia.
  - (* the primary flag is set, so a dispose() is in some thread's history, hence in its program *)
    exfalso. destruct (U2 GE) as [P _]. destruct (rc_primary_called progs sched P) as [k [t [N I]]].
    destruct (hist_in_progs rc_start rc_act r_init progs sched k t _ N I) as [p [Ip Xp]]. exact (NP p Ip Xp).
Qed.
Print Assumptions C27_needs_primary_all_interleavings.

(* non-vacuity: two threads dispose the SAME dependent while a third disposes the primary; the
   underlying item is disposed once, by the thread whose decrement brought the count to zero *)
Example C27_witness_race :
  let c := rc_run [[RGet]; [RDispDep 0%nat]; [RDispose]; [RDispDep 0%nat]] [0; 1; 3; 2; 2; 1; 1; 1]%nat in
  c_log c = [(1%nat, ODisp underlying)] /\ quiescent c = true /\ r_count (c_sh c) = 0 /\
  und_acc (plain (c_log c)) = 1.
Proof. vm_compute. repeat split. Qed.
Example C27_witness_no_primary_hyp : forall p, In p [[RGet; RDispDep 0%nat]] -> ~ In RDispose p.
Proof. intros p [<-|[]]. intros [X|[X|[]]]; discriminate X. Qed.

(* ---- one release() per dependent, all schedules ---------------------------------- *)
Local Close Scope Z_scope.
Local Open Scope nat_scope.

(* DOUBLE DISPOSE under concurrency: however many threads dispose the k-th handle handed out, and
   however their actions interleave with each other and with everything else, parent.release() is
   entered for it at most once ([rc_release_calls] counts the scheduled steps that take the handle's
   parent link; InnerDisposable.dispose reads and clears the link in ONE locked block) *)
Theorem C27_release_at_most_once_per_dependent :
  forall progs sched k, rc_release_calls progs sched k <= 1.
Proof. intros. apply release_calls_at_most_once. Qed.
Print Assumptions C27_release_at_most_once_per_dependent.

(* ... exactly once iff some dispose() of that handle executed its locked block and the handle is an
   InnerDisposable (not the inert Disposable() handed out after the release) *)
Theorem C27_release_exactly_when_parent_taken :
  forall progs sched k,
  rc_release_calls progs sched k = bnat (parentless (c_sh (rc_run progs sched)) k).
Proof. exact rc_release_exactly. Qed.
Print Assumptions C27_release_exactly_when_parent_taken.

(* ... and after it was entered, no continuation of the schedule enters it again *)
Theorem C27_release_never_again :
  forall progs s1 s2 k,
  rc_release_calls progs s1 k = 1 -> release_calls (rc_run progs s1) s2 k = 0.
Proof.
  intros progs s1 s2 k H. rewrite rc_release_exactly in H.
  pose proof (release_calls_parentless s2 (rc_run progs s1) k) as G.
  pose proof (bnat_le (parentless (c_sh (crun rc_start rc_act (rc_run progs s1) s2)) k)). lia.
Qed.
Print Assumptions C27_release_never_again.

(* non-vacuity: three threads dispose the SAME dependent (thread 2 runs its locked block between the
   locked block of thread 1 and thread 1's release()), a second dependent is never disposed: one
   release() for handle 0, none for handle 1, the underlying item is not disposed although the
   primary is *)
Example C27_witness_same_dependent_three_threads :
  let progs := [[RGet; RGet]; [RDispDep 0]; [RDispDep 0]; [RDispDep 0; RDispose]] in
  let sched := [0; 0; 1; 2; 3; 1; 1; 3; 3] in
  rc_release_profile progs sched 2 = [1; 0] /\ quiescent (rc_run progs sched) = true /\
  c_log (rc_run progs sched) = [] /\ r_primary (c_sh (rc_run progs sched)) = true /\
  r_count (c_sh (rc_run progs sched)) = 1%Z.
Proof. vm_compute. repeat split. Qed.
Example C27_witness_release_never_again_hyp :
  rc_release_calls [[RGet]; [RDispDep 0]; [RDispDep 0]] [0; 1] 0 = 1.
Proof. vm_compute. reflexivity. Qed.

(* ---- inert after the release / only the underlying / only after, on calls -------------- *)
(* INERT AFTER THE RELEASE, every interleaving: (1) nothing but the underlying item is ever disposed;
   (2) once the object is released (after any schedule s1), for a handle j handed out afterwards
   parent.release() is never entered, under any continuation s2 and however many threads dispose it *)
Theorem C27_inert_all_interleavings :
  forall progs s1 s2 j,
  (forall i, i <> underlying -> zdisp i (plain (c_log (rc_run progs s1))) = 0%Z) /\
  (r_disposed (c_sh (rc_run progs s1)) = true ->
   length (r_deps (c_sh (rc_run progs s1))) <= j ->
   rc_release_calls progs (s1 ++ s2) j = 0).
Proof.
  intros progs s1 s2 j. split; [intros i Hi; apply refcount_conc_only_underlying, Hi|].
  intros D Hj. rewrite rc_release_exactly. unfold parentless.
  destruct (rc_inert_from_run progs s1 s2 D) as [_ H].
  destruct (nth_error (r_deps (c_sh (rc_run progs (s1 ++ s2)))) j) as [d|] eqn:X; [|reflexivity].
  destruct (H j d Hj X) as [b ->]. reflexivity.
Qed.
Print Assumptions C27_inert_all_interleavings.

(* ... such a handle is a fresh Disposable(), never an InnerDisposable, and the object stays released *)
Theorem C27_handles_after_release_inert :
  forall progs s1 s2 j d,
  r_disposed (c_sh (rc_run progs s1)) = true ->
  length (r_deps (c_sh (rc_run progs s1))) <= j ->
  nth_error (r_deps (c_sh (rc_run progs (s1 ++ s2)))) j = Some d ->
  (exists b, d = DInert b) /\ r_disposed (c_sh (rc_run progs (s1 ++ s2))) = true.
Proof.
  intros progs s1 s2 j d D Hj X. destruct (rc_inert_from_run progs s1 s2 D) as [D' H].
  split; [apply (H j d Hj X)|exact D'].
Qed.
Print Assumptions C27_handles_after_release_inert.

(* ONLY AFTER, ON CALLS, every interleaving, every moment: if the underlying item has been disposed then
   (1) some thread has started a dispose() call on the primary, (2) for every InnerDisposable handed out
   whose parent link is cleared some thread has started a dispose() call on that very handle, and
   (3) no InnerDisposable handed out still has its parent link *)
Theorem C27_only_after_calls_all_interleavings :
  forall progs sched,
  let c := rc_run progs sched in
  (1 <= und_acc (plain (c_log c)))%Z ->
  (exists k t, nth_error (c_ths c) k = Some t /\ In RDispose (t_hist t)) /\
  (forall j, nth_error (r_deps (c_sh c)) j = Some (DInner false) ->
     exists k t, nth_error (c_ths c) k = Some t /\ In (RDispDep j) (t_hist t)) /\
  (forall j d, nth_error (r_deps (c_sh c)) j = Some d -> d <> DInner true).
Proof. exact refcount_conc_only_after_calls. Qed.
Print Assumptions C27_only_after_calls_all_interleavings.

(* ... in terms of the program texts *)
Theorem C27_only_after_calls_in_programs :
  forall progs sched,
  let c := rc_run progs sched in
  (1 <= und_acc (plain (c_log c)))%Z ->
  (exists p, In p progs /\ In RDispose p) /\
  (forall j, nth_error (r_deps (c_sh c)) j = Some (DInner false) -> exists p, In p progs /\ In (RDispDep j) p).
Proof.
  intros progs sched c U. destruct (refcount_conc_only_after_calls progs sched U) as [[k [t [N I]]] [H _]].
  fold c in H. split; [exact (hist_in_progs rc_start rc_act r_init progs sched k t _ N I)|].
  intros j X. destruct (H j X) as [k1 [t1 [N1 I1]]]. exact (hist_in_progs rc_start rc_act r_init progs sched k1 t1 _ N1 I1).
Qed.
Print Assumptions C27_only_after_calls_in_programs.

(* RELEASE POINT, one thread: the call [o] that makes the underlying item disposed comes when dispose()
   has been called on the primary and on EVERY dependent handed out so far (o included) -- no exception
   for later handles, since none was requested after a release *)
Theorem C27_release_point :
  forall h1 o,
  u_disposes (log r_step r_init h1) = 0 ->
  u_disposes (log r_step r_init (h1 ++ [o])) = 1 ->
  existsb is_rdispose (h1 ++ [o]) = true /\
  forall k, k < gets (h1 ++ [o]) -> dispd k (h1 ++ [o]) = true.
Proof.
  intros h1 o U0 U1. destruct (rc_released_only_after (h1 ++ [o]) U1) as [P H]. split; [exact P|].
  intros k Hk. destruct (H k Hk) as [D|[ha [hb [E [_ Ua]]]]]; [exact D|]. exfalso. symmetry in E.
  (* a handle requested after a release: its RGet is the last call [o] (then ha = h1 had released already), or
     lies inside h1 (then a prefix of h1 had) *)
  destruct (split_last_cases _ ha hb h1 RGet o E) as [[_ [-> _]]|[hb' [_ ->]]].
  - congruence.
  - rewrite log_app in U0. unfold u_disposes in *. rewrite disposes_app in U0. lia.
Qed.
Print Assumptions C27_release_point.

(* non-vacuity: released after [0;1;1;2;2;2] (one handle handed out); thread 0 then requests a second
   handle (inert) and thread 3 disposes it: no release() for it, nothing more is disposed *)
Example C27_witness_inert_after_release :
  let progs := [[RGet; RGet]; [RDispose]; [RDispDep 0]; [RDispDep 1]] in
  let s1 := [0; 1; 1; 2; 2; 2; 2] in let s2 := [0; 3] in
  r_disposed (c_sh (rc_run progs s1)) = true /\ length (r_deps (c_sh (rc_run progs s1))) = 1 /\
  r_deps (c_sh (rc_run progs (s1 ++ s2))) = [DInner false; DInert true] /\
  c_log (rc_run progs (s1 ++ s2)) = [(2, ODisp underlying)] /\ quiescent (rc_run progs (s1 ++ s2)) = true /\
  (1 <= und_acc (plain (c_log (rc_run progs s1))))%Z.
Proof. vm_compute. repeat split; discriminate. Qed.
Example C27_witness_release_point :
  let h1 := [RGet; RDispose; RGet; RDispDep 1] in
  u_disposes (log r_step r_init h1) = 0 /\ u_disposes (log r_step r_init (h1 ++ [RDispDep 0])) = 1.
Proof. vm_compute. split; reflexivity. Qed.
