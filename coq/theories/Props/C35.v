(* C35 -- periodic scheduling threads state, keeps the period and stops
   (first the virtual-time part; then the dedicated-thread loop of
   NewThreadScheduler.schedule_periodic; last, for the generic closure on
   EventLoopScheduler / TimeoutScheduler, only the arithmetic of its re-scheduling delay,
   Core/PeriodicRT.v).

   Model: PeriodicScheduler.schedule_periodic as part of Core/VTime.v
   ([SPeriodic], the [PPer] payload = the [periodic] closure, [SPCancel] =
   disposing the returned disposable), specification in Core/Periodic.v; tied to
   the code by the K1 correspondence of harness/props/C35.py. *)
From RxVerif Require Import Base.Prelude Core.VTime Core.VTimeFacts Core.Periodic Core.PeriodicFacts Core.PeriodicLast.
From RxVerif Require Core.NewThreadPeriodic Core.NewThreadPeriodicFacts.
Module NTP := RxVerif.Core.NewThreadPeriodic.
From RxVerif Require Core.PeriodicRT.
Module PRT := RxVerif.Core.PeriodicRT.
Module NTPF := RxVerif.Core.NewThreadPeriodicFacts.

(* schedule_periodic(p, f, st0) on a fresh scheduler at clock c0, then
   advance_to(t): the calls made, oldest first, are exactly [solo_spec], for every
   period p >= 0, action table f (each call may take any amount of virtual time:
   PNext _ sl _ sleeps sl microseconds), initial state, clock kind and fuel *)
Theorem C35_calls : forall c fuel c0 p f st0 t, 0 <= p -> c0 < t ->
  let r := run c fuel (init c0) (solo_history p f st0 t) in
  rev (ticks_of 0 (log (state_of r))) = solo_spec f p fuel c0 (c0 + p) st0 t /\
  (match r with ROutOfFuel _ => length (solo_spec f p fuel c0 (c0 + p) st0 t) = fuel
              | RDeadlock _ => False | RDone _ => True end).
Proof. intros c fuel c0 p f st0 t _. apply periodic_solo. Qed.
Print Assumptions C35_calls.

Theorem C35_terminates : forall c fuel c0 p f st0 t, 0 < p -> c0 < t ->
  (Z.to_nat ((t - c0) / p) < fuel)%nat ->
  exists s', run c fuel (init c0) (solo_history p f st0 t) = RDone s'.
Proof.
  intros c fuel c0 p f st0 t Hp Hlt Hf. destruct (periodic_solo c fuel c0 p f st0 t Hlt) as [_ H].
  destruct (run c fuel (init c0) (solo_history p f st0 t)) as [s'|s'|s']; [eexists; reflexivity | destruct H|].
  exfalso. pose proof (solo_spec_length f p Hp fuel c0 (c0 + p) st0 t) as L. rewrite H in L.
  rewrite (div_period (t - c0) p) in Hf by lia. replace (t - c0 - p) with (t - (c0 + p)) in Hf by lia. lia.
Qed.
Print Assumptions C35_terminates.

(* ELAPSED-TIME COMPENSATION.  For all action tables, i.e. all sequences of call
   durations e_0, e_1, ...: if no earlier call took longer than the period
   ([ontime]), the k-th call (k = 0, 1, ...) starts exactly at c0 + (k+1)*p, with the
   state returned by the previous call *)
Theorem C35_kth_call_on_time : forall f p n c0 st0 t k stk, 0 <= p ->
  nth_error (solo_spec f p n c0 (c0 + p) st0 t) k = Some stk -> ontime f p st0 k ->
  snd stk = c0 + (Z.of_nat k + 1) * p.
Proof.
  intros f p n c0 st0 t k stk Hp H Ho. destruct (solo_spec_nth f p n c0 (c0 + p) st0 t k stk H) as [A B].
  rewrite A, (proj2 (tsum_bound f p k st0 (fst stk) B) Ho). lia.
Qed.
Print Assumptions C35_kth_call_on_time.

(* ... and in general (overruns allowed) it starts at c0 + p + the sum over the
   earlier calls of max(p, duration of the call) -- a call that overruns delays its
   successor to its own end, nothing is caught up and no call is ever early -- again
   with the threaded state *)
Theorem C35_kth_call : forall f p n c0 st0 t k stk, 0 <= p ->
  nth_error (solo_spec f p n c0 (c0 + p) st0 t) k = Some stk ->
  snd stk = c0 + p + tsum f p st0 k /\ c0 + (Z.of_nat k + 1) * p <= snd stk /\
  pstate f st0 k = Some (fst stk).
Proof.
  intros f p n c0 st0 t k stk Hp H. destruct (solo_spec_nth f p n c0 (c0 + p) st0 t k stk H) as [A B].
  pose proof (proj1 (tsum_bound f p k st0 (fst stk) B)). repeat split; auto; lia.
Qed.
Print Assumptions C35_kth_call.

(* the calls stop only because the pending call is due after t ([pdue]: one period
   after the START of the last call), or because the last call did not return a state
   (the action raised or the subscription was disposed) *)
Theorem C35_calls_complete : forall f p, 0 < p -> forall n clk due st t,
  (Z.to_nat ((t - due) / p + 1) <= n)%nat ->
  let l := solo_spec f p n clk due st t in
  pdue f p clk due st (length l) > t \/
  (exists k x, length l = S k /\ pstate f st k = Some x /\
               match plookup f x with PNext _ _ _ => False | _ => True end).
Proof. exact solo_spec_complete. Qed.
Print Assumptions C35_calls_complete.

(* In EVERY history (any other actions, any interleaving of start/advance_to,
   disposal from anywhere): no call after the returned disposable was disposed *)
Theorem C35_no_call_after_dispose : forall c fuel c0 hs,
  no_tick_after_dispose (log (state_of (run c fuel (init c0) hs))).
Proof. exact no_tick_after_dispose_run. Qed.
Print Assumptions C35_no_call_after_dispose.

(* a call that raises disposes the subscription (hence is the last one), and so
   does any call that does not return a next state *)
Theorem C35_raise_disposes : forall s pid st e s',
  invoke s (PPer pid st) = BRaise e s' -> In (EPDispose pid) (log s').
Proof.
  intros s pid st e s' H. replace s' with (bstate (invoke s (PPer pid st))) by (rewrite H; reflexivity).
  simpl in H. destruct (nth_error (pers s) pid) as [pi|] eqn:Hn; [|discriminate].
  destruct (p_disposed pi) eqn:Hd; [discriminate|].
  apply (periodic_stop_disposes s pid st pi Hn Hd). destruct (plookup (p_fn pi) st); [discriminate H | exact I..].
Qed.
Print Assumptions C35_raise_disposes.

Theorem C35_stop_disposes : forall s pid st pi,
  nth_error (pers s) pid = Some pi -> p_disposed pi = false ->
  match plookup (p_fn pi) st with PNext _ _ _ => False | _ => True end ->
  In (EPDispose pid) (log (bstate (invoke s (PPer pid st)))).
Proof. exact periodic_stop_disposes. Qed.
Print Assumptions C35_stop_disposes.

(* ... glued, for EVERY history (any other actions and subscriptions, any interleaving of
   start / advance_to / advance_by / dispose, several subscriptions, any fuel, both clock
   kinds): after a call that did not return a next state (log newest first: l1 is what happened
   AFTER that call) the subscription is disposed and its action is NEVER called again *)
Theorem C35_failed_call_is_last : forall c fuel c0 hs l1 l0 pid st k pi,
  let s := state_of (run c fuel (init c0) hs) in
  log s = l1 ++ ETick pid st k :: l0 -> nth_error (pers s) pid = Some pi ->
  match plookup (p_fn pi) st with PNext _ _ _ => False | _ => True end ->
  ticks_of pid l1 = [] /\ In (EPDispose pid) l1.
Proof. exact failed_call_is_last. Qed.
Print Assumptions C35_failed_call_is_last.

(* hypotheses satisfiable: another action, two advance_to calls; the third call (state 2, clock 6)
   raises; five events follow it in the log, none of them a call *)
Example C35_witness_failed_call :
  let f : ptable := ([(0, PNext [] 0%N 1); (1, PNext [] 0%N 2)], PRaise [] 1) in
  let s := state_of (run (Cfg Numeric false) 20 (init 0)
             [TDo (SSched (Abs 1) 0 [SNote 1]); TDo (SPeriodic 2 f 0); TAdvTo 5; TDo (SSched (Rel 1) 1 []); TAdvTo 20]) in
  log s = firstn 5 (log s) ++ ETick 0 2 6 :: skipn 6 (log s) /\
  option_map p_fn (nth_error (pers s) 0) = Some f /\ plookup f 2 = PRaise [] 1 /\
  rev (ticks_of 0 (log s)) = [(0, 2); (1, 4); (2, 6)].
Proof. vm_compute. repeat split; reflexivity. Qed.

(* interval(p) / timer(p, p): schedule_periodic(p, count -> on_next(count); count + 1, 0).
   For every period p >= 0, every bound m, target t and table size n: the k-th call
   (k = 0, 1, .., n), if it is made, carries k and is made at c0 + (k+1)*p ... *)
Theorem C35_interval_emits : forall n m p c0 t k stk, 0 <= p -> (k <= n)%nat ->
  nth_error (solo_spec (count_table n) p m c0 (c0 + p) 0 t) k = Some stk ->
  stk = (Z.of_nat k, c0 + (Z.of_nat k + 1) * p).
Proof. exact interval_emits. Qed.
Print Assumptions C35_interval_emits.

(* ... and it IS made whenever c0 + (k+1)*p <= t *)
Theorem C35_interval_has_kth : forall n m p c0 t k, 0 <= p -> (k <= n)%nat -> (k < m)%nat ->
  c0 + (Z.of_nat k + 1) * p <= t ->
  nth_error (solo_spec (count_table n) p m c0 (c0 + p) 0 t) k
  = Some (Z.of_nat k, c0 + (Z.of_nat k + 1) * p).
Proof. exact interval_has_kth. Qed.
Print Assumptions C35_interval_has_kth.

(* the same composed with C35_calls, on the machine: interval(p) subscribed on a fresh
   scheduler at clock c0, then advance_to(t) *)
Theorem C35_interval_run_kth : forall c fuel n p c0 t k stk, 0 <= p -> c0 < t -> (k <= n)%nat ->
  nth_error (rev (ticks_of 0 (log (state_of (run c fuel (init c0) (solo_history p (count_table n) 0 t)))))) k
    = Some stk ->
  stk = (Z.of_nat k, c0 + (Z.of_nat k + 1) * p).
Proof.
  intros c fuel n p c0 t k stk Hp Hlt Hk. rewrite (proj1 (periodic_solo c fuel c0 p (count_table n) 0 t Hlt)).
  apply interval_emits; assumption.
Qed.
Print Assumptions C35_interval_run_kth.

Theorem C35_interval_run_has_kth : forall c fuel n p c0 t k, 0 <= p -> c0 < t -> (k <= n)%nat ->
  (k < fuel)%nat -> c0 + (Z.of_nat k + 1) * p <= t ->
  nth_error (rev (ticks_of 0 (log (state_of (run c fuel (init c0) (solo_history p (count_table n) 0 t)))))) k
    = Some (Z.of_nat k, c0 + (Z.of_nat k + 1) * p).
Proof.
  intros c fuel n p c0 t k Hp Hlt Hk Hf Ht. rewrite (proj1 (periodic_solo c fuel c0 p (count_table n) 0 t Hlt)).
  apply interval_has_kth; assumption.
Qed.
Print Assumptions C35_interval_run_has_kth.

(* witnesses *)

(* interval(3) subscribed at clock 200: 0,1,2,... at 203, 206, ... *)
Example C35_witness_interval :
  observe (run (Cfg Numeric false) 10 (init 200) (solo_history 3 (count_table 8) 0 215))
  = [OClock 200; OTick 0 0 203; OTick 0 1 206; OTick 0 2 209; OTick 0 3 212; OTick 0 4 215; OClock 215].
Proof. vm_compute. reflexivity. Qed.

(* the action raises at its third call: the exception leaves advance_to, no fourth call
   even when time advances further (after stop(): see C29's note on _is_enabled) *)
Example C35_witness_raise :
  observe (run (Cfg Datetime false) 10 (init 0)
             [TDo (SPeriodic 2 ([(0, PNext [] 0%N 5); (5, PNext [] 0%N 6)], PRaise [] 1) 0); TAdvTo 7;
              TDo SStop; TAdvTo 20])
  = [OClock 0; OTick 0 0 2; OTick 0 5 4; OTick 0 6 6; OExc 1; OClock 6; OClock 6; OClock 20].
Proof. vm_compute. reflexivity. Qed.

(* disposed by another action at time 5: calls at 2 and 4 only *)
Example C35_witness_dispose :
  observe (run (Cfg Numeric false) 10 (init 0)
             [TDo (SPeriodic 2 (count_table 8) 0); TDo (SSched (Abs 5) 0 [SPCancel 0]); TAdvTo 20])
  = [OClock 0; OClock 0; OTick 0 0 2; OTick 0 1 4; ORun 0 5; OClock 20].
Proof. vm_compute. reflexivity. Qed.

(* calls that take virtual time: 0.25 s and 2.5 s within a 3 s period are compensated
   (calls at 3, 6, 9 s); the third call takes 4 s > period: the fourth starts when it
   ends (13 s), the fifth one period after that START (16 s) *)
Example C35_witness_elapsed :
  observe (run (Cfg Numeric false) 10 (init 0)
     (solo_history 3000000 ([(0, PNext [] 250000%N 1); (1, PNext [] 2500000%N 2); (2, PNext [] 4000000%N 3)],
                            PNext [] 0%N 9) 0 17000000))
  = [OClock 0; OTick 0 0 3000000; OTick 0 1 6000000; OTick 0 2 9000000; OTick 0 3 13000000;
     OTick 0 9 16000000; OClock 17000000].
Proof. vm_compute. reflexivity. Qed.

(* the hypothesis [ontime] of C35_kth_call_on_time holds of the table of C35_witness_elapsed for
   k = 2: its first two calls take less than the period *)
Example C35_witness_ontime :
  ontime ([(0, PNext [] 250000%N 1); (1, PNext [] 2500000%N 2); (2, PNext [] 4000000%N 3)], PNext [] 0%N 9)
         3000000 0 2.
Proof.
  intros j x Hj Hx. assert (D : j = 0%nat \/ j = 1%nat) by lia.
  destruct D as [D|D]; subst j; vm_compute in Hx; inversion Hx; subst; vm_compute; intro Q; discriminate Q.
Qed.

(* the hypotheses of C35_calls / C35_calls_complete are satisfiable *)
Example C35_witness_hyps : 0 <= 3 /\ 200 < 215 /\ (Z.to_nat ((215 - 203) / 3 + 1) <= 10)%nat.
Proof. split; [lia | split; [lia | vm_compute; lia]]. Qed.

(* the hypotheses of C35_interval_run_has_kth hold for the run of C35_witness_interval
   (fifth tick, k = 4: state 4 at 215) *)
Example C35_witness_interval_hyps :
  0 <= 3 /\ 200 < 215 /\ (4 <= 8)%nat /\ (4 < 10)%nat /\ 200 + (Z.of_nat 4 + 1) * 3 <= 215.
Proof. vm_compute. repeat split; try lia; discriminate. Qed.

(* ===== NewThreadScheduler.schedule_periodic: the loop on its dedicated thread =====

   Model: Core/NewThreadPeriodic.v ([NTP.periodic p f st0 c0 d0 script]: loop state =
   (user state, next timeout, disposed flag, clock); the script has one record per
   iteration -- duration of the invocation, whether it raises, and dispose() calls
   while the loop waits / before its test / between test and action / during the
   invocation); tied to the code by the correspondence of harness/props/C35.py
   (harness/ntpdrv.py drives the real loop with a controlled clock, Event and
   thread).  All theorems are for EVERY period (any sign, unless 0 <= p is stated), state transformer,
   initial state, start clock and script.  Zero latency: the clock moves only in
   disposed.wait and in the action. *)

(* (a) state threading: the k-th invocation (k = 0, 1, ...) is handed f^k(st0); the
   state passed to invocation k+1 is what invocation k returned (whatever it is:
   `state = action(state)`, a returned None is threaded like any other value) *)
Theorem C35_nt_state_threading : forall (T : Type) p (f : T -> T) st0 c0 d0 sc k c x c' x',
  nth_error (NTP.invs (fst (NTP.periodic p f st0 c0 d0 sc))) k = Some (c, x) ->
  nth_error (NTP.invs (fst (NTP.periodic p f st0 c0 d0 sc))) (S k) = Some (c', x') ->
  x' = f x.
Proof. exact (@NTPF.periodic_threading). Qed.
Print Assumptions C35_nt_state_threading.

Theorem C35_nt_kth_state : forall (T : Type) p (f : T -> T) st0 c0 d0 sc k c x,
  nth_error (NTP.invs (fst (NTP.periodic p f st0 c0 d0 sc))) k = Some (c, x) -> x = Nat.iter k f st0.
Proof. exact (@NTPF.periodic_state_kth). Qed.
Print Assumptions C35_nt_kth_state.

(* (b) the loop tests the flag before EVERY invocation -- also when the timeout is <= 0
   and nothing is waited for: an invocation entered at clock c is preceded by a test at
   clock c that reported False, with nothing but dispose() calls at c in between *)
Theorem C35_nt_tested_before_every_invocation : forall (T : Type) p (f : T -> T) st0 c0 d0 sc l1 c x l2,
  fst (NTP.periodic p f st0 c0 d0 sc) = l1 ++ NTP.EInv c x :: l2 ->
  exists l0 w, l1 = l0 ++ NTP.ETest c false :: w /\ Forall (fun e => e = NTP.EDisp c) w.
Proof. exact (@NTPF.periodic_tested_before_every_invocation). Qed.
Print Assumptions C35_nt_tested_before_every_invocation.

(* ... a test that comes after a dispose() call reports True and nothing follows it
   (run() returns) ... *)
Theorem C35_nt_test_after_dispose_stops : forall (T : Type) p (f : T -> T) st0 c0 d0 sc l1 c l2 c' b l3,
  fst (NTP.periodic p f st0 c0 d0 sc) = l1 ++ NTP.EDisp c :: l2 ++ NTP.ETest c' b :: l3 ->
  b = true /\ l3 = [].
Proof. exact (@NTPF.periodic_test_after_dispose). Qed.
Print Assumptions C35_nt_test_after_dispose_stops.

(* ... hence NO invocation starts at a later clock instant than a dispose() call; the
   only invocation that can still start after the call is the one whose test the loop
   had already passed (dispose() from another thread between `disposed.is_set()` and
   `action(state)`), and it starts at the very instant of the call *)
Theorem C35_nt_no_start_after_dispose : forall (T : Type) p (f : T -> T) st0 c0 d0 sc l1 c l2,
  fst (NTP.periodic p f st0 c0 d0 sc) = l1 ++ NTP.EDisp c :: l2 ->
  NTP.invs l2 = [] \/ exists x, NTP.invs l2 = [(c, x)].
Proof. exact (@NTPF.periodic_after_dispose). Qed.
Print Assumptions C35_nt_no_start_after_dispose.

(* ... a dispose() during an invocation -- from inside the action or from another
   thread, however long the invocation takes (also >= the period, when nothing is
   waited for afterwards) -- makes that invocation the last one *)
Theorem C35_nt_dispose_during_invocation_is_last :
  forall (T : Type) p (f : T -> T) st0 c0 d0 sc l1 c x l2 c' l3,
  fst (NTP.periodic p f st0 c0 d0 sc) = l1 ++ NTP.EInv c x :: l2 ++ NTP.EDisp c' :: l3 ->
  forallb (fun e => negb (NTPF.is_test e)) l2 = true -> NTP.invs l3 = [].
Proof. exact (@NTPF.periodic_dispose_during_invocation). Qed.
Print Assumptions C35_nt_dispose_during_invocation_is_last.

(* ... and a dispose() before the new thread executes its first instruction: no
   invocation at all, whatever the period (0 included) *)
Theorem C35_nt_disposed_before_start : forall (T : Type) p (f : T -> T) st0 c0 sc,
  NTP.invs (fst (NTP.periodic p f st0 c0 true sc)) = [].
Proof. exact (@NTPF.periodic_disposed_before_start). Qed.
Print Assumptions C35_nt_disposed_before_start.

(* an invocation that raises is the last event (the exception leaves run()) *)
Theorem C35_nt_raise_is_last : forall (T : Type) p (f : T -> T) st0 c0 d0 sc l1 c l2,
  fst (NTP.periodic p f st0 c0 d0 sc) = l1 ++ NTP.ERaise c :: l2 -> l2 = [].
Proof. exact (@NTPF.periodic_raise_last). Qed.
Print Assumptions C35_nt_raise_is_last.

(* (c) spacing: invocation k+1 starts EXACTLY max(period, duration of invocation k) after
   the start of invocation k: one period when the action is not slower than the period
   (the time it took is subtracted from the next wait), at its end when it overruns
   (nothing is caught up); never less than a period *)
Theorem C35_nt_spacing : forall (T : Type) p (f : T -> T) st0 c0 d0 sc k c x c' x',
  nth_error (NTP.invs (fst (NTP.periodic p f st0 c0 d0 sc))) k = Some (c, x) ->
  nth_error (NTP.invs (fst (NTP.periodic p f st0 c0 d0 sc))) (S k) = Some (c', x') ->
  exists it, nth_error sc k = Some it /\ c' = c + Z.max p (NTP.dur_of it) /\
             c + p <= c' /\ c + NTP.dur_of it <= c' /\ (NTP.dur_of it <= p -> c' = c + p).
Proof. exact (@NTPF.periodic_spacing). Qed.
Print Assumptions C35_nt_spacing.

(* closed form: state f^k(st0) at c0 + max(0, p) + sum over j < k of max(p, duration j) *)
Theorem C35_nt_kth_call : forall (T : Type) p (f : T -> T) st0 c0 d0 sc k c x,
  nth_error (NTP.invs (fst (NTP.periodic p f st0 c0 d0 sc))) k = Some (c, x) ->
  x = Nat.iter k f st0 /\ c = c0 + Z.max 0 p + NTP.gaps p sc k /\ (k < length sc)%nat.
Proof. exact (@NTPF.periodic_kth). Qed.
Print Assumptions C35_nt_kth_call.

(* exactly (k+1) periods after scheduling while no earlier invocation overran; never earlier *)
Theorem C35_nt_kth_call_on_time : forall (T : Type) p (f : T -> T) st0 c0 d0 sc k c x, 0 <= p ->
  nth_error (NTP.invs (fst (NTP.periodic p f st0 c0 d0 sc))) k = Some (c, x) ->
  (forall j it, (j < k)%nat -> nth_error sc j = Some it -> NTP.dur_of it <= p) ->
  c = c0 + (Z.of_nat k + 1) * p.
Proof. exact (@NTPF.periodic_kth_ontime). Qed.
Print Assumptions C35_nt_kth_call_on_time.

Theorem C35_nt_never_early : forall (T : Type) p (f : T -> T) st0 c0 d0 sc k c x,
  nth_error (NTP.invs (fst (NTP.periodic p f st0 c0 d0 sc))) k = Some (c, x) ->
  c0 + (Z.of_nat k + 1) * p <= c.
Proof. exact (@NTPF.periodic_kth_lower). Qed.
Print Assumptions C35_nt_never_early.

(* (d) the first invocation: exactly max(0, period) after scheduling, with the initial state *)
Theorem C35_nt_first_call : forall (T : Type) p (f : T -> T) st0 c0 d0 sc c x,
  nth_error (NTP.invs (fst (NTP.periodic p f st0 c0 d0 sc))) 0 = Some (c, x) ->
  c = c0 + Z.max 0 p /\ c0 + p <= c /\ x = st0.
Proof. exact (@NTPF.periodic_first). Qed.
Print Assumptions C35_nt_first_call.

(* (e) the loop really invokes: when nobody disposes and no invocation raises (any
   durations, any period, any action), there is one invocation per iteration and the
   loop is still running; with C35_nt_kth_call this names the k-th invocation *)
Theorem C35_nt_quiet_runs : forall (T : Type) p (f : T -> T) st0 c0 durs,
  length (NTP.invs (fst (NTP.periodic p f st0 c0 false (map NTP.quiet durs)))) = length durs /\
  snd (NTP.periodic p f st0 c0 false (map NTP.quiet durs)) = NTP.Running.
Proof. exact (@NTPF.periodic_quiet_runs). Qed.
Print Assumptions C35_nt_quiet_runs.

Theorem C35_nt_quiet_kth : forall (T : Type) p (f : T -> T) st0 c0 durs k, (k < length durs)%nat ->
  nth_error (NTP.invs (fst (NTP.periodic p f st0 c0 false (map NTP.quiet durs)))) k
  = Some (c0 + Z.max 0 p + NTP.gaps p (map NTP.quiet durs) k, Nat.iter k f st0).
Proof.
  intros T p f st0 c0 durs k Hk. destruct (NTPF.periodic_quiet_runs p f st0 c0 durs) as [L _].
  destruct (nth_error (NTP.invs (fst (NTP.periodic p f st0 c0 false (map NTP.quiet durs)))) k) as [[c x]|] eqn:E.
  - destruct (NTPF.periodic_kth p f st0 c0 false (map NTP.quiet durs) k c x E) as (-> & -> & _). reflexivity.
  - apply nth_error_None in E. lia.
Qed.
Print Assumptions C35_nt_quiet_kth.

(* ---- witnesses (new-thread loop) ------------------------------------------ *)

(* period 3 s scheduled at clock 200 us: invocations that take 0.25 s and 2.5 s are
   compensated (waits of 2.75 s and 0.5 s), the third takes 4 s > period: the fourth starts
   when it ends, without a wait; dispose() from another thread 1 s into the last wait
   wakes the loop, which stops *)
Example C35_nt_witness_elapsed :
  NTP.periodic 3000000 (fun x => x + 1) 0 200 false
    [NTP.quiet 250000; NTP.quiet 2500000; NTP.quiet 4000000; NTP.quiet 0;
     NTP.Iter (Some 1000000) false false 0 None false]
  = ([NTP.EWait 200 3000000; NTP.ETest 3000200 false; NTP.EInv 3000200 0; NTP.EEnd 3250200;
      NTP.EWait 3250200 2750000; NTP.ETest 6000200 false; NTP.EInv 6000200 1; NTP.EEnd 8500200;
      NTP.EWait 8500200 500000; NTP.ETest 9000200 false; NTP.EInv 9000200 2; NTP.EEnd 13000200;
      NTP.ETest 13000200 false; NTP.EInv 13000200 3; NTP.EEnd 13000200;
      NTP.EWait 13000200 3000000; NTP.EDisp 14000200; NTP.ETest 14000200 true], NTP.Stopped).
Proof. vm_compute. reflexivity. Qed.

(* the overrunning invocation (1 ms >= period 1 ms: no wait follows) is disposed from
   inside, 0.4 ms after it started: the flag is tested all the same, no third invocation *)
Example C35_nt_witness_overrun_disposed :
  NTP.periodic 1000 (fun x => x + 1) 0 0 false
    [NTP.quiet 2500; NTP.Iter None false false 1000 (Some 400) false; NTP.quiet 0]
  = ([NTP.EWait 0 1000; NTP.ETest 1000 false; NTP.EInv 1000 0; NTP.EEnd 3500;
      NTP.ETest 3500 false; NTP.EInv 3500 1; NTP.EDisp 3900; NTP.EEnd 4500;
      NTP.ETest 4500 true], NTP.Stopped).
Proof. vm_compute. reflexivity. Qed.

(* period 0; dispose() from another thread in the dispatch window (after the test, before
   the action is entered): that one invocation still starts, at the instant of the call *)
Example C35_nt_witness_window :
  NTP.periodic 0 (fun x => x + 1) 0 50 false
    [NTP.quiet 0; NTP.Iter None false true 7 None false; NTP.quiet 0]
  = ([NTP.ETest 50 false; NTP.EInv 50 0; NTP.EEnd 50; NTP.ETest 50 false; NTP.EDisp 50;
      NTP.EInv 50 1; NTP.EEnd 57; NTP.ETest 57 true], NTP.Stopped).
Proof. vm_compute. reflexivity. Qed.

(* the second invocation raises: the thread dies, nothing follows *)
Example C35_nt_witness_raise :
  NTP.periodic 1000 (fun x => x + 1) 0 0 false
    [NTP.quiet 10; NTP.Iter None false false 10 None true; NTP.quiet 0]
  = ([NTP.EWait 0 1000; NTP.ETest 1000 false; NTP.EInv 1000 0; NTP.EEnd 1010;
      NTP.EWait 1010 990; NTP.ETest 2000 false; NTP.EInv 2000 1; NTP.ERaise 2010], NTP.Died).
Proof. vm_compute. reflexivity. Qed.

(* the hypotheses of C35_nt_spacing / C35_nt_dispose_during_invocation_is_last are satisfiable *)
Example C35_nt_witness_hyps :
  let tr := fst (NTP.periodic 1000 (fun x => x + 1) 0 0 false
                   [NTP.quiet 2500; NTP.Iter None false false 1000 (Some 400) false; NTP.quiet 0]) in
  nth_error (NTP.invs tr) 0 = Some (1000, 0) /\ nth_error (NTP.invs tr) 1 = Some (3500, 1) /\
  tr = [NTP.EWait 0 1000; NTP.ETest 1000 false; NTP.EInv 1000 0; NTP.EEnd 3500; NTP.ETest 3500 false]
       ++ NTP.EInv 3500 1 :: [] ++ NTP.EDisp 3900 :: [NTP.EEnd 4500; NTP.ETest 4500 true] /\
  forallb (fun e : NTP.ev Z => negb (NTPF.is_test e)) [] = true.
Proof. vm_compute. repeat split; reflexivity. Qed.

(* ------------------------------------------------------------------------------------------ *)
(* The generic closure on a REAL-TIME scheduler (EventLoopScheduler, TimeoutScheduler): the     *)
(* arithmetic of the re-scheduling delay (Core/PeriodicRT.v), for all clock readings.  These    *)
(* are the bounds the direct oracle of the K3 family (harness/eldrv.py: periodic_oracle)        *)
(* demands on every explored interleaving; that an item never starts before its due time is     *)
(* C31 / C34.  Nothing here is tied to the code by a correspondence (oracle-only family).       *)

Theorem C35_rt_next_tick_due_a_period_later : forall p t,
  PRT.rt_mono t -> PRT.r_now1 t + p <= PRT.rt_next_due p t.
Proof. exact PRT.rt_next_due_ge_period. Qed.
Print Assumptions C35_rt_next_tick_due_a_period_later.

Theorem C35_rt_compensation_exact : forall p t,
  PRT.rt_mono t -> PRT.r_now3 t = PRT.r_now2 t -> PRT.r_now2 t - PRT.r_now1 t <= p ->
  PRT.rt_next_due p t = PRT.r_now1 t + p.
Proof. exact PRT.rt_next_due_exact. Qed.
Print Assumptions C35_rt_compensation_exact.

Theorem C35_rt_spacing : forall p l due k a b,
  PRT.rt_chain p due l -> nth_error l k = Some a -> nth_error l (S k) = Some b ->
  PRT.r_now1 a + p <= PRT.r_now1 b.
Proof. exact PRT.rt_spacing. Qed.
Print Assumptions C35_rt_spacing.

Theorem C35_rt_kth_tick_lower_bound : forall p, 0 <= p -> forall l due k a,
  PRT.rt_chain p due l -> nth_error l k = Some a -> due + Z.of_nat k * p <= PRT.r_now1 a.
Proof. exact PRT.rt_kth_lower_bound. Qed.
Print Assumptions C35_rt_kth_tick_lower_bound.

(* non-vacuity: a chain with an on-time tick, an overrunning one and a late one *)
Example C35_rt_witness :
  let l := [PRT.RTick 1000 1200 1200; PRT.RTick 2000 4500 4600; PRT.RTick 4700 4700 4700] in
  PRT.rt_chain 1000 1000 l /\ map (PRT.rt_next_due 1000) l = [2000; 4600; 5700].
Proof. vm_compute. repeat split; intro; discriminate. Qed.
