(* C12 -- switching forwards only the latest inner sequence.
   Refinement: for EVERY mapper (also raising) and EVERY input sequence, what
   the subscriber of switch_map / switch_latest / flat_map_latest receives, and
   when, is [switch_spec]: only the latest inner is listened to, a new inner
   replaces it, completion needs the outer and the latest inner to have
   completed, the first error of the outer or of the latest inner ends it. *)
From RxVerif Require Import Base.Prelude Ops.Machine Ops.Multi Ops.MultiFacts Ops.RunLemmas
  Ops.Combinators Ops.MergeFacts Ops.SwitchSpecFacts Ops.SwitchInvFacts Ops.SwitchLiveFacts.

Theorem C12_switch_refines_spec : forall A (mapper : A -> nat -> res unit) (ins : list (Z * inp A)),
  temitted (fst (run (x_switch_map mapper) ins)) = switch_spec mapper true 0 false 1 ins.
Proof.
  intros A mapper ins. rewrite run_unfold. cbn [fst]. rewrite temitted_app.
  exact (switch_trace_from mapper ins _ _ _ _ _ 1 (sw_at_start mapper)).
Qed.
Print Assumptions C12_switch_refines_spec.

(* a fact about the DEFINITION switch_live (the list [outer?] ++ [latest?]) only; the statement
   about the runner state reached by [run] is C12_run_at_most_outer_and_latest below *)
Theorem C12_at_most_one_inner_subscribed : forall ol latest has,
  (length (switch_live ol latest has) <= 2)%nat
  /\ (forall k, In k (switch_live ol latest has) -> k = 0%nat \/ k = latest).
Proof.
  intros ol latest has. unfold switch_live. destruct ol, has; cbn [app length In]; (split; [lia|]);
    intros k Hk; repeat destruct Hk as [<-|Hk]; auto; contradiction.
Qed.
Print Assumptions C12_at_most_one_inner_subscribed.

(* consequences of the specification (hence, by the refinement, of the operator on EVERY input
   sequence).  [sw_after] is the specification's state after a prefix of the inputs: (outer live,
   id of the latest inner = number of inners received so far, latest inner still running). *)

(* an element is forwarded ONLY while its inner sequence is the most recently received one *)
Theorem C12_forwards_only_latest : forall A (mapper : A -> nat -> res unit) (ins : list (Z * inp A))
  ol latest has pos p x,
  In (p, Next x) (switch_spec mapper ol latest has pos ins) ->
  (pos <= p)%nat /\
  exists ol' latest' now,
    sw_after mapper ol latest has (firstn (p - pos) ins) = Some (ol', latest', true)
    /\ nth_error ins (p - pos) = Some (now, ISrc latest' (Next x))
    /\ (1 <= latest')%nat.
Proof.
  intros A mapper ins ol latest has pos p x Hin.
  destruct (switch_spec_In _ _ _ _ _ _ _ _ Hin) as (Hle & ol' & latest' & has' & now & i & Hs & Hn & He).
  destruct (switch_spec_one _ _ _ _ _ _ _ _ _ He) as (_ & -> & -> & Hl).
  split; [exact Hle|]. exists ol', latest', now. auto.
Qed.
Print Assumptions C12_forwards_only_latest.

(* completion only once the outer has completed and the latest inner has completed *)
Theorem C12_completes_only_when_both_done : forall A (mapper : A -> nat -> res unit) (ins : list (Z * inp A))
  ol latest has pos p,
  In (p, Done) (switch_spec mapper ol latest has pos ins) ->
  (pos <= p)%nat /\
  exists ol' latest' has' now,
    sw_after mapper ol latest has (firstn (p - pos) ins) = Some (ol', latest', has')
    /\ ((ol' = false /\ has' = true /\ nth_error ins (p - pos) = Some (now, ISrc latest' Done) /\ (1 <= latest')%nat)
        \/ (ol' = true /\ has' = false /\ nth_error ins (p - pos) = Some (now, ISrc 0%nat Done))).
Proof.
  intros A mapper ins ol latest has pos p Hin.
  destruct (switch_spec_In _ _ _ _ _ _ _ _ Hin) as (Hle & ol' & latest' & has' & now & i & Hs & Hn & He).
  split; [exact Hle|]. exists ol', latest', has', now. split; [exact Hs|].
  destruct (switch_spec_one _ _ _ _ _ _ _ _ _ He) as [_ [(-> & -> & -> & Hl)|(-> & -> & ->)]]; auto.
Qed.
Print Assumptions C12_completes_only_when_both_done.

(* the previous inner is unsubscribed as soon as a new inner arrives: (1) after EVERY input sequence
   the operator/runner state is stopped or has exactly the outer (while it runs) and the latest inner
   (while it runs) subscribed; (2) in such a state a new inner replaces the running one within the
   same step -- previous inner unsubscribed, new one subscribed, nothing else *)
Theorem C12_reachable_shape : forall A (mapper : A -> nat -> res unit) (ins : list (Z * inp A)),
  sw_inv (fst (after (x_switch_map mapper) (fst (start_state (x_switch_map mapper)))
                     (snd (start_state (x_switch_map mapper))) ins))
         (snd (run (x_switch_map mapper) ins)).
Proof. intros A mapper ins. exact (sw_at_inv _ _ _ (switch_state_is_spec mapper ins)). Qed.
Print Assumptions C12_reachable_shape.
Theorem C12_new_inner_replaces_previous : forall A (mapper : A -> nat -> res unit) l0 now (x : A),
  mapper x (S l0) = Ok tt ->
  rstep (x_switch_map mapper) (S l0, true, negb true) (RState (switch_live true (S l0) true) [] false)
        now (ISrc 0%nat (Next x))
  = ((S (S l0), true, negb true), RState (switch_live true (S (S l0)) true) [] false,
     [OUnsub (S l0); OSub (S (S l0))]).
Proof.
  intros A mapper l0 now x Hmap. unfold rstep. cbn. rewrite Hmap. cbn. now rewrite Nat.eqb_refl.
Qed.
Print Assumptions C12_new_inner_replaces_previous.

(* RUN-LEVEL: after EVERY input sequence, for every mapper, the subscriptions the runner holds are
   at most two, pairwise distinct, and each is the outer (0) or the LATEST inner received so far
   ([sw_latest_after] = the operator's counter of inners after these inputs) -- never an older inner *)
Theorem C12_run_at_most_outer_and_latest : forall A (mapper : A -> nat -> res unit) (ins : list (Z * inp A)),
  (length (r_live (snd (run (x_switch_map mapper) ins))) <= 2)%nat
  /\ NoDup (r_live (snd (run (x_switch_map mapper) ins)))
  /\ forall k, In k (r_live (snd (run (x_switch_map mapper) ins))) ->
       k = 0%nat \/ (k = sw_latest_after mapper ins /\ k <> 0%nat).
Proof.
  intros A mapper ins. pose proof (switch_run_live mapper ins) as H.
  destruct (sw_after mapper true 0 false ins) as [[[ol latest] has]|].
  - destruct H as (-> & -> & Hl). now apply switch_live_shape.
  - rewrite H. repeat split; [cbn; lia|constructor|contradiction].
Qed.
Print Assumptions C12_run_at_most_outer_and_latest.
Example C12_witness_live :
  let ins := [(0, ISrc 0%nat (Next 1)); (0, ISrc 1%nat (Next 10)); (0, ISrc 0%nat (Next 2));
              (0, ISrc 1%nat (Next 11)); (0, ISrc 2%nat (Next 20))] in
  r_live (snd (run (x_switch_map (fun _ _ => Ok tt)) ins)) = [0%nat; 2%nat]
  /\ sw_latest_after (fun (_ : Z) _ => Ok tt) ins = 2%nat.
Proof. vm_compute. split; reflexivity. Qed.

Example C12_witness :
  temitted (fst (run (x_switch_map (fun _ _ => Ok tt))
     [(0, ISrc 0%nat (Next 1)); (0, ISrc 1%nat (Next 10)); (0, ISrc 0%nat (Next 2));
      (0, ISrc 1%nat (Next 11)); (0, ISrc 2%nat (Next 20)); (0, ISrc 0%nat Done); (0, ISrc 2%nat Done)]))
  = [(2%nat, Next 10); (5%nat, Next 20); (7%nat, Done)].
Proof. vm_compute. reflexivity. Qed.
