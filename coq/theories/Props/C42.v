(* C42 -- CatchScheduler routes action exceptions to its handler.

   Model: Core/CatchSched.v ([cwrap_cmd]/[cwrap_body] = _wrap with the recursive
   wrapper handed to the action, [cwrap_tab] = the periodic wrapper) over the
   virtual-time scheduler Core/VTime.v as the wrapped scheduler; tied to the code
   by the K1 correspondence of harness/props/C42.py.  [run_catch c fuel h s hs]
   runs the history hs whose schedule*/schedule_periodic calls go through
   CatchScheduler(inner, h); h is ANY handler verdict function, hs ANY history of
   arbitrary action trees (raise positions anywhere, any depth).
   After routing, transparency and the periodic wrapper (with their witnesses): the
   run through the CatchScheduler simulates the run on the inner scheduler up to the
   first exception the handler accepts (C42_simulates_*, Core/CatchSchedSim.v), and a
   periodic call that fails is the last one (C42_failed_call_is_last). *)
From RxVerif Require Import Base.Prelude Core.VTime Core.VTimeFacts Core.Periodic Core.PeriodicFacts
  Core.CatchSched Core.CatchSchedFacts Core.CatchSchedSim Core.PeriodicLast.

(* Every exception raised by an action (at any depth of scheduling through the
   scheduler handed to the action, periodic actions included) is passed to the
   handler: in the log every "raised e" is immediately followed by "handler
   called with e", and the handler is called at no other time ([routed]); and
   every exception that left a top-level call was rejected by the handler (or is
   advance_to's own argument check) ([excs_ok]). *)
Theorem C42_routes_all : forall c fuel h c0 hs,
  forallb raw_t hs = true -> forallb top_quiet hs = true ->
  let s := state_of (run_catch c fuel h (init c0) hs) in
  routed (log s) /\ excs_ok h (log s).
Proof. exact catch_routes_all. Qed.
Print Assumptions C42_routes_all.

(* every reachable state keeps all pending work wrapped ... *)
Theorem C42_reachable_good : forall c fuel h c0 hs,
  forallb raw_t hs = true -> forallb top_quiet hs = true ->
  good h (state_of (run_catch c fuel h (init c0) hs)).
Proof. intros c fuel h c0 hs H1 H2. apply run_good; [apply good_init | apply catch_history_wr; assumption]. Qed.
Print Assumptions C42_reachable_good.

(* ... and from such a state an exception propagates out of start() only if the
   handler was called with it and returned False; if the handler accepts everything
   nothing escapes *)
Theorem C42_escapes_only_if_rejected : forall h c fuel s e s',
  good h s -> start c fuel s = Raised e s' -> h e = false /\ In (EHandler e) (log s').
Proof. exact catch_escape_only_if_rejected_start. Qed.
Print Assumptions C42_escapes_only_if_rejected.

Theorem C42_accepted_is_swallowed : forall h c fuel s e s',
  (forall x, h x = true) -> good h s -> start c fuel s <> Raised e s'.
Proof.
  intros h c fuel s e s' Hall G E. destruct (catch_escape_only_if_rejected_start h c fuel s e s' G E) as [H _].
  rewrite Hall in H. discriminate.
Qed.
Print Assumptions C42_accepted_is_swallowed.

(* Actions that do not raise behave exactly as on the wrapped scheduler *)
Theorem C42_transparent : forall c fuel h s hs,
  forallb noraise_t hs = true -> run_catch c fuel h s hs = run c fuel s hs.
Proof. intros c fuel h s hs H. unfold run_catch. rewrite (catch_transparent h hs H). reflexivity. Qed.
Print Assumptions C42_transparent.

(* Periodic work stops after a handled failure: the wrapped action turns a raise
   into a handled call, a handled call disposes the subscription, and a disposed
   subscription is never called again (in any history) *)
Theorem C42_periodic_raise_is_handled : forall h f z ns e,
  plookup f z = PRaise ns e -> plookup (cwrap_tab h f) z = PHandled ns e (h e).
Proof. intros h f z ns e H. rewrite plookup_cwrap, H. reflexivity. Qed.
Print Assumptions C42_periodic_raise_is_handled.

Theorem C42_periodic_failure_disposes : forall s pid st pi,
  nth_error (pers s) pid = Some pi -> p_disposed pi = false ->
  match plookup (p_fn pi) st with PNext _ _ _ => False | _ => True end ->
  In (EPDispose pid) (log (bstate (invoke s (PPer pid st)))).
Proof. exact periodic_stop_disposes. Qed.
Print Assumptions C42_periodic_failure_disposes.

Theorem C42_no_call_after_dispose : forall c fuel h c0 hs,
  no_tick_after_dispose (log (state_of (run_catch c fuel h (init c0) hs))).
Proof. intros. unfold run_catch. apply no_tick_after_dispose_run. Qed.
Print Assumptions C42_no_call_after_dispose.

(* The periodic wrapper is invisible to the calls: for ALL action tables (raising
   ones included), any handler, the closed form of the calls is that of the
   unwrapped table ... *)
Theorem C42_solo_spec_cwrap : forall h f p n clk due st t,
  solo_spec (cwrap_tab h f) p n clk due st t = solo_spec f p n clk due st t.
Proof. exact solo_spec_cwrap. Qed.
Print Assumptions C42_solo_spec_cwrap.

(* ... so schedule_periodic(p, f, st0) made through CatchScheduler(inner, h) on a
   fresh scheduler followed by advance_to(t) calls the action with exactly the
   (state, clock) pairs of [solo_spec f]: the same calls as on the wrapped scheduler,
   and none after the first call that raises (solo_spec stops at the first
   non-PNext), whatever the handler answers *)
Theorem C42_periodic_solo : forall c fuel h c0 p f st0 t, 0 <= p -> c0 < t ->
  rev (ticks_of 0 (log (state_of (run_catch c fuel h (init c0) (solo_history p f st0 t)))))
  = solo_spec f p fuel c0 (c0 + p) st0 t.
Proof. intros c fuel h c0 p f st0 t _ Hlt. exact (proj1 (catch_periodic_solo c fuel h c0 p f st0 t Hlt)). Qed.
Print Assumptions C42_periodic_solo.

Theorem C42_periodic_solo_same_calls : forall c fuel h c0 p f st0 t, 0 <= p -> c0 < t ->
  ticks_of 0 (log (state_of (run_catch c fuel h (init c0) (solo_history p f st0 t))))
  = ticks_of 0 (log (state_of (run c fuel (init c0) (solo_history p f st0 t)))).
Proof.
  intros c fuel h c0 p f st0 t Hp Hlt. pose proof (C42_periodic_solo c fuel h c0 p f st0 t Hp Hlt) as E.
  rewrite <- (proj1 (periodic_solo c fuel c0 p f st0 t Hlt)) in E.
  apply (f_equal (@rev _)) in E. rewrite !rev_involutive in E. exact E.
Qed.
Print Assumptions C42_periodic_solo_same_calls.

(* and nothing escapes advance_to in that run unless the handler rejected it *)
Theorem C42_periodic_solo_escapes : forall c fuel h c0 p f st0 t, raw_tab f = true ->
  excs_ok h (log (state_of (run_catch c fuel h (init c0) (solo_history p f st0 t)))).
Proof.
  intros c fuel h c0 p f st0 t Hr. apply (catch_routes_all c fuel h c0 (solo_history p f st0 t)); [|reflexivity].
  cbn. rewrite Hr. reflexivity.
Qed.
Print Assumptions C42_periodic_solo_escapes.

(* ---- witnesses ------------------------------------------------------ *)

(* [hv] accepts 1, rejects 2; [ex_c42]: Core/CatchSchedFacts.v.
   label 1 raises 1 at depth 2: handled, swallowed, the rest of its body (note 8)
   does not run; label 3 raises 2: handler called, rejected, start() raises 2 and
   label 4 is not run *)
Example C42_witness :
  observe (run_catch (Cfg Numeric false) 10 hv (init 0) ex_c42)
  = [OClock 0; OClock 0; OClock 0;
     ORun 0 1; ONote 9; ORun 1 2; ONote 7; OHandler 1; ORun 2 5; ORun 3 5; OHandler 2; OExc 2; OClock 5].
Proof. vm_compute. reflexivity. Qed.

Example C42_witness_hyps : forallb raw_t ex_c42 = true /\ forallb top_quiet ex_c42 = true.
Proof. vm_compute. split; reflexivity. Qed.

(* periodic: the action raises 1 at its third call; handled, no fourth call *)
Example C42_witness_periodic :
  observe (run_catch (Cfg Numeric false) 20 hv (init 0)
             [TDo (SPeriodic 2 ([(0, PNext [] 0%N 1); (1, PNext [] 0%N 2)], PRaise [] 1) 0); TAdvTo 20])
  = [OClock 0; OTick 0 0 2; OTick 0 1 4; OTick 0 2 6; OHandler 1; OClock 20].
Proof. vm_compute. reflexivity. Qed.

(* transparency hypothesis is satisfiable by a non-trivial history *)
Example C42_witness_transparent :
  forallb noraise_t [TDo (SSched (Abs 1) 0 [SSched (Rel 1) 1 [SNote 7]; SCancel 0]); TStart] = true.
Proof. vm_compute. reflexivity. Qed.

(* C42_periodic_solo on a raising table: three calls, the third raises 1 (accepted
   by hv), no fourth call although 20 is far away *)
Example C42_witness_periodic_solo :
  solo_spec ([(0, PNext [] 0%N 1); (1, PNext [] 0%N 2)], PRaise [] 1) 2 20 0 2 0 20
  = [(0, 2); (1, 4); (2, 6)]
  /\ raw_tab ([(0, PNext [] 0%N 1); (1, PNext [] 0%N 2)], PRaise [] 1) = true.
Proof. vm_compute. split; reflexivity. Qed.

(* ---- "behave exactly as on the wrapped scheduler", for programs that DO raise --------------
   (Core/CatchSchedSim.v: the two runs executed side by side.)  ANY handler, ANY raw history
   (raising actions at any depth, raising periodic actions, top-level calls that raise, cancels,
   stop, sleep, several start/advance_to calls), any fuel, both clock kinds and both code versions:
   what the harness observes of the run through CatchScheduler(inner, h), minus the handler calls,
   is what it observes of the same history on the inner scheduler -- for the whole run if the
   handler never answered True, and otherwise up to the first call it answered True to (where
   the CatchScheduler swallows the exception and the inner scheduler lets it escape). *)
Theorem C42_simulates_until_first_accept : forall c fuel h c0 hs, forallb raw_t hs = true ->
  let oc := observe (run_catch c fuel h (init c0) hs) in
  let oi := observe (run c fuel (init c0) hs) in
  ((forall e, In (OHandler e) oc -> h e = false) /\ filter not_handler oc = oi) \/
  (exists pre e post rest, oc = pre ++ OHandler e :: post /\ h e = true /\
     (forall e', In (OHandler e') pre -> h e' = false) /\ oi = filter not_handler pre ++ rest).
Proof. exact catch_simulates_until_accept. Qed.
Print Assumptions C42_simulates_until_first_accept.

Theorem C42_simulates_if_all_rejected : forall c fuel h c0 hs, forallb raw_t hs = true ->
  (forall e, In (OHandler e) (observe (run_catch c fuel h (init c0) hs)) -> h e = false) ->
  filter not_handler (observe (run_catch c fuel h (init c0) hs)) = observe (run c fuel (init c0) hs).
Proof. exact catch_simulates_if_all_rejected. Qed.
Print Assumptions C42_simulates_if_all_rejected.

(* the reject-all handler: the CatchScheduler is observationally the inner scheduler *)
Theorem C42_reject_all_simulates : forall c fuel c0 hs, forallb raw_t hs = true ->
  filter not_handler (observe (run_catch c fuel (fun _ => false) (init c0) hs)) = observe (run c fuel (init c0) hs).
Proof. intros c fuel c0 hs Hr. apply catch_simulates_if_all_rejected; [exact Hr | reflexivity]. Qed.
Print Assumptions C42_reject_all_simulates.

(* non-vacuity: a raw history with a raising action at depth 2 and a raising periodic action;
   rejected everywhere: same observations plus the handler call ... *)
Definition ex_c42_sim : list tcmd :=
  [ TDo (SSched (Abs 1) 0 [SSched (Rel 1) 1 [SNote 7; SRaise 2; SNote 8]; SNote 9]);
    TDo (SPeriodic 2 ([(0, PNext [] 0%N 1); (1, PNext [] 0%N 2)], PRaise [] 2) 0);
    TStart; TDo (SSched (Rel 1) 5 [SNote 3]); TAdvTo 20 ].
Example C42_witness_reject_all :
  forallb raw_t ex_c42_sim = true /\
  observe (run (Cfg Numeric false) 10 (init 0) ex_c42_sim)
  = [OClock 0; OClock 0; ORun 0 1; ONote 9; OTick 0 0 2; ORun 1 2; ONote 7; OExc 2; OClock 2; OClock 2; OClock 2] /\
  observe (run_catch (Cfg Numeric false) 10 (fun _ => false) (init 0) ex_c42_sim)
  = [OClock 0; OClock 0; ORun 0 1; ONote 9; OTick 0 0 2; ORun 1 2; ONote 7; OHandler 2; OExc 2; OClock 2; OClock 2; OClock 2].
Proof. vm_compute. repeat split; reflexivity. Qed.

(* ... and the runs part at the first accepted exception ([hv] accepts 1): the inner scheduler
   lets 1 escape from start(), the CatchScheduler goes on to labels 2 and 3 *)
Example C42_witness_parting :
  observe (run (Cfg Numeric false) 10 (init 0) ex_c42)
  = [OClock 0; OClock 0; OClock 0; ORun 0 1; ONote 9; ORun 1 2; ONote 7] ++ [OExc 1; OClock 2] /\
  observe (run_catch (Cfg Numeric false) 10 hv (init 0) ex_c42)
  = [OClock 0; OClock 0; OClock 0; ORun 0 1; ONote 9; ORun 1 2; ONote 7] ++ OHandler 1 ::
    [ORun 2 5; ORun 3 5; OHandler 2; OExc 2; OClock 5].
Proof. vm_compute. split; reflexivity. Qed.

(* "Handler returns True => periodic work stops", as ONE whole-run statement (Core/PeriodicLast.v):
   in EVERY history through the CatchScheduler, after a call of a periodic action that did not
   return a next state -- in particular one whose exception the handler accepted ([PHandled _ _ true]
   in the wrapped table) or rejected -- the subscription is disposed and never called again
   (log newest first: l1 is what happened after that call) *)
Theorem C42_failed_call_is_last : forall c fuel h c0 hs l1 l0 pid st k pi,
  let s := state_of (run_catch c fuel h (init c0) hs) in
  log s = l1 ++ ETick pid st k :: l0 -> nth_error (pers s) pid = Some pi ->
  match plookup (p_fn pi) st with PNext _ _ _ => False | _ => True end ->
  ticks_of pid l1 = [] /\ In (EPDispose pid) l1.
Proof. intros c fuel h c0 hs. unfold run_catch. apply failed_call_is_last. Qed.
Print Assumptions C42_failed_call_is_last.

(* hypotheses satisfiable: the third call raises 1, [hv] accepts it, the run goes on (label 5 runs
   at 7, the clock reaches 20) and the action is not called again *)
Example C42_witness_failed_call :
  let f : ptable := ([(0, PNext [] 0%N 1); (1, PNext [] 0%N 2)], PRaise [] 1) in
  let r := run_catch (Cfg Numeric false) 20 hv (init 0)
             [TDo (SPeriodic 2 f 0); TAdvTo 5; TDo (SSched (Rel 2) 5 [SNote 3]); TAdvTo 20] in
  option_map p_fn (nth_error (pers (state_of r)) 0) = Some (cwrap_tab hv f) /\
  plookup (cwrap_tab hv f) 2 = PHandled [] 1 true /\
  observe r = [OClock 0; OTick 0 0 2; OTick 0 1 4; OClock 5; OClock 5; OTick 0 2 6; OHandler 1; ORun 5 7; ONote 3; OClock 20].
Proof. vm_compute. repeat split; reflexivity. Qed.
