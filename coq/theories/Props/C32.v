(* C32 -- observe_on / ScheduledObserver delivers every notification once, in order, serially.

   Model: Core/SchedObs.v, the transition system of ScheduledObserver (+ ObserveOnObserver) as the
   code is: unlocked queue.append | the locked test-and-set of ensure_active | scheduler.schedule(run) |
   the scheduler starting a pending run | run's locked pop-or-release | entering / leaving the
   downstream observer OUTSIDE the lock | the locked fault block | the re-schedule.
   The target scheduler is abstract: any thread running [OWork] is one of its workers and starts a
   pending `run` at an arbitrary moment (one worker = event loop, several = thread pool).

   The theorems up to C32_replay_style hold for ALL schedules (lists of thread ids), ALL per-thread programs
   (any number of producer and worker threads) and EVERY set of raising deliveries [raises].  C32_dead_iff and
   C32_progress are about any state, reachable or not; C32_progress_without_side_condition_refuted, the
   witnesses and the mutants are concrete runs.
   Tie to /repo: harness/props/C32.py (K3: the real classes under the controlled interleaving of a
   producer thread with scheduler worker threads, compared step-for-step with this system). *)
From RxVerif Require Import Base.Prelude Core.Lts Core.LtsFacts Core.SchedObs Core.SchedObsFacts Core.SchedObsFacts2.
Local Open Scope nat_scope.

(* the is_acquired handshake: at most one `run` is pending on the scheduler, being scheduled or
   active, and there is one exactly when is_acquired and not has_faulted *)
Theorem C32_one_runner :
  forall raises progs sched,
  let c := so_run raises progs sched in
  runs_alive c = (if so_acq (c_sh c) && negb (so_flt (c_sh c)) then 1 else 0).
Proof. intros raises progs sched c. exact (proj1 (so_inv raises progs sched)). Qed.
Print Assumptions C32_one_runner.

(* exactly once, in order (1): at every moment the sequence of deliveries begun is a PREFIX of the
   sequence received; while not faulted the remainder is exactly the notification popped and not yet
   delivered followed by the queue (nothing is lost, duplicated or reordered) *)
Theorem C32_delivered_prefix_of_received :
  forall raises progs sched,
  let c := so_run raises progs sched in
  exists rest, so_recv (c_sh c) = entered (untag (c_log c)) ++ rest /\
               (so_flt (c_sh c) = false -> rest = flat_map tinfl (c_ths c) ++ so_q (c_sh c)).
Proof. exact so_delivered_prefix. Qed.
Print Assumptions C32_delivered_prefix_of_received.

(* never two deliveries at once: in the log a delivery is entered only when none is open, and the one
   that returns / raises is the open one *)
Theorem C32_serial :
  forall raises progs sched, serial (untag (c_log (so_run raises progs sched))) = true.
Proof. exact so_serial. Qed.
Print Assumptions C32_serial.

(* the same on states: two threads inside the downstream observer are the same thread *)
Theorem C32_serial_state :
  forall raises progs sched i j ti tj a b,
  let c := so_run raises progs sched in
  nth_error (c_ths c) i = Some ti -> nth_error (c_ths c) j = Some tj ->
  t_cur ti = Some (LR_exit a) -> t_cur tj = Some (LR_exit b) -> i = j.
Proof.
  intros raises progs sched i j ti tj a b c Ni Nj Ci Cj. pose proof (proj1 (so_inv raises progs sched)) as I1.
  destruct (Nat.eq_dec i j) as [E|E]; [exact E|exfalso].
  (* both hold the token *)
  pose proof (nsum_two _ ttok (c_ths c) i j ti tj E Ni Nj) as H.
  unfold ttok in H at 1 2. rewrite Ci, Cj in H. cbn [olift tok] in H.
  fold c in I1. pose proof (alive_le (c_sh c)). lia.
Qed.
Print Assumptions C32_serial_state.

(* no lost wake-up: whenever the queue is non-empty and the observer has not faulted, a `run` is
   pending / being scheduled / active, or some producer is about to execute ensure_active
   (it stands between its append and the locked block, or ensure_active comes next in its program).
   Hypothesis: every plain enqueue is followed by an ensure_active in the same thread (ObserveOnObserver
   does it in the same call, ReplaySubject right after the enqueues) *)
Theorem C32_no_lost_wakeup :
  forall raises progs sched,
  forallb covered progs = true ->
  let c := so_run raises progs sched in
  so_q (c_sh c) <> [] -> so_flt (c_sh c) = false ->
  runs_alive c = 1 \/ exists tid t, nth_error (c_ths c) tid = Some t /\ will_ensure t = true.
Proof. exact so_no_lost_wakeup. Qed.
Print Assumptions C32_no_lost_wakeup.

(* exactly once, in order (2): when the scheduler is idle (nothing pending, no action running) and
   every producer call has returned, a non-faulted observer has delivered EVERYTHING it received, in
   the order received, every delivery has returned, the queue is empty and ownership is released *)
Theorem C32_quiescent_all_delivered :
  forall raises progs sched,
  forallb covered progs = true ->
  let c := so_run raises progs sched in
  quiescent c = true -> so_flt (c_sh c) = false ->
  entered (untag (c_log c)) = so_recv (c_sh c) /\
  left (untag (c_log c)) = so_recv (c_sh c) /\
  so_q (c_sh c) = [] /\ so_acq (c_sh c) = false.
Proof. exact so_quiescent_all_delivered. Qed.
Print Assumptions C32_quiescent_all_delivered.

(* after a delivery raised nothing further is delivered *)
Theorem C32_fault_stops :
  forall raises progs sched l1 t i l2,
  c_log (so_run raises progs sched) = l1 ++ (t, ORaise i) :: l2 -> entered (untag l2) = [].
Proof. exact so_fault_stops_explicit. Qed.
Print Assumptions C32_fault_stops.

(* observe_on end to end: ONE producer thread sending [ids] (what passes the Observer base class's
   is_stopped gate), any number of scheduler workers: the delivered sequence is always a prefix of
   [ids]; at quiescence without a fault it IS [ids] and every delivery has returned *)
Theorem C32_observe_on :
  forall raises ids nworkers sched,
  let c := so_run raises (producer ids :: repeat [OWork] nworkers) sched in
  (exists rest, ids = entered (untag (c_log c)) ++ rest) /\
  (quiescent c = true -> so_flt (c_sh c) = false ->
     entered (untag (c_log c)) = ids /\ left (untag (c_log c)) = ids).
Proof.
  intros raises ids nworkers sched. destruct (producer_spec ids) as (H1 & H2 & H3).
  pose proof (so_single_producer raises (producer ids) nworkers sched H1 H2) as H. rewrite H3 in H. exact H.
Qed.
Print Assumptions C32_observe_on.

(* "on the target scheduler": every delivery is made by a thread that is a worker of the target
   scheduler (the worker loop is in its program) and whose start of a pending `run` is in the log *)
Theorem C32_on_worker :
  forall raises progs sched tid i,
  In (tid, OEnter i) (c_log (so_run raises progs sched)) ->
  In (tid, OPop) (c_log (so_run raises progs sched)) /\
  exists p, nth_error progs tid = Some p /\ In OWork p.
Proof. intros raises progs sched tid i H. exact (proj2 (so_invo raises progs sched) tid i H). Qed.
Print Assumptions C32_on_worker.

(* ... hence a thread whose program has no worker loop (a producer) never delivers *)
Theorem C32_producer_never_delivers :
  forall raises progs sched tid p i,
  nth_error progs tid = Some p -> ~ In OWork p ->
  ~ In (tid, OEnter i) (c_log (so_run raises progs sched)).
Proof.
  intros raises progs sched tid p i Np Hp H. destruct (C32_on_worker raises progs sched tid i H) as [_ (p' & Np' & Hw)].
  rewrite Np in Np'. injection Np' as <-. exact (Hp Hw).
Qed.
Print Assumptions C32_producer_never_delivers.

(* ReplaySubject's call pattern end to end: ONE thread enqueues [ids] and then calls ensure_active,
   any number of scheduler workers: the delivered sequence is always a prefix of [ids]; at quiescence
   without a fault it IS [ids] and every delivery has returned *)
Theorem C32_replay_style :
  forall raises ids nworkers sched,
  let c := so_run raises ((map OEnq ids ++ [OEnsure]) :: repeat [OWork] nworkers) sched in
  (exists rest, ids = entered (untag (c_log c)) ++ rest) /\
  (quiescent c = true -> so_flt (c_sh c) = false ->
     entered (untag (c_log c)) = ids /\ left (untag (c_log c)) = ids).
Proof.
  intros raises ids nworkers sched. destruct (replay_spec ids) as ((H1 & _) & H2 & H3).
  pose proof (so_single_producer raises _ nworkers sched H1 H2) as H. rewrite H3 in H. exact H.
Qed.
Print Assumptions C32_replay_style.

(* which states are dead (ANY state, reachable or not): no thread can step iff every thread is finished
   or is a worker waiting for work (inside its loop or about to enter it), and nothing is pending on the
   scheduler unless there is no such worker *)
Theorem C32_dead_iff :
  forall raises (c : config),
  (forall tid, tstep so_start (so_act raises) c tid = c) <->
  (forall tid t, nth_error (c_ths c) tid = Some t -> finished t = true \/ waiting t) /\
  (so_pend (c_sh c) = 0 \/ forall tid t, nth_error (c_ths c) tid = Some t -> ~ waiting t).
Proof. exact so_dead_iff. Qed.
Print Assumptions C32_dead_iff.

(* progress: a non-quiescent state with a worker waiting inside its loop, in which no thread stands in
   front of a worker loop it has not entered yet, has an enabled step *)
Theorem C32_progress :
  forall raises (c : config),
  quiescent c = false ->
  (exists w t, nth_error (c_ths c) w = Some t /\ t_cur t = Some LW_pop) ->
  (forall tid t r, nth_error (c_ths c) tid = Some t -> t_cur t = None -> t_todo t <> OWork :: r) ->
  exists tid, tstep so_start (so_act raises) c tid <> c.
Proof. exact so_progress. Qed.
Print Assumptions C32_progress.

(* the side condition is needed: [quiescent] does not count a worker that has not entered its loop as
   idle, so this REACHABLE state (everything delivered, worker 1 waiting, worker 2 never scheduled) is
   not quiescent and yet no thread can step.  An artefact of the definition, not of the code *)
Theorem C32_progress_without_side_condition_refuted :
  let c := so_run (fun _ => false) [producer [1]; [OWork]; [OWork]] [0;0;0;1;1;1;1;1;1;1] in
  quiescent c = false /\
  nth_error (c_ths c) 1 = Some (Thread (Some LW_pop) []) /\
  c_ths c = [Thread None []; Thread (Some LW_pop) []; Thread None [OWork]] /\ so_pend (c_sh c) = 0 /\
  entered (untag (c_log c)) = [1] /\
  forall tid, tstep so_start (so_act (fun _ => false)) c tid = c.
Proof.
  vm_compute. repeat split. intros tid. do 3 (destruct tid as [|tid]; [reflexivity|]). destruct tid; reflexivity.
Qed.
Print Assumptions C32_progress_without_side_condition_refuted.

(* ---- non-vacuity ----------------------------------------------------------------- *)
Definition C32_sched1 : list nat := [0;0;0;1;0;1;0;1;0;1;0;1;1;1;1;1;1;1;1;1;1;1;1;1].

(* a producer racing one worker: quiescent, not faulted, everything delivered in order *)
Example C32_witness_interleaved :
  let c := so_run (fun _ => false) [producer [1;2;3]; [OWork]] C32_sched1 in
  c_log c = [(0, OSched); (1, OPop); (1, OEnter 1); (1, OExit 1); (1, OSched); (1, OPop); (1, OEnter 2);
             (1, OExit 2); (1, OSched); (1, OPop); (1, OEnter 3); (1, OExit 3); (1, OSched); (1, OPop)] /\
  quiescent c = true /\ c_sh c = SO [] false false 0 [1;2;3].
Proof. vm_compute. repeat split; reflexivity. Qed.

(* the delivery of 2 raises: 3 is received but never delivered, the observer stays faulted *)
Example C32_witness_fault :
  let c := so_run (mem_nat [2]) [producer [1;2;3]; [OWork]] C32_sched1 in
  c_log c = [(0, OSched); (1, OPop); (1, OEnter 1); (1, OExit 1); (1, OSched); (1, OPop); (1, OEnter 2);
             (1, ORaise 2)] /\
  quiescent c = true /\ c_sh c = SO [] true true 0 [1;2;3].
Proof. vm_compute. repeat split; reflexivity. Qed.

(* ReplaySubject's use: enqueue, enqueue, ensure_active *)
Example C32_witness_replay_style :
  let c := so_run (fun _ => false) [[OEnq 1; OEnq 2; OEnsure]; [OWork]] [0;0;0;0;1;1;1;1;1;1;1;1;1;1;1;1;1] in
  entered (untag (c_log c)) = [1;2] /\ quiescent c = true /\ covered [OEnq 1; OEnq 2; OEnsure] = true.
Proof. vm_compute. repeat split; reflexivity. Qed.

(* the statements are not vacuous: two seeded changes of the handshake falsify them.
   (a) ensure_active without the is_acquired test, two workers: two deliveries at once *)
Example C32_mutant_no_acquire_test_overlaps :
  let c := run so_start (so_act_noacq (fun _ => false)) (init so_init [producer [1;2]; [OWork]; [OWork]])
               [0;0;0;0;0;0;1;2;1;2;1;2] in
  c_log c = [(0, OSched); (0, OSched); (1, OPop); (2, OPop); (1, OEnter 1); (2, OEnter 2)] /\
  serial (untag (c_log c)) = false.
Proof. vm_compute. split; reflexivity. Qed.

(* (b) run() testing emptiness and releasing is_acquired in two separate locked blocks: a notification
   appended in between is left in the queue with nobody to deliver it (lost wake-up) *)
Example C32_mutant_split_release_loses_wakeup :
  let c := run so_start_split (so_act_split (fun _ => false)) (init so_init [producer [1;2]; [OWork]])
               [0;0;0;1;1;1;1;1;1;1;0;0;1;1;1;0] in
  c_sh c = SO [2] false false 0 [1;2] /\
  c_ths c = [Thread None []; Thread (Some (inl LW_pop)) []] /\
  entered (untag (c_log c)) = [1].
Proof. vm_compute. repeat split; reflexivity. Qed.

(* the hypotheses of C32_progress hold in a reachable state: worker waiting in its loop, producer mid-call *)
Example C32_witness_progress_hyps :
  let c := so_run (fun _ => false) [producer [1;2]; [OWork]] [0;0;0;1;1;1;1;1;1;1;0] in
  quiescent c = false /\ nth_error (c_ths c) 1 = Some (Thread (Some LW_pop) []) /\
  c_ths c = [Thread (Some LE_lock) []; Thread (Some LW_pop) []].
Proof. vm_compute. repeat split; reflexivity. Qed.
