(* C06 -- aggregating operators match their reference semantics.
   Primitive machines and the derived operators (composed exactly as the code
   pipes them) of Ops/Aggregates.v; for every finite input and termination.
   The later parts: extrema under any comparer that orders by a rank;
   sequence_equal with an observable second argument, for every interleaving
   (Ops/SeqEqualFacts.v); the INSTANT at which the short-circuiting aggregates
   answer (Ops/AggregatesTagged.v); to_dict. *)
From RxVerif Require Import Base.Prelude Ops.Machine Ops.MachineFacts Ops.ComposeFacts
  Ops.Elementwise Ops.Aggregates Ops.AggregatesFacts Ops.AggregatesMore
  Ops.Multi Ops.MultiCase Ops.SeqEqual Ops.SeqEqualFacts
  Ops.ElementwiseFacts Ops.ComposeTagged Ops.AggregatesTagged.

(* pipelines: what a two-stage pipeline delivers is what stage 2 delivers on
   stage 1's output -- for ARBITRARY input streams *)
Theorem C06_composition : forall A B C (m1 : mealy A B) (m2 : mealy B C) ins,
  untag (exec (compose m1 m2) ins) = untag (exec m2 (untag (exec m1 ins))).
Proof. exact @compose_exec. Qed.
Print Assumptions C06_composition.

Theorem C06_scan_seed : forall A S (f : S -> A -> S) seed (xs : list A) t,
  untag (exec (op_scan_seed (pure2 f) seed) (events xs t)) = events (scanl f seed xs) t.
Proof. exact @scan_seed_spec. Qed.
Print Assumptions C06_scan_seed.

Theorem C06_scan : forall A (f : A -> A -> A) (xs : list A) t,
  untag (exec (op_scan (pure2 f)) (events xs t))
  = match xs with [] => events [] t | x :: r => events (x :: scanl f x r) t end.
Proof. exact @scan_spec. Qed.
Print Assumptions C06_scan.

Theorem C06_reduce_seed : forall A S (f : S -> A -> S) seed (xs : list A) t,
  untag (exec (op_reduce_seed (pure2 f) seed) (events xs t))
  = match t with
    | TDone => [Next (fold_left f xs seed); Done]
    | TErr e => [Err e]
    | TNever => []
    end.
Proof. exact @reduce_seed_spec. Qed.
Print Assumptions C06_reduce_seed.

Theorem C06_reduce : forall A (f : A -> A -> A) (xs : list A) t,
  untag (exec (op_reduce (pure2 f)) (events xs t))
  = match t with
    | TDone => match xs with
               | [] => [Err EXN_NO_ELEMENTS]
               | x :: r => [Next (fold_left f r x); Done]
               end
    | TErr e => [Err e]
    | TNever => []
    end.
Proof. exact @reduce_spec. Qed.
Print Assumptions C06_reduce.

Theorem C06_count : forall A (xs : list A) t,
  untag (exec op_count (events xs t))
  = match t with TDone => [Next (zlen xs); Done] | TErr e => [Err e] | TNever => [] end.
Proof. exact @count_spec. Qed.
Print Assumptions C06_count.

Theorem C06_count_pred : forall A (p : A -> bool) (xs : list A) t,
  untag (exec (op_count_pred (pure p)) (events xs t))
  = match t with TDone => [Next (zlen (filter p xs)); Done] | TErr e => [Err e] | TNever => [] end.
Proof.
  intros *. unfold op_count_pred. rewrite compose_exec, filter_untag. apply count_spec.
Qed.
Print Assumptions C06_count_pred.

Theorem C06_sum : forall (xs : list Z) t,
  untag (exec op_sum (events xs t))
  = match t with TDone => [Next (fold_left Z.add xs 0); Done] | TErr e => [Err e] | TNever => [] end.
Proof. exact sum_spec. Qed.
Print Assumptions C06_sum.

Theorem C06_last : forall A default (xs : list A) t,
  untag (exec (op_last default) (events xs t))
  = match t with
    | TDone => match last_opt xs None, default with
               | Some x, _ => [Next x; Done]
               | None, Some d => [Next d; Done]
               | None, None => [Err EXN_NO_ELEMENTS]
               end
    | TErr e => [Err e]
    | TNever => []
    end.
Proof. exact @last_spec. Qed.
Print Assumptions C06_last.

(* first: emitted (tag 1) at the first element, whatever follows *)
Theorem C06_first : forall A default (xs : list A) t,
  exec (op_first default) (events xs t)
  = match xs with
    | x :: _ => [(1%nat, Next x); (1%nat, Done)]
    | [] => match t with
            | TDone => match default with
                       | Some d => [(1%nat, Next d); (1%nat, Done)]
                       | None => [(1%nat, Err EXN_NO_ELEMENTS)]
                       end
            | TErr e => [(1%nat, Err e)]
            | TNever => []
            end
    end.
Proof.
  intros *. unfold exec. cbn -[exec_from untag]. destruct xs as [|x r].
  - destruct t; cbn; try reflexivity. destruct default; reflexivity.
  - reflexivity.
Qed.
Print Assumptions C06_first.

Theorem C06_single : forall A default (xs : list A) t,
  untag (exec (op_single default) (events xs t))
  = match xs with
    | [] => match t with
            | TDone => match default with Some d => [Next d; Done] | None => [Err EXN_NO_ELEMENTS] end
            | TErr e => [Err e]
            | TNever => []
            end
    | [x] => match t with TDone => [Next x; Done] | TErr e => [Err e] | TNever => [] end
    | _ :: _ :: _ => [Err EXN_MORE_THAN_ONE]
    end.
Proof.
  intros *. unfold exec. cbn -[exec_from untag]. destruct xs as [|x [|y r]].
  - destruct t; cbn; try reflexivity. destruct default; reflexivity.
  - destruct t; reflexivity.
  - reflexivity.
Qed.
Print Assumptions C06_single.

(* short-circuit: some emits at the deciding (first) element *)
Theorem C06_some : forall A (xs : list A) t,
  exec op_some (events xs t)
  = match xs with
    | _ :: _ => [(1%nat, Next true); (1%nat, Done)]
    | [] => match t with
            | TDone => [(1%nat, Next false); (1%nat, Done)]
            | TErr e => [(1%nat, Err e)]
            | TNever => []
            end
    end.
Proof. exact @some_spec. Qed.
Print Assumptions C06_some.

Theorem C06_some_pred : forall A (p : A -> bool) (xs : list A) t,
  untag (exec (op_some_pred (pure p)) (events xs t))
  = if existsb p xs then [Next true; Done]
    else match t with TDone => [Next false; Done] | TErr e => [Err e] | TNever => [] end.
Proof.
  intros *. rewrite some_pred_tagged, (existsb_find_indexed p xs 1).
  destruct (find _ _) as [[j x]|]; [reflexivity|destruct t; reflexivity].
Qed.
Print Assumptions C06_some_pred.

Theorem C06_all : forall A (p : A -> bool) (xs : list A) t,
  untag (exec (op_all (pure p)) (events xs t))
  = if forallb p xs then match t with TDone => [Next true; Done] | TErr e => [Err e] | TNever => [] end
    else [Next false; Done].
Proof.
  intros *. rewrite all_tagged, (forallb_first_failing p xs 1).
  destruct (first_failing _ _) as [[j x]|]; [reflexivity|destruct t; reflexivity].
Qed.
Print Assumptions C06_all.

Theorem C06_is_empty : forall A (xs : list A) t,
  untag (exec op_is_empty (events xs t))
  = match xs with
    | _ :: _ => [Next false; Done]
    | [] => match t with TDone => [Next true; Done] | TErr e => [Err e] | TNever => [] end
    end.
Proof.
  intros *. rewrite is_empty_tagged. destruct xs as [|x r]; [destruct t|]; reflexivity.
Qed.
Print Assumptions C06_is_empty.

Theorem C06_to_list : forall A (xs : list A) t,
  untag (exec op_to_list (events xs t))
  = match t with TDone => [Next xs; Done] | TErr e => [Err e] | TNever => [] end.
Proof.
  intros *. unfold exec. cbn -[exec_from untag]. apply to_list_from.
Qed.
Print Assumptions C06_to_list.

(* contains(v, comparer): decided by the first element equal to v *)
Theorem C06_contains : forall A (eqb : A -> A -> bool) (v : A) (xs : list A) t,
  untag (exec (op_contains (pure2 eqb) v) (events xs t))
  = if existsb (fun x => eqb x v) xs then [Next true; Done]
    else match t with TDone => [Next false; Done] | TErr e => [Err e] | TNever => [] end.
Proof.
  intros *. rewrite contains_tagged, (existsb_find_indexed (fun x => eqb x v) xs 1).
  destruct (find _ _) as [[j x]|]; [reflexivity|destruct t; reflexivity].
Qed.
Print Assumptions C06_contains.

(* first / last / single with a predicate behave as the plain operator on the filtered input
   (whose closed forms are C06_first / C06_last / C06_single) *)
Theorem C06_first_pred : forall A (p : A -> bool) default (xs : list A) t,
  untag (exec (op_first_pred (pure p) default) (events xs t))
  = untag (exec (op_first default) (events (filter p xs) t)).
Proof.
  intros *. unfold op_first_pred. now rewrite compose_exec, filter_untag.
Qed.
Print Assumptions C06_first_pred.
Theorem C06_last_pred : forall A (p : A -> bool) default (xs : list A) t,
  untag (exec (op_last_pred (pure p) default) (events xs t))
  = untag (exec (op_last default) (events (filter p xs) t)).
Proof.
  intros *. unfold op_last_pred. now rewrite compose_exec, filter_untag.
Qed.
Print Assumptions C06_last_pred.
Theorem C06_single_pred : forall A (p : A -> bool) default (xs : list A) t,
  untag (exec (op_single_pred (pure p) default) (events xs t))
  = untag (exec (op_single default) (events (filter p xs) t)).
Proof.
  intros *. unfold op_single_pred. now rewrite compose_exec, filter_untag.
Qed.
Print Assumptions C06_single_pred.

(* to_set: first occurrences in arrival order, once, at completion; sound and complete up to the comparer *)
Theorem C06_to_set : forall A eqb (xs : list A) t,
  untag (exec (op_to_set eqb) (events xs t))
  = match t with TDone => [Next (dedup eqb xs); Done] | TErr e => [Err e] | TNever => [] end.
Proof.
  intros *. unfold exec. cbn -[exec_from untag]. apply to_set_from.
Qed.
Print Assumptions C06_to_set.
Theorem C06_to_set_sound : forall A eqb (xs : list A) y, In y (dedup eqb xs) -> In y xs.
Proof. exact @dedup_sound. Qed.
Print Assumptions C06_to_set_sound.
Theorem C06_to_set_complete : forall A eqb (xs : list A), (forall x, eqb x x = true) ->
  forall x, In x xs -> exists y, In y (dedup eqb xs) /\ eqb x y = true.
Proof. exact @dedup_complete. Qed.
Print Assumptions C06_to_set_complete.

(* sequence_equal against an iterable: false at the first mismatch or surplus element, otherwise
   decided at completion; true exactly for pointwise-equal sequences of equal length *)
Theorem C06_sequence_equal_iter : forall A eqb (second xs : list A) t,
  untag (exec (op_sequence_equal_iter (pure2 eqb) second) (events xs t))
  = match se_run eqb second xs with
    | None => [Next false; Done]
    | Some q => match t with
                | TDone => [Next (match q with [] => true | _ => false end); Done]
                | TErr e => [Err e]
                | TNever => []
                end
    end.
Proof.
  intros *. unfold exec. cbn -[exec_from untag]. rewrite sequence_equal_from_tagged.
  pose proof (se_mismatch_run eqb xs second 1) as H.
  destruct (se_mismatch_at eqb second xs 1); [now rewrite H|].
  destruct (se_run eqb second xs) as [q|]; [|congruence]. destruct t; [destruct q|..]; reflexivity.
Qed.
Print Assumptions C06_sequence_equal_iter.
Theorem C06_sequence_equal_true_iff : forall A eqb (qr xs : list A),
  se_run eqb qr xs = Some [] <-> Forall2 (fun v x => eqb v x = true) qr xs.
Proof. exact @se_run_true_iff. Qed.
Print Assumptions C06_sequence_equal_true_iff.

Theorem C06_sum_key : forall A (key : A -> Z) (xs : list A) t,
  untag (exec (op_sum_key (pure key)) (events xs t))
  = match t with TDone => [Next (fold_left Z.add (map key xs) 0); Done] | TErr e => [Err e] | TNever => [] end.
Proof.
  intros *. unfold op_sum_key. rewrite compose_exec, map_untag. apply sum_spec.
Qed.
Print Assumptions C06_sum_key.

(* average as the exact pair (sum of keys, number of elements); empty input fails *)
Theorem C06_average : forall A (key : A -> Z) (xs : list A) t,
  untag (exec (op_average_pair (pure key)) (events xs t))
  = match t with
    | TDone => match xs with
               | [] => [Err EXN_NO_ELEMENTS]
               | _ => [Next (fold_left (fun (s : Z * Z) x => (fst s + x, snd s + 1)) (map key xs) (0, 0)); Done]
               end
    | TErr e => [Err e]
    | TNever => []
    end.
Proof. exact @average_pair_spec. Qed.
Print Assumptions C06_average.
(* ... and the pair is (sum of the keys, number of elements) *)
Theorem C06_average_value : forall A (key : A -> Z) (xs : list A),
  fold_left (fun (s : Z * Z) x => (fst s + x, snd s + 1)) (map key xs) (0, 0)
  = (fold_left Z.add (map key xs) 0, Z.of_nat (length xs)).
Proof.
  intros *. rewrite average_fold, map_length. f_equal; lia.
Qed.
Print Assumptions C06_average_value.

(* max_by / min_by over integer keys: ALL elements whose key is extremal, in arrival order *)
Theorem C06_max_by : forall A (key : A -> Z) (xs : list A) t,
  exists items,
    untag (exec (op_max_by (pure key) (pure2 Z.sub)) (events xs t))
    = match t with TDone => [Next items; Done] | TErr e => [Err e] | TNever => [] end
    /\ match xs with
       | [] => items = []
       | _ => exists m, (forall y, In y xs -> key y <= m) /\ (exists y, In y xs /\ key y = m)
                        /\ items = filter (fun y => key y =? m) xs
       end.
Proof. exact @max_by_spec. Qed.
Print Assumptions C06_max_by.
Theorem C06_min_by : forall A (key : A -> Z) (xs : list A) t,
  exists items,
    untag (exec (op_min_by (pure key) (pure2 Z.sub)) (events xs t))
    = match t with TDone => [Next items; Done] | TErr e => [Err e] | TNever => [] end
    /\ match xs with
       | [] => items = []
       | _ => exists m, (forall y, In y xs -> m <= key y) /\ (exists y, In y xs /\ key y = m)
                        /\ items = filter (fun y => key y =? m) xs
       end.
Proof. exact @min_by_spec. Qed.
Print Assumptions C06_min_by.

(* max / min over integers (as the code builds them: max_by(identity) ; map(first)) *)
Theorem C06_max : forall (xs : list Z) t,
  untag (exec (op_max (pure2 Z.sub)) (events xs t))
  = match t with
    | TDone => match xs with [] => [Err EXN_NO_ELEMENTS] | x :: r => [Next (fold_left Z.max r x); Done] end
    | TErr e => [Err e]
    | TNever => []
    end.
Proof. exact max_spec. Qed.
Print Assumptions C06_max.
Theorem C06_min : forall (xs : list Z) t,
  untag (exec (op_min (pure2 Z.sub)) (events xs t))
  = match t with
    | TDone => match xs with [] => [Err EXN_NO_ELEMENTS] | x :: r => [Next (fold_left Z.min r x); Done] end
    | TErr e => [Err e]
    | TNever => []
    end.
Proof. exact min_spec. Qed.
Print Assumptions C06_min.

Example C06_witness_max_by :
  untag (exec (op_max_by (pure (fun x : Z => x mod 3)) (pure2 Z.sub)) (events [1; 5; 3; 2; 8] TDone))
  = [Next [5; 2; 8]; Done].
Proof. vm_compute. reflexivity. Qed.
Example C06_witness_sequence_equal :
  untag (exec (op_sequence_equal_iter (pure2 Z.eqb) [1; 2; 3]) (events [1; 2; 4; 9] TDone)) = [Next false; Done]
  /\ untag (exec (op_sequence_equal_iter (pure2 Z.eqb) [1; 2]) (events [1; 2] TDone)) = [Next true; Done].
Proof. vm_compute. split; reflexivity. Qed.

Example C06_witness_reduce :
  untag (exec (op_reduce_seed (pure2 Z.add) 10) (events [1; 2; 3] TDone)) = [Next 16; Done].
Proof. vm_compute. reflexivity. Qed.
Example C06_witness_single_fails_on_second :
  exec (op_single None) (events [1; 2; 3] TDone) = [(2%nat, Err EXN_MORE_THAN_ONE)].
Proof. vm_compute. reflexivity. Qed.

(* ---- comparer parameters ---------------------------------------------------------------------- *)
(* max_by / min_by (extrema_by) under ANY comparer that never raises and orders the keys by some rank
   (reversed order: rank = negation; order of residues: rank = x mod m; magnitudes other than +-1 are
   covered since only the sign of the comparer's result is constrained): all elements of extremal rank,
   in arrival order *)
Theorem C06_extrema_by_any_comparer : forall A (key : A -> Z) (cmp : Z -> Z -> res Z) (rank : Z -> Z),
  (forall a b, exists c, cmp a b = Ok c /\ (c >? 0) = (rank a >? rank b) /\ (c >=? 0) = (rank a >=? rank b)) ->
  forall (xs : list A) t,
  exists items,
    untag (exec (op_extrema_by (pure key) cmp) (events xs t))
    = match t with TDone => [Next items; Done] | TErr e => [Err e] | TNever => [] end
    /\ match xs with
       | [] => items = []
       | _ => exists m, (forall y, In y xs -> rank (key y) <= m)
                        /\ (exists y, In y xs /\ rank (key y) = m)
                        /\ items = filter (fun y => rank (key y) =? m) xs
       end.
Proof. exact @extrema_spec. Qed.
Print Assumptions C06_extrema_by_any_comparer.

(* ---- sequence_equal with an OBSERVABLE second argument (two-source machine Ops/SeqEqual.v) ------ *)
(* for EVERY interleaving of the two sources' notifications: the output is the first answer the two
   histories give (se_decide), emitted with completion at that very position; an error of either source
   passes through; nothing after dispose.  The comparer is assumed symmetric: the code hands it the two
   sides in either order. *)
Theorem C06_sequence_equal_observable : forall A (eqb : A -> A -> bool), (forall a b, eqb a b = eqb b a) ->
  forall ins : list (Z * inp A),
  temitted (fst (run (x_sequence_equal (pure2 eqb)) ins)) = se_spec eqb [] [] true true 1 ins.
Proof. exact @sequence_equal_refines_spec. Qed.
Print Assumptions C06_sequence_equal_observable.

(* the answer is true exactly when both sides are complete, equally long and pairwise equal ... *)
Theorem C06_sequence_equal_true_iff_both : forall A (eqb : A -> A -> bool) (L R : list A) dl dr,
  se_decide eqb L R dl dr = Some true
  <-> dl = true /\ dr = true /\ Forall2 (fun a b => eqb a b = true) L R.
Proof. exact @se_decide_true_iff. Qed.
Print Assumptions C06_sequence_equal_true_iff_both.
(* ... and false exactly when some pair present on both sides differs, or a complete side is the shorter one *)
Theorem C06_sequence_equal_false_iff : forall A (eqb : A -> A -> bool) (L R : list A) dl dr,
  se_decide eqb L R dl dr = Some false
  <-> agree eqb L R = false
      \/ (dl = true /\ (length L < length R)%nat)
      \/ (dr = true /\ (length R < length L)%nat).
Proof. exact @se_decide_false_iff. Qed.
Print Assumptions C06_sequence_equal_false_iff.

(* non-vacuity: second source ahead, mismatch decided when the FIRST source delivers its 2nd element;
   and an equal pair decided true at the later completion *)
Example C06_witness_sequence_equal_observable :
  temitted (fst (run (x_sequence_equal (pure2 Z.eqb))
                     [(0, ISrc 1%nat (Next 1)); (0, ISrc 1%nat (Next 2)); (0, ISrc 0%nat (Next 1));
                      (0, ISrc 0%nat (Next 3)); (0, ISrc 0%nat Done)]))
  = [(4%nat, Next false); (4%nat, Done)]
  /\ temitted (fst (run (x_sequence_equal (pure2 Z.eqb))
                        [(0, ISrc 0%nat (Next 1)); (0, ISrc 1%nat (Next 1)); (0, ISrc 1%nat Done);
                         (0, ISrc 0%nat Done)]))
     = [(4%nat, Next true); (4%nat, Done)].
Proof. vm_compute. split; reflexivity. Qed.
Example C06_witness_min_by_reversed_comparer :
  untag (exec (op_min_by (pure (fun x : Z => x mod 3)) (pure2 (fun a b => b - a))) (events [1; 5; 3; 2; 8] TDone))
  = [Next [5; 2; 8]; Done].
Proof. vm_compute. reflexivity. Qed.

(* ---- the deciding instant (Ops/ComposeTagged.v, Ops/AggregatesTagged.v) ----------------------------------
   TAGGED composition: a two-stage pipeline emits, at each input position, what stage 2 emits when it is fed
   stage 1's output, every reaction of stage 2 carrying the position of the stage-1 notification that caused
   it ([exec_tagged]); for ARBITRARY input streams.  Forgetting the positions gives C06_composition. *)
Theorem C06_composition_tagged : forall A B C (m1 : mealy A B) (m2 : mealy B C) ins,
  exec (compose m1 m2) ins = exec_tagged m2 (exec m1 ins).
Proof. exact @compose_exec_tagged. Qed.
Print Assumptions C06_composition_tagged.
Theorem C06_tagged_run_forgets_to_run : forall B C (m2 : mealy B C) (ins : list (nat * ev B)),
  untag (exec_tagged m2 ins) = untag (exec m2 (untag ins)).
Proof. exact @exec_tagged_untag. Qed.
Print Assumptions C06_tagged_run_forgets_to_run.

(* "short-circuiting aggregates emit at the element that decides them": position j = the j-th input *)
Theorem C06_all_at_deciding_element : forall A (p : A -> bool) (xs : list A) t,
  exec (op_all (pure p)) (events xs t)
  = match first_failing p (indexed 1 xs) with
    | Some (j, _) => [(j, Next false); (j, Done)]
    | None => at_end (S (length xs)) t true
    end.
Proof. exact @all_tagged. Qed.
Print Assumptions C06_all_at_deciding_element.

Theorem C06_some_pred_at_deciding_element : forall A (p : A -> bool) (xs : list A) t,
  exec (op_some_pred (pure p)) (events xs t)
  = match find (fun kx => p (snd kx)) (indexed 1 xs) with
    | Some (j, _) => [(j, Next true); (j, Done)]
    | None => at_end (S (length xs)) t false
    end.
Proof. exact @some_pred_tagged. Qed.
Print Assumptions C06_some_pred_at_deciding_element.

Theorem C06_contains_at_deciding_element : forall A (eqb : A -> A -> bool) (v : A) (xs : list A) t,
  exec (op_contains (pure2 eqb) v) (events xs t)
  = match find (fun kx => eqb (snd kx) v) (indexed 1 xs) with
    | Some (j, _) => [(j, Next true); (j, Done)]
    | None => at_end (S (length xs)) t false
    end.
Proof. exact @contains_tagged. Qed.
Print Assumptions C06_contains_at_deciding_element.

Theorem C06_is_empty_at_first_element : forall A (xs : list A) t,
  exec op_is_empty (events xs t)
  = match xs with
    | _ :: _ => [(1%nat, Next false); (1%nat, Done)]
    | [] => at_end 1 t true
    end.
Proof. exact @is_empty_tagged. Qed.
Print Assumptions C06_is_empty_at_first_element.

(* single fails WHEN THE SECOND ELEMENT ARRIVES (position 2), whatever follows *)
Theorem C06_single_fails_at_second_element : forall A default (xs : list A) t,
  exec (op_single default) (events xs t)
  = match xs with
    | [] => match t with
            | TDone => match default with Some d => [(1%nat, Next d); (1%nat, Done)]
                                        | None => [(1%nat, Err EXN_NO_ELEMENTS)] end
            | TErr e => [(1%nat, Err e)]
            | TNever => []
            end
    | [x] => at_end 2 t x
    | _ :: _ :: _ => [(2%nat, Err EXN_MORE_THAN_ONE)]
    end.
Proof.
  intros *. destruct xs as [|x [|y r]].
  - destruct t; [destruct default| |]; reflexivity.
  - destruct t; reflexivity.
  - reflexivity.
Qed.
Print Assumptions C06_single_fails_at_second_element.

(* first(predicate) / first_or_default(predicate): the first element satisfying it, at its position *)
Theorem C06_first_pred_at_deciding_element : forall A (p : A -> bool) default (xs : list A) t,
  exec (op_first_pred (pure p) default) (events xs t)
  = match find (fun kx => p (snd kx)) (indexed 1 xs) with
    | Some (j, x) => [(j, Next x); (j, Done)]
    | None => match t with
              | TDone => match default with
                         | Some d => [(S (length xs), Next d); (S (length xs), Done)]
                         | None => [(S (length xs), Err EXN_NO_ELEMENTS)]
                         end
              | TErr e => [(S (length xs), Err e)]
              | TNever => []
              end
    end.
Proof.
  intros *. unfold op_first_pred. rewrite compose_exec_tagged, filter_spec, exec_tagged_first, find_filter.
  destruct (filter (fun kx => p (snd kx)) (indexed 1 xs)) as [|[j x] r]; reflexivity.
Qed.
Print Assumptions C06_first_pred_at_deciding_element.

(* sequence_equal(iterable): false at the first mismatching or surplus element, else decided at completion *)
Theorem C06_sequence_equal_iter_at_deciding_element : forall A eqb (second xs : list A) t,
  exec (op_sequence_equal_iter (pure2 eqb) second) (events xs t)
  = match se_mismatch_at eqb second xs 1 with
    | Some j => [(j, Next false); (j, Done)]
    | None => at_end (S (length xs)) t (match se_run eqb second xs with Some [] => true | _ => false end)
    end.
Proof.
  intros *. unfold exec. cbn -[exec_from]. apply sequence_equal_from_tagged.
Qed.
Print Assumptions C06_sequence_equal_iter_at_deciding_element.

(* ---- to_dict: nothing until the source completes, then { key(x): elem(x) } built by successive assignment
   (a later element with an equal key overwrites the value, the first key object stays), then completion *)
Theorem C06_to_dict : forall A K V (keq : K -> K -> bool) (key : A -> K) (el : A -> V) (xs : list A) t,
  untag (exec (op_to_dict keq (pure key) (pure el)) (events xs t))
  = match t with
    | TDone => [Next (fold_left (fun d x => dict_set keq d (key x) (el x)) xs []); Done]
    | TErr e => [Err e]
    | TNever => []
    end.
Proof.
  intros *. rewrite to_dict_tagged. destruct t; reflexivity.
Qed.
Print Assumptions C06_to_dict.
Theorem C06_to_dict_at_completion : forall A K V (keq : K -> K -> bool) (key : A -> K) (el : A -> V) (xs : list A) t,
  exec (op_to_dict keq (pure key) (pure el)) (events xs t)
  = at_end (S (length xs)) t (to_dict_list keq key el xs).
Proof. exact @to_dict_tagged. Qed.
Print Assumptions C06_to_dict_at_completion.
(* what the dictionary holds (key equality an equivalence): a lookup gives the value of the LAST element
   with that key, and nothing for a key no element has *)
Theorem C06_to_dict_lookup : forall A K V (keq : K -> K -> bool),
  (forall a b, keq a b = keq b a) -> (forall a b c, keq a b = true -> keq b c = true -> keq a c = true) ->
  forall (key : A -> K) (el : A -> V) (xs : list A) q,
  dict_get keq (to_dict_list keq key el xs) q = option_map el (find (fun x => keq (key x) q) (rev xs)).
Proof.
  intros * Hsym Htrans *. unfold to_dict_list. rewrite (dict_get_fold keq Hsym Htrans).
  destruct (find (fun x => keq (key x) q) (rev xs)); reflexivity.
Qed.
Print Assumptions C06_to_dict_lookup.

Example C06_witness_to_dict :
  untag (exec (op_to_dict Z.eqb (pure (fun x : Z => x mod 3)) (pure (fun x : Z => x * 10))) (events [1; 5; 4; 3] TDone))
  = [Next [(1, 40); (2, 50); (0, 30)]; Done].
Proof. vm_compute. reflexivity. Qed.
Example C06_witness_all_decided_early :
  exec (op_all (pure (fun x : Z => x <? 5))) (events [1; 2; 7; 3; 9] (TErr 4)) = [(3%nat, Next false); (3%nat, Done)]
  /\ exec (op_all (pure (fun x : Z => x <? 5))) (events [1; 2] TDone) = [(3%nat, Next true); (3%nat, Done)].
Proof. vm_compute. split; reflexivity. Qed.
