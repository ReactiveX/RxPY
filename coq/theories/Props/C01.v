(* C01 -- every subscriber sees a well-formed notification sequence.
   (a) the choke point: AutoDetachObserver, over ALL call forests (re-entrant
       calls, calls after the terminal, double terminals, raising callbacks,
       fail(), dispose at any point);
   (b) every operator machine and every pipeline (composition) of machines,
       on ARBITRARY input streams (sources that keep emitting after their
       terminal, terminate twice) and with arbitrary (also raising) callbacks:
       callbacks are parameters of the machines, the theorems hold for all of
       them;
   (c) the Observer base class and as_observer();
   (d) the subscribers served by the window/group runner;
   (e) the link between (a) and (b): [exec] is the AutoDetach model around the
       raw handlers. *)
From RxVerif Require Import Base.Prelude Ops.Machine Ops.MachineFacts Ops.ComposeFacts
  Core.AutoDetach Core.AutoDetachFacts Core.ObserverBase Core.ObserverBaseFacts.
From RxVerif Require Ops.MultiWin Ops.MultiWinFacts Ops.Windows Ops.MultiWinGrammar.
From RxVerif Require Import Core.ExecWrapped Ops.Elementwise.

Theorem C01_autodetach_grammar : forall A (h : list (call A)) (st : bool),
  wellformed (delivered (snd (run_calls st h))) = true.
Proof. exact @autodetach_grammar. Qed.
Print Assumptions C01_autodetach_grammar.

Theorem C01_autodetach_silent_once_stopped : forall A (h : list (call A)),
  delivered (snd (run_calls true h)) = [].
Proof. exact @autodetach_silent_once_stopped. Qed.
Print Assumptions C01_autodetach_silent_once_stopped.

Theorem C01_autodetach_no_call_after_terminal : forall A (h1 h2 : list (call A)),
  ended (delivered (snd (run_calls false h1))) = true ->
  delivered (snd (run_calls (fst (run_calls false h1)) h2)) = [].
Proof.
  intros A h1 h2 He. pose proof (good_run_calls h1 false) as G.
  destruct (run_calls false h1) as [st' es]. destruct G as (_ & _ & G3).
  cbn [fst snd] in *. rewrite (G3 He). apply autodetach_silent_once_stopped.
Qed.
Print Assumptions C01_autodetach_no_call_after_terminal.

Theorem C01_operator_grammar : forall A B (m : mealy A B) (ins : list (ev A)),
  wellformed (untag (exec m ins)) = true.
Proof. exact @exec_wellformed. Qed.
Print Assumptions C01_operator_grammar.

(* pipelines of any depth: a pipeline is a machine again *)
Fixpoint pipeline {A} (stages : list (mealy A A)) (first : mealy A A) : mealy A A :=
  match stages with
  | [] => first
  | m :: rest => pipeline rest (compose first m)
  end.

Theorem C01_pipeline_grammar : forall A (first : mealy A A) (stages : list (mealy A A)) (ins : list (ev A)),
  wellformed (untag (exec (pipeline stages first) ins)) = true.
Proof. intros. apply exec_wellformed. Qed.
Print Assumptions C01_pipeline_grammar.

Theorem C01_nothing_after_source_terminal : forall A B (m : mealy A B) xs s k (t : ev A) junk,
  is_terminal t = true ->
  exec_from m s k (map Next xs ++ t :: junk) = exec_from m s k (map Next xs ++ [t]).
Proof. exact @exec_from_ignores_after_terminal. Qed.
Print Assumptions C01_nothing_after_source_terminal.

(* (c) the Observer base class (observer/observer.py; base of Subject, ScheduledObserver, what users pass to
   subscribe()): the same statements over ALL call forests, and its relation to the wrapper: same stopped flag,
   same effects once the wrapper's subscription disposal is erased *)
Theorem C01_observer_base_grammar : forall A (h : list (call A)) (st : bool),
  wellformed (delivered (snd (ob_run_calls st h))) = true.
Proof. intros A h st. rewrite ob_agrees. cbn [snd]. rewrite delivered_no_subdispose. apply autodetach_grammar. Qed.
Print Assumptions C01_observer_base_grammar.

Theorem C01_observer_base_silent_once_stopped : forall A (h : list (call A)),
  delivered (snd (ob_run_calls true h)) = [].
Proof.
  intros A h. rewrite ob_agrees. cbn [snd]. rewrite delivered_no_subdispose. apply autodetach_silent_once_stopped.
Qed.
Print Assumptions C01_observer_base_silent_once_stopped.

Theorem C01_observer_base_no_call_after_terminal : forall A (h1 h2 : list (call A)),
  ended (delivered (snd (ob_run_calls false h1))) = true ->
  delivered (snd (ob_run_calls (fst (ob_run_calls false h1)) h2)) = [].
Proof.
  intros A h1 h2. rewrite !ob_agrees. cbn [fst snd]. rewrite !delivered_no_subdispose.
  apply C01_autodetach_no_call_after_terminal.
Qed.
Print Assumptions C01_observer_base_no_call_after_terminal.

Theorem C01_observer_base_is_autodetach_without_subscription : forall A (h : list (call A)) (st : bool),
  ob_run_calls st h = (fst (run_calls st h), no_subdispose (snd (run_calls st h))).
Proof. exact @ob_agrees. Qed.
Print Assumptions C01_observer_base_is_autodetach_without_subscription.

(* as_observer(): a second Observer in front of the first (Core/ObserverBase.v:lay_run_calls, written from
   `return Observer(self.on_next, self.on_error, self.on_completed)`); with every call made on the view it is
   one observer again *)
Theorem C01_as_observer_view_is_an_observer : forall A (h : list (call A)),
  snd (lay_run_calls false false h) = snd (ob_run_calls false h).
Proof. intros A h. exact (proj2 (proj2 (lay_ok_run_calls h false false (fun H => H)))). Qed.
Print Assumptions C01_as_observer_view_is_an_observer.

(* non-vacuity: a re-entrant history -- on_next whose callback completes and
   then emits again; a second on_completed; on_next after everything *)
Example C01_witness :
  delivered (snd (run_calls false
    [Call (KNext 1) [Call KCompleted [Call (KNext 2) [] false] true; Call (KNext 3) [] false] true;
     Call KCompleted [] false; Call (KNext 4) [] false]))
  = [Next 1; Done].
Proof. vm_compute. reflexivity. Qed.

(* the same history on the Observer base class; on_error whose handler re-enters with on_next and on_completed *)
Example C01_observer_base_witness :
  delivered (snd (ob_run_calls false
    [Call (KNext 1) [Call KCompleted [Call (KNext 2) [] false] true; Call (KNext 3) [] false] true;
     Call KCompleted [] false; Call (KNext 4) [] false]))
  = [Next 1; Done]
  /\ snd (ob_run_calls false [Call (KError 5) [Call (KNext 2) [] false; Call KCompleted [] false] true;
                             Call (KFail 6) [] false])
     = [Deliver (Err 5); Raised 77; FailReturned false].
Proof. vm_compute. split; reflexivity. Qed.

(* (d) subscribers served by the window/group runner (Ops/MultiWin.v; windows, buffers, groups), for EVERY
   machine, EVERY subscription policy and EVERY input sequence (Ops/MultiWinGrammar.v).
   The OUTER subscriber -- plain elements and handed observables are its on_next calls: *)
Theorem C01_window_outer_grammar :
  forall A W B (imm : nat -> bool) (m : MultiWin.machine A W B) (ins : list (Z * MultiWin.inp A)),
  wellformed (MultiWinGrammar.outer_view (fst (MultiWin.run imm m ins))) = true.
Proof. exact @MultiWinGrammar.run_outer_grammar. Qed.
Print Assumptions C01_window_outer_grammar.
Theorem C01_window_outer_elements_grammar :
  forall A W B (imm : nat -> bool) (m : MultiWin.machine A W B) (ins : list (Z * MultiWin.inp A)),
  wellformed (MultiWin.emitted (fst (MultiWin.run imm m ins))) = true.
Proof. exact @MultiWinGrammar.run_emitted_grammar. Qed.
Print Assumptions C01_window_outer_elements_grammar.

(* A handed window / group g.  [wevents g] is the MERGED record of all subscriptions of g (a notification is
   logged once per live subscription; a subscription made after g's terminal is answered with that terminal).
   With at most one subscription of g attempted during the run -- made inside the on_next that hands g (policy
   imm) or by an explicit ISubWin g -- the record is what that one subscriber sees, and it is in the grammar: *)
Theorem C01_window_subscribers_grammar :
  forall A W B (g : nat) (imm : nat -> bool) (m : MultiWin.machine A W B) (ins : list (Z * MultiWin.inp A)),
  (MultiWinGrammar.attempts g imm (fst (MultiWin.run imm m ins)) ins <= 1)%nat ->
  wellformed (MultiWin.wevents g (fst (MultiWin.run imm m ins))) = true.
Proof. exact @MultiWinGrammar.run_window_single_subscriber_grammar. Qed.
Print Assumptions C01_window_subscribers_grammar.
(* with any number of subscriptions: elements, then copies of ONE terminal, at most one copy per attempted
   subscription -- no element after a terminal, no two different terminals *)
Theorem C01_window_merged_record_grammar :
  forall A W B (g : nat) (imm : nat -> bool) (m : MultiWin.machine A W B) (ins : list (Z * MultiWin.inp A)),
  exists ns t n,
    MultiWin.wevents g (fst (MultiWin.run imm m ins)) = ns ++ repeat t n
    /\ Forall (fun e => is_terminal e = false) ns /\ is_terminal t = true
    /\ (n <= MultiWinGrammar.attempts g imm (fst (MultiWin.run imm m ins)) ins)%nat.
Proof. exact @MultiWinGrammar.run_window_grammar. Qed.
Print Assumptions C01_window_merged_record_grammar.
(* the unconditional statement "wevents g is well-formed" is FALSE of the model: two subscriptions of one
   window, or one made after its terminal, put the terminal twice into the merged record (each subscriber's
   own sequence is well-formed, in the model and in the library) *)
Theorem C01_window_grammar_all_subscriptions_refuted :
  ~ (forall (imm : nat -> bool) (m : MultiWin.machine Z Z unit) ins g,
       wellformed (MultiWin.wevents g (fst (MultiWin.run imm m ins))) = true).
Proof. exact MultiWinGrammar.window_grammar_all_subscriptions_refuted. Qed.
Print Assumptions C01_window_grammar_all_subscriptions_refuted.

(* witnesses: overlapping count windows, every window subscribed when handed, a source that errors and then
   keeps emitting: one subscription of window 0 was attempted (the hypothesis above), its record and the
   outer's are in the grammar; with a second subscription of window 0 the merged record is not *)
Example C01_window_witness :
  let ins := [(0, MultiWin.ISrc 0%nat (Next 1)); (0, MultiWin.ISrc 0%nat (Next 2));
              (0, MultiWin.ISrc 0%nat (Err 3)); (0, MultiWin.ISrc 0%nat (Next 4))] in
  let tr := fst (MultiWin.run MultiWin.all_imm (Windows.x_window_count (A:=Z) (B:=unit) 2 1) ins) in
  MultiWinGrammar.attempts 0%nat MultiWin.all_imm tr ins = 1%nat
  /\ MultiWin.wevents 0 tr = [Next 1; Next 2; Done]
  /\ MultiWin.wevents 2 tr = [Err 3]
  /\ MultiWinGrammar.outer_view tr = [Next None; Next None; Next None; Err 3].
Proof. vm_compute. auto. Qed.
Example C01_window_witness_two_subscriptions :
  MultiWin.wevents 0 (fst (MultiWin.run MultiWin.all_imm (Windows.x_window_count (A:=Z) (B:=unit) 1 1)
                            [(0, MultiWin.ISrc 0%nat (Next 1)); (0, MultiWin.ISubWin 0%nat)]))
  = [Next 1; Done; Done].
Proof. vm_compute. reflexivity. Qed.

(* (e) the link between (a) and (b): [exec] IS the AutoDetach model around the raw handlers (the
   definitions are explained at the head of Core/ExecWrapped.v).  For EVERY machine and EVERY input list:
   the subscriber of [exec] sees what the downstream wrapper lets through of the raw answers to what the
   wrapper around the handlers lets through of the source.  C01_operator_grammar above holds BY CONSTRUCTION
   of [exec]; through this theorem the same statement follows from C01_autodetach_grammar
   (C01_operator_grammar_from_autodetach below). *)
Theorem C01_exec_is_wrapped_raw : forall A B (m : mealy A B) (ins : list (ev A)),
  delivered (snd (run_calls false
    (out_calls (raw m (delivered (snd (run_calls false (in_calls ins))))))))
  = untag (exec m ins).
Proof. exact @exec_is_wrapped_raw. Qed.
Print Assumptions C01_exec_is_wrapped_raw.
(* the two wrappers separately *)
Theorem C01_exec_behind_input_wrapper : forall A B (m : mealy A B) (ins : list (ev A)),
  exec m ins = exec m (delivered (snd (run_calls false (in_calls ins)))).
Proof.
  intros A B m ins. unfold in_calls. rewrite (proj2 (wrapper_on_flat_calls ins)).
  unfold exec. destruct (m_pre m) as [outs f]. destruct (live f); [|reflexivity].
  f_equal. apply exec_from_upto_term.
Qed.
Print Assumptions C01_exec_behind_input_wrapper.
Theorem C01_exec_is_output_wrapper_on_raw : forall A B (m : mealy A B) (ins : list (ev A)),
  upto_term ins = ins ->
  delivered (snd (run_calls false (out_calls (raw m ins)))) = untag (exec m ins).
Proof.
  intros A B m ins H. rewrite <- (exec_is_wrapped_raw m ins). unfold in_calls.
  rewrite (proj2 (wrapper_on_flat_calls ins)), H. reflexivity.
Qed.
Print Assumptions C01_exec_is_output_wrapper_on_raw.
(* the grammar of exec, derived from the AutoDetach theorem (not from the shape of exec) *)
Theorem C01_operator_grammar_from_autodetach : forall A B (m : mealy A B) (ins : list (ev A)),
  wellformed (untag (exec m ins)) = true.
Proof. intros A B m ins. rewrite <- exec_is_wrapped_raw. apply autodetach_grammar. Qed.
Print Assumptions C01_operator_grammar_from_autodetach.
(* witness that the wrappers do something: take(5) on a source that completes and then goes on -- the raw
   handlers answer the late element and complete twice; behind the wrappers the subscriber sees Next 1, Done *)
Example C01_exec_witness_raw_vs_wrapped :
  raw (op_take 5) [Next 1; Done; Next 4; Done] = [([], Cont); ([1], Cont); ([], Complete); ([4], Cont); ([], Complete)]
  /\ untag (exec (op_take 5) [Next 1; Done; Next 4; Done]) = [Next 1; Done]
  /\ upto_term [Next 1; Done] = [Next 1; @Done Z].
Proof. vm_compute. auto. Qed.
