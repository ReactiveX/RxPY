(* C08 -- falsy values are ordinary elements.
   Formal content: the operators below are natural in the element type.  For
   EVERY relabelling g : A -> A' of the elements (in particular one that maps
   None, 0, False, "" or () to any other value, or several values to one) and
   EVERY input stream (also non-conforming), running the operator on the
   relabelled input gives the relabelled output, at the same instants.  Hence
   these operators cannot drop, buffer or pass on an element value differently
   from any other (operators that count or compare elements are not among
   them).  (That the machines are the code is the K2 correspondence, run on a
   pool headed by the falsy values, and a metamorphic oracle.) *)
From RxVerif Require Import Base.Prelude Ops.Machine Ops.Elementwise Ops.Aggregates Ops.Naturality.

Theorem C08_naturality_generic :
  forall A A' B B' (g : A -> A') (h : B -> B') (m : mealy A B) (m' : mealy A' B'),
    msim g h m m' -> forall ins, exec m' (map (ev_map g) ins) = tag_map h (exec m ins).
Proof. intros A A' B B' g h m m' S ins. exact (sim_exec g h m m' S ins). Qed.
Print Assumptions C08_naturality_generic.

Theorem C08_take : forall A A' (g : A -> A') c ins,
  exec (op_take c) (map (ev_map g) ins) = tag_map g (exec (op_take c) ins).
Proof. intros. exact (sim_exec _ _ _ _ (sim_take g c) ins). Qed.
Print Assumptions C08_take.

Theorem C08_skip : forall A A' (g : A -> A') c ins,
  exec (op_skip c) (map (ev_map g) ins) = tag_map g (exec (op_skip c) ins).
Proof. intros. exact (sim_exec _ _ _ _ (sim_skip g c) ins). Qed.
Print Assumptions C08_skip.

Theorem C08_take_last : forall A A' (g : A -> A') c ins,
  exec (op_take_last c) (map (ev_map g) ins) = tag_map g (exec (op_take_last c) ins).
Proof. intros. exact (sim_exec _ _ _ _ (sim_take_last g c) ins). Qed.
Print Assumptions C08_take_last.

Theorem C08_skip_last : forall A A' (g : A -> A') c ins,
  exec (op_skip_last c) (map (ev_map g) ins) = tag_map g (exec (op_skip_last c) ins).
Proof. intros. exact (sim_exec _ _ _ _ (sim_skip_last g c) ins). Qed.
Print Assumptions C08_skip_last.

Theorem C08_take_last_buffer : forall A A' (g : A -> A') c ins,
  exec (op_take_last_buffer c) (map (ev_map g) ins) = tag_map (map g) (exec (op_take_last_buffer c) ins).
Proof. intros. exact (sim_exec _ _ _ _ (sim_take_last_buffer g c) ins). Qed.
Print Assumptions C08_take_last_buffer.

Theorem C08_pairwise : forall A A' (g : A -> A') ins,
  exec op_pairwise (map (ev_map g) ins)
  = tag_map (fun p => (g (fst p), g (snd p))) (exec op_pairwise ins).
Proof. intros. exact (sim_exec _ _ _ _ (sim_pairwise g) ins). Qed.
Print Assumptions C08_pairwise.

Theorem C08_start_with : forall A A' (g : A -> A') args ins,
  exec (op_start_with (map g args)) (map (ev_map g) ins) = tag_map g (exec (op_start_with args) ins).
Proof. intros. exact (sim_exec _ _ _ _ (sim_start_with g args) ins). Qed.
Print Assumptions C08_start_with.

Theorem C08_default_if_empty : forall A A' (g : A -> A') d ins,
  exec (op_default_if_empty (g d)) (map (ev_map g) ins) = tag_map g (exec (op_default_if_empty d) ins).
Proof. intros. exact (sim_exec _ _ _ _ (sim_default_if_empty g d) ins). Qed.
Print Assumptions C08_default_if_empty.

Theorem C08_element_at : forall A A' (g : A -> A') i d exn ins,
  exec (op_element_at i (option_map g d) exn) (map (ev_map g) ins)
  = tag_map g (exec (op_element_at i d exn) ins).
Proof. intros. exact (sim_exec _ _ _ _ (sim_element_at g i d exn) ins). Qed.
Print Assumptions C08_element_at.

Theorem C08_first : forall A A' (g : A -> A') d ins,
  exec (op_first (option_map g d)) (map (ev_map g) ins) = tag_map g (exec (op_first d) ins).
Proof. intros. exact (sim_exec _ _ _ _ (sim_first g d) ins). Qed.
Print Assumptions C08_first.

Theorem C08_last : forall A A' (g : A -> A') d ins,
  exec (op_last (option_map g d)) (map (ev_map g) ins) = tag_map g (exec (op_last d) ins).
Proof. intros. exact (sim_exec _ _ _ _ (sim_last g d) ins). Qed.
Print Assumptions C08_last.

Theorem C08_single : forall A A' (g : A -> A') d ins,
  exec (op_single (option_map g d)) (map (ev_map g) ins) = tag_map g (exec (op_single d) ins).
Proof. intros. exact (sim_exec _ _ _ _ (sim_single g d) ins). Qed.
Print Assumptions C08_single.

Theorem C08_to_list : forall A A' (g : A -> A') ins,
  exec op_to_list (map (ev_map g) ins) = tag_map (map g) (exec op_to_list ins).
Proof. intros. exact (sim_exec _ _ _ _ (sim_to_list g) ins). Qed.
Print Assumptions C08_to_list.

Theorem C08_some : forall A A' (g : A -> A') ins,
  exec op_some (map (ev_map g) ins) = tag_map (fun b : bool => b) (exec (@op_some A) ins).
Proof. intros. exact (sim_exec _ _ _ _ (sim_some g) ins). Qed.
Print Assumptions C08_some.

Theorem C08_materialize : forall A A' (g : A -> A') ins,
  exec op_materialize (map (ev_map g) ins) = tag_map (ev_map g) (exec op_materialize ins).
Proof. intros. exact (sim_exec _ _ _ _ (sim_materialize g) ins). Qed.
Print Assumptions C08_materialize.

Theorem C08_ignore_elements : forall A A' (g : A -> A') ins,
  exec op_ignore_elements (map (ev_map g) ins) = tag_map g (exec op_ignore_elements ins).
Proof. intros. exact (sim_exec _ _ _ _ (sim_ignore_elements g) ins). Qed.
Print Assumptions C08_ignore_elements.

(* callbacks only ever see the element itself *)
Theorem C08_map : forall A A' B (g : A -> A') (f' : A' -> res B) ins,
  exec (op_map f') (map (ev_map g) ins) = tag_map (fun b => b) (exec (op_map (fun x => f' (g x))) ins).
Proof. intros. exact (sim_exec _ _ _ _ (sim_map g f') ins). Qed.
Print Assumptions C08_map.

Theorem C08_filter : forall A A' (g : A -> A') (p' : A' -> res bool) ins,
  exec (op_filter p') (map (ev_map g) ins) = tag_map g (exec (op_filter (fun x => p' (g x))) ins).
Proof. intros. exact (sim_exec _ _ _ _ (sim_filter g p') ins). Qed.
Print Assumptions C08_filter.

(* non-vacuity: 0 stands for None; skip_last keeps it *)
Example C08_witness :
  untag (exec (op_skip_last 1) (events [0; 5; 6] TDone)) = [Next 0; Next 5; Done].
Proof. vm_compute. reflexivity. Qed.
