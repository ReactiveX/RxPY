(* C10 -- sequential composition runs one source at a time, in order.
   Machines: Ops/Combinators.v (x_concat, x_catch, x_retry, x_repeat, x_oern,
   x_while_do, x_do_while, x_catch_handler; x_concat_lazy, x_catch_lazy, x_oern_f for
   lazy iterables / for_in / factory arguments), run by the runner of Ops/Multi.v. *)
From RxVerif Require Import Base.Prelude Ops.Machine Ops.Multi Ops.MultiFacts Ops.RunLemmas
  Ops.Combinators Ops.SequentialFacts Ops.CatchFacts Ops.RepeatFacts Ops.LazySeqFacts
  Ops.SequentialMore.

(* for EVERY input sequence (arbitrary interleaving of all sources, conforming
   or not), at every moment at most one source is subscribed *)
Theorem C10_concat_one_source_at_a_time : forall A n (ins : list (Z * inp A)),
  (length (r_live (snd (run (x_concat n) ins))) <= 1)%nat.
Proof. intros A n. apply sequential_one_at_a_time, concat_sequential. Qed.
Print Assumptions C10_concat_one_source_at_a_time.

(* the output is the concatenation of the consumed sources' elements; an error
   is passed on and ends the sequence; after the last source: completion *)
Theorem C10_concat_closed_form : forall A (srcs : list (list A * term)),
  emitted (fst (run (x_concat (length srcs)) (seq_env_from 0 srcs))) = concat_spec srcs.
Proof. exact @concat_closed_form. Qed.
Print Assumptions C10_concat_closed_form.

(* counts, for EVERY input sequence *)
Theorem C10_retry_subscribes_at_most_n : forall A c (ins : list (Z * inp A)),
  (count_subs (map snd (fst (run (x_retry (A:=A) (Some c)) ins))) <= c)%nat.
Proof. exact @retry_subscribes_at_most. Qed.
Print Assumptions C10_retry_subscribes_at_most_n.

Theorem C10_repeat_subscribes_at_most_n : forall A c (ins : list (Z * inp A)),
  (count_subs (map snd (fst (run (x_repeat (A:=A) (Some c)) ins))) <= c)%nat.
Proof. exact @repeat_subscribes_at_most. Qed.
Print Assumptions C10_repeat_subscribes_at_most_n.

(* a new subscription is made only in the handler of the termination the
   operator continues on.  (Proofs: by cases on the input; cbn computes the handler's commands, which
   hold no CSub -- the hypothesis reads 0 < 0, lia -- except in the case that is left.) *)
Theorem C10_concat_next_only_on_completion : forall A n cur now (i : inp A),
  (0 < count_csub (snd (fst (x_step (x_concat n) cur now i))))%nat -> exists k, i = ISrc k Done.
Proof. intros A n cur now [k [x|e|]|tag|]; cbn; try lia. intros _. now exists k. Qed.
Theorem C10_catch_next_only_on_error : forall A n st now (i : inp A),
  (0 < count_csub (snd (fst (x_step (x_catch n) st now i))))%nat -> exists k e, i = ISrc k (Err e).
Proof. intros A n [cur last] now [k [x|e|]|tag|]; cbn; try lia. intros _. now exists k, e. Qed.
Theorem C10_retry_next_only_on_error : forall A c used now (i : inp A),
  (0 < count_csub (snd (fst (x_step (x_retry c) used now i))))%nat -> exists k e, i = ISrc k (Err e).
Proof. intros A c used now [k [x|e|]|tag|]; cbn; try lia. intros _. now exists k, e. Qed.
Theorem C10_repeat_next_only_on_completion : forall A c used now (i : inp A),
  (0 < count_csub (snd (fst (x_step (x_repeat c) used now i))))%nat -> exists k, i = ISrc k Done.
Proof. intros A c used now [k [x|e|]|tag|]; cbn; try lia. intros _. now exists k. Qed.
Theorem C10_oern_next_only_on_termination : forall A n cur now (i : inp A),
  (0 < count_csub (snd (fst (x_step (x_oern n) cur now i))))%nat ->
  exists k e, i = ISrc k e /\ is_terminal e = true.
Proof.
  intros A n cur now [k [x|e|]|tag|]; cbn; try lia; intros _.
  - exists k, (Err e). auto.
  - exists k, Done. auto.
Qed.
Print Assumptions C10_concat_next_only_on_completion.
Print Assumptions C10_catch_next_only_on_error.
Print Assumptions C10_retry_next_only_on_error.
Print Assumptions C10_repeat_next_only_on_completion.
Print Assumptions C10_oern_next_only_on_termination.

(* catch over any number of sources, in the sequential environment: the elements
   of the consumed sources up to the first one that completes (completion passed
   on) or never terminates; a failing source hands over to the next one, and only
   the LAST source's error is passed on *)
Theorem C10_catch_closed_form : forall A (srcs : list (list A * term)),
  emitted (fst (run (x_catch (length srcs)) (seq_env_from 0 srcs))) = catch_spec srcs.
Proof. exact @catch_closed_form. Qed.
Print Assumptions C10_catch_closed_form.

(* on_error_resume_next: every source is consumed to its end whichever way it
   terminates; completion after the last one, never an error *)
Theorem C10_oern_closed_form : forall A (srcs : list (list A * term)),
  emitted (fst (run (x_oern (length srcs)) (seq_env_from 0 srcs))) = oern_spec srcs.
Proof. exact @oern_closed_form. Qed.
Print Assumptions C10_oern_closed_form.

(* repeat(count) / retry(count) over the successive runs of their source (sequential environment):
   the elements of every run; repeat goes on after a completed run while the count allows and
   then completes, an error ends it; retry goes on after a failed run while the count allows and
   then passes the error on, a completed run completes it *)
Theorem C10_repeat_closed_form : forall A count (runs : list (list A * term)),
  emitted (fst (run (x_repeat count) (runs_env runs)))
  = match count with Some O => [Done] | _ => repeat_spec count 1 runs end.
Proof. exact @repeat_closed_form. Qed.
Print Assumptions C10_repeat_closed_form.
Theorem C10_retry_closed_form : forall A count (runs : list (list A * term)),
  emitted (fst (run (x_retry count) (runs_env runs)))
  = match count with Some O => [Done] | _ => retry_spec count 1 runs end.
Proof. exact @retry_closed_form. Qed.
Print Assumptions C10_retry_closed_form.
(* repeat(n) over completing runs: exactly the first n runs, then completion *)
Theorem C10_repeat_n_completing : forall A (n : nat) (runs : list (list A)), (n <= length runs)%nat -> (0 < n)%nat ->
  repeat_spec (Some n) 1 (map (fun xs => (xs, TDone)) runs)
  = map Next (concat (firstn n runs)) ++ [Done].
Proof. exact @repeat_n_completing. Qed.
Print Assumptions C10_repeat_n_completing.

Example C10_witness_retry :
  emitted (fst (run (x_retry (Some 2%nat)) (runs_env [([1], TErr 7); ([2], TErr 8); ([3], TDone)])))
  = [Next 1; Next 2; Err 8].
Proof. vm_compute. reflexivity. Qed.

Example C10_witness_catch :
  emitted (fst (run (x_catch 3) (seq_env_from 0 [([1; 2], TErr 7); ([3], TDone); ([4], TDone)])))
  = [Next 1; Next 2; Next 3; Done].
Proof. vm_compute. reflexivity. Qed.
Example C10_witness_oern :
  emitted (fst (run (x_oern 2) (seq_env_from 0 [([1], TErr 7); ([2], TErr 8)]))) = [Next 1; Next 2; Done].
Proof. vm_compute. reflexivity. Qed.

Example C10_witness_concat :
  emitted (fst (run (x_concat 2) (seq_env_from 0 [([1; 2], TDone); ([3], TDone)])))
  = [Next 1; Next 2; Next 3; Done].
Proof. vm_compute. reflexivity. Qed.
Example C10_witness_repeat_exactly_n :
  count_subs (map snd (fst (run (x_repeat (Some 3%nat))
     [(0, ISrc 0%nat (Next 5)); (0, ISrc 0%nat Done); (0, ISrc 0%nat Done); (0, ISrc 0%nat Done);
      (0, ISrc 0%nat (Next 6))]))) = 3%nat.
Proof. vm_compute. reflexivity. Qed.

(* ---- lazy iterables (concat_with_iterable / catch_with_iterable of a generator,
   for_in) and factory arguments of on_error_resume_next -------------------- *)
(* for_in / concat over a lazy iterable: for EVERY input sequence and EVERY mapper
   (raising or not) at most one source is subscribed at any moment *)
Theorem C10_for_in_one_source_at_a_time : forall A n produce tail (ins : list (Z * inp A)),
  (length (r_live (snd (run (x_concat_lazy n produce tail) ins))) <= 1)%nat.
Proof. exact @lazy_one_at_a_time. Qed.
Print Assumptions C10_for_in_one_source_at_a_time.

(* the lazy iterable is advanced (effect) and the next source subscribed ONLY in
   the handler of a completion (concat, for_in) resp. of an error (catch) *)
Theorem C10_for_in_mapper_called_only_on_completion : forall A n produce tail cur now (i : inp A),
  touches (snd (fst (x_step (x_concat_lazy n produce tail) cur now i))) = true -> exists k, i = ISrc k Done.
Proof.
  intros A n produce tail cur now i. cbn [x_step x_concat_lazy]. destruct i as [k [x|e|]|tag|]; cbn; try discriminate.
  intros _. now exists k.
Qed.
Print Assumptions C10_for_in_mapper_called_only_on_completion.
Theorem C10_catch_iterable_advanced_only_on_error : forall A n produce tail cur now (i : inp A),
  touches (snd (fst (x_step (x_catch_lazy n produce tail) cur now i))) = true -> exists k e, i = ISrc k (Err e).
Proof.
  intros A n produce tail cur now i. cbn [x_step x_catch_lazy]. destruct i as [k [x|e|]|tag|]; cbn; try discriminate.
  intros _. now exists k, e.
Qed.
Print Assumptions C10_catch_iterable_advanced_only_on_error.

(* with a production that never raises, erasing the iterable's side effects from
   the trace gives exactly the trace of concat / catch over the list of the same
   sources, for EVERY input sequence (so what is proved above about the traces of x_concat /
   x_catch can be carried over to the erased traces of the lazy variants; the carried-over
   statements themselves are not spelled out here) *)
Theorem C10_concat_lazy_iterable_same_behaviour : forall A n tail (ins : list (Z * inp A)),
  erase (fst (run (x_concat_lazy n (fun _ => Ok tt) tail) ins)) = fst (run (x_concat n) ins)
  /\ snd (run (x_concat_lazy n (fun _ => Ok tt) tail) ins) = snd (run (x_concat n) ins).
Proof. exact @concat_lazy_erases. Qed.
Print Assumptions C10_concat_lazy_iterable_same_behaviour.
Theorem C10_catch_lazy_iterable_same_behaviour : forall A n tail (ins : list (Z * inp A)),
  erase (fst (run (x_catch_lazy n (fun _ => Ok tt) tail) ins)) = fst (run (x_catch n) ins)
  /\ snd (run (x_catch_lazy n (fun _ => Ok tt) tail) ins) = snd (run (x_catch n) ins).
Proof. exact @catch_lazy_erases. Qed.
Print Assumptions C10_catch_lazy_iterable_same_behaviour.

(* on_error_resume_next with factories: same boundary behaviour as with plain
   sources, and a factory is called only when the previous source terminates,
   with that source's error (code e) or None (code 0) *)
Theorem C10_oern_factories_same_behaviour : forall A n fact (ins : list (Z * inp A)),
  erase (fst (run (x_oern_f n fact) ins)) = fst (run (x_oern n) ins)
  /\ snd (run (x_oern_f n fact) ins) = snd (run (x_oern n) ins).
Proof. exact @oern_factories_erase. Qed.
Print Assumptions C10_oern_factories_same_behaviour.
Theorem C10_oern_factory_argument : forall A n fact cur now (i : inp A) z,
  In (CEffect z) (snd (fst (x_step (x_oern_f n fact) cur now i))) ->
  exists k t, i = ISrc k t /\ is_terminal t = true /\ fact (S cur) = true /\
              z = 1000 * Z.of_nat (S cur) + match t with Err e => e | _ => 0 end.
Proof. exact @oern_factory_argument. Qed.
Print Assumptions C10_oern_factory_argument.

Example C10_witness_for_in_lazy :
  fst (run (x_concat_lazy (A:=Z) 2 (fun _ => Ok tt) false) [(0, ISrc 0%nat (Next 1)); (0, ISrc 0%nat Done); (0, ISrc 1%nat Done)])
  = [(0%nat, OEffect 0); (0%nat, OSub 0%nat); (1%nat, OEmit (Next 1)); (2%nat, OEffect 1); (2%nat, OSub 1%nat);
     (2%nat, OUnsub 0%nat); (3%nat, OUnsub 1%nat); (3%nat, OEmit Done)].
Proof. vm_compute. reflexivity. Qed.
Example C10_witness_for_in_mapper_raises :
  emitted (fst (run (x_concat_lazy (A:=Z) 2 (fun j => match j with O => Ok tt | _ => Raise 63 end) false)
                  [(0, ISrc 0%nat (Next 1)); (0, ISrc 0%nat Done)])) = [Next 1; Err 63].
Proof. vm_compute. reflexivity. Qed.
Example C10_witness_oern_factory :
  fst (run (x_oern_f (A:=Z) 2 (fun _ => true)) [(0, ISrc 0%nat (Err 12))])
  = [(0%nat, OEffect 0); (0%nat, OSub 0%nat); (1%nat, OEffect 1012); (1%nat, OSub 1%nat); (1%nat, OUnsub 0%nat)].
Proof. vm_compute. reflexivity. Qed.

(* ---- one source at a time for EVERY sequential operator ---------------------- *)
(* for EVERY input sequence (arbitrary interleaving of all sources, conforming or
   not; every prefix is an input sequence too, so: after every input) at most one
   source subscription is live under catch, on_error_resume_next, retry, repeat,
   while_do, do_while and catch(handler).  Inside the handler of the termination
   that makes the operator move on, the next subscription is opened BEFORE the
   terminated one is detached (retry/repeat: source 0 twice), as in the
   implementation; the statement is about the state between two inputs. *)
Theorem C10_all_one_source_at_a_time : forall A,
  (forall n (ins : list (Z * inp A)), (length (r_live (snd (run (x_catch n) ins))) <= 1)%nat) /\
  (forall n (ins : list (Z * inp A)), (length (r_live (snd (run (x_oern n) ins))) <= 1)%nat) /\
  (forall c (ins : list (Z * inp A)), (length (r_live (snd (run (x_retry c) ins))) <= 1)%nat) /\
  (forall c (ins : list (Z * inp A)), (length (r_live (snd (run (x_repeat c) ins))) <= 1)%nat) /\
  (forall cond (ins : list (Z * inp A)), (length (r_live (snd (run (x_while_do cond) ins))) <= 1)%nat) /\
  (forall cond (ins : list (Z * inp A)), (length (r_live (snd (run (x_do_while cond) ins))) <= 1)%nat) /\
  (forall h (ins : list (Z * inp A)), (length (r_live (snd (run (x_catch_handler h) ins))) <= 1)%nat).
Proof.
  intros A. repeat split; intros; apply sequential_one_at_a_time;
    auto using catch_sequential, oern_sequential, retry_sequential, repeat_sequential, while_do_sequential,
      do_while_sequential, catch_handler_sequential.
Qed.
Print Assumptions C10_all_one_source_at_a_time.

(* the generic form: ANY machine whose handlers answer with nothing, one element, or
   -- only for a source's terminal notification -- one subscription *)
Theorem C10_sequential_one_source_at_a_time : forall A B (m : machine A B), sequential m ->
  forall ins : list (Z * inp A), (length (r_live (snd (run m ins))) <= 1)%nat.
Proof. exact @sequential_one_at_a_time. Qed.
Print Assumptions C10_sequential_one_source_at_a_time.

(* ---- repeat(n) subscribes EXACTLY n times ------------------------------------ *)
(* over runs of the source that all complete: one subscription at subscribe() and one
   more at each completion while the count allows *)
Theorem C10_repeat_subscription_count : forall A (n : nat) (runs : list (list A)),
  count_subs (map snd (fst (run (x_repeat (Some n)) (runs_env (map (fun xs => (xs, TDone)) runs)))))
  = Nat.min n (S (length runs)).
Proof. exact @repeat_subscription_count. Qed.
Print Assumptions C10_repeat_subscription_count.
Theorem C10_repeat_subscribes_exactly_n : forall A (n : nat) (runs : list (list A)),
  (0 < n)%nat -> (n <= length runs)%nat ->
  count_subs (map snd (fst (run (x_repeat (Some n)) (runs_env (map (fun xs => (xs, TDone)) runs))))) = n.
Proof. intros A n runs _ Hl. rewrite C10_repeat_subscription_count. lia. Qed.
Print Assumptions C10_repeat_subscribes_exactly_n.
Example C10_witness_repeat_exactly_n_hyps :
  (0 < 2)%nat /\ (2 <= length [[1]; [2; 3]; [4]])%nat /\
  fst (run (x_repeat (Some 2%nat)) (runs_env (map (fun xs => (xs, TDone)) [[1]; [2; 3]; [4]])))
  = [(0%nat, OSub 0%nat); (1%nat, OEmit (Next 1)); (2%nat, OSub 0%nat); (2%nat, OUnsub 0%nat);
     (3%nat, OEmit (Next 2)); (4%nat, OEmit (Next 3)); (5%nat, OUnsub 0%nat); (5%nat, OEmit Done)].
Proof. vm_compute. repeat split; repeat constructor. Qed.

(* ---- while_do / do_while: closed forms (sequential environment) --------------- *)
(* over the successive runs of the source: every run's elements; after a completed run
   the condition is evaluated (the j-th evaluation): true = the next run, false =
   completion, raising = that error; an error of the source is passed on.  while_do
   evaluates the condition before the first subscription, do_while after the first run. *)
Theorem C10_while_do_closed_form : forall A cond (runs : list (list A * term)),
  emitted (fst (run (x_while_do cond) (runs_env runs)))
  = match cond 0%nat with
    | Ok true => while_spec cond 1%nat runs
    | Ok false => [Done]
    | Raise e => [Err e]
    end.
Proof. exact @while_do_closed_form. Qed.
Print Assumptions C10_while_do_closed_form.
Theorem C10_do_while_closed_form : forall A cond (runs : list (list A * term)),
  emitted (fst (run (x_do_while cond) (runs_env runs))) = while_spec cond 0%nat runs.
Proof. exact @do_while_closed_form. Qed.
Print Assumptions C10_do_while_closed_form.

(* condition true n times, then false, all runs completing: while_do emits exactly the
   first n runs and completes, do_while exactly the first n+1 runs *)
Theorem C10_while_do_n_completing : forall A cond (n : nat) (runs : list (list A)),
  (forall k, (k < n)%nat -> cond k = Ok true) -> cond n = Ok false -> (n <= length runs)%nat ->
  emitted (fst (run (x_while_do cond) (runs_env (map (fun xs => (xs, TDone)) runs))))
  = map Next (concat (firstn n runs)) ++ [Done].
Proof. exact @while_do_n_completing. Qed.
Print Assumptions C10_while_do_n_completing.
Theorem C10_do_while_n_completing : forall A cond (n : nat) (runs : list (list A)),
  (forall k, (k < n)%nat -> cond k = Ok true) -> cond n = Ok false -> (n < length runs)%nat ->
  emitted (fst (run (x_do_while cond) (runs_env (map (fun xs => (xs, TDone)) runs))))
  = map Next (concat (firstn (S n) runs)) ++ [Done].
Proof. exact @do_while_n_completing. Qed.
Print Assumptions C10_do_while_n_completing.

Example C10_witness_while_do :
  let cond := fun j => if Nat.ltb j 2 then Ok true else Ok false in
  (forall k, (k < 2)%nat -> cond k = Ok true) /\ cond 2%nat = Ok false /\
  emitted (fst (run (x_while_do cond) (runs_env [([1], TDone); ([2; 3], TDone); ([4], TDone)])))
  = [Next 1; Next 2; Next 3; Done].
Proof.
  cbn zeta. split; [|split; vm_compute; reflexivity].
  intros [|[|k]] Hk; [reflexivity|reflexivity|lia].
Qed.
Example C10_witness_do_while_condition_raises :
  emitted (fst (run (x_do_while (fun j => match j with O => Ok true | _ => Raise 9 end))
                  (runs_env [([1], TDone); ([2], TDone); ([3], TDone)])))
  = [Next 1; Next 2; Err 9].
Proof. vm_compute. reflexivity. Qed.

(* ==== WHEN the next source is subscribed (run level), catch(handler) closed form ==== *)
From RxVerif Require Import Ops.MergeOrderFacts Ops.SequentialRun.

(* catch(handler) in the sequential environment (source 0 = the caught source, source 1 = the
   observable the handler returns, further sources are ignored): the elements of source 0;
   its completion is passed on; on its error e the handler is called with e -- if it raises
   e' that error is passed on, otherwise the handler's source is mirrored to its end
   (elements, then its completion or its error); a source that never terminates leaves the
   output open *)
Theorem C10_catch_handler_closed_form : forall A (h : Z -> res unit) (srcs : list (list A * term)),
  emitted (fst (run (x_catch_handler h) (seq_env_from 0 srcs))) = catch_handler_spec h srcs.
Proof. exact @catch_handler_closed_form. Qed.
Print Assumptions C10_catch_handler_closed_form.

Example C10_witness_catch_handler :
  emitted (fst (run (x_catch_handler (fun e => if Z.eqb e 7 then Ok tt else Raise (e + 1)))
                  (seq_env_from 0 [([1; 2], TErr 7); ([3], TErr 9); ([4], TDone)])))
  = [Next 1; Next 2; Next 3; Err 9]
  /\ emitted (fst (run (x_catch_handler (fun e => if Z.eqb e 7 then Ok tt else Raise (e + 1)))
                  (seq_env_from 0 [([1], TErr 5); ([3], TDone)])))
  = [Next 1; Err 6].
Proof. vm_compute. split; reflexivity. Qed.

(* GENERIC, for ANY sequential machine (concat, catch, on_error_resume_next, retry, repeat,
   while_do, do_while, catch(handler): the instances are [*_sequential]) and EVERY input
   sequence: a subscription observed at trace position q+1 (i.e. after subscribe()) is
   opened in the step of input q, which is a TERMINAL notification of the one source that is
   subscribed at that moment (the runner is not stopped and its live list is exactly [k]) --
   so never before the current source terminated, and never triggered by a notification of
   a source that is not subscribed *)
Theorem C10_sequential_subscribes_at_live_termination :
  forall A B (m : machine A B), sequential m -> forall (ins : list (Z * inp A)) q j,
  In (S q, OSub j) (fst (run m ins)) ->
  exists now k e, nth_error ins q = Some (now, ISrc k e) /\ is_terminal e = true /\
    r_stopped (snd (run m (firstn q ins))) = false /\ r_live (snd (run m (firstn q ins))) = [k].
Proof. exact @sequential_subscribes_at_live_termination. Qed.
Print Assumptions C10_sequential_subscribes_at_live_termination.

(* EXACT instants for concat / catch / on_error_resume_next, EVERY input sequence: source j is
   subscribed at trace position q+1 IFF j = k+1 < n, input q is the completion (catch: the
   error; on_error_resume_next: any termination) of source k, and k is the subscribed source
   just before input q.  Left to right: not before and by nothing else; right to left: always
   in that very step. *)
Theorem C10_concat_subscribes_next_iff : forall A n (ins : list (Z * inp A)) q j,
  In (S q, OSub j) (fst (run (x_concat n) ins)) <->
  exists now k, j = S k /\ (S k < n)%nat /\ nth_error ins q = Some (now, ISrc k Done)
                /\ r_live (snd (run (x_concat n) (firstn q ins))) = [k].
Proof.
  intros A n ins q j. rewrite (chain_subscribes_next_iff _ _ _ _ (concat_chain n)). split.
  - intros (now & k & [x|e|] & Hj & Hlt & Hn & _ & Hg & Hl); try discriminate Hg. eauto 6.
  - intros (now & k & Hj & Hlt & Hn & Hl). exists now, k, Done. auto 7.
Qed.
Print Assumptions C10_concat_subscribes_next_iff.
Theorem C10_catch_subscribes_next_iff : forall A n (ins : list (Z * inp A)) q j,
  In (S q, OSub j) (fst (run (x_catch n) ins)) <->
  exists now k e, j = S k /\ (S k < n)%nat /\ nth_error ins q = Some (now, ISrc k (Err e))
                  /\ r_live (snd (run (x_catch n) (firstn q ins))) = [k].
Proof.
  intros A n ins q j. rewrite (chain_subscribes_next_iff _ _ _ _ (catch_chain n)). split.
  - intros (now & k & [x|e|] & Hj & Hlt & Hn & _ & Hg & Hl); try discriminate Hg. eauto 7.
  - intros (now & k & e & Hj & Hlt & Hn & Hl). exists now, k, (Err e). auto 7.
Qed.
Print Assumptions C10_catch_subscribes_next_iff.
Theorem C10_oern_subscribes_next_iff : forall A n (ins : list (Z * inp A)) q j,
  In (S q, OSub j) (fst (run (x_oern n) ins)) <->
  exists now k e, j = S k /\ (S k < n)%nat /\ nth_error ins q = Some (now, ISrc k e) /\ is_terminal e = true
                  /\ r_live (snd (run (x_oern n) (firstn q ins))) = [k].
Proof.
  intros A n ins q j. rewrite (chain_subscribes_next_iff _ _ _ _ (oern_chain n)). split.
  - intros (now & k & e & Hj & Hlt & Hn & He & _ & Hl). eauto 8.
  - intros (now & k & e & Hj & Hlt & Hn & He & Hl). exists now, k, e. auto 8.
Qed.
Print Assumptions C10_oern_subscribes_next_iff.

(* ... and over EVERY run the subscriptions are to sources 0, 1, .., m-1 (m <= n) in this
   order: no source is skipped, none is subscribed twice *)
Theorem C10_concat_subscribes_in_order : forall A n (ins : list (Z * inp A)),
  exists mm, (mm <= n)%nat /\ sub_ids (map snd (fst (run (x_concat n) ins))) = seq 0 mm.
Proof. intros A n. exact (chain_subscribes_in_order _ _ _ _ (concat_chain n)). Qed.
Print Assumptions C10_concat_subscribes_in_order.
Theorem C10_catch_subscribes_in_order : forall A n (ins : list (Z * inp A)),
  exists mm, (mm <= n)%nat /\ sub_ids (map snd (fst (run (x_catch n) ins))) = seq 0 mm.
Proof. intros A n. exact (chain_subscribes_in_order _ _ _ _ (catch_chain n)). Qed.
Print Assumptions C10_catch_subscribes_in_order.
Theorem C10_oern_subscribes_in_order : forall A n (ins : list (Z * inp A)),
  exists mm, (mm <= n)%nat /\ sub_ids (map snd (fst (run (x_oern n) ins))) = seq 0 mm.
Proof. intros A n. exact (chain_subscribes_in_order _ _ _ _ (oern_chain n)). Qed.
Print Assumptions C10_oern_subscribes_in_order.

(* the right-hand sides are satisfiable on a non-conforming interleaving: source 1 speaks
   before it is subscribed (dropped), source 0 completes at input 2, so OSub 1 sits at trace
   position 3; source 0 is the live one just before *)
Example C10_witness_subscribes_next :
  let ins := [(0, ISrc 1%nat (Next 9)); (0, ISrc 0%nat (Next 1)); (0, ISrc 0%nat Done);
              (0, ISrc 1%nat (Next 2)); (0, ISrc 1%nat Done)] in
  nth_error ins 2 = Some (0, ISrc 0%nat Done)
  /\ r_live (snd (run (x_concat 2) (firstn 2 ins))) = [0%nat]
  /\ fst (run (x_concat 2) ins)
     = [(0%nat, OSub 0%nat); (2%nat, OEmit (Next 1)); (3%nat, OSub 1%nat); (3%nat, OUnsub 0%nat);
        (4%nat, OEmit (Next 2)); (5%nat, OUnsub 1%nat); (5%nat, OEmit Done)]
  /\ sub_ids (map snd (fst (run (x_concat 2) ins))) = seq 0 2.
Proof. vm_compute. repeat split; reflexivity. Qed.
(* the generic theorem on retry: the resubscription to source 0 at position 2 = the error at input 1 *)
Example C10_witness_sequential_instance :
  sequential (x_retry (A:=Z) (Some 2%nat))
  /\ fst (run (x_retry (Some 2%nat)) [(0, ISrc 0%nat (Next 1)); (0, ISrc 0%nat (Err 7))])
     = [(0%nat, OSub 0%nat); (1%nat, OEmit (Next 1)); (2%nat, OSub 0%nat); (2%nat, OUnsub 0%nat)].
Proof. split; [apply retry_sequential|vm_compute; reflexivity]. Qed.
