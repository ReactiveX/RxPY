(* C11 -- merging keeps each inner order and completes when all complete.
   Refinement: for EVERY number of sources and EVERY input sequence (any
   interleaving, non-conforming sources, ticks, dispose), what merge's
   subscriber receives -- and at which input position -- is [merge_spec], a
   ten-line fold over the interleaving: every element of a still-running source
   passes at its own instant (so each source's order and timing is kept), the
   first error ends everything, completion comes with the last running
   source's completion, notifications of terminated sources are ignored.
   Then, in this order: the same refinement for flat_map / merge_all ([flat_map_spec]) and for
   merge(max_concurrent) / concat_map ([mc_spec], with its FIFO of waiting inners; at most
   max_concurrent inners subscribed); the three specifications as folds of a step function
   (their state after a prefix of the inputs); on the specifications: no element of a running
   source is lost, completion only after the outer and every inner, the queue empty at
   completion; on runs: queued inners start in arrival order; the first error wins and is the
   last event; concat_map emits the ordered concatenation of its inners. *)
From RxVerif Require Import Base.Prelude Ops.Machine Ops.Multi Ops.MultiFacts Ops.RunLemmas
  Ops.Combinators Ops.MergeFacts Ops.FlatMapFacts Ops.MergeConcFacts Ops.MergeSpecFacts Ops.MergeOrderFacts.
From Coq Require Import Sorting.Sorted.

Theorem C11_merge_refines_spec : forall A n (ins : list (Z * inp A)),
  temitted (fst (run (x_merge n) ins))
  = match n with O => [(0%nat, Done)] | _ => merge_spec (seq 0 n) 1 ins end.
Proof. exact @merge_refines_spec. Qed.
Print Assumptions C11_merge_refines_spec.

(* every emitted element is an input element, emitted at that input's position *)
Theorem C11_merge_emits_only_source_elements_in_place :
  forall A running pos (ins : list (Z * inp A)) p x,
    In (p, Next x) (merge_spec running pos ins) ->
    exists k now, nth_error ins (p - pos) = Some (now, ISrc k (Next x)) /\ (pos <= p)%nat.
Proof.
  intros A running pos ins p x. rewrite merge_spec_fold. intros H.
  destruct (fold_spec_in _ _ _ _ _ _ H) as (Hle & now & i & r' & Hn & _ & Hs).
  apply merge_step_passes in Hs; [|discriminate]. destruct Hs as (k & -> & _). eauto.
Qed.
Print Assumptions C11_merge_emits_only_source_elements_in_place.

(* completion only after every running source completed *)
Theorem C11_merge_completes_after_all : forall A (ins : list (Z * inp A)) running pos p,
  In (p, Done) (merge_spec running pos ins) ->
  forall k, In k running ->
  exists q now, (q <= p - pos)%nat /\ nth_error ins q = Some (now, ISrc k Done).
Proof. exact @merge_spec_complete. Qed.
Print Assumptions C11_merge_completes_after_all.

(* flat_map / flat_map_indexed / merge_all (inner sequences created by the outer
   source's elements): refinement for EVERY mapper -- also raising -- and EVERY
   input sequence *)
Theorem C11_flat_map_refines_spec : forall A (mapper : A -> nat -> res unit) (ins : list (Z * inp A)),
  temitted (fst (run (x_flat_map mapper) ins)) = flat_map_spec mapper true 0 [] 1 ins.
Proof. exact @flat_map_refines_spec. Qed.
Print Assumptions C11_flat_map_refines_spec.

(* merge(max_concurrent = mc) after map(project) -- concat_map is mc = 1 --, for EVERY
   mapper (also raising), EVERY mc and EVERY input sequence: what the subscriber
   receives is [mc_spec]: at most mc inners run, the others wait in a FIFO queue
   whose head starts exactly when a running inner completes; elements of running
   inners pass at their own instant; first error ends everything; completion when
   the outer has completed and nothing runs *)
Theorem C11_merge_concurrent_refines_spec : forall A mc (mapper : A -> nat -> res unit) (ins : list (Z * inp A)),
  temitted (fst (run (x_merge_concurrent mc mapper) ins)) = mc_spec mapper mc true 0 [] [] 1 ins.
Proof. exact @merge_concurrent_refines_spec. Qed.
Print Assumptions C11_merge_concurrent_refines_spec.

(* after EVERY input sequence (hence at any time) at most mc inner sequences are subscribed *)
Theorem C11_merge_concurrent_at_most_n_subscribed : forall A mc (mapper : A -> nat -> res unit) (ins : list (Z * inp A)),
  (ninner (r_live (snd (run (x_merge_concurrent mc mapper) ins))) <= mc)%nat.
Proof. exact @merge_concurrent_bounded. Qed.
Print Assumptions C11_merge_concurrent_at_most_n_subscribed.

(* no element is invented, reordered or delayed: every emitted element is an element of an inner sequence,
   emitted at that input's own position (flat_map / merge_all and merge(max_concurrent) / concat_map) *)
Theorem C11_flat_map_emits_only_inner_elements_in_place :
  forall A (mapper : A -> nat -> res unit) (ins : list (Z * inp A)) ol cnt running pos p x,
  In (p, Next x) (flat_map_spec mapper ol cnt running pos ins) ->
  exists j now, nth_error ins (p - pos) = Some (now, ISrc (S j) (Next x)) /\ (pos <= p)%nat.
Proof.
  intros A mapper ins ol cnt running pos p x. rewrite flat_map_spec_fold. intros H.
  destruct (fold_spec_in _ _ _ _ _ _ H) as (Hle & now & i & [[ol' cnt'] r'] & Hn & _ & Hs).
  apply fm_step_next in Hs. destruct Hs as (j & -> & _). eauto.
Qed.
Print Assumptions C11_flat_map_emits_only_inner_elements_in_place.
Theorem C11_merge_concurrent_emits_only_inner_elements_in_place :
  forall A (mapper : A -> nat -> res unit) mc (ins : list (Z * inp A)) ol cnt running queue pos p x,
  In (p, Next x) (mc_spec mapper mc ol cnt running queue pos ins) ->
  exists j now, nth_error ins (p - pos) = Some (now, ISrc (S j) (Next x)) /\ (pos <= p)%nat.
Proof.
  intros A mapper mc ins ol cnt running queue pos p x. rewrite mc_spec_fold. intros H.
  destruct (fold_spec_in _ _ _ _ _ _ H) as (Hle & now & i & [[[ol' cnt'] r'] q'] & Hn & _ & Hs).
  apply mc_step_next in Hs. destruct Hs as (j & -> & _). eauto.
Qed.
Print Assumptions C11_merge_concurrent_emits_only_inner_elements_in_place.

(* concat_map: the second inner is subscribed only when the first completed, so its earlier elements are lost
   (hot inner) and the output is the ordered concatenation *)
Example C11_witness_concat_map :
  temitted (fst (run (x_merge_concurrent 1 (fun _ _ => Ok tt))
     [(0, ISrc 0%nat (Next 1)); (0, ISrc 0%nat (Next 2)); (0, ISrc 2%nat (Next 20)); (0, ISrc 1%nat (Next 10));
      (0, ISrc 1%nat Done); (0, ISrc 2%nat (Next 21)); (0, ISrc 0%nat Done); (0, ISrc 2%nat Done)]))
  = [(4%nat, Next 10); (6%nat, Next 21); (8%nat, Done)].
Proof. vm_compute. reflexivity. Qed.

Example C11_witness_flat_map :
  temitted (fst (run (x_flat_map (fun _ _ => Ok tt))
     [(0, ISrc 0%nat (Next 1)); (0, ISrc 1%nat (Next 10)); (0, ISrc 0%nat (Next 2)); (0, ISrc 2%nat (Next 20));
      (0, ISrc 1%nat (Next 11)); (0, ISrc 0%nat Done); (0, ISrc 1%nat Done); (0, ISrc 2%nat Done)]))
  = [(2%nat, Next 10); (4%nat, Next 20); (5%nat, Next 11); (8%nat, Done)].
Proof. vm_compute. reflexivity. Qed.

Example C11_witness :
  temitted (fst (run (x_merge 2)
     [(0, ISrc 1%nat (Next 7)); (0, ISrc 0%nat (Next 3)); (0, ISrc 1%nat Done); (0, ISrc 1%nat (Next 9));
      (0, ISrc 0%nat (Next 4)); (0, ISrc 0%nat Done)]))
  = [(1%nat, Next 7); (2%nat, Next 3); (5%nat, Next 4); (6%nat, Done)].
Proof. vm_compute. reflexivity. Qed.

(* ---- the state of the three specifications ---------------------------------------------------------
   merge_after / fm_after / mc_after give the specification's state after a prefix of the inputs (None
   once the output has ended); they ARE the state of merge_spec / flat_map_spec / mc_spec: the
   specification of a ++ b is that of a, followed by that of b from the state after a *)
Theorem C11_merge_spec_splits : forall A (a b : list (Z * inp A)) running pos,
  merge_spec running pos (a ++ b) = merge_spec running pos a ++
    match merge_after running a with Some r' => merge_spec r' (pos + length a) b | None => [] end.
Proof. exact @merge_spec_app. Qed.
Print Assumptions C11_merge_spec_splits.
Theorem C11_flat_map_spec_splits : forall A (mapper : A -> nat -> res unit) (a b : list (Z * inp A)) ol cnt running pos,
  flat_map_spec mapper ol cnt running pos (a ++ b) = flat_map_spec mapper ol cnt running pos a ++
    match fm_after mapper (ol, cnt, running) a with
    | Some (ol', cnt', r') => flat_map_spec mapper ol' cnt' r' (pos + length a) b
    | None => []
    end.
Proof. exact @flat_map_spec_app. Qed.
Print Assumptions C11_flat_map_spec_splits.
Theorem C11_mc_spec_splits : forall A (mapper : A -> nat -> res unit) mc (a b : list (Z * inp A)) ol cnt running queue pos,
  mc_spec mapper mc ol cnt running queue pos (a ++ b) = mc_spec mapper mc ol cnt running queue pos a ++
    match mc_after mapper mc (ol, cnt, running, queue) a with
    | Some (ol', cnt', r', q') => mc_spec mapper mc ol' cnt' r' q' (pos + length a) b
    | None => []
    end.
Proof. exact @mc_spec_app. Qed.
Print Assumptions C11_mc_spec_splits.

(* the state exists (is not None) as long as no terminal event was emitted and the subscriber did not
   dispose *)
Theorem C11_merge_state_exists_while_alive : forall A running pos (a : list (Z * inp A)),
  (forall p e, In (p, e) (merge_spec running pos a) -> is_terminal e = false) ->
  ~ In IDispose (map snd a) ->
  exists r', merge_after running a = Some r'.
Proof. exact @merge_after_some. Qed.
Print Assumptions C11_merge_state_exists_while_alive.
Theorem C11_flat_map_state_exists_while_alive : forall A (mapper : A -> nat -> res unit) ol cnt running pos (a : list (Z * inp A)),
  (forall p e, In (p, e) (flat_map_spec mapper ol cnt running pos a) -> is_terminal e = false) ->
  ~ In IDispose (map snd a) ->
  exists st', fm_after mapper (ol, cnt, running) a = Some st'.
Proof. exact @fm_after_some. Qed.
Print Assumptions C11_flat_map_state_exists_while_alive.
Theorem C11_mc_state_exists_while_alive : forall A (mapper : A -> nat -> res unit) mc ol cnt running queue pos (a : list (Z * inp A)),
  (forall p e, In (p, e) (mc_spec mapper mc ol cnt running queue pos a) -> is_terminal e = false) ->
  ~ In IDispose (map snd a) ->
  exists st', mc_after mapper mc (ol, cnt, running, queue) a = Some st'.
Proof. exact @mc_after_some. Qed.
Print Assumptions C11_mc_state_exists_while_alive.

(* ---- NO ELEMENT LOST: an element of a source / inner that is still running at its position (the output
   not having ended before) IS emitted, at that position *)
Theorem C11_merge_no_element_lost : forall A running pos (ins : list (Z * inp A)) q now k x r',
  nth_error ins q = Some (now, ISrc k (Next x)) ->
  merge_after running (firstn q ins) = Some r' -> In k r' ->
  In ((pos + q)%nat, Next x) (merge_spec running pos ins).
Proof. intros * H1 H2 H3. apply merge_spec_passes_iff; [discriminate|eauto 6]. Qed.
Print Assumptions C11_merge_no_element_lost.
Theorem C11_flat_map_no_element_lost :
  forall A (mapper : A -> nat -> res unit) ol cnt running pos (ins : list (Z * inp A)) q now j x ol' cnt' r',
  nth_error ins q = Some (now, ISrc (S j) (Next x)) ->
  fm_after mapper (ol, cnt, running) (firstn q ins) = Some (ol', cnt', r') -> In (S j) r' ->
  In ((pos + q)%nat, Next x) (flat_map_spec mapper ol cnt running pos ins).
Proof. intros * H1 H2 H3. apply flat_map_spec_next_iff. eauto 8. Qed.
Print Assumptions C11_flat_map_no_element_lost.
Theorem C11_merge_concurrent_no_element_lost :
  forall A (mapper : A -> nat -> res unit) mc ol cnt running queue pos (ins : list (Z * inp A)) q now j x ol' cnt' r' q',
  nth_error ins q = Some (now, ISrc (S j) (Next x)) ->
  mc_after mapper mc (ol, cnt, running, queue) (firstn q ins) = Some (ol', cnt', r', q') -> In (S j) r' ->
  In ((pos + q)%nat, Next x) (mc_spec mapper mc ol cnt running queue pos ins).
Proof. intros * H1 H2 H3. apply mc_spec_next_iff. eauto 9. Qed.
Print Assumptions C11_merge_concurrent_no_element_lost.

(* ... and EXACTLY those: both directions in one statement *)
Theorem C11_merge_emits_exactly_running_elements : forall A running pos (ins : list (Z * inp A)) q x,
  In ((pos + q)%nat, Next x) (merge_spec running pos ins) <->
  exists now k r', nth_error ins q = Some (now, ISrc k (Next x))
                   /\ merge_after running (firstn q ins) = Some r' /\ In k r'.
Proof. intros. apply merge_spec_passes_iff. discriminate. Qed.
Print Assumptions C11_merge_emits_exactly_running_elements.
Theorem C11_flat_map_emits_exactly_running_elements :
  forall A (mapper : A -> nat -> res unit) ol cnt running pos (ins : list (Z * inp A)) q x,
  In ((pos + q)%nat, Next x) (flat_map_spec mapper ol cnt running pos ins) <->
  exists now j ol' cnt' r', nth_error ins q = Some (now, ISrc (S j) (Next x))
     /\ fm_after mapper (ol, cnt, running) (firstn q ins) = Some (ol', cnt', r') /\ In (S j) r'.
Proof. exact @flat_map_spec_next_iff. Qed.
Print Assumptions C11_flat_map_emits_exactly_running_elements.
Theorem C11_merge_concurrent_emits_exactly_running_elements :
  forall A (mapper : A -> nat -> res unit) mc ol cnt running queue pos (ins : list (Z * inp A)) q x,
  In ((pos + q)%nat, Next x) (mc_spec mapper mc ol cnt running queue pos ins) <->
  exists now j ol' cnt' r' q', nth_error ins q = Some (now, ISrc (S j) (Next x))
     /\ mc_after mapper mc (ol, cnt, running, queue) (firstn q ins) = Some (ol', cnt', r', q') /\ In (S j) r'.
Proof. exact @mc_spec_next_iff. Qed.
Print Assumptions C11_merge_concurrent_emits_exactly_running_elements.

(* merge: an error is emitted iff it is the error of a source still running at that position *)
Theorem C11_merge_error_iff_running_source_error : forall A running pos (ins : list (Z * inp A)) q err,
  In ((pos + q)%nat, Err err) (merge_spec running pos ins) <->
  exists now k r', nth_error ins q = Some (now, ISrc k (Err err))
                   /\ merge_after running (firstn q ins) = Some r' /\ In k r'.
Proof. intros. apply merge_spec_passes_iff. discriminate. Qed.
Print Assumptions C11_merge_error_iff_running_source_error.

(* the hypotheses are satisfiable by a non-trivial state: after three inputs sources 0 and 1 still run *)
Example C11_no_loss_hypotheses_satisfiable :
  merge_after (A:=Z) [0%nat; 1%nat; 2%nat]
     (firstn 3 [(0, ISrc 2%nat (Next 5)); (0, ISrc 2%nat Done); (0, ISrc 0%nat (Next 3)); (0, ISrc 1%nat (Next 7))])
  = Some [0%nat; 1%nat]
  /\ mc_after (A:=Z) (fun _ _ => Ok tt) 1 (true, 0%nat, [], [])
     (firstn 3 [(0, ISrc 0%nat (Next 1)); (0, ISrc 0%nat (Next 2)); (0, ISrc 1%nat Done); (0, ISrc 2%nat (Next 20))])
  = Some (true, 2%nat, [2%nat], []).
Proof. vm_compute. split; reflexivity. Qed.

(* ---- COMPLETION only after the outer and every inner: whatever moment q0 (not after the completion) one
   looks at, the outer -- if still live at q0 -- and every inner running at q0 deliver their Done at an
   input position between q0 and the completion's *)
Theorem C11_flat_map_completes_after_outer_and_inners :
  forall A (mapper : A -> nat -> res unit) (ins : list (Z * inp A)) ol cnt running pos p,
  In (p, Done) (flat_map_spec mapper ol cnt running pos ins) ->
  (pos <= p)%nat /\
  forall q0 ol' cnt' r', (q0 <= p - pos)%nat ->
    fm_after mapper (ol, cnt, running) (firstn q0 ins) = Some (ol', cnt', r') ->
    (ol' = true -> exists q now, (q0 <= q <= p - pos)%nat /\ nth_error ins q = Some (now, ISrc 0%nat Done)) /\
    (forall k, In k r' -> exists q now, (q0 <= q <= p - pos)%nat /\ nth_error ins q = Some (now, ISrc k Done)).
Proof. exact @flat_map_completes_after_outer_and_inners. Qed.
Print Assumptions C11_flat_map_completes_after_outer_and_inners.
Theorem C11_mc_completes_after_outer_and_inners :
  forall A (mapper : A -> nat -> res unit) mc (ins : list (Z * inp A)) ol cnt running queue pos p,
  In (p, Done) (mc_spec mapper mc ol cnt running queue pos ins) ->
  (pos <= p)%nat /\
  forall q0 ol' cnt' r' q', (q0 <= p - pos)%nat ->
    mc_after mapper mc (ol, cnt, running, queue) (firstn q0 ins) = Some (ol', cnt', r', q') ->
    (ol' = true -> exists q now, (q0 <= q <= p - pos)%nat /\ nth_error ins q = Some (now, ISrc 0%nat Done)) /\
    (forall k, In k r' -> exists q now, (q0 <= q <= p - pos)%nat /\ nth_error ins q = Some (now, ISrc k Done)).
Proof. exact @mc_completes_after_outer_and_inners. Qed.
Print Assumptions C11_mc_completes_after_outer_and_inners.

(* ... and for max_concurrent >= 1, from a state in which inners wait only while some inner runs (e.g. the
   initial one), the waiting queue is EMPTY at the completion, and every inner that waited at any moment
   q0 has been started and has delivered its Done between q0 and the completion *)
Theorem C11_mc_completes_with_empty_queue :
  forall A (mapper : A -> nat -> res unit) mc (ins : list (Z * inp A)) ol cnt running queue pos p,
  (0 < mc)%nat -> (queue = [] \/ running <> []) ->
  In (p, Done) (mc_spec mapper mc ol cnt running queue pos ins) ->
  (exists olp cntp rp, mc_after mapper mc (ol, cnt, running, queue) (firstn (p - pos) ins) = Some (olp, cntp, rp, []))
  /\
  forall q0 ol' cnt' r' q', (q0 <= p - pos)%nat ->
    mc_after mapper mc (ol, cnt, running, queue) (firstn q0 ins) = Some (ol', cnt', r', q') ->
    forall k, In k q' -> exists q now, (q0 <= q <= p - pos)%nat /\ nth_error ins q = Some (now, ISrc k Done).
Proof. exact @mc_completes_with_empty_queue. Qed.
Print Assumptions C11_mc_completes_with_empty_queue.

(* the hypothesis 0 < max_concurrent is needed: with max_concurrent = 0 (outside the property's range 1..N)
   every inner waits for ever and the output completes with the outer, inner 1 still in the queue *)
Example C11_mc_zero_completes_with_waiting_inner :
  mc_spec (A:=Z) (fun _ _ => Ok tt) 0 true 0 [] [] 1 [(0%Z, ISrc 0%nat (Next 5%Z)); (0%Z, ISrc 0%nat Done)]
    = [(2%nat, Done)]
  /\ mc_after (A:=Z) (fun _ _ => Ok tt) 0 (true, 0%nat, [], []) [(0%Z, ISrc 0%nat (Next 5%Z))]
    = Some (true, 1%nat, [], [1%nat]).
Proof. exact mc_zero_completes_with_waiting_inner. Qed.

(* a completion with a queue that was non-empty on the way (max_concurrent = 1, three inners) *)
Example C11_completion_hypotheses_satisfiable :
  let ins := [(0, ISrc 0%nat (Next 1)); (0, ISrc 0%nat (Next 2)); (0, ISrc 0%nat (Next 3)); (0, ISrc 0%nat Done);
              (0, ISrc 1%nat Done); (0, ISrc 2%nat (Next 20)); (0, ISrc 2%nat Done); (0, ISrc 3%nat Done)] in
  In (8%nat, Done) (mc_spec (A:=Z) (fun _ _ => Ok tt) 1 true 0 [] [] 1 ins)
  /\ mc_after (A:=Z) (fun _ _ => Ok tt) 1 (true, 0%nat, [], []) (firstn 3 ins) = Some (true, 3%nat, [1%nat], [2%nat; 3%nat]).
Proof. vm_compute. split; [right; left; reflexivity|reflexivity]. Qed.

(* ---- QUEUED INNERS START IN ARRIVAL ORDER: in EVERY run of merge(max_concurrent = mc) (every mapper, every
   mc, every input sequence) the subscriptions are opened with strictly increasing ids (id 0 is the outer;
   inner j is the one created by the j-th accepted outer element), and whatever still waits in the queue
   is newer than everything started, itself in arrival order *)
Theorem C11_inners_start_in_arrival_order : forall A mc (mapper : A -> nat -> res unit) (ins : list (Z * inp A)),
  StronglySorted lt (sub_ids (map snd (fst (run (x_merge_concurrent mc mapper) ins)))).
Proof.
  intros A mc mapper ins. pose proof (merge_concurrent_order_inv mc mapper ins) as H. cbn zeta in H.
  unfold mc_order_inv in H. destruct (fst (after _ _ _ ins)) as [[[c a] q] st]. destruct H as [H _].
  eapply ssorted_app_l. exact H.
Qed.
Print Assumptions C11_inners_start_in_arrival_order.
Theorem C11_waiting_inners_newer_than_started : forall A mc (mapper : A -> nat -> res unit) (ins : list (Z * inp A)),
  let m := x_merge_concurrent mc mapper in
  let queue := snd (fst (fst (after m (fst (start_state m)) (snd (start_state m)) ins))) in
  StronglySorted lt (sub_ids (map snd (fst (run m ins))) ++ queue).
Proof.
  intros A mc mapper ins m queue. subst queue.
  pose proof (merge_concurrent_order_inv mc mapper ins) as H. cbn zeta in H. unfold mc_order_inv in H. fold m in H.
  destruct (fst (after m _ _ ins)) as [[[c a] q] st]. destruct H as [H _]. exact H.
Qed.
Print Assumptions C11_waiting_inners_newer_than_started.

Example C11_witness_start_order :
  sub_ids (map snd (fst (run (x_merge_concurrent 1 (fun _ _ => Ok tt))
     [(0, ISrc 0%nat (Next 1)); (0, ISrc 0%nat (Next 2)); (0, ISrc 0%nat (Next 3)); (0, ISrc 1%nat Done);
      (0, ISrc 2%nat (Next 20)); (0, ISrc 2%nat Done)])))
  = [0%nat; 1%nat; 2%nat; 3%nat].
Proof. vm_compute. reflexivity. Qed.

(* ==== FIRST ERROR WINS for flat_map / merge_all and merge(max_concurrent) / concat_map ====
   [error_source mapper ol cnt running i err]: input i is the error err of the still-live outer, or
   an element of the still-live outer on which the mapper (called with index cnt) raises err, or the
   error err of a running inner. *)
From RxVerif Require Import Ops.SequentialFacts Ops.ConcatMapFacts.

(* EVERY mapper, EVERY input sequence: the output carries the error err at trace position q+1 IFF
   the output has not ended before input q (the specification's state exists there) and input q is an
   error source w.r.t. that state -- so it is the FIRST such event that is passed on, at its own
   position, and errors of inners that are not running (terminated, or still waiting in the queue)
   are never passed on *)
Theorem C11_flat_map_error_iff_first_error_source : forall A (mapper : A -> nat -> res unit) (ins : list (Z * inp A)) q err,
  In (S q, Err err) (temitted (fst (run (x_flat_map mapper) ins))) <->
  exists now i ol' cnt' r', nth_error ins q = Some (now, i)
     /\ fm_after mapper (true, 0%nat, []) (firstn q ins) = Some (ol', cnt', r')
     /\ error_source mapper ol' cnt' r' i err.
Proof. intros A mapper ins q err. rewrite flat_map_refines_spec. exact (flat_map_spec_error_iff mapper true 0 [] 1 ins q err). Qed.
Print Assumptions C11_flat_map_error_iff_first_error_source.
Theorem C11_merge_concurrent_error_iff_first_error_source :
  forall A mc (mapper : A -> nat -> res unit) (ins : list (Z * inp A)) q err,
  In (S q, Err err) (temitted (fst (run (x_merge_concurrent mc mapper) ins))) <->
  exists now i ol' cnt' r' q', nth_error ins q = Some (now, i)
     /\ mc_after mapper mc (true, 0%nat, [], []) (firstn q ins) = Some (ol', cnt', r', q')
     /\ error_source mapper ol' cnt' r' i err.
Proof. intros A mc mapper ins q err. rewrite merge_concurrent_refines_spec. exact (mc_spec_error_iff mapper mc true 0 [] [] 1 ins q err). Qed.
Print Assumptions C11_merge_concurrent_error_iff_first_error_source.
(* the same from any state of the specifications *)
Theorem C11_flat_map_spec_error_iff : forall A (mapper : A -> nat -> res unit) ol cnt running pos (ins : list (Z * inp A)) q err,
  In ((pos + q)%nat, Err err) (flat_map_spec mapper ol cnt running pos ins) <->
  exists now i ol' cnt' r', nth_error ins q = Some (now, i)
     /\ fm_after mapper (ol, cnt, running) (firstn q ins) = Some (ol', cnt', r')
     /\ error_source mapper ol' cnt' r' i err.
Proof. exact @flat_map_spec_error_iff. Qed.
Print Assumptions C11_flat_map_spec_error_iff.
Theorem C11_mc_spec_error_iff : forall A (mapper : A -> nat -> res unit) mc ol cnt running queue pos (ins : list (Z * inp A)) q err,
  In ((pos + q)%nat, Err err) (mc_spec mapper mc ol cnt running queue pos ins) <->
  exists now i ol' cnt' r' q', nth_error ins q = Some (now, i)
     /\ mc_after mapper mc (ol, cnt, running, queue) (firstn q ins) = Some (ol', cnt', r', q')
     /\ error_source mapper ol' cnt' r' i err.
Proof. exact @mc_spec_error_iff. Qed.
Print Assumptions C11_mc_spec_error_iff.
(* ... and the error is the LAST event of the output *)
Theorem C11_flat_map_error_is_last : forall A (mapper : A -> nat -> res unit) ol cnt running pos (ins : list (Z * inp A)) p err,
  In (p, Err err) (flat_map_spec mapper ol cnt running pos ins) ->
  exists pre, flat_map_spec mapper ol cnt running pos ins = pre ++ [(p, Err err)].
Proof. exact @flat_map_error_is_last. Qed.
Print Assumptions C11_flat_map_error_is_last.
Theorem C11_mc_error_is_last : forall A (mapper : A -> nat -> res unit) mc ol cnt running queue pos (ins : list (Z * inp A)) p err,
  In (p, Err err) (mc_spec mapper mc ol cnt running queue pos ins) ->
  exists pre, mc_spec mapper mc ol cnt running queue pos ins = pre ++ [(p, Err err)].
Proof. exact @mc_error_is_last. Qed.
Print Assumptions C11_mc_error_is_last.

(* inner 2 fails while it waits in the queue (ignored), then inner 1 fails while running (passed on,
   nothing after it); the state before input 3 has inner 1 running and inner 2 waiting *)
Example C11_witness_first_error :
  let ins := [(0, ISrc 0%nat (Next 1)); (0, ISrc 0%nat (Next 2)); (0, ISrc 2%nat (Err 8));
              (0, ISrc 1%nat (Err 7)); (0, ISrc 0%nat (Err 9))] in
  temitted (fst (run (x_merge_concurrent 1 (fun _ _ => Ok tt)) ins)) = [(4%nat, Err 7)]
  /\ mc_after (A:=Z) (fun _ _ => Ok tt) 1 (true, 0%nat, [], []) (firstn 3 ins) = Some (true, 2%nat, [1%nat], [2%nat])
  /\ temitted (fst (run (x_flat_map (fun x k => if Z.eqb x 2 then Raise 5 else Ok tt)) ins)) = [(2%nat, Err 5)].
Proof. vm_compute. repeat split; reflexivity. Qed.

(* ==== CONCAT_MAP (merge(max_concurrent = 1) after map) emits the ORDERED CONCATENATION ====
   [inner_elems j ins]: the elements inner j delivers in ins, in order; [out_elems]: the elements of an
   output; [cold mapper 1 st ins]: every notification of an inner in ins arrives while that inner is
   running (subscribed) in the specification's state at that moment -- inners that produce only while
   subscribed. *)
(* EVERY mapper, EVERY input sequence -- whatever the interleaving of the outer's notifications with the
   inners' -- during which the output has not ended and whose inners are cold: the elements emitted are
   the elements of inner 1, then those of inner 2, ..., then those of inner cnt (cnt inners created) *)
Theorem C11_concat_map_ordered_concatenation :
  forall A (mapper : A -> nat -> res unit) (ins : list (Z * inp A)) ol cnt running queue,
  mc_after mapper 1 (true, 0%nat, [], []) ins = Some (ol, cnt, running, queue) ->
  cold mapper 1 (true, 0%nat, [], []) ins ->
  out_elems (temitted (fst (run (x_merge_concurrent 1 mapper) ins)))
  = concat (map (fun j => inner_elems j ins) (seq 1 cnt)).
Proof. exact @concat_map_ordered. Qed.
Print Assumptions C11_concat_map_ordered_concatenation.

(* closed form, terminal included, in one concrete environment (a synchronous outer delivering xs and
   completing, then the inners one after the other, a mapper that does not raise): the output is
   [concat_spec] of the inner sequences -- exactly the closed form of concat (C10_concat_closed_form):
   all elements of the inners in outer order, the first inner error passed on, completion after the
   last inner, open if an inner never terminates *)
Theorem C11_concat_map_closed_form :
  forall A (mapper : A -> nat -> res unit), (forall x k, mapper x k = Ok tt) ->
  forall (xs : list A) (srcs : list (list A * term)), length srcs = length xs ->
  emitted (fst (run (x_merge_concurrent 1 mapper) (cm_env xs srcs))) = concat_spec srcs.
Proof. exact @concat_map_closed_form. Qed.
Print Assumptions C11_concat_map_closed_form.

(* the hypotheses of the ordered-concatenation theorem hold on an interleaved schedule: the outer's
   second and third elements arrive while inner 1 runs, its completion while inner 2 runs *)
Example C11_witness_concat_map_ordered :
  let ins := [(0, ISrc 0%nat (Next 1)); (0, ISrc 1%nat (Next 10)); (0, ISrc 0%nat (Next 2));
              (0, ISrc 1%nat (Next 11)); (0, ISrc 0%nat (Next 3)); (0, ISrc 1%nat Done);
              (0, ISrc 2%nat (Next 20)); (0, ISrc 0%nat Done); (0, ISrc 2%nat Done); (0, ISrc 3%nat (Next 30))] in
  mc_after (A:=Z) (fun _ _ => Ok tt) 1 (true, 0%nat, [], []) ins = Some (false, 3%nat, [3%nat], [])
  /\ cold (fun _ _ => Ok tt) 1 (true, 0%nat, [], []) ins
  /\ out_elems (temitted (fst (run (x_merge_concurrent 1 (fun _ _ => Ok tt)) ins))) = [10; 11; 20; 30]
  /\ concat (map (fun j => inner_elems j ins) (seq 1 3)) = [10; 11; 20; 30].
Proof.
  cbn zeta. split; [vm_compute; reflexivity|]. split; [apply coldb_cold; vm_compute; reflexivity|].
  split; vm_compute; reflexivity.
Qed.
Example C11_witness_concat_map_closed_form :
  emitted (fst (run (x_merge_concurrent 1 (fun _ _ => Ok tt)) (cm_env [1; 2; 3] [([10; 11], TDone); ([], TDone); ([30], TErr 4)])))
  = [Next 10; Next 11; Next 30; Err 4].
Proof. vm_compute. reflexivity. Qed.
