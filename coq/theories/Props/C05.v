(* C05 -- element-wise operators match their list semantics.
   For EVERY finite input xs and every termination t (completion, error e, or
   none yet), the tagged output of the operator's machine equals the list
   computation; tag j+1 means "emitted while input j was being delivered", so
   the equalities also carry the timing clause of the property.
   Machines: Ops/Elementwise.v; starmap and pluck, which the code builds as maps,
   in Ops/ElementwiseMore.v (tied to the code by the K2 correspondence).
   The later parts: dematerialize on arbitrary notifications, the indexed
   take_while / skip_while, starmap, pluck; take_last_buffer under any
   termination; the composition theorem with positions (Ops/ComposeTagged.v) and
   skip_while_indexed through it. *)
From RxVerif Require Import Base.Prelude Ops.Machine Ops.MachineFacts Ops.Elementwise
  Ops.ElementwiseFacts Ops.ElementwiseMore Ops.ComposeTagged Ops.AggregatesTagged.
From RxVerif Require Ops.SliceFacts.

Theorem C05_map : forall A B (f : A -> B) xs t,
  exec (op_map (pure f)) (events xs t) = nexts (indexed 1 (map f xs)) ++ tterm (S (length xs)) t.
Proof. exact @map_spec. Qed.
Print Assumptions C05_map.

Theorem C05_map_indexed : forall A B (f : A -> nat -> B) xs t,
  exec (op_map_indexed (pure2 f)) (events xs t)
  = nexts (indexed 1 (mapi_from 0 f xs)) ++ tterm (S (length xs)) t.
Proof. exact @map_indexed_spec. Qed.
Print Assumptions C05_map_indexed.

Theorem C05_filter : forall A (p : A -> bool) xs t,
  exec (op_filter (pure p)) (events xs t)
  = nexts (filter (fun kx => p (snd kx)) (indexed 1 xs)) ++ tterm (S (length xs)) t.
Proof. exact @filter_spec. Qed.
Print Assumptions C05_filter.

Theorem C05_filter_indexed : forall A (p : A -> nat -> bool) (xs : list A) t,
  exec (op_filter_indexed (pure2 p)) (events xs t)
  = nexts (filteri_from 0 p (indexed 1 xs)) ++ tterm (S (length xs)) t.
Proof. exact @filter_indexed_spec. Qed.
Print Assumptions C05_filter_indexed.

Theorem C05_take : forall A (xs : list A) t (c : Z), 0 <= c ->
  exec (op_take c) (events xs t)
  = if c =? 0 then [(0%nat, Done)]
    else if c <=? zlen xs
    then nexts (indexed 1 (firstn (Z.to_nat c) xs)) ++ [(Z.to_nat c, Done)]
    else nexts (indexed 1 xs) ++ tterm (S (length xs)) t.
Proof. exact @take_spec. Qed.
Print Assumptions C05_take.

Theorem C05_skip : forall A (xs : list A) t (c : Z),
  exec (op_skip c) (events xs t)
  = nexts (skipn (Z.to_nat c) (indexed 1 xs)) ++ tterm (S (length xs)) t.
Proof. exact @skip_spec. Qed.
Print Assumptions C05_skip.

Theorem C05_take_while : forall A (p : A -> bool) inclusive (xs : list A) t,
  exec (op_take_while (pure p) inclusive) (events xs t)
  = nexts (takewhile p (indexed 1 xs)) ++
    match first_failing p (indexed 1 xs) with
    | Some (j, x) => (if inclusive then [(j, Next x)] else []) ++ [(j, Done)]
    | None => tterm (S (length xs)) t
    end.
Proof.
  intros *. unfold exec. cbn -[exec_from]. apply take_while_from.
Qed.
Print Assumptions C05_take_while.

Theorem C05_skip_while : forall A (p : A -> bool) (xs : list A) t,
  exec (op_skip_while (pure p)) (events xs t)
  = nexts (dropwhile p (indexed 1 xs)) ++ tterm (S (length xs)) t.
Proof. exact @skip_while_spec. Qed.
Print Assumptions C05_skip_while.

(* (x_k, x_{k+1}) is emitted when x_{k+1} arrives *)
Theorem C05_pairwise : forall A (xs : list A) t,
  exec op_pairwise (events xs t)
  = match xs with
    | [] => tterm 1 t
    | x :: r => nexts (pairs_from x 2 r) ++ tterm (S (length xs)) t
    end.
Proof.
  intros *. unfold exec. cbn -[exec_from]. destruct xs as [|x r].
  - term_case t.
  - step_cons. rewrite pairwise_from. reflexivity.
Qed.
Print Assumptions C05_pairwise.

Theorem C05_start_with : forall A (args xs : list A) t,
  exec (op_start_with args) (events xs t)
  = nexts (map (fun a => (0%nat, a)) args) ++ nexts (indexed 1 xs) ++ tterm (S (length xs)) t.
Proof.
  intros *. unfold exec. cbn -[exec_from]. rewrite emit_cont, (mirror_run (op_start_with args) tt) by reflexivity.
  unfold nexts. now rewrite map_map.
Qed.
Print Assumptions C05_start_with.

Theorem C05_default_if_empty : forall A d (xs : list A) t,
  exec (op_default_if_empty d) (events xs t)
  = match xs, t with
    | [], TDone => [(1%nat, Next d); (1%nat, Done)]
    | _, _ => nexts (indexed 1 xs) ++ tterm (S (length xs)) t
    end.
Proof.
  intros *. unfold exec. cbn -[exec_from]. destruct xs as [|x r].
  - term_case t.
  - step_cons. now rewrite (mirror_run (op_default_if_empty d) true) by reflexivity.
Qed.
Print Assumptions C05_default_if_empty.

Theorem C05_ignore_elements : forall A (xs : list A) t,
  exec op_ignore_elements (events xs t) = tterm (S (length xs)) t.
Proof.
  intros *. unfold exec, events. cbn -[exec_from].
  rewrite (collect_run op_ignore_elements (fun s _ => s)) by reflexivity. destruct t; reflexivity.
Qed.
Print Assumptions C05_ignore_elements.

Theorem C05_take_last : forall A c (xs : list A), 0 <= c ->
  exec (op_take_last c) (events xs TDone)
  = nexts (map (fun a => (S (length xs), a)) (skipn (length xs - Z.to_nat c) xs))
    ++ [(S (length xs), Done)].
Proof.
  intros * Hc. unfold exec. cbn -[exec_from]. rewrite take_last_from.
  now rewrite <- SliceFacts.take_last_spec by exact Hc.
Qed.
Print Assumptions C05_take_last.

Theorem C05_take_last_error : forall A c (xs : list A) e,
  exec (op_take_last c) (events xs (TErr e)) = [(S (length xs), Err e)].
Proof.
  intros *. unfold exec. cbn -[exec_from]. now rewrite take_last_from.
Qed.
Print Assumptions C05_take_last_error.

Theorem C05_take_last_buffer : forall A c (xs : list A), 0 <= c ->
  exec (op_take_last_buffer c) (events xs TDone)
  = [(S (length xs), Next (skipn (length xs - Z.to_nat c) xs)); (S (length xs), Done)].
Proof.
  intros * Hc. unfold exec. cbn -[exec_from]. rewrite take_last_buffer_from.
  now rewrite <- SliceFacts.take_last_spec by exact Hc.
Qed.
Print Assumptions C05_take_last_buffer.

Theorem C05_element_at : forall A i d exn (xs : list A) t, 0 <= i ->
  exec (op_element_at i d exn) (events xs t)
  = match nth_error xs (Z.to_nat i) with
    | Some x => [(S (Z.to_nat i), Next x); (S (Z.to_nat i), Done)]
    | None => match t with
              | TDone => match d with
                         | Some dv => [(S (length xs), Next dv); (S (length xs), Done)]
                         | None => [(S (length xs), Err exn)]
                         end
              | _ => tterm (S (length xs)) t
              end
    end.
Proof.
  intros * Hi. unfold exec. cbn -[exec_from]. now rewrite element_at_from.
Qed.
Print Assumptions C05_element_at.

Theorem C05_materialize : forall A (xs : list A) t,
  exec op_materialize (events xs t)
  = nexts (indexed 1 (map Next xs)) ++
    match t with
    | TDone => [(S (length xs), Next Done); (S (length xs), Done)]
    | TErr e => [(S (length xs), Next (Err e)); (S (length xs), Done)]
    | TNever => []
    end.
Proof. exact @materialize_spec. Qed.
Print Assumptions C05_materialize.

Theorem C05_dematerialize_materialize : forall A (xs : list A) t,
  untag (exec op_dematerialize (untag_next (exec op_materialize (events xs t)))) = events xs t.
Proof.
  intros *. rewrite materialize_spec. unfold exec. cbn -[exec_from untag_next].
  unfold untag_next at 1. rewrite map_app. fold (untag_next (nexts (indexed 1 (map Next xs)))).
  rewrite untag_next_nexts, map_snd_indexed, demat_from.
  unfold events. f_equal. destruct t; reflexivity.
Qed.
Print Assumptions C05_dematerialize_materialize.

Theorem C05_distinct_until_changed : forall A K (key : A -> K) (eqk : K -> K -> bool) (xs : list A) t,
  exec (op_distinct_until_changed (pure key) (pure_cmp eqk)) (events xs t)
  = nexts (duc_list key eqk None (indexed 1 xs)) ++ tterm (S (length xs)) t.
Proof.
  intros *. unfold exec. cbn -[exec_from]. apply duc_from.
Qed.
Print Assumptions C05_distinct_until_changed.

Theorem C05_distinct : forall A K (key : A -> K) (eqk : K -> K -> bool) (xs : list A) t,
  exec (op_distinct (pure key) (pure_cmp eqk)) (events xs t)
  = nexts (distinct_list key eqk [] (indexed 1 xs)) ++ tterm (S (length xs)) t.
Proof.
  intros *. unfold exec. cbn -[exec_from]. apply distinct_from.
Qed.
Print Assumptions C05_distinct.

Theorem C05_find : forall A (p : A -> nat -> bool) yi (xs : list A) t,
  exec (op_find (pure2 p) yi) (events xs t)
  = match first_match p 0 (indexed 1 xs) with
    | Some (j, idx, x) =>
        [(j, Next (if yi then inr (Z.of_nat idx) else inl (Some x))); (j, Done)]
    | None => match t with
              | TDone => [(S (length xs), Next (if yi then inr (-1) else inl None)); (S (length xs), Done)]
              | _ => tterm (S (length xs)) t
              end
    end.
Proof.
  intros *. unfold exec. cbn -[exec_from]. apply find_from.
Qed.
Print Assumptions C05_find.

(* skip_last(c): the first c inputs only fill the queue; input j + c releases element j *)
Theorem C05_skip_last : forall A (c : nat) (xs : list A) t,
  exec (op_skip_last (Z.of_nat c)) (events xs t)
  = nexts (combine (seq (1 + c) (length xs - c)) (firstn (length xs - c) xs))
    ++ tterm (S (length xs)) t.
Proof. exact @skip_last_spec_m. Qed.
Print Assumptions C05_skip_last.

(* every machine of the catalogue, on ARBITRARY input (emissions after the
   terminal, double terminals): the output obeys Next* (Err|Done)? *)
Theorem C05_outputs_wellformed : forall A B (m : mealy A B) (ins : list (ev A)),
  wellformed (untag (exec m ins)) = true.
Proof. exact @exec_wellformed. Qed.
Print Assumptions C05_outputs_wellformed.

(* non-vacuity *)
Example C05_witness_take :
  exec (op_take 2) (events [10; 20; 30] TDone) = [(1%nat, Next 10); (2%nat, Next 20); (2%nat, Done)].
Proof. vm_compute. reflexivity. Qed.
Example C05_witness_skip_last_none_like :
  untag (exec (op_skip_last 1) (events [0; 7; 8] TDone)) = [Next 0; Next 7; Done].
Proof. vm_compute. reflexivity. Qed.

(* ---- dematerialize (direct), take_while_indexed, skip_while_indexed, starmap, pluck ---- *)
(* the elements are notifications: OnNext passes, the first OnError / OnCompleted ELEMENT ends the output
   at its own position (what follows it is dropped), otherwise the source's own terminal does *)
Theorem C05_dematerialize : forall A (ns : list (ev A)) t,
  exec op_dematerialize (events ns t) = demat_list 1 ns t.
Proof.
  intros *. unfold exec. cbn -[exec_from]. apply dematerialize_from.
Qed.
Print Assumptions C05_dematerialize.

Theorem C05_take_while_indexed : forall A (p : A -> nat -> bool) inclusive (xs : list A) t,
  exec (op_take_while_indexed (pure2 p) inclusive) (events xs t)
  = nexts (takewhile_i p 0 (indexed 1 xs)) ++
    match first_failing_i p 0 (indexed 1 xs) with
    | Some (j, x) => (if inclusive then [(j, Next x)] else []) ++ [(j, Done)]
    | None => tterm (S (length xs)) t
    end.
Proof.
  intros *. unfold exec. cbn -[exec_from]. apply take_while_indexed_from.
Qed.
Print Assumptions C05_take_while_indexed.

(* skip_while_indexed as the code composes it: map_indexed(pair) ; skip_while ; map(first) *)
Theorem C05_skip_while_indexed : forall A (p : A -> nat -> bool) (xs : list A) t,
  untag (exec (op_skip_while_indexed (pure2 p)) (events xs t)) = events (dropwhile_i p 0 xs) t.
Proof. intros *. now rewrite skip_while_indexed_tagged, untag_nexts_tterm, dropwhile_it_untag. Qed.
Print Assumptions C05_skip_while_indexed.

(* starmap(f) / pluck(key) are the maps the code builds: map(lambda values: f( *values)), map(lambda x: x[key]) *)
Theorem C05_starmap : forall A B C (f : A -> B -> C) (xs : list (A * B)) t,
  exec (op_starmap (pure2 f)) (events xs t)
  = nexts (indexed 1 (map (fun ab => f (fst ab) (snd ab)) xs)) ++ tterm (S (length xs)) t.
Proof.
  intros *. unfold op_starmap. exact (map_spec (fun ab : A * B => f (fst ab) (snd ab)) xs t).
Qed.
Print Assumptions C05_starmap.
Theorem C05_pluck : forall A B keq (key : A) exn (ds : list (list (A * B))) (vs : list B) t,
  Forall2 (fun d v => lookup keq key exn d = Ok v) ds vs ->
  untag (exec (op_pluck keq key exn) (events ds t)) = events vs t.
Proof. exact @pluck_spec. Qed.
Print Assumptions C05_pluck.
Theorem C05_pluck_missing_key : forall A B keq (key : A) exn (ds : list (list (A * B))) (vs : list B) d rest t,
  Forall2 (fun d v => lookup keq key exn d = Ok v) ds vs -> lookup keq key exn d = Raise exn ->
  untag (exec (op_pluck keq key exn) (events (ds ++ d :: rest) t)) = map Next vs ++ [Err exn].
Proof. exact @pluck_missing. Qed.
Print Assumptions C05_pluck_missing_key.

Example C05_witness_dematerialize :
  exec op_dematerialize (events [Next 1; Next 2; Done; Next 3] (TErr 9))
  = [(1%nat, Next 1); (2%nat, Next 2); (3%nat, Done)].
Proof. vm_compute. reflexivity. Qed.
Example C05_witness_pluck :
  untag (exec (op_pluck Z.eqb 0 (-5)) (events [[(0, 7)]; [(1, 8); (0, 9)]; [(1, 3)]; [(0, 4)]] TDone))
  = [Next 7; Next 9; Err (-5)].
Proof. vm_compute. reflexivity. Qed.

(* ---- take_last_buffer on a failing source; skip_while_indexed WITH the positions ------------- *)
(* a failing source: the buffered elements are dropped, the error passes at its own position *)
Theorem C05_take_last_buffer_error : forall A c (xs : list A) e,
  exec (op_take_last_buffer c) (events xs (TErr e)) = [(S (length xs), Err e)].
Proof.
  intros *. unfold exec. cbn -[exec_from]. now rewrite take_last_buffer_from.
Qed.
Print Assumptions C05_take_last_buffer_error.
(* all terminations at once (TNever: nothing yet) *)
Theorem C05_take_last_buffer_any_termination : forall A c (xs : list A) t, 0 <= c ->
  exec (op_take_last_buffer c) (events xs t)
  = at_end (S (length xs)) t (skipn (length xs - Z.to_nat c) xs).
Proof.
  intros * Hc. unfold exec. cbn -[exec_from]. rewrite take_last_buffer_from.
  now rewrite <- SliceFacts.take_last_spec by exact Hc.
Qed.
Print Assumptions C05_take_last_buffer_any_termination.

(* skip_while_indexed (the three-stage pipeline the code builds) with the timing clause, through the TAGGED
   composition theorem: every surviving element at its own position, the terminal at the source's *)
Theorem C05_composition_tagged : forall A B C (m1 : mealy A B) (m2 : mealy B C) ins,
  exec (compose m1 m2) ins = exec_tagged m2 (exec m1 ins).
Proof. exact @compose_exec_tagged. Qed.
Print Assumptions C05_composition_tagged.
Theorem C05_skip_while_indexed_tagged : forall A (p : A -> nat -> bool) (xs : list A) t,
  exec (op_skip_while_indexed (pure2 p)) (events xs t)
  = nexts (dropwhile_it p 0 (indexed 1 xs)) ++ tterm (S (length xs)) t.
Proof. exact @skip_while_indexed_tagged. Qed.
Print Assumptions C05_skip_while_indexed_tagged.
Example C05_witness_skip_while_indexed_tagged :
  exec (op_skip_while_indexed (pure2 (fun (x : Z) (i : nat) => x <? Z.of_nat i + 2))) (events [1; 2; 9; 0] TDone)
  = [(3%nat, Next 9); (4%nat, Next 0); (5%nat, Done)].
Proof. vm_compute. reflexivity. Qed.
