(* C23 -- an AsyncSubject delivers only the final value.
   Model: Subjects/Async.v (the methods AsyncSubject overrides) run by the engine
   of Subjects/Subject.v; tied to reactivex/subject/asyncsubject.py by the K1
   correspondence of harness/props/C23.py.  Specification: Subjects/Family.v.
   In order: histories of top-level calls against the specification; the same end to end, in terms of
   the calls alone (Subjects/AsyncEndFacts.v); arbitrary call trees (Subjects/AsyncTreeFacts.v and the
   engine facts shared with C20/C21); witnesses. *)
From RxVerif Require Import Base.Prelude Ops.Machine Subjects.Subject Subjects.Async Subjects.Family
  Subjects.SubjectFacts Subjects.FamilyFacts Subjects.AsyncEndFacts Subjects.AsyncTreeFacts.

(* Refinement: on EVERY history of top-level calls the AsyncSubject's complete
   log is the log of the specification in which on_next reaches nobody, completion
   is answered with [final] = the last value (if any) then completion to every
   current subscriber, an error with the error only, and later subscribers are
   greeted with the same. *)
Theorem C23_refines_spec :
  forall (A : Type) (pynone v0 : A) (h : list (@op A)),
  exists fuel0, forall fuel, (fuel0 <= fuel)%nat ->
    run_history (async_cls pynone) v0 fuel (h, []) = (spec KAsync v0 h, true).
Proof. exact (fun A pynone v0 h => refines_spec pynone KAsync v0 h). Qed.
Print Assumptions C23_refines_spec.

(* the same seen by one observer: it receives [oview] -- nothing before its subscribe call, then the
   greeting, then [bcast] of every call made while it is subscribed (Subjects/Family.v) *)
Theorem C23_observer_view :
  forall (A : Type) (pynone v0 : A) (h : list (@op A)),
  exists fuel0, forall fuel, (fuel0 <= fuel)%nat ->
    snd (run_history (async_cls pynone) v0 fuel (h, [])) = true /\
    forall o, view o (fst (run_history (async_cls pynone) v0 fuel (h, [])))
              = oview KAsync o Before (g_init v0) h.
Proof. exact (fun A pynone v0 h => class_observer_view pynone KAsync v0 h). Qed.
Print Assumptions C23_observer_view.

(* nothing before termination: as long as no on_error / on_completed / dispose
   occurs, nobody receives anything, whatever is subscribed or emitted *)
Theorem C23_nothing_before_termination :
  forall (A : Type) (o : nat) (h : list (@op A)) (g : @gstate A) (ph : phase),
    no_end h -> live g = true -> oview KAsync o ph g h = [].
Proof. exact (@async_silent_until_end). Qed.
Print Assumptions C23_nothing_before_termination.

(* on completion / error a current subscriber receives [bcast]: the last value
   (if any) followed by completion, resp. only the error -- and nothing afterwards *)
Theorem C23_current_subscriber_at_end :
  forall (A : Type) (o : nat) (g : @gstate A) (p : @op A) (h : list (@op A)),
    live g = true -> (match p with OErr _ | ODone => True | _ => False end) ->
    oview KAsync o Active g (p :: h) = bcast KAsync g p.
Proof. exact (fun A => oview_active_end KAsync). Qed.
Print Assumptions C23_current_subscriber_at_end.

(* ... and a later subscriber receives the same as its greeting, and nothing else *)
Theorem C23_late_subscriber :
  forall (A : Type) (o : nat) (g : @gstate A) (h : list (@op A)),
    live g = false -> oview KAsync o Before g (OSub o :: h) = greet KAsync g.
Proof. exact (fun A => late_subscriber KAsync). Qed.
Print Assumptions C23_late_subscriber.

(* the greeting of an ended AsyncSubject: after on_completed the final value (if any) then completion,
   after on_error the error *)
Theorem C23_greeting_after_end :
  forall (A : Type) (g : @gstate A) (t : ev A), g_status g = Ended t ->
    greet KAsync g = match t with Done => final g | _ => [t] end.
Proof. exact (fun A => greet_ended KAsync). Qed.
Print Assumptions C23_greeting_after_end.

(* ---- end to end, on the machine itself (histories of top-level calls) ----
   [last_value h] is the value of the last on_next call in h (None if there is
   none); [final_of h] = [Next v; Done] if last_value h = Some v, else [Done].
   An observer that subscribes (for the first time) after the calls pre1, is
   not unsubscribed during pre2, where pre1 and pre2 contain no
   on_error/on_completed/dispose, receives from the REAL machine, when
   on_completed is then called, exactly the value of the last on_next call of
   pre1++pre2 followed by completion (completion alone if there was none) -- and
   nothing else, whatever calls follow; the run terminates. *)
Theorem C23_end_to_end :
  forall (A : Type) (pynone v0 : A) (o : nat) (pre1 pre2 post : list (@op A)),
    no_end (pre1 ++ pre2) -> no_sub o pre1 -> no_unsub o pre2 ->
    exists fuel0, forall fuel, (fuel0 <= fuel)%nat ->
      snd (run_history (async_cls pynone) v0 fuel (pre1 ++ OSub o :: pre2 ++ ODone :: post, [])) = true /\
      view o (fst (run_history (async_cls pynone) v0 fuel (pre1 ++ OSub o :: pre2 ++ ODone :: post, []))) =
      final_of (pre1 ++ pre2).
Proof. exact (fun A pynone v0 o pre1 pre2 post Hne Hns Hnu => async_view_until_end pynone v0 o pre1 pre2 ODone post Hne Hns Hnu I). Qed.
Print Assumptions C23_end_to_end.

(* the same when on_error(e) is called instead: exactly the error *)
Theorem C23_end_to_end_error :
  forall (A : Type) (pynone v0 : A) (o : nat) (pre1 pre2 : list (@op A)) (e : Z) (post : list (@op A)),
    no_end (pre1 ++ pre2) -> no_sub o pre1 -> no_unsub o pre2 ->
    exists fuel0, forall fuel, (fuel0 <= fuel)%nat ->
      snd (run_history (async_cls pynone) v0 fuel (pre1 ++ OSub o :: pre2 ++ OErr e :: post, [])) = true /\
      view o (fst (run_history (async_cls pynone) v0 fuel (pre1 ++ OSub o :: pre2 ++ OErr e :: post, []))) =
      [Err e].
Proof. exact (fun A pynone v0 o pre1 pre2 e post Hne Hns Hnu => async_view_until_end pynone v0 o pre1 pre2 (OErr e) post Hne Hns Hnu I). Qed.
Print Assumptions C23_end_to_end_error.

(* an observer that subscribes (for the first time) after on_completed -- the
   subject not being disposed in between -- receives the last on_next value
   before the completion followed by completion, immediately and nothing else *)
Theorem C23_late_subscriber_end_to_end :
  forall (A : Type) (pynone v0 : A) (o : nat) (pre1 pre2 post : list (@op A)),
    no_end pre1 -> no_dispose pre2 -> no_sub o (pre1 ++ ODone :: pre2) ->
    exists fuel0, forall fuel, (fuel0 <= fuel)%nat ->
      snd (run_history (async_cls pynone) v0 fuel ((pre1 ++ ODone :: pre2) ++ OSub o :: post, [])) = true /\
      view o (fst (run_history (async_cls pynone) v0 fuel ((pre1 ++ ODone :: pre2) ++ OSub o :: post, []))) =
      final_of pre1.
Proof. exact (fun A pynone v0 o pre1 pre2 post Hne Hnd Hns => async_view_after_end pynone v0 o pre1 ODone pre2 post Hne Hnd Hns I). Qed.
Print Assumptions C23_late_subscriber_end_to_end.

(* the same after on_error(e): exactly the error *)
Theorem C23_late_subscriber_error_end_to_end :
  forall (A : Type) (pynone v0 : A) (o : nat) (pre1 : list (@op A)) (e : Z) (pre2 post : list (@op A)),
    no_end pre1 -> no_dispose pre2 -> no_sub o (pre1 ++ OErr e :: pre2) ->
    exists fuel0, forall fuel, (fuel0 <= fuel)%nat ->
      snd (run_history (async_cls pynone) v0 fuel ((pre1 ++ OErr e :: pre2) ++ OSub o :: post, [])) = true /\
      view o (fst (run_history (async_cls pynone) v0 fuel ((pre1 ++ OErr e :: pre2) ++ OSub o :: post, []))) =
      [Err e].
Proof. exact (fun A pynone v0 o pre1 e pre2 post Hne Hnd Hns => async_view_after_end pynone v0 o pre1 (OErr e) pre2 post Hne Hnd Hns I). Qed.
Print Assumptions C23_late_subscriber_error_end_to_end.

(* the hypotheses of the end-to-end theorems are satisfiable by a non-trivial
   history (another subscriber, values before and after the subscription, an
   unsubscription of someone else), and the promised sequence is not empty *)
Example C23_witness_end_to_end_hyp :
  no_end ([OSub 1%nat; ONext 4] ++ [ONext 0; OUnsub 1%nat; ONext 2]) /\
  no_sub 0%nat [OSub 1%nat; ONext 4] /\ no_unsub 0%nat [ONext 0; OUnsub 1%nat; ONext 2] /\
  final_of ([OSub 1%nat; ONext 4] ++ [ONext 0; OUnsub 1%nat; ONext 2]) = [Next 2; Done] /\
  final_of [OSub 1%nat] = [@Done Z].
Proof.
  repeat split; try reflexivity; intros p H; cbn in H;
    repeat (destruct H as [<-|H]; [first [exact I|discriminate]|]); destruct H.
Qed.

Example C23_witness_late_hyp :
  no_end [OSub 1%nat; ONext 4; ONext 2] /\ no_dispose [ONext 7; OErr 11; ODone] /\
  no_sub 0%nat ([OSub 1%nat; ONext 4; ONext 2] ++ ODone :: [ONext 7; OErr 11; ODone]) /\
  final_of [OSub 1%nat; ONext 4; ONext 2] = [Next 2; Done].
Proof.
  repeat split; try reflexivity; intros p H; cbn in H;
    repeat (destruct H as [<-|H]; [first [exact I|discriminate]|]); destruct H.
Qed.

(* ---- arbitrary call trees ---- *)
(* NOTHING BEFORE TERMINATION, on every call tree (observers that subscribe, unsubscribe, emit,
   complete or dispose from inside their callbacks) and every fuel: while the subject's is_stopped
   flag is false (it is set by on_error, on_completed and dispose) no observer has received
   anything *)
Theorem C23_tree_nothing_before_termination :
  forall (A : Type) (pynone : A) (react : nat -> nat -> list (@op A)) (v0 : A) (top : list (@op A)) (fuel o : nat),
    let c := run (async_cls pynone) react fuel (init_cfg v0 top) in
    is_stopped (c_st c) = false -> view o (log_of c) = [].
Proof. exact (@async_tree_nothing_before_termination). Qed.
Print Assumptions C23_tree_nothing_before_termination.

(* the same in terms of the calls alone: as long as the log contains no on_error / on_completed /
   dispose call -- made by the driver or from inside ANY callback -- nobody has received anything *)
Theorem C23_tree_silent_until_an_end_call :
  forall (A : Type) (pynone : A) (react : nat -> nat -> list (@op A)) (v0 : A) (top : list (@op A)) (fuel o : nat),
    let c := run (async_cls pynone) react fuel (init_cfg v0 top) in
    forallb no_end_event (log_of c) = true -> view o (log_of c) = [].
Proof.
  intros A pynone react v0 top fuel o c H. apply async_tree_nothing_before_termination.
  assert (HU : unstopped c) by (apply (run_ind _ react unstopped); [apply unstopped_step|intros _; reflexivity]).
  apply HU. unfold log_of in H. rewrite forallb_forall in *. intros x Hx. apply H. now apply in_rev in Hx.
Qed.
Print Assumptions C23_tree_silent_until_an_end_call.

(* each observer's received sequence obeys the grammar  on_next* (on_error | on_completed)? *)
Theorem C23_views_wellformed :
  forall (A : Type) (pynone : A) (react : nat -> nat -> list (@op A)) (v0 : A) (top : list (@op A)) (fuel o : nat),
    wellformed (view o (log_of (run (async_cls pynone) react fuel (init_cfg v0 top)))) = true.
Proof. exact (fun A pynone react => views_wellformed (async_cls pynone) react). Qed.
Print Assumptions C23_views_wellformed.

(* unsubscribing takes effect at once, also from inside a callback and in the middle of a delivery loop *)
Theorem C23_unsubscribed_gets_nothing_more :
  forall (A : Type) (pynone : A) (react : nat -> nat -> list (@op A)) s m k l o os n,
    m o = Some os -> handle os = true ->
    view o (log_of (run (async_cls pynone) react n (Cfg s m (IOp (OUnsub o) :: k) l))) = view o (rev l).
Proof. exact (fun A pynone react => unsubscribed_gets_nothing_more (async_cls pynone) react). Qed.
Print Assumptions C23_unsubscribed_gets_nothing_more.

(* after dispose(): emitting raises DisposedException and reaches nobody *)
Theorem C23_disposed_emit_raises :
  forall (A : Type) (pynone : A) (react : nat -> nat -> list (@op A)) (s : @sstate A) m k l p,
    is_disposed s = true -> is_emission p = true ->
    step (async_cls pynone) react (Cfg s m (IOp p :: k) l) = Cfg s m k (ERaised disposed_exn :: EOp p :: l).
Proof. exact (fun A pynone react => disposed_emit_raises pynone KAsync react). Qed.
Print Assumptions C23_disposed_emit_raises.

(* ... and subscribing is answered with DisposedException, handed to the subscriber's on_error; nobody is registered *)
Theorem C23_disposed_subscribe_fails :
  forall (A : Type) (pynone : A) (react : nat -> nat -> list (@op A)) (s : @sstate A) m k l o,
    is_disposed s = true -> m o = None ->
    step (async_cls pynone) react (Cfg s m (IOp (OSub o) :: k) l) =
    Cfg s (upd m o (called true fresh_ostate)) (map IOp (react o 0%nat) ++ ISubRet o None :: k)
        (EGot o (Err disposed_exn) :: EOp (OSub o) :: l).
Proof. exact (fun A pynone react => disposed_subscribe_fails pynone KAsync react). Qed.
Print Assumptions C23_disposed_subscribe_fails.


(* a subscribed observer stays registered: on every call tree, an observer whose
   wrapper is not stopped (it subscribed, has not unsubscribed, has received no
   terminal) is in the observer list of a live subject -- i.e. in the snapshot
   `self.observers.copy()` of the next emission *)
Theorem C23_subscribed_observer_is_in_the_snapshot :
  forall (A : Type) (pynone : A) (react : nat -> nat -> list (@op A)) (v0 : A) (top : list (@op A)) (fuel o : nat) os,
    let c := run (async_cls pynone) react fuel (init_cfg v0 top) in
    c_obs c o = Some os -> a_stopped os = false -> subject_live (c_st c) -> In o (observers (c_st c)).
Proof. exact (fun A pynone react v0 => live_observer_registered pynone KAsync react v0). Qed.
Print Assumptions C23_subscribed_observer_is_in_the_snapshot.

(* completion hands [last value; completion] (or just completion) to every registered observer *)
Theorem C23_completion_goes_to_the_snapshot :
  forall (A : Type) (pynone : A) (s : @sstate A),
    snd (c_completed (async_cls pynone) s) =
    flat_map (fun o => map (IDeliver o) (if has_value s then [Next (value s); Done] else [Done])) (observers s).
Proof.
  intros A pynone s. cbn. unfold async_completed. cbn. destruct (has_value s); [reflexivity|].
  now rewrite <- flat_map_single.
Qed.
Print Assumptions C23_completion_goes_to_the_snapshot.

(* ---- witnesses (pool ids: 0 = None, 1 = 0, 2 = False) ---- *)
(* values None, 0, False are swallowed; completion hands False then completion
   to the current and to a later subscriber *)
Example C23_witness_flat :
  run_history (async_cls 0) 0 100
    ([OSub 0%nat; ONext 0; ONext 1; OSub 1%nat; ONext 2; ODone; OSub 2%nat; ONext 1], [])
  = ([EOp (OSub 0%nat); EOp (ONext 0); EOp (ONext 1); EOp (OSub 1%nat); EOp (ONext 2); EOp ODone;
      EGot 0%nat (Next 2); EGot 0%nat Done; EGot 1%nat (Next 2); EGot 1%nat Done;
      EOp (OSub 2%nat); EGot 2%nat (Next 2); EGot 2%nat Done; EOp (ONext 1)], true).
Proof. vm_compute. reflexivity. Qed.

(* no value: only completion; error: only the error, also for a late subscriber *)
Example C23_witness_error :
  run_history (async_cls 0) 0 100 ([OSub 0%nat; ONext 1; OErr 11; OSub 1%nat], [])
  = ([EOp (OSub 0%nat); EOp (ONext 1); EOp (OErr 11); EGot 0%nat (Err 11);
      EOp (OSub 1%nat); EGot 1%nat (Err 11)], true).
Proof. vm_compute. reflexivity. Qed.

(* re-entrancy: observer 0 unsubscribes itself inside on_next(final value): it
   does not get the completion; observer 1 still gets both *)
Example C23_witness_reentrant :
  run_history (async_cls 0) 0 100 ([OSub 0%nat; OSub 1%nat; ONext 5; ODone], [(0%nat, [[OUnsub 0%nat]])])
  = ([EOp (OSub 0%nat); EOp (OSub 1%nat); EOp (ONext 5); EOp ODone; EGot 0%nat (Next 5); EOp (OUnsub 0%nat);
      EGot 1%nat (Next 5); EGot 1%nat Done], true).
Proof. vm_compute. reflexivity. Qed.

Example C23_witness_hyp : no_end [OSub 0%nat; ONext 1; OUnsub 0%nat] /\ live (g_init 0) = true.
Proof. split; [intros p [<-|[<-|[<-|[]]]]; exact I|reflexivity]. Qed.

(* the hypothesis of the tree-level silence theorems holds on a run with subscriptions, values and
   an unsubscription (and the subject is still live) *)
Example C23_witness_tree_silent_hyp :
  let c := run (async_cls 0) (react_tbl []) 100 (init_cfg 0 [OSub 0%nat; ONext 4; OSub 1%nat; OUnsub 0%nat; ONext 5]) in
  forallb no_end_event (log_of c) = true /\ is_stopped (c_st c) = false /\ c_k c = [].
Proof. vm_compute. repeat split. Qed.
