(* C34 -- real-time schedulers never run an action early or after cancellation.

   Per scheduler kind, over ALL schedules (lists of thread steps and clock advances), any number of
   calling threads and any programs:
   - TimeoutScheduler: transition system Core/RealTime.v (one threading.Timer per action; Timer =
     its CPython source over an Event whose wait returns no earlier than its timeout unless set);
   - EventLoopScheduler, and NewThreadScheduler / ThreadPoolScheduler which delegate every call to a
     fresh EventLoopScheduler(exit_if_empty=True): transition system Core/EventLoop.v (C31);
   - ImmediateScheduler: a function.
   Due times are on the scheduler clock: absolute t -> t; relative d -> (clock reading of the call) +
   max(0, d).  Besides never early / never after cancellation, each part ties the due time to the call
   that asked for it (C34_timeout_start_due_was_returned, C34_eventloop_due_linked, C34_eventloop_due_exact).
   Order of the file: TimeoutScheduler, the EventLoopScheduler family, ImmediateScheduler, examples for
   these; then the exact due times and NewThread / ThreadPool composed with the inner loop
   (Core/EventLoopFacts3.v), with their examples.  Tie to /repo: harness/props/C34.py. *)
From RxVerif Require Import Base.Prelude Core.RealTime Core.EventLoop Core.EventLoopFacts Core.RealTimeFacts Core.RealTimeFacts2.
From RxVerif Require Import Core.EventLoopFacts2 Core.EventLoopFacts3.
Local Open Scope Z_scope.

(* ---- TimeoutScheduler ---------------------------------------------------------------------- *)
Theorem C34_timeout_not_early : forall t0 progs sched tid t a due,
  In (tid, t, TStart a due) (t_log (trun (tinit t0 progs) sched)) -> due <= t.
Proof. intros. destruct (invR_run t0 progs sched) as (_ & _ & _ & R4). destruct (R4 _ _ _ _ H) as [X _]. exact X. Qed.
Print Assumptions C34_timeout_not_early.

(* an action that starts: every dispose() of its disposable returned at a clock reading >= its due
   time; i.e. disposed before its due time => never starts *)
Theorem C34_timeout_not_after_cancel : forall t0 progs sched tid t a due tid' t',
  In (tid, t, TStart a due) (t_log (trun (tinit t0 progs) sched)) ->
  In (tid', t', TCancelRet a) (t_log (trun (tinit t0 progs) sched)) -> due <= t'.
Proof. intros. destruct (invR_run t0 progs sched) as (_ & _ & _ & R4). destruct (R4 _ _ _ _ H) as [_ Y]. eapply Y; eassumption. Qed.
Print Assumptions C34_timeout_not_after_cancel.

(* the due time (ghost) is tied to the request.  Step lemma, any state: schedule(a) / schedule_relative(d, a)
   is one step that returns due = clock + max(0, d) (d = 0 for schedule) and starts exactly one Timer thread
   for [a] with that due time and interval max(0, d) *)
Theorem C34_timeout_due_recorded : forall ntid s o r a d,
  (o = TNow a /\ d = 0) \/ o = TRel d a ->
  caller_step ntid s None (o :: r) =
    Some (s, Caller None r, [TSpawn ntid; TRet a (tclock s + Z.max 0 d)],
          Some (Timer a (tclock s + Z.max 0 d) (PNew (Z.max 0 d)))).
Proof.
  intros ntid s o r a d [[-> ->]| ->]; cbn [caller_step].
  - replace (tclock s + Z.max 0 0) with (tclock s) by lia. reflexivity.
  - reflexivity.
Qed.
Print Assumptions C34_timeout_due_recorded.

(* schedule_absolute(t, a): nothing observable up to the clock read; the second step (at state s2) returns
   due = t and starts the Timer with interval max(0, t - now): it cannot expire before t *)
Theorem C34_timeout_due_recorded_abs : forall ntid s t a r,
  caller_step ntid s None (TAbs t a :: r) = Some (s, Caller (Some (t, a)) r, [], None) /\
  forall s2, caller_step ntid s2 (Some (t, a)) r =
    Some (s2, Caller None r, [TSpawn ntid; TRet a t], Some (Timer a t (PNew (Z.max 0 (t - tclock s2))))) /\
    t <= tclock s2 + Z.max 0 (t - tclock s2).
Proof. intros. split; [reflexivity|]. intros s2. split; [reflexivity|lia]. Qed.
Print Assumptions C34_timeout_due_recorded_abs.

(* run level: the due time an action is started with IS a due time that a schedule call for that action
   returned, and that call returned no later than the start *)
Theorem C34_timeout_start_due_was_returned : forall t0 progs sched tid t a due,
  In (tid, t, TStart a due) (t_log (trun (tinit t0 progs) sched)) ->
  exists tid' t', In (tid', t', TRet a due) (t_log (trun (tinit t0 progs) sched)) /\ t' <= t.
Proof. intros. destruct (invR2_run t0 progs sched) as [_ [_ T2]]. eapply T2, H. Qed.
Print Assumptions C34_timeout_start_due_was_returned.

(* "... and that call returned at or before the due time" is NOT a theorem: schedule_absolute with a time
   in the past returns due = t with the clock already past t (the action then runs at once: late, never early) *)
Theorem C34_timeout_ret_before_due_refuted :
  t_log timeout_abs_past_witness =
    [(0%nat, 100, TSpawn 1); (0%nat, 100, TRet 7 50); (1%nat, 100, TStart 7 50)] /\
  forall tid' t', In (tid', t', TRet 7%nat 50) (t_log timeout_abs_past_witness) -> ~ t' <= 50.
Proof.
  vm_compute. split; [reflexivity|]. intros tid' t' [H|[H|[H|[]]]]; inv H. intros LE. apply LE. reflexivity.
Qed.
Print Assumptions C34_timeout_ret_before_due_refuted.

(* ---- EventLoopScheduler (and NewThread / ThreadPool through it) -------------------------------- *)
Theorem C34_eventloop_not_early : forall eie body t0 progs sched tid t i,
  In (tid, t, EStart i) (c_log (run eie body (init t0 progs) sched)) -> it_due i <= t.
Proof. exact el_not_early. Qed.
Print Assumptions C34_eventloop_not_early.

Theorem C34_eventloop_not_after_cancel : forall eie body t0 progs sched tid t i tid' t',
  let c := run eie body (init t0 progs) sched in
  In (tid, t, EStart i) (c_log c) -> In (tid', t', ECancelRet (it_lbl i)) (c_log c) -> it_due i <= t'.
Proof. exact el_not_after_cancel_before_due. Qed.
Print Assumptions C34_eventloop_not_after_cancel.

(* the due time of an event-loop item is tied to the call: the call that made an accepted item is in the log
   (same uid, same action) and its first step -- the one that read the clock -- happened at or before the
   item's due time, unless the due time is the argument of a schedule_absolute for that action somewhere
   in the programs / action bodies (the statement of C31_accepted_due_linked) *)
Theorem C34_eventloop_due_linked : forall eie body progs t0 sched i,
  let c := run eie body (init t0 progs) sched in
  In (EAcc i) (L c) ->
  exists tid tc, In (tid, tc, ECall (it_uid i) (it_lbl i)) (c_log c) /\
    (tc <= it_due i \/ (exists p, In p progs /\ In (SchedAbs (it_due i) (it_lbl i)) p) \/
                       exists a, In (SchedAbs (it_due i) (it_lbl i)) (body a)).
Proof. exact el_accepted_due_linked. Qed.
Print Assumptions C34_eventloop_due_linked.

(* NewThreadScheduler.schedule_absolute(t) turns t into a delay at clock reading now1 and the inner
   scheduler turns the delay back into an absolute time at reading now2 >= now1: never before t *)
Theorem C34_newthread_absolute_not_early : forall t now1 now2,
  now1 <= now2 -> t <= newthread_abs_due t now1 now2.
Proof. intros. unfold newthread_abs_due. lia. Qed.
Print Assumptions C34_newthread_absolute_not_early.

(* ---- ImmediateScheduler ------------------------------------------------------------------------ *)
Theorem C34_immediate_schedule : forall clock a, imm_schedule clock a = [IStart a clock; IEnd a; IRet a].
Proof. reflexivity. Qed.
Print Assumptions C34_immediate_schedule.

Theorem C34_immediate_relative : forall clock d a,
  (0 < d -> imm_relative clock d a = [IWouldBlock a]) /\
  (d <= 0 -> imm_relative clock d a = [IStart a clock; IEnd a; IRet a]).
Proof. exact imm_relative_spec. Qed.
Print Assumptions C34_immediate_relative.

Theorem C34_immediate_absolute : forall clock t later a, 0 <= later ->
  (clock < t -> imm_absolute clock t later a = [IWouldBlock a]) /\
  (t <= clock -> imm_absolute clock t later a = [IStart a (clock + later); IEnd a; IRet a] /\ t <= clock + later).
Proof.
  intros clock t later a LE. unfold imm_absolute. destruct (imm_relative_spec (clock + later) (t - clock) a) as [R1 R2].
  split; intros H; [apply R1; lia|]. split; [apply R2; lia|lia].
Qed.
Print Assumptions C34_immediate_absolute.

(* ---- non-vacuity of the above ------------------------------------------------------------------ *)
(* a relative timer of 2000 fires at 2000 although the clock thread passes 1000 first; the timer of
   action 2 is cancelled at 0 < 1000 and never fires; action 3 (absolute 1000) fires at 1000 *)
Example C34_ex_timeout :
  let c := trun (tinit 0 [[TRel 2000 1%nat; TRel 1000 2%nat; TCancel 2%nat]; [TAbs 1000 3%nat]])
                (map TMStep [0; 0; 0; 1; 1; 2; 3; 4]%nat ++ [TMTick 1000%N] ++ map TMStep [2; 3; 4; 4; 4]%nat ++
                 [TMTick 1000%N] ++ map TMStep [2; 2; 2]%nat) in
  map (fun x => (snd (fst x), snd x)) (filter (fun x => match snd x with TStart _ _ => true | _ => false end) (t_log c))
    = [(1000, TStart 3 1000); (2000, TStart 1 2000)] /\
  map RealTime.tstatus (t_ths c) = [1; 1; 1; 1; 1]%nat.
Proof. vm_compute. split; reflexivity. Qed.

(* the window of threading.Timer (is_set() then call) exists in the model: a dispose AFTER the due
   time can be followed by the action -- outside the property, which speaks of disposal before the
   due time *)
Example C34_ex_timeout_late_cancel :
  let c := trun (tinit 0 [[TNow 1%nat; TCancel 1%nat]]) (map TMStep [0; 1; 1; 0; 1; 1]%nat) in
  map snd (t_log c) = [TSpawn 1; TRet 1 0; TCancelRet 1; TStart 1 0; TEnd 1; TExit].
Proof. vm_compute. reflexivity. Qed.

Example C34_ex_immediate :
  imm_absolute 5000 1000 700 1%nat = [IStart 1 5700; IEnd 1; IRet 1] /\
  imm_absolute 0 1000 0 1%nat = [IWouldBlock 1] /\ imm_relative 0 (-5) 1%nat = [IStart 1 0; IEnd 1; IRet 1].
Proof. vm_compute. repeat split; reflexivity. Qed.

(* the event-loop family: cancel at 0 of an item due at 1000, which therefore never starts *)
Example C34_ex_eventloop_cancel :
  let c := run true nobody (init 0 [[SchedRel 1000 1%nat; Cancel 1%nat]])
               (steps [0; 0; 0; 0; 1; 1; 1]%nat ++ [MTick 1000] ++ steps [1; 1; 1; 1; 1]%nat) in
  map it_lbl (checks (L c)) = [1%nat] /\ existsb (is_start_of 1) (L c) = false /\ quiescent c = true.
Proof. vm_compute. repeat split; reflexivity. Qed.

(* ---- NewThreadScheduler / ThreadPoolScheduler composed with the inner event loop (Core/EventLoopFacts3.v) ---- *)
(* the due time of an accepted event-loop item is EXACTLY what the call that made it computed: the call (same
   uid, same action) is in the log, its first step read the clock at tc >= t0, and due = tc for schedule,
   tc + max(0, d) for a schedule_relative(d) of that action occurring in a program / action body, or the
   argument of a schedule_absolute of that action *)
Theorem C34_eventloop_due_exact : forall eie body progs t0 sched i,
  let c := run eie body (init t0 progs) sched in
  In (EAcc i) (L c) ->
  exists tid tc, In (tid, tc, ECall (it_uid i) (it_lbl i)) (c_log c) /\ t0 <= tc /\
    ((src body progs (SchedNow (it_lbl i)) /\ it_due i = tc) \/
     (exists d, src body progs (SchedRel d (it_lbl i)) /\ it_due i = tc + Z.max 0 d) \/
     src body progs (SchedAbs (it_due i) (it_lbl i))).
Proof. exact el_accepted_due_exact. Qed.
Print Assumptions C34_eventloop_due_exact.

(* NewThread / ThreadPool schedule_absolute(t, a): the outer call reads the clock (now1) and hands the delay
   t - now1 to schedule_relative of a fresh EventLoopScheduler whose clock reads now2 >= now1 at the earliest.
   Whatever else happens on that loop (other threads, action bodies: anything except another scheduling call
   for the same action a), over all schedules: an item of action a that starts has due >= t, starts at a
   clock reading >= t, and every dispose() of a's disposable returned at a reading >= t (disposed before t
   => never starts) *)
Theorem C34_newthread_absolute_composed : forall eie body progs t now1 now2 a sched,
  now1 <= now2 ->
  (forall o, src body progs o -> only_rel a (t - now1) o) ->
  let c := run eie body (init now2 progs) sched in
  forall tid ts i, In (tid, ts, EStart i) (c_log c) -> it_lbl i = a ->
    t <= it_due i /\ t <= ts /\ forall tid' t', In (tid', t', ECancelRet a) (c_log c) -> t <= t'.
Proof. exact newthread_absolute_composed. Qed.
Print Assumptions C34_newthread_absolute_composed.

(* the same by uid, for the inner loop as NewThreadScheduler makes it: it receives exactly one outside call
   (uid 0); the action body is ARBITRARY (it may schedule a again with any delay, cancel, dispose the scheduler) *)
Theorem C34_newthread_absolute_one_call : forall eie body t now1 now2 a sched,
  now1 <= now2 ->
  let c := run eie body (init now2 [[SchedRel (t - now1) a]]) sched in
  forall tid ts i, In (tid, ts, EStart i) (c_log c) -> it_uid i = 0%nat ->
    it_lbl i = a /\ t <= ts /\ forall tid' t', In (tid', t', ECancelRet a) (c_log c) -> t <= t'.
Proof. exact newthread_absolute_one_call. Qed.
Print Assumptions C34_newthread_absolute_one_call.

(* non-vacuity.  t = 150, now1 = 90 (delay 60), inner clock now2 = 100: the item is due at 160 >= 150; it
   starts at 160 and a second thread's dispose() returns at 160 (after the is_cancelled() test); the
   hypothesis on the programs holds *)
Example C34_ex_newthread_composed :
  let progs := [[SchedRel (150 - 90) 1%nat]; [Cancel 1%nat]] in
  let c := run true nobody (init 100 progs)
               (steps [0; 0; 0; 2; 2; 2]%nat ++ [MTick 60] ++ steps [2; 2; 2; 2; 1; 2; 2]%nat) in
  (forall o, src nobody progs o -> only_rel 1%nat (150 - 90) o) /\
  In (2%nat, 160, EStart (Item 0 1 160 false)) (c_log c) /\ In (1%nat, 160, ECancelRet 1%nat) (c_log c) /\
  quiescent c = true.
Proof.
  split.
  - intros o [(p & [<-|[<-|[]]] & [<-|[]])|(b & [])]; cbn; auto.
  - vm_compute. repeat split; auto 12.
Qed.

(* one-call form with a body that schedules another action and disposes its own disposable: uid 0 starts
   at 170 >= 150 (the clock thread overslept), the nested item (uid 1) at 175 *)
Example C34_ex_newthread_one_call :
  let bw := fun b : nat => match b with 1%nat => [SchedRel 5 2%nat; Cancel 1%nat] | _ => [] end in
  let c := run true bw (init 100 [[SchedRel (150 - 90) 1%nat]])
               (steps [0; 0; 0; 1; 1; 1]%nat ++ [MTick 70] ++ steps [1; 1; 1; 1; 1; 1; 1; 1; 1; 1; 1; 1]%nat ++
                [MTick 5] ++ steps [1; 1; 1; 1; 1; 1; 1]%nat) in
  In (1%nat, 170, EStart (Item 0 1 160 false)) (c_log c) /\ In (1%nat, 170, ECancelRet 1%nat) (c_log c) /\
  In (1%nat, 175, EStart (Item 1 2 175 false)) (c_log c) /\ quiescent c = true.
Proof. vm_compute. repeat split; auto 20. Qed.
