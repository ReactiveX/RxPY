(* C09 -- exceptions raised by user callbacks are delivered as on_error.
   In the machine model a handler can only end in Cont / Complete / Fail e:
   there is no way for an exception to reach the emitter, so "does not
   propagate into whoever emitted the notification" is carried by the
   correspondence (an escaping exception is rendered as a pseudo-notification
   no machine produces).  The theorems say where a raising callback leads:
   closed forms for map and filter with ARBITRARY callbacks; step-level routing
   lemmas (the C09_route_ theorems: a raising callback makes the step answer
   Fail e) for map, map_indexed, filter, filter_indexed, take_while(_indexed),
   skip_while, distinct, distinct_until_changed, find, scan with a seed, the key
   mapper of max_by / min_by, both mappers of to_dict -- not for seedless scan,
   reduce, the comparer of the extrema, some / all / contains, starmap,
   skip_while_indexed; that the subscription ends at that instant with nothing
   after the error; and run-level forms (the C09_first_raise_ and C09_run_
   theorems) over Ops/FirstRaise.v, Ops/FirstRaise2.v. *)
From RxVerif Require Import Base.Prelude Ops.Machine Ops.MachineFacts Ops.Elementwise Ops.Aggregates
  Ops.RaiseFacts Ops.FirstRaise.

Theorem C09_map_any_callback : forall A B (f : A -> res B) xs t,
  exec (op_map f) (events xs t)
  = nexts (fst (until_raise f 1 xs)) ++ close (S (length xs)) t (snd (until_raise f 1 xs)).
Proof. intros *. unfold exec. cbn -[exec_from]. apply map_raise_from. Qed.
Print Assumptions C09_map_any_callback.

Theorem C09_filter_any_callback : forall A (p : A -> res bool) xs t,
  exec (op_filter p) (events xs t)
  = nexts (somes (fst (until_raise (keep p) 1 xs)))
    ++ close (S (length xs)) t (snd (until_raise (keep p) 1 xs)).
Proof. intros *. unfold exec. cbn -[exec_from]. apply filter_raise_from. Qed.
Print Assumptions C09_filter_any_callback.

(* a failing step ends the subscription: its outputs, then Err e, then nothing *)
Theorem C09_failure_ends_subscription :
  forall A B (m : mealy A B) s k x rest s' outs e,
    m_next m s x = (s', outs, Fail e) ->
    exec_from m s k (Next x :: rest) = map (fun b => (k, Next b)) outs ++ [(k, Err e)].
Proof. exact @fail_stops. Qed.
Print Assumptions C09_failure_ends_subscription.

(* grammar survives any failure *)
Theorem C09_grammar_after_failure : forall A B (m : mealy A B) ins, wellformed (untag (exec m ins)) = true.
Proof. exact @exec_wellformed. Qed.
Print Assumptions C09_grammar_after_failure.

(* routing, operator by operator *)
Theorem C09_route_map : forall A B (f : A -> res B) s x e,
  f x = Raise e -> m_next (op_map f) s x = (s, [], Fail e).
Proof. intros * H. cbn. now rewrite H. Qed.
Theorem C09_route_map_indexed : forall A B (f : A -> nat -> res B) i x e,
  f x i = Raise e -> m_next (op_map_indexed f) i x = (i, [], Fail e).
Proof. intros * H. cbn. now rewrite H. Qed.
Theorem C09_route_filter : forall A (p : A -> res bool) s x e,
  p x = Raise e -> m_next (op_filter p) s x = (s, [], Fail e).
Proof. intros * H. cbn. now rewrite H. Qed.
Theorem C09_route_filter_indexed : forall A (p : A -> nat -> res bool) i x e,
  p x i = Raise e -> m_next (op_filter_indexed p) i x = (i, [], Fail e).
Proof. intros * H. cbn. now rewrite H. Qed.
Theorem C09_route_take_while : forall A (p : A -> res bool) inc x e,
  p x = Raise e -> m_next (op_take_while p inc) true x = (true, [], Fail e).
Proof. intros * H. cbn. now rewrite H. Qed.
Theorem C09_route_take_while_indexed : forall A (p : A -> nat -> res bool) inc i x e,
  p x i = Raise e -> m_next (op_take_while_indexed p inc) (true, i) x = ((true, i), [], Fail e).
Proof. intros * H. cbn. now rewrite H. Qed.
Theorem C09_route_skip_while : forall A (p : A -> res bool) x e,
  p x = Raise e -> m_next (op_skip_while p) false x = (false, [], Fail e).
Proof. intros * H. cbn. now rewrite H. Qed.
Theorem C09_route_distinct_key : forall A K (key : A -> res K) cmp set x e,
  key x = Raise e -> m_next (op_distinct key cmp) set x = (set, [], Fail e).
Proof. intros * H. cbn. now rewrite H. Qed.
Theorem C09_route_distinct_comparer : forall A K (key : A -> res K) cmp set x k e,
  key x = Ok k -> hs_find cmp set k = Raise e -> m_next (op_distinct key cmp) set x = (set, [], Fail e).
Proof. intros * H1 H2. cbn. now rewrite H1, H2. Qed.
Theorem C09_route_duc_key : forall A K (key : A -> res K) cmp cur x e,
  key x = Raise e -> m_next (op_distinct_until_changed key cmp) cur x = (cur, [], Fail e).
Proof. intros * H. cbn. now rewrite H. Qed.
Theorem C09_route_duc_comparer : forall A K (key : A -> res K) cmp c x k e,
  key x = Ok k -> cmp c k = Raise e ->
  m_next (op_distinct_until_changed key cmp) (Some c) x = (Some c, [], Fail e).
Proof. intros * H1 H2. cbn. now rewrite H1, H2. Qed.
Theorem C09_route_find : forall A (p : A -> nat -> res bool) yi i x e,
  p x i = Raise e -> m_next (op_find p yi) i x = (i, [], Fail e).
Proof. intros * H. cbn. now rewrite H. Qed.
Theorem C09_route_scan : forall A B (f : B -> A -> res B) seed acc x e,
  f (match acc with Some a => a | None => seed end) x = Raise e ->
  m_next (op_scan_seed f seed) acc x = (acc, [], Fail e).
Proof. intros * H. cbn. now rewrite H. Qed.
Theorem C09_route_extrema_key : forall A K (key : A -> res K) cmp st x e,
  key x = Raise e -> m_next (op_extrema_by key cmp) st x = (st, [], Fail e).
Proof. intros * H. destruct st. cbn. now rewrite H. Qed.
Print Assumptions C09_route_map.
Print Assumptions C09_route_distinct_comparer.
Print Assumptions C09_route_extrema_key.

Print Assumptions C09_route_map_indexed.
Print Assumptions C09_route_filter.
Print Assumptions C09_route_filter_indexed.
Print Assumptions C09_route_take_while.
Print Assumptions C09_route_take_while_indexed.
Print Assumptions C09_route_skip_while.
Print Assumptions C09_route_distinct_key.
Print Assumptions C09_route_duc_key.
Print Assumptions C09_route_duc_comparer.
Print Assumptions C09_route_find.
Print Assumptions C09_route_scan.

Example C09_witness :
  exec (op_map (fun x => if x =? 3 then Raise 9 else Ok (x + 1))) (events [1; 2; 3; 4] TDone)
  = [(1%nat, Next 2); (2%nat, Next 3); (3%nat, Err 9)].
Proof. vm_compute. reflexivity. Qed.

(* ---- run level: lifting a failing step to the whole run (Ops/FirstRaise.v) ------------------------------
   [state_after m s pre = Some s']: the elements of pre were processed without the subscription ending and
   left the machine in s' (equivalently: no terminal in the run on pre, C09_live_prefix_iff).  If the step on
   x then fails, the run on  pre ++ x :: post ++ ANY tail  is the run on pre (unchanged), the outputs of the
   failing step and Err e at x's position -- and nothing after it. *)
Theorem C09_first_raise_generic :
  forall A B (m : mealy A B) pre x post tl s k s' s'' outs e,
    state_after m s pre = Some s' ->
    m_next m s' x = (s'', outs, Fail e) ->
    exec_from m s k (map Next (pre ++ x :: post) ++ tl)
    = exec_from m s k (map Next pre)
      ++ map (fun b => ((k + length pre)%nat, Next b)) outs ++ [((k + length pre)%nat, Err e)].
Proof. exact @first_raise_from. Qed.
Print Assumptions C09_first_raise_generic.

(* the same for a whole subscription *)
Theorem C09_first_raise_subscription :
  forall A B (m : mealy A B) pre x post tl s' s'' outs e,
    live (snd (m_pre m)) = true ->
    state_after m (m_init m) pre = Some s' ->
    m_next m s' x = (s'', outs, Fail e) ->
    exec m (map Next (pre ++ x :: post) ++ tl)
    = exec m (map Next pre) ++ map (fun b => (S (length pre), Next b)) outs ++ [(S (length pre), Err e)].
Proof. exact @first_raise_exec. Qed.
Print Assumptions C09_first_raise_subscription.

Theorem C09_live_prefix_iff : forall A B (m : mealy A B) xs s k,
  no_terminal (exec_from m s k (map Next xs)) = true <-> exists s', state_after m s xs = Some s'.
Proof. exact @state_after_iff_no_terminal. Qed.
Print Assumptions C09_live_prefix_iff.

(* operator by operator: the callback raises e on x after a prefix pre on which the operator stayed subscribed.
   That is stated as "the callback returned on every element of pre" ([oks_i], [Forall], [fold_ok]) where that
   has a closed form, and as [state_after .. pre = Some _] for distinct, distinct_until_changed, the extrema, find *)
Theorem C09_run_map_indexed : forall A B (f : A -> nat -> res B) pre x post tl e,
  oks_i f 0 pre -> f x (length pre) = Raise e ->
  exec (op_map_indexed f) (map Next (pre ++ x :: post) ++ tl)
  = exec (op_map_indexed f) (map Next pre) ++ [(S (length pre), Err e)].
Proof.
  intros * Hp Hx. apply (first_raise_exec0 (op_map_indexed f)) with (s' := length pre) (s'' := length pre);
    [reflexivity|exact (state_after_map_indexed f pre 0 Hp)|cbn; now rewrite Hx].
Qed.
Print Assumptions C09_run_map_indexed.

Theorem C09_run_filter_indexed : forall A (p : A -> nat -> res bool) pre x post tl e,
  oks_i p 0 pre -> p x (length pre) = Raise e ->
  exec (op_filter_indexed p) (map Next (pre ++ x :: post) ++ tl)
  = exec (op_filter_indexed p) (map Next pre) ++ [(S (length pre), Err e)].
Proof.
  intros * Hp Hx. apply (first_raise_exec0 (op_filter_indexed p)) with (s' := length pre) (s'' := length pre);
    [reflexivity|exact (state_after_filter_indexed p pre 0 Hp)|cbn; now rewrite Hx].
Qed.
Print Assumptions C09_run_filter_indexed.

(* take_while: everything the predicate accepted was forwarded, then the error *)
Theorem C09_run_take_while : forall A (p : A -> res bool) inc pre x post tl e,
  Forall (fun y => p y = Ok true) pre -> p x = Raise e ->
  exec (op_take_while p inc) (map Next (pre ++ x :: post) ++ tl)
  = nexts (indexed 1 pre) ++ [(S (length pre), Err e)].
Proof.
  intros * Hp Hx. apply (first_raise_closed (op_take_while p inc)) with (s' := true) (s'' := true);
    [reflexivity|exact (take_while_accepting p inc pre 1 Hp)|cbn; now rewrite Hx].
Qed.
Print Assumptions C09_run_take_while.

(* skip_while: still skipping, so the error is the only output *)
Theorem C09_run_skip_while : forall A (p : A -> res bool) pre x post tl e,
  Forall (fun y => p y = Ok true) pre -> p x = Raise e ->
  exec (op_skip_while p) (map Next (pre ++ x :: post) ++ tl) = [(S (length pre), Err e)].
Proof.
  intros * Hp Hx. apply (first_raise_closed (op_skip_while p) pre x post tl false false e []);
    [reflexivity|exact (skip_while_skipping p pre 1 Hp)|cbn; now rewrite Hx].
Qed.
Print Assumptions C09_run_skip_while.

(* scan with a seed: the accumulator folded over pre is a, and f a x raises *)
Theorem C09_run_scan_seed : forall A T (f : T -> A -> res T) seed pre x post tl a e,
  fold_ok f seed pre = Some a -> f a x = Raise e ->
  exec (op_scan_seed f seed) (map Next (pre ++ x :: post) ++ tl)
  = exec (op_scan_seed f seed) (map Next pre) ++ [(S (length pre), Err e)].
Proof.
  intros * Hp Hx. destruct (state_after_scan_seed f seed pre None a Hp) as [acc' [Hs Ha]].
  apply (first_raise_exec0 (op_scan_seed f seed)) with (s' := acc') (s'' := acc'); [reflexivity|exact Hs|].
  cbn. now rewrite Ha, Hx.
Qed.
Print Assumptions C09_run_scan_seed.

(* scan without a seed: the first element y is the accumulator, the callback runs from the second on *)
Theorem C09_run_scan : forall A (f : A -> A -> res A) y pre x post tl a e,
  fold_ok f y pre = Some a -> f a x = Raise e ->
  exec (op_scan f) (map Next ((y :: pre) ++ x :: post) ++ tl)
  = exec (op_scan f) (map Next (y :: pre)) ++ [(S (S (length pre)), Err e)].
Proof.
  intros * Hp Hx. apply (first_raise_exec0 (op_scan f) (y :: pre)) with (s' := Some a) (s'' := Some a);
    [reflexivity|exact (state_after_scan f pre y a Hp)|cbn; now rewrite Hx].
Qed.
Print Assumptions C09_run_scan.

(* distinct: key mapper or comparer raising; [set] = the keys stored after pre *)
Theorem C09_run_distinct : forall A K (key : A -> res K) (cmp : K -> K -> res bool) pre x post tl set e,
  state_after (op_distinct key cmp) [] pre = Some set ->
  (key x = Raise e \/ exists k, key x = Ok k /\ hs_find cmp set k = Raise e) ->
  exec (op_distinct key cmp) (map Next (pre ++ x :: post) ++ tl)
  = exec (op_distinct key cmp) (map Next pre) ++ [(S (length pre), Err e)].
Proof.
  intros * Hs Hx. apply (first_raise_exec0 (op_distinct key cmp)) with (s' := set) (s'' := set); [reflexivity|exact Hs|].
  cbn. destruct Hx as [Hk|[k [Hk Hc]]]; [now rewrite Hk|now rewrite Hk, Hc].
Qed.
Print Assumptions C09_run_distinct.

Theorem C09_run_distinct_until_changed :
  forall A K (key : A -> res K) (cmp : K -> K -> res bool) pre x post tl cur e,
  state_after (op_distinct_until_changed key cmp) None pre = Some cur ->
  (key x = Raise e \/ exists k c, key x = Ok k /\ cur = Some c /\ cmp c k = Raise e) ->
  exec (op_distinct_until_changed key cmp) (map Next (pre ++ x :: post) ++ tl)
  = exec (op_distinct_until_changed key cmp) (map Next pre) ++ [(S (length pre), Err e)].
Proof.
  intros * Hs Hx. apply (first_raise_exec0 (op_distinct_until_changed key cmp)) with (s' := cur) (s'' := cur);
    [reflexivity|exact Hs|].
  cbn. destruct Hx as [Hk|[k [c [Hk [-> Hc]]]]]; [now rewrite Hk|now rewrite Hk, Hc].
Qed.
Print Assumptions C09_run_distinct_until_changed.

(* max_by / min_by: key mapper OR comparer raising; nothing had been emitted, so the error is the only output *)
Theorem C09_run_extrema_by : forall A K (key : A -> res K) (cmp : K -> K -> res Z) pre x post tl st e,
  state_after (op_extrema_by key cmp) (None, []) pre = Some st ->
  (key x = Raise e \/ exists k lk, key x = Ok k /\ fst st = Some lk /\ cmp k lk = Raise e) ->
  exec (op_extrema_by key cmp) (map Next (pre ++ x :: post) ++ tl) = [(S (length pre), Err e)].
Proof.
  intros * Hs Hx. apply (first_raise_quiet (op_extrema_by key cmp)) with (s' := st) (s'' := st); [|reflexivity|exact Hs|].
  - intros [last items] y. cbn. destruct (key y) as [ky|]; [|easy].
    destruct last as [lk|]; [destruct (cmp ky lk)|]; easy.
  - destruct st as [last items]. cbn in *. destruct Hx as [Hk|[k [lk [Hk [-> Hc]]]]]; [now rewrite Hk|now rewrite Hk, Hc].
Qed.
Print Assumptions C09_run_extrema_by.

Theorem C09_run_find : forall A (p : A -> nat -> res bool) yi pre x post tl e,
  state_after (op_find p yi) 0%nat pre = Some (length pre) -> p x (length pre) = Raise e ->
  exec (op_find p yi) (map Next (pre ++ x :: post) ++ tl) = [(S (length pre), Err e)].
Proof.
  intros * Hs Hx. apply (first_raise_quiet (op_find p yi)) with (s' := length pre) (s'' := length pre);
    [|reflexivity|exact Hs|cbn; now rewrite Hx].
  intros i y. cbn. destruct (p y i) as [[|]|]; easy.
Qed.
Print Assumptions C09_run_find.

(* non-vacuity of the hypotheses: a comparer raising on the third element against a stored key (distinct),
   a comparer raising in max_by, an accumulator raising in scan; junk after the failure is ignored *)
Example C09_witness_distinct_comparer :
  let cmp := fun a b : Z => if (a =? 2) && (b =? 5) then Raise 7 else Ok (a =? b) in
  state_after (op_distinct (fun x : Z => Ok x) cmp) [] [1; 2; 1] = Some [1; 2]
  /\ hs_find cmp [1; 2] 5 = Raise 7
  /\ exec (op_distinct (fun x : Z => Ok x) cmp) (map Next ([1; 2; 1] ++ 5 :: [6]) ++ [Done; Next 9])
     = [(1%nat, Next 1); (2%nat, Next 2); (4%nat, Err 7)].
Proof. vm_compute. repeat split; reflexivity. Qed.
Example C09_witness_extrema_comparer :
  let cmp := fun a b : Z => if a =? 4 then Raise 8 else Ok (a - b) in
  state_after (op_extrema_by (fun x : Z => Ok x) cmp) (None, []) [3; 1] = Some (Some 3, [3])
  /\ exec (op_extrema_by (fun x : Z => Ok x) cmp) (map Next ([3; 1] ++ 4 :: [5]) ++ [Done]) = [(3%nat, Err 8)].
Proof. vm_compute. split; reflexivity. Qed.
Example C09_witness_scan :
  let f := fun a x : Z => if x =? 0 then Raise 3 else Ok (a + x) in
  fold_ok f 10 [1; 2] = Some 13
  /\ exec (op_scan_seed f 10) (map Next ([1; 2] ++ 0 :: [4]) ++ [Err 99])
     = [(1%nat, Next 11); (2%nat, Next 13); (3%nat, Err 3)].
Proof. vm_compute. split; reflexivity. Qed.
Example C09_witness_find_state :
  state_after (op_find (fun (x : Z) (i : nat) => if x =? 7 then Raise 1 else Ok false) false) 0%nat [1; 2]
  = Some 2%nat.
Proof. vm_compute. reflexivity. Qed.

(* ---- take_while_indexed and to_dict at run level (Ops/FirstRaise2.v) ------------------------------------ *)
From RxVerif Require Import Ops.FirstRaise2.

(* to_dict, step-level routing: the key mapper raising; the element mapper raising after the key mapper returned *)
Theorem C09_route_to_dict_key : forall A K V keq (key : A -> res K) (el : A -> res V) d x e,
  key x = Raise e -> m_next (op_to_dict keq key el) d x = (d, [], Fail e).
Proof. intros * H. cbn. now rewrite H. Qed.
Print Assumptions C09_route_to_dict_key.
Theorem C09_route_to_dict_elem : forall A K V keq (key : A -> res K) (el : A -> res V) d x k e,
  key x = Ok k -> el x = Raise e -> m_next (op_to_dict keq key el) d x = (d, [], Fail e).
Proof. intros * H1 H2. cbn. now rewrite H1, H2. Qed.
Print Assumptions C09_route_to_dict_elem.

(* take_while_indexed: the predicate returned True on pre (called with the indices 0, 1, ...), so all of pre
   was forwarded; it raises on x at index |pre|: the error follows, and nothing after it *)
Theorem C09_run_take_while_indexed : forall A (p : A -> nat -> res bool) inc pre x post tl e,
  trues_i p 0 pre -> p x (length pre) = Raise e ->
  exec (op_take_while_indexed p inc) (map Next (pre ++ x :: post) ++ tl)
  = nexts (indexed 1 pre) ++ [(S (length pre), Err e)].
Proof.
  intros * Hp Hx.
  apply (first_raise_closed (op_take_while_indexed p inc)) with (s' := (true, length pre)) (s'' := (true, length pre));
    [reflexivity| |cbn; now rewrite Hx].
  exact (conj (state_after_take_while_indexed p inc pre 0 Hp) (take_while_indexed_prefix p inc pre 0 1 Hp)).
Qed.
Print Assumptions C09_run_take_while_indexed.

(* to_dict: both mappers returned on pre; on x the key mapper raises, or it returns and the element mapper
   raises: the error is the ONLY output (no dictionary is delivered), whatever follows *)
Theorem C09_run_to_dict : forall A K V keq (key : A -> res K) (el : A -> res V) pre x post tl e,
  both_ok key el pre ->
  (key x = Raise e \/ exists k, key x = Ok k /\ el x = Raise e) ->
  exec (op_to_dict keq key el) (map Next (pre ++ x :: post) ++ tl) = [(S (length pre), Err e)].
Proof.
  intros * Hp Hx. destruct (state_after_to_dict keq key el pre [] Hp) as [d' Hs].
  apply (first_raise_quiet (op_to_dict keq key el)) with (s' := d') (s'' := d'); [|reflexivity|exact Hs|].
  - intros d y. cbn. destruct (key y); [destruct (el y)|]; easy.
  - cbn. destruct Hx as [Hk|[k [Hk He]]]; [now rewrite Hk|now rewrite Hk, He].
Qed.
Print Assumptions C09_run_to_dict.

(* non-vacuity: a predicate raising at index 2; an element mapper raising on the third element *)
Example C09_witness_take_while_indexed :
  let p := fun (x : Z) (i : nat) => if Nat.eqb i 2 then Raise 5 else Ok (x <? 10) in
  trues_i p 0 [1; 2] /\ p 3 (length [1; 2]) = Raise 5
  /\ exec (op_take_while_indexed p true) (map Next ([1; 2] ++ 3 :: [4]) ++ [Done; Next 9])
     = [(1%nat, Next 1); (2%nat, Next 2); (3%nat, Err 5)].
Proof. vm_compute. repeat split; reflexivity. Qed.
Example C09_witness_to_dict_elem :
  let key := fun x : Z => Ok (x mod 2) in
  let el := fun x : Z => if x =? 7 then Raise 4 else Ok (x * 10) in
  both_ok key el [1; 2] /\ key 7 = Ok 1 /\ el 7 = Raise 4
  /\ exec (op_to_dict Z.eqb key el) (map Next ([1; 2] ++ 7 :: [8]) ++ [Done]) = [(3%nat, Err 4)].
Proof.
  split; [|vm_compute; repeat split; reflexivity].
  repeat constructor; eexists; reflexivity.
Qed.
