(* C37 -- source factories emit their specified sequences.
   Machines (Ops/Sources.v, written from observable/{range,fromiterable,
   returnvalue,empty,never,throw,generate,generatewithrelativetime,timer,
   repeat}.py) on the subscription runner Ops/Multi.v.  Each factory hands its
   work to a scheduler; a machine's inputs are the firings of the timers it
   scheduled (tag = scheduling order, each with its delay in the trace) and the
   dispose instant.  [tick_ins 0 nows] fires the timers in scheduling order at
   the clock readings [nows]; positions in the tagged outputs are firing
   numbers (1 = first firing; 0 = inside subscribe()).
   Time: a timer's delay is part of the trace, the firing instants are inputs;
   "emitted at d" reads "emitted by the firing of the timer scheduled with delay
   d".  The K2 correspondence fires every timer exactly when due. *)
From RxVerif Require Import Base.Prelude Ops.Machine Ops.MachineFacts Ops.Multi Ops.MultiFacts Ops.MultiCase
  Ops.Sources Ops.SourcesFacts Ops.SourcesFacts2.

(* ---- range ---------------------------------------------------------------- *)
(* Python's range: the closed form by length (CPython's get_len_of_range) IS the
   loop  x = start; while (x < stop if step > 0 else x > stop): yield x; x += step *)
Theorem C37_py_range_is_the_python_loop : forall step stop, step <> 0 -> forall fuel start,
  (Z.to_nat (range_len start stop step) <= fuel)%nat ->
  range_loop fuel start stop step = py_range start stop step.
Proof. exact py_range_is_loop. Qed.
Print Assumptions C37_py_range_is_the_python_loop.

Theorem C37_py_range_elements : forall a b s i, (i < length (py_range a b s))%nat ->
  nth i (py_range a b s) 0 = a + Z.of_nat i * s.
Proof. exact py_range_nth. Qed.
Print Assumptions C37_py_range_elements.

Theorem C37_py_range_bound : forall a b s x, s <> 0 -> In x (py_range a b s) ->
  if 0 <? s then x < b else b < x.
Proof. exact py_range_bound. Qed.
Print Assumptions C37_py_range_bound.

(* for ALL integers start, stop and every step <> 0 (empty ranges, negative steps): firing i
   emits the i-th element of the Python range, the firing after the last one
   completes.  step = 0 is OUTSIDE: Python's range() -- hence the factory, before anything can be
   subscribed -- raises ValueError, while [range_len] is totalised to 0 there
   (C37_range_zero_step_is_outside: without the hypothesis the statement would read "no element, then
   completion" for the wrong reason) *)
Theorem C37_range_emits_python_range : forall a b s, s <> 0 ->
  let n := Z.to_nat (range_len a b s) in
  temitted (fst (run (x_range a b s) (tick_ins 0 (zeros (S n)))))
  = nexts (indexed 1 (py_range a b s)) ++ [(S n, Done)].
Proof. intros a b s _. apply range_spec. Qed.
Print Assumptions C37_range_emits_python_range.

Theorem C37_range_zero_step_is_outside : forall a b, range_len a b 0 = 0 /\ py_range a b 0 = [].
Proof. split; reflexivity. Qed.
Print Assumptions C37_range_zero_step_is_outside.

Example C37_range_zero_step_example :
  range_len 0 5 0 = 0 /\ emitted (fst (run (x_range 0 5 0) (tick_ins 0 (zeros 1)))) = [Done].
Proof. vm_compute. auto. Qed.

(* the factory's argument conventions: range(a), range(a, b), range(a, b, s),
   range(a, None, s) *)
Theorem C37_range_argument_conventions : forall a b s,
  x_range_py a None None = x_range 0 a 1 /\ x_range_py a (Some b) None = x_range a b 1
  /\ x_range_py a (Some b) (Some s) = x_range a b s /\ x_range_py a None (Some s) = x_range a maxsize s.
Proof. intros; repeat split. Qed.
Print Assumptions C37_range_argument_conventions.

Example C37_range_negative_step : py_range 7 (-2) (-3) = [7; 4; 1].
Proof. vm_compute. reflexivity. Qed.
Example C37_range_empty : py_range 3 3 1 = [] /\ py_range 3 8 (-1) = [].
Proof. vm_compute. auto. Qed.
Example C37_range_run :
  run_canon (x_range 7 (-2) (-3)) (tick_ins 0 (zeros 4))
  = [(0%nat, OTimer 0%nat 0); (1%nat, OEmit (Next 7)); (1%nat, OTimer 1%nat 0); (2%nat, OEmit (Next 4));
     (2%nat, OTimer 2%nat 0); (3%nat, OEmit (Next 1)); (3%nat, OTimer 3%nat 0); (4%nat, OEmit Done)].
Proof. vm_compute. reflexivity. Qed.

(* ---- from_iterable / of ----------------------------------------------------- *)
Theorem C37_from_iterable_emits_items : forall spy vs tl now,
  (tl = [] \/ exists e r, tl = Raise e :: r) ->
  temitted (fst (run (x_from_iterable spy (map Ok vs ++ tl) None) [(now, ITick 0%nat)]))
  = map (fun v => (1%nat, Next v)) vs ++ [(1%nat, match tl with Raise e :: _ => Err e | _ => Done end)].
Proof. exact from_iterable_spec. Qed.
Print Assumptions C37_from_iterable_emits_items.

(* the `disposed` flag between elements *)
Theorem C37_from_iterable_stops_pulling_when_disposed : forall vs k tl now, (0 < k <= length vs)%nat ->
  let tr := fst (run (x_from_iterable true (map Ok vs ++ tl) (Some k)) [(now, ITick 0%nat)]) in
  temitted tr = map (fun v => (1%nat, Next v)) (firstn k vs)
  /\ flat_map (fun x => match snd x with OEffect n => [n] | _ => [] end) tr
     = map (fun j => e_pull (Z.of_nat j)) (seq 0 k).
Proof. exact from_iterable_disposed_flag. Qed.
Print Assumptions C37_from_iterable_stops_pulling_when_disposed.

(* ---- return_value, empty, never, throw -------------------------------------- *)
Theorem C37_return_value : forall v now,
  fst (run (x_return_value v) [(now, ITick 0%nat)])
  = [(0%nat, OTimer 0%nat 0); (1%nat, OEmit (Next v)); (1%nat, OEmit Done)].
Proof. reflexivity. Qed.
Theorem C37_empty : forall now, fst (run x_empty [(now, ITick 0%nat)]) = [(0%nat, OTimer 0%nat 0); (1%nat, OEmit Done)].
Proof. reflexivity. Qed.
Theorem C37_throw : forall e now,
  fst (run (x_throw e) [(now, ITick 0%nat)]) = [(0%nat, OTimer 0%nat 0); (1%nat, OEmit (Err e))].
Proof. reflexivity. Qed.
Theorem C37_never : forall ins, fst (run x_never ins) = [].
Proof.
  intros ins. unfold run. cbn [x_never x_start apply_cmds finish fst snd app map].
  pose proof (never_from ins (RState [] [] false) 1%nat eq_refl eq_refl) as N.
  destruct (run_from x_never tt (RState [] [] false) 1 ins) as [tr rf]. cbn [fst] in *. now subst tr.
Qed.
Print Assumptions C37_return_value.
Print Assumptions C37_empty.
Print Assumptions C37_throw.
Print Assumptions C37_never.

(* ---- generate ---------------------------------------------------------------- *)
(* pure condition / iterate, loop exiting within fewer than [fuel] iterations *)
Theorem C37_generate_emits_while_loop_states : forall (c : Z -> bool) (f : Z -> Z) init fuel,
  let ws := while_states fuel c f init in
  (length ws < fuel)%nat ->
  temitted (fst (run (x_generate init (fun x => Ok (c x)) (fun x => Ok (f x)))
                     (tick_ins 0 (zeros (S (length ws))))))
  = nexts (indexed 1 ws) ++ [(S (length ws), Done)].
Proof. exact generate_spec. Qed.
Print Assumptions C37_generate_emits_while_loop_states.

(* arbitrary (raising) callbacks, any number of firings: the fuelled loop *)
Theorem C37_generate_with_raising_callbacks : forall init cond iter n,
  temitted (fst (run (x_generate init cond iter) (tick_ins 0 (zeros n)))) = gen_ref cond iter n true init 1.
Proof. exact generate_ref_spec. Qed.
Print Assumptions C37_generate_with_raising_callbacks.

Example C37_generate_terminating_loop :
  let c := fun x => x <? 3 in let f := fun x => x + 1 in
  while_states 10 c f 0 = [0; 1; 2] /\ (length (while_states 10 c f 0) < 10)%nat.
Proof. vm_compute. split; [reflexivity|lia]. Qed.

(* ---- generate_with_relative_time ---------------------------------------------- *)
Theorem C37_generate_with_relative_time : forall (c : Z -> bool) (f d : Z -> Z) init fuel nows,
  let ws := while_states fuel c f init in
  (length ws < fuel)%nat -> length nows = S (length ws) ->
  let tr := fst (run (x_gwrt init (fun x => Ok (c x)) (fun x => Ok (f x)) (fun x => Ok (d x))) (tick_ins 0 nows)) in
  temitted tr = nexts (indexed 2 ws) ++ [(S (length ws), Done)]
  /\ ttimers tr = (0%nat, (0%nat, 0)) :: map (fun p => (S (fst p), (S (fst p), d (snd p)))) (indexed 0 ws).
Proof. exact gwrt_spec. Qed.
Print Assumptions C37_generate_with_relative_time.

(* instants: when every timer fires exactly when due ([on_time]: the timer scheduled during firing k
   with delay dl fires at the instant of firing k plus max(dl, 0); t0 = the subscription instant), the
   firing that emits the i-th state x_i (firing i+2) happens at t0 + d(x_0) + ... + d(x_i) *)
Theorem C37_gwrt_times : forall (c : Z -> bool) (f d : Z -> Z) init fuel nows t0,
  let ws := while_states fuel c f init in
  (length ws < fuel)%nat -> length nows = S (length ws) ->
  let tr := fst (run (x_gwrt init (fun x => Ok (c x)) (fun x => Ok (f x)) (fun x => Ok (d x))) (tick_ins 0 nows)) in
  on_time t0 tr nows ->
  forall i, (i <= length ws)%nat -> firing_instant t0 nows (S i) = t0 + delays_sum d (firstn i ws).
Proof. exact gwrt_times. Qed.
Print Assumptions C37_gwrt_times.

Theorem C37_gwrt_emission_instants : forall (c : Z -> bool) (f d : Z -> Z) init fuel nows t0,
  let ws := while_states fuel c f init in
  (length ws < fuel)%nat -> length nows = S (length ws) ->
  let tr := fst (run (x_gwrt init (fun x => Ok (c x)) (fun x => Ok (f x)) (fun x => Ok (d x))) (tick_ins 0 nows)) in
  on_time t0 tr nows ->
  temitted tr = nexts (indexed 2 ws) ++ [(S (length ws), Done)]
  /\ forall i, (i < length ws)%nat -> firing_instant t0 nows (2 + i) = t0 + delays_sum d (firstn (S i) ws).
Proof.
  intros c f d init fuel nows t0 ws Hlt Hn tr Hot. split; [exact (proj1 (gwrt_spec c f d init fuel nows Hlt Hn))|].
  intros i Hi. apply (gwrt_times c f d init fuel nows t0 Hlt Hn Hot (S i)). fold ws. lia.
Qed.
Print Assumptions C37_gwrt_emission_instants.

(* the hypotheses are satisfiable: states 0, 1, 2 with delays 10, 0, 30 from the subscription instant
   100: firings at 100, 110, 110, 140 *)
Example C37_gwrt_on_time_witness :
  let c := fun x => x <? 3 in let f := fun x => x + 1 in
  let d := fun x => if x =? 0 then 10 else if x =? 1 then 0 else 30 in
  let nows := [100; 110; 110; 140] in
  while_states 10 c f 0 = [0; 1; 2]
  /\ on_time 100 (fst (run (x_gwrt 0 (fun x => Ok (c x)) (fun x => Ok (f x)) (fun x => Ok (d x))) (tick_ins 0 nows))) nows
  /\ map (fun i => delays_sum d (firstn i [0; 1; 2])) [0; 1; 2; 3]%nat = [0; 10; 10; 40].
Proof. vm_compute. split; [reflexivity|]. split; [repeat constructor|reflexivity]. Qed.

(* zero delays are delays like any other (the guard in generatewithrelativetime.py is
   `assert time is not None`; `assert time` would raise AssertionError into the scheduler here) *)
Example C37_gwrt_zero_delay :
  run_canon (x_gwrt 0 (fun x => Ok (x <? 2)) (fun x => Ok (x + 1)) (fun _ => Ok 0)) (tick_ins 0 (zeros 3))
  = [(0%nat, OTimer 0%nat 0); (1%nat, OTimer 1%nat 0); (2%nat, OEmit (Next 0)); (2%nat, OTimer 2%nat 0);
     (3%nat, OEmit (Next 1)); (3%nat, OEmit Done)].
Proof. vm_compute. reflexivity. Qed.

(* ---- timer ------------------------------------------------------------------- *)
Theorem C37_timer_emits_zero_at_d : forall d now,
  fst (run (x_timer d) [(now, ITick 0%nat)])
  = [(0%nat, OTimer 0%nat (Z.max d 0)); (1%nat, OEmit (Next 0)); (1%nat, OEmit Done)].
Proof. exact timer_spec. Qed.
Print Assumptions C37_timer_emits_zero_at_d.

(* ... and "at d": fired when due, the timer's firing instant is the subscription instant plus max(d, 0) *)
Theorem C37_timer_instant : forall d now t0,
  on_time t0 (fst (run (x_timer d) [(now, ITick 0%nat)])) [now] -> now = t0 + Z.max d 0.
Proof.
  intros d now t0 H. unfold on_time in H. rewrite timer_spec in H. cbn [ttimers flat_map snd fst app] in H.
  apply Forall_inv in H. cbn [fst snd firing_instant nth] in H. lia.
Qed.
Print Assumptions C37_timer_instant.

(* timer(p, p): the k-th firing emits k; every timer has delay max(p, 0) *)
Theorem C37_timer_periodic : forall p nows,
  let tr := fst (run (x_timer_periodic p) (tick_ins 0 nows)) in
  temitted tr = nexts (indexed 1 (map Z.of_nat (seq 0 (length nows))))
  /\ ttimers tr = (0%nat, (0%nat, Z.max p 0)) :: map (fun j => (S j, (S j, Z.max p 0))) (seq 0 (length nows)).
Proof.
  intros p nows tr. subst tr.
  rewrite (chain_run0 _ _ (timer_periodic_chain p) (0, 0%nat) (Z.max p 0)), temitted_timer, ttimers_timer by reflexivity.
  destruct (timer_periodic_trace p nows 0 0%nat 1%nat) as [I1 I2].
  cbn zeta in I1, I2. rewrite I1, I2. split; reflexivity.
Qed.
Print Assumptions C37_timer_periodic.

(* timer(d, p), d <> p, 0 <= d, 0 < p, firings on time (at d, d+p, d+2p, ...): the k-th firing
   emits k, the first delay is d, then always p *)
Theorem C37_timer_with_period : forall d p n, 0 <= d -> 0 < p ->
  let nows := map (fun j => d + Z.of_nat j * p) (seq 0 n) in
  let tr := fst (run (x_timer_period d p) (tick_ins 0 nows)) in
  temitted tr = nexts (indexed 1 (map Z.of_nat (seq 0 n)))
  /\ ttimers tr = (0%nat, (0%nat, d)) :: map (fun j => (S j, (S j, p))) (seq 0 n).
Proof.
  intros d p n Hd Hp nows tr. subst tr nows.
  rewrite (chain_run0 _ _ (timer_period_chain d p) (d, 0, 0%nat) (Z.max d 0)), temitted_timer, ttimers_timer by reflexivity.
  destruct (timer_period_trace d p Hp n d 0 0%nat 1%nat) as [I1 I2].
  cbn zeta in I1, I2. rewrite I1, I2. replace (Z.max d 0) with d by lia. split; reflexivity.
Qed.
Print Assumptions C37_timer_with_period.

(* timer(d, p), d <> p: the VALUES are 0, 1, 2, ... one per firing for ANY d, p and ANY clock
   readings (late firings and the catch-up branch `dt + p <= now`, p <= 0 included); only the delays
   of the theorem above need on-time firings *)
Theorem C37_timer_period_values_any_clock : forall d p nows,
  temitted (fst (run (x_timer_period d p) (tick_ins 0 nows)))
  = nexts (indexed 1 (map Z.of_nat (seq 0 (length nows)))).
Proof.
  intros d p nows. rewrite (chain_run0 _ _ (timer_period_chain d p) (d, 0, 0%nat) (Z.max d 0)), temitted_timer by reflexivity.
  apply timer_period_values_trace.
Qed.
Print Assumptions C37_timer_period_values_any_clock.

(* a late second firing (at 100 instead of 12): the catch-up branch re-bases the due time *)
Example C37_timer_period_catch_up :
  run_canon (x_timer_period 5 7) (tick_ins 0 [5; 100; 107])
  = [(0%nat, OTimer 0%nat 5); (1%nat, OEmit (Next 0)); (1%nat, OTimer 1%nat 7); (2%nat, OEmit (Next 1));
     (2%nat, OTimer 2%nat 7); (3%nat, OEmit (Next 2)); (3%nat, OTimer 3%nat 7)].
Proof. vm_compute. reflexivity. Qed.

(* ---- repeat_value ------------------------------------------------------------- *)
Theorem C37_repeat_value_emits_v_n_times : forall v c, 0 <= c ->
  let n := Z.to_nat c in
  temitted (fst (run (x_repeat_value v (Some c)) (tick_ins 0 (zeros (S (2 * n))))))
  = map (fun j => ((2 * j + 2)%nat, Next v)) (seq 0 n) ++ [(S (2 * n), Done)].
Proof. exact repeat_value_spec. Qed.
Print Assumptions C37_repeat_value_emits_v_n_times.

Example C37_repeat_value_3 :
  emitted (fst (run (x_repeat_value 7 (Some 3)) (tick_ins 0 (zeros 7)))) = [Next 7; Next 7; Next 7; Done].
Proof. vm_compute. reflexivity. Qed.
