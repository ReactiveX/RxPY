(* C16 -- rate-limiting operators follow their timing rules.

   Machines: Ops/Timed.v (written from reactivex/operators/_debounce.py
   (debounce_ and throttle_with_mapper_), _throttlefirst.py, _sample.py), tied
   to the implementation by the K2 correspondence on delivered input sequences
   (harness/props/C16.py).  Closed world, notation and conventions: see
   Props/C15.v (Ops/TimedSim.v: timers fire exactly at their due time; at equal
   instants the source's notification goes first). *)
From RxVerif Require Import Base.Prelude Ops.Machine Ops.Multi Ops.MultiFacts Ops.Timed Ops.TimedSim
  Ops.TimedFacts Ops.TimedWindowFacts Ops.TimedSubFacts Ops.TimedMapperFacts Ops.TimedSampleFacts.

(* debounce(d) on a conforming timeline, due time dd = max(0, d): an element is
   emitted at t + dd iff the NEXT notification arrives strictly later than t + dd
   (a notification exactly at t + dd comes first: a newer element replaces it, an
   error drops it); the last element is flushed by the completion if that comes
   first.  No hypothesis on the instants. *)
Theorem C16_debounce_spec : forall A d t0 (tl : list (Z * A)) tm,
  timed_emits t0 (simulate (x_debounce d) t0 (ext_of (tevents tl tm))) = deb_out (clamp d) tl tm.
Proof. exact @debounce_spec. Qed.
Print Assumptions C16_debounce_spec.

(* the same for ANY notification sequence of the source: the walk with the pending element *)
Theorem C16_debounce_walk : forall A d t0 (es : list (Z * ev A)),
  timed_emits t0 (simulate (x_debounce d) t0 (ext_of es)) = deb_spec (clamp d) None es.
Proof. exact @debounce_sim_spec. Qed.
Print Assumptions C16_debounce_walk.

(* throttle_first(w): exactly the greedy subsequence -- an element passes iff it
   is the first or at least w after the last one that PASSED; terminals pass *)
Theorem C16_throttle_first_spec : forall A t0 w (es : list (Z * ev A)),
  timed_emits t0 (simulate (x_throttle_first w) t0 (ext_of es)) = tf_spec w None es.
Proof. exact @throttle_first_spec. Qed.
Print Assumptions C16_throttle_first_spec.

Theorem C16_throttle_first_gaps : forall A w (es : list (Z * ev A)) last,
  gaps_ok w last (tf_spec w last es).
Proof.
  intros A w.
  induction es as [|[t e] rest IH]; intros last; [exact I|].
  destruct e as [x|e|]; cbn [tf_spec]; [|cbn; auto|cbn; auto].
  destruct (match last with None => true | Some l => w <=? t - l end) eqn:E; [|apply IH].
  cbn [gaps_ok]. split; [|apply IH]. destruct last; [lia|exact I].
Qed.
Print Assumptions C16_throttle_first_gaps.

(* sample(sampler observable): for EVERY interleaving of the two ports (0 =
   source, 1 = sampler; non-conforming ones included) each sampler tick (its
   on_next and its on_completed) emits the latest element not sampled yet, and
   completes the sequence once the source has completed *)
Theorem C16_sample_observable_spec : forall A t0 (ins : list (Z * nat * ev A)),
  timed_emits t0 (simulate x_sample_observable t0 (ext2_of ins)) = smp_spec true true false None ins.
Proof. exact @sample_observable_spec. Qed.
Print Assumptions C16_sample_observable_spec.

(* the property's sentence for sample(sampler), as a statement about the machine's output: if
   the element x is emitted at time t, then in the timeline the operator listens to ([heard]:
   every port up to and including its first terminal notification -- the timeline itself when it
   is conforming) the source delivered x at some tx, a sampler tick (its on_next or its
   on_completed) occurs at t, and BETWEEN the two the source delivered no other element (x is
   the latest) and the sampler did not notify (x had not been sampled yet) *)
Theorem C16_sample_emits_latest_unsampled : forall A t0 (ins : list (Z * nat * ev A)) t x,
  In (t, Next x) (timed_emits t0 (simulate x_sample_observable t0 (ext2_of ins))) ->
  exists pre tx mid e rest,
    heard true true ins = pre ++ (tx, 0%nat, Next x) :: mid ++ (t, 1%nat, e) :: rest /\
    is_tick e /\ no_src_next mid /\ no_sampler mid.
Proof. exact @sample_machine_emits_latest_unsampled. Qed.
Print Assumptions C16_sample_emits_latest_unsampled.

(* on a timeline that is its own [heard] the decomposition is of the timeline itself; this is
   the case whenever only ports 0 and 1 occur and no port notifies after its own terminal
   notification *)
Theorem C16_sample_emits_latest_unsampled_conforming : forall A t0 (ins : list (Z * nat * ev A)) t x,
  heard true true ins = ins ->
  In (t, Next x) (timed_emits t0 (simulate x_sample_observable t0 (ext2_of ins))) ->
  exists pre tx mid e rest,
    ins = pre ++ (tx, 0%nat, Next x) :: mid ++ (t, 1%nat, e) :: rest /\
    is_tick e /\ no_src_next mid /\ no_sampler mid.
Proof. exact @sample_emits_latest_unsampled_own. Qed.
Print Assumptions C16_sample_emits_latest_unsampled_conforming.

Theorem C16_conforming_timeline_is_heard : forall A (ins : list (Z * nat * ev A)),
  port_conforming ins -> heard true true ins = ins.
Proof. exact @heard_conforming. Qed.
Print Assumptions C16_conforming_timeline_is_heard.

(* sample(period): the sampler fires at t0 + p, t0 + 2p, ... (p = max(0, period));
   a notification of the source up to and AT a firing instant is seen by that
   firing.  The periodic timer never stops by itself: the statement holds for
   every horizon [fuel] (number of inputs delivered). *)
Theorem C16_sample_time_spec : forall A p t0 fuel (es : list (Z * ev A)),
  sim_emits (snd (simulate_fuel (x_sample_time p) fuel t0 (ext_of es)))
  = smpt_spec fuel (clamp p) (t0 + clamp p) true false None es.
Proof.
  intros A p t0 fuel es.
  unfold simulate_fuel.
  cbn [x_start x_sample_time apply_cmds finish fst snd app emits flat_map map r_live r_timers r_stopped].
  cbn [upd new_timers flat_map app filter fst r_timers mem existsb Nat.eqb orb].
  apply (smpt_sim p fuel (SmpSt false false None 1) 0 (t0 + clamp p) true es). reflexivity.
Qed.
Print Assumptions C16_sample_time_spec.

(* throttle_with_mapper, step level (the instants at which the throttle
   observables notify are inputs).  This is the step lemma; the run-level statements
   are C16_throttle_with_mapper_walk / C16_throttle_with_mapper_emitted_cause at the
   end of this file. *)
Theorem C16_throttle_with_mapper_step_partial : forall A (mapper : A -> nat -> res unit) (s : thm_st) now,
  let m := x_throttle_with_mapper mapper in
  (forall k e cid, k <> 0%nat -> lookup k (tm_subs s) = Some cid -> not_err e ->
     emitted_cmds (snd (fst (x_step m s now (ISrc k e))))
     = (if tm_has s && Nat.eqb (tm_id s) cid then opt_list (tm_value s) else [])
     /\ tm_has (fst (fst (x_step m s now (ISrc k e)))) = false
     /\ snd (x_step m s now (ISrc k e)) = Cont)
  /\ (forall x u, mapper x (tm_cnt s) = Ok u ->
        x_step m s now (ISrc 0%nat (Next x))
        = (ThmSt true (Some x) (S (tm_id s)) ((S (tm_cnt s), S (tm_id s)) :: tm_subs s) (S (tm_cnt s)),
           unsub_prev (tm_cnt s) ++ [CSub (S (tm_cnt s))], Cont))
  /\ (emitted_cmds (snd (fst (x_step m s now (ISrc 0%nat Done)))) = (if tm_has s then opt_list (tm_value s) else [])
      /\ snd (x_step m s now (ISrc 0%nat Done)) = Complete)
  /\ (forall k c, snd (x_step m s now (ISrc k (Err c))) = Fail c
                  /\ emitted_cmds (snd (fst (x_step m s now (ISrc k (Err c))))) = [])
  /\ (forall x c, mapper x (tm_cnt s) = Raise c -> snd (x_step m s now (ISrc 0%nat (Next x))) = Fail c).
Proof.
  intros A mapper s now. cbn zeta. split; [|split; [|split; [|split]]].
  - intros k e cid Hk Hl Hne. destruct k as [|k]; [contradiction|].
    destruct e as [y|c|]; try (exfalso; exact (Hne c eq_refl)); cbn -[emitted_cmds]; rewrite Hl, emitted_app;
      cbn; rewrite app_nil_r; (destruct (tm_has s && Nat.eqb (tm_id s) cid); [rewrite emitted_emit_opt|]; auto).
  - intros x u Hm. cbn. rewrite Hm. reflexivity.
  - cbn -[emitted_cmds]. rewrite emitted_app, emitted_unsub_prev. destruct (tm_has s); [rewrite emitted_emit_opt|]; auto.
  - intros k c. destruct k as [|k]; cbn -[emitted_cmds]; [rewrite emitted_unsub_prev|]; auto.
  - intros x c Hm. cbn. rewrite Hm. reflexivity.
Qed.
Print Assumptions C16_throttle_with_mapper_step_partial.

(* ---- non-vacuity / worked instances ----------------------------------------- *)
(* gap exactly the due time: the newer element wins; completion flushes the pending one *)
Example C16_ex_debounce :
  timed_emits 0 (simulate (x_debounce 10) 0 (ext_of (tevents [(0, 1); (10, 2); (25, 0); (30, 3)] (TTDone 32))))
  = [(20, Next 2); (32, Next 3); (32, Done)].
Proof. vm_compute. reflexivity. Qed.

Example C16_ex_debounce_error_drops :
  timed_emits 0 (simulate (x_debounce 10) 0 (ext_of (tevents [(0, 1)] (TTErr 10 7)))) = [(10, Err 7)].
Proof. vm_compute. reflexivity. Qed.

Example C16_ex_throttle_first :
  timed_emits 0 (simulate (x_throttle_first 10) 0 (ext_of (tevents [(0, 1); (5, 2); (10, 0); (19, 3); (20, 4)] (TTDone 20))))
  = [(0, Next 1); (10, Next 0); (20, Next 4); (20, Done)].
Proof. vm_compute. reflexivity. Qed.

Example C16_ex_sample_time :
  sim_emits (snd (simulate_fuel (x_sample_time 10) 12 0 (ext_of (tevents [(3, 1); (10, 2); (25, 0)] (TTDone 31)))))
  = [(10, Next 2); (30, Next 0); (40, Done)].
Proof. vm_compute. reflexivity. Qed.

Example C16_ex_sample_observable :
  timed_emits 0 (simulate x_sample_observable 0
                   (ext2_of [(1, 0%nat, Next 5); (2, 0%nat, Next 0); (3, 1%nat, Next 9); (4, 1%nat, Next 9);
                             (5, 0%nat, Next 7); (6, 0%nat, Done); (7, 1%nat, Done)]))
  = [(3, Next 0); (7, Next 7); (7, Done)].
Proof. vm_compute. reflexivity. Qed.

(* the hypotheses of C16_sample_emits_latest_unsampled(_conforming) hold on the timeline of
   C16_ex_sample_observable: an element (7 at time 7) is emitted, and the timeline is its own [heard] *)
Example C16_ex_sample_hyp :
  let ins := [(1, 0%nat, Next 5); (2, 0%nat, Next 0); (3, 1%nat, Next 9); (4, 1%nat, Next 9);
              (5, 0%nat, Next 7); (6, 0%nat, Done); (7, 1%nat, Done)] in
  In (7, Next 7) (timed_emits 0 (simulate x_sample_observable 0 (ext2_of ins))) /\ heard true true ins = ins.
Proof. vm_compute. split; [tauto|reflexivity]. Qed.

(* ==== throttle_with_mapper at run level (Ops/ThrottleMapperRun.v) ==================== *)
From RxVerif Require Import Ops.SimPortSteps Ops.ThrottleMapperRun.

(* throttle_with_mapper over ALL interleavings of the source (port 0) and of the throttle
   observables the mapper makes (port j+1 for the j-th accepted element; non-conforming
   timelines included), from any start instant: the closed world equals the walk [thm_spec]
   (cnt = elements accepted so far, pend = the latest element while its throttle observable has
   not fired): a new element replaces the pending one; the first on_next / on_completed of the
   throttle observable of the LATEST element emits it; older throttle observables are not
   heard; completion flushes the pending element; an error of the source, of the current
   throttle observable, or raised by the mapper ends the run and drops it. *)
Theorem C16_throttle_with_mapper_walk : forall A (mapper : A -> nat -> res unit) t0 (ins : list (Z * nat * ev A)),
  timed_emits t0 (simulate (x_throttle_with_mapper mapper) t0 (ext2_of ins)) = thm_spec mapper 0 None ins.
Proof. exact @throttle_with_mapper_walk. Qed.
Print Assumptions C16_throttle_with_mapper_walk.

(* the property's sentence: if x is emitted at t, the source delivered x at some tx as its
   (count0 pre)-th notification; since then neither the source nor the throttle observable of x
   (port S (count0 pre)) notified, until -- at t -- that throttle observable fired (on_next or
   on_completed) or the source completed *)
Theorem C16_throttle_with_mapper_emitted_cause :
  forall A (mapper : A -> nat -> res unit) t0 (ins : list (Z * nat * ev A)) t x,
  In (t, Next x) (timed_emits t0 (simulate (x_throttle_with_mapper mapper) t0 (ext2_of ins))) ->
  exists pre tx mid k e rest,
    ins = pre ++ (tx, 0%nat, Next x) :: mid ++ (t, k, e) :: rest
    /\ port_silent 0%nat mid /\ port_silent (S (count0 pre)) mid
    /\ ((k = S (count0 pre) /\ fires e) \/ (k = 0%nat /\ e = Done)).
Proof.
  intros A mapper t0 ins t x.
  rewrite throttle_with_mapper_walk. apply thm_emitted_cause.
Qed.
Print Assumptions C16_throttle_with_mapper_emitted_cause.

(* 5 is replaced by 6 before its throttle observable (port 1) fires, and that late firing is not
   heard; 6 is delivered when ITS throttle observable (port 2) fires; 7 is still pending when
   the source completes and is flushed.  Machine and walk agree, and the hypothesis of
   C16_throttle_with_mapper_emitted_cause holds (6 is emitted at 4). *)
Example C16_ex_throttle_with_mapper :
  let mapper := fun (_ : Z) (_ : nat) => Ok tt in
  let ins := [(1, 0%nat, Next 5); (2, 0%nat, Next 6); (3, 1%nat, Next 0); (4, 2%nat, Next 0);
              (5, 0%nat, Next 7); (6, 0%nat, Done)] in
  thm_spec mapper 0 None ins = [(4, Next 6); (6, Next 7); (6, Done)]
  /\ timed_emits 0 (simulate (x_throttle_with_mapper mapper) 0 (ext2_of ins)) = [(4, Next 6); (6, Next 7); (6, Done)]
  /\ In (4, Next 6) (timed_emits 0 (simulate (x_throttle_with_mapper mapper) 0 (ext2_of ins))).
Proof. vm_compute. repeat split; tauto. Qed.
