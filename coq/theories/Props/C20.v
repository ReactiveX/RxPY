(* C20 -- a Subject broadcasts to exactly the observers subscribed at the time.
   Model: Subjects/Subject.v (engine shared with BehaviorSubject/AsyncSubject,
   the AutoDetachObserver wrapper of Observable.subscribe included), tied to
   reactivex/subject/subject.py by the K1 correspondence of harness/props/C20.py.
   Abstract specification ([spec], [oview], [greet]): Subjects/Family.v.
   In order: histories of top-level calls against the specification; arbitrary call trees (grammar,
   unsubscribe, dispose, the snapshot); who receives which values, then which notifications (terminal ones
   and late subscribers included), on call trees (Subjects/SubjectTreeFacts.v, BroadcastTreeFacts.v); order
   when callbacks do not emit; witnesses after each part. *)
From RxVerif Require Import Base.Prelude Ops.Machine Subjects.Subject Subjects.Family
  Subjects.SubjectFacts Subjects.FamilyFacts Subjects.SubjectTreeFacts.
From RxVerif Require Subjects.BroadcastTreeFacts.

(* Refinement.  For EVERY history of top-level calls (subscribe, unsubscribe,
   on_next, on_error, on_completed, dispose in any order, ids reused, calls after
   termination or disposal) the Subject's complete log -- who received what, in
   which order, which call raised -- is the log of the abstract broadcast
   specification: every call, in call order, answered to the current
   subscribers in subscription order.  The run terminates (all large fuels). *)
Theorem C20_refines_broadcast_spec :
  forall (A : Type) (v0 : A) (h : list (@op A)),
  exists fuel0, forall fuel, (fuel0 <= fuel)%nat ->
    run_history subject_cls v0 fuel (h, []) = (spec KSubject v0 h, true).
Proof. exact (fun A v0 h => refines_spec v0 KSubject v0 h). Qed.
Print Assumptions C20_refines_broadcast_spec.

(* The same seen by one observer: it receives nothing before its subscribe call;
   on a live subject it then receives exactly the notifications of the calls
   made while it is subscribed, in call order, until it unsubscribes, a terminal
   notification was delivered, or the subject is disposed; nothing afterwards. *)
Theorem C20_observer_receives_calls_while_subscribed :
  forall (A : Type) (v0 : A) (h : list (@op A)),
  exists fuel0, forall fuel, (fuel0 <= fuel)%nat ->
    snd (run_history subject_cls v0 fuel (h, [])) = true /\
    forall o, view o (fst (run_history subject_cls v0 fuel (h, []))) = oview KSubject o Before (g_init v0) h.
Proof. exact (fun A v0 h => class_observer_view v0 KSubject v0 h). Qed.
Print Assumptions C20_observer_receives_calls_while_subscribed.

(* an observer subscribing after termination or disposal receives only the greeting ... *)
Theorem C20_late_subscriber :
  forall (A : Type) (o : nat) (g : @gstate A) (h : list (@op A)),
    live g = false -> oview KSubject o Before g (OSub o :: h) = greet KSubject g.
Proof. exact (fun A => late_subscriber KSubject). Qed.
Print Assumptions C20_late_subscriber.

(* ... which is the terminal notification ... *)
Theorem C20_late_subscriber_terminal :
  forall (A : Type) (g : @gstate A) (t : ev A), g_status g = Ended t -> greet KSubject g = [t].
Proof. exact (fun A => greet_ended KSubject). Qed.
Print Assumptions C20_late_subscriber_terminal.

(* ... or DisposedException after dispose() *)
Theorem C20_late_subscriber_disposed :
  forall (A : Type) (g : @gstate A), g_status g = Disposed -> greet KSubject g = [Err disposed_exn].
Proof. exact (fun A => greet_disposed KSubject). Qed.
Print Assumptions C20_late_subscriber_disposed.

(* ---- arbitrary call trees: observers that unsubscribe (themselves or others),
        subscribe, emit or dispose from inside their callbacks ---- *)

(* each observer's received sequence obeys the grammar  on_next* (on_error | on_completed)? *)
Theorem C20_views_wellformed :
  forall (A : Type) (react : nat -> nat -> list (@op A)) (v0 : A) (top : list (@op A)) (fuel o : nat),
    wellformed (view o (log_of (run subject_cls react fuel (init_cfg v0 top)))) = true.
Proof. exact (fun A react => views_wellformed subject_cls react). Qed.
Print Assumptions C20_views_wellformed.

(* unsubscribing takes effect at once -- also from inside a callback, also in
   the middle of the delivery loop of the very same notification: whatever runs
   afterwards, the observer receives nothing more *)
Theorem C20_unsubscribed_gets_nothing_more :
  forall (A : Type) (react : nat -> nat -> list (@op A)) s m k l o os n,
    m o = Some os -> handle os = true ->
    view o (log_of (run subject_cls react n (Cfg s m (IOp (OUnsub o) :: k) l))) = view o (rev l).
Proof. exact (fun A react => unsubscribed_gets_nothing_more subject_cls react). Qed.
Print Assumptions C20_unsubscribed_gets_nothing_more.

(* after a terminal notification an observer receives nothing more *)
Theorem C20_nothing_after_terminal :
  forall (A : Type) (react : nat -> nat -> list (@op A)) c o,
    wf_inv c -> has_term (view o (log_of c)) = true ->
    forall n, view o (log_of (run subject_cls react n c)) = view o (log_of c).
Proof. exact (fun A react => after_terminal_nothing subject_cls react). Qed.
Print Assumptions C20_nothing_after_terminal.

(* after dispose(): emitting raises DisposedException and reaches nobody *)
Theorem C20_disposed_emit_raises :
  forall (A : Type) (react : nat -> nat -> list (@op A)) (s : @sstate A) m k l p,
    is_disposed s = true -> is_emission p = true ->
    step subject_cls react (Cfg s m (IOp p :: k) l) = Cfg s m k (ERaised disposed_exn :: EOp p :: l).
Proof. exact (fun A react s => disposed_emit_raises (value s) KSubject react s). Qed.
Print Assumptions C20_disposed_emit_raises.

(* subscribing is answered with DisposedException (handed to the subscriber's
   on_error by Observable.subscribe) and nothing is registered *)
Theorem C20_disposed_subscribe_fails :
  forall (A : Type) (react : nat -> nat -> list (@op A)) (s : @sstate A) m k l o,
    is_disposed s = true -> m o = None ->
    step subject_cls react (Cfg s m (IOp (OSub o) :: k) l) =
    Cfg s (upd m o (called true fresh_ostate)) (map IOp (react o 0%nat) ++ ISubRet o None :: k)
        (EGot o (Err disposed_exn) :: EOp (OSub o) :: l).
Proof. exact (fun A react s => disposed_subscribe_fails (value s) KSubject react s). Qed.
Print Assumptions C20_disposed_subscribe_fails.

(* dispose() disposes, empties the observer list, and disposal is for ever *)
Theorem C20_dispose_disposes :
  forall (A : Type) (react : nat -> nat -> list (@op A)) (s : @sstate A) m k l,
    let c' := step subject_cls react (Cfg s m (IOp ODispose :: k) l) in
    is_disposed (c_st c') = true /\ observers (c_st c') = [].
Proof. exact (fun A react s => dispose_disposes (value s) KSubject react s). Qed.
Print Assumptions C20_dispose_disposes.

Theorem C20_disposed_forever :
  forall (A : Type) (react : nat -> nat -> list (@op A)) n (c : @cfg A),
    is_disposed (c_st c) = true -> is_disposed (c_st (run subject_cls react n c)) = true.
Proof. exact (fun A react n c => disposed_forever (value (c_st c)) KSubject react n c). Qed.
Print Assumptions C20_disposed_forever.


(* a subscribed observer stays registered: on every call tree, an observer whose
   wrapper is not stopped (it subscribed, has not unsubscribed, has received no
   terminal) is in the observer list of a live subject -- i.e. in the snapshot
   `self.observers.copy()` of the next emission *)
Theorem C20_subscribed_observer_is_in_the_snapshot :
  forall (A : Type) (react : nat -> nat -> list (@op A)) (v0 : A) (top : list (@op A)) (fuel o : nat) os,
    let c := run subject_cls react fuel (init_cfg v0 top) in
    c_obs c o = Some os -> a_stopped os = false -> subject_live (c_st c) -> In o (observers (c_st c)).
Proof. exact (fun A react v0 => live_observer_registered v0 KSubject react v0). Qed.
Print Assumptions C20_subscribed_observer_is_in_the_snapshot.

(* an emission hands the notification to exactly the registered observers, in
   subscription order, and a wrapper that is not stopped passes it on *)
Theorem C20_emission_goes_to_the_snapshot :
  forall (A : Type) (s : @sstate A) (v : A),
    snd (c_next subject_cls s v) = map (fun o => IDeliver o (Next v)) (observers s).
Proof. exact (fun A s v => next_reaches_snapshot (value s) KSubject s v ltac:(discriminate)). Qed.
Print Assumptions C20_emission_goes_to_the_snapshot.

Theorem C20_live_wrapper_delivers :
  forall (A : Type) (react : nat -> nat -> list (@op A)) (s : @sstate A) m k l o n os,
    m o = Some os -> a_stopped os = false ->
    exists c', step subject_cls react (Cfg s m (IDeliver o n :: k) l) = c' /\ c_rlog c' = EGot o n :: l.
Proof. exact (fun A react s => deliver_reaches_live (value s) KSubject react s). Qed.
Print Assumptions C20_live_wrapper_delivers.

(* ---- WHO RECEIVES WHICH VALUES, on every call tree (definitions: Subjects/SubjectTreeFacts.v, theorems: Subjects/BroadcastTreeFacts.v) ----
   [entitled o log] = the values v of the on_next(v) calls of the log made AFTER o's subscribe call
   and BEFORE any on_error / on_completed / dispose call -- made by the driver or from inside any
   callback: the emissions made while o was subscribed to the live subject.  [vals] keeps the
   values of the on_next notifications of a view; [pendn o k] are the values the machine is about
   to hand to o's wrapper.
   At every moment of every run, for every observer:  received ++ about to be delivered ++ dropped
   is a PERMUTATION of the entitlement, and nothing was dropped unless o's wrapper is stopped (o
   unsubscribed or got a terminal notification).  Order is deliberately not claimed: on call
   trees deliveries are depth first (an emission made inside a callback reaches the later
   observers of the snapshot before the emission it interrupted: C20_witness_tree_order). *)
Theorem C20_tree_values_are_the_emissions_while_subscribed :
  forall (A : Type) (react : nat -> nat -> list (@op A)) (v0 : A) (top : list (@op A)) (fuel o : nat),
    let c := run subject_cls react fuel (init_cfg v0 top) in
    exists dropped,
      Permutation.Permutation (vals (view o (log_of c)) ++ pendn o (c_k c) ++ dropped) (entitled o (log_of c)) /\
      (forall os, c_obs c o = Some os -> a_stopped os = false -> dropped = []).
Proof. exact (@BroadcastTreeFacts.subject_tree_values). Qed.
Print Assumptions C20_tree_values_are_the_emissions_while_subscribed.

(* when the run has finished, an observer whose wrapper is still live (subscribed, never
   unsubscribed, no terminal notification) has received EXACTLY, as a multiset, the values emitted
   while it was subscribed: every such emission reached it, each once *)
Theorem C20_tree_live_observer_received_every_emission :
  forall (A : Type) (react : nat -> nat -> list (@op A)) (v0 : A) (top : list (@op A)) (fuel o : nat) os,
    let c := run subject_cls react fuel (init_cfg v0 top) in
    c_k c = [] -> c_obs c o = Some os -> a_stopped os = false ->
    Permutation.Permutation (vals (view o (log_of c))) (entitled o (log_of c)).
Proof.
  intros A react v0 top fuel o os c Hk Hm Hs.
  destruct (C20_tree_values_are_the_emissions_while_subscribed A react v0 top fuel o) as [dr [HP Hd]]. fold c in HP, Hd.
  rewrite (Hd os Hm Hs), Hk in HP. cbn [pendn flat_map] in HP. now rewrite !app_nil_r in HP.
Qed.
Print Assumptions C20_tree_live_observer_received_every_emission.

(* the snapshot rule, soundness: a value delivered to o was the argument of an on_next call made
   AFTER o's subscribe call and before any terminating call -- never to an observer that
   subscribed later, not even from inside a callback of that very emission *)
Theorem C20_tree_delivery_was_subscribed_before_the_call :
  forall (A : Type) (react : nat -> nat -> list (@op A)) (v0 : A) (top : list (@op A)) (fuel o : nat) (v : A),
    let c := run subject_cls react fuel (init_cfg v0 top) in
    In (Next v) (view o (log_of c)) ->
    exists p1 p2 p3, log_of c = p1 ++ EOp (OSub o) :: p2 ++ EOp (ONext v) :: p3 /\
                     existsb end_ev (p1 ++ EOp (OSub o) :: p2) = false.
Proof.
  intros A react v0 top fuel o v c Hin. apply entitled_in.
  destruct (C20_tree_values_are_the_emissions_while_subscribed A react v0 top fuel o) as [dr [HP _]]. fold c in HP.
  apply (Permutation.Permutation_in v HP), in_or_app. left. exact (vals_in _ v Hin).
Qed.
Print Assumptions C20_tree_delivery_was_subscribed_before_the_call.

(* ---- non-vacuity / witnesses (values are pool ids: 0 = None, 1 = 0, 2 = False) ---- *)

(* late subscriber after an error gets only the error; a third one after dispose gets DisposedException *)
Example C20_witness_flat :
  run_history subject_cls 0 100
    ([OSub 0%nat; ONext 0; OSub 1%nat; ONext 1; OUnsub 0%nat; ONext 2; OErr 11; OSub 2%nat; ONext 1;
      ODispose; ONext 1; OSub 3%nat], [])
  = ([EOp (OSub 0%nat); EOp (ONext 0); EGot 0%nat (Next 0); EOp (OSub 1%nat); EOp (ONext 1);
      EGot 0%nat (Next 1); EGot 1%nat (Next 1); EOp (OUnsub 0%nat); EOp (ONext 2); EGot 1%nat (Next 2);
      EOp (OErr 11); EGot 1%nat (Err 11); EOp (OSub 2%nat); EGot 2%nat (Err 11); EOp (ONext 1);
      EOp ODispose; EOp (ONext 1); ERaised (-11); EOp (OSub 3%nat); EGot 3%nat (Err (-11))], true).
Proof. vm_compute. reflexivity. Qed.

(* re-entrancy: observer 0 unsubscribes observer 1 from inside its first on_next
   (1 is later in the snapshot and must not get the value), observer 2
   subscribes observer 3 from inside the same delivery (3 must not get it) *)
Example C20_witness_reentrant :
  run_history subject_cls 0 100
    ([OSub 0%nat; OSub 1%nat; OSub 2%nat; ONext 5; ONext 6],
     [(0%nat, [[OUnsub 1%nat]]); (2%nat, [[OSub 3%nat]])])
  = ([EOp (OSub 0%nat); EOp (OSub 1%nat); EOp (OSub 2%nat); EOp (ONext 5);
      EGot 0%nat (Next 5); EOp (OUnsub 1%nat); EGot 2%nat (Next 5); EOp (OSub 3%nat);
      EOp (ONext 6); EGot 0%nat (Next 6); EGot 2%nat (Next 6); EGot 3%nat (Next 6)], true).
Proof. vm_compute. reflexivity. Qed.

(* the hypotheses of the tree theorems are satisfiable: a reachable configuration
   in which observer 0 holds a handle and is about to unsubscribe from inside a callback *)
Example C20_witness_unsub_hyp :
  let c := run subject_cls (react_tbl [(0%nat, [[OUnsub 0%nat]])]) 4
             (init_cfg 0 [OSub 0%nat; ONext 5; ONext 6]) in
  exists os k, c_k c = IOp (OUnsub 0%nat) :: k /\ c_obs c 0%nat = Some os /\ handle os = true.
Proof. vm_compute. do 2 eexists. split; [reflexivity|split; reflexivity]. Qed.

(* trees: observer 0 emits 6 from inside its callback for 5: observer 1 receives 6 BEFORE 5
   (depth first), a permutation of its entitlement [5; 6]; the run is finished and 1's wrapper live *)
Example C20_witness_tree_order :
  let c := run subject_cls (react_tbl [(0%nat, [[ONext 6]])]) 100 (init_cfg 0 [OSub 0%nat; OSub 1%nat; ONext 5]) in
  c_k c = [] /\ (exists os, c_obs c 1%nat = Some os /\ a_stopped os = false) /\
  vals (view 1%nat (log_of c)) = [6; 5] /\ entitled 1%nat (log_of c) = [5; 6].
Proof. vm_compute. split; [reflexivity|]. split; [eexists; split; reflexivity|split; reflexivity]. Qed.

(* trees: a value is DROPPED only for a stopped wrapper -- observer 0 unsubscribes observer 1 from
   inside its callback for 5; 1 was entitled to 5 (subscribed when the call was made) and does not
   get it *)
Example C20_witness_tree_dropped :
  let c := run subject_cls (react_tbl [(0%nat, [[OUnsub 1%nat]])]) 100 (init_cfg 0 [OSub 0%nat; OSub 1%nat; ONext 5]) in
  c_k c = [] /\ (exists os, c_obs c 1%nat = Some os /\ a_stopped os = true) /\
  vals (view 1%nat (log_of c)) = [] /\ entitled 1%nat (log_of c) = [5].
Proof. vm_compute. split; [reflexivity|]. split; [eexists; split; reflexivity|split; reflexivity]. Qed.

(* ---- WHO RECEIVES WHICH NOTIFICATIONS, terminal ones included, on every call tree
        (Subjects/BroadcastTreeFacts.v; the same development serves C21) ----
   [tree_entitled K v0 o log] reads the chronological log of calls (made by the driver or from inside
   any callback) with the functions of the abstract specification Subjects/Family.v: o's FIRST
   subscribe call is answered with [greet K g], g = the status after the calls logged before it
   (Subject: nothing while live, the terminal notification once ended, DisposedException once
   disposed); every later call p with [bcast K g p] (on_next v: [Next v] while live; the first
   on_error / on_completed of a live subject: that terminal; anything else: nothing).
   Unsubscription is NOT part of the entitlement.  [pend o k] = the notifications the machine is
   about to hand to o's wrapper.  At every moment of every run
        received ++ about to be delivered ++ dropped   is a PERMUTATION of the entitlement,
   nothing was dropped while o's wrapper is live, and NO TERMINAL notification was dropped
   unless an unsubscribe call for o occurs in the log. *)
From RxVerif Require Import Subjects.BroadcastTreeFacts.

Theorem C20_tree_notifications_are_the_entitlement :
  forall (A : Type) (react : nat -> nat -> list (@op A)) (v0 : A) (top : list (@op A)) (fuel o : nat),
    let c := run subject_cls react fuel (init_cfg v0 top) in
    exists dropped,
      Permutation.Permutation (view o (log_of c) ++ pend o (c_k c) ++ dropped) (tree_entitled KSubject v0 o (log_of c)) /\
      (forall os, c_obs c o = Some os -> a_stopped os = false -> dropped = []) /\
      (existsb (unsub_ev o) (log_of c) = false -> has_term dropped = false).
Proof. exact (fun A react v0 => tree_notifications v0 KSubject subject_not_async react v0). Qed.
Print Assumptions C20_tree_notifications_are_the_entitlement.

(* the values of that entitlement are exactly [entitled] of the three theorems above, and whatever
   the log it contains AT MOST ONE terminal notification *)
Theorem C20_tree_entitlement_values :
  forall (A : Type) (v0 : A) (o : nat) (log : list (@event A)),
    vals (tree_entitled KSubject v0 o log) = entitled o log.
Proof. exact (@vals_entitled_subject). Qed.
Print Assumptions C20_tree_entitlement_values.

Theorem C20_tree_entitled_to_at_most_one_terminal :
  forall (A : Type) (v0 : A) (o : nat) (log : list (@event A)),
    (nterm (tree_entitled KSubject v0 o log) <= 1)%nat.
Proof. exact (fun A v0 => tree_entitled_term_once KSubject subject_not_async v0). Qed.
Print Assumptions C20_tree_entitled_to_at_most_one_terminal.

(* TERMINAL NOTIFICATIONS.  o subscribed (p1 ++ OSub o), then -- before any terminating call -- p =
   on_error(e) / on_completed() is called, by the driver or from inside any callback; no
   unsubscribe call for o is made in the whole run.  When the run has finished o has received that
   terminal notification EXACTLY ONCE and NOTHING AFTER it (its view is values then the terminal). *)
Theorem C20_tree_terminal_reaches_every_subscribed_observer :
  forall (A : Type) (react : nat -> nat -> list (@op A)) (v0 : A) (top : list (@op A)) (fuel o : nat)
         (p1 p2 p3 : list (@event A)) (p : @op A) (t : ev A),
    let c := run subject_cls react fuel (init_cfg v0 top) in
    c_k c = [] ->
    log_of c = p1 ++ EOp (OSub o) :: p2 ++ EOp p :: p3 ->
    existsb end_ev (p1 ++ EOp (OSub o) :: p2) = false -> is_term_call p t ->
    existsb (unsub_ev o) (log_of c) = false ->
    exists vs, view o (log_of c) = map Next vs ++ [t].
Proof. exact (fun A react v0 => tree_terminal_call_reaches v0 KSubject subject_not_async react v0). Qed.
Print Assumptions C20_tree_terminal_reaches_every_subscribed_observer.

(* the same at every moment of an unfinished run: already received, or about to be handed to o's wrapper *)
Theorem C20_tree_terminal_is_never_lost :
  forall (A : Type) (react : nat -> nat -> list (@op A)) (v0 : A) (top : list (@op A)) (fuel o : nat)
         (p1 p2 p3 : list (@event A)) (p : @op A) (t : ev A),
    let c := run subject_cls react fuel (init_cfg v0 top) in
    log_of c = p1 ++ EOp (OSub o) :: p2 ++ EOp p :: p3 ->
    existsb end_ev (p1 ++ EOp (OSub o) :: p2) = false -> is_term_call p t ->
    existsb (unsub_ev o) (log_of c) = false ->
    In t (view o (log_of c)) \/ In t (pend o (c_k c)).
Proof. exact (fun A react v0 => tree_terminal_call_not_lost v0 KSubject subject_not_async react v0). Qed.
Print Assumptions C20_tree_terminal_is_never_lost.

(* LATE SUBSCRIBERS on trees.  o's first subscribe call is made -- possibly from inside a callback,
   possibly from inside the delivery of the terminal notification itself -- when the calls logged
   before it have ended or disposed the subject ([gev] folds the specification's [g_step] over the
   logged calls).  Then the specification's greeting is ONE terminal notification n (the terminal,
   or DisposedException: C20_late_subscriber_terminal / _disposed), the very next entry of the log
   is its delivery to o, and [n] is ALL o ever receives. *)
Theorem C20_tree_late_subscriber_gets_only_the_terminal_at_once :
  forall (A : Type) (react : nat -> nat -> list (@op A)) (v0 : A) (top : list (@op A)) (fuel o : nat)
         (p1 rest : list (@event A)),
    let c := run subject_cls react fuel (init_cfg v0 top) in
    log_of c = p1 ++ EOp (OSub o) :: rest -> existsb (sub_ev o) p1 = false ->
    live (gev (g_init v0) p1) = false ->
    exists n, greet KSubject (gev (g_init v0) p1) = [n] /\ is_terminal n = true /\
      ((rest = [] /\ c_k c <> [] /\ view o (log_of c) = []) \/
       ((exists rest', rest = EGot o n :: rest') /\ view o (log_of c) = [n])).
Proof. exact (fun A react v0 => tree_late_subscriber v0 KSubject subject_not_async react v0). Qed.
Print Assumptions C20_tree_late_subscriber_gets_only_the_terminal_at_once.

(* [gev] is the specification's status function on the calls of the log, and "not live" means that
   an on_error / on_completed / dispose call was logged *)
Theorem C20_tree_status_of_a_log :
  forall (A : Type) (log : list (@event A)) (g : @gstate A),
    gev g log = g_run g (calls_of log) /\ live (gev g log) = live g && negb (existsb end_ev log).
Proof. exact (fun A log g => conj (gev_g_run log g) (gev_live log g)). Qed.
Print Assumptions C20_tree_status_of_a_log.

(* NOT TRUE: "an observer subscribed (and not unsubscribed) WHEN on_completed / on_error is
   called receives that terminal".  Observer 0 unsubscribes observer 1 from inside its own
   on_completed callback: 1 was subscribed and not unsubscribed when the call was made, the run is
   finished, 1 is entitled to Done and has received nothing (the real Subject does the same:
   AutoDetachObserver.is_stopped).  Hence the "no unsubscribe call for o" hypothesis above. *)
Example C20_tree_terminal_to_everyone_subscribed_at_the_call_refuted :
  let c := run subject_cls (react_tbl [(0%nat, [[OUnsub 1%nat]])]) 100 (init_cfg 0 [OSub 0%nat; OSub 1%nat; ODone]) in
  c_k c = [] /\
  log_of c = [EOp (OSub 0%nat)] ++ EOp (OSub 1%nat) :: [] ++ EOp ODone :: [EGot 0%nat Done; EOp (OUnsub 1%nat)] /\
  existsb (@unsub_ev Z 1%nat) ([EOp (OSub 0%nat)] ++ EOp (OSub 1%nat) :: []) = false /\
  tree_entitled KSubject 0 1%nat (log_of c) = [Done] /\ view 1%nat (log_of c) = [].
Proof. vm_compute. repeat split. Qed.

(* the hypotheses of C20_tree_terminal_reaches_every_subscribed_observer are satisfiable, with the
   terminating call made from INSIDE a callback: observer 0 calls on_error(7) inside its on_next(5);
   observer 1 receives the error, exactly once -- and not the value 5 it was also entitled to, whose
   delivery came after the terminal one (dropped: the wrapper was stopped by the terminal) *)
Example C20_witness_tree_terminal_from_a_callback :
  let c := run subject_cls (react_tbl [(0%nat, [[OErr 7]])]) 100 (init_cfg 0 [OSub 0%nat; OSub 1%nat; ONext 5]) in
  c_k c = [] /\
  log_of c = [EOp (OSub 0%nat)] ++ EOp (OSub 1%nat) :: [EOp (ONext 5); EGot 0%nat (Next 5)] ++ EOp (OErr 7) ::
             [EGot 0%nat (Err 7); EGot 1%nat (Err 7)] /\
  existsb end_ev ([EOp (OSub 0%nat)] ++ EOp (OSub 1%nat) :: [EOp (ONext 5); EGot 0%nat (Next 5)]) = false /\
  @is_term_call Z (OErr 7) (Err 7) /\ existsb (unsub_ev 1%nat) (log_of c) = false /\
  view 1%nat (log_of c) = [Err 7] /\ tree_entitled KSubject 0 1%nat (log_of c) = [Next 5; Err 7].
Proof. vm_compute. repeat split. Qed.

(* late subscription from inside the delivery of the terminal notification: observer 0 subscribes
   observer 1 inside its on_completed callback; 1 gets Done at once and nothing else *)
Example C20_witness_tree_late_subscriber :
  let c := run subject_cls (react_tbl [(0%nat, [[OSub 1%nat]])]) 100 (init_cfg 0 [OSub 0%nat; ODone]) in
  log_of c = [EOp (OSub 0%nat); EOp ODone; EGot 0%nat Done] ++ EOp (OSub 1%nat) :: [EGot 1%nat Done] /\
  existsb (@sub_ev Z 1%nat) [EOp (OSub 0%nat); EOp ODone; EGot 0%nat Done] = false /\
  live (gev (g_init 0) [EOp (OSub 0%nat); EOp ODone; EGot 0%nat Done]) = false /\
  greet KSubject (gev (g_init 0) [EOp (OSub 0%nat); EOp ODone; EGot 0%nat Done]) = [Done] /\
  view 1%nat (log_of c) = [Done].
Proof. vm_compute. repeat split. Qed.

(* ---- ORDER on call trees whose callbacks do not emit ----
   On arbitrary trees an observer may receive values in another order than the calls were made
   (C20_witness_tree_order: deliveries are depth first).  If the observers' callbacks only subscribe,
   unsubscribe and dispose (themselves or others, also in the middle of a delivery loop) -- the
   re-entrancy the property quantifies over -- then CALL ORDER holds on every tree and every fuel:
   what o received followed by what is about to be handed to it is an ordered SUBSEQUENCE of its
   entitlement (the missing ones were dropped: o's wrapper was stopped), and for a live wrapper it
   IS the entitlement: every notification of every call made while subscribed, in call order. *)
Theorem C20_tree_call_order_when_callbacks_do_not_emit :
  forall (A : Type) (react : nat -> nat -> list (@op A)) (v0 : A),
    (forall o j p, In p (react o j) -> is_emission p = false) ->
    forall (top : list (@op A)) (fuel o : nat),
    let c := run subject_cls react fuel (init_cfg v0 top) in
    subseq (view o (log_of c) ++ pend o (c_k c)) (tree_entitled KSubject v0 o (log_of c)) /\
    (forall os, c_obs c o = Some os -> a_stopped os = false ->
       view o (log_of c) ++ pend o (c_k c) = tree_entitled KSubject v0 o (log_of c)).
Proof. exact (fun A react v0 => tree_ordered v0 KSubject subject_not_async react v0). Qed.
Print Assumptions C20_tree_call_order_when_callbacks_do_not_emit.

Theorem C20_tree_live_observer_received_its_entitlement_in_call_order :
  forall (A : Type) (react : nat -> nat -> list (@op A)) (v0 : A),
    (forall o j p, In p (react o j) -> is_emission p = false) ->
    forall (top : list (@op A)) (fuel o : nat) os,
    let c := run subject_cls react fuel (init_cfg v0 top) in
    c_k c = [] -> c_obs c o = Some os -> a_stopped os = false ->
    view o (log_of c) = tree_entitled KSubject v0 o (log_of c).
Proof. exact (fun A react v0 => tree_ordered_finished v0 KSubject subject_not_async react v0). Qed.
Print Assumptions C20_tree_live_observer_received_its_entitlement_in_call_order.

(* the hypothesis holds for every finite reaction table that passes the check [quiet_tbl] ... *)
Theorem C20_quiet_tables_do_not_emit :
  forall (A : Type) (t : list (nat * list (list (@op A)))),
    quiet_tbl t = true -> forall o j p, In p (react_tbl t o j) -> is_emission p = false.
Proof. exact (@quiet_tbl_sound). Qed.
Print Assumptions C20_quiet_tables_do_not_emit.

(* ... e.g. the table of C20_witness_reentrant (0 unsubscribes 1, 2 subscribes 3, both inside the
   delivery of 5): 2 (live) received exactly its entitlement in call order, 3 -- subscribed inside
   the delivery of 5 -- only 6, and 1 nothing of the [5; 6] it was entitled to *)
Example C20_witness_tree_call_order :
  let t := [(0%nat, [[OUnsub 1%nat]]); (2%nat, [[OSub 3%nat]])] in
  let c := run subject_cls (react_tbl t) 100 (init_cfg 0 [OSub 0%nat; OSub 1%nat; OSub 2%nat; ONext 5; ONext 6]) in
  quiet_tbl t = true /\ c_k c = [] /\
  (exists os, c_obs c 2%nat = Some os /\ a_stopped os = false) /\
  view 2%nat (log_of c) = [Next 5; Next 6] /\ tree_entitled KSubject 0 2%nat (log_of c) = [Next 5; Next 6] /\
  view 3%nat (log_of c) = [Next 6] /\ tree_entitled KSubject 0 3%nat (log_of c) = [Next 6] /\
  view 1%nat (log_of c) = [] /\ tree_entitled KSubject 0 1%nat (log_of c) = [Next 5; Next 6].
Proof. vm_compute. split; [reflexivity|]. split; [reflexivity|]. split; [eexists; split; reflexivity|repeat split]. Qed.
