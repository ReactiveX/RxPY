(* C13 -- multi-source combinators follow their pairing rules.
   amb: refinement to [amb_spec] for EVERY input sequence.  zip: the pairing
   invariant for EVERY sequence of deliveries, plus its emission and completion
   rules.  combine_latest / with_latest_from: closed forms over EVERY sequence
   of deliveries (the emitted tuples are exactly the snapshots of the latest
   elements, from the first moment every source has one), plus their step
   rules; fork_join: closed form over every sequence of deliveries and completions,
   plus its step rule.  Then, about [run]: it emits what these handler iterations
   ("feeds") emit; amb's losers are released with the winner's first notification;
   zip, fork_join, combine_latest and with_latest_from refine specifications over
   the full input alphabet, for EVERY input sequence. *)
From RxVerif Require Import Base.Prelude Ops.Machine Ops.Multi Ops.MultiFacts Ops.RunLemmas
  Ops.Combinators Ops.MergeFacts Ops.CombineFacts Ops.LatestFacts Ops.ZipRunFacts Ops.ZipSpecFacts
  Ops.ZipPairFacts.

Theorem C13_amb_refines_spec : forall A n (ins : list (Z * inp A)),
  temitted (fst (run (x_amb n) ins)) = amb_spec n None 1 ins.
Proof.
  intros A n ins. rewrite (run_sub_start (x_amb n) None (rev (seq 0 n)) ins eq_refl). cbn [fst].
  rewrite temitted_sub_only. apply amb_open_from.
Qed.
Print Assumptions C13_amb_refines_spec.

(* helper about apply_cmds (its hypotheses are not tied to a reachable amb state): unsubscribing
   every source but k from a duplicate-free live list leaves [k].  The statement about [run] is
   C13_amb_run_losers_released below. *)
Theorem C13_amb_losers_unsubscribed_at_once : forall A (k : nat) (others live : list nat) ts,
  NoDup live -> In k live -> ~ In k others -> (forall j, In j live -> j = k \/ In j others) ->
  fst (apply_cmds (B:=A) (RState live ts false) (map CUnsub others)) = RState [k] ts false.
Proof. exact @apply_unsub_others. Qed.
Print Assumptions C13_amb_losers_unsubscribed_at_once.

(* about the HANDLER iterated on element deliveries (zip_feed); C13_zip_run_is_feed below shows
   that [run] emits exactly zip_feed's tuples, and C13_zip_run_pairing is the run-level form over
   the full input alphabet *)
Theorem C13_zip_pairing : forall A (d : A) n (ins : list (nat * A)),
  Forall (fun p => (fst p < n)%nat) ins ->
  let '(st, outs) := zip_feed n (repeat [] n, repeat false n) ins [] in
  forall k, (k < n)%nat -> proj k ins = col d k outs ++ nth k (fst st) [].
Proof.
  intros A d n ins Hall.
  pose proof (zip_feed_inv d n ins [] (repeat [] n) (repeat false n) [] Hall (zip_inv_start d n)) as G.
  destruct (zip_feed n (repeat [] n, repeat false n) ins []) as [st outs]. exact (proj2 G).
Qed.
Print Assumptions C13_zip_pairing.

Theorem C13_zip_emits_iff_every_source_has_an_element : forall A n queues done now k (x : A),
  cemits (snd (fst (x_step (x_zip n) (queues, done) now (ISrc k (Next x))))) <> [] <->
  all_nonempty (nth_set k (nth k queues [] ++ [x]) queues) = true.
Proof.
  intros. cbn [x_zip x_step]. destruct (all_nonempty _); cbn; split; intros H; try congruence; discriminate.
Qed.
Print Assumptions C13_zip_emits_iff_every_source_has_an_element.

Theorem C13_zip_completes_when_completed_source_has_nothing_buffered : forall A n queues done now k,
  snd (x_step (x_zip (A:=A) n) (queues, done) now (ISrc k Done))
  = if Nat.eqb (length (nth k queues [])) 0 then Complete else Cont.
Proof. reflexivity. Qed.
Print Assumptions C13_zip_completes_when_completed_source_has_nothing_buffered.

(* combine_latest: on an element, emits the tuple of latest values iff every
   source has emitted (now or before) *)
Theorem C13_combine_latest_rule : forall A n values hva done now k (x : A),
  let values1 := nth_set k (Some x) values in
  let all_have := hva || forallb (fun v => match v with Some _ => true | None => false end) values1 in
  cemits (snd (fst (x_step (x_combine_latest n) (values, hva, done) now (ISrc k (Next x)))))
  = if all_have then [flat_map (fun v => match v with Some y => [y] | None => [] end) values1] else [].
Proof. intros. cbn [x_combine_latest x_step]. subst values1 all_have. destruct (_ || _); reflexivity. Qed.
Print Assumptions C13_combine_latest_rule.

(* with_latest_from: only the primary source (0) triggers emissions, and only
   once every other source has a value; the others just store *)
Theorem C13_with_latest_from_rule : forall A n values now (x : A),
  cemits (snd (fst (x_step (x_with_latest_from n) values now (ISrc 0%nat (Next x)))))
  = if forallb (fun v => match v with Some _ => true | None => false end) values
    then [x :: flat_map (fun v => match v with Some y => [y] | None => [] end) values] else [].
Proof. intros. cbn [x_with_latest_from x_step]. destruct (forallb _ values); reflexivity. Qed.
Theorem C13_with_latest_from_others_silent : forall A n values now j (e : ev A),
  cemits (snd (fst (x_step (x_with_latest_from n) values now (ISrc (S j) e)))) = [].
Proof. intros. destruct e; reflexivity. Qed.
Print Assumptions C13_with_latest_from_rule.
Print Assumptions C13_with_latest_from_others_silent.

(* fork_join: a source completing empty completes at once; otherwise the tuple
   of last values is emitted when the last source completes *)
Theorem C13_fork_join_rule : forall A n values done now k,
  x_step (x_fork_join (A:=A) n) (values, done) now (ISrc k Done)
  = let done1 := nth_set k true done in
    match nth k values None with
    | None => ((values, done1), [], Complete)
    | Some _ => if forallb (fun d => d) done1
                then ((values, done1),
                      [CEmit (flat_map (fun v => match v with Some y => [y] | None => [] end) values)], Complete)
                else ((values, done1), [], Cont)
    end.
Proof. reflexivity. Qed.
Print Assumptions C13_fork_join_rule.

(* combine_latest over n >= 1 sources, ANY sequence of deliveries (source, element):
   the tuples emitted are exactly [cl_spec] -- one per delivery from the first
   moment every source has delivered, each the snapshot of the latest elements *)
Theorem C13_combine_latest_closed_form : forall A n (ins : list (nat * A)) done,
  (0 < n)%nat -> Forall (fun p => (fst p < n)%nat) ins ->
  snd (cl_feed n (repeat None n, false, done) ins []) = cl_spec n [] ins.
Proof. exact @combine_latest_closed_form. Qed.
Print Assumptions C13_combine_latest_closed_form.

(* ... and every such tuple has one component per source, component j being the
   last element source j delivered up to that point *)
Theorem C13_combine_latest_tuples_are_latest : forall A n (seen ins : list (nat * A)) tuple,
  In tuple (cl_spec n seen ins) ->
  exists pre post, ins = pre ++ post /\ pre <> [] /\ length tuple = n /\
    forall j d, (j < n)%nat -> latest j (seen ++ pre) = Some (nth j tuple d).
Proof. exact @combine_latest_tuples_are_latest. Qed.
Print Assumptions C13_combine_latest_tuples_are_latest.

(* with_latest_from (parent = source 0, children 1..n), ANY sequence of deliveries:
   exactly the parent's elements arriving once every child has delivered are
   emitted, each paired with the children's latest elements *)
Theorem C13_with_latest_from_closed_form : forall A n (ins : list (nat * A)),
  Forall (fun p => (fst p <= n)%nat) ins ->
  snd (wlf_feed n (repeat None n) ins []) = wlf_spec n [] ins.
Proof. exact @with_latest_from_closed_form. Qed.
Print Assumptions C13_with_latest_from_closed_form.

(* fork_join over n sources, ANY sequence of deliveries (source, Some x) and completions
   (source, None): nothing until every source has completed, then ONE tuple of the last elements;
   a source completing empty completes the output at once, without a tuple *)
Theorem C13_fork_join_closed_form : forall A n (ins : list (nat * option A)),
  Forall (fun p => (fst p < n)%nat) ins ->
  fj_feed n (repeat None n, repeat false n) ins [] = fj_spec n [] (repeat false n) ins.
Proof. exact @fork_join_closed_form. Qed.
Print Assumptions C13_fork_join_closed_form.
Theorem C13_fork_join_at_most_one_tuple : forall A n (ins : list (nat * option A)) seen done,
  (length (fst (fj_spec n seen done ins)) <= 1)%nat.
Proof.
  intros A n ins. induction ins as [|[k [x|]] t IH]; intros seen done; cbn [fj_spec]; [cbn; lia|apply IH|].
  destruct (latest k seen); [|cbn; lia].
  destruct (forallb (fun d : bool => d) (nth_set k true done)); [cbn; lia|apply IH].
Qed.
Print Assumptions C13_fork_join_at_most_one_tuple.

(* ---- the feeds are what the RUNNER emits ------------------------------------------------------
   [elem_inputs tins] = the input sequence made of the element deliveries tins (time, (source,
   element)) only.  For EVERY such sequence from existing sources: the notifications [run] emits are
   exactly the feed's tuples, in order, nothing else (no termination), and every source is still
   subscribed at the end. *)
Theorem C13_zip_run_is_feed : forall A n (tins : list (Z * (nat * A))),
  Forall (fun tp => (fst (snd tp) < n)%nat) tins ->
  emitted (fst (run (x_zip n) (elem_inputs tins)))
    = map Next (snd (zip_feed n (repeat [] n, repeat false n) (map snd tins) []))
  /\ snd (run (x_zip n) (elem_inputs tins)) = RState (seq 0 n) [] false.
Proof. exact @zip_run_is_feed. Qed.
Print Assumptions C13_zip_run_is_feed.

Theorem C13_combine_latest_run_is_feed : forall A n (tins : list (Z * (nat * A))),
  Forall (fun tp => (fst (snd tp) < n)%nat) tins ->
  emitted (fst (run (x_combine_latest n) (elem_inputs tins)))
    = map Next (snd (cl_feed n (repeat None n, false, repeat false n) (map snd tins) []))
  /\ snd (run (x_combine_latest n) (elem_inputs tins)) = RState (seq 0 n) [] false.
Proof. exact @cl_run_is_feed. Qed.
Print Assumptions C13_combine_latest_run_is_feed.

Theorem C13_with_latest_from_run_is_feed : forall A n (tins : list (Z * (nat * A))),
  Forall (fun tp => (fst (snd tp) <= n)%nat) tins ->
  emitted (fst (run (x_with_latest_from n) (elem_inputs tins)))
    = map Next (snd (wlf_feed n (repeat None n) (map snd tins) []))
  /\ snd (run (x_with_latest_from n) (elem_inputs tins)) = RState (seq 1 n ++ [0%nat]) [] false.
Proof. exact @wlf_run_is_feed. Qed.
Print Assumptions C13_with_latest_from_run_is_feed.

(* ... hence the closed forms are statements about [run] *)
Theorem C13_combine_latest_run_closed_form : forall A n (tins : list (Z * (nat * A))),
  (0 < n)%nat -> Forall (fun tp => (fst (snd tp) < n)%nat) tins ->
  emitted (fst (run (x_combine_latest n) (elem_inputs tins))) = map Next (cl_spec n [] (map snd tins)).
Proof.
  intros A n tins Hn Hf. rewrite (proj1 (cl_run_is_feed n tins Hf)).
  rewrite combine_latest_closed_form; [reflexivity|exact Hn|]. apply Forall_map. exact Hf.
Qed.
Print Assumptions C13_combine_latest_run_closed_form.

Theorem C13_with_latest_from_run_closed_form : forall A n (tins : list (Z * (nat * A))),
  Forall (fun tp => (fst (snd tp) <= n)%nat) tins ->
  emitted (fst (run (x_with_latest_from n) (elem_inputs tins))) = map Next (wlf_spec n [] (map snd tins)).
Proof.
  intros A n tins Hf. rewrite (proj1 (wlf_run_is_feed n tins Hf)).
  rewrite with_latest_from_closed_form; [reflexivity|]. apply Forall_map. exact Hf.
Qed.
Print Assumptions C13_with_latest_from_run_closed_form.

Example C13_witness_run_is_feed :
  let tins := [(1, (0%nat, 1)); (2, (0%nat, 2)); (3, (1%nat, 10)); (4, (1%nat, 20)); (5, (1%nat, 30))] in
  emitted (fst (run (x_zip 2) (elem_inputs tins))) = [Next [1; 10]; Next [2; 20]]
  /\ emitted (fst (run (x_combine_latest 2) (elem_inputs tins))) = [Next [2; 10]; Next [2; 20]; Next [2; 30]]
  /\ emitted (fst (run (x_with_latest_from 1) (elem_inputs tins))) = [].
Proof. vm_compute. repeat split; reflexivity. Qed.

(* ---- amb: release of the losers, about [run] ----------------------------------------------------
   [amb_quiet n] inputs: notifications of sources amb does not have, timer ticks.  As soon as one of
   the n sources (w, the first) has notified, on EVERY continuation the runner ends with exactly w
   subscribed or with everything released; post = [] : the losers are gone within that very step. *)
Theorem C13_amb_run_losers_released : forall A n (pre post : list (Z * inp A)) now w e,
  Forall (amb_quiet n) pre -> (w < n)%nat ->
  snd (run (x_amb n) (pre ++ (now, ISrc w e) :: post)) = RState [w] [] false
  \/ snd (run (x_amb n) (pre ++ (now, ISrc w e) :: post)) = RState [] [] true.
Proof. exact @amb_run_losers_released. Qed.
Print Assumptions C13_amb_run_losers_released.

(* whenever amb has forwarded anything at all, at most ONE source is still subscribed *)
Theorem C13_amb_run_at_most_winner_live : forall A n (ins : list (Z * inp A)),
  amb_spec n None 1 ins <> [] ->
  exists w, (w < n)%nat /\
    (snd (run (x_amb n) ins) = RState [w] [] false \/ snd (run (x_amb n) ins) = RState [] [] true).
Proof.
  intros A n ins H. destruct (amb_spec_nonempty_winner n ins 1 H) as (pre & now & w & e & post & -> & Hq & Hw).
  exists w. split; [exact Hw|]. now apply amb_run_losers_released.
Qed.
Print Assumptions C13_amb_run_at_most_winner_live.

Example C13_witness_amb_losers :
  snd (run (x_amb 3) [(0, ITick 7%nat); (0, ISrc 5%nat (Next 1)); (0, ISrc 1%nat (Next 5))]) = RState [1%nat] [] false
  /\ snd (run (x_amb 3) [(0, ISrc 1%nat (Next 5)); (0, ISrc 0%nat (Next 9)); (0, ISrc 1%nat Done)]) = RState [] [] true.
Proof. vm_compute. split; reflexivity. Qed.

(* ---- zip over the FULL input alphabet ------------------------------------------------------------
   REFINEMENT, every number of sources, EVERY input sequence (elements, completions, errors, ticks,
   dispose; also from sources that already completed): what the subscriber receives, and when, is
   [zip_spec] -- per-source histories, completed flags and the number c of tuples emitted; tuple c =
   the c-th elements of the histories, emitted at the first moment every history is longer than c;
   completion at the first moment a completed source has nothing beyond the emitted tuples; the first
   error of a subscribed source ends it. *)
Theorem C13_zip_refines_spec : forall A n (ins : list (Z * inp A)),
  temitted (fst (run (x_zip n) ins)) = zip_spec n (repeat [] n) (repeat false n) 0 1 ins.
Proof. exact @zip_refines_spec. Qed.
Print Assumptions C13_zip_refines_spec.

(* run-level pairing: the i-th tuple has one component per source, component k being the i-th
   element source k delivered while subscribed ([zip_hists]) -- which exists *)
Theorem C13_zip_run_pairing : forall A n (ins : list (Z * inp A)) i tup,
  nth_error (tuples (temitted (fst (run (x_zip n) ins)))) i = Some tup ->
  length tup = n /\
  forall k d, (k < n)%nat ->
    (i < length (nth k (zip_hists n (repeat [] n) (repeat false n) ins) []))%nat
    /\ nth k tup d = nth i (nth k (zip_hists n (repeat [] n) (repeat false n) ins) []) d.
Proof.
  intros A n ins i tup. rewrite zip_refines_spec.
  exact (zip_spec_pairing n ins (repeat [] n) (repeat false n) 0 1 i tup (repeat_length _ _)).
Qed.
Print Assumptions C13_zip_run_pairing.

Example C13_witness_zip_full :
  let ins := [(0, ISrc 0%nat (Next 1)); (0, ISrc 0%nat (Next 2)); (0, ISrc 0%nat Done);
              (0, ISrc 0%nat (Next 3)); (0, ISrc 1%nat (Next 10)); (0, ISrc 1%nat (Next 20));
              (0, ISrc 1%nat (Next 30))] in
  temitted (fst (run (x_zip 2) ins)) = [(5%nat, Next [1; 10]); (6%nat, Next [2; 20]); (6%nat, Done)]
  /\ zip_hists 2 (repeat [] 2) (repeat false 2) ins = [[1; 2]; [10; 20; 30]].
Proof. vm_compute. split; reflexivity. Qed.

(* ---- witnesses of the closed forms over the feeds (first part of the file) and of amb ------------- *)
Example C13_witness_fork_join :
  fj_feed 2 (repeat None 2, repeat false 2) [(0%nat, Some 1); (1%nat, Some 10); (0%nat, Some 2); (0%nat, None); (1%nat, Some 20); (1%nat, None)] []
  = ([[2; 20]], true).
Proof. vm_compute. reflexivity. Qed.

Example C13_witness_combine_latest :
  snd (cl_feed 2 (repeat None 2, false, repeat false 2) [(0%nat, 1); (0%nat, 2); (1%nat, 10); (0%nat, 3); (1%nat, 20)] [])
  = [[2; 10]; [3; 10]; [3; 20]].
Proof. vm_compute. reflexivity. Qed.
Example C13_witness_with_latest_from :
  snd (wlf_feed 1 (repeat None 1) [(0%nat, 1); (1%nat, 10); (0%nat, 2); (1%nat, 20); (0%nat, 3)] [])
  = [[2; 10]; [3; 20]].
Proof. vm_compute. reflexivity. Qed.

Example C13_witness_zip :
  let '(st, outs) := zip_feed 2 (repeat [] 2, repeat false 2) [(0%nat, 1); (0%nat, 2); (1%nat, 10); (1%nat, 20); (1%nat, 30)] [] in
  outs = [[1; 10]; [2; 20]] /\ fst st = [[]; [30]].
Proof. vm_compute. split; reflexivity. Qed.
Example C13_witness_amb :
  temitted (fst (run (x_amb 3) [(0, ISrc 1%nat (Next 5)); (0, ISrc 0%nat (Next 9)); (0, ISrc 1%nat Done)]))
  = [(1%nat, Next 5); (3%nat, Done)].
Proof. vm_compute. reflexivity. Qed.

(* ==== fork_join / combine_latest / with_latest_from over the FULL input alphabet ====================
   (Ops/LatestSpecFacts.v; the closed forms fj_spec / cl_spec / wlf_spec of the feeds are in Ops/LatestFacts.v,
   nth_repeat_false in Ops/CombineFacts.v) *)
From RxVerif Require Import Ops.LatestSpecFacts.

(* ---- fork_join: the RUNNER = fj_feed, completions included -----------------------------------------
   [fj_inputs tins] = the input sequence made of the element deliveries (source, Some x) and completions
   (source, None) tins; [fj_wfb (repeat false n) ...] = every one of them comes from one of the n sources
   that has not completed before (the Rx grammar per source; it is NEEDED, see the counterexample below:
   the runner's AutoDetachObserver drops what a source sends after its completion, the bare handler
   iteration fj_feed does not).  Then [run] emits exactly fj_feed's tuple(s), followed by the completion
   iff fj_feed reports the termination -- so C13_fork_join_closed_form is a statement about [run]. *)
Theorem C13_fork_join_run_is_feed : forall A n (tins : list (Z * (nat * option A))),
  fj_wfb (repeat false n) (map snd tins) = true ->
  emitted (fst (run (x_fork_join n) (fj_inputs tins)))
  = map Next (fst (fj_feed n (repeat None n, repeat false n) (map snd tins) []))
    ++ (if snd (fj_feed n (repeat None n, repeat false n) (map snd tins) []) then [Done] else []).
Proof.
  intros A n tins Hwf. rewrite fork_join_closed_form; [now apply fj_run_closed_form|].
  pose proof (fj_wfb_bound _ _ Hwf) as H. now rewrite repeat_length in H.
Qed.
Print Assumptions C13_fork_join_run_is_feed.

Theorem C13_fork_join_run_closed_form : forall A n (tins : list (Z * (nat * option A))),
  fj_wfb (repeat false n) (map snd tins) = true ->
  emitted (fst (run (x_fork_join n) (fj_inputs tins)))
  = map Next (fst (fj_spec n [] (repeat false n) (map snd tins)))
    ++ (if snd (fj_spec n [] (repeat false n) (map snd tins)) then [Done] else []).
Proof. exact @fj_run_closed_form. Qed.
Print Assumptions C13_fork_join_run_closed_form.

(* the hypothesis is satisfiable by a run with a tuple and a completion ... *)
Example C13_witness_fork_join_run_is_feed :
  let tins := [(1, (0%nat, Some 1)); (2, (1%nat, Some 10)); (3, (0%nat, Some 2)); (4, (0%nat, None));
               (5, (1%nat, Some 20)); (6, (1%nat, None))] in
  fj_wfb (repeat false 2) (map snd tins) = true
  /\ emitted (fst (run (x_fork_join 2) (fj_inputs tins))) = [Next [2; 20]; Done]
  /\ fj_feed 2 (repeat None 2, repeat false 2) (map snd tins) [] = ([[2; 20]], true).
Proof. vm_compute. repeat split; reflexivity. Qed.
(* ... and cannot be dropped: source 0 sends 2 after its completion; [run] ignores it, fj_feed does not *)
Example C13_fork_join_run_is_feed_needs_grammar :
  let tins := [(1, (0%nat, Some 1)); (2, (0%nat, None)); (3, (0%nat, Some 2)); (4, (1%nat, Some 10));
               (5, (1%nat, None))] in
  fj_wfb (repeat false 2) (map snd tins) = false
  /\ emitted (fst (run (x_fork_join 2) (fj_inputs tins))) = [Next [1; 10]; Done]
  /\ fj_feed 2 (repeat None 2, repeat false 2) (map snd tins) [] = ([[2; 10]], true).
Proof. vm_compute. repeat split; reflexivity. Qed.

(* ---- fork_join: REFINEMENT, every number of sources, EVERY input sequence over the full alphabet ----
   [fj_full_spec n seen done pos ins]: seen = the element deliveries accepted so far, done = completed
   flags.  Nothing is emitted until every source has completed; then ONE tuple of the last elements and
   the completion, at that moment.  A source completing WITHOUT having delivered anything completes the
   output at once.  The first error of a subscribed source ends the output.  Notifications of a source
   after its own completion, of sources the operator does not have, and ticks are ignored; dispose
   truncates. *)
Theorem C13_fork_join_refines_spec : forall A n (ins : list (Z * inp A)),
  temitted (fst (run (x_fork_join n) ins)) = fj_full_spec n [] (repeat false n) 1 ins.
Proof. exact @fork_join_refines_spec. Qed.
Print Assumptions C13_fork_join_refines_spec.

(* the tuple is complete: one component per source, component j = the LAST element source j delivered
   before its own completion ([fj_accepted] = those deliveries, in order of arrival) *)
Theorem C13_fork_join_run_tuple_is_last_values : forall A n (ins : list (Z * inp A)) p tup,
  In (p, Next tup) (temitted (fst (run (x_fork_join n) ins))) ->
  length tup = n /\
  forall j d, (j < n)%nat -> latest j (fj_accepted n (repeat false n) ins) = Some (nth j tup d).
Proof.
  intros A n ins p tup. rewrite fork_join_refines_spec.
  apply (fj_full_spec_tuple n ins [] (repeat false n) 1 p tup (repeat_length _ _)).
  intros j Hj Hd. rewrite nth_repeat_false in Hd. apply Nat.ltb_lt in Hj. rewrite Hj in Hd. discriminate.
Qed.
Print Assumptions C13_fork_join_run_tuple_is_last_values.

(* the whole output is: nothing / one termination / one tuple and the completion at the same input *)
Theorem C13_fork_join_run_shape : forall A n (ins : list (Z * inp A)),
  temitted (fst (run (x_fork_join n) ins)) = []
  \/ (exists p e, is_terminal e = true /\ temitted (fst (run (x_fork_join n) ins)) = [(p, e)])
  \/ (exists p tup, temitted (fst (run (x_fork_join n) ins)) = [(p, Next tup); (p, Done)]).
Proof. intros. rewrite fork_join_refines_spec. apply fj_full_spec_shape. Qed.
Print Assumptions C13_fork_join_run_shape.

Example C13_witness_fork_join_full :
  (* tuple + completion; what source 0 sends after its completion (3) is ignored *)
  temitted (fst (run (x_fork_join 2)
     [(0, ISrc 0%nat (Next 1)); (0, ISrc 1%nat (Next 10)); (0, ISrc 0%nat (Next 2)); (0, ISrc 0%nat Done);
      (0, ISrc 0%nat (Next 3)); (0, ISrc 1%nat (Next 20)); (0, ISrc 1%nat Done); (0, ISrc 1%nat (Next 30))]))
  = [(7%nat, Next [2; 20]); (7%nat, Done)]
  (* a source completing empty completes the output at once *)
  /\ temitted (fst (run (x_fork_join 2)
     [(0, ISrc 0%nat (Next 1)); (0, ISrc 1%nat Done); (0, ISrc 0%nat (Next 2)); (0, ISrc 0%nat Done)]))
  = [(2%nat, Done)]
  (* the first error ends the output *)
  /\ temitted (fst (run (x_fork_join 2)
     [(0, ISrc 0%nat (Next 1)); (0, ISrc 0%nat Done); (0, ISrc 1%nat (Err 7)); (0, ISrc 1%nat Done)]))
  = [(3%nat, Err 7)]
  (* dispose truncates *)
  /\ temitted (fst (run (x_fork_join 2)
     [(0, ISrc 0%nat (Next 1)); (0, ISrc 0%nat Done); (0, IDispose); (0, ISrc 1%nat (Next 5)); (0, ISrc 1%nat Done)]))
  = [].
Proof. vm_compute. repeat split; reflexivity. Qed.

(* ---- combine_latest: REFINEMENT, every number of sources, EVERY input sequence ---------------------
   [cl_full_spec]: an element of a subscribed source emits the tuple of latest elements iff every source
   has delivered by now (the tuples of cl_spec).  The output completes when the LAST source completes; a
   source completing without ever having delivered does NOT complete the output by itself -- the output
   then completes at the next element that finds every OTHER source completed ([others_done]; that
   element is swallowed), or when the last source completes, whichever comes first.  The first error of a
   subscribed source ends the output; notifications of completed / foreign sources and ticks are ignored;
   dispose truncates. *)
Theorem C13_combine_latest_refines_spec : forall A n (ins : list (Z * inp A)),
  temitted (fst (run (x_combine_latest n) ins)) = cl_full_spec n [] (repeat false n) 1 ins.
Proof. exact @combine_latest_refines_spec. Qed.
Print Assumptions C13_combine_latest_refines_spec.

Example C13_witness_combine_latest_full :
  (* tuples; completion exactly when the last source completes; a completed source is ignored (5) *)
  temitted (fst (run (x_combine_latest 2)
     [(0, ISrc 0%nat (Next 1)); (0, ISrc 1%nat (Next 10)); (0, ISrc 0%nat Done); (0, ISrc 0%nat (Next 5));
      (0, ISrc 1%nat (Next 20)); (0, ISrc 1%nat Done); (0, ISrc 1%nat (Next 30))]))
  = [(2%nat, Next [1; 10]); (5%nat, Next [1; 20]); (6%nat, Done)]
  (* source 0 completes empty: no completion then; the next element of the only other source is
     swallowed and completes the output *)
  /\ temitted (fst (run (x_combine_latest 2)
     [(0, ISrc 0%nat Done); (0, ISrc 0%nat Done); (0, ISrc 1%nat (Next 10)); (0, ISrc 1%nat (Next 20))]))
  = [(3%nat, Done)]
  /\ temitted (fst (run (x_combine_latest 3)
     [(0, ISrc 0%nat Done); (0, ISrc 1%nat (Next 10)); (0, ISrc 1%nat Done); (0, ISrc 2%nat (Next 20));
      (0, ISrc 2%nat (Next 30))]))
  = [(4%nat, Done)]
  (* the first error ends the output *)
  /\ temitted (fst (run (x_combine_latest 2)
     [(0, ISrc 0%nat (Next 1)); (0, ISrc 0%nat Done); (0, ISrc 1%nat (Next 10)); (0, ISrc 1%nat (Err 7));
      (0, ISrc 1%nat Done)]))
  = [(3%nat, Next [1; 10]); (4%nat, Err 7)]
  (* dispose truncates *)
  /\ temitted (fst (run (x_combine_latest 2)
     [(0, ISrc 0%nat (Next 1)); (0, ISrc 1%nat (Next 10)); (0, IDispose); (0, ISrc 1%nat (Next 20))]))
  = [(2%nat, Next [1; 10])].
Proof. vm_compute. repeat split; reflexivity. Qed.

(* ---- with_latest_from: REFINEMENT, every number of children, EVERY input sequence -------------------
   parent = source 0, children = sources 1..n ([done] has a flag per source 0..n).  [wlf_full_spec]: only
   the parent's elements produce tuples, and only once every child has delivered (the tuples of wlf_spec);
   the output completes exactly when the PARENT completes -- a child's completion only ends that child's
   deliveries (its latest element stays); the first error of ANY subscribed source, parent or child, ends
   the output; dispose truncates. *)
Theorem C13_with_latest_from_refines_spec : forall A n (ins : list (Z * inp A)),
  temitted (fst (run (x_with_latest_from n) ins)) = wlf_full_spec n [] (repeat false (S n)) 1 ins.
Proof. exact @with_latest_from_refines_spec. Qed.
Print Assumptions C13_with_latest_from_refines_spec.

Example C13_witness_with_latest_from_full :
  (* child 1 completes (4): its later element 20 is ignored, 10 stays; the parent's completion completes *)
  temitted (fst (run (x_with_latest_from 1)
     [(0, ISrc 0%nat (Next 1)); (0, ISrc 1%nat (Next 10)); (0, ISrc 0%nat (Next 2)); (0, ISrc 1%nat Done);
      (0, ISrc 1%nat (Next 20)); (0, ISrc 0%nat (Next 3)); (0, ISrc 0%nat Done); (0, ISrc 0%nat (Next 4))]))
  = [(3%nat, Next [2; 10]); (6%nat, Next [3; 10]); (7%nat, Done)]
  (* a child's error ends the output *)
  /\ temitted (fst (run (x_with_latest_from 1)
     [(0, ISrc 1%nat (Next 10)); (0, ISrc 0%nat (Next 2)); (0, ISrc 1%nat (Err 7)); (0, ISrc 0%nat (Next 3))]))
  = [(2%nat, Next [2; 10]); (3%nat, Err 7)]
  (* a child completing empty: no tuple ever, no completion before the parent's *)
  /\ temitted (fst (run (x_with_latest_from 2)
     [(0, ISrc 1%nat (Next 10)); (0, ISrc 0%nat (Next 2)); (0, ISrc 2%nat Done); (0, ISrc 0%nat (Next 3));
      (0, ISrc 0%nat Done)]))
  = [(5%nat, Done)].
Proof. vm_compute. repeat split; reflexivity. Qed.
