(* C18 -- windows and buffers partition the source correctly.
   Machines: Ops/Windows.v (window_with_count / _time / _time_or_count, window(boundaries),
   window_when, window_toggle over group_join; buffers = [buffered] windows), run by the
   window-aware runner Ops/MultiWin.v (handed observables, RefCountDisposable).
   First half: the count-based closed forms, routing and the rules for opening and closing windows per machine,
   buffers as window contents, the release clauses, witnesses.
   Second half (after the second import): whole runs -- the complete trace as a closed form or a walk
   (Ops/WindowCountRun.v, WindowTimeSim.v, BufferTimeSim.v, WindowWhenRun.v, WindowToggleRun.v, BufferToggleRun.v). *)
From RxVerif Require Import Base.Prelude Ops.Machine Ops.MultiWin Ops.MultiWinFacts Ops.Windows
  Ops.WindowCountFacts Ops.WindowFacts Ops.BufferFacts Ops.BufferCountFacts.

(* ---- count-based windows: closed form for ALL count >= 1, skip >= 1 ---------- *)
(* window k holds exactly elements k*skip .. k*skip+count-1 (in order), completes right after the
   last of them, or ends with the source's terminal if that comes first *)
Theorem C18_window_count_index : forall A count skip, 0 < count -> 0 < skip ->
  forall B (xs : list A) (tm : term) (k : nat),
  wevents k (fst (run all_imm (x_window_count (A:=A) (B:=B) count skip) (src_events xs tm)))
  = map Next (ztake count (zskip (Z.of_nat k * skip) xs))
    ++ (if Z.of_nat k * skip + count <=? zlen xs then [Done]
        else if Z.of_nat k * skip <=? zlen xs then term_ev tm else []).
Proof. exact @window_count_index. Qed.
Print Assumptions C18_window_count_index.

(* window k is handed iff k*skip <= number of source elements; windows come in order *)
Theorem C18_window_count_hands : forall A count skip, 0 < count -> 0 < skip ->
  forall B (xs : list A) (tm : term),
  map fst (hands (fst (run all_imm (x_window_count (A:=A) (B:=B) count skip) (src_events xs tm))))
  = seq 0 (Z.to_nat (zlen xs / skip) + 1).
Proof. exact @window_count_hands. Qed.
Print Assumptions C18_window_count_hands.

(* q.pop(0) never meets an empty queue *)
Theorem C18_window_count_pop_safe : forall count skip, 0 < count -> 0 < skip ->
  forall s n lo nx, wc_inv count skip s n lo nx ->
  (0 <=? wc_n s - count + 1) && ((wc_n s - count + 1) mod skip =? 0) = true -> wc_q s <> [].
Proof. exact @wcount_pop_safe. Qed.
Print Assumptions C18_window_count_pop_safe.

(* ---- routing, every rule, EVERY state (= every input history) ------------------ *)
(* a source element goes to exactly the windows open when it arrives, in opening order; the
   source's terminal ends exactly the open windows with its kind, and the outer sequence *)
Theorem C18_count_routes : forall A B count skip, routes (x_window_count (A:=A) (B:=B) count skip) wc_q Complete.
Proof.
  intros A B count skip s now. repeat split; cbn [x_step x_window_count].
  intros x. unfold wc_on_next.
  destruct ((0 <=? wc_n s - count + 1) && ((wc_n s - count + 1) mod skip =? 0)); [destruct (wc_q s) as [|g t]|];
    destruct ((wc_n s + 1) mod skip =? 0); cbn [fst snd];
    rewrite ?cwin_nexts_app, cwin_nexts_all, ?app_nil_r; reflexivity.
Qed.
Theorem C18_time_routes : forall A B span shift, routes (x_window_time (A:=A) (B:=B) span shift) wt_q Complete.
Proof. intros A B span shift s now. repeat split; cbn [x_step x_window_time fst snd]. intros x. apply cwin_nexts_all. Qed.
Theorem C18_time_or_count_routes : forall A B span count,
  routes (x_window_time_or_count (A:=A) (B:=B) span count) (fun s => [wtc_cur s]) Complete.
Proof.
  intros A B span count s now. repeat split; cbn [x_step x_window_time_or_count fst snd].
  intros x. destruct (wtc_n s + 1 =? count); [|reflexivity].
  unfold wtc_roll, wtc_create_timer. destruct (wtc_ttag s); reflexivity.
Qed.
Theorem C18_boundaries_routes : forall A B, routes (x_window_boundaries (A:=A) (B:=B)) (fun s => [fst s]) Complete.
Proof. intros A B [cur next] now. repeat split. Qed.
Theorem C18_when_routes : forall A B mapper, routes (x_window_when (A:=A) (B:=B) mapper) (fun s => [ww_cur s]) Complete.
Proof. intros A B mapper s now. repeat split. Qed.
(* toggle: the source's completion completes the open windows (after the proposed fix); the outer
   sequence follows the openings *)
Theorem C18_toggle_routes : forall A B mapper, routes (x_window_toggle (A:=A) (B:=B) mapper) wg_windows Cont.
Proof. intros A B mapper s now. repeat split; cbn [x_step x_window_toggle fst snd]. intros x. apply cwin_nexts_all. Qed.
Print Assumptions C18_count_routes.
Print Assumptions C18_time_routes.
Print Assumptions C18_time_or_count_routes.
Print Assumptions C18_boundaries_routes.
Print Assumptions C18_when_routes.
Print Assumptions C18_toggle_routes.

(* ---- time windows: the timer chain visits the edges k*shift and span + k*shift in order --- *)
Theorem C18_time_start : forall A B span shift, 0 < span -> 0 < shift ->
  wt_inv span shift (fst (fst (x_start (x_window_time (A:=A) (B:=B) span shift)))) 0 0
  /\ snd (fst (x_start (x_window_time (A:=A) (B:=B) span shift)))
     = [CHand 0%nat 0; CTimer 0%nat (Z.min shift span); CSub 0%nat].
Proof. exact @wt_start_inv. Qed.
Print Assumptions C18_time_start.

(* after a shift edges and b span edges: the firing opens window a+1 iff (a+1)*shift is due,
   closes window b iff span + b*shift is due, and schedules the next edge at its exact distance *)
Theorem C18_time_tick : forall A B span shift, 0 < span -> 0 < shift -> forall s a b,
  wt_inv span shift s a b ->
  let a' := if wt_is_shift s then S a else a in
  let b' := if wt_is_span s then S b else b in
  wt_inv span shift (fst (wt_action (A:=A) (B:=B) shift s)) a' b'
  /\ snd (wt_action (A:=A) (B:=B) shift s)
     = (if wt_is_shift s then [CHand (S a) 0] else []) ++ (if wt_is_span s then [CWin b Done] else [])
       ++ [CTimer (wt_ntag s) (Z.min ((Z.of_nat a' + 1) * shift) (span + Z.of_nat b' * shift) - wt_total s)].
Proof. exact @wt_tick. Qed.
Print Assumptions C18_time_tick.

Theorem C18_time_chain_always : forall A B span shift, 0 < span -> 0 < shift ->
  forall (imm : nat -> bool) (ins : list (Z * inp A)),
  exists a b, wt_inv span shift
    (fst (after imm (x_window_time (A:=A) (B:=B) span shift)
                (fst (start_state imm (x_window_time (A:=A) (B:=B) span shift)))
                (snd (start_state imm (x_window_time (A:=A) (B:=B) span shift))) ins)) a b.
Proof. exact @wt_always. Qed.
Print Assumptions C18_time_chain_always.

Theorem C18_time_pop_safe : forall span shift, 0 < span -> 0 < shift -> forall s a b,
  wt_inv span shift s a b -> wt_is_span s = true ->
  (if wt_is_shift s then wt_q s ++ [wt_next s] else wt_q s) <> [].
Proof.
  intros span shift Hspan Hshift s a b I E. pose proof (ti_span _ _ _ _ _ I) as Hsp. pose proof (ti_q _ _ _ _ _ I) as Hq.
  rewrite E in Hsp. symmetry in Hsp. apply Z.leb_le in Hsp.
  assert (Hb : (b <= a)%nat) by nia. rewrite Hq.
  destruct (S a - b)%nat eqn:El; [lia|]. destruct (wt_is_shift s); discriminate.
Qed.
Print Assumptions C18_time_pop_safe.

(* ---- time-or-count ---------------------------------------------------------------- *)
Theorem C18_toc_timer_closes : forall A B span count, 0 < count -> forall s now tag, wtc_inv count s ->
  snd (fst (x_step (x_window_time_or_count (A:=A) (B:=B) span count) s now (ITick tag)))
  = snd (wtc_roll (A:=A) (B:=B) span s)
  /\ wtc_inv count (fst (fst (x_step (x_window_time_or_count (A:=A) (B:=B) span count) s now (ITick tag)))).
Proof. exact @wtc_tick. Qed.
Theorem C18_toc_count_closes : forall A B span count, 0 < count -> forall s now k (x : A), wtc_inv count s ->
  wtc_inv count (fst (fst (x_step (x_window_time_or_count (A:=A) (B:=B) span count) s now (ISrc k (Next x)))))
  /\ snd (fst (x_step (x_window_time_or_count (A:=A) (B:=B) span count) s now (ISrc k (Next x))))
     = CWin (wtc_cur s) (Next x) :: (if wtc_n s + 1 =? count then snd (wtc_roll (A:=A) (B:=B) span s) else [])
  /\ wtc_n (fst (fst (x_step (x_window_time_or_count (A:=A) (B:=B) span count) s now (ISrc k (Next x)))))
     = (if wtc_n s + 1 =? count then 0 else wtc_n s + 1).
Proof. exact @wtc_next_elem. Qed.
Theorem C18_toc_roll : forall A B span count, 0 < count -> forall s, wtc_inv count s ->
  wtc_inv count (fst (wtc_roll (A:=A) (B:=B) span s))
  /\ snd (wtc_roll (A:=A) (B:=B) span s)
     = [CWin (wtc_cur s) Done; CHand (S (wtc_cur s)) 0]
       ++ match wtc_ttag s with Some t => [CCancel t] | None => [] end ++ [CTimer (wtc_ntag s) (Z.max 0 span)]
  /\ wtc_cur (fst (wtc_roll (A:=A) (B:=B) span s)) = S (wtc_cur s).
Proof. exact @wtc_roll_spec. Qed.
Theorem C18_toc_always : forall A B span count, 0 < count -> forall (imm : nat -> bool) (ins : list (Z * inp A)),
  wtc_inv count (fst (after imm (x_window_time_or_count (A:=A) (B:=B) span count)
                            (fst (start_state imm (x_window_time_or_count (A:=A) (B:=B) span count)))
                            (snd (start_state imm (x_window_time_or_count (A:=A) (B:=B) span count))) ins)).
Proof. exact @wtc_always. Qed.
Print Assumptions C18_toc_timer_closes.
Print Assumptions C18_toc_count_closes.
Print Assumptions C18_toc_roll.
Print Assumptions C18_toc_always.

(* ---- boundaries / closing selector / toggle ------------------------------------------- *)
Theorem C18_boundary_rule : forall A B cur next now k (v : A),
  x_step (x_window_boundaries (A:=A) (B:=B)) (cur, next) now (ISrc (S k) (Next v))
  = ((next, S next), [CWin cur Done; CHand next 0], Cont).
Proof. reflexivity. Qed.
Theorem C18_when_rule : forall A B mapper s now k (e : ev A), (forall z, e <> Err z) ->
  exists c f,
    x_step (x_window_when (A:=A) (B:=B) mapper) s now (ISrc (S k) e)
    = (fst (fst (ww_arm (A:=A) (B:=B) true mapper (WwSt (ww_next s) (S (ww_next s)) (ww_calls s) (ww_closing s)))),
       [CWin (ww_cur s) Done; CHand (ww_next s) 0; CUnsub (S k)] ++ c, f)
    /\ f = snd (ww_arm (A:=A) (B:=B) true mapper (WwSt (ww_next s) (S (ww_next s)) (ww_calls s) (ww_closing s))).
Proof.
  intros A B mapper s now k e He. rewrite (window_when_fires mapper s now k e He).
  destruct (ww_arm true mapper _) as [[s' c] f]. cbn [fst snd]. eauto.
Qed.
(* ... when that call returns, the new closing observable is subscribed behind `if d.is_disposed: return`
   (command CSubLive of Ops/MultiWin.v: as CSub while the runner has not released, nothing once it has --
   the completion of the old window may have dropped the last reference when the outer subscription was
   already gone; the mapper is not called then) *)
Theorem C18_when_rule_ok : forall A B mapper s now k (e : ev A) u, (forall z', e <> Err z') ->
  mapper (ww_calls s) = Ok u ->
  snd (fst (x_step (x_window_when (A:=A) (B:=B) mapper) s now (ISrc (S k) e)))
  = [CWin (ww_cur s) Done; CHand (ww_next s) 0; CUnsub (S k); CSubLive (S (ww_calls s))]
  /\ snd (x_step (x_window_when (A:=A) (B:=B) mapper) s now (ISrc (S k) e)) = Cont.
Proof.
  intros A B mapper s now k e u He H. rewrite (window_when_fires mapper s now k e He).
  unfold ww_arm. cbn [ww_calls]. rewrite H. split; reflexivity.
Qed.
(* ... and when that next call of the mapper raises: the window just handed gets the error before the outer
   (operators/_window.py create_window_on_completed: window.on_error(exception); observer.on_error(exception));
   inside subscribe() the same happens to window 0, after it was handed and the source subscribed *)
Theorem C18_when_rule_raises : forall A B mapper s now k (e : ev A) z, (forall z', e <> Err z') ->
  mapper (ww_calls s) = Raise z ->
  snd (fst (x_step (x_window_when (A:=A) (B:=B) mapper) s now (ISrc (S k) e)))
  = [CWin (ww_cur s) Done; CHand (ww_next s) 0; CUnsub (S k); CWin (ww_next s) (Err z)]
  /\ snd (x_step (x_window_when (A:=A) (B:=B) mapper) s now (ISrc (S k) e)) = Fail z.
Proof.
  intros A B mapper s now k e z He H. rewrite (window_when_fires mapper s now k e He).
  unfold ww_arm. cbn [ww_calls]. rewrite H. split; reflexivity.
Qed.
Theorem C18_when_start : forall A B (mapper : nat -> res unit),
  snd (fst (x_start (x_window_when (A:=A) (B:=B) mapper)))
  = [CHand 0%nat 0; CSub 0%nat]
    ++ match mapper 0%nat with Ok _ => [CSub 1%nat] | Raise z => [CWin 0%nat (Err z)] end
  /\ snd (x_start (x_window_when (A:=A) (B:=B) mapper))
     = match mapper 0%nat with Ok _ => Cont | Raise z => Fail z end.
Proof.
  intros A B mapper. cbn [x_start x_window_when]. unfold ww_arm. cbn [ww_calls]. destruct (mapper 0%nat); split; reflexivity.
Qed.
Theorem C18_toggle_open_rule : forall A B mapper s now (v : A), mapper (wg_calls s) = Ok tt ->
  x_step (x_window_toggle (A:=A) (B:=B) mapper) s now (ISrc 1%nat (Next v))
  = (WgSt (wg_open s ++ [(wg_next s, (2 + wg_calls s)%nat)]) (S (wg_next s)) (S (wg_calls s)),
     [CHand (wg_next s) 0; CSub (2 + wg_calls s)%nat], Cont).
Proof. intros A B mapper s now v H. cbn [x_step x_window_toggle]. rewrite H. reflexivity. Qed.
Theorem C18_toggle_close_rule : forall A B mapper s now k (e : ev A) g,
  (forall z, e <> Err z) -> wg_find (S (S k)) (wg_open s) = Some g ->
  snd (fst (x_step (x_window_toggle (A:=A) (B:=B) mapper) s now (ISrc (S (S k)) e))) = [CWin g Done; CUnsub (S (S k))]
  /\ wg_open (fst (fst (x_step (x_window_toggle (A:=A) (B:=B) mapper) s now (ISrc (S (S k)) e))))
     = filter (fun gc => negb (Nat.eqb (S (S k)) (snd gc))) (wg_open s).
Proof.
  intros A B mapper s now k e g He Hf. cbn [x_step x_window_toggle].
  destruct e as [x|z|]; [|destruct (He z eq_refl)|]; rewrite Hf; split; reflexivity.
Qed.
Theorem C18_toggle_error_fanout : forall A B mapper s now k z,
  x_step (x_window_toggle (A:=A) (B:=B) mapper) s now (ISrc k (Err z)) = (s, wins_all (wg_windows s) (Err z), Fail z).
Proof. exact @window_toggle_error_fanout. Qed.
Print Assumptions C18_boundary_rule.
Print Assumptions C18_when_rule.
Print Assumptions C18_when_rule_ok.
Print Assumptions C18_when_rule_raises.
Print Assumptions C18_when_start.
Print Assumptions C18_toggle_open_rule.
Print Assumptions C18_toggle_close_rule.
Print Assumptions C18_toggle_error_fanout.

(* ---- buffers: each buffer equals the contents of its window ----------------------------- *)
Theorem C18_buffer_tracks_window : forall A B0 keep g (cs : list (cmd A B0)) open od b,
  quiet g cs -> buf_get g open = Some b -> snd (buf_cmds keep open od cs) = Cont ->
  buf_get g (fst (fst (buf_cmds keep open od cs))) = Some (b ++ nexts_of g cs).
Proof. exact @buffer_tracks_window. Qed.
Theorem C18_buffer_is_window_contents : forall A B0 keep g key (mid post : list (cmd A B0)) open od,
  buf_get g open = None -> quiet g mid ->
  snd (buf_cmds keep (open ++ [(g, [])]) od mid) = Cont ->
  let o1 := fst (fst (buf_cmds keep (open ++ [(g, [])]) od mid)) in
  let content := nexts_of g mid in
  snd (fst (buf_cmds keep open od (CHand g key :: mid ++ CWin g Done :: post)))
  = snd (fst (buf_cmds keep (open ++ [(g, [])]) od mid))
    ++ (if keep || negb (match content with [] => true | _ => false end) then [CEmit content] else [])
    ++ (if od && match buf_del g o1 with [] => true | _ => false end then []
        else snd (fst (buf_cmds keep (buf_del g o1) od post))).
Proof. exact @buffer_is_window_contents. Qed.
Theorem C18_buffer_window_error : forall A B0 keep g z (post : list (cmd A B0)) open od b,
  buf_get g open = Some b -> buf_cmds keep open od (CWin g (Err z) :: post) = (open, [], Fail z).
Proof. intros A B0 keep g z post open od b H. cbn [buf_cmds]. now rewrite H. Qed.
Print Assumptions C18_buffer_tracks_window.
Print Assumptions C18_buffer_is_window_contents.
Print Assumptions C18_buffer_window_error.

(* ---- the release clauses (C02/C03 for handed windows), EVERY machine, policy, input sequence -- *)
(* once the outer subscription ended AND no window subscription is live: nothing is left subscribed *)
Theorem C18_release_when_all_ended : forall A W B (imm : nat -> bool) (m : machine A W B) ins,
  r_outer (snd (run imm m ins)) = false -> r_wsubs (snd (run imm m ins)) = [] ->
  r_live (snd (run imm m ins)) = [] /\ r_timers (snd (run imm m ins)) = [].
Proof. exact @run_all_ended_released. Qed.
Theorem C18_released_only_when_all_ended : forall A W B (imm : nat -> bool) (m : machine A W B) ins,
  r_released (snd (run imm m ins)) = true ->
  r_outer (snd (run imm m ins)) = false /\ r_wsubs (snd (run imm m ins)) = [].
Proof. exact @run_released_only_when_all_ended. Qed.
(* while the outer subscription or a window subscriber is live (= not released), a source the
   machine does not unsubscribe itself stays subscribed until it terminates *)
Theorem C18_source_stays_subscribed : forall A W B (imm : nat -> bool) (m : machine A W B) k ins s r,
  never_unsubs m k -> mem k (r_live r) = true ->
  (forall now e, In (now, ISrc k e) ins -> is_terminal e = false) ->
  r_released (snd (after imm m s r ins)) = false ->
  mem k (r_live (snd (after imm m s r ins))) = true.
Proof. exact @source_stays_subscribed. Qed.
Theorem C18_window_machines_keep_source : forall A B,
  (forall count skip k, never_unsubs (x_window_count (A:=A) (B:=B) count skip) k)
  /\ (forall span shift k, never_unsubs (x_window_time (A:=A) (B:=B) span shift) k)
  /\ (forall span count k, never_unsubs (x_window_time_or_count (A:=A) (B:=B) span count) k)
  /\ (forall k, never_unsubs (x_window_boundaries (A:=A) (B:=B)) k)
  /\ (forall mapper, never_unsubs (x_window_when (A:=A) (B:=B) mapper) 0%nat)
  /\ (forall mapper, never_unsubs (x_window_toggle (A:=A) (B:=B) mapper) 0%nat).
Proof. exact @window_machines_keep_source. Qed.
(* nothing reaches the subscriber on the outer after it ended *)
Theorem C18_outer_silent_after_end : forall A W B (imm : nat -> bool) (m : machine A W B) ins s r k,
  r_outer r = false -> forall x, In x (fst (run_from imm m s r k ins)) -> outer_obs (snd x) = false.
Proof. exact @run_from_outer_silent. Qed.
(* a window notification reaches exactly the live subscriptions of that window, once each *)
Theorem C18_window_delivery : forall W B (imm : nat -> bool) (r : rstate W) g (e : ev W) j,
  wobs (B:=B) j (snd (apply_cmd imm r (CWin g e)))
  = if Nat.eqb j g
    then match wterm_of g (r_wterm r) with Some _ => [] | None => repeat e (count_of g (r_wsubs r)) end
    else [].
Proof. exact @win_cmd_delivery. Qed.
Print Assumptions C18_release_when_all_ended.
Print Assumptions C18_released_only_when_all_ended.
Print Assumptions C18_source_stays_subscribed.
Print Assumptions C18_window_machines_keep_source.
Print Assumptions C18_outer_silent_after_end.
Print Assumptions C18_window_delivery.

(* ---- witnesses (hypotheses satisfiable; behaviours exist) ------------------------------- *)
Example C18_witness_count_overlapping :
  map (fun k => wevents k (fst (run all_imm (x_window_count (B:=unit) 3 2) (src_events [10; 11; 12; 13; 14] TDone))))
      [0; 1; 2; 3]%nat
  = [[Next 10; Next 11; Next 12; Done]; [Next 12; Next 13; Next 14; Done]; [Next 14; Done]; []].
Proof. vm_compute. reflexivity. Qed.
Example C18_witness_count_gapped :
  map (fun k => wevents k (fst (run all_imm (x_window_count (B:=unit) 2 3) (src_events [10; 11; 12; 13; 14; 15; 16] (TErr 7)))))
      [0; 1; 2]%nat
  = [[Next 10; Next 11; Done]; [Next 13; Next 14; Done]; [Next 16; Err 7]].
Proof. vm_compute. reflexivity. Qed.
Example C18_witness_time_chain :
  (* span 20, shift 30 (gapped): edges 20 (close 0), 30 (open 1), 50 (close 1), 60 (open 2) *)
  map snd (fst (run all_imm (x_window_time (A:=Z) (B:=unit) 20 30)
       [(20, ITick 0%nat); (25, ISrc 0%nat (Next 5)); (30, ITick 1%nat); (35, ISrc 0%nat (Next 6)); (50, ITick 2%nat)]))
  = [OHand 0%nat 0; OTimer 0%nat 20; OSub 0%nat; OWin 0%nat Done; OTimer 1%nat 10; OHand 1%nat 0; OTimer 2%nat 20;
     OWin 1%nat (Next 6); OWin 1%nat Done; OTimer 3%nat 10].
Proof. vm_compute. reflexivity. Qed.
Example C18_witness_refcount :
  (* the outer is disposed while window 0's subscriber is live: the source stays subscribed; it is
     released when that subscriber leaves *)
  map snd (fst (run all_imm (x_window_count (B:=unit) 5 5)
       [(0, ISrc 0%nat (Next 1)); (1, IDispose); (2, ISrc 0%nat (Next 2)); (3, IUnsubWin 0%nat); (4, ISrc 0%nat (Next 3))]))
  = [OHand 0%nat 0; OSub 0%nat; OWin 0%nat (Next 1); OWin 0%nat (Next 2); OUnsub 0%nat].
Proof. vm_compute. reflexivity. Qed.
Example C18_witness_buffer :
  emitted (fst (run all_imm (x_buffer_count 2 3) (src_events [10; 11; 12; 13; 14; 15; 16] TDone)))
  = [Next [10; 11]; Next [13; 14]; Next [16]; Done].
Proof. vm_compute. reflexivity. Qed.

(* ---- buffer_with_count: closed form of the whole run, ALL count >= 1, skip >= 1 ------------- *)
(* (Ops/BufferCountFacts.v)  buffer k is the slice xs[k*skip .. k*skip+count-1] (shorter at the end of the
   source); buffers come in the order of k.  A COMPLETING source flushes the non-empty partial buffers: the
   buffers are those with k*skip < length, i.e. ceil(length/skip) of them, then Done. *)
Theorem C18_buffer_count_closed_form : forall A count skip, 0 < count -> 0 < skip -> forall (xs : list A),
  emitted (fst (run all_imm (x_buffer_count count skip) (src_events xs TDone)))
  = map Next (map (fun k => ztake count (zskip (Z.of_nat k * skip) xs))
                  (seq 0 (Z.to_nat ((zlen xs + skip - 1) / skip))))
    ++ [Done].
Proof. intros A count skip Hcount Hskip xs. exact (buffer_count_closed_form count skip Hcount Hskip xs TDone). Qed.
Print Assumptions C18_buffer_count_closed_form.
(* all three terminations at once, [nbuffers] as characterised below *)
Theorem C18_buffer_count_closed_form_any_termination : forall A count skip, 0 < count -> 0 < skip ->
  forall (xs : list A) tm,
  emitted (fst (run all_imm (x_buffer_count count skip) (src_events xs tm)))
  = map Next (map (fun k => ztake count (zskip (Z.of_nat k * skip) xs))
                  (seq 0 (nbuffers count skip (zlen xs) tm)))
    ++ term_ev tm.
Proof. exact @buffer_count_closed_form. Qed.
Print Assumptions C18_buffer_count_closed_form_any_termination.
(* a FAILING source (or one that never ends) delivers only the buffers that were full before -- those with
   k*skip+count <= length -- then the error: the partial buffers are lost *)
Theorem C18_buffer_count_closed_form_error : forall A count skip, 0 < count -> 0 < skip ->
  forall (xs : list A) tm, tm <> TDone ->
  emitted (fst (run all_imm (x_buffer_count count skip) (src_events xs tm)))
  = map Next (map (fun k => ztake count (zskip (Z.of_nat k * skip) xs))
                  (seq 0 (Z.to_nat (if zlen xs <? count then 0 else (zlen xs - count) / skip + 1))))
    ++ term_ev tm.
Proof.
  intros A count skip Hcount Hskip xs tm Htm. rewrite (buffer_count_closed_form count skip Hcount Hskip xs tm).
  destruct tm; [congruence|reflexivity|reflexivity].
Qed.
Print Assumptions C18_buffer_count_closed_form_error.
(* the two counts, characterised without division *)
Theorem C18_buffer_count_number_completing : forall count skip, 0 < skip -> forall n k, 0 <= n ->
  ((k < nbuffers count skip n TDone)%nat <-> Z.of_nat k * skip < n).
Proof. exact nbuffers_done. Qed.
Theorem C18_buffer_count_number_failing : forall count skip, 0 < skip -> forall n tm k,
  tm <> TDone -> 0 <= n -> ((k < nbuffers count skip n tm)%nat <-> Z.of_nat k * skip + count <= n).
Proof. exact nbuffers_full. Qed.
Print Assumptions C18_buffer_count_number_completing.
Print Assumptions C18_buffer_count_number_failing.
Example C18_witness_buffer_closed_form :
  emitted (fst (run all_imm (x_buffer_count 3 2) (src_events [1; 2; 3; 4; 5] TDone)))
  = [Next [1; 2; 3]; Next [3; 4; 5]; Next [5]; Done]
  /\ emitted (fst (run all_imm (x_buffer_count 3 2) (src_events [1; 2; 3; 4; 5] (TErr 7))))
     = [Next [1; 2; 3]; Next [3; 4; 5]; Err 7]
  /\ emitted (fst (run all_imm (x_buffer_count 2 3) (src_events [1; 2; 3; 4; 5; 6] TDone)))
     = [Next [1; 2]; Next [4; 5]; Done].
Proof. vm_compute. auto. Qed.

(* ==== whole runs: the complete trace as a closed form or a walk (count, time, closing selector, toggle) ==== *)
From RxVerif Require Import Ops.WindowCountRun Ops.WinSim Ops.WindowTimeSim Ops.BufferTimeSim Ops.WindowWhenRun
  Ops.WindowToggleRun Ops.BufferToggleRun.
From RxVerif Require Ops.TimedSim.
From Coq Require Import Sorting.Sorted.

(* ---- window_with_count: the WHOLE position-tagged trace of a conforming run (Ops/WindowCountRun.v) ---- *)
(* what the runner observes at input position n+1 (the element with index n) depends on n alone: the
   element goes to the windows lo(n) .. nx(n)-1 in opening order (lo(n) = #{k | k*skip+count <= n},
   nx(n) = #{k | k*skip <= n}), then window lo(n) completes iff n = lo(n)*skip+count-1, then window
   nx(n) is handed iff n+1 = nx(n)*skip; the source's terminal goes to the open windows in order, then
   to the outer subscriber, and the source subscription is released *)
Theorem C18_window_count_trace : forall A B count skip, 0 < count -> 0 < skip -> forall (xs : list A) (tm : term),
  fst (run all_imm (x_window_count (A:=A) (B:=B) count skip) (src_events xs tm))
  = [(0%nat, OHand 0%nat 0); (0%nat, OSub 0%nat)] ++ wc_trace_from count skip 0 1 xs tm.
Proof. exact @window_count_trace. Qed.
Print Assumptions C18_window_count_trace.
(* readings: which notification reaches window k at which input position *)
Theorem C18_window_count_next_at : forall A B count skip, 0 < count -> 0 < skip ->
  forall (xs : list A) (tm : term) (k p : nat) (x : A),
  In (p, OWin k (Next x)) (fst (run all_imm (x_window_count (A:=A) (B:=B) count skip) (src_events xs tm)))
  <-> exists n, p = S n /\ nth_error xs n = Some x /\ wopen count skip k (Z.of_nat n) = true.
Proof. exact @window_count_next_at. Qed.
(* window k completes in the very on_next call that delivers its last element (index k*skip+count-1,
   position k*skip+count), or with the source's completion if it is open then *)
Theorem C18_window_count_done_at : forall A B count skip, 0 < count -> 0 < skip ->
  forall (xs : list A) (tm : term) (k p : nat),
  In (p, OWin k Done) (fst (run all_imm (x_window_count (A:=A) (B:=B) count skip) (src_events xs tm)))
  <-> (Z.of_nat p = Z.of_nat k * skip + count /\ Z.of_nat p <= zlen xs)
      \/ (tm = TDone /\ p = S (length xs) /\ wopen count skip k (zlen xs) = true).
Proof. exact @window_count_done_at. Qed.
(* the source's error reaches exactly the windows open when it arrives ... *)
Theorem C18_window_count_error_at : forall A B count skip, 0 < count -> 0 < skip ->
  forall (xs : list A) (tm : term) (k p : nat) (z : Z),
  In (p, OWin k (Err z)) (fst (run all_imm (x_window_count (A:=A) (B:=B) count skip) (src_events xs tm)))
  <-> tm = TErr z /\ p = S (length xs) /\ wopen count skip k (zlen xs) = true.
Proof. exact @window_count_error_at. Qed.
(* ... and the outer subscriber, which otherwise sees only the handed windows *)
Theorem C18_window_count_outer_at : forall A B count skip, 0 < count -> 0 < skip ->
  forall (xs : list A) (tm : term) (p : nat) (e : ev B),
  In (p, OEmit e) (fst (run all_imm (x_window_count (A:=A) (B:=B) count skip) (src_events xs tm)))
  <-> p = S (length xs) /\ In e (term_ev tm).
Proof. exact @window_count_outer_at. Qed.
(* window k >= 1 is handed inside the on_next of the element with index k*skip-1 (window 0: inside subscribe) *)
Theorem C18_window_count_hand_at : forall A B count skip, 0 < count -> 0 < skip ->
  forall (xs : list A) (tm : term) (k : nat) (key : Z) (p : nat),
  In (p, OHand k key) (fst (run all_imm (x_window_count (A:=A) (B:=B) count skip) (src_events xs tm)))
  <-> key = 0 /\ Z.of_nat p = Z.of_nat k * skip /\ Z.of_nat p <= zlen xs.
Proof. exact @window_count_hand_at. Qed.
Print Assumptions C18_window_count_next_at.
Print Assumptions C18_window_count_done_at.
Print Assumptions C18_window_count_error_at.
Print Assumptions C18_window_count_outer_at.
Print Assumptions C18_window_count_hand_at.
Example C18_witness_count_trace :
  fst (run all_imm (x_window_count (B:=unit) 2 3) (src_events [10; 11; 12; 13] (TErr 7)))
  = [(0%nat, OHand 0%nat 0); (0%nat, OSub 0%nat); (1%nat, OWin 0%nat (Next 10)); (2%nat, OWin 0%nat (Next 11));
     (2%nat, OWin 0%nat Done); (3%nat, OHand 1%nat 0); (4%nat, OWin 1%nat (Next 13)); (5%nat, OWin 1%nat (Err 7));
     (5%nat, OEmit (Err 7)); (5%nat, OUnsub 0%nat)].
Proof. vm_compute. reflexivity. Qed.

(* ---- time windows / buffers in a CLOSED WORLD (Ops/WinSim.v: the simulator of C16 over the window
   runner; timers fire exactly at their due time; at equal instants the source goes first; the walks and
   closed forms below are proved in Ops/WindowTimeSim.v and Ops/BufferTimeSim.v) ---- *)
(* a simulation is a run of the machine on the inputs it delivered *)
Theorem C18_sim_is_run : forall A W B (imm : nat -> bool) (m : machine A W B) fuel t0 ext,
  fst (run imm m (wsim_inputs (snd (wsimulate imm m fuel t0 ext)))) = wsim_trace (wsimulate imm m fuel t0 ext).
Proof. exact @wsim_is_run. Qed.
Print Assumptions C18_sim_is_run.
(* (a) for EVERY event sequence on the source port and every horizon, the simulation of window_with_time is
   a walk that carries only the number a of shift edges and b of span edges that have fired: the pending
   timer is due at t0 + min((a+1)*shift, span+b*shift); an event at t is delivered before it iff t <= that
   instant, to the windows b..a *)
Theorem C18_window_time_walk : forall A B span shift t0, 0 < span -> 0 < shift -> forall fuel (es : list (Z * ev A)),
  wsimulate all_imm (x_window_time (A:=A) (B:=B) span shift) fuel t0 (wext_of es)
  = ([OHand 0%nat 0; OTimer 0%nat (Z.min shift span); OSub 0%nat], wt_walk span shift t0 fuel 0 0 0 es).
Proof. exact @window_time_walk. Qed.
Print Assumptions C18_window_time_walk.
(* (b) sorted conforming timeline (terminating or not): window k receives exactly the elements whose
   instant t lies in its interval -- [in_win]: k*shift < t-t0 <= k*shift+span, window 0: t-t0 <= span; an
   element AT an opening edge is not in the new window, an element AT a closing edge still is -- each at
   its instant; it completes at t0+k*shift+span if that is strictly before the source's terminal (or the
   source never ends), ends with the source's terminal if that lies in its interval, and does not exist
   otherwise ([wt_ending]) *)
Theorem C18_window_time_contents : forall A B span shift t0, 0 < span -> 0 < shift ->
  forall (tl : list (Z * A)) (tm : TimedSim.tterm) (k fuel : nat),
  TimedSim.sorted_from t0 (wsrc tl tm) ->
  (length tl + 1 + Z.to_nat (span + Z.of_nat k * shift) <= fuel)%nat ->
  wsim_wevents k (snd (wsimulate all_imm (x_window_time (A:=A) (B:=B) span shift) fuel t0 (wext_of (wsrc tl tm))))
  = map (fun tx => (fst tx, Next (snd tx))) (wt_contents span shift t0 k tl) ++ wt_ending span shift t0 k tm.
Proof. exact @window_time_contents. Qed.
Print Assumptions C18_window_time_contents.
(* the outer subscriber of a terminating timeline: window k >= 1 is handed at t0+k*shift iff k*shift < T-t0,
   in the order of k; then the source's terminal *)
Theorem C18_window_time_outer : forall A B span shift t0, 0 < span -> 0 < shift ->
  forall (tl : list (Z * A)) (tm : TimedSim.tterm) (T : Z) (e : ev A) (fuel : nat),
  tm_ev tm = [(T, e)] -> TimedSim.sorted_from t0 (wsrc tl tm) -> (length tl + 1 + Z.to_nat (T - t0) <= fuel)%nat ->
  wsim_outer (snd (wsimulate all_imm (x_window_time (A:=A) (B:=B) span shift) fuel t0 (wext_of (wsrc tl tm))))
  = map (fun k => (t0 + Z.of_nat k * shift, OHand k 0)) (seq 1 (n_open shift (T - t0) - 1))
    ++ [(T, OEmit (out_term e))].
Proof. exact @window_time_outer. Qed.
Print Assumptions C18_window_time_outer.
Theorem C18_time_windows_opened : forall shift, 0 < shift -> forall tau k,
  (k < n_open shift tau)%nat <-> k = 0%nat \/ Z.of_nat k * shift < tau.
Proof. exact WindowTimeSim.n_open_spec. Qed.
Theorem C18_time_windows_closed : forall span shift, 0 < shift -> forall tau k,
  (k < n_closed span shift tau)%nat <-> span + Z.of_nat k * shift < tau.
Proof. exact WindowTimeSim.n_closed_spec. Qed.
Print Assumptions C18_time_windows_opened.
Print Assumptions C18_time_windows_closed.
(* buffer_with_time: (a) the walk, (b) all buffers of a terminating timeline, in the order of k: buffer k
   (= the elements in k's interval) is emitted at its closing edge if that is strictly before the source's
   completion, the still open ones -- empty ones included -- at the completion, then Done; a failing source
   emits only the buffers closed before the error, then the error *)
Theorem C18_buffer_time_walk : forall A span shift t0, 0 < span -> 0 < shift -> forall fuel (es : list (Z * ev A)),
  wsimulate all_imm (x_buffer_time (A:=A) span shift) fuel t0 (wext_of es)
  = ([OTimer 0%nat (Z.min shift span); OSub 0%nat], bt_walk span shift t0 fuel 0 0 0 [(0%nat, [])] es).
Proof. exact @buffer_time_walk. Qed.
Theorem C18_buffer_time_closed_form : forall A span shift t0, 0 < span -> 0 < shift ->
  forall (tl : list (Z * A)) (T : Z) (fuel : nat),
  TimedSim.sorted_from t0 (wsrc tl (TimedSim.TTDone T)) -> (length tl + 1 + Z.to_nat (T - t0) <= fuel)%nat ->
  wsim_emitted (snd (wsimulate all_imm (x_buffer_time (A:=A) span shift) fuel t0 (wext_of (wsrc tl (TimedSim.TTDone T)))))
  = map (fun k => (Z.min (t0 + (span + Z.of_nat k * shift)) T, Next (bt_buffer span shift t0 k tl)))
        (seq 0 (n_open shift (T - t0)))
    ++ [(T, Done)].
Proof.
  intros A span shift t0 Hspan Hshift tl T fuel Hso Hfu.
  rewrite (buffer_time_closed_form span shift t0 Hspan Hshift tl (TimedSim.TTDone T) T Done fuel eq_refl Hso Hfu).
  unfold bt_exp. now rewrite Nat.sub_0_r.
Qed.
Theorem C18_buffer_time_closed_form_error : forall A span shift t0, 0 < span -> 0 < shift ->
  forall (tl : list (Z * A)) (T z : Z) (fuel : nat),
  TimedSim.sorted_from t0 (wsrc tl (TimedSim.TTErr T z)) -> (length tl + 1 + Z.to_nat (T - t0) <= fuel)%nat ->
  wsim_emitted (snd (wsimulate all_imm (x_buffer_time (A:=A) span shift) fuel t0 (wext_of (wsrc tl (TimedSim.TTErr T z)))))
  = map (fun k => (t0 + (span + Z.of_nat k * shift), Next (bt_buffer span shift t0 k tl)))
        (seq 0 (n_closed span shift (T - t0)))
    ++ [(T, Err z)].
Proof.
  intros A span shift t0 Hspan Hshift tl T z fuel Hso Hfu.
  rewrite (buffer_time_closed_form span shift t0 Hspan Hshift tl (TimedSim.TTErr T z) T (Err z) fuel eq_refl Hso Hfu).
  unfold bt_exp. now rewrite Nat.sub_0_r.
Qed.
Print Assumptions C18_buffer_time_walk.
Print Assumptions C18_buffer_time_closed_form.
Print Assumptions C18_buffer_time_closed_form_error.
(* the hypotheses are satisfiable, edge instants included: span 30, shift 20 (overlapping); 2 arrives AT the
   opening edge of window 1 (not in it), 3 AT the closing edge of window 0 (in it), 4 and 5 AT the closing
   edge of window 1 *)
Example C18_witness_time_sorted :
  TimedSim.sorted_from 0 (wsrc [(5, 1); (20, 2); (30, 3); (50, 4); (50, 5)] (TimedSim.TTDone 55)).
Proof. cbn. lia. Qed.
Example C18_witness_time_windows :
  map (fun k => wsim_wevents k (snd (wsimulate all_imm (x_window_time (B:=unit) 30 20) 40 0
                 (wext_of (wsrc [(5, 1); (20, 2); (30, 3); (50, 4); (50, 5)] (TimedSim.TTDone 55))))))
      [0; 1; 2; 3]%nat
  = [[(5, Next 1); (20, Next 2); (30, Next 3); (30, Done)];
     [(30, Next 3); (50, Next 4); (50, Next 5); (50, Done)];
     [(50, Next 4); (50, Next 5); (55, Done)]; []].
Proof. vm_compute. reflexivity. Qed.
Example C18_witness_time_buffers :
  wsim_emitted (snd (wsimulate all_imm (x_buffer_time 30 20) 40 0
     (wext_of (wsrc [(5, 1); (20, 2); (30, 3); (50, 4); (50, 5)] (TimedSim.TTDone 55)))))
  = [(30, Next [1; 2; 3]); (50, Next [3; 4; 5]); (55, Next [4; 5]); (55, Done)]
  /\ wsim_emitted (snd (wsimulate all_imm (x_buffer_time 30 20) 40 0
       (wext_of (wsrc [(5, 1); (20, 2); (30, 3); (50, 4); (50, 5)] (TimedSim.TTErr 50 7)))))
     = [(30, Next [1; 2; 3]); (50, Err 7)].
Proof. vm_compute. auto. Qed.

(* ---- closing selector (window_when / buffer_when), ALL interleavings of the ports (Ops/WindowWhenRun.v) ---- *)
(* port 0 = source, port g+1 = the closing observable made for window g.  The whole trace is a walk whose
   state is the index g of the current window: only the closing observable of the CURRENT window is listened
   to; its first notification (element or completion) completes window g, hands window g+1, disposes that
   subscription and subscribes a NEW closing observable made by the (g+1)-th call of the mapper; errors of
   the source / the current closing observable go to window g and the outer; a raising call of the mapper
   sends the error to the CURRENT window (window 0 at the first call, inside subscribe(); the window just
   handed at a later call), then to the outer, and releases the source: nothing later is observed
   ([ww_out]: the start, followed by the walk only if the first call did not raise) *)
Theorem C18_window_when_run : forall A B (mapper : nat -> res unit) (ins : list (Z * nat * ev A)),
  fst (run all_imm (x_window_when (A:=A) (B:=B) mapper) (wports ins)) = ww_out mapper ins.
Proof. exact @window_when_run. Qed.
(* the two raising cases read off the walk *)
Theorem C18_window_when_first_call_raises : forall A B (mapper : nat -> res unit) (ins : list (Z * nat * ev A)) z,
  mapper 0%nat = Raise z ->
  fst (run all_imm (x_window_when (A:=A) (B:=B) mapper) (wports ins))
  = [(0%nat, OHand 0%nat 0); (0%nat, OSub 0%nat); (0%nat, OWin 0%nat (Err z)); (0%nat, OEmit (Err z));
     (0%nat, OUnsub 0%nat)].
Proof. intros A B mapper ins z H. rewrite window_when_run. unfold ww_out, ww_start. rewrite H. reflexivity. Qed.
Theorem C18_window_when_raise_stops : forall A B (mapper : nat -> res unit) g pos t (e : ev A)
  (rest : list (Z * nat * ev A)) z,
  (forall z', e <> Err z') -> mapper (S g) = Raise z ->
  ww_walk (B:=B) mapper g pos ((t, S g, e) :: rest)
  = [(pos, OWin g Done); (pos, OHand (S g) 0); (pos, OUnsub (S g));
     (pos, OWin (S g) (Err z)); (pos, OEmit (Err z)); (pos, OUnsub 0%nat)].
Proof.
  intros A B mapper g pos t e rest z He H. cbn [ww_walk Nat.eqb]. rewrite Nat.eqb_refl, H.
  destruct e as [x|z'|]; [reflexivity|destruct (He z' eq_refl)|reflexivity].
Qed.
Print Assumptions C18_window_when_first_call_raises.
Print Assumptions C18_window_when_raise_stops.
Theorem C18_buffer_when_run : forall A (mapper : nat -> res unit) (ins : list (Z * nat * ev A)),
  fst (run all_imm (x_buffer_when (A:=A) mapper) (wports ins)) = bw_out mapper ins.
Proof. exact @buffer_when_run. Qed.
Print Assumptions C18_window_when_run.
Print Assumptions C18_buffer_when_run.
(* windows partition the source: the elements delivered on windows are, in trace order, a prefix of the
   source's elements (each element in ONE window, nothing invented or reordered) and the window index never
   decreases; nothing is lost while nothing fails (no error notification, no raising mapper call: such a
   call ends everything) and the source has not completed *)
Theorem C18_window_when_partition : forall A B (mapper : nat -> res unit) (ins : list (Z * nat * ev A)),
  let tr := fst (run all_imm (x_window_when (A:=A) (B:=B) mapper) (wports ins)) in
  (exists rest, src_nexts ins = map snd (routed tr) ++ rest)
  /\ StronglySorted (fun p q : nat * A => (fst p <= fst q)%nat) (routed tr).
Proof.
  intros A B mapper ins. cbn zeta. rewrite window_when_run. unfold ww_out. rewrite routed_app, routed_ww_start. cbn [app].
  destruct (mapper 0%nat).
  - destruct (ww_walk_partition (B:=B) mapper ins 0 1) as (H1 & _ & H3). split; assumption.
  - split; [exists (src_nexts ins); reflexivity|constructor].
Qed.
Theorem C18_window_when_no_loss : forall A B (mapper : nat -> res unit) (ins : list (Z * nat * ev A)),
  (forall j, exists u, mapper j = Ok u) -> no_err ins -> src_open ins ->
  map snd (routed (fst (run all_imm (x_window_when (A:=A) (B:=B) mapper) (wports ins)))) = src_nexts ins.
Proof.
  intros A B mapper ins Htot Hne Hso. rewrite window_when_run. unfold ww_out. rewrite routed_app, routed_ww_start. cbn [app].
  destruct (Htot 0%nat) as [u ->]. apply ww_walk_no_loss; assumption.
Qed.
(* buffers partition the source: with a mapper that does not raise and no error, the buffers emitted up to
   and at the source's completion, concatenated, are exactly the source's elements; then Done *)
Theorem C18_buffer_when_partition : forall A (mapper : nat -> res unit) (body : list (Z * nat * ev A)) (tD : Z),
  (forall j, exists u, mapper j = Ok u) -> no_err body -> src_open body ->
  exists bufs, emitted (fst (run all_imm (x_buffer_when (A:=A) mapper) (wports (body ++ [(tD, 0%nat, Done)]))))
               = map Next bufs ++ [Done]
               /\ concat bufs = src_nexts body.
Proof.
  intros A mapper body tD Htot Hne Hso. rewrite buffer_when_run. unfold bw_out. destruct (Htot 0%nat) as [u ->].
  destruct (bw_walk_partition mapper Htot body tD 0 [] 1 Hne Hso) as (bufs & H1 & H2).
  exists bufs. split; [|exact H2]. cbn [app emitted flat_map snd].
  fold (emitted (bw_walk mapper 0 [] 1 (body ++ [(tD, 0%nat, Done)]))). exact H1.
Qed.
Print Assumptions C18_window_when_partition.
Print Assumptions C18_window_when_no_loss.
Print Assumptions C18_buffer_when_partition.
Example C18_witness_when :
  let mp := fun j : nat => if Nat.eqb j 3 then Raise 9 else Ok tt in
  let ins := [(0, 0%nat, Next 1); (0, 2%nat, Next 5); (0, 1%nat, Done); (0, 0%nat, Next 2); (0, 1%nat, Next 7);
              (0, 2%nat, Next 0); (0, 0%nat, Next 3); (0, 3%nat, Next 0); (0, 0%nat, Next 4); (0, 0%nat, Done);
              (0, 0%nat, Next 4)] in
  routed (fst (run all_imm (x_window_when (B:=unit) mp) (wports ins))) = [(0%nat, 1); (1%nat, 2); (2%nat, 3)]
  /\ wevents 3 (fst (run all_imm (x_window_when (B:=unit) mp) (wports ins))) = [Err 9]
  /\ emitted (fst (run all_imm (x_window_when (B:=unit) mp) (wports ins))) = [Err 9]
  /\ emitted (fst (run all_imm (x_buffer_when mp) (wports ins))) = [Next [1]; Next [2]; Next [3]; Err 9].
Proof. vm_compute. auto. Qed.
(* the guard `if d.is_disposed: return`: the subscriber disposed the outer subscription and kept window 0;
   when its closing observable fires, window 0 completes, which drops the last reference: everything is
   released, no further closing observable is subscribed (no OSub 2), window 1 reaches nobody *)
Example C18_witness_when_guard :
  fst (run all_imm (x_window_when (A:=Z) (B:=unit) (fun _ => Ok tt))
         [(0, IDispose); (5, ISrc 0%nat (Next 7)); (10, ISrc 1%nat (Next 0)); (15, ISrc 0%nat (Next 8))])
  = [(0%nat, OHand 0%nat 0); (0%nat, OSub 0%nat); (0%nat, OSub 1%nat); (2%nat, OWin 0%nat (Next 7));
     (3%nat, OWin 0%nat Done); (3%nat, OUnsub 0%nat); (3%nat, OUnsub 1%nat)].
Proof. vm_compute. reflexivity. Qed.

(* ---- toggle (window_toggle / buffer_toggle), ALL interleavings of the ports (Ops/WindowToggleRun.v,
   Ops/BufferToggleRun.v) ---- *)
(* port 0 = source, port 1 = openings, port 2+g = the closing observable made for window g.  What the
   subscribers see ([visible]: handed windows, window notifications, outer notifications) is a walk whose
   state is: source / openings still listened to, and the windows whose closing observable is subscribed,
   flagged open or not: an element goes to exactly the open windows, in opening order; an opening hands a
   new window and subscribes a NEW closing observable; the first notification of window g's closing
   observable completes exactly g; the source's completion completes every open window; the openings'
   completion completes the outer; an error anywhere goes to every open window and the outer *)
Theorem C18_window_toggle_run : forall A B (mapper : nat -> res unit) (ins : list (Z * nat * ev A)),
  visible (fst (run all_imm (x_window_toggle (A:=A) (B:=B) mapper) (wports ins)))
  = tg_walk mapper true true [] 0 1 ins.
Proof. exact @window_toggle_run. Qed.
(* buffers: an element is appended to every open buffer; a closing observable's first notification emits
   its buffer; the source's completion emits all open buffers in opening order; the result completes when
   the openings have completed and no buffer is open; any error fails the result *)
Theorem C18_buffer_toggle_run : forall A (mapper : nat -> res unit) (ins : list (Z * nat * ev A)),
  visible (fst (run all_imm (x_buffer_toggle (A:=A) mapper) (wports ins)))
  = bg_walk mapper true true [] 0 1 ins.
Proof. exact @buffer_toggle_run. Qed.
Print Assumptions C18_window_toggle_run.
Print Assumptions C18_buffer_toggle_run.
Example C18_witness_toggle :
  let mp := fun _ : nat => Ok tt in
  let ins := [(0, 1%nat, Next 5); (0, 0%nat, Next 2); (0, 0%nat, Done); (0, 1%nat, Next 7); (0, 0%nat, Next 3);
              (0, 2%nat, Next 0); (0, 1%nat, Done); (0, 3%nat, Done); (0, 0%nat, Next 4)] in
  visible (fst (run all_imm (x_window_toggle (B:=unit) mp) (wports ins)))
  = [(1%nat, OHand 0%nat 0); (2%nat, OWin 0%nat (Next 2)); (3%nat, OWin 0%nat Done); (4%nat, OHand 1%nat 0);
     (7%nat, OEmit Done); (8%nat, OWin 1%nat Done)]
  /\ visible (fst (run all_imm (x_buffer_toggle mp) (wports ins)))
     = [(3%nat, OEmit (Next [2])); (8%nat, OEmit (Next [])); (8%nat, OEmit Done)].
Proof. vm_compute. auto. Qed.
(* a reading: every element a window of window_toggle receives is the source's element of that very input *)
Theorem C18_window_toggle_element_origin : forall A B (mapper : nat -> res unit) (ins : list (Z * nat * ev A)) p j x,
  In (p, OWin j (Next x)) (fst (run all_imm (x_window_toggle (A:=A) (B:=B) mapper) (wports ins))) ->
  (1 <= p)%nat /\ exists t, nth_error ins (p - 1) = Some (t, 0%nat, Next x).
Proof. exact @window_toggle_element_origin. Qed.
Print Assumptions C18_window_toggle_element_origin.
