(* C43 -- combinators serialize concurrently emitting sources.

   Models: Core/CombConc.v -- one transition system per operator, handlers cut exactly along the
   code's lock structure (lock acquisitions, unlocked accesses to shared closure variables, calls out,
   and a yield point INSIDE every call of the downstream observer).  One logical thread per source,
   each emitting serially; for the window operators any further thread is a worker of the timer
   scheduler.  [run_* true] (and [run_am], [run_wc], [run_wt], which have no flag) is the current /repo tree.

   The positive theorems: for ALL schedules (lists of thread ids), ALL per-source programs and ANY number of
   source threads
     serial   -- in the log of the calls the operator makes on its downstream observer, a call is
                 entered only when none is in progress (never two threads inside at once);
     grammar  -- what the subscriber's callbacks see is Next* (Err|Done)?  (in this model a property of the
                 subscriber's wrapper, not of the operators: C43_grammar_is_wrapper)
     excl     -- (state form) two threads inside the downstream observer are the same thread;
     and who is inside holds the operator's lock (amb: is the chosen side).
   Also: C43_generic (any operator under the lock discipline), C43_amb_single_caller, and, in the second half,
   the split model of Core/CombConcSplit.v, in which the grammar is a consequence of mutual exclusion.
   The code BEFORE proposed_fixes/C43-*.diff is refuted by the schedules that were reproduced on the
   old source with the thread controller (harness/props/C43.py re-runs them on the current code).
   Tie to /repo: harness/props/C43.py (K3, medium granularity, same-schedule comparison). *)
From RxVerif Require Import Base.Prelude Core.Lts Core.LtsFacts Core.CombConc Core.CombConcFacts Core.CombConcSplit.
Local Open Scope nat_scope.

Definition C43_statement {S} (c : @config (gsh S) pos sev cobs) : Prop :=
  serial (untag (c_log c)) = true /\
  gram (users (untag (c_log c))) = true /\
  (forall i j ti tj, nth_error (c_ths c) i = Some ti -> nth_error (c_ths c) j = Some tj ->
                     tinside ti = true -> tinside tj = true -> i = j) /\
  (forall tid t, nth_error (c_ths c) tid = Some t -> at_pos holds t = true -> g_lock (c_sh c) = Some tid).

(* merge_all: merge(a, b, ..) = from_iterable(..).pipe(merge_all()), flat_map = map + merge_all.
   thread 0 is the outer source, thread k the k-th inner source *)
Theorem C43_merge_all : forall progs sched, C43_statement (run_ma true progs sched).
Proof. intros. apply (lock_serial (ma_step true (length progs)) (ma_wf _)). Qed.
Print Assumptions C43_merge_all.

Theorem C43_merge_max_concurrent : forall m progs sched, C43_statement (run_mm true m progs sched).
Proof. intros. apply (lock_serial (mm_step true (length progs) m) (mm_wf _ _)). Qed.
Print Assumptions C43_merge_max_concurrent.

Theorem C43_zip : forall progs sched, C43_statement (run_zip true progs sched).
Proof. intros. apply (lock_serial (zip_step true) zip_wf). Qed.
Print Assumptions C43_zip.

Theorem C43_combine_latest : forall progs sched, C43_statement (run_cl true progs sched).
Proof. intros. apply (lock_serial (cl_step true) cl_wf). Qed.
Print Assumptions C43_combine_latest.

Theorem C43_with_latest_from : forall progs sched, C43_statement (run_wl true progs sched).
Proof. intros. apply (lock_serial (wl_step true) wl_wf). Qed.
Print Assumptions C43_with_latest_from.

Theorem C43_window_with_time_or_count : forall count progs sched, C43_statement (run_wc count progs sched).
Proof. intros. apply (lock_serial (wc_step count) (wc_wf _)). Qed.
Print Assumptions C43_window_with_time_or_count.

Theorem C43_window_with_time : forall span shift progs sched, C43_statement (run_wt span shift progs sched).
Proof. intros. apply (lock_serial (wt_step shift) (wt_wf _)). Qed.
Print Assumptions C43_window_with_time.

(* amb forwards outside the lock: whoever is inside the downstream observer is the chosen side *)
Theorem C43_amb :
  forall progs sched,
  let c := run_am progs sched in
  serial (untag (c_log c)) = true /\ gram (users (untag (c_log c))) = true /\
  (forall i j ti tj, nth_error (c_ths c) i = Some ti -> nth_error (c_ths c) j = Some tj ->
                     tinside ti = true -> tinside tj = true -> i = j) /\
  (forall tid t, nth_error (c_ths c) tid = Some t -> tinside t = true -> am_choice (g_st (c_sh c)) = Some tid).
Proof.
  intros progs sched c. destruct (amb_serial progs sched) as (Hj & Hs & Hg). fold c in Hj, Hs, Hg.
  repeat split; [exact Hs|exact Hg|exact (fun i j ti tj => oinv_excl am_owner inside c i j ti tj Hj)|exact Hj].
Qed.
Print Assumptions C43_amb.

(* amb: EVERY downstream call of the whole run was made by one thread -- the side recorded in
   [choice] -- so any two calls in the log come from the same thread.  The output of an amb is thus
   a serial single-thread source, which is what an enclosing amb (amb(a, b, c) = a fold of binary
   ambs, each with its own lock) assumes of its own sources in C43_amb. *)
Theorem C43_amb_single_caller :
  forall progs sched tid d,
    In (tid, CEnter d) (c_log (run_am progs sched)) ->
    am_choice (g_st (c_sh (run_am progs sched))) = Some tid.
Proof. exact amb_single_caller. Qed.
Print Assumptions C43_amb_single_caller.

Theorem C43_amb_callers_agree :
  forall progs sched t1 d1 t2 d2,
    In (t1, CEnter d1) (c_log (run_am progs sched)) -> In (t2, CEnter d2) (c_log (run_am progs sched)) -> t1 = t2.
Proof.
  intros progs sched t1 d1 t2 d2 H1 H2.
  pose proof (amb_single_caller progs sched t1 d1 H1) as E1.
  pose proof (amb_single_caller progs sched t2 d2 H2) as E2. congruence.
Qed.
Print Assumptions C43_amb_callers_agree.

(* the hypothesis is satisfiable in a contended run (both sides reach the lock; the left one wins) *)
Example C43_witness_amb_single_caller :
  In (0, CEnter DDone) (c_log (run_am [[SNext; SNext; SDone]; [SNext; SErr]] [0;0;1;0;1;1;0;0;1;1;0;0;0;0;0;0;0;0;1;1])) /\
  am_choice (g_st (c_sh (run_am [[SNext; SNext; SDone]; [SNext; SErr]] [0;0;1;0;1;1;0;0;1;1;0;0;0;0;0;0;0;0;1;1]))) = Some 0.
Proof. vm_compute. split; [tauto|reflexivity]. Qed.

(* WHAT THE GRAMMAR CONJUNCT IS WORTH.  Conjunct 2 of C43_statement (what the subscriber's callbacks
   see is Next* (Err|Done)?) holds for EVERY step function whatsoever, with no hypothesis on the
   operator: it is a property of the subscriber's AutoDetachObserver as modelled -- ONE atomic
   test-and-set of is_stopped -- and therefore NOT evidence about the operators (it also holds of
   the old, refuted code).  That the real, unsynchronised wrapper behaves atomically is exactly what
   seriality (conjunct 1) is needed for; the model does not derive the one from the other. *)
Theorem C43_grammar_is_wrapper :
  forall (S : Type) (ostep : nat -> S -> pos -> option (S * option pos)) (st0 : S)
         (progs : list (list sev)) (sched : list nat),
    gram (users (untag (c_log (grun ostep st0 progs sched)))) = true.
Proof. exact @grammar_is_wrapper. Qed.
Print Assumptions C43_grammar_is_wrapper.

(* e.g. [run_zip false] on its refuting schedule: not serial, yet "grammatical" *)
Example C43_witness_grammar_holds_of_refuted_code :
  serial (untag (c_log (run_zip false [[SNext; SDone]; [SNext; SNext]] [0;0;0;0;0;1;1;1;1;0;0;1;1;1;1]))) = false /\
  gram (users (untag (c_log (run_zip false [[SNext; SDone]; [SNext; SNext]] [0;0;0;0;0;1;1;1;1;0;0;1;1;1;1])))) = true.
Proof. vm_compute. split; reflexivity. Qed.

(* the generic theorem behind the seven lock-based ones: ANY operator whose step function (1) reaches
   a lock-holding position only from an acquisition or a lock-holding position and (2) makes every
   downstream call from a lock-holding position is serial and grammatical *)
Theorem C43_generic :
  forall (S : Type) (ostep : nat -> S -> pos -> option (S * option pos)),
  (forall tid st l st' q, ostep tid st l = Some (st', Some q) -> holds q = true -> holds l = true \/ is_acq l = true) ->
  (forall tid st l st' h d k, ostep tid st l = Some (st', Some (PI h d k)) -> h = true) ->
  forall st0 progs sched, C43_statement (grun ostep st0 progs sched).
Proof. intros S ostep H1 H2 st0 progs sched. exact (lock_serial ostep (lock_wf_intro S ostep H1 H2) st0 progs sched). Qed.
Print Assumptions C43_generic.

(* ---- the old code is refuted (schedules recorded on the old source) ------------------- *)
Theorem C43_old_zip_refuted :
  serial (untag (c_log (run_zip false [[SNext; SDone]; [SNext; SNext]] [0;0;0;0;0;1;1;1;1;0;0;1;1;1;1]))) = false /\
  serial (untag (c_log (run_zip false [[SNext; SErr]; [SNext; SNext]] [0;0;0;0;1;1;1;1;1;1;1;0]))) = false.
Proof. split; vm_compute; reflexivity. Qed.
Print Assumptions C43_old_zip_refuted.

Theorem C43_old_combine_latest_refuted :
  serial (untag (c_log (run_cl false [[SNext; SNext]; [SNext; SErr]] [0;0;0;1;1;1;1;0;0;1]))) = false.
Proof. vm_compute. reflexivity. Qed.
Print Assumptions C43_old_combine_latest_refuted.

Theorem C43_old_with_latest_from_refuted :
  serial (untag (c_log (run_wl false [[SNext; SNext]; [SNext; SErr]] [0;0;0;1;1;1;0;0;1]))) = false.
Proof. vm_compute. reflexivity. Qed.
Print Assumptions C43_old_with_latest_from_refuted.

Theorem C43_old_merge_all_refuted :
  serial (untag (c_log (run_ma false [[SNext; SErr]; [SNext; SNext]] [0;0;1;0;0;1;1;1;0]))) = false /\
  serial (untag (c_log (run_ma false [[SNext; SDone]; [SNext; SDone]] [1;0;0;0;0;0;1;1;0;0;1]))) = false.
Proof. split; vm_compute; reflexivity. Qed.
Print Assumptions C43_old_merge_all_refuted.

Theorem C43_old_merge_max_concurrent_refuted :
  serial (untag (c_log (run_mm false 1 [[SNext; SDone]; [SNext; SDone]] [1;0;0;0;0;0;0;0;1;1;0;0;1]))) = false /\
  serial (untag (c_log (run_mm false 1 [[SNext; SErr]; [SNext; SNext]] [0;0;0;0;1;0;0;1;1;1;0]))) = false.
Proof. split; vm_compute; reflexivity. Qed.
Print Assumptions C43_old_merge_max_concurrent_refuted.

(* ---- non-vacuity: contended runs of the current models ------------------------------------ *)
(* the old zip witness schedule on the current model: T0's completed(i) now waits for the lock *)
Example C43_witness_zip :
  c_log (run_zip true [[SNext; SDone]; [SNext; SNext]] [0;0;0;0;1;1;1;1;0;0;1;1;1;1;1;1;0;0;1;1])
  = [(1, CEnter DNext); (1, CUser DNext); (1, CExit DNext); (0, CEnter DDone); (0, CUser DDone); (0, CExit DDone)].
Proof. vm_compute. reflexivity. Qed.

(* the old log of zip (recorded on the old source): two on_completed calls in progress at once *)
Example C43_witness_old_zip_log :
  c_log (run_zip false [[SNext; SDone]; [SNext; SNext]] [0;0;0;0;0;1;1;1;1;0;0;1;1;1;1])
  = [(1, CEnter DNext); (1, CUser DNext); (1, CExit DNext); (1, CEnter DDone); (0, CEnter DDone); (0, CUser DDone);
     (0, CExit DDone); (1, CExit DDone)].
Proof. vm_compute. reflexivity. Qed.

Example C43_witness_combine_latest :
  c_log (run_cl true [[SNext; SNext]; [SNext; SErr]] [0;0;0;1;1;1;1;0;0;1;0;1;1;0;0])
  = [(1, CEnter DNext); (1, CUser DNext); (1, CExit DNext); (0, CEnter DNext); (0, CUser DNext); (0, CExit DNext);
     (1, CEnter DErr); (1, CUser DErr); (1, CExit DErr)].
Proof. vm_compute. reflexivity. Qed.

(* the subscriber's AutoDetachObserver drops what the operator still calls after the error *)
Example C43_witness_with_latest_from :
  c_log (run_wl true [[SNext; SNext; SDone]; [SNext; SErr]] [1;1;1;0;0;0;1;1;0;1;1;0;0;0;0;0;0])
  = [(0, CEnter DNext); (0, CUser DNext); (0, CExit DNext); (1, CEnter DErr); (1, CUser DErr); (1, CExit DErr);
     (0, CEnter DNext); (0, CExit DNext); (0, CEnter DDone); (0, CExit DDone)].
Proof. vm_compute. reflexivity. Qed.

Example C43_witness_merge_max :
  c_log (run_mm true 1 [[SNext; SNext; SDone]; [SNext; SDone]; [SNext; SDone]]
                [0;0;0;0;0;0;0;1;1;1;1;1;1;1;0;2;2;2;2;2;0;0;2;2;0;0;0])
  = [(1, CEnter DNext); (1, CUser DNext); (1, CExit DNext); (2, CEnter DNext); (2, CUser DNext); (2, CExit DNext);
     (2, CEnter DDone); (2, CUser DDone); (2, CExit DDone)].
Proof. vm_compute. reflexivity. Qed.

Example C43_witness_amb :
  c_log (run_am [[SNext; SNext; SDone]; [SNext; SErr]] [0;0;1;0;1;1;0;0;1;1;0;0;0;0;0;0;0;0;1;1])
  = [(0, CEnter DNext); (0, CUser DNext); (0, CExit DNext); (0, CEnter DNext); (0, CUser DNext); (0, CExit DNext);
     (0, CEnter DDone); (0, CUser DDone); (0, CExit DDone)].
Proof. vm_compute. reflexivity. Qed.

(* a timer and the source race for the lock: count = 2, two timer actions *)
Example C43_witness_window_with_time_or_count :
  c_log (run_wc 2 [[SNext; SNext; SNext; SDone]; [STick; STick]] [0;0;1;1;0;0;0;1;0;1;1;1;0;0;0;0;0;0;0;1;1;1])
  = [(1, CEnter DNext); (1, CUser DNext); (1, CExit DNext); (1, CEnter DNext); (1, CUser DNext); (1, CExit DNext);
     (0, CEnter DDone); (0, CUser DDone); (0, CExit DDone)].
Proof. vm_compute. reflexivity. Qed.

(* ---- the grammar as a CONSEQUENCE of mutual exclusion (Core/CombConcSplit.v) ------------------
   The subscriber's AutoDetachObserver is unsynchronised: `if self.is_stopped: return` and the
   callback (+ `self.is_stopped = True`) are two steps.  [gact2] refines the generic wrapper of
   Core/CombConc.v accordingly (new yield point QW = "read False, callback not yet run"); the
   operators' step functions are the SAME ones as above.  This yield point is finer than K3's
   granularity: the split model is tied to /repo only through the atomic model, whose runs it
   contains (C43_split_covers_atomic_model). *)
Theorem C43_split_covers_atomic_model :
  forall (S : Type) (ostep : nat -> S -> pos -> option (S * option pos)) st0 progs sched,
  exists sched2, grun2 ostep st0 progs sched2 = liftc (grun ostep st0 progs sched).
Proof.
  intros S ostep st0 progs sched. exists (expand ostep (init (GS None false st0) progs) sched).
  unfold grun2, grun. rewrite <- (cover_run ostep), liftc_init. reflexivity.
Qed.
Print Assumptions C43_split_covers_atomic_model.

(* ANY step-invariant J that implies "two threads inside the downstream observer are the same
   thread" gives, for all programs and schedules, Next* (Err|Done)? at the subscriber's callbacks *)
Theorem C43_split_grammar_from_exclusion :
  forall (S : Type) (ostep : nat -> S -> pos -> option (S * option pos))
         (J : @config (gsh S) pos2 sev cobs -> Prop) st0 progs,
  J (init (GS None false st0) progs) ->
  (forall c tid, J c -> J (tstep start2 (gact2 ostep) c tid)) ->
  (forall c, J c -> excl2 c) ->
  forall sched, let c := grun2 ostep st0 progs sched in
  J c /\ gram (users (untag (c_log c))) = true.
Proof. exact @split_gen. Qed.
Print Assumptions C43_split_grammar_from_exclusion.

(* the lock discipline (same two side conditions as C43_generic) is such an invariant *)
Theorem C43_split_generic :
  forall (S : Type) (ostep : nat -> S -> pos -> option (S * option pos)),
  (forall tid st l st' q, ostep tid st l = Some (st', Some q) -> holds q = true -> holds l = true \/ is_acq l = true) ->
  (forall tid st l st' h d k, ostep tid st l = Some (st', Some (PI h d k)) -> h = true) ->
  forall st0 progs sched, split_statement (grun2 ostep st0 progs sched).
Proof. intros S ostep H1 H2 st0 progs sched. exact (split_lock ostep (lock_wf_intro S ostep H1 H2) st0 progs sched). Qed.
Print Assumptions C43_split_generic.

(* C43_split_generic at the seven lock-based operators of the current tree *)
Theorem C43_split_operators : forall progs sched,
  split_statement (run2_zip true progs sched) /\
  split_statement (run2_cl true progs sched) /\
  split_statement (run2_wl true progs sched) /\
  split_statement (run2_ma true progs sched) /\
  (forall m, split_statement (run2_mm true m progs sched)) /\
  (forall count, split_statement (run2_wc count progs sched)) /\
  (forall span shift, split_statement (run2_wt span shift progs sched)).
Proof.
  intros progs sched.
  split; [apply (split_lock (zip_step true) zip_wf)|].
  split; [apply (split_lock (cl_step true) cl_wf)|].
  split; [apply (split_lock (wl_step true) wl_wf)|].
  split; [apply (split_lock (ma_step true (length progs)) (ma_wf _))|].
  split; [intros m; apply (split_lock (mm_step true (length progs) m) (mm_wf _ _))|].
  split; [intros count; apply (split_lock (wc_step count) (wc_wf _))|].
  intros span shift. apply (split_lock (wt_step shift) (wt_wf _)).
Qed.
Print Assumptions C43_split_operators.

(* amb in the split model (exclusive because only the chosen side forwards) *)
Theorem C43_split_amb : forall progs sched,
  let c := run2_am progs sched in
  gram (users (untag (c_log c))) = true /\ excl2 c /\
  (forall tid t, nth_error (c_ths c) tid = Some t -> tinside2 t = true -> am_choice (g_st (c_sh c)) = Some tid).
Proof. exact split_amb. Qed.
Print Assumptions C43_split_amb.

(* in the split model the conjunct DISCRIMINATES: the code before the fixes delivers Err then Next, or Done twice *)
Theorem C43_split_old_code_refuted :
  gram (users2 (run2_zip false [[SErr]; [SDone]] [0;0;1;1;1;1;0;1])) = false /\
  gram (users2 (run2_zip false [[SNext; SDone]; [SNext; SNext]] [0;0;0;0;0;1;1;1;1;1;0;0;1;1;1;1;0;1])) = false /\
  gram (users2 (run2_cl false [[SNext; SErr]; [SNext]] [0;0;1;1;1;0;0;0;1])) = false /\
  gram (users2 (run2_wl false [[SNext; SDone]; [SNext; SErr]] [1;1;0;0;0;1;1;1;0])) = false /\
  gram (users2 (run2_ma false [[SNext; SErr]; [SNext]] [0;0;0;1;1;1;0;0;0;1])) = false /\
  gram (users2 (run2_mm false 1 [[SNext; SErr]; [SNext]] [0;0;0;0;0;1;1;1;0;0;0;1])) = false.
Proof.
  rewrite old_zip_users, old_zip_users_twice, old_cl_users, old_wl_users, old_ma_users, old_mm_users.
  repeat split; reflexivity.
Qed.
Print Assumptions C43_split_old_code_refuted.

Example C43_witness_split_old_combine_latest :
  c_log (run2_cl false [[SNext; SErr]; [SNext]] [0;0;1;1;1;0;0;0;1])
  = [(1, CEnter DNext); (0, CEnter DErr); (0, CUser DErr); (0, CExit DErr); (1, CUser DNext); (1, CExit DNext)].
Proof. vm_compute. reflexivity. Qed.

(* the same schedule on the current code: thread 1 sits between its read and its callback while
   thread 0 (the error) waits for the lock *)
Example C43_witness_split_contended :
  map t_cur (c_ths (run2_cl true [[SNext; SErr]; [SNext]] [0;0;1;1;1;0;0;0])) = [Some (Q (PA 2 0)); Some (QW true DNext 1)] /\
  c_log (run2_cl true [[SNext; SErr]; [SNext]] [0;0;1;1;1;0;0;0;1;0;0;0;0])
  = [(1, CEnter DNext); (1, CUser DNext); (1, CExit DNext); (0, CEnter DErr); (0, CUser DErr); (0, CExit DErr)].
Proof. vm_compute. split; reflexivity. Qed.
