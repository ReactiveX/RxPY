(* C30 -- trampoline scheduling is same-thread, FIFO and never nested.

   Model: Core/Trampoline.v (Trampoline.run/_run/idle, TrampolineScheduler,
   CurrentThreadScheduler and its thread-local singleton, ScheduledItem,
   PriorityQueue; tied to the code by the correspondences K1 (sequential histories against the
   real schedulers) and K3 (real threads under a controller that fixes the interleaving) of
   harness/props/C30.py).  A configuration is a shared world and any number of
   threads; one micro-step is one [with self._lock:] block or one piece of
   unlocked code with at most one shared access.  Unless said otherwise every
   theorem quantifies over ALL initial clocks [c0], ALL per-thread histories
   [hs] (top-level schedule / schedule_relative / schedule_absolute / cancel /
   sleep / raise / schedule_required / ensure_trampoline calls whose actions are
   arbitrary finite trees of the same commands, on any mix of
   TrampolineScheduler instances, CurrentThreadScheduler instances and the
   current-thread singleton), ALL schedules [sch] (thread choices interleaved
   with arbitrary passage of time) and BOTH versions of the code ([c]: before and
   after the repair of the exit race).  The log is newest first: in
   [l2 ++ e :: l1], l1 is what happened before e.

   Sequential runs ([run_history], compared with the real schedulers by K1) and
   controlled runs of several threads ([macro_run], compared by K3 under the same
   schedule) are schedules of micro-steps (C30_sequential_run_is_a_schedule,
   C30_controlled_run_is_a_schedule), so everything below applies to them.

   Beyond the title: what is refuted with [exit_race = true] and the limits of the order statement
   (order is racy on a trampoline two threads reach); with [exit_race = false] and actions that
   never raise, nothing is dropped; the log alone shows one action at a time (start/end bracketing);
   threads do not disturb each other's own trampolines, over whole stretches of a schedule, while
   the stronger statement by projection is refuted. *)
From RxVerif Require Import Base.Prelude Core.Trampoline Core.TrampolineFacts Core.TrampolineOrder
  Core.TrampolineSeq Core.TrampBracket Core.TrampNoRaise.

(* One at a time, never nested: when an action of a trampoline starts, no other
   action of that trampoline is being executed (by any thread), ... *)
Theorem C30_never_nested : forall c c0 hs sch l2 k id l th due clk dk d l1,
  log (fst (crun c (start_config c0 hs) sch)) = l2 ++ EStart k id l th due clk dk d :: l1 ->
  dk = 0%nat.
Proof. intros c c0 hs sch l2 k id l th due clk dk d l1 H. apply reachable_ev_ok in H. cbn in H. tauto. Qed.
Print Assumptions C30_never_nested.

(* ... and at every moment at most one action of a trampoline is being executed,
   also for a TrampolineScheduler shared by several threads *)
Theorem C30_one_at_a_time : forall c c0 hs sch k,
  (t_active (tramps (fst (crun c (start_config c0 hs) sch)) k) <= 1)%nat.
Proof. intros. eapply active_le_1. apply reachable_Inv. Qed.
Print Assumptions C30_one_at_a_time.

(* The same on the log alone (no ghost counter): if two actions of one trampoline
   start, the earlier one (x) has ended -- returned or raised -- before the later one (y)
   starts.  Hence an action scheduled while another is running starts only after that
   action returned.  All threads, schedules, both code versions. *)
Theorem C30_start_end_bracket :
  forall c c0 hs sch k l3 y ly thy dy cy dky ddy l2 x lx thx dx cx dkx ddx l1,
  log (fst (crun c (start_config c0 hs) sch))
    = l3 ++ EStart k y ly thy dy cy dky ddy :: l2 ++ EStart k x lx thx dx cx dkx ddx :: l1 ->
  exists r, In (EEnd k x lx r) l2.
Proof.
  intros c c0 hs sch k l3 y ly thy dy cy dky ddy l2 x lx thx dx cx dkx ddx l1 E.
  pose proof (reachable_brk c c0 hs sch k) as B. rewrite E in B. apply log_all_app in B.
  destruct B as [N B]. destruct (brk_between k x lx thx dx cx dkx ddx l1 l2 B) as [Hc|Hr]; [|exact Hr].
  rewrite (N eq_refl) in Hc. discriminate.
Qed.
Print Assumptions C30_start_end_bracket.

(* ... and every end closes the action that is open: it is preceded by the start of the
   same item with no start or end of that trampoline in between *)
Theorem C30_end_closes_its_start : forall c c0 hs sch k l3 id l r l0,
  log (fst (crun c (start_config c0 hs) sch)) = l3 ++ EEnd k id l r :: l0 ->
  exists l2 th due clk dk d l1, l0 = l2 ++ EStart k id l th due clk dk d :: l1 /\
    forall e, In e l2 -> match e with EStart k' _ _ _ _ _ _ _ | EEnd k' _ _ _ => k' <> k | _ => True end.
Proof.
  intros c c0 hs sch k l3 id l r l0 E.
  pose proof (reachable_brk c c0 hs sch k) as B. rewrite E in B. apply log_all_at in B.
  exact (cur_some_start k l0 id l (B eq_refl)).
Qed.
Print Assumptions C30_end_closes_its_start.

(* Timed actions never run before their due time; the due time is the one the
   schedule call computed *)
Theorem C30_not_early : forall c c0 hs sch l2 k id l th due clk dk d l1,
  log (fst (crun c (start_config c0 hs) sch)) = l2 ++ EStart k id l th due clk dk d :: l1 ->
  due <= clk /\ exists th' clk', In (ECreate k id th' due clk') l1.
Proof. intros c c0 hs sch l2 k id l th due clk dk d l1 H. apply reachable_ev_ok in H. cbn in H. tauto. Qed.
Print Assumptions C30_not_early.

(* A cancelled action never runs *)
Theorem C30_cancelled_never_run : forall c c0 hs sch l2 k id l th due clk dk d l1,
  log (fst (crun c (start_config c0 hs) sch)) = l2 ++ EStart k id l th due clk dk d :: l1 ->
  ~ In (ECancel id) l1.
Proof. exact cancelled_never_run. Qed.
Print Assumptions C30_cancelled_never_run.

(* Actions scheduled on a current-thread scheduler run on the scheduling thread:
   the trampoline of (scheduler, thread o) is used by thread o only, for creating
   items as well as for running them *)
Theorem C30_same_thread : forall c c0 hs sch k o id l th due clk dk d th' due' clk',
  let lg := log (fst (crun c (start_config c0 hs) sch)) in
  owner k = Some o ->
  In (EStart k id l th due clk dk d) lg -> In (ECreate k id th' due' clk') lg ->
  th = o /\ th' = o.
Proof.
  intros c c0 hs sch k o id l th due clk dk d th' due' clk' lg Ho Hs Hc. split.
  - apply in_split in Hs. destruct Hs as (l2 & l1 & E). apply reachable_ev_ok in E. apply E, Ho.
  - apply in_split in Hc. destruct Hc as (l2 & l1 & E). apply reachable_ev_ok in E. apply E, Ho.
Qed.
Print Assumptions C30_same_thread.

(* Each thread's trampoline is independent: a step of thread th neither changes
   the trampoline that belongs to another thread o nor logs anything about it *)
Theorem C30_independent : forall c c0 hs sch th k o,
  let cf := crun c (start_config c0 hs) sch in
  let cf' := cstep c cf (Run th) in
  owner k = Some o -> o <> th ->
  tramps (fst cf') k = tramps (fst cf) k /\
  exists evs, log (fst cf') = evs ++ log (fst cf) /\ Forall (fun e => ev_key e <> Some k) evs.
Proof. exact independent. Qed.
Print Assumptions C30_independent.

(* Due-time order, first-scheduled-first among equal due times, and "an action
   scheduled while another is running runs only after it":  on the trampoline of
   a current-thread scheduler (owner k = Some o), under all interleavings with
   other threads, if nothing was scheduled on it with a due time already past
   (only schedule_absolute can do that), then whenever an action x starts every
   item y that is pending on that trampoline (enqueued, not started, not skipped
   as cancelled, not dropped) comes strictly later in (due time, creation order) *)
Theorem C30_run_order_current_thread : forall c c0 hs sch k o l2 x l th due clk dk d l1,
  owner k = Some o ->
  log (fst (crun c (start_config c0 hs) sch)) = l2 ++ EStart k x l th due clk dk d :: l1 ->
  no_past k l1 ->
  forall y th' duey clk', y <> x -> pending k y l1 -> In (ECreate k y th' duey clk') l1 ->
                          lexlt due x duey y.
Proof. intros until 1. eapply run_order. apply excl_private. eassumption. Qed.
Print Assumptions C30_run_order_current_thread.

(* the same for every scheduler kind when there is a single thread *)
Theorem C30_run_order_single_thread : forall c c0 h sch k l2 x l th due clk dk d l1,
  log (fst (crun c (start_config c0 [h]) sch)) = l2 ++ EStart k x l th due clk dk d :: l1 ->
  no_past k l1 ->
  forall y th' duey clk', y <> x -> pending k y l1 -> In (ECreate k y th' duey clk') l1 ->
                          lexlt due x duey y.
Proof. intros until l1. apply run_order with (o := 0%nat). apply excl_single. Qed.
Print Assumptions C30_run_order_single_thread.

(* Nothing is lost: when every thread has returned from its calls, no item is
   pending (each enqueued item was started, or skipped because it was cancelled,
   or dropped), every trampoline is idle with an empty queue, ... *)
Theorem C30_all_run : forall c c0 hs sch k id,
  let cf := crun c (start_config c0 hs) sch in
  finished (snd cf) -> ~ pending k id (log (fst cf)).
Proof. exact all_run. Qed.
Print Assumptions C30_all_run.

Theorem C30_drained_at_return : forall c c0 hs sch k,
  let cf := crun c (start_config c0 hs) sch in
  finished (snd cf) ->
  t_idle (tramps (fst cf) k) = true /\ t_queue (tramps (fst cf) k) = [] /\
  t_active (tramps (fst cf) k) = 0%nat.
Proof. intros. eapply finished_idle; eauto. apply reachable_Inv. Qed.
Print Assumptions C30_drained_at_return.

(* ... and, with [exit_race = false] (the working tree), items are dropped only when an action
   raised (the exception path of Trampoline.run abandons the queue) *)
Theorem C30_dropped_only_by_exception : forall c0 hs sch k ids exn,
  In (EDrop k ids exn) (log (fst (crun (Cfg false) (start_config c0 hs) sch))) -> exn = true.
Proof.
  intros c0 hs sch k ids exn H. apply in_split in H. destruct H as (l2 & l1 & E).
  apply reachable_ev_ok in E. exact (E eq_refl).
Qed.
Print Assumptions C30_dropped_only_by_exception.

(* EVERY scheduled, non-cancelled action runs when nobody raises: with [exit_race = false]
   (the working tree), for any number of threads, any histories whose actions never raise
   ([noraise]: hereditarily no CRaise) and any schedule, nothing is ever dropped ... *)
Theorem C30_no_drop_if_no_raise : forall c0 hs sch k ids exn,
  Forall (fun h => forallb noraise h = true) hs ->
  ~ In (EDrop k ids exn) (log (fst (crun (Cfg false) (start_config c0 hs) sch))).
Proof. intros c0 hs sch k ids exn H. apply log_nd_no_drop. apply noraise_log. exact H. Qed.
Print Assumptions C30_no_drop_if_no_raise.

(* ... and once every thread has returned each enqueued item was started, or was skipped -- and
   then its disposable had been disposed (so an action that was scheduled and not cancelled ran) *)
Theorem C30_all_started_if_no_raise : forall c0 hs sch k id,
  Forall (fun h => forallb noraise h = true) hs ->
  let cf := crun (Cfg false) (start_config c0 hs) sch in
  finished (snd cf) -> enqueued k id (log (fst cf)) ->
  started k id (log (fst cf)) \/ (skipped k id (log (fst cf)) /\ In (ECancel id) (log (fst cf))).
Proof.
  intros c0 hs sch k id H cf F E.
  apply log_nd_enqueued; [apply noraise_log; exact H | exact E | apply all_run; exact F].
Qed.
Print Assumptions C30_all_started_if_no_raise.

(* "Eventually runs": on one thread every call returns -- the sequential run of ANY history ends
   within the fuel [run_history] gives it (a potential that every micro-step decreases: 16 per
   schedule call, 2 per raise, 1 per other command) -- and when it has returned every item that
   was enqueued has been started, skipped as cancelled or dropped, and every trampoline is idle
   with an empty queue *)
Theorem C30_sequential_run_terminates : forall c c0 h, exists w', run_history c c0 h = Finished w'.
Proof.
  intros. unfold run_history. apply run1_terminates; [apply SInv_init|].
  unfold Phi, start_thread. cbn [exc stk sumf phi]. unfold bw. lia.
Qed.
Print Assumptions C30_sequential_run_terminates.

Theorem C30_every_call_returns_and_all_run : forall c c0 h,
  exists w', run_history c c0 h = Finished w' /\
    (forall k id, ~ pending k id (log w')) /\
    (forall k, t_idle (tramps w' k) = true /\ t_queue (tramps w' k) = [] /\ t_active (tramps w' k) = 0%nat).
Proof.
  intros c c0 h. destruct (C30_sequential_run_terminates c c0 h) as (w' & R). exists w'. split; [exact R|].
  destruct (run_history_is_crun c c0 h) as (n & t' & E & F). rewrite R in E, F. cbn [world_of] in E.
  pose proof (C30_all_run c c0 [h] (repeat (Run 0) n)) as A.
  pose proof (C30_drained_at_return c c0 [h] (repeat (Run 0) n)) as D.
  cbv zeta in A, D. rewrite E in A, D. split; intro k; [intro id; apply A | apply D]; exact (F w' eq_refl).
Qed.
Print Assumptions C30_every_call_returns_and_all_run.

(* Sequential and controlled runs are schedules *)
Theorem C30_sequential_run_is_a_schedule : forall c c0 h,
  exists n t', crun c (start_config c0 [h]) (repeat (Run 0) n) = (world_of (run_history c c0 h), [t']) /\
               (forall w', run_history c c0 h = Finished w' -> finished [t']).
Proof. exact run_history_is_crun. Qed.
Print Assumptions C30_sequential_run_is_a_schedule.

Theorem C30_controlled_run_is_a_schedule : forall c fuel sch cf,
  exists sch', macro_run c fuel cf sch = crun c cf sch'.
Proof.
  unfold macro_run. induction sch; intros cf; cbn [fold_left].
  - exists []. reflexivity.
  - destruct (macro_is_crun c fuel cf a) as (n & E). destruct (IHsch (macro c fuel cf a)) as (sch' & E').
    exists (repeat (Run a) n ++ sch'). rewrite crun_app. rewrite <- E. exact E'.
Qed.
Print Assumptions C30_controlled_run_is_a_schedule.

(* refuted with [exit_race = true]: the exit race of a shared trampoline *)

(* Two threads, one TrampolineScheduler, one action each.  Thread 0 drains, sees
   the queue empty and leaves _run; thread 1 enqueues its action, sees the
   trampoline busy and returns; thread 0's [finally] clears the queue: action 1
   is dropped although no action raised, and never runs.
   (proposed_fixes/C30-trampoline-exit-race.diff; reproduced on the real code
   under the same schedule by harness/props/C30.py --replay) *)
Definition lost_h0 : list cmd := [CSched (TS 0) Now 0 []].
Definition lost_h1 : list cmd := [CSched (TS 0) Now 1 []].
Definition lost_sched : list nat := [0; 0; 0; 0; 1; 1; 0]%nat.

Example C30_exit_race_refuted :
  let cf := macro_run (Cfg true) 100 (start_config 0 [lost_h0; lost_h1]) lost_sched in
  all_done (snd cf) = true /\
  obs_of (log (fst cf)) [] = [ORun 0 0 0 0 0; OEnd 0] /\
  dropped_without_exception (log (fst cf)) = [1%nat].
Proof. vm_compute. repeat split; reflexivity. Qed.

(* the same histories under the same thread choices after the repair: both run *)
Example C30_exit_race_repaired :
  let cf := macro_run (Cfg false) 100 (start_config 0 [lost_h0; lost_h1]) [0; 0; 0; 0; 1; 1; 1; 1; 1]%nat in
  all_done (snd cf) = true /\
  obs_of (log (fst cf)) [] = [ORun 0 0 0 0 0; OEnd 0; ORun 1 1 0 0 0; OEnd 1] /\
  dropped_without_exception (log (fst cf)) = [].
Proof. vm_compute. repeat split; reflexivity. Qed.

(* limits of the order statement (why its hypotheses are there) *)

(* On a trampoline SHARED by two threads the run order is racy: thread 1 reads
   the clock (0) for its item, thread 0's action sleeps 5 and the drain loop
   moves item 2 (due 5) to its ready list, thread 1 enqueues item 0 (due 0),
   item 2 runs first.  Nothing was scheduled in the past. *)
Definition race_h0 : list cmd := [CSched (TS 0) Now 0 [CSleep 5; CSched (TS 0) Now 1 []]].
Definition race_h1 : list cmd := [CSched (TS 0) Now 2 []].
Definition race_sched : list sstep :=
  [Run 1] ++ repeat (Run 0) 12 ++ [Run 1] ++ repeat (Run 0) 10.

Example C30_shared_order_is_racy :
  let lg := log (fst (crun (Cfg false) (start_config 0 [race_h0; race_h1]) race_sched)) in
  order_violations (KShared 0) lg = [(2%nat, 0%nat)] /\ no_pastb (KShared 0) lg = true.
Proof. vm_compute. split; reflexivity. Qed.

(* schedule_absolute with a due time in the past, issued while the drain loop holds
   ready items: the item due at 7 runs after the one due at 10 (single thread) *)
Definition past_h : list cmd :=
  [CSched (TS 0) Now 0 [CSched (TS 0) (Rel 5) 1 [CSched (TS 0) (Abs 7) 3 []];
                        CSched (TS 0) (Rel 10) 2 []; CSleep 10]].

Example C30_absolute_in_the_past :
  let o := run_history (Cfg false) 0 past_h in
  observe o = [ORun 0 0 0 0 0; OEnd 0; ORun 1 0 10 0 0; OEnd 1; ORun 2 0 10 0 0; OEnd 2;
               ORun 3 0 10 0 0; OEnd 3] /\
  order_violations (KShared 0) (log (world_of o)) = [(2%nat, 3%nat)] /\
  no_pastb (KShared 0) (log (world_of o)) = false.
Proof. vm_compute. repeat split; reflexivity. Qed.

(* non-vacuity: concrete runs in which the hypotheses of the theorems above hold *)

(* immediate and timed items, nesting, a cancelled item, the singleton used
   from inside a TrampolineScheduler action (a different trampoline: it runs at
   once, depth 1, not nested on its own trampoline) *)
Definition ex_h : list cmd :=
  [CSched (TS 0) Now 0
     [CSched (TS 0) (Rel 2000000) 1 [];
      CSched (TS 0) (Rel 1000000) 2 [CCancel 1];
      CSched (TS 0) Now 3 [];
      CSched CTS Now 4 [CRequired CTS; CEnsure CTS 5 []]];
   CRequired (TS 0)].

Example C30_witness_run :
  observe (run_history (Cfg false) 0 ex_h) =
    [ORun 0 0 0 0 0; ORun 4 0 0 0 1; ORequired 0 false; OInline 5 0 0 2; OEnd 5; OEnd 4; OEnd 0;
     ORun 3 0 0 0 0; OEnd 3; ORun 2 0 1000000 0 0; OEnd 2; ORequired 0 true].
Proof. vm_compute. reflexivity. Qed.

(* the hypothesis of the order theorems holds of it, and the checker finds no violation *)
Example C30_witness_no_past :
  let lg := log (world_of (run_history (Cfg false) 0 ex_h)) in
  no_pastb (KShared 0) lg = true /\ order_violations (KShared 0) lg = [] /\
  pendingb (KShared 0) 1 lg = false.
Proof. vm_compute. repeat split; reflexivity. Qed.

(* a pending item exists in the middle of that run (hypothesis [pending] is satisfiable):
   after 9 micro-steps items 1, 2 are enqueued and not started *)
Example C30_witness_pending :
  let cf := crun (Cfg false) (start_config 0 [ex_h]) (repeat (Run 0) 9) in
  pendingb (KShared 0) 1 (log (fst cf)) = true.
Proof. vm_compute. reflexivity. Qed.

(* two threads, each with the current-thread singleton and a shared scheduler, a full interleaving:
   the current-thread actions 0, 1 / 3 run on their own threads; action 2, scheduled by thread 0 on
   the shared TrampolineScheduler while thread 1 was draining it, runs on thread 1 (as the docstring of TrampolineScheduler warns) *)
Example C30_witness_two_threads :
  let cf := macro_run (Cfg false) 100
              (start_config 0 [[CSched CTS Now 0 [CSched CTS Now 1 []]; CSched (TS 0) Now 2 []];
                               [CSched CTS (Rel 5) 3 []; CSched (TS 0) Now 4 []]])
              [0; 1; 0; 1; 0; 1; 0; 1; 0; 1; 0; 1; 0; 1; 0; 1; 0; 1; 0; 1; 0; 1; 0; 1; 0; 1; 0; 1]%nat in
  all_done (snd cf) = true /\
  obs_of (log (fst cf)) [] =
    [ORun 0 0 0 0 0; OEnd 0; ORun 3 1 5 0 0; OEnd 3; ORun 1 0 5 0 0; OEnd 1; ORun 4 1 5 0 0; OEnd 4;
     ORun 2 1 5 0 0; OEnd 2].
Proof. vm_compute. split; reflexivity. Qed.

(* the premise of C30_start_end_bracket is satisfiable: in the run of [ex_h] three actions
   of the shared trampoline start, each after the previous one ended (oldest first;
   true = start, false = end, with the item id) *)
Example C30_witness_bracket :
  flat_map (fun e => match e with
                     | EStart (KShared O) id _ _ _ _ _ _ => [(true, id)]
                     | EEnd (KShared O) id _ _ => [(false, id)]
                     | _ => [] end)
           (rev (log (world_of (run_history (Cfg false) 0 ex_h))))
  = [(true, 0%nat); (false, 0%nat); (true, 3%nat); (false, 3%nat); (true, 2%nat); (false, 2%nat)].
Proof. vm_compute. reflexivity. Qed.

(* the hypothesis of C30_all_started_if_no_raise holds of [ex_h]; in its run item 1 is the
   skipped one (cancelled by action 2), all the others were started *)
Example C30_witness_noraise :
  forallb noraise ex_h = true /\
  let lg := log (world_of (run_history (Cfg false) 0 ex_h)) in
  flat_map (fun e => match e with ESkip _ id => [id] | _ => [] end) lg = [1%nat] /\
  existsb (fun e => match e with ECancel 1 => true | _ => false end) lg = true /\
  length (filter (fun e => match e with EStart _ _ _ _ _ _ _ _ => true | _ => false end) lg) = 4%nat /\
  length (filter (fun e => match e with EEnq _ _ _ _ => true | _ => false end) lg) = 5%nat.
Proof. vm_compute. repeat split; reflexivity. Qed.

(* independence of the per-thread trampolines over whole runs (Core/TrampolineIndep.v) *)
From RxVerif Require Import Core.TrampolineIndep.

(* ANY stretch b of a schedule in which thread o is not scheduled -- other threads run, on any
   schedulers, and time passes -- leaves thread o itself (its whole call stack), every trampoline
   that belongs to o and everything the log says about those trampolines ([klog]) unchanged.
   Other threads reach thread o's trampolines only through what the next step of o reads from
   the shared world: the clock, the set of disposed items and the item counter. *)
Theorem C30_other_threads_stutter : forall c c0 hs a b o,
  (forall th, In (Run th) b -> th <> o) ->
  let cf := crun c (start_config c0 hs) a in
  let cf' := crun c cf b in
  nth_error (snd cf') o = nth_error (snd cf) o /\
  forall k, owner k = Some o ->
    tramps (fst cf') k = tramps (fst cf) k /\ klog k (log (fst cf')) = klog k (log (fst cf)).
Proof. exact others_stutter. Qed.
Print Assumptions C30_other_threads_stutter.

(* hypothesis satisfiable, non-trivially: in a two-thread run of [hs_shared] (thread 0 is the runner
   of a shared TrampolineScheduler), thread 1 makes two steps while thread 0 is parked inside its
   drain loop *)
Example C30_witness_stutter :
  let cf := crun (Cfg false) (start_config 0 hs_shared) [Run 0; Run 0; Run 0; Run 0; Run 0]%nat in
  let cf' := crun (Cfg false) cf [Run 1; Tick 3; Run 1]%nat in
  length (log (fst cf')) = (length (log (fst cf)) + 2)%nat /\
  option_map stk (nth_error (snd cf) 0) = Some [FRun (KShared 0) [] (PWait 10); FBody true []].
Proof. vm_compute. split; reflexivity. Qed.

(* The stronger statement "what the log says about o's trampolines is what it says in the run where
   every step of another thread is replaced by the passage of the time it took" ([proj]) is FALSE
   of the model: (1) another thread can dispose an item of o; (2) a shared TrampolineScheduler whose
   runner is o executes another thread's action on thread o, and that action can schedule on o's
   current-thread scheduler; (3) the item counter is shared, so even otherwise the ids differ. *)
Theorem C30_independence_by_projection_refuted :
  ~ (forall c c0 hs sch k o, owner k = Some o ->
       klog k (log (fst (crun c (start_config c0 hs) sch)))
       = klog k (log (fst (crun c (start_config c0 hs) (proj c o (start_config c0 hs) sch))))).
Proof. exact independence_by_projection_refuted. Qed.
Print Assumptions C30_independence_by_projection_refuted.

Example C30_projection_refuted_by_cancel :
  let cf0 := start_config 0 hs_cancel in
  proj (Cfg false) 0 cf0 sch_cancel
    = [Run 0; Run 0; Run 0; Run 0; Run 0; Tick 0; Run 0; Run 0; Run 0; Run 0; Run 0]%nat /\
  klog (KLocal 0) (log (fst (crun (Cfg false) cf0 sch_cancel)))
    = [EIdle (KLocal 0) 0; ESkip (KLocal 0) 0; EEnq (KLocal 0) 0 0 true; ECreate (KLocal 0) 0 0 10 0] /\
  klog (KLocal 0) (log (fst (crun (Cfg false) cf0 (proj (Cfg false) 0 cf0 sch_cancel))))
    = [EEnd (KLocal 0) 0 5 false; EStart (KLocal 0) 0 5 0 10 10 0 0; EEnq (KLocal 0) 0 0 true; ECreate (KLocal 0) 0 0 10 0].
Proof. exact proj_refuted_cancel. Qed.

Example C30_projection_refuted_by_shared_scheduler :
  let cf0 := start_config 0 hs_shared in
  klog (KLocal 0) (log (fst (crun (Cfg false) cf0 sch_shared)))
    = [EIdle (KLocal 0) 0; EEnd (KLocal 0) 2 8 false; EStart (KLocal 0) 2 8 0 0 0 0 1; EEnq (KLocal 0) 2 0 true;
       ECreate (KLocal 0) 2 0 0 0] /\
  klog (KLocal 0) (log (fst (crun (Cfg false) cf0 (proj (Cfg false) 0 cf0 sch_shared)))) = [].
Proof. exact proj_refuted_shared. Qed.

Example C30_projection_refuted_by_ids :
  let cf0 := start_config 0 hs_ids in
  klog (KLocal 0) (log (fst (crun (Cfg false) cf0 sch_ids)))
    = [EEnq (KLocal 0) 1 0 true; ECreate (KLocal 0) 1 0 0 0] /\
  klog (KLocal 0) (log (fst (crun (Cfg false) cf0 (proj (Cfg false) 0 cf0 sch_ids))))
    = [EEnq (KLocal 0) 0 0 true; ECreate (KLocal 0) 0 0 0 0].
Proof. exact proj_refuted_ids. Qed.
