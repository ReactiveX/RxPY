(* C14 -- early termination cancels synchronous infinite sources.

   Model: Core/SyncSources.v -- Observable.subscribe as the first task of the
   calling thread's trampoline (a FIFO queue: Props/C30.v), the producers
   from_iterable (KIter: its whole loop is ONE task), range / generate (KStep:
   one element per task, rescheduled), repeat / repeat_value (KRep l: concat
   action + inner list loop), the nets of the listed pipeline shapes written from
   the operators' code, the early-terminating consumers; tied to the code by the
   correspondence of harness/props/C14.py on every catalogue entry.

   [run_default gen K N C fuel] subscribes net N followed by consumer C over the
   never-ending source of kind K with the DEFAULT scheduler; one unit of fuel per
   task dispatch or producer-loop iteration.  [Returned w out true]: subscribe()
   has returned (the trampoline queue is empty -- [run] answers only then -- so no
   producer action is pending), w elements were pulled from the source, the
   observer completed.  [run_inline] is the same pipeline subscribed with a
   scheduler that runs the action inside schedule() (ImmediateScheduler, or a
   fresh CurrentThreadScheduler() whose trampoline is not the one subscribe()
   runs in).

   Positive theorems: for every element stream [gen], every parameter n and
   every fuel above a bound that depends on the parameters only, the run returns
   after pulling exactly the stated number of elements.  Linear pipelines over
   from_iterable and range / generate (C14_lin_iter, C14_lin_step) hold for EVERY consumer and every
   element-wise prefix; over repeat, C14_lin_rep is for consumers that do not look at the values and
   C14_lin_rep_any_consumer for every consumer, run on the cyclic stream of the repeated list; the
   hypothesis [stops_at C gen s i k] says that the consumer completes at the
   k-th element (discharged for take / first / element_at / take_while / map / filter).
   The second half of the file is about repeat / repeat_value: any consumer, filter stages with any
   predicate, the multi-source shapes, and repeat in front of flat_map(of) / switch_map(of) and
   behind concat(of(1,2), .), where a whole round of the list is pulled before the inners run.

   REFUTED clauses (findings, recorded in known_findings.json): with the default
   scheduler, from_iterable starves every completion that needs a second
   trampoline task (the C14_..._iter_refuted theorems: OutOfFuel for ALL fuel); with a scheduler
   that runs the action inside schedule() every shape over every source kind
   never returns (the C14_..._inline_refuted theorems; not stated for concat(of(1,2), source));
   behind switch_map(of) the consumer of a repeat source sees only the last element of every round,
   so completing on the cyclic stream is not enough (C14_switch_map_of_rep_diverges,
   C14_switch_map_of_rep_cyclic_refuted). *)
From RxVerif Require Import Base.Prelude Core.SyncSources Core.SyncSourcesFacts Core.SyncShapes Ops.SyncRepFacts.

Theorem C14_lin_iter : forall gen C k fuel, stops_at C gen (c_init C) 0 k -> (k + 1 <= fuel)%nat ->
  exists out, run_default gen KIter n_lin C fuel = Returned k out true.
Proof. exact lin_iter. Qed.
Print Assumptions C14_lin_iter.

Theorem C14_lin_step : forall gen C k fuel, stops_at C gen (c_init C) 0 k -> (k + 1 <= fuel)%nat ->
  exists out, run_default gen KStep n_lin C fuel = Returned k out true.
Proof. exact lin_step. Qed.
Print Assumptions C14_lin_step.

(* In the proofs below [iter_shape gen emits w p] (and [step_shape], [rep_shape]) takes the warm-up
   as two numbers: after [w] dispatches, during which [p] elements were pulled, the producer's task
   heads the queue.  The state reached then is computed ([enters]: [cbv; reflexivity]); the three
   obligations left are the warm-up, where the consumer completes, and the fuel. *)
Theorem C14_merge_sn_iter : forall gen n fuel, (n + 6 <= fuel)%nat ->
  exists out, run_default gen KIter (n_merge [0; 1]) (c_take (S n)) fuel = Returned (S n) out true.
Proof.
  intros gen n fuel Hf.
  eapply (iter_shape gen (merge_emits _) 3 0);
    [econstructor; [cbv; reflexivity|auto]|apply take_stops|cbn; lia].
Qed.
Print Assumptions C14_merge_sn_iter.

Theorem C14_merge_ns_iter : forall gen n fuel, (n + 6 <= fuel)%nat ->
  exists out, run_default gen KIter (n_merge [1; 0]) (c_take (S n)) fuel = Returned (S n) out true.
Proof.
  intros gen n fuel Hf.
  eapply (iter_shape gen (merge_emits _) 3 0);
    [econstructor; [cbv; reflexivity|auto]|apply take_stops|cbn; lia].
Qed.
Print Assumptions C14_merge_ns_iter.

Theorem C14_merge_sn_step : forall gen n fuel, (n + 6 <= fuel)%nat ->
  exists out, run_default gen KStep (n_merge [0; 1]) (c_take (S n)) fuel = Returned (S n) out true.
Proof.
  intros gen n fuel Hf.
  eapply (step_shape gen (merge_emits _) 3 0);
    [econstructor; [cbv; reflexivity|auto]|apply take_stops|cbn; lia].
Qed.
Print Assumptions C14_merge_sn_step.

Theorem C14_merge_ns_step : forall gen n fuel, (n + 6 <= fuel)%nat ->
  exists out, run_default gen KStep (n_merge [1; 0]) (c_take (S n)) fuel = Returned (S n) out true.
Proof.
  intros gen n fuel Hf.
  eapply (step_shape gen (merge_emits _) 3 0);
    [econstructor; [cbv; reflexivity|auto]|apply take_stops|cbn; lia].
Qed.
Print Assumptions C14_merge_ns_step.

Theorem C14_flat_outer_iter : forall gen n fuel, (n + 6 <= fuel)%nat ->
  exists out, run_default gen KIter n_flat_outer (c_take (S n)) fuel = Returned (S n) out true.
Proof.
  intros gen n fuel Hf.
  eapply (iter_shape gen flat_outer_emits 2 0);
    [econstructor; [cbv; reflexivity|auto]|apply take_stops|cbn; lia].
Qed.
Print Assumptions C14_flat_outer_iter.

Theorem C14_flat_outer_step : forall gen n fuel, (n + 6 <= fuel)%nat ->
  exists out, run_default gen KStep n_flat_outer (c_take (S n)) fuel = Returned (S n) out true.
Proof.
  intros gen n fuel Hf.
  eapply (step_shape gen flat_outer_emits 2 0);
    [econstructor; [cbv; reflexivity|auto]|apply take_stops|cbn; lia].
Qed.
Print Assumptions C14_flat_outer_step.

Theorem C14_switch_outer_iter : forall gen n fuel, (n + 6 <= fuel)%nat ->
  exists out, run_default gen KIter n_switch_outer (c_take (S n)) fuel = Returned (S n) out true.
Proof.
  intros gen n fuel Hf.
  eapply (iter_shape gen switch_outer_emits 2 0);
    [econstructor; [cbv; reflexivity|auto]|apply take_stops|cbn; lia].
Qed.
Print Assumptions C14_switch_outer_iter.

Theorem C14_switch_outer_step : forall gen n fuel, (n + 6 <= fuel)%nat ->
  exists out, run_default gen KStep n_switch_outer (c_take (S n)) fuel = Returned (S n) out true.
Proof.
  intros gen n fuel Hf.
  eapply (step_shape gen switch_outer_emits 2 0);
    [econstructor; [cbv; reflexivity|auto]|apply take_stops|cbn; lia].
Qed.
Print Assumptions C14_switch_outer_step.

Theorem C14_concat_after_iter : forall gen n fuel, (n + 6 <= fuel)%nat ->
  exists out, run_default gen KIter (n_concat false) (c_take (S n)) fuel = Returned (S n) out true.
Proof.
  intros gen n fuel Hf.
  eapply (iter_shape gen (concat_emits _) 1 0);
    [econstructor; [cbv; reflexivity|auto]|apply take_stops|cbn; lia].
Qed.
Print Assumptions C14_concat_after_iter.

Theorem C14_concat_after_step : forall gen n fuel, (n + 6 <= fuel)%nat ->
  exists out, run_default gen KStep (n_concat false) (c_take (S n)) fuel = Returned (S n) out true.
Proof.
  intros gen n fuel Hf.
  eapply (step_shape gen (concat_emits _) 1 0);
    [econstructor; [cbv; reflexivity|auto]|apply take_stops|cbn; lia].
Qed.
Print Assumptions C14_concat_after_step.

Theorem C14_concat_before_iter : forall gen n fuel, (n + 10 <= fuel)%nat ->
  exists out, run_default gen KIter (n_concat true) (c_take (S (S (S n)))) fuel = Returned (S n) out true.
Proof.
  intros gen n fuel Hf.
  eapply (iter_shape gen (concat_emits _) 5 0);
    [econstructor; [cbv; reflexivity|auto]|apply take_stops|cbn; lia].
Qed.
Print Assumptions C14_concat_before_iter.

Theorem C14_concat_before_step : forall gen n fuel, (n + 10 <= fuel)%nat ->
  exists out, run_default gen KStep (n_concat true) (c_take (S (S (S n)))) fuel = Returned (S n) out true.
Proof.
  intros gen n fuel Hf.
  eapply (step_shape gen (concat_emits _) 5 0);
    [econstructor; [cbv; reflexivity|auto]|apply take_stops|cbn; lia].
Qed.
Print Assumptions C14_concat_before_step.

Theorem C14_amb_sn_iter : forall gen n fuel, (n + 6 <= fuel)%nat ->
  exists out, run_default gen KIter (n_amb true) (c_take (S n)) fuel = Returned (S n) out true.
Proof.
  intros gen n fuel Hf.
  eapply (iter_shape gen (amb_emits _) 0 0);
    [econstructor; [cbv; reflexivity|auto]|apply take_stops|cbn; lia].
Qed.
Print Assumptions C14_amb_sn_iter.

Theorem C14_amb_ns_iter : forall gen n fuel, (n + 6 <= fuel)%nat ->
  exists out, run_default gen KIter (n_amb false) (c_take (S n)) fuel = Returned (S n) out true.
Proof.
  intros gen n fuel Hf.
  eapply (iter_shape gen (amb_emits _) 0 0);
    [econstructor; [cbv; reflexivity|auto]|apply take_stops|cbn; lia].
Qed.
Print Assumptions C14_amb_ns_iter.

Theorem C14_amb_sn_step : forall gen n fuel, (n + 6 <= fuel)%nat ->
  exists out, run_default gen KStep (n_amb true) (c_take (S n)) fuel = Returned (S n) out true.
Proof.
  intros gen n fuel Hf.
  eapply (step_shape gen (amb_emits _) 0 0);
    [econstructor; [cbv; reflexivity|auto]|apply take_stops|cbn; lia].
Qed.
Print Assumptions C14_amb_sn_step.

Theorem C14_amb_ns_step : forall gen n fuel, (n + 6 <= fuel)%nat ->
  exists out, run_default gen KStep (n_amb false) (c_take (S n)) fuel = Returned (S n) out true.
Proof.
  intros gen n fuel Hf.
  eapply (step_shape gen (amb_emits _) 0 0);
    [econstructor; [cbv; reflexivity|auto]|apply take_stops|cbn; lia].
Qed.
Print Assumptions C14_amb_ns_step.

Theorem C14_wlf_main_iter : forall gen n fuel, (n + 6 <= fuel)%nat ->
  exists out, run_default gen KIter (n_wlf true) (c_take (S n)) fuel = Returned (S n) out true.
Proof.
  intros gen n fuel Hf.
  eapply (iter_shape gen wlf_emits 2 0);
    [econstructor; [cbv; reflexivity|auto]|apply take_stops|cbn; lia].
Qed.
Print Assumptions C14_wlf_main_iter.

Theorem C14_wlf_main_step : forall gen n fuel, (n + 6 <= fuel)%nat ->
  exists out, run_default gen KStep (n_wlf true) (c_take (S n)) fuel = Returned (S n) out true.
Proof.
  intros gen n fuel Hf.
  eapply (step_shape gen wlf_emits 2 0);
    [econstructor; [cbv; reflexivity|auto]|apply take_stops|cbn; lia].
Qed.
Print Assumptions C14_wlf_main_step.

Theorem C14_combine_of_s_iter : forall gen n fuel, (n + 6 <= fuel)%nat ->
  exists out, run_default gen KIter (n_combine false) (c_take (S n)) fuel = Returned (S n) out true.
Proof.
  intros gen n fuel Hf.
  eapply (iter_shape gen (combine_emits _) 2 0);
    [econstructor; [cbv; reflexivity|auto]|apply take_stops|cbn; lia].
Qed.
Print Assumptions C14_combine_of_s_iter.

Theorem C14_combine_of_s_step : forall gen n fuel, (n + 6 <= fuel)%nat ->
  exists out, run_default gen KStep (n_combine false) (c_take (S n)) fuel = Returned (S n) out true.
Proof.
  intros gen n fuel Hf.
  eapply (step_shape gen (combine_emits _) 2 0);
    [econstructor; [cbv; reflexivity|auto]|apply take_stops|cbn; lia].
Qed.
Print Assumptions C14_combine_of_s_step.

Theorem C14_combine_s_of_step : forall gen n fuel, (n + 8 <= fuel)%nat ->
  exists out, run_default gen KStep (n_combine true) (c_take (S n)) fuel = Returned (S n) out true.
Proof.
  intros gen [|n] fuel Hf.
  - eexists. eapply (finite_shape gen _ _ _ 2); [cbv; reflexivity|cbn; lia].
  - eapply (step_shape gen (combine_emits _) 3 1);
    [econstructor; [cbv; reflexivity|auto]|apply take_stops|cbn; lia].
Qed.
Print Assumptions C14_combine_s_of_step.

Theorem C14_take_until_step : forall gen fuel, (6 <= fuel)%nat ->
  exists out, run_default gen KStep n_take_until c_all fuel = Returned 1 out true.
Proof. intros gen fuel Hf. eexists. eapply (finite_shape gen _ _ _ 2); [cbv; reflexivity|cbn; lia]. Qed.
Print Assumptions C14_take_until_step.

Theorem C14_wlf_other_step : forall gen n fuel, (8 <= fuel)%nat ->
  exists out, run_default gen KStep (n_wlf false) (c_take (S n)) fuel = Returned 1 out true.
Proof.
  intros gen [|n] fuel Hf; eexists.
  - eapply (finite_shape gen _ _ _ 2); [cbv; reflexivity|cbn; lia].
  - eapply (finite_shape gen _ _ _ 3); [cbv; reflexivity|cbn; lia].
Qed.
Print Assumptions C14_wlf_other_step.

(* the arguments of [nested_step_loop] after the net's lemma: k, then the initial state of the run
   (consumer state, net state, live ports [0], i = p = o = 0: nothing pulled yet; its queue is the
   source's action alone) *)
Theorem C14_flat_map_of_step : forall gen n fuel, (3 * S n + 2 <= fuel)%nat ->
  exists out, run_default gen KStep n_flat_map_of (c_take (S n)) fuel = Returned (S n) out true.
Proof.
  intros gen n fuel Hf.
  apply (nested_step_loop gen n_flat_map_of (c_take (S n)) _ (flat_map_of_turn _) (S n) (S n) (FSt false 0 1) [0%nat] 0 0 0 fuel);
    [split; [reflexivity|discriminate]|reflexivity|apply take_stops|exact Hf].
Qed.
Print Assumptions C14_flat_map_of_step.

Theorem C14_switch_map_of_step : forall gen n fuel, (3 * S n + 2 <= fuel)%nat ->
  exists out, run_default gen KStep n_switch_map_of (c_take (S n)) fuel = Returned (S n) out true.
Proof.
  intros gen n fuel Hf.
  apply (nested_step_loop gen n_switch_map_of (c_take (S n)) _ (switch_map_of_turn _) (S n) (S n) (SSt false false 0 1) [0%nat] 0 0 0 fuel);
    [split; [reflexivity|discriminate]|reflexivity|apply take_stops|exact Hf].
Qed.
Print Assumptions C14_switch_map_of_step.

Theorem C14_flat_map_of_iter_refuted : forall gen n fuel,
  run_default gen KIter n_flat_map_of (c_take n) fuel = OutOfFuel.
Proof.
  intros gen n fuel.
  apply (iter_starves gen n_flat_map_of (c_take n) false ltac:(discriminate) _ flat_map_of_quiet); [discriminate|reflexivity].
Qed.
Print Assumptions C14_flat_map_of_iter_refuted.

Theorem C14_switch_map_of_iter_refuted : forall gen n fuel,
  run_default gen KIter n_switch_map_of (c_take n) fuel = OutOfFuel.
Proof.
  intros gen n fuel.
  apply (iter_starves gen n_switch_map_of (c_take n) false ltac:(discriminate) _ switch_map_of_quiet); [discriminate|reflexivity].
Qed.
Print Assumptions C14_switch_map_of_iter_refuted.

Theorem C14_wlf_other_iter_refuted : forall gen n fuel,
  run_default gen KIter (n_wlf false) (c_take n) fuel = OutOfFuel.
Proof.
  intros gen n fuel.
  apply (iter_starves gen (n_wlf false) (c_take n) false ltac:(discriminate) _ wlf_other_quiet); [exact I|reflexivity].
Qed.
Print Assumptions C14_wlf_other_iter_refuted.

Theorem C14_combine_s_of_iter_refuted : forall gen n fuel,
  run_default gen KIter (n_combine true) (c_take n) fuel = OutOfFuel.
Proof.
  intros gen n fuel.
  apply (iter_starves gen (n_combine true) (c_take n) false ltac:(discriminate) _ combine_s_of_quiet); [split; reflexivity|reflexivity].
Qed.
Print Assumptions C14_combine_s_of_iter_refuted.

Theorem C14_take_until_iter_refuted : forall gen fuel,
  run_default gen KIter n_take_until c_all fuel = OutOfFuel.
Proof.
  intros gen fuel.
  apply (iter_starves gen n_take_until c_all true ltac:(reflexivity) _ take_until_quiet); [exact I|reflexivity].
Qed.
Print Assumptions C14_take_until_iter_refuted.

Theorem C14_lin_inline_refuted : forall gen K C fuel, run_inline gen K n_lin C fuel = OutOfFuel.
Proof. intros. apply (inline_starves gen K n_lin C 0). left. reflexivity. Qed.
Print Assumptions C14_lin_inline_refuted.

Theorem C14_merge_inline_refuted : forall gen K C fuel b,
  run_inline gen K (n_merge (if b : bool then [0; 1] else [1; 0])) C fuel = OutOfFuel.
Proof.
  intros gen K C fuel [|].
  - apply (inline_starves_of gen K _ C 10 0 [] 0 [1]); [left; reflexivity|intros ns; left; reflexivity].
  - apply (inline_starves_of gen K _ C 10 0 [1] 0 []); [left; reflexivity|intros ns; left; reflexivity].
Qed.
Print Assumptions C14_merge_inline_refuted.

Theorem C14_flat_map_of_inline_refuted : forall gen K C fuel, run_inline gen K n_flat_map_of C fuel = OutOfFuel.
Proof. intros. apply (inline_starves gen K n_flat_map_of C 0). left. reflexivity. Qed.
Print Assumptions C14_flat_map_of_inline_refuted.

Theorem C14_switch_map_of_inline_refuted : forall gen K C fuel, run_inline gen K n_switch_map_of C fuel = OutOfFuel.
Proof. intros. apply (inline_starves gen K n_switch_map_of C 0). left. reflexivity. Qed.
Print Assumptions C14_switch_map_of_inline_refuted.

Theorem C14_flat_outer_inline_refuted : forall gen K C fuel, run_inline gen K n_flat_outer C fuel = OutOfFuel.
Proof. intros. apply (inline_starves_of gen K n_flat_outer C 10 0 [] 1 []); [left; reflexivity|intros ns; left; reflexivity]. Qed.
Print Assumptions C14_flat_outer_inline_refuted.

Theorem C14_switch_outer_inline_refuted : forall gen K C fuel, run_inline gen K n_switch_outer C fuel = OutOfFuel.
Proof. intros. apply (inline_starves_of gen K n_switch_outer C 10 0 [] 1 []); [left; reflexivity|intros ns; left; reflexivity]. Qed.
Print Assumptions C14_switch_outer_inline_refuted.

Theorem C14_amb_inline_refuted : forall gen K C fuel b, run_inline gen K (n_amb b) C fuel = OutOfFuel.
Proof. intros gen K C fuel [|]; apply (inline_starves gen K _ C 0); cbn; auto. Qed.
Print Assumptions C14_amb_inline_refuted.

Theorem C14_wlf_inline_refuted : forall gen K C fuel b, run_inline gen K (n_wlf b) C fuel = OutOfFuel.
Proof. intros gen K C fuel [|]; apply (inline_starves gen K _ C 0); cbn; auto. Qed.
Print Assumptions C14_wlf_inline_refuted.

Theorem C14_combine_inline_refuted : forall gen K C fuel b, run_inline gen K (n_combine b) C fuel = OutOfFuel.
Proof. intros gen K C fuel [|]; apply (inline_starves gen K _ C 0); cbn; auto. Qed.
Print Assumptions C14_combine_inline_refuted.

Theorem C14_take_until_inline_refuted : forall gen K C fuel, run_inline gen K n_take_until C fuel = OutOfFuel.
Proof. intros. apply (inline_starves gen K n_take_until C 0). left. reflexivity. Qed.
Print Assumptions C14_take_until_inline_refuted.

Theorem C14_concat_after_inline_refuted : forall gen K C fuel, run_inline gen K (n_concat false) C fuel = OutOfFuel.
Proof.
  (* the concat action, run inside schedule(), subscribes the source *)
  intros gen K C [|fuel]; [reflexivity|]. unfold run_inline. cbn [n_start n_concat]. rewrite inl_cons.
  cbn [n_task n_concat s_net]. rewrite (inl_meets_inf gen K _ C 0); [reflexivity|left; reflexivity].
Qed.
Print Assumptions C14_concat_after_inline_refuted.

Theorem C14_lin_rep : forall gen C v l k fuel,
  (forall s a b, c_step C s a = c_step C s b) ->
  stops_at C gen (c_init C) 0 k -> (3 * k + 5 <= fuel)%nat ->
  exists out, run_default gen (KRep (v :: l)) n_lin C fuel = Returned k out true.
Proof.
  intros gen C v l k fuel B H Hf. apply lin_rep_any; [|exact Hf]. exact (stops_at_blind C B _ _ _ _ _ _ H).
Qed.
Print Assumptions C14_lin_rep.

Theorem C14_take_iter : forall gen n fuel, (n + 2 <= fuel)%nat ->
  exists out, run_default gen KIter n_lin (c_take (S n)) fuel = Returned (S n) out true.
Proof. intros. apply lin_iter; [apply take_stops|lia]. Qed.
Print Assumptions C14_take_iter.

Theorem C14_take_step : forall gen n fuel, (n + 2 <= fuel)%nat ->
  exists out, run_default gen KStep n_lin (c_take (S n)) fuel = Returned (S n) out true.
Proof. intros. apply lin_step; [apply take_stops|lia]. Qed.
Print Assumptions C14_take_step.

Theorem C14_take_rep : forall gen v l n fuel, (3 * n + 8 <= fuel)%nat ->
  exists out, run_default gen (KRep (v :: l)) n_lin (c_take (S n)) fuel = Returned (S n) out true.
Proof. intros. apply C14_lin_rep; [reflexivity|apply (take_stops gen)|lia]. Qed.
Print Assumptions C14_take_rep.

Theorem C14_first_iter : forall gen fuel, (2 <= fuel)%nat ->
  exists out, run_default gen KIter n_lin c_first fuel = Returned 1 out true.
Proof. intros. apply lin_iter; [apply first_stops|lia]. Qed.
Print Assumptions C14_first_iter.

Theorem C14_first_step : forall gen fuel, (2 <= fuel)%nat ->
  exists out, run_default gen KStep n_lin c_first fuel = Returned 1 out true.
Proof. intros. apply lin_step; [apply first_stops|lia]. Qed.
Print Assumptions C14_first_step.

Theorem C14_first_rep : forall gen v l fuel, (8 <= fuel)%nat ->
  exists out, run_default gen (KRep (v :: l)) n_lin c_first fuel = Returned 1 out true.
Proof. intros. apply C14_lin_rep; [reflexivity|apply (first_stops gen)|lia]. Qed.
Print Assumptions C14_first_rep.

Theorem C14_element_at_iter : forall gen n fuel, (n + 2 <= fuel)%nat ->
  exists out, run_default gen KIter n_lin (c_element_at n) fuel = Returned (S n) out true.
Proof. intros. apply lin_iter; [apply element_at_stops|lia]. Qed.
Print Assumptions C14_element_at_iter.

Theorem C14_element_at_step : forall gen n fuel, (n + 2 <= fuel)%nat ->
  exists out, run_default gen KStep n_lin (c_element_at n) fuel = Returned (S n) out true.
Proof. intros. apply lin_step; [apply element_at_stops|lia]. Qed.
Print Assumptions C14_element_at_step.

Theorem C14_element_at_rep : forall gen v l n fuel, (3 * n + 8 <= fuel)%nat ->
  exists out, run_default gen (KRep (v :: l)) n_lin (c_element_at n) fuel = Returned (S n) out true.
Proof. intros. apply C14_lin_rep; [reflexivity|apply (element_at_stops gen)|lia]. Qed.
Print Assumptions C14_element_at_rep.

Theorem C14_take_while_iter : forall gen pr incl k fuel,
  (forall j, (j < k)%nat -> pr (gen j) = true) -> pr (gen k) = false -> (k + 2 <= fuel)%nat ->
  exists out, run_default gen KIter n_lin (c_take_while pr incl) fuel = Returned (S k) out true.
Proof. intros. apply lin_iter; [apply take_while_stops; auto|lia]. Qed.
Print Assumptions C14_take_while_iter.

Theorem C14_take_while_step : forall gen pr incl k fuel,
  (forall j, (j < k)%nat -> pr (gen j) = true) -> pr (gen k) = false -> (k + 2 <= fuel)%nat ->
  exists out, run_default gen KStep n_lin (c_take_while pr incl) fuel = Returned (S k) out true.
Proof. intros. apply lin_step; [apply take_while_stops; auto|lia]. Qed.
Print Assumptions C14_take_while_step.

Theorem C14_map_take_iter : forall gen f n fuel, (n + 2 <= fuel)%nat ->
  exists out, run_default gen KIter n_lin (c_map f (c_take (S n))) fuel = Returned (S n) out true.
Proof. intros. apply lin_iter; [apply stops_map; apply take_stops|lia]. Qed.
Print Assumptions C14_map_take_iter.

Theorem C14_map_take_step : forall gen f n fuel, (n + 2 <= fuel)%nat ->
  exists out, run_default gen KStep n_lin (c_map f (c_take (S n))) fuel = Returned (S n) out true.
Proof. intros. apply lin_step; [apply stops_map; apply take_stops|lia]. Qed.
Print Assumptions C14_map_take_step.

(* the hypotheses of the linear theorems are satisfiable: the listed consumers complete *)
Theorem C14_take_completes : forall gen n r i, stops_at (c_take n) gen (S r) i (S r).
Proof. exact take_stops. Qed.
Print Assumptions C14_take_completes.

Theorem C14_first_completes : forall gen i, stops_at c_first gen tt i 1.
Proof. exact first_stops. Qed.
Print Assumptions C14_first_completes.

Theorem C14_element_at_completes : forall gen n r i, stops_at (c_element_at n) gen r i (S r).
Proof. exact element_at_stops. Qed.
Print Assumptions C14_element_at_completes.

Theorem C14_take_while_completes : forall gen pr incl k i,
  (forall j, (j < k)%nat -> pr (gen (i + j)%nat) = true) -> pr (gen (i + k)%nat) = false ->
  stops_at (c_take_while pr incl) gen tt i (S k).
Proof. exact take_while_stops. Qed.
Print Assumptions C14_take_while_completes.

Theorem C14_map_stage : forall gen f C s i k,
  stops_at (c_map f C) gen s i k <-> stops_at C (fun j => f (gen j)) s i k.
Proof. exact stops_map. Qed.
Print Assumptions C14_map_stage.

Theorem C14_filter_stage : forall gen pr C s i k,
  (forall j, pr (gen j) = true) -> stops_at C gen s i k -> stops_at (c_filter pr C) gen s i k.
Proof. exact stops_filter_all. Qed.
Print Assumptions C14_filter_stage.

(* witnesses (vm_compute): the numbers the implementation shows *)
Definition nat_gen (i : nat) : Z := Z.of_nat i.

Example C14_witness_take_from_iterable :
  run_default nat_gen KIter n_lin (c_take 3) 10 = Returned 3 3 true.
Proof. vm_compute. reflexivity. Qed.

Example C14_witness_flat_map_range :
  run_default nat_gen KStep n_flat_map_of (c_take 3) 20 = Returned 3 3 true.
Proof. vm_compute. reflexivity. Qed.

Example C14_witness_switch_map_repeat :
  run_default nat_gen (KRep [1; 2]) n_switch_map_of (c_take 3) 60 = Returned 6 3 true.
Proof. vm_compute. reflexivity. Qed.

Example C14_witness_take_while :
  run_default nat_gen KIter n_lin (c_take_while (fun v => v <? 3) false) 10 = Returned 4 3 true.
Proof. vm_compute. reflexivity. Qed.

(* the refuted shapes on concrete fuel *)
Example C14_witness_refuted :
  run_default nat_gen KIter n_take_until c_all 500 = OutOfFuel /\
  run_default nat_gen KIter n_flat_map_of (c_take 3) 500 = OutOfFuel /\
  run_inline nat_gen KStep n_lin (c_take 1) 500 = OutOfFuel /\
  run_inline nat_gen (KRep [7]) n_lin c_first 500 = OutOfFuel.
Proof. vm_compute. repeat split; reflexivity. Qed.

(* repeat sources with ANY consumer (run on the cyclic stream of the repeated list), filter stages
   with ANY predicate, multi-source shapes over repeat (the producer loop of repeat: Ops/SyncRepFacts.v) *)

(* C14_lin_rep without its value-blind hypothesis: the consumer is run on the cyclic stream of the
   repeated list ([cyc v l] of Ops/SyncRepFacts.v, written out here) *)
Theorem C14_lin_rep_any_consumer : forall gen C v l k fuel,
  stops_at C (fun i => nth (i mod length (v :: l)) (v :: l) v) (c_init C) 0 k -> (3 * k + 5 <= fuel)%nat ->
  exists out, run_default gen (KRep (v :: l)) n_lin C fuel = Returned k out true.
Proof. exact lin_rep_any. Qed.
Print Assumptions C14_lin_rep_any_consumer.

Theorem C14_take_while_rep : forall gen pr incl v l k fuel,
  (k < length (v :: l))%nat ->
  (forall j, (j < k)%nat -> pr (nth j (v :: l) v) = true) -> pr (nth k (v :: l) v) = false ->
  (3 * k + 8 <= fuel)%nat ->
  exists out, run_default gen (KRep (v :: l)) n_lin (c_take_while pr incl) fuel = Returned (S k) out true.
Proof.
  intros gen pr incl v l k fuel Hk Ht Hf Hfuel. apply lin_rep_any; [|lia].
  apply take_while_stops; cbn [Nat.add].
  - intros j Hj. rewrite cyc_small by lia. auto.
  - rewrite cyc_small by lia. exact Hf.
Qed.
Print Assumptions C14_take_while_rep.

Theorem C14_map_take_rep : forall gen f v l n fuel, (3 * n + 8 <= fuel)%nat ->
  exists out, run_default gen (KRep (v :: l)) n_lin (c_map f (c_take (S n))) fuel = Returned (S n) out true.
Proof. intros. apply lin_rep_any; [apply stops_map; apply take_stops|lia]. Qed.
Print Assumptions C14_map_take_rep.

Theorem C14_map_take_while_rep : forall gen f pr incl v l k fuel,
  (k < length (v :: l))%nat ->
  (forall j, (j < k)%nat -> pr (f (nth j (v :: l) v)) = true) -> pr (f (nth k (v :: l) v)) = false ->
  (3 * k + 8 <= fuel)%nat ->
  exists out, run_default gen (KRep (v :: l)) n_lin (c_map f (c_take_while pr incl)) fuel = Returned (S k) out true.
Proof.
  intros gen f pr incl v l k fuel Hk Ht Hf Hfuel. apply lin_rep_any; [|lia].
  apply stops_map. apply (take_while_stops (fun j => f (cyc v l j))); cbn [Nat.add].
  - intros j Hj. rewrite cyc_small by lia. auto.
  - rewrite cyc_small by lia. exact Hf.
Qed.
Print Assumptions C14_map_take_while_rep.

(* C14_filter_stage for ANY predicate, as an equivalence: the filtered pipeline completes after
   pulling exactly S n elements iff the last of them passes the predicate and the consumer completes
   exactly at the last element of the filtered stream [filtered pr gen i (S n)] of those elements *)
Theorem C14_filter_stage_any : forall gen pr C n s i,
  stops_at (c_filter pr C) gen s i (S n) <->
  pr (gen (i + n)%nat) = true /\
  stops_at C (fun j => nth j (filter pr (map gen (seq i (S n)))) 0) s 0
           (length (filter pr (map gen (seq i (S n))))).
Proof. exact stops_filter_iff. Qed.
Print Assumptions C14_filter_stage_any.

(* multi-source shapes over repeat, ANY consumer that completes on the cyclic stream *)
Theorem C14_merge_rep : forall gen (b : bool) C v l k fuel,
  stops_at C (cyc v l) (c_init C) 0 k -> (3 * k + 8 <= fuel)%nat ->
  exists out, run_default gen (KRep (v :: l)) (n_merge (if b then [0; 1] else [1; 0])) C fuel = Returned k out true.
Proof.
  intros gen [|] C v l k fuel H Hf;
    (eapply (rep_shape gen (merge_emits _) v l 4 0);
     [econstructor; [cbv; reflexivity|auto]|exact H|lia]).
Qed.
Print Assumptions C14_merge_rep.

Theorem C14_flat_outer_rep : forall gen C v l k fuel,
  stops_at C (cyc v l) (c_init C) 0 k -> (3 * k + 8 <= fuel)%nat ->
  exists out, run_default gen (KRep (v :: l)) n_flat_outer C fuel = Returned k out true.
Proof.
  intros gen C v l k fuel H Hf.
  eapply (rep_shape gen flat_outer_emits v l 3 0); [econstructor; [cbv; reflexivity|auto]|exact H|lia].
Qed.
Print Assumptions C14_flat_outer_rep.

Theorem C14_switch_outer_rep : forall gen C v l k fuel,
  stops_at C (cyc v l) (c_init C) 0 k -> (3 * k + 8 <= fuel)%nat ->
  exists out, run_default gen (KRep (v :: l)) n_switch_outer C fuel = Returned k out true.
Proof.
  intros gen C v l k fuel H Hf.
  eapply (rep_shape gen switch_outer_emits v l 3 0);
    [econstructor; [cbv; reflexivity|auto]|exact H|lia].
Qed.
Print Assumptions C14_switch_outer_rep.

Theorem C14_concat_after_rep : forall gen C v l k fuel,
  stops_at C (cyc v l) (c_init C) 0 k -> (3 * k + 8 <= fuel)%nat ->
  exists out, run_default gen (KRep (v :: l)) (n_concat false) C fuel = Returned k out true.
Proof.
  intros gen C v l k fuel H Hf.
  eapply (rep_shape gen (concat_emits _) v l 2 0); [econstructor; [cbv; reflexivity|auto]|exact H|lia].
Qed.
Print Assumptions C14_concat_after_rep.

Theorem C14_amb_rep : forall gen (b : bool) C v l k fuel,
  stops_at C (cyc v l) (c_init C) 0 k -> (3 * k + 8 <= fuel)%nat ->
  exists out, run_default gen (KRep (v :: l)) (n_amb b) C fuel = Returned k out true.
Proof.
  intros gen [|] C v l k fuel H Hf;
    (eapply (rep_shape gen (amb_emits _) v l 1 0);
     [econstructor; [cbv; reflexivity|auto]|exact H|lia]).
Qed.
Print Assumptions C14_amb_rep.

Theorem C14_wlf_main_rep : forall gen C v l k fuel,
  stops_at C (cyc v l) (c_init C) 0 k -> (3 * k + 8 <= fuel)%nat ->
  exists out, run_default gen (KRep (v :: l)) (n_wlf true) C fuel = Returned k out true.
Proof.
  intros gen C v l k fuel H Hf.
  eapply (rep_shape gen wlf_emits v l 3 0); [econstructor; [cbv; reflexivity|auto]|exact H|lia].
Qed.
Print Assumptions C14_wlf_main_rep.

Theorem C14_combine_of_s_rep : forall gen C v l k fuel,
  stops_at C (cyc v l) (c_init C) 0 k -> (3 * k + 8 <= fuel)%nat ->
  exists out, run_default gen (KRep (v :: l)) (n_combine false) C fuel = Returned k out true.
Proof.
  intros gen C v l k fuel H Hf.
  eapply (rep_shape gen (combine_emits _) v l 3 0);
    [econstructor; [cbv; reflexivity|auto]|exact H|lia].
Qed.
Print Assumptions C14_combine_of_s_rep.

Theorem C14_combine_s_of_rep : forall gen C v l k fuel,
  stops_at C (cyc v l) (c_init C) 0 k -> (3 * k + 8 <= fuel)%nat ->
  exists out, run_default gen (KRep (v :: l)) (n_combine true) C fuel = Returned k out true.
Proof.
  intros gen C v l k fuel H Hf.
  eapply (rep_shape gen (combine_emits _) v l 3 0);
    [econstructor; [cbv; reflexivity|auto]|exact H|lia].
Qed.
Print Assumptions C14_combine_s_of_rep.

Theorem C14_take_until_rep : forall gen C v l fuel, (4 <= fuel)%nat ->
  run_default gen (KRep (v :: l)) n_take_until C fuel = Returned 0 0 true.
Proof. intros gen C v l fuel Hf. eapply (finite_shape gen _ _ _ 2); [cbv; reflexivity|cbn; lia]. Qed.
Print Assumptions C14_take_until_rep.

Theorem C14_wlf_other_rep : forall gen C v l fuel, (5 <= fuel)%nat ->
  run_default gen (KRep (v :: l)) (n_wlf false) C fuel = Returned 0 0 true.
Proof. intros gen C v l fuel Hf. eapply (finite_shape gen _ _ _ 3); [cbv; reflexivity|cbn; lia]. Qed.
Print Assumptions C14_wlf_other_rep.

(* the hypotheses of the theorems over repeat are satisfiable; the numbers the implementation shows *)
(* take_while whose predicate is false at the third element of the repeated list *)
Example C14_witness_take_while_repeat :
  stops_at (c_take_while (fun v => v <? 3) false) (cyc 1 [2; 3; 4]) tt 0 3 /\
  run_default nat_gen (KRep [1; 2; 3; 4]) n_lin (c_take_while (fun v => v <? 3) false) 20 = Returned 3 2 true.
Proof. vm_compute. split; reflexivity. Qed.

(* repeat_value(7).map(+1).take(3) *)
Example C14_witness_map_take_repeat_value :
  stops_at (c_map (fun v => v + 1) (c_take 3)) (cyc 7 []) 3%nat 0 3 /\
  run_default nat_gen (KRep [7]) n_lin (c_map (fun v => v + 1) (c_take 3)) 20 = Returned 3 3 true.
Proof. vm_compute. split; reflexivity. Qed.

(* a value-dependent consumer that needs a second round of the list: repeat(of(1,2)).filter(==2).take(2) *)
Example C14_witness_filter_take_repeat :
  stops_at (c_filter (fun v => v =? 2) (c_take 2)) (cyc 1 [2]) 2%nat 0 4 /\
  run_default nat_gen (KRep [1; 2]) n_lin (c_filter (fun v => v =? 2) (c_take 2)) 30 = Returned 4 2 true.
Proof. vm_compute. split; reflexivity. Qed.

(* right-hand side of C14_filter_stage_any with a predicate that fails on some elements:
   filter(even).take(2) over 0,1,2,... pulls 3 elements *)
Example C14_witness_filter_stage_any :
  filter (fun v => v mod 2 =? 0) (map nat_gen (seq 0 3)) = [0; 2] /\
  (fun v => v mod 2 =? 0) (nat_gen (0 + 2)) = true /\
  stops_at (c_take 2) (fun j => nth j (filter (fun v => v mod 2 =? 0) (map nat_gen (seq 0 3))) 0) 2%nat 0
           (length (filter (fun v => v mod 2 =? 0) (map nat_gen (seq 0 3)))) /\
  run_default nat_gen KIter n_lin (c_filter (fun v => v mod 2 =? 0) (c_take 2)) 10 = Returned 3 2 true.
Proof. vm_compute. repeat split; reflexivity. Qed.

(* multi-source shapes over repeat(of(1,2)) with a value-dependent consumer *)
Example C14_witness_multi_repeat :
  stops_at (c_take_while (fun v => v <? 2) true) (cyc 1 [2]) tt 0 2 /\
  run_default nat_gen (KRep [1; 2]) (n_merge [0; 1]) (c_take_while (fun v => v <? 2) true) 30 = Returned 2 2 true /\
  run_default nat_gen (KRep [1; 2]) (n_combine true) (c_take_while (fun v => v <? 2) true) 30 = Returned 2 2 true /\
  run_default nat_gen (KRep [1; 2]) (n_concat false) (c_take_while (fun v => v <? 2) true) 30 = Returned 2 2 true /\
  run_default nat_gen (KRep [1; 2]) n_take_until c_all 30 = Returned 0 0 true.
Proof. vm_compute. repeat split; reflexivity. Qed.

(* repeat / repeat_value in front of flat_map(of) and switch_map(of), behind concat(of(1,2), .),
   for ANY consumer (the rounds, from any state: Ops/SyncRepNested.v).  The inner list loop of repeat is ONE
   trampoline action: a whole round of the list is pulled -- every element subscribing its inner
   of(x), whose action is only queued -- before the inner actions run. *)
From RxVerif Require Import Ops.SyncRepNested.

(* source.flat_map(lambda x: of(x)): the consumer sees the cyclic stream; if it completes at its
   (n * r + j + 1)-th element (n = |v :: l|, j < n), the run returns and EXACTLY n * (r + 1)
   elements have been pulled: r + 1 whole rounds *)
Theorem C14_flat_map_of_rep_rounds : forall gen C v l r j fuel, (j < length (v :: l))%nat ->
  stops_at C (fun i => nth (i mod length (v :: l)) (v :: l) v) (c_init C) 0 (length (v :: l) * r + S j) ->
  ((3 * length (v :: l) + 2) * r + 2 * length (v :: l) + 2 * j + 5 <= fuel)%nat ->
  exists out, run_default gen (KRep (v :: l)) n_flat_map_of C fuel = Returned (length (v :: l) * S r) out true.
Proof.
  intros gen C v l r j fuel Hj HS Hf.
  apply (fm_rounds gen C v l r j (c_init C) 0 1 [0%nat] 0 0 0 fuel 0); auto.
  rewrite Nat.mul_0_r. exact HS.
Qed.
Print Assumptions C14_flat_map_of_rep_rounds.

(* the same in terms of k alone: n * ceil(k / n) pulls *)
Theorem C14_flat_map_of_rep : forall gen C v l k fuel,
  stops_at C (fun i => nth (i mod length (v :: l)) (v :: l) v) (c_init C) 0 k ->
  (5 * k + 2 * length (v :: l) + 5 <= fuel)%nat ->
  exists out, run_default gen (KRep (v :: l)) n_flat_map_of C fuel
              = Returned (length (v :: l) * ((k + length l) / length (v :: l))) out true.
Proof.
  intros gen C v l k fuel HS Hf. destruct k as [|k']; [destruct HS|].
  set (n := length (v :: l)) in *. assert (Hn : n <> 0%nat) by (subst n; cbn; lia).
  pose proof (Nat.div_mod k' n Hn) as E. pose proof (Nat.mod_upper_bound k' n Hn) as Hj.
  set (r := (k' / n)%nat) in *. set (j := (k' mod n)%nat) in *.
  assert (Hr : (r <= n * r)%nat) by nia.
  assert (Ed : ((S k' + length l) / n = S r)%nat).
  { replace (S k' + length l)%nat with (S r * n + j)%nat by (subst n; cbn [length] in *; lia).
    rewrite Nat.div_add_l by exact Hn. rewrite Nat.div_small by exact Hj. lia. }
  rewrite Ed. apply (C14_flat_map_of_rep_rounds gen C v l r j fuel Hj).
  - fold n. replace (n * r + S j)%nat with (S k') by lia. exact HS.
  - fold n. nia.
Qed.
Print Assumptions C14_flat_map_of_rep.

(* source.switch_map(lambda x: of(x)): every inner but the last of a round is disposed before its
   queued action runs, so the consumer sees the LAST element of the list once per round; if it
   completes at the k-th element of that constant stream the run returns after exactly n * k pulls *)
Theorem C14_switch_map_of_rep : forall gen C v l k fuel,
  stops_at C (fun _ => last (v :: l) v) (c_init C) 0 k -> ((2 * length (v :: l) + 3) * k + 2 <= fuel)%nat ->
  exists out, run_default gen (KRep (v :: l)) n_switch_map_of C fuel = Returned (length (v :: l) * k) out true.
Proof.
  intros gen C v l k fuel HS Hf.
  apply (sw_rounds gen C v l k (c_init C) false 0 1 [0%nat] 0 0 0 fuel); auto.
  eapply stops_at_ext; [|exact HS]. intros d _. apply last_cons_default.
Qed.
Print Assumptions C14_switch_map_of_rep.

(* ... and if it never completes on that constant stream the run never returns, whatever the fuel *)
Theorem C14_switch_map_of_rep_diverges : forall gen C v l fuel,
  never_stops C (fun _ => last (v :: l) v) (c_init C) 0 ->
  run_default gen (KRep (v :: l)) n_switch_map_of C fuel = OutOfFuel.
Proof.
  intros gen C v l fuel HN. apply (sw_never_returns gen C v l fuel); [reflexivity|discriminate|].
  intros k Hk. apply (HN k). rewrite <- Hk. apply feed_ext. intros d _. apply last_cons_default.
Qed.
Print Assumptions C14_switch_map_of_rep_diverges.

(* hence "a consumer that completes on the CYCLIC stream makes switch_map(of) over
   repeat return" is false: take_while(1 < v) completes at the first element of 1, 2, 1, 2, ...
   but sees 2, 2, 2, ... behind switch_map(of) *)
Theorem C14_switch_map_of_rep_cyclic_refuted :
  stops_at (c_take_while (fun v => 1 <? v) false) (fun i => nth (i mod length [1; 2]) [1; 2] 1) tt 0 1
  /\ run_default (fun i => Z.of_nat i) (KRep [1; 2]) n_switch_map_of (c_take_while (fun v => 1 <? v) false) 500 = OutOfFuel
  /\ forall gen fuel, run_default gen (KRep [1; 2]) n_switch_map_of (c_take_while (fun v => 1 <? v) false) fuel = OutOfFuel.
Proof.
  split; [vm_compute; reflexivity|]. split; [vm_compute; reflexivity|].
  intros gen fuel. apply C14_switch_map_of_rep_diverges. intros k. induction k as [|k IH]; [discriminate|].
  cbn [feed c_take_while c_step last Z.ltb Z.compare Pos.compare Pos.compare_cont].
  intros H. apply IH. rewrite <- H. apply feed_ext. intros d _. reflexivity.
Qed.
Print Assumptions C14_switch_map_of_rep_cyclic_refuted.

(* concat(of(1, 2), source): the consumer sees 1, 2, then the cyclic stream; completing at its k-th
   element the run returns after exactly k - 2 pulls (none if k <= 2) *)
Theorem C14_concat_before_rep : forall gen C v l k fuel,
  stops_at C (fun i => match i with
                       | O => 1 | S O => 2
                       | S (S j) => nth (j mod length (v :: l)) (v :: l) v
                       end) (c_init C) 0 k ->
  (3 * k + 12 <= fuel)%nat ->
  exists out, run_default gen (KRep (v :: l)) (n_concat true) C fuel = Returned (k - 2) out true.
Proof. exact concat_before_rep_any. Qed.
Print Assumptions C14_concat_before_rep.

(* the hypotheses are satisfiable; the numbers (the implementation shows the same) *)
Example C14_witness_flat_map_repeat :
  stops_at (c_take 4) (cyc 1 [2; 3]) 4%nat 0 (3 * 1 + 1) /\
  run_default nat_gen (KRep [1; 2; 3]) n_flat_map_of (c_take 4) 21 = Returned 6 4 true /\
  run_default nat_gen (KRep [1; 2; 3]) n_flat_map_of (c_take 1) 30 = Returned 3 1 true /\
  run_default nat_gen (KRep [7]) n_flat_map_of (c_take 3) 30 = Returned 3 3 true.
Proof. vm_compute. repeat split; reflexivity. Qed.

Example C14_witness_switch_map_repeat_last :
  stops_at (c_take 2) (fun _ => last [1; 2; 3] 1) 2%nat 0 2 /\
  run_default nat_gen (KRep [1; 2; 3]) n_switch_map_of (c_take 2) 30 = Returned 6 2 true /\
  stops_at (c_take_while (fun v => v <? 3) false) (fun _ => last [1; 2; 3] 1) tt 0 1 /\
  run_default nat_gen (KRep [1; 2; 3]) n_switch_map_of (c_take_while (fun v => v <? 3) false) 30 = Returned 3 0 true.
Proof. vm_compute. repeat split; reflexivity. Qed.

Example C14_witness_concat_before_repeat :
  stops_at (c_take 7) (concat_stream 1 [2; 3]) 7%nat 0 7 /\
  run_default nat_gen (KRep [1; 2; 3]) (n_concat true) (c_take 7) 40 = Returned 5 7 true /\
  run_default nat_gen (KRep [1; 2; 3]) (n_concat true) (c_take 2) 40 = Returned 0 2 true /\
  run_default nat_gen (KRep [1; 2; 3]) (n_concat true) (c_take 3) 40 = Returned 1 3 true.
Proof. vm_compute. repeat split; reflexivity. Qed.
