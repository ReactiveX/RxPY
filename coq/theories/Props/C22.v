(* C22 -- a ReplaySubject replays exactly its retained values, in order.
   Model: Subjects/ReplaySched.v -- ReplaySubject + ScheduledObserver + scheduler
   queue (items, ids, cancellation) + the AutoDetachObserver wrapper, in BOTH
   scheduler modes:
     sync = false  a virtual-time scheduler whose clock the history controls,
                   drained by the driver after every top-level call;
     sync = true   the DEFAULT CurrentThreadScheduler (trampoline): a drain
                   scheduled from a top-level call runs inline, inside the call
                   and BETWEEN the per-observer steps of one emission; one
                   scheduled from inside an observer callback is queued behind
                   the running drain; top-level subscribe() is itself a
                   trampoline action.
   Tied to reactivex/subject/replaysubject.py, observer/scheduledobserver.py and
   scheduler/trampoline*.py by the K1 correspondence of harness/props/C22.py in
   both modes.  (Subjects/Replay.v is a virtual-time-only engine whose steps are
   runs of this one in virtual-time mode, ReplayFacts.rstep_sim.) *)
From RxVerif Require Import Base.Prelude Ops.Machine Subjects.Subject Subjects.Family Subjects.Replay
  Subjects.ReplaySpec Subjects.ReplaySched Subjects.SubjectFacts Subjects.ReplayFacts Subjects.ReplayTreeFacts
  Subjects.ReplayLiveFacts Subjects.ReplaySchedFacts Subjects.ReplayDrainFacts Subjects.ReplayTermFacts
  Subjects.ReplayTreeTermFacts.

(* ---- the main statements: for BOTH scheduler modes, ARBITRARY call trees
        (observers that subscribe, unsubscribe, emit, complete, dispose from
        inside their callbacks -- in sync mode re-entrantly, while the emission
        that called them is still half-way through its observers), every buffer
        size (None, 0, 1, ...), every window, every amount of fuel ----

   [xview b w o false rg_init calls] is what observer o is entitled to, computed
   from the sequence of calls alone (Subjects/ReplaySpec.v): nothing before its
   subscribe call; at that call the RETAINED values -- the last buffer_size values
   whose age at subscription is <= window -- in order, then the terminal
   notification if the subject had ended (only DisposedException after
   dispose()); afterwards the notification of every emission that takes effect,
   in the order the calls were MADE (a call made from inside a callback counts
   where it is made).

   What o has received at any moment is a PREFIX of it: per-subscriber order =
   the subject's retained order; nothing duplicated, reordered or invented. *)
Theorem C22_received_is_prefix_of_replay_then_later :
  forall (A : Type) (sync : bool) (react : nat -> nat -> list (@rop A)) (bs w : option Z)
         (top : list (@rop A)) (fuel o : nat),
    let c := srun sync react fuel (sinit_cfg sync bs w top) in
    prefix (rview o (slog_of c)) (xview (bufsize_of bs) w o false rg_init (ops_of (slog_of c))).
Proof. intros. subst c. rewrite sinit_cfg_is_xinit. apply xsched_prefix. Qed.
Print Assumptions C22_received_is_prefix_of_replay_then_later.

(* Nothing is lost: as long as the observer's AutoDetachObserver is not stopped,
   received ++ handed to the wrapper ++ queued in its ScheduledObserver ++ the
   terminal the running on_error/on_completed loop is about to queue  IS  its
   whole entitlement -- at every moment, also in the middle of an emission. *)
Theorem C22_nothing_lost :
  forall (A : Type) (sync : bool) (react : nat -> nat -> list (@rop A)) (bs w : option Z)
         (top : list (@rop A)) (fuel o : nat) (os : @rostate A),
    let c := srun sync react fuel (sinit_cfg sync bs w top) in
    sc_obs c o = Some os -> ra_stopped os = false ->
    rview o (slog_of c) ++ sinflight o (sc_k c) ++ so_queue (r_so os) ++ spend o (sc_k c)
    = xview (bufsize_of bs) w o false rg_init (ops_of (slog_of c)).
Proof. intros A sync react bs w top fuel o os c. subst c. rewrite sinit_cfg_is_xinit. apply xsched_nothing_lost. Qed.
Print Assumptions C22_nothing_lost.

(* Completeness (no lost wake-up of ScheduledObserver.ensure_active / run, in
   either mode): when a run has finished, an observer that has not unsubscribed
   (its wrapper is still live, or it was stopped by a terminal notification) has
   received EXACTLY its entitlement. *)
Theorem C22_finished_run_delivers_everything :
  forall (A : Type) (sync : bool) (react : nat -> nat -> list (@rop A)) (bs w : option Z)
         (top : list (@rop A)) (fuel o : nat) (os : @rostate A),
    let c := srun sync react fuel (sinit_cfg sync bs w top) in
    sc_k c = [] -> sc_obs c o = Some os ->
    (ra_stopped os = false \/ has_term (rview o (slog_of c)) = true) ->
    rview o (slog_of c) = xview (bufsize_of bs) w o false rg_init (ops_of (slog_of c)).
Proof.
  intros A sync react bs w top fuel o os c. subst c. rewrite sinit_cfg_is_xinit. apply xsched_complete.
  intros ->. apply xclosed_xprog_of.
Qed.
Print Assumptions C22_finished_run_delivers_everything.

(* TERMINATION on histories of top-level calls (observers that do nothing in their callbacks:
   the empty reaction table), in BOTH scheduler modes, every buffer size and window: with enough
   fuel the run is finished -- this discharges the hypothesis [sc_k c = []] of the completeness
   theorem above (measure: weighted pending instructions + queued ScheduledObserver items +
   length of the scheduler queue) *)
Theorem C22_flat_histories_terminate :
  forall (A : Type) (sync : bool) (bs w : option Z) (top : list (@rop A)),
  exists fuel0, forall fuel, (fuel0 <= fuel)%nat ->
    sc_k (srun sync (rreact_tbl []) fuel (sinit_cfg sync bs w top)) = [].
Proof. exact (fun A sync bs w top => trees_terminate sync bs w top []). Qed.
Print Assumptions C22_flat_histories_terminate.

(* ... so on such histories every observer that has not unsubscribed ends up with EXACTLY the
   retained values, the terminal notification if any, and every later notification *)
Theorem C22_flat_histories_deliver_everything :
  forall (A : Type) (sync : bool) (bs w : option Z) (top : list (@rop A)),
  exists fuel0, forall fuel, (fuel0 <= fuel)%nat ->
    let c := srun sync (rreact_tbl []) fuel (sinit_cfg sync bs w top) in
    sc_k c = [] /\
    forall o os, sc_obs c o = Some os ->
      (ra_stopped os = false \/ has_term (rview o (slog_of c)) = true) ->
      rview o (slog_of c) = xview (bufsize_of bs) w o false rg_init (ops_of (slog_of c)).
Proof. exact (fun A sync bs w top => trees_deliver_everything sync bs w top []). Qed.
Print Assumptions C22_flat_histories_deliver_everything.

(* the same termination for every program of top-level calls and EXPLICIT drains *)
Theorem C22_explicit_programs_terminate :
  forall (A : Type) (sync : bool) (bs w : option Z) (prog : list (xtop A)),
  exists fuel0, forall fuel, (fuel0 <= fuel)%nat ->
    sc_k (srun sync (rreact_tbl []) fuel (xinit_cfg bs w prog)) = [].
Proof. exact (fun A sync bs w prog => tree_programs_terminate sync bs w prog []). Qed.
Print Assumptions C22_explicit_programs_terminate.

(* ---- TERMINATION ON CALL TREES.  A tree is a history of top-level calls plus a reaction TABLE
        [tbl] (observer o answers its k-th callback with the calls [nth k sc []] of its script;
        beyond the script it is silent).  The wrapper's call counter grows at every delivery and
        an observer is never re-created, so every table entry is used AT MOST ONCE in a run: the
        total re-emission budget of a table is finite and the run of EVERY tree finishes, in
        both scheduler modes, for every buffer size and window.  Measure: the measure of the flat
        case + (weight of a call) * (number of calls in the table entries not used yet). ---- *)
Theorem C22_trees_terminate :
  forall (A : Type) (sync : bool) (bs w : option Z) (top : list (@rop A))
         (tbl : list (nat * list (list (@rop A)))),
  exists fuel0, forall fuel, (fuel0 <= fuel)%nat ->
    sc_k (srun sync (rreact_tbl tbl) fuel (sinit_cfg sync bs w top)) = [].
Proof. exact (@trees_terminate). Qed.
Print Assumptions C22_trees_terminate.

(* the function the harness evaluates reports `finished` for every history (tree) *)
Theorem C22_run_shistory_finishes :
  forall (A : Type) (sync : bool) (bs w : option Z) (h : rhistory A),
  exists fuel0, forall fuel, (fuel0 <= fuel)%nat -> snd (run_shistory sync bs w fuel h) = true.
Proof. exact (@run_shistory_finishes). Qed.
Print Assumptions C22_run_shistory_finishes.

(* ... so on call trees the delivery theorem needs no hypothesis `the run has finished`: on every
   call tree, with enough fuel, the run is finished and every observer that has not unsubscribed
   has received EXACTLY the retained values, the terminal notification if any, and every later
   notification (what [C22_trees_terminate] and [C22_finished_run_delivers_everything] say together
   at the same fuel; proved as ReplayTreeTermFacts.trees_deliver_everything) *)
Theorem C22_trees_deliver_everything :
  forall (A : Type) (sync : bool) (bs w : option Z) (top : list (@rop A))
         (tbl : list (nat * list (list (@rop A)))),
  exists fuel0, forall fuel, (fuel0 <= fuel)%nat ->
    let c := srun sync (rreact_tbl tbl) fuel (sinit_cfg sync bs w top) in
    sc_k c = [] /\
    forall o os, sc_obs c o = Some os ->
      (ra_stopped os = false \/ has_term (rview o (slog_of c)) = true) ->
      rview o (slog_of c) = xview (bufsize_of bs) w o false rg_init (ops_of (slog_of c)).
Proof. exact (@trees_deliver_everything). Qed.
Print Assumptions C22_trees_deliver_everything.

(* the same for every PROGRAM of calls and explicit drains over a reaction table *)
Theorem C22_tree_programs_terminate :
  forall (A : Type) (sync : bool) (bs w : option Z) (prog : list (xtop A))
         (tbl : list (nat * list (list (@rop A)))),
  exists fuel0, forall fuel, (fuel0 <= fuel)%nat ->
    sc_k (srun sync (rreact_tbl tbl) fuel (xinit_cfg bs w prog)) = [].
Proof. exact (@tree_programs_terminate). Qed.
Print Assumptions C22_tree_programs_terminate.

Theorem C22_run_xhistory_finishes :
  forall (A : Type) (sync : bool) (bs w : option Z) (h : xhistory A),
  exists fuel0, forall fuel, (fuel0 <= fuel)%nat -> snd (run_xhistory sync bs w fuel h) = true.
Proof. exact (@run_xhistory_finishes). Qed.
Print Assumptions C22_run_xhistory_finishes.

Theorem C22_tree_programs_deliver_everything :
  forall (A : Type) (sync : bool) (bs w : option Z) (prog : list (xtop A))
         (tbl : list (nat * list (list (@rop A)))),
  (sync = false -> xclosed prog = true) ->
  exists fuel0, forall fuel, (fuel0 <= fuel)%nat ->
    let c := srun sync (rreact_tbl tbl) fuel (xinit_cfg bs w prog) in
    sc_k c = [] /\
    forall o os, sc_obs c o = Some os ->
      (ra_stopped os = false \/ has_term (rview o (slog_of c)) = true) ->
      rview o (slog_of c) = xview (bufsize_of bs) w o false rg_init (ops_of (slog_of c)).
Proof. exact (@tree_programs_deliver_everything). Qed.
Print Assumptions C22_tree_programs_deliver_everything.

(* THE EXACT CONDITION, for an arbitrary reaction FUNCTION [react o k] (not necessarily a table):
   finite support -- observers below B are silent from their K-th callback on and subscribe only
   observers below B -- and a program that subscribes only observers below B.  Every table
   satisfies it ([C22_tables_have_finite_support]). *)
Theorem C22_finite_support_terminates :
  forall (A : Type) (sync : bool) (react : nat -> nat -> list (@rop A)) (B K : nat),
    finite_support react B K ->
    forall (bs w : option Z) (k0 : list (@sinstr A)), (sub_bound k0 <= B)%nat ->
    exists fuel0, forall fuel, (fuel0 <= fuel)%nat ->
      sc_k (srun sync react fuel (SCfg (rinit_state bs w) (fun _ => None) k0 [])) = [].
Proof. exact (@tree_program_terminates). Qed.
Print Assumptions C22_finite_support_terminates.

Theorem C22_tables_have_finite_support :
  forall (A : Type) (t : list (nat * list (list (@rop A)))) (B : nat),
    (tbl_B t <= B)%nat -> finite_support (rreact_tbl t) B (tbl_K t).
Proof. exact (@tbl_finite_support). Qed.
Print Assumptions C22_tables_have_finite_support.

(* without it termination FAILS: the reaction function `answer every callback with one more
   on_next` (which no finite table expresses) never finishes, for every buffer size and window,
   in either scheduler mode and for EVERY amount of fuel -- a divergence theorem, not a test *)
Theorem C22_echo_diverges :
  forall (A : Type) (v : A) (sync : bool) (bs w : option Z) (fuel : nat),
    sc_k (srun sync (echo v) fuel (sinit_cfg sync bs w [RSub 0%nat; RNext v])) <> [].
Proof. exact (@echo_diverges). Qed.
Print Assumptions C22_echo_diverges.

Theorem C22_termination_for_arbitrary_reaction_functions_refuted :
  ~ (forall (sync : bool) (react : nat -> nat -> list (@rop Z)) (bs w : option Z) (top : list (@rop Z)),
       exists fuel, sc_k (srun sync react fuel (sinit_cfg sync bs w top)) = []).
Proof. exact termination_for_arbitrary_reaction_functions_refuted. Qed.
Print Assumptions C22_termination_for_arbitrary_reaction_functions_refuted.

(* ---- the retention policy: the code keeps a queue that it trims (by count,
        then by age) at every on_next, subscribe and terminal.  [qinv] ties that
        queue to the complete history [all] of accepted (time, value) pairs; it
        holds initially, is preserved by every action of the code, and implies
        that trimming at any later time yields exactly [retained]. ---- *)
Theorem C22_policy_init :
  forall (A : Type) (b : Z) (w : option Z) (clock : Z), @qinv A b w clock [] [].
Proof. exact (@qinv_init). Qed.
Print Assumptions C22_policy_init.

Theorem C22_policy_on_next :
  forall (A : Type) (b : Z) (w : option Z) (clock : Z) (q all : list (Z * A)) (v : A),
    qinv b w clock q all -> qinv b w clock (otrim b w clock (q ++ [(clock, v)])) (all ++ [(clock, v)]).
Proof. exact (fun A b w clock q all v H => qinv_trim b w clock _ _ (qinv_append b w clock q all v H)). Qed.
Print Assumptions C22_policy_on_next.

Theorem C22_policy_trim :
  forall (A : Type) (b : Z) (w : option Z) (clock : Z) (q all : list (Z * A)),
    qinv b w clock q all -> qinv b w clock (otrim b w clock q) all.
Proof. exact (@qinv_trim). Qed.
Print Assumptions C22_policy_trim.

Theorem C22_policy_clock_advances :
  forall (A : Type) (b : Z) (w : option Z) (clock clock' : Z) (q all : list (Z * A)),
    qinv b w clock q all -> clock <= clock' -> qinv b w clock' q all.
Proof. exact (@qinv_advance). Qed.
Print Assumptions C22_policy_clock_advances.

(* what a subscriber arriving at time [now] is handed: the last b values of the
   whole history whose age now - t is <= w  (age == window is retained) *)
Theorem C22_policy_replay_is_retained :
  forall (A : Type) (b : Z) (w : option Z) (clock : Z) (q all : list (Z * A)) (now : Z),
    qinv b w clock q all -> clock <= now ->
    otrim b w now q = filter (fun x => negb (too_old now w (fst x))) (skipn (length all - Z.to_nat b) all).
Proof. exact (@qinv_replay). Qed.
Print Assumptions C22_policy_replay_is_retained.

(* ---- grammar, unsubscription, stopped wrappers: both modes, arbitrary call trees ---- *)

(* each observer's received sequence obeys the grammar *)
Theorem C22_views_wellformed :
  forall (A : Type) (sync : bool) (react : nat -> nat -> list (@rop A)) (bs w : option Z)
         (top : list (@rop A)) (fuel o : nat),
    wellformed (rview o (slog_of (srun sync react fuel (sinit_cfg sync bs w top)))) = true.
Proof. intros. rewrite sinit_cfg_is_xinit. apply xsched_wellformed. Qed.
Print Assumptions C22_views_wellformed.

(* unsubscribing takes effect at once: what is still queued in the observer's
   ScheduledObserver or scheduled on the scheduler is never delivered *)
Theorem C22_unsubscribed_gets_nothing_more :
  forall (A : Type) (sync : bool) (react : nat -> nat -> list (@rop A)) top s m k l o os n,
    m o = Some os -> r_handle os = true ->
    rview o (slog_of (srun sync react n (SCfg s m (SIOp top (RUnsub o) :: k) l))) = rview o (rev l).
Proof. exact (@sunsubscribed_gets_nothing_more). Qed.
Print Assumptions C22_unsubscribed_gets_nothing_more.

Theorem C22_stopped_wrapper_never_delivers :
  forall (A : Type) (sync : bool) (react : nat -> nat -> list (@rop A)) n c o os,
    sc_obs c o = Some os -> ra_stopped os = true ->
    rview o (slog_of (srun sync react n c)) = rview o (slog_of c).
Proof. exact (@sstopped_final). Qed.
Print Assumptions C22_stopped_wrapper_never_delivers.

(* ---- the scheduler drained EXPLICITLY: the top level is an arbitrary PROGRAM of calls
        and drains ([XOp p] / [XDrain], Subjects/ReplaySched.v), so unsubscribe, further
        emissions, another subscribe or a clock advance happen while replay items are
        still queued on the scheduler.  The three main statements hold for every program
        (either scheduler mode, arbitrary call trees); the two fixed disciplines above
        are the programs [xprog_of sync top]. ---- *)
Theorem C22_fixed_drain_disciplines_are_programs :
  forall (A : Type) (sync : bool) (bs w : option Z) (top : list (@rop A)),
    sinit_cfg sync bs w top = xinit_cfg bs w (xprog_of sync top).
Proof. exact (@sinit_cfg_is_xinit). Qed.
Print Assumptions C22_fixed_drain_disciplines_are_programs.

Theorem C22_explicit_drains_received_is_prefix_of_replay_then_later :
  forall (A : Type) (sync : bool) (react : nat -> nat -> list (@rop A)) (bs w : option Z)
         (prog : list (xtop A)) (fuel o : nat),
    let c := srun sync react fuel (xinit_cfg bs w prog) in
    prefix (rview o (slog_of c)) (xview (bufsize_of bs) w o false rg_init (ops_of (slog_of c))).
Proof. exact (@xsched_prefix). Qed.
Print Assumptions C22_explicit_drains_received_is_prefix_of_replay_then_later.

Theorem C22_explicit_drains_nothing_lost :
  forall (A : Type) (sync : bool) (react : nat -> nat -> list (@rop A)) (bs w : option Z)
         (prog : list (xtop A)) (fuel o : nat) (os : @rostate A),
    let c := srun sync react fuel (xinit_cfg bs w prog) in
    sc_obs c o = Some os -> ra_stopped os = false ->
    rview o (slog_of c) ++ sinflight o (sc_k c) ++ so_queue (r_so os) ++ spend o (sc_k c)
    = xview (bufsize_of bs) w o false rg_init (ops_of (slog_of c)).
Proof. exact (@xsched_nothing_lost). Qed.
Print Assumptions C22_explicit_drains_nothing_lost.

(* completeness needs the scheduler to be run after the last call: [xclosed prog] = every
   call of the program has a drain somewhere behind it (not needed on the default
   scheduler, which drains inline) *)
Theorem C22_explicit_drains_finished_run_delivers_everything :
  forall (A : Type) (sync : bool) (react : nat -> nat -> list (@rop A)) (bs w : option Z)
         (prog : list (xtop A)) (fuel o : nat) (os : @rostate A),
    (sync = false -> xclosed prog = true) ->
    let c := srun sync react fuel (xinit_cfg bs w prog) in
    sc_k c = [] -> sc_obs c o = Some os ->
    (ra_stopped os = false \/ has_term (rview o (slog_of c)) = true) ->
    rview o (slog_of c) = xview (bufsize_of bs) w o false rg_init (ops_of (slog_of c)).
Proof. exact (@xsched_complete). Qed.
Print Assumptions C22_explicit_drains_finished_run_delivers_everything.

Theorem C22_explicit_drains_views_wellformed :
  forall (A : Type) (sync : bool) (react : nat -> nat -> list (@rop A)) (bs w : option Z)
         (prog : list (xtop A)) (fuel o : nat),
    wellformed (rview o (slog_of (srun sync react fuel (xinit_cfg bs w prog)))) = true.
Proof. exact (@xsched_wellformed). Qed.
Print Assumptions C22_explicit_drains_views_wellformed.

(* ---- witnesses (pool ids; clock in ticks) ---- *)
(* virtual time; buffer 2, window 2: values at t=0,1,1; subscriber at t=3 gets the last two
   whose age (2) equals the window -- retained; at t=4 (age 3) nothing *)
Example C22_witness_window_boundary :
  run_shistory false (Some 2) (Some 2) 1000
    ([RNext 0; RAdvance 1; RNext 1; RNext 2; RAdvance 2; RSub 0%nat; RAdvance 1; RSub 1%nat; RNext 3], [])
  = ([REOp (RNext 0); REOp (RAdvance 1); REOp (RNext 1); REOp (RNext 2); REOp (RAdvance 2);
      REOp (RSub 0%nat); REGot 0%nat (Next 1); REGot 0%nat (Next 2); REOp (RAdvance 1); REOp (RSub 1%nat);
      REOp (RNext 3); REGot 0%nat (Next 3); REGot 1%nat (Next 3)], true).
Proof. vm_compute. reflexivity. Qed.

(* buffer_size 0 retains nothing; the terminal is still replayed (default scheduler) *)
Example C22_witness_buffer_zero :
  run_shistory true (Some 0) None 1000 ([RNext 0; RNext 1; RDone; RSub 0%nat], [])
  = ([REOp (RNext 0); REOp (RNext 1); REOp RDone; REOp (RSub 0%nat); REGot 0%nat Done], true).
Proof. vm_compute. reflexivity. Qed.

(* re-entrancy on the DEFAULT scheduler: observer 0 emits 6 from inside its callback for 5
   while the emission of 5 has not yet reached observer 1's ensure_active.  Because
   _on_next_core queues 5 on EVERY ScheduledObserver before it activates any of them,
   observer 1 still sees 5 before 6.  (Merging the two loops of _on_next_core gives
   observer 1 the sequence 6, 5: the seeded change C22-replay-single-loop.) *)
Example C22_witness_reentrant_default_scheduler :
  run_shistory true None None 1000 ([RSub 0%nat; RSub 1%nat; RNext 5], [(0%nat, [[RNext 6]])])
  = ([REOp (RSub 0%nat); REOp (RSub 1%nat); REOp (RNext 5); REGot 0%nat (Next 5); REOp (RNext 6);
      REGot 1%nat (Next 5); REGot 0%nat (Next 6); REGot 1%nat (Next 6)], true).
Proof. vm_compute. reflexivity. Qed.

(* the same tree on the virtual-time scheduler *)
Example C22_witness_reentrant_virtual_time :
  run_shistory false None None 1000 ([RSub 0%nat; RSub 1%nat; RNext 5], [(0%nat, [[RNext 6]])])
  = ([REOp (RSub 0%nat); REOp (RSub 1%nat); REOp (RNext 5); REGot 0%nat (Next 5); REOp (RNext 6);
      REGot 1%nat (Next 5); REGot 0%nat (Next 6); REGot 1%nat (Next 6)], true).
Proof. vm_compute. reflexivity. Qed.

(* completion from inside a callback on the default scheduler: nobody loses the value *)
Example C22_witness_reentrant_completion :
  run_shistory true None None 1000 ([RSub 0%nat; RSub 1%nat; RNext 5], [(0%nat, [[RDone]])])
  = ([REOp (RSub 0%nat); REOp (RSub 1%nat); REOp (RNext 5); REGot 0%nat (Next 5); REOp RDone;
      REGot 1%nat (Next 5); REGot 0%nat Done; REGot 1%nat Done], true).
Proof. vm_compute. reflexivity. Qed.

(* the entitlement of the boundary witness, computed by the specification alone *)
Example C22_witness_spec :
  let calls := [RNext 0; RAdvance 1; RNext 1; RNext 2; RAdvance 2; RSub 0%nat; RAdvance 1; RSub 1%nat; RNext 3] in
  xview 2 (Some 2) 0%nat false rg_init calls = [Next 1; Next 2; Next 3] /\
  xview 2 (Some 2) 1%nat false rg_init calls = [Next 3].
Proof. vm_compute. split; reflexivity. Qed.

(* the hypotheses of the completeness theorem are satisfiable (default scheduler) *)
Example C22_witness_finished :
  let c := srun true (rreact_tbl [(0%nat, [[RNext 6]])]) 1000 (sinit_cfg true None None [RSub 0%nat; RSub 1%nat; RNext 5]) in
  sc_k c = [] /\ (exists os, sc_obs c 1%nat = Some os /\ ra_stopped os = false) /\
  rview 1%nat (slog_of c) = [Next 5; Next 6].
Proof. vm_compute. split; [reflexivity|]. split; [eexists; split; reflexivity|reflexivity]. Qed.

(* explicit drains: subscribe, then unsubscribe BEFORE the scheduler runs -- the queued replay
   (two values) is cancelled, nothing is delivered *)
Example C22_witness_unsubscribe_before_the_scheduler_runs :
  run_xhistory false None None 1000
    ([XOp (RNext 0); XOp (RNext 1); XOp (RSub 0%nat); XOp (RUnsub 0%nat); XDrain], [])
  = ([REOp (RNext 0); REOp (RNext 1); REOp (RSub 0%nat); REOp (RUnsub 0%nat)], true).
Proof. vm_compute. reflexivity. Qed.

(* explicit drains: an emission, a second subscriber and a clock advance while observer 0's
   replay is still queued; one drain delivers everything, round-robin between the two
   ScheduledObservers, each in its own order *)
Example C22_witness_calls_while_replay_is_queued :
  run_xhistory false None None 1000
    ([XOp (RNext 0); XOp (RSub 0%nat); XOp (RNext 1); XOp (RSub 1%nat); XOp (RAdvance 1); XDrain], [])
  = ([REOp (RNext 0); REOp (RSub 0%nat); REOp (RNext 1); REOp (RSub 1%nat); REOp (RAdvance 1);
      REGot 0%nat (Next 0); REGot 1%nat (Next 0); REGot 0%nat (Next 1); REGot 1%nat (Next 1)], true).
Proof. vm_compute. reflexivity. Qed.

(* explicit drains: the retained set is fixed AT subscription (age 2 = window: retained) although
   the replay is only delivered 5 ticks later; observer 1 (subscribing at t=8) gets only the value of t=7 *)
Example C22_witness_replay_fixed_at_subscription :
  run_xhistory false (Some 2) (Some 2) 1000
    ([XOp (RNext 0); XOp (RAdvance 2); XOp (RSub 0%nat); XOp (RAdvance 5); XOp (RNext 1); XDrain;
      XOp (RAdvance 1); XOp (RSub 1%nat); XDrain], [])
  = ([REOp (RNext 0); REOp (RAdvance 2); REOp (RSub 0%nat); REOp (RAdvance 5); REOp (RNext 1);
      REGot 0%nat (Next 0); REGot 0%nat (Next 1); REOp (RAdvance 1); REOp (RSub 1%nat); REGot 1%nat (Next 1)], true).
Proof. vm_compute. reflexivity. Qed.

(* the hypotheses of the explicit-drain completeness theorem are satisfiable *)
Example C22_witness_explicit_finished :
  let prog := [XOp (RNext 0); XOp (RSub 0%nat); XOp (RNext 1); XOp (RSub 1%nat); XDrain] in
  let c := srun false (rreact_tbl []) 1000 (xinit_cfg None None prog) in
  xclosed prog = true /\ sc_k c = [] /\ (exists os, sc_obs c 1%nat = Some os /\ ra_stopped os = false) /\
  rview 1%nat (slog_of c) = [Next 0; Next 1].
Proof. vm_compute. split; [reflexivity|]. split; [reflexivity|]. split; [eexists; split; reflexivity|reflexivity]. Qed.

(* a tree whose table re-emits from two observers, with a subscription made from inside a callback:
   the run finishes and everybody holds exactly its entitlement (the composed theorem at work) *)
Example C22_witness_tree_finishes :
  let tbl := [(0%nat, [[RNext 6; RSub 2%nat]; [RNext 7]]); (1%nat, [[]; [RNext 8]])] in
  let c := srun true (rreact_tbl tbl) 1000 (sinit_cfg true None None [RSub 0%nat; RSub 1%nat; RNext 5]) in
  sc_k c = [] /\ rview 0%nat (slog_of c) = [Next 5; Next 6; Next 7; Next 8] /\
  rview 2%nat (slog_of c) = [Next 5; Next 6; Next 7; Next 8] /\
  finite_support (rreact_tbl tbl) 3 2.
Proof.
  cbv zeta. split; [vm_compute; reflexivity|]. split; [vm_compute; reflexivity|]. split; [vm_compute; reflexivity|].
  refine (tbl_finite_support [(0%nat, [[RNext 6; RSub 2%nat]; [RNext 7]]); (1%nat, [[]; [RNext 8]])] 3%nat _).
  apply Nat.leb_le. vm_compute. reflexivity.
Qed.
