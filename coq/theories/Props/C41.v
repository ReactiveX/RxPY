(* C41 -- future, callback and blocking bridges keep their contracts.
   Outcome models (Ops/Bridges.v, written from observable/{fromfuture,toasync,
   start,startasync,fromcallback}.py, operators/_tofuture.py, run.py and
   Observable.__await__): a future is a one-shot cell; a model maps the
   sequence of actions at the bridge's boundary to the notifications (with the
   position of the action during which they arrive), the final state of the
   future and the positions of the library's cancel()/dispose calls.
   Theorems hold for ALL continuations [rest]/[junk] of the action sequence. *)
From RxVerif Require Import Base.Prelude Base.CaseLib Ops.Machine Ops.MachineFacts Ops.Bridges Ops.BridgesFacts Ops.BridgesRun Ops.BridgesFacts2.

(* ---- from_future ---------------------------------------------------------------- *)
Theorem C41_from_future_result : forall v rest,
  from_future FPending (ASetResult v :: rest) = ([(1%nat, Next v); (1%nat, Done)], [1%nat], FResult v).
Proof. exact from_future_result. Qed.
Theorem C41_from_future_exception : forall e rest,
  from_future FPending (ASetExn e :: rest) = ([(1%nat, Err e)], [1%nat], FExn e).
Proof. exact from_future_exception. Qed.
Theorem C41_from_future_cancellation : forall rest,
  from_future FPending (ACancel :: rest) = ([(1%nat, Err CANCELLED)], [1%nat], FCancelled).
Proof. exact from_future_cancelled. Qed.
Theorem C41_from_future_unsubscribed_first : forall rest,
  from_future FPending (ADispose :: rest) = ([], [1%nat], FCancelled).
Proof. exact from_future_dispose_first. Qed.
Theorem C41_from_future_already_done : forall init acts, settled init ->
  from_future init acts = (settled_notes 0 init, [0%nat], init).
Proof. exact from_future_already_done. Qed.
Theorem C41_from_future_at_most_one_outcome : forall acts,
  let '(ns, cs, fin) := from_future FPending acts in
  (ns = [] /\ cs = [] /\ fin = FPending)
  \/ (exists j, (ns = [] \/ ns = settled_notes j fin) /\ cs = [j] /\ settled fin).
Proof. exact from_future_at_most_one_outcome. Qed.
Print Assumptions C41_from_future_result.
Print Assumptions C41_from_future_exception.
Print Assumptions C41_from_future_cancellation.
Print Assumptions C41_from_future_unsubscribed_first.
Print Assumptions C41_from_future_already_done.
Print Assumptions C41_from_future_at_most_one_outcome.

(* ---- to_future / await / run ------------------------------------------------------ *)
Theorem C41_to_future_last_element : forall xs t junk, t <> TNever ->
  to_future (map TSrc (events xs t ++ junk)) = ([S (length xs)], expected_future xs t).
Proof. exact to_future_spec. Qed.
Print Assumptions C41_to_future_last_element.

(* [last_opt], through which [expected_future] reads "the last element": of a non-empty sequence
   it is the final element, whatever the default *)
Theorem C41_to_future_last_of_nonempty : forall xs x d, last_opt (xs ++ [x]) d = Some x.
Proof. intros xs x d. unfold last_opt. now rewrite fold_left_app. Qed.
Print Assumptions C41_to_future_last_of_nonempty.

Theorem C41_to_future_stays_pending : forall xs, to_future (map TSrc (events xs TNever)) = ([], FPending).
Proof. exact to_future_pending. Qed.
Print Assumptions C41_to_future_stays_pending.

Theorem C41_to_future_cancelled_by_owner : forall xs junk,
  to_future (map TSrc (map Next xs) ++ TCancelFuture :: map TSrc junk) = ([S (length xs)], FCancelled).
Proof. intros xs junk. unfold to_future. rewrite tf_run_nexts. cbn [tf_run tf_step]. now rewrite tf_run_dead. Qed.
Print Assumptions C41_to_future_cancelled_by_owner.

Theorem C41_run_and_await : forall xs t junk, t <> TNever ->
  run_outcome (events xs t ++ junk)
  = match t with
    | TDone => match last_opt xs None with Some v => Returns v | None => Raises NO_ELEMENTS end
    | TErr e => Raises e
    | TNever => Blocks
    end.
Proof. exact run_spec. Qed.
Print Assumptions C41_run_and_await.

Example C41_examples :
  run_outcome (events [4; 5; 6] TDone) = Returns 6 /\ run_outcome (events [] TDone) = Raises NO_ELEMENTS
  /\ run_outcome (events [4] (TErr 11)) = Raises 11 /\ run_outcome (events [4] TNever) = Blocks.
Proof. vm_compute. auto. Qed.

(* a sequence without a terminal notification: the caller stays blocked *)
Theorem C41_run_blocks : forall xs, run_outcome (events xs TNever) = Blocks.
Proof. exact run_blocks. Qed.
Print Assumptions C41_run_blocks.

(* run() has a model of its own, written from run.py (Ops/BridgesRun.v: result, has_result,
   exception tested with `is not None`, done, and the stopped flag of the AutoDetachObserver that
   subscribe() puts around the three callbacks).  It agrees with the to_future description on ALL
   notification sequences (no grammar assumed) *)
Theorem C41_run_model_is_run_outcome : forall ins, run_model ins = run_outcome ins.
Proof. exact run_model_is_run_outcome. Qed.
Print Assumptions C41_run_model_is_run_outcome.

Theorem C41_run_model_spec : forall xs t junk, t <> TNever ->
  run_model (events xs t ++ junk)
  = match t with
    | TDone => match last_opt xs None with Some v => Returns v | None => Raises NO_ELEMENTS end
    | TErr e => Raises e
    | TNever => Blocks
    end.
Proof. intros xs t junk H. rewrite run_model_is_run_outcome. exact (run_spec xs t junk H). Qed.
Print Assumptions C41_run_model_spec.

Theorem C41_run_model_blocks : forall xs, run_model (events xs TNever) = Blocks.
Proof. intros xs. rewrite run_model_is_run_outcome. apply run_blocks. Qed.
Print Assumptions C41_run_model_blocks.

(* a falsy exception (id 0) and a falsy last element (0) are an exception / a result like any other;
   elements after the terminal notification are dropped *)
Example C41_run_model_examples :
  run_model [Next 4; Err 0; Next 5] = Raises 0 /\ run_model [Next 4; Next 0; Done; Next 7; Err 3] = Returns 0
  /\ run_model [Done] = Raises NO_ELEMENTS /\ run_model [Next 1; Next 2] = Blocks.
Proof. vm_compute. auto. Qed.

(* ---- to_async / start ----------------------------------------------------------------- *)
Theorem C41_to_async_result : forall r,
  to_async r [ARun; ASubscribe] = result_notes 1 r /\ to_async r [ASubscribe; ARun] = result_notes 1 r.
Proof. intros r. split; cbn; now rewrite app_nil_r. Qed.
Theorem C41_to_async_single_result : forall r acts,
  to_async r acts = [] \/ exists k, to_async r acts = result_notes k r.
Proof. intros r acts. apply ta_run_single_result. Qed.
Theorem C41_to_async_unsubscribed_before_run : forall r rest, to_async r (ASubscribe :: AUnsubscribe :: rest) = [].
Proof. intros r rest. exact (ta_run_stopped r rest false 2). Qed.
Print Assumptions C41_to_async_result.
Print Assumptions C41_to_async_single_result.
Print Assumptions C41_to_async_unsubscribed_before_run.

(* liveness, general orders: the result IS delivered when the call has run before the first
   subscription (during subscribe()), or runs while a subscription is there and not yet disposed (at
   that moment); [a1], [a2], [rest] arbitrary within the stated side conditions *)
Theorem C41_to_async_delivers_late_subscriber : forall r a1 rest, In ARun a1 -> ~ In ASubscribe a1 ->
  to_async r (a1 ++ ASubscribe :: rest) = result_notes (length a1) r.
Proof.
  intros r a1 rest Hr Hs. unfold to_async. rewrite ta_run_notyet by exact Hs.
  apply is_run_In in Hr. rewrite Hr.
  cbn [orb ta_run ta_step Nat.add]. now rewrite ta_run_stopped, app_nil_r.
Qed.
Print Assumptions C41_to_async_delivers_late_subscriber.

Theorem C41_to_async_delivers_live_subscriber : forall r a1 a2 rest,
  ~ In ARun a1 -> ~ In ASubscribe a1 -> ~ In ARun a2 -> ~ In AUnsubscribe a2 ->
  to_async r (a1 ++ ASubscribe :: a2 ++ ARun :: rest) = result_notes (length a1 + S (length a2)) r.
Proof.
  intros r a1 a2 rest H1 H2 H3 H4. rewrite to_async_live by assumption. cbn [ta_run ta_step].
  now rewrite ta_run_stopped, app_nil_r.
Qed.
Print Assumptions C41_to_async_delivers_live_subscriber.

(* ... and in the remaining cases nothing is delivered: disposed before the call runs, the call
   never runs, nobody subscribes *)
Theorem C41_to_async_unsubscribed_before_run_general : forall r a1 a2 rest,
  ~ In ARun a1 -> ~ In ASubscribe a1 -> ~ In ARun a2 -> ~ In AUnsubscribe a2 ->
  to_async r (a1 ++ ASubscribe :: a2 ++ AUnsubscribe :: rest) = [].
Proof.
  intros r a1 a2 rest H1 H2 H3 H4. rewrite to_async_live by assumption. cbn [ta_run ta_step app]. apply ta_run_stopped.
Qed.
Print Assumptions C41_to_async_unsubscribed_before_run_general.

Theorem C41_to_async_never_run : forall r acts, ~ In ARun acts -> to_async r acts = [].
Proof. intros r acts. apply ta_run_never_run. Qed.
Print Assumptions C41_to_async_never_run.

Theorem C41_to_async_never_subscribed : forall r acts, ~ In ASubscribe acts -> to_async r acts = [].
Proof. intros r acts. apply ta_run_never_subscribed. Qed.
Print Assumptions C41_to_async_never_subscribed.

Example C41_to_async_delivery_examples :
  to_async (Ok 7) ([AUnsubscribe; ARun; ARun] ++ ASubscribe :: [ASubscribe; AUnsubscribe])
    = [(3%nat, Next 7); (3%nat, Done)]
  /\ to_async (Raise 9) ([AUnsubscribe] ++ ASubscribe :: [ASubscribe] ++ ARun :: [ARun; AUnsubscribe])
    = [(3%nat, Err 9)].
Proof. vm_compute. auto. Qed.

(* ---- from_callback ------------------------------------------------------------------- *)
Theorem C41_from_callback_no_mapper : forall k args rest,
  from_callback None ((k, args) :: rest) = [(k, Next (arguments_value args)); (k, Done)].
Proof. exact from_callback_spec_no_mapper. Qed.
Theorem C41_from_callback_mapper : forall mp k args rest v, apply_mapper mp args = Ok v ->
  from_callback (Some mp) ((k, args) :: rest) = [(k, Next (VOne v)); (k, Done)].
Proof. exact from_callback_spec_mapper. Qed.
Theorem C41_from_callback_mapper_raises : forall mp k args rest e, apply_mapper mp args = Raise e ->
  from_callback (Some mp) ((k, args) :: rest) = [(k, Err e)].
Proof. exact from_callback_mapper_raises. Qed.
Print Assumptions C41_from_callback_no_mapper.
Print Assumptions C41_from_callback_mapper.
Print Assumptions C41_from_callback_mapper_raises.

Example C41_from_callback_examples :
  from_callback (Some MSum) [(0%nat, [5; 6]); (1%nat, [7])] = [(0%nat, Next (VOne 11)); (0%nat, Done)]
  /\ from_callback None [(2%nat, [])] = [(2%nat, Next VNone); (2%nat, Done)]
  /\ from_callback None [(0%nat, [5; 6])] = [(0%nat, Next (VList [5; 6])); (0%nat, Done)].
Proof. vm_compute. auto. Qed.

(* the handler is never invoked: nothing *)
Theorem C41_from_callback_never_invoked : forall m, from_callback m [] = [].
Proof. exact from_callback_never_invoked. Qed.
Print Assumptions C41_from_callback_never_invoked.

(* the same three statements with the mapper an ARBITRARY function on the argument list
   ([from_callback_fn], Ops/BridgesRun.v); the model evaluated by the correspondence is its instance
   at the four concrete mappers *)
Theorem C41_from_callback_fn_no_mapper : forall k args rest,
  from_callback_fn None ((k, args) :: rest) = [(k, Next (arguments_value args)); (k, Done)].
Proof. exact from_callback_fn_no_mapper. Qed.
Theorem C41_from_callback_fn_mapper : forall (mp : list Z -> res Z) k args rest v, mp args = Ok v ->
  from_callback_fn (Some mp) ((k, args) :: rest) = [(k, Next (VOne v)); (k, Done)].
Proof. exact from_callback_fn_mapper. Qed.
Theorem C41_from_callback_fn_mapper_raises : forall (mp : list Z -> res Z) k args rest e, mp args = Raise e ->
  from_callback_fn (Some mp) ((k, args) :: rest) = [(k, Err e)].
Proof. exact from_callback_fn_mapper_raises. Qed.
Theorem C41_from_callback_is_instance : forall m invs,
  from_callback m invs = from_callback_fn (option_map apply_mapper m) invs.
Proof. exact from_callback_is_instance. Qed.
Print Assumptions C41_from_callback_fn_no_mapper.
Print Assumptions C41_from_callback_fn_mapper.
Print Assumptions C41_from_callback_fn_mapper_raises.
Print Assumptions C41_from_callback_is_instance.

Example C41_from_callback_fn_example :
  from_callback_fn (Some (fun args => Ok (fold_right Z.mul 1 args))) [(0%nat, [5; 6]); (1%nat, [7])]
  = [(0%nat, Next (VOne 30)); (0%nat, Done)].
Proof. vm_compute. auto. Qed.
