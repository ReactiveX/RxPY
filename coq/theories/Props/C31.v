(* C31 -- an EventLoopScheduler runs its actions serially on one thread, in order.

   Model: Core/EventLoop.v, the transition system of reactivex/scheduler/eventloopscheduler.py as the
   code is (one locked block / one unlocked read of _is_disposed / one is_cancelled() test / entering
   and leaving an action / waking up from Condition.wait = one step each; actions may themselves
   schedule, cancel and dispose; the environment advances the clock).
   The run-level theorems quantify over every initial clock t0, every list of per-thread programs
   [progs] (any number of scheduling threads), every action-body table [body], both values of
   exit_if_empty [eie] (unless stated) and EVERY schedule [sched] (list of thread steps and clock
   advances); C31_due_recorded, C31_due_recorded_abs, C31_dispose_raises_next,
   C31_schedule_restarts_thread and C31_quiescent_stutter are step lemmas about any state, and the
   C31_ex_* examples are concrete runs.
   Tie to /repo: harness/props/C31.py (same schedules on the real class, logs equal). *)
From RxVerif Require Import Base.Prelude Core.EventLoop Core.EventLoopFacts.
From RxVerif Require Import Core.EventLoopBatch Core.EventLoopFacts2 Core.EventLoopFacts3.
From Coq Require Import Permutation Sorted.
Local Open Scope Z_scope.

(* ---- one thread, never two actions at once ------------------------------------------------- *)
(* at most one loop thread is alive at any time *)
Theorem C31_one_live_loop_thread : forall eie body t0 progs sched t1 t2 ph1 ph2,
  let c := run eie body (init t0 progs) sched in
  nth_error (c_ths c) t1 = Some (TLoop ph1) -> ph1 <> LExited ->
  nth_error (c_ths c) t2 = Some (TLoop ph2) -> ph2 <> LExited -> t1 = t2.
Proof.
  intros eie body t0 progs sched t1 t2 ph1 ph2 c N1 L1 N2 L2.
  destruct (reach eie body t0 progs sched) as ((_ & A2 & _) & _). fold c in A2.
  pose proof (A2 t1 ph1 N1 L1). pose proof (A2 t2 ph2 N2 L2). congruence.
Qed.
Print Assumptions C31_one_live_loop_thread.

(* is_cancelled() tests, starts and ends of actions happen only on threads started by _ensure_thread *)
Theorem C31_actions_on_loop_thread : forall eie body t0 progs sched tid t e,
  let c := run eie body (init t0 progs) sched in
  In (tid, t, e) (c_log c) -> callish e = false -> In (ESpawn tid) (L c).
Proof.
  intros eie body t0 progs sched tid t e c I NC.
  destruct (reach eie body t0 progs sched) as (_ & _ & _ & _ & (_ & I2 & _) & _). eapply I2; eassumption.
Qed.
Print Assumptions C31_actions_on_loop_thread.

(* without exit_if_empty: one single thread for everything, for ever *)
Theorem C31_single_thread : forall body t0 progs sched tid1 t1 e1 tid2 t2 e2,
  let c := run false body (init t0 progs) sched in
  In (tid1, t1, e1) (c_log c) -> callish e1 = false ->
  In (tid2, t2, e2) (c_log c) -> callish e2 = false -> tid1 = tid2.
Proof. intros body t0 progs sched tid1 t1 e1 tid2 t2 e2. apply el_single_thread. reflexivity. Qed.
Print Assumptions C31_single_thread.

(* whenever an action starts, no action is running (over all threads) *)
Theorem C31_serial : forall eie body t0 progs sched l1 i l2,
  L (run eie body (init t0 progs) sched) = l1 ++ EStart i :: l2 -> ser None l1 = Some None.
Proof.
  intros eie body t0 progs sched l1 i l2 E. destruct (el_serial eie body t0 progs sched) as [o S]. rewrite E in S.
  eapply ser_spec, S.
Qed.
Print Assumptions C31_serial.

(* ---- order ------------------------------------------------------------------------------------ *)
(* the immediately-due items are dispatched in the order in which they were accepted (prefix) *)
Theorem C31_fifo_immediate : forall eie body t0 progs sched,
  let c := run eie body (init t0 progs) sched in
  exists rest, filter it_imm (accs (L c)) = filter it_imm (checks (L c)) ++ rest.
Proof. exact el_fifo_immediate. Qed.
Print Assumptions C31_fifo_immediate.

(* the timed items are dispatched in due-time order *)
Theorem C31_due_order : forall eie body t0 progs sched,
  StronglySorted le_due (filter timed (checks (L (run eie body (init t0 progs) sched)))).
Proof. exact el_due_order. Qed.
Print Assumptions C31_due_order.

(* no action starts before its due time (the clock reading of the start event) *)
Theorem C31_not_early : forall eie body t0 progs sched tid t i,
  In (tid, t, EStart i) (c_log (run eie body (init t0 progs) sched)) -> it_due i <= t.
Proof. exact el_not_early. Qed.
Print Assumptions C31_not_early.

(* "due time" is tied to the call.  Step lemmas (any state): the first step of schedule(a) /
   schedule_relative(d, a) allocates the uid, logs ECall and fixes due = clock + max(0, d) (d = 0 for schedule);
   schedule_absolute(t, a) fixes due = t whatever the clock *)
Theorem C31_due_recorded : forall ntid s o r a d,
  (o = SchedNow a /\ d = 0) \/ o = SchedRel d a ->
  op_step ntid s None (o :: r) =
    Some (bump s, Some (PS1 (nuid s) a (clock s + Z.max 0 d)), r, [ECall (nuid s) a], false).
Proof.
  intros ntid s o r a d [[-> ->]| ->]; cbn [op_step].
  - replace (clock s + Z.max 0 0) with (clock s) by lia. reflexivity.
  - reflexivity.
Qed.
Print Assumptions C31_due_recorded.

Theorem C31_due_recorded_abs : forall ntid s t a r,
  op_step ntid s None (SchedAbs t a :: r) =
    Some (bump s, (if disposed s then None else Some (PS2 (nuid s) a t)), r,
          ECall (nuid s) a :: (if disposed s then [ERaise a] else [EPass (nuid s)]), false).
Proof. intros. cbn [op_step]. unfold s1. cbn [disposed bump]. destruct (disposed s); reflexivity. Qed.
Print Assumptions C31_due_recorded_abs.

(* run level: the call that made an accepted item is in the log (same uid, same action), and its first step
   happened at or before the item's due time -- unless the due time is the argument of a schedule_absolute
   call for that action in some program or action body *)
Theorem C31_accepted_due_linked : forall eie body progs t0 sched i,
  let c := run eie body (init t0 progs) sched in
  In (EAcc i) (L c) ->
  exists tid tc, In (tid, tc, ECall (it_uid i) (it_lbl i)) (c_log c) /\
    (tc <= it_due i \/ (exists p, In p progs /\ In (SchedAbs (it_due i) (it_lbl i)) p) \/
                       exists a, In (SchedAbs (it_due i) (it_lbl i)) (body a)).
Proof. exact el_accepted_due_linked. Qed.
Print Assumptions C31_accepted_due_linked.

(* without schedule_absolute anywhere: the call happened at or before the due time *)
Theorem C31_accepted_call_before_due : forall eie body progs t0 sched i,
  (forall p t a, In p progs -> ~ In (SchedAbs t a) p) -> (forall b t a, ~ In (SchedAbs t a) (body b)) ->
  let c := run eie body (init t0 progs) sched in
  In (EAcc i) (L c) ->
  exists tid tc, In (tid, tc, ECall (it_uid i) (it_lbl i)) (c_log c) /\ tc <= it_due i.
Proof.
  intros eie body progs t0 sched i NP NB c I.
  destruct (el_accepted_due_linked eie body progs t0 sched i I) as (tid & tc & I' & [H|H]).
  - exists tid, tc. auto.
  - exfalso. destruct H as [(p & Hp & Ho)|(b & Ho)]; [eapply NP; eassumption|eapply NB; eassumption].
Qed.
Print Assumptions C31_accepted_call_before_due.

(* the proviso is needed: schedule_absolute(50) called at 100 is accepted with due 50 (immediately due: it
   runs at once -- late, never early) *)
Theorem C31_call_before_due_refuted :
  L abs_past_witness = [ECall 0 7; EPass 0; EAcc (Item 0 7 50 true); ESpawn 1; ERet 7]%nat /\
  forall tid tc, In (tid, tc, ECall 0%nat 7%nat) (c_log abs_past_witness) -> ~ tc <= 50.
Proof.
  vm_compute. split; [reflexivity|]. intros tid tc [H|[H|[H|[H|[H|[]]]]]]; inv H. intros X. apply X. reflexivity.
Qed.
Print Assumptions C31_call_before_due_refuted.

(* what runs was accepted (same label, same due time) and passed the is_cancelled() test *)
Theorem C31_started_was_accepted : forall eie body t0 progs sched i,
  let c := run eie body (init t0 progs) sched in
  In (EStart i) (L c) -> In (EAcc i) (L c) /\ In (ECheck i false) (L c).
Proof. exact el_started_was_accepted. Qed.
Print Assumptions C31_started_was_accepted.

(* ---- cancellation ----------------------------------------------------------------------------- *)
(* an action that starts was tested by is_cancelled() before, and no dispose() of its disposable
   had returned before that test: cancelled before the loop's test => never runs *)
Theorem C31_cancel_before_test : forall eie body t0 progs sched l1 i l2,
  L (run eie body (init t0 progs) sched) = l1 ++ EStart i :: l2 ->
  exists l0 l0', l1 = l0 ++ ECheck i false :: l0' /\ ~ In (ECancelRet (it_lbl i)) l0.
Proof.
  intros eie body t0 progs sched l1 i l2 E.
  destruct (el_test_right_before_invoke eie body t0 progs sched l1 i l2 E) as (l0 & w & E0 & NC & _). eauto.
Qed.
Print Assumptions C31_cancel_before_test.

(* the is_cancelled() test is made per item, right before that item's invocation: an action that starts
   passed its OWN test, no dispose() of its disposable had returned before that test, and between that test
   and the start the log has only events of calls made by scheduling threads -- no other item of this
   scheduler is tested, no other action starts or ends in between *)
Theorem C31_test_right_before_invoke : forall eie body t0 progs sched l1 i l2,
  L (run eie body (init t0 progs) sched) = l1 ++ EStart i :: l2 ->
  exists l0 w, l1 = l0 ++ ECheck i false :: w /\ ~ In (ECancelRet (it_lbl i)) l0 /\ forallb callish w = true.
Proof. exact el_test_right_before_invoke. Qed.
Print Assumptions C31_test_right_before_invoke.

(* an action cancelled before the previous action of its batch finished never starts: if dispose() of item
   i's disposable returned before ANY action j ended (in particular the one dispatched just before i, whether
   j itself made the call or another thread did while j ran) and i had not started by then, i never starts *)
Theorem C31_cancelled_during_earlier_action_never_starts : forall eie body t0 progs sched a j b i,
  L (run eie body (init t0 progs) sched) = a ++ EEnd j :: b ->
  In (ECancelRet (it_lbl i)) a -> ~ In (EStart i) a -> ~ In (EStart i) b.
Proof. exact el_cancelled_during_earlier_action_never_starts. Qed.
Print Assumptions C31_cancelled_during_earlier_action_never_starts.

(* the STRICT reading ("dispose() returned before the action's first instruction => it never
   runs") is false of the code: the window between is_cancelled() and invoke() *)
Theorem C31_cancel_strict_refuted :
  before (is_test_of 1) (is_cancelret_of 1) (L cancel_window_witness) = true /\
  before (is_cancelret_of 1) (is_start_of 1) (L cancel_window_witness) = true.
Proof. vm_compute. split; reflexivity. Qed.
Print Assumptions C31_cancel_strict_refuted.

(* ---- dispose ------------------------------------------------------------------------------------ *)
Theorem C31_dispose_ret_sets_flag : forall eie body t0 progs sched,
  let c := run eie body (init t0 progs) sched in In EDisposeRet (L c) -> disposed (c_sh c) = true.
Proof.
  intros eie body t0 progs sched c.
  destruct (reach eie body t0 progs sched) as (_ & _ & _ & _ & _ & (_ & (_ & _ & P3)) & _). exact P3.
Qed.
Print Assumptions C31_dispose_ret_sets_flag.

(* once dispose() returned (c1), under every continuation: no call passes the _is_disposed test
   (so each raises DisposedException there), and no call made afterwards is enqueued, tested or run *)
Theorem C31_dispose : forall eie body t0 progs sched1 sched2,
  let c1 := run eie body (init t0 progs) sched1 in
  let c2 := run eie body c1 sched2 in
  disposed (c_sh c1) = true ->
  exists more, L c2 = L c1 ++ more /\
    (forall u, ~ In (EPass u) more) /\
    (forall u a i, In (ECall u a) more -> it_uid i = u ->
       ~ In (EAcc i) (L c2) /\ ~ In (ECheck i false) (L c2) /\ ~ In (EStart i) (L c2)).
Proof. exact el_dispose. Qed.
Print Assumptions C31_dispose.

(* "scheduling raises DisposedException": once the scheduler is disposed (c1), every schedule call that BEGINS
   afterwards has raised on the calling thread, or that thread still stands at the unlocked `_is_disposed` test
   of that call -- and its next step is the raise (C31_dispose_raises_next) *)
Theorem C31_dispose_raises : forall eie body t0 progs sched1 sched2 tid t u a,
  let c1 := run eie body (init t0 progs) sched1 in
  let c2 := run eie body c1 sched2 in
  disposed (c_sh c1) = true ->
  In (tid, t, ECall u a) (skipn (length (c_log c1)) (c_log c2)) ->
  (exists t', In (tid, t', ERaise a) (skipn (length (c_log c1)) (c_log c2))) \/
  (exists st due, nth_error (c_ths c2) tid = Some st /\ tcur st = Some (PS1 u a due)).
Proof. exact el_dispose_raises. Qed.
Print Assumptions C31_dispose_raises.

Theorem C31_dispose_raises_next : forall ntid s u a due todo s' cur' todo' out sp,
  opstep ntid s (Some (PS1 u a due)) todo s' cur' todo' out sp -> disposed s = true ->
  out = [ERaise a] /\ cur' = None.
Proof. intros. inv H; [auto|congruence]. Qed.
Print Assumptions C31_dispose_raises_next.

(* ---- exit_if_empty, nothing lost -------------------------------------------------------------- *)
(* the thread gives itself up only with empty queues *)
Theorem C31_exit_only_when_idle : forall eie body t0 progs sched,
  let c := run eie body (init t0 progs) sched in
  thr (c_sh c) = None -> rl (c_sh c) = [] /\ q (c_sh c) = [] /\ inflight c = [].
Proof.
  intros eie body t0 progs sched c T.
  destruct (reach eie body t0 progs sched) as (_ & _ & _ & _ & _ & _ & (_ & H2 & _)). fold c in H2.
  destruct (H2 T) as [R Q]. repeat split; auto. unfold inflight, at_thr. rewrite T. reflexivity.
Qed.
Print Assumptions C31_exit_only_when_idle.

(* ... and it DOES give itself up: with exit_if_empty, in every state in which nothing can move, the scheduler
   is not disposed and the clock is past every accepted due time, the scheduler has no thread and every loop
   thread ever started has exited (liveness direction of "exits when idle", at quiescence) *)
Theorem C31_exits_when_idle : forall body t0 progs sched,
  let c := run true body (init t0 progs) sched in
  quiescent c = true -> disposed (c_sh c) = false ->
  (forall i, In (EAcc i) (L c) -> it_due i <= clock (c_sh c)) ->
  thr (c_sh c) = None /\
  forall t ph, nth_error (c_ths c) t = Some (TLoop ph) -> ph = LExited.
Proof. exact el_exits_when_idle. Qed.
Print Assumptions C31_exits_when_idle.

(* the enqueueing step starts a new thread whenever there is none *)
Theorem C31_schedule_restarts_thread : forall ntid s u a due todo s' cur' todo' out sp,
  opstep ntid s (Some (PS2 u a due)) todo s' cur' todo' out sp -> thr s = None ->
  sp = true /\ thr s' = Some ntid /\ In (ESpawn ntid) out.
Proof. intros. inv H; try congruence; cbn; auto. Qed.
Print Assumptions C31_schedule_restarts_thread.

(* a queued item always has a live loop thread (unless the scheduler was disposed) *)
Theorem C31_work_has_thread : forall eie body t0 progs sched,
  let c := run eie body (init t0 progs) sched in
  disposed (c_sh c) = false -> rl (c_sh c) <> [] \/ q (c_sh c) <> [] ->
  exists t ph, thr (c_sh c) = Some t /\ nth_error (c_ths c) t = Some (TLoop ph) /\ ph <> LExited.
Proof.
  intros eie body t0 progs sched c D W.
  destruct (reach eie body t0 progs sched) as (_ & _ & _ & _ & _ & _ & (_ & H2 & H3)). fold c in H2, H3.
  destruct (thr (c_sh c)) as [t|] eqn:T.
  - destruct (H3 t eq_refl D) as [ph [P LV]]. eauto.
  - destruct (H2 eq_refl) as [R Q]. destruct W; contradiction.
Qed.
Print Assumptions C31_work_has_thread.

(* a state in which no thread can move is one in which no thread does move *)
Theorem C31_quiescent_stutter : forall eie body c, quiescent c = true -> forall tid, tstep eie body c tid = c.
Proof. exact quiescent_stutter. Qed.
Print Assumptions C31_quiescent_stutter.

(* no lost wake-up, no lost item: when nothing can move any more, the scheduler is not disposed
   and the clock is past every accepted due time, every accepted item was dispatched, every item
   that passed the test ran to completion, and both queues are empty *)
Theorem C31_nothing_lost : forall eie body t0 progs sched,
  let c := run eie body (init t0 progs) sched in
  quiescent c = true -> disposed (c_sh c) = false ->
  (forall i, In (EAcc i) (L c) -> it_due i <= clock (c_sh c)) ->
  Permutation (accs (L c)) (checks (L c)) /\ rl (c_sh c) = [] /\ q (c_sh c) = [] /\
  (forall i, In (ECheck i false) (L c) -> In (EStart i) (L c) /\ In (EEnd i) (L c)).
Proof. exact el_nothing_lost. Qed.
Print Assumptions C31_nothing_lost.

(* ---- non-vacuity: concrete runs meeting the hypotheses --------------------------------------- *)
(* two submitters, FIFO, everything runs, quiescent with the loop thread waiting *)
Example C31_ex_fifo :
  let c := run false nobody (init 0 [[SchedNow 1%nat; SchedNow 2%nat]; [SchedNow 3%nat]])
               (steps [0; 0; 0; 1; 1; 1; 0; 0; 0; 2; 2; 2; 2; 2; 2; 2; 2; 2; 2; 2; 2]%nat) in
  map it_lbl (checks (L c)) = [1; 3; 2]%nat /\ map it_lbl (accs (L c)) = [1; 3; 2]%nat /\
  quiescent c = true /\ disposed (c_sh c) = false.
Proof. vm_compute. repeat split; reflexivity. Qed.

(* timed items in due order, none early (clock readings of the starts) *)
Example C31_ex_timed :
  let c := run false nobody (init 0 [[SchedRel 2000 1%nat; SchedRel 1000 2%nat]; [SchedAbs 1000 3%nat]])
               (steps [0; 0; 0; 0; 0; 0; 1; 1]%nat ++ steps (repeat 2%nat 8) ++ [MTick 1000] ++
                steps (repeat 2%nat 12) ++ [MTick 1000] ++ steps (repeat 2%nat 12)) in
  map it_lbl (checks (L c)) = [2; 3; 1]%nat /\ quiescent c = true /\ clock (c_sh c) = 2000 /\
  map (fun x => snd (fst x)) (filter (fun x => match snd x with EStart _ => true | _ => false end) (c_log c))
    = [1000; 1000; 2000].
Proof. vm_compute. repeat split; reflexivity. Qed.

(* exit_if_empty: the thread exits when idle, the next schedule starts thread 3 *)
Example C31_ex_exit_if_empty :
  let c := run true nobody (init 0 [[SchedNow 1%nat]; [SchedNow 2%nat]])
               (steps [0; 0; 0; 2; 2; 2; 2; 2; 2; 1; 1; 1; 3; 3; 3; 3; 3; 3]%nat) in
  nspawn (L c) = 2%nat /\ thr (c_sh c) = None /\ quiescent c = true /\
  c_ths c = [TSched None []; TSched None []; TLoop LExited; TLoop LExited] /\
  map it_lbl (checks (L c)) = [1; 2]%nat.
Proof. vm_compute. repeat split; reflexivity. Qed.

(* dispose: the second thread's schedule after dispose() returned raises; action 2 never appears *)
Example C31_ex_dispose :
  let c1 := run false nobody (init 0 [[SchedNow 1%nat; Dispose]; [SchedNow 2%nat]]) (steps [0; 0; 0; 0]%nat) in
  let c2 := run false nobody c1 (steps [1; 1; 1; 2; 2; 2]%nat) in
  disposed (c_sh c1) = true /\
  existsb (fun e => match e with ERaise 2%nat => true | _ => false end) (L c2) = true /\ checks (L c2) = [] /\ nth_error (c_ths c2) 2 = Some (TLoop LExited).
Proof. vm_compute. repeat split; reflexivity. Qed.

(* quirk outside the property: the notification of dispose() can be lost, the thread then sleeps
   for ever *)
Example C31_ex_dispose_thread_sleeps :
  quiescent dispose_sleep_witness = true /\ disposed (c_sh dispose_sleep_witness) = true /\
  nth_error (c_ths dispose_sleep_witness) 2 = Some (TLoop LWaiting) /\
  wt (c_sh dispose_sleep_witness) = Some (Wait 2 None false).
Proof. vm_compute. repeat split; reflexivity. Qed.

(* one batch, a later item disposed before its turn.  (kind, label): 8 spawn, 0 ret, 4 test->False, 5 test->True,
   6 start, 7 end, 2 dispose() of the item's disposable returned.
   Single-threaded: action 0 submits 1, 2, 3 from the loop thread (one cycle gathers all three); action 1
   disposes 2; 2 is tested after that (5) and does not start; 3 runs.  This is also the log of the real class. *)
Example C31_ex_disposed_by_earlier_action_of_same_batch :
  map snd (observable (c_log same_batch_witness)) =
    [(8, 1); (0, 0); (4, 0); (6, 0); (0, 1); (0, 2); (0, 3); (7, 0); (4, 1); (6, 1); (2, 2); (7, 1); (5, 2); (4, 3);
     (6, 3); (7, 3)]%nat /\ quiescent same_batch_witness = true.
Proof. vm_compute. split; reflexivity. Qed.

(* three timed items of one due time, the second disposed by a scheduling thread while the first runs *)
Example C31_ex_disposed_by_other_thread_while_earlier_action_runs :
  map snd (observable (c_log foreign_batch_witness)) =
    [(8, 2); (0, 1); (0, 2); (0, 3); (4, 1); (6, 1); (2, 2); (7, 1); (5, 2); (4, 3); (6, 3); (7, 3)]%nat /\
  quiescent foreign_batch_witness = true.
Proof. vm_compute. split; reflexivity. Qed.

(* the hypotheses of C31_exits_when_idle on a run with a timed item: quiescent, not disposed, clock past the
   due time -- the thread has exited *)
Example C31_ex_exits_when_idle_timed :
  let c := run true nobody (init 0 [[SchedRel 1000 1%nat]])
               (steps [0; 0; 0; 1; 1; 1]%nat ++ [MTick 1000] ++ steps (repeat 1%nat 6)) in
  quiescent c = true /\ disposed (c_sh c) = false /\
  forallb (fun i => it_due i <=? clock (c_sh c)) (accs (L c)) = true /\ accs (L c) = [Item 0 1 1000 false] /\
  c_ths c = [TSched None []; TLoop LExited] /\ thr (c_sh c) = None.
Proof. vm_compute. repeat split; reflexivity. Qed.

(* the hypotheses of C31_dispose_raises: after dispose() both calls of thread 1 begin and raise *)
Example C31_ex_dispose_raises :
  let c1 := run false nobody (init 0 [[SchedNow 1%nat; Dispose]; [SchedNow 2%nat; SchedAbs 5 3%nat]]) (steps [0; 0; 0; 0]%nat) in
  let c2 := run false nobody c1 (steps [1; 1; 1]%nat) in
  disposed (c_sh c1) = true /\
  skipn (length (c_log c1)) (c_log c2) =
    [(1%nat, 0, ECall 1 2); (1%nat, 0, ERaise 2); (1%nat, 0, ECall 2 3); (1%nat, 0, ERaise 3)].
Proof. vm_compute. split; reflexivity. Qed.
