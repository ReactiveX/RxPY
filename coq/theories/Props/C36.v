(* C36 -- time values convert consistently between representations.
   Model: Core/TimeConv.v (scheduler.py: to_seconds / to_datetime / to_timedelta;
   constants.py: UTC_ZERO), exact on integers: an aware datetime / a timedelta is
   its number of microseconds, a binary64 float is [F m e] = m * 2^e, and the float
   operations the code reaches (int/int true division in total_seconds, modf,
   frac * 1e6, round-half-even in fromtimestamp / timedelta(seconds=)) are written
   with integer arithmetic.  Tied to the code bit-exactly by harness/props/C36.py.
   No axioms: everything is Z arithmetic. *)
From Coq Require Import ZArith.
From RxVerif Require Import Core.TimeConv Core.TimeConvFacts Core.TimeConvFacts2.
Open Scope Z_scope.

(* datetime <-> timedelta: exact and strictly order preserving, ALL values *)
Theorem C36_datetime_timedelta_exact :
  (forall d, to_datetime_td (to_timedelta_dt d) = d) /\ (forall t, to_timedelta_dt (to_datetime_td t) = t).
Proof. exact (conj dt_td_dt td_dt_td). Qed.
Print Assumptions C36_datetime_timedelta_exact.

Theorem C36_datetime_timedelta_order :
  (forall d d', d < d' <-> to_timedelta_dt d < to_timedelta_dt d')
  /\ (forall t t', t < t' <-> to_datetime_td t < to_datetime_td t').
Proof. exact (conj to_timedelta_dt_strict to_datetime_td_strict). Qed.
Print Assumptions C36_datetime_timedelta_order.

(* microseconds -> float seconds -> microseconds is the identity for every microsecond
   count below 2^33 * 10^6 (|t| < 8589934592 s, about 272 years around the epoch) *)
Theorem C36_roundtrip_through_float_seconds :
  forall n, Z.abs n < 2 ^ 33 * us_per_s -> us_of_float (to_seconds_td n) = n.
Proof. exact roundtrip_us. Qed.
Print Assumptions C36_roundtrip_through_float_seconds.

Theorem C36_roundtrip_datetime :
  forall d, Z.abs d < 2 ^ 33 * us_per_s -> to_datetime_float (to_seconds_dt d) = d.
Proof.
  intros d H. unfold to_datetime_float, to_seconds_dt, dt_minus_epoch, epoch_plus, utc_zero.
  rewrite Z.sub_0_r, roundtrip_us by exact H. apply Z.add_0_l.
Qed.
Print Assumptions C36_roundtrip_datetime.

Theorem C36_roundtrip_timedelta :
  forall t, Z.abs t < 2 ^ 33 * us_per_s -> to_timedelta_float (to_seconds_td t) = t.
Proof. exact roundtrip_us. Qed.
Print Assumptions C36_roundtrip_timedelta.

(* microsecond-aligned floats (the double nearest to n / 10^6) are fixed points of
   float -> microseconds -> float *)
Theorem C36_roundtrip_aligned_float :
  forall n, Z.abs n < 2 ^ 33 * us_per_s ->
  to_seconds_td (us_of_float (to_seconds_td n)) = to_seconds_td n.
Proof. intros n H. rewrite roundtrip_us by exact H. reflexivity. Qed.
Print Assumptions C36_roundtrip_aligned_float.

(* the bound is sharp *)
Theorem C36_roundtrip_bound_is_sharp :
  us_of_float (to_seconds_td (2 ^ 33 * us_per_s + 1)) <> 2 ^ 33 * us_per_s + 1.
Proof. vm_compute. discriminate. Qed.
Print Assumptions C36_roundtrip_bound_is_sharp.

(* to_seconds preserves order, ALL timedeltas / datetimes (correct rounding is monotone) *)
Theorem C36_to_seconds_order :
  (forall n n', n <= n' -> fl_le (to_seconds_td n) (to_seconds_td n'))
  /\ (forall d d', d <= d' -> fl_le (to_seconds_dt d) (to_seconds_dt d')).
Proof. exact (conj to_seconds_td_mono to_seconds_dt_mono). Qed.
Print Assumptions C36_to_seconds_order.

(* injective, hence strictly order preserving, within the round-trip range *)
Theorem C36_to_seconds_injective_in_range :
  forall n n', Z.abs n < 2 ^ 33 * us_per_s -> Z.abs n' < 2 ^ 33 * us_per_s ->
  to_seconds_td n = to_seconds_td n' -> n = n'.
Proof. intros n n' H H' E. rewrite <- (roundtrip_us n H), <- (roundtrip_us n' H'), E. reflexivity. Qed.
Print Assumptions C36_to_seconds_injective_in_range.

(* ... and on float VALUES (fl_le / fl_eqb compare m * 2^e, not the syntactic pair): to_seconds is
   strictly increasing in the range, hence injective up to value equality *)
Theorem C36_to_seconds_strict_in_range :
  forall n n', Z.abs n < 2 ^ 33 * us_per_s -> Z.abs n' < 2 ^ 33 * us_per_s -> n < n' ->
  ~ fl_le (to_seconds_td n') (to_seconds_td n).
Proof.
  intros n n' H H' L C. apply us_of_float_mono in C. rewrite (roundtrip_us n H), (roundtrip_us n' H') in C.
  exact (Z.lt_irrefl _ (Z.lt_le_trans _ _ _ L C)).
Qed.
Print Assumptions C36_to_seconds_strict_in_range.

Theorem C36_to_seconds_value_injective_in_range :
  forall n n', Z.abs n < 2 ^ 33 * us_per_s -> Z.abs n' < 2 ^ 33 * us_per_s ->
  fl_eqb (to_seconds_td n) (to_seconds_td n') = true -> n = n'.
Proof.
  intros n n' H H' E. apply Bool.andb_true_iff in E. destruct E as [E1 E2]. apply fl_leb_le in E1, E2.
  destruct (Z.lt_trichotomy n n') as [L|[L|L]]; [exfalso | exact L | exfalso].
  - exact (C36_to_seconds_strict_in_range n n' H H' L E2).
  - exact (C36_to_seconds_strict_in_range n' n H' H L E1).
Qed.
Print Assumptions C36_to_seconds_value_injective_in_range.

(* [rn a b] (int / int true division, hence total_seconds()) IS the correctly rounded binary64 of
   a / b, ALL a, b > 0: with 2^e = up e / dn e, the exponent is at least -1074, the mantissa is in
   [0, 2^53] (at least 2^52 unless subnormal), the error is at most half a unit in the last place
   and a tie goes to the even mantissa.  No overflow to infinity (not modelled). *)
Theorem C36_rn_correct :
  forall a b, 0 < a -> 0 < b ->
  let 'F m e := rn a b in
  -1074 <= e /\ 0 <= m <= 2 ^ 53 /\ (-1074 < e -> 2 ^ 52 <= m) /\
  2 * Z.abs (m * (b * up e) - a * dn e) <= b * up e /\
  (2 * Z.abs (m * (b * up e) - a * dn e) = b * up e -> Z.even m = true).
Proof. exact rn_correct. Qed.
Print Assumptions C36_rn_correct.

(* the spec determines the mantissa at a given exponent *)
Theorem C36_rn_spec_unique_at_exp :
  forall a b m m' e, 0 < b -> rn_spec a b (F m e) -> rn_spec a b (F m' e) -> m = m'.
Proof.
  intros a b m m' e Hb [_ [_ [_ [E1 T1]]]] [_ [_ [_ [E2 T2]]]]. pose proof (den_pos b e Hb) as HY.
  rewrite <- (rne_div_charact (a * dn e) (b * up e) m HY E1 T1).
  apply (rne_div_charact (a * dn e) (b * up e) m' HY E2 T2).
Qed.
Print Assumptions C36_rn_spec_unique_at_exp.

(* negative numerators are the mirror image *)
Theorem C36_rn_correct_neg :
  forall a b, a < 0 -> 0 < b -> exists m e, rn a b = F (- m) e /\ rn_spec (- a) b (F m e).
Proof.
  intros a b Ha Hb. pose proof (rn_opp (- a) b Hb) as O. rewrite Z.opp_involutive in O. rewrite O.
  pose proof (rn_correct (- a) b (proj2 (Z.opp_pos_neg a) Ha) Hb) as S. destruct (rn (- a) b) as [m e].
  exists m, e. split; [reflexivity | exact S].
Qed.
Print Assumptions C36_rn_correct_neg.

(* to_timedelta(float) and to_datetime(float) preserve order, ALL finite floats (aligned or
   not; half-way cases; any magnitude) *)
Theorem C36_float_conversions_order :
  forall x y, fl_le x y ->
  to_timedelta_float x <= to_timedelta_float y /\ to_datetime_float x <= to_datetime_float y.
Proof. intros x y H. split; apply us_of_float_mono; exact H. Qed.
Print Assumptions C36_float_conversions_order.

(* ---- non-vacuity ------------------------------------------------------------------------ *)
(* timedelta(microseconds=1).total_seconds() = 0x1.0c6f7a0b5ed8dp-20 = 4722366482869645 * 2^-72 *)
Example C36_one_microsecond : to_seconds_td 1 = F 4722366482869645 (-72) /\ us_of_float (F 4722366482869645 (-72)) = 1.
Proof. split; vm_compute; reflexivity. Qed.

(* 2023-09-18T01:20:00.123456Z *)
Example C36_a_date : to_datetime_float (to_seconds_dt 1695000000123456) = 1695000000123456.
Proof. vm_compute. reflexivity. Qed.

(* half-way case: 0.0078125 s = 7812.5 us rounds to the even 7812; 0.0234375 s = 23437.5 us to 23438 *)
Example C36_half_even : us_of_float (F 1 (-7)) = 7812 /\ us_of_float (F 3 (-7)) = 23438 /\ us_of_float (F (-1) (-7)) = -7812.
Proof. repeat split; vm_compute; reflexivity. Qed.

Example C36_last_in_range : us_of_float (to_seconds_td (2 ^ 33 * us_per_s - 1)) = 2 ^ 33 * us_per_s - 1.
Proof. vm_compute. reflexivity. Qed.

(* rn on a tie at the subnormal exponent: 1 / 2^1075 is half the smallest subnormal -> 0 (even);
   3 / 2^1075 -> 2 * 2^-1074 (even) *)
Example C36_rn_tie_subnormal : rn 1 (2 ^ 1075) = F 0 (-1074) /\ rn 3 (2 ^ 1075) = F 2 (-1074).
Proof.
  (* by rn_eq rather than by evaluating rn, which divides numbers of 1100 bits several times: the exponent is
     clamped at -1074, and both quotients are ties (the error is exactly half a unit in the last place) *)
  split; (apply rn_eq; [reflexivity | reflexivity | | apply Z.eq_le_incl; reflexivity | intros _; reflexivity]).
  all: split; [apply Z.le_refl | split; [reflexivity | intros C; destruct (Z.lt_irrefl _ C)]].
Qed.

Example C36_strict_neighbours :
  fl_leb (to_seconds_td (2 ^ 33 * us_per_s - 1)) (to_seconds_td (2 ^ 33 * us_per_s - 2)) = false.
Proof. vm_compute. reflexivity. Qed.

(* ---- non-aligned floats: what to_timedelta(x) / to_datetime(x) is relative to x (Core/TimeConvFacts3.v;
   us_of_float_close and us_of_float_near are in Core/TimeConvFacts.v) *)
From RxVerif Require Import Core.TimeConvFacts3.

(* x = m * 2^e with e < 0 (for e >= 0 the conversion is exact: us_of_float_form_nonneg).  The result is
   strictly within one microsecond of x * 10^6 ... *)
Theorem C36_us_of_float_nearest : forall m e, e < 0 ->
  Z.abs (us_of_float (F m e) * 2 ^ (- e) - m * us_per_s) < 2 ^ (- e).
Proof. exact us_of_float_nearest. Qed.
Print Assumptions C36_us_of_float_nearest.

(* ... more precisely within 1/2 + 2^-34 microsecond (the 2^-34 is the rounding of frac * 1e6 to a double) *)
Theorem C36_us_of_float_close : forall m e, e < 0 ->
  2 ^ 33 * (2 * Z.abs (us_of_float (F m e) * 2 ^ (- e) - m * us_per_s) - 2 ^ (- e)) <= 2 ^ (- e).
Proof. exact us_of_float_close. Qed.
Print Assumptions C36_us_of_float_close.

(* exact whenever x * 10^6 is an integer *)
Theorem C36_us_of_float_exact_on_integers : forall m e n, e < 0 ->
  m * us_per_s = n * 2 ^ (- e) -> us_of_float (F m e) = n.
Proof.
  intros m e n He H. apply us_of_float_near; [exact He|]. rewrite H, Z.sub_diag.
  apply Z.mul_pos_pos; [reflexivity | apply Z.pow_pos_nonneg; [reflexivity | apply Z.opp_nonneg_nonpos, Z.lt_le_incl, He]].
Qed.
Print Assumptions C36_us_of_float_exact_on_integers.

(* floats with at most 33 fractional bits: exactly the nearest microsecond count, ties to even *)
Theorem C36_us_of_float_nearest_even_coarse : forall m e, -33 <= e < 0 ->
  us_of_float (F m e) = rne_div (m * us_per_s) (2 ^ (- e)).
Proof. exact us_of_float_rne_coarse. Qed.
Print Assumptions C36_us_of_float_nearest_even_coarse.

(* "THE nearest microsecond count" for every float is NOT a theorem (double rounding in CPython's
   timedelta(seconds=) / fromtimestamp): 0x1.0f2e7b3d8e000p-1 s = 529651.5 us - 2^-34 us goes to 529652 *)
Theorem C36_us_of_float_nearest_exact_refuted :
  us_of_float double_rounding_witness = 529652 /\
  2 * Z.abs (529652 * 2 ^ 40 - 582357982919 * us_per_s) > 2 ^ 40 /\
  2 * Z.abs (529651 * 2 ^ 40 - 582357982919 * us_per_s) < 2 ^ 40.
Proof. vm_compute. repeat split; reflexivity. Qed.
Print Assumptions C36_us_of_float_nearest_exact_refuted.
