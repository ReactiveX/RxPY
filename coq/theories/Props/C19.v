(* C19 -- grouping routes each element to exactly one live group.
   Machines: Ops/Groups.v (group_by_until / group_by as a machine of the window-aware runner
   Ops/MultiWin.v; partition = publish + ref_count + two filters as a model of its own),
   Ops/GroupsSubject.v (custom subject factory), Ops/GroupsIndexed.v (partition_indexed).
   First every state, step by step (with the closed form of group_by and the witnesses); then whole
   runs: partition with one subscription per output (Ops/PartitionRunFacts.v); after the second import
   group_by_until against the functional specification gbu_spec (Ops/GroupUntilRunFacts.v; the proofs
   step the specification with the tactic open_step defined there) and partition with any number of
   subscriptions of an output (Ops/PartitionMultiFacts.v). *)
From RxVerif Require Import Base.Prelude Ops.Machine Ops.MultiWin Ops.MultiWinFacts Ops.Groups Ops.GroupFacts
  Ops.WindowCountFacts Ops.GroupRunFacts Ops.GroupsSubject Ops.GroupsIndexed Ops.GroupsIndexedFacts Ops.PartitionRunFacts.

(* ---- group_by / group_by_until: EVERY state (= every input history), every callback -------- *)
(* the key has a live writer: the element goes to that group and nowhere else; no group is handed *)
Theorem C19_group_existing : forall A W B (key : A -> res Z) (elem : A -> res W) (dur : nat -> res bool) s now (x : A) k g (y : W),
  key x = Ok k -> gb_lookup k (gb_writers s) = Some g -> elem x = Ok y ->
  x_step (x_group_by_until (B:=B) key elem dur) s now (ISrc 0%nat (Next x)) = (s, [CWin g (Next y)], Cont).
Proof. exact @group_existing. Qed.
(* the key has no live writer (first time seen, or its group expired): a NEW group with a fresh id is
   handed with that key, its duration is subscribed, the element goes to the new group only *)
Theorem C19_group_new : forall A W B (key : A -> res Z) (elem : A -> res W) (dur : nat -> res bool) s now (x : A) k hot (y : W),
  key x = Ok k -> gb_lookup k (gb_writers s) = None -> dur (gb_calls s) = Ok hot -> elem x = Ok y ->
  x_step (x_group_by_until (B:=B) key elem dur) s now (ISrc 0%nat (Next x))
  = (GbSt (gb_writers s ++ [(k, gb_next s, if hot then S (gb_calls s) else 0%nat)]) (S (gb_next s)) (S (gb_calls s)),
     CHand (gb_next s) k :: (if hot then [CSub (S (gb_calls s))] else []) ++ [CWin (gb_next s) (Next y)], Cont).
Proof. exact @group_new. Qed.
Theorem C19_group_new_iff : forall A W B (key : A -> res Z) (elem : A -> res W) (dur : nat -> res bool) s now (x : A) k,
  key x = Ok k ->
  (ghands (snd (fst (x_step (x_group_by_until (W:=W) (B:=B) key elem dur) s now (ISrc 0%nat (Next x))))) <> []
   <-> gb_lookup k (gb_writers s) = None /\ exists hot, dur (gb_calls s) = Ok hot).
Proof. exact @group_new_iff. Qed.
(* every routed element goes to exactly ONE group: the group of its key *)
Theorem C19_group_route_one : forall A W B (key : A -> res Z) (elem : A -> res W) (dur : nat -> res bool) s now (x : A),
  snd (x_step (x_group_by_until (W:=W) (B:=B) key elem dur) s now (ISrc 0%nat (Next x))) = Cont ->
  exists g y, gwin_nexts (snd (fst (x_step (x_group_by_until (W:=W) (B:=B) key elem dur) s now (ISrc 0%nat (Next x))))) = [(g, y)]
              /\ elem x = Ok y
              /\ exists k, key x = Ok k
                 /\ g = match gb_lookup k (gb_writers s) with Some g0 => g0 | None => gb_next s end.
Proof. exact @group_route_one. Qed.
Print Assumptions C19_group_existing.
Print Assumptions C19_group_new.
Print Assumptions C19_group_new_iff.
Print Assumptions C19_group_route_one.

(* every open group ends with the source's terminal; so does the outer *)
Theorem C19_group_source_done : forall A W B (key : A -> res Z) (elem : A -> res W) (dur : nat -> res bool) s now,
  x_step (x_group_by_until (A:=A) (W:=W) (B:=B) key elem dur) s now (ISrc 0%nat Done)
  = (s, gb_all (gb_writers s) Done, Complete).
Proof. exact @group_source_done. Qed.
(* an error of the source OR of a duration observable reaches every open group and the outer *)
Theorem C19_group_error_fanout : forall A W B (key : A -> res Z) (elem : A -> res W) (dur : nat -> res bool) s now k e,
  x_step (x_group_by_until (A:=A) (W:=W) (B:=B) key elem dur) s now (ISrc k (Err e))
  = (s, gb_all (gb_writers s) (Err e), Fail e).
Proof. exact @group_source_error. Qed.
(* raising callbacks *)
Theorem C19_group_key_raises : forall A W B (key : A -> res Z) (elem : A -> res W) (dur : nat -> res bool) s now (x : A) e,
  key x = Raise e ->
  x_step (x_group_by_until (W:=W) (B:=B) key elem dur) s now (ISrc 0%nat (Next x))
  = (s, gb_all (gb_writers s) (Err e), Fail e).
Proof. exact @group_key_raises. Qed.
Theorem C19_group_elem_raises_existing : forall A W B (key : A -> res Z) (elem : A -> res W) (dur : nat -> res bool) s now (x : A) k g e,
  key x = Ok k -> gb_lookup k (gb_writers s) = Some g -> elem x = Raise e ->
  x_step (x_group_by_until (W:=W) (B:=B) key elem dur) s now (ISrc 0%nat (Next x))
  = (s, gb_all (gb_writers s) (Err e), Fail e).
Proof. exact @group_elem_raises_existing. Qed.
Theorem C19_group_elem_raises_new : forall A W B (key : A -> res Z) (elem : A -> res W) (dur : nat -> res bool) s now (x : A) k hot e,
  key x = Ok k -> gb_lookup k (gb_writers s) = None -> dur (gb_calls s) = Ok hot -> elem x = Raise e ->
  let ws := gb_writers s ++ [(k, gb_next s, if hot then S (gb_calls s) else 0%nat)] in
  x_step (x_group_by_until (W:=W) (B:=B) key elem dur) s now (ISrc 0%nat (Next x))
  = (GbSt ws (S (gb_next s)) (S (gb_calls s)),
     CHand (gb_next s) k :: (if hot then [CSub (S (gb_calls s))] else []) ++ gb_all ws (Err e), Fail e).
Proof. exact @group_elem_raises_new. Qed.
Theorem C19_group_dur_raises : forall A W B (key : A -> res Z) (elem : A -> res W) (dur : nat -> res bool) s now (x : A) k e,
  key x = Ok k -> gb_lookup k (gb_writers s) = None -> dur (gb_calls s) = Raise e ->
  x_step (x_group_by_until (W:=W) (B:=B) key elem dur) s now (ISrc 0%nat (Next x))
  = (GbSt (gb_writers s ++ [(k, gb_next s, 0%nat)]) (S (gb_next s)) (S (gb_calls s)),
     gb_all (gb_writers s ++ [(k, gb_next s, 0%nat)]) (Err e), Fail e).
Proof. exact @group_dur_raises. Qed.
Print Assumptions C19_group_source_done.
Print Assumptions C19_group_error_fanout.
Print Assumptions C19_group_key_raises.
Print Assumptions C19_group_elem_raises_existing.
Print Assumptions C19_group_elem_raises_new.
Print Assumptions C19_group_dur_raises.

(* expiry and re-creation *)
Theorem C19_group_expire : forall A W B (key : A -> res Z) (elem : A -> res W) (dur : nat -> res bool) s now d (e : ev A) k g,
  (forall z, e <> Err z) -> gb_by_dur (S d) (gb_writers s) = Some (k, g) ->
  x_step (x_group_by_until (W:=W) (B:=B) key elem dur) s now (ISrc (S d) e)
  = (GbSt (gb_del k (gb_writers s)) (gb_next s) (gb_calls s), [CWin g Done; CUnsub (S d)], Cont).
Proof. exact @group_expire. Qed.
Theorem C19_group_recreate_after_expiry : forall A W B (key : A -> res Z) (elem : A -> res W) (dur : nat -> res bool) s now d (e : ev A) k g,
  gb_inv s -> (forall z, e <> Err z) -> gb_by_dur (S d) (gb_writers s) = Some (k, g) ->
  gb_lookup k (gb_writers (fst (fst (x_step (x_group_by_until (W:=W) (B:=B) key elem dur) s now (ISrc (S d) e))))) = None.
Proof. exact @group_recreate_after_expiry. Qed.
(* the writers table is a dict (keys unique, ids fresh) in every reachable state *)
Theorem C19_group_invariant_always : forall A W B (key : A -> res Z) (elem : A -> res W) (dur : nat -> res bool) (imm : nat -> bool) (ins : list (Z * inp A)),
  gb_inv (fst (after imm (x_group_by_until (W:=W) (B:=B) key elem dur)
                     (fst (start_state imm (x_group_by_until (W:=W) (B:=B) key elem dur)))
                     (snd (start_state imm (x_group_by_until (W:=W) (B:=B) key elem dur))) ins)).
Proof.
  intros A W B key elem dur imm ins. apply (after_state_inv imm (x_group_by_until (B:=B) key elem dur) gb_inv).
  - intros s now i. apply gb_inv_step.
  - split; [constructor|intros k g c []].
Qed.
Print Assumptions C19_group_expire.
Print Assumptions C19_group_recreate_after_expiry.
Print Assumptions C19_group_invariant_always.

(* ---- group_by as a dict of lists: CLOSED FORM for total key / element functions, every finite source,
   every termination, every group subscribed when handed ------------------------------------------- *)
(* group j is the group of the j-th distinct key (first-occurrence order); it receives exactly the mapped
   elements with that key, in arrival order, then the source's terminal *)
Theorem C19_group_by_closed_form : forall A W B (kf : A -> Z) (ef : A -> W) (xs : list A) (tm : term) (j : nat),
  wevents j (fst (run all_imm (x_group_by (B:=B) (fun x => Ok (kf x)) (fun x => Ok (ef x))) (src_events xs tm)))
  = match nth_error (distinct_keys kf xs) j with
    | Some k => map Next (map ef (filter (fun y => kf y =? k) xs)) ++ term_ev tm
    | None => []
    end.
Proof. exact @group_by_closed_form. Qed.
Theorem C19_group_by_hands : forall A W B (kf : A -> Z) (ef : A -> W) (xs : list A) (tm : term),
  hands (fst (run all_imm (x_group_by (B:=B) (fun x => Ok (kf x)) (fun x => Ok (ef x))) (src_events xs tm)))
  = combine (seq 0 (length (distinct_keys kf xs))) (distinct_keys kf xs).
Proof. exact @group_by_hands. Qed.
Print Assumptions C19_group_by_closed_form.
Print Assumptions C19_group_by_hands.

(* ---- release clauses (C02/C03 for handed groups): EVERY machine, policy, input sequence ------ *)
Theorem C19_release_when_all_ended : forall A W B (imm : nat -> bool) (m : machine A W B) ins,
  r_outer (snd (run imm m ins)) = false -> r_wsubs (snd (run imm m ins)) = [] ->
  r_live (snd (run imm m ins)) = [] /\ r_timers (snd (run imm m ins)) = [].
Proof. exact @run_all_ended_released. Qed.
Theorem C19_source_stays_subscribed : forall A W B (imm : nat -> bool) (m : machine A W B) k ins s r,
  never_unsubs m k -> mem k (r_live r) = true ->
  (forall now e, In (now, ISrc k e) ins -> is_terminal e = false) ->
  r_released (snd (after imm m s r ins)) = false ->
  mem k (r_live (snd (after imm m s r ins))) = true.
Proof. exact @source_stays_subscribed. Qed.
Theorem C19_group_keeps_source : forall A W B (key : A -> res Z) (elem : A -> res W) (dur : nat -> res bool),
  never_unsubs (x_group_by_until (A:=A) (W:=W) (B:=B) key elem dur) 0%nat.
Proof. exact @group_never_unsubs_source. Qed.
Print Assumptions C19_release_when_all_ended.
Print Assumptions C19_source_stays_subscribed.
Print Assumptions C19_group_keeps_source.

(* ---- partition ----------------------------------------------------------------------------- *)
(* a non-raising predicate sends the element to the subscribers of output 0 if it holds, of output 1
   otherwise; nothing else happens *)
Theorem C19_partition_deliver : forall A (pred : A -> res bool) (x : A) b, pred x = Ok b ->
  forall todo subs conn,
  pt_deliver pred x todo subs conn = (subs, conn, map (fun g => OWin g (Next x)) (filter (goes_to b) todo)).
Proof. exact @partition_deliver. Qed.
(* exactly one of the two outputs, never both *)
Theorem C19_partition_exactly_one : forall A (pred : A -> res bool) (x : A) b s,
  pred x = Ok b -> pt_conn s = true -> pt_stopped s = None ->
  let o := snd (pt_step pred s (ISrc 0%nat (Next x))) in
  (forall g, In (OWin g (Next x)) o <-> In g (pt_subs s) /\ goes_to b g = true)
  /\ ~ (In (OWin 0%nat (Next x)) o /\ In (OWin 1%nat (Next x)) o)
  /\ fst (pt_step pred s (ISrc 0%nat (Next x))) = s.
Proof. exact @partition_exactly_one. Qed.
(* the source is subscribed iff some output subscriber is live, in every reachable state *)
Theorem C19_partition_connected_iff_subscribed : forall A (pred : A -> res bool) (ins : list (Z * inp A)),
  pt_inv (pt_after pred (PtSt [] false None) ins).
Proof.
  intros A pred ins. assert (G : forall s, pt_inv s -> pt_inv (pt_after pred s ins)).
  { induction ins as [|[now i] rest IH]; intros s Hs; [exact Hs|]. cbn [pt_after]. apply IH, pt_step_inv, Hs. }
  apply G, pt_inv_empty.
Qed.
Theorem C19_partition_last_leaves : forall A (pred : A -> res bool) s g, pt_inv s -> pt_subs s = [g] ->
  pt_step pred s (IUnsubWin g) = (PtSt [] false (pt_stopped s), [OUnsub 0%nat]).
Proof. exact @partition_last_leaves. Qed.
Theorem C19_partition_other_stays : forall A (pred : A -> res bool) s g,
  mem g (pt_subs s) = true -> remove g (pt_subs s) <> [] ->
  pt_step pred s (IUnsubWin g) = (PtSt (remove g (pt_subs s)) (pt_conn s) (pt_stopped s), []).
Proof. exact @partition_other_stays. Qed.
Print Assumptions C19_partition_deliver.
Print Assumptions C19_partition_exactly_one.
Print Assumptions C19_partition_connected_iff_subscribed.
Print Assumptions C19_partition_last_leaves.
Print Assumptions C19_partition_other_stays.

(* ---- subject_mapper (custom subject factory of group_by / group_by_until): EVERY state ---------- *)
(* the key has a live writer: the factory is not consulted; the step is the one of the default factory *)
Theorem C19_subject_factory_not_consulted : forall A W B (key : A -> res Z) (elem : A -> res W) (dur : nat -> res bool)
    (subj : nat -> res unit) s now (x : A) k g,
  key x = Ok k -> gb_lookup k (gb_writers s) = Some g ->
  x_step (x_group_by_until_sm (B:=B) key elem dur subj) s now (ISrc 0%nat (Next x))
  = x_step (x_group_by_until (B:=B) key elem dur) s now (ISrc 0%nat (Next x)).
Proof. exact @group_sm_existing. Qed.
(* the key has no live writer and the factory raises: every open group and the outer get the error; no
   group is handed, the element goes nowhere, the state is unchanged *)
Theorem C19_subject_factory_raises : forall A W B (key : A -> res Z) (elem : A -> res W) (dur : nat -> res bool)
    (subj : nat -> res unit) s now (x : A) k e,
  key x = Ok k -> gb_lookup k (gb_writers s) = None -> subj (gb_calls s) = Raise e ->
  x_step (x_group_by_until_sm (B:=B) key elem dur subj) s now (ISrc 0%nat (Next x))
  = (s, gb_all (gb_writers s) (Err e), Fail e).
Proof. exact @group_sm_raises. Qed.
Theorem C19_subject_factory_raises_no_group : forall A W B (key : A -> res Z) (elem : A -> res W) (dur : nat -> res bool)
    (subj : nat -> res unit) s now (x : A) k e,
  key x = Ok k -> gb_lookup k (gb_writers s) = None -> subj (gb_calls s) = Raise e ->
  ghands (snd (fst (x_step (x_group_by_until_sm (B:=B) key elem dur subj) s now (ISrc 0%nat (Next x))))) = []
  /\ gwin_nexts (snd (fst (x_step (x_group_by_until_sm (B:=B) key elem dur subj) s now (ISrc 0%nat (Next x))))) = [].
Proof. exact @group_sm_raises_no_hand. Qed.
(* a factory that never raises: the machine is the machine of the default factory, at every step and
   hence on every run -- all theorems above hold with a custom factory *)
Theorem C19_subject_factory_total_step : forall A W B (key : A -> res Z) (elem : A -> res W) (dur : nat -> res bool)
    (subj : nat -> res unit), (forall j, exists u, subj j = Ok u) ->
  forall s now i, x_step (x_group_by_until_sm (B:=B) key elem dur subj) s now i
                  = x_step (x_group_by_until (B:=B) key elem dur) s now i.
Proof. exact @group_sm_total_step. Qed.
Theorem C19_subject_factory_total_run : forall A W B (key : A -> res Z) (elem : A -> res W) (dur : nat -> res bool)
    (subj : nat -> res unit) (imm : nat -> bool), (forall j, exists u, subj j = Ok u) ->
  forall ins, run imm (x_group_by_until_sm (B:=B) key elem dur subj) ins
              = run imm (x_group_by_until (B:=B) key elem dur) ins.
Proof. exact @group_sm_total_run. Qed.
Theorem C19_group_by_subject_factory_closed_form : forall A W B (kf : A -> Z) (ef : A -> W) (subj : nat -> res unit),
  (forall j, exists u, subj j = Ok u) -> forall (xs : list A) (tm : term) (j : nat),
  wevents j (fst (run all_imm (x_group_by_until_sm (B:=B) (fun x => Ok (kf x)) (fun x => Ok (ef x))
                                  (fun _ => Ok false) subj) (src_events xs tm)))
  = match nth_error (distinct_keys kf xs) j with
    | Some k => map Next (map ef (filter (fun y => kf y =? k) xs)) ++ term_ev tm
    | None => []
    end.
Proof.
  intros A W B kf ef subj Ht xs tm j. rewrite (group_sm_total_run _ _ _ subj all_imm Ht).
  exact (group_by_closed_form (B:=B) kf ef xs tm j).
Qed.
Theorem C19_subject_factory_invariant : forall A W B (key : A -> res Z) (elem : A -> res W) (dur : nat -> res bool)
    (subj : nat -> res unit) s now i,
  gb_inv s -> gb_inv (fst (fst (x_step (x_group_by_until_sm (B:=B) key elem dur subj) s now i))).
Proof. exact @gbs_inv_step. Qed.
Theorem C19_subject_factory_keeps_source : forall A W B (key : A -> res Z) (elem : A -> res W) (dur : nat -> res bool)
    (subj : nat -> res unit), never_unsubs (x_group_by_until_sm (A:=A) (W:=W) (B:=B) key elem dur subj) 0%nat.
Proof. exact @group_sm_never_unsubs_source. Qed.
Print Assumptions C19_subject_factory_not_consulted.
Print Assumptions C19_subject_factory_raises.
Print Assumptions C19_subject_factory_raises_no_group.
Print Assumptions C19_subject_factory_total_step.
Print Assumptions C19_subject_factory_total_run.
Print Assumptions C19_group_by_subject_factory_closed_form.
Print Assumptions C19_subject_factory_invariant.
Print Assumptions C19_subject_factory_keeps_source.

(* ---- partition_indexed: EVERY state ------------------------------------------------------------ *)
(* a non-raising indexed predicate: the element reaches exactly the subscribers whose verdict -- the
   predicate at THAT subscriber's own index -- selects their output; every index advances by one *)
Theorem C19_partition_indexed_routing : forall A (pred : A -> nat -> res bool) (x : A) (pb : nat -> bool) s,
  pti_conn s = true -> pti_stopped s = None ->
  (forall g c, In (g, c) (pti_subs s) -> pred x c = Ok (pb c)) ->
  let '(s', o) := pti_step pred s (ISrc 0%nat (Next x)) in
  (forall g, In (OWin g (Next x)) o <-> exists c, In (g, c) (pti_subs s) /\ goes_to_i (pb c) g = true)
  /\ s' = PtiSt (pti_bumped (pti_subs s)) true None.
Proof. exact @partition_indexed_routing. Qed.
(* subscribers that share an index (all of them subscribed before the first element, say): exactly one of
   the two outputs, never both; they still share an index afterwards *)
Theorem C19_partition_indexed_exactly_one : forall A (pred : A -> nat -> res bool) (x : A) b c s,
  pti_conn s = true -> pti_stopped s = None ->
  (forall g c', In (g, c') (pti_subs s) -> c' = c) -> pred x c = Ok b ->
  let '(s', o) := pti_step pred s (ISrc 0%nat (Next x)) in
  (forall g, In (OWin g (Next x)) o <-> In g (pti_outs (pti_subs s)) /\ goes_to_i b g = true)
  /\ ~ (In (OWin 0%nat (Next x)) o /\ In (OWin 1%nat (Next x)) o)
  /\ pti_subs s' = map (fun gc => (fst gc, S c)) (pti_subs s)
  /\ (forall g c', In (g, c') (pti_subs s') -> c' = S c).
Proof. exact @partition_indexed_exactly_one. Qed.
Theorem C19_partition_indexed_fresh_index : forall A (pred : A -> nat -> res bool) s g, pti_stopped s = None ->
  pti_subs (fst (pti_step pred s (ISubWin g))) = pti_subs s ++ [(g, 0%nat)].
Proof. exact @partition_indexed_fresh_index. Qed.
Theorem C19_partition_indexed_connected_iff_subscribed : forall A (pred : A -> nat -> res bool) (ins : list (Z * inp A)),
  pti_inv (pti_after pred (PtiSt [] false None) ins).
Proof.
  intros A pred ins. assert (G : forall s, pti_inv s -> pti_inv (pti_after pred s ins)).
  { induction ins as [|[now i] rest IH]; intros s Hs; [exact Hs|]. cbn [pti_after]. apply IH, pti_step_inv, Hs. }
  apply G, pti_inv_empty.
Qed.
Print Assumptions C19_partition_indexed_routing.
Print Assumptions C19_partition_indexed_exactly_one.
Print Assumptions C19_partition_indexed_fresh_index.
Print Assumptions C19_partition_indexed_connected_iff_subscribed.

(* ---- witnesses ------------------------------------------------------------------------------ *)
Example C19_witness_group_by :
  (* key = parity; 0 is a falsy key; every group subscribed when handed *)
  let tr := fst (run all_imm (x_group_by (B:=unit) (fun x => Ok (x mod 2)) (fun x => Ok (10 * x)))
                     [(0, ISrc 0%nat (Next 1)); (0, ISrc 0%nat (Next 2)); (0, ISrc 0%nat (Next 3));
                      (0, ISrc 0%nat (Next 4)); (0, ISrc 0%nat Done)]) in
  hands tr = [(0%nat, 1); (1%nat, 0)]
  /\ wevents 0 tr = [Next 10; Next 30; Done] /\ wevents 1 tr = [Next 20; Next 40; Done]
  /\ emitted tr = [Done].
Proof. vm_compute. auto. Qed.
Example C19_witness_expiry_and_rebirth :
  let tr := fst (run all_imm (x_group_by_until (B:=unit) (fun _ => Ok 0) (fun x => Ok x) (fun _ => Ok true))
                     [(0, ISrc 0%nat (Next 1)); (1, ISrc 1%nat (Next 99)); (2, ISrc 0%nat (Next 2));
                      (3, ISrc 0%nat (Err 7))]) in
  hands tr = [(0%nat, 0); (1%nat, 0)]
  /\ wevents 0 tr = [Next 1; Done] /\ wevents 1 tr = [Next 2; Err 7] /\ emitted tr = [Err 7].
Proof. vm_compute. auto. Qed.
Example C19_witness_partition :
  map snd (pt_run (fun x => Ok (x <? 5))
      [(0, ISubWin 0%nat); (0, ISubWin 1%nat); (1, ISrc 0%nat (Next 3)); (2, ISrc 0%nat (Next 8));
       (3, IUnsubWin 0%nat); (4, ISrc 0%nat (Next 4)); (5, IUnsubWin 1%nat); (6, ISrc 0%nat (Next 9))])
  = [OSub 0%nat; OWin 0%nat (Next 3); OWin 1%nat (Next 8); OUnsub 0%nat].
Proof. vm_compute. reflexivity. Qed.
Example C19_witness_subject_factory_raises :
  (* the factory raises at its second call: key 1 gets a group, key 0 does not -- everything errors *)
  let tr := fst (run all_imm (x_group_by_until_sm (B:=unit) (fun x => Ok (x mod 2)) (fun x => Ok x) (fun _ => Ok false)
                                (fun j => if Nat.eqb j 1 then Raise 85 else Ok tt))
                     [(0, ISrc 0%nat (Next 1)); (0, ISrc 0%nat (Next 3)); (0, ISrc 0%nat (Next 2));
                      (0, ISrc 0%nat (Next 5))]) in
  hands tr = [(0%nat, 1)] /\ wevents 0 tr = [Next 1; Next 3; Err 85] /\ emitted tr = [Err 85].
Proof. vm_compute. auto. Qed.
Example C19_witness_partition_indexed :
  (* predicate_indexed = (i is even).  Both outputs subscribed from the start share the index: 10 goes to
     output 0 only.  Output 1 then leaves and re-subscribes: its index restarts at 0 while output 0 is at 1,
     so 20 reaches neither output and 30 reaches both (each subscriber is served by its own index) *)
  map snd (pti_run (fun (_ : Z) i => Ok (Nat.even i))
      [(0, ISubWin 0%nat); (0, ISubWin 1%nat); (1, ISrc 0%nat (Next 10)); (2, IUnsubWin 1%nat); (3, ISubWin 1%nat);
       (4, ISrc 0%nat (Next 20)); (5, ISrc 0%nat (Next 30)); (6, ISrc 0%nat Done)])
  = [OSub 0%nat; OWin 0%nat (Next 10); OWin 0%nat (Next 30); OWin 1%nat (Next 30);
     OWin 0%nat Done; OWin 1%nat Done; OUnsub 0%nat].
Proof. vm_compute. reflexivity. Qed.

(* ---- partition: whole runs (Ops/PartitionRunFacts.v) ---------------------------------------- *)
(* total predicate, conforming source, both outputs subscribed before the source emits: output 0 receives
   exactly the elements satisfying the predicate, output 1 exactly the others, each in source order and
   followed by the source's terminal (ALL xs, all three terminations) *)
Theorem C19_partition_closed_form : forall A (pf : A -> bool) (xs : list A) tm,
  let tr := pt_run (fun x => Ok (pf x)) ((0, ISubWin 0%nat) :: (0, ISubWin 1%nat) :: src_events xs tm) in
  wevents 0 tr = map Next (filter pf xs) ++ term_ev tm
  /\ wevents 1 tr = map Next (filter (fun x => negb (pf x)) xs) ++ term_ev tm.
Proof. exact @partition_closed_form. Qed.
Print Assumptions C19_partition_closed_form.
(* the same from ANY connected, unstopped state: an output with exactly one live subscription (whatever
   else is subscribed, in whatever order) receives its side of the predicate ... *)
Theorem C19_partition_from_connected : forall A (pf : A -> bool) subs g k (xs : list A) tm,
  count_of g subs = 1%nat ->
  wevents g (pt_run_from (fun x => Ok (pf x)) (PtSt subs true None) k (src_events xs tm))
  = map Next (filter (fun x => goes_to (pf x) g) xs) ++ term_ev tm.
Proof. exact @partition_from_connected. Qed.
Print Assumptions C19_partition_from_connected.
(* ... and an output nobody is subscribed to sees nothing, not even the terminal *)
Theorem C19_partition_unsubscribed_output_silent : forall A (pf : A -> bool) subs g k (xs : list A) tm,
  count_of g subs = 0%nat ->
  wevents g (pt_run_from (fun x => Ok (pf x)) (PtSt subs true None) k (src_events xs tm)) = [].
Proof. exact @partition_unsubscribed_silent. Qed.
Print Assumptions C19_partition_unsubscribed_output_silent.
(* the published source is shared and hot: output 1 subscribed after the prefix xs1 misses its share of
   xs1; output 0 sees its share of everything *)
Theorem C19_partition_late_subscriber : forall A (pf : A -> bool) (xs1 xs2 : list A) tm,
  let tr := pt_run (fun x => Ok (pf x)) ((0, ISubWin 0%nat) :: src_events xs1 TNever
                                         ++ (0, ISubWin 1%nat) :: src_events xs2 tm) in
  wevents 0 tr = map Next (filter pf (xs1 ++ xs2)) ++ term_ev tm
  /\ wevents 1 tr = map Next (filter (fun x => negb (pf x)) xs2) ++ term_ev tm.
Proof. exact @partition_late_subscriber. Qed.
Print Assumptions C19_partition_late_subscriber.
Example C19_witness_partition_late_subscriber :
  let tr := pt_run (fun x => Ok (x <? 5)) ((0, ISubWin 0%nat) :: src_events [3; 8] TNever
                                           ++ (0, ISubWin 1%nat) :: src_events [9; 4; 7] TDone) in
  wevents 0 tr = [Next 3; Next 4; Done] /\ wevents 1 tr = [Next 9; Next 7; Done].
Proof. vm_compute. auto. Qed.

(* ======== run-level theorems for group_by_until and for partition with several subscriptions
   of one output (Ops/GroupUntilRunFacts.v, Ops/PartitionMultiFacts.v) ======================== *)
From RxVerif Require Import Ops.GroupUntilRunFacts Ops.PartitionMultiFacts.

(* ---- group_by_until, WHOLE RUNS: every interleaving of the source port (0) and the duration ports (1+j),
   every key / element / duration callback (raising ones included), every group subscribed when handed.
   The routing part of the trace (hand-overs, notifications on the groups, the outer's terminal, each with
   its input position) EQUALS the trace of the functional specification gbu_spec of Ops/GroupUntilRunFacts.v:
   a map key -> live group id (in creation order), a counter of fresh ids, a flag "over".  An element goes to
   the live group of its key, or -- iff there is none -- to a new group handed just before; a group whose
   duration fired is no longer live, and the next element of its key creates a fresh group; a group's
   completion comes from its duration or from the source's completion; an error of the source / of a live
   duration / of a callback goes to every live group and to the outer; nothing after the outer's terminal. *)
Theorem C19_group_by_until_refines_spec : forall A W B (key : A -> res Z) (elem : A -> res W) (dur : nat -> res bool)
    (ins : list (Z * inp A)), ports_only ins ->
  routing (fst (run all_imm (x_group_by_until (B:=B) key elem dur) ins)) = gbu_spec key elem dur ins.
Proof. exact @group_by_until_refines_spec. Qed.
Print Assumptions C19_group_by_until_refines_spec.
(* the specification's state is not hidden: after any input sequence its live map is the list of groups handed
   and not ended in its trace, "over" = the outer got its terminal, the fresh id = number of groups handed *)
Theorem C19_gbu_spec_state_is_trace_state : forall A W B (key : A -> res Z) (elem : A -> res W) (dur : nat -> res bool)
    (ins : list (Z * inp A)),
  let st := gbu_after (W:=W) (B:=B) key elem dur gbu_init ins in
  let tr := gbu_spec (W:=W) (B:=B) key elem dur ins in
  gbu_live st = trace_live tr /\ gbu_over st = negb (outer_open tr)
  /\ (gbu_over st = false -> gbu_next st = length (hands tr)).
Proof. exact @gbu_state_is_trace_state. Qed.
Print Assumptions C19_gbu_spec_state_is_trace_state.
(* hence, on the run's trace alone: what the next input adds is the specification's step from the state that
   the trace so far shows *)
Theorem C19_gbu_next_input_run : forall A W B (key : A -> res Z) (elem : A -> res W) (dur : nat -> res bool)
    (pre : list (Z * inp A)) now i, ports_only (pre ++ [(now, i)]) ->
  let tr := routing (fst (run all_imm (x_group_by_until (B:=B) key elem dur) pre)) in
  routing (fst (run all_imm (x_group_by_until (B:=B) key elem dur) (pre ++ [(now, i)])))
  = tr ++ map (fun o => (S (length pre), o)) (snd (gbu_step key elem dur (trace_state tr) i)).
Proof. exact @gbu_next_input_run. Qed.
Print Assumptions C19_gbu_next_input_run.
(* an element (non-raising callbacks) goes to exactly ONE group: the live group of its key if the trace shows
   one -- then nothing is handed --, otherwise a NEW group, numbered by the groups handed so far, handed to the
   outer just before the element *)
Theorem C19_gbu_element_run : forall A W B (key : A -> res Z) (elem : A -> res W) (dur : nat -> res bool)
    (pre : list (Z * inp A)) now (x : A) k (y : W), ports_only pre ->
  let tr := routing (fst (run all_imm (x_group_by_until (B:=B) key elem dur) pre)) in
  outer_open tr = true -> key x = Ok k -> elem x = Ok y ->
  (gbu_find k (trace_live tr) = None -> exists h, dur (length (hands tr)) = Ok h) ->
  routing (fst (run all_imm (x_group_by_until (B:=B) key elem dur) (pre ++ [(now, ISrc 0%nat (Next x))])))
  = tr ++ map (fun o => (S (length pre), o))
       (match gbu_find k (trace_live tr) with
        | Some g => [OWin g (Next y)]
        | None => [OHand (length (hands tr)) k; OWin (length (hands tr)) (Next y)]
        end).
Proof.
  intros A W B key elem dur pre now x k y Hpre; cbn zeta; intros Ho Hk He Hd.
  rewrite (gbu_next_input_run key elem dur pre now _ (ports_only_snoc pre now (ISrc 0%nat (Next x)) Hpre eq_refl)).
  now rewrite (open_element key elem dur _ x k y Ho Hk He Hd).
Qed.
Print Assumptions C19_gbu_element_run.
(* the live groups always have pairwise different keys (and ids): "THE live group of a key" *)
Theorem C19_gbu_live_keys_unique : forall A W B (key : A -> res Z) (elem : A -> res W) (dur : nat -> res bool)
    (pre : list (Z * inp A)), ports_only pre ->
  let tr := routing (fst (run all_imm (x_group_by_until (B:=B) key elem dur) pre)) in
  NoDup (map fst (trace_live tr)) /\ NoDup (map snd (trace_live tr)).
Proof.
  intros A W B key elem dur pre Hp; cbn zeta.
  destruct (run_state (B:=B) key elem dur pre Hp) as [H1 _]. rewrite <- H1.
  eapply gbu_R_nodup, (gbu_refine_run (B:=B) key elem dur pre _ _ gbu_init 1%nat (gbu_R_start (B:=B) key elem dur) Hp).
Qed.
Print Assumptions C19_gbu_live_keys_unique.
(* a duration port fires (element or completion): its group, if live, completes and is no longer live --
   nothing else happens; a port whose group is not live (any more) does nothing *)
Theorem C19_gbu_expiry_run : forall A W B (key : A -> res Z) (elem : A -> res W) (dur : nat -> res bool)
    (pre : list (Z * inp A)) now d (e : ev A), ports_only pre ->
  let tr := routing (fst (run all_imm (x_group_by_until (B:=B) key elem dur) pre)) in
  let tr' := routing (fst (run all_imm (x_group_by_until (B:=B) key elem dur) (pre ++ [(now, ISrc (S d) e)]))) in
  outer_open tr = true -> (forall z, e <> Err z) ->
  tr' = tr ++ (if gbu_is_live d (trace_live tr) && gbu_hot dur d then [(S (length pre), OWin d Done)] else [])
  /\ (gbu_is_live d (trace_live tr) && gbu_hot dur d = true -> gbu_is_live d (trace_live tr') = false).
Proof.
  intros A W B key elem dur pre now d e Hpre; cbn zeta; intros Ho He.
  rewrite (gbu_next_input_run key elem dur pre now _ (ports_only_snoc pre now (ISrc (S d) e) Hpre eq_refl)),
    (open_expiry key elem dur _ d e Ho He).
  generalize (routing (fst (run all_imm (x_group_by_until (B:=B) key elem dur) pre))). intros tr.
  destruct (gbu_is_live d (trace_live tr) && gbu_hot dur d); split; try reflexivity; try discriminate.
  intros _. apply ended_not_live.
Qed.
Print Assumptions C19_gbu_expiry_run.
(* the source's terminal (z = None: completion, Some e: error): every live group gets it, in hand-over
   order, then the outer; whatever comes after adds nothing *)
Theorem C19_gbu_source_terminal_run : forall A W B (key : A -> res Z) (elem : A -> res W) (dur : nat -> res bool)
    (pre : list (Z * inp A)) now z post, ports_only (pre ++ (now, ISrc 0%nat (tev z)) :: post) ->
  let tr := routing (fst (run all_imm (x_group_by_until (B:=B) key elem dur) pre)) in
  outer_open tr = true ->
  routing (fst (run all_imm (x_group_by_until (B:=B) key elem dur) (pre ++ (now, ISrc 0%nat (tev z)) :: post)))
  = tr ++ map (fun o => (S (length pre), o)) (gbu_end (trace_live tr) z).
Proof.
  intros A W B key elem dur pre now z post Hp; cbn zeta; intros Ho.
  eapply gbu_ending_trace; [exact Hp|open_step Ho; destruct z; reflexivity|reflexivity].
Qed.
Print Assumptions C19_gbu_source_terminal_run.
(* any input that ends the specification (source terminal, error of a live duration, raising callback):
   the trace is the trace so far plus that input's routing -- nothing after *)
Theorem C19_gbu_ending_run : forall A W B (key : A -> res Z) (elem : A -> res W) (dur : nat -> res bool)
    (pre : list (Z * inp A)) now i post, ports_only (pre ++ (now, i) :: post) ->
  gbu_over (fst (gbu_step (W:=W) (B:=B) key elem dur (gbu_after (W:=W) (B:=B) key elem dur gbu_init pre) i)) = true ->
  routing (fst (run all_imm (x_group_by_until (B:=B) key elem dur) (pre ++ (now, i) :: post)))
  = routing (fst (run all_imm (x_group_by_until (B:=B) key elem dur) pre))
    ++ map (fun o => (S (length pre), o)) (snd (gbu_step key elem dur (gbu_after (W:=W) (B:=B) key elem dur gbu_init pre) i)).
Proof. exact @gbu_ending_run. Qed.
Print Assumptions C19_gbu_ending_run.

(* ---- raising callbacks, WHOLE RUNS: the error goes to every group handed and not ended (hand-over order),
   then to the outer; nothing after, whatever the rest of the input is ---- *)
Theorem C19_gbu_key_raises_run : forall A W B (key : A -> res Z) (elem : A -> res W) (dur : nat -> res bool)
    (pre : list (Z * inp A)) now (x : A) post e, ports_only (pre ++ (now, ISrc 0%nat (Next x)) :: post) ->
  let tr := routing (fst (run all_imm (x_group_by_until (B:=B) key elem dur) pre)) in
  outer_open tr = true -> key x = Raise e ->
  routing (fst (run all_imm (x_group_by_until (B:=B) key elem dur) (pre ++ (now, ISrc 0%nat (Next x)) :: post)))
  = tr ++ map (fun o => (S (length pre), o)) (gbu_end (trace_live tr) (Some e)).
Proof.
  intros A W B key elem dur pre now x post e Hp; cbn zeta; intros Ho Hk.
  eapply gbu_ending_trace; [exact Hp|open_step Ho; rewrite Hk; reflexivity|reflexivity].
Qed.
Theorem C19_gbu_elem_raises_existing_run : forall A W B (key : A -> res Z) (elem : A -> res W) (dur : nat -> res bool)
    (pre : list (Z * inp A)) now (x : A) post k g e, ports_only (pre ++ (now, ISrc 0%nat (Next x)) :: post) ->
  let tr := routing (fst (run all_imm (x_group_by_until (B:=B) key elem dur) pre)) in
  outer_open tr = true -> key x = Ok k -> gbu_find k (trace_live tr) = Some g -> elem x = Raise e ->
  routing (fst (run all_imm (x_group_by_until (B:=B) key elem dur) (pre ++ (now, ISrc 0%nat (Next x)) :: post)))
  = tr ++ map (fun o => (S (length pre), o)) (gbu_end (trace_live tr) (Some e)).
Proof.
  intros A W B key elem dur pre now x post k g e Hp; cbn zeta; intros Ho Hk Hf He.
  eapply gbu_ending_trace; [exact Hp|open_step Ho; rewrite Hk, Hf, He; reflexivity|reflexivity].
Qed.
(* the element mapper raises on the first element of a new group: the group is handed first, then errored
   together with all the others *)
Theorem C19_gbu_elem_raises_new_run : forall A W B (key : A -> res Z) (elem : A -> res W) (dur : nat -> res bool)
    (pre : list (Z * inp A)) now (x : A) post k hb e, ports_only (pre ++ (now, ISrc 0%nat (Next x)) :: post) ->
  let tr := routing (fst (run all_imm (x_group_by_until (B:=B) key elem dur) pre)) in
  let n := length (hands tr) in
  outer_open tr = true -> key x = Ok k -> gbu_find k (trace_live tr) = None -> dur n = Ok hb -> elem x = Raise e ->
  routing (fst (run all_imm (x_group_by_until (B:=B) key elem dur) (pre ++ (now, ISrc 0%nat (Next x)) :: post)))
  = tr ++ map (fun o => (S (length pre), o)) (OHand n k :: gbu_end (trace_live tr ++ [(k, n)]) (Some e)).
Proof.
  intros A W B key elem dur pre now x post k hb e Hp; cbn zeta; intros Ho Hk Hf Hd He.
  eapply gbu_ending_trace; [exact Hp|open_step Ho; rewrite Hk, Hf, Hd, He; reflexivity|reflexivity].
Qed.
(* the duration mapper raises: no group is handed; the groups that were live and the outer get the error *)
Theorem C19_gbu_dur_raises_run : forall A W B (key : A -> res Z) (elem : A -> res W) (dur : nat -> res bool)
    (pre : list (Z * inp A)) now (x : A) post k e, ports_only (pre ++ (now, ISrc 0%nat (Next x)) :: post) ->
  let tr := routing (fst (run all_imm (x_group_by_until (B:=B) key elem dur) pre)) in
  outer_open tr = true -> key x = Ok k -> gbu_find k (trace_live tr) = None -> dur (length (hands tr)) = Raise e ->
  routing (fst (run all_imm (x_group_by_until (B:=B) key elem dur) (pre ++ (now, ISrc 0%nat (Next x)) :: post)))
  = tr ++ map (fun o => (S (length pre), o)) (gbu_end (trace_live tr) (Some e)).
Proof.
  intros A W B key elem dur pre now x post k e Hp; cbn zeta; intros Ho Hk Hf Hd.
  eapply gbu_ending_trace; [exact Hp|open_step Ho; rewrite Hk, Hf, Hd; reflexivity|reflexivity].
Qed.
Print Assumptions C19_gbu_key_raises_run.
Print Assumptions C19_gbu_elem_raises_existing_run.
Print Assumptions C19_gbu_elem_raises_new_run.
Print Assumptions C19_gbu_dur_raises_run.

(* witnesses: the hypotheses are satisfiable in non-trivial reachable states, and the specification is not
   the empty trace.  Keys = parity; every duration is a real observable.  1 -> group 0 (key 1); 2 -> group 1
   (key 0); duration of group 0 fires; 3 -> group 2 (key 1, reborn); 99: the key mapper raises *)
Example C19_witness_gbu_spec :
  let key := fun x => if x =? 99 then Raise 7 else Ok (x mod 2) in
  let ins := [(0, ISrc 0%nat (Next 1)); (1, ISrc 0%nat (Next 2)); (2, ISrc 1%nat (Next 50)); (3, ISrc 0%nat (Next 3));
              (4, ISrc 1%nat (Next 51)); (5, ISrc 0%nat (Next 99)); (6, ISrc 0%nat (Next 5)); (7, ISrc 2%nat Done)] in
  ports_only ins
  /\ gbu_spec (B:=unit) key (fun x => Ok (10 * x)) (fun _ => Ok true) ins
     = [(1%nat, OHand 0%nat 1); (1%nat, OWin 0%nat (Next 10)); (2%nat, OHand 1%nat 0); (2%nat, OWin 1%nat (Next 20));
        (3%nat, OWin 0%nat Done); (4%nat, OHand 2%nat 1); (4%nat, OWin 2%nat (Next 30));
        (6%nat, OWin 1%nat (Err 7)); (6%nat, OWin 2%nat (Err 7)); (6%nat, OEmit (Err 7))]
  /\ routing (fst (run all_imm (x_group_by_until (B:=unit) key (fun x => Ok (10 * x)) (fun _ => Ok true)) ins))
     = gbu_spec (B:=unit) key (fun x => Ok (10 * x)) (fun _ => Ok true) ins.
Proof.
  cbn zeta. split; [|split; vm_compute; reflexivity].
  intros p Hp. repeat (destruct Hp as [<-|Hp]; [reflexivity|]). destruct Hp.
Qed.
Example C19_witness_gbu_trace_state :
  (* after 1, 2, duration of group 0, 3: the trace shows groups 1 (key 0) and 2 (key 1) live, three groups
     handed, outer open; key 1 has the live group 2, key 5 has none *)
  let tr := routing (fst (run all_imm (x_group_by_until (B:=unit) (fun x => Ok (x mod 2)) (fun x => Ok x) (fun _ => Ok true))
                       [(0, ISrc 0%nat (Next 1)); (1, ISrc 0%nat (Next 2)); (2, ISrc 1%nat (Next 50)); (3, ISrc 0%nat (Next 3))])) in
  trace_live tr = [(0, 1%nat); (1, 2%nat)] /\ outer_open tr = true /\ length (hands tr) = 3%nat
  /\ gbu_find 1 (trace_live tr) = Some 2%nat /\ gbu_find 5 (trace_live tr) = None
  /\ gbu_is_live 1 (trace_live tr) = true /\ gbu_is_live 0 (trace_live tr) = false.
Proof. vm_compute. repeat split; reflexivity. Qed.

(* ---- partition with ANY number of simultaneous subscriptions of the same output: WHOLE RUNS ------------
   total predicate; EVERY input sequence (subscriptions / disposals of either output in any number at any time,
   source notifications conforming or not): output g shows exactly the trace of the counting specification
   pv_view (Ops/PartitionMultiFacts.v) -- an element of g's side is delivered once per subscription of g live
   when it is emitted (each subscription gets its own copy, from ITS subscription point on: the published
   source is hot, nothing is replayed), elements of the other side never, the terminal once per live
   subscription, a subscription after the terminal gets it at once, nothing is delivered (and what the source
   emits is lost) while nobody is subscribed *)
Theorem C19_partition_refines_counting_spec : forall A (pf : A -> bool) g (ins : list (Z * inp A)),
  wevents g (pt_run (fun x => Ok (pf x)) ins) = pv_view pf g ins.
Proof. exact @partition_refines_counting_spec. Qed.
Print Assumptions C19_partition_refines_counting_spec.
(* n live subscriptions of output g while a conforming source runs: every element of g's side and the terminal
   are delivered n times, one copy per subscription (n = 1: C19_partition_from_connected; n = 0: ..._silent);
   Ops/PartitionRunFacts.v *)
Theorem C19_partition_from_connected_n : forall A (pf : A -> bool) subs g k (xs : list A) tm,
  wevents g (pt_run_from (fun x => Ok (pf x)) (PtSt subs true None) k (src_events xs tm))
  = flat_map (fun x => repeat (Next x) (count_of g subs)) (filter (fun x => goes_to (pf x) g) xs)
    ++ flat_map (fun e => repeat e (count_of g subs)) (term_ev tm).
Proof. exact @partition_from_connected_n. Qed.
Print Assumptions C19_partition_from_connected_n.
(* two subscriptions of the SAME output, the second made after the prefix xs1: the output shows g's side of
   xs1 once (first subscription only), g's side of xs2 twice and the terminal twice -- the first subscription
   gets g's side of xs1 ++ xs2, the second g's side of xs2 only *)
Theorem C19_partition_same_output_twice : forall A (pf : A -> bool) g (xs1 xs2 : list A) tm,
  wevents g (pt_run (fun x => Ok (pf x)) ((0, ISubWin g) :: src_events xs1 TNever ++ (0, ISubWin g) :: src_events xs2 tm))
  = map Next (filter (fun x => goes_to (pf x) g) xs1)
    ++ flat_map (fun x => [Next x; Next x]) (filter (fun x => goes_to (pf x) g) xs2)
    ++ flat_map (fun e => [e; e]) (term_ev tm).
Proof. exact @partition_same_output_twice. Qed.
Print Assumptions C19_partition_same_output_twice.
Example C19_witness_partition_multi :
  (* output 0 subscribed, 3 8; output 0 subscribed again, 9 4; one subscription of 0 disposed, 1; output 1
     subscribed, 7 2, done; output 0 subscribed after the end *)
  let ins := [(0, ISubWin 0%nat); (1, ISrc 0%nat (Next 3)); (2, ISrc 0%nat (Next 8)); (3, ISubWin 0%nat);
              (4, ISrc 0%nat (Next 9)); (5, ISrc 0%nat (Next 4)); (6, IUnsubWin 0%nat); (7, ISrc 0%nat (Next 1));
              (8, ISubWin 1%nat); (9, ISrc 0%nat (Next 7)); (10, ISrc 0%nat (Next 2)); (11, ISrc 0%nat Done);
              (12, ISubWin 0%nat)] in
  pv_view (fun x => x <? 5) 0 ins = [Next 3; Next 4; Next 4; Next 1; Next 2; Done; Done]
  /\ pv_view (fun x => x <? 5) 1 ins = [Next 7; Done]
  /\ wevents 0 (pt_run (fun x => Ok (x <? 5)) ins) = pv_view (fun x => x <? 5) 0 ins.
Proof. vm_compute. repeat split; reflexivity. Qed.
