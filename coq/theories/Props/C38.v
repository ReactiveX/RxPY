(* C38 -- marble diagrams mean what the documented syntax says.
   Model: Ops/Marbles.v (reactivex/observable/marbles.py: parse, and the scheduling
   done by from_marbles / hot), tied to the code by the correspondence of
   harness/props/C38.py.  Up to the section "values: int()", all theorems hold for every
   value function [valof], every string / every well-formed diagram; from there on they are
   about the value function of the code (number parsing + lookup, Ops/MarbleNumbers.v).
   Times: the parser's timestamp of frame k is  k * timespan + time_shift. *)
From Coq Require Import List Ascii String Bool Arith.
From RxVerif Require Import Ops.Marbles Ops.MarblesFacts.
Import ListNotations.
Open Scope char_scope.
Open Scope list_scope.

(* A well-formed diagram d (ticks, single/multi-character values, | , #, groups),
   written as ANY string s that equals its rendering once spaces are removed,
   parses to exactly its meaning [denote d]: every item contributes its
   notification(s) at frame = number of characters rendered before it (the index
   of its first character, spaces not counted); the members of a group all get
   the index of the opening parenthesis; values go through valof.  With
   raise_stopped the string is rejected iff an element follows a terminal one. *)
Theorem C38_parse_is_diagram_meaning :
  forall (V : Type) (valof : str -> V) (rs : bool) (d : list item) (s : str),
    wf d = true -> remove_spaces s = render d ->
    parse_model V valof rs s =
    if negb rs || stop_ok (elements d) then inr (denote V valof d) else inl ErrStopped.
Proof. exact parse_render. Qed.
Print Assumptions C38_parse_is_diagram_meaning.

(* what [denote] is: each item paired with the items before it; the frame is the
   length of the text before it *)
Theorem C38_meaning_is_index_of_first_character :
  forall (V : Type) (valof : str -> V) (d : list item),
    denote V valof d
    = flat_map (fun pi => msgs_of_item V valof (List.length (render (fst pi))) (snd pi)) (splits d)
    /\ forall pre it, In (pre, it) (splits d) <-> exists post, d = pre ++ it :: post.
Proof. intros V valof d. split; [reflexivity | apply splits_spec]. Qed.
Print Assumptions C38_meaning_is_index_of_first_character.

Theorem C38_spaces_are_ignored :
  forall (V : Type) (valof : str -> V) rs s s',
    remove_spaces s = remove_spaces s' -> parse_model V valof rs s = parse_model V valof rs s'.
Proof. intros V valof rs s s' H. unfold parse_model. rewrite H. reflexivity. Qed.
Print Assumptions C38_spaces_are_ignored.

(* ALL strings: with raise_stopped nothing is produced after a terminal notification *)
Theorem C38_nothing_after_terminal :
  forall (V : Type) (valof : str -> V) (s : str) ms,
    parse_model V valof true s = inr ms ->
    forall pre m post, ms = pre ++ m :: post -> is_terminal V m = true -> post = [].
Proof. intros V valof s ms H. eapply term_last_spec, parse_terminal_last. exact H. Qed.
Print Assumptions C38_nothing_after_terminal.

(* ALL strings: timestamps never decrease along the message list *)
Theorem C38_frames_never_decrease :
  forall (V : Type) (valof : str -> V) rs (s : str) ms,
    parse_model V valof rs s = inr ms -> sorted_from V 0 ms.
Proof. exact parse_frames_sorted. Qed.
Print Assumptions C38_frames_never_decrease.

(* from_marbles / cold: a virtual-time scheduler (actions by due time, then
   insertion order) delivers exactly the parsed messages, in order *)
Theorem C38_cold_delivers_parsed :
  forall (V : Type) (valof : str -> V) (s : str) ms,
    parse_model V valof true s = inr ms -> cold_delivery V ms = ms.
Proof. exact cold_delivery_parsed. Qed.
Print Assumptions C38_cold_delivers_parsed.

(* hot: an observer subscribing at frame time sub (after the messages were
   scheduled) receives exactly the parsed messages due strictly later *)
Theorem C38_hot_delivers_parsed :
  forall (V : Type) (valof : str -> V) (s : str) ms sub,
    parse_model V valof true s = inr ms ->
    hot_delivery V sub ms = filter (fun m => Nat.ltb sub (fst m)) ms.
Proof. exact hot_delivery_parsed. Qed.
Print Assumptions C38_hot_delivers_parsed.

(* ---- non-vacuity / documented examples -------------------------------------------- *)

(* the docstring's example: "--(12,3,4)--" emits 12, 3, 4 at 2 and then advances by 8 *)
Example C38_doc_group :
  parse_model str idv true (l "--(12,3,4)--|")
  = inr [(2, NNext (l "12")); (2, NNext (l "3")); (2, NNext (l "4")); (12, NCompleted)].
Proof. vm_compute. reflexivity. Qed.

Example C38_doc_group_as_diagram :
  wf [ITicks 2; IGroup [l "12"; l "3"; l "4"]; ITicks 2; IEnd] = true
  /\ render [ITicks 2; IGroup [l "12"; l "3"; l "4"]; ITicks 2; IEnd] = l "--(12,3,4)--|"
  /\ denote str idv [ITicks 2; IGroup [l "12"; l "3"; l "4"]; ITicks 2; IEnd]
     = [(2, NNext (l "12")); (2, NNext (l "3")); (2, NNext (l "4")); (12, NCompleted)].
Proof. repeat split; vm_compute; reflexivity. Qed.

Example C38_spaces_and_multichar :
  parse_model str idv true (l "- ab - - c|") = inr [(1, NNext (l "ab")); (5, NNext (l "c")); (6, NCompleted)].
Proof. vm_compute. reflexivity. Qed.

Example C38_rejects_after_terminal :
  parse_model str idv true (l "-a|-b") = inl ErrStopped
  /\ parse_model str idv false (l "-a|-b") = inr [(1, NNext (l "a")); (2, NCompleted); (4, NNext (l "b"))]
  /\ parse_model str idv true (l "-a,b") = inl ErrComma.
Proof. repeat split; vm_compute; reflexivity. Qed.

(* outside the documented syntax (unbalanced parenthesis) the code silently drops the
   parenthesis WITHOUT advancing time: b is at index 2 but gets frame 1 *)
Example C38_unbalanced_parenthesis_quirk :
  parse_model str idv true (l "a(b") = inr [(0, NNext (l "a")); (1, NNext (l "b"))].
Proof. vm_compute. reflexivity. Qed.

(* ==== the lexer, which strings are diagrams, integer elements ======================== *)
From Coq Require Import ZArith PrimFloat.
From RxVerif Require Import Ops.MarblesCover Ops.MarbleNumbers Ops.MarbleNumbersFacts.

(* ---- the lexer never runs out of fuel ------------------------------------------------ *)
(* [lex s] runs [lex_aux] with fuel = length s; any larger fuel gives the same
   tokens, so no theorem above holds because a long string was silently truncated *)
Theorem C38_lexer_fuel_adequate :
  forall (s : str) (k : nat), lex_aux (List.length s + k) s = lex s.
Proof. exact lex_fuel. Qed.
Print Assumptions C38_lexer_fuel_adequate.

(* hence [lex] satisfies, without fuel, the equation of re.findall on
   (\(.*?\))|(-+)|(,)|(#|\||[^-,()#\|]+) : alternatives in order at every position,
   an unmatched parenthesis is skipped *)
Theorem C38_lexer_equation :
  lex [] = [] /\
  forall c r, lex (c :: r) =
    if ch_eqb c "(" then
      match find_close r with
      | Some (content, rest) => TGroup content :: lex rest
      | None => lex r
      end
    else if ch_eqb c "-" then
      let (t, rest) := span is_dash r in TTicks (S (List.length t)) :: lex rest
    else if ch_eqb c "," then TComma :: lex r
    else if ch_eqb c "#" then TElem [c] :: lex r
    else if ch_eqb c "|" then TElem [c] :: lex r
    else if ch_eqb c ")" then lex r
    else let (t, rest) := span elem_char r in TElem (c :: t) :: lex rest.
Proof. exact (conj lex_nil lex_cons). Qed.
Print Assumptions C38_lexer_equation.

(* ---- coverage: which strings are diagrams -------------------------------------------- *)
(* [clean_str]: read directly off the string -- no "," and no ")" outside a group,
   every "(" closed by a ")" before the end of the line.  Every such string (spaces
   removed) is the rendering of a well-formed diagram ... *)
Theorem C38_clean_strings_are_diagrams :
  forall s : str, clean_str (remove_spaces s) = true ->
    exists d, wf d = true /\ render d = remove_spaces s.
Proof. exact cover_string. Qed.
Print Assumptions C38_clean_strings_are_diagrams.

(* ... the same with "clean" read off the token list: no comma token, and the tokens
   written back give the string, i.e. the lexer skipped no parenthesis.  (The skipped
   characters cannot be seen in the token list alone, so [clean] also takes the string.) *)
Theorem C38_clean_tokens_are_diagrams :
  forall s : str, clean (remove_spaces s) (lex (remove_spaces s)) = true ->
    exists d, wf d = true /\ render d = remove_spaces s.
Proof. intros s H. apply cover_string, clean_iff_tokens. exact H. Qed.
Print Assumptions C38_clean_tokens_are_diagrams.

Theorem C38_clean_string_iff_clean_tokens :
  forall t : str, clean_str t = true <-> clean t (lex t) = true.
Proof. exact clean_iff_tokens. Qed.
Print Assumptions C38_clean_string_iff_clean_tokens.

(* exactly: the renderings of well-formed diagrams are the clean strings without spaces *)
Theorem C38_diagrams_are_exactly_the_clean_strings :
  forall t : str, (exists d, wf d = true /\ render d = t) <-> (clean_str t = true /\ nospace t = true).
Proof.
  intros t. split.
  - intros [d [H1 H2]]. subst t. apply wf_render_clean. exact H1.
  - intros [H1 H2]. destruct (cover t H1 H2) as [d [A [B _]]]. exists d. split; assumption.
Qed.
Print Assumptions C38_diagrams_are_exactly_the_clean_strings.

(* so C38_parse_is_diagram_meaning applies to every clean string *)
Theorem C38_clean_string_parses_to_a_diagram_meaning :
  forall (V : Type) (valof : str -> V) (rs : bool) (s : str),
    clean_str (remove_spaces s) = true ->
    exists d, wf d = true /\ remove_spaces s = render d /\
      parse_model V valof rs s =
      if negb rs || stop_ok (elements d) then inr (denote V valof d) else inl ErrStopped.
Proof.
  intros V valof rs s H. destruct (cover_string s H) as [d [Hw Hr]]. exists d.
  split; [exact Hw|]. split; [symmetry; exact Hr|]. exact (parse_render V valof rs d s Hw (eq_sym Hr)).
Qed.
Print Assumptions C38_clean_string_parses_to_a_diagram_meaning.

(* a comma outside a group is always a ValueError, and the comma error without raise_stopped *)
Theorem C38_stray_comma_rejected :
  forall (V : Type) (valof : str -> V) (rs : bool) (s : str),
    no_comma (lex (remove_spaces s)) = false ->
    (exists e, parse_model V valof rs s = inl e) /\ parse_model V valof false s = inl ErrComma.
Proof.
  intros V valof rs s H. split.
  - destruct (parse_tokens_comma V valof rs _ 0 false H) as [e [He _]]. exists e. exact He.
  - destruct (parse_tokens_comma V valof false _ 0 false H) as [e [He Hc]]. rewrite (Hc eq_refl) in He. exact He.
Qed.
Print Assumptions C38_stray_comma_rejected.

Example C38_clean_examples :
  clean_str (l "--(12,3,4)--|") = true /\ clean_str (l "a(b") = false /\ clean_str (l "a)b") = false
  /\ clean_str (l "-a,b") = false /\ clean_str (l "((a)") = true
  /\ no_comma (lex (l "-a,b")) = false
  /\ clean (l "a(b") (lex (l "a(b")) = false.
Proof. repeat split; vm_compute; reflexivity. Qed.

(* ---- values: int() ------------------------------------------------------------------- *)
(* The integer reading first: these statements mention Z only and are closed under the
   global context.  The statements about try_number / valof / time_of are in the last
   section of this file ("number parsing, lookup and timestamps"), which says why they are not. *)

(* int(str(z)) = z for EVERY integer; render_Z is the standard library's decimal
   printing (optional "-", digits, no leading zero) *)
Theorem C38_int_elements_read_back :
  forall z : Z, parse_int (render_Z z) = Some z.
Proof. exact parse_int_render_Z. Qed.
Print Assumptions C38_int_elements_read_back.

(* every non-empty string of decimal digits, leading zeros allowed, also behind a sign *)
Theorem C38_digit_strings_read_as_int :
  forall d : Decimal.uint, d <> Decimal.Nil ->
    parse_int (uchars d) = Some (Z.of_uint d)
    /\ parse_int ("+" :: uchars d) = Some (Z.of_uint d)
    /\ parse_int ("-" :: uchars d) = Some (- Z.of_uint d)%Z.
Proof. exact parse_int_uint. Qed.
Print Assumptions C38_digit_strings_read_as_int.

(* int() accepts nothing with a character outside 0-9 _ + - (numeric_char also has . e E) *)
Theorem C38_int_needs_numeric_characters :
  forall (s : str) (z : Z), parse_int s = Some z -> forallb numeric_char s = true.
Proof. exact parse_int_numeric. Qed.
Print Assumptions C38_int_needs_numeric_characters.

Example C38_int_examples :
  render_Z (-1203) = l "-1203" /\ render_Z 0 = l "0"
  /\ uchars (Decimal.D0 (Decimal.D0 (Decimal.D4 (Decimal.D2 Decimal.Nil)))) = l "0042"
  /\ parse_int (l "0042") = Some 42%Z /\ parse_int (l "1_000") = Some 1000%Z
  /\ parse_int (l "1__0") = None /\ parse_int (l "x1") = None
  /\ forallb numeric_char (l "1x") = false.
Proof. repeat split; vm_compute; reflexivity. Qed.

(* ==== number parsing, lookup and timestamps ============================================
   (statements mention PrimFloat: Print Assumptions lists the kernel's primitive
   float/int63 operations, no axiom)
   The value model [pyval] has a float constructor and [pytime] a float timestamp, both
   of Coq's primitive type PrimFloat.float; every statement about try_number / valof /
   time_of / cold_case / hot_case therefore mentions that type, and Print Assumptions
   prints the kernel primitives it is built from (PrimFloat.float, PrimFloat.mul,
   PrimFloat.of_uint63, PrimInt63.int, ...) instead of "Closed under the global
   context".  They are primitives of the kernel, declared by Coq's own library with
   [Primitive], not axioms of this development; none of the proofs below reasons about
   floating-point arithmetic (no FloatAxioms lemma is used). *)

(* the decimal rendering of EVERY integer is read as that int *)
Theorem C38_try_number_render_Z : forall z : Z, try_number (render_Z z) = PInt z.
Proof. exact try_number_render_Z. Qed.
Print Assumptions C38_try_number_render_Z.

(* lookup_.get(v, v) with v = try_number(element): the entry of the first key equal to v
   (Python == between str / int / float keys), else v itself *)
Theorem C38_valof_spec : forall (lk : list (pyval * pyval)) (s : str),
  valof lk s = match find (fun kv => py_eq (try_number s) (fst kv)) lk with
               | Some kv => snd kv
               | None => try_number s
               end.
Proof. exact valof_spec. Qed.
Print Assumptions C38_valof_spec.

Theorem C38_valof_first_key : forall (lk1 : list (pyval * pyval)) (k v : pyval) (lk2 : list (pyval * pyval)) (s : str),
  (forall kv, In kv lk1 -> py_eq (try_number s) (fst kv) = false) ->
  py_eq (try_number s) k = true -> valof (lk1 ++ (k, v) :: lk2) s = v.
Proof. exact valof_first_key. Qed.
Print Assumptions C38_valof_first_key.

Theorem C38_valof_no_key : forall (lk : list (pyval * pyval)) (s : str),
  (forall kv, In kv lk -> py_eq (try_number s) (fst kv) = false) -> valof lk s = try_number s.
Proof. exact valof_no_key. Qed.
Print Assumptions C38_valof_no_key.

(* printable ASCII (codes 33..126: the model's domain, no whitespace), not [sign]
   inf / infinity / nan, first character after an optional sign neither a digit nor "." :
   the element stays a string *)
Theorem C38_try_number_string_printable : forall s : str, forallb printable s = true ->
  special_float (map lower (body s)) = false -> non_numeric_head (body s) -> try_number s = PStr s.
Proof. exact try_number_string_printable. Qed.
Print Assumptions C38_try_number_string_printable.

(* ... or containing a character outside 0-9 _ . e E + - *)
Theorem C38_try_number_foreign_char_printable : forall s : str, forallb printable s = true ->
  forallb numeric_char s = false -> special_float (map lower (body s)) = false -> try_number s = PStr s.
Proof. exact try_number_foreign_char_printable. Qed.
Print Assumptions C38_try_number_foreign_char_printable.

(* exactly: an element stays a string iff neither int() nor float() reads it *)
Theorem C38_try_number_is_string_iff : forall s : str,
  try_number s = PStr s <-> (parse_int s = None /\ parse_float s = None).
Proof. exact try_number_is_string_iff. Qed.
Print Assumptions C38_try_number_is_string_iff.

(* timestamp of frame k = k * timespan + time_shift in Python's arithmetic: int*int+int is
   an exact integer; with a float operand the int is converted (zf = float(int)) and the
   operations are the binary64 ones *)
Theorem C38_time_of_spec : forall (ts sh : pytime) (k : nat),
  time_of ts sh k =
  match ts, sh with
  | TI t, TI b => TI (Z.of_nat k * t + b)
  | TI t, TF b => TF (zf (Z.of_nat k * t) + b)%float
  | TF t, TI b => TF (zf (Z.of_nat k) * t + zf b)%float
  | TF t, TF b => TF (zf (Z.of_nat k) * t + b)%float
  end.
Proof. exact time_of_spec. Qed.
Print Assumptions C38_time_of_spec.

Theorem C38_time_of_int : forall (t b : Z) (k : nat), time_of (TI t) (TI b) k = TI (Z.of_nat k * t + b).
Proof. exact time_of_int. Qed.
Print Assumptions C38_time_of_int.

(* integer timespan >= 0: later frames are not earlier (a statement about Z only: time_of does not occur,
   the two sides are the timestamps by C38_time_of_int) *)
Theorem C38_time_of_int_mono : forall (t b : Z) (k1 k2 : nat), (0 <= t)%Z -> k1 <= k2 ->
  (Z.of_nat k1 * t + b <= Z.of_nat k2 * t + b)%Z.
Proof. exact time_of_int_mono. Qed.
Print Assumptions C38_time_of_int_mono.

(* integer timespan <> 0: distinct frames get distinct timestamps *)
Theorem C38_time_of_int_inj : forall (t b : Z) (k1 k2 : nat), t <> 0%Z ->
  time_of (TI t) (TI b) k1 = time_of (TI t) (TI b) k2 -> k1 = k2.
Proof. exact time_of_int_inj. Qed.
Print Assumptions C38_time_of_int_inj.

(* cold (from_marbles): every parsed message (frame k, n) is delivered, in order, at
   time_of k;  stamp ts sh (k, n) = (time_of ts sh k, n) *)
Theorem C38_cold_case_times : forall (c : pcase) (ms : list (nat * notif pyval)),
  parse_model pyval (valof (c_lookup c)) true (s2l (c_str c)) = inr ms ->
  cold_case c = inr (map (stamp (c_ts c) (c_shift c)) ms).
Proof. exact cold_case_times. Qed.
Print Assumptions C38_cold_case_times.

(* on a well-formed diagram: each item's notifications at
   (index of its first character) * timespan + shift *)
Theorem C38_cold_case_diagram : forall (c : pcase) (d : list item),
  wf d = true -> remove_spaces (s2l (c_str c)) = render d -> stop_ok (elements d) = true ->
  cold_case c = inr (map (stamp (c_ts c) (c_shift c)) (denote pyval (valof (c_lookup c)) d)).
Proof. exact cold_case_diagram. Qed.
Print Assumptions C38_cold_case_diagram.

(* cold = timed parse when raise_stopped is set (from_marbles always sets it) *)
Theorem C38_cold_case_is_parse_case : forall c : pcase, c_rs c = true -> cold_case c = parse_case c.
Proof. exact cold_case_is_parse_case. Qed.
Print Assumptions C38_cold_case_is_parse_case.

(* hot, observer subscribed at the creation instant: the parsed messages of frame > 0 *)
Theorem C38_hot_case_times : forall (c : pcase) (ms : list (nat * notif pyval)),
  parse_model pyval (valof (c_lookup c)) true (s2l (c_str c)) = inr ms ->
  hot_case c = inr (map (stamp (c_ts c) (c_shift c)) (filter (fun m => Nat.ltb 0 (fst m)) ms)).
Proof. exact hot_case_times. Qed.
Print Assumptions C38_hot_case_times.

(* integer timespan >= 0 and integer shift: the delivered times are integers, start at the
   shift or later and never decrease *)
Theorem C38_cold_case_times_sorted : forall (c : pcase) (t b : Z) (ms : list (nat * notif pyval)),
  c_ts c = TI t -> c_shift c = TI b -> (0 <= t)%Z ->
  parse_model pyval (valof (c_lookup c)) true (s2l (c_str c)) = inr ms ->
  exists out, cold_case c = inr out /\ times_sorted b out.
Proof. exact cold_case_times_sorted. Qed.
Print Assumptions C38_cold_case_times_sorted.

(* the hypotheses are satisfiable: elements that stay strings / are read as numbers, a
   lookup hit and miss, and a timed cold run of a well-formed diagram *)
Example C38_value_examples :
  (forallb printable (l "x1") = true /\ special_float (map lower (body (l "x1"))) = false
   /\ non_numeric_head (body (l "x1")) /\ try_number (l "x1") = PStr (l "x1"))
  /\ (forallb printable (l "1x") = true /\ forallb numeric_char (l "1x") = false
      /\ special_float (map lower (body (l "1x"))) = false /\ try_number (l "1x") = PStr (l "1x"))
  /\ try_number (l "0042") = PInt 42
  /\ valof [(PStr (l "a"), PObj 7); (PInt 3, PObj 8)] (l "3") = PObj 8
  /\ valof [(PStr (l "a"), PObj 7); (PInt 3, PObj 8)] (l "b") = PStr (l "b").
Proof. repeat split; vm_compute; reflexivity. Qed.

Example C38_time_examples :
  cold_case (mkpcase true (TI 3) (TI 2) [] "-a(b,4)-|")
  = inr [(TI 5, NNext (PStr (l "a"))); (TI 8, NNext (PStr (l "b"))); (TI 8, NNext (PInt 4)); (TI 26, NCompleted)]
  /\ wf [ITicks 1; IElem (l "a"); IGroup [l "b"; l "4"]; ITicks 1; IEnd] = true
  /\ render [ITicks 1; IElem (l "a"); IGroup [l "b"; l "4"]; ITicks 1; IEnd] = l "-a(b,4)-|"
  /\ stop_ok (elements [ITicks 1; IElem (l "a"); IGroup [l "b"; l "4"]; ITicks 1; IEnd]) = true.
Proof. repeat split; vm_compute; reflexivity. Qed.
