(* C24 -- multicasting shares one source subscription per connection.
   Model: Subjects/Connectable.v -- ConnectableObservable.connect / auto_connect, ref_count (share),
   publish, publish_value, replay, multicast as a machine that drives the subject engines of
   C20-C23 (Subjects/Subject.v, Subjects/Replay.v) one instruction at a time, with a hand-driven
   source that logs its own subscribe/unsubscribe instants; tied to the code by the K1/K2
   correspondence of harness/props/C24.py.
   Proofs: the one-step facts and the readings of an invariant stand here; the invariants are in
   Subjects/ConnectableFacts.v (the connection: every engine, every call tree),
   Subjects/ConnectableDiscFacts.v (disposing the handle of connect()),
   Subjects/ConnectableCountFacts.v (auto_connect: every engine, histories of top-level calls),
   Subjects/ConnectableRefCountTreeFacts.v (ref_count: every engine, call trees, and what histories of
   top-level calls add), Subjects/ConnectableViewFacts.v (what a subscriber receives: Subject /
   BehaviorSubject / AsyncSubject, histories of top-level calls). *)
From RxVerif Require Import Base.Prelude Ops.Machine Subjects.Subject Subjects.Behavior Subjects.Async
  Subjects.Family Subjects.Replay Subjects.Connectable Subjects.ConnectableFacts Subjects.ConnectableViewFacts
  Subjects.ConnectableCountFacts Subjects.ConnectableRefCountTreeFacts Subjects.ConnectableDiscFacts.

(* ---- 1. the connection.  For EVERY subject engine, every mode (plain connectable, ref_count,
        auto_connect), every cold prefix, every call tree (subscribers that subscribe, unsubscribe,
        connect, disconnect or make the source emit from inside their callbacks) and every fuel ---- *)

(* the source's own log reads  subscribe c, unsubscribe c, subscribe c', unsubscribe c', ...:
   it is subscribed at most once at any time ([src_state] = None would be a second subscribe
   while one is open, or an unsubscribe without subscription) *)
Theorem C24_source_subscribed_at_most_once :
  forall (A E_st E_in E_op : Type) (e_exec : E_in -> E_st -> E_st * list E_in * list sev)
         (e_call : sop -> list E_in) (md : mode) (reach : bool) (cold : list (ev A))
         (react : nat -> nat -> list cop) (e_drain : list E_in) (st0 : E_st) (top : list cop) (fuel : nat),
    src_state (src_log (klog_of (krun e_exec e_call md reach cold react fuel (kinit (E_op := E_op) e_drain md st0 top))))
    <> None.
Proof.
  intros. pose proof (ci_log _ _ _ _ (reachable_CI e_exec e_call md reach cold react e_drain st0 top fuel)) as H.
  unfold slog in H. unfold klog_of. rewrite H. discriminate.
Qed.
Print Assumptions C24_source_subscribed_at_most_once.

(* while the connectable is disconnected (has_subscription is False) the source has no subscription *)
Theorem C24_no_source_subscription_while_disconnected :
  forall (A E_st E_in E_op : Type) (e_exec : E_in -> E_st -> E_st * list E_in * list sev)
         (e_call : sop -> list E_in) (md : mode) (reach : bool) (cold : list (ev A))
         (react : nat -> nat -> list cop) (e_drain : list E_in) (st0 : E_st) (top : list cop) (fuel : nat),
    let c := krun e_exec e_call md reach cold react fuel (kinit (E_op := E_op) e_drain md st0 top) in
    has_sub (k_bk c) = false -> src_state (src_log (klog_of c)) = Some None.
Proof. intros until fuel. intros c. apply CI_disconnected, reachable_CI. Qed.
Print Assumptions C24_no_source_subscription_while_disconnected.

(* a source record that is alive is THE open subscription of the log and belongs to the latest
   connection: there is never a second one *)
Theorem C24_open_subscription_is_the_latest_connection :
  forall (A E_st E_in E_op : Type) (e_exec : E_in -> E_st -> E_st * list E_in * list sev)
         (e_call : sop -> list E_in) (md : mode) (reach : bool) (cold : list (ev A))
         (react : nat -> nat -> list cop) (e_drain : list E_in) (st0 : E_st) (top : list cop) (fuel cid : nat),
    let c := krun e_exec e_call md reach cold react fuel (kinit (E_op := E_op) e_drain md st0 top) in
    (cid < blen (k_bk c))%nat -> s_live (get_conn (k_bk c) cid) = true ->
    blen (k_bk c) = S cid /\ src_state (src_log (klog_of c)) = Some (Some cid).
Proof.
  intros until cid. intros c Hlt Hl. pose proof (reachable_CI e_exec e_call md reach cold react e_drain st0 top fuel) as H. fold c in H.
  pose proof (CI_live_last _ _ _ _ cid H Hlt Hl) as Hb. split; [exact Hb|].
  pose proof (ci_log _ _ _ _ H) as G. unfold slog in G. unfold klog_of. rewrite G.
  unfold last_live. rewrite Hb. cbn [pred]. now rewrite Hl.
Qed.
Print Assumptions C24_open_subscription_is_the_latest_connection.

(* disposing the handle returned by connect() RELEASES the source: in every configuration reached
   on any call tree, when the driver (or a subscriber from inside a callback) disposes the j-th
   connect() result and that connection has not been disposed yet, the step leaves the connectable
   disconnected, the source's log closed (no open subscription), and logs exactly the operation
   followed by the source's unsubscription if that subscription was still alive (nothing if the
   source had already ended it) *)
Theorem C24_disconnect_releases_the_source :
  forall (A E_st E_in E_op : Type) (e_exec : E_in -> E_st -> E_st * list E_in * list sev)
         (e_call : sop -> list E_in) (md : mode) (reach : bool) (cold : list (ev A))
         (react : nat -> nat -> list cop) (e_drain : list E_in) (st0 : E_st) (top : list cop)
         (fuel j : nat) (k : list kinstr) (cid : nat),
    let c := krun e_exec e_call md reach cold react fuel (kinit (E_op := E_op) e_drain md st0 top) in
    k_k c = KOp (CDisc j) :: k ->
    nth_error (handles (k_bk c)) j = Some (Some cid) ->
    comp_disposed (get_conn (k_bk c) cid) = false ->
    has_sub (k_bk (kstep e_exec e_call md reach cold react c)) = false /\
    src_state (src_log (klog_of (kstep e_exec e_call md reach cold react c))) = Some None /\
    klog_of (kstep e_exec e_call md reach cold react c) =
      klog_of c ++ CEOp (CDisc j) :: (if s_live (get_conn (k_bk c) cid) then [CESUnsub cid] else []).
Proof. exact (@disconnect_releases). Qed.
Print Assumptions C24_disconnect_releases_the_source.

(* ... and a handle whose connection is already over is inert: it does not touch the book (in
   particular not the current connection) and logs nothing but the operation *)
Theorem C24_stale_handle_is_inert :
  forall (A E_st E_in E_op : Type) (e_exec : E_in -> E_st -> E_st * list E_in * list sev)
         (e_call : sop -> list E_in) (md : mode) (reach : bool) (cold : list (ev A))
         (react : nat -> nat -> list cop) (c : @kcfg A E_st E_in E_op) (j : nat) (k : list kinstr) (cid : nat),
    k_k c = KOp (CDisc j) :: k ->
    nth_error (handles (k_bk c)) j = Some (Some cid) ->
    comp_disposed (get_conn (k_bk c) cid) = true ->
    k_bk (kstep e_exec e_call md reach cold react c) = k_bk c /\
    klog_of (kstep e_exec e_call md reach cold react c) = klog_of c ++ [CEOp (CDisc j)].
Proof. intros * Hk Hn Ec. unfold kstep. rewrite Hk, Hn. unfold comp_dispose. rewrite Ec. cbn. split; reflexivity. Qed.
Print Assumptions C24_stale_handle_is_inert.

(* the hypotheses of C24_disconnect_releases_the_source hold in a reachable configuration in which
   the source subscription is open *)
Example C24_witness_disconnect_hyp :
  let c := krun (sync_exec (cls_of 0 KSubject)) sync_call MPlain true [] (fun _ _ => []) 11
             (kinit [] MPlain (sync_init 0) [CSub 0%nat; CConnect; CNext 5; CDisc 0%nat; CNext 6]) in
  k_k c = [KOp (CDisc 0%nat); KOp (CNext 6)] /\
  nth_error (handles (k_bk c)) 0 = Some (Some 0%nat) /\
  comp_disposed (get_conn (k_bk c) 0) = false /\ s_live (get_conn (k_bk c) 0) = true /\
  src_state (src_log (klog_of c)) = Some (Some 0%nat).
Proof. vm_compute. repeat split; reflexivity. Qed.

(* connect() while connected subscribes nothing: the caller just gets the current disposable *)
Theorem C24_second_connect_does_not_subscribe :
  forall (A E_st E_in E_op : Type) (e_exec : E_in -> E_st -> E_st * list E_in * list sev)
         (e_call : sop -> list E_in) (md : mode) (reach : bool) (cold : list (ev A))
         (react : nat -> nat -> list cop) (st : E_st) (b : book) (m : outmap) (w : caller)
         (k : list kinstr) (l : list (@cevent A E_op)),
    has_sub b = true ->
    kstep e_exec e_call md reach cold react (KCfg st b m (KConnect w :: k) l) =
    KCfg st (conn_return w (cur b) b) m k l.
Proof. intros * H. cbn. now rewrite H. Qed.
Print Assumptions C24_second_connect_does_not_subscribe.

(* connect() while disconnected subscribes the source exactly once, before anything else happens *)
Theorem C24_connect_subscribes_once :
  forall (A E_st E_in E_op : Type) (e_exec : E_in -> E_st -> E_st * list E_in * list sev)
         (e_call : sop -> list E_in) (md : mode) (reach : bool) (cold : list (ev A))
         (react : nat -> nat -> list cop) (st : E_st) (b : book) (m : outmap) (w : caller)
         (k : list kinstr) (l : list (@cevent A E_op)),
    has_sub b = false ->
    kstep e_exec e_call md reach cold react (KCfg st b m (KConnect w :: k) l) =
    KCfg st (set_conns (conns b ++ [fresh_sconn]) (set_has true b)) m
         (map (KSrc (blen b)) cold ++ KConnRet (blen b) w :: k) (CESSub (blen b) :: l).
Proof. intros * H. cbn. now rewrite H. Qed.
Print Assumptions C24_connect_subscribes_once.

(* and nothing else ever subscribes it: per step, the number of source subscriptions in the log
   grows by one exactly when the step is a connect() made while disconnected *)
Theorem C24_only_connect_subscribes :
  forall (A E_st E_in E_op : Type) (e_exec : E_in -> E_st -> E_st * list E_in * list sev)
         (e_call : sop -> list E_in) (md : mode) (reach : bool) (cold : list (ev A))
         (react : nat -> nat -> list cop) (c : @kcfg A E_st E_in E_op),
    nssub (k_log (kstep e_exec e_call md reach cold react c)) =
    (nssub (k_log c) + match k_k c with
                       | KConnect _ :: _ => if has_sub (k_bk c) then 0 else 1
                       | _ => 0
                       end)%nat.
Proof. exact (@only_connect_subscribes). Qed.
Print Assumptions C24_only_connect_subscribes.

(* a source notification is forwarded to the subject only through a live subscription whose
   observer has not been stopped by a terminal notification or a dispose *)
Theorem C24_source_notification_needs_live_subscription :
  forall (A E_st E_in E_op : Type) (e_exec : E_in -> E_st -> E_st * list E_in * list sev)
         (e_call : sop -> list E_in) (md : mode) (reach : bool) (cold : list (ev A))
         (react : nat -> nat -> list cop) (st : E_st) (b : book) (m : outmap) (cid : nat) (n : ev A)
         (k : list kinstr) (l : list (@cevent A E_op)),
    s_live (get_conn b cid) = false \/ s_stopped (get_conn b cid) = true ->
    kstep e_exec e_call md reach cold react (KCfg st b m (KSrc cid n :: k) l) = KCfg st b m k l.
Proof.
  intros * H. cbn. destruct (s_live (get_conn b cid)); cbn; [|reflexivity].
  destruct H as [H|H]; [discriminate|]. now rewrite H.
Qed.
Print Assumptions C24_source_notification_needs_live_subscription.

(* ---- 2. ref_count / share.  Every subject engine, every cold prefix, every history of top-level
        calls (subscribers do not call back) without manual connect() / dispose of the connection ---- *)

(* connected  <=>  subscriber count > 0  -- at every instant of the run except the window inside
   subscribe() between `count += 1` and `source.connect()` (one pending KConnect) *)
Theorem C24_ref_count_connected_iff_count_positive :
  forall (A E_st E_in E_op : Type) (e_exec : E_in -> E_st -> E_st * list E_in * list sev)
         (e_call : sop -> list E_in) (reach : bool) (cold : list (ev A)) (e_drain : list E_in)
         (st0 : E_st) (top : list cop) (fuel : nat),
    Forall nomanual top ->
    let c := krun e_exec e_call MRefCount reach cold (fun _ _ => []) fuel (kinit (E_op := E_op) e_drain MRefCount st0 top) in
    has_sub (k_bk c) = (0 <? count (k_bk c) - Z.of_nat (nconnect (k_k c))).
Proof.
  (* the call-tree formula, and on these histories a pending connect() still sees the count 1 *)
  intros * Hm c. destruct (FL_reachable e_exec e_call reach cold e_drain st0 top fuel Hm) as [[L HT] [_ Hc]].
  fold c in HT, Hc. rewrite (t_has _ _ _ _ HT). pose proof (t_one _ _ _ _ HT) as H1.
  destruct (nconnect (k_k c)) as [|[|x]]; [cbn; now rewrite Bool.andb_true_r, Z.sub_0_r|rewrite Hc by lia; reflexivity|lia].
Qed.
Print Assumptions C24_ref_count_connected_iff_count_positive.

(* the count is the number of subscribers whose dispose has not run yet: those whose subscribe()
   returned and which have neither unsubscribed nor been terminated (armed), the one still inside
   subscribe() (pending KRet), those whose dispose() is in progress (pending KDec) *)
Theorem C24_ref_count_counts_subscribers :
  forall (A E_st E_in E_op : Type) (e_exec : E_in -> E_st -> E_st * list E_in * list sev)
         (e_call : sop -> list E_in) (reach : bool) (cold : list (ev A)) (e_drain : list E_in)
         (st0 : E_st) (top : list cop) (fuel : nat),
    Forall nomanual top ->
    let c := krun e_exec e_call MRefCount reach cold (fun _ _ => []) fuel (kinit (E_op := E_op) e_drain MRefCount st0 top) in
    exists L : list nat,
      NoDup L /\ (forall o : nat, oflag (k_out c) o = true -> In o L) /\
      count (k_bk c) = Z.of_nat (nact (k_out c) L + nret (k_k c) + ndec (k_k c)).
Proof.
  intros * Hm.
  exact (rc_tree_count_is_subscribers e_exec e_call reach cold _ (fun _ _ => Forall_nil _) e_drain st0 top fuel Hm).
Qed.
Print Assumptions C24_ref_count_counts_subscribers.

(* the connect() ref_count makes (when the count went 0 -> 1) always finds the connectable
   disconnected, so it subscribes the source (C24_connect_subscribes_once) *)
Theorem C24_ref_count_connect_at_first_subscriber :
  forall (A E_st E_in E_op : Type) (e_exec : E_in -> E_st -> E_st * list E_in * list sev)
         (e_call : sop -> list E_in) (reach : bool) (cold : list (ev A)) (e_drain : list E_in)
         (st0 : E_st) (top : list cop) (fuel : nat) (w : caller) (k : list kinstr),
    Forall nomanual top ->
    let c := krun e_exec e_call MRefCount reach cold (fun _ _ => []) fuel (kinit (E_op := E_op) e_drain MRefCount st0 top) in
    k_k c = KConnect w :: k -> has_sub (k_bk c) = false /\ count (k_bk c) = 1.
Proof.
  intros * Hm c Hk.
  destruct (rc_tree_connect_at_first_subscriber e_exec e_call reach cold _ (fun _ _ => Forall_nil _)
              e_drain st0 top fuel w k Hm Hk) as (_ & Hh & _).
  split; [exact Hh|]. destruct (FL_reachable e_exec e_call reach cold e_drain st0 top fuel Hm) as [_ [_ Hc]].
  apply Hc. fold c. rewrite Hk, nconnect_cons. lia.
Qed.
Print Assumptions C24_ref_count_connect_at_first_subscriber.

(* ---- 3. auto_connect(n), same scope ---- *)

(* the source is subscribed at most once in the whole run: once connected, never again *)
Theorem C24_auto_connect_connects_once :
  forall (A E_st E_in E_op : Type) (e_exec : E_in -> E_st -> E_st * list E_in * list sev)
         (e_call : sop -> list E_in) (n : nat) (reach : bool) (cold : list (ev A)) (e_drain : list E_in)
         (st0 : E_st) (top : list cop) (fuel : nat),
    Forall nomanual top ->
    let c := krun e_exec e_call (MAuto n) reach cold (fun _ _ => []) fuel (kinit (E_op := E_op) e_drain (MAuto n) st0 top) in
    nssub (k_log c) = (if has_sub (k_bk c) then 1%nat else 0%nat).
Proof. intros * Hm. exact (ac_once _ _ _ _ (AC_reachable e_exec e_call n reach cold e_drain st0 top fuel Hm)). Qed.
Print Assumptions C24_auto_connect_connects_once.

(* connected  <=>  at least n subscribers have arrived (window inside the n-th subscribe() excepted;
   n = 0: connected from the construction on) *)
Theorem C24_auto_connect_connected_iff_n_arrived :
  forall (A E_st E_in E_op : Type) (e_exec : E_in -> E_st -> E_st * list E_in * list sev)
         (e_call : sop -> list E_in) (n : nat) (reach : bool) (cold : list (ev A)) (e_drain : list E_in)
         (st0 : E_st) (top : list cop) (fuel : nat),
    Forall nomanual top ->
    let c := krun e_exec e_call (MAuto n) reach cold (fun _ _ => []) fuel (kinit (E_op := E_op) e_drain (MAuto n) st0 top) in
    has_sub (k_bk c) = (Z.of_nat n <=? count (k_bk c) - Z.of_nat (nconnect (k_k c))).
Proof. intros * Hm. exact (ac_has _ _ _ _ (AC_reachable e_exec e_call n reach cold e_drain st0 top fuel Hm)). Qed.
Print Assumptions C24_auto_connect_connected_iff_n_arrived.

(* where `count` is the number of subscribe() calls made so far: +1 at each, never decremented *)
Theorem C24_auto_connect_count_counts_arrivals :
  forall (A E_st E_in E_op : Type) (e_exec : E_in -> E_st -> E_st * list E_in * list sev)
         (e_call : sop -> list E_in) (n : nat) (reach : bool) (cold : list (ev A)) (c : @kcfg A E_st E_in E_op),
    count (k_bk (kstep e_exec e_call (MAuto n) reach cold (fun _ _ => []) c)) =
    count (k_bk c) + match k_k c with KInc _ :: _ => 1 | _ => 0 end.
Proof. exact (@auto_count_counts_arrivals). Qed.
Print Assumptions C24_auto_connect_count_counts_arrivals.

(* ---- 4. what a subscriber receives.  publish / share (KSubject), publish_value (KBehavior),
        multicast(AsyncSubject()) (KAsync); plain connectable, ref_count or auto_connect; every cold
        prefix; every history of top-level calls (manual connect()/dispose included) ---- *)

(* when the history has been executed, every subscriber has received exactly what the subject
   family's specification (C20/C21/C23: nothing before its subscribe call, the greeting -- the
   current value for publish_value, the terminal notification if the subject has already ended --,
   then every notification the subject receives while it is subscribed) gives it on the sequence of
   calls made on the shared subject: the subscribers' subscribe / unsubscribe calls and the source
   notifications that came through the connection *)
Theorem C24_subscriber_receives_what_the_subject_receives :
  forall (A : Type) (pynone : A) (K : kind) (v0 : A) (md : mode) (reach : bool) (cold : list (ev A))
         (top : list cop) (fuel : nat),
    let c := krun (sync_exec (cls_of pynone K)) sync_call md reach cold (fun _ _ => []) fuel
                  (kinit [] md (sync_init v0) top) in
    k_k c = [] ->
    forall o : nat, cview o (klog_of c) = oview K o Before (g_init v0) (calls_of (klog_of c)).
Proof. exact (@multicast_view). Qed.
Print Assumptions C24_subscriber_receives_what_the_subject_receives.

(* ---- 5. multicast(subject_factory, mapper) (publish / publish_value / replay with a mapper):
        every subscription is its own multicast invocation.  Every engine, identity mapper,
        histories of top-level calls: each per-subscriber connection satisfies section 1 -- its
        source subscription log alternates and it holds no subscription while disconnected ---- *)
Theorem C24_mapper_form_one_connection_per_subscription :
  forall (A E_st E_in E_op : Type) (e_exec : E_in -> E_st -> E_st * list E_in * list sev)
         (e_call : sop -> list E_in) (e_drain : list E_in) (cold : list (ev A)) (st0 : E_st)
         (fuel : nat) (top : list cop) (o : nat) (c : @kcfg A E_st E_in E_op),
    In (o, c) (fst (mrun e_exec e_call e_drain cold st0 fuel [] top)) ->
    src_state (src_log (klog_of c)) <> None /\
    (has_sub (k_bk c) = false -> src_state (src_log (klog_of c)) = Some None).
Proof.
  intros * Hin. pose proof (mapper_CI e_exec e_call e_drain cold st0 fuel top o c Hin) as H.
  split; [|apply CI_disconnected; exact H].
  pose proof (ci_log _ _ _ _ H) as Hl. unfold slog in Hl. unfold klog_of. rewrite Hl. discriminate.
Qed.
Print Assumptions C24_mapper_form_one_connection_per_subscription.

(* ---- witnesses (values are pool ids: 0 = None, 2 = False, 3 = '') ---- *)

(* publish: the second connect() does not subscribe again; disposing the handle it returned
   disconnects; reconnecting subscribes again; after the source completed a late subscriber gets
   only the completion *)
Example C24_witness_publish :
  run_config 0 (Config (FSync KSubject 0) MPlain true []) 1000
    ([CSub 0%nat; CConnect; CConnect; CNext 0; CDisc 1%nat; CNext 2; CConnect; CNext 3; CDone; CSub 1%nat], [])
  = ([XOp (CSub 0%nat); XOp CConnect; XSSub 0%nat; XOp CConnect; XOp (CNext 0); XGot 0%nat (Next 0);
      XOp (CDisc 1%nat); XSUnsub 0%nat; XOp (CNext 2); XOp CConnect; XSSub 1%nat; XOp (CNext 3);
      XGot 0%nat (Next 3); XOp CDone; XGot 0%nat Done; XSUnsub 1%nat; XOp (CSub 1%nat); XGot 1%nat Done], true).
Proof. vm_compute. reflexivity. Qed.

(* share: connect at 0 -> 1, disconnect at 1 -> 0, reconnect; a subscriber arriving after the
   source completed is greeted with the completion, and its 0 -> 1 -> 0 connects and disconnects *)
Example C24_witness_share :
  run_config 0 (Config (FSync KSubject 0) MRefCount false []) 1000
    ([CSub 0%nat; CSub 1%nat; CNext 0; CUnsub 0%nat; CUnsub 1%nat; CNext 2; CSub 2%nat; CNext 3; CDone; CSub 3%nat], [])
  = ([XOp (CSub 0%nat); XSSub 0%nat; XOp (CSub 1%nat); XOp (CNext 0); XGot 0%nat (Next 0); XGot 1%nat (Next 0);
      XOp (CUnsub 0%nat); XOp (CUnsub 1%nat); XSUnsub 0%nat; XOp (CNext 2); XOp (CSub 2%nat); XSSub 1%nat;
      XOp (CNext 3); XGot 2%nat (Next 3); XOp CDone; XGot 2%nat Done; XSUnsub 1%nat; XOp (CSub 3%nat);
      XGot 3%nat Done; XSSub 2%nat; XSUnsub 2%nat], true).
Proof. vm_compute. reflexivity. Qed.

(* auto_connect(2): the second ARRIVAL connects, although the first subscriber has left *)
Example C24_witness_auto_connect :
  run_config 0 (Config (FSync KSubject 0) (MAuto 2) true []) 1000
    ([CSub 0%nat; CUnsub 0%nat; CSub 1%nat; CNext 1; CSub 2%nat; CNext 2], [])
  = ([XOp (CSub 0%nat); XOp (CUnsub 0%nat); XOp (CSub 1%nat); XSSub 0%nat; XOp (CNext 1); XGot 1%nat (Next 1);
      XOp (CSub 2%nat); XOp (CNext 2); XGot 1%nat (Next 2); XGot 2%nat (Next 2)], true).
Proof. vm_compute. reflexivity. Qed.

(* publish_value(None) + ref_count: the current value first (None for the first subscriber) *)
Example C24_witness_publish_value :
  run_config 0 (Config (FSync KBehavior 0) MRefCount true []) 1000
    ([CSub 0%nat; CNext 3; CSub 1%nat; CDone; CSub 2%nat], [])
  = ([XOp (CSub 0%nat); XGot 0%nat (Next 0); XSSub 0%nat; XOp (CNext 3); XGot 0%nat (Next 3); XOp (CSub 1%nat);
      XGot 1%nat (Next 3); XOp CDone; XGot 0%nat Done; XGot 1%nat Done; XSUnsub 0%nat; XOp (CSub 2%nat);
      XGot 2%nat Done; XSSub 1%nat; XSUnsub 1%nat], true).
Proof. vm_compute. reflexivity. Qed.

(* replay(buffer_size=2) + ref_count: the last two values are replayed, also after completion *)
Example C24_witness_replay :
  run_config 0 (Config (FReplay (Some 2) None) MRefCount true []) 1000
    ([CSub 0%nat; CNext 3; CNext 4; CNext 5; CSub 1%nat; CDone; CSub 2%nat], [])
  = ([XOp (CSub 0%nat); XSSub 0%nat; XOp (CNext 3); XGot 0%nat (Next 3); XOp (CNext 4); XGot 0%nat (Next 4);
      XOp (CNext 5); XGot 0%nat (Next 5); XOp (CSub 1%nat); XGot 1%nat (Next 4); XGot 1%nat (Next 5); XOp CDone;
      XSUnsub 0%nat; XGot 0%nat Done; XGot 1%nat Done; XOp (CSub 2%nat); XSSub 1%nat; XGot 2%nat (Next 4);
      XGot 2%nat (Next 5); XGot 2%nat Done; XSUnsub 1%nat], true).
Proof. vm_compute. reflexivity. Qed.

(* re-entrancy: subscriber 0 disposes the connection from inside its first callback, in the
   middle of the delivery loop: subscriber 1 still gets that value, nobody gets the next one *)
Example C24_witness_reentrant :
  run_config 0 (Config (FSync KSubject 0) MPlain true []) 1000
    ([CSub 0%nat; CSub 1%nat; CConnect; CNext 5; CNext 6], [(0%nat, [[CDisc 0%nat]])])
  = ([XOp (CSub 0%nat); XOp (CSub 1%nat); XOp CConnect; XSSub 0%nat; XOp (CNext 5); XGot 0%nat (Next 5);
      XOp (CDisc 0%nat); XSUnsub 0%nat; XGot 1%nat (Next 5); XOp (CNext 6)], true).
Proof. vm_compute. reflexivity. Qed.

(* a cold source completing inside connect(): ref_count still disconnects (the first subscriber's
   dispose runs when its subscribe() returns), the second subscriber reconnects *)
Example C24_witness_cold :
  run_config 0 (Config (FSync KSubject 0) MRefCount true [Next 1; Next 2; Done]) 1000
    ([CSub 0%nat; CSub 1%nat], [])
  = ([XOp (CSub 0%nat); XSSub 0%nat; XGot 0%nat (Next 1); XGot 0%nat (Next 2); XGot 0%nat Done; XSUnsub 0%nat;
      XOp (CSub 1%nat); XGot 1%nat Done; XSSub 1%nat; XSUnsub 1%nat], true).
Proof. vm_compute. reflexivity. Qed.

(* the hypotheses are satisfiable: a history without manual connect, a finished run *)
Example C24_witness_hypotheses :
  Forall (@nomanual Z) [CSub 0%nat; CNext 0; CUnsub 0%nat; CDone] /\
  k_k (krun (sync_exec (cls_of 0 KSubject)) sync_call MRefCount true [] (fun _ _ => []) 100
            (kinit [] MRefCount (sync_init 0) [CSub 0%nat; CNext 0; CUnsub 0%nat; CDone])) = [].
Proof. split; [repeat constructor|vm_compute; reflexivity]. Qed.

(* publish_value(None, mapper): every subscriber gets its own BehaviorSubject (the INITIAL value,
   not the source's last one) and its own source subscription, disposed with it *)
Example C24_witness_mapper_form :
  run_mapper 0 (FSync KBehavior 0) [] 1000
    [CSub 0%nat; CNext 3; CSub 1%nat; CNext 4; CUnsub 0%nat; CDone; CSub 2%nat]
  = ([XOp (CSub 0%nat); XGot 0%nat (Next 0); XSSub 0%nat; XOp (CNext 3); XGot 0%nat (Next 3); XOp (CSub 1%nat);
      XGot 1%nat (Next 0); XSSub 1%nat; XOp (CNext 4); XGot 0%nat (Next 4); XGot 1%nat (Next 4); XOp (CUnsub 0%nat);
      XSUnsub 0%nat; XOp CDone; XGot 1%nat Done; XSUnsub 1%nat; XOp (CSub 2%nat); XGot 2%nat (Next 0); XSSub 2%nat], true).
Proof. vm_compute. reflexivity. Qed.

(* Proofs of 4b and 5b: Subjects/ConnectableReplayFacts.v, Subjects/ConnectableMapperFacts.v; the prefix
   property [Inv_prefix] used in 4b is Subjects/ReplayTreeFacts.v's. *)
From RxVerif Require Import Subjects.SubjectFacts Subjects.ReplaySpec Subjects.ReplayTreeFacts Subjects.ConnectableMapperFacts
  Subjects.ConnectableReplayFacts.

(* ---- 4b. what a subscriber receives, replay() flavour (multicast(ReplaySubject(buffer, window))),
        for EVERY call tree (arbitrary reactions: subscribers that subscribe, unsubscribe, connect,
        disconnect, make the source emit from inside their callbacks), every mode, every cold prefix,
        every buffer size and window.  When the run is finished, a subscriber whose wrapper is still
        live, or that was stopped by a terminal notification, has received EXACTLY the C22
        entitlement [xview] on the sequence of calls made on the shared ReplaySubject: nothing before
        its subscribe call; at that call the values RETAINED at that moment (the last buffer_size
        ones not older than the window -- "plus the replayed values"), then the terminal notification
        if the subject had ended; afterwards every notification that came through the connection.
        (The subject's side of the machine satisfies the C22 invariant of arbitrary call trees, a
        call being a push in FRONT of the pending engine instructions: hence all trees.) ---- *)
Theorem C24_replay_subscriber_receives_retained_then_later :
  forall (A : Type) (bs w : option Z) (md : mode) (reach : bool) (cold : list (ev A))
         (react : nat -> nat -> list cop) (top : list cop) (fuel o : nat) (os : @rostate A),
    let c := krun replay_exec replay_call md reach cold react fuel
                  (kinit [RIDrain] md (replay_init bs w) top) in
    k_k c = [] -> snd (k_eng c) o = Some os ->
    (ra_stopped os = false \/ has_term (cview o (klog_of c)) = true) ->
    cview o (klog_of c) = xview (bufsize_of bs) w o false rg_init (calls_of (klog_of c)).
Proof.
  intros until os. intros c Hk Hm Hcase. apply finished_view with (os := os); try assumption.
  - apply reachable_P. reflexivity.
  - apply reachable_Md.
Qed.
Print Assumptions C24_replay_subscriber_receives_retained_then_later.

(* ... and at EVERY moment of every run (any fuel, finished or not) what a subscriber has received
   is a PREFIX of that entitlement: the multicast layer duplicates, reorders and invents nothing *)
Theorem C24_replay_subscriber_view_is_a_prefix :
  forall (A : Type) (bs w : option Z) (md : mode) (reach : bool) (cold : list (ev A))
         (react : nat -> nat -> list cop) (top : list cop) (fuel o : nat),
    let c := krun replay_exec replay_call md reach cold react fuel
                  (kinit [RIDrain] md (replay_init bs w) top) in
    prefix (cview o (klog_of c)) (xview (bufsize_of bs) w o false rg_init (calls_of (klog_of c))).
Proof.
  intros until o. intros c.
  assert (HP : ConnectableReplayFacts.P (bufsize_of bs) w c) by (apply reachable_P; reflexivity).
  destruct HP as [I _].
  pose proof (Inv_prefix (fun _ _ => []) (bufsize_of bs) w (proj c) o I) as H.
  unfold cx, cops in H. rewrite proj_view, proj_calls in H. exact H.
Qed.
Print Assumptions C24_replay_subscriber_view_is_a_prefix.

(* the hypotheses hold on a re-entrant tree: replay(2) + ref_count, subscriber 0 subscribes
   subscriber 1 from inside its first callback; subscriber 1 is replayed the value being delivered *)
Example C24_witness_replay_view_hyp :
  let c := krun replay_exec replay_call MRefCount true [] (creact_tbl [(0%nat, [[CSub 1%nat]])]) 1000
             (kinit [RIDrain] MRefCount (replay_init (Some 2) None)
                    [CSub 0%nat; CNext 3; CNext 4; CNext 5; CSub 2%nat]) in
  k_k c = [] /\ (exists os, snd (k_eng c) 1%nat = Some os /\ ra_stopped os = false) /\
  calls_of (klog_of c) = [RSub 0%nat; RNext 3; RSub 1%nat; RNext 4; RNext 5; RSub 2%nat] /\
  cview 1%nat (klog_of c) = [Next 3; Next 4; Next 5] /\ cview 2%nat (klog_of c) = [Next 4; Next 5].
Proof. vm_compute. split; [reflexivity|]. split; [eexists; split; reflexivity|]. repeat split; reflexivity. Qed.

(* ---- 5b. multicast(subject_factory, mapper): ONE source subscription per subscription.  Every
        engine, identity mapper, histories of top-level calls, every fuel: the per-subscriber
        connection never subscribes the source more than once, and has subscribed it exactly once
        as soon as it has nothing pending (invariant: source subscriptions logged + connects still
        pending = 1, and while a connect is pending the instance is disconnected) ---- *)
Theorem C24_mapper_form_exactly_one_source_subscription :
  forall (A E_st E_in E_op : Type) (e_exec : E_in -> E_st -> E_st * list E_in * list sev)
         (e_call : sop -> list E_in) (e_drain : list E_in) (cold : list (ev A)) (st0 : E_st)
         (fuel : nat) (top : list cop) (o : nat) (c : @kcfg A E_st E_in E_op),
    In (o, c) (fst (mrun e_exec e_call e_drain cold st0 fuel [] top)) ->
    (nssub (k_log c) <= 1)%nat /\ (kfinished c = true -> nssub (k_log c) = 1%nat).
Proof.
  intros * Hin. destruct (mapper_J e_exec e_call e_drain cold st0 fuel top o c Hin) as [H1 H2].
  split; [lia|]. unfold kfinished. destruct (k_k c); [cbn in H1; lia|discriminate].
Qed.
Print Assumptions C24_mapper_form_exactly_one_source_subscription.

(* ... and (Subject / BehaviorSubject / AsyncSubject factories) the subscriber of a finished
   instance has received exactly the family specification on the calls made on ITS OWN subject:
   the greeting of a fresh subject (the INITIAL value for publish_value, never the source's last
   one), then what its own connection delivered *)
Theorem C24_mapper_form_subscriber_view :
  forall (A : Type) (pynone : A) (K : kind) (v0 : A) (cold : list (ev A)) (fuel : nat)
         (top : list cop) (o : nat) (c : @kcfg A (@sync_st A) (@instr A) (@op A)),
    In (o, c) (fst (mrun (sync_exec (cls_of pynone K)) sync_call [] cold (sync_init v0) fuel [] top)) ->
    k_k c = [] ->
    forall o' : nat, cview o' (klog_of c) = oview K o' Before (g_init v0) (calls_of (klog_of c)).
Proof. intros * Hin. exact (V_view pynone K v0 c (mapper_V pynone K v0 cold fuel top o c Hin)). Qed.
Print Assumptions C24_mapper_form_subscriber_view.

(* the instances of the run of C24_witness_mapper_form: each finished, each with exactly one source
   subscription, each subscriber greeted with the initial value 0 *)
Example C24_witness_mapper_instances :
  map (fun x => (fst x, nssub (k_log (snd x)), kfinished (snd x), cview (fst x) (klog_of (snd x))))
      (fst (mrun (sync_exec (cls_of 0 KBehavior)) sync_call [] [] (sync_init 0) 1000 []
                 [CSub 0%nat; CNext 3; CSub 1%nat; CNext 4; CUnsub 0%nat; CDone; CSub 2%nat]))
  = [(0%nat, 1%nat, true, [Next 0; Next 3; Next 4]); (1%nat, 1%nat, true, [Next 0; Next 4; Done]);
     (2%nat, 1%nat, true, [Next 0])].
Proof. vm_compute. reflexivity. Qed.

(* ---- 2b. ref_count / share ON CALL TREES (Subjects/ConnectableRefCountTreeFacts.v).  Every subject
        engine, every cold prefix, every fuel, ARBITRARY reactions: subscribers that subscribe other
        subscribers, unsubscribe, make the source emit from inside their callbacks -- re-entrantly,
        while a subscribe() or the connect() further down the stack is still in progress.  Only
        manual connect() / dispose of the connection next to the operator stay excluded (top level
        and scripts: [nomanual]).  Invariant over the stack of suspended frames: every pending
        connect() is immediately followed by the pending return of the subscribe() that made it;
        count = armed + subscribe() in progress + dispose() in progress. ---- *)
From RxVerif Require Import Subjects.ConnectableRefCountTreeFacts.

(* connected  <=>  count > 0 and no connect() is pending.  (On histories of top-level calls the
   pending connect sits in the one subscribe() in progress, whose count is 1, which gives the
   formula of C24_ref_count_connected_iff_count_positive; on trees a subscriber may come in from the
   greeting callback of the first one, between `count += 1` and `source.connect()`: count 2, not yet
   connected -- that formula is FALSE there, see the _refuted example below.) *)
Theorem C24_ref_count_on_trees_connected_iff :
  forall (A E_st E_in E_op : Type) (e_exec : E_in -> E_st -> E_st * list E_in * list sev)
         (e_call : sop -> list E_in) (reach : bool) (cold : list (ev A)) (react : nat -> nat -> list cop),
    (forall o k : nat, Forall nomanual (react o k)) ->
    forall (e_drain : list E_in) (st0 : E_st) (top : list cop) (fuel : nat),
    Forall nomanual top ->
    let c := krun e_exec e_call MRefCount reach cold react fuel (kinit (E_op := E_op) e_drain MRefCount st0 top) in
    has_sub (k_bk c) = (0 <? count (k_bk c)) && (nconnect (k_k c) =? 0)%nat.
Proof. exact (@rc_tree_connected_iff). Qed.
Print Assumptions C24_ref_count_on_trees_connected_iff.

(* the count is the number of subscribers whose dispose has not run yet, on every tree *)
Theorem C24_ref_count_on_trees_counts_subscribers :
  forall (A E_st E_in E_op : Type) (e_exec : E_in -> E_st -> E_st * list E_in * list sev)
         (e_call : sop -> list E_in) (reach : bool) (cold : list (ev A)) (react : nat -> nat -> list cop),
    (forall o k : nat, Forall nomanual (react o k)) ->
    forall (e_drain : list E_in) (st0 : E_st) (top : list cop) (fuel : nat),
    Forall nomanual top ->
    let c := krun e_exec e_call MRefCount reach cold react fuel (kinit (E_op := E_op) e_drain MRefCount st0 top) in
    exists L : list nat,
      NoDup L /\ (forall o : nat, oflag (k_out c) o = true -> In o L) /\
      count (k_bk c) = Z.of_nat (nact (k_out c) L + nret (k_k c) + ndec (k_k c)).
Proof. exact (@rc_tree_count_is_subscribers). Qed.
Print Assumptions C24_ref_count_on_trees_counts_subscribers.

(* "connects on the FIRST subscriber": a subscribe() of ref_count pushes a connect() exactly when it
   finds the count at 0, and that is exactly when the connectable is disconnected with no connect
   pending; the count becomes 1 ... *)
Theorem C24_ref_count_on_trees_first_subscriber_connects :
  forall (A E_st E_in E_op : Type) (e_exec : E_in -> E_st -> E_st * list E_in * list sev)
         (e_call : sop -> list E_in) (reach : bool) (cold : list (ev A)) (react : nat -> nat -> list cop),
    (forall o k : nat, Forall nomanual (react o k)) ->
    forall (e_drain : list E_in) (st0 : E_st) (top : list cop) (fuel o : nat) (k : list kinstr),
    Forall nomanual top ->
    let c := krun e_exec e_call MRefCount reach cold react fuel (kinit (E_op := E_op) e_drain MRefCount st0 top) in
    k_k c = KInc o :: k ->
    (count (k_bk c) = 0 <-> has_sub (k_bk c) = false /\ nconnect k = 0%nat) /\
    (count (k_bk c) = 0 ->
       nconnect (k_k (kstep e_exec e_call MRefCount reach cold react c)) = 1%nat /\
       count (k_bk (kstep e_exec e_call MRefCount reach cold react c)) = 1) /\
    (count (k_bk c) <> 0 ->
       nconnect (k_k (kstep e_exec e_call MRefCount reach cold react c)) = nconnect k).
Proof. exact (@rc_tree_first_subscriber_connects). Qed.
Print Assumptions C24_ref_count_on_trees_first_subscriber_connects.

(* ... and when that connect() runs it is the only one in progress, it was made by ref_count, the
   connectable is disconnected -- so it subscribes the source (C24_connect_subscribes_once) -- and
   the count is at least 1 (exactly 1 on a history of top-level calls) *)
Theorem C24_ref_count_on_trees_connect_finds_it_disconnected :
  forall (A E_st E_in E_op : Type) (e_exec : E_in -> E_st -> E_st * list E_in * list sev)
         (e_call : sop -> list E_in) (reach : bool) (cold : list (ev A)) (react : nat -> nat -> list cop),
    (forall o k : nat, Forall nomanual (react o k)) ->
    forall (e_drain : list E_in) (st0 : E_st) (top : list cop) (fuel : nat) (w : caller) (k : list kinstr),
    Forall nomanual top ->
    let c := krun e_exec e_call MRefCount reach cold react fuel (kinit (E_op := E_op) e_drain MRefCount st0 top) in
    k_k c = KConnect w :: k ->
    w = ByRefCount /\ has_sub (k_bk c) = false /\ 1 <= count (k_bk c) /\ nconnect k = 0%nat.
Proof. exact (@rc_tree_connect_at_first_subscriber). Qed.
Print Assumptions C24_ref_count_on_trees_connect_finds_it_disconnected.

(* "disconnects on the LAST subscriber": the body of a dispose() that finds the count at 1 finds the
   connectable connected and leaves it disconnected with count 0, in that very step; one that finds
   a larger count changes nothing but the count *)
Theorem C24_ref_count_on_trees_last_subscriber_disconnects :
  forall (A E_st E_in E_op : Type) (e_exec : E_in -> E_st -> E_st * list E_in * list sev)
         (e_call : sop -> list E_in) (reach : bool) (cold : list (ev A)) (react : nat -> nat -> list cop),
    (forall o k : nat, Forall nomanual (react o k)) ->
    forall (e_drain : list E_in) (st0 : E_st) (top : list cop) (fuel : nat) (k : list kinstr),
    Forall nomanual top ->
    let c := krun e_exec e_call MRefCount reach cold react fuel (kinit (E_op := E_op) e_drain MRefCount st0 top) in
    k_k c = KDec :: k ->
    (count (k_bk c) = 1 ->
       has_sub (k_bk c) = true /\
       has_sub (k_bk (kstep e_exec e_call MRefCount reach cold react c)) = false /\
       count (k_bk (kstep e_exec e_call MRefCount reach cold react c)) = 0) /\
    (count (k_bk c) <> 1 ->
       has_sub (k_bk (kstep e_exec e_call MRefCount reach cold react c)) = has_sub (k_bk c) /\
       0 < count (k_bk (kstep e_exec e_call MRefCount reach cold react c))).
Proof. exact (@rc_tree_last_subscriber_disconnects). Qed.
Print Assumptions C24_ref_count_on_trees_last_subscriber_disconnects.

(* run level, in terms of the source's own log: at every moment of every run on every tree, when
   no subscriber is left (count 0) the source has no open subscription *)
Theorem C24_ref_count_on_trees_no_subscriber_no_source_subscription :
  forall (A E_st E_in E_op : Type) (e_exec : E_in -> E_st -> E_st * list E_in * list sev)
         (e_call : sop -> list E_in) (reach : bool) (cold : list (ev A)) (react : nat -> nat -> list cop),
    (forall o k : nat, Forall nomanual (react o k)) ->
    forall (e_drain : list E_in) (st0 : E_st) (top : list cop) (fuel : nat),
    Forall nomanual top ->
    let c := krun e_exec e_call MRefCount reach cold react fuel (kinit (E_op := E_op) e_drain MRefCount st0 top) in
    count (k_bk c) = 0 -> src_state (src_log (klog_of c)) = Some None.
Proof. exact (@rc_tree_no_subscriber_no_source_subscription). Qed.
Print Assumptions C24_ref_count_on_trees_no_subscriber_no_source_subscription.

(* the formula of the flat theorem is FALSE on trees: publish_value(0) + ref_count, subscriber 0
   subscribes subscriber 1 from inside its greeting callback, i.e. inside its own subscribe(),
   after `count += 1` and before `source.connect()`: count 2, one connect pending, NOT connected *)
Example C24_ref_count_flat_formula_on_trees_refuted :
  let c := krun (sync_exec (cls_of 0 KBehavior)) sync_call MRefCount true []
                (creact_tbl [(0%nat, [[CSub 1%nat]])]) 6 (kinit [] MRefCount (sync_init 0) [CSub 0%nat]) in
  has_sub (k_bk c) = false /\ count (k_bk c) = 2 /\ nconnect (k_k c) = 1%nat /\
  (0 <? count (k_bk c) - Z.of_nat (nconnect (k_k c))) = true.
Proof. vm_compute. repeat split; reflexivity. Qed.

(* the hypotheses of the tree theorems are met by re-entrant runs: a subscriber that unsubscribes
   itself from inside its first callback is the last one (dispose() finds count 1, the source is
   released: the log shows XSUnsub); and a connect() that finds count 2 *)
Example C24_witness_ref_count_on_trees :
  let tbl := [(0%nat, [[CUnsub 0%nat]])] in
  let c := krun (sync_exec (cls_of 0 KSubject)) sync_call MRefCount true [] (creact_tbl tbl) 14
                (kinit [] MRefCount (sync_init 0) [CSub 0%nat; CNext 5; CNext 6]) in
  (forall o k, Forall (@nomanual Z) (creact_tbl tbl o k)) /\
  k_k c = [KDec; KOp (CNext 6)] /\ count (k_bk c) = 1 /\
  run_config 0 (Config (FSync KSubject 0) MRefCount true []) 1000 ([CSub 0%nat; CNext 5; CNext 6], tbl)
  = ([XOp (CSub 0%nat); XSSub 0%nat; XOp (CNext 5); XGot 0%nat (Next 5); XOp (CUnsub 0%nat); XSUnsub 0%nat;
      XOp (CNext 6)], true).
Proof.
  cbv zeta. split; [|vm_compute; repeat split; reflexivity].
  intros o k. cbn [creact_tbl]. destruct (Nat.eqb 0 o); [|constructor].
  destruct k as [|[|k]]; cbn [nth]; repeat constructor.
Qed.
