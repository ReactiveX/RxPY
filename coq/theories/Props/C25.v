(* C25 -- a disposable's action runs at most once.
   Disposable: the action is invoked at most once, and is_disposed is True as soon as any dispose()
   executed its test-and-set (a fortiori once any dispose() returned); BooleanDisposable only flips
   its flag; ScheduledDisposable disposes the wrapped item on its scheduler exactly once.
   Part 1: all call histories of one thread (models Core/Disposables.v).
   Part 2: ALL schedules of ANY number of threads running ANY programs (transition systems
   Core/DispConc.v: one locked block / one unlocked access / one call out = one step).
   Part 3: the ghost call histories of Part 2 against the programs: exactly once iff some program
   calls dispose(); on the scheduler only.
   Models are tied to /repo by harness/props/C25.py (replayed call histories of one thread for Part 1;
   interleavings forced by the harness's thread controller for Parts 2 and 3). *)
From RxVerif Require Import Base.Prelude Core.Disposables Core.DisposablesFacts Core.DispConc Core.DispConcFacts
  Core.DispConcFacts2.

(* ---- one thread: all call histories ------------------------------------------ *)
Local Open Scope nat_scope.

(* the action runs exactly once iff dispose() was called at all, whatever the history *)
Theorem C25_action_once :
  forall h,
  runs (log d_step d_init h) = (if existsb is_ddispose h then 1 else 0) /\
  final d_step d_init h = existsb is_ddispose h.
Proof. intros h. destruct (d_run_gen h d_init) as [A B]. split; [exact B|exact A]. Qed.
Print Assumptions C25_action_once.

Theorem C25_action_at_most_once :
  forall h, runs (log d_step d_init h) <= 1.
Proof. intros h. destruct (d_run_gen h d_init) as [_ B]. rewrite B. cbn. destruct (existsb _ _); lia. Qed.
Print Assumptions C25_action_at_most_once.

(* is_disposed is reported by every query that follows a dispose() *)
Theorem C25_reports_is_disposed :
  forall h1 h2,
  last (outs d_step d_init (h1 ++ DDispose :: h2 ++ [DIsDisposed])) [] = [OBool true].
Proof.
  intros h1 h2.
  replace (h1 ++ DDispose :: h2 ++ [DIsDisposed]) with ((h1 ++ DDispose :: h2) ++ [DIsDisposed])
    by (rewrite <- app_assoc; reflexivity).
  rewrite outs_snoc_last.
  destruct (d_run_gen (h1 ++ DDispose :: h2) d_init) as [A _]. rewrite A.
  rewrite existsb_app. cbn. rewrite orb_true_r. reflexivity.
Qed.
Print Assumptions C25_reports_is_disposed.

(* BooleanDisposable only flips its flag *)
Theorem C25_boolean_flag_only :
  forall h,
  final b_step d_init h = existsb is_ddispose h /\
  runs (log b_step d_init h) = 0 /\ (forall i, disposes i (log b_step d_init h) = 0).
Proof. exact boolean_flag_only. Qed.
Print Assumptions C25_boolean_flag_only.

(* the wrapped item is disposed exactly once iff the scheduler ran at least one of the queued
   actions, never otherwise, and nothing else is disposed; is_disposed reports exactly that *)
Theorem C25_scheduled_once :
  forall h i,
  let s0 := sch_init i in
  disposes i (log sch_step s0 h) = (if 0 <? eff_runs 0 h then 1 else 0) /\
  (forall j, j <> i -> disposes j (log sch_step s0 h) = 0) /\
  s_disposed (sch_inner (final sch_step s0 h)) = (0 <? eff_runs 0 h).
Proof. exact scheduled_once. Qed.
Print Assumptions C25_scheduled_once.

(* every dispose() call schedules one action (repeated calls schedule repeatedly) *)
Theorem C25_scheduled_schedules_each_call :
  forall h s,
  scheds (log sch_step s h) = length (filter is_schdispose h).
Proof.
  induction h as [|o t IH]; intros s; [reflexivity|].
  rewrite log_cons. unfold scheds in *. rewrite filter_app, app_length, IH.
  (* one call from any state: by cases on the call, the inner slot, its flag and whether the queue is empty *)
  destruct o, s as [[[c|] [|]] [|q]]; reflexivity.
Qed.
Print Assumptions C25_scheduled_schedules_each_call.

(* the scheduler invoked exactly [eff_runs] queued actions (observable: ORun) *)
Theorem C25_scheduled_runs_observable :
  forall h s, runs (log sch_step s h) = eff_runs (sch_queue s) h.
Proof.
  induction h as [|o t IH]; intros s; [reflexivity|].
  rewrite log_cons, runs_app, IH. destruct o, s as [[[c|] [|]] [|q]]; reflexivity.
Qed.
Print Assumptions C25_scheduled_runs_observable.

(* non-vacuity *)
Example C25_witness_seq :
  outs d_step d_init [DIsDisposed; DDispose; DDispose; DIsDisposed] = [[OBool false]; [ORun]; []; [OBool true]].
Proof. vm_compute. reflexivity. Qed.
Example C25_witness_scheduled_seq :
  log sch_step (sch_init 3) [SchDispose; SchDispose; SchRunOne; SchRunOne; SchIsDisposed]
  = [OSched; OSched; ORun; ODisp 3; ORun; OBool true].
Proof. vm_compute. reflexivity. Qed.

(* ---- any number of threads: all schedules -------------------------------------- *)
Local Close Scope nat_scope.
Local Open Scope Z_scope.

(* the action is invoked at most once under every interleaving of any number of threads and calls:
   (#invocations) + (1 if not yet disposed) + (#threads between the test-and-set and the call) = 1 *)
Theorem C25_once_all_interleavings :
  forall progs sched,
  let c := dd_run progs sched in
  Z.of_nat (runs (plain (c_log c))) + dd_held (c_sh c) + dd_in_flight c = 1 /\
  (runs (plain (c_log c)) <= 1)%nat /\
  (quiescent c = true -> runs (plain (c_log c)) = if c_sh c then 1%nat else 0%nat).
Proof. exact disposable_conc_once. Qed.
Print Assumptions C25_once_all_interleavings.

Theorem C25_reports_all_interleavings :
  forall progs sched k t,
  let c := dd_run progs sched in
  nth_error (c_ths c) k = Some t -> In DDispose (t_hist t) -> c_sh c = true.
Proof. exact disposable_conc_reports. Qed.
Print Assumptions C25_reports_all_interleavings.

Theorem C25_boolean_reports_all_interleavings :
  forall progs sched k t,
  let c := bd_run progs sched in
  nth_error (c_ths c) k = Some t -> In DDispose (t_hist t) -> c_sh c = true.
Proof. exact (reports_disposed bd_start bd_act bd_reports_flag). Qed.
Print Assumptions C25_boolean_reports_all_interleavings.

Theorem C25_boolean_flag_only_all_interleavings :
  forall progs sched,
  forallb quiet (plain (c_log (bd_run progs sched))) = true.
Proof.
  intros progs sched. unfold bd_run.
  apply (crun_invariant bd_start bd_act (fun c => forallb quiet (plain (c_log c)) = true)); [|reflexivity].
  intros c tid H. apply (tstep_elim bd_start bd_act (fun c => forallb quiet (plain (c_log c)) = true)); [exact H|].
  intros t l todo hist s' l' out N F A. cbn [c_log]. rewrite plain_app, plain_tag, forallb_app, H.
  destruct l; cbn in A; injection A as _ _ <-; reflexivity.
Qed.
Print Assumptions C25_boolean_flag_only_all_interleavings.

Theorem C25_scheduled_conservation_all_interleavings :
  forall w progs sched i,
  let c := hc_run w progs sched in
  zdisp i (plain (c_log c)) + Z.of_nat (ocnt i (s_cur (sch_inner (c_sh c)))) + hc_in_flight i c
  = (if Nat.eqb i w then 1 else 0).
Proof. exact scheduled_conc_conservation. Qed.
Print Assumptions C25_scheduled_conservation_all_interleavings.

(* EXACTLY ONCE, ON THE SCHEDULER: under every interleaving the wrapped item receives at most one
   dispose() and nothing else is disposed; once all calls returned it received exactly one iff the
   scheduler invoked at least one of the queued actions *)
Theorem C25_scheduled_once_all_interleavings :
  forall w progs sched,
  let c := hc_run w progs sched in
  zdisp w (plain (c_log c)) <= 1 /\
  (forall j, j <> w -> zdisp j (plain (c_log c)) = 0) /\
  (quiescent c = true ->
   zdisp w (plain (c_log c)) = (if (1 <=? runs (plain (c_log c)))%nat then 1 else 0) /\
   s_disposed (sch_inner (c_sh c)) = (1 <=? runs (plain (c_log c)))%nat).
Proof. exact scheduled_conc_once. Qed.
Print Assumptions C25_scheduled_once_all_interleavings.

(* non-vacuity: two threads race on dispose(); T0 passes the test-and-set first, T1's call returns
   before T0 has invoked the action, is_disposed is already reported, the action runs once *)
Example C25_witness_race :
  let c := dd_run [[DDispose]; [DDispose; DIsDisposed]] [0; 1; 1; 0]%nat in
  c_log c = [(1%nat, OBool true); (0%nat, ORun)] /\ quiescent c = true /\ c_sh c = true.
Proof. vm_compute. repeat split. Qed.
Example C25_witness_reports_hyp :
  let c := dd_run [[DDispose]; [DDispose]] [1]%nat in
  exists t, nth_error (c_ths c) 1 = Some t /\ In DDispose (t_hist t) /\ quiescent c = false.
Proof. vm_compute. eexists. split; [reflexivity|]. split; [left; reflexivity|reflexivity]. Qed.
(* two dispose() calls, two workers: both queued actions are invoked, the item is disposed once *)
Example C25_witness_scheduled_race :
  let c := hc_run 3%nat [[SchDispose; SchDispose]; [SchRunOne]; [SchRunOne]] [0; 0; 1; 2; 1; 2; 1]%nat in
  plain (c_log c) = [OSched; OSched; ORun; ORun; ODisp 3%nat] /\ quiescent c = true.
Proof. vm_compute. repeat split. Qed.

(* ---- the ghost histories and the programs; exactly once IFF CALLED ----------------- *)
(* at every moment of every schedule, thread k's program is: the calls it has started (oldest first)
   followed by the calls it has not started yet (stated for Disposable; [hist_todo_progs] holds of every
   transition system) *)
Theorem C25_history_is_program_prefix :
  forall progs sched k t,
  nth_error (c_ths (dd_run progs sched)) k = Some t ->
  nth_error progs k = Some (rev (t_hist t) ++ t_todo t).
Proof. exact (hist_todo_progs dd_start dd_act d_init). Qed.
Print Assumptions C25_history_is_program_prefix.

(* EXACTLY ONCE IFF dispose() WAS CALLED, any number of threads, every schedule: once all calls have
   returned the action was invoked exactly once if some thread's program contains a dispose() call and
   not at all otherwise *)
Theorem C25_exactly_once_iff_called :
  forall progs sched,
  let c := dd_run progs sched in
  quiescent c = true ->
  runs (plain (c_log c)) = if existsb (existsb is_ddispose) progs then 1%nat else 0%nat.
Proof.
  intros progs sched c Q. destruct (disposable_conc_once progs sched) as [_ [_ H]]. fold c in H.
  rewrite (H Q). destruct (disposable_conc_flag_iff_called progs sched) as [_ E]. fold c in E.
  rewrite (E Q). reflexivity.
Qed.
Print Assumptions C25_exactly_once_iff_called.

(* ... and at every moment (quiescent or not) it was not invoked if no program contains a dispose() *)
Theorem C25_never_if_not_called :
  forall progs sched,
  existsb (existsb is_ddispose) progs = false -> runs (plain (c_log (dd_run progs sched))) = 0%nat.
Proof.
  intros progs sched X. pose proof (disposable_conc_once progs sched) as [H _]. cbv zeta in H.
  destruct (disposable_conc_flag_iff_called progs sched) as [D _]. cbv zeta in D.
  pose proof (dd_in_flight_nonneg (dd_run progs sched)) as NF.
  destruct (c_sh (dd_run progs sched)) eqn:S; [specialize (D eq_refl); congruence|].
  cbn [dd_held] in H. lia.
Qed.
Print Assumptions C25_never_if_not_called.

(* the flag is only ever set by a dispose() call (converse of C25_reports_all_interleavings), and once
   all calls returned it says exactly whether some program contains one *)
Theorem C25_flag_iff_called :
  forall progs sched,
  let c := dd_run progs sched in
  (c_sh c = true -> existsb (existsb is_ddispose) progs = true) /\
  (quiescent c = true -> c_sh c = existsb (existsb is_ddispose) progs).
Proof. exact disposable_conc_flag_iff_called. Qed.
Print Assumptions C25_flag_iff_called.

(* QUERY-LEVEL REPORTING: once any thread has executed the first action of a dispose() call (a fortiori
   once any dispose() has returned), every is_disposed query answered from then on -- by any thread,
   under any continuation s2 of the schedule -- returns True *)
Theorem C25_query_after_dispose :
  forall progs s1 s2 k t more tid b,
  nth_error (c_ths (dd_run progs s1)) k = Some t -> In DDispose (t_hist t) ->
  c_log (dd_run progs (s1 ++ s2)) = c_log (dd_run progs s1) ++ more ->
  In (tid, OBool b) more -> b = true.
Proof. exact (reported_from_then_on dd_start dd_act dd_reports_flag). Qed.
Print Assumptions C25_query_after_dispose.

Theorem C25_boolean_query_after_dispose :
  forall progs s1 s2 k t more tid b,
  nth_error (c_ths (bd_run progs s1)) k = Some t -> In DDispose (t_hist t) ->
  c_log (bd_run progs (s1 ++ s2)) = c_log (bd_run progs s1) ++ more ->
  In (tid, OBool b) more -> b = true.
Proof. exact (reported_from_then_on bd_start bd_act bd_reports_flag). Qed.
Print Assumptions C25_boolean_query_after_dispose.

(* ONLY ON THE SCHEDULER, at every moment of every schedule (not only at quiescence): if the wrapped item
   has received its dispose() call then the scheduler has invoked at least one queued action, and the
   thread that made the dispose() call is a thread on which the scheduler invoked a queued action *)
Theorem C25_scheduled_only_on_scheduler :
  forall w progs sched tid,
  let c := hc_run w progs sched in
  (1 <= zdisp w (plain (c_log c)) -> (1 <= runs (plain (c_log c)))%nat) /\
  (In (tid, ODisp w) (c_log c) -> In (tid, ORun) (c_log c)).
Proof.
  intros w progs sched tid c. split.
  - intros D. pose proof (scheduled_conc_balance w progs sched) as B. cbv zeta in B. fold c in B.
    pose proof (hc_in_flight_nonneg w c) as NF. destruct (hc_run_inv w progs sched) as [_ [_ I3]]. apply I3. fold c.
    destruct (s_disposed (sch_inner (c_sh c))); [reflexivity|lia].
  - destruct (hc_run_worker_inv w progs sched) as [_ I2]. apply I2.
Qed.
Print Assumptions C25_scheduled_only_on_scheduler.

(* non-vacuity: T1's dispose() has executed its locked block (not yet the action) after schedule [1];
   the continuation [0;2;1;0;2] makes T2's query and T0's later query both answer True; and a quiescent
   run whose programs contain no dispose() *)
Example C25_witness_query_after_dispose :
  let progs := [[DIsDisposed; DIsDisposed]; [DDispose]; [DIsDisposed]] in
  (exists t, nth_error (c_ths (dd_run progs [1]%nat)) 1 = Some t /\ In DDispose (t_hist t)) /\
  c_log (dd_run progs ([1] ++ [0; 2; 1; 0; 2])%nat) =
    c_log (dd_run progs [1]%nat) ++ [(0%nat, OBool true); (2%nat, OBool true); (1%nat, ORun); (0%nat, OBool true)] /\
  quiescent (dd_run progs ([1] ++ [0; 2; 1; 0; 2])%nat) = true /\
  existsb (existsb is_ddispose) progs = true.
Proof. vm_compute. split; [eexists; split; [reflexivity|left; reflexivity]|repeat split]. Qed.
Example C25_witness_not_called :
  let c := dd_run [[DIsDisposed]; []] [0; 1]%nat in
  quiescent c = true /\ existsb (existsb is_ddispose) [[DIsDisposed]; []] = false /\ c_log c = [(0%nat, OBool false)].
Proof. vm_compute. repeat split. Qed.
(* the worker (thread 1) that makes the dispose() call logged ORun itself; not yet quiescent *)
Example C25_witness_only_on_scheduler :
  let c := hc_run 3%nat [[SchDispose]; [SchRunOne]] [0; 1; 1; 1]%nat in
  c_log c = [(0%nat, OSched); (1%nat, ORun); (1%nat, ODisp 3%nat)] /\ zdisp 3%nat (plain (c_log c)) = 1.
Proof. vm_compute. repeat split. Qed.
