(* C03 -- unsubscribing silences the subscriber and frees its sources.
   For EVERY machine and EVERY input sequence with a dispose at ANY position:
   the observable trace up to and including the dispose is all there is --
   whatever sources and timers do afterwards adds nothing (no notification, no
   subscription, no timer, no side effect; user callbacks are only ever invoked
   from the handlers, which no longer run) -- and at that instant every source
   subscription and timer is released. *)
From RxVerif Require Import Base.Prelude Ops.Machine Ops.MachineFacts Ops.Multi Ops.MultiFacts
  Ops.ReleaseFacts Ops.Combinators.

Theorem C03_silent_and_released_after_dispose :
  forall A B (m : machine A B) ins1 ins2 now s r k, rinv r ->
    fst (run_from m s r k (ins1 ++ (now, IDispose) :: ins2))
    = fst (run_from m s r k (ins1 ++ [(now, IDispose)]))
    /\ released (snd (run_from m s r k (ins1 ++ (now, IDispose) :: ins2))).
Proof. exact @run_from_after_dispose. Qed.
Print Assumptions C03_silent_and_released_after_dispose.

Theorem C03_stopped_runner_ignores_everything : forall A B (m : machine A B) ins s r k,
  r_stopped r = true -> run_from m s r k ins = ([], r).
Proof. exact @run_from_stopped. Qed.
Print Assumptions C03_stopped_runner_ignores_everything.

(* after a dispose the runner's live set is empty; the subscriptions a trace leaves open are that set
   (Ops/ReleaseFacts.v: run_from_track, C02_trace_accounts_for_live_set for whole runs) *)
Theorem C03_trace_balanced_after_dispose : forall A B (m : machine A B) ins1 ins2 now s r k, rinv r ->
  r_live (snd (run_from m s r k (ins1 ++ (now, IDispose) :: ins2))) = [].
Proof.
  intros A B m ins1 ins2 now s r k H.
  destruct (run_from_after_dispose m ins1 ins2 now s r k H) as [_ R]. now rewrite R.
Qed.
Print Assumptions C03_trace_balanced_after_dispose.

(* the same for whole runs, from subscription: the start state of every machine
   satisfies the invariant [rinv] *)
Theorem C03_run_disposed : forall A B (m : machine A B) ins1 ins2 now,
  fst (run m (ins1 ++ (now, IDispose) :: ins2)) = fst (run m (ins1 ++ [(now, IDispose)]))
  /\ released (snd (run m (ins1 ++ (now, IDispose) :: ins2))).
Proof.
  intros A B m ins1 ins2 now. rewrite !run_start. cbn [fst snd].
  destruct (run_from_after_dispose m ins1 ins2 now (fst (fst (start_step m))) _ 1 (start_rinv m)) as [H1 H2].
  split; [now rewrite H1|exact H2].
Qed.
Print Assumptions C03_run_disposed.

(* witness: merge of two sources disposed while both are live -- both are
   unsubscribed in the dispose step and the later element adds nothing *)
Example C03_witness_dispose_mid_run :
  run (@x_merge Z 2) ([(0, ISrc 0%nat (Next 5))] ++ (1, IDispose) :: [(2, ISrc 1%nat (Next 4))])
  = ([(0%nat, OSub 0%nat); (0%nat, OSub 1%nat); (1%nat, OEmit (Next 5));
      (2%nat, OUnsub 0%nat); (2%nat, OUnsub 1%nat)],
     RState [] [] true).
Proof. vm_compute. reflexivity. Qed.
