(* C26 -- container disposables dispose each held item exactly once.
   CompositeDisposable, SerialDisposable, SingleAssignmentDisposable, MultipleAssignmentDisposable.
   The central statement is a CONSERVATION law per item i, valid after every history / at every
   moment of every schedule:
       #dispose() calls i received + #occurrences of i the container holds (+ in flight, + rejected)
       = #times i was handed to the container.
   Hence an item handed over once is disposed exactly once as soon as the container does not hold
   it any more (removed, cleared, replaced, container disposed, or handed over after disposal) and
   not at all while a container holds it.  MultipleAssignmentDisposable does not promise to dispose
   a replaced item: its dispose() calls are characterised completely instead.
   Part 1: all call histories of one thread (Core/Disposables.v).  Part 2: ALL schedules of ANY
   number of threads (Core/DispConc.v).  Part 3: SingleAssignmentDisposable deciding outside its lock (the
   source without proposed_fixes/C26-singleassignment-locked-decision.diff) is refuted (4 witnesses, each
   reproduced on that source); then two more theorems over all schedules (not held at the instant of the
   dispose() call; exactly one assignment accepted).
   Part 4: one thread of the transition systems of Part 2 is the sequential model of Part 1.
   Models are tied to /repo by harness/props/C26.py. *)
From RxVerif Require Import Base.Prelude Core.Disposables Core.DisposablesFacts Core.DispConc Core.DispConcFacts
  Core.DispConcFacts2.

(* ---- one thread: all call histories ------------------------------------------ *)
Local Open Scope nat_scope.

(* CONSERVATION, all histories: for every item, (#dispose() calls it received)
   + (#occurrences still held) = (#times it was handed to the container). *)
Theorem C26_composite_conservation :
  forall l h i,
  disposes i (log c_step (c_init l) h) + cnt i (c_items (final c_step (c_init l) h))
  = cnt i l + c_hadds i h.
Proof. exact composite_conservation. Qed.
Print Assumptions C26_composite_conservation.

(* once the container is disposed, EVERY item handed over (before or after) got exactly as many
   dispose() calls as it was handed over: exactly one for an item added once *)
Theorem C26_composite_disposed_all_once :
  forall l h i,
  c_disposed (final c_step (c_init l) h) = true ->
  disposes i (log c_step (c_init l) h) = cnt i l + c_hadds i h.
Proof.
  intros l h i D. pose proof (composite_conservation l h i) as C.
  rewrite (c_final_ok l h D) in C. rewrite cnt_nil in C. lia.
Qed.
Print Assumptions C26_composite_disposed_all_once.

(* an item handed over exactly once: no dispose() while held, exactly one once it is not held any more
   (removed, cleared, or the container was disposed) *)
Theorem C26_composite_item_exactly_once_never_while_held :
  forall l h i,
  cnt i l + c_hadds i h = 1 ->
  (mem i (c_items (final c_step (c_init l) h)) = true -> disposes i (log c_step (c_init l) h) = 0) /\
  (mem i (c_items (final c_step (c_init l) h)) = false -> disposes i (log c_step (c_init l) h) = 1).
Proof.
  intros l h i U. pose proof (composite_conservation l h i) as C. split; intros M.
  - apply cnt_mem in M. lia.
  - apply cnt_zero_not_mem in M. lia.
Qed.
Print Assumptions C26_composite_item_exactly_once_never_while_held.

(* an item added to a disposed container is disposed at once, by that very call *)
Theorem C26_composite_add_after_dispose :
  forall l h1 h2 i,
  let s := final c_step (c_init l) (h1 ++ CDispose :: h2) in
  c_step s (CAdd i) = (s, [ODisp i]).
Proof.
  intros l h1 h2 i s. cbn [c_step]. unfold s. rewrite c_disposed_after_dispose. reflexivity.
Qed.
Print Assumptions C26_composite_add_after_dispose.

(* remove of a held item disposes it (once) and returns True; remove of anything else is silent *)
Theorem C26_composite_remove_disposes :
  forall l h i,
  let s := final c_step (c_init l) h in
  snd (c_step s (CRemove i)) = if mem i (c_items s) then [ODisp i; OBool true] else [OBool false].
Proof.
  intros l h i s. cbn [c_step]. destruct (c_disposed s) eqn:D.
  - pose proof (c_final_ok l h D) as E. fold s in E. rewrite E. reflexivity.
  - destruct (mem i (c_items s)); reflexivity.
Qed.
Print Assumptions C26_composite_remove_disposes.

Theorem C26_serial_conservation :
  forall h i,
  disposes i (log ser_step s_init h) + ocnt i (s_cur (final ser_step s_init h)) = s_hsets i h.
Proof. exact serial_conservation. Qed.
Print Assumptions C26_serial_conservation.

(* once disposed, every item ever assigned received exactly as many dispose() calls as assignments *)
Theorem C26_serial_disposed_all_once :
  forall h i,
  s_disposed (final ser_step s_init h) = true ->
  disposes i (log ser_step s_init h) = s_hsets i h.
Proof.
  intros h i D. pose proof (serial_conservation h i) as C.
  rewrite (ser_final_ok h D), ocnt_none in C. lia.
Qed.
Print Assumptions C26_serial_disposed_all_once.

(* an item assigned exactly once: not disposed while it is the current one, disposed exactly once
   as soon as it is not (replaced, or the container was disposed) *)
Theorem C26_serial_item_exactly_once_never_while_held :
  forall h i,
  s_hsets i h = 1 ->
  (s_cur (final ser_step s_init h) = Some i -> disposes i (log ser_step s_init h) = 0) /\
  (s_cur (final ser_step s_init h) <> Some i -> disposes i (log ser_step s_init h) = 1).
Proof.
  intros h i U. pose proof (serial_conservation h i) as C. split; intros M.
  - rewrite M, ocnt_same in C. lia.
  - rewrite (ocnt_other i _ M) in C. lia.
Qed.
Print Assumptions C26_serial_item_exactly_once_never_while_held.

Theorem C26_serial_set_after_dispose :
  forall h1 h2 i,
  let s := final ser_step s_init (h1 ++ SDispose :: h2) in ser_step s (SSet i) = (s, [ODisp i]).
Proof. intros h1 h2 i s. cbn [ser_step]. unfold s. rewrite serial_disposed_after_dispose. reflexivity. Qed.
Print Assumptions C26_serial_set_after_dispose.

(* replacing disposes the previous item, by that very call *)
Theorem C26_serial_replace_disposes_old :
  forall s i j,
  s_disposed s = false -> s_cur s = Some j -> snd (ser_step s (SSet i)) = [ODisp j].
Proof. intros s i j D C. cbn [ser_step]. rewrite D, C. reflexivity. Qed.
Print Assumptions C26_serial_replace_disposes_old.

(* conservation: every assignment is either rejected (raised), or its item is the current one, or the
   item received exactly one dispose() *)
Theorem C26_single_conservation :
  forall h i,
  disposes i (log sad_step s_init h) + ocnt i (s_cur (final sad_step s_init h))
  + s_rejected i h (outs sad_step s_init h) = s_hsets i h.
Proof. exact sad_conservation. Qed.
Print Assumptions C26_single_conservation.

Theorem C26_single_disposed_all_once :
  forall h i,
  s_disposed (final sad_step s_init h) = true ->
  disposes i (log sad_step s_init h) + s_rejected i h (outs sad_step s_init h) = s_hsets i h.
Proof.
  intros h i D. pose proof (sad_conservation h i) as C.
  rewrite (sad_final_ok h D), ocnt_none in C. lia.
Qed.
Print Assumptions C26_single_disposed_all_once.

(* A second assignment to a SingleAssignmentDisposable that is not disposed is rejected, whatever
   else (other than dispose) happened in between; it changes nothing. *)
Theorem C26_single_second_assignment_rejected :
  forall h1 h2 i j,
  existsb is_sdispose (h1 ++ SSet i :: h2) = false ->
  let s := final sad_step s_init (h1 ++ SSet i :: h2) in
  sad_step s (SSet j) = (s, [ORaise]).
Proof. exact sad_second_assignment_rejected. Qed.
Print Assumptions C26_single_second_assignment_rejected.

Theorem C26_single_first_assignment_accepted :
  forall h i,
  existsb is_sset h = false ->
  raises (snd (sad_step (final sad_step s_init h) (SSet i))) = 0.
Proof.
  intros h i N. cbn [sad_step]. rewrite (sad_no_set_no_current h s_init N eq_refl).
  destruct (s_disposed _); reflexivity.
Qed.
Print Assumptions C26_single_first_assignment_accepted.

(* assignment after dispose(): disposed at once (never kept, never rejected) *)
Theorem C26_single_set_after_dispose :
  forall h1 h2 i,
  let s := final sad_step s_init (h1 ++ SDispose :: h2) in sad_step s (SSet i) = (s, [ODisp i]).
Proof.
  intros h1 h2 i s. cbn [sad_step]. unfold s.
  rewrite (sad_final_ok _ (sad_disposed_after_dispose h1 h2)).
  rewrite sad_disposed_after_dispose. reflexivity.
Qed.
Print Assumptions C26_single_set_after_dispose.

(* complete characterisation of the dispose() calls a MultipleAssignmentDisposable makes:
   none before the first dispose(); at the first dispose() the current (= last assigned) item;
   afterwards every newly assigned item, at once *)
Theorem C26_multiple_nothing_while_live :
  forall h,
  existsb is_sdispose h = false -> disp_ids (log mad_step s_init h) = [].
Proof. intros h N. destruct (mad_live h s_init N eq_refl) as [_ [B _]]. exact B. Qed.
Print Assumptions C26_multiple_nothing_while_live.

Theorem C26_multiple_characterisation :
  forall h1 h2,
  existsb is_sdispose h1 = false ->
  disp_ids (log mad_step s_init (h1 ++ SDispose :: h2)) = opt_items (last_set h1) ++ sets_of h2.
Proof.
  intros h1 h2 N. destruct (mad_live h1 s_init N eq_refl) as [A [B C]].
  rewrite log_app, disp_ids_app, B, log_cons, disp_ids_app. cbn [app mad_step].
  unfold slot_dispose. rewrite A. cbn [fst snd]. rewrite C. cbn [s_init s_cur].
  rewrite (mad_dead h2 (SState None true) eq_refl).
  destruct (last_set h1); reflexivity.
Qed.
Print Assumptions C26_multiple_characterisation.

(* non-vacuity *)
Example C26_witness_composite :
  outs c_step (c_init [0; 1]) [CAdd 2; CRemove 0; CRemove 3; CDispose; CAdd 4; CClear]
  = [[]; [ODisp 0; OBool true]; [OBool false]; [ODisp 1; ODisp 2]; [ODisp 4]; []].
Proof. vm_compute. reflexivity. Qed.
Example C26_witness_item_once_hyp : cnt 2 [0; 1] + c_hadds 2 [CAdd 2; CRemove 0; CDispose] = 1.
Proof. vm_compute. reflexivity. Qed.
Example C26_witness_single :
  outs sad_step s_init [SSet 1; SSet 2; SGet; SDispose; SSet 3] = [[]; [ORaise]; [OItem (Some 1)]; [ODisp 1]; [ODisp 3]].
Proof. vm_compute. reflexivity. Qed.
Example C26_witness_multiple :
  disp_ids (log mad_step s_init [SSet 1; SSet 2; SDispose; SSet 3]) = [2; 3].
Proof. vm_compute. reflexivity. Qed.

(* ---- any number of threads: all schedules -------------------------------------- *)
Local Close Scope nat_scope.
Local Open Scope Z_scope.

(* CONSERVATION under every schedule, at every moment: dispose() calls received + occurrences held by
   the container + occurrences in flight = occurrences ever handed over *)
Theorem C26_composite_conservation_all_interleavings :
  forall l0 progs sched i,
  let c := cc_run l0 progs sched in
  zdisp i (plain (c_log c)) + zcnt i (c_items (c_sh c)) + cc_in_flight i c = cc_total i l0 progs.
Proof. exact composite_conc_conservation. Qed.
Print Assumptions C26_composite_conservation_all_interleavings.

(* never more dispose() calls than occurrences handed over; none while the only occurrence is held *)
Theorem C26_composite_never_while_held_all_interleavings :
  forall l0 progs sched i,
  let c := cc_run l0 progs sched in
  zdisp i (plain (c_log c)) <= cc_total i l0 progs /\
  (cc_total i l0 progs = 1 -> mem i (c_items (c_sh c)) = true -> zdisp i (plain (c_log c)) = 0).
Proof.
  intros l0 progs sched i c. pose proof (composite_conc_conservation l0 progs sched i) as H. cbv zeta in H. fold c in H.
  pose proof (cc_in_flight_nonneg i c). pose proof (zcnt_nonneg i (c_items (c_sh c))). split; [lia|].
  intros T M. apply cnt_mem in M. unfold zcnt in *. unfold zdisp in *. lia.
Qed.
Print Assumptions C26_composite_never_while_held_all_interleavings.

(* when all calls have returned: exactly once per occurrence no longer held; everything if disposed *)
Theorem C26_composite_exactly_once_all_interleavings :
  forall l0 progs sched i,
  let c := cc_run l0 progs sched in
  quiescent c = true ->
  zdisp i (plain (c_log c)) + zcnt i (c_items (c_sh c)) = cc_total i l0 progs /\
  (c_disposed (c_sh c) = true -> zdisp i (plain (c_log c)) = cc_total i l0 progs).
Proof.
  intros l0 progs sched i c Q. pose proof (composite_conc_conservation l0 progs sched i) as H. cbv zeta in H. fold c in H.
  assert (cc_in_flight i c = 0) as F0 by (apply (quiescent_tmeasure (cc_pl i) (cc_adds i) c Q)).
  split; [lia|]. intros D. pose proof (cc_run_c_ok l0 progs sched D) as E. fold c in E. rewrite E, zcnt_nil in H. lia.
Qed.
Print Assumptions C26_composite_exactly_once_all_interleavings.

(* an item added to a disposed container is disposed by the adding call itself *)
Theorem C26_composite_add_after_dispose_step :
  forall s j,
  c_disposed s = true ->
  cc_act s (cc_start (CAdd j)) = (s, Some (CL_calls [j] []), []) /\
  cc_act s (CL_calls [j] []) = (s, None, [ODisp j]).
Proof. intros s j D. cbn [cc_start cc_act]. rewrite D. split; reflexivity. Qed.
Print Assumptions C26_composite_add_after_dispose_step.

(* CONSERVATION (Serial, MultipleAssignment, SingleAssignment), every schedule, every moment:
   dispose() calls + rejected assignments + current + let go by replacement (Multiple only) + in flight
   = assignments made *)
Theorem C26_slot_conservation_all_interleavings :
  forall k progs sched i,
  let c := sc_run k progs sched in
  zdisp i (plain (c_log c)) + Z.of_nat (rejs i (plain (c_log c)))
  + Z.of_nat (ocnt i (s_cur (x_s (c_sh c)))) + zcnt i (x_dropped (c_sh c)) + sc_in_flight i c
  = sc_total i progs.
Proof. exact slot_conc_conservation. Qed.
Print Assumptions C26_slot_conservation_all_interleavings.

(* Serial / SingleAssignment: every assignment is, at every moment, exactly one of: rejected, current,
   in flight, or disposed exactly once; in particular never disposed while it is the current one *)
Theorem C26_serial_single_exactly_once_all_interleavings :
  forall k progs sched i,
  k <> KMultiple ->
  let c := sc_run k progs sched in
  zdisp i (plain (c_log c)) + Z.of_nat (rejs i (plain (c_log c)))
  + Z.of_nat (ocnt i (s_cur (x_s (c_sh c)))) + sc_in_flight i c = sc_total i progs /\
  (sc_total i progs = 1 -> s_cur (x_s (c_sh c)) = Some i -> zdisp i (plain (c_log c)) = 0) /\
  (quiescent c = true -> s_disposed (x_s (c_sh c)) = true ->
   zdisp i (plain (c_log c)) + Z.of_nat (rejs i (plain (c_log c))) = sc_total i progs).
Proof. exact slot_conc_exact. Qed.
Print Assumptions C26_serial_single_exactly_once_all_interleavings.

(* a SingleAssignmentDisposable rejects an assignment exactly when something is assigned at the moment
   its locked block runs; the decision and the raise are inside the lock *)
Theorem C26_single_rejects_inside_lock :
  forall x j,
  sc_act KSingle x (sc_start (SSet j)) =
  match s_cur (x_s x) with
  | Some _ => (x, None, [ORej j])
  | None => if s_disposed (x_s x)
            then (x, Some (SL_calls [j] []), [])
            else (XState (SState (Some j) (s_disposed (x_s x))) (x_dropped x), None, [])
  end.
Proof. intros x j. cbn [sc_start sc_act]. destruct (s_cur (x_s x)); [reflexivity|]. destruct (s_disposed (x_s x)); reflexivity. Qed.
Print Assumptions C26_single_rejects_inside_lock.

Theorem C26_single_multiple_nothing_while_live_all_interleavings :
  forall k progs sched,
  k <> KSerial -> sc_live_silent (sc_run k progs sched).
Proof. exact slot_conc_live_silent. Qed.
Print Assumptions C26_single_multiple_nothing_while_live_all_interleavings.

(* ---- SingleAssignmentDisposable deciding outside its lock ([sad0_step], [s0_act]): refuted, with witnesses ---- *)
(* dispose(); then assign a falsy disposable: it is never disposed *)
Theorem C26_prefix_single_falsy_value_refuted :
  log (sad0_step truthy_ex) s_init [SDispose; SSet 0%nat] = [].
Proof. vm_compute. reflexivity. Qed.
Print Assumptions C26_prefix_single_falsy_value_refuted.

(* assign a falsy disposable, assign again: accepted (no exception), the first one is dropped undisposed *)
Theorem C26_prefix_single_falsy_current_refuted :
  outs (sad0_step truthy_ex) s_init [SSet 0%nat; SSet 1%nat; SGet] = [[]; []; [OItem (Some 1%nat)]].
Proof. vm_compute. reflexivity. Qed.
Print Assumptions C26_prefix_single_falsy_current_refuted.

(* T0 assigns item 1 (reads current, runs its locked block), T1 disposes completely, T0 re-reads
   is_disposed outside the lock: item 1 receives TWO dispose() calls *)
Theorem C26_prefix_single_double_dispose_race_refuted :
  c_log (s0_run [[SSet 1%nat]; [SDispose]] [0; 0; 1; 1; 0; 0]%nat) = [(1%nat, ODisp 1%nat); (0%nat, ODisp 1%nat)].
Proof. vm_compute. reflexivity. Qed.
Print Assumptions C26_prefix_single_double_dispose_race_refuted.

(* two threads both pass the unlocked `if self.current`: the second assignment is not rejected and
   silently replaces the first, which is never disposed *)
Theorem C26_prefix_single_double_assign_race_refuted :
  let c := s0_run [[SSet 1%nat]; [SSet 2%nat]] [0; 1; 0; 1; 0; 1]%nat in
  c_log c = [] /\ s_cur (c_sh c) = Some 2%nat /\ quiescent c = true.
Proof. vm_compute. repeat split. Qed.
Print Assumptions C26_prefix_single_double_assign_race_refuted.

(* the same histories / schedules on the model of the CURRENT code *)
Theorem C26_single_falsy_value_fixed :
  log sad_step s_init [SDispose; SSet 0%nat] = [ODisp 0%nat].
Proof. vm_compute. reflexivity. Qed.
Print Assumptions C26_single_falsy_value_fixed.

Theorem C26_single_falsy_current_fixed :
  outs sad_step s_init [SSet 0%nat; SSet 1%nat; SGet] = [[]; [ORaise]; [OItem (Some 0%nat)]].
Proof. vm_compute. reflexivity. Qed.
Print Assumptions C26_single_falsy_current_fixed.

(* non-vacuity: remove(0) racing with dispose(): T1's dispose swaps the list between T0's
   unlocked pre-check and T0's locked membership test; item 0 is disposed once (by T1), remove returns False *)
Example C26_witness_composite_race :
  let c := cc_run [0; 1]%nat [[CRemove 0%nat]; [CDispose]] [0; 1; 1; 0; 1; 1]%nat in
  c_log c = [(0, OBool false); (1, ODisp 0); (1, ODisp 1)]%nat /\ quiescent c = true /\
  c_disposed (c_sh c) = true /\ cc_total 0%nat [0; 1]%nat [[CRemove 0%nat]; [CDispose]] = 1.
Proof. vm_compute. repeat split. Qed.
(* the two refuting schedules of [s0_act], on [sc_act KSingle] *)
Example C26_witness_single_race_fixed :
  c_log (sc_run KSingle [[SSet 1%nat]; [SDispose]] [0; 1; 1]%nat) = [(1%nat, ODisp 1%nat)] /\
  c_log (sc_run KSingle [[SSet 1%nat]; [SSet 2%nat]] [0; 1]%nat) = [(1%nat, ORej 2%nat)].
Proof. vm_compute. split; reflexivity. Qed.
Example C26_witness_kind_hyp : KSingle <> KMultiple /\ KSingle <> KSerial.
Proof. split; discriminate. Qed.

(* ---- never while held, at the instant of the call; exactly one assignment accepted ---- *)
(* NOT HELD AT THE DISPOSE: whenever a scheduled step (of any thread, after any schedule) makes an item
   that was handed over exactly once receive a dispose() call, the container holds that item neither
   just before nor just after that step *)
Theorem C26_composite_not_held_at_dispose :
  forall l0 progs sched tid i,
  let c := cc_run l0 progs sched in
  let c' := tstep cc_start cc_act c tid in
  cc_total i l0 progs = 1 ->
  zdisp i (plain (c_log c')) = zdisp i (plain (c_log c)) + 1 ->
  mem i (c_items (c_sh c)) = false /\ mem i (c_items (c_sh c')) = false.
Proof. exact composite_conc_not_held_at_dispose. Qed.
Print Assumptions C26_composite_not_held_at_dispose.

(* EXACTLY ONE ACCEPTED: a SingleAssignmentDisposable that is never disposed, any number of threads
   racing to assign, every schedule:
   - at every moment nothing has been rejected while the slot is still empty;
   - once all calls returned, if anything was assigned at all the slot holds an item;
   - once all calls returned, an item assigned exactly once was rejected exactly once, unless it is the
     one the slot holds, which was not rejected *)
Theorem C26_single_exactly_one_accepted :
  forall progs sched,
  (forall p, In p progs -> ~ In SDispose p) ->
  let c := sc_run KSingle progs sched in
  (s_cur (x_s (c_sh c)) = None -> forall j, rejs j (plain (c_log c)) = 0%nat) /\
  (quiescent c = true -> (exists i, 0 < sc_total i progs) -> s_cur (x_s (c_sh c)) <> None) /\
  (quiescent c = true -> forall i, sc_total i progs = 1 ->
     Z.of_nat (rejs i (plain (c_log c))) = 1 - Z.of_nat (ocnt i (s_cur (x_s (c_sh c))))).
Proof.
  intros progs sched NP c. destruct (sc_run_nodisp progs sched NP) as [D [_ R]]. fold c in D, R.
  assert (KSingle <> KMultiple) as K1 by discriminate. assert (KSingle <> KSerial) as K2 by discriminate.
  destruct (slot_conc_live_silent KSingle progs sched K2 D) as [_ S]. fold c in S.
  (* the container stays live, so nothing is disposed; when all calls have returned nothing is in flight *)
  assert (forall i, quiescent c = true ->
            Z.of_nat (rejs i (plain (c_log c))) + Z.of_nat (ocnt i (s_cur (x_s (c_sh c)))) = sc_total i progs) as EQ.
  { intros i Q. destruct (slot_conc_exact KSingle progs sched i K1) as [H _]. fold c in H.
    assert (sc_in_flight i c = 0) as F0 by (apply (quiescent_tmeasure (sc_pl i) (sc_adds i) c Q)).
    unfold zdisp in H. rewrite (S i) in H. lia. }
  split; [exact R|]. split.
  - intros Q [i Hi] C. specialize (EQ i Q). rewrite (R C i), C in EQ. cbn [ocnt] in EQ. lia.
  - intros Q i T. specialize (EQ i Q). lia.
Qed.
Print Assumptions C26_single_exactly_one_accepted.

(* non-vacuity: the step of thread 1 that disposes item 0 (handed over once): dispose() emptied the
   container in the step before *)
Example C26_witness_not_held_at_dispose :
  let c := cc_run [0; 1]%nat [[CRemove 0%nat]; [CDispose]] [0; 1; 1]%nat in
  let c' := tstep cc_start cc_act c 1%nat in
  cc_total 0%nat [0; 1]%nat [[CRemove 0%nat]; [CDispose]] = 1 /\
  zdisp 0%nat (plain (c_log c')) = zdisp 0%nat (plain (c_log c)) + 1 /\ c_items (c_sh c) = [].
Proof. vm_compute. repeat split. Qed.
(* three threads race to assign; thread 1 wins, the two others are rejected *)
Example C26_witness_single_three_assigners :
  let progs := [[SSet 1%nat]; [SSet 2%nat]; [SSet 3%nat; SGet]] in
  let c := sc_run KSingle progs [1; 0; 2; 2]%nat in
  (forall p, In p progs -> ~ In SDispose p) /\ quiescent c = true /\
  sc_total 1%nat progs = 1 /\ sc_total 2%nat progs = 1 /\
  c_log c = [(0, ORej 1); (2, ORej 3); (2, OItem (Some 2))]%nat.
Proof.
  split; [|vm_compute; repeat split].
  (* none of the three programs contains SDispose: by cases on membership *)
  intros p [<-|[<-|[<-|[]]]]; intros X; repeat (destruct X as [X|X]; try discriminate X); exact X.
Qed.
(* the hypotheses of the serial/single exactly-once theorem: an item assigned once, disposed quiescent state *)
Example C26_witness_serial_total_hyp :
  let progs := [[SSet 1%nat; SSet 2%nat]; [SDispose]] in
  let c := sc_run KSerial progs [0; 0; 0; 1; 1]%nat in
  sc_total 1%nat progs = 1 /\ quiescent c = true /\ s_disposed (x_s (c_sh c)) = true /\
  plain (c_log c) = [ODisp 1%nat; ODisp 2%nat].
Proof. vm_compute. repeat split. Qed.

(* ---- Part 4: ONE thread of the transition systems IS the sequential container (Core/DispConcFacts3.v) -----
   For every history h of one thread there is a schedule length n such that after n steps, and after any
   number m of further steps, the thread has returned from all calls (quiescent), the log of the transition
   system is the log of the sequential model (held items + disposed flag) and the shared state is its final
   state.  So Part 1 (conservation, exactly once, nothing while held, add/assign after dispose) speaks about
   the same objects as Part 2, and a quiescent state is reachable for every program. *)
From RxVerif Require Import Core.DispConcFacts3.

Theorem C26_composite_one_thread_refines : forall l0 h, exists n, forall m,
  let c := cc_run l0 [h] (repeat 0%nat (n + m)%nat) in
  plain (c_log c) = log c_step (c_init l0) h /\
  c_sh c = final c_step (c_init l0) h /\
  quiescent c = true.
Proof. exact cc_one_thread_refines. Qed.
Print Assumptions C26_composite_one_thread_refines.

(* the three one-slot classes at once: [slot_seq k] is ser_step / mad_step / sad_step; [slot_f k] is the
   identity except that the SingleAssignment system names the rejected item (ORej i) where the sequential
   log has the bare exception (ORaise) *)
Theorem C26_slot_one_thread_refines : forall k h, exists n, forall m,
  let c := sc_run k [h] (repeat 0%nat (n + m)%nat) in
  map (slot_f k) (plain (c_log c)) = log (slot_seq k) s_init h /\
  x_s (c_sh c) = final (slot_seq k) s_init h /\
  quiescent c = true.
Proof. exact sc_one_thread_refines. Qed.
Print Assumptions C26_slot_one_thread_refines.

Theorem C26_serial_one_thread_refines : forall h, exists n, forall m,
  let c := sc_run KSerial [h] (repeat 0%nat (n + m)%nat) in
  plain (c_log c) = log ser_step s_init h /\ x_s (c_sh c) = final ser_step s_init h /\ quiescent c = true.
Proof. exact serial_one_thread_refines. Qed.
Print Assumptions C26_serial_one_thread_refines.

Theorem C26_single_one_thread_refines : forall h, exists n, forall m,
  let c := sc_run KSingle [h] (repeat 0%nat (n + m)%nat) in
  map unrej (plain (c_log c)) = log sad_step s_init h /\ x_s (c_sh c) = final sad_step s_init h /\
  quiescent c = true.
Proof. exact single_one_thread_refines. Qed.
Print Assumptions C26_single_one_thread_refines.

(* what it buys, stated on the transition systems: one thread, run to completion -- every item received one
   dispose() per hand-over except for the occurrences still held (removed / replaced / cleared items are
   disposed by that call, the rest at dispose()); after a dispose() nothing is held *)
Theorem C26_composite_one_thread_exactly_once : forall l0 h i, exists n, forall m,
  let c := cc_run l0 [h] (repeat 0%nat (n + m)%nat) in
  quiescent c = true /\
  (disposes i (plain (c_log c)) + cnt i (c_items (c_sh c)) = cnt i l0 + c_hadds i h)%nat /\
  (In CDispose h -> c_items (c_sh c) = [] /\ disposes i (plain (c_log c)) = (cnt i l0 + c_hadds i h)%nat).
Proof.
  intros l0 h i. destruct (cc_one_thread_refines l0 h) as [n H]. exists n. intros m. specialize (H m).
  cbv zeta in *. destruct H as (HL & HS & HQ). rewrite HL, HS. split; [exact HQ|].
  pose proof (composite_conservation l0 h i) as C. split; [exact C|].
  intros D. apply in_split in D. destruct D as (h1 & h2 & ->).
  pose proof (c_final_ok l0 _ (c_disposed_after_dispose h1 h2 (c_init l0))) as E.
  split; [exact E|]. rewrite E in C. cbn [cnt filter length] in C. rewrite Nat.add_0_r in C. exact C.
Qed.
Print Assumptions C26_composite_one_thread_exactly_once.

Theorem C26_serial_one_thread_exactly_once : forall h i, exists n, forall m,
  let c := sc_run KSerial [h] (repeat 0%nat (n + m)%nat) in
  quiescent c = true /\
  (disposes i (plain (c_log c)) + ocnt i (s_cur (x_s (c_sh c))) = s_hsets i h)%nat /\
  (In SDispose h -> s_cur (x_s (c_sh c)) = None /\ disposes i (plain (c_log c)) = s_hsets i h).
Proof.
  intros h i. destruct (serial_one_thread_refines h) as [n H]. exists n. intros m. specialize (H m).
  cbv zeta in *. destruct H as (HL & HS & HQ). rewrite HL, HS. split; [exact HQ|].
  pose proof (serial_conservation h i) as C. split; [exact C|].
  intros D. apply in_split in D. destruct D as (h1 & h2 & ->).
  pose proof (ser_final_ok _ (serial_disposed_after_dispose h1 h2)) as E.
  split; [exact E|]. rewrite E in C. rewrite ocnt_none, Nat.add_0_r in C. exact C.
Qed.
Print Assumptions C26_serial_one_thread_exactly_once.

Theorem C26_single_one_thread_exactly_once : forall h i, exists n, forall m,
  let c := sc_run KSingle [h] (repeat 0%nat (n + m)%nat) in
  quiescent c = true /\
  (disposes i (plain (c_log c)) + ocnt i (s_cur (x_s (c_sh c))) + s_rejected i h (outs sad_step s_init h)
    = s_hsets i h)%nat /\
  (In SDispose h -> s_cur (x_s (c_sh c)) = None).
Proof. exact single_one_thread_exactly_once. Qed.
Print Assumptions C26_single_one_thread_exactly_once.

(* non-vacuity: a composite history with remove, add after dispose and clear; a single-assignment history
   with a rejected second assignment (ORej 2 in the system log, ORaise in the sequential log) *)
Example C26_witness_one_thread_composite :
  let h := [CAdd 3; CRemove 1; CDispose; CAdd 4; CClear]%nat in
  let c := cc_run [1; 2]%nat [h] (repeat 0%nat 12) in
  quiescent c = true /\ plain (c_log c) = log c_step (c_init [1; 2]%nat) h /\
  plain (c_log c) = [ODisp 1; OBool true; ODisp 2; ODisp 3; ODisp 4]%nat /\
  c_sh c = CState [] true.
Proof. vm_compute. repeat split. Qed.
Example C26_witness_one_thread_single :
  let h := [SSet 1; SSet 2; SDispose; SGet]%nat in
  let c := sc_run KSingle [h] (repeat 0%nat 6) in
  quiescent c = true /\ plain (c_log c) = [ORej 2; ODisp 1; OItem None]%nat /\
  log sad_step s_init h = [ORaise; ODisp 1%nat; OItem None].
Proof. vm_compute. repeat split. Qed.
