(* C17 -- time-window operators respect their window boundaries.

   Machines: Ops/Timed.v (written from reactivex/operators/_takewithtime.py,
   _skipwithtime.py, _takeuntilwithtime.py, _skipuntilwithtime.py,
   _takelastwithtime.py, _skiplastwithtime.py, _timeout.py,
   _timeoutwithmapper.py -- the working tree, i.e. with
   proposed_fixes/C17-take-last-with-time-boundary.diff), tied to the
   implementation by the K2 correspondence (harness/props/C17.py).  Closed
   world, notation and conventions: see Props/C15.v.  [due_at ts t0] = t0 +
   max(0, delay) is the instant the timer scheduled at subscription fires;
   at that very instant a notification of the source goes first -- this is
   where the model pins down what the property statement leaves open. *)
From RxVerif Require Import Base.Prelude Ops.Machine Ops.Multi Ops.MultiFacts Ops.Timed Ops.TimedSim
  Ops.TimedFacts Ops.TimedWindowFacts Ops.TimedMapperFacts.

(* take_with_time / take_until_with_time: for ANY notification sequence, the
   notifications up to and at the boundary pass, then completion at the boundary
   (unless the source terminated by then) *)
Theorem C17_take_until_with_time_spec : forall A ts t0 (es : list (Z * ev A)),
  timed_emits t0 (simulate (x_take_until_with_time ts t0) t0 (ext_of es)) = take_spec (due_at ts t0) es.
Proof. exact @take_until_with_time_spec. Qed.
Print Assumptions C17_take_until_with_time_spec.

Theorem C17_take_with_time_spec : forall A d t0 (es : list (Z * ev A)),
  timed_emits t0 (simulate (x_take_until_with_time (Rel d) t0) t0 (ext_of es)) = take_spec (t0 + clamp d) es.
Proof. exact @take_with_time_spec. Qed.
Print Assumptions C17_take_with_time_spec.

Theorem C17_take_closed_form : forall A D (es : list (Z * ev A)), tsorted es ->
  take_spec D es =
  let k := filter (fun te => fst te <=? D) es in
  upto_term k ++ (if has_term k then [] else [(D, Done)]).
Proof. exact @take_spec_sorted. Qed.
Print Assumptions C17_take_closed_form.

(* skip_with_time (timer scheduled first) / skip_until_with_time (source
   subscribed first): exactly the elements strictly after the boundary pass; the
   terminal passes in any case *)
Theorem C17_skip_until_with_time_spec : forall A timer_first ts t0 (es : list (Z * ev A)), tsorted es ->
  timed_emits t0 (simulate (x_skip_until_with_time timer_first ts t0) t0 (ext_of es))
  = upto_term (filter (fun te => is_terminal (snd te) || (due_at ts t0 <? fst te)) es).
Proof.
  intros A b ts t0 es Hs. unfold simulate, simulate_fuel, timed_emits.
  destruct b; cbn [x_start x_skip_until_with_time apply_cmds finish fst snd app emits flat_map map];
    cbn [upd new_timers flat_map app filter fst r_timers mem existsb Nat.eqb orb];
    (apply skip_sim; [rewrite ext_of_length; lia|exact Hs]).
Qed.
Print Assumptions C17_skip_until_with_time_spec.

(* take_last_with_time(d): at completion time T exactly the elements with
   T - t < d, in order, all at T -- a rule on (t, T, d) only *)
Theorem C17_take_last_with_time_spec : forall A t0 d (tl : list (Z * A)) tm,
  (forall T, tm = TTDone T -> Forall (fun tx => fst tx <= T) tl) ->
  timed_emits t0 (simulate (x_take_last_with_time d) t0 (ext_of (tevents tl tm)))
  = match tm with
    | TTDone T => at_time T (filter (fun tx => T - fst tx <? d) tl) ++ [(T, Done)]
    | TTErr t e => [(t, Err e)]
    | TTNever => []
    end.
Proof. exact @take_last_with_time_spec. Qed.
Print Assumptions C17_take_last_with_time_spec.

Theorem C17_take_last_with_time_boundary_independent : forall A t0 d (tl : list (Z * A)) T x,
  Forall (fun tx => fst tx <= T) tl ->
  (In (T, Next x) (timed_emits t0 (simulate (x_take_last_with_time d) t0 (ext_of (tevents tl (TTDone T)))))
   <-> exists t, In (t, x) tl /\ T - t < d).
Proof.
  intros A t0 d tl T x H. rewrite take_last_with_time_spec by (intros T' HT; injection HT as <-; exact H).
  cbn [tlast_out]. rewrite in_app_iff. unfold at_time. rewrite in_map_iff. split.
  - intros [[[t y] [Heq Hin]]|[Heq|[]]]; [|discriminate].
    injection Heq as <-. apply filter_In in Hin. destruct Hin as [Hin Hy]. cbn [fst snd] in *.
    exists t. split; [exact Hin|lia].
  - intros [t [Hin Hlt]]. left. exists (t, x). split; [reflexivity|].
    apply filter_In. split; [exact Hin|]. cbn [fst]. lia.
Qed.
Print Assumptions C17_take_last_with_time_boundary_independent.

(* the code before the fix (`<=` at completion, `>=` when trimming): the fate of
   the element aged exactly d at completion depends on an unrelated arrival *)
Theorem C17_take_last_with_time_orig_boundary_refuted :
  In (10, Next 1) (timed_emits 0 (simulate (x_take_last_with_time_orig 10) 0
                                   (ext_of (tevents [(0, 1)] (TTDone 10)))))
  /\ ~ In (10, Next 1) (timed_emits 0 (simulate (x_take_last_with_time_orig 10) 0
                                        (ext_of (tevents [(0, 1); (10, 2)] (TTDone 10))))).
Proof.
  split.
  - vm_compute. left. reflexivity.
  - vm_compute. intros [H|[H|[]]]; discriminate.
Qed.
Print Assumptions C17_take_last_with_time_orig_boundary_refuted.

(* skip_last_with_time(d), time-sorted source completing at T: by the completion
   exactly the elements with T - t >= d have been emitted, in order -- again a
   rule on (t, T, d) only.  (Each is emitted at the first notification at which
   its age reached d; the instants are not part of this statement.) *)
Theorem C17_skip_last_with_time_spec : forall A t0 d (tl : list (Z * A)) T,
  tsorted tl -> Forall (fun tx => fst tx <= T) tl ->
  map snd (timed_emits t0 (simulate (x_skip_last_with_time d) t0 (ext_of (tevents tl (TTDone T)))))
  = map (fun tx => Next (snd tx)) (filter (fun tx => d <=? T - fst tx) tl) ++ [Done].
Proof. exact @skip_last_with_time_spec. Qed.
Print Assumptions C17_skip_last_with_time_spec.

(* timeout(due): [timeout_spec] walks ANY notification sequence with the instant
   at which the running timer fires: an element up to and at that instant is
   forwarded and re-arms it, a terminal up to and at it ends the sequence (the
   timer never acts after the source terminated), otherwise the switch happens
   exactly at that instant.  Without a fallback: on_error(Timeout) there. *)
Theorem C17_timeout_no_fallback_spec : forall A ts t0 (es : list (Z * ev A)),
  timed_emits t0 (simulate (x_timeout ts false t0) t0 (ext_of es))
  = fst (timeout_spec ts (due_at ts t0) es)
    ++ match snd (timeout_spec ts (due_at ts t0) es) with Some due => [(due, Err TIMEOUT_ERR)] | None => [] end.
Proof. exact @timeout_spec_no_fallback. Qed.
Print Assumptions C17_timeout_no_fallback_spec.

(* with a fallback (source 1): it is subscribed exactly at the switch instant and never otherwise *)
Theorem C17_timeout_fallback_spec : forall A ts t0 (es : list (Z * ev A)),
  sim_emits (snd (simulate (x_timeout ts true t0) t0 (ext_of es))) = fst (timeout_spec ts (due_at ts t0) es)
  /\ sim_subs (snd (simulate (x_timeout ts true t0) t0 (ext_of es)))
     = match snd (timeout_spec ts (due_at ts t0) es) with Some d => [(d, 1%nat)] | None => [] end.
Proof.
  intros A ts t0 es.
  rewrite (simulate_timer_sub0 (x_timeout ts true t0) _ _ t0 _ eq_refl).
  apply (timeout_fallback_sim ts t0 es _ 0 0 []). rewrite ext_of_length. lia.
Qed.
Print Assumptions C17_timeout_fallback_spec.

(* closed form of the switch instant, relative due time d >= 0, conforming
   timeline: the first [last + d] (last = subscription or latest element) that is
   strictly before the next notification; none if the source terminates first *)
Theorem C17_timeout_switch_instant : forall A d (tl : list (Z * A)) tm last, 0 <= d ->
  snd (timeout_spec (Rel d) (last + d) (tevents tl tm)) = first_gap d last tl tm.
Proof.
  intros A d.
  induction tl as [|[t x] rest IH]; intros tm last Hd.
  - destruct tm as [t|t e|]; cbn; try reflexivity; destruct (t <=? last + d); reflexivity.
  - rewrite tevents_cons. cbn [timeout_spec first_gap]. destruct (t <=? last + d) eqn:E; [|reflexivity].
    specialize (IH tm t Hd). cbn [tdelay]. unfold clamp. rewrite Z.max_r by lia.
    destruct (timeout_spec (Rel d) (t + d) (tevents rest tm)) as [o sw]. exact IH.
Qed.
Print Assumptions C17_timeout_switch_instant.

(* timeout_with_mapper, step level (the instants at which the timeout observables
   notify are inputs).  PARTIAL: no closed form over absolute time; whole-run
   behaviour is covered by the K2 correspondence and, over all interleavings of
   the ports, by C17_timeout_with_mapper_walk below. *)
Theorem C17_timeout_with_mapper_step_partial : forall A hf ho (mapper : option (A -> nat -> res unit)) (s : twm_st) now,
  let m := x_timeout_with_mapper hf ho mapper in
  (forall k e, k <> 0%nat -> k <> 2%nat -> lookup k (tw_timers s) = Some (tw_id s) -> not_err e ->
     emitted_cmds (snd (fst (x_step m s now (ISrc k e)))) = []
     /\ (ho = true -> In (CSub 2%nat) (snd (fst (x_step m s now (ISrc k e))))
                      /\ In (CUnsub 0%nat) (snd (fst (x_step m s now (ISrc k e))))
                      /\ snd (x_step m s now (ISrc k e)) = Cont)
     /\ (ho = false -> e = Done -> snd (x_step m s now (ISrc k e)) = Fail TIMEOUT_ERR))
  /\ (forall k e my, k <> 0%nat -> k <> 2%nat -> lookup k (tw_timers s) = Some my -> my <> tw_id s ->
        emitted_cmds (snd (fst (x_step m s now (ISrc k e)))) = []
        /\ ~ In (CSub 2%nat) (snd (fst (x_step m s now (ISrc k e))))
        /\ snd (x_step m s now (ISrc k e)) = Cont)
  /\ (forall e, tw_id (fst (fst (x_step m s now (ISrc 0%nat e)))) = S (tw_id s))
  /\ (forall x, exists rest, snd (fst (x_step m s now (ISrc 0%nat (Next x)))) = CEmit x :: rest)
  /\ (snd (x_step m s now (ISrc 0%nat Done)) = Complete)
  /\ (forall c, snd (x_step m s now (ISrc 0%nat (Err c))) = Fail c).
Proof.
  intros A hf ho mapper s now. cbn zeta. split; [|split; [|split; [|split; [|split]]]].
  - intros k e Hk0 Hk2 Hl Hne. rewrite (twm_step_timeout hf ho mapper s now k e Hk0 Hk2). unfold twm_wins.
    rewrite Hl, Nat.eqb_refl. destruct e as [y|c|]; [|destruct (Hne c eq_refl)|]; destruct ho; cbn;
      repeat split; try discriminate; auto.
  - intros k e my Hk0 Hk2 Hl Hne. rewrite (twm_step_timeout hf ho mapper s now k e Hk0 Hk2). unfold twm_wins.
    rewrite Hl. replace (Nat.eqb (tw_id s) my) with false by (symmetry; apply Nat.eqb_neq; auto).
    destruct e as [y|c|]; cbn; repeat split; auto; intros [H|H]; try discriminate; contradiction.
  - intros e. destruct e as [x|c|]; cbn; try reflexivity.
    destruct mapper as [f|]; [destruct (f x (tw_cnt s))|]; reflexivity.
  - intros x. cbn. destruct mapper as [f|]; [destruct (f x (tw_cnt s))|]; eexists; reflexivity.
  - reflexivity.
  - reflexivity.
Qed.
Print Assumptions C17_timeout_with_mapper_step_partial.

(* ---- non-vacuity / worked instances ----------------------------------------- *)
Example C17_ex_sorted : tsorted (tevents [(0, 1); (10, 0); (10, 2); (15, 3)] (TTDone 30)).
Proof. cbn. repeat split; repeat constructor; cbn; lia. Qed.

Example C17_ex_take_with_time :
  timed_emits 0 (simulate (x_take_until_with_time (Rel 10) 0) 0 (ext_of (tevents [(0, 1); (10, 0); (10, 2); (15, 3)] (TTDone 30))))
  = [(0, Next 1); (10, Next 0); (10, Next 2); (10, Done)].
Proof. vm_compute. reflexivity. Qed.

Example C17_ex_skip_with_time :
  timed_emits 0 (simulate (x_skip_until_with_time true (Rel 10) 0) 0 (ext_of (tevents [(0, 1); (10, 0); (10, 2); (15, 3)] (TTDone 30))))
  = [(15, Next 3); (30, Done)].
Proof. vm_compute. reflexivity. Qed.

Example C17_ex_take_last_with_time :
  timed_emits 0 (simulate (x_take_last_with_time 10) 0 (ext_of (tevents [(0, 1); (10, 0); (15, 3)] (TTDone 20))))
  = [(20, Next 3); (20, Done)].
Proof. vm_compute. reflexivity. Qed.

Example C17_ex_skip_last_with_time :
  timed_emits 0 (simulate (x_skip_last_with_time 10) 0 (ext_of (tevents [(0, 1); (10, 0); (15, 3)] (TTDone 20))))
  = [(10, Next 1); (20, Next 0); (20, Done)].
Proof. vm_compute. reflexivity. Qed.

(* an element exactly at the due instant re-arms the timer; the gap after it is too long *)
Example C17_ex_timeout :
  timed_emits 0 (simulate (x_timeout (Rel 10) false 0) 0 (ext_of (tevents [(10, 1); (15, 0)] (TTDone 40))))
  = [(10, Next 1); (15, Next 0); (25, Err TIMEOUT_ERR)].
Proof. vm_compute. reflexivity. Qed.

Example C17_ex_timeout_never_after_terminal :
  timed_emits 0 (simulate (x_timeout (Rel 10) false 0) 0 (ext_of (tevents [(5, 1)] (TTDone 15))))
  = [(5, Next 1); (15, Done)].
Proof. vm_compute. reflexivity. Qed.

(* ==== timeout over two ports, skip_last_with_time with the instants, absolute due time (Ops/TimedWindowFacts2.v) ==== *)
From RxVerif Require Import Ops.TimedSubFacts Ops.TimedWindowFacts2.

(* timeout with a fallback over a TWO-port closed world ([ext2_of]: port 0 the
   source, port 1 the fallback observable).  For EVERY interleaving:
   [timeout2_spec] walks the timeline with the running due instant -- up to and
   at it a source element is forwarded and re-arms the timer, a source terminal
   ends the sequence, a fallback notification is not heard (the fallback is not
   subscribed yet); at the first notification later than it the operator
   switches and the output continues with the fallback's notifications from
   that position on, up to and including its first terminal -- the source's
   notifications from there on are ignored. *)
Theorem C17_timeout_fallback_walk : forall A ts t0 (ins : list (Z * nat * ev A)),
  timed_emits t0 (simulate (x_timeout ts true t0) t0 (ext2_of ins)) = timeout2_spec ts (due_at ts t0) ins.
Proof. exact @timeout_fallback_walk. Qed.
Print Assumptions C17_timeout_fallback_walk.

(* both ports on one time-sorted timeline: before the switch instant d the
   source's part as [timeout_spec] gives it; after it EXACTLY the fallback's
   notifications later than d (elements, error, completion), nothing of the
   source.  A fallback notification at the instant d itself comes before the
   timer in the closed world and is not heard. *)
Theorem C17_timeout_mirrors_fallback : forall A ts t0 (ins : list (Z * nat * ev A)), tsorted2 ins ->
  timed_emits t0 (simulate (x_timeout ts true t0) t0 (ext2_of ins))
  = fst (timeout_spec ts (due_at ts t0) (port 0 ins))
    ++ match snd (timeout_spec ts (due_at ts t0) (port 0 ins)) with
       | Some d => upto_term (filter (fun te => d <? fst te) (port 1 ins))
       | None => []
       end.
Proof. exact @timeout_mirrors_fallback. Qed.
Print Assumptions C17_timeout_mirrors_fallback.

(* skip_last_with_time(d) WITH the instants, time-sorted elements, any terminal
   at any instant: every element is emitted at the first notification instant --
   its own, a later element's, or the completion's -- at which its age reached d
   ([sl_out]); an error passes and the elements still queued are dropped (it
   flushes nothing: [done_time (TTErr _ _) = []]); without a terminal likewise. *)
Theorem C17_skip_last_with_time_instants : forall A t0 d (tl : list (Z * A)) tm, tsorted tl ->
  timed_emits t0 (simulate (x_skip_last_with_time d) t0 (ext_of (tevents tl tm)))
  = sl_out d tl tm ++ term_ev tm.
Proof. exact @skip_last_with_time_instants. Qed.
Print Assumptions C17_skip_last_with_time_instants.

(* [sl_out], one element at a time *)
Theorem C17_skip_last_out_unfold : forall A d t (x : A) rest tm,
  sl_out d ((t, x) :: rest) tm
  = match find (fun u => d <=? u - t) (t :: map fst rest ++ match tm with TTDone T => [T] | _ => [] end) with
    | Some u => [(u, Next x)]
    | None => []
    end ++ sl_out d rest tm.
Proof.
  intros A d t x rest tm.
  destruct tm; reflexivity.
Qed.
Print Assumptions C17_skip_last_out_unfold.

(* the window boundary: whatever is emitted had reached age d at the emission instant *)
Theorem C17_skip_last_with_time_only_aged : forall A t0 d (tl : list (Z * A)) tm u x, tsorted tl ->
  In (u, Next x) (timed_emits t0 (simulate (x_skip_last_with_time d) t0 (ext_of (tevents tl tm)))) ->
  exists t, In (t, x) tl /\ d <= u - t /\ In u (map fst tl ++ done_time tm).
Proof.
  intros A t0 d tl tm u x Hs Hin. rewrite (skip_last_with_time_instants t0 d tl tm Hs) in Hin.
  apply in_app_or in Hin. destruct Hin as [Hin|Hin]; [exact (sl_out_in d tl tm u x Hin)|].
  destruct tm; cbn in Hin; intuition discriminate.
Qed.
Print Assumptions C17_skip_last_with_time_only_aged.

(* timeout with an ABSOLUTE due time D in closed form (time-sorted
   notifications, none before the subscription): every element re-arms the timer
   for the same instant max t0 D, so the notifications up to and at it pass and
   the switch happens exactly there unless the source terminated by then *)
Theorem C17_timeout_abs_closed_form : forall A D t0 (es : list (Z * ev A)), tsorted es ->
  Forall (fun te => t0 <= fst te) es ->
  timeout_spec (Abs D) (due_at (Abs D) t0) es =
  let k := filter (fun te => fst te <=? Z.max t0 D) es in
  (upto_term k, if has_term k then None else Some (Z.max t0 D)).
Proof. exact @timeout_abs_closed_form. Qed.
Print Assumptions C17_timeout_abs_closed_form.

Theorem C17_timeout_abs_no_fallback : forall A D t0 (es : list (Z * ev A)), tsorted es ->
  Forall (fun te => t0 <= fst te) es ->
  timed_emits t0 (simulate (x_timeout (Abs D) false t0) t0 (ext_of es)) =
  let k := filter (fun te => fst te <=? Z.max t0 D) es in
  upto_term k ++ (if has_term k then [] else [(Z.max t0 D, Err TIMEOUT_ERR)]).
Proof.
  intros A D t0 es Hs Hlo. rewrite timeout_spec_no_fallback. unfold timeout_out.
  rewrite (timeout_abs_closed_form D t0 es Hs Hlo). cbn [fst snd].
  destruct (has_term (filter (fun te => fst te <=? Z.max t0 D) es)); reflexivity.
Qed.
Print Assumptions C17_timeout_abs_no_fallback.

Theorem C17_timeout_abs_mirrors_fallback : forall A D t0 (ins : list (Z * nat * ev A)), tsorted2 ins ->
  Forall (fun y => t0 <= fst (fst y)) ins ->
  timed_emits t0 (simulate (x_timeout (Abs D) true t0) t0 (ext2_of ins)) =
  let k := filter (fun te => fst te <=? Z.max t0 D) (port 0 ins) in
  upto_term k ++ (if has_term k then [] else upto_term (filter (fun te => Z.max t0 D <? fst te) (port 1 ins))).
Proof.
  intros A D t0 ins Hs Hlo. rewrite (timeout_mirrors_fallback (Abs D) t0 ins Hs).
  rewrite (timeout_abs_closed_form D t0 (port 0 ins) (port_tsorted 0 ins Hs)
             (port_Forall (fun u => t0 <= u) 0 ins Hlo)). cbn [fst snd].
  destruct (has_term (filter (fun te => fst te <=? Z.max t0 D) (port 0 ins))); reflexivity.
Qed.
Print Assumptions C17_timeout_abs_mirrors_fallback.

(* the hypothesis "none before the subscription" is needed: an element before t0
   re-arms an absolute timer that lies in the past for ITS OWN instant *)
Example C17_timeout_abs_closed_form_needs_lower_bound_refuted :
  timeout_spec (Abs 0) (due_at (Abs 0) 5) [(1, Next 7); (3, Next 8)] = ([(1, Next 7)], Some 1)
  /\ timeout_spec (Abs 0) (due_at (Abs 0) 5) [(1, Next 7); (3, Next 8)]
     <> (let k := filter (fun te : Z * ev Z => fst te <=? Z.max 5 0) [(1, Next 7); (3, Next 8)] in
         (upto_term k, if has_term k then None else Some (Z.max 5 0))).
Proof. vm_compute. split; [reflexivity|discriminate]. Qed.

(* ---- non-vacuity / worked instances ---- *)
Example C17_ex_two_port_sorted :
  tsorted2 [(5, 0%nat, Next 1); (8, 1%nat, Next 7); (15, 1%nat, Next 8); (20, 1%nat, Next 9);
            (22, 0%nat, Next 2); (25, 1%nat, Done); (30, 1%nat, Next 3)].
Proof. cbn. repeat split; repeat constructor; cbn; lia. Qed.

(* switch at 5 + 10 = 15: the fallback's notifications at 8 and AT 15 are not
   heard, the source's element at 22 is ignored, nothing after the fallback's completion *)
Example C17_ex_timeout_mirrors_fallback :
  timed_emits 0 (simulate (x_timeout (Rel 10) true 0) 0
    (ext2_of [(5, 0%nat, Next 1); (8, 1%nat, Next 7); (15, 1%nat, Next 8); (20, 1%nat, Next 9);
              (22, 0%nat, Next 2); (25, 1%nat, Done); (30, 1%nat, Next 3)]))
  = [(5, Next 1); (20, Next 9); (25, Done)].
Proof. vm_compute. reflexivity. Qed.

Example C17_ex_timeout_mirrors_fallback_error :
  timed_emits 0 (simulate (x_timeout (Rel 10) true 0) 0
    (ext2_of [(5, 0%nat, Next 1); (20, 1%nat, Next 9); (21, 1%nat, Err 4); (22, 1%nat, Next 3)]))
  = [(5, Next 1); (20, Next 9); (21, Err 4)].
Proof. vm_compute. reflexivity. Qed.

(* the source terminates first: the fallback is never heard *)
Example C17_ex_timeout_no_switch :
  timed_emits 0 (simulate (x_timeout (Rel 10) true 0) 0
    (ext2_of [(5, 0%nat, Next 1); (8, 1%nat, Next 7); (12, 0%nat, Done); (40, 1%nat, Next 9)]))
  = [(5, Next 1); (12, Done)].
Proof. vm_compute. reflexivity. Qed.

(* skip_last_with_time(10): 1 (arrived at 0) leaves at the element at 10, 0 (at 10) at the
   completion at 20; 3 (at 15) never; with an error at 20 instead, 0 is dropped as well *)
Example C17_ex_skip_last_instants :
  sl_out 10 [(0, 1); (10, 0); (15, 3)] (TTDone 20) ++ term_ev (TTDone 20) = [(10, Next 1); (20, Next 0); (20, Done)]
  /\ sl_out 10 [(0, 1); (10, 0); (15, 3)] (TTErr 20 4) ++ term_ev (TTErr 20 4) = [(10, Next 1); (20, Err 4)]
  /\ sl_out 10 [(0, 1); (10, 0); (15, 3)] TTNever ++ term_ev TTNever = [(10, Next 1)].
Proof. vm_compute. repeat split; reflexivity. Qed.

Example C17_ex_skip_last_error :
  timed_emits 0 (simulate (x_skip_last_with_time 10) 0 (ext_of (tevents [(0, 1); (10, 0); (15, 3)] (TTErr 20 4))))
  = [(10, Next 1); (20, Err 4)].
Proof. vm_compute. reflexivity. Qed.

(* absolute due time 12, subscription at 0: elements at 5 and 12 pass (neither moves the
   timer), switch at 12; due time in the past (subscription at 20): switch at 20 *)
Example C17_ex_timeout_abs :
  timed_emits 0 (simulate (x_timeout (Abs 12) false 0) 0 (ext_of (tevents [(5, 1); (12, 0); (13, 2)] (TTDone 40))))
  = [(5, Next 1); (12, Next 0); (12, Err TIMEOUT_ERR)]
  /\ timed_emits 20 (simulate (x_timeout (Abs 12) false 20) 20 (ext_of (tevents [(21, 1); (22, 2)] (TTDone 40))))
  = [(20, Err TIMEOUT_ERR)].
Proof. vm_compute. split; reflexivity. Qed.

(* ==== timeout_with_mapper at run level (Ops/TimeoutMapperRun.v), skip_last_with_time without sortedness (Ops/SkipLastUnsorted.v) ==== *)
From RxVerif Require Import Ops.SimPortSteps Ops.TimeoutMapperRun Ops.SkipLastUnsorted.

(* timeout_with_mapper at RUN level.  Ports: 0 the source, 1 the first timeout observable (if
   given), 2 the fallback (if given), 3 + j the timeout observable the mapper made for the j-th
   element it accepted.  For EVERY interleaving of their notifications the closed world of the
   machine is the walk [twm_spec] (its equations: next theorem): a source element is forwarded
   and installs a fresh current timeout observable (the previous one is unsubscribed), a source
   terminal ends the sequence; the CURRENT timeout observable's first on_next / on_completed
   switches -- from there on exactly the fallback's notifications up to its first terminal,
   nothing of the source, or the Timeout error at that instant when there is no fallback -- and
   its error is passed on; a stale timeout observable, the fallback before the switch, an
   unknown port are not heard. *)
Theorem C17_timeout_with_mapper_walk : forall A hf ho (mapper : option (A -> nat -> res unit)) t0
  (ins : list (Z * nat * ev A)),
  timed_emits t0 (simulate (x_timeout_with_mapper hf ho mapper) t0 (ext2_of ins)) = twm_out hf ho mapper ins.
Proof. exact @timeout_with_mapper_walk. Qed.
Print Assumptions C17_timeout_with_mapper_walk.

Theorem C17_timeout_with_mapper_walk_unfold : forall A hf ho (mapper : option (A -> nat -> res unit)) cnt cur t k e rest,
  twm_out hf ho mapper = twm_spec ho mapper 0 (if hf then Some 1%nat else None)
  /\ twm_spec ho mapper cnt cur [] = []
  /\ twm_spec ho mapper cnt cur ((t, k, e) :: rest)
     = match k with
       | O => match e with
              | Next x => (t, Next x) ::
                          match mapper with
                          | None => twm_spec ho mapper cnt None rest
                          | Some f => match f x cnt with
                                      | Raise c => [(t, Err c)]
                                      | Ok _ => twm_spec ho mapper (S cnt) (Some (3 + cnt)%nat) rest
                                      end
                          end
              | _ => [(t, e)]
              end
       | S _ => if is_cur k cur
                then match e with
                     | Err c => [(t, Err c)]
                     | _ => if ho then upto_term (port 2 rest) else [(t, Err TIMEOUT_ERR)]
                     end
                else twm_spec ho mapper cnt cur rest
       end.
Proof.
  intros A hf ho mapper cnt cur t k e rest.
  split; [reflexivity|]. split; [reflexivity|]. destruct k; reflexivity.
Qed.
Print Assumptions C17_timeout_with_mapper_walk_unfold.

(* readings.  The first timeout observable: its first notification before any notification of
   the source switches (or passes its error on) at that instant, whatever other ports send *)
Theorem C17_timeout_with_mapper_first_timeout : forall A ho (mapper : option (A -> nat -> res unit)) t0
  (mid rest : list (Z * nat * ev A)) t e,
  Forall (fun i => tport i <> 0%nat /\ tport i <> 1%nat) mid ->
  timed_emits t0 (simulate (x_timeout_with_mapper true ho mapper) t0 (ext2_of (mid ++ (t, 1%nat, e) :: rest)))
  = twm_switch ho t e rest.
Proof.
  intros A ho mapper t0 mid rest t e H. rewrite timeout_with_mapper_walk. apply twm_first_timeout; [reflexivity|exact H].
Qed.
Print Assumptions C17_timeout_with_mapper_first_timeout.

(* the timeout observable made for an element: after the source's elements pre ++ [x] (a
   mapper that does not raise), whatever the STALE timeout observables (ports 1, 3 .. 2 + |pre|),
   the fallback and unknown ports send in between, the first notification of port 3 + |pre| --
   the observable made for x -- switches at that instant; before it exactly the source's
   elements were forwarded, at their instants *)
Theorem C17_timeout_with_mapper_element_timeout : forall A hf ho (f : A -> nat -> res unit) t0
  (pre mid rest : list (Z * nat * ev A)) tx x t e,
  mapper_accepts f -> Forall src_next pre ->
  Forall (fun i => tport i <> 0%nat /\ tport i <> (3 + length pre)%nat) mid ->
  timed_emits t0 (simulate (x_timeout_with_mapper hf ho (Some f)) t0
      (ext2_of (pre ++ (tx, 0%nat, Next x) :: mid ++ (t, (3 + length pre)%nat, e) :: rest)))
  = map tnote pre ++ (tx, Next x) :: twm_switch ho t e rest.
Proof.
  intros A hf ho f t0 pre mid rest tx x t e Ha Hp Hm. rewrite timeout_with_mapper_walk. apply (twm_element_timeout hf ho (Some f) f); auto.
Qed.
Print Assumptions C17_timeout_with_mapper_element_timeout.

(* no timeout observable ever notifies: the source's notifications up to its first terminal,
   nothing else (the fallback is never heard) *)
Theorem C17_timeout_with_mapper_no_timeout : forall A hf ho (mapper : option (A -> nat -> res unit)) t0
  (ins : list (Z * nat * ev A)),
  mapper_ok mapper -> Forall (fun i => tport i = 0%nat \/ tport i = 2%nat) ins ->
  timed_emits t0 (simulate (x_timeout_with_mapper hf ho mapper) t0 (ext2_of ins)) = upto_term (port 0 ins).
Proof. intros A hf ho mapper t0 ins Ho H. rewrite timeout_with_mapper_walk. apply twm_no_timeout; assumption. Qed.
Print Assumptions C17_timeout_with_mapper_no_timeout.

(* skip_last_with_time WITHOUT sortedness.  (1) any notification sequence at any instants: the
   walk with the FIFO queue -- at an on_next the element is appended, then (and at on_completed)
   the maximal aged PREFIX of the queue leaves ([pop_aged]): the head blocks *)
Theorem C17_skip_last_with_time_walk : forall A t0 d (es : list (Z * ev A)),
  timed_emits t0 (simulate (x_skip_last_with_time d) t0 (ext_of es)) = slw_spec d [] es.
Proof. exact @skip_last_with_time_walk. Qed.
Print Assumptions C17_skip_last_with_time_walk.

(* (2) elements then at most one terminal, instants in ANY order: closed form by release index.
   U = the instants of the popping notifications (the elements', then the completion's); element
   i leaves at U[j] for the least j >= i, j >= its predecessor's release index, with
   d <= U[j] - t_i; if there is none it never leaves and neither does any later element
   ([slu_out], equations: next theorem).  An error flushes nothing. *)
Theorem C17_skip_last_with_time_unsorted : forall A t0 d (tl : list (Z * A)) tm,
  timed_emits t0 (simulate (x_skip_last_with_time d) t0 (ext_of (tevents tl tm)))
  = slu_out d (map fst tl ++ done_time tm) 0 0 tl ++ term_ev tm.
Proof. exact @skip_last_with_time_unsorted. Qed.
Print Assumptions C17_skip_last_with_time_unsorted.

Theorem C17_skip_last_unsorted_out_unfold : forall A d U lo i t (x : A) rest,
  slu_out d U lo i ((t, x) :: rest)
  = match find (fun j => d <=? nth j U 0 - t) (seq (Nat.max lo i) (length U - Nat.max lo i)) with
    | Some j => (nth j U 0, Next x) :: slu_out d U j (S i) rest
    | None => []
    end.
Proof.
  intros A d U lo i t x rest.
  reflexivity.
Qed.
Print Assumptions C17_skip_last_unsorted_out_unfold.

(* (3) what it implies, still without sortedness: the emitted elements are a prefix of the
   source's (FIFO) ... *)
Theorem C17_skip_last_with_time_unsorted_prefix : forall A t0 d (tl : list (Z * A)) tm,
  exists n, map snd (timed_emits t0 (simulate (x_skip_last_with_time d) t0 (ext_of (tevents tl tm))))
            = map (fun tx => Next (snd tx)) (firstn n tl) ++ map snd (@term_ev A tm).
Proof.
  intros A t0 d tl tm.
  rewrite skip_last_with_time_unsorted. eexists. rewrite map_app, slu_out_prefix. reflexivity.
Qed.
Print Assumptions C17_skip_last_with_time_unsorted_prefix.

(* ... and the k-th emission is the k-th element, at the instant of a notification not before
   its own arrival at which its age had reached d (the window boundary) *)
Theorem C17_skip_last_with_time_unsorted_only_aged : forall A t0 d (tl : list (Z * A)) tm k u e,
  nth_error (timed_emits t0 (simulate (x_skip_last_with_time d) t0 (ext_of (tevents tl tm)))) k = Some (u, e) ->
  is_terminal e = false ->
  exists t x j, nth_error tl k = Some (t, x) /\ e = Next x /\ (k <= j < length tl + length (done_time tm))%nat
                /\ u = nth j (map fst tl ++ done_time tm) 0 /\ d <= u - t.
Proof. exact @skip_last_with_time_unsorted_only_aged. Qed.
Print Assumptions C17_skip_last_with_time_unsorted_only_aged.

(* on a sorted timeline the two closed forms coincide; on an unsorted one the closed form
   for sorted timelines ([sl_out]) is NOT what the code does (an aged element waits behind a younger head) *)
Theorem C17_skip_last_unsorted_is_sorted_form : forall A d (tl : list (Z * A)) tm, tsorted tl ->
  slu_out d (map fst tl ++ done_time tm) 0 0 tl = sl_out d tl tm.
Proof.
  intros A d tl tm Hs. apply (app_inv_tail (term_ev tm)).
  rewrite <- (skip_last_with_time_unsorted 0 d tl tm). apply skip_last_with_time_instants, Hs.
Qed.
Print Assumptions C17_skip_last_unsorted_is_sorted_form.

Theorem C17_skip_last_with_time_instants_unsorted_refuted :
  timed_emits 0 (simulate (x_skip_last_with_time 5) 0 (ext_of (tevents [(10, 1); (0, 2); (12, 3)] TTNever))) = []
  /\ sl_out 5 [(10, 1); (0, 2); (12, 3)] TTNever ++ @term_ev Z TTNever = [(12, Next 2)].
Proof. vm_compute. split; reflexivity. Qed.
Print Assumptions C17_skip_last_with_time_instants_unsorted_refuted.

(* ---- non-vacuity / worked instances ---- *)
Definition C17_ex_mapper : Z -> nat -> res unit := fun _ _ => Ok tt.
Example C17_ex_mapper_accepts : mapper_accepts C17_ex_mapper /\ mapper_ok (Some C17_ex_mapper) /\ mapper_ok (@None (Z -> nat -> res unit)).
Proof. repeat split. intros y i. exists tt. reflexivity. intros y i. exists tt. reflexivity. Qed.

(* the fallback early (1), elements 5 and 6, the FIRST timeout observable late (3: stale), the
   observable made for 5 late (5: stale), the one made for 6 completes at 6: switch; the source's
   element at 6 is ignored, the fallback is mirrored up to its completion *)
Example C17_ex_timeout_with_mapper :
  Forall src_next [(2, 0%nat, Next 5)]
  /\ Forall (fun i : Z * nat * ev Z => tport i <> 0%nat /\ tport i <> (3 + 1)%nat) [(5, 3%nat, Done)]
  /\ timed_emits 0 (simulate (x_timeout_with_mapper true true (Some C17_ex_mapper)) 0
      (ext2_of [(1, 2%nat, Next 50); (2, 0%nat, Next 5); (3, 1%nat, Next 0); (4, 0%nat, Next 6); (5, 3%nat, Done);
                (6, 4%nat, Done); (6, 0%nat, Next 9); (7, 2%nat, Next 51); (8, 4%nat, Next 1); (9, 2%nat, Done);
                (10, 2%nat, Next 52)]))
     = [(2, Next 5); (4, Next 6); (7, Next 51); (9, Done)]
  /\ timed_emits 0 (simulate (x_timeout_with_mapper true false (Some C17_ex_mapper)) 0
      (ext2_of [(2, 0%nat, Next 5); (3, 1%nat, Next 0); (4, 0%nat, Next 6); (5, 3%nat, Done); (6, 4%nat, Next 0);
                (6, 0%nat, Next 9); (7, 2%nat, Next 51)]))
     = [(2, Next 5); (4, Next 6); (6, Err TIMEOUT_ERR)].
Proof.
  split; [repeat constructor; exists 5; reflexivity|]. split; [repeat constructor; cbn; lia|].
  vm_compute. split; reflexivity.
Qed.

(* readings 0 10 4 9 16, completion at 17, d = 5: the element with reading 4 has age 5 at the
   notification with reading 9 but waits behind the head (reading 10) until 16 *)
Example C17_ex_skip_last_unsorted :
  let tl := [(0, 1); (10, 2); (4, 3); (9, 4); (16, 5)] in
  timed_emits 0 (simulate (x_skip_last_with_time 5) 0 (ext_of (tevents tl (TTDone 17))))
  = [(10, Next 1); (16, Next 2); (16, Next 3); (16, Next 4); (17, Done)]
  /\ slu_out 5 (map fst tl ++ done_time (TTDone 17)) 0 0 tl ++ @term_ev Z (TTDone 17)
     = [(10, Next 1); (16, Next 2); (16, Next 3); (16, Next 4); (17, Done)]
  /\ sl_out 5 tl (TTDone 17) = [(10, Next 1); (16, Next 2); (9, Next 3); (16, Next 4)].
Proof. vm_compute. repeat split; reflexivity. Qed.
