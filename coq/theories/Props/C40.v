(* C40 -- resources and finally-actions are released exactly once.
   Machines (Ops/Using.v, written from observable/using.py,
   operators/_finallyaction.py, operators/_do.py) run on the subscription
   runner Ops/Multi.v.  Side effects (resource created / released, finally
   action, do-callbacks with their argument) are observable trace entries.
   The discipline theorems (exactly once / never / effect balance / transparency)
   quantify over EVERY input sequence at the operator's boundary: arbitrary (also
   non-conforming) source notifications, timer firings and the dispose instant,
   any order, plus any notifications [pre] the source already delivers inside
   its own subscribe().  The closed forms of do_action / do_on_terminate are
   about a conforming source ([feed0 (events xs t)]); C40_route_* about one
   handler step.
   "Exactly once, at termination or disposal, whichever comes first" reads:
   after every prefix of the inputs the effect has happened once if a terminal
   notification was emitted or a dispose was delivered within that prefix, and
   not at all otherwise (once_timing: it never happens again later). *)
From RxVerif Require Import Base.Prelude Ops.Machine Ops.MachineFacts Ops.Multi Ops.MultiFacts
  Ops.Elementwise Ops.RaiseFacts Ops.Lift Ops.MultiCase Ops.Using Ops.UsingFacts Ops.UsingFacts2.

(* ---- using -------------------------------------------------------------- *)
Theorem C40_using_releases_resource_exactly_once : forall obf sched pre ins,
  let m := with_pre (x_using (Ok true) obf sched) pre in
  cnt_tr E_RELEASED (fst (run m ins))
  = if ended (emitted (fst (run m ins))) || has_dispose ins then 1%nat else 0%nat.
Proof. intros obf sched pre ins. exact (once_observable _ _ _ (once_with_pre _ _ _ pre (using_once obf sched) (using_calm _ _ _)) ins). Qed.
Print Assumptions C40_using_releases_resource_exactly_once.

Theorem C40_using_release_instant : forall obf sched pre a b,
  let m := with_pre (x_using (Ok true) obf sched) pre in
  exists tr', fst (run m (a ++ b)) = fst (run m a) ++ tr'
    /\ cnt_tr E_RELEASED (fst (run m a))
       = (if ended (emitted (fst (run m a))) || has_dispose a then 1%nat else 0%nat)
    /\ (ended (emitted (fst (run m a))) || has_dispose a = true -> cnt_tr E_RELEASED tr' = 0%nat).
Proof. intros obf sched pre a b. exact (once_timing _ _ _ (once_with_pre _ _ _ pre (using_once obf sched) (using_calm _ _ _)) a b). Qed.
Print Assumptions C40_using_release_instant.

(* the whole effect balance, for EVERY outcome of the two factories (rf: Ok true = a
   disposable resource, Ok false = None, Raise e = the resource factory raises;
   [has_resource rf] = true iff rf = Ok true): a resource is created exactly once iff
   the resource factory returned one, and released exactly once at the stop iff one
   was created -- never when the factory raised or returned None *)
Theorem C40_using_effect_balance : forall rf obf sched pre ins,
  let tr := fst (run (with_pre (x_using rf obf sched) pre) ins) in
  cnt_tr E_CREATED tr = (if has_resource rf then 1%nat else 0%nat) /\
  cnt_tr E_RELEASED tr
  = (if has_resource rf then if ended (emitted tr) || has_dispose ins then 1%nat else 0%nat else 0%nat).
Proof. exact using_effect_balance. Qed.
Print Assumptions C40_using_effect_balance.

(* a factory raises e ([using_failure rf obf] = Some e: the resource factory, or else
   the observable factory) and no scheduler was passed: the subscriber receives exactly
   on_error(e), inside subscribe() (tag 0), and nothing else whatever happens afterwards *)
Theorem C40_using_factory_failure_emits : forall rf obf e pre ins,
  using_failure rf obf = Some e ->
  temitted (fst (run (with_pre (x_using rf obf false) pre) ins)) = [(0%nat, Err e)].
Proof. exact using_factory_failure_emits. Qed.
Print Assumptions C40_using_factory_failure_emits.

(* ... and the same with a subscribe-time scheduler: using.py hands the factory's exception to the
   observer inside subscribe() in both cases (a throw() on that scheduler would only be queued and
   could be overtaken) *)
Theorem C40_using_factory_failure_emits_any_scheduler : forall rf obf sched e pre ins,
  using_failure rf obf = Some e ->
  temitted (fst (run (with_pre (x_using rf obf sched) pre) ins)) = [(0%nat, Err e)].
Proof.
  intros rf obf sched e pre ins H.
  assert (E : x_using rf obf sched = x_using rf obf false).
  { destruct rf as [has|e1]; [destruct obf as [u|e2]|]; cbn in H; try discriminate; reflexivity. }
  rewrite E. exact (using_factory_failure_emits rf obf e pre ins H).
Qed.
Print Assumptions C40_using_factory_failure_emits_any_scheduler.

Example C40_using_failure_hyp :
  using_failure (Ok true) (Raise 7) = Some 7 /\ using_failure (Raise 8) (Ok tt) = Some 8 /\
  has_resource (Ok true) = true /\ has_resource (Ok false) = false /\ has_resource (Raise 8) = false.
Proof. repeat split. Qed.

(* the observable factory raises: created, released and on_error all inside
   subscribe(), with or without a subscribe-time scheduler (no throw() queued on
   that scheduler) *)
Example C40_using_factory_failure_immediate :
  run_canon (x_using (Ok true) (Raise 7) false) []
  = [(0%nat, OEmit (Err 7)); (0%nat, OEffect E_CREATED); (0%nat, OEffect E_RELEASED)].
Proof. vm_compute. reflexivity. Qed.
Example C40_using_factory_failure_with_scheduler_is_immediate_too :
  run_canon (x_using (Ok true) (Raise 7) true) [(5, IDispose); (5, ITick 0%nat)]
  = [(0%nat, OEmit (Err 7)); (0%nat, OEffect E_CREATED); (0%nat, OEffect E_RELEASED)].
Proof. vm_compute. reflexivity. Qed.
Example C40_using_termination_and_disposal_same_instant :
  run_canon (x_using (Ok true) (Ok tt) false) [(5, ISrc 0%nat Done); (5, IDispose)]
  = [(0%nat, OSub 0%nat); (0%nat, OEffect E_CREATED);
     (1%nat, OEmit Done); (1%nat, OUnsub 0%nat); (1%nat, OEffect E_RELEASED)].
Proof. vm_compute. reflexivity. Qed.

Theorem C40_using_is_transparent : forall has sched pre ins,
  strip_t (fst (run (with_pre (x_using (Ok has) (Ok tt) sched) pre) ins))
  = strip_t (fst (run (with_pre x_id pre) ins)).
Proof. intros. exact (proj1 (run_sim _ _ _ (sim_with_pre _ _ _ pre (using_sim has sched)) ins)). Qed.
Print Assumptions C40_using_is_transparent.

(* ---- finally_action / do_finally / do_on_dispose -------------------------- *)
Theorem C40_finally_action_runs_exactly_once : forall pre ins,
  let m := with_pre x_finally_action pre in
  cnt_tr E_FINALLY (fst (run m ins))
  = if ended (emitted (fst (run m ins))) || has_dispose ins then 1%nat else 0%nat.
Proof. intros pre ins. exact (once_observable _ _ _ (once_with_pre _ _ _ pre finally_action_once finally_action_calm) ins). Qed.
Print Assumptions C40_finally_action_runs_exactly_once.

Theorem C40_finally_action_instant : forall pre a b,
  let m := with_pre x_finally_action pre in
  exists tr', fst (run m (a ++ b)) = fst (run m a) ++ tr'
    /\ cnt_tr E_FINALLY (fst (run m a))
       = (if ended (emitted (fst (run m a))) || has_dispose a then 1%nat else 0%nat)
    /\ (ended (emitted (fst (run m a))) || has_dispose a = true -> cnt_tr E_FINALLY tr' = 0%nat).
Proof. intros pre a b. exact (once_timing _ _ _ (once_with_pre _ _ _ pre finally_action_once finally_action_calm) a b). Qed.
Print Assumptions C40_finally_action_instant.

Theorem C40_do_finally_runs_exactly_once : forall pre ins,
  let m := with_pre x_do_finally pre in
  cnt_tr E_FINALLY (fst (run m ins))
  = if ended (emitted (fst (run m ins))) || has_dispose ins then 1%nat else 0%nat.
Proof. intros pre ins. exact (once_observable _ _ _ (once_with_pre _ _ _ pre do_finally_once do_finally_calm) ins). Qed.
Print Assumptions C40_do_finally_runs_exactly_once.

Theorem C40_do_finally_instant : forall pre a b,
  let m := with_pre x_do_finally pre in
  exists tr', fst (run m (a ++ b)) = fst (run m a) ++ tr'
    /\ cnt_tr E_FINALLY (fst (run m a))
       = (if ended (emitted (fst (run m a))) || has_dispose a then 1%nat else 0%nat)
    /\ (ended (emitted (fst (run m a))) || has_dispose a = true -> cnt_tr E_FINALLY tr' = 0%nat).
Proof. intros pre a b. exact (once_timing _ _ _ (once_with_pre _ _ _ pre do_finally_once do_finally_calm) a b). Qed.
Print Assumptions C40_do_finally_instant.

(* what the was_invoked flag is for *)
Theorem C40_do_finally_needs_its_guard :
  cnt_tr E_FINALLY (fst (run x_do_finally_unguarded [(0, ISrc 0%nat Done)])) = 2%nat.
Proof. vm_compute. reflexivity. Qed.
Print Assumptions C40_do_finally_needs_its_guard.

Theorem C40_do_on_dispose_runs_exactly_once : forall pre ins,
  let m := with_pre x_do_on_dispose pre in
  cnt_tr E_ON_DISPOSE (fst (run m ins))
  = if ended (emitted (fst (run m ins))) || has_dispose ins then 1%nat else 0%nat.
Proof. intros pre ins. exact (once_observable _ _ _ (once_with_pre _ _ _ pre do_on_dispose_once do_on_dispose_calm) ins). Qed.
Print Assumptions C40_do_on_dispose_runs_exactly_once.

Theorem C40_finalizers_are_transparent : forall pre ins,
  strip_t (fst (run (with_pre x_finally_action pre) ins)) = strip_t (fst (run (with_pre x_id pre) ins))
  /\ strip_t (fst (run (with_pre x_do_finally pre) ins)) = strip_t (fst (run (with_pre x_id pre) ins))
  /\ strip_t (fst (run (with_pre x_do_on_dispose pre) ins)) = strip_t (fst (run (with_pre x_id pre) ins)).
Proof.
  intros pre ins. repeat split.
  - exact (proj1 (run_sim _ _ _ (sim_with_pre _ _ _ pre finally_action_sim) ins)).
  - exact (proj1 (run_sim _ _ _ (sim_with_pre _ _ _ pre do_finally_sim) ins)).
  - exact (proj1 (run_sim _ _ _ (sim_with_pre _ _ _ pre do_on_dispose_sim) ins)).
Qed.
Print Assumptions C40_finalizers_are_transparent.

(* ---- do_action and variants: sequence unchanged unless a callback raises --- *)
Theorem C40_do_action_is_transparent : forall fn fe fd pre ins,
  calm1 fn -> calm1 fe -> calm0 fd ->
  strip_t (fst (run (with_pre (x_do_action fn fe fd) pre) ins)) = strip_t (fst (run (with_pre x_id pre) ins)).
Proof. intros fn fe fd pre ins H1 H2 H3. exact (proj1 (run_sim _ _ _ (sim_with_pre _ _ _ pre (do_action_sim fn fe fd H1 H2 H3)) ins)). Qed.
Print Assumptions C40_do_action_is_transparent.

Theorem C40_do_variants_are_transparent : forall f pre ins,
  (forall x, f x = Ok tt) ->
  strip_t (fst (run (with_pre (x_do_after_next f) pre) ins)) = strip_t (fst (run (with_pre x_id pre) ins))
  /\ strip_t (fst (run (with_pre (x_do_on_subscribe (Ok tt)) pre) ins)) = strip_t (fst (run (with_pre x_id pre) ins))
  /\ strip_t (fst (run (with_pre (x_do_on_terminate (Ok tt)) pre) ins)) = strip_t (fst (run (with_pre x_id pre) ins))
  /\ forall g, strip_t (fst (run (with_pre (x_do_after_terminate g) pre) ins))
               = strip_t (fst (run (with_pre x_id pre) ins)).
Proof.
  intros f pre ins Hf. repeat split.
  - exact (proj1 (run_sim _ _ _ (sim_with_pre _ _ _ pre (do_after_next_sim f Hf)) ins)).
  - exact (proj1 (run_sim _ _ _ (sim_with_pre _ _ _ pre do_on_subscribe_sim) ins)).
  - exact (proj1 (run_sim _ _ _ (sim_with_pre _ _ _ pre do_on_terminate_sim) ins)).
  - intros g. exact (proj1 (run_sim _ _ _ (sim_with_pre _ _ _ pre (do_after_terminate_sim g)) ins)).
Qed.
Print Assumptions C40_do_variants_are_transparent.

(* what "unchanged" is for a conforming source: every element at its instant,
   then the source's termination *)
Theorem C40_identity_closed_form : forall xs t,
  temitted (fst (run x_id (feed0 (events xs t)))) = nexts (indexed 1 xs) ++ tterm (S (length xs)) t.
Proof.
  intros xs t. change x_id with (x_do_action None None None).
  rewrite do_action_closed_form, (until_raise_calm None) by discriminate. destruct t; reflexivity.
Qed.
Print Assumptions C40_identity_closed_form.

(* the callbacks observe exactly the notifications delivered, in order, each at
   its instant *)
Theorem C40_do_action_observes_every_notification : forall fn fe ins,
  (forall x, fn x = Ok tt) -> (forall x, fe x = Ok tt) ->
  let tr := fst (run (x_do_action (Some fn) (Some fe) (Some (Ok tt))) ins) in
  teffs tr = map (tcode do_code) (temitted tr).
Proof. intros fn fe ins H1 H2. exact (effects_mirror_emissions _ _ (do_action_mirrors fn fe H1 H2) ins). Qed.
Print Assumptions C40_do_action_observes_every_notification.

(* raising callbacks *)
Theorem C40_do_action_raising_on_next_closed_form : forall fn xs t,
  temitted (fst (run (x_do_action (Some fn) None None) (feed0 (events xs t))))
  = nexts (fst (until_raise (tapf fn) 1 xs)) ++ close (S (length xs)) t (snd (until_raise (tapf fn) 1 xs)).
Proof. intros fn xs t. rewrite (do_action_closed_form (Some fn) None None). destruct t; reflexivity. Qed.
Print Assumptions C40_do_action_raising_on_next_closed_form.

(* do_action with ARBITRARY (possibly raising) callbacks on a conforming source, closed
   form.  [tapo fn x] = Ok x unless the on_next callback raises on x; [do_term fe fd t]
   is the source's termination as seen downstream: TErr e becomes TErr e' when the
   on_error callback raises e' on e, TDone becomes TErr e when the on_completed
   callback raises e, unchanged otherwise.  The subscriber gets the elements up to the
   first raising on_next call, then that exception -- or else all elements and the
   (possibly replaced) termination *)
Theorem C40_do_action_closed_form : forall fn fe fd xs t,
  temitted (fst (run (x_do_action fn fe fd) (feed0 (events xs t))))
  = nexts (fst (until_raise (tapo fn) 1 xs))
    ++ close (S (length xs)) (do_term fe fd t) (snd (until_raise (tapo fn) 1 xs)).
Proof. exact do_action_closed_form. Qed.
Print Assumptions C40_do_action_closed_form.

(* the exception of a raising on_error callback REPLACES the source's error *)
Theorem C40_do_error_callback_replaces : forall fn fe fd xs e e',
  calm1 fn -> fe e = Raise e' ->
  temitted (fst (run (x_do_action fn (Some fe) fd) (feed0 (events xs (TErr e)))))
  = nexts (indexed 1 xs) ++ [(S (length xs), Err e')].
Proof. exact do_error_callback_replaces. Qed.
Print Assumptions C40_do_error_callback_replaces.

(* a raising on_completed callback turns completion into on_error(its exception) *)
Theorem C40_do_completed_callback_replaces : forall fn fe xs e,
  calm1 fn ->
  temitted (fst (run (x_do_action fn fe (Some (Raise e))) (feed0 (events xs TDone))))
  = nexts (indexed 1 xs) ++ [(S (length xs), Err e)].
Proof. exact do_completed_callback_replaces. Qed.
Print Assumptions C40_do_completed_callback_replaces.

(* do_on_terminate: a raising callback turns either termination into on_error(its
   exception); a calm one changes nothing *)
Theorem C40_do_on_terminate_closed_form : forall f xs t,
  temitted (fst (run (x_do_on_terminate f) (feed0 (events xs t))))
  = nexts (indexed 1 xs)
    ++ tterm (S (length xs)) (match f, t with
                              | Raise e, TErr _ | Raise e, TDone => TErr e
                              | _, _ => t
                              end).
Proof. exact do_on_terminate_closed_form. Qed.
Print Assumptions C40_do_on_terminate_closed_form.

(* effect disciplines of the variants, on EVERY input sequence: the on_terminate /
   after_terminate callback runs once iff a terminal notification was emitted (so NOT
   at a dispose), whatever the callback does; the on_subscribe callback runs exactly once *)
Theorem C40_terminate_callbacks_run_at_terminal_only : forall f pre ins,
  let tr1 := fst (run (with_pre (x_do_on_terminate f) pre) ins) in
  let tr2 := fst (run (with_pre (x_do_after_terminate f) pre) ins) in
  cnt_tr E_TERMINATE tr1 = (if ended (emitted tr1) then 1%nat else 0%nat) /\
  cnt_tr E_AFTER_TERMINATE tr2 = (if ended (emitted tr2) then 1%nat else 0%nat).
Proof. exact terminate_callbacks_run_at_terminal. Qed.
Print Assumptions C40_terminate_callbacks_run_at_terminal_only.

Theorem C40_on_subscribe_callback_runs_once : forall f pre ins,
  cnt_tr E_SUBSCRIBE (fst (run (with_pre (x_do_on_subscribe f) pre) ins)) = 1%nat.
Proof. exact on_subscribe_runs_once. Qed.
Print Assumptions C40_on_subscribe_callback_runs_once.

(* hypotheses satisfiable: a calm on_next callback together with a raising on_error callback *)
Example C40_do_error_callback_hyp :
  calm1 (Some (fun _ : Z => Ok tt)) /\ (fun _ : Z => @Raise unit 61) 11 = Raise 61 /\
  temitted (fst (run (x_do_action (Some (fun _ => Ok tt)) (Some (fun _ => Raise 61)) None)
                     (feed0 (events [4; 5] (TErr 11)))))
  = [(1%nat, Next 4); (2%nat, Next 5); (3%nat, Err 61)].
Proof. split; [intros g x Hg; inversion Hg; reflexivity|split; [reflexivity|vm_compute; reflexivity]]. Qed.

(* routing of a raising callback, one handler step: the callback's effect is recorded, the
   subscriber gets on_error(the callback's exception) and not the notification itself -- except
   do_after_next, whose callback runs after the element has been forwarded *)
Theorem C40_route_do_on_next : forall fn fe fd s now k x e, fn x = Raise e ->
  x_step (x_do_action (Some fn) fe fd) s now (ISrc k (Next x)) = (s, [CEffect (e_do_next x)], Fail e).
Proof. intros fn fe fd s now k x e Hf. cbn [x_step x_do_action]. now rewrite Hf. Qed.
Theorem C40_route_do_on_error : forall fn fe fd s now k x e, fe x = Raise e ->
  x_step (x_do_action fn (Some fe) fd) s now (ISrc k (Err x)) = (s, [CEffect (e_do_err x)], Fail e).
Proof. intros fn fe fd s now k x e Hf. cbn [x_step x_do_action]. now rewrite Hf. Qed.
Theorem C40_route_do_on_completed : forall fn fe s now k e,
  x_step (x_do_action fn fe (Some (Raise e))) s now (ISrc k Done) = (s, [CEffect E_DO_DONE], Fail e).
Proof. reflexivity. Qed.
Theorem C40_route_do_after_next : forall f s now k x e, f x = Raise e ->
  x_step (x_do_after_next f) s now (ISrc k (Next x)) = (s, [CEmit x; CEffect (e_after_next x)], Fail e).
Proof. intros f s now k x e Hf. cbn [x_step x_do_after_next]. now rewrite Hf. Qed.
Print Assumptions C40_route_do_on_next.
Print Assumptions C40_route_do_on_error.
Print Assumptions C40_route_do_on_completed.
Print Assumptions C40_route_do_after_next.

Example C40_do_action_error_callback_replaces_error :
  run_canon (x_do_action None (Some (fun _ => Raise 61)) None) [(0, ISrc 0%nat (Next 4)); (5, ISrc 0%nat (Err 11))]
  = [(0%nat, OSub 0%nat); (1%nat, OEmit (Next 4)); (2%nat, OEmit (Err 61)); (2%nat, OUnsub 0%nat);
     (2%nat, OEffect (e_do_err 11))].
Proof. vm_compute. reflexivity. Qed.
Example C40_cold_source_completes_inside_subscribe :
  run_canon (with_pre x_do_finally [Next 1; Done; Next 2]) [(3, IDispose)]
  = [(0%nat, OEmit (Next 1)); (0%nat, OEmit Done); (0%nat, OSub 0%nat); (0%nat, OUnsub 0%nat);
     (0%nat, OEffect E_FINALLY)].
Proof. vm_compute. reflexivity. Qed.

(* a source that keeps notifying inside its subscribe() after a callback has
   failed: the callback still runs (effects 102, 103), nothing more is delivered *)
Example C40_synchronous_source_after_callback_failure :
  run_canon (with_pre (x_do_action (Some (fun x => if x =? 2 then Raise 61 else Ok tt)) None None)
                      [Next 1; Next 2; Next 3; Done]) []
  = [(0%nat, OEmit (Next 1)); (0%nat, OEmit (Err 61)); (0%nat, OSub 0%nat); (0%nat, OUnsub 0%nat);
     (0%nat, OEffect 101); (0%nat, OEffect 102); (0%nat, OEffect 103)].
Proof. vm_compute. reflexivity. Qed.

(* WHAT THE MODEL DOES NOT SAY.  Within one instant the runner lists the handler's
   commands (side effects included) before the terminal notification it then emits:
   in the RAW model trace the finally action precedes on_completed of the same step.
   The property says the action runs AFTER termination: that order, inside the
   stopping instant, is NOT a statement of the theorems above (they count effects and
   place them at the stopping instant); the correspondence compares each instant as
   (emissions in order, then the set of other events), and the order is judged by the
   oracle (harness/props/C40.py once_after_stop) on the implementation's own log. *)
Example C40_raw_order_within_the_stopping_instant :
  fst (run x_finally_action [(0, ISrc 0%nat Done)])
  = [(0%nat, OSub 0%nat); (1%nat, OEffect E_FINALLY); (1%nat, OUnsub 0%nat); (1%nat, OEmit Done)].
Proof. vm_compute. reflexivity. Qed.
